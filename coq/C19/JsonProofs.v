(* The string parser of the specification (JsonSpec.v) reads QuoteForJSON's output, and an
   escaped final path, back as exactly the UTF-16 units of the Go string. *)
From V Require Import Common.Base C01.Utf C01.Quote C19.Json C19.JsonSpec.

Definition bytes_ok (s : bytes) : Prop := Forall (fun b => 0 <= b <= 255) s.

Definition bytes_okb (s : bytes) : bool := forallb (fun c => (0 <=? c) && (c <=? 255)) s.

Lemma bytes_okb_ok s : bytes_okb s = true -> bytes_ok s.
Proof.
  intro H. apply Forall_forall. intros c Hc. apply (proj1 (forallb_forall _ _) H) in Hc. lia.
Qed.

(* case analysis on the first test of the goal that contains no other test *)
Ltac if_inner :=
  match goal with
  | |- context [if ?b then _ else _] =>
    lazymatch b with
    | context [if _ then _ else _] => fail
    | _ => destruct b eqn:?
    end
  end.

(* the same test decided by linear arithmetic; unlike a case analysis this
   leaves no equation behind, so the context of the next call stays small *)
Ltac if_lia :=
  match goal with
  | |- context [if ?b then _ else _] =>
    lazymatch b with
    | context [if _ then _ else _] => fail
    | _ => first [replace b with true by lia | replace b with false by lia]
    end
  end.

(* [reads_as o u]: in the middle of a string, the bytes [o] are read as the
   units [u], in k iterations of jstr.  [body_reads body u]: up to the closing
   quotation mark, [body] is read as [u]. *)

Definition reads_as (o : bytes) (u : list Z) : Prop :=
  exists k, (1 <= k <= length o)%nat /\
    forall F tl, jstr (k + F) (o ++ tl) = prepend u (jstr F tl).

Definition body_reads (body : bytes) (u : list Z) : Prop :=
  forall F rest, (length body < F)%nat -> jstr F (body ++ 34 :: rest) = Some (u, rest).

Lemma reads_one o u : o <> [] ->
  (forall F tl, jstr (S F) (o ++ tl) = prepend u (jstr F tl)) -> reads_as o u.
Proof.
  intros Ho H. exists 1%nat. split; [|exact H]. destruct o; [congruence|cbn [length]; lia].
Qed.

Lemma reads_app o1 u1 o2 u2 : reads_as o1 u1 -> reads_as o2 u2 -> reads_as (o1 ++ o2) (u1 ++ u2).
Proof.
  intros (k1 & L1 & H1) (k2 & L2 & H2). exists (k1 + k2)%nat. split; [rewrite app_length; lia|].
  intros F tl. rewrite <- !Nat.add_assoc, <- app_assoc, H1, H2.
  destruct (jstr F tl) as [[u r]|]; [cbn [prepend]; rewrite app_assoc|]; reflexivity.
Qed.

Lemma body_reads_nil : body_reads [] [].
Proof. intros F rest HF. destruct F; [inversion HF|reflexivity]. Qed.

Lemma body_reads_app o u body x : reads_as o u -> body_reads body x -> body_reads (o ++ body) (u ++ x).
Proof.
  intros (k & Hk & Ho) Hb F rest HF. rewrite app_length in HF.
  replace F with (k + (F - k))%nat by lia. rewrite <- app_assoc, Ho, Hb by lia. reflexivity.
Qed.

Lemma reads_simple e u : e <> 117 -> simple_esc e = Some u -> reads_as [92; e] [u].
Proof.
  intros Hne Hs. apply reads_one; [discriminate|]. intros F tl. cbn [app jstr Z.eqb Pos.eqb].
  destruct (e =? 117) eqn:E; [lia|]. rewrite Hs. reflexivity.
Qed.

Lemma reads_u4 h1 h2 h3 h4 a b c d :
  hexval h1 = Some a -> hexval h2 = Some b -> hexval h3 = Some c -> hexval h4 = Some d ->
  reads_as [92; 117; h1; h2; h3; h4] [((a * 16 + b) * 16 + c) * 16 + d].
Proof.
  intros H1 H2 H3 H4. apply reads_one; [discriminate|]. intros F tl. cbn [app jstr Z.eqb Pos.eqb].
  rewrite H1, H2, H3, H4. reflexivity.
Qed.

(* both of esbuild's digit tables: upper case (hexc) and lower case (hexl) *)
Lemma hexval_digit d h : 0 <= d < 16 ->
  (d < 10 /\ h = 48 + d) \/ (10 <= d /\ (h = 55 + d \/ h = 87 + d)) -> hexval h = Some d.
Proof.
  intros Hd Hh. unfold hexval. repeat if_inner; try (f_equal; lia).
Qed.

Lemma hexval_hexc d : 0 <= d < 16 -> hexval (hexc d) = Some d.
Proof. intro H. apply hexval_digit; [exact H|]. unfold hexc. destruct (d <? 10) eqn:E; lia. Qed.

Lemma hexval_hexl d : 0 <= d < 16 -> hexval (hexl d) = Some d.
Proof. intro H. apply hexval_digit; [exact H|]. unfold hexl. destruct (d <? 10) eqn:E; lia. Qed.

Lemma reads_esc_u4 c : 0 <= c <= 65535 -> reads_as (esc_u4 c) [c].
Proof.
  intro H. unfold esc_u4.
  replace c with (((c / 4096 * 16 + c / 256 mod 16) * 16 + c / 16 mod 16) * 16 + c mod 16) at 5 by lia.
  apply reads_u4; apply hexval_hexc; lia.
Qed.

Lemma reads_esc_low c : 0 <= c < 32 ->
  reads_as [92; 117; 48; 48; hexl (c / 16); hexl (c mod 16)] [c].
Proof.
  intro H. replace c with (((0 * 16 + 0) * 16 + c / 16) * 16 + c mod 16) at 3 by lia.
  apply reads_u4; try reflexivity; apply hexval_hexl; lia.
Qed.

Lemma rune_units_u16 c : 0 <= c <= 1114111 -> rune_units c = u16 c.
Proof.
  intro H. unfold rune_units, u16.
  destruct (c <=? 65535) eqn:E1; destruct (c <? 65536) eqn:E2; try lia; [reflexivity|].
  f_equal. rewrite Z.mod_small by lia. reflexivity.
Qed.

(* [useq b0 o cp]: the bytes b0 :: o are the UTF-8 encoding of the scalar value
   cp (RFC 3629 section 4: shortest form, no surrogates, at most U+10FFFF; in
   the four-byte case b0 <= 244 follows from the bound on cp).
   Both decoders are computed on such a sequence, and each is inverted to one. *)

Definition useq (b0 : Z) (o : bytes) (cp : Z) : Prop :=
  match o with
  | [] => 0 <= b0 <= 127 /\ cp = b0
  | [b1] => 194 <= b0 <= 223 /\ 128 <= b1 <= 191 /\ cp = (b0 - 192) * 64 + (b1 - 128)
  | [b1; b2] =>
    224 <= b0 <= 239 /\ 128 <= b1 <= 191 /\ 128 <= b2 <= 191 /\
    cp = (b0 - 224) * 4096 + (b1 - 128) * 64 + (b2 - 128) /\
    2048 <= cp /\ ~ 55296 <= cp <= 57343
  | [b1; b2; b3] =>
    240 <= b0 <= 247 /\ 128 <= b1 <= 191 /\ 128 <= b2 <= 191 /\ 128 <= b3 <= 191 /\
    cp = (b0 - 240) * 262144 + (b1 - 128) * 4096 + (b2 - 128) * 64 + (b3 - 128) /\
    65536 <= cp <= 1114111
  | _ => False
  end.

Lemma useq_cases b0 o cp : useq b0 o cp ->
  0 <= cp <= 1114111 /\
  ((o = [] /\ cp = b0 /\ b0 < 128) \/ (128 <= b0 /\ Forall (fun x => 128 <= x) o /\ 128 <= cp)).
Proof.
  destruct o as [|b1 [|b2 [|b3 [|]]]]; cbn [useq]; intro H; [| | | |destruct H].
  all: split; [lia|].
  1: left; repeat split; lia.
  all: right; repeat constructor; lia.
Qed.

Lemma useq_utf8_dec b0 o cp tl : useq b0 o cp -> utf8_dec (b0 :: o ++ tl) = Some (cp, tl).
Proof.
  destruct o as [|b1 [|b2 [|b3 [|]]]]; cbn [useq]; intro H; [| | | |destruct H].
  all: decompose [and] H; subst cp; cbn [app utf8_dec]; unfold utail.
  all: repeat first [if_lia | if_inner]; reflexivity.
Qed.

Lemma useq_decode b0 o cp tl : useq b0 o cp ->
  DecodeWTF8Rune (b0 :: o ++ tl) = (cp, Z.of_nat (S (length o))).
Proof.
  destruct o as [|b1 [|b2 [|b3 [|]]]]; cbn [useq]; intro H; [| | | |destruct H].
  all: decompose [and] H; subst cp.
  all: unfold DecodeWTF8Rune, cont, RuneError; cbv zeta; cbn [app length].
  all: repeat (if_lia; cbn [Z.eqb Pos.eqb]); reflexivity.
Qed.

Lemma utf8_dec_useq b0 t cp r : utf8_dec (b0 :: t) = Some (cp, r) ->
  exists o, t = o ++ r /\ useq b0 o cp.
Proof.
  intro H. cbn [utf8_dec] in H. unfold utail in H.
  destruct ((0 <=? b0) && (b0 <=? 127)) eqn:E1.
  { inversion H; subst. exists []. cbn [useq]. split; [reflexivity|lia]. }
  destruct ((194 <=? b0) && (b0 <=? 223)) eqn:E2.
  { destruct t as [|b1 t1]; [discriminate|].
    destruct ((128 <=? b1) && (b1 <=? 191)) eqn:C; inversion H; subst.
    exists [b1]. cbn [useq]. split; [reflexivity|lia]. }
  destruct ((224 <=? b0) && (b0 <=? 239)) eqn:E3.
  { destruct t as [|b1 [|b2 t2]]; try discriminate. cbv zeta in H.
    match type of H with (if ?c then _ else _) = _ => destruct c eqn:C end; inversion H; subst.
    exists [b1; b2]. cbn [useq]. split; [reflexivity|].
    destruct (b0 =? 224) eqn:Ea; destruct (b0 =? 237) eqn:Eb; lia. }
  destruct ((240 <=? b0) && (b0 <=? 244)) eqn:E4; [|discriminate].
  destruct t as [|b1 [|b2 [|b3 t3]]]; try discriminate. cbv zeta in H.
  match type of H with (if ?c then _ else _) = _ => destruct c eqn:C end; inversion H; subst.
  exists [b1; b2; b3]. cbn [useq]. split; [reflexivity|].
  destruct (b0 =? 240) eqn:Ea; destruct (b0 =? 244) eqn:Eb; lia.
Qed.

Lemma reads_useq b0 o cp : useq b0 o cp -> cp <> 34 -> cp <> 92 -> 32 <= cp ->
  reads_as (b0 :: o) (rune_units cp).
Proof.
  intros U H1 H2 H3. apply reads_one; [discriminate|]. intros F tl.
  destruct (useq_cases _ _ _ U) as [Hcp Hb0]. cbn [app jstr].
  destruct (b0 =? 34) eqn:E1; [lia|]. destruct (b0 =? 92) eqn:E2; [lia|].
  rewrite (useq_utf8_dec _ _ _ tl U). destruct (cp <? 32) eqn:E3; [lia|].
  rewrite rune_units_u16 by lia. reflexivity.
Qed.

(* the shapes DecodeWTF8Rune can return on bytes *)
Inductive dshape (b0 : Z) (t : bytes) (c w : Z) : Prop :=
| D1 : w = 1 -> c = b0 -> b0 < 128 -> dshape b0 t c w
| DE : w = 1 -> c = 65533 -> 128 <= b0 -> dshape b0 t c w
| D2 b1 t1 : w = 2 -> t = b1 :: t1 -> 194 <= b0 <= 223 -> 128 <= b1 <= 191 ->
             c = (b0 - 192) * 64 + (b1 - 128) -> dshape b0 t c w
| D3 b1 b2 t2 : w = 3 -> t = b1 :: b2 :: t2 -> 224 <= b0 <= 239 -> 128 <= b1 <= 191 -> 128 <= b2 <= 191 ->
             c = (b0 - 224) * 4096 + (b1 - 128) * 64 + (b2 - 128) -> 2048 <= c -> dshape b0 t c w
| D4 b1 b2 b3 t3 : w = 4 -> t = b1 :: b2 :: b3 :: t3 -> 240 <= b0 <= 247 ->
             128 <= b1 <= 191 -> 128 <= b2 <= 191 -> 128 <= b3 <= 191 ->
             c = (b0 - 240) * 262144 + (b1 - 128) * 4096 + (b2 - 128) * 64 + (b3 - 128) ->
             65536 <= c <= 1114111 -> dshape b0 t c w.

Lemma decode_shape b0 t c w : 0 <= b0 <= 255 ->
  DecodeWTF8Rune (b0 :: t) = (c, w) -> dshape b0 t c w.
Proof.
  intros Hb H. cut (dshape b0 t (fst (c, w)) (snd (c, w))); [exact id|]. rewrite <- H. clear H.
  unfold DecodeWTF8Rune, cont. cbv zeta.
  destruct (b0 <? 128) eqn:E0; [apply D1; cbn [fst snd]; lia|].
  (* every other path through the decoder ends in the error result or in one
     of the three multi-byte results *)
  assert (HE : dshape b0 t (fst (RuneError, 1)) (snd (RuneError, 1))) by (apply DE; cbn [fst snd]; unfold RuneError; lia).
  destruct t as [|b1 [|b2 [|b3 t3]]]; cbn [length].
  all: repeat (if_inner; cbn [Z.eqb Pos.eqb]); try exact HE; cbn [fst snd].
  all: first [ eapply D2; [reflexivity..|lia|lia|lia]
             | eapply D3; [reflexivity..|lia|lia|lia|lia|lia]
             | eapply D4; [reflexivity..|lia|lia|lia|lia|lia|lia] ].
Qed.

Lemma dshape_width b0 t c w : dshape b0 t c w -> 1 <= w <= Z.of_nat (length (b0 :: t)) /\ 0 <= c \/ b0 < 0.
Proof.
  intros [ | | b1 t1 | b1 b2 t2 | b1 b2 b3 t3]; intros; subst; cbn [length]; lia.
Qed.

(* a rune that is neither a surrogate nor the mark of an invalid byte was
   decoded from a well-formed UTF-8 sequence *)
Lemma dshape_useq b0 t c w : 0 <= b0 -> dshape b0 t c w ->
  ~ 55296 <= c <= 57343 -> ~ (c = 65533 /\ w = 1) ->
  exists o, firstn (Z.to_nat w) (b0 :: t) = b0 :: o /\ useq b0 o c.
Proof.
  intros Hb D Hs Hv.
  destruct D as [ | | b1 t1 | b1 b2 t2 | b1 b2 b3 t3]; subst; try lia.
  1: exists [].
  2: exists [b1].
  3: exists [b1; b2].
  4: exists [b1; b2; b3].
  all: split; [reflexivity|cbn [useq]; lia].
Qed.

(* one iteration of the quoting loop is read back by the spec parser *)
Lemma step_ok ascii b0 t c w o n : 0 <= b0 <= 255 ->
  DecodeWTF8Rune (b0 :: t) = (c, w) ->
  quote_step ascii (b0 :: t) = (o, n) ->
  n = Z.to_nat w /\ (1 <= n <= length (b0 :: t))%nat /\ reads_as o (rune_units c).
Proof.
  intros Hb Hd Hq. pose proof (decode_shape _ _ _ _ Hb Hd) as D.
  unfold quote_step in Hq. rewrite Hd in Hq.
  assert (W : 1 <= w <= Z.of_nat (length (b0 :: t)) /\ 0 <= c <= 1114111 /\ (c < 128 -> w = 1))
    by (destruct D; subst; cbn [length]; lia).
  destruct (can_print c ascii && negb (is_invalid_byte c w)) eqn:Epi.
  - (* copied as it is *)
    assert (P : 32 <= c /\ c <> 92 /\ c <> 34 /\ ~ 55296 <= c <= 57343 /\ ~ (c = 65533 /\ w = 1))
      by (revert Epi; unfold can_print, is_invalid_byte; destruct (c <=? 126) eqn:E; lia).
    inversion Hq; subst o n.
    destruct (dshape_useq b0 t c w ltac:(lia) D) as (o & -> & U); [lia..|].
    repeat split; try lia. apply reads_useq; [exact U|lia..].
  - clear Hb Hd D Epi. revert Hq. repeat if_inner; intros [= <- <-]; (repeat split; [lia..|]).
    (* the two-character escape \e written for c is the grammar's: simple_esc e = Some c *)
    1-7: unfold rune_units; replace (c <=? 65535) with true by lia;
         apply reads_simple; [lia|cbn; f_equal; lia].
    (* \uXXXX, a surrogate pair above U+FFFF *)
    unfold esc_json, rune_units. destruct (c <=? 65535) eqn:E.
    + apply reads_esc_u4. lia.
    + apply (reads_app _ [_] _ [_]); apply reads_esc_u4; lia.
Qed.

Lemma bytes_ok_skipn n s : bytes_ok s -> bytes_ok (skipn n s).
Proof.
  unfold bytes_ok. revert s. induction n as [|n IH]; intros s H; [exact H|].
  destruct s as [|x s]; [constructor|]. cbn [skipn]. apply IH. inversion H; assumption.
Qed.

Lemma quote_body_reads ascii : forall fuel s, bytes_ok s -> (length s <= fuel)%nat ->
  body_reads (quote_body fuel ascii s) (str_units fuel s).
Proof.
  induction fuel as [|f IH]; intros s Hb Hl; [destruct s; [apply body_reads_nil|cbn in Hl; lia]|].
  destruct s as [|b0 t]; [apply body_reads_nil|].
  cbn [quote_body str_units].
  destruct (DecodeWTF8Rune (b0 :: t)) as [c w] eqn:Hd.
  destruct (quote_step ascii (b0 :: t)) as [o n] eqn:Hq.
  destruct (step_ok ascii b0 t c w o n ltac:(inversion Hb; assumption) Hd Hq) as (-> & Hn & Ho).
  apply body_reads_app; [exact Ho|].
  apply IH; [apply bytes_ok_skipn, Hb|rewrite skipn_length; lia].
Qed.

Lemma json_quote_roundtrip_all ascii s rest :
  bytes_ok s ->
  jstring (quote_for_json ascii s ++ rest) = Some (units s, rest).
Proof.
  intros Hb. unfold quote_for_json, jstring, units. cbn [app Z.eqb Pos.eqb]. rewrite <- app_assoc.
  apply quote_body_reads; [exact Hb|lia|rewrite app_length; lia].
Qed.

(* escapeFinalPath: a well-formed UTF-8 path written between quotation marks after
   escaping is read back as exactly the path.  [utf8_valid] is that well-formedness,
   by the specification's own decoder. *)

Fixpoint utf8_valid (fuel : nat) (s : bytes) : bool :=
  match s with
  | [] => true
  | _ =>
    match fuel with
    | O => false
    | S f => match utf8_dec s with Some (_, r) => utf8_valid f r | None => false end
    end
  end.

Lemma escape_final_app a c : escape_final (a ++ c) = escape_final a ++ escape_final c.
Proof. unfold escape_final. apply flat_map_app. Qed.

Lemma escape_high o : Forall (fun x => 128 <= x) o -> escape_final o = o.
Proof.
  induction 1 as [|x o Hx Ho IH]; [reflexivity|].
  change (escape_final (x :: o)) with (esc_final_byte x ++ escape_final o). rewrite IH.
  unfold esc_final_byte.
  destruct ((x =? 34) || (x =? 92)) eqn:E; [lia|]. destruct (32 <=? x) eqn:E2; [reflexivity|lia].
Qed.

Lemma escape_final_seq b0 o cp : useq b0 o cp -> reads_as (escape_final (b0 :: o)) (rune_units cp).
Proof.
  intro U. destruct (useq_cases _ _ _ U) as [Hcp [(-> & -> & Hlt)|(Hge & Ho & Hcpge)]].
  - change (escape_final [b0]) with (esc_final_byte b0 ++ []). rewrite app_nil_r.
    assert (Hu : rune_units b0 = [b0]) by (unfold rune_units; destruct (b0 <=? 65535) eqn:E; [reflexivity|lia]).
    unfold esc_final_byte.
    destruct ((b0 =? 34) || (b0 =? 92)) eqn:Eq; [|destruct (32 <=? b0) eqn:E32].
    + rewrite Hu. apply reads_simple; [lia|]. unfold simple_esc.
      destruct (b0 =? 34) eqn:E; [f_equal; lia|]. destruct (b0 =? 92) eqn:E'; [f_equal; lia|lia].
    + apply (reads_useq b0 [] b0 U); lia.
    + rewrite Hu. apply reads_esc_low. lia.
  - rewrite (escape_high (b0 :: o)) by (constructor; assumption).
    apply (reads_useq b0 o cp U); lia.
Qed.

Lemma escape_final_reads : forall n s, (length s <= n)%nat -> utf8_valid n s = true ->
  body_reads (escape_final s) (str_units n s).
Proof.
  induction n as [|n IH]; intros s Hl Hv; [destruct s; [apply body_reads_nil|cbn in Hl; lia]|].
  destruct s as [|b0 t]; [apply body_reads_nil|].
  cbn [utf8_valid] in Hv.
  destruct (utf8_dec (b0 :: t)) as [[cp r]|] eqn:Hd; [|discriminate].
  destruct (utf8_dec_useq b0 t cp r Hd) as (o & -> & U).
  cbn [str_units]. rewrite (useq_decode b0 o cp r U), Nat2Z.id.
  replace (skipn (S (length o)) (b0 :: o ++ r)) with r
    by (cbn [skipn]; rewrite skipn_app, skipn_all, Nat.sub_diag; reflexivity).
  change (b0 :: o ++ r) with ((b0 :: o) ++ r). rewrite escape_final_app.
  apply body_reads_app; [apply escape_final_seq, U|].
  apply IH; [cbn [length] in Hl; rewrite app_length in Hl; lia|exact Hv].
Qed.

Lemma final_path_read p rest : utf8_valid (length p) p = true ->
  jstring (34 :: escape_final p ++ 34 :: rest) = Some (units p, rest).
Proof.
  intros Hv. unfold jstring, units. cbn [Z.eqb Pos.eqb].
  apply escape_final_reads; [lia|exact Hv|rewrite app_length; lia].
Qed.
