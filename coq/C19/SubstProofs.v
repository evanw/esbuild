(* Path substitution inside the JSON pieces: a text with unique keys at known places is
   split by breakOutputIntoPieces exactly at those places (when the prefix occurs nowhere
   else), so substituteFinalPaths yields the same text with the final paths at those
   places. *)
From V Require Export C18.CleanProofs.
From V Require Import Common.Base C01.Utf C01.Quote C18.Pieces C18.PiecesProofs
  C19.Json C19.JsonSpec C19.JsonProofs C19.Layout C19.LayoutProofs.

Inductive frag := FL (s : bytes) | FR (k i : Z).

Definition fbytes (rf : Z -> Z -> bytes) (f : frag) : bytes :=
  match f with FL s => s | FR k i => rf k i end.
Definition flat (rf : Z -> Z -> bytes) (fs : list frag) : bytes := concat (map (fbytes rf) fs).

Lemma flat_app rf a c : flat rf (a ++ c) = flat rf a ++ flat rf c.
Proof. unfold flat. rewrite map_app, concat_app. reflexivity. Qed.

Lemma flat_cons rf s fs : flat rf (FL s :: fs) = s ++ flat rf fs.
Proof. reflexivity. Qed.

Fixpoint fcommas (l : list (list frag)) : list frag :=
  match l with
  | [] => []
  | x :: r => match r with [] => x | _ => x ++ FL [44] :: fcommas r end
  end.

Definition frags_ls (ascii : bool) (x : ls) : list frag :=
  match x with
  | SQ s => [FL (quote_for_json ascii s)]
  | SR s => [FL (34 :: s ++ [34])]
  | SF k i => [FL [34]; FR k i; FL [34]]
  end.

(* the text of a tree as literal fragments and key places *)
Fixpoint frags (ascii : bool) (t : lj) : list frag :=
  match t with
  | LObj ms cw =>
    FL [123] :: fcommas (map (fun m => let '(w1, k, w2, v) := m in
                                       FL w1 :: frags_ls ascii k ++ FL (58 :: w2) :: frags ascii v) ms)
    ++ [FL (cw ++ [125])]
  | LArr es cw =>
    FL [91] :: fcommas (map (fun e => FL (fst e) :: frags ascii (snd e)) es) ++ [FL (cw ++ [93])]
  | LS x => frags_ls ascii x
  | LNum n => [FL (dec n)]
  | LTrue => [FL lit_true_bytes]
  end.

Lemma flat_fcommas {A} rf (F : A -> list frag) (G : A -> bytes) : forall l,
  (forall x, In x l -> flat rf (F x) = G x) ->
  flat rf (fcommas (map F l)) = commas (map G l).
Proof.
  induction l as [|x l IH]; intro H; [reflexivity|].
  pose proof (H x (or_introl eq_refl)) as Hx.
  specialize (IH (fun y Hy => H y (or_intror Hy))).
  destruct l as [|y l]; [cbn [map fcommas commas]; exact Hx|].
  cbn [map] in *. rewrite commas_cons2.
  change (fcommas (F x :: F y :: map F l)) with (F x ++ FL [44] :: fcommas (F y :: map F l)).
  rewrite flat_app, flat_cons, Hx, IH. reflexivity.
Qed.

Lemma list_sum_in' (l : list nat) x : In x l -> (x <= list_sum l)%nat.
Proof.
  unfold list_sum. induction l as [|y l IH]; intro H; [destruct H|]. cbn [fold_right].
  destruct H as [->|H]; [lia|]. specialize (IH H). lia.
Qed.

Lemma flat_frags ascii rf rq : (forall k i, rq k i = 34 :: rf k i ++ [34]) ->
  forall t, flat rf (frags ascii t) = render ascii rq t.
Proof.
  intro Hrq.
  assert (Hls : forall x, flat rf (frags_ls ascii x) = render_ls ascii rq x).
  { intros [s|s|k i]; cbn [frags_ls render_ls]; unfold flat; cbn [map fbytes concat];
      rewrite ?app_nil_r; try reflexivity. rewrite Hrq. reflexivity. }
  induction t as [ms cw IH|es cw IH|x|k|] using lj_nested_ind; cbn [frags render].
  - rewrite flat_cons, flat_app, flat_cons, app_nil_r. cbn [app]. do 2 f_equal.
    apply flat_fcommas. rewrite Forall_forall in IH. intros [[[w1 k] w2] v] Hin.
    specialize (IH _ Hin). cbn [snd] in IH. rewrite flat_cons, flat_app, flat_cons, Hls, IH. reflexivity.
  - rewrite flat_cons, flat_app, flat_cons, app_nil_r. cbn [app]. do 2 f_equal.
    apply flat_fcommas. rewrite Forall_forall in IH. intros e Hin.
    rewrite flat_cons, (IH _ Hin). reflexivity.
  - apply Hls.
  - apply app_nil_r.
  - apply app_nil_r.
Qed.

(* the pieces the text of fs should be split into: literal bytes run up to the next key place *)
Fixpoint pof (acc : bytes) (fs : list frag) : list piece :=
  match fs with
  | [] => [mkPiece acc 0 0]
  | FL s :: r => pof (acc ++ s) r
  | FR k i :: r => mkPiece acc i k :: pof [] r
  end.

Definition refs_ok (fs : list frag) : Prop := forall k i, In (FR k i) fs -> is_ref k = true.

Lemma subst_pof pathOf : forall fs acc, refs_ok fs ->
  substitute pathOf (pof acc fs) = acc ++ flat pathOf fs.
Proof.
  induction fs as [|f fs IH]; intros acc Hr.
  - cbn. rewrite !app_nil_r. reflexivity.
  - assert (Hr' : refs_ok fs) by (intros k i Hin; apply (Hr k i); right; exact Hin).
    destruct f as [s|k i]; cbn [pof].
    + rewrite IH by exact Hr'. rewrite flat_cons. symmetry. apply app_assoc.
    + cbn [substitute pdata pkind pidx]. rewrite (Hr k i (or_introl eq_refl)).
      rewrite IH by exact Hr'. reflexivity.
Qed.

Lemma join_as_substitute prefix ps : join_with_keys prefix ps = substitute (key_bytes prefix) ps.
Proof. induction ps as [|p r IH]; [reflexivity|]. cbn [join_with_keys substitute]. rewrite IH. reflexivity. Qed.

Lemma join_pof prefix fs acc : refs_ok fs ->
  join_with_keys prefix (pof acc fs) = acc ++ flat (key_bytes prefix) fs.
Proof. rewrite join_as_substitute. apply subst_pof. Qed.

(* [clean ps]: the only occurrences of the prefix in the text of ps are its keys; then
   splitting the text gives ps back ([break_clean], both in C18/CleanProofs.v) *)

Lemma break_joiner_of_output prefix nf nc pathOf out ps :
  break_output prefix nf nc out = Some ps ->
  exists o, break_joiner prefix nf nc out = Some o /\ substitute_out pathOf o out = substitute pathOf ps.
Proof.
  intro H. unfold break_joiner. destruct (occurs prefix out) eqn:Eo.
  - rewrite H. eexists; split; reflexivity.
  - exists None. split; [reflexivity|]. cbn [substitute_out].
    unfold break_output in H. cbn [break_pieces] in H. unfold occurs in Eo.
    destruct (index_of prefix out); [discriminate|]. inversion H; subst ps.
    cbn. rewrite !app_nil_r. reflexivity.
Qed.

(* substituteFinalPaths(breakJoinerIntoPieces(text with keys)) = text with paths *)
Lemma substitute_text prefix nf nc pathOf fs :
  refs_ok fs -> clean prefix nf nc (pof [] fs) ->
  exists o, break_joiner prefix nf nc (flat (key_bytes prefix) fs) = Some o /\
            substitute_out pathOf o (flat (key_bytes prefix) fs) = flat pathOf fs.
Proof.
  intros Hr Hc.
  pose proof (join_pof prefix fs [] Hr) as Hj. cbn [app] in Hj.
  assert (Hb : break_output prefix nf nc (flat (key_bytes prefix) fs) = Some (pof [] fs)).
  { unfold break_output. rewrite <- Hj. apply break_clean; [exact Hc|lia]. }
  destruct (break_joiner_of_output prefix nf nc pathOf _ _ Hb) as (o & Ho & Hs).
  exists o. split; [exact Ho|]. rewrite Hs. rewrite (subst_pof pathOf fs [] Hr). reflexivity.
Qed.

(* QuoteForJSON leaves a unique key as it is (the prefix is base64url text) *)
Definition plain (c : Z) : bool := (32 <=? c) && (c <=? 126) && negb (c =? 34) && negb (c =? 92).

Lemma quote_plain ascii : forall n s, (length s <= n)%nat -> forallb plain s = true ->
  quote_body n ascii s = s.
Proof.
  induction n as [|n IH]; intros s Hl Hp; [destruct s; [reflexivity|cbn in Hl; lia]|].
  destruct s as [|c s]; [reflexivity|].
  cbn [forallb] in Hp. apply andb_true_iff in Hp as [Hc Hp]. unfold plain in Hc.
  cbn [quote_body]. unfold quote_step. cbn [DecodeWTF8Rune].
  destruct (c <? 128) eqn:E; [|lia].
  unfold can_print. destruct (c <=? 126) eqn:E1; [|lia].
  destruct ((32 <=? c) && negb (c =? 92) && negb (c =? 34)) eqn:E2; [|lia].
  unfold is_invalid_byte. destruct ((c =? 65533) && (1 <=? 1)) eqn:E3; [lia|]. cbn [negb andb].
  change (Z.to_nat 1) with 1%nat. cbn [firstn skipn app]. rewrite IH; [reflexivity|cbn [length] in Hl; lia|exact Hp].
Qed.

Lemma digits_plain n : forall v, forallb plain (digits_n n v) = true.
Proof.
  induction n as [|n IH]; intro v; [reflexivity|]. cbn [digits_n]. rewrite forallb_app, IH.
  cbn [forallb]. unfold plain. lia.
Qed.

Lemma key_quoted ascii prefix k i : forallb plain prefix = true ->
  quote_for_json ascii (key_bytes prefix k i) = 34 :: key_bytes prefix k i ++ [34].
Proof.
  intro Hp. unfold quote_for_json. rewrite quote_plain; [reflexivity|lia|].
  unfold key_bytes. rewrite forallb_app, Hp. cbn [forallb]. rewrite digits_plain.
  unfold byte_of_kind, plain. destruct (k =? 1); reflexivity.
Qed.
