(* Every text written as a tree of Layout.v is accepted by the RFC 8259 parser of
   JsonSpec.v, and parses back to the value it was written from: the text lexes to the
   tokens of its value ([lex_render_all]), and those parse to the value ([pvalue_toks]). *)
From V Require Import Common.Base C01.Utf C01.Quote C19.Json C19.JsonSpec C19.JsonProofs C19.Layout.

Definition all_ws (w : bytes) : bool := forallb is_ws w.

(* a string that may stand between quotation marks as it is *)
Definition raw_ok (s : bytes) : Prop :=
  bytes_ok s /\ quote_body (length s) false s = s.

(* what is known about the string tokens standing at the places of unique keys:
   token [rq k i] is a JSON string that the spec parser reads as [ru k i]
   (the condition on [body] is JsonProofs.body_reads body (ru k i)) *)
Definition sf_reads (sfok : Z -> Z -> Prop) (ru : Z -> Z -> list Z) (rq : Z -> Z -> bytes) : Prop :=
  forall k i, sfok k i -> exists body, rq k i = 34 :: body ++ [34] /\
    forall F rest, (length body < F)%nat -> jstr F (body ++ 34 :: rest) = Some (ru k i, rest).

Definition num_ok (n : Z) : Prop := 0 <= n < 10 ^ 20.

Section Gen.
  Variable sfok : Z -> Z -> Prop.
  Variable ru : Z -> Z -> list Z.

  Definition ls_ok (x : ls) : Prop :=
    match x with
    | SQ s => bytes_ok s
    | SR s => raw_ok s
    | SF k i => sfok k i
    end.

  Definition ls_units (x : ls) : list Z :=
    match x with
    | SQ s => units s
    | SR s => units s
    | SF k i => ru k i
    end.

  Fixpoint lj_ok (t : lj) : Prop :=
    match t with
    | LObj ms cw =>
      all_ws cw = true /\
      (fix go (ms : list (bytes * ls * bytes * lj)) : Prop :=
         match ms with
         | [] => True
         | m :: r => (let '(w1, k, w2, v) := m in
                      all_ws w1 = true /\ all_ws w2 = true /\ ls_ok k /\ lj_ok v) /\ go r
         end) ms
    | LArr es cw =>
      all_ws cw = true /\
      (fix go (es : list (bytes * lj)) : Prop :=
         match es with
         | [] => True
         | e :: r => (all_ws (fst e) = true /\ lj_ok (snd e)) /\ go r
         end) es
    | LS x => ls_ok x
    | LNum n => num_ok n
    | LTrue => True
    end.

  (* the JSON value a text stands for *)
  Fixpoint erase (t : lj) : jv :=
    match t with
    | LObj ms _ => JObj (map (fun m => let '(_, k, _, v) := m in (ls_units k, erase v)) ms)
    | LArr es _ => JArr (map (fun e => erase (snd e)) es)
    | LS x => JStr (ls_units x)
    | LNum n => JNum (dec n)
    | LTrue => JLit 0
    end.
End Gen.

Section LjInd.
  Variable P : lj -> Prop.
  Hypothesis HObj : forall ms cw, Forall (fun m => P (snd m)) ms -> P (LObj ms cw).
  Hypothesis HArr : forall es cw, Forall (fun e => P (snd e)) es -> P (LArr es cw).
  Hypothesis HS : forall x, P (LS x).
  Hypothesis HNum : forall n, P (LNum n).
  Hypothesis HTrue : P LTrue.

  Fixpoint lj_nested_ind (t : lj) : P t :=
    match t with
    | LObj ms cw =>
      HObj ms cw ((fix go (l : list (bytes * ls * bytes * lj)) : Forall (fun m => P (snd m)) l :=
                     match l with
                     | [] => Forall_nil _
                     | m :: r => Forall_cons m (lj_nested_ind (snd m)) (go r)
                     end) ms)
    | LArr es cw =>
      HArr es cw ((fix go (l : list (bytes * lj)) : Forall (fun e => P (snd e)) l :=
                     match l with
                     | [] => Forall_nil _
                     | e :: r => Forall_cons e (lj_nested_ind (snd e)) (go r)
                     end) es)
    | LS x => HS x
    | LNum n => HNum n
    | LTrue => HTrue
    end.
End LjInd.

(* the conjunctions over members and elements inside lj_ok *)
Lemma conj_all_Forall {A} (Q : A -> Prop) (l : list A) :
  (fix go (l : list A) : Prop := match l with [] => True | m :: r => Q m /\ go r end) l <-> Forall Q l.
Proof.
  induction l as [|m r IH]; [split; constructor|]. rewrite IH. split.
  - intros [Hm Hr]. constructor; assumption.
  - intro H. inversion H; subst. split; assumption.
Qed.

Lemma lj_ok_obj sfok ms cw : lj_ok sfok (LObj ms cw) <->
  all_ws cw = true /\
  Forall (fun m => let '(w1, k, w2, v) := m in
                   all_ws w1 = true /\ all_ws w2 = true /\ ls_ok sfok k /\ lj_ok sfok v) ms.
Proof. apply and_iff_compat_l, conj_all_Forall. Qed.

Lemma lj_ok_arr sfok es cw : lj_ok sfok (LArr es cw) <->
  all_ws cw = true /\ Forall (fun e => all_ws (fst e) = true /\ lj_ok sfok (snd e)) es.
Proof. apply and_iff_compat_l, conj_all_Forall. Qed.

(* lj_ok decided by evaluation, for concrete trees *)
Section Okb.
  Variable sfok : Z -> Z -> Prop.
  Variable sfokb : Z -> Z -> bool.
  Hypothesis sfokb_ok : forall k i, sfokb k i = true -> sfok k i.

  Definition ls_okb (x : ls) : bool :=
    match x with
    | SQ s => bytes_okb s
    | SR s => bytes_okb s && zlist_eqb (quote_body (length s) false s) s
    | SF k i => sfokb k i
    end.

  Fixpoint lj_okb (t : lj) : bool :=
    match t with
    | LObj ms cw =>
      all_ws cw && forallb (fun m => let '(w1, k, w2, v) := m in
                                     all_ws w1 && all_ws w2 && ls_okb k && lj_okb v) ms
    | LArr es cw => all_ws cw && forallb (fun e => all_ws (fst e) && lj_okb (snd e)) es
    | LS x => ls_okb x
    | LNum n => (0 <=? n) && (n <? 10 ^ 20)
    | LTrue => true
    end.

  Lemma ls_okb_ok x : ls_okb x = true -> ls_ok sfok x.
  Proof.
    destruct x as [s|s|k i]; cbn [ls_okb ls_ok]; [apply bytes_okb_ok| |apply sfokb_ok].
    intros [H1 H2]%andb_true_iff. split; [apply bytes_okb_ok, H1|apply zlist_eqb_eq, H2].
  Qed.

  Lemma lj_okb_ok : forall t, lj_okb t = true -> lj_ok sfok t.
  Proof.
    induction t as [ms cw IH|es cw IH|x|n|] using lj_nested_ind; cbn [lj_okb].
    - intros [Hcw Hms]%andb_true_iff. apply lj_ok_obj. split; [exact Hcw|].
      rewrite Forall_forall in *. rewrite forallb_forall in Hms.
      intros [[[w1 k] w2] v] Hin. specialize (Hms _ Hin). cbn beta iota in Hms.
      apply andb_true_iff in Hms as [[[H1 H2]%andb_true_iff Hk]%andb_true_iff Hv].
      repeat split; [exact H1|exact H2|apply ls_okb_ok, Hk|apply (IH _ Hin), Hv].
    - intros [Hcw Hes]%andb_true_iff. apply lj_ok_arr. split; [exact Hcw|].
      rewrite Forall_forall in *. rewrite forallb_forall in Hes.
      intros e Hin. destruct (proj1 (andb_true_iff _ _) (Hes _ Hin)) as [H1 Hv].
      split; [exact H1|apply (IH _ Hin), Hv].
    - apply ls_okb_ok.
    - intros [H1 H2]%andb_true_iff. split; [apply Z.leb_le, H1|apply Z.ltb_lt, H2].
    - intros _. exact I.
  Qed.
End Okb.

(* the tokens of a value: what the lexer gives for any text of it *)
Fixpoint sep_toks (l : list (list tok)) : list tok :=
  match l with
  | [] => []
  | x :: r => match r with [] => x | _ => x ++ TP 44 :: sep_toks r end
  end.

Fixpoint toks (v : jv) : list tok :=
  match v with
  | JObj ms => TP 123 :: sep_toks (map (fun m => TS (fst m) :: TP 58 :: toks (snd m)) ms) ++ [TP 125]
  | JArr vs => TP 91 :: sep_toks (map toks vs) ++ [TP 93]
  | JStr u => [TS u]
  | JNum n => [TN n]
  | JLit k => [TL k]
  end.

Lemma commas_cons2 x y l : commas (x :: y :: l) = x ++ 44 :: commas (y :: l).
Proof. reflexivity. Qed.

Lemma sep_toks_cons2 x y l : sep_toks (x :: y :: l) = x ++ TP 44 :: sep_toks (y :: l).
Proof. reflexivity. Qed.

Definition lexes (s : bytes) (ts : list tok) : Prop :=
  forall F, (length s < F)%nat -> lex F s = Some ts.

Definition delim (s : bytes) : Prop :=
  match s with c :: _ => is_ws c = true \/ is_punct c = true | [] => True end.

Lemma lexes_nil : lexes [] [].
Proof. intros F HF. destruct F; [lia|]. reflexivity. Qed.

Lemma lexes_ws w s ts : all_ws w = true -> lexes s ts -> lexes (w ++ s) ts.
Proof.
  intros Hw Hs. induction w as [|c w IH]; [exact Hs|].
  cbn [all_ws forallb] in Hw. apply andb_true_iff in Hw as [Hc Hw].
  intros F HF. destruct F; [lia|]. cbn [app lex]. rewrite Hc.
  apply IH; [exact Hw|]. cbn [app length] in HF. lia.
Qed.

Lemma lexes_punct c s ts : is_punct c = true -> lexes s ts -> lexes (c :: s) (TP c :: ts).
Proof.
  intros Hc Hs F HF. destruct F; [lia|]. cbn [lex].
  replace (is_ws c) with false by (unfold is_punct, is_ws in *; lia).
  rewrite Hc, Hs; [reflexivity|]. cbn [length] in HF. lia.
Qed.

Lemma lexes_quoted body u s ts : body_reads body u ->
  lexes s ts -> lexes (34 :: body ++ 34 :: s) (TS u :: ts).
Proof.
  intros Hb Hs F HF. destruct F; [lia|]. cbn [length] in HF. rewrite app_length in HF.
  cbn [lex is_ws is_punct orb Z.eqb Pos.eqb].
  rewrite Hb by (rewrite app_length; lia).
  rewrite Hs; [reflexivity|]. cbn [length] in HF. lia.
Qed.

Lemma render_ls_reads ascii sfok ru rq x : sf_reads sfok ru rq -> ls_ok sfok x ->
  exists body, render_ls ascii rq x = 34 :: body ++ [34] /\ body_reads body (ls_units ru x).
Proof.
  intros Hrq Hx. destruct x as [q|q|k i]; cbn [render_ls ls_units ls_ok] in *.
  - eexists. split; [reflexivity|]. apply quote_body_reads; [exact Hx|lia].
  - exists q. split; [reflexivity|]. destruct Hx as (Hb & Hq).
    rewrite <- Hq at 1. apply quote_body_reads; [exact Hb|lia].
  - exact (Hrq k i Hx).
Qed.

Lemma lexes_ls ascii sfok ru rq x s ts : sf_reads sfok ru rq ->
  ls_ok sfok x -> lexes s ts ->
  lexes (render_ls ascii rq x ++ s) (TS (ls_units ru x) :: ts).
Proof.
  intros Hrq Hx Hs. destruct (render_ls_reads ascii sfok ru rq x Hrq Hx) as (body & -> & Hb).
  cbn [app]. rewrite <- app_assoc. apply lexes_quoted; assumption.
Qed.

Lemma dec_digits_shape : forall f n, 0 <= n < 10 ^ Z.of_nat (S f) ->
  exists d ds, dec_digits (S f) n = d :: ds /\ is_digit d = true /\ forallb is_digit ds = true /\
               (0 < n -> d <> 48) /\ (n = 0 -> ds = []).
Proof.
  induction f as [|f IH]; intros n Hn.
  - change (10 ^ Z.of_nat 1) with 10 in Hn. cbn [dec_digits].
    destruct (n <? 10) eqn:E; [|lia].
    exists (48 + n), []. unfold is_digit. repeat split; try reflexivity; lia.
  - cbn [dec_digits]. destruct (n <? 10) eqn:E.
    + exists (48 + n), []. unfold is_digit. repeat split; try reflexivity; lia.
    + assert (Hn' : 0 <= n / 10 < 10 ^ Z.of_nat (S f)).
      { replace (Z.of_nat (S (S f))) with (Z.of_nat (S f) + 1) in Hn by lia.
        rewrite Z.pow_add_r in Hn by lia. change (10 ^ 1) with 10 in Hn. lia. }
      destruct (IH (n / 10) Hn') as (d & ds & E1 & Hd & Hds & Hnz & _).
      cbn [dec_digits] in E1. rewrite E1. exists d, (ds ++ [48 + n mod 10]).
      split; [reflexivity|]. split; [exact Hd|]. split.
      * rewrite forallb_app, Hds. cbn [forallb]. unfold is_digit. lia.
      * split; [intros _; apply Hnz; lia|lia].
Qed.

Definition not_numchar (s : bytes) : Prop :=
  match s with c :: _ => is_digit c = false /\ c <> 46 /\ c <> 101 /\ c <> 69 | [] => True end.

Lemma delim_not_numchar s : delim s -> not_numchar s.
Proof.
  destruct s as [|c s]; [trivial|]. unfold delim, not_numchar, is_ws, is_punct, is_digit. lia.
Qed.

Lemma span_digits_app ds s : forallb is_digit ds = true -> not_numchar s ->
  span_digits (ds ++ s) = (ds, s).
Proof.
  intros Hd Hs. induction ds as [|d ds IH]; cbn [app].
  - destruct s as [|c s]; [reflexivity|]. cbn [span_digits]. destruct Hs as [-> _]. reflexivity.
  - cbn [forallb] in Hd. apply andb_true_iff in Hd as [H1 H2]. cbn [span_digits]. rewrite H1, (IH H2). reflexivity.
Qed.

Lemma jnumber_dec n s : num_ok n -> not_numchar s ->
  exists d ds, dec n = d :: ds /\ is_digit d = true /\ jnumber (dec n ++ s) = Some (dec n, s).
Proof.
  intros Hn Hs. unfold dec. unfold num_ok in Hn.
  destruct (dec_digits_shape 19 n) as (d & ds & E & Hd & Hds & Hnz & Hz).
  { change (Z.of_nat 20) with 20. exact Hn. }
  exists d, ds. rewrite E. split; [reflexivity|]. split; [exact Hd|].
  assert (Hfe : jfrac s = Some ([], s) /\ jexp s = Some ([], s)).
  { destruct s as [|c s']; [split; reflexivity|]. destruct Hs as (_ & H1 & H2 & H3).
    cbn [jfrac jexp]. repeat if_lia. split; reflexivity. }
  destruct Hfe as [Hf He].
  unfold jnumber, jint. cbn [app]. unfold is_digit in Hd. if_lia.
  destruct (d =? 48) eqn:E48.
  - assert (n = 0) by lia. rewrite (Hz H) in *. cbn [app]. rewrite Hf, He.
    replace d with 48 by lia. reflexivity.
  - unfold is_digit. if_lia.
    rewrite (span_digits_app ds s Hds Hs). rewrite Hf, He. cbn [app]. rewrite !app_nil_r. reflexivity.
Qed.

Lemma lexes_num n s ts : num_ok n -> delim s -> lexes s ts -> lexes (dec n ++ s) (TN (dec n) :: ts).
Proof.
  intros Hn Hd Hs F HF.
  destruct (jnumber_dec n s Hn (delim_not_numchar s Hd)) as (d & ds & E & Hdig & Hj).
  destruct F; [lia|].
  assert (HF' : (length s < F)%nat) by (rewrite app_length, E in HF; cbn [length] in HF; lia).
  revert Hj. rewrite E. cbn [app]. intro Hj. cbn [lex].
  unfold is_ws, is_punct, is_digit in *. repeat if_lia.
  rewrite Hj. rewrite (Hs F HF'). reflexivity.
Qed.

Lemma lexes_true s ts : lexes s ts -> lexes (lit_true_bytes ++ s) (TL 0 :: ts).
Proof.
  intros Hs F HF. destruct F; [lia|].
  change (lex (S F) (lit_true_bytes ++ s)) with (option_map (cons (TL 0)) (lex F s)).
  rewrite Hs; [reflexivity|]. unfold lit_true_bytes in HF. cbn [app length] in HF. lia.
Qed.

Lemma delim_ws_then w c rest : all_ws w = true -> is_punct c = true -> delim (w ++ c :: rest).
Proof.
  intros Hw Hc. destruct w as [|x w]; cbn [app delim]; [right; exact Hc|].
  cbn [all_ws forallb] in Hw. apply andb_true_iff in Hw as [Hx _]. left; exact Hx.
Qed.

Lemma lexes_commas {A} (f : A -> bytes) (g : A -> list tok) tail tts : lexes tail tts -> delim tail ->
  forall l,
  Forall (fun x => forall rest ts, lexes rest ts -> delim rest -> lexes (f x ++ rest) (g x ++ ts)) l ->
  lexes (commas (map f l) ++ tail) (sep_toks (map g l) ++ tts).
Proof.
  intros Ht Hd. induction l as [|x l IH]; intro H; [exact Ht|].
  inversion H as [|? ? Hx Hl]; subst. specialize (IH Hl). destruct l as [|y l].
  - apply Hx; assumption.
  - cbn [map] in *. rewrite commas_cons2, sep_toks_cons2, <- !app_assoc.
    apply Hx; [|right; reflexivity]. cbn [app]. apply lexes_punct; [reflexivity|exact IH].
Qed.

Definition lex_ok ascii ru rq (t : lj) : Prop :=
  forall rest ts, lexes rest ts -> delim rest ->
    lexes (render ascii rq t ++ rest) (toks (erase ru t) ++ ts).

Lemma lex_render_all ascii sfok ru rq : sf_reads sfok ru rq ->
  forall t, lj_ok sfok t -> lex_ok ascii ru rq t.
Proof.
  intro Hrq. induction t as [ms cw IH|es cw IH|x|k|] using lj_nested_ind; intros Hok rest ts Hr Hd.
  - apply lj_ok_obj in Hok as [Hcw Hms]. cbn [render erase toks app].
    apply lexes_punct; [reflexivity|]. rewrite map_map, <- !app_assoc.
    apply lexes_commas.
    + apply lexes_ws; [exact Hcw|]. apply lexes_punct; [reflexivity|exact Hr].
    + apply delim_ws_then; [exact Hcw|reflexivity].
    + rewrite Forall_forall in *. intros [[[w1 k] w2] v] Hin rest' ts' Hr' Hd'.
      destruct (Hms _ Hin) as (H1 & H2 & Hk & Hv). cbn [fst snd]. rewrite <- !app_assoc. cbn [app]. rewrite <- app_assoc.
      apply lexes_ws; [exact H1|]. apply (lexes_ls ascii sfok ru rq); [exact Hrq|exact Hk|].
      apply lexes_punct; [reflexivity|]. apply lexes_ws; [exact H2|].
      apply (IH _ Hin Hv); assumption.
  - apply lj_ok_arr in Hok as [Hcw Hes]. cbn [render erase toks app].
    apply lexes_punct; [reflexivity|]. rewrite map_map, <- !app_assoc.
    apply lexes_commas.
    + apply lexes_ws; [exact Hcw|]. apply lexes_punct; [reflexivity|exact Hr].
    + apply delim_ws_then; [exact Hcw|reflexivity].
    + rewrite Forall_forall in *. intros e Hin rest' ts' Hr' Hd'.
      destruct (Hes _ Hin) as (H1 & Hv). rewrite <- app_assoc.
      apply lexes_ws; [exact H1|]. apply (IH _ Hin Hv); assumption.
  - cbn [render erase toks app]. apply (lexes_ls ascii sfok ru rq); [exact Hrq|exact Hok|exact Hr].
  - cbn [render erase toks app]. apply lexes_num; [exact Hok|exact Hd|exact Hr].
  - cbn [render erase toks app]. apply lexes_true. exact Hr.
Qed.

Lemma toks_not_close v r c : c = 93 \/ c = 125 -> is_close c (toks v ++ r) = None.
Proof.
  intro Hc. destruct v; cbn [toks app is_close]; try reflexivity.
  - destruct (123 =? c) eqn:E; [lia|reflexivity].
  - destruct (91 =? c) eqn:E; [lia|reflexivity].
Qed.

Lemma pmembers_ok pv r : forall ms n, ms <> [] -> (length ms <= n)%nat ->
  (forall m, In m ms -> forall r', pv (toks (snd m) ++ r') = Some (snd m, r')) ->
  pmembers pv n (sep_toks (map (fun m => TS (fst m) :: TP 58 :: toks (snd m)) ms) ++ TP 125 :: r) = Some (ms, r).
Proof.
  induction ms as [|[k v] ms IH]; intros n Hne Hn Hpv; [congruence|].
  destruct n as [|n]; [cbn in Hn; lia|].
  pose proof (Hpv (k, v) (or_introl eq_refl)) as Hkv. cbn [snd] in Hkv.
  destruct ms as [|m2 ms2].
  - cbn [map sep_toks fst snd app pmembers Z.eqb Pos.eqb]. rewrite Hkv. reflexivity.
  - cbn [map] in *. rewrite sep_toks_cons2, <- app_assoc. cbn [app pmembers fst snd Z.eqb Pos.eqb].
    rewrite Hkv. cbn [Z.eqb Pos.eqb].
    rewrite IH; [reflexivity|discriminate|cbn [length] in *; lia|].
    intros m Hm. apply Hpv. right. exact Hm.
Qed.

Lemma pelements_ok pv r : forall vs n, vs <> [] -> (length vs <= n)%nat ->
  (forall v, In v vs -> forall r', pv (toks v ++ r') = Some (v, r')) ->
  pelements pv n (sep_toks (map toks vs) ++ TP 93 :: r) = Some (vs, r).
Proof.
  induction vs as [|v vs IH]; intros n Hne Hn Hpv; [congruence|].
  destruct n as [|n]; [cbn in Hn; lia|].
  pose proof (Hpv v (or_introl eq_refl)) as Hv.
  destruct vs as [|v2 vs2].
  - cbn [map sep_toks pelements]. rewrite Hv. reflexivity.
  - cbn [map] in *. rewrite sep_toks_cons2, <- app_assoc. cbn [pelements]. rewrite Hv.
    cbn [app Z.eqb Pos.eqb].
    rewrite IH; [reflexivity|discriminate|cbn [length] in *; lia|].
    intros x Hx. apply Hpv. right. exact Hx.
Qed.

Lemma toks_nonempty v : (1 <= length (toks v))%nat.
Proof. destruct v; cbn [toks length]; lia. Qed.

(* bounds for the fuel of pmembers / pelements and of the values inside *)
Lemma sep_toks_length (l : list (list tok)) :
  (forall x, In x l -> (1 <= length x)%nat) -> (length l <= length (sep_toks l))%nat.
Proof.
  induction l as [|x l IH]; intro H; [cbn; lia|].
  pose proof (H x (or_introl eq_refl)). specialize (IH (fun z Hz => H z (or_intror Hz))).
  destruct l as [|y l]; [cbn [sep_toks length]; lia|].
  rewrite sep_toks_cons2, app_length. cbn [length] in *. lia.
Qed.

Lemma sep_toks_in (l : list (list tok)) x : In x l -> (length x <= length (sep_toks l))%nat.
Proof.
  induction l as [|y l IH]; intro H; [destruct H|].
  destruct l as [|z l]; [destruct H as [->|[]]; cbn [sep_toks]; lia|].
  rewrite sep_toks_cons2, app_length. cbn [length].
  destruct H as [->|H]; [lia|]. specialize (IH H). lia.
Qed.

Lemma pvalue_toks : forall F v r, (length (toks v) <= F)%nat -> pvalue F (toks v ++ r) = Some (v, r).
Proof.
  induction F as [|F IH]; intros v r Hs; [pose proof (toks_nonempty v); lia|].
  destruct v as [ms|vs|u|n|k]; try reflexivity.
  - cbn [toks app pvalue length Z.eqb Pos.eqb] in *.
    rewrite app_length in Hs. rewrite <- app_assoc. cbn [app].
    destruct ms as [|m ms]; [reflexivity|].
    set (g := fun m0 : list Z * jv => TS (fst m0) :: TP 58 :: toks (snd m0)) in *.
    replace (is_close 125 _) with (@None (list tok)) by (destruct ms; reflexivity).
    rewrite pmembers_ok; [reflexivity|discriminate| |].
    + rewrite app_length, <- (map_length g (m :: ms)).
      etransitivity; [apply sep_toks_length|apply Nat.le_add_r].
      intros x (y & <- & _)%in_map_iff. unfold g. cbn [length]. lia.
    + intros m0 Hm r'. apply IH.
      pose proof (sep_toks_in _ _ (in_map g _ _ Hm)) as L. unfold g at 1 in L. cbn [length] in L. lia.
  - cbn [toks app pvalue length Z.eqb Pos.eqb] in *.
    rewrite app_length in Hs. rewrite <- app_assoc. cbn [app].
    destruct vs as [|v vs]; [reflexivity|].
    replace (is_close 93 _) with (@None (list tok)).
    2:{ destruct vs; cbn [map]; [|rewrite sep_toks_cons2, <- app_assoc];
          symmetry; apply toks_not_close; left; reflexivity. }
    rewrite pelements_ok; [reflexivity|discriminate| |].
    + rewrite app_length, <- (map_length toks (v :: vs)).
      etransitivity; [apply sep_toks_length|apply Nat.le_add_r].
      intros x (y & <- & _)%in_map_iff. apply toks_nonempty.
    + intros v0 Hv r'. apply IH.
      pose proof (sep_toks_in _ _ (in_map toks _ _ Hv)) as L. lia.
Qed.

(* the whole text: tree, then whitespace *)
Lemma parse_render_all ascii sfok ru rq t trailer :
  sf_reads sfok ru rq ->
  lj_ok sfok t -> all_ws trailer = true ->
  parse_json (render ascii rq t ++ trailer) = Some (erase ru t).
Proof.
  intros Hrq Hok Hw. unfold parse_json.
  assert (L : lexes (render ascii rq t ++ trailer) (toks (erase ru t) ++ [])).
  { apply (lex_render_all ascii sfok ru rq Hrq t Hok).
    - rewrite <- (app_nil_r trailer). apply lexes_ws; [exact Hw|apply lexes_nil].
    - destruct trailer as [|c w]; [exact I|]. cbn [all_ws forallb] in Hw.
      apply andb_true_iff in Hw as [Hc _]. left. exact Hc. }
  rewrite L by lia. rewrite pvalue_toks; [reflexivity|rewrite app_nil_r; lia].
Qed.
