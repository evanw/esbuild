(* The import paths of the inputs section name the files the import records finally
   point to. *)
From Coq Require Import String.
From V Require Import Common.Base C19.Json C19.JsonSpec C19.Layout C19.Metafile C19.Doc C19.DocProofs C19.Scan.

(* the file an import finally denotes: the re-pointed index of a resolved
   record, the preset index of an injected file's import *)
Definition final_target (visited : list (bytes * Z)) (r : irec) : option Z :=
  match r_index r with
  | Some j => if r_resolved r then repoint visited r else Some j
  | None => None
  end.

Lemma repoint_secondary visited r key j :
  r_secondary r = Some key -> visited_index key visited = Some j -> repoint visited r = Some j.
Proof. intros H1 H2. unfold repoint. rewrite H1, H2. reflexivity. Qed.

Lemma repoint_none visited r :
  (forall key, r_secondary r = Some key -> visited_index key visited = None) -> repoint visited r = r_index r.
Proof.
  intro H. unfold repoint. destruct (r_secondary r) as [key|]; [|reflexivity].
  rewrite (H key eq_refl). reflexivity.
Qed.

Lemma import_of_target paths visited r j : final_target visited r = Some j ->
  ii_path (import_of paths visited r) = paths j /\ ii_external (import_of paths visited r) = false.
Proof.
  unfold final_target, import_of. destruct (r_index r) as [i|]; [|discriminate].
  destruct (r_resolved r).
  - intro H. rewrite H. split; reflexivity.
  - intro H. inversion H; subst. split; reflexivity.
Qed.

Lemma import_of_external paths visited r : final_target visited r = None ->
  ii_external (import_of paths visited r) = true.
Proof.
  unfold final_target, import_of. destruct (r_index r) as [i|]; [|reflexivity].
  destruct (r_resolved r); [|discriminate]. intro H. rewrite H. reflexivity.
Qed.

(* what the parsed metafile says about that import: its "path" member is the
   path of the final target *)
Lemma iimp_jv_path paths visited r j : final_target visited r = Some j ->
  exists rest, iimp_jv (import_of paths visited r) = JObj ((ju "path", JStr (units (paths j))) :: rest).
Proof.
  intro H. destruct (import_of_target paths visited r j H) as [Hp _].
  unfold iimp_jv. rewrite Hp. cbn [app]. eexists. reflexivity.
Qed.

(* the "imports" array of an input's value: its second member, after "bytes" *)
Definition imports_of_input (v : jv) : list jv :=
  match v with
  | JObj (_ :: (_, JArr vs) :: _) => vs
  | _ => []
  end.

Lemma scan_input_lists_final_target paths visited self size records format attrs r j :
  In r records -> final_target visited r = Some j ->
  exists rest, In (JObj ((ju "path", JStr (units (paths j))) :: rest))
                  (imports_of_input (input_jv (scan_input paths visited self size records format attrs))).
Proof.
  intros Hin Ht. destruct (iimp_jv_path paths visited r j Ht) as [rest Hr]. exists rest.
  unfold input_jv, scan_input. cbn [in_imports app imports_of_input]. rewrite map_map.
  rewrite <- Hr. apply in_map_iff. exists r. split; [reflexivity|exact Hin].
Qed.

(* a scanned file: (source index, size, records, format, attributes) *)
Definition sfile := (Z * Z * list irec * option bytes * list (bytes * bytes))%type.
Definition sf_index (f : sfile) : Z := let '(i, _, _, _, _) := f in i.
Definition sf_records (f : sfile) : list irec := let '(_, _, rs, _, _) := f in rs.
Definition sf_input paths visited (f : sfile) : input :=
  let '(i, sz, rs, fmt, at_) := f in scan_input paths visited i sz rs fmt at_.

(* if the set of files is closed under the final targets (the linker's
   reachability follows the re-pointed indices), every import that is not
   external names a key of the inputs section *)
Lemma inputs_closed_all paths visited (files : list sfile) :
  (forall f r j, In f files -> In r (sf_records f) -> final_target visited r = Some j ->
     In j (map sf_index files)) ->
  forall i imp, In i (map (sf_input paths visited) files) -> In imp (in_imports i) ->
    ii_external imp = false -> In (ii_path imp) (map in_path (map (sf_input paths visited) files)).
Proof.
  intros Hc i imp Hi Himp Hext.
  apply in_map_iff in Hi as (f & <- & Hf).
  destruct f as [[[[si sz] rs] fmt] at_]. cbn [sf_input scan_input in_imports] in Himp.
  apply in_map_iff in Himp as (r & <- & Hr).
  destruct (final_target visited r) as [j|] eqn:Et.
  - destruct (import_of_target paths visited r j Et) as [-> _].
    specialize (Hc _ r j Hf Hr Et). apply in_map_iff in Hc as (g & <- & Hg).
    rewrite map_map. apply in_map_iff. exists g. split; [|exact Hg].
    destruct g as [[[[gi gs] grs] gf] ga]. reflexivity.
  - rewrite (import_of_external paths visited r Et) in Hext. discriminate.
Qed.
