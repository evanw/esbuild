(* The byte counts and listings of Metafile.v: the counts attributed to the inputs of an
   output sum to at most its size, a count is zero only for empty code, every listing has
   one entry per key. *)
From V Require Import Common.Base C18.Pieces C18.PiecesProofs C19.Metafile.

Lemma substitute_papp pathOf : forall a b,
  substitute pathOf (papp a b) = substitute pathOf a ++ substitute pathOf b.
Proof.
  induction a as [|p a IH]; intro b; [reflexivity|].
  destruct a as [|q a].
  - cbn [papp]. destruct (is_ref (pkind p)) eqn:E.
    + cbn [substitute]. rewrite E, app_nil_r. rewrite <- !app_assoc. reflexivity.
    + destruct b as [|q b].
      * cbn [substitute]. rewrite E. rewrite !app_nil_r. reflexivity.
      * cbn [substitute pdata pkind pidx]. rewrite E. cbn [app]. rewrite !app_nil_r, <- !app_assoc. reflexivity.
  - change (papp (p :: q :: a) b) with (p :: papp (q :: a) b).
    cbn [substitute]. rewrite IH. cbn [substitute]. rewrite <- !app_assoc. reflexivity.
Qed.

Lemma slice_count_nonneg prefix nf nc pathOf b : 0 <= slice_count prefix nf nc pathOf b.
Proof.
  unfold slice_count. destruct (break_output prefix nf nc b); [|lia].
  rewrite accurate_count_length. lia.
Qed.

Lemma slice_count_length prefix nf nc pathOf b ps : break_output prefix nf nc b = Some ps ->
  slice_count prefix nf nc pathOf b = Z.of_nat (length (substitute pathOf ps)).
Proof. intro H. unfold slice_count. rewrite H. apply accurate_count_length. Qed.

Fixpoint sum_all (prefix : bytes) (nf nc : Z) (pathOf : Z -> Z -> bytes) (segs : list segment) : Z :=
  match segs with [] => 0 | s :: r => slice_count prefix nf nc pathOf (snd s) + sum_all prefix nf nc pathOf r end.

Lemma pieces_of_segs_length prefix nf nc pathOf : forall segs,
  Z.of_nat (length (substitute pathOf (pieces_of_segs prefix nf nc segs))) = sum_all prefix nf nc pathOf segs.
Proof.
  induction segs as [|s r IH]; [reflexivity|].
  cbn [pieces_of_segs sum_all].
  destruct (break_total prefix nf nc (snd s)) as [ps Hps]. rewrite Hps.
  rewrite substitute_papp, app_length, Nat2Z.inj_add, IH. rewrite (slice_count_length _ _ _ _ _ _ Hps). reflexivity.
Qed.

Section Sums.
  Variable prefix : bytes.
  Variable nf nc : Z.
  Variable pathOf : Z -> Z -> bytes.
  Notation cnt := (slice_count prefix nf nc pathOf).
  Notation bio := (bytes_in_output prefix nf nc pathOf).

  Fixpoint sum_over (l : list Z) (segs : list segment) : Z :=
    match l with [] => 0 | s :: r => bio s segs + sum_over r segs end.

  (* owned slices whose owner is not in [seen] *)
  Fixpoint owned_not_seen (segs : list segment) (seen : list Z) : Z :=
    match segs with
    | [] => 0
    | (Some s, b) :: r => (if zmem s seen then 0 else cnt b) + owned_not_seen r seen
    | (None, _) :: r => owned_not_seen r seen
    end.

  Lemma meta_order_not_seen : forall segs seen t, In t (meta_order segs seen) -> zmem t seen = false.
  Proof.
    induction segs as [|[[s|] b] r IH]; intros seen t Ht; cbn in Ht; [destruct Ht| |apply IH; exact Ht].
    destruct (zmem s seen) eqn:E; [apply IH; exact Ht|].
    destruct Ht as [<-|Ht]; [exact E|].
    apply IH in Ht. cbn in Ht. apply orb_false_iff in Ht as [_ Ht]. exact Ht.
  Qed.

  Lemma sum_over_other o b : forall l r, (forall s, o = Some s -> ~ In s l) ->
    sum_over l ((o, b) :: r) = sum_over l r.
  Proof.
    induction l as [|t l IH]; intros r Hn; [reflexivity|].
    cbn [sum_over]. rewrite IH by (intros s Ho X; apply (Hn s Ho); right; exact X).
    destruct o as [s|]; cbn [bytes_in_output]; [|reflexivity].
    destruct (t =? s) eqn:E; [exfalso; apply (Hn s eq_refl); left; lia|lia].
  Qed.

  Lemma zmem_In x l : zmem x l = true <-> In x l.
  Proof.
    induction l as [|y l IH]; cbn; [split; [discriminate|intros []]|].
    rewrite orb_true_iff, IH. split; (intros [H|H]; [left; lia|right; exact H]).
  Qed.

  Lemma owned_split s : forall segs seen, zmem s seen = false ->
    owned_not_seen segs seen = bio s segs + owned_not_seen segs (s :: seen).
  Proof.
    induction segs as [|[[t|] b] r IH]; intros seen Hs; cbn [owned_not_seen bytes_in_output]; [lia| |apply IH; exact Hs].
    rewrite (IH seen Hs). cbn [zmem].
    destruct (s =? t) eqn:E.
    - assert (t = s) by lia. subst t. rewrite Hs. rewrite Z.eqb_refl. cbn. lia.
    - replace (t =? s) with false by lia. cbn. destruct (zmem t seen); lia.
  Qed.

  (* summing bytesInOutput over metaOrder counts every owned slice exactly once *)
  Lemma sum_regroup : forall segs seen,
    sum_over (meta_order segs seen) segs = owned_not_seen segs seen.
  Proof.
    induction segs as [|[[s|] b] r IH]; intro seen; cbn [meta_order owned_not_seen].
    - reflexivity.
    - destruct (zmem s seen) eqn:E.
      + rewrite sum_over_other; [rewrite IH; lia|].
        intros ? [= <-] X. apply meta_order_not_seen in X. congruence.
      + cbn [sum_over]. rewrite sum_over_other.
        2:{ intros ? [= <-] X. apply meta_order_not_seen in X. cbn in X. rewrite Z.eqb_refl in X. discriminate. }
        rewrite IH. cbn [bytes_in_output]. rewrite Z.eqb_refl.
        rewrite (owned_split s r seen E). lia.
    - rewrite sum_over_other by discriminate. apply IH.
  Qed.

  Lemma owned_le_all : forall segs seen, owned_not_seen segs seen <= sum_all prefix nf nc pathOf segs.
  Proof.
    induction segs as [|[[s|] b] r IH]; intro seen; cbn [owned_not_seen sum_all snd]; [lia| |].
    - pose proof (slice_count_nonneg prefix nf nc pathOf b). specialize (IH seen). destruct (zmem s seen); lia.
    - pose proof (slice_count_nonneg prefix nf nc pathOf b). specialize (IH seen). lia.
  Qed.

  (* inputs_sum_le_total: if splitting the whole output agrees with splitting
     every segment on its own (true whenever the prefix occurs only inside
     well-formed keys, never across a segment border), the bytes attributed to
     the inputs never exceed the size of the file *)
  Lemma inputs_sum_le_total_all segs trailer :
    break_output prefix nf nc (joined segs) = Some (pieces_of_segs prefix nf nc segs) ->
    sum_over (meta_order segs []) segs <= total_bytes prefix nf nc pathOf segs trailer.
  Proof.
    intro Hc. rewrite sum_regroup.
    etransitivity; [apply owned_le_all|].
    unfold total_bytes, final_contents, break_joiner.
    destruct (occurs prefix (joined segs)) eqn:Eo.
    - rewrite Hc. cbn [substitute_out]. rewrite app_length, Nat2Z.inj_add, pieces_of_segs_length. lia.
    - cbn [substitute_out].
      (* no occurrence: the whole output is one piece *)
      assert (Hw : break_output prefix nf nc (joined segs) = Some [mkPiece (joined segs) 0 0]).
      { unfold break_output. cbn [break_pieces]. unfold occurs in Eo.
        destruct (index_of prefix (joined segs)); [discriminate|reflexivity]. }
      rewrite Hw in Hc. inversion Hc as [Hp].
      rewrite app_length, Nat2Z.inj_add.
      pose proof (pieces_of_segs_length prefix nf nc pathOf segs) as Hl.
      rewrite <- Hp in Hl. cbn [substitute pdata pkind is_ref Z.eqb orb] in Hl.
      rewrite !app_nil_r in Hl. lia.
  Qed.

  (* zero_iff_no_bytes for one slice *)
  Lemma slice_zero_iff b :
    (forall k i, is_ref k = true -> pathOf k i <> []) ->
    (cnt b = 0 <-> b = []).
  Proof.
    intro Hp. split.
    - intro H0. destruct (break_total_lossless prefix nf nc b) as (ps & Hps & Hj).
      rewrite (slice_count_length _ _ _ _ _ _ Hps) in H0.
      assert (Hn : substitute pathOf ps = []) by (destruct (substitute pathOf ps); [reflexivity|cbn in H0; lia]).
      rewrite <- Hj. clear - Hn Hp.
      induction ps as [|p r IH]; [reflexivity|].
      cbn [substitute] in Hn. apply app_eq_nil in Hn as [Hd Hn]. apply app_eq_nil in Hn as [Hpath Hn].
      cbn [join_with_keys]. rewrite Hd, (IH Hn).
      destruct (is_ref (pkind p)) eqn:E; [exfalso; eapply Hp; eassumption|reflexivity].
    - intros ->. unfold slice_count, break_output. cbn [length break_pieces].
      destruct (index_of prefix []) as [k|] eqn:E; [|reflexivity].
      replace (parse_key nf nc (skipn (k + length prefix) [])) with (@None (Z * Z)); [reflexivity|].
      rewrite skipn_nil. reflexivity.
  Qed.

  Lemma bio_nonneg s : forall segs, 0 <= bio s segs.
  Proof.
    induction segs as [|[[t|] b] r IH]; cbn [bytes_in_output]; [lia| |exact IH].
    pose proof (slice_count_nonneg prefix nf nc pathOf b). destruct (s =? t); lia.
  Qed.

  (* zero_iff_no_bytes: an input is reported with 0 bytes exactly when all its slices are empty *)
  Lemma bio_zero_iff s :
    (forall k i, is_ref k = true -> pathOf k i <> []) ->
    forall segs, bio s segs = 0 <-> (forall b, In (Some s, b) segs -> b = []).
  Proof.
    intro Hp. induction segs as [|[[t|] b] r IH]; cbn [bytes_in_output].
    - split; [intros _ b []|reflexivity].
    - pose proof (slice_count_nonneg prefix nf nc pathOf b) as Hc. pose proof (bio_nonneg s r) as Hr.
      destruct (s =? t) eqn:E.
      + assert (t = s) by lia. subst t. split.
        * intros H0 b' [Hb|Hb]; [inversion Hb; subst b'; apply (slice_zero_iff b Hp); lia|apply IH; [lia|exact Hb]].
        * intro Hall. assert (b = []) by (apply Hall; left; reflexivity). subst b.
          assert (cnt [] = 0) by (apply (slice_zero_iff [] Hp); reflexivity).
          assert (bio s r = 0) by (apply IH; intros b' Hb'; apply Hall; right; exact Hb'). lia.
      + rewrite Z.add_0_l, IH. split; intros Hall b' Hb'.
        * destruct Hb' as [Hb'|Hb']; [inversion Hb'; lia|apply Hall; exact Hb'].
        * apply Hall. right; exact Hb'.
    - rewrite IH. split; intros Hall b' Hb'.
      + destruct Hb' as [Hb'|Hb']; [discriminate|apply Hall; exact Hb'].
      + apply Hall. right; exact Hb'.
  Qed.

  (* the JS listing has one entry per input *)
  Lemma meta_order_nodup : forall segs seen, NoDup (meta_order segs seen).
  Proof.
    induction segs as [|[[s|] b] r IH]; intro seen; cbn [meta_order]; [constructor| |apply IH].
    destruct (zmem s seen); [apply IH|]. constructor; [|apply IH].
    intro X. apply meta_order_not_seen in X. cbn in X. rewrite Z.eqb_refl in X. discriminate.
  Qed.
End Sums.

Lemma bmem_In x l : bmem x l = true <-> In x l.
Proof.
  induction l as [|y l IH]; cbn; [split; [discriminate|intros []]|].
  rewrite orb_true_iff, IH, zlist_eqb_eq. split; (intros [H|H]; [left; congruence|right; exact H]).
Qed.

Lemma list_outputs_fresh : forall rs seen p, In p (map fst (list_outputs seen rs)) -> ~ In p seen.
Proof.
  induction rs as [|[q j] r IH]; intros seen p Hp; cbn [list_outputs] in Hp; [destruct Hp|].
  destruct j as [|j0 j]; [apply (IH seen p Hp)|].
  destruct (bmem q seen) eqn:E; [apply (IH seen p Hp)|].
  cbn [map fst] in Hp. destruct Hp as [<-|Hp].
  - intro X. apply bmem_In in X. congruence.
  - intro X. apply (IH (q :: seen) p Hp). right; exact X.
Qed.

Lemma list_outputs_nodup : forall rs seen, NoDup (map fst (list_outputs seen rs)).
Proof.
  induction rs as [|[q j] r IH]; intro seen; cbn [list_outputs]; [constructor|].
  destruct j as [|j0 j]; [apply IH|].
  destruct (bmem q seen); [apply IH|].
  cbn [map fst]. constructor; [|apply IH].
  intro X. apply (list_outputs_fresh _ _ _ X). left; reflexivity.
Qed.

Lemma list_outputs_complete : forall rs seen p j, In (p, j) rs -> j <> [] -> ~ In p seen ->
  In p (map fst (list_outputs seen rs)).
Proof.
  induction rs as [|[q k] r IH]; intros seen p j Hp Hj Hs; [destruct Hp|].
  cbn [list_outputs]. destruct Hp as [Hp|Hp].
  - inversion Hp; subst q k. destruct j as [|j0 j]; [congruence|].
    destruct (bmem p seen) eqn:E; [exfalso; apply Hs, bmem_In, E|]. left; reflexivity.
  - destruct k as [|k0 k]; [apply (IH seen p j Hp Hj Hs)|].
    destruct (bmem q seen) eqn:E; [apply (IH seen p j Hp Hj Hs)|].
    cbn [map fst]. destruct (list_eq_dec Z.eq_dec p q) as [->|Ne]; [left; reflexivity|].
    right. apply (IH (q :: seen) p j Hp Hj). intros [X|X]; [congruence|contradiction].
Qed.

(* the entry kept for a path is the first result with that path and a non-empty chunk *)
Lemma list_outputs_first : forall rs seen p j, In (p, j) (list_outputs seen rs) ->
  exists pre post, rs = pre ++ (p, j) :: post /\ j <> [] /\ (forall j', In (p, j') pre -> j' = []).
Proof.
  induction rs as [|[q k] r IH]; intros seen p j Hp; cbn [list_outputs] in Hp; [destruct Hp|].
  (* a result that is skipped, with IH at the same or at the extended [seen] *)
  assert (Skip : forall seen', In (p, j) (list_outputs seen' r) -> (q = p -> k = []) ->
            exists pre post, (q, k) :: r = pre ++ (p, j) :: post /\ j <> [] /\ (forall j', In (p, j') pre -> j' = [])).
  { intros seen' Hp' Hq. destruct (IH seen' p j Hp') as (pre & post & E & Hj & F).
    exists ((q, k) :: pre), post. split; [rewrite E; reflexivity|]. split; [exact Hj|].
    intros j' [X|X]; [inversion X; subst; apply Hq; reflexivity|apply F; exact X]. }
  assert (Fresh : forall seen', In (p, j) (list_outputs seen' r) -> ~ In p seen')
    by (intros seen' Hp'; apply (list_outputs_fresh r); apply (in_map fst) in Hp'; exact Hp').
  destruct k as [|k0 k]; [apply (Skip seen Hp); reflexivity|].
  destruct (bmem q seen) eqn:Eb.
  - apply (Skip seen Hp). intros ->. exfalso. apply (Fresh seen Hp), bmem_In, Eb.
  - destruct Hp as [Hp|Hp].
    + inversion Hp; subst. exists [], r. split; [reflexivity|]. split; [discriminate|intros j' []].
    + apply (Skip (q :: seen) Hp). intros ->. exfalso. apply (Fresh _ Hp). left; reflexivity.
Qed.

(* generateMetadataJSON: every path that has a non-empty chunk is listed exactly once, with
   the first such result *)
Lemma outputs_listed_once_all rs :
  NoDup (map fst (list_outputs [] rs)) /\
  (forall p, In p (map fst (list_outputs [] rs)) <-> exists j, In (p, j) rs /\ j <> []) /\
  (forall p j, In (p, j) (list_outputs [] rs) ->
     exists pre post, rs = pre ++ (p, j) :: post /\ (forall j', In (p, j') pre -> j' = [])).
Proof.
  split; [apply list_outputs_nodup|]. split.
  - intro p. split.
    + intros ([q j] & <- & Hi)%in_map_iff. exists j.
      destruct (list_outputs_first _ _ _ _ Hi) as (pre & post & -> & Hj & _).
      split; [apply in_elt|exact Hj].
    + intros (j & Hi & Hj). eapply list_outputs_complete; [exact Hi|exact Hj|intros []].
  - intros p j Hi. destruct (list_outputs_first _ _ _ _ Hi) as (pre & post & E & _ & F).
    exists pre, post. split; assumption.
Qed.

(* the CSS listing has one entry per file *)
Lemma css_inputs_keys_unique prefix nf nc pathOf segs :
  NoDup (map fst (css_output_inputs prefix nf nc pathOf segs)).
Proof.
  unfold css_output_inputs, output_inputs. rewrite map_map. cbn [fst]. rewrite map_id.
  apply meta_order_nodup.
Qed.
