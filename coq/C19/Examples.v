(* Non-vacuity for the C19 theorems. *)
From V Require Import Common.Base C18.Pieces C19.Metafile C19.MetafileProofs.

Definition ex_prefix : bytes := [80;81;82;83].
Definition ex_key_c1 : bytes := ex_prefix ++ [67;48;48;48;48;48;48;48;49].
Definition ex_path (k i : Z) : bytes := [46;47;120;45;72;46;106;115].     (* ./x-H.js *)
Definition ex_segs : list segment :=
  [(None, [47;47;32;97;10]); (Some 3, [105;40] ++ ex_key_c1 ++ [41;59;10]); (None, [10]); (Some 5, [120;10]); (Some 3, [121;10])].

(* the hypothesis of inputs_sum_le_total holds here: splitting the whole = gluing the splits *)
Example ex_clean : break_output ex_prefix 1 2 (joined ex_segs) = Some (pieces_of_segs ex_prefix 1 2 ex_segs).
Proof. vm_compute. reflexivity. Qed.
Example ex_inputs : output_inputs ex_prefix 1 2 ex_path ex_segs = [(3, 15); (5, 2)].
Proof. vm_compute. reflexivity. Qed.
Example ex_total : total_bytes ex_prefix 1 2 ex_path ex_segs [] = 23.
Proof. vm_compute. reflexivity. Qed.
Example ex_paths_nonempty : forall k i, is_ref k = true -> ex_path k i <> [].
Proof. intros; discriminate. Qed.
Example ex_outs : list_outputs [] [([97], [1]); ([98], []); ([97], [2]); ([98], [3])] = [([97], [1]); ([98], [3])].
Proof. vm_compute. reflexivity. Qed.

From Coq Require Import String.
From V Require Import C19.Json C19.JsonSpec C19.JsonProofs C19.Layout C19.LayoutProofs C19.SubstProofs C19.Doc C19.DocProofs.

(* a, DQUOTE, U+2028, U+1F600, LF, a WTF-8 high surrogate: hypotheses of json_quote_roundtrip, and its conclusion evaluated *)
Definition ex_text : bytes := [97; 34; 226; 128; 168; 240; 159; 152; 128; 10; 237; 160; 189].
Example ex_text_ok : bytes_ok (ex_text ++ [255]).
Proof. apply bytes_okb_ok. reflexivity. Qed.
Example ex_text_quoted : quote_for_json false ex_text =
  [34; 97; 92; 34; 226; 128; 168; 240; 159; 152; 128; 92; 110; 92; 117; 68; 56; 51; 68; 34].
Proof. vm_compute. reflexivity. Qed.
Example ex_text_back : jstring (quote_for_json true ex_text) = Some ([97; 34; 8232; 55357; 56832; 10; 55357], []).
Proof. vm_compute. reflexivity. Qed.

(* an invalid byte is written as an escaped U+FFFD under both charsets *)
Example ex_invalid_byte : quote_for_json false [97; 255] = [34; 97; 92; 117; 70; 70; 70; 68; 34]
  /\ jstring (quote_for_json false [97; 255]) = Some ([97; 65533], []).
Proof. split; vm_compute; reflexivity. Qed.
(* hypotheses of final_path_roundtrip: a path with quotation mark, backslash, TAB and a two-byte character *)
Example ex_path_ok : path_ok ([100; 34; 113; 92; 9; 195; 169]) /\
  escape_final [100; 34; 113; 92; 9; 195; 169] = [100; 92; 34; 113; 92; 92; 92; 117; 48; 48; 48; 57; 195; 169].
Proof. split; [split; [apply bytes_okb_ok|]|]; reflexivity. Qed.

(* a build with two chunks (0 imports 1 dynamically and an external package), an
   asset-free CSS bundle reference and one input: hypotheses of metafile_faithful *)
Definition ex_pfx : bytes := [80; 81; 82; 83].
(* the final path of chunk 1 contains a quotation mark, a backslash and a TAB *)
Definition ex_out (k i : Z) : bytes := if i =? 0 then b "out/a.js" else b "out/c/d""q\-ABCD.js" ++ [9; 195; 169].
Definition ex_c0 : chunk :=
  mkChunk true [mkImp (PRef 2 1) (b "dynamic-import") false; mkImp (PLit (b "fs""x")) (b "import-statement") true]
          [b "v"] (Some (b "a.js")) None [(b "a.js", 57)] true 65.
Definition ex_c1 : chunk := mkChunk true [] [] None None [(b "d.js", 11)] true 37.
Definition ex_link_outs : list (bytes * chunk) := link_results ex_out [] [ex_c0; ex_c1] ++ [(b "out/a.js", ex_c1)].
Definition ex_ins : list input :=
  [mkInput (b "a.js") 44 [mkIImp (b "d.js") (b "dynamic-import") false (Some (b "./d.js")) [(b "type", b "json")]; mkIImp (b "inject.js") (b "import-statement") false None []] (Some (b "esm")) []].

Example ex_prefix_plain : forallb plain ex_pfx = true.
Proof. reflexivity. Qed.
Example ex_doc_clean : forall pc, In pc ex_link_outs -> clean ex_pfx 0 2 (pof [] (frags true (chunk_lj false (snd pc)))).
Proof.
  (* for each of the three results: evaluate its piece list, then show that list clean *)
  intros pc Hin. cbn in Hin. destruct Hin as [<-|[<-|[<-|[]]]]; cbn [snd];
    match goal with |- clean _ _ _ ?ps => let v := eval vm_compute in ps in change ps with v end.
  - apply clean_cons; try reflexivity; try lia. apply clean_last. reflexivity.
  - apply clean_last. reflexivity.
  - apply clean_last. reflexivity.
Qed.
Example ex_doc_ok : lj_ok (paths_ok ex_out) (doc_lj false ex_ins ex_link_outs).
Proof.
  apply (lj_okb_ok _ (fun k i => bytes_okb (ex_out k i) && utf8_valid (List.length (ex_out k i)) (ex_out k i)));
    [|vm_compute; reflexivity].
  intros k i [H1 H2]%andb_true_iff. split; [apply bytes_okb_ok, H1|exact H2].
Qed.
(* the first result of a path wins: out/a.js is listed once, with chunk 0 *)
Example ex_doc_value : parse_json (metafile_of false true ex_pfx 0 2 ex_out ex_ins ex_link_outs) = Some (doc_jv ex_out ex_ins ex_link_outs)
  /\ map fst (dedup_first [] ex_link_outs) = [b "out/a.js"; ex_out 2 1].
Proof.
  split; [|vm_compute; reflexivity].
  exact (metafile_faithful_all false true ex_pfx 0 2 ex_out ex_ins ex_link_outs ex_prefix_plain ex_doc_clean ex_doc_ok).
Qed.
(* imports_resolve: chunk index 1 < 2 chunks *)
Example ex_resolve : In (ex_out 2 1) (map fst (dedup_first [] (link_results ex_out [] [ex_c0; ex_c1]))).
Proof. vm_compute. right. left. reflexivity. Qed.
(* hypotheses of clean_text_is_split_at_its_keys *)
Example ex_clean_pieces : clean ex_pfx 0 2 [mkPiece [34] 1 2; mkPiece [34; 125] 0 0].
Proof. apply clean_cons; try reflexivity; try lia. apply clean_last. reflexivity. Qed.

(* the dual-package situation: index 2 = node_modules/dual/module.js, its
   secondary node_modules/dual/main.js was visited as index 3 *)
From V Require Import C19.Scan C19.ScanProofs.
Definition ex_paths (i : Z) : bytes := nth (Z.to_nat i) [b "entry.js"; b "other.js"; b "node_modules/dual/module.js"; b "node_modules/dual/main.js"] [].
Definition ex_rec : irec := mkRec (Some 2) true (Some (b "/w/node_modules/dual/main.js")) (b "dual") (b "import-statement") [].
Definition ex_visited : list (bytes * Z) := [(b "/w/entry.js", 0); (b "/w/node_modules/dual/main.js", 3)].
Example ex_final_target : final_target ex_visited ex_rec = Some 3
  /\ ii_path (import_of ex_paths ex_visited ex_rec) = b "node_modules/dual/main.js"
  /\ final_target [] ex_rec = Some 2.
Proof. repeat split; vm_compute; reflexivity. Qed.
