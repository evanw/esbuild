(* The theorems of C19 about the metafile: byte counts and listings, the JSON text and
   what it parses to, path substitution inside it, which file an import names.  Each is
   proved by a lemma of a proof file. *)
From Coq Require Import String.
From V Require Import Common.Base C18.Pieces C18.PiecesProofs C19.Metafile C19.MetafileProofs
  C19.Json C19.JsonSpec C19.JsonProofs C19.Layout C19.LayoutProofs C19.SubstProofs C19.Doc C19.DocProofs C19.Scan C19.ScanProofs.

(* accurateFinalByteCount is the length of what substituteFinalPaths produces,
   when both obtain their paths the same way (pathOf) *)
Theorem accurate_count : forall pathOf ps,
  Pieces.accurate_count pathOf ps = Z.of_nat (length (substitute pathOf ps)).
Proof. exact accurate_count_length. Qed.
Print Assumptions accurate_count.

(* The bytes attributed to the inputs of an output never exceed its size,
   provided splitting the whole output agrees with splitting each segment on
   its own (the prefix occurs only in well-formed keys and never across a
   segment border) *)
Theorem inputs_sum_le_total : forall prefix nf nc pathOf segs trailer,
  break_output prefix nf nc (joined segs) = Some (pieces_of_segs prefix nf nc segs) ->
  sum_over prefix nf nc pathOf (meta_order segs []) segs <= total_bytes prefix nf nc pathOf segs trailer.
Proof. exact inputs_sum_le_total_all. Qed.
Print Assumptions inputs_sum_le_total.

(* An input is reported with bytesInOutput = 0 exactly when every slice of
   code it contributed is empty (paths substituted for keys being non-empty) *)
Theorem zero_iff_no_bytes : forall prefix nf nc pathOf s,
  (forall k i, is_ref k = true -> pathOf k i <> []) ->
  forall segs, bytes_in_output prefix nf nc pathOf s segs = 0 <-> (forall b, In (Some s, b) segs -> b = []).
Proof. exact bio_zero_iff. Qed.
Print Assumptions zero_iff_no_bytes.

(* generateChunkJS lists every contributing input once ... *)
Theorem js_inputs_listed_once : forall segs, NoDup (meta_order segs []).
Proof. exact (fun segs => meta_order_nodup segs []). Qed.
Print Assumptions js_inputs_listed_once.

(* ... and so does generateChunkCSS (a CSS file imported twice with different
   conditions is one entry with the sum of its copies) *)
Theorem css_inputs_listed_once : forall prefix nf nc pathOf segs,
  NoDup (map fst (css_output_inputs prefix nf nc pathOf segs)).
Proof. exact css_inputs_keys_unique. Qed.
Print Assumptions css_inputs_listed_once.

(* generateMetadataJSON lists every output path that has a metadata chunk
   exactly once, and the entry kept is the first one *)
Theorem outputs_listed_once : forall rs,
  NoDup (map fst (list_outputs [] rs)) /\
  (forall p, In p (map fst (list_outputs [] rs)) <-> exists j, In (p, j) rs /\ j <> []) /\
  (forall p j, In (p, j) (list_outputs [] rs) ->
     exists pre post, rs = pre ++ (p, j) :: post /\ (forall j', In (p, j') pre -> j' = [])).
Proof. exact outputs_listed_once_all. Qed.
Print Assumptions outputs_listed_once.

(* helpers.QuoteForJSON: for every byte string (control characters, quotation
   marks, backslashes, U+2028/9, astral characters, WTF-8 surrogates, invalid
   bytes, which read as U+FFFD) and both charsets the RFC 8259 string parser
   reads the output back as exactly the UTF-16 units of the string, and stops
   right after the closing quotation mark (the model follows fix 6fea80b: no proviso on s
   beyond being bytes) *)
Theorem json_quote_roundtrip : forall ascii s rest,
  bytes_ok s ->
  jstring (quote_for_json ascii s ++ rest) = Some (units s, rest).
Proof. exact json_quote_roundtrip_all. Qed.
Print Assumptions json_quote_roundtrip.

(* escapeFinalPath: a final path that is well-formed UTF-8 - whatever
   quotation marks, backslashes and control characters it contains - written
   between quotation marks is read back as exactly the path (the model follows fix b608b91) *)
Theorem final_path_roundtrip : forall p rest, path_ok p ->
  jstring (34 :: escape_final p ++ 34 :: rest) = Some (units p, rest).
Proof. exact (fun p rest H => final_path_read p rest (proj2 H)). Qed.
Print Assumptions final_path_roundtrip.

(* every text written the way esbuild writes its JSON (Layout.lj) is accepted
   by the RFC 8259 parser and denotes the value it was written from *)
Theorem json_text_roundtrip : forall ascii sfok ru rq t trailer,
  sf_reads sfok ru rq -> lj_ok sfok t -> all_ws trailer = true ->
  parse_json (render ascii rq t ++ trailer) = Some (erase ru t).
Proof. exact parse_render_all. Qed.
Print Assumptions json_text_roundtrip.

(* breakOutputIntoPieces finds exactly the keys of a text in which the prefix
   occurs nowhere else (converse of C18.pieces_lossless) *)
Theorem clean_text_is_split_at_its_keys : forall prefix nf nc ps,
  clean prefix nf nc ps ->
  break_output prefix nf nc (join_with_keys prefix ps) = Some ps.
Proof. exact (fun prefix nf nc ps H => break_clean prefix nf nc ps H _ (Nat.lt_succ_diag_r _)). Qed.
Print Assumptions clean_text_is_split_at_its_keys.

(* the JSON piece of an output after substituteFinalPaths is the same tree with
   the escaped final paths between the quotation marks (whatever their length
   and characters); it parses to the description *)
Theorem substitution_keeps_wellformed : forall mini ascii prefix nf nc pathOf c,
  forallb plain prefix = true ->
  clean prefix nf nc (pof [] (frags ascii (chunk_lj mini c))) ->
  lj_ok (paths_ok pathOf) (chunk_lj mini c) ->
  chunk_final mini ascii prefix nf nc pathOf c = render ascii (rq_final pathOf) (chunk_lj mini c) /\
  parse_json (chunk_final mini ascii prefix nf nc pathOf c) = Some (chunk_jv pathOf c).
Proof.
  exact (fun mini ascii prefix nf nc pathOf c Hp Hc Hok =>
    conj (chunk_final_text mini ascii prefix nf nc pathOf c Hp Hc)
         (chunk_final_parses mini ascii prefix nf nc pathOf c Hp Hc Hok)).
Qed.
Print Assumptions substitution_keeps_wellformed.

(* the "bytes" member is the number handed to jsonMetadataChunkCallback *)
Theorem bytes_is_callback_argument : forall pathOf c,
  In (ju "bytes"%string, JNum (dec (c_bytes c))) (match chunk_jv pathOf c with JObj ms => ms | _ => [] end).
Proof. exact bytes_member. Qed.
Print Assumptions bytes_is_callback_argument.

Theorem metafile_wellformed : forall mini ascii prefix nf nc pathOf ins outs,
  forallb plain prefix = true ->
  (forall pc, In pc outs -> clean prefix nf nc (pof [] (frags ascii (chunk_lj mini (snd pc))))) ->
  lj_ok (paths_ok pathOf) (doc_lj mini ins outs) ->
  exists v, parse_json (metafile_of mini ascii prefix nf nc pathOf ins outs) = Some v.
Proof.
  exact (fun mini ascii prefix nf nc pathOf ins outs Hp Hc Hok =>
    ex_intro _ _ (metafile_faithful_all mini ascii prefix nf nc pathOf ins outs Hp Hc Hok)).
Qed.
Print Assumptions metafile_wellformed.

(* parsing the metafile gives back the descriptions: inputs in order, every
   output path once (first result wins), imports / exports / entryPoint /
   cssBundle / inputs / bytes of each output as described, unique keys replaced
   by the final paths *)
Theorem metafile_faithful : forall mini ascii prefix nf nc pathOf ins outs,
  forallb plain prefix = true ->
  (forall pc, In pc outs -> clean prefix nf nc (pof [] (frags ascii (chunk_lj mini (snd pc))))) ->
  lj_ok (paths_ok pathOf) (doc_lj mini ins outs) ->
  parse_json (metafile_of mini ascii prefix nf nc pathOf ins outs) = Some (doc_jv pathOf ins outs)
  /\ NoDup (map fst (dedup_first [] outs)).
Proof.
  exact (fun mini ascii prefix nf nc pathOf ins outs Hp Hc Hok =>
    conj (metafile_faithful_all mini ascii prefix nf nc pathOf ins outs Hp Hc Hok) (dedup_nodup outs [])).
Qed.
Print Assumptions metafile_faithful.

(* the path written for the unique key of chunk j (0 <= j < number of chunks:
   C18.references_resolve) or of an asset whose additional file is among the
   results is a key of outputs *)
Theorem imports_resolve : forall (pathOf : Z -> Z -> bytes) (extra : list (bytes * chunk)) (chunks : list chunk) k j,
  (k = 2 -> 0 <= j < Z.of_nat (length chunks)) ->
  (k <> 2 -> In (pathOf k j) (map fst extra)) ->
  In (pathOf k j) (map fst (dedup_first [] (link_results pathOf extra chunks))).
Proof. exact (@imports_resolve_all chunk). Qed.
Print Assumptions imports_resolve.

(* the dual-package re-pointing of processScannedFiles: a record whose secondary path was
   visited finally denotes that file ... *)
Theorem hazard_repoints_to_visited_secondary : forall visited r key j,
  r_secondary r = Some key -> visited_index key visited = Some j -> repoint visited r = Some j.
Proof. exact repoint_secondary. Qed.
Print Assumptions hazard_repoints_to_visited_secondary.

(* ... and the metafile names, for every import, the path of the file the
   record FINALLY denotes (the index the linker follows), as a member "path"
   of the corresponding element of inputs[f].imports *)
Theorem input_import_path_is_final_target : forall paths visited self size records format attrs r j,
  In r records -> final_target visited r = Some j ->
  ii_path (import_of paths visited r) = paths j /\ ii_external (import_of paths visited r) = false /\
  exists rest, In (JObj ((ju "path"%string, JStr (units (paths j))) :: rest))
                  (imports_of_input (input_jv (scan_input paths visited self size records format attrs))).
Proof.
  exact (fun paths visited self size records format attrs r j Hin Ht =>
    conj (proj1 (import_of_target paths visited r j Ht))
      (conj (proj2 (import_of_target paths visited r j Ht))
        (scan_input_lists_final_target paths visited self size records format attrs r j Hin Ht))).
Qed.
Print Assumptions input_import_path_is_final_target.

(* if the files read into the bundle are closed under those final targets,
   every listed import that is not external is a key of the inputs section *)
Theorem input_imports_resolve : forall paths visited (files : list sfile),
  (forall f r j, In f files -> In r (sf_records f) -> final_target visited r = Some j ->
     In j (map sf_index files)) ->
  forall i imp, In i (map (sf_input paths visited) files) -> In imp (in_imports i) ->
    ii_external imp = false -> In (ii_path imp) (map in_path (map (sf_input paths visited) files)).
Proof. exact inputs_closed_all. Qed.
Print Assumptions input_imports_resolve.
