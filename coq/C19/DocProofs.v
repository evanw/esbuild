(* The metafile text of the model is the text of one JSON tree (Doc.v); it parses, and
   parses back to the descriptions of inputs and outputs it was written from. *)
From Coq Require Import String.
From V Require Import Common.Base C01.Utf C01.Quote C18.Pieces C18.PiecesProofs
  C19.Json C19.JsonSpec C19.JsonProofs C19.Layout C19.LayoutProofs C19.SubstProofs
  C19.Metafile C19.MetafileProofs C19.Doc.

Definition rq_final (pathOf : Z -> Z -> bytes) : Z -> Z -> bytes := fun k i => 34 :: escape_final (pathOf k i) ++ [34].

(* a final path: bytes forming well-formed UTF-8 (any characters, including
   quotation marks, backslashes and control characters) *)
Definition path_ok (p : bytes) : Prop := bytes_ok p /\ utf8_valid (length p) p = true.
Definition paths_ok (pathOf : Z -> Z -> bytes) : Z -> Z -> Prop := fun k i => path_ok (pathOf k i).
Definition path_units (pathOf : Z -> Z -> bytes) : Z -> Z -> list Z := fun k i => units (pathOf k i).

Lemma sf_final pathOf : sf_reads (paths_ok pathOf) (path_units pathOf) (rq_final pathOf).
Proof.
  intros k i [_ Hv]. exists (escape_final (pathOf k i)). split; [reflexivity|].
  apply escape_final_reads; [lia|exact Hv].
Qed.

Lemma pof_not_nil : forall fs acc, pof acc fs <> [].
Proof. induction fs as [|[s|k i] fs IH]; intro acc; cbn [pof]; [discriminate|apply IH|discriminate]. Qed.

Lemma clean_refs prefix nf nc : forall fs acc, clean prefix nf nc (pof acc fs) -> refs_ok fs.
Proof.
  induction fs as [|f fs IH]; intros acc Hc k i Hin; [destruct Hin|].
  destruct f as [s|k' i']; cbn [pof] in Hc.
  - destruct Hin as [E|Hin]; [discriminate|]. exact (IH _ Hc k i Hin).
  - inversion Hc as [d Ho Hd|d k0 i0 r Hk Hi H1 H2 Hx Hr]; subst.
    { exfalso. eapply pof_not_nil. symmetry. eassumption. }
    destruct Hin as [E|Hin].
    + inversion E; subst. exact Hk.
    + exact (IH _ Hr k i Hin).
Qed.

Lemma chunk_final_text mini ascii prefix nf nc pathOf c :
  forallb plain prefix = true ->
  clean prefix nf nc (pof [] (frags ascii (chunk_lj mini c))) ->
  chunk_final mini ascii prefix nf nc pathOf c = render ascii (rq_final pathOf) (chunk_lj mini c).
Proof.
  intros Hp Hc. unfold chunk_final, chunk_pre.
  pose proof (clean_refs _ _ _ _ _ Hc) as Hr.
  rewrite <- (flat_frags ascii (key_bytes prefix) _ (fun k i => key_quoted ascii prefix k i Hp)).
  destruct (substitute_text prefix nf nc (final_path pathOf) _ Hr Hc) as (o & Ho & Hs).
  rewrite Ho, Hs.
  apply (flat_frags ascii (final_path pathOf) (rq_final pathOf) (fun k i => eq_refl)).
Qed.

(* every output path once, the first result of a path wins: [list_outputs] on descriptions
   rather than texts *)
Fixpoint dedup_first {A} (seen : list bytes) (l : list (bytes * A)) : list (bytes * A) :=
  match l with
  | [] => []
  | pa :: r => if bmem (fst pa) seen then dedup_first seen r else pa :: dedup_first (fst pa :: seen) r
  end.

Lemma list_outputs_map {A} (g : A -> bytes) : (forall a, g a <> []) ->
  forall l seen, list_outputs seen (map (fun pa => (fst pa, g (snd pa))) l)
               = map (fun pa => (fst pa, g (snd pa))) (dedup_first seen l).
Proof.
  intro Hg. induction l as [|[p a] l IH]; intro seen; [reflexivity|].
  cbn [map list_outputs dedup_first fst snd].
  destruct (g a) eqn:E; [exfalso; exact (Hg a E)|]. rewrite <- E.
  destruct (bmem p seen); [apply IH|]. cbn [map fst snd]. rewrite IH. reflexivity.
Qed.

(* so dedup_first lists what list_outputs lists when every result has a chunk *)
Lemma dedup_fst {A} (l : list (bytes * A)) seen :
  map fst (dedup_first seen l) = map fst (list_outputs seen (map (fun pa => (fst pa, [0])) l)).
Proof.
  rewrite (list_outputs_map (fun _ => [0])) by discriminate. rewrite map_map. reflexivity.
Qed.

Lemma dedup_nodup {A} (l : list (bytes * A)) seen : NoDup (map fst (dedup_first seen l)).
Proof. rewrite dedup_fst. apply list_outputs_nodup. Qed.

Lemma dedup_complete {A} (l : list (bytes * A)) p :
  In p (map fst l) -> In p (map fst (dedup_first [] l)).
Proof.
  intros ([q a] & <- & H)%in_map_iff. rewrite dedup_fst.
  apply (list_outputs_complete _ _ _ [0]); [|discriminate|intros []].
  exact (in_map (fun pa => (fst pa, [0])) _ _ H).
Qed.

Definition doc_lj (mini : bool) (ins : list input) (outs : list (bytes * chunk)) : lj :=
  LObj [(nl mini 2, K "inputs"%string, sp mini,
         LObj (map (fun i => (nl mini 4, SQ (in_path i), sp mini, input_lj mini i)) ins) (nl mini 2));
        (nl mini 2, K "outputs"%string, sp mini,
         LObj (map (fun pc => (nl mini 4, SQ (fst pc), sp mini, chunk_lj mini (snd pc))) (dedup_first [] outs)) (nl mini 2))]
       (w mini [10]).

Lemma join_true mini {A} (g : A -> bytes) (l : list A) :
  join_chunks mini true (map g l) = commas (map (fun x => nl mini 4 ++ g x) l).
Proof.
  destruct l as [|x l]; [reflexivity|]. cbn [map join_chunks]. rewrite app_assoc. revert x.
  induction l as [|y l IH]; intro x; [apply app_nil_r|].
  cbn [map] in *. rewrite commas_cons2, <- IH. cbn [join_chunks app]. rewrite <- !app_assoc. reflexivity.
Qed.

Lemma render_nonempty ascii rq mini c : render ascii rq (chunk_lj mini c) <> [].
Proof. unfold chunk_lj. cbn [render]. discriminate. Qed.

Lemma input_json_nonempty mini ascii rq : forall ins,
  filter (fun c => negb (is_nil c)) (map (input_json mini ascii rq) ins) = map (input_json mini ascii rq) ins.
Proof.
  induction ins as [|i ins IH]; [reflexivity|]. cbn [map filter].
  unfold input_json at 1, quote_for_json. cbn [app is_nil negb]. rewrite IH. reflexivity.
Qed.

Lemma metafile_as_tree mini ascii rq ins outs :
  metafile_bytes mini ascii (map (input_json mini ascii rq) ins)
    (map (fun pc => (fst pc, render ascii rq (chunk_lj mini (snd pc)))) outs)
  = render ascii rq (doc_lj mini ins outs) ++ [10].
Proof.
  unfold metafile_bytes. rewrite input_json_nonempty.
  rewrite (list_outputs_map (fun c => render ascii rq (chunk_lj mini c)) (render_nonempty ascii rq mini)).
  rewrite map_map. cbn [fst snd].
  rewrite !join_true.
  unfold doc_lj. cbn [render map commas render_ls K qlit].
  rewrite !map_map. unfold input_json.
  (* the same bytes on both sides, up to the bracketing of ++ *)
  unfold qlit. repeat (first [rewrite <- app_assoc | progress (cbn [app])]).
  reflexivity.
Qed.

Lemma nl_ws mini n : all_ws (nl mini n) = true.
Proof.
  unfold nl, w. destruct mini.
  - cbn [remove_ws filter]. change ((10 =? 32) || (10 =? 10)) with true. cbn [negb].
    induction n as [|n IH]; [reflexivity|]. cbn [repeat filter]. exact IH.
  - cbn [all_ws forallb]. change (is_ws 10) with true. cbn [andb].
    induction n as [|n IH]; [reflexivity|]. cbn [repeat forallb]. exact IH.
Qed.

Lemma metafile_parses mini ascii prefix nf nc pathOf ins outs :
  forallb plain prefix = true ->
  (forall pc, In pc outs -> clean prefix nf nc (pof [] (frags ascii (chunk_lj mini (snd pc))))) ->
  lj_ok (paths_ok pathOf) (doc_lj mini ins outs) ->
  parse_json (metafile_of mini ascii prefix nf nc pathOf ins outs) = Some (erase (path_units pathOf) (doc_lj mini ins outs)).
Proof.
  intros Hp Hc Hok. unfold metafile_of.
  assert (E : map (fun pc => (fst pc, chunk_final mini ascii prefix nf nc pathOf (snd pc))) outs
            = map (fun pc => (fst pc, render ascii (rq_final pathOf) (chunk_lj mini (snd pc)))) outs).
  { apply map_ext_in. intros pc Hin. rewrite chunk_final_text; [reflexivity|exact Hp|apply Hc; exact Hin]. }
  rewrite E. fold (rq_final pathOf). rewrite metafile_as_tree.
  apply (parse_render_all ascii (paths_ok pathOf)); [apply sf_final|exact Hok|reflexivity].
Qed.

(* the results of a link: additional files, then one output per chunk under
   the path of that chunk *)
Fixpoint number {A} (start : Z) (l : list A) : list (Z * A) :=
  match l with [] => [] | x :: r => (start, x) :: number (start + 1) r end.

Definition link_results {A} (pathOf : Z -> Z -> bytes) (extra : list (bytes * A)) (chunks : list A) : list (bytes * A) :=
  extra ++ map (fun jc => (pathOf 2 (fst jc), snd jc)) (number 0 chunks).

Lemma number_in {A} : forall (l : list A) start j, start <= j < start + Z.of_nat (length l) ->
  exists a, In (j, a) (number start l).
Proof.
  induction l as [|x l IH]; intros start j H; [cbn in H; lia|].
  cbn [number]. destruct (Z.eq_dec j start) as [->|Hne]; [exists x; left; reflexivity|].
  destruct (IH (start + 1) j) as [a Ha]; [cbn [length] in H; lia|]. exists a. right. exact Ha.
Qed.

(* the path written for a unique key is a key of "outputs" *)
Lemma imports_resolve_all {A} (pathOf : Z -> Z -> bytes) (extra : list (bytes * A)) (chunks : list A) k j :
  (k = 2 -> 0 <= j < Z.of_nat (length chunks)) ->
  (k <> 2 -> In (pathOf k j) (map fst extra)) ->
  In (pathOf k j) (map fst (dedup_first [] (link_results pathOf extra chunks))).
Proof.
  intros H2 H1. apply dedup_complete.
  unfold link_results. rewrite map_app. apply in_or_app.
  destruct (Z.eq_dec k 2) as [->|Hk]; [right|left; apply H1; exact Hk].
  specialize (H2 eq_refl). rewrite map_map. cbn [fst].
  destruct (number_in chunks 0 j ltac:(lia)) as [a Ha].
  apply in_map_iff. exists (j, a). split; [reflexivity|exact Ha].
Qed.

(* what the metafile must say: the value of a build's descriptions, written without
   reference to the text *)
Definition ju (s : string) : list Z := units (b s).
Definition path_of (pathOf : Z -> Z -> bytes) (p : pref) : bytes :=
  match p with PLit s => s | PRef k i => pathOf k i end.

Definition imp_jv pathOf (i : imp) : jv :=
  JObj ([(ju "path", JStr (units (path_of pathOf (i_path i)))); (ju "kind", JStr (units (i_kind i)))]
        ++ (if i_external i then [(ju "external", JLit 0)] else [])).

Definition chunk_jv pathOf (c : chunk) : jv :=
  JObj ([(ju "imports", JArr (map (imp_jv pathOf) (c_imports c)))]
        ++ (if c_js c then [(ju "exports", JArr (map (fun e => JStr (units e)) (c_exports c)))] else [])
        ++ match c_entry c with Some e => [(ju "entryPoint", JStr (units e))] | None => [] end
        ++ match c_css c with Some p => [(ju "cssBundle", JStr (units (path_of pathOf p)))] | None => [] end
        ++ [(ju "inputs", JObj (map (fun pn => (units (fst pn), JObj [(ju "bytesInOutput", JNum (dec (snd pn)))])) (c_inputs c)));
            (ju "bytes", JNum (dec (c_bytes c)))]).

Definition with_jv (ws : list (bytes * bytes)) : list (list Z * jv) :=
  if is_nil ws then [] else [(ju "with", JObj (map (fun kv => (units (fst kv), JStr (units (snd kv)))) ws))].

Definition iimp_jv (i : iimp) : jv :=
  JObj ([(ju "path", JStr (units (ii_path i))); (ju "kind", JStr (units (ii_kind i)))]
        ++ (if ii_external i then [(ju "external", JLit 0)]
            else match ii_original i with Some o => [(ju "original", JStr (units o))] | None => [] end)
        ++ with_jv (ii_with i)).

Definition input_jv (i : input) : jv :=
  JObj ([(ju "bytes", JNum (dec (in_bytes i))); (ju "imports", JArr (map iimp_jv (in_imports i)))]
        ++ match in_format i with Some f => [(ju "format", JStr (units f))] | None => [] end
        ++ with_jv (in_with i)).

(* every output path once, the first result of a path wins *)
Definition doc_jv pathOf (ins : list input) (outs : list (bytes * chunk)) : jv :=
  JObj [(ju "inputs", JObj (map (fun i => (units (in_path i), input_jv i)) ins));
        (ju "outputs", JObj (map (fun pc => (units (fst pc), chunk_jv pathOf (snd pc))) (dedup_first [] outs)))].

Lemma erase_with pathOf mini n ws :
  map (fun m : bytes * ls * bytes * lj => let '(_, k, _, v) := m in (ls_units (path_units pathOf) k, erase (path_units pathOf) v)) (with_lj mini n ws)
  = with_jv ws.
Proof.
  unfold with_lj, with_jv. destruct (is_nil ws); [reflexivity|].
  cbn [map erase ls_units K]. rewrite map_map. reflexivity.
Qed.

Lemma erase_imp pathOf mini i : erase (path_units pathOf) (imp_lj mini i) = imp_jv pathOf i.
Proof.
  unfold imp_lj, imp_jv. cbn [erase]. rewrite map_app. cbn [map erase ls_units K].
  destruct (i_path i); destruct (i_external i); reflexivity.
Qed.

Lemma erase_chunk pathOf mini c : erase (path_units pathOf) (chunk_lj mini c) = chunk_jv pathOf c.
Proof.
  unfold chunk_lj, chunk_jv. cbn [erase]. rewrite !map_app. cbn [map erase ls_units K].
  rewrite !map_map. cbn [snd fst].
  rewrite (map_ext _ _ (erase_imp pathOf mini)).
  do 3 f_equal; [destruct (c_js c); [cbn [map erase ls_units K]; rewrite map_map|]; reflexivity|].
  f_equal; [destruct (c_entry c); reflexivity|].
  f_equal. destruct (c_css c) as [[s|k i]|]; reflexivity.
Qed.

Lemma erase_iimp pathOf mini i : erase (path_units pathOf) (iimp_lj mini i) = iimp_jv i.
Proof.
  unfold iimp_lj, iimp_jv. cbn [erase]. rewrite !map_app, erase_with. cbn [map erase ls_units K].
  destruct (ii_external i); [reflexivity|]. destruct (ii_original i); reflexivity.
Qed.

Lemma erase_input pathOf mini i : erase (path_units pathOf) (input_lj mini i) = input_jv i.
Proof.
  unfold input_lj, input_jv. cbn [erase]. rewrite !map_app, erase_with. cbn [map erase ls_units K].
  rewrite !map_map. cbn [snd]. rewrite (map_ext _ _ (erase_iimp pathOf mini)).
  destruct (in_format i); reflexivity.
Qed.

Lemma erase_doc pathOf mini ins outs : erase (path_units pathOf) (doc_lj mini ins outs) = doc_jv pathOf ins outs.
Proof.
  unfold doc_lj, doc_jv. cbn [erase map ls_units K]. rewrite !map_map.
  f_equal. f_equal; [|f_equal].
  - f_equal. f_equal. apply map_ext. intro i. cbn [ls_units]. rewrite erase_input. reflexivity.
  - f_equal. f_equal. apply map_ext. intro pc. cbn [ls_units]. rewrite erase_chunk. reflexivity.
Qed.

Lemma metafile_faithful_all mini ascii prefix nf nc pathOf ins outs :
  forallb plain prefix = true ->
  (forall pc, In pc outs -> clean prefix nf nc (pof [] (frags ascii (chunk_lj mini (snd pc))))) ->
  lj_ok (paths_ok pathOf) (doc_lj mini ins outs) ->
  parse_json (metafile_of mini ascii prefix nf nc pathOf ins outs) = Some (doc_jv pathOf ins outs).
Proof.
  intros. rewrite <- (erase_doc pathOf mini). apply metafile_parses; assumption.
Qed.

Lemma chunk_final_parses mini ascii prefix nf nc pathOf c :
  forallb plain prefix = true ->
  clean prefix nf nc (pof [] (frags ascii (chunk_lj mini c))) ->
  lj_ok (paths_ok pathOf) (chunk_lj mini c) ->
  parse_json (chunk_final mini ascii prefix nf nc pathOf c) = Some (chunk_jv pathOf c).
Proof.
  intros Hp Hc Hok. rewrite chunk_final_text by assumption.
  rewrite <- (app_nil_r (render _ _ _)). rewrite <- (erase_chunk pathOf mini).
  apply (parse_render_all ascii (paths_ok pathOf)); [apply sf_final|exact Hok|reflexivity].
Qed.

(* the number written as "bytes" is the one handed to the callback: the length
   of the output after ITS path substitution (Metafile.total_bytes) *)
Lemma bytes_member pathOf c : In (ju "bytes", JNum (dec (c_bytes c)))
  (match chunk_jv pathOf c with JObj ms => ms | _ => [] end).
Proof.
  unfold chunk_jv. repeat (apply in_or_app; right). right. left. reflexivity.
Qed.
