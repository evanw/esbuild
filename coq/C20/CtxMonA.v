(* Soundness of the history monitor (CtxSpec.mon_step) w.r.t. the LTS:
   relation between LTS state and monitor state, preserved by every step. *)
From V Require Import Common.Base C20.CtxLTS C20.CtxSpec C20.CtxProofs.
Local Close Scope Z_scope.
Local Open Scope nat_scope.

Definition owner_pc (s : state) (b : nat) : pc := t_pc (thr s (b_owner (blds s b))).

(* The monitor's build counters read off the LTS state: the Start event of the
   active build is emitted when its owner leaves the on-start phase, so until
   then [m_next] is the build itself; [m_run] is the active build between its
   Start and End events, [m_loaded] whether its owner has read the inputs. *)
Definition next_of (s : state) : nat :=
  match active s with
  | Some b => match owner_pc s b with PRbOnStart _ => b | _ => S b end
  | None => nb s
  end.

Definition run_of (s : state) : option nat * bool :=
  match active s with
  | Some b => match owner_pc s b with
              | PRbPoll _ | PRbLoad _ | PRbEnd _ None => (Some b, false)
              | PRbEnd _ (Some _) => (Some b, true)
              | _ => (None, false)
              end
  | None => (None, false)
  end.

(* phases before the result is written *)
Definition pre_end (p : pc) : option nat :=
  match p with PRbOnStart b | PRbPoll b | PRbLoad b | PRbEnd b _ => Some b | _ => None end.
(* what the owner knows about the version it read *)
Definition load_of (p : pc) : option (nat * option nat) :=
  match p with
  | PRbOnStart b | PRbPoll b | PRbLoad b | PRbEnd b None => Some (b, None)
  | PRbEnd b (Some v) => Some (b, Some v)
  | _ => None
  end.
Definition disp_target (p : pc) : option (option nat) :=
  match p with
  | PDiStop ob | PDiStopWait ob => Some ob
  | PDiWait b => Some (Some b)
  | _ => None
  end.
Definition is_client (k : kind) : bool := match k with KClient _ => true | _ => false end.

(* per pending call *)
Record PInv (s : state) (m : mon) (t : nat) (p : pinfo) : Prop := mkPInv {
  q_next : p_next p <= m_next m;
  q_edits : p_edits p <= m_edits m;
  q_ret : forall b, mem b (p_ret p) = true -> mem b (m_ret m) = true;
  q_disp : p_dispRet p = true -> disposed s = true /\ active s = None /\ t_pc (thr s t) = start_pc (p_op p);
  q_fresh : forall b, ref_of (t_pc (thr s t)) = Some b -> mem b (p_ret p) = false;
  q_quiet1 : p_op p = OpRebuild -> p_quiet p = true -> t_pc (thr s t) = PRbStart ->
             forall b, active s = Some b -> p_next p <= b;
  q_quiet2 : p_op p = OpRebuild -> p_quiet p = true ->
             forall b, ref_of (t_pc (thr s t)) = Some b -> p_next p <= b;
  q_quiet3 : forall b x, p_next p <= b -> lookup b (m_load m) = Some x -> p_edits p <= x;
  q_cancel : p_op p = OpCancel -> forall b, ref_of (t_pc (thr s t)) = Some b -> p_next p <= S b;
  q_dispose : forall ob, disp_target (t_pc (thr s t)) = Some ob ->
              disposed s = true /\ forall b', active s = Some b' -> ob = Some b' }.

(* what relates the monitor to who the threads are *)
Record MIds (s : state) (m : mon) : Prop := mkMIds {
  r_ncalls : m_ncalls m = ncalls s;
  r_watchc : watcher s = true -> m_watchCalled m = true;
  r_internal : forall t, t < nt s -> is_client (t_kind (thr s t)) = false -> watcher s = true;
  r_cancelk : forall t, t < nt s -> t_kind (thr s t) = KClient OpCancel -> m_cancelCalled m = true;
  r_disposek : forall t, t < nt s -> t_kind (thr s t) = KClient OpDispose -> m_dispCalled m = true;
  r_watchk : forall t, t < nt s -> t_kind (thr s t) = KClient OpWatch -> m_watchCalled m = true;
  r_cid : forall t o, t < nt s -> t_kind (thr s t) = KClient o -> t_cid (thr s t) < ncalls s;
  r_ciduniq : forall t1 t2, t1 < nt s -> t2 < nt s ->
              is_client (t_kind (thr s t1)) = true -> is_client (t_kind (thr s t2)) = true ->
              t_cid (thr s t1) = t_cid (thr s t2) -> t1 = t2 }.

(* what relates the monitor to the builds and the context's flags *)
Record MBld (s : state) (m : mon) : Prop := mkMBld {
  r_edits : m_edits m = edits s;
  r_next : m_next m = next_of s;
  r_run : (m_run m, m_loaded m) = run_of s;
  r_result : forall b c ov, b < nb s -> b_result (blds s b) = Some (c, ov) ->
             lookup b (m_end m) = Some c /\ lookup b (m_load m) = ov;
  r_noload : forall b, m_next m <= b -> lookup b (m_load m) = None;
  r_preend : forall t b, t < nt s -> pre_end (t_pc (thr s t)) = Some b -> b_result (blds s b) = None;
  r_loadof : forall t b ov, t < nt s -> load_of (t_pc (thr s t)) = Some (b, ov) -> lookup b (m_load m) = ov;
  r_pubres : forall t b, t < nt s -> t_pc (thr s t) = PRbPublish b -> b_result (blds s b) <> None;
  r_hasres : forall b, b < nb s -> (b_done (blds s b) = true \/ active s <> Some b) -> b_result (blds s b) <> None;
  r_ret : forall b, mem b (m_ret m) = true -> b < nb s /\ b_done (blds s b) = true;
  r_disposed : disposed s = true -> m_dispCalled m = true;
  r_dispret : m_dispRet m = true -> disposed s = true /\ active s = None;
  r_watch : m_watchOk m = true -> watcher s = true;
  r_cancel : forall b, b < nb s -> b_cancel (blds s b) = true -> m_cancelCalled m = true }.

Record MInv (s : state) (m : mon) : Prop := mkMInv {
  r_ids :> MIds s m;
  r_bld :> MBld s m;
  r_pend : forall t o, t < nt s -> t_kind (thr s t) = KClient o -> is_ret (t_pc (thr s t)) = false ->
           exists p, find_pend (t_cid (thr s t)) (m_pend m) = Some p /\ p_op p = o /\ PInv s m t p }.

Lemma minv_init : MInv init mon0.
Proof.
  constructor; [constructor | constructor | ]; simpl; intros; try reflexivity; try discriminate; try lia; auto.
Qed.

Lemma find_remove_other : forall c c' l, c' <> c -> find_pend c' (remove_pend c l) = find_pend c' l.
Proof.
  intros c c' l N. induction l as [|p r IH]; simpl; auto.
  destruct (Nat.eqb_spec (p_cid p) c) as [E|E].
  - destruct (Nat.eqb_spec (p_cid p) c'); [congruence|auto].
  - simpl. destruct (Nat.eqb_spec (p_cid p) c'); auto.
Qed.

Lemma find_pend_cid : forall c l p, find_pend c l = Some p -> p_cid p = c.
Proof.
  intros c l p. induction l as [|q r IH]; simpl; [discriminate|].
  destruct (Nat.eqb_spec (p_cid q) c); intros H; [inversion H; subst; auto|auto].
Qed.

Lemma find_pend_rebuild : forall c l p, find_pend c l = Some p -> p_op p = OpRebuild -> rebuild_pending l = true.
Proof.
  intros c l p. unfold rebuild_pending. induction l as [|q r IH]; simpl; [discriminate|].
  destruct (Nat.eqb_spec (p_cid q) c); intros H Ho.
  - inversion H; subst. rewrite Ho. reflexivity.
  - rewrite (IH H Ho). apply orb_true_r.
Qed.

Lemma op_eqb_refl : forall o, op_eqb o o = true. Proof. destruct o; reflexivity. Qed.
Lemma op_eqb_eq : forall a b, op_eqb a b = true -> a = b. Proof. destruct a, b; simpl; congruence. Qed.

Lemma phase_pre_end : forall p b, pre_end p = Some b -> phase_of p = Some b.
Proof. destruct p; simpl; congruence. Qed.
Lemma load_of_phase : forall p b ov, load_of p = Some (b, ov) -> phase_of p = Some b.
Proof. destruct p; simpl; try congruence. destruct ver; congruence. Qed.
Lemma phase_ref : forall p b, phase_of p = Some b -> ref_of p = Some b.
Proof. destruct p; simpl; congruence. Qed.
Lemma start_pc_phase : forall o, phase_of (start_pc o) = None. Proof. destruct o; reflexivity. Qed.

(* the monitor fields that only a call event changes *)
Record same_calls (m m' : mon) : Prop := mkSameCalls {
  sc_ncalls : m_ncalls m' = m_ncalls m;
  sc_disp : m_dispCalled m' = m_dispCalled m;
  sc_watch : m_watchCalled m' = m_watchCalled m;
  sc_cancel : m_cancelCalled m' = m_cancelCalled m }.

(* the monitor fields that only a build event or an edit changes *)
Record same_builds (m m' : mon) : Prop := mkSameBuilds {
  sb_next : m_next m' = m_next m;
  sb_run : m_run m' = m_run m;
  sb_loaded : m_loaded m' = m_loaded m;
  sb_load : m_load m' = m_load m;
  sb_end : m_end m' = m_end m;
  sb_edits : m_edits m' = m_edits m }.

(* the monitor fields that only a return changes *)
Record same_rets (m m' : mon) : Prop := mkSameRets {
  sr_ret : m_ret m' = m_ret m;
  sr_pend : m_pend m' = m_pend m;
  sr_dispRet : m_dispRet m' = m_dispRet m;
  sr_watchOk : m_watchOk m' = m_watchOk m }.

(* MIds looks at the threads through their kinds and call ids: it survives a
   step after which every thread is an old one that kept both, or a goroutine
   of the context's own while there is a watcher *)
Lemma mids_threads : forall s s' m m',
  MIds s m -> same_calls m m' -> ncalls s' = ncalls s ->
  (watcher s = true -> watcher s' = true) ->
  (watcher s' = true -> watcher s = true \/ m_watchCalled m = true) ->
  (forall t, t < nt s' ->
     (t < nt s /\ t_kind (thr s' t) = t_kind (thr s t) /\ t_cid (thr s' t) = t_cid (thr s t)) \/
     (is_client (t_kind (thr s' t)) = false /\ watcher s' = true)) ->
  MIds s' m'.
Proof.
  intros s s' m m' M [E1 E2 E3 E4] Ec Hww Hw K.
  assert (Kc : forall t o, t < nt s' -> t_kind (thr s' t) = KClient o ->
                 t < nt s /\ t_kind (thr s t) = KClient o /\ t_cid (thr s' t) = t_cid (thr s t)).
  { intros t o H0 Kk. destruct (K t H0) as [[L [Ek Ei]]|[C _]]; [|rewrite Kk in C; discriminate].
    rewrite Ek in Kk. auto. }
  constructor; rewrite ?E1, ?E2, ?E3, ?E4, ?Ec.
  - apply (r_ncalls _ _ M).
  - intros H. destruct (Hw H); auto. apply (r_watchc _ _ M); auto.
  - intros t H0 C. destruct (K t H0) as [[L [Ek _]]|[_ W]]; auto.
    rewrite Ek in C. apply Hww, (r_internal _ _ M t L C).
  - intros t H0 Kk. destruct (Kc t _ H0 Kk) as [L [Kk' _]]. apply (r_cancelk _ _ M t L Kk').
  - intros t H0 Kk. destruct (Kc t _ H0 Kk) as [L [Kk' _]]. apply (r_disposek _ _ M t L Kk').
  - intros t H0 Kk. destruct (Kc t _ H0 Kk) as [L [Kk' _]]. apply (r_watchk _ _ M t L Kk').
  - intros t o H0 Kk. destruct (Kc t o H0 Kk) as [L [Kk' ->]]. apply (r_cid _ _ M t o L Kk').
  - intros t1 t2 H1 H2 C1 C2.
    destruct (t_kind (thr s' t1)) as [o1| |] eqn:K1; try discriminate.
    destruct (t_kind (thr s' t2)) as [o2| |] eqn:K2; try discriminate.
    destruct (Kc t1 o1 H1 K1) as [L1 [K1' ->]]. destruct (Kc t2 o2 H2 K2) as [L2 [K2' ->]].
    apply (r_ciduniq _ _ M t1 t2 L1 L2); [rewrite K1' | rewrite K2']; reflexivity.
Qed.

Lemma mids_moves : forall s s' m m' t, MIds s m -> moves s s' t -> same_calls m m' -> MIds s' m'.
Proof.
  intros s s' m m' t M V SC.
  apply (mids_threads s s' m m' M SC (mv_ncalls _ _ _ V)); rewrite ?(mv_watcher _ _ _ V); auto.
  intros t0 H0. rewrite (mv_nt _ _ _ V) in H0. destruct (moves_ids _ _ _ V t0). auto.
Qed.

(* how one step may change what the pending calls were promised *)
Record grows (s s' : state) (m m' : mon) : Prop := mkGrows {
  g_next : m_next m <= m_next m';
  g_edits : m_edits m <= m_edits m';
  g_ret : forall b, mem b (m_ret m) = true -> mem b (m_ret m') = true;
  g_disp : disposed s = true -> disposed s' = true;
  g_active : forall b, active s' = Some b -> active s = Some b \/ (disposed s = false /\ m_next m <= b);
  g_load : forall b x, lookup b (m_load m') = Some x -> lookup b (m_load m) = Some x \/ m_edits m <= x }.

Lemma grows_keep : forall s s' m m', same_builds m m' ->
  (forall b, mem b (m_ret m) = true -> mem b (m_ret m') = true) ->
  (disposed s = true -> disposed s' = true) ->
  (forall b, active s' = Some b -> active s = Some b) ->
  grows s s' m m'.
Proof.
  intros s s' m m' [E1 _ _ E2 _ E3] Hr Hd Ha. constructor; rewrite ?E1, ?E2, ?E3; auto.
Qed.

Lemma pinv_frame : forall s m s' m' t p,
  PInv s m t p -> grows s s' m m' ->
  ref_of (t_pc (thr s' t)) = ref_of (t_pc (thr s t)) ->
  disp_target (t_pc (thr s' t)) = disp_target (t_pc (thr s t)) ->
  (t_pc (thr s' t) = PRbStart -> t_pc (thr s t) = PRbStart) ->
  (p_dispRet p = true -> t_pc (thr s t) = start_pc (p_op p) -> t_pc (thr s' t) = start_pc (p_op p)) ->
  PInv s' m' t p.
Proof.
  intros s m s' m' t p Q [Hn He Hr Hd Ha Hl] Er Edt Es Est.
  destruct Q. constructor; rewrite ?Er, ?Edt; auto; try lia.
  - intros H. destruct (q_disp0 H) as [D1 [D2 D3]]. split; [auto|split; [|auto]].
    destruct (active s') as [b|] eqn:A; auto. destruct (Ha b eq_refl) as [A1|[A1 _]]; congruence.
  - intros Ho Hq Hp b Hb. destruct (Ha b Hb) as [A|[_ A]]; [eauto | lia].
  - intros b x Hb Hx. destruct (Hl b x Hx) as [A|A]; [eauto | lia].
  - intros ob Ho. destruct (q_dispose0 ob Ho) as [D1 D2]. split; auto.
    intros b' Hb'. destruct (Ha b' Hb') as [A|[A _]]; [auto | congruence].
Qed.

Lemma pinv_other : forall s m s' m' t p,
  PInv s m t p -> grows s s' m m' -> thr s' t = thr s t -> PInv s' m' t p.
Proof. intros s m s' m' t p Q G E. eapply pinv_frame; eauto; rewrite E; auto. Qed.

Lemma pend_keep : forall s s' m m' t,
  MInv s m -> moves s s' t -> grows s s' m m' -> m_pend m' = m_pend m ->
  (is_ret (t_pc (thr s' t)) = false -> is_ret (t_pc (thr s t)) = false) ->
  (forall o p, t_kind (thr s t) = KClient o -> is_ret (t_pc (thr s' t)) = false ->
               find_pend (t_cid (thr s t)) (m_pend m) = Some p -> p_op p = o ->
               PInv s m t p -> PInv s' m' t p) ->
  forall t0 o, t0 < nt s' -> t_kind (thr s' t0) = KClient o -> is_ret (t_pc (thr s' t0)) = false ->
    exists p, find_pend (t_cid (thr s' t0)) (m_pend m') = Some p /\ p_op p = o /\ PInv s' m' t0 p.
Proof.
  intros s s' m m' t M V G Ep Hr Hp t0 o H0 K R.
  rewrite (mv_nt _ _ _ V) in H0. destruct (moves_ids _ _ _ V t0) as [Ek Ec]. rewrite Ek in K. rewrite Ec, Ep.
  destruct (Nat.eq_dec t0 t) as [->|N].
  - destruct (r_pend _ _ M t o H0 K (Hr R)) as [p [F [O Q]]]. exists p. eauto.
  - pose proof (mv_other _ _ _ V _ N) as E. rewrite E in R.
    destruct (r_pend _ _ M t0 o H0 K R) as [p [F [O Q]]]. exists p. eauto using pinv_other.
Qed.

Lemma pend_ret : forall s s' m m' t,
  MInv s m -> t < nt s -> moves s s' t -> grows s s' m m' ->
  is_client (t_kind (thr s t)) = true -> is_ret (t_pc (thr s' t)) = true ->
  m_pend m' = remove_pend (t_cid (thr s t)) (m_pend m) ->
  forall t0 o, t0 < nt s' -> t_kind (thr s' t0) = KClient o -> is_ret (t_pc (thr s' t0)) = false ->
    exists p, find_pend (t_cid (thr s' t0)) (m_pend m') = Some p /\ p_op p = o /\ PInv s' m' t0 p.
Proof.
  intros s s' m m' t M Ht V G Kt Rt Ep t0 o H0 K R.
  rewrite (mv_nt _ _ _ V) in H0. destruct (moves_ids _ _ _ V t0) as [Ek Ec]. rewrite Ek in K. rewrite Ec, Ep.
  destruct (Nat.eq_dec t0 t) as [->|N]; [congruence|].
  pose proof (mv_other _ _ _ V _ N) as E. rewrite E in R.
  destruct (r_pend _ _ M t0 o H0 K R) as [p [F [O Q]]]. exists p.
  split; [|eauto using pinv_other].
  rewrite find_remove_other; auto.
  intros C. apply N, (r_ciduniq _ _ M t0 t H0 Ht); auto. rewrite K. reflexivity.
Qed.

Definition next_by (p : pc) (b : nat) : nat := match p with PRbOnStart _ => b | _ => S b end.
Definition run_by (p : pc) (b : nat) : option nat * bool :=
  match p with
  | PRbPoll _ | PRbLoad _ | PRbEnd _ None => (Some b, false)
  | PRbEnd _ (Some _) => (Some b, true)
  | _ => (None, false)
  end.
Definition lov (p : pc) : option nat := match load_of p with Some (_, ov) => ov | None => None end.

Lemma next_run_active : forall s b, active s = Some b ->
  next_of s = next_by (owner_pc s b) b /\ run_of s = run_by (owner_pc s b) b.
Proof. intros s b Ha. unfold next_of, run_of. rewrite Ha. split; reflexivity. Qed.

Lemma next_run_same : forall s s', active s' = active s -> nb s' = nb s ->
  (forall b, active s = Some b -> owner_pc s' b = owner_pc s b) ->
  next_of s' = next_of s /\ run_of s' = run_of s.
Proof.
  intros s s' Ea En Ho. unfold next_of, run_of. rewrite Ea, En.
  destruct (active s) as [b|]; [rewrite (Ho b eq_refl)|]; auto.
Qed.

Lemma sole_phase : forall s t b, SInv s -> t < nt s -> phase_of (t_pc (thr s t)) = Some b ->
  active s = Some b /\ b_owner (blds s b) = t /\
  forall t0 b0, t0 < nt s -> phase_of (t_pc (thr s t0)) = Some b0 -> t0 = t.
Proof.
  intros s t b I Ht P. destruct (i_phase _ I t b Ht P) as [Ha Ho]. repeat split; auto.
  intros t0 b0 H0 P0. apply (one_build_inv s I t0 t b0 b H0 Ht P0 P).
Qed.

(* MBld looks at the threads only through those inside a build phase *)
Definition phases_kept (s s' : state) : Prop :=
  (forall t, t < nt s -> phase_of (t_pc (thr s t)) <> None -> thr s' t = thr s t) /\
  (forall t, t < nt s' -> phase_of (t_pc (thr s' t)) <> None -> t < nt s /\ thr s' t = thr s t).

Lemma moves_phases_kept : forall s s' t, moves s s' t ->
  phase_of (t_pc (thr s t)) = None -> phase_of (t_pc (thr s' t)) = None -> phases_kept s s'.
Proof.
  intros s s' t V P0 P1. split; intros t0 H0 P.
  - apply (mv_other _ _ _ V). congruence.
  - rewrite (mv_nt _ _ _ V) in H0. split; auto. apply (mv_other _ _ _ V). congruence.
Qed.

(* steps outside the build phases: a thread moves or is created, a call
   returns, the waiters of a build that is no longer active are released *)
Lemma mbld_outside : forall s s' m m',
  SInv s -> MBld s m -> phases_kept s s' -> same_builds m m' ->
  active s' = active s -> nb s' = nb s -> edits s' = edits s ->
  (forall b, b_owner (blds s' b) = b_owner (blds s b) /\ b_result (blds s' b) = b_result (blds s b)) ->
  (forall b, b_done (blds s b) = true -> b_done (blds s' b) = true) ->
  (forall b, b_done (blds s' b) = true -> b_done (blds s b) = true \/ active s <> Some b) ->
  (forall b, b_cancel (blds s' b) = true -> b_cancel (blds s b) = true \/ m_cancelCalled m' = true) ->
  (m_cancelCalled m = true -> m_cancelCalled m' = true) ->
  (disposed s = true -> disposed s' = true) ->
  (disposed s' = true -> disposed s = true \/ m_dispCalled m' = true) ->
  (m_dispCalled m = true -> m_dispCalled m' = true) ->
  (forall b, mem b (m_ret m') = true -> mem b (m_ret m) = true \/ (b < nb s /\ b_done (blds s' b) = true)) ->
  (m_dispRet m' = true -> m_dispRet m = true \/ (disposed s = true /\ active s = None)) ->
  (m_watchOk m' = true -> m_watchOk m = true \/ watcher s' = true) ->
  (watcher s = true -> watcher s' = true) ->
  MBld s' m'.
Proof.
  intros s s' m m' I M [K0 K1] [B1 B2 B3 B4 B5 B6] Ea En Ee Eb Hd1 Hd2 Hc Hcc Hdi1 Hdi2 Hdc Hr Hdr Hw Hww.
  destruct (next_run_same s s' Ea En) as [En' Er'].
  { intros b Ha. unfold owner_pc. destruct (Eb b) as [-> _]. destruct (i_act_owner _ I b Ha) as [Ho P].
    rewrite (K0 _ Ho); congruence. }
  assert (Hpc : forall t b, t < nt s' -> phase_of (t_pc (thr s' t)) = Some b -> t < nt s /\ thr s' t = thr s t).
  { intros t b Ht P. apply K1; congruence. }
  constructor; rewrite ?Ea, ?En, ?Ee, ?B1, ?B2, ?B3, ?B4, ?B5, ?B6, ?En', ?Er'.
  - apply (r_edits _ _ M).
  - apply (r_next _ _ M).
  - apply (r_run _ _ M).
  - intros b c ov. destruct (Eb b) as [_ ->]. apply (r_result _ _ M).
  - apply (r_noload _ _ M).
  - intros t b H0 Hpe. destruct (Eb b) as [_ ->].
    destruct (Hpc t b H0 (phase_pre_end _ _ Hpe)) as [H0' E]. rewrite E in Hpe. apply (r_preend _ _ M t b H0' Hpe).
  - intros t b ov H0 Hl.
    destruct (Hpc t b H0 (load_of_phase _ _ _ Hl)) as [H0' E]. rewrite E in Hl. apply (r_loadof _ _ M t b ov H0' Hl).
  - intros t b H0 Hp. destruct (Eb b) as [_ ->].
    destruct (Hpc t b H0) as [H0' E]; [rewrite Hp; reflexivity|]. rewrite E in Hp. apply (r_pubres _ _ M t b H0' Hp).
  - intros b Hb H. destruct (Eb b) as [_ ->]. apply (r_hasres _ _ M b Hb). destruct H as [H|H]; auto.
  - intros b H. destruct (Hr b H) as [H1|H1]; auto. destruct (r_ret _ _ M b H1). auto.
  - intros H. destruct (Hdi2 H); auto. apply Hdc, (r_disposed _ _ M); auto.
  - intros H. destruct (Hdr H) as [H1|[H1 H2]]; auto. destruct (r_dispret _ _ M H1). auto.
  - intros H. destruct (Hw H); auto. apply Hww, (r_watch _ _ M); auto.
  - intros b Hb H. destruct (Hc b H); auto. apply Hcc, (r_cancel _ _ M b Hb); auto.
Qed.

(* a silent step of a thread that is not inside a build *)
Lemma minv_tau : forall s s' m t,
  SInv s -> MInv s m -> t < nt s -> moves s s' t ->
  active s' = active s -> nb s' = nb s -> edits s' = edits s ->
  (disposed s = true -> disposed s' = true) ->
  (disposed s' = true -> disposed s = true \/ m_dispCalled m = true) ->
  (forall b, b_owner (blds s' b) = b_owner (blds s b) /\ b_result (blds s' b) = b_result (blds s b) /\
             b_done (blds s' b) = b_done (blds s b) /\
             (b_cancel (blds s' b) = true -> b_cancel (blds s b) = true \/ m_cancelCalled m = true)) ->
  phase_of (t_pc (thr s t)) = None -> phase_of (t_pc (thr s' t)) = None ->
  (is_ret (t_pc (thr s' t)) = false -> is_ret (t_pc (thr s t)) = false) ->
  (forall o p, t_kind (thr s t) = KClient o -> is_ret (t_pc (thr s' t)) = false ->
               find_pend (t_cid (thr s t)) (m_pend m) = Some p -> p_op p = o ->
               PInv s m t p -> PInv s' m t p) ->
  MInv s' m.
Proof.
  intros s s' m t I M Ht V Ea En Ee Hd1 Hd2 Eb P0 P1 Hret Hp.
  assert (SC : same_calls m m) by (constructor; reflexivity).
  assert (SB : same_builds m m) by (constructor; reflexivity).
  constructor.
  - apply (mids_moves s s' m m t M V SC).
  - apply (mbld_outside s s' m m I M (moves_phases_kept s s' t V P0 P1) SB); auto.
    + intros b. destruct (Eb b) as [E1 [E2 _]]. auto.
    + intros b. destruct (Eb b) as [_ [_ [-> _]]]. auto.
    + intros b. destruct (Eb b) as [_ [_ [-> _]]]. auto.
    + intros b. apply (Eb b).
    + rewrite (mv_watcher _ _ _ V). auto.
  - apply (pend_keep s s' m m t M V); auto.
    apply grows_keep; auto. intros b. rewrite Ea. auto.
Qed.

(* a client call returns from a pc outside the build phases; the state is
   otherwise unchanged; the monitor removes the pending entry *)
Lemma minv_ret : forall s m m' t v o,
  SInv s -> MInv s m -> t < nt s ->
  t_kind (thr s t) = KClient o -> phase_of (t_pc (thr s t)) = None ->
  same_calls m m' -> same_builds m m' ->
  m_pend m' = remove_pend (t_cid (thr s t)) (m_pend m) ->
  (forall b, mem b (m_ret m) = true -> mem b (m_ret m') = true) ->
  (forall b, mem b (m_ret m') = true -> mem b (m_ret m) = true \/ (b < nb s /\ b_done (blds s b) = true)) ->
  (m_dispRet m' = true -> m_dispRet m = true \/ (disposed s = true /\ active s = None)) ->
  (m_watchOk m' = true -> m_watchOk m = true \/ watcher s = true) ->
  MInv (set_pc s t (PRet v)) m'.
Proof.
  intros s m m' t v o I M Ht Kt P0 SC SB Ep Hr1 Hr2 Hdr Hw.
  assert (V : moves s (set_pc s t (PRet v)) t) by (apply moves_set_pc; reflexivity).
  assert (P1 : phase_of (t_pc (thr (set_pc s t (PRet v)) t)) = None) by (rewrite pc_set_pc; reflexivity).
  constructor.
  - apply (mids_moves _ _ _ _ t M V SC).
  - apply (mbld_outside _ _ _ _ I M (moves_phases_kept _ _ t V P0 P1) SB);
      simpl; rewrite ?(sc_cancel _ _ SC), ?(sc_disp _ _ SC); auto.
  - apply (pend_ret _ _ _ _ t M Ht V); simpl; rewrite ?upd_same; auto.
    + apply grows_keep; auto.
    + rewrite Kt. reflexivity.
Qed.

Lemma owner_pc_set_pc : forall s t b p, b_owner (blds s b) = t -> owner_pc (set_pc s t p) b = p.
Proof. intros s t b p Eo. unfold owner_pc. simpl. rewrite Eo, upd_same. reflexivity. Qed.

Lemma phase_after : forall s s' t b, SInv s -> t < nt s -> phase_of (t_pc (thr s t)) = Some b -> moves s s' t ->
  forall t0 b0, t0 < nt s -> phase_of (t_pc (thr s' t0)) = Some b0 -> t0 = t.
Proof.
  intros s s' t b I Ht P V t0 b0 H0 P0. destruct (Nat.eq_dec t0 t) as [|N]; auto.
  rewrite (mv_other _ _ _ V _ N) in P0. destruct (sole_phase s t b I Ht P) as [_ [_ S]]. eauto.
Qed.

Lemma pend_owner : forall s s' m m' t b,
  MInv s m -> moves s s' t -> grows s s' m m' -> m_pend m' = m_pend m ->
  phase_of (t_pc (thr s t)) = Some b ->
  rb_pc (t_pc (thr s' t)) = true -> ref_of (t_pc (thr s' t)) = Some b ->
  forall t0 o, t0 < nt s' -> t_kind (thr s' t0) = KClient o -> is_ret (t_pc (thr s' t0)) = false ->
    exists p, find_pend (t_cid (thr s' t0)) (m_pend m') = Some p /\ p_op p = o /\ PInv s' m' t0 p.
Proof.
  intros s s' m m' t b M V G Ep P0 B1 R1.
  assert (Q : forall p', rb_pc p' = true -> ref_of p' = Some b ->
                p' <> PRbStart /\ disp_target p' = None /\ forall o, p' <> start_pc o).
  { intros p' B H. split; [|split].
    - intros E. rewrite E in H. discriminate.
    - destruct p'; try discriminate; reflexivity.
    - intros o E. rewrite E in B, H. destruct o; discriminate. }
  assert (B0 : rb_pc (t_pc (thr s t)) = true) by (destruct (t_pc (thr s t)); try discriminate; reflexivity).
  pose proof (phase_ref _ _ P0) as R0.
  destruct (Q _ B1 R1) as [N1 [D1 S1]]. destruct (Q _ B0 R0) as [N0 [D0 S0]].
  apply (pend_keep s s' m m' t M V G Ep).
  - intros _. destruct (t_pc (thr s t)); try discriminate; reflexivity.
  - intros o p _ _ _ _ Qp.
    apply (pinv_frame s m s' m' t p Qp G); congruence.
Qed.
(* the owner of the running build moves between the phases before the result is written *)
Lemma minv_owner_move : forall s m m' t b p',
  SInv s -> MInv s m -> t < nt s ->
  pre_end (t_pc (thr s t)) = Some b -> pre_end p' = Some b ->
  same_calls m m' -> same_rets m m' -> m_edits m' = m_edits m -> m_end m' = m_end m ->
  m_next m' = next_by p' b -> (m_run m', m_loaded m') = run_by p' b -> m_next m <= m_next m' ->
  (forall b0, lookup b0 (m_load m') = if Nat.eqb b0 b then lov p' else lookup b0 (m_load m)) ->
  (forall b0 x, lookup b0 (m_load m') = Some x -> lookup b0 (m_load m) = Some x \/ m_edits m <= x) ->
  MInv (set_pc s t p') m'.
Proof.
  intros s m m' t b p' I M Ht P0 P1 SC [R1 R2 R3 R4] Ee En' Enx Er Hn Hl Hl2.
  pose proof (phase_pre_end _ _ P0) as Ph0. pose proof (phase_pre_end _ _ P1) as Ph1.
  destruct (sole_phase s t b I Ht Ph0) as [Ha [Ho _]].
  assert (V : moves s (set_pc s t p') t) by (apply moves_set_pc; reflexivity).
  pose proof (phase_after s _ t b I Ht Ph0 V) as Hoth.
  constructor.
  - apply (mids_moves _ _ _ _ t M V SC).
  - destruct (next_run_active (set_pc s t p') b Ha) as [Nx Rn].
    rewrite (owner_pc_set_pc s t b p' Ho) in Nx, Rn.
    constructor.
    + rewrite Ee. apply (r_edits _ _ M).
    + rewrite Enx, Nx. reflexivity.
    + rewrite Er, Rn. reflexivity.
    + intros b0 c ov Hb Hr. simpl in Hb, Hr. rewrite En', Hl. destruct (Nat.eqb_spec b0 b) as [->|N].
      * rewrite (r_preend _ _ M t b Ht P0) in Hr. discriminate.
      * apply (r_result _ _ M b0 c ov Hb Hr).
    + intros b0 Hb. rewrite Hl. rewrite Enx in Hb. destruct (Nat.eqb_spec b0 b) as [->|N].
      * unfold next_by, lov in *. destruct p'; simpl in *; try discriminate; try lia; auto.
      * apply (r_noload _ _ M). lia.
    + intros t0 b0 H0 Hpe. pose proof (Hoth t0 b0 H0 (phase_pre_end _ _ Hpe)) as ->.
      rewrite pc_set_pc, P1 in Hpe. inversion Hpe; subst b0. apply (r_preend _ _ M t b Ht P0).
    + intros t0 b0 ov H0 Hlo. pose proof (load_of_phase _ _ _ Hlo) as Q.
      pose proof (Hoth t0 b0 H0 Q) as ->. rewrite pc_set_pc in Hlo, Q. rewrite Ph1 in Q. inversion Q; subst b0.
      rewrite Hl, Nat.eqb_refl. unfold lov. rewrite Hlo. reflexivity.
    + intros t0 b0 H0 Hpc.
      assert (t0 = t) as -> by (apply (Hoth t0 b0 H0); rewrite Hpc; reflexivity).
      rewrite pc_set_pc in Hpc. rewrite Hpc in P1. discriminate.
    + apply (r_hasres _ _ M).
    + rewrite R1. apply (r_ret _ _ M).
    + rewrite (sc_disp _ _ SC). apply (r_disposed _ _ M).
    + rewrite R3. apply (r_dispret _ _ M).
    + rewrite R4. apply (r_watch _ _ M).
    + rewrite (sc_cancel _ _ SC). apply (r_cancel _ _ M).
  - apply (pend_owner s _ m m' t b M V); auto.
    + constructor; rewrite ?R1, ?Ee; auto.
    + rewrite pc_set_pc. destruct p'; try discriminate; reflexivity.
    + rewrite pc_set_pc. apply phase_ref, Ph1.
Qed.

(* final poll + on-end callbacks: the result is written *)
Lemma minv_end : forall s m m' t b ov,
  SInv s -> MInv s m -> t < nt s -> t_pc (thr s t) = PRbEnd b ov ->
  same_calls m m' -> same_rets m m' -> m_edits m' = m_edits m -> m_load m' = m_load m ->
  m_next m' = m_next m -> m_run m' = None -> m_loaded m' = false ->
  m_end m' = (b, b_cancel (blds s b)) :: m_end m ->
  MInv (set_pc (set_bld s b (mkBuild (b_owner (blds s b)) (b_cancel (blds s b))
                                     (Some (b_cancel (blds s b), ov)) (b_done (blds s b)))) t (PRbPublish b)) m'.
Proof.
  intros s m m' t b ov I M Ht Hpc SC [R1 R2 R3 R4] Ee El En Er Eld Een.
  assert (Ph0 : phase_of (t_pc (thr s t)) = Some b) by (rewrite Hpc; reflexivity).
  destruct (sole_phase s t b I Ht Ph0) as [Ha [Ho _]].
  set (s1 := set_bld s b _).
  assert (V : moves s (set_pc s1 t (PRbPublish b)) t) by (apply moves_set_pc; reflexivity).
  pose proof (phase_after s _ t b I Ht Ph0 V) as Hoth.
  destruct (next_run_active s b Ha) as [Nx0 Rn0]. unfold owner_pc in Nx0, Rn0. rewrite Ho, Hpc in Nx0, Rn0.
  constructor.
  - apply (mids_moves _ _ _ _ t M V SC).
  - destruct (next_run_active (set_pc s1 t (PRbPublish b)) b Ha) as [Nx Rn].
    rewrite owner_pc_set_pc in Nx, Rn by (simpl; rewrite upd_same; exact Ho).
    constructor.
    + rewrite Ee. apply (r_edits _ _ M).
    + rewrite En, Nx, (r_next _ _ M), Nx0. reflexivity.
    + rewrite Er, Eld, Rn. reflexivity.
    + intros b0 c ov0 Hb Hr. simpl in Hb, Hr. rewrite Een, El. simpl.
      destruct (Nat.eqb_spec b0 b) as [->|N].
      * rewrite upd_same in Hr. inversion Hr as [[Hc Hov]]. rewrite <- Hov. split; auto.
        apply (r_loadof _ _ M t b ov Ht). rewrite Hpc. destruct ov; reflexivity.
      * rewrite upd_other in Hr by auto. apply (r_result _ _ M b0 c ov0 Hb Hr).
    + rewrite En, El. apply (r_noload _ _ M).
    + intros t0 b0 H0 Hpe. pose proof (Hoth t0 b0 H0 (phase_pre_end _ _ Hpe)) as ->.
      rewrite pc_set_pc in Hpe. discriminate.
    + intros t0 b0 ov0 H0 Hlo. pose proof (Hoth t0 b0 H0 (load_of_phase _ _ _ Hlo)) as ->.
      rewrite pc_set_pc in Hlo. discriminate.
    + intros t0 b0 H0 Hp.
      assert (t0 = t) as -> by (apply (Hoth t0 b0 H0); rewrite Hp; reflexivity).
      rewrite pc_set_pc in Hp. inversion Hp; subst b0. simpl. rewrite upd_same. discriminate.
    + intros b0 Hb H. simpl in *. destruct (Nat.eq_dec b0 b) as [->|N].
      * rewrite upd_same. discriminate.
      * rewrite upd_other in H |- * by auto. apply (r_hasres _ _ M b0 Hb H).
    + rewrite R1. intros b0 H. destruct (r_ret _ _ M b0 H) as [H1 H2]. split; auto. simpl.
      destruct (Nat.eq_dec b0 b) as [->|N]; [rewrite upd_same | rewrite upd_other by auto]; auto.
    + rewrite (sc_disp _ _ SC). apply (r_disposed _ _ M).
    + rewrite R3. apply (r_dispret _ _ M).
    + rewrite R4. apply (r_watch _ _ M).
    + rewrite (sc_cancel _ _ SC). intros b0 Hb H. simpl in Hb, H.
      destruct (Nat.eq_dec b0 b) as [->|N]; [rewrite upd_same in H | rewrite upd_other in H by auto];
        apply (r_cancel _ _ M _ Hb H).
  - apply (pend_owner s _ m m' t b M V); auto.
    + constructor; rewrite ?R1, ?Ee, ?En, ?El; auto.
    + rewrite pc_set_pc. reflexivity.
    + rewrite pc_set_pc. reflexivity.
Qed.
