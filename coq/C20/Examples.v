(* Non-vacuity / sanity: concrete values. *)
From V Require Import Common.Base C20.Protocol.

Definition ex_val : value :=
  VMap [([97], VInt 4294967295); ([97;98], VArr [VNull; VBool true; VStr [104;105]]); ([98], VBytes [0;255])].
Example ex_val_wf : wf ex_val = true. Proof. vm_compute. reflexivity. Qed.
Example ex_pkt_roundtrip :
  decodePacket (encodeBody (mkPacket 2147483647 false ex_val)) = DOk (mkPacket 2147483647 false ex_val).
Proof. vm_compute. reflexivity. Qed.
(* keys are sorted on encode *)
Example ex_sorted :
  enc (VMap [([98], VNull); ([97], VBool false)]) = [6; 2;0;0;0; 1;0;0;0; 97; 1;0; 1;0;0;0; 98; 0].
Proof. vm_compute. reflexivity. Qed.
(* negative ints wrap (Go's uint32(v)): detail = -1 is sent as 0xFFFFFFFF *)
Example ex_neg : enc (VInt (-1)) = [2; 255; 255; 255; 255]. Proof. vm_compute. reflexivity. Qed.

From V Require Import C20.CtxLTS C20.CtxSpec.

(* two Rebuild calls; the second joins the build started by the first; a
   Cancel arrives while it runs *)
Definition ex_actions : list action :=
  [ACall OpRebuild; AStep 0%nat; AStep 0%nat;            (* call 0 starts build 0, on-start *)
   ACall OpRebuild; AStep 1%nat;                          (* call 1 joins *)
   AEdit; ACall OpCancel; AStep 2%nat; AStep 2%nat;       (* cancel: lock, set flag *)
   AStep 0%nat; AStep 0%nat; AStep 0%nat; AStep 0%nat;    (* poll (cancelled), end, publish, done+return *)
   AStep 1%nat; AStep 2%nat].                             (* joiner and Cancel return *)
Definition ex_trace : list label :=
  match exec_all init ex_actions with Some (_, tr) => tr | None => [] end.
Example ex_trace_val : ex_trace =
  [LCall 0 OpRebuild; LTau; LStart 0; LCall 1 OpRebuild; LTau; LEdit; LCall 2 OpCancel; LTau; LTau;
   LTau; LEnd 0 true; LTau; LRet 0 OpRebuild (RvBuild 0 true None);
   LRet 1 OpRebuild (RvBuild 0 true None); LRet 2 OpCancel RvUnit].
Proof. vm_compute. reflexivity. Qed.
Example ex_trace_ok : history_ok ex_trace = true. Proof. vm_compute. reflexivity. Qed.

(* the checker discriminates: histories of the code before the fix
   "Cancel and a second Dispose must wait for the running build" are rejected *)
Example ex_bad_cancel : history_ok
  [LCall 0 OpRebuild; LStart 0; LLoad 0 0; LCall 1 OpDispose; LCall 2 OpCancel; LRet 2 OpCancel RvUnit;
   LEnd 0 false; LRet 0 OpRebuild (RvBuild 0 false (Some 0%nat)); LRet 1 OpDispose RvUnit] = false.
Proof. vm_compute. reflexivity. Qed.
Example ex_bad_dispose : history_ok
  [LCall 0 OpRebuild; LStart 0; LLoad 0 0; LCall 1 OpDispose; LCall 2 OpDispose; LRet 2 OpDispose RvUnit;
   LEnd 0 false; LRet 0 OpRebuild (RvBuild 0 false (Some 0%nat)); LRet 1 OpDispose RvUnit] = false.
Proof. vm_compute. reflexivity. Qed.
(* a stale result (the build had been returned before the call was made) is rejected *)
Example ex_bad_stale : history_ok
  [LCall 0 OpRebuild; LStart 0; LLoad 0 0; LEnd 0 false; LRet 0 OpRebuild (RvBuild 0 false (Some 0%nat));
   LEdit; LCall 1 OpRebuild; LRet 1 OpRebuild (RvBuild 0 false (Some 0%nat))] = false.
Proof. vm_compute. reflexivity. Qed.
(* two overlapping builds are rejected *)
Example ex_bad_overlap : history_ok
  [LCall 0 OpRebuild; LCall 1 OpRebuild; LStart 0; LStart 1] = false.
Proof. vm_compute. reflexivity. Qed.

(* no_stale_join is not vacuous: after build 0's waiters were released, a later
   Rebuild call exists and returns build 1 *)
Definition ex_actions2 : list action :=
  [ACall OpRebuild; AStep 0%nat; AStep 0%nat; AStep 0%nat; AStep 0%nat; AStep 0%nat; AStep 0%nat; AStep 0%nat;
   AEdit; ACall OpRebuild; AStep 1%nat; AStep 1%nat; AStep 1%nat; AStep 1%nat; AStep 1%nat; AStep 1%nat; AStep 1%nat].
Example ex_later_call_gets_later_build :
  option_map (fun x => (b_done (blds (fst x) 0%nat), t_pc (thr (fst x) 1%nat))) (exec_all init ex_actions2)
  = Some (true, PRet (RvBuild 1 false (Some 1%nat))).
Proof. vm_compute. reflexivity. Qed.

From V Require Import C20.PluginSpec C20.Plugin.
Definition ex_build : list bact :=
  [AStartBegin 1%nat; AStartBegin 0%nat; AStartEnd 0%nat; AStartEnd 1%nat; ABarrier;
   AInjectResolve; AInjectVisit 7%nat; ALoad 7%nat;
   AVisit 0%nat; AResolve; ALoad 0%nat; AResolveIn 0%nat 0%nat; AResolveIn 0%nat 1%nat; ADeliver 0%nat;
   AVisit 1%nat; AVisit 2%nat; AVisit 1%nat; ALoad 2%nat; ADeliver 2%nat; AResolve; ALoad 1%nat; AResolveIn 1%nat 0%nat; ADeliver 1%nat; AVisit 0%nat; ADeliver 7%nat;
   AWrite; AEndBegin; AEndEnd false; AEndBegin; AEndEnd true].
Example ex_build_trace :
  option_map snd (brun 2 3 bst0 ex_build) =
  Some [PSB 1; PSB 0; PSE 0; PSE 1; PRes; PLoad 7; PRes; PLoad 0; PResK 0 0; PResK 0 1; PLoad 2; PRes; PLoad 1; PResK 1 0; PEB 0 true; PEE 0 false; PEB 1 true; PEE 1 true].
Proof. vm_compute. reflexivity. Qed.
Example ex_build_ok : build_trace_ok 2 3 [PSB 1; PSB 0; PSE 0; PSE 1; PRes; PLoad 0; PLoad 2; PRes; PLoad 1; PEB 0 true; PEE 0 false; PEB 1 true; PEE 1 true] = true.
Proof. vm_compute. reflexivity. Qed.
(* the checker discriminates *)
Example ex_build_bad_barrier : build_trace_ok 2 1 [PSB 0; PSE 0; PSB 1; PLoad 0; PSE 1] = false.
Proof. vm_compute. reflexivity. Qed.
Example ex_build_bad_twice : build_trace_ok 1 1 [PSB 0; PSE 0; PLoad 3; PLoad 3] = false.
Proof. vm_compute. reflexivity. Qed.
Example ex_build_bad_onend : build_trace_ok 1 2 [PSB 0; PSE 0; PEB 0 true; PEE 0 true; PEB 1 true] = false.
Proof. vm_compute. reflexivity. Qed.
(* the inject phase cannot run before the on-start barrier in the model ... *)
Example ex_inject_needs_barrier :
  brun 1 1 bst0 [AStartBegin 0%nat; AInjectResolve] = None.
Proof. vm_compute. reflexivity. Qed.
(* ... and a trace where it does (the seeded change to ScanBundle) is rejected *)
Example ex_build_bad_inject : build_trace_ok 1 1 [PSB 0; PRes; PLoad 0; PSE 0] = false.
Proof. vm_compute. reflexivity. Qed.

From V Require Import C20.ServiceSpec C20.ServiceLTS C20.ServiceProofs.
Definition ex_session : list sact :=
  [SRecv 10 CPlain; SRecv 1 (CCreate 7); SCallback 10; SRespond 1; SRecv 2 (CRebuild 7); SCResp 0; SRespond 10;
   SBuildStart 2; SCallback 2; SRecv 3 (CCancel 7); SCResp 1; SBuildEnd 2; SRespond 3; SRespond 2;
   SRecv 4 (CDispose 7); SRespond 4; SClose; SExit].
Example ex_session_trace : option_map snd (srun sst0 ex_session) =
  Some [ECReq 10; ECReq 1; ESReq 0; ESResp 1; ECReq 2; ECResp 0; ESResp 10; ESReq 1; ECReq 3; ECResp 1;
        ESResp 3; ESResp 2; ECReq 4; ESResp 4; EClose; EExit].
Proof. vm_compute. reflexivity. Qed.
(* the process cannot exit while a context is alive or a request is unanswered *)
Example ex_no_exit_with_context : srun sst0 [SRecv 1 (CCreate 7); SRespond 1; SClose; SExit] = None.
Proof. vm_compute. reflexivity. Qed.
Example ex_no_exit_unanswered : srun sst0 [SRecv 1 CPlain; SClose; SExit] = None.
Proof. vm_compute. reflexivity. Qed.
(* the checker discriminates *)
Example ex_svc_bad_unknown : svc_trace_ok [ECReq 1; ESResp 2] = false. Proof. vm_compute. reflexivity. Qed.
Example ex_svc_bad_twice : svc_trace_ok [ECReq 1; ESResp 1; ESResp 1] = false. Proof. vm_compute. reflexivity. Qed.
Example ex_svc_bad_exit : svc_trace_ok [ECReq 1; EClose; EExit] = false. Proof. vm_compute. reflexivity. Qed.
(* a second dispose, and a cancel, that arrive while the first dispose waits
   for a running build cannot be answered while the build is running ... *)
Example ex_second_dispose_blocked : srun sst0 (wit_second_dispose ++ [SRespond 4]) = None.
Proof. vm_compute. reflexivity. Qed.
Example ex_cancel_after_dispose_blocked : srun sst0 (wit_cancel_after_dispose ++ [SRespond 4]) = None.
Proof. vm_compute. reflexivity. Qed.
(* ... they answer after the build ended and the first dispose finished *)
Example ex_second_dispose_later : option_map snd (srun sst0 (wit_second_dispose ++ [SCResp 0; SBuildEnd 2; SRespond 2; SRespond 3; SRespond 4])) =
  Some [ECReq 1; ESResp 1; ECReq 2; ESReq 0; ECReq 3; ECReq 4; ECResp 0; ESResp 2; ESResp 3; ESResp 4].
Proof. vm_compute. reflexivity. Qed.

(* watch mode: a change during a build triggers one more build *)
From V Require Import C20.WatchServe.
Definition ex_watch : list wact :=
  [XWatch; XFirstStart; XClientRead; XEdit; XClientFinish;           (* first watch-mode build reads v0, edit during it *)
   XWatcher; XWatcher; XWatcher; XWatcher; XWatcher;                  (* check, tick: dirty -> own build, read, publish, set *)
   XWatcher; XWatcher; XServeRecent;                                  (* check, tick: clean; the dev server answers from build 1 *)
   XDisposeStart; XWatcher; XDisposeReturn].
Example ex_watch_trace : option_map snd (wrun ws0 ex_watch) =
  Some [WTau; WTau; WTau; WEdit; WTau; WTau; WBuild 1; WTau; WTau; WTau; WTau; WTau; WServed 1; WTau; WTau; WTau].
Proof. vm_compute. reflexivity. Qed.
Example ex_watch_final : option_map (fun x => (w_watched (fst x), w_wbuilds (fst x), w_dispRet (fst x))) (wrun ws0 ex_watch)
  = Some (1%nat, 1%nat, true).
Proof. vm_compute. reflexivity. Qed.
(* Dispose cannot return while the watcher goroutine is still running *)
Example ex_dispose_waits_for_watcher : wrun ws0 [XWatch; XDisposeStart; XDisposeReturn] = None.
Proof. vm_compute. reflexivity. Qed.
(* the trace specification discriminates: a second watcher build without a new change *)
Example ex_watch_bad : wtrace_ok 0 [WEdit; WBuild 1; WBuild 2] = false.
Proof. vm_compute. reflexivity. Qed.

(* two overlapping Watch calls: exactly one succeeds, and the one that
   fails may be observed to return first (the history of soak seed 3) *)
Example ex_watch_overlap_ok : history_ok
  [LCall 0 OpWatch; LCall 1 OpWatch; LRet 1 OpWatch RvErr; LRet 0 OpWatch RvUnit;
   LCall 2 OpRebuild; LCall 3 OpDispose] = true.
Proof. vm_compute. reflexivity. Qed.
(* the model produces such a trace: call 0 sets the flag, call 1 fails and returns before call 0 returns *)
Example ex_watch_overlap_model :
  option_map snd (exec_all init [ACall OpWatch; ACall OpWatch; AStep 0%nat; AStep 1%nat; AStep 1%nat; AStep 0%nat]) =
  Some [LCall 0 OpWatch; LCall 1 OpWatch; LTau; LTau; LRet 1 OpWatch RvErr; LRet 0 OpWatch RvUnit].
Proof. vm_compute. reflexivity. Qed.
(* rejected all the same: a lone failing Watch, two overlapping Watch calls that both fail, or both succeed *)
Example ex_watch_lone_fail : history_ok [LCall 0 OpWatch; LRet 0 OpWatch RvErr] = false.
Proof. vm_compute. reflexivity. Qed.
Example ex_watch_both_fail : history_ok [LCall 0 OpWatch; LCall 1 OpWatch; LRet 1 OpWatch RvErr; LRet 0 OpWatch RvErr] = false.
Proof. vm_compute. reflexivity. Qed.
Example ex_watch_both_succeed : history_ok [LCall 0 OpWatch; LCall 1 OpWatch; LRet 1 OpWatch RvUnit; LRet 0 OpWatch RvUnit] = false.
Proof. vm_compute. reflexivity. Qed.

(* Watch switched on while a non-watch build is in flight: that build records
   no watch data; the edit is noticed only after the first watch-mode build,
   which cannot start before the build in flight has ended *)
Example ex_first_build_waits : wrun ws0 [XClientStart; XWatch; XFirstStart] = None.
Proof. vm_compute. reflexivity. Qed.
Example ex_watch_during_build :
  option_map snd (wrun ws0 [XClientStart; XWatch; XClientRead; XClientFinish; XFirstStart; XClientRead; XClientFinish;
                            XEdit; XWatcher; XWatcher]) =
  Some [WTau; WTau; WTau; WTau; WTau; WTau; WTau; WEdit; WTau; WBuild 2].
Proof. vm_compute. reflexivity. Qed.
