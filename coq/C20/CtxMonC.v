(* The monitor accepts every step of the LTS ([mon_step_sound]): one lemma per
   kind of return and per phase of the owner, then the dispatch over [exec];
   hence every run satisfies [history_ok]. *)
From V Require Import Common.Base C20.CtxLTS C20.CtxSpec C20.CtxProofs.
From V Require Import C20.CtxMonA C20.CtxMonB C20.CtxWatchRet.
Local Close Scope Z_scope.
Local Open Scope nat_scope.

Lemma mem_false_of : forall s m p b, MInv s m -> (forall b, mem b (p_ret p) = true -> mem b (m_ret m) = true) ->
  b_done (blds s b) = false -> mem b (p_ret p) = false.
Proof.
  intros s m p b M Q Hd. destruct (mem b (p_ret p)) eqn:E; auto.
  apply Q in E. destruct (r_ret _ _ M b E). congruence.
Qed.

Lemma next_le_active : forall s b, active s = Some b -> next_of s <= S b.
Proof. intros s b Ha. unfold next_of. rewrite Ha. destruct (owner_pc s b); lia. Qed.

(* run_of says the running build is the active one *)
Lemma run_active : forall s m b, MInv s m -> m_run m = Some b -> active s = Some b.
Proof.
  intros s m b M Hr. pose proof (r_run _ _ M) as R. rewrite Hr in R. unfold run_of in R.
  destruct (active s) as [b0|]; [|discriminate].
  destruct (owner_pc s b0); try discriminate; try (inversion R; subst; reflexivity).
  destruct ver; inversion R; subst; reflexivity.
Qed.

Lemma pinv_acquire : forall s s' m t p b,
  SInv s -> MInv s m -> PInv s m t p ->
  active s = Some b -> active s' = Some b ->
  (disposed s = true -> disposed s' = true) ->
  ref_of (t_pc (thr s' t)) = Some b ->
  t_pc (thr s' t) <> PRbStart ->
  (forall ob, disp_target (t_pc (thr s' t)) = Some ob -> ob = Some b /\ disposed s' = true) ->
  (p_op p = OpRebuild -> t_pc (thr s t) = PRbStart) ->
  PInv s' m t p.
Proof.
  intros s s' m t p b I M Q Ha Ha' Hd Hr Hn Hdt Hrb.
  destruct Q as [Q1 Q2 Q3 Q4 Q5 Q6 Q7 Q8 Q9 Q10].
  constructor; auto.
  - intros H. destruct (Q4 H) as [_ [A _]]. congruence.
  - intros b0 Hb0. rewrite Hr in Hb0. inversion Hb0; subst b0.
    eapply mem_false_of; eauto. apply (i_act_undone _ I b Ha).
  - intros _ _ Hx. congruence.
  - intros Ho Hq b0 Hb0. rewrite Hr in Hb0. inversion Hb0; subst b0. apply (Q6 Ho Hq (Hrb Ho) b Ha).
  - intros _ b0 Hb0. rewrite Hr in Hb0. inversion Hb0; subst b0.
    pose proof (next_le_active s b Ha). rewrite <- (r_next _ _ M) in H. lia.
  - intros ob Ho. destruct (Hdt ob Ho) as [E D]. split; auto. intros b' Hb'. congruence.
Qed.

Lemma sound_ret_plain : forall s m t o v p,
  SInv s -> MInv s m -> t < nt s -> t_kind (thr s t) = KClient o -> phase_of (t_pc (thr s t)) = None ->
  find_pend (t_cid (thr s t)) (m_pend m) = Some p -> p_op p = o ->
  mon_step m (LRet (t_cid (thr s t)) o v) = Some (upd_pend m (remove_pend (t_cid (thr s t)) (m_pend m))) ->
  exists m', mon_step m (LRet (t_cid (thr s t)) o v) = Some m' /\ MInv (set_pc s t (PRet v)) m'.
Proof.
  intros s m t o v p I M Ht K P0 F O E. eexists. split; [exact E|].
  eapply minv_ret; eauto; try (constructor; simpl; congruence); simpl; auto.
Qed.

(* what mon_step does on a return once the pending entry is known *)
Lemma mon_ret_unfold : forall m c o v p,
  find_pend c (m_pend m) = Some p -> p_op p = o ->
  mon_step m (LRet c o v) =
  (let pend := remove_pend c (m_pend m) in
   match o, v with
   | OpRebuild, RvEmpty => if m_dispCalled m then Some (upd_pend m pend) else None
   | OpRebuild, RvBuild b cc ver =>
       if (match lookup b (m_end m) with Some c' => Bool.eqb c' cc | None => false end)
          && optnat_eqb (lookup b (m_load m)) ver && negb (mem b (p_ret p)) && negb (p_dispRet p)
          && (negb (p_quiet p) || ((p_next p <=? b) && match ver with Some x => p_edits p <=? x | None => true end))
       then Some (mkMon (m_ncalls m) (m_next m) (m_run m) (m_loaded m) (m_load m) (m_end m) (b :: m_ret m) pend
                        (m_dispCalled m) (m_dispRet m) (m_watchCalled m) (m_watchOk m) (m_cancelCalled m) (m_edits m))
       else None
   | OpCancel, RvUnit =>
       if (match m_run m with Some b => p_next p <=? b | None => true end) then Some (upd_pend m pend) else None
   | OpDispose, RvUnit =>
       match m_run m with
       | Some _ => None
       | None => Some (mkMon (m_ncalls m) (m_next m) (m_run m) (m_loaded m) (m_load m) (m_end m) (m_ret m) pend
                             (m_dispCalled m) true (m_watchCalled m) (m_watchOk m) (m_cancelCalled m) (m_edits m))
       end
   | OpWatch, RvUnit =>
       if negb (p_dispRet p) && negb (m_watchOk m)
       then Some (mkMon (m_ncalls m) (m_next m) (m_run m) (m_loaded m) (m_load m) (m_end m) (m_ret m) pend
                        (m_dispCalled m) (m_dispRet m) (m_watchCalled m) true (m_cancelCalled m) (m_edits m))
       else None
   | OpWatch, RvErr => if m_dispCalled m || m_watchOk m || watch_pending pend then Some (upd_pend m pend) else None
   | _, _ => None
   end).
Proof.
  intros m c o v p F O. unfold mon_step. rewrite F, O, op_eqb_refl. simpl. reflexivity.
Qed.

Lemma optnat_eqb_refl : forall a, optnat_eqb a a = true.
Proof. destruct a; simpl; auto. apply Nat.eqb_refl. Qed.

Lemma ret_build_accepted : forall s m t p b c ov,
  PInv s m t p -> p_op p = OpRebuild -> find_pend (t_cid (thr s t)) (m_pend m) = Some p ->
  ref_of (t_pc (thr s t)) = Some b -> t_pc (thr s t) <> PRbStart ->
  lookup b (m_end m) = Some c -> lookup b (m_load m) = ov ->
  mon_step m (LRet (t_cid (thr s t)) OpRebuild (RvBuild b c ov)) =
  Some (mkMon (m_ncalls m) (m_next m) (m_run m) (m_loaded m) (m_load m) (m_end m) (b :: m_ret m)
              (remove_pend (t_cid (thr s t)) (m_pend m))
              (m_dispCalled m) (m_dispRet m) (m_watchCalled m) (m_watchOk m) (m_cancelCalled m) (m_edits m)).
Proof.
  intros s m t p b c ov [Q1 Q2 Q3 Q4 Q5 Q6 Q7 Q8 Q9 Q10] O F Rf Ns L1 L2.
  rewrite (mon_ret_unfold m _ _ _ p F O). simpl.
  rewrite L1, L2, Bool.eqb_reflx, optnat_eqb_refl, (Q5 b Rf). simpl.
  destruct (p_dispRet p) eqn:D.
  { destruct (Q4 eq_refl) as [_ [_ E]]. rewrite O in E. contradiction. }
  simpl. destruct (p_quiet p) eqn:Qq; simpl; [|reflexivity].
  assert (N1 : p_next p <= b) by (apply (Q7 O eq_refl b Rf)).
  apply Nat.leb_le in N1. rewrite N1. simpl.
  destruct ov as [x|]; [|reflexivity].
  assert (N2 : p_edits p <= x). { apply (Q8 b x); auto; apply Nat.leb_le; auto. }
  apply Nat.leb_le in N2. rewrite N2. reflexivity.
Qed.

(* Rebuild on a disposed context *)
Lemma case_ret_empty : forall s m t,
  SInv s -> MInv s m -> t < nt s -> t_pc (thr s t) = PRbStart -> t_kind (thr s t) = KClient OpRebuild ->
  disposed s = true ->
  exists m', mon_step m (LRet (t_cid (thr s t)) OpRebuild RvEmpty) = Some m' /\ MInv (set_pc s t (PRet RvEmpty)) m'.
Proof.
  intros s m t I M Ht Hpc K Hd.
  destruct (r_pend _ _ M t OpRebuild Ht K) as [p [F [O Q]]]; [rewrite Hpc; reflexivity|].
  eapply sound_ret_plain; eauto. rewrite Hpc; reflexivity.
  rewrite (mon_ret_unfold m _ _ _ p F O). simpl. rewrite (r_disposed _ _ M Hd). reflexivity.
Qed.

(* a joiner returns the finished build *)
Lemma case_ret_join : forall s m t b,
  SInv s -> MInv s m -> t < nt s -> t_pc (thr s t) = PRbJoin b -> t_kind (thr s t) = KClient OpRebuild ->
  b_done (blds s b) = true ->
  exists m', mon_step m (LRet (t_cid (thr s t)) OpRebuild (result_of s b)) = Some m' /\
             MInv (set_pc s t (PRet (result_of s b))) m'.
Proof.
  intros s m t b I M Ht Hpc K Hd.
  destruct (r_pend _ _ M t OpRebuild Ht K) as [p [F [O Q]]]; [rewrite Hpc; reflexivity|].
  assert (Hb : b < nb s). { apply (i_refs _ I t b Ht). rewrite Hpc. reflexivity. }
  assert (Hres : b_result (blds s b) <> None) by (apply (r_hasres _ _ M b Hb); auto).
  unfold result_of. destruct (b_result (blds s b)) as [[c ov]|] eqn:R; [|congruence].
  destruct (r_result _ _ M b c ov Hb R) as [L1 L2].
  assert (Rf : ref_of (t_pc (thr s t)) = Some b) by (rewrite Hpc; reflexivity).
  eexists. split.
  - apply (ret_build_accepted s m t p b c ov Q O F Rf); auto. rewrite Hpc. discriminate.
  - apply (minv_ret s m _ t _ OpRebuild I M Ht K); try (constructor; reflexivity); simpl; auto.
    + rewrite Hpc; reflexivity.
    + intros b0 H. rewrite H. apply orb_true_r.
    + intros b0 H. apply orb_true_iff in H as [H|H]; auto. apply Nat.eqb_eq in H. subst b0. auto.
Qed.

(* Cancel returns *)
Lemma case_ret_cancel : forall s m t,
  SInv s -> MInv s m -> t < nt s -> t_kind (thr s t) = KClient OpCancel ->
  phase_of (t_pc (thr s t)) = None -> is_ret (t_pc (thr s t)) = false ->
  (active s = None \/ exists b, t_pc (thr s t) = PCaWait b /\ b_done (blds s b) = true) ->
  exists m', mon_step m (LRet (t_cid (thr s t)) OpCancel RvUnit) = Some m' /\ MInv (set_pc s t (PRet RvUnit)) m'.
Proof.
  intros s m t I M Ht K P0 R Hc.
  destruct (r_pend _ _ M t OpCancel Ht K R) as [p [F [O Q]]].
  eapply sound_ret_plain; eauto.
  rewrite (mon_ret_unfold m _ _ _ p F O). simpl.
  destruct (m_run m) as [b'|] eqn:Hr; [|reflexivity].
  pose proof (run_active s m b' M Hr) as Ha.
  destruct Hc as [Hn|[b [Hpc Hd]]]; [congruence|].
  assert (Rf : ref_of (t_pc (thr s t)) = Some b) by (rewrite Hpc; reflexivity).
  pose proof (i_refs _ I t b Ht Rf) as Hb.
  pose proof (i_act_nb _ I b' Ha) as Hnb.
  pose proof (i_act_undone _ I b' Ha) as Hu.
  assert (b <> b') by congruence.
  pose proof (q_cancel _ _ _ _ Q O b Rf) as Hq.
  assert (L : p_next p <= b') by lia. apply Nat.leb_le in L. rewrite L. reflexivity.
Qed.

(* Dispose returns: no build is running, and none will *)
Lemma case_ret_dispose : forall s m t,
  SInv s -> MInv s m -> t < nt s -> t_kind (thr s t) = KClient OpDispose ->
  phase_of (t_pc (thr s t)) = None -> is_ret (t_pc (thr s t)) = false ->
  disposed s = true -> active s = None ->
  exists m', mon_step m (LRet (t_cid (thr s t)) OpDispose RvUnit) = Some m' /\ MInv (set_pc s t (PRet RvUnit)) m'.
Proof.
  intros s m t I M Ht K P0 R Hd Ha.
  destruct (r_pend _ _ M t OpDispose Ht K R) as [p [F [O Q]]].
  assert (Hr : m_run m = None).
  { destruct (m_run m) as [b|] eqn:E; auto. pose proof (run_active s m b M E). congruence. }
  eexists. split.
  - rewrite (mon_ret_unfold m _ _ _ p F O). simpl. rewrite Hr. reflexivity.
  - eapply minv_ret; eauto; try (constructor; simpl; congruence); simpl; auto.
Qed.

(* Watch fails on a disposed context (the whole call is one step) *)
Lemma case_ret_watch_err : forall s m t,
  SInv s -> MInv s m -> t < nt s -> t_kind (thr s t) = KClient OpWatch -> t_pc (thr s t) = PWaStart ->
  disposed s = true ->
  exists m', mon_step m (LRet (t_cid (thr s t)) OpWatch RvErr) = Some m' /\ MInv (set_pc s t (PRet RvErr)) m'.
Proof.
  intros s m t I M Ht K Hpc Hd.
  destruct (r_pend _ _ M t OpWatch Ht K) as [p [F [O Q]]]; [rewrite Hpc; reflexivity|].
  eapply sound_ret_plain; eauto. rewrite Hpc; reflexivity.
  rewrite (mon_ret_unfold m _ _ _ p F O). simpl.
  rewrite (r_disposed _ _ M Hd). reflexivity.
Qed.

Lemma watch_pending_other : forall c c' l p, find_pend c' l = Some p -> p_op p = OpWatch -> c' <> c ->
  watch_pending (remove_pend c l) = true.
Proof.
  intros c c' l p F O N. unfold watch_pending.
  assert (F' : find_pend c' (remove_pend c l) = Some p) by (rewrite find_remove_other; auto).
  clear F. induction (remove_pend c l) as [|q r IH]; simpl in *; [discriminate|].
  destruct (Nat.eqb_spec (p_cid q) c').
  - inversion F'; subst. rewrite O. reflexivity.
  - rewrite (IH F'). apply orb_true_r.
Qed.

(* Watch found the flag already set and returns its error later: by then the
   call that set the flag has succeeded or is still pending *)
Lemma case_ret_watch_err2 : forall s m t,
  SInv s -> MInv s m -> WCl s m -> t < nt s -> t_kind (thr s t) = KClient OpWatch -> t_pc (thr s t) = PWaRet RvErr ->
  exists m', mon_step m (LRet (t_cid (thr s t)) OpWatch RvErr) = Some m' /\ MInv (set_pc s t (PRet RvErr)) m'.
Proof.
  intros s m t I M W Ht K Hpc.
  destruct (r_pend _ _ M t OpWatch Ht K) as [p [F [O Q]]]; [rewrite Hpc; reflexivity|].
  eapply sound_ret_plain; eauto. rewrite Hpc; reflexivity.
  rewrite (mon_ret_unfold m _ _ _ p F O). simpl.
  pose proof (c_err _ _ W t Ht Hpc) as Hw.
  destruct (c_set _ _ W Hw) as [Ok|[t' [Ht' Hp']]].
  - rewrite Ok, orb_true_r. reflexivity.
  - assert (K' : t_kind (thr s t') = KClient OpWatch).
    { pose proof (i_kind _ I t' Ht') as Kk. rewrite Hp' in Kk.
      destruct (t_kind (thr s t')) as [[]| |]; simpl in Kk; try discriminate; auto. }
    destruct (r_pend _ _ M t' OpWatch Ht' K') as [p' [F' [O' _]]]; [rewrite Hp'; reflexivity|].
    assert (N : t_cid (thr s t') <> t_cid (thr s t)).
    { intros C. assert (t' = t) by (apply (r_ciduniq _ _ M t' t Ht' Ht); auto; [rewrite K'|rewrite K]; reflexivity).
      subst t'. rewrite Hpc in Hp'. discriminate. }
    rewrite (watch_pending_other _ _ _ _ F' O' N). rewrite !orb_true_r. reflexivity.
Qed.

(* Watch returns its success *)
Lemma case_ret_watch_ok : forall s m t,
  SInv s -> MInv s m -> WCl s m -> t < nt s -> t_kind (thr s t) = KClient OpWatch -> t_pc (thr s t) = PWaRet RvUnit ->
  exists m', mon_step m (LRet (t_cid (thr s t)) OpWatch RvUnit) = Some m' /\ MInv (set_pc s t (PRet RvUnit)) m'.
Proof.
  intros s m t I M W Ht K Hpc.
  destruct (r_pend _ _ M t OpWatch Ht K) as [p [F [O Q]]]; [rewrite Hpc; reflexivity|].
  destruct (c_unit _ _ W t Ht Hpc) as [Hw Ok].
  eexists. split.
  - rewrite (mon_ret_unfold m _ _ _ p F O). simpl.
    destruct (p_dispRet p) eqn:D.
    { destruct (q_disp _ _ _ _ Q D) as [_ [_ E]]. rewrite Hpc, O in E. discriminate. }
    rewrite Ok. simpl. reflexivity.
  - eapply minv_ret; eauto; try (constructor; simpl; congruence); simpl; auto. rewrite Hpc; reflexivity.
Qed.

Lemma owner_facts : forall s t b, SInv s -> t < nt s -> phase_of (t_pc (thr s t)) = Some b ->
  active s = Some b /\ b_owner (blds s b) = t /\ owner_pc s b = t_pc (thr s t).
Proof.
  intros s t b I Ht P. destruct (i_phase _ I t b Ht P) as [A O]. repeat split; auto.
  unfold owner_pc. rewrite O. reflexivity.
Qed.

(* on-start callbacks *)
Lemma case_onstart : forall s m t b,
  SInv s -> MInv s m -> t < nt s -> t_pc (thr s t) = PRbOnStart b ->
  exists m', mon_step m (LStart b) = Some m' /\ MInv (set_pc s t (PRbPoll b)) m'.
Proof.
  intros s m t b I M Ht Hpc.
  assert (P : phase_of (t_pc (thr s t)) = Some b) by (rewrite Hpc; reflexivity).
  destruct (owner_facts s t b I Ht P) as [Ha [Ho Hop]].
  assert (Hn : m_next m = b). { rewrite (r_next _ _ M). unfold next_of. rewrite Ha, Hop, Hpc. reflexivity. }
  assert (Hr : m_run m = None /\ m_loaded m = false).
  { pose proof (r_run _ _ M) as R. unfold run_of in R. rewrite Ha, Hop, Hpc in R. inversion R; auto. }
  destruct Hr as [Hr Hl].
  assert (Hd : m_dispRet m = false).
  { destruct (m_dispRet m) eqn:D; auto. destruct (r_dispret _ _ M D). congruence. }
  assert (H8 : rebuild_pending (m_pend m) || m_watchCalled m = true).
  { destruct (is_client (t_kind (thr s t))) eqn:C.
    - pose proof (rb_phase_kind _ _ _ (i_kind _ I t Ht) P C) as K.
      destruct (r_pend _ _ M t OpRebuild Ht K) as [p [F [O _]]]; [rewrite Hpc; reflexivity|].
      rewrite (find_pend_rebuild _ _ _ F O). reflexivity.
    - pose proof (r_internal _ _ M t Ht C) as W.
      rewrite (r_watchc _ _ M W). apply orb_true_r. }
  eexists. split.
  - simpl. rewrite Hn, Nat.eqb_refl, Hr, Hd, H8. simpl. reflexivity.
  - eapply minv_owner_move with (b := b); eauto;
      try (constructor; simpl; congruence);
      simpl; auto;
      try (rewrite Hpc; reflexivity);
      try lia.
    intros b0. destruct (Nat.eqb_spec b0 b) as [E|N]; auto. subst b0. simpl.
      apply (r_loadof _ _ M t b None Ht). rewrite Hpc. reflexivity.
Qed.

(* the cancel poll before scanning *)
Lemma case_poll : forall s m t b p',
  SInv s -> MInv s m -> t < nt s -> t_pc (thr s t) = PRbPoll b ->
  (p' = PRbLoad b \/ p' = PRbEnd b None) ->
  exists m', mon_step m LTau = Some m' /\ MInv (set_pc s t p') m'.
Proof.
  intros s m t b p' I M Ht Hpc Hp'.
  assert (P : phase_of (t_pc (thr s t)) = Some b) by (rewrite Hpc; reflexivity).
  destruct (owner_facts s t b I Ht P) as [Ha [Ho Hop]].
  assert (Hn : m_next m = S b). { rewrite (r_next _ _ M). unfold next_of. rewrite Ha, Hop, Hpc. reflexivity. }
  assert (Hr : (m_run m, m_loaded m) = (Some b, false)).
  { rewrite (r_run _ _ M). unfold run_of. rewrite Ha, Hop, Hpc. reflexivity. }
  exists m. split; [reflexivity|].
  eapply minv_owner_move with (b := b); eauto; try (constructor; reflexivity); try (rewrite Hpc; reflexivity).
  - destruct Hp'; subst; reflexivity.
  - rewrite Hn. destruct Hp'; subst; reflexivity.
  - rewrite Hr. destruct Hp'; subst; reflexivity.
  - intros b0. destruct (Nat.eqb_spec b0 b) as [E|N]; auto. subst b0.
    rewrite (r_loadof _ _ M t b None Ht); [|rewrite Hpc; reflexivity].
    destruct Hp'; subst; reflexivity.
Qed.

(* reading the inputs *)
Lemma case_load : forall s m t b,
  SInv s -> MInv s m -> t < nt s -> t_pc (thr s t) = PRbLoad b ->
  exists m', mon_step m (LLoad b (edits s)) = Some m' /\ MInv (set_pc s t (PRbEnd b (Some (edits s)))) m'.
Proof.
  intros s m t b I M Ht Hpc.
  assert (P : phase_of (t_pc (thr s t)) = Some b) by (rewrite Hpc; reflexivity).
  destruct (owner_facts s t b I Ht P) as [Ha [Ho Hop]].
  assert (Hn : m_next m = S b). { rewrite (r_next _ _ M). unfold next_of. rewrite Ha, Hop, Hpc. reflexivity. }
  assert (Hr : m_run m = Some b /\ m_loaded m = false).
  { pose proof (r_run _ _ M) as R. unfold run_of in R. rewrite Ha, Hop, Hpc in R. inversion R; auto. }
  destruct Hr as [Hr Hl].
  eexists. split.
  - simpl. rewrite Hr, Hl, (r_edits _ _ M). simpl. rewrite !Nat.eqb_refl. simpl. reflexivity.
  - eapply minv_owner_move with (b := b); eauto;
      try (constructor; simpl; congruence);
      simpl; auto;
      try (rewrite Hpc; reflexivity);
      try lia.
    + symmetry. apply (r_edits _ _ M).
    + (* g_load: the version recorded for b is the current one *)
      intros b0 x. destruct (Nat.eqb_spec b0 b) as [E|N]; auto.
      intros Hx. inversion Hx. subst x. right. rewrite (r_edits _ _ M). lia.
Qed.

(* final poll and on-end callbacks *)
Lemma case_end : forall s m t b ov,
  SInv s -> MInv s m -> t < nt s -> t_pc (thr s t) = PRbEnd b ov ->
  exists m', mon_step m (LEnd b (b_cancel (blds s b))) = Some m' /\
    MInv (set_pc (set_bld s b (mkBuild (b_owner (blds s b)) (b_cancel (blds s b))
                                       (Some (b_cancel (blds s b), ov)) (b_done (blds s b)))) t (PRbPublish b)) m'.
Proof.
  intros s m t b ov I M Ht Hpc.
  assert (P : phase_of (t_pc (thr s t)) = Some b) by (rewrite Hpc; reflexivity).
  destruct (owner_facts s t b I Ht P) as [Ha [Ho Hop]].
  assert (Hr : m_run m = Some b).
  { pose proof (r_run _ _ M) as R. unfold run_of in R. rewrite Ha, Hop, Hpc in R. destruct ov; inversion R; auto. }
  assert (Hc : negb (b_cancel (blds s b)) || m_cancelCalled m = true).
  { destruct (b_cancel (blds s b)) eqn:C; auto. simpl.
    apply (r_cancel _ _ M b); auto. pose proof (i_act_nb _ I b Ha). lia. }
  eexists. split.
  - simpl. rewrite Hr. simpl. rewrite Nat.eqb_refl, Hc. simpl. reflexivity.
  - eapply minv_end; eauto; try (constructor; simpl; congruence); simpl; auto.
Qed.

Definition done_state (s : state) (b : nat) : state :=
  set_bld s b (mkBuild (b_owner (blds s b)) (b_cancel (blds s b)) (b_result (blds s b)) true).

(* the owner returns its build *)
Lemma case_done_client : forall s m t b,
  SInv s -> MInv s m -> t < nt s -> t_pc (thr s t) = PRbDone b -> t_kind (thr s t) = KClient OpRebuild ->
  exists m', mon_step m (LRet (t_cid (thr s t)) OpRebuild (result_of (done_state s b) b)) = Some m' /\
             MInv (set_pc (done_state s b) t (PRet (result_of (done_state s b) b))) m'.
Proof.
  intros s m t b I M Ht Hpc K.
  destruct (r_pend _ _ M t OpRebuild Ht K) as [p [F [O Q]]]; [rewrite Hpc; reflexivity|].
  assert (Hd : done_of (t_pc (thr s t)) = Some b) by (rewrite Hpc; reflexivity).
  destruct (i_donepc _ I t b Ht Hd) as [Hb [Ho [Hud Hna]]].
  assert (Hres : b_result (blds s b) <> None) by (apply (r_hasres _ _ M b Hb); auto).
  destruct (b_result (blds s b)) as [[c ov]|] eqn:R; [|congruence].
  destruct (r_result _ _ M b c ov Hb R) as [L1 L2].
  assert (Er : result_of (done_state s b) b = RvBuild b c ov).
  { unfold result_of, done_state, set_bld, upd. simpl. rewrite Nat.eqb_refl. simpl. rewrite R. reflexivity. }
  rewrite Er.
  assert (Rf : ref_of (t_pc (thr s t)) = Some b) by (rewrite Hpc; reflexivity).
  eexists. split.
  - apply (ret_build_accepted s m t p b c ov Q O F Rf); auto. rewrite Hpc. discriminate.
  - unfold done_state. apply (minv_done s m _ t b _ I M Ht Hpc); try (constructor; reflexivity); simpl; auto.
    + rewrite K. discriminate.
    + intros b0 H. rewrite H. apply orb_true_r.
    + intros b0 H. apply orb_true_iff in H as [H|H]; auto. apply Nat.eqb_eq in H. auto.
Qed.

Lemma case_done_internal : forall s m t b p',
  SInv s -> MInv s m -> t < nt s -> t_pc (thr s t) = PRbDone b -> is_client (t_kind (thr s t)) = false ->
  phase_of p' = None ->
  exists m', mon_step m LTau = Some m' /\ MInv (set_pc (done_state s b) t p') m'.
Proof.
  intros s m t b p' I M Ht Hpc K P. exists m. split; [reflexivity|].
  unfold done_state. eapply minv_done; eauto.
  - constructor; reflexivity.
  - constructor; reflexivity.
  - rewrite K. discriminate.
Qed.

Theorem mon_step_sound : forall s m a s' l, SInv s -> MInv s m -> WCl s m -> exec s a = Some (s', l) ->
  exists m', mon_step m l = Some m' /\ MInv s' m'.
Proof.
  intros s m a s' l I M W H.
  step_cases H.
  1: { (* call *)
    exists (call_mon m o). split; [|apply minv_call; auto].
    simpl. rewrite (r_ncalls _ _ M), Nat.eqb_refl. simpl. unfold call_mon. rewrite (r_ncalls _ _ M). reflexivity. }
  1: { (* edit *) eexists. split; [reflexivity|]. apply minv_edit; auto. }
  1: { (* tick *)
    destruct (i_watcher _ I Hw) as [W1 W2].
    exists m. split; [reflexivity|].
    eapply (minv_tau s _ m (wtid s) I M W1); [apply moves_set_pc; reflexivity | ..]; simpl; auto.
    all: upd_simpl; rewrite ?Nat.eqb_refl; simpl; rewrite ?Hpc; auto.
    all: try (destruct d; reflexivity).
    all: try (intros o p K; rewrite W2 in K; discriminate). }
  all: expose_ret.
  all: repeat match goal with Hk : t_kind (thr (set_bld _ _ _) _) = _ |- _ => simpl in Hk end.
  (* kinds forced by the program counter *)
  all: try match goal with
           | Hp : t_pc (thr ?s0 ?t0) = ?p, Hl : ?t0 < nt ?s0 |- _ =>
               lazymatch p with
               | PCaStart => idtac | PCaSet _ => idtac | PCaWait _ => idtac
               | PDiStart => idtac | PDiStop _ => idtac | PDiStopWait _ => idtac | PDiWait _ => idtac
               | PWaStart => idtac | PWaRet _ => idtac
               end;
               let Kk := fresh "Kk" in
               pose proof (i_kind _ I t0 Hl) as Kk; rewrite Hp in Kk;
               destruct (t_kind (thr s0 t0)) as [[]| |] eqn:Kt; simpl in Kk; try discriminate; clear Kk
           end.
  (* silent steps outside the build phases *)
  all: try (match goal with |- exists m', mon_step _ LTau = _ /\ _ => idtac end;
            match goal with Hp : t_pc (thr _ ?t0) = ?p |- _ =>
              lazymatch p with
              | PRbOnStart _ => fail | PRbPoll _ => fail | PRbLoad _ => fail | PRbEnd _ _ => fail
              | PRbPublish _ => fail | PRbDone _ => fail | _ => idtac end end;
            match goal with Hp0 : t_pc _ = PRbStart, Ha0 : active _ = None |- _ => fail 1 | _ => idtac end;
            match goal with Hp0 : t_pc _ = PWaStart, Hw0 : watcher _ = false |- _ => fail 1 | _ => idtac end;
            match goal with Hl : ?t0 < nt ?s0, M0 : MInv ?s0 ?m0 |- _ =>
              exists m0;
              split; [reflexivity|];
              eapply (minv_tau s0 _ m0 t0 I M0 Hl);
              [apply moves_set_pc; reflexivity | ..]
            end;
            simpl; auto;
            try (upd_simpl; rewrite ?Nat.eqb_refl; simpl; rewrite ?Hpc; auto; fail);
            try (upd_simpl; intros; eqb_cases; simpl; auto; congruence)).
  (* a client thread inside rebuild() is a Rebuild call *)
  all: try match goal with
           | Hk : t_kind (thr ?s0 ?t0) = KClient ?o, Hl : ?t0 < nt ?s0, Hp : t_pc (thr ?s0 ?t0) = _ |- _ =>
               is_var o;
               let Kk := fresh in pose proof (i_kind _ I t0 Hl) as Kk; rewrite Hp, Hk in Kk;
               destruct o; simpl in Kk; try discriminate; clear Kk
           end.
  (* returns and owner steps: the case lemmas *)
  all: try solve [eapply case_ret_empty; eauto;
                  match goal with Hk : t_kind _ = KClient ?o, Hl : ?t0 < nt ?s0, Hp : t_pc (thr ?s0 ?t0) = _ |- _ =>
                    let Kk := fresh in pose proof (i_kind _ I t0 Hl) as Kk; rewrite Hp, Hk in Kk; destruct o; simpl in Kk; try discriminate; auto end].
  all: try solve [match goal with Hk : t_kind _ = KClient ?o, Hl : ?t0 < nt ?s0, Hp : t_pc (thr ?s0 ?t0) = _ |- _ =>
                    let Kk := fresh in pose proof (i_kind _ I t0 Hl) as Kk; rewrite Hp, Hk in Kk; destruct o; simpl in Kk; try discriminate end;
                  first [ eapply case_ret_join; eauto | eapply case_done_client; eauto ]].
  all: try solve [eapply case_onstart; eauto].
  all: try solve [eapply case_poll; eauto].
  all: try solve [eapply case_load; eauto].
  all: try solve [eapply case_end; eauto].
  all: try solve [exists m; split; [reflexivity|]; first [eapply minv_publish | apply minv_alloc]; eauto].
  all: try solve [eapply (case_done_internal _ _ _ _ _ I M); eauto;
                  match goal with Hk : t_kind _ = _ |- _ => rewrite Hk; reflexivity end].
  all: try solve [eapply case_ret_cancel; eauto; try (rewrite Hpc; reflexivity); eauto].
  all: try solve [eapply case_ret_watch_err; eauto].
  all: try solve [match goal with Hp0 : t_pc (thr ?s0 ?t0) = PWaRet ?v, Hl : ?t0 < nt ?s0 |- _ =>
                    destruct (c_val _ _ W t0 v Hl Hp0); subst v end;
                  [eapply case_ret_watch_ok; eauto | eapply case_ret_watch_err2; eauto]].
  all: try solve [exists m; split; [reflexivity|]; apply minv_watch; auto].
  all: try solve [eapply case_ret_dispose; eauto; try (rewrite Hpc; reflexivity);
                  match goal with
                  | Hp : t_pc (thr ?s0 ?t0) = _, Hl : ?t0 < nt ?s0 |- _ =>
                      destruct (r_pend _ _ M t0 OpDispose Hl Kt) as [p0 [F0 [O0 Q0]]]; [rewrite Hp; reflexivity|];
                      let D := fresh in
                      assert (D : disp_target (t_pc (thr s0 t0)) = Some _) by (rewrite Hp; reflexivity);
                      destruct (q_dispose _ _ _ _ Q0 _ D) as [D1 D2]; auto;
                      destruct (active s0) as [b'|] eqn:Ha'; auto;
                      pose proof (D2 b' eq_refl) as D3; try discriminate;
                      inversion D3; subst; pose proof (i_act_undone _ I _ Ha'); congruence
                  end].
  (* internal goroutines are not clients *)
  all: try solve [intros o0 p0 K0; exfalso;
                  match goal with Hl : ?t0 < nt ?s0, Hp : t_pc (thr ?s0 ?t0) = _ |- _ =>
                    let Kk := fresh in pose proof (i_kind _ I t0 Hl) as Kk; rewrite Hp, K0 in Kk; destruct o0; discriminate end].
  (* the caller takes a reference to the active build *)
  all: try solve [intros o0 p0 K0 _ F0 O0 Q0;
                  match goal with Ha : active _ = Some ?n |- _ =>
                    eapply pinv_acquire with (b := n); eauto; simpl; upd_simpl; rewrite ?Nat.eqb_refl; simpl; auto;
                    try discriminate;
                    try (intros ob Hob; inversion Hob; split; auto; fail);
                    try (intros ob Hob; discriminate);
                    try (intros Ho; rewrite O0 in Ho; congruence)
                  end].
  (* same reference as before *)
  all: try solve [intros o0 p0 K0 _ F0 O0 Q0;
                  eapply pinv_frame; eauto; try (apply grows_keep; simpl; auto; constructor; reflexivity);
                  simpl; upd_simpl; rewrite ?Nat.eqb_refl; simpl; rewrite ?Hpc; auto; try lia;
                  try discriminate;
                  try (intros; destruct (p_op p0); discriminate);
                  try (intros b0 Hb0; left; exact Hb0)].
  - (* PCaSet: only the cancel flag changes, and a Cancel call exists *)
    intros b0. unfold upd. destruct (Nat.eqb_spec b0 b) as [E|N]; simpl; [subst b0|]; repeat split; auto.
    intros _. right. apply (r_cancelk _ _ M t Hlt Kt).
  - intros _. right. apply (r_disposek _ _ M t Hlt Kt).
  - (* Dispose marks the context disposed and remembers the active build *)
    intros o0 p0 K0 _ F0 O0 Q0.
    destruct (active s) as [n|] eqn:Ha.
    + eapply pinv_acquire with (b := n); eauto; simpl; upd_simpl; rewrite ?Nat.eqb_refl; simpl; auto; try discriminate.
      * (* q_dispose *) intros ob Hob. inversion Hob. split; auto.
      * (* q_quiet1: the call is a Dispose *) intros Ho. exfalso. congruence.
    + destruct Q0 as [Q1 Q2 Q3 Q4 Q5 Q6 Q7 Q8 Q9 Q10].
      constructor; auto; simpl; upd_simpl; rewrite ?Nat.eqb_refl; simpl; try (intros; discriminate).
      * (* q_disp *) intros H. destruct (Q4 H) as [D _]. congruence.
      * (* q_dispose *) intros ob Hob. inversion Hob. split; auto.
  - (* Watch finds the flag already set: it will return the error later *)
    intros o0 p0 K0 _ F0 O0 Q0.
    destruct Q0 as [Q1 Q2 Q3 Q4 Q5 Q6 Q7 Q8 Q9 Q10].
    constructor; auto; simpl; upd_simpl; rewrite ?Nat.eqb_refl; simpl; try (intros; discriminate).
    (* q_disp *) intros H. destruct (Q4 H) as [D _]. congruence.
Qed.

Lemma mon_run_app : forall h m l, mon_run m (h ++ [l]) =
  match mon_run m h with Some m' => mon_step m' l | None => None end.
Proof.
  induction h as [|x h IH]; intros m l; simpl.
  - destruct (mon_step m l); reflexivity.
  - destruct (mon_step m x); auto.
Qed.

Lemma run_sim : forall s tr s', run s tr s' -> forall m, SInv s -> MInv s m -> WCl s m ->
  SInv s' /\ exists m', mon_run m tr = Some m' /\ MInv s' m' /\ WCl s' m'.
Proof.
  intros s tr s' R m I0 M0 W0. induction R as [s0 | s0 tr s1 a s2 l R IH Ex].
  - split; auto. exists m. auto.
  - destruct (IH I0 M0 W0) as [I [m1 [Hm [M W]]]].
    split; [eapply sinv_step; eauto|].
    destruct (mon_step_sound _ _ _ _ _ I M W Ex) as [m' [St M']].
    exists m'. split; [rewrite mon_run_app, Hm; exact St|]. split; auto.
    eapply wcl_step; eauto. apply (r_watch _ _ M).
Qed.

Lemma run_monitored : forall tr s, run init tr s ->
  SInv s /\ exists m, mon_run mon0 tr = Some m /\ MInv s m /\ WCl s m.
Proof. intros tr s R. exact (run_sim _ _ _ R mon0 sinv_init minv_init wcl0). Qed.

Theorem history_sound : forall tr s, run init tr s -> history_ok tr = true.
Proof.
  intros tr s R. destruct (run_monitored tr s R) as [_ [m [Hm _]]].
  unfold history_ok. rewrite Hm. reflexivity.
Qed.

(* when a Dispose call returns, the context is disposed and no build is
   active (hence none is running), in the state reached *)
Lemma dispose_return_state : forall tr s a s' c v,
  run init tr s -> exec s a = Some (s', LRet c OpDispose v) ->
  disposed s' = true /\ active s' = None /\
  (forall t b, t < nt s' -> phase_of (t_pc (thr s' t)) = Some b -> False).
Proof.
  intros tr s a s' c v R Ex.
  destruct (run_monitored tr s R) as [I [m [Hm [M W]]]].
  destruct (mon_step_sound _ _ _ _ _ I M W Ex) as [m' [St M']].
  assert (D : m_dispRet m' = true).
  { simpl in St. destruct (find_pend c (m_pend m)); [|discriminate].
    destruct (negb (op_eqb (p_op p) OpDispose)); [discriminate|].
    destruct v; try discriminate. destruct (m_run m); [discriminate|]. inversion St; reflexivity. }
  destruct (r_dispret _ _ M' D) as [D1 D2]. split; auto. split; auto.
  intros t b Ht P. pose proof (sinv_step _ _ _ _ I Ex) as I'.
  destruct (i_phase _ I' t b Ht P). congruence.
Qed.

(* a disposed context never allocates a build *)
Lemma disposed_no_new_build : forall s a s' l,
  disposed s = true -> exec s a = Some (s', l) -> nb s' = nb s /\ disposed s' = true.
Proof.
  intros s a s' l D H.
  step_cases H; simpl; auto; try congruence.
  all: expose_ret.
  all: simpl; auto.
Qed.
