(* Invariants of the watch/serve model for all interleavings. *)
From V Require Import Common.Base C20.WatchServe.
Local Close Scope Z_scope.
Local Open Scope nat_scope.

Definition client_build (c : wcl) : option nat :=
  match c with CNone => None | CStarted b _ | CRead b _ _ => Some b end.

Record WInv (s : ws) : Prop := mkWI {
  k_watched : w_watched s <= w_edits s;
  k_tick : w_lastTick s <= w_edits s;
  k_builds : w_wbuilds s <= w_lastTick s;
  k_idle : (w_wpc s = WCheck \/ w_wpc s = WSleep) -> w_lastTick s <= w_watched s;
  k_cread : forall b cw v, w_client s = CRead b cw v -> w_lastTick s <= v /\ v <= w_edits s;
  k_wread : forall b v, w_wpc s = WOwnRead b v -> w_lastTick s <= v /\ v <= w_edits s;
  k_wset : forall v, w_wpc s = WSet v -> w_lastTick s <= v /\ v <= w_edits s;
  k_wjoin : forall b v, w_wpc s = WJoin b -> w_fver s b = Some v -> w_lastTick s <= v /\ v <= w_edits s;
  k_one : watcher_owns (w_wpc s) = true -> w_client s = CNone;
  k_active : forall b, client_build (w_client s) = Some b -> S b = w_nb s /\ w_fver s b = None;
  k_wactive : forall b, (w_wpc s = WOwn b \/ exists v, w_wpc s = WOwnRead b v) -> S b = w_nb s /\ w_fver s b = None;
  k_fin : forall b v, w_fver s b = Some v -> b < w_nb s;
  k_recent : forall b, w_recent s = Some b -> w_fver s b <> None /\ forall b' v, w_fver s b' = Some v -> b' <= b;
  k_disp : w_dispRet s = true ->
           w_disposed s = true /\ w_client s = CNone /\ (w_wpc s = WOff \/ w_wpc s = WExited);
  k_disp2 : w_disposed s = true -> w_recent s = None;
  k_off : w_wpc s = WOff -> w_lastTick s = 0;
  k_data : watching (w_wpc s) = true -> w_first s = false ->
           w_hasData s = true \/ exists b, w_client s = CStarted b true \/ exists v, w_client s = CRead b true v }.

Lemma winv0 : WInv ws0.
Proof.
  constructor; simpl; auto; try lia; intros; try discriminate;
    try (destruct H as [H|[? H]]; discriminate); try (destruct H; discriminate).
Qed.

(* try every old invariant on the goal *)
Ltac wold :=
  match goal with
  | K : (?p = WCheck \/ ?p = WSleep) -> _ |- _ => let H := fresh in intros H; specialize (K H); lia
  | K : forall b cw v, _ = CRead b cw v -> _ |- forall b cw v, _ = CRead b cw v -> _ =>
      let b := fresh in let cw := fresh in let v := fresh in let H := fresh in
      intros b cw v H; destruct (K b cw v H); split; lia
  | K : forall b v, _ = WOwnRead b v -> _ |- forall b v, _ = WOwnRead b v -> _ =>
      let b := fresh in let v := fresh in let H := fresh in intros b v H; destruct (K b v H); split; lia
  | K : forall v, _ = WSet v -> _ |- forall v, _ = WSet v -> _ =>
      let v := fresh in let H := fresh in intros v H; destruct (K v H); split; lia
  | K : forall b v, _ = WJoin b -> _ -> _ |- forall b v, _ = WJoin b -> _ -> _ =>
      let b := fresh in let v := fresh in let H := fresh in let H2 := fresh in
      intros b v H H2; destruct (K b v H H2); split; lia
  end.

Ltac kdata :=
  let Hwt := fresh "Hwt" in let Hf := fresh "Hf" in
  intros Hwt Hf; simpl in *; try discriminate;
  first [ left; reflexivity
        | match goal with K : watching _ = true -> _ = false -> _ |- _ =>
            let X := fresh "X" in let b0 := fresh "b0" in let v0 := fresh "v0" in
            destruct (K ltac:(first [assumption | reflexivity]) Hf) as [X|[b0 [X|[v0 X]]]];
            [ left; rewrite ?X; auto; repeat match goal with |- context [if ?c then _ else _] => destruct c end; auto
            | first [ congruence | right; exists b0; left; congruence
                    | inversion X; subst; right; eexists; right; eexists; reflexivity
                    | inversion X; subst; left; reflexivity ]
            | first [ congruence | right; exists b0; right; exists v0; congruence
                    | inversion X; subst; left; reflexivity ] ]
          end ].

Lemma wexec_inv : forall s a s' l, WInv s -> wexec s a = Some (s', l) -> WInv s'.
Proof.
  intros s a s' l I H. pose proof I as I0. destruct I.
  destruct a; simpl in H.
  - (* edit *) inversion H; subst; clear H. constructor; simpl; auto; try lia; try wold.
  - (* expire *) inversion H; subst; clear H. constructor; simpl; auto. intros; discriminate.
  - (* watch *)
    destruct (negb (w_disposed s) && negb (watching (w_wpc s))) eqn:C; [|discriminate].
    inversion H; subst; clear H. apply andb_true_iff in C as [C1 C2]. apply negb_true_iff in C1, C2.
    destruct (w_wpc s) eqn:P; simpl in C2; try discriminate.
    constructor; simpl; auto; try (intros; discriminate).
    + intros _. rewrite (k_off0 eq_refl). lia.
    + intros b [Hx|[v Hx]]; discriminate.
    + intros Hd. destruct (k_disp0 Hd) as [D _]. congruence.
  - (* client start *)
    destruct (w_client s) eqn:Cc; try discriminate.
    destruct (negb (w_disposed s) && negb (watcher_owns (w_wpc s))) eqn:C; [|discriminate].
    inversion H; subst; clear H. apply andb_true_iff in C as [C1 C2]. apply negb_true_iff in C1, C2.
    constructor; simpl; auto; try (intros; discriminate); try wold.
    + (* k_one *) intros X; congruence.
    + (* k_active *) intros b Hb; inversion Hb; subst; split; auto;
      destruct (w_fver s (w_nb s)) eqn:F; auto; apply k_fin0 in F; lia.
    + (* k_wactive *) intros b Hb; exfalso; destruct Hb as [Hb|[v Hb]]; rewrite Hb in C2; discriminate.
    + (* k_fin *) intros b v F; apply k_fin0 in F; lia.
    + (* k_disp *) intros Hd; destruct (k_disp0 Hd) as [D _]; congruence.
    + (* k_data *) kdata.
  - (* client read *)
    destruct (w_client s) eqn:Cc; try discriminate.
    inversion H; subst; clear H.
    constructor; simpl; auto; try wold.
    + (* k_cread *) intros b0 cw0 v0 E; inversion E; subst; split; auto.
    + (* k_one *) intros X; specialize (k_one0 X); discriminate.
    + (* k_disp *) intros Hd; destruct (k_disp0 Hd) as [_ [D _]]; discriminate.
    + (* k_data *) kdata.
  - (* client finish *)
    destruct (w_client s) eqn:Cc; try discriminate.
    inversion H; subst; clear H.
    destruct (k_cread0 b cw v eq_refl) as [R1 R2].
    destruct (k_active0 b eq_refl) as [A1 A2].
    constructor; simpl; auto; try (intros; discriminate); try wold.
    + (* k_watched *) destruct cw; lia.
    + (* k_idle *) destruct cw; lia.
    + (* k_wjoin *) intros b0 v0 Hj; unfold updf; destruct (Nat.eqb_spec b0 b); intros E;
      [inversion E; subst; split; lia | apply (k_wjoin0 b0 v0 Hj E)].
    + (* k_wactive *) intros b0 Hb; destruct (k_wactive0 b0 Hb) as [W1 W2]; split; auto; unfold updf;
      destruct (Nat.eqb_spec b0 b); auto; subst; exfalso;
      assert (O : watcher_owns (w_wpc s) = true) by (destruct Hb as [Hb|[x Hb]]; rewrite Hb; reflexivity);
      specialize (k_one0 O); discriminate.
    + (* k_fin *) intros b0 v0; unfold updf; destruct (Nat.eqb_spec b0 b); intros E; [lia|eauto].
    + (* k_recent *)
      destruct (w_disposed s); [intros; discriminate|];
      intros b0 E; inversion E; subst b0;
      unfold updf; split;
      [ rewrite Nat.eqb_refl; discriminate
      | intros b' v'; destruct (Nat.eqb_spec b' b); intros F; [lia|]; apply k_fin0 in F; lia ].
    + (* k_disp *) intros Hd; destruct (k_disp0 Hd) as [_ [D _]]; discriminate.
    + (* k_disp2 *) intros D; rewrite D; reflexivity.
    + (* k_data *) kdata.
  - (* the first watch-mode build starts: no build is in flight *)
    destruct (w_client s) eqn:Cc; try discriminate.
    destruct (w_first s && negb (w_disposed s) && negb (watcher_owns (w_wpc s))) eqn:C; [|discriminate].
    inversion H; subst; clear H. apply andb_true_iff in C as [C C2]. apply andb_true_iff in C as [C0 C1].
    apply negb_true_iff in C1, C2.
    constructor; simpl; auto; try (intros; discriminate); try wold.
    + (* k_one *) intros X; congruence.
    + (* k_active *) intros b Hb; inversion Hb; subst; split; auto;
      destruct (w_fver s (w_nb s)) eqn:F; auto; apply k_fin0 in F; lia.
    + (* k_wactive *) intros b Hb; exfalso; destruct Hb as [Hb|[v Hb]]; rewrite Hb in C2; discriminate.
    + (* k_fin *) intros b v F; apply k_fin0 in F; lia.
    + (* k_disp *) intros Hd; destruct (k_disp0 Hd) as [D _]; congruence.
    + (* k_data *) intros _ _; right; eexists; left; reflexivity.
  - (* serve from the recent build *)
    destruct (w_client s); try discriminate. destruct (w_recent s); try discriminate.
    destruct (watcher_owns (w_wpc s)); [discriminate|]. inversion H; subst; clear H.
    exact I0.
  - (* the watcher goroutine *)
    destruct (w_wpc s) eqn:P; try discriminate.
    + (* WCheck *)
      inversion H; subst; clear H.
      constructor; simpl; auto; try wold; try (destruct (w_stop s); intros; discriminate).
      * (* k_wactive *) intros b [X|[v X]]; destruct (w_stop s); discriminate.
      * (* k_disp *) intros Hd; destruct (k_disp0 Hd) as [_ [_ [X|X]]]; discriminate.
    + (* WSleep: a tick *)
      destruct (w_hasData s && (w_watched s <? w_edits s)) eqn:Dirty.
      * apply andb_true_iff in Dirty as [HasD Dirty]. apply Nat.ltb_lt in Dirty.
        destruct (w_disposed s) eqn:Dsp.
        -- inversion H; subst; clear H. constructor; simpl; auto; try wold; try (intros; discriminate).
           ++ (* k_wactive *) intros b [X|[v X]]; discriminate.
           ++ (* k_disp *) intros Hd; destruct (k_disp0 Hd) as [_ [_ [X|X]]]; discriminate.
        -- assert (Li : w_lastTick s <= w_watched s) by (apply k_idle0; auto).
           destruct (w_client s) eqn:Cc; inversion H; subst; clear H.
           ++ (* its own build *)
              constructor; simpl; auto; try lia; try (intros; discriminate).
              ** (* k_idle *) intros [X|X]; discriminate.
              ** (* k_wactive *) intros b [X|[v X]]; try discriminate; inversion X; subst; split; auto;
                 destruct (w_fver s (w_nb s)) eqn:F; auto; apply k_fin0 in F; lia.
              ** (* k_fin *) intros b v F; apply k_fin0 in F; lia.
           ++ constructor; simpl; auto; try wold; try (intros; discriminate).
              ** (* k_wjoin *) intros b0 v0 E F; inversion E; subst b0; destruct (k_active0 b eq_refl) as [_ N]; congruence.
              ** (* k_wactive *) intros b0 [X|[v X]]; discriminate.
              ** (* k_disp *) intros Hd; destruct (k_disp0 Hd) as [_ [D _]]; discriminate.
           ++ constructor; simpl; auto; try wold; try (intros; discriminate).
              ** (* k_wjoin *) intros b0 v0 E F; inversion E; subst b0; destruct (k_active0 b eq_refl) as [_ N]; congruence.
              ** (* k_wactive *) intros b0 [X|[v0 X]]; discriminate.
              ** (* k_disp *) intros Hd; destruct (k_disp0 Hd) as [_ [D _]]; discriminate.
      * inversion H; subst; clear H. constructor; simpl; auto; try wold; try (intros; discriminate).
        -- (* k_wactive *) intros b [X|[v X]]; discriminate.
        -- (* k_disp *) intros Hd; destruct (k_disp0 Hd) as [_ [_ [X|X]]]; discriminate.
    + (* WOwn: read *)
      inversion H; subst; clear H.
      constructor; simpl; auto; try wold; try (intros; discriminate).
      * (* k_idle *) intros [X|X]; discriminate.
      * (* k_wread *) intros b0 v0 E; inversion E; subst; split; auto.
      * (* k_wactive *) intros b0 [X|[v X]]; [discriminate|]; inversion X; subst; apply k_wactive0; auto.
      * (* k_disp *) intros Hd; destruct (k_disp0 Hd) as [_ [_ [X|X]]]; discriminate.
    + (* WOwnRead: the owner records the watch data and publishes *)
      inversion H; subst; clear H.
      destruct (k_wread0 b v eq_refl) as [R1 R2].
      destruct (k_wactive0 b (or_intror (ex_intro _ v eq_refl))) as [A1 A2].
      constructor; simpl; auto; try lia; try wold; try (intros; discriminate).
      * (* k_wset *) intros v0 E; inversion E; subst; split; auto.
      * (* k_active *) intros b0 Hb; destruct (k_active0 b0 Hb) as [W1 W2]; split; auto; unfold updf;
        destruct (Nat.eqb_spec b0 b); auto; subst; exfalso;
        specialize (k_one0 eq_refl); rewrite k_one0 in Hb; discriminate.
      * (* k_wactive *) intros b0 [X|[v0 X]]; discriminate.
      * (* k_fin *) intros b0 v0; unfold updf; destruct (Nat.eqb_spec b0 b); intros E; [lia|eauto].
      * (* k_recent *)
        destruct (w_disposed s); [intros; discriminate|];
        intros b0 E; inversion E; subst b0;
        unfold updf; split;
        [ rewrite Nat.eqb_refl; discriminate
        | intros b' v'; destruct (Nat.eqb_spec b' b); intros F; [lia|]; apply k_fin0 in F; lia ].
      * (* k_disp *) intros Hd; destruct (k_disp0 Hd) as [_ [_ [X|X]]]; discriminate.
      * (* k_disp2 *) intros D; rewrite D; reflexivity.
    + (* WJoin *)
      destruct (w_fver s b) eqn:F; [|discriminate]. inversion H; subst; clear H.
      constructor; simpl; auto; try wold; try (intros; discriminate).
      * (* k_idle *) intros [X|X]; discriminate.
      * (* k_wset *) intros v0 E; inversion E; subst; apply (k_wjoin0 b v0 eq_refl F).
      * (* k_wactive *) intros b0 [X|[v0 X]]; discriminate.
      * (* k_disp *) intros Hd; destruct (k_disp0 Hd) as [_ [_ [X|X]]]; discriminate.
    + (* WSet: the watcher goroutine records the watch data again *)
      inversion H; subst; clear H.
      destruct (k_wset0 v eq_refl) as [R1 R2].
      constructor; simpl; auto; try lia; try wold; try (intros; discriminate).
      * (* k_wactive *) intros b0 [X|[v0 X]]; discriminate.
      * (* k_disp *) intros Hd; destruct (k_disp0 Hd) as [_ [_ [X|X]]]; discriminate.
  - (* dispose starts *)
    destruct (w_disposed s) eqn:Dsp; [discriminate|]. inversion H; subst; clear H.
    constructor; simpl; auto; try wold; try (intros; discriminate).
    + (* k_disp *) intros Hd; destruct (k_disp0 Hd) as [D _]; congruence.
  - (* dispose returns *)
    destruct (w_disposed s && match w_wpc s with WOff | WExited => true | _ => false end
              && match w_client s with CNone => true | _ => false end) eqn:C; [|discriminate].
    inversion H; subst; clear H.
    apply andb_true_iff in C as [C C3]. apply andb_true_iff in C as [C1 C2].
    constructor; simpl; auto.
    intros _. split; auto. split.
    + destruct (w_client s); auto; discriminate.
    + destruct (w_wpc s); auto; discriminate.
Qed.

Lemma wrun_inv : forall acts s s' tr, WInv s -> wrun s acts = Some (s', tr) -> WInv s'.
Proof.
  induction acts as [|a r IH]; intros s s' tr I H; simpl in H.
  - inversion H; subst; auto.
  - destruct (wexec s a) as [[s1 l]|] eqn:E; [|discriminate].
    destruct (wrun s1 r) as [[s2 tr2]|] eqn:R; [|discriminate]. inversion H; subst.
    apply (IH s1 s' tr2); auto. eapply wexec_inv; eauto.
Qed.

(* coalescing: the watcher starts a build only for a change it has not built
   yet - never more builds than edits, in every prefix of every run *)
Lemma wrun_trace : forall acts s s' tr, WInv s -> wrun s acts = Some (s', tr) ->
  wtrace_go 0 (w_wbuilds s) (w_edits s) tr = true.
Proof.
  induction acts as [|a r IH]; intros s s' tr I H; simpl in H.
  - inversion H; subst. reflexivity.
  - destruct (wexec s a) as [[s1 l]|] eqn:E; [|discriminate].
    destruct (wrun s1 r) as [[s2 tr2]|] eqn:R; [|discriminate]. inversion H; subst; clear H.
    pose proof (wexec_inv _ _ _ _ I E) as I1. specialize (IH _ _ _ I1 R).
    assert (Hl : (l = WEdit /\ w_wbuilds s1 = w_wbuilds s /\ w_edits s1 = S (w_edits s)) \/
                 ((exists b, l = WBuild b) /\ w_wbuilds s1 = S (w_wbuilds s) /\ w_edits s1 = w_edits s) \/
                 ((l = WTau \/ exists b, l = WServed b) /\ w_wbuilds s1 = w_wbuilds s /\ w_edits s1 = w_edits s)).
    { destruct a; simpl in E;
        repeat match type of E with
               | (if ?c then _ else _) = _ => destruct c
               | match ?c with _ => _ end = _ => destruct c
               end; try discriminate; inversion E; subst; simpl; eauto 8. }
    destruct Hl as [[-> [E1 E2]]|[[[b ->] [E1 E2]]|[[->|[b ->]] [E1 E2]]]]; cbn [wtrace_go]; rewrite E1, E2 in IH; auto.
    rewrite IH, andb_true_r. apply Nat.leb_le.
    pose proof (k_builds _ I1). pose proof (k_tick _ I1). lia.
Qed.

Theorem watch_builds_coalesced : forall acts s' tr, wrun ws0 acts = Some (s', tr) ->
  wtrace_ok 0 tr = true /\ w_wbuilds s' <= w_edits s'.
Proof.
  intros acts s' tr H. split.
  - exact (wrun_trace acts ws0 s' tr winv0 H).
  - pose proof (wrun_inv _ _ _ _ winv0 H) as I. pose proof (k_builds _ I). pose proof (k_tick _ I). lia.
Qed.

(* the recorded watch data never runs ahead of the inputs; at most one build at a time *)
Theorem watch_safety : forall acts s' tr, wrun ws0 acts = Some (s', tr) ->
  w_watched s' <= w_edits s' /\ (watcher_owns (w_wpc s') = true -> w_client s' = CNone).
Proof.
  intros acts s' tr H. pose proof (wrun_inv _ _ _ _ winv0 H) as I. split; [apply (k_watched _ I)|apply (k_one _ I)].
Qed.

(* Dispose returns only after the watcher goroutine has exited and no build is
   active, and from then on nothing is ever built or served *)
Theorem dispose_stops_watcher_all : forall acts s tr, wrun ws0 acts = Some (s, tr) -> w_dispRet s = true ->
  (w_wpc s = WOff \/ w_wpc s = WExited) /\ w_client s = CNone /\ w_recent s = None /\
  forall a s' l, wexec s a = Some (s', l) -> (forall b, l <> WBuild b) /\ (forall b, l <> WServed b) /\ w_nb s' = w_nb s.
Proof.
  intros acts s tr H D. pose proof (wrun_inv _ _ _ _ winv0 H) as I.
  destruct (k_disp _ I D) as [Dd [Cc Wp]]. pose proof (k_disp2 _ I Dd) as Rc.
  repeat split; auto; destruct a; simpl in H0; rewrite ?Dd, ?Cc, ?Rc in H0; simpl in H0;
    destruct Wp as [Wp|Wp]; rewrite ?Wp in H0; simpl in H0; rewrite ?andb_false_r in H0; simpl in H0;
    repeat match type of H0 with
           | (if ?c then _ else _) = _ => destruct c
           | match ?c with _ => _ end = _ => destruct c
           end; try discriminate; inversion H0; subst; simpl; auto; intros; discriminate.
Qed.

(* the dev server's "recent build" is always the most recently finished build *)
Theorem serve_recent_is_latest_all : forall acts s tr b, wrun ws0 acts = Some (s, tr) -> w_recent s = Some b ->
  w_fver s b <> None /\ forall b' v, w_fver s b' = Some v -> b' <= b.
Proof.
  intros acts s tr b H R. pose proof (wrun_inv _ _ _ _ winv0 H) as I. apply (k_recent _ I b R).
Qed.

(* The first watch-mode build starts only when no build is in flight (that is
   what `if build != nil { build.waitGroup.Wait() }` in Watch's goroutine is
   for), and it is a build begun after watch mode was switched on *)
Theorem first_build_after_inflight : forall s s' l, wexec s XFirstStart = Some (s', l) ->
  w_client s = CNone /\ w_client s' = CStarted (w_nb s) true /\ w_first s' = false.
Proof.
  intros s s' l H. simpl in H. destruct (w_client s); try discriminate.
  destruct (w_first s && negb (w_disposed s) && negb (watcher_owns (w_wpc s))); [|discriminate].
  inversion H; subst; simpl. auto.
Qed.

(* ... therefore, once that build is over, the watcher has watch data: *)
Theorem watch_data_after_first_build : forall acts s tr, wrun ws0 acts = Some (s, tr) ->
  watching (w_wpc s) = true -> w_first s = false -> w_client s = CNone -> w_hasData s = true.
Proof.
  intros acts s tr H Hw Hf Hc. pose proof (wrun_inv _ _ _ _ winv0 H) as I.
  destruct (k_data _ I Hw Hf) as [X|[b [X|[v X]]]]; auto; congruence.
Qed.

(* a change is never missed: whenever the watcher goroutine sleeps on a live
   context whose first watch-mode build is over, with no client build in flight
   and the recorded watch data behind the inputs, its next tick starts a build *)
Theorem change_is_noticed : forall acts s tr, wrun ws0 acts = Some (s, tr) ->
  w_wpc s = WSleep -> w_disposed s = false -> w_client s = CNone -> w_first s = false ->
  w_watched s < w_edits s -> exists s', wexec s XWatcher = Some (s', WBuild (w_nb s)).
Proof.
  intros acts s tr H P D C F L.
  assert (Hd : w_hasData s = true).
  { eapply watch_data_after_first_build; eauto. rewrite P. reflexivity. }
  simpl. rewrite P. apply Nat.ltb_lt in L. rewrite Hd, L, D, C. simpl. eauto.
Qed.

(* without the first watch-mode build the watcher has nothing to poll: a Watch
   switched on while a (non-watch) build is in flight records no data from
   that build, and a later edit is not noticed until the first build has run *)
Example no_data_no_build :
  option_map (fun x => wexec (fst x) XWatcher)
             (wrun ws0 [XClientStart; XWatch; XClientRead; XClientFinish; XEdit; XWatcher])
  = option_map (fun x => Some (mkW false false CNone WCheck (Some 0) 1 0 1 (w_fver (fst x)) 0 0 false false true, WTau))
               (wrun ws0 [XClientStart; XWatch; XClientRead; XClientFinish; XEdit; XWatcher]).
Proof. vm_compute. reflexivity. Qed.

(* but a change can be built twice: the watcher goroutine's second
   setWatchData (after rebuild() returned) may overwrite the newer watch data
   of a client build that ran in between, and the next tick rebuilds although
   the latest finished build already contains the current inputs *)
Definition wit_redundant : list wact :=
  [XWatch; XFirstStart; XClientRead; XClientFinish; XEdit; XWatcher; XWatcher; XWatcher; XWatcher; XEdit;
   XClientStart; XClientRead; XClientFinish; XWatcher; XWatcher].
Theorem redundant_watch_build_possible :
  exists s tr s' b, wrun ws0 wit_redundant = Some (s, tr) /\
    w_fver s b = Some (w_edits s) /\ w_client s = CNone /\
    wexec s XWatcher = Some (s', WBuild (w_nb s)).
Proof.
  destruct (wrun ws0 wit_redundant) as [[s tr]|] eqn:R; [|vm_compute in R; discriminate].
  vm_compute in R. inversion R; subst; clear R.
  eexists. eexists. eexists. exists 2. repeat split; vm_compute; reflexivity.
Qed.
