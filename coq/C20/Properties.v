(* C20 property theorems: statements closed by [exact lemma] + Print Assumptions. *)
From V Require Import Common.Base C20.Protocol C20.ProtocolProofs C20.CtxLTS C20.CtxSpec C20.CtxProofs
  C20.CtxMonA C20.CtxMonB C20.CtxMonC C20.CtxStale C20.WatchServe C20.WatchProofs C20.ServiceSpec C20.ServiceLTS C20.ServiceProofs C20.PluginSpec C20.Plugin C20.PluginProofs.

(* writeUint32 / readUint32: little-endian round trip modulo 2^32, any trailing bytes *)
Theorem uint32_roundtrip : forall n r, read32 (le32 n ++ r) = Some (n mod 4294967296, r).
Proof. exact read32_le32. Qed.
Print Assumptions uint32_roundtrip.

(* encodePacket / decodePacket: every well-formed packet (ids below 2^31, ints
   in [0,2^32), lengths below 2^32, map keys distinct = strictly sorted in the
   canonical representation) decodes to itself; nesting is unbounded *)
Theorem packet_roundtrip : forall p, wf_packet p = true -> decodePacket (encodeBody p) = DOk p.
Proof. exact packet_roundtrip_all. Qed.
Print Assumptions packet_roundtrip.

(* runService's framing: the length prefix written by encodePacket delimits
   exactly the body, whatever follows in the stream *)
Theorem packet_framing : forall p rest, zlen (encodeBody p) < 4294967296 ->
  readLP (encodePacket p ++ rest) = Some (encodeBody p, rest).
Proof. exact packet_framing_all. Qed.
Print Assumptions packet_framing.

(* In every reachable state of the context LTS (any number of threads, any
   interleaving of Rebuild/Cancel/Dispose/Watch calls, edits and watcher
   ticks) at most one thread is inside rebuildImpl, and for one build only. *)
Theorem at_most_one_build_running : forall s, reachable s ->
  forall t1 t2 b1 b2, (t1 < nt s)%nat -> (t2 < nt s)%nat ->
    phase_of (t_pc (thr s t1)) = Some b1 -> phase_of (t_pc (thr s t2)) = Some b2 ->
    t1 = t2 /\ b1 = b2.
Proof. exact one_build_running. Qed.
Print Assumptions at_most_one_build_running.

(* Deadlock freedom: in every reachable state, as long as some thread has not
   returned, the system itself (a thread step or the passing of time in the
   watcher goroutine; no new call, no edit) can take a step.  The termination
   of rebuildImpl is built into the model: the owner's phase steps are always
   enabled. *)
Theorem deadlock_free : forall s, reachable s ->
  forall t, (t < nt s)%nat -> is_ret (t_pc (thr s t)) = false ->
  exists a s' l, system a = true /\ exec s a = Some (s', l).
Proof. intros s R. exact (progress_inv s (sinv_reachable s R)). Qed.
Print Assumptions deadlock_free.

(* Every trace of the LTS - any number of client calls, any interleaving -
   satisfies the executable specification history_ok (rules S1-S9 of
   CtxSpec.v): Rebuild returns the complete result of exactly one build that
   had not been returned before the call (rebuild_returns_one_build), a
   sequential Rebuild starts a new build that sees all earlier edits
   (sequential_rebuild_sees_edits), Cancel and Dispose return only after the
   builds started before the call have ended, nothing happens after a Dispose
   returned.  history_ok is the very function evaluated on the histories
   recorded from the real pkg/api code. *)
Theorem history_checker_sound : forall tr s, run init tr s -> history_ok tr = true.
Proof. exact history_sound. Qed.
Print Assumptions history_checker_sound.

(* The order "clear activeBuild, then release the waiters" of rebuild() is what
   makes this hold: once the waiters of build b have been released (b_done in
   state s1), a thread created afterwards (any API call made later, or a
   goroutine started by a later Watch) never holds a reference to b and never
   returns b - a Rebuild that starts after b's waiters were released never
   returns b.  Rule S2 of history_ok ("the returned build had not been
   returned to anybody when the call was made") is the observable form of this
   statement; it is what rejects the histories recorded when Done() is moved
   before the critical section that clears activeBuild. *)
Theorem no_stale_join : forall tr1 s1 tr2 s2 b,
  run init tr1 s1 -> (b < nb s1)%nat -> b_done (blds s1 b) = true -> run s1 tr2 s2 ->
  forall t, (nt s1 <= t)%nat -> (t < nt s2)%nat ->
    ref_of (t_pc (thr s2 t)) <> Some b /\ ret_build (t_pc (thr s2 t)) <> Some b.
Proof.
  intros tr1 s1 tr2 s2 b R1 Hb Hd R2.
  exact (proj2 (proj2 (proj2 (no_stale_join_run s1 tr2 s2 R2 (sinv_reachable s1 (ex_intro _ tr1 R1)) b Hb Hd)))).
Qed.
Print Assumptions no_stale_join.

(* When a Dispose call returns - whichever of several concurrent Dispose
   calls it is - the context is disposed, no build is active and no thread is
   inside rebuildImpl. *)
Theorem dispose_returns_after_end : forall tr s a s' c v,
  run init tr s -> exec s a = Some (s', LRet c OpDispose v) ->
  disposed s' = true /\ active s' = None /\
  (forall t b, (t < nt s')%nat -> phase_of (t_pc (thr s' t)) = Some b -> False).
Proof. exact dispose_return_state. Qed.
Print Assumptions dispose_returns_after_end.

(* A disposed context stays disposed and never starts another build. *)
Theorem disposed_starts_nothing : forall s a s' l,
  disposed s = true -> exec s a = Some (s', l) -> nb s' = nb s /\ disposed s' = true.
Proof. exact disposed_no_new_build. Qed.
Print Assumptions disposed_starts_nothing.

(* Plugin callbacks within one build.  Every callback trace of the build model
   (any scheduling of the on-start goroutines and parse goroutines, any import
   graph, any failing on-end callback) is accepted by the specification checker
   build_trace_prefix_ok, the function also evaluated on the callback traces
   recorded from real builds: all on-start callbacks have ended before any
   on-resolve/on-load/on-end begins (onstart_before_load), no identity is
   loaded twice (load_once_per_identity), on-end callbacks run after the write,
   in registration order, each once, none after a failed one
   (onend_after_write_in_order). *)
Theorem plugin_trace_sound : forall nS nE acts s' tr,
  brun nS nE bst0 acts = Some (s', tr) -> build_trace_prefix_ok nS nE tr = true.
Proof. exact build_prefix_sound. Qed.
Print Assumptions plugin_trace_sound.

(* ... and when the build is over, all on-end callbacks ran unless one failed *)
Theorem plugin_trace_complete_sound : forall nS nE acts s' tr,
  brun nS nE bst0 acts = Some (s', tr) -> bdone nE s' = true -> build_trace_ok nS nE tr = true.
Proof. exact build_complete_sound. Qed.
Print Assumptions plugin_trace_complete_sound.

(* what acceptance means for loads: in an accepted trace the loaded module
   identities are pairwise distinct *)
Theorem load_once_per_identity : forall nS nE tr,
  build_trace_prefix_ok nS nE tr = true -> NoDup (loads tr).
Proof. exact accepted_loads_once. Qed.
Print Assumptions load_once_per_identity.

(* the per-file resolver cache of parseFile: in an accepted trace each import
   (kind, specifier, attributes) of one file reaches the on-resolve callbacks
   at most once - and (by the checker's PResK rule) only after that file was
   loaded *)
Theorem resolve_once_per_import : forall nS nE tr,
  build_trace_prefix_ok nS nE tr = true -> NoDup (resolves tr).
Proof. exact accepted_resolves_once. Qed.
Print Assumptions resolve_once_per_import.

(* on-end callbacks come after ALL loads and resolves: once the first on-end
   callback has begun, an accepted trace contains no further on-start,
   on-resolve or on-load callback *)
Theorem onend_after_all_loads : forall nS nE pre i w post,
  build_trace_prefix_ok nS nE (pre ++ PEB i w :: post) = true ->
  forallb (fun e => negb (scan_event e)) post = true.
Proof. exact accepted_onend_after_scan. Qed.
Print Assumptions onend_after_all_loads.

(* in the model, for every schedule: when the outputs are written (hence
   before any on-end callback) every file that was ever visited has run its
   on-load callback *)
Theorem all_visited_loaded_before_write : forall nS nE acts s' tr,
  brun nS nE bst0 acts = Some (s', tr) -> b_written s' = true ->
  forall x, In x (b_visited s') -> In x (b_loaded s').
Proof. exact all_visited_loaded_at_write. Qed.
Print Assumptions all_visited_loaded_before_write.

(* the service layer (cmd/esbuild/service.go) as an LTS over packets *)

(* every run of the service model - any interleaving of arriving requests,
   handler goroutines, callbacks to the client, stdin closing, exit - produces
   a packet trace accepted by svc_trace_ok, the checker that Coq also evaluates
   on every transcript recorded from the real `esbuild --service` process *)
Theorem service_trace_sound : forall acts s' tr, srun sst0 acts = Some (s', tr) -> svc_trace_ok tr = true.
Proof. exact ServiceProofs.service_trace_sound. Qed.
Print Assumptions service_trace_sound.

(* in every prefix of an accepted trace, no request id has more responses than requests *)
Theorem no_response_without_request : forall pre post id,
  svc_trace_ok (pre ++ post) = true -> (n_sresp id pre <= n_creq id pre)%nat.
Proof. exact accepted_no_response_without_request. Qed.
Print Assumptions no_response_without_request.

(* a request id is outstanding at most once ... *)
Theorem request_outstanding_at_most_once : forall pre post id,
  svc_trace_ok (pre ++ post) = true -> (n_creq id pre <= n_sresp id pre + 1)%nat.
Proof. exact accepted_at_most_one_outstanding. Qed.
Print Assumptions request_outstanding_at_most_once.

(* ... and when the process exits every request has been answered: together,
   exactly one response per request.  For all interleavings of the model: *)
Theorem every_request_answered_once : forall acts s' pre post id,
  srun sst0 acts = Some (s', pre ++ EExit :: post) ->
  n_sresp id pre = n_creq id pre /\ (forall p1 p2, pre = p1 ++ p2 -> (n_sresp id p1 <= n_creq id p1 <= n_sresp id p1 + 1)%nat).
Proof.
  intros acts s' pre post id H. pose proof (ServiceProofs.service_trace_sound _ _ _ H) as A. split.
  - exact (accepted_all_answered_at_exit pre post id A).
  - intros p1 p2 E. subst pre. rewrite <- app_assoc in A. split.
    + exact (accepted_no_response_without_request p1 _ id A).
    + exact (accepted_at_most_one_outstanding p1 _ id A).
Qed.
Print Assumptions every_request_answered_once.

(* Cancel / Dispose over the service, for all interleavings (service.go after
   929126c: disposeDone / respondAfterDispose): the response to a cancel or
   dispose request whose context was known to the service when the request
   arrived - alive, or with a dispose pending - is sent only when no build of
   that context is running.  (Of the code before that commit the statement is
   refuted by two recorded transcripts; they are must-pass scenarios of the
   corpus.) *)
Theorem service_cancel_dispose_wait_for_build : forall s id h k s' oe,
  find_h id (s_hs s) = Some h ->
  (h_kind h = HCancel k true \/ h_kind h = HDispose k true \/ h_kind h = HAfterDispose k) ->
  sexec s (SRespond id) = Some (s', oe) -> ctx_building k (s_cs s) = false.
Proof. exact cancel_dispose_answered_after_build_end. Qed.
Print Assumptions service_cancel_dispose_wait_for_build.

(* ... and a cancel/dispose is put on the "answer at once" path only when the
   service has no entry for the context at all (so no build of it exists) *)
Theorem service_answer_at_once_only_without_context : forall s id c s' oe,
  sexec s (SRecv id c) = Some (s', oe) ->
  exists h, find_h id (s_hs s') = Some h /\
    (forall k, (h_kind h = HCancel k false \/ h_kind h = HDispose k false) -> find_c k (s_cs s) = None).
Proof. exact recv_kind. Qed.
Print Assumptions service_answer_at_once_only_without_context.

(* Coalescing, for every interleaving of edits, client builds, watcher ticks,
   serve requests and Dispose: the watcher goroutine starts a build only for a
   change it has not built yet - in every prefix of every run the builds it
   started number at most the edits so far.  (The same trace specification,
   with one extra build allowed for Watch's unconditional first build, is
   evaluated on the real histories: Harness.watch_hist_ok.) *)
Theorem watch_builds_coalesced : forall acts s' tr, wrun ws0 acts = Some (s', tr) ->
  wtrace_ok 0 tr = true /\ (w_wbuilds s' <= w_edits s')%nat.
Proof. exact WatchProofs.watch_builds_coalesced. Qed.
Print Assumptions watch_builds_coalesced.

(* the recorded watch data never runs ahead of the inputs, and the watcher
   never builds while a client build is active *)
Theorem watch_data_safe : forall acts s' tr, wrun ws0 acts = Some (s', tr) ->
  (w_watched s' <= w_edits s')%nat /\ (watcher_owns (w_wpc s') = true -> w_client s' = CNone).
Proof. exact watch_safety. Qed.
Print Assumptions watch_data_safe.

(* Dispose returns only after the watcher goroutine has exited and no build is
   active; afterwards no action starts a build or serves a result *)
Theorem dispose_stops_watcher : forall acts s tr, wrun ws0 acts = Some (s, tr) -> w_dispRet s = true ->
  (w_wpc s = WOff \/ w_wpc s = WExited) /\ w_client s = CNone /\ w_recent s = None /\
  forall a s' l, wexec s a = Some (s', l) -> (forall b, l <> WBuild b) /\ (forall b, l <> WServed b) /\ w_nb s' = w_nb s.
Proof. exact dispose_stops_watcher_all. Qed.
Print Assumptions dispose_stops_watcher.

(* what the dev server answers from ctx.recentBuild is the most recently finished build *)
Theorem serve_recent_is_latest : forall acts s tr b, wrun ws0 acts = Some (s, tr) -> w_recent s = Some b ->
  w_fver s b <> None /\ forall b' v, w_fver s b' = Some v -> (b' <= b)%nat.
Proof. exact serve_recent_is_latest_all. Qed.
Print Assumptions serve_recent_is_latest.

(* Watch's goroutine starts the first watch-mode build only when no build is
   in flight - "the first watch build starts after the builds in flight at the
   call have ended" - and that build is begun with watch mode on ... *)
Theorem first_watch_build_after_inflight : forall s s' l, wexec s XFirstStart = Some (s', l) ->
  w_client s = CNone /\ w_client s' = CStarted (w_nb s) true /\ w_first s' = false.
Proof. exact first_build_after_inflight. Qed.
Print Assumptions first_watch_build_after_inflight.

(* ... so that, once it is over, the watcher has paths to poll *)
Theorem watch_data_after_first_build : forall acts s tr, wrun ws0 acts = Some (s, tr) ->
  watching (w_wpc s) = true -> w_first s = false -> w_client s = CNone -> w_hasData s = true.
Proof. exact WatchProofs.watch_data_after_first_build. Qed.
Print Assumptions watch_data_after_first_build.

(* "a change during a build triggers exactly one more build": at least one - a
   change is never missed once the first watch-mode build is over (this rests
   on the two theorems above: a watcher without recorded data polls nothing) *)
Theorem watch_change_is_noticed : forall acts s tr, wrun ws0 acts = Some (s, tr) ->
  w_wpc s = WSleep -> w_disposed s = false -> w_client s = CNone -> w_first s = false ->
  (w_watched s < w_edits s)%nat -> exists s', wexec s XWatcher = Some (s', WBuild (w_nb s)).
Proof. exact change_is_noticed. Qed.
Print Assumptions watch_change_is_noticed.

(* ... at most one per change by watch_builds_coalesced as far as the watcher's
   own builds are concerned; but "no build unless the latest result is out of
   date" is FALSE of the faithful model: the watcher goroutine's second
   setWatchData can overwrite the newer data of a client build that ran in
   between (witness below; it needs the watcher goroutine to be preempted
   between `w.rebuild()` returning and `w.setWatchData`, while a complete client
   build runs - not reproducible by a test on the real code, so it is recorded
   as an observation about the model, not as a finding: the effect is one
   redundant build, never a missed change) *)
Theorem watch_no_redundant_build_refuted :
  exists s tr s' b, wrun ws0 wit_redundant = Some (s, tr) /\
    w_fver s b = Some (w_edits s) /\ w_client s = CNone /\
    wexec s XWatcher = Some (s', WBuild (w_nb s)).
Proof. exact redundant_watch_build_possible. Qed.
Print Assumptions watch_no_redundant_build_refuted.
