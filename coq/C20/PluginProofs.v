(* Every callback trace of the build model (Plugin.v) satisfies the
   specification checker (PluginSpec.v). *)
From V Require Import Common.Base C20.PluginSpec C20.Plugin.
Local Close Scope Z_scope.
Local Open Scope nat_scope.

Lemma memn_In : forall k l, memn k l = true <-> In k l.
Proof.
  induction l as [|x r IH]; simpl; [split; [discriminate|contradiction]|].
  rewrite orb_true_iff, IH, Nat.eqb_eq. split; intros [H|H]; auto.
Qed.

Lemma remove1_In : forall k x l, In x (remove1 k l) -> In x l.
Proof.
  induction l as [|y r IH]; simpl; auto. destruct (Nat.eqb_spec k y); auto.
  intros [H|H]; auto.
Qed.

Lemma remove1_In_or : forall k x l, In x l -> k = x \/ In x (remove1 k l).
Proof.
  induction l as [|y r IH]; simpl; intros H; [contradiction|].
  destruct (Nat.eqb_spec k y) as [E|N].
  - destruct H; [left; congruence | right; auto].
  - destruct H; [right; left; auto|]. destruct (IH H); auto. right. right. auto.
Qed.

Lemma remove1_NoDup : forall k l, NoDup l -> NoDup (remove1 k l) /\ ~ In k (remove1 k l).
Proof.
  induction l as [|y r IH]; simpl; intros H; [split; [constructor|auto]|].
  inversion H; subst. destruct (Nat.eqb_spec k y) as [E|N].
  - subst. auto.
  - destruct (IH H3) as [I1 I2]. split.
    + constructor; auto. intros C. apply H2. eapply remove1_In; eauto.
    + intros [C|C]; auto.
Qed.

(* relation between the model state and the monitor state *)
Record BInv (nS nE : nat) (s : bst) (m : pmon) : Prop := mkBInv {
  v_sb : pm_sb m = b_sb s;
  v_se : pm_se m = b_se s;
  v_loaded : pm_loaded m = b_loaded s;
  v_endNext : pm_endNext m = b_endNext s;
  v_endOpen : pm_endOpen m = b_endOpen s;
  v_endStopped : pm_endStopped m = b_endStopped s;
  v_seen : pm_endSeen m = true -> b_written s = true;
  v_sblt : forall x, In x (b_sb s) -> x < nS;
  v_sesub : forall x, In x (b_se s) -> In x (b_sb s);
  v_senodup : NoDup (b_se s);
  v_barrier : b_barrier s = true -> length (b_se s) = nS;
  v_written : b_written s = true -> b_barrier s = true /\ b_pending s = [] /\ b_parsing s = [];
  v_nodup : NoDup (b_pending s);
  v_disj : forall x, In x (b_pending s) -> ~ In x (b_loaded s);
  v_open : b_endOpen s = true -> b_written s = true /\ b_endNext s < nE;
  v_vis : forall x, In x (b_pending s) \/ In x (b_loaded s) -> In x (b_visited s);
  v_pbar : forall x, In x (b_pending s) -> b_barrier s = true;
  v_resolved : pm_resolved m = b_resolved s;
  v_parl : forall x, In x (b_parsing s) -> In x (b_loaded s) /\ b_barrier s = true;
  v_allvis : forall x, In x (b_visited s) -> In x (b_pending s) \/ In x (b_loaded s) }.

Lemma binv0 : forall nS nE, BInv nS nE bst0 pmon0.
Proof.
  intros. constructor; simpl; auto; try discriminate; try constructor; try contradiction.
  - intros x [H|H]; contradiction.
Qed.

(* all on-start callbacks have ended once the barrier is passed *)
Lemma all_ended : forall nS l i, NoDup l -> (forall x, In x l -> x < nS) -> length l = nS -> i < nS -> In i l.
Proof.
  intros nS l i ND B L Hi.
  assert (Inc : incl (seq 0 nS) l).
  { apply NoDup_length_incl; auto.
    - rewrite seq_length. lia.
    - intros x Hx. apply in_seq. specialize (B x Hx). lia. }
  apply Inc. apply in_seq. lia.
Qed.

Lemma unwritten_unseen : forall nS nE s m, BInv nS nE s m -> b_written s = false -> pm_endSeen m = false.
Proof.
  intros nS nE s m I W. destruct (pm_endSeen m) eqn:E; auto. rewrite (v_seen _ _ _ _ I E) in W. discriminate.
Qed.

(* maybeParseFile, for an import, an entry point or an injected file *)
Lemma visit_sound : forall nS nE s m id s' oe,
  BInv nS nE s m -> bexec nS nE s (AVisit id) = Some (s', oe) ->
  exists m', (match oe with Some e => pm_step nS nE m e | None => Some m end) = Some m' /\ BInv nS nE s' m'.
Proof.
  intros nS nE s m id s' oe I H. destruct I. simpl in H.
  destruct (b_barrier s && negb (b_written s)) eqn:C; [|discriminate].
  apply andb_true_iff in C as [C1 C2]. apply negb_true_iff in C2.
  destruct (memn id (b_visited s)) eqn:V; inversion H; subst; clear H; exists m; split; auto.
  - constructor; auto.
  - assert (NV : ~ In id (b_visited s)) by (intros X; apply memn_In in X; congruence).
    constructor; simpl; auto; try congruence.
    + (* v_nodup *) constructor; auto; intros X; apply NV; apply v_vis0; auto.
    + (* v_disj *) intros x [E|Hx]; [subst; intros X; apply NV; apply v_vis0; auto | auto].
    + (* v_vis *) intros x [[E|Hx]|Hx]; auto.
    + (* v_allvis *) intros x [E|Hx]; [auto | destruct (v_allvis0 x Hx); auto].
Qed.

Lemma resolve_sound : forall nS nE s m s' oe,
  BInv nS nE s m -> bexec nS nE s AResolve = Some (s', oe) ->
  exists m', (match oe with Some e => pm_step nS nE m e | None => Some m end) = Some m' /\ BInv nS nE s' m'.
Proof.
  intros nS nE s m s' oe I H. pose proof (unwritten_unseen _ _ _ _ I) as ES. destruct I. simpl in H.
  destruct (b_barrier s && negb (b_written s)) eqn:C; [|discriminate].
  apply andb_true_iff in C as [C1 C2]. apply negb_true_iff in C2.
  inversion H; subst; clear H. exists m. split.
  - simpl. rewrite v_se0, (v_barrier0 C1), Nat.eqb_refl, (ES C2). reflexivity.
  - constructor; auto.
Qed.

Lemma bexec_sound : forall nS nE s m a s' oe,
  BInv nS nE s m -> bexec nS nE s a = Some (s', oe) ->
  exists m', (match oe with Some e => pm_step nS nE m e | None => Some m end) = Some m' /\ BInv nS nE s' m'.
Proof.
  intros nS nE s m a s' oe I H. destruct a.
  (* the inject phase visits and resolves exactly as the scan does *)
  4, 11: exact (visit_sound _ _ _ _ _ _ _ I H).
  4, 9: exact (resolve_sound _ _ _ _ _ _ I H).
  all: pose proof (unwritten_unseen _ _ _ _ I) as ES; destruct I; simpl in H.
  - (* start begin *)
    destruct ((i <? nS) && negb (memn i (b_sb s)) && negb (b_barrier s)) eqn:C; [|discriminate].
    inversion H; subst; clear H. apply andb_true_iff in C as [C C3]. apply andb_true_iff in C as [C1 C2].
    apply negb_true_iff in C3.
    assert (W : b_written s = false).
    { destruct (b_written s) eqn:E; auto. destruct (v_written0 eq_refl). congruence. }
    eexists. split.
    + simpl. rewrite v_sb0, C1, C2, (ES W). simpl. reflexivity.
    + constructor; simpl; auto; try congruence.
      * (* v_sblt *) intros x [E|Hx]; [subst; apply Nat.ltb_lt; auto|auto].
  - (* start end *)
    destruct (memn i (b_sb s) && negb (memn i (b_se s))) eqn:C; [|discriminate].
    inversion H; subst; clear H.
    apply andb_true_iff in C as [C1 C2]. apply negb_true_iff in C2.
    assert (Hi : In i (b_sb s)) by (apply memn_In; auto).
    assert (Hn : ~ In i (b_se s)) by (intros X; apply memn_In in X; congruence).
    assert (NB : b_barrier s = false).
    { destruct (b_barrier s) eqn:E; auto. exfalso. apply Hn.
      apply (all_ended nS); auto. }
    eexists. split.
    + simpl. rewrite v_sb0, v_se0, C1, C2. reflexivity.
    + constructor; simpl; auto; try congruence.
      * (* v_sesub *) intros x [E|Hx]; [subst; auto|auto].
      * (* v_senodup *) constructor; auto.
  - (* barrier *)
    destruct (Nat.eqb_spec (length (b_se s)) nS) as [E|N]; [|discriminate].
    inversion H; subst; clear H. exists m. split; auto.
    constructor; simpl; auto.
    + (* v_written *) intros Hw; destruct (v_written0 Hw) as [? [? ?]]; auto; congruence.
    + (* v_parl *) intros x Hx; destruct (v_parl0 x Hx); auto.
  - (* load *)
    destruct (memn id (b_pending s)) eqn:C; [|discriminate].
    inversion H; subst; clear H.
    assert (Hp : In id (b_pending s)) by (apply memn_In; auto).
    assert (W : b_written s = false).
    { destruct (b_written s) eqn:E; auto. destruct (v_written0 eq_refl) as [_ [P _]]. rewrite P in Hp. contradiction. }
    pose proof (v_pbar0 id Hp) as B.
    assert (NL : memn id (b_loaded s) = false).
    { destruct (memn id (b_loaded s)) eqn:E; auto. apply memn_In in E. exfalso. eapply v_disj0; eauto. }
    destruct (remove1_NoDup id (b_pending s) v_nodup0) as [R1 R2].
    eexists. split.
    + simpl. rewrite v_se0, (v_barrier0 B), Nat.eqb_refl, (ES W), v_loaded0, NL. simpl. reflexivity.
    + constructor; simpl; auto; try congruence.
      * (* v_disj *) intros x Hx [E|Hl]; [rewrite <- E in Hx; exact (R2 Hx) | apply (v_disj0 x); auto; eapply remove1_In; eauto].
      * (* v_vis *) intros x [Hx|[E|Hx]]; auto; [apply v_vis0; left; eapply remove1_In; eauto | subst; apply v_vis0; auto].
      * (* v_parl *) intros x [E|Hx]; [subst; split; auto | destruct (v_parl0 x Hx); auto].
      * (* v_allvis *) intros x Hx; destruct (v_allvis0 x Hx) as [Hq|Hq]; auto; destruct (remove1_In_or id x _ Hq); auto.
  - (* write *)
    destruct (b_barrier s && negb (b_written s) && match b_pending s with [] => true | _ => false end
              && match b_parsing s with [] => true | _ => false end) eqn:C; [|discriminate].
    inversion H; subst; clear H.
    apply andb_true_iff in C as [C C4]. apply andb_true_iff in C as [C C3]. apply andb_true_iff in C as [C1 C2].
    apply negb_true_iff in C2.
    destruct (b_pending s) eqn:P; [|discriminate]. destruct (b_parsing s) eqn:Pp; [|discriminate].
    exists m. split; auto.
    constructor; simpl; auto; try (rewrite P; auto; fail); try (rewrite Pp; auto; fail).
    + (* v_open *) intros Ho; destruct (v_open0 Ho); congruence.
  - (* on-end begin *)
    destruct (b_written s && negb (b_endOpen s) && negb (b_endStopped s) && (b_endNext s <? nE)) eqn:C; [|discriminate].
    inversion H; subst; clear H.
    apply andb_true_iff in C as [C C4]. apply andb_true_iff in C as [C C3]. apply andb_true_iff in C as [C1 C2].
    destruct (v_written0 C1) as [B _].
    eexists. split.
    + simpl. rewrite v_se0, (v_barrier0 B), Nat.eqb_refl, v_endOpen0, v_endStopped0, v_endNext0, C2, C3, Nat.eqb_refl, C4.
      simpl. reflexivity.
    + constructor; simpl; auto.
      * (* v_open *) intros _; split; auto; apply Nat.ltb_lt; auto.
  - (* on-end end *)
    destruct (b_endOpen s) eqn:C; [|discriminate].
    inversion H; subst; clear H.
    eexists. split.
    + simpl. rewrite v_endOpen0, v_endNext0, Nat.eqb_refl. simpl. reflexivity.
    + constructor; simpl; auto; try congruence.
  - (* resolve the imports of a loaded file *)
    destruct (memn id (b_parsing s) && negb (memp id key (b_resolved s))) eqn:C; [|discriminate].
    inversion H; subst; clear H.
    apply andb_true_iff in C as [C1 C2].
    assert (Hp : In id (b_parsing s)) by (apply memn_In; auto).
    destruct (v_parl0 id Hp) as [Hl B].
    assert (W : b_written s = false).
    { destruct (b_written s) eqn:E; auto. destruct (v_written0 eq_refl) as [_ [_ P]]. rewrite P in Hp. contradiction. }
    assert (ML : memn id (b_loaded s) = true) by (apply memn_In; auto).
    eexists. split.
    + simpl. rewrite v_se0, (v_barrier0 B), Nat.eqb_refl, (ES W), v_loaded0, ML, v_resolved0, C2. simpl. reflexivity.
    + constructor; simpl; auto; try congruence.
  - (* the scan loop receives a parse result *)
    destruct (memn id (b_parsing s)) eqn:C; [|discriminate].
    inversion H; subst; clear H. exists m. split; auto.
    constructor; simpl; auto.
    + intros Hw. destruct (v_written0 Hw) as [? [? P]]. rewrite P. auto.
    + intros x Hx. apply v_parl0. eapply remove1_In; eauto.
Qed.

(* every trace of the build model is accepted by the checker *)
Lemma brun_sound : forall nS nE acts s m s' tr,
  BInv nS nE s m -> brun nS nE s acts = Some (s', tr) ->
  exists m', pm_run nS nE m tr = Some m' /\ BInv nS nE s' m'.
Proof.
  induction acts as [|a r IH]; intros s m s' tr I H; simpl in H.
  - inversion H; subst. exists m. split; auto.
  - destruct (bexec nS nE s a) as [[s1 oe]|] eqn:E; [|discriminate].
    destruct (brun nS nE s1 r) as [[s2 tr2]|] eqn:R; [|discriminate].
    inversion H; subst; clear H.
    destruct (bexec_sound _ _ _ _ _ _ _ I E) as [m1 [St I1]].
    destruct (IH _ _ _ _ I1 R) as [m2 [Rn I2]].
    exists m2. split; auto.
    destruct oe as [e|]; simpl.
    + rewrite St. exact Rn.
    + inversion St; subst. exact Rn.
Qed.

Theorem build_prefix_sound : forall nS nE acts s' tr,
  brun nS nE bst0 acts = Some (s', tr) -> build_trace_prefix_ok nS nE tr = true.
Proof.
  intros nS nE acts s' tr H. destruct (brun_sound _ _ _ _ _ _ _ (binv0 nS nE) H) as [m' [R _]].
  unfold build_trace_prefix_ok. rewrite R. reflexivity.
Qed.

(* a finished build: all on-end callbacks ran unless one failed *)
Theorem build_complete_sound : forall nS nE acts s' tr,
  brun nS nE bst0 acts = Some (s', tr) -> bdone nE s' = true -> build_trace_ok nS nE tr = true.
Proof.
  intros nS nE acts s' tr H D. destruct (brun_sound _ _ _ _ _ _ _ (binv0 nS nE) H) as [m' [R I]].
  unfold build_trace_ok. rewrite R. destruct I.
  unfold bdone in D. apply andb_true_iff in D as [D D3]. apply andb_true_iff in D as [D1 D2].
  rewrite v_endOpen0, v_endStopped0, v_endNext0.
  destruct (pm_endSeen m'); simpl; auto. rewrite D2. simpl.
  destruct (b_endStopped s'); simpl in *; auto.
Qed.

(* consequences in the vocabulary of the property *)
Lemma pm_run_loads_nodup : forall nS nE tr m m', pm_run nS nE m tr = Some m' ->
  NoDup (pm_loaded m) -> NoDup (pm_loaded m').
Proof.
  induction tr as [|e r IH]; intros m m' H ND; simpl in H.
  - inversion H; subst; auto.
  - destruct (pm_step nS nE m e) as [m1|] eqn:S; [|discriminate].
    apply (IH m1 m' H). destruct e; simpl in S;
      match type of S with (if ?c then _ else _) = _ => destruct c eqn:C; [|discriminate] end;
      inversion S; subst; simpl; auto.
    constructor; auto.
    apply andb_true_iff in C as [_ C]. apply negb_true_iff in C. intros X. apply memn_In in X. congruence.
Qed.

(* the identities loaded in a trace *)
Fixpoint loads (tr : list pevent) : list nat :=
  match tr with
  | [] => []
  | PLoad id :: r => id :: loads r
  | _ :: r => loads r
  end.

Lemma pm_run_loaded : forall nS nE tr m m', pm_run nS nE m tr = Some m' ->
  pm_loaded m' = rev (loads tr) ++ pm_loaded m.
Proof.
  induction tr as [|e r IH]; intros m m' H; simpl in H.
  - inversion H; subst; reflexivity.
  - destruct (pm_step nS nE m e) as [m1|] eqn:S; [|discriminate].
    rewrite (IH m1 m' H).
    destruct e; simpl in S;
      match type of S with (if ?c then _ else _) = _ => destruct c eqn:C; [|discriminate] end;
      inversion S; subst; simpl; auto.
    rewrite <- app_assoc. reflexivity.
Qed.

Theorem accepted_loads_once : forall nS nE tr, build_trace_prefix_ok nS nE tr = true -> NoDup (loads tr).
Proof.
  intros nS nE tr H. unfold build_trace_prefix_ok in H.
  destruct (pm_run nS nE pmon0 tr) as [m'|] eqn:R; [|discriminate].
  pose proof (pm_run_loads_nodup nS nE tr pmon0 m' R (NoDup_nil _)) as ND.
  rewrite (pm_run_loaded nS nE tr pmon0 m' R) in ND. simpl in ND. rewrite app_nil_r in ND.
  apply NoDup_rev in ND. rewrite rev_involutive in ND. exact ND.
Qed.

(* resolver cache: each import of a file is resolved once *)
Fixpoint resolves (tr : list pevent) : list (nat * nat) :=
  match tr with
  | [] => []
  | PResK i k :: r => (i, k) :: resolves r
  | _ :: r => resolves r
  end.

Lemma memp_In : forall a b l, memp a b l = true <-> In (a, b) l.
Proof.
  induction l as [|[x y] r IH]; simpl; [split; [discriminate|contradiction]|].
  rewrite orb_true_iff, IH, andb_true_iff, !Nat.eqb_eq. split.
  - intros [[E1 E2]|H]; [left; congruence | auto].
  - intros [E|H]; [left; inversion E; auto | auto].
Qed.

Lemma pm_run_resolved : forall nS nE tr m m', pm_run nS nE m tr = Some m' ->
  NoDup (pm_resolved m) -> NoDup (pm_resolved m') /\ pm_resolved m' = rev (resolves tr) ++ pm_resolved m.
Proof.
  induction tr as [|e r IH]; intros m m' H ND; simpl in H.
  - inversion H; subst; auto.
  - destruct (pm_step nS nE m e) as [m1|] eqn:S; [|discriminate].
    destruct e; simpl in S;
      match type of S with (if ?c then _ else _) = _ => destruct c eqn:C; [|discriminate] end;
      inversion S; subst; clear S; simpl in *;
      try (destruct (IH _ _ H ND) as [N E]; split; [exact N | exact E]).
    assert (ND1 : NoDup ((importer, key) :: pm_resolved m)).
    { constructor; auto. apply andb_true_iff in C as [_ C]. apply negb_true_iff in C.
      intros X. apply memp_In in X. congruence. }
    destruct (IH _ _ H ND1) as [N E]. split; auto. simpl in E. rewrite E. rewrite <- app_assoc. reflexivity.
Qed.

Theorem accepted_resolves_once : forall nS nE tr, build_trace_prefix_ok nS nE tr = true -> NoDup (resolves tr).
Proof.
  intros nS nE tr H. unfold build_trace_prefix_ok in H.
  destruct (pm_run nS nE pmon0 tr) as [m'|] eqn:R; [|discriminate].
  destruct (pm_run_resolved nS nE tr pmon0 m' R (NoDup_nil _)) as [ND E].
  rewrite E in ND. simpl in ND. rewrite app_nil_r in ND.
  apply NoDup_rev in ND. rewrite rev_involutive in ND. exact ND.
Qed.

Definition scan_event (e : pevent) : bool :=
  match e with PRes | PResK _ _ | PLoad _ | PSB _ => true | _ => false end.

Lemma pm_seen_stays : forall nS nE tr m m', pm_run nS nE m tr = Some m' -> pm_endSeen m = true ->
  forallb (fun e => negb (scan_event e)) tr = true.
Proof.
  induction tr as [|e r IH]; intros m m' H Sn; simpl in *; auto.
  destruct (pm_step nS nE m e) as [m1|] eqn:S; [|discriminate].
  destruct e; simpl in S; rewrite ?Sn in S; simpl in S; rewrite ?andb_false_r in S; simpl in S; try discriminate;
    match type of S with (if ?c then _ else _) = _ => destruct c eqn:C; [|discriminate] end;
    inversion S; subst; clear S; simpl; eapply IH; eauto.
Qed.

Lemma pm_run_app : forall nS nE a b m, pm_run nS nE m (a ++ b) =
  match pm_run nS nE m a with Some m' => pm_run nS nE m' b | None => None end.
Proof. induction a as [|x a IH]; intros b m; simpl; auto. destruct (pm_step nS nE m x); auto. Qed.

Theorem accepted_onend_after_scan : forall nS nE pre i w post,
  build_trace_prefix_ok nS nE (pre ++ PEB i w :: post) = true ->
  forallb (fun e => negb (scan_event e)) post = true.
Proof.
  intros nS nE pre i w post H. unfold build_trace_prefix_ok in H. rewrite pm_run_app in H.
  destruct (pm_run nS nE pmon0 pre) as [m1|]; [|discriminate]. cbn [pm_run] in H.
  destruct (pm_step nS nE m1 (PEB i w)) as [m2|] eqn:S; [|discriminate].
  destruct (pm_run nS nE m2 post) as [m3|] eqn:R; [|discriminate].
  eapply pm_seen_stays; eauto.
  simpl in S. match type of S with (if ?c then _ else _) = _ => destruct c; [|discriminate] end.
  inversion S; reflexivity.
Qed.

Lemma brun_binv : forall nS nE acts s' tr, brun nS nE bst0 acts = Some (s', tr) ->
  exists m', BInv nS nE s' m'.
Proof.
  intros nS nE acts s' tr H. destruct (brun_sound _ _ _ _ _ _ _ (binv0 nS nE) H) as [m' [_ I]]. eauto.
Qed.

Theorem all_visited_loaded_at_write : forall nS nE acts s' tr,
  brun nS nE bst0 acts = Some (s', tr) -> b_written s' = true ->
  forall x, In x (b_visited s') -> In x (b_loaded s').
Proof.
  intros nS nE acts s' tr H W x Hx. destruct (brun_binv _ _ _ _ _ H) as [m' I].
  destruct (v_written _ _ _ _ I W) as [_ [P _]].
  destruct (v_allvis _ _ _ _ I x Hx) as [Q|Q]; auto. rewrite P in Q. contradiction.
Qed.
