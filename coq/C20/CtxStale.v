(* The order "clear activeBuild, THEN release the waiters" matters: once the
   waiters of build b have been released (b_done), no thread can take a
   reference to b any more, so a Rebuild call made afterwards never returns b. *)
From V Require Import Common.Base C20.CtxLTS C20.CtxProofs.
Local Close Scope Z_scope.
Local Open Scope nat_scope.

Definition ret_build (p : pc) : option nat :=
  match p with PRet (RvBuild b _ _) | PWaRet (RvBuild b _ _) => Some b | _ => None end.

(* a step gives a thread a reference to b only if b is still undone (it is the
   active build) or freshly allocated; a thread returns b only if it held a
   reference to b *)
Lemma step_ref : forall s a s' l, SInv s -> exec s a = Some (s', l) ->
  forall t b, t < nt s' ->
    (ref_of (t_pc (thr s' t)) = Some b \/ ret_build (t_pc (thr s' t)) = Some b) ->
    (t < nt s /\ (ref_of (t_pc (thr s t)) = Some b \/ ret_build (t_pc (thr s t)) = Some b))
    \/ (b < nb s /\ b_done (blds s b) = false) \/ b = nb s.
Proof.
  intros s a s' l I H.
  step_cases H; expose_ret; intros t0 b0 Ht0 Hr; upd_simpl.
  all: repeat match goal with
              | H : context [Nat.eqb ?x ?y] |- _ => destruct (Nat.eqb_spec x y); subst; simpl in H
              end.
  all: repeat match goal with
              | H : context [match b_result ?x with _ => _ end] |- _ => destruct (b_result x) as [[? ?]|] eqn:?; simpl in H
              end.
  all: try (destruct d; simpl in Hr).
  all: try (left; split; [lia|assumption]; fail).
  all: try (destruct Hr as [Hr|Hr]; simpl in Hr; try discriminate; inversion Hr; subst;
            first [ right; right; reflexivity
                  | right; left;
                    match goal with Ha : active _ = Some ?n |- _ =>
                      split; [pose proof (i_act_nb _ I n Ha); lia | apply (i_act_undone _ I n Ha)] end
                  | left; split; [assumption|]; rewrite Hpc; simpl; auto ]; fail).
  1: { destruct o; destruct Hr as [Hr|Hr]; discriminate. }
  destruct (active s) as [n|] eqn:Ha; destruct Hr as [Hr|Hr]; try discriminate. inversion Hr; subst.
  right. left. split; [pose proof (i_act_nb _ I b0 Ha); lia | apply (i_act_undone _ I b0 Ha)].
Qed.

(* released waiters stay released; builds are never de-allocated *)
Lemma step_done_mono : forall s a s' l, exec s a = Some (s', l) ->
  nb s <= nb s' /\ forall b, b < nb s -> b_done (blds s b) = true -> b_done (blds s' b) = true.
Proof.
  intros s a s' l H.
  step_cases H; expose_ret; upd_simpl; split; try lia; intros b0 Hb Hd;
    repeat match goal with
           | |- context [Nat.eqb ?x ?y] => destruct (Nat.eqb_spec x y); subst; simpl
           end; auto; try lia.
Qed.

(* the invariant carried from the state in which b's waiters were released *)
Lemma no_stale_join_run : forall s1 tr s2, run s1 tr s2 -> SInv s1 ->
  forall b, b < nb s1 -> b_done (blds s1 b) = true ->
  SInv s2 /\ b < nb s2 /\ b_done (blds s2 b) = true /\
  forall t, nt s1 <= t -> t < nt s2 ->
    ref_of (t_pc (thr s2 t)) <> Some b /\ ret_build (t_pc (thr s2 t)) <> Some b.
Proof.
  intros s1 tr s2 R. induction R as [s1 | s1 tr s2 a s3 l R IH E]; intros I b Hb Hd.
  - split; auto. split; auto. split; auto. intros t H1 H2. lia.
  - destruct (IH I b Hb Hd) as [I2 [Hb2 [Hd2 Hth]]].
    destruct (step_done_mono _ _ _ _ E) as [Hn Hm].
    split; [eapply sinv_step; eauto|]. split; [lia|]. split; [apply Hm; auto|].
    intros t Ht1 Ht3.
    assert (Q : ~ (ref_of (t_pc (thr s3 t)) = Some b \/ ret_build (t_pc (thr s3 t)) = Some b)).
    { intros Hr. destruct (step_ref _ _ _ _ I2 E t b Ht3 Hr) as [[Ht2 Hr2]|[[_ Hu]|Hf]].
      - destruct (Hth t Ht1 Ht2) as [N1 N2]. destruct Hr2; contradiction.
      - congruence.
      - lia. }
    split; intros X; apply Q; auto.
Qed.

