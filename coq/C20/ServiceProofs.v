(* Every run of the service model satisfies the packet-trace specification;
   what acceptance by the specification means in terms of counting; the
   service-level Cancel/Dispose statement: a cancel or dispose whose context
   the service knows is answered only when no build of the context runs. *)
From V Require Import Common.Base C20.Protocol C20.ProtocolProofs C20.ServiceSpec C20.ServiceLTS.

Lemma zmem_In : forall k l, zmem k l = true <-> In k l.
Proof.
  induction l as [|x r IH]; simpl; [split; [discriminate|contradiction]|].
  rewrite orb_true_iff, IH, Z.eqb_eq. split; intros [H|H]; auto.
Qed.

Lemma find_h_ids : forall id l, (match find_h id l with Some _ => true | None => false end) = zmem id (map h_id l).
Proof.
  induction l as [|h r IH]; simpl; auto. destruct (id =? h_id h); simpl; auto.
Qed.
Lemma remove_h_ids : forall id l, map h_id (remove_h id l) = zremove id (map h_id l).
Proof.
  induction l as [|h r IH]; simpl; auto. destruct (id =? h_id h); simpl; auto. rewrite IH. reflexivity.
Qed.
Lemma set_h_ids : forall id st l, map h_id (set_h id st l) = map h_id l.
Proof.
  induction l as [|h r IH]; simpl; auto. destruct (id =? h_id h); simpl; auto. rewrite IH. reflexivity.
Qed.
Lemma zlen_set_h : forall id st l, zlen (set_h id st l) = zlen l.
Proof. intros. unfold zlen. rewrite <- (map_length h_id), set_h_ids, map_length. reflexivity. Qed.
Lemma zlen_set_c : forall k a b l, zlen (set_c k a b l) = zlen l.
Proof.
  intros. unfold zlen. f_equal.
  induction l as [|c r IH]; simpl; auto. destruct (k =? c_key c); simpl; auto.
Qed.
Lemma zlen_cons : forall A (x : A) l, zlen (x :: l) = zlen l + 1.
Proof. intros. unfold zlen. simpl length. lia. Qed.
Lemma remove_h_len : forall id l h, find_h id l = Some h -> zlen (remove_h id l) = zlen l - 1.
Proof.
  induction l as [|x r IH]; cbn [remove_h find_h]; intros h H; [discriminate|].
  destruct (id =? h_id x). { rewrite zlen_cons. lia. }
  rewrite !zlen_cons. specialize (IH h H). lia.
Qed.
Lemma remove_c_len : forall k l c, find_c k l = Some c -> zlen (remove_c k l) = zlen l - 1.
Proof.
  induction l as [|x r IH]; cbn [remove_c find_c]; intros c H; [discriminate|].
  destruct (k =? c_key x). { rewrite zlen_cons. lia. }
  rewrite !zlen_cons. specialize (IH c H). lia.
Qed.

Record SInvS (s : sst) (m : smon) : Prop := mkSI {
  j_owed : sm_owed m = map h_id (s_hs s);
  j_wait : sm_wait m = s_cbs s;
  j_used : forall x, In x (sm_used m) -> x < s_next s;
  j_closed : sm_closed m = s_closed s;
  j_exited : sm_exited m = s_exited s;
  j_keep : s_keep s = (if s_closed s then 0 else 1) + zlen (s_hs s) + zlen (s_cs s) }.

Lemma sinvs0 : SInvS sst0 smon0.
Proof. constructor; simpl; auto; try contradiction. Qed.

(* The synchronous part of handleIncomingPacket: every accepted request adds
   one handler ready to run and leaves the number of contexts as it is; a
   cancel/dispose is answered "at once" (kind H... k false) only if the service
   has no entry for the context at all. *)
Lemma sexec_recv : forall s id c s' oe, sexec s (SRecv id c) = Some (s', oe) ->
  s_closed s = false /\ find_h id (s_hs s) = None /\ oe = Some (ECReq id) /\
  exists kind cs',
    s' = upd_s s (s_keep s + 1) (s_next s) (s_cbs s) (mkH id kind HRun :: s_hs s) cs' /\
    zlen cs' = zlen (s_cs s) /\
    (forall k, kind = HCancel k false \/ kind = HDispose k false -> find_c k (s_cs s) = None).
Proof.
  intros s id c s' oe H. unfold sexec in H. destruct (s_exited s); [discriminate|].
  destruct (s_closed s); [discriminate|]. simpl in H.
  destruct (find_h id (s_hs s)); [discriminate|].
  split; [reflexivity|]. split; [reflexivity|].
  destruct c as [|k|k|k|k]; cbv zeta in H.
  - inversion H. split; [reflexivity|]. exists HPlain, (s_cs s).
    repeat split. intros k [E|E]; discriminate E.
  - destruct (find_c k (s_cs s)); [discriminate|].
    inversion H. split; [reflexivity|]. exists (HCreate k), (s_cs s).
    repeat split. intros k0 [E|E]; discriminate E.
  - inversion H. split; [reflexivity|]. eexists _, (s_cs s).
    repeat split. intros k0 [E|E]; discriminate E.
  - inversion H. split; [reflexivity|]. eexists _, (s_cs s).
    repeat split. intros k0 [E|E]; [|destruct (find_c k (s_cs s)) as [c|]; [destruct (c_live c)|]; discriminate E].
    destruct (find_c k (s_cs s)) as [c|] eqn:Fc; [destruct (c_live c); discriminate E|].
    inversion E. subst k0. exact Fc.
  - destruct (find_c k (s_cs s)) as [c|] eqn:Fc; [destruct (c_live c)|];
      inversion H; (split; [reflexivity|]); eexists _, _; (split; [reflexivity|]).
    + split; [apply zlen_set_c|]. intros k0 [E|E]; discriminate E.
    + split; [reflexivity|]. intros k0 [E|E]; discriminate E.
    + split; [reflexivity|]. intros k0 [E|E]; [discriminate E|]. inversion E. subst k0. exact Fc.
Qed.

(* A response drops the handler and its keep-alive reference; the count
   changes otherwise only with the number of contexts (a created context holds
   a reference, the dispose that found it alive gives it back). *)
Lemma sexec_respond : forall s id s' oe, sexec s (SRespond id) = Some (s', oe) ->
  exists h, find_h id (s_hs s) = Some h /\ oe = Some (ESResp id) /\
    s_hs s' = remove_h id (s_hs s) /\ s_cbs s' = s_cbs s /\ s_next s' = s_next s /\
    s_closed s' = s_closed s /\ s_exited s' = s_exited s /\
    s_keep s' - zlen (s_cs s') = s_keep s - 1 - zlen (s_cs s).
Proof.
  intros s id s' oe H. unfold sexec in H.
  assert (Ex : s_exited s = false) by (destruct (s_exited s); [discriminate|reflexivity]).
  rewrite Ex in H.
  destruct (find_h id (s_hs s)) as [h|]; [|discriminate].
  exists h. split; [reflexivity|]. cbv zeta in H.
  destruct (h_kind h) as [|k|k [|]|k [|]|k [|]|k]; destruct (h_st h); try discriminate H.
  - inversion H. simpl. repeat split.
  - inversion H. simpl. repeat split. rewrite zlen_cons. lia.
  - inversion H. simpl. repeat split.
  - inversion H. simpl. repeat split.
  - destruct (ctx_building k (s_cs s)); [discriminate|].
    inversion H. simpl. repeat split.
  - inversion H. simpl. repeat split.
  - (* dispose of a live context: the entry disappears *)
    destruct (find_c k (s_cs s)) as [c|] eqn:Fc; [|rewrite orb_true_r in H; discriminate].
    destruct (rebuilds_of k (s_hs s) || ctx_building k (s_cs s) || false); [discriminate|].
    inversion H. simpl. repeat split. rewrite (remove_c_len k (s_cs s) c Fc). lia.
  - inversion H. simpl. repeat split.
  - destruct (find_c k (s_cs s)); [discriminate|].
    inversion H. simpl. repeat split.
Qed.

Lemma sexec_sound : forall s m a s' oe, SInvS s m -> sexec s a = Some (s', oe) ->
  exists m', (match oe with Some e => sm_step m e | None => Some m end) = Some m' /\ SInvS s' m'.
Proof.
  intros s m a s' oe I H. destruct I as [Jo Jw Ju Jc Je Jk].
  assert (Ex : s_exited s = false).
  { unfold sexec in H. destruct (s_exited s); [discriminate|reflexivity]. }
  rewrite Ex in Je.
  destruct a; [| |unfold sexec in H; rewrite Ex in H ..].
  - (* recv *)
    destruct (sexec_recv _ _ _ _ _ H) as (Cl & F & -> & kind & cs' & -> & L & _).
    exists (mkSM (id :: sm_owed m) (sm_wait m) (sm_used m) (sm_closed m) false). split.
    + unfold sm_step. rewrite Je, Jc, Cl, Jo, <- find_h_ids, F. reflexivity.
    + constructor; simpl; auto.
      * rewrite Jo. reflexivity.
      * rewrite zlen_cons, L, Jk. lia.
  - (* respond *)
    destruct (sexec_respond _ _ _ _ H) as (h & F & -> & Hh & Hc & Hn & Hcl & Hex & Hk).
    exists (mkSM (zremove id (sm_owed m)) (sm_wait m) (sm_used m) (sm_closed m) false). split.
    + unfold sm_step. rewrite Je, Jo, <- find_h_ids, F. reflexivity.
    + constructor; simpl.
      * rewrite Hh, remove_h_ids, Jo. reflexivity.
      * rewrite Hc. exact Jw.
      * rewrite Hn. exact Ju.
      * rewrite Hcl. exact Jc.
      * rewrite Hex, Ex. reflexivity.
      * rewrite Hcl, Hh, (remove_h_len _ _ _ F). lia.
  - (* callback *)
    destruct (find_h id (s_hs s)) as [h|] eqn:F; [|discriminate].
    assert (NU : zmem (s_next s) (sm_used m) = false).
    { destruct (zmem (s_next s) (sm_used m)) eqn:E; auto. apply zmem_In in E. specialize (Ju _ E). lia. }
    assert (Step : sm_step m (ESReq (s_next s)) =
                   Some (mkSM (sm_owed m) (s_next s :: sm_wait m) (s_next s :: sm_used m) (sm_closed m) false)).
    { unfold sm_step. rewrite Je, NU. reflexivity. }
    cbv zeta in H.
    destruct (h_st h); try discriminate; [destruct (h_kind h); try discriminate| ];
      inversion H; subst; clear H; eexists; (split; [exact Step|]);
      constructor; simpl; rewrite ?Jo, ?set_h_ids, ?Jw; auto; rewrite ?zlen_set_h; try lia;
      try (intros x [E|Hx]; [lia | specialize (Ju x Hx); lia]).
  - (* client response *)
    destruct (s_closed s) eqn:Cl; [discriminate|]. simpl in H.
    destruct (zmem rid (s_cbs s)) eqn:Mc; [|discriminate]. simpl in H.
    destruct (waiter_of rid (s_hs s)) as [h|]; [|discriminate].
    inversion H; subst; clear H. eexists. split.
    + unfold sm_step. rewrite Je, Jc, Jw, Mc. simpl. reflexivity.
    + constructor; simpl; rewrite ?Jo, ?set_h_ids, ?Jw, ?Cl; auto; rewrite ?zlen_set_h; try lia.
  - (* build start *)
    destruct (find_h id (s_hs s)) as [h|] eqn:F; [|discriminate].
    destruct (h_kind h) as [|k|k [|]|k [|]|k [|]|k]; destruct (h_st h); try discriminate.
    destruct (ctx_building k (s_cs s)); [discriminate|].
    inversion H; subst; clear H. exists m. split; auto.
    constructor; unfold upd_s; cbn [s_closed s_exited s_keep s_next s_cbs s_hs s_cs];
      rewrite ?Jo, ?set_h_ids, ?zlen_set_h, ?zlen_set_c; auto; congruence.
  - (* build end *)
    destruct (find_h id (s_hs s)) as [h|] eqn:F; [|discriminate].
    destruct (h_kind h) as [|k|k [|]|k [|]|k [|]|k]; destruct (h_st h); try discriminate.
    inversion H; subst; clear H. exists m. split; auto.
    constructor; unfold upd_s; cbn [s_closed s_exited s_keep s_next s_cbs s_hs s_cs];
      rewrite ?Jo, ?set_h_ids, ?zlen_set_h, ?zlen_set_c; auto; congruence.
  - (* close *)
    destruct (s_closed s) eqn:Cl; [discriminate|]. inversion H; subst; clear H. eexists. split.
    + unfold sm_step. rewrite Je, Jc. simpl. reflexivity.
    + constructor; simpl; auto; try congruence; try lia.
  - (* exit *)
    destruct (s_closed s) eqn:Cl; [|discriminate]. simpl in H.
    destruct (s_keep s =? 0) eqn:K0; [|discriminate]. inversion H; subst; clear H.
    apply Z.eqb_eq in K0.
    assert (Hh : s_hs s = []).
    { destruct (s_hs s); auto. rewrite zlen_cons in Jk. pose proof (zlen_nonneg _ l). pose proof (zlen_nonneg _ (s_cs s)). lia. }
    eexists. split.
    + unfold sm_step. rewrite Je, Jc, Jo, Hh. simpl. reflexivity.
    + constructor; simpl; auto; try congruence; try lia. rewrite Hh. reflexivity.
Qed.

Lemma srun_sound : forall acts s m s' tr, SInvS s m -> srun s acts = Some (s', tr) ->
  exists m', sm_run m tr = Some m' /\ SInvS s' m'.
Proof.
  induction acts as [|a r IH]; intros s m s' tr I H; simpl in H.
  - inversion H; subst. exists m. split; auto.
  - destruct (sexec s a) as [[s1 oe]|] eqn:E; [|discriminate].
    destruct (srun s1 r) as [[s2 tr2]|] eqn:R; [|discriminate].
    inversion H; subst; clear H.
    destruct (sexec_sound _ _ _ _ _ I E) as [m1 [St I1]].
    destruct (IH _ _ _ _ I1 R) as [m2 [Rn I2]].
    exists m2. split; auto. destruct oe as [e|]; simpl.
    + rewrite St. exact Rn.
    + inversion St; subst. exact Rn.
Qed.

Theorem service_trace_sound : forall acts s' tr, srun sst0 acts = Some (s', tr) -> svc_trace_ok tr = true.
Proof.
  intros acts s' tr H. destruct (srun_sound _ _ _ _ _ sinvs0 H) as [m' [R _]].
  unfold svc_trace_ok. rewrite R. reflexivity.
Qed.

Lemma zremove_notin : forall k l, NoDup l -> zmem k (zremove k l) = false.
Proof.
  induction l as [|x r IH]; simpl; intros ND; auto. inversion ND; subst.
  destruct (k =? x) eqn:E.
  - apply Z.eqb_eq in E. subst. destruct (zmem x r) eqn:M; auto. apply zmem_In in M. contradiction.
  - simpl. rewrite E. simpl. auto.
Qed.
Lemma zremove_other : forall k j l, j <> k -> zmem j (zremove k l) = zmem j l.
Proof.
  induction l as [|x r IH]; simpl; intros N; auto.
  destruct (k =? x) eqn:E.
  - apply Z.eqb_eq in E. subst. destruct (j =? x) eqn:E2; auto. apply Z.eqb_eq in E2. contradiction.
  - simpl. rewrite IH; auto.
Qed.
Lemma zremove_NoDup : forall k l, NoDup l -> NoDup (zremove k l).
Proof.
  induction l as [|x r IH]; simpl; intros ND; auto. inversion ND; subst.
  destruct (k =? x); auto. constructor; auto.
  intros C. apply H1. clear -C. induction r as [|y r IH]; simpl in *; auto.
  destruct (k =? y); auto. destruct C; auto.
Qed.

Definition b2n (b : bool) : nat := if b then 1%nat else 0%nat.

Lemma sm_run_count : forall tr m m', sm_run m tr = Some m' -> NoDup (sm_owed m) ->
  NoDup (sm_owed m') /\
  forall id, (n_creq id tr + b2n (zmem id (sm_owed m)) = n_sresp id tr + b2n (zmem id (sm_owed m')))%nat.
Proof.
  induction tr as [|e r IH]; intros m m' H ND; simpl in H.
  - inversion H; subst. split; auto.
  - destruct (sm_step m e) as [m1|] eqn:S; [|discriminate].
    unfold sm_step in S. destruct (sm_exited m); [discriminate|].
    destruct e; simpl in S;
      match type of S with (if ?c then _ else _) = _ => destruct c eqn:C; [|discriminate] end;
      inversion S; subst; clear S.
    + apply andb_true_iff in C as [_ C]. apply negb_true_iff in C.
      assert (ND1 : NoDup (id :: sm_owed m)).
      { constructor; auto. intros X. apply zmem_In in X. congruence. }
      destruct (IH _ _ H ND1) as [N Q]. split; auto. intros j. specialize (Q j). simpl in *.
      destruct (j =? id) eqn:E; simpl in *.
      * apply Z.eqb_eq in E. subst. rewrite C. simpl. lia.
      * lia.
    + destruct (IH _ _ H (zremove_NoDup id _ ND)) as [N Q]. split; auto. intros j. specialize (Q j). simpl in *.
      destruct (j =? id) eqn:E; simpl in *.
      * apply Z.eqb_eq in E. subst. rewrite zremove_notin in Q; auto. rewrite C. simpl in *. lia.
      * rewrite zremove_other in Q; [lia|]. intros X. subst. rewrite Z.eqb_refl in E. discriminate.
    + destruct (IH _ _ H ND) as [N Q]. split; auto.
    + destruct (IH _ _ H ND) as [N Q]. split; auto.
    + destruct (IH _ _ H ND) as [N Q]. split; auto.
    + destruct (IH _ _ H ND) as [N Q]. split; auto.
Qed.

Lemma sm_run_app : forall a b m, sm_run m (a ++ b) =
  match sm_run m a with Some m' => sm_run m' b | None => None end.
Proof. induction a as [|x a IH]; intros b m; simpl; auto. destruct (sm_step m x); auto. Qed.

Lemma accepted_prefix_owed : forall pre post, svc_trace_ok (pre ++ post) = true ->
  exists m, sm_run smon0 pre = Some m /\ sm_run m post <> None /\
    forall id, n_creq id pre = (n_sresp id pre + b2n (zmem id (sm_owed m)))%nat.
Proof.
  intros pre post H. unfold svc_trace_ok in H. rewrite sm_run_app in H.
  destruct (sm_run smon0 pre) as [m|] eqn:R; [|discriminate].
  exists m. split; [reflexivity|]. split.
  - destruct (sm_run m post); [discriminate|discriminate H].
  - intros id. destruct (sm_run_count pre smon0 m R (NoDup_nil _)) as [_ Q].
    specialize (Q id). simpl in Q. lia.
Qed.

Theorem accepted_no_response_without_request : forall pre post id,
  svc_trace_ok (pre ++ post) = true -> (n_sresp id pre <= n_creq id pre)%nat.
Proof.
  intros pre post id H. destruct (accepted_prefix_owed pre post H) as [m [_ [_ Q]]].
  rewrite Q. lia.
Qed.

Theorem accepted_at_most_one_outstanding : forall pre post id,
  svc_trace_ok (pre ++ post) = true -> (n_creq id pre <= n_sresp id pre + 1)%nat.
Proof.
  intros pre post id H. destruct (accepted_prefix_owed pre post H) as [m [_ [_ Q]]].
  rewrite Q. destruct (zmem id (sm_owed m)); simpl; lia.
Qed.

Theorem accepted_all_answered_at_exit : forall pre post id,
  svc_trace_ok (pre ++ EExit :: post) = true -> n_sresp id pre = n_creq id pre.
Proof.
  intros pre post id H. destruct (accepted_prefix_owed pre _ H) as [m [_ [X Q]]].
  rewrite Q. simpl in X. unfold sm_step in X.
  destruct (sm_exited m); [contradiction|].
  destruct (sm_closed m); [|contradiction].
  destruct (sm_owed m); [simpl; lia|contradiction].
Qed.

(* the first dispose (the one that found the context alive) answers only when
   no build of the context is running and no rebuild goroutine is left *)
Theorem first_dispose_waits : forall s id h k s' oe,
  find_h id (s_hs s) = Some h -> h_kind h = HDispose k true ->
  sexec s (SRespond id) = Some (s', oe) ->
  ctx_building k (s_cs s) = false /\ rebuilds_of k (s_hs s) = false.
Proof.
  intros s id h k s' oe F K H. unfold sexec in H. destruct (s_exited s); [discriminate|].
  rewrite F, K in H. destruct (h_st h); try discriminate.
  destruct (rebuilds_of k (s_hs s)); [discriminate|]. simpl in H.
  destruct (ctx_building k (s_cs s)); [discriminate|]. auto.
Qed.

(* a cancel that found the context alive answers only when no build is running *)
Theorem live_cancel_waits : forall s id h k s' oe,
  find_h id (s_hs s) = Some h -> h_kind h = HCancel k true ->
  sexec s (SRespond id) = Some (s', oe) -> ctx_building k (s_cs s) = false.
Proof.
  intros s id h k s' oe F K H. unfold sexec in H. destruct (s_exited s); [discriminate|].
  rewrite F, K in H. destruct (h_st h); try discriminate.
  destruct (ctx_building k (s_cs s)); [discriminate|]. auto.
Qed.

(* a cancel or dispose that arrived while a dispose of the context was pending
   (respondAfterDispose) answers only after that dispose has finished: the
   context is gone, hence no build of it is running *)
Theorem after_dispose_waits : forall s id h k s' oe,
  find_h id (s_hs s) = Some h -> h_kind h = HAfterDispose k ->
  sexec s (SRespond id) = Some (s', oe) ->
  find_c k (s_cs s) = None /\ ctx_building k (s_cs s) = false.
Proof.
  intros s id h k s' oe F K H. unfold sexec in H. destruct (s_exited s); [discriminate|].
  rewrite F, K in H. destruct (h_st h); try discriminate.
  unfold ctx_building. destruct (find_c k (s_cs s)); [discriminate|]. auto.
Qed.

Lemma recv_kind : forall s id c s' oe, sexec s (SRecv id c) = Some (s', oe) ->
  exists h, find_h id (s_hs s') = Some h /\
    (forall k, (h_kind h = HCancel k false \/ h_kind h = HDispose k false) -> find_c k (s_cs s) = None).
Proof.
  intros s id c s' oe H.
  destruct (sexec_recv _ _ _ _ _ H) as (_ & _ & _ & kind & cs' & -> & _ & K).
  exists (mkH id kind HRun). split; [|exact K].
  simpl. rewrite Z.eqb_refl. reflexivity.
Qed.

Theorem cancel_dispose_answered_after_build_end : forall s id h k s' oe,
  find_h id (s_hs s) = Some h ->
  (h_kind h = HCancel k true \/ h_kind h = HDispose k true \/ h_kind h = HAfterDispose k) ->
  sexec s (SRespond id) = Some (s', oe) -> ctx_building k (s_cs s) = false.
Proof.
  intros s id h k s' oe F [K|[K|K]] H.
  - eapply live_cancel_waits; eauto.
  - eapply first_dispose_waits; eauto.
  - eapply after_dispose_waits; eauto.
Qed.

(* A second dispose, and a cancel, arriving while the first dispose of the
   context waits for a running build: neither can be answered before the build
   has ended (Examples.v). *)
Definition wit_second_dispose : list sact :=
  [SRecv 1 (CCreate 7); SRespond 1; SRecv 2 (CRebuild 7); SBuildStart 2; SCallback 2;
   SRecv 3 (CDispose 7); SRecv 4 (CDispose 7)].
Definition wit_cancel_after_dispose : list sact :=
  [SRecv 1 (CCreate 7); SRespond 1; SRecv 2 (CRebuild 7); SBuildStart 2; SCallback 2;
   SRecv 3 (CDispose 7); SRecv 4 (CCancel 7)].
