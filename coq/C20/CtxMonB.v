(* [MInv] is preserved by the steps that change more than one thread's program
   counter: the two critical sections of rebuild() and waitGroup.Done(), a new
   call, an edit, Watch's critical section. *)
From V Require Import Common.Base C20.CtxLTS C20.CtxSpec C20.CtxProofs.
From V Require Import C20.CtxMonA.
Local Close Scope Z_scope.
Local Open Scope nat_scope.

(* second critical section: activeBuild = nil *)
Lemma minv_publish : forall s m t b rc,
  SInv s -> MInv s m -> t < nt s -> t_pc (thr s t) = PRbPublish b ->
  MInv (set_pc (mkState (disposed s) None rc (watcher s) (wtid s) (stopFlag s) (wexited s)
                        (edits s) (nb s) (blds s) (nt s) (thr s) (ncalls s)) t (PRbDone b)) m.
Proof.
  intros s m t b rc I M Ht Hpc.
  assert (Ph0 : phase_of (t_pc (thr s t)) = Some b) by (rewrite Hpc; reflexivity).
  destruct (sole_phase s t b I Ht Ph0) as [Ha [Ho _]].
  set (s1 := mkState _ _ _ _ _ _ _ _ _ _ _ _ _).
  assert (V : moves s (set_pc s1 t (PRbDone b)) t) by (apply moves_set_pc; reflexivity).
  pose proof (phase_after s _ t b I Ht Ph0 V) as Hoth.
  destruct (next_run_active s b Ha) as [Nx0 Rn0]. unfold owner_pc in Nx0, Rn0. rewrite Ho, Hpc in Nx0, Rn0.
  assert (SC : same_calls m m) by (constructor; reflexivity).
  constructor.
  - apply (mids_moves _ _ _ _ t M V SC).
  - constructor.
    + apply (r_edits _ _ M).
    + rewrite (r_next _ _ M), Nx0. apply (i_act_nb _ I b Ha).
    + rewrite (r_run _ _ M), Rn0. reflexivity.
    + apply (r_result _ _ M).
    + apply (r_noload _ _ M).
    + intros t0 b0 H0 Hpe. pose proof (Hoth t0 b0 H0 (phase_pre_end _ _ Hpe)) as ->.
      rewrite pc_set_pc in Hpe. discriminate.
    + intros t0 b0 ov0 H0 Hlo. pose proof (Hoth t0 b0 H0 (load_of_phase _ _ _ Hlo)) as ->.
      rewrite pc_set_pc in Hlo. discriminate.
    + intros t0 b0 H0 Hp.
      assert (t0 = t) as -> by (apply (Hoth t0 b0 H0); rewrite Hp; reflexivity).
      rewrite pc_set_pc in Hp. discriminate.
    + intros b0 Hb _. destruct (Nat.eq_dec b0 b) as [->|N].
      * apply (r_pubres _ _ M t b Ht Hpc).
      * apply (r_hasres _ _ M b0 Hb). right. rewrite Ha. congruence.
    + apply (r_ret _ _ M).
    + apply (r_disposed _ _ M).
    + intros H. destruct (r_dispret _ _ M H). split; auto.
    + apply (r_watch _ _ M).
    + apply (r_cancel _ _ M).
  - apply (pend_owner s _ m m t b M V); auto.
    + constructor; auto. intros b0 H. discriminate.
    + rewrite pc_set_pc. reflexivity.
    + rewrite pc_set_pc. reflexivity.
Qed.

(* waitGroup.Done(): the build is over; the owner returns (or, as the watcher goroutine, loops) *)
Lemma minv_done : forall s m m' t b p',
  SInv s -> MInv s m -> t < nt s -> t_pc (thr s t) = PRbDone b ->
  phase_of p' = None ->
  same_calls m m' -> same_builds m m' -> m_dispRet m' = m_dispRet m -> m_watchOk m' = m_watchOk m ->
  (is_client (t_kind (thr s t)) = true ->
   is_ret p' = true /\ m_pend m' = remove_pend (t_cid (thr s t)) (m_pend m)) ->
  (is_client (t_kind (thr s t)) = false -> m_pend m' = m_pend m) ->
  (forall b0, mem b0 (m_ret m) = true -> mem b0 (m_ret m') = true) ->
  (forall b0, mem b0 (m_ret m') = true -> mem b0 (m_ret m) = true \/ b0 = b) ->
  MInv (set_pc (set_bld s b (mkBuild (b_owner (blds s b)) (b_cancel (blds s b)) (b_result (blds s b)) true)) t p') m'.
Proof.
  intros s m m' t b p' I M Ht Hpc P1 SC SB Edr Ewo Hcl Hin Hr1 Hr2.
  assert (Hd : done_of (t_pc (thr s t)) = Some b) by (rewrite Hpc; reflexivity).
  destruct (i_donepc _ I t b Ht Hd) as [Hb [Ho [Hud Hna]]].
  set (x := mkBuild _ _ _ _).
  assert (V : moves s (set_pc (set_bld s b x) t p') t) by (apply moves_set_pc; reflexivity).
  assert (X : forall b0, (b0 = b /\ upd (blds s) b x b0 = x) \/ (b0 <> b /\ upd (blds s) b x b0 = blds s b0)).
  { intros b0. destruct (Nat.eq_dec b0 b) as [->|N]; [left; rewrite upd_same | right; rewrite upd_other]; auto. }
  assert (G : grows s (set_pc (set_bld s b x) t p') m m') by (apply grows_keep; auto).
  constructor.
  - apply (mids_moves _ _ _ _ t M V SC).
  - assert (P0 : phase_of (t_pc (thr s t)) = None) by (rewrite Hpc; reflexivity).
    assert (P1' : phase_of (t_pc (thr (set_pc (set_bld s b x) t p') t)) = None) by (rewrite pc_set_pc; exact P1).
    apply (mbld_outside _ _ _ _ I M (moves_phases_kept _ _ t V P0 P1') SB);
      simpl; rewrite ?(sc_cancel _ _ SC), ?(sc_disp _ _ SC); auto.
    + intros b0. destruct (X b0) as [[-> ->]|[_ ->]]; auto.
    + intros b0. destruct (X b0) as [[-> ->]|[_ ->]]; auto.
    + intros b0. destruct (X b0) as [[-> ->]|[_ ->]]; auto.
    + intros b0. destruct (X b0) as [[-> ->]|[_ ->]]; auto.
    + intros b0 H. destruct (Hr2 b0 H) as [H1 | ->]; auto. right. rewrite upd_same. auto.
    + rewrite Edr. auto.
    + rewrite Ewo. auto.
  - destruct (is_client (t_kind (thr s t))) eqn:C.
    + destruct (Hcl eq_refl) as [Rp Ep]. apply (pend_ret _ _ _ _ t M Ht V G C); auto.
      rewrite pc_set_pc. exact Rp.
    + apply (pend_keep _ _ _ _ t M V G (Hin eq_refl)).
      * intros _. rewrite Hpc. reflexivity.
      * intros o p K. rewrite K in C. discriminate.
Qed.

(* first critical section: a new build is allocated *)
Lemma minv_alloc : forall s m t,
  SInv s -> MInv s m -> t < nt s -> t_pc (thr s t) = PRbStart -> active s = None -> disposed s = false ->
  MInv (set_pc (mkState false (Some (nb s)) (recent s) (watcher s) (wtid s) (stopFlag s) (wexited s)
                        (edits s) (S (nb s)) (upd (blds s) (nb s) (mkBuild t false None false))
                        (nt s) (thr s) (ncalls s)) t (PRbOnStart (nb s))) m.
Proof.
  intros s m t I M Ht Hpc Ha Hdis.
  assert (Hn : m_next m = nb s). { rewrite (r_next _ _ M). unfold next_of. rewrite Ha. reflexivity. }
  set (s1 := mkState _ _ _ _ _ _ _ _ _ _ _ _ _).
  assert (V : moves s (set_pc s1 t (PRbOnStart (nb s))) t) by (apply moves_set_pc; reflexivity).
  assert (Hoth : forall t0 b0, t0 < nt s -> phase_of (t_pc (thr (set_pc s1 t (PRbOnStart (nb s))) t0)) = Some b0 -> t0 = t).
  { intros t0 b0 H0 P. destruct (Nat.eq_dec t0 t) as [|N]; auto. rewrite (mv_other _ _ _ V _ N) in P.
    destruct (i_phase _ I t0 b0 H0 P). congruence. }
  assert (SC : same_calls m m) by (constructor; reflexivity).
  destruct (next_run_active (set_pc s1 t (PRbOnStart (nb s))) (nb s) eq_refl) as [Nx Rn].
  rewrite owner_pc_set_pc in Nx, Rn by (simpl; rewrite upd_same; reflexivity).
  constructor.
  - apply (mids_moves _ _ _ _ t M V SC).
  - constructor.
    + apply (r_edits _ _ M).
    + rewrite Hn, Nx. reflexivity.
    + rewrite (r_run _ _ M), Rn. unfold run_of. rewrite Ha. reflexivity.
    + intros b0 c ov Hb Hr. simpl in Hb, Hr. destruct (Nat.eq_dec b0 (nb s)) as [->|N].
      * rewrite upd_same in Hr. discriminate.
      * rewrite upd_other in Hr by auto. apply (r_result _ _ M b0 c ov); auto. lia.
    + apply (r_noload _ _ M).
    + intros t0 b0 H0 Hpe. pose proof (Hoth t0 b0 H0 (phase_pre_end _ _ Hpe)) as ->.
      rewrite pc_set_pc in Hpe. inversion Hpe; subst b0. simpl. rewrite upd_same. reflexivity.
    + intros t0 b0 ov H0 Hlo. pose proof (Hoth t0 b0 H0 (load_of_phase _ _ _ Hlo)) as ->.
      rewrite pc_set_pc in Hlo. inversion Hlo; subst. apply (r_noload _ _ M). lia.
    + intros t0 b0 H0 Hp.
      assert (t0 = t) as -> by (apply (Hoth t0 b0 H0); rewrite Hp; reflexivity).
      rewrite pc_set_pc in Hp. discriminate.
    + intros b0 Hb H. simpl in *. destruct (Nat.eq_dec b0 (nb s)) as [->|N].
      * rewrite upd_same in H. destruct H; [discriminate|congruence].
      * rewrite upd_other in H |- * by auto. apply (r_hasres _ _ M b0); [lia|]. right. rewrite Ha. discriminate.
    + intros b0 H. destruct (r_ret _ _ M b0 H). simpl. rewrite upd_other by lia. split; [lia|auto].
    + discriminate.
    + intros H. destruct (r_dispret _ _ M H). congruence.
    + apply (r_watch _ _ M).
    + intros b0 Hb H. simpl in Hb, H. destruct (Nat.eq_dec b0 (nb s)) as [->|N].
      * rewrite upd_same in H. discriminate.
      * rewrite upd_other in H by auto. apply (r_cancel _ _ M b0); auto. lia.
  - apply (pend_keep s _ m m t M V); auto.
    + constructor; auto.
      * congruence.
      * intros b0 H. inversion H; subst b0. right. split; auto. lia.
    + intros _. rewrite Hpc. reflexivity.
    + (* the caller itself: it refers to the new build, which nobody has returned *)
      intros o p K _ F O [Q1 Q2 Q3 Q4 Q5 Q6 Q7 Q8 Q9 Q10].
      assert (Oo : o = OpRebuild).
      { pose proof (i_kind _ I t Ht) as Kk. rewrite Hpc, K in Kk. destruct o; simpl in Kk; try discriminate; auto. }
      constructor; rewrite ?pc_set_pc; simpl; auto.
      * intros H. destruct (Q4 H). congruence.
      * intros b0 Hb0. inversion Hb0; subst b0.
        destruct (mem (nb s) (p_ret p)) eqn:Mm; auto.
        apply Q3 in Mm. destruct (r_ret _ _ M _ Mm). lia.
      * intros _ _ Hx. discriminate.
      * intros _ _ b0 Hb0. inversion Hb0; subst b0. lia.
      * intros Hc. rewrite O, Oo in Hc. discriminate.
      * intros ob Hx. discriminate.
Qed.

Lemma rb_phase_kind : forall k p b, pc_ok k p = true -> phase_of p = Some b -> is_client k = true -> k = KClient OpRebuild.
Proof.
  intros k p b H P C. destruct k as [[]| |]; simpl in *; try discriminate; auto;
    destruct p; simpl in *; discriminate.
Qed.

(* no Rebuild pending and Watch never called: no build is active *)
Lemma quiet_no_active : forall s m, SInv s -> MInv s m ->
  rebuild_pending (m_pend m) = false -> m_watchCalled m = false -> active s = None.
Proof.
  intros s m I M Hp Hw. destruct (active s) as [b|] eqn:Ha; auto. exfalso.
  destruct (i_act_owner _ I b Ha) as [Ho Ph].
  set (o := b_owner (blds s b)) in *.
  destruct (is_client (t_kind (thr s o))) eqn:C.
  - pose proof (rb_phase_kind _ _ _ (i_kind _ I o Ho) Ph C) as K.
    assert (R : is_ret (t_pc (thr s o)) = false) by (destruct (t_pc (thr s o)); simpl in *; try discriminate; auto).
    destruct (r_pend _ _ M o OpRebuild Ho K R) as [p [F [O _]]].
    rewrite (find_pend_rebuild _ _ _ F O) in Hp. discriminate.
  - pose proof (r_internal _ _ M o Ho C) as W.
    rewrite (r_watchc _ _ M W) in Hw. discriminate.
Qed.

Definition call_mon (m : mon) (o : op) : mon :=
  mkMon (S (m_ncalls m)) (m_next m) (m_run m) (m_loaded m) (m_load m) (m_end m) (m_ret m)
        (mkP (m_ncalls m) o (m_edits m) (m_next m)
             (negb (rebuild_pending (m_pend m)) && negb (m_watchCalled m)) (m_ret m) (m_dispRet m) :: m_pend m)
        (m_dispCalled m || op_eqb o OpDispose) (m_dispRet m)
        (m_watchCalled m || op_eqb o OpWatch) (m_watchOk m) (m_cancelCalled m || op_eqb o OpCancel) (m_edits m).

Lemma minv_call : forall s m o,
  SInv s -> MInv s m ->
  MInv (mkState (disposed s) (active s) (recent s) (watcher s) (wtid s) (stopFlag s) (wexited s)
                (edits s) (nb s) (blds s) (S (nt s))
                (upd (thr s) (nt s) (mkThread (KClient o) (ncalls s) (start_pc o))) (S (ncalls s)))
       (call_mon m o).
Proof.
  intros s m o I M.
  pose proof (r_ncalls _ _ M) as Ec.
  constructor; [constructor | | ]; unfold call_mon; simpl.
  - congruence.
  - intros H. rewrite (r_watchc _ _ M H). reflexivity.
  - unfold upd. intros t0 H0 H. destruct (Nat.eqb_spec t0 (nt s)) as [E|N]; simpl in H; [discriminate|].
    apply (r_internal _ _ M t0); auto. lia.
  - unfold upd. intros t0 H0 H. destruct (Nat.eqb_spec t0 (nt s)) as [E|N]; simpl in H.
    + inversion H; subst o. simpl. apply orb_true_r.
    + rewrite (r_cancelk _ _ M t0); auto. lia.
  - unfold upd. intros t0 H0 H. destruct (Nat.eqb_spec t0 (nt s)) as [E|N]; simpl in H.
    + inversion H; subst o. simpl. apply orb_true_r.
    + rewrite (r_disposek _ _ M t0); auto. lia.
  - unfold upd. intros t0 H0 H. destruct (Nat.eqb_spec t0 (nt s)) as [E|N]; simpl in H.
    + inversion H; subst o. simpl. apply orb_true_r.
    + rewrite (r_watchk _ _ M t0); auto. lia.
  - unfold upd. intros t0 o0 H0 H. destruct (Nat.eqb_spec t0 (nt s)) as [E|N]; simpl in *.
    + lia.
    + assert (t0 < nt s) by lia. pose proof (r_cid _ _ M t0 o0 H1 H). lia.
  - unfold upd. intros t1 t2 H1 H2 K1 K2 C.
    destruct (Nat.eqb_spec t1 (nt s)) as [E1|N1]; destruct (Nat.eqb_spec t2 (nt s)) as [E2|N2]; simpl in *; try lia.
    + assert (L : t2 < nt s) by lia. destruct (t_kind (thr s t2)) eqn:K; simpl in K2; try discriminate.
      pose proof (r_cid _ _ M t2 o0 L K). lia.
    + assert (L : t1 < nt s) by lia. destruct (t_kind (thr s t1)) eqn:K; simpl in K1; try discriminate.
      pose proof (r_cid _ _ M t1 o0 L K). lia.
    + apply (r_ciduniq _ _ M t1 t2); auto; lia.
  - apply (mbld_outside s _ m _ I M); simpl; auto.
    + (* the new thread is outside the build phases *)
      split; intros t0 H0 P; simpl in *.
      * apply upd_other. lia.
      * destruct (Nat.eq_dec t0 (nt s)) as [->|N].
        -- rewrite upd_same in P. simpl in P. rewrite start_pc_phase in P. congruence.
        -- split; [lia | apply upd_other, N].
    + constructor; reflexivity.
    + intros ->. reflexivity.
    + intros ->. reflexivity.
  - unfold upd. intros t0 o0 H0 K R. destruct (Nat.eqb_spec t0 (nt s)) as [E|N]; simpl in *.
    + inversion K; subst o0. rewrite Ec, Nat.eqb_refl. eexists. split; [reflexivity|]. split; [reflexivity|].
      constructor; simpl; auto.
      * intros H. destruct (r_dispret _ _ M H). split; [auto|split; [auto|]]. rewrite E, Nat.eqb_refl. reflexivity.
      * rewrite E, Nat.eqb_refl. simpl. destruct o; simpl; discriminate.
      * intros _ Hq _ b Hb. apply andb_true_iff in Hq as [Q1 Q2]. apply negb_true_iff in Q1, Q2.
        rewrite (quiet_no_active s m I M Q1 Q2) in Hb. discriminate.
      * rewrite E, Nat.eqb_refl. simpl. destruct o; simpl; discriminate.
      * intros b x Hb Hx. rewrite (r_noload _ _ M b Hb) in Hx. discriminate.
      * rewrite E, Nat.eqb_refl. simpl. destruct o; simpl; discriminate.
      * rewrite E, Nat.eqb_refl. simpl. destruct o; simpl; discriminate.
    + assert (L : t0 < nt s) by lia.
      destruct (r_pend _ _ M t0 o0 L K R) as [p [F [O Q]]]. exists p. split; [|split; [auto|]].
      * pose proof (r_cid _ _ M t0 o0 L K). destruct (Nat.eqb_spec (m_ncalls m) (t_cid (thr s t0))); [lia|auto].
      * apply (pinv_other _ _ _ _ _ _ Q).
        -- apply grows_keep; auto. constructor; reflexivity.
        -- simpl. destruct (Nat.eqb_spec t0 (nt s)); [lia|reflexivity].
Qed.

Lemma minv_edit : forall s m,
  SInv s -> MInv s m ->
  MInv (mkState (disposed s) (active s) (recent s) (watcher s) (wtid s) (stopFlag s) (wexited s)
                (S (edits s)) (nb s) (blds s) (nt s) (thr s) (ncalls s))
       (mkMon (m_ncalls m) (m_next m) (m_run m) (m_loaded m) (m_load m) (m_end m) (m_ret m) (m_pend m)
              (m_dispCalled m) (m_dispRet m) (m_watchCalled m) (m_watchOk m) (m_cancelCalled m) (S (m_edits m))).
Proof.
  intros s m I [[] [] RP]. constructor; [constructor | constructor | ]; simpl; auto.
  intros t o H0 K R. destruct (RP t o H0 K R) as [p [F [O Q]]]. exists p. split; [auto|split; [auto|]].
  apply (pinv_other _ _ _ _ _ _ Q); auto. constructor; simpl; auto.
Qed.

(* Watch's critical section succeeds: the flag is set, the goroutines exist;
   the call has not returned yet (silent step) *)
Lemma minv_watch : forall s m t,
  SInv s -> MInv s m -> t < nt s -> t_pc (thr s t) = PWaStart -> t_kind (thr s t) = KClient OpWatch ->
  watcher s = false -> disposed s = false ->
  MInv (set_pc (mkState false (active s) (recent s) true (nt s) (stopFlag s) (wexited s)
                        (edits s) (nb s) (blds s) (S (S (nt s)))
                        (upd (upd (thr s) (nt s) (mkThread KWatcher 0 PWlCheck)) (S (nt s)) (mkThread KWatchFirst 0 PWfStart))
                        (ncalls s)) t (PWaRet RvUnit)) m.
Proof.
  intros s m t I M Ht Hpc Kt Hw Hdis.
  constructor.
  - (* who the threads are: the caller as before, two goroutines of the context *)
    apply (mids_threads s _ m m M); simpl; auto; try (constructor; reflexivity).
    + intros _. right. apply (r_watchk _ _ M t Ht Kt).
    + intros t0 H0. rewrite !(upd_other _ _ _ _ t) by lia.
      destruct (Nat.eq_dec t0 t) as [->|N0]; [rewrite upd_same; auto|].
      rewrite upd_other by auto.
      destruct (Nat.eq_dec t0 (S (nt s))) as [->|N1]; [rewrite upd_same; auto|].
      rewrite upd_other by auto.
      destruct (Nat.eq_dec t0 (nt s)) as [->|N2]; [rewrite upd_same; auto|].
      rewrite upd_other by auto. left. split; [lia | auto].
  - (* the caller and the two new goroutines are outside the build phases *)
    apply (mbld_outside s _ m m I M); simpl; auto; try congruence; [|constructor; reflexivity].
    split; intros t0 H0 P; simpl in *.
    + assert (t0 <> t) by (intros ->; rewrite Hpc in P; apply P; reflexivity).
      rewrite !upd_other by lia. reflexivity.
    + destruct (Nat.eq_dec t0 t) as [->|N0]; [rewrite upd_same in P; exfalso; apply P; reflexivity|].
      rewrite upd_other in P |- * by auto.
      destruct (Nat.eq_dec t0 (S (nt s))) as [->|N1]; [rewrite upd_same in P; exfalso; apply P; reflexivity|].
      rewrite upd_other in P |- * by auto.
      destruct (Nat.eq_dec t0 (nt s)) as [->|N2]; [rewrite upd_same in P; exfalso; apply P; reflexivity|].
      rewrite upd_other by auto. split; [lia | reflexivity].
  - upd_simpl. destruct (Nat.eqb_spec t (S (nt s))) as [?|Nt1]; [lia|]. destruct (Nat.eqb_spec t (nt s)) as [?|Nt2]; [lia|].
    intros t0 o0 H0 K R. destruct (Nat.eqb_spec t0 t) as [E|N]; simpl in *.
    + subst t0. rewrite Kt in K. inversion K; subst o0.
      destruct (r_pend _ _ M t OpWatch Ht Kt) as [p [F [O Q]]]; [rewrite Hpc; reflexivity|].
      exists p. split; [auto|split; [auto|]].
      destruct Q as [Q1 Q2 Q3 Q4 Q5 Q6 Q7 Q8 Q9 Q10].
      constructor; simpl; upd_simpl; rewrite ?Nat.eqb_refl; simpl; auto; try (intros; discriminate).
      (* q_disp *) intros H. destruct (Q4 H) as [D _]. congruence.
    + destruct (Nat.eqb_spec t0 (S (nt s))); simpl in *; [discriminate|].
      destruct (Nat.eqb_spec t0 (nt s)); simpl in *; [discriminate|].
      assert (L : t0 < nt s) by lia.
      destruct (r_pend _ _ M t0 o0 L K R) as [p [F [O Q]]]. exists p. split; [auto|split; [auto|]].
      apply (pinv_other _ _ _ _ _ _ Q).
      * apply grows_keep; auto; [constructor; reflexivity | simpl; congruence].
      * simpl. destruct (Nat.eqb_spec t0 t); [congruence|]. destruct (Nat.eqb_spec t0 (S (nt s))); [lia|].
        destruct (Nat.eqb_spec t0 (nt s)); [lia|reflexivity].
Qed.
