(* Watch's return is a separate step: what links the threads that have set (or
   failed to set) the watcher flag but have not returned yet to the monitor. *)
From V Require Import Common.Base C20.CtxLTS C20.CtxSpec C20.CtxProofs.
Local Close Scope Z_scope.
Local Open Scope nat_scope.

Record WCl (s : state) (m : mon) : Prop := mkWCl {
  c_unit : forall t, t < nt s -> t_pc (thr s t) = PWaRet RvUnit -> watcher s = true /\ m_watchOk m = false;
  c_uniq : forall t1 t2, t1 < nt s -> t2 < nt s ->
           t_pc (thr s t1) = PWaRet RvUnit -> t_pc (thr s t2) = PWaRet RvUnit -> t1 = t2;
  c_err : forall t, t < nt s -> t_pc (thr s t) = PWaRet RvErr -> watcher s = true;
  c_set : watcher s = true -> m_watchOk m = true \/ exists t, t < nt s /\ t_pc (thr s t) = PWaRet RvUnit;
  c_val : forall t v, t < nt s -> t_pc (thr s t) = PWaRet v -> v = RvUnit \/ v = RvErr }.

Lemma wcl0 : WCl init mon0.
Proof. constructor; simpl; intros; try lia; discriminate. Qed.

(* rule S9: a Watch call returns success only while no other has *)
Lemma mon_step_watch_unit : forall m c m', mon_step m (LRet c OpWatch RvUnit) = Some m' ->
  m_watchOk m' = true /\ m_watchOk m = false.
Proof.
  intros m c m' H. simpl in H.
  destruct (find_pend c (m_pend m)) as [p|]; [|discriminate].
  destruct (negb (op_eqb (p_op p) OpWatch)); [discriminate|].
  destruct (negb (p_dispRet p)); [|discriminate].
  destruct (m_watchOk m); [discriminate|].
  inversion H. split; reflexivity.
Qed.

Lemma mon_step_watchOk : forall m l m', mon_step m l = Some m' ->
  m_watchOk m' = m_watchOk m \/ (exists c, l = LRet c OpWatch RvUnit /\ m_watchOk m' = true /\ m_watchOk m = false).
Proof.
  intros m l m' H. pose proof H as H0. destruct l; simpl in H;
    repeat match type of H with
           | (if ?c then _ else _) = _ => destruct c eqn:?
           | match ?c with _ => _ end = _ => destruct c eqn:?
           end; try discriminate; inversion H; subst; simpl; auto.
  right. eexists. split; [reflexivity|]. exact (mon_step_watch_unit _ _ _ H0).
Qed.

(* which threads are at PWaRet after a step *)
Lemma step_waret : forall s a s' l, SInv s -> exec s a = Some (s', l) ->
  (watcher s = true -> watcher s' = true) /\
  (forall t v, t < nt s' -> t_pc (thr s' t) = PWaRet v ->
     t < nt s /\ (t_pc (thr s t) = PWaRet v \/
                  (t_pc (thr s t) = PWaStart /\ l = LTau /\
                   ((v = RvUnit /\ watcher s = false /\ watcher s' = true) \/ (v = RvErr /\ watcher s = true))))) /\
  (forall t v, t < nt s -> t_pc (thr s t) = PWaRet v ->
     t_pc (thr s' t) = PWaRet v \/ (exists c, l = LRet c OpWatch v)) /\
  (watcher s' = true -> watcher s = true \/ exists t, t < nt s /\ t_pc (thr s t) = PWaStart /\ t_pc (thr s' t) = PWaRet RvUnit) /\
  nt s <= nt s'.
Proof.
  intros s a s' l I H.
  step_cases H; expose_ret; upd_simpl.
  all: repeat split; try lia.
  all: intros.
  all: eqb_cases; simpl in *.
  all: try discriminate; try lia; try congruence; auto.
  all: try (destruct o; discriminate).
  all: try (destruct d; discriminate).
  all: try solve [inversion H0; subst; right; repeat split; auto].
  all: try solve [right; exists t; rewrite Nat.eqb_refl; simpl; auto].
  right. pose proof (i_kind _ I t Hlt) as K. rewrite Hpc in K. rewrite Hpc in H0. inversion H0; subst.
  destruct (t_kind (thr s t)) as [[]| |]; simpl in K; try discriminate. eexists. reflexivity.
Qed.

(* one step changes the program counter of at most one existing thread; a
   successful Watch return comes from a thread at PWaRet RvUnit *)
Lemma step_one_thread : forall s a s' l, SInv s -> exec s a = Some (s', l) ->
  (forall t1 t2, t1 < nt s -> t2 < nt s ->
     t_pc (thr s' t1) <> t_pc (thr s t1) -> t_pc (thr s' t2) <> t_pc (thr s t2) -> t1 = t2) /\
  (forall c, l = LRet c OpWatch RvUnit ->
     exists t, t < nt s /\ t_pc (thr s t) = PWaRet RvUnit /\ is_ret (t_pc (thr s' t)) = true).
Proof.
  intros s a s' l I H.
  step_cases H; expose_ret; upd_simpl.
  all: split; intros.
  all: eqb_cases; simpl in *.
  all: try discriminate; try lia; try congruence; auto.
  all: try solve [repeat match goal with
                         | H : context [match b_result ?x with _ => _ end] |- _ => destruct (b_result x) as [[? ?]|]
                         end; discriminate].
  all: try solve [exfalso;
                  match goal with Hl : ?t0 < nt ?s0, Hp : t_pc (thr ?s0 ?t0) = _ |- _ =>
                    let K := fresh in pose proof (i_kind _ I t0 Hl) as K; rewrite Hp in K;
                    destruct (t_kind (thr s0 t0)) as [[]| |]; simpl in K; try discriminate end].
  all: try solve [match goal with Hl : ?t0 < nt ?s0, Hp : t_pc (thr ?s0 ?t0) = PWaRet ?v |- _ =>
                    let K := fresh in pose proof (i_kind _ I t0 Hl) as K; rewrite Hp in K;
                    destruct (t_kind (thr s0 t0)) as [[]| |]; simpl in K; try discriminate;
                    match goal with H : LRet _ _ _ = LRet _ _ _ |- _ => inversion H; subst end;
                    exists t0; rewrite Nat.eqb_refl; simpl; auto end].
Qed.

(* the clauses are preserved by every step *)
Lemma wcl_step : forall s m a s' l m', SInv s -> WCl s m -> (m_watchOk m = true -> watcher s = true) ->
  exec s a = Some (s', l) -> mon_step m l = Some m' -> WCl s' m'.
Proof.
  intros s m a s' l m' I W RW E St.
  destruct (step_waret _ _ _ _ I E) as [Wm [Hin [Hout [Hset Hnt]]]].
  destruct (step_one_thread _ _ _ _ I E) as [Hone Hlab].
  destruct W as [Cu Cq Ce Cs Cv].
  assert (Unit : forall c, l = LRet c OpWatch RvUnit ->
            m_watchOk m' = true /\ forall t, t < nt s' -> t_pc (thr s' t) <> PWaRet RvUnit).
  { intros c El. subst l. destruct (mon_step_watch_unit _ _ _ St) as [O1 O0]. split; auto.
    intros t Ht Hp. destruct (Hlab c eq_refl) as [t0 [H0 [P0 R0]]].
    destruct (Hin t RvUnit Ht Hp) as [Ht0 [Hp0|[_ [X _]]]]; [|discriminate].
    assert (t = t0) by (apply Cq; auto). subst t0. rewrite Hp in R0. discriminate. }
  assert (Keep : (forall c, l <> LRet c OpWatch RvUnit) -> m_watchOk m' = m_watchOk m).
  { intros N. destruct (mon_step_watchOk _ _ _ St) as [Ok|[c [El _]]]; auto. exfalso. eapply N; eauto. }
  constructor.
  - (* c_unit *)
    intros t Ht Hp.
    assert (N : forall c, l <> LRet c OpWatch RvUnit).
    { intros c El. destruct (Unit c El) as [_ U]. eapply U; eauto. }
    rewrite (Keep N).
    destruct (Hin t RvUnit Ht Hp) as [Ht0 [Hp0|[Hp0 [_ [[_ [W0 W1]]|[X _]]]]]]; try discriminate.
    + destruct (Cu t Ht0 Hp0). split; auto.
    + split; auto. destruct (m_watchOk m) eqn:Om; auto. specialize (RW eq_refl). congruence.
  - (* c_uniq *)
    intros t1 t2 H1 H2 P1 P2.
    destruct (Hin t1 RvUnit H1 P1) as [L1 [O1|[N1 [_ [[_ [W0 _]]|[X _]]]]]]; try discriminate;
    destruct (Hin t2 RvUnit H2 P2) as [L2 [O2|[N2 [_ [[_ [W0' _]]|[X _]]]]]]; try discriminate.
    + apply Cq; auto.
    + destruct (Cu t1 L1 O1). congruence.
    + destruct (Cu t2 L2 O2). congruence.
    + apply Hone; auto; congruence.
  - (* c_err *)
    intros t Ht Hp.
    destruct (Hin t RvErr Ht Hp) as [Ht0 [Hp0|[Hp0 [_ [[X _]|[_ W0]]]]]]; try discriminate; auto.
    apply Wm. apply (Ce t Ht0 Hp0).
  - (* c_set *)
    intros Hw. destruct (Hset Hw) as [W0|[t [Ht [_ Hp]]]].
    + destruct (Cs W0) as [Ok|[t [Ht Hp]]].
      * left. destruct (mon_step_watchOk _ _ _ St) as [Ok'|[c [_ [Ok' _]]]]; congruence.
      * destruct (Hout t RvUnit Ht Hp) as [Hp'|[c El]].
        -- right. exists t. split; auto. lia.
        -- left. apply (Unit c El).
    + right. exists t. split; auto. lia.
  - (* c_val *)
    intros t v Ht Hp. destruct (Hin t v Ht Hp) as [Ht0 [Hp0|[_ [_ [[X _]|[X _]]]]]]; auto. eapply Cv; eauto.
Qed.
