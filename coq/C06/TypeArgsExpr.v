(* C06: type arguments in an expression, "f<T>(x)" versus "a < b > c".

   trySkipTypeArgumentsInExpressionWithBacktracking accepts "<" args ">" as a
   type-argument list exactly when the token after the ">" may follow type
   arguments (tsCanFollowTypeArgumentsInExpression); otherwise the lexer is
   restored and "<" is the less-than operator.  [spec_can_follow] is the rule of
   the TypeScript compiler (parser.ts: canFollowTypeArgumentsInExpression,
   isBinaryOperator, isStartOfExpression, isStartOfLeftHandSideExpression)
   written over the token alphabet independently of the model's transcription
   of the Go code.  Conventions of the alphabet: KOther stands for the binary
   operator punctuation that has no constructor of its own ( * / % ^ && || ??
   == != === !== ) and for end of file; KKeyword for keywords that neither are
   operators nor start an expression (if var while do else return for with). *)
From V Require Import Common.Base C06.TsTokens C06.SkipType C06.SkipMono C06.TypeGrammar
  C06.SkipProofs C06.SkipProofs2 C06.SkipProofs6.

(* getBinaryOperatorPrecedence(token) > 0, with "in" allowed *)
Definition spec_is_binary_operator (k : tk) : bool :=
  match k with
  | KOther                       (* ?? || && ^ == != === !== * / % ** *)
  | KBar | KAmp | KLt | KGt | KLtEq | KGtEq | KIn | KLtLt | KGtGt | KGtGtGt | KPlus | KMinus => true
  | KIdent c => (c =? c_as) || (c =? c_satisfies)
  | _ => false                   (* instanceof is not in the alphabet; assignment operators have precedence 0 *)
  end.

(* isStartOfLeftHandSideExpression; next = the token after an "import" *)
Definition spec_is_start_of_lhs (k : tk) (next : tk) : bool :=
  match k with
  | KThis | KNull | KTrue | KFalse | KNum | KBig | KStr | KNoSubst | KTplHead
  | KLParen | KLBrack | KLBrace | KFunction | KNew | KIdent _ => true
  | KImport => match next with KLParen | KLt | KDot => true | _ => false end
  | _ => false                   (* super, class, "/" and "/=" are not in the alphabet *)
  end.

Definition spec_is_start_of_expression (k : tk) (next : tk) : bool :=
  spec_is_start_of_lhs k next ||
  match k with
  | KPlus | KMinus | KBang | KTypeof | KVoid | KLt | KPrivate => true   (* ~ delete ++ -- @ await yield: not in the alphabet *)
  | _ => spec_is_binary_operator k
  end.

Definition spec_can_follow (ts : toks) : bool :=
  match hd_tk ts with
  | KLParen | KNoSubst | KTplHead => true
  | KLt | KPlus | KMinus => false
  (* the TypeScript scanner yields ">" for every token that starts with ">" *)
  | KGt | KGtEq | KGtGt | KGtGtEq | KGtGtGt | KGtGtGtEq => false
  | k => hd_nl ts || spec_is_binary_operator k || negb (spec_is_start_of_expression k (hd_tk (tl ts)))
  end.

Lemma can_follow_is_spec ts : can_follow_type_args ts = spec_can_follow ts.
Proof.
  unfold can_follow_type_args, spec_can_follow, spec_is_start_of_expression, spec_is_start_of_lhs, spec_is_binary_operator.
  destruct ts as [|[k n] r]; [reflexivity|]. cbn [hd_tk hd_nl tl].
  destruct k; try reflexivity; try (destruct n; reflexivity).
  destruct n; [reflexivity|]. destruct r as [|[k2 n2] r2]; [reflexivity|]. destruct k2; reflexivity.
Qed.

Section Decide.
Variable mg : bool.

Lemma cargs_expr_ok args post : args <> [] -> forallb wfb args = true ->
  Ev (CArgs true (tk1 KLt :: join [tk1 KComma] (map (R mg) args) (tk1 KGt :: post))) (1, post).
Proof.
  intros Hne W. apply (args_ev mg true); auto using Kst_all.
Qed.

(* the decision: the list is consumed iff the following token may follow type
   arguments; otherwise nothing is consumed *)
Lemma tryargs_decision args post : args <> [] -> forallb wfb args = true ->
  let ts := tk1 KLt :: join [tk1 KComma] (map (R mg) args) (tk1 KGt :: post) in
  Ev (CTryArgsExpr ts) (if spec_can_follow post then (1, post) else (0, ts)).
Proof.
  intros Hne W ts. rewrite <- can_follow_is_spec.
  eapply (ev1 _ (CArgs true ts) (1, post)); [apply cargs_expr_ok; assumption|].
  intros s E1. cbn [F]. unfold F_tryargsexpr, bind. rewrite E1. cbn [Z.eqb Pos.eqb andb].
  destruct (can_follow_type_args post); reflexivity.
Qed.

(* no "<" at all: the Go function returns true without moving *)
Lemma tryargs_no_lt ts : lt_tk (hd_tk ts) = false -> Ev (CTryArgsExpr ts) (1, ts).
Proof.
  intros H. eapply (ev1 _ (CArgs true ts) (0, ts)).
  - apply args_none_ev, H.
  - intros s E1. cbn [F]. unfold F_tryargsexpr, bind. rewrite E1. reflexivity.
Qed.
End Decide.
