(* Fuel monotonicity of the skipper model: once [run n c] is not [Oof], every
   larger fuel gives the same result.

   [rle x y] ("y is x, unless x ran out of fuel") is an order on results; the
   bodies of [F] are built from [bind], case distinctions on the tokens and the
   backtracking [match] from calls of [self], and each of these is monotone. *)
From V Require Import Common.Base C06.TsTokens C06.SkipType.

Definition rle {A} (x y : res A) : Prop := x <> Oof -> y = x.

Lemma rle_refl {A} (x : res A) : rle x x.
Proof. intros _. reflexivity. Qed.

Lemma rle_bind {A B} (x x' : res A) (k k' : A -> res B) :
  rle x x' -> (forall a, rle (k a) (k' a)) -> rle (bind x k) (bind x' k').
Proof.
  intros Hx Hk. destruct x as [| |a]; intros H.
  - contradiction.
  - rewrite Hx by discriminate. reflexivity.
  - rewrite Hx by discriminate. apply Hk, H.
Qed.

(* backtracking: a panic of the attempt [x] is caught, its running out of fuel is not *)
Lemma rle_catch {A B} (x x' : res A) (k k' : A -> res B) (h h' : res B) :
  rle x x' -> (forall a, rle (k a) (k' a)) -> rle h h' ->
  rle (match x with Ok a => k a | Fail => h | Oof => Oof end)
      (match x' with Ok a => k' a | Fail => h' | Oof => Oof end).
Proof.
  intros Hx Hk Hh. destruct x as [| |a]; intros H.
  - contradiction.
  - rewrite Hx by discriminate. apply Hh, H.
  - rewrite Hx by discriminate. apply Hk, H.
Qed.

Create HintDb rmono discriminated.
#[local] Hint Resolve rle_refl | 0 : rmono.
#[local] Hint Resolve rle_bind | 1 : rmono.
(* an Extern hint, since the branches of the [match] have to be abstracted over the result *)
#[local] Hint Extern 1 (rle (match _ with Oof => Oof | Fail => _ | Ok _ => _ end) _) => simple apply @rle_catch : rmono.
(* what is left are case distinctions on tokens, flags and pairs *)
#[local] Hint Extern 5 (rle (match ?x with _ => _ end) _) => destruct x : rmono.

Section Mono.
Variables s s' : call -> R.
Hypothesis Hle : forall c, rle (s c) (s' c).

(* By descent along the body of [F s c]: a [bind] goes by [rle_bind], a
   backtracking [match] by [rle_catch], any other [match] or [if] by cases on
   what it inspects, a call [s c'] by [Hle], a term without [s] by [rle_refl].
   Every form has its one hint, so [auto] has nothing to choose; 40 bounds the
   nesting of the deepest body, [F_objloop]. *)
Lemma F_mono c : rle (F s c) (F s' c).
Proof using Hle.
  destruct c;
    cbv beta zeta iota delta [F F_type F_prefix F_suffix F_tuple F_template F_object F_objloop F_params F_paramloop
      F_parammods F_args F_argloop F_fnargs F_fnargloop F_binding F_bindarr F_bindobj F_parenorfn F_tryargsexpr
      type_at args_opt ident_tail snd_of ok0];
    auto 40 using Hle with rmono.
Qed.
End Mono.

Lemma run_le n c : rle (run n c) (run (S n) c).
Proof.
  revert c. induction n as [|n IH]; intros c.
  - intros H. contradiction H. reflexivity.
  - apply F_mono, IH.
Qed.

Lemma run_mono n m c : (n <= m)%nat -> run n c <> Oof -> run m c = run n c.
Proof.
  intros Hnm. induction Hnm as [|m Hnm IH]; intros H.
  - reflexivity.
  - rewrite <- (IH H). apply run_le. rewrite (IH H). exact H.
Qed.
