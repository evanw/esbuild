(* C06: skip_exact, cases for names, queries, import types, templates *)
From V Require Import Common.Base C06.TsTokens C06.SkipType C06.SkipMono C06.TypeGrammar C06.SkipProofs.

(* what happens right after a name: optional type arguments (not after a newline) *)
Definition EvA (Y Z : toks) : Prop := eventually (fun s => args_opt s Y = Ok Z).

Lemma EvA_nl Y : hd_nl Y = true -> EvA Y Y.
Proof. intros H. apply ev_always. intros s. unfold args_opt. rewrite H. reflexivity. Qed.

Lemma EvA_of_Ev Y code Z : Ev (CArgs false Y) (code, Z) -> hd_nl Y = false -> EvA Y Z.
Proof.
  intros H Hn. apply (ev_use H), ev_always. intros s E.
  unfold args_opt, snd_of, bind. rewrite Hn, E. reflexivity.
Qed.

(* no "<": skipTypeScriptTypeArguments returns false without moving *)
Lemma args_none_ev expr ts : lt_tk (hd_tk ts) = false -> Ev (CArgs expr ts) (0, ts).
Proof.
  intros H. apply ev0. intros s. cbn [F]. unfold F_args.
  destruct (hd_tk ts); try discriminate; reflexivity.
Qed.

Lemma EvA_no_lt Y : no_lt Y = true -> EvA Y Y.
Proof.
  unfold no_lt. destruct (hd_nl Y) eqn:E; intros H; [apply EvA_nl, E|].
  apply (EvA_of_Ev Y 0); [|exact E]. apply args_none_ev, negb_true_iff, H.
Qed.

Lemma suffix_dot_step lvl f d Y Z r :
  EvA Y Z -> Ev (CSuffix lvl f Z) (0, r) -> Ev (CSuffix lvl f (tk1 KDot :: tk1 (KIdent d) :: Y)) (0, r).
Proof.
  intros H1 H2. apply Ev_step, (ev_use H2), (ev_mp _ _ H1), ev_always. intros s E1 E2.
  cbn [F]. unfold F_suffix. cbn [hd_tk tk1 fst tl]. cbn [is_ident_or_kw tk_ident_or_kw negb].
  rewrite E1. exact E2.
Qed.

Lemma suffix_dots q : forall lvl f X post r, EvA X post -> Ev (CSuffix lvl f post) (0, r) -> q <> [] ->
  Ev (CSuffix lvl f (dots q X)) (0, r).
Proof.
  induction q as [|d q' IH]; intros lvl f X post r HA Hs Hne; [congruence|].
  destruct q' as [|d' q''].
  - cbn [dots]. eapply suffix_dot_step; eassumption.
  - change (dots (d :: d' :: q'') X) with (tk1 KDot :: tk1 (KIdent d) :: dots (d' :: q'') X).
    eapply suffix_dot_step.
    + apply EvA_no_lt. reflexivity.
    + eapply IH; eauto. discriminate.
Qed.

Lemma prefix_ident c Y Z lvl f : normal c = true -> EvA Y Z -> no_is Y = true ->
  Ev (CPrefix lvl f (tk1 (KIdent c) :: Y)) (1, Z).
Proof.
  intros Hc H Hi. apply Ev_step, (ev_mp _ _ H), ev_always. intros s E.
  cbn [F]. unfold F_prefix. cbn [hd_tk tk1 fst tl].
  rewrite (ident_kind_normal c Hc). cbn iota. apply ident_tail_args; assumption.
Qed.

Lemma skip_dots_dots q : forall X, is KDot X = false -> skip_dots (dots q X) = Ok X.
Proof.
  induction q as [|d q' IH]; intros X H; cbn [dots].
  - destruct X as [|[k n] p]; [reflexivity|]. destruct k; try reflexivity. discriminate.
  - cbn. apply IH. exact H.
Qed.

Section Main2.
Variable mg : bool.
Notation R := (R mg).
Notation Kst := (Kst mg).

(* a type-argument list as [R] renders it (its local [targs]; it renders
   type-parameter lists, [tparams], the same way) *)
Definition targsR (args : list ty) (post : toks) : toks :=
  match args with [] => post | _ => tk1 KLt :: join [tk1 KComma] (map R args) (push_gt mg post) end.

Lemma targs_EvA args post :
  Forall Kst args -> forallb wfb args = true -> (args = [] -> no_lt post = true) ->
  EvA (targsR args post) post.
Proof.
  intros HK W Hlt. destruct args as [|a l].
  - apply EvA_no_lt, Hlt. reflexivity.
  - destruct (push_gt_ok mg post) as [P1 [P3 P4]]. apply (EvA_of_Ev _ 1); [|reflexivity].
    apply (args_ev mg false); auto. discriminate.
Qed.

Lemma targs_hd args post : is KDot (targsR args post) = is KDot post \/ is KDot (targsR args post) = false.
Proof. destruct args; [left|right]; reflexivity. Qed.

Lemma K_ref c q args : Forall Kst args -> Kst (TRef c q args).
Proof.
  intros HK W lvl f post r Hl _ Hf Ht _ Hs. cbn [wfb] in W.
  apply andb_true_iff in W as [W Wa]. apply andb_true_iff in W as [Hc Wq].
  change (R (TRef c q args) post) with (tk1 (KIdent c) :: dots q (targsR args post)).
  assert (Hlt : args = [] -> no_lt post = true /\ no_is post = true).
  { intros ->. cbn [tail_ok] in Ht. apply andb_true_iff in Ht as [A B]. auto. }
  assert (HA : EvA (targsR args post) post) by (apply targs_EvA; auto; intros E; apply Hlt; exact E).
  destruct q as [|d q'].
  - cbn [dots]. eapply type_of_prefix; [|exact Hs].
    apply prefix_ident; auto.
    destruct args; [|reflexivity]. cbn [targsR]. apply (Hlt eq_refl).
  - eapply type_of_prefix.
    + apply prefix_ident; [exact Hc|apply EvA_no_lt; reflexivity|reflexivity].
    + eapply suffix_dots; eauto. discriminate.
Qed.

Lemma K_typeof c q args : Forall Kst args -> Kst (TTypeof c q args).
Proof.
  intros HK. apply K_prefix. intros W lvl f post Ht. cbn [wfb] in W.
  apply andb_true_iff in W as [W Wa]. apply andb_true_iff in W as [Hc Wq].
  change (R (TTypeof c q args) post) with (tk1 KTypeof :: tk1 (KIdent c) :: dots q (targsR args post)).
  assert (Hlt : args = [] -> no_lt post = true /\ is KDot post = false).
  { intros ->. cbn [tail_ok] in Ht. apply andb_true_iff in Ht as [A B]. apply negb_true_iff in B. auto. }
  assert (HA : EvA (targsR args post) post) by (apply targs_EvA; auto; intros E; apply Hlt; exact E).
  assert (HD : is KDot (targsR args post) = false) by (destruct args; [apply Hlt; reflexivity|reflexivity]).
  apply Ev_step, (ev_mp _ _ HA), ev_always. intros s E.
  cbn [F]. unfold F_prefix. cbn [hd_tk tk1 fst tl].
  remember (dots q (targsR args post)) as Y eqn:EY.
  assert (E1 : colon_or_q (tk1 (KIdent c) :: Y) = false) by reflexivity.
  assert (E2 : is KImport (tk1 (KIdent c) :: Y) = false) by reflexivity.
  assert (E3 : is_ident_or_kw (tk1 (KIdent c) :: Y) = true) by reflexivity.
  rewrite E1, andb_false_r, E2, E3. cbn [negb]. subst Y.
  rewrite (skip_dots_dots q _ HD). unfold bind. rewrite E. reflexivity.
Qed.

Lemma K_import tof q args : Forall Kst args -> Kst (TImport tof q args).
Proof.
  intros HK W lvl f post r Hl _ Hf Ht _ Hs. cbn [wfb] in W.
  apply andb_true_iff in W as [W Wqa]. apply andb_true_iff in W as [Wq Wa].
  set (rest := dots q (targsR args post)).
  set (body := tk1 KImport :: tk1 KLParen :: tk1 KStr :: tk1 KRParen :: rest).
  change (R (TImport tof q args) post) with ((if tof then [tk1 KTypeof] else []) ++ body).
  assert (Hrest : Ev (CSuffix lvl f rest) (0, r)).
  { subst rest. destruct q as [|d q'].
    - destruct args; [exact Hs|discriminate].
    - eapply suffix_dots; eauto; [|discriminate].
      apply targs_EvA; auto. intros ->. cbn [tail_ok] in Ht. exact Ht. }
  eapply type_of_prefix; [|exact Hrest]. subst body. clearbody rest.
  assert (Hbody : Ev (CPrefix lvl f (tk1 KImport :: tk1 KLParen :: tk1 KStr :: tk1 KRParen :: rest)) (1, rest)).
  { apply ev0. intros s. cbn. rewrite andb_false_r. reflexivity. }
  destruct tof; cbn [app]; [|exact Hbody].
  eapply ev1; [exact Hbody|]. intros s E1. cbn. rewrite andb_false_r. exact E1.
Qed.

Lemma template_loop : forall ts, ts <> [] -> Forall Kst ts -> forallb wfb ts = true ->
  forall h post, Ev (CTemplate (h :: join [tk1 KTplMid] (map R ts) (tk1 KTplTail :: post))) (0, post).
Proof.
  induction ts as [|x l IH]; intros Hne HK W h post; [congruence|].
  inversion HK as [|? ? Kx Kl]; subst. cbn [forallb] in W. apply andb_true_iff in W as [Wx Wl].
  cbn [map]. rewrite join_cons. set (rest := join_rest _ _ _).
  assert (Htail : eventually (fun s =>
            (if is KTplTail rest then ok0 (tl rest)
             else if is KTplMid rest then s (CTemplate rest) else Fail) = Ok (0, post))).
  { subst rest. destruct l; [apply ev_always; reflexivity|].
    exact (Ev_all _ _ (IH ltac:(discriminate) Kl Wl (tk1 KTplMid) post)). }
  assert (Hr : delimiter (hd_tk rest) = true) by (subst rest; destruct l; reflexivity).
  clearbody rest.
  apply Ev_step, (ev_mp _ _ Htail), (ev_use (K_at mg x Kx Wx fl0 rest eq_refl Hr)), ev_always.
  intros s E1 E2. cbn [F]. unfold F_template. cbn [tl].
  unfold type_at, snd_of, bind. rewrite E1. exact E2.
Qed.

Lemma K_template ts : Forall Kst ts -> Kst (TTemplate ts).
Proof.
  intros HK. apply K_prefix. intros W lvl f post _. cbn [R wfb] in *.
  assert (Hne : ts <> []) by (destruct ts; discriminate).
  assert (Wt : forallb wfb ts = true) by (destruct ts; [discriminate|exact W]).
  eapply ev1; [apply (template_loop ts Hne HK Wt (tk1 KTplHead) post)|].
  intros s E1. cbn [F]. unfold F_prefix. cbn [hd_tk tk1 fst].
  unfold snd_of, bind. rewrite E1. reflexivity.
Qed.
End Main2.
