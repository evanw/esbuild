(* C06: token alphabet of the TypeScript type skipper.

   The Go parser (internal/js_parser/ts_parser.go) never builds a tree for
   types: it advances the lexer.  The model therefore works on token lists.
   A token is (kind, HasNewlineBefore).  The alphabet contains every token
   kind that skipTypeScriptTypeWithFlags / skipTypeScriptObjectType /
   skipTypeScriptTypeParameters / skipTypeScriptTypeArguments /
   skipTypeScriptFnArgs / skipTypeScriptBinding distinguish; all remaining
   keywords are [KKeyword] and all remaining punctuation is [KOther].

   Identifiers carry a class code because the skipper looks at the text of
   contextual keywords (tsTypeIdentifierMap and IsContextualKeyword). *)
From V Require Import Common.Base.

Inductive tk : Type :=
| KNum | KBig | KStr | KNoSubst | KTrue | KFalse | KNull | KVoid
| KConst | KThis | KMinus | KPlus | KAmp | KBar | KImport | KNew
| KLt | KLtEq | KLtLt | KLtLtEq
| KGt | KGtEq | KGtGt | KGtGtEq | KGtGtGt | KGtGtGtEq
| KEq | KArrow
| KLParen | KRParen | KLBrack | KRBrack | KLBrace | KRBrace
| KTplHead | KTplMid | KTplTail
| KIdent (i : Z)
| KTypeof | KFunction | KIn | KExtends | KKeyword
| KColon | KQuestion | KComma | KSemi | KDot | KDotDotDot | KBang
| KPrivate | KOther.

Definition tk_eq_dec : forall a b : tk, {a = b} + {a <> b}.
Proof. decide equality. apply Z.eq_dec. Defined.

Definition tk_eqb (a b : tk) : bool := if tk_eq_dec a b then true else false.
Lemma tk_eqb_eq a b : tk_eqb a b = true <-> a = b.
Proof. unfold tk_eqb. destruct (tk_eq_dec a b); split; congruence. Qed.
Lemma tk_eqb_refl a : tk_eqb a a = true.
Proof. apply tk_eqb_eq. reflexivity. Qed.

Definition token := (tk * bool)%type.     (* kind, HasNewlineBefore *)
Definition toks := list token.

(* identifier class codes *)
Definition c_keyof := 1.
Definition c_readonly := 2.
Definition c_unique := 3.
Definition c_abstract := 4.
Definition c_asserts := 5.
Definition c_infer := 6.
Definition c_is := 7.
Definition c_symbol := 8.      (* also a primitive type name *)
Definition c_out := 9.
Definition c_as := 10.
Definition c_prim := 11.       (* any never unknown undefined object number string boolean bigint *)
Definition c_satisfies := 12.
(* codes >= 100: ordinary identifiers *)

(* lexer.Token at the head of the remaining input; end of file is [KOther]
   with no newline (TEndOfFile matches no case of the skipper) *)
Definition hd_tk (ts : toks) : tk := match ts with [] => KOther | (k, _) :: _ => k end.
Definition hd_nl (ts : toks) : bool := match ts with [] => false | (_, n) :: _ => n end.
Definition is (k : tk) (ts : toks) : bool := match ts with [] => false | (k', _) :: _ => tk_eqb k' k end.
Definition is_ctx (c : Z) (ts : toks) : bool := is (KIdent c) ts.
Definition is_ident (ts : toks) : bool := match hd_tk ts with KIdent _ => true | _ => false end.

(* lexer.IsIdentifierOrKeyword(): Token >= TIdentifier *)
Definition tk_ident_or_kw (k : tk) : bool :=
  match k with
  | KIdent _ | KTrue | KFalse | KNull | KVoid | KConst | KThis | KImport | KNew
  | KTypeof | KFunction | KIn | KExtends | KKeyword => true
  | _ => false
  end.
Definition is_ident_or_kw (ts : toks) : bool := match ts with [] => false | (k, _) :: _ => tk_ident_or_kw k end.

(* js_ast.L values used by the skipper *)
Definition LLowest := 0.
Definition LBitOr := 9.
Definition LBitAnd := 11.
Definition LPrefix := 18.

(* skipTypeFlags *)
Record fl := mkFl { fRet : bool; fIdx : bool; fTup : bool; fNoCond : bool }.
Definition fl0 := mkFl false false false false.
Definition fl_ret := mkFl true false false false.
Definition fl_idx := mkFl false true false false.
Definition fl_tup := mkFl false false true false.
Definition fl_nocond := mkFl false false false true.
Definition fl_of_Z (z : Z) : fl := mkFl (Z.testbit z 0) (Z.testbit z 1) (Z.testbit z 2) (Z.testbit z 3).

(* three-valued results: running out of fuel is distinguished from a syntax
   error (lexer panic) because the parser backtracks on errors *)
Inductive res (A : Type) : Type := Oof | Fail | Ok (a : A).
Arguments Oof {A}. Arguments Fail {A}. Arguments Ok {A} a.

Definition bind {A B} (x : res A) (k : A -> res B) : res B :=
  match x with Oof => Oof | Fail => Fail | Ok a => k a end.
Notation "x <- e ;; k" := (bind e (fun x => k)) (at level 61, e at next level, right associativity).
Notation "' p <- e ;; k" := (bind e (fun x => match x with p => k end)) (at level 61, p pattern, e at next level, right associativity).

(* lexer.Expect(T) *)
Definition expect (k : tk) (ts : toks) : res toks := if is k ts then Ok (tl ts) else Fail.
(* lexer.Expect(TIdentifier) *)
Definition expect_ident (ts : toks) : res toks := if is_ident ts then Ok (tl ts) else Fail.

(* lexer.ExpectLessThan(false) / ExpectGreaterThan(false): the first character
   is split off a longer token and the remainder stays the current token.
   (maybeExpandEquals re-joins "=" with an ADJACENT ">" or "=" character; the
   model assumes the character after ">=" / "<=" is not one of those -- the
   renderer separates tokens by white space -- and the text level is exercised
   by the glue stream.) *)
Definition expect_lt (ts : toks) : res toks :=
  match ts with
  | (KLt, _) :: r => Ok r
  | (KLtEq, _) :: r => Ok ((KEq, false) :: r)
  | (KLtLt, _) :: r => Ok ((KLt, false) :: r)
  | (KLtLtEq, _) :: r => Ok ((KLtEq, false) :: r)
  | _ => Fail
  end.
Definition expect_gt (ts : toks) : res toks :=
  match ts with
  | (KGt, _) :: r => Ok r
  | (KGtEq, _) :: r => Ok ((KEq, false) :: r)
  | (KGtGt, _) :: r => Ok ((KGt, false) :: r)
  | (KGtGtEq, _) :: r => Ok ((KGtEq, false) :: r)
  | (KGtGtGt, _) :: r => Ok ((KGtGt, false) :: r)
  | (KGtGtGtEq, _) :: r => Ok ((KGtGtEq, false) :: r)
  | _ => Fail
  end.

(* tsTypeIdentifierMap *)
Inductive ikind := IkNormal | IkUnique | IkAbstract | IkAsserts | IkPrefix | IkPrimitive | IkInfer.
Definition ident_kind (c : Z) : ikind :=
  if c =? c_keyof then IkPrefix else if c =? c_readonly then IkPrefix
  else if c =? c_unique then IkUnique else if c =? c_abstract then IkAbstract
  else if c =? c_asserts then IkAsserts else if c =? c_infer then IkInfer
  else if c =? c_symbol then IkPrimitive else if c =? c_prim then IkPrimitive
  else IkNormal.
