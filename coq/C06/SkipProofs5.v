(* C06: skip_exact, object types: property, method / call / construct / accessor
   signatures, index signatures, mapped-type members *)
From V Require Import Common.Base C06.TsTokens C06.SkipType C06.SkipMono C06.TypeGrammar
  C06.SkipProofs C06.SkipProofs2 C06.SkipProofs3 C06.SkipProofs4.

(* the tokens [skip_keys] takes for property names, and where it stops *)
Definition keyish (k : tk) : bool := tk_ident_or_kw k || tk_eqb k KStr || tk_eqb k KNum.
Definition key_stop (Y : toks) : bool := match Y with (k, _) :: _ => negb (keyish k) | [] => true end.

Lemma key_tk_keyish c : keyish (key_tk c) = true.
Proof.
  unfold key_tk. destruct (0 <=? c); [reflexivity|]. destruct (c =? -1); [reflexivity|].
  destruct (c =? -2); [reflexivity|]. destruct (c =? -3); reflexivity.
Qed.

Lemma key_tk_not k c : keyish k = false -> tk_eqb (key_tk c) k = false.
Proof.
  intros H. unfold tk_eqb. destruct (tk_eq_dec (key_tk c) k) as [E|E]; [|reflexivity].
  subst k. rewrite key_tk_keyish in H. discriminate.
Qed.

Lemma skip_keys_keys ks : forall b Y, key_stop Y = true ->
  skip_keys b (keys_toks ks Y) = (b || match ks with [] => false | _ => true end, Y).
Proof.
  induction ks as [|c ks' IH]; intros b Y H; unfold keys_toks in *; cbn [map app].
  - rewrite orb_false_r. destruct Y as [|[k n] p]; [reflexivity|].
    cbn [skip_keys]. cbn in H. unfold keyish in H. apply negb_true_iff in H. rewrite H. reflexivity.
  - cbn [skip_keys tk1]. pose proof (key_tk_keyish c) as Hk. unfold keyish in Hk. rewrite Hk.
    rewrite (IH true Y H). rewrite orb_true_r. reflexivity.
Qed.

Lemma is_keys_not k ks Y : keyish k = false -> is k Y = false -> is k (keys_toks ks Y) = false.
Proof.
  intros Hk HY. destruct ks as [|c ks']; [exact HY|].
  unfold keys_toks. cbn [map app is tk1 fst]. apply key_tk_not. exact Hk.
Qed.

Lemma pm_cases p : pm_ok p = true -> p = 0 \/ p = 1 \/ p = 2.
Proof. unfold pm_ok. intros H. apply andb_true_iff in H as [A B]. lia. Qed.

(* the first phase of a round of skipTypeScriptObjectType's loop on a member: not
   "}", and the property names are scanned; the flag says whether there was a
   name, [Y] is what follows the names *)
Lemma objloop_keys ks Y :
  key_stop Y = true -> is KRBrace Y = false -> is KPlus Y = false -> is KMinus Y = false ->
  let ts := keys_toks ks Y in
  let r0 := if is KPlus ts || is KMinus ts then tl ts else ts in
  is KRBrace ts = false /\ skip_keys false r0 = (match ks with [] => false | _ => true end, Y).
Proof.
  intros HY H1 H2 H3 ts r0. subst r0 ts.
  rewrite !is_keys_not by (reflexivity || assumption).
  split; [reflexivity|]. apply (skip_keys_keys ks false Y HY).
Qed.

(* the same after the "+" or "-" of a mapped-type member *)
Lemma objloop_pm_keys p ks Y : pm_ok p = true ->
  key_stop Y = true -> is KRBrace Y = false -> is KPlus Y = false -> is KMinus Y = false ->
  let ts := pm_toks p ++ keys_toks ks Y in
  let r0 := if is KPlus ts || is KMinus ts then tl ts else ts in
  is KRBrace ts = false /\ skip_keys false r0 = (match ks with [] => false | _ => true end, Y).
Proof.
  intros Hp HY H1 H2 H3.
  destruct (pm_cases p Hp) as [-> | [-> | ->]]; cbn [pm_toks Z.eqb app].
  - apply objloop_keys; assumption.
  - split; [reflexivity|apply (skip_keys_keys ks false Y HY)].
  - split; [reflexivity|apply (skip_keys_keys ks false Y HY)].
Qed.

Section Main5.
Variable mg : bool.
Notation R := (R mg).
Notation Kst := (Kst mg).
Notation Pst := (Pst mg).

(* the separator handling at the end of a member *)
Definition sep_fits (s : Z) (T : toks) : Prop := s = 0 \/ s = 1 \/ (s = 2 /\ is KRBrace T = true).

Lemma sep_head s T : sep_fits s T ->
  let r5 : toks := sep_toks s ++ T in
  delimiter (hd_tk r5) = true /\ is KColon r5 = false /\
  (if is KRBrace r5 then Ok r5
   else if is KComma r5 || is KSemi r5 then Ok (tl r5)
   else if hd_nl r5 then Ok r5 else Fail) = Ok T.
Proof.
  intros [->|[->|[-> H]]]; cbn [sep_toks Z.eqb app]; try (repeat split; reflexivity).
  apply is_hd in H. destruct T as [|[k n] p]; [discriminate|]. cbn in H. subst k.
  repeat split; reflexivity.
Qed.

Lemma params_none_ev Y : is KLt Y = false -> Ev (CParams false Y) (0, Y).
Proof. intros H. apply ev0. intros s. cbn [F]. unfold F_params. rewrite H. reflexivity. Qed.

(* one property member *)
Lemma member_prop ks opt t s T post :
  Kst t -> wfb t = true -> ks <> [] -> sep_fits s T -> Ev (CObjLoop T) (0, post) ->
  Ev (CObjLoop (R (TMProp ks opt t s) T)) (0, post).
Proof.
  intros K W Hks Hsep HT. cbn [R].
  destruct (sep_head s T Hsep) as [S1 [S3 S6]].
  pose proof (K_at mg t K W fl0 (sep_toks s ++ T) eq_refl S1) as HTy.
  remember (R t (sep_toks s ++ T)) as Y eqn:EY. clear EY.
  apply Ev_step, (ev_use HT), (ev_use HTy), (ev_use (params_none_ev (tk1 KColon :: Y) eq_refl)), ev_always.
  intros s0 E1 E2 E3. cbn [F]. unfold F_objloop.
  destruct (objloop_keys ks (optq opt ++ tk1 KColon :: Y)) as [K1 K2]; try (destruct opt; reflexivity).
  rewrite K1. cbv zeta iota. rewrite K2.
  replace (match ks with [] => false | _ :: _ => true end) with true by (destruct ks; [congruence|reflexivity]).
  unfold type_at, snd_of, bind.
  destruct opt; cbn; rewrite E1; cbn; rewrite E2; cbn; rewrite S6; exact E3.
Qed.

(* method / call / construct / accessor signature *)
Lemma member_meth ks opt tps ps h ret s T post :
  TParamsSt mg tps -> wf_tparams_with wfb tps = true ->
  ParamsSt mg ps -> wf_params_with wfb ps = true ->
  RetSt mg ret -> (h = true -> wf_ret_with wfb ret = true) ->
  (ks = [] -> opt = false) ->
  sep_fits s T -> Ev (CObjLoop T) (0, post) ->
  Ev (CObjLoop (R (TMMeth ks opt tps ps h ret s) T)) (0, post).
Proof.
  intros HTs Wt HPs Wp HRs Wr Hko Hsep HT.
  destruct (sep_head s T Hsep) as [S1 [S3 S6]].
  set (A := if h then tk1 KColon :: R ret (sep_toks s ++ T) else sep_toks s ++ T).
  set (P := tk1 KLParen :: join [tk1 KComma] (map R ps) (tk1 KRParen :: A)).
  assert (HFn : Ev (CFnArgs P) (0, A)).
  { eapply ev1; [apply (HPs Wp A)|]. intros s0 E1. cbn [F]. unfold F_fnargs, P. cbn. exact E1. }
  set (TP := targsR mg tps P).
  assert (ER : R (TMMeth ks opt tps ps h ret s) T = keys_toks ks (optq opt ++ TP))
    by (subst TP P A; destruct h; reflexivity).
  rewrite ER. clear ER.
  destruct (HTs Wt P ltac:(reflexivity)) as [pcode HP]. fold TP in HP.
  (* after the names: "?", "<" or "(" *)
  assert (HTP : key_stop (optq opt ++ TP) = true /\ is KRBrace (optq opt ++ TP) = false /\
                is KPlus (optq opt ++ TP) = false /\ is KMinus (optq opt ++ TP) = false /\
                is KLBrack (optq opt ++ TP) = false)
    by (subst TP; destruct opt, tps; repeat split; reflexivity).
  destruct HTP as [T0 [T1 [T2 [T3 T4]]]].
  assert (HRet : eventually (fun s0 =>
            h = true -> s0 (CType LLowest fl_ret (R ret (sep_toks s ++ T))) = Ok (0, sep_toks s ++ T))).
  { apply ev_when. intros E. apply andb_true_iff in S1 as [S1 S2].
    apply Ev_all, HRs; auto. apply tail_ok_harmless, S2. }
  destruct (objloop_keys ks (optq opt ++ TP) T0 T1 T2 T3) as [K1 K2].
  apply Ev_step, (ev_use HT), (ev_mp _ _ HRet), (ev_use HFn), (ev_use HP), ev_always.
  intros s0 E1 E2 E3 E4.
  cbn [F]. unfold F_objloop. rewrite K1. cbv zeta iota. rewrite K2, T4.
  unfold bind at 1. cbn iota beta.
  (* the "?" is skipped only after a name *)
  replace (if (match ks with [] => false | _ :: _ => true end)
              && (is KQuestion (optq opt ++ TP) || is KBang (optq opt ++ TP))
           then tl (optq opt ++ TP) else optq opt ++ TP) with TP
    by (subst TP; destruct ks; [rewrite (Hko eq_refl); reflexivity|destruct opt, tps; reflexivity]).
  unfold snd_of, bind. rewrite E1. cbn iota beta.
  assert (E6 : is KColon P = false) by reflexivity. assert (E7 : is KLParen P = true) by reflexivity.
  rewrite E6, E7. rewrite E2. cbn iota beta.
  destruct h; subst A.
  - cbn [is tk1 fst]. change (tk_eqb KColon KColon) with true. cbn iota. cbn [tl].
    unfold type_at, snd_of, bind. rewrite (E3 eq_refl). cbn iota beta. rewrite S6. exact E4.
  - rewrite S3, S6. exact E4.
Qed.

(* index signature: readonly [k: kt]: vt *)
Lemma member_index ks k kt vt s T post :
  Kst kt -> Kst vt -> wfb kt = true -> wfb vt = true -> normal k = true ->
  sep_fits s T -> Ev (CObjLoop T) (0, post) ->
  Ev (CObjLoop (R (TMIndex ks k kt vt s) T)) (0, post).
Proof.
  intros Kk Kv Wk Wv Hk Hsep HT. cbn [R].
  destruct (sep_head s T Hsep) as [S1 [S3 S6]].
  pose proof (K_at mg vt Kv Wv fl0 (sep_toks s ++ T) eq_refl S1) as H4.
  remember (R vt (sep_toks s ++ T)) as Y2 eqn:EY2. clear EY2.
  pose proof (K_at mg kt Kk Wk fl0 (tk1 KRBrack :: tk1 KColon :: Y2) eq_refl eq_refl) as H2.
  remember (R kt (tk1 KRBrack :: tk1 KColon :: Y2)) as Y1 eqn:EY1. clear EY1.
  pose proof (name_type mg fl_idx k (tk1 KColon :: Y1) eq_refl Hk eq_refl) as H1.
  apply Ev_step, (ev_use HT), (ev_use H4), (ev_use (params_none_ev (tk1 KColon :: Y2) eq_refl)),
    (ev_use H2), (ev_use H1), ev_always.
  intros s0 E1 E2 E3 E4 E5. cbn [F]. unfold F_objloop.
  destruct (objloop_keys ks (tk1 KLBrack :: tk1 (KIdent k) :: tk1 KColon :: Y1)) as [K1 K2]; try reflexivity.
  rewrite K1. cbv zeta iota. rewrite K2.
  unfold type_at, snd_of, bind. cbn. rewrite E1. cbn. rewrite E2. cbn. rewrite E3. cbn. rewrite E4. cbn.
  rewrite S6. exact E5.
Qed.

(* mapped-type member: +readonly [k in src as ast]-?: vt *)
Lemma member_mapped p1 ks k src h ast p2 q vt s T post :
  Kst src -> Kst ast -> Kst vt -> wfb src = true -> (h = true -> wfb ast = true) -> wfb vt = true ->
  normal k = true -> pm_ok p1 = true -> pm_ok p2 = true ->
  sep_fits s T -> Ev (CObjLoop T) (0, post) ->
  Ev (CObjLoop (R (TMMapped p1 ks k src h ast p2 q vt s) T)) (0, post).
Proof.
  intros Ks Ka Kv Ws Wa Wv Hk Hp1 Hp2 Hsep HT. cbn [R].
  destruct (sep_head s T Hsep) as [S1 [S3 S6]].
  pose proof (K_at mg vt Kv Wv fl0 (sep_toks s ++ T) eq_refl S1) as H5.
  remember (R vt (sep_toks s ++ T)) as Y3 eqn:EY. clear EY.
  set (W := pm_toks p2 ++ optq q ++ tk1 KColon :: Y3).
  assert (H3 : eventually (fun s0 =>
            h = true -> s0 (CType LLowest fl0 (R ast (tk1 KRBrack :: W))) = Ok (0, tk1 KRBrack :: W)))
    by (apply ev_when; intros E; apply Ev_all, K_at; auto).
  remember (R ast (tk1 KRBrack :: W)) as Y2 eqn:EY. clear EY.
  match goal with |- context [R src ?x] => set (X := x) end.
  assert (H2 : Ev (CType LLowest fl0 (R src X)) (0, X))
    by (apply K_at; auto; subst X; destruct h; reflexivity).
  remember (R src X) as Y1 eqn:EY. clear EY.
  pose proof (name_type mg fl_idx k (tk1 KIn :: Y1) eq_refl Hk eq_refl) as H1.
  set (Lb := tk1 KLBrack :: tk1 (KIdent k) :: tk1 KIn :: Y1).
  destruct (objloop_pm_keys p1 ks Lb Hp1) as [K1 K2]; try reflexivity.
  assert (FW : (if is KPlus W || is KMinus W then tl W else W) = optq q ++ tk1 KColon :: Y3)
    by (subst W; destruct (pm_cases p2 Hp2) as [-> | [-> | ->]]; destruct q; reflexivity).
  assert (FQ : (if is KQuestion (optq q ++ tk1 KColon :: Y3) || is KBang (optq q ++ tk1 KColon :: Y3)
                then tl (optq q ++ tk1 KColon :: Y3) else optq q ++ tk1 KColon :: Y3) = tk1 KColon :: Y3)
    by (destruct q; reflexivity).
  apply Ev_step, (ev_use HT), (ev_use H5), (ev_use (params_none_ev (tk1 KColon :: Y3) eq_refl)),
    (ev_mp _ _ H3), (ev_use H2), (ev_use H1), ev_always.
  intros s0 E1 E2 E3 E4 E5 E6. cbn [F]. unfold F_objloop. rewrite K1. cbv zeta iota. rewrite K2.
  unfold type_at, snd_of, bind. subst Lb. cbn. rewrite E1. cbn. rewrite E2.
  clearbody W. destruct h; subst X; cbn; [rewrite (E3 eq_refl); cbn|].
  all: rewrite FW, FQ, E4; cbn; rewrite E5; cbn; rewrite S6; exact E6.
Qed.
End Main5.
