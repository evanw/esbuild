(* C06: the skipper model consumes exactly a type of the grammar. *)
From V Require Import Common.Base C06.TsTokens C06.SkipType C06.SkipMono C06.TypeGrammar.

(* [is k ts] stays folded on an unknown [ts], so that facts about it can be rewritten with after [cbn] *)
Arguments is k ts : simpl nomatch.

Ltac split_andb :=
  repeat match goal with H : _ && _ = true |- _ => apply andb_true_iff in H as [? ?] end.

(* big-step view of the fuelled model: "evaluates to" for some (hence every
   larger) amount of fuel *)
Definition Ev (c : call) (r : Z * toks) : Prop := exists n, run n c = Ok r.

(* properties of the oracle that hold from some amount of fuel on.  A step is
   proved by [apply Ev_step, (ev_use H2), (ev_use H1), ev_always; intros s E1 E2]:
   the sub-evaluations are brought together under [eventually] (the one used
   last is introduced first), then one round of [F] is computed for an
   arbitrary oracle [s] that has them. *)
(* [SkipType.R], the type of results, is written with its module: the renderer
   [TypeGrammar.R] has the same name and is imported later.  Each section below
   fixes [mg] and writes [R] for [TypeGrammar.R mg]. *)
Notation oracle := (call -> SkipType.R).
Definition eventually (P : oracle -> Prop) : Prop := exists N, forall m, (N <= m)%nat -> P (run m).

Lemma ev_always (P : oracle -> Prop) : (forall s, P s) -> eventually P.
Proof. intros H. exists 0%nat. intros m _. apply H. Qed.

Lemma ev_mp (P Q : oracle -> Prop) : eventually P -> eventually (fun s => P s -> Q s) -> eventually Q.
Proof. intros [N1 H1] [N2 H2]. exists (N1 + N2)%nat. intros m Hm. apply H2, H1; lia. Qed.

Lemma eventually_run n c x : run n c = x -> x <> Oof -> eventually (fun s => s c = x).
Proof. intros H Hx. exists n. intros m Hm. rewrite (run_mono n m c Hm); rewrite H; [reflexivity|exact Hx]. Qed.

Lemma Ev_all c r : Ev c r -> eventually (fun s => s c = Ok r).
Proof. intros [n H]. apply (eventually_run n); [exact H|discriminate]. Qed.

Lemma ev_use {c r} {Q : oracle -> Prop} : Ev c r -> eventually (fun s => s c = Ok r -> Q s) -> eventually Q.
Proof. intros H. apply ev_mp, Ev_all, H. Qed.

Lemma ev_when (b : bool) (P : oracle -> Prop) : (b = true -> eventually P) -> eventually (fun s => b = true -> P s).
Proof.
  destruct b; intros H.
  - destruct (H eq_refl) as [N HN]. exists N. intros m Hm _. apply HN, Hm.
  - apply ev_always. discriminate.
Qed.

Lemma Ev_step c r : eventually (fun s => F s c = Ok r) -> Ev c r.
Proof. intros [N H]. exists (S N). apply (H N). lia. Qed.

Lemma ev0 c r : (forall s, F s c = Ok r) -> Ev c r.
Proof. intros H. apply Ev_step, ev_always, H. Qed.

Lemma ev1 c c1 r1 r : Ev c1 r1 -> (forall s, s c1 = Ok r1 -> F s c = Ok r) -> Ev c r.
Proof. intros H1 H. apply Ev_step, (ev_use H1), ev_always, H. Qed.

(* inversion of one step *)
Lemma Ev_inv c r : Ev c r -> exists n, F (run n) c = Ok r.
Proof. intros [[|n] H]; [discriminate|]. exists n. exact H. Qed.

Lemma Ev_run n c r : run n c = Ok r -> Ev c r.
Proof. intros H. exists n. exact H. Qed.

Lemma Ev_det c r1 r2 : Ev c r1 -> Ev c r2 -> r1 = r2.
Proof.
  intros H1 H2. apply Ev_all in H1 as [N1 H1]. apply Ev_all in H2 as [N2 H2].
  specialize (H1 (N1 + N2)%nat ltac:(lia)). specialize (H2 (N1 + N2)%nat ltac:(lia)). congruence.
Qed.

(* tokens on which every suffix loop stops *)
Definition stop_tk (k : tk) : bool :=
  match k with KBar | KAmp | KBang | KDot | KLBrack | KExtends => false | _ => true end.
Definition StopAll (post : toks) : Prop := stop_tk (hd_tk post) = true.

Lemma suffix_stop lvl f post : StopAll post -> Ev (CSuffix lvl f post) (0, post).
Proof.
  intros H. apply ev0. intros s. cbn [F]. unfold F_suffix, StopAll in *.
  destruct (hd_tk post); try discriminate; reflexivity.
Qed.

Lemma run_S n c r : run n c = Ok r -> run (S n) c = Ok r.
Proof. intros H. rewrite (run_mono n (S n)); [exact H|lia|rewrite H; discriminate]. Qed.

(* the loop at a higher level stops earlier; the rest of the work is done by
   the loop at the lower level.  With the same fuel: a round of the loop at
   [lvl'] either stops, or does what the round at [lvl] does. *)
Lemma split_run n : forall lvl lvl' f f' post r,
  lvl <= lvl' -> fNoCond f' = fNoCond f -> (f' = f \/ LBitAnd <= lvl') ->
  run n (CSuffix lvl f post) = Ok (0, r) ->
  exists r1, run n (CSuffix lvl' f' post) = Ok (0, r1) /\ run n (CSuffix lvl f r1) = Ok (0, r).
Proof.
  induction n as [|n IH]; intros lvl lvl' f f' post r Hl Hnc Hf H; [discriminate|].
  assert (Hstop : forall X, X = ok0 post ->
            exists r1, X = Ok (0, r1) /\ run (S n) (CSuffix lvl f r1) = Ok (0, r))
    by (intros X ->; exists post; split; [reflexivity|exact H]).
  assert (Hcont : forall r2, run n (CSuffix lvl f r2) = Ok (0, r) ->
            exists r1, run n (CSuffix lvl' f' r2) = Ok (0, r1) /\ run (S n) (CSuffix lvl f r1) = Ok (0, r)).
  { intros r2 H2. destruct (IH _ lvl' f f' _ _ Hl Hnc Hf H2) as [r1 [A B]].
    exists r1. split; [exact A|exact (run_S _ _ _ B)]. }
  change (run (S n) (CSuffix lvl' f' post)) with (F_suffix (run n) lvl' f' post).
  cbn [run F] in H. unfold F_suffix, type_at, args_opt, snd_of, bind in H |- *.
  destruct (hd_tk post); try (apply Hstop; reflexivity).
  - (* KAmp *)
    destruct (lvl' >=? LBitAnd) eqn:E2; [apply Hstop; reflexivity|].
    replace (lvl >=? LBitAnd) with false in H by lia. destruct Hf as [->|Hf]; [|lia].
    destruct (run n (CType LBitAnd f (tl post))) as [| |[cd r2]]; try discriminate. apply Hcont, H.
  - (* KBar *)
    destruct (lvl' >=? LBitOr) eqn:E2; [apply Hstop; reflexivity|].
    replace (lvl >=? LBitOr) with false in H by lia.
    destruct Hf as [->|Hf]; [|unfold LBitAnd, LBitOr in *; lia].
    destruct (run n (CType LBitOr f (tl post))) as [| |[cd r2]]; try discriminate. apply Hcont, H.
  - (* KLBrack *)
    destruct (hd_nl post); [apply Hstop; reflexivity|].
    destruct (is KRBrack (tl post)).
    2: destruct (run n (CType LLowest fl0 (tl post))) as [| |[cd1 r1]]; try discriminate.
    all: destruct (expect KRBrack _) as [| |r2]; try discriminate; apply Hcont, H.
  - (* KExtends *)
    rewrite Hnc. destruct (hd_nl post || fNoCond f); [apply Hstop; reflexivity|].
    destruct (run n (CType LLowest fl_nocond (tl post))) as [| |[cd1 r1]]; try discriminate.
    destruct (expect KQuestion r1) as [| |r2]; try discriminate.
    destruct (run n (CType LLowest fl0 r2)) as [| |[cd3 r3]]; try discriminate.
    destruct (expect KColon r3) as [| |r4]; try discriminate.
    destruct (run n (CType LLowest fl0 r4)) as [| |[cd5 r5]]; try discriminate. apply Hcont, H.
  - (* KDot *)
    destruct (negb (is_ident_or_kw (tl post))); try discriminate.
    destruct (hd_nl (tl (tl post))).
    2: destruct (run n (CArgs false (tl (tl post)))) as [| |[cd1 r1]]; try discriminate.
    all: apply Hcont, H.
  - (* KBang *)
    destruct (hd_nl post); [apply Hstop; reflexivity|apply Hcont, H].
Qed.

(* [split_run] for the users, which have [Ev (CSuffix lvl f post) (0, r)] and open
   it to get [n].  As a term, [split] means this lemma from here on (not
   [List.split]); the tactic of that name is not affected. *)
Lemma split n : forall lvl lvl' f f' post r,
  lvl <= lvl' -> fNoCond f' = fNoCond f -> (f' = f \/ LBitAnd <= lvl') ->
  run n (CSuffix lvl f post) = Ok (0, r) ->
  exists r1, Ev (CSuffix lvl' f' post) (0, r1) /\ Ev (CSuffix lvl f r1) (0, r).
Proof.
  intros lvl lvl' f f' post r Hl Hnc Hf H.
  destruct (split_run n _ _ _ _ _ _ Hl Hnc Hf H) as [r1 [A B]].
  exists r1. split; [exact (Ev_run _ _ _ A)|exact (Ev_run _ _ _ B)].
Qed.

Lemma type_of_prefix lvl f ts r1 r :
  Ev (CPrefix lvl f ts) (1, r1) -> Ev (CSuffix lvl f r1) (0, r) -> Ev (CType lvl f ts) (0, r).
Proof.
  intros H1 H2. apply Ev_step, (ev_use H2), (ev_use H1), ev_always. intros s A B.
  cbn [F]. unfold F_type, bind. rewrite A. cbn. exact B.
Qed.

Lemma type_of_prefix0 lvl f ts r1 :
  Ev (CPrefix lvl f ts) (0, r1) -> Ev (CType lvl f ts) (0, r1).
Proof.
  intros H1. eapply ev1; [exact H1|]. intros s A. cbn [F]. unfold F_type, bind. rewrite A. reflexivity.
Qed.

Definition lt_tk (k : tk) : bool := match k with KLt | KLtEq | KLtLt | KLtLtEq => true | _ => false end.
Definition no_is (post : toks) : bool := negb (is_ctx c_is post && negb (hd_nl post)).
Definition no_lt (post : toks) : bool := hd_nl post || negb (lt_tk (hd_tk post)).

(* the second loop, running at [lvl], does not stop inside [t]: it leaves "|" to
   its caller from [LBitOr] on and "&" from [LBitAnd] on; for a conditional type
   the question is whether it gets through the check type *)
Fixpoint lvl_ok (t : ty) (lvl : Z) : bool :=
  match t with
  | TUnion _ _ => lvl <? LBitOr
  | TInter _ _ => lvl <? LBitAnd
  | TCond c _ _ _ => lvl_ok c lvl
  | _ => true
  end.

(* the rightmost form of [t] does not take the first token of [post] for its own:
   after a name the skipper looks for "is" and "<" (and for "." in a typeof
   query), after "infer U" for "extends", after ")" for "=>" *)
Fixpoint tail_ok (t : ty) (post : toks) : bool :=
  match t with
  | TPrim | TThis => no_is post
  | TRef _ _ [] => no_is post && no_lt post
  | TTypeof _ _ [] => no_lt post && negb (is KDot post)
  | TImport _ (_ :: _) [] => no_lt post
  | TInfer _ => negb (is KExtends post)
  | TParen _ => negb (is KArrow post)
  | TUnion _ b | TInter _ b | TKeyof _ b | TCond _ _ _ b | TPred _ b | TFn _ _ _ b => tail_ok b post
  | TAsserts _ h b => if h then tail_ok b post else no_is post && no_lt post
  | _ => true
  end.

(* tokens that none of these look-aheads reacts to *)
Definition harmless (k : tk) : bool :=
  match k with
  | KIdent c => negb (c =? c_is)
  | KLt | KLtEq | KLtLt | KLtLtEq | KDot | KExtends | KArrow => false
  | _ => true
  end.

Lemma is_hd k ts : is k ts = true -> hd_tk ts = k.
Proof. destruct ts as [|[k' n] r]; [discriminate|]. apply tk_eqb_eq. Qed.

Lemma tail_ok_of t : forall post,
  no_is post = true -> no_lt post = true -> is KDot post = false -> is KArrow post = false ->
  (ends_infer t = true -> is KExtends post = false) -> tail_ok t post = true.
Proof.
  induction t; intros post Hi Hl Hd Ha He; cbn [tail_ok ends_infer] in *; auto.
  - (* TRef *) destruct args; [rewrite Hi, Hl|]; reflexivity.
  - (* TTypeof *) destruct args; [rewrite Hl, Hd|]; reflexivity.
  - (* TImport *) destruct q, args; auto.
  - (* TInfer *) rewrite He; reflexivity.
  - (* TParen *) rewrite Ha. reflexivity.
  - (* TAsserts *) destruct hasis; [auto|rewrite Hi, Hl; reflexivity].
Qed.

Lemma not_is_harmless k post : harmless k = false -> harmless (hd_tk post) = true -> is k post = false.
Proof. intros Hk H. destruct (is k post) eqn:E; [|reflexivity]. apply is_hd in E. congruence. Qed.

Lemma tail_ok_harmless t : forall post, harmless (hd_tk post) = true -> tail_ok t post = true.
Proof.
  intros post H. apply tail_ok_of; try intros _; try (apply not_is_harmless; [reflexivity|exact H]).
  - unfold no_is, is_ctx. rewrite (not_is_harmless (KIdent c_is) post eq_refl H). reflexivity.
  - unfold no_lt. destruct (hd_tk post); try discriminate H; apply orb_true_r.
Qed.

Lemma tail_ok_extends t : forall post, hd_tk post = KExtends -> ends_infer t = false -> tail_ok t post = true.
Proof.
  intros post H E. assert (N : forall k, k <> KExtends -> is k post = false).
  { intros k Hk. destruct (is k post) eqn:Ek; [|reflexivity]. apply is_hd in Ek. congruence. }
  apply tail_ok_of; try (apply N; discriminate); [| |congruence].
  - unfold no_is, is_ctx. rewrite N by discriminate. reflexivity.
  - unfold no_lt. rewrite H. apply orb_true_r.
Qed.

Lemma ident_kind_normal c : normal c = true -> ident_kind c = IkNormal.
Proof.
  unfold normal, ident_kind, c_keyof, c_readonly, c_unique, c_abstract, c_asserts, c_infer, c_symbol, c_prim.
  intros H. apply Z.leb_le in H. rewrite !(proj2 (Z.eqb_neq c _)) by lia. reflexivity.
Qed.

(* the code after a name: "is T" makes it a type predicate; otherwise type
   arguments may follow (the name of a primitive type takes none: [chk] is false) *)
Lemma ident_tail_is s chk Y r :
  s (CType LLowest fl0 Y) = Ok (0, r) -> ident_tail s chk (tk1 (KIdent c_is) :: Y) = Ok (0, r).
Proof. intros E. unfold ident_tail. cbn. unfold type_at, snd_of, bind. rewrite E. reflexivity. Qed.

Lemma ident_tail_args s (chk : bool) Y Z :
  no_is Y = true -> (if chk then args_opt s Y else Ok Y) = Ok Z -> ident_tail s chk Y = Ok (1, Z).
Proof.
  intros Hi E. apply negb_true_iff in Hi. unfold ident_tail. rewrite Hi.
  destruct chk; cbn [andb]; [|inversion E; reflexivity].
  unfold args_opt in E. destruct (hd_nl Y); cbn [negb].
  - inversion E. reflexivity.
  - unfold bind. rewrite E. reflexivity.
Qed.

Definition start_tk (k : tk) : bool :=
  match k with
  | KRBrack | KRBrace | KRParen | KColon | KQuestion | KIn | KComma | KDotDotDot | KTplMid | KTplTail | KPlus | KMinus => false
  | _ => true
  end.

Lemma nc_ok_prec4 t : 4 <= prec t -> nc_ok t = true.
Proof. destruct t; cbn; intros; try reflexivity; lia. Qed.

Lemma lvl_ok_prec t l : 3 <= prec t -> lvl_ok t l = true.
Proof. destruct t; cbn; intros; try reflexivity; lia. Qed.

Lemma lvl_ok_lowest t : lvl_ok t LLowest = true.
Proof. induction t; cbn; auto. Qed.

Lemma prec_cases t : wfb t = true -> 4 <= prec t -> lvl_ok t LLowest = true.
Proof. intros. apply lvl_ok_lowest. Qed.

(* what follows an element of a separated list: the terminator, or the separator and the other elements *)
Definition join_rest sep (fs : list (toks -> toks)) post : toks :=
  match fs with [] => post | _ => sep ++ join sep fs post end.

Lemma join_cons sep f fs post : join sep (f :: fs) post = f (join_rest sep fs post).
Proof. destruct fs; reflexivity. Qed.

(* the end of a round of a loop [C] over a comma-separated list: after the last
   element [fin] finishes the loop, after any other the "," leads into the next round *)
Lemma loop_tail {A} (C : toks -> call) (fin : toks -> SkipType.R) (r : A -> toks -> toks) l close final :
  is KComma close = false -> fin close = Ok final ->
  (l <> [] -> Ev (C (join [tk1 KComma] (map r l) close)) final) ->
  eventually (fun s =>
    (if is KComma (join_rest [tk1 KComma] (map r l) close)
     then s (C (tl (join_rest [tk1 KComma] (map r l) close)))
     else fin (join_rest [tk1 KComma] (map r l) close)) = Ok final).
Proof.
  intros Hc Hf H. destruct l as [|x l]; cbn [map join_rest].
  - apply ev_always. intros s. rewrite Hc. exact Hf.
  - exact (Ev_all _ _ (H ltac:(discriminate))).
Qed.

(* an optional "..." in front of an element, as the loops over elements see it *)
Lemma dots_prefix (d : bool) close Y :
  tk_eqb KDotDotDot close = false -> is close Y = false -> is KDotDotDot Y = false ->
  let ts := (if d then [tk1 KDotDotDot] else []) ++ Y in
  is close ts = false /\ (if is KDotDotDot ts then tl ts else ts) = Y.
Proof.
  intros Hc A B. destruct d; cbn [app].
  - split; [exact Hc|reflexivity].
  - rewrite A, B. split; reflexivity.
Qed.

Section Main.
Variable mg : bool.
Notation R := (R mg).

Lemma R_hd t : wfb t = true -> forall post, start_tk (hd_tk (R t post)) = true.
Proof.
  induction t; intros W post; try discriminate W; cbn [R wfb] in *.
  (* the first token is fixed, or that of the first component, except: *)
  all: try reflexivity.
  - (* TLit *) destruct k; try discriminate W; reflexivity.
  - (* TImport *) destruct tof; reflexivity.
  - (* TArr *) apply andb_true_iff in W as [W _]. apply IHt, W.
  - (* TIdx *) apply andb_true_iff in W as [W _]. apply andb_true_iff in W as [W _]. apply IHt1, W.
  - (* TUnion *) repeat (apply andb_true_iff in W as [W _]). apply IHt1, W.
  - (* TInter *) repeat (apply andb_true_iff in W as [W _]). apply IHt1, W.
  - (* TFn *) destruct (kind =? 2); [reflexivity|]. destruct (kind =? 1); [reflexivity|]. destruct tps; reflexivity.
  - (* TCond *) repeat (apply andb_true_iff in W as [W _]). apply IHt1, W.
  - (* TPred *) unfold bind_tk. destruct (x <? 0); reflexivity.
Qed.

Lemma not_is_of_start t k post : wfb t = true -> start_tk k = false -> is k (R t post) = false.
Proof.
  intros W Hk. destruct (is k (R t post)) eqn:E; [|reflexivity].
  apply is_hd in E. rewrite <- E, R_hd in Hk by exact W. discriminate.
Qed.

(* the statement proved by induction on [t], in continuation form: on the tokens
   of [t] followed by [post], the skipper at level [lvl] ends where its second
   loop, started on [post] alone, ends.  The second loop does not stop at the
   end of [t] (a following "[]", "|", "&" or "extends" is consumed by the same
   loop), so the statement cannot be "ends at [post]". *)
Definition Kst (t : ty) : Prop :=
  wfb t = true ->
  forall lvl f post r,
    lvl <= LPrefix ->
    lvl_ok t lvl = true ->
    (fNoCond f = true -> nc_ok t = true) ->
    tail_ok t post = true ->
    (prec t = 0 -> StopAll post) ->
    Ev (CSuffix lvl f post) (0, r) ->
    Ev (CType lvl f (R t post)) (0, r).

(* the form used at delimited positions *)
Lemma K_delim t : Kst t -> wfb t = true ->
  forall f post, fNoCond f = false -> StopAll post -> tail_ok t post = true ->
  Ev (CType LLowest f (R t post)) (0, post).
Proof.
  intros K W f post Hf Hs Ht. apply K; auto.
  - unfold LLowest, LPrefix. lia.
  - apply lvl_ok_lowest.
  - congruence.
  - apply suffix_stop. exact Hs.
Qed.

(* before a token that neither continues a type nor is looked at by [tail_ok] *)
Definition delimiter (k : tk) : bool := stop_tk k && harmless k.

Lemma K_at t : Kst t -> wfb t = true ->
  forall f post, fNoCond f = false -> delimiter (hd_tk post) = true ->
  Ev (CType LLowest f (R t post)) (0, post).
Proof.
  intros K W f post Hf Hd. apply andb_true_iff in Hd as [Hs Hh].
  apply K_delim; auto. apply tail_ok_harmless, Hh.
Qed.

(* forms that the first loop of skipTypeScriptTypeWithFlags consumes whole *)
Lemma K_prefix t :
  (wfb t = true -> forall lvl f post, tail_ok t post = true -> Ev (CPrefix lvl f (R t post)) (1, post)) -> Kst t.
Proof. intros H W lvl f post r _ _ _ Ht _ Hs. eapply type_of_prefix; [apply H; assumption|exact Hs]. Qed.

Lemma K_prim : Kst TPrim.
Proof.
  apply K_prefix. intros _ lvl f post Ht. apply ev0. intros s.
  cbn [F R]. unfold F_prefix. cbn [hd_tk tk1 fst].
  change (ident_kind c_prim) with IkPrimitive. cbn iota.
  apply ident_tail_args; [exact Ht|reflexivity].
Qed.

Lemma K_lit k : Kst (TLit k).
Proof.
  apply K_prefix. intros W lvl f post _. apply ev0. intros s. destruct k; try discriminate W; reflexivity.
Qed.

Lemma K_this : Kst TThis.
Proof.
  apply K_prefix. intros _ lvl f post Ht. apply ev0. intros s.
  cbn [F R]. unfold F_prefix. cbn [hd_tk tk1 fst tl].
  cbn [tail_ok] in Ht. unfold no_is in Ht. apply negb_true_iff in Ht. rewrite Ht. reflexivity.
Qed.

Lemma K_unique : Kst TUnique.
Proof. apply K_prefix. intros _ lvl f post _. apply ev0. intros s. reflexivity. Qed.

Lemma K_infer x : Kst (TInfer x).
Proof.
  apply K_prefix. intros _ lvl f post Ht. apply ev0. intros s.
  cbn [F R]. unfold F_prefix. cbn [hd_tk tk1 fst tl].
  change (ident_kind c_infer) with IkInfer. cbn iota.
  cbn [tail_ok] in Ht. apply negb_true_iff in Ht.
  cbn. rewrite Ht. reflexivity.
Qed.

Lemma K_postfix t : Kst t -> wfb t = true -> 4 <= prec t ->
  forall lvl f post r, lvl <= LPrefix -> harmless (hd_tk post) = true ->
  Ev (CSuffix lvl f post) (0, r) -> Ev (CType lvl f (R t post)) (0, r).
Proof.
  intros K W Hp lvl f post r Hl Hh Hs. apply K; auto.
  - apply lvl_ok_prec. lia.
  - intros _. apply nc_ok_prec4, Hp.
  - apply tail_ok_harmless, Hh.
  - lia.
Qed.

Lemma K_arr t : Kst t -> Kst (TArr t).
Proof.
  intros K W lvl f post r Hl _ _ _ _ Hs. cbn [R wfb] in *. apply andb_true_iff in W as [W Hp].
  apply K_postfix; auto; [lia|].
  apply Ev_step, (ev_use Hs), ev_always. intros s A. exact A.
Qed.

Lemma K_idx t u : Kst t -> Kst u -> Kst (TIdx t u).
Proof.
  intros K Ku W lvl f post r Hl _ _ _ _ Hs. cbn [R wfb] in *.
  apply andb_true_iff in W as [W Wu]. apply andb_true_iff in W as [W Hp].
  apply K_postfix; auto; [lia|].
  apply Ev_step, (ev_use Hs), (ev_use (K_at u Ku Wu fl0 (tk1 KRBrack :: post) eq_refl eq_refl)), ev_always.
  intros s A B. cbn [F]. unfold F_suffix. cbn [hd_tk tk1 fst hd_nl snd tl].
  rewrite (not_is_of_start u KRBrack _ Wu eq_refl).
  unfold type_at, snd_of, bind. rewrite A. exact B.
Qed.

Lemma lvl_ok_of t l : 0 < prec t -> (prec t = 1 -> l < LBitOr) -> l < LBitAnd -> lvl_ok t l = true.
Proof. destruct t; cbn [prec lvl_ok]; intros; try reflexivity; lia. Qed.

(* unions and intersections: [k] is the operator, [L] the level at which its
   right operand is skipped.  The loop at [L] that ends the right operand stops
   early; [split] hands the remainder to the loop at [lvl]. *)
Lemma K_binop k L a b :
  (forall s lvl f ts, lvl < L -> F_suffix s lvl f (tk1 k :: ts) = (r <- type_at s L f ts ;; s (CSuffix lvl f r))) ->
  harmless k = true -> L <= LPrefix ->
  Kst a -> Kst b -> wfb a = true -> wfb b = true -> 0 < prec a -> 0 < prec b ->
  forall lvl f post r, lvl < L -> lvl_ok a lvl = true -> lvl_ok b L = true ->
  (fNoCond f = true -> nc_ok a && nc_ok b = true) -> tail_ok b post = true ->
  Ev (CSuffix lvl f post) (0, r) -> Ev (CType lvl f (R a (tk1 k :: R b post))) (0, r).
Proof.
  intros Hstep Hk HL Ka Kb Wa Wb Pa Pb lvl f post r Hl La Lb Hf Ht [n Hs].
  destruct (split n lvl L f f post r ltac:(lia) eq_refl (or_introl eq_refl) Hs) as [r1 [A B]].
  assert (Hf' : fNoCond f = true -> nc_ok a = true /\ nc_ok b = true)
    by (intros E; apply andb_true_iff, Hf, E).
  assert (HB : Ev (CType L f (R b post)) (0, r1))
    by (apply Kb; auto; try lia; intros E; apply Hf', E).
  apply Ka; auto; try lia.
  - intros E. apply Hf', E.
  - apply tail_ok_harmless, Hk.
  - apply Ev_step, (ev_use B), (ev_use HB), ev_always. intros s E1 E2. cbn [F].
    rewrite Hstep by exact Hl. unfold type_at, snd_of, bind. rewrite E1. exact E2.
Qed.

Lemma K_union a b : Kst a -> Kst b -> Kst (TUnion a b).
Proof.
  intros Ka Kb W lvl f post r Hl Hlv Hf Ht _ Hs. cbn [R wfb lvl_ok tail_ok nc_ok] in *.
  split_andb.
  apply (K_binop KBar LBitOr); auto; try (unfold LBitOr, LBitAnd, LPrefix in *; lia).
  - intros s l f0 ts Hlt. unfold F_suffix. cbn [hd_tk tk1 fst tl].
    replace (l >=? LBitOr) with false by lia. reflexivity.
  - apply lvl_ok_of; unfold LBitOr, LBitAnd in *; lia.
  - apply lvl_ok_of; unfold LBitOr, LBitAnd; lia.
Qed.

Lemma K_inter a b : Kst a -> Kst b -> Kst (TInter a b).
Proof.
  intros Ka Kb W lvl f post r Hl Hlv Hf Ht _ Hs. cbn [R wfb lvl_ok tail_ok nc_ok] in *.
  split_andb.
  apply (K_binop KAmp LBitAnd); auto; try (unfold LBitOr, LBitAnd, LPrefix in *; lia).
  - intros s l f0 ts Hlt. unfold F_suffix. cbn [hd_tk tk1 fst tl].
    replace (l >=? LBitAnd) with false by lia. reflexivity.
  - apply lvl_ok_of; lia.
  - apply lvl_ok_prec. lia.
Qed.

(* the operand is skipped at [LPrefix] with fresh flags; its loop stops early and
   [split] hands the remainder to the loop at [lvl] *)
Lemma K_keyof ro t : Kst t -> Kst (TKeyof ro t).
Proof.
  intros K W lvl f post r Hl _ Hf Ht _ Hs. cbn [R wfb tail_ok prec] in *.
  apply andb_true_iff in W as [W Hp].
  assert (Hnc : fNoCond f = false) by (apply Bool.not_true_is_false; intros E; discriminate (Hf E)).
  destruct Hs as [n Hs].
  assert (HL : LBitAnd <= LPrefix) by (unfold LBitAnd, LPrefix; lia).
  destruct (split n lvl LPrefix f fl0 post r Hl (eq_sym Hnc) (or_intror HL) Hs) as [r1 [A B]].
  eapply type_of_prefix; [|exact B].
  eapply (ev1 _ (CType LPrefix fl0 (R t post)) (0, r1)).
  - apply K; auto.
    + reflexivity.
    + apply lvl_ok_prec. lia.
    + discriminate.
    + lia.
  - intros s E1. cbn [F]. unfold F_prefix. cbn [hd_tk tk1 fst tl].
    assert (Hc : colon_q_in (R t post) = false).
    { unfold colon_q_in. rewrite !(not_is_of_start t _ _ W) by reflexivity. reflexivity. }
    destruct ro; [change (ident_kind c_readonly) with IkPrefix | change (ident_kind c_keyof) with IkPrefix].
    all: cbn iota; rewrite Hc; cbn [negb orb]; unfold type_at, snd_of, bind; rewrite E1; reflexivity.
Qed.

(* the extends operand of a conditional type, skipped with disallowConditionalTypes *)
Lemma extends_operand e Q :
  (match e with TInferC _ c' => Kst c' | _ => Kst e end) ->
  (match e with
   | TInferC x c' => normal x && wfb c' && (4 <=? prec c')
   | _ => wfb e && (1 <=? prec e) && nc_ok e
   end) = true ->
  Ev (CType LLowest fl_nocond (R e (tk1 KQuestion :: Q))) (0, tk1 KQuestion :: Q).
Proof.
  intros Ke We.
  assert (Hgen : forall e', Kst e' -> wfb e' && (1 <=? prec e') && nc_ok e' = true ->
            Ev (CType LLowest fl_nocond (R e' (tk1 KQuestion :: Q))) (0, tk1 KQuestion :: Q)).
  { intros e' K W. apply andb_true_iff in W as [W N]. apply andb_true_iff in W as [W P].
    apply K; auto.
    - unfold LLowest, LPrefix. lia.
    - apply lvl_ok_lowest.
    - apply tail_ok_harmless. reflexivity.
    - lia.
    - apply suffix_stop. reflexivity. }
  destruct e; try (apply Hgen; assumption).
  (* infer x extends c' *)
  apply andb_true_iff in We as [We Hp]. apply andb_true_iff in We as [Hx Wc].
  cbn [R].
  assert (HC : Ev (CType LPrefix fl_nocond (R e (tk1 KQuestion :: Q))) (0, tk1 KQuestion :: Q))
    by (apply K_postfix; auto; [lia|unfold LPrefix; lia|apply suffix_stop; reflexivity]).
  eapply type_of_prefix; [|apply suffix_stop; reflexivity].
  eapply ev1; [exact HC|]. generalize (R e (tk1 KQuestion :: Q)). intros Y s E1.
  cbn [F]. unfold F_prefix. cbn [hd_tk tk1 fst tl]. change (ident_kind c_infer) with IkInfer.
  cbn. unfold type_at, snd_of, bind. rewrite E1. reflexivity.
Qed.

Lemma K_cond c e a b :
  Kst c -> (match e with TInferC _ c' => Kst c' | _ => Kst e end) -> Kst a -> Kst b -> Kst (TCond c e a b).
Proof.
  intros Kc Ke Ka Kb W lvl f post r Hl Hlv Hf Ht Hst Hs. cbn [R wfb tail_ok prec lvl_ok] in *.
  split_andb.
  assert (Hnc : fNoCond f = false) by (apply Bool.not_true_is_false; intros E; discriminate (Hf E)).
  specialize (Hst eq_refl).
  apply Kc; auto.
  - congruence.
  - apply tail_ok_extends; [reflexivity|]. apply negb_true_iff. assumption.
  - lia.
  - apply Ev_step, (ev_use Hs), (ev_use (K_delim b Kb ltac:(assumption) fl0 post eq_refl Hst Ht)),
      (ev_use (K_at a Ka ltac:(assumption) fl0 (tk1 KColon :: R b post) eq_refl eq_refl)),
      (ev_use (extends_operand e (R a (tk1 KColon :: R b post)) Ke ltac:(assumption))), ev_always.
    intros s E1 E2 E3 E4.
    cbn [F]. unfold F_suffix. cbn [hd_tk tk1 fst tl hd_nl snd]. rewrite Hnc. cbn [orb].
    unfold type_at, snd_of, bind. rewrite E1. cbn. rewrite E2. cbn. rewrite E3. exact E4.
Qed.

Lemma K_pred x t : Kst t -> Kst (TPred x t).
Proof.
  intros K W lvl f post r Hl _ Hf Ht Hst Hs. cbn [R wfb tail_ok prec] in *.
  apply andb_true_iff in W as [Hx W]. specialize (Hst eq_refl).
  assert (r = post) as ->.
  { pose proof (Ev_det _ _ _ Hs (suffix_stop lvl f post Hst)) as E. congruence. }
  apply type_of_prefix0.
  eapply (ev1 _ (CType LLowest fl0 (R t post)) (0, post)).
  - apply K_delim; auto.
  - intros s E1. cbn [F]. unfold F_prefix, bind_tk, bind_ok in *.
    destruct (x <? 0); cbn [hd_tk tk1 fst tl].
    + (* this is T *) cbn. unfold type_at, snd_of, bind. rewrite E1. reflexivity.
    + cbn [orb] in Hx. rewrite (ident_kind_normal x Hx). cbn iota. apply ident_tail_is, E1.
Qed.

Lemma push_gt_ok post :
  delimiter (hd_tk (push_gt mg post)) = true /\
  is KComma (push_gt mg post) = false /\ expect_gt (push_gt mg post) = Ok post.
Proof.
  unfold push_gt. destruct mg; [|repeat split; reflexivity].
  destruct post as [|[k n] p]; [repeat split; reflexivity|].
  destruct k; destruct n; repeat split; reflexivity.
Qed.

Lemma args_loop : forall args, args <> [] -> Forall Kst args -> forallb wfb args = true ->
  forall post', delimiter (hd_tk post') = true -> is KComma post' = false ->
  Ev (CArgLoop (join [tk1 KComma] (map R args) post')) (0, post').
Proof.
  induction args as [|x l IH]; intros Hne HK W post' Hd Hc; [congruence|].
  inversion HK as [|? ? Kx Kl]; subst. cbn [forallb] in W. apply andb_true_iff in W as [Wx Wl].
  cbn [map]. rewrite join_cons.
  pose proof (loop_tail CArgLoop ok0 R l post' _ Hc eq_refl (fun Hne => IH Hne Kl Wl post' Hd Hc)) as Htail.
  set (rest := join_rest _ _ _) in *.
  assert (Hr : delimiter (hd_tk rest) = true) by (subst rest; destruct l; [exact Hd|reflexivity]).
  clearbody rest.
  apply Ev_step, (ev_mp _ _ Htail), (ev_use (K_at x Kx Wx fl0 rest eq_refl Hr)), ev_always.
  intros s E1 E2. cbn [F]. unfold F_argloop, type_at, snd_of, bind. rewrite E1. exact E2.
Qed.

(* "<" args ">" through skipTypeScriptTypeArguments: [post'] starts with the
   closing token, as a type (">" possibly glued) or as an expression (">" alone) *)
Lemma args_ev (expr : bool) args post' post :
  args <> [] -> Forall Kst args -> forallb wfb args = true ->
  delimiter (hd_tk post') = true -> is KComma post' = false ->
  (if expr then expect KGt post' else expect_gt post') = Ok post ->
  Ev (CArgs expr (tk1 KLt :: join [tk1 KComma] (map R args) post')) (1, post).
Proof.
  intros Hne HK W Hd Hc He. eapply ev1; [apply (args_loop args Hne HK W post' Hd Hc)|].
  intros s E1. cbn [F]. unfold F_args. cbn [hd_tk tk1 fst expect_lt].
  unfold snd_of, bind. rewrite E1, He. reflexivity.
Qed.

End Main.
