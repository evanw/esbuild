(* C06: erase / annotate at the token level.

   A typed program is a JavaScript token stream with type syntax placed at
   sites.  The parser knows from the JavaScript context which kind of type
   syntax may start at a position (after a binding: ": T"; after a parameter
   list: ": T" with predicates allowed; after an expression: "as T",
   "satisfies T", "!"; after a callee: "<T, U>"; before a class member:
   modifiers; after a name: "?") and calls the skipper there
   (internal/js_parser/js_parser.go: the call sites of skipTypeScriptType,
   skipTypeScriptReturnType, skipTypeScriptTypeArguments).  [shape] is that
   knowledge (site kinds without their payload); [erase] replays the parser on
   the typed token stream. *)
From V Require Import Common.Base C06.TsTokens C06.SkipType C06.SkipMono C06.TypeGrammar C06.SkipProofs C06.SkipProofs6.

Inductive site : Type :=
| SColon (t : ty)          (* ": T" on a binding, parameter, property *)
| SRet (t : ty)            (* ": T" return type *)
| SAs (sat : bool) (t : ty)  (* "as T" / "satisfies T" *)
| SBang                    (* postfix "!" (non-null / definite assignment) *)
| SArgs (ts : list ty)     (* "<T, U>" call / new / extends type arguments *)
| SMod (c : Z)             (* public private protected readonly declare abstract override *)
| SOpt.                    (* "?" on a parameter or member *)

Inductive elem : Type := J (t : token) | S (s : site).

Inductive kind : Type := KJ | KColonT | KRetT | KAsT | KBangT | KArgsT | KModT | KOptT.
Definition kind_of (e : elem) : kind :=
  match e with
  | J _ => KJ
  | S (SColon _) => KColonT | S (SRet _) => KRetT | S (SAs _ _) => KAsT | S SBang => KBangT
  | S (SArgs _) => KArgsT | S (SMod _) => KModT | S SOpt => KOptT
  end.
Definition shape (p : list elem) : list kind := map kind_of p.

Section Erase.
Variable mg : bool.

(* annotate: the typed token stream *)
Fixpoint typed (p : list elem) : toks :=
  match p with
  | [] => []
  | J t :: r => t :: typed r
  | S (SColon t) :: r => tk1 KColon :: R mg t (typed r)
  | S (SRet t) :: r => tk1 KColon :: R mg t (typed r)
  | S (SAs sat t) :: r => tk1 (KIdent (if sat then c_satisfies else c_as)) :: R mg t (typed r)
  | S SBang :: r => tk1 KBang :: typed r
  | S (SArgs ts) :: r => tk1 KLt :: join [tk1 KComma] (map (R mg) ts) (push_gt mg (typed r))
  | S (SMod c) :: r => tk1 (KIdent c) :: typed r
  | S SOpt :: r => tk1 KQuestion :: typed r
  end.

(* the untyped counterpart *)
Fixpoint untyped (p : list elem) : toks :=
  match p with
  | [] => []
  | J t :: r => t :: untyped r
  | S _ :: r => untyped r
  end.

(* the parser: JavaScript tokens are kept, type syntax is skipped *)
Fixpoint erase (n : nat) (ks : list kind) (ts : toks) : res toks :=
  match ks with
  | [] => match ts with [] => Ok [] | _ => Fail end
  | k :: kr =>
      match k with
      | KJ => match ts with t :: r => (o <- erase n kr r ;; Ok (t :: o)) | [] => Fail end
      | KColonT => r <- expect KColon ts ;; r' <- snd_of (run n (CType LLowest fl0 r)) ;; erase n kr r'
      | KRetT => r <- expect KColon ts ;; r' <- snd_of (run n (CType LLowest fl_ret r)) ;; erase n kr r'
      | KAsT => if is_ctx c_as ts || is_ctx c_satisfies ts
                then r' <- snd_of (run n (CType LLowest fl0 (tl ts))) ;; erase n kr r' else Fail
      | KBangT => r <- expect KBang ts ;; erase n kr r
      | KArgsT => '(code, r) <- run n (CArgs false ts) ;; if code =? 1 then erase n kr r else Fail
      | KModT => r <- expect_ident ts ;; erase n kr r
      | KOptT => r <- expect KQuestion ts ;; erase n kr r
      end
  end.

(* every site holds grammar types and is followed by a token that cannot
   continue a type *)
Fixpoint sites_ok (p : list elem) : bool :=
  match p with
  | [] => true
  | J _ :: r => sites_ok r
  | S (SColon t) :: r | S (SAs _ t) :: r => wfb t && follow_ok (typed r) && sites_ok r
  | S (SRet t) :: r => wf_ret_with wfb t && follow_ok (typed r) && sites_ok r
  | S (SArgs ts) :: r => match ts with [] => false | _ => forallb wfb ts end && sites_ok r
  | S _ :: r => sites_ok r
  end.

Lemma erase_annotate_all p : sites_ok p = true ->
  exists N, forall n, (N <= n)%nat -> erase n (shape p) (typed p) = Ok (untyped p).
Proof.
  unfold shape. induction p as [|e r IH]; intros H; [exists 0%nat; reflexivity|].
  (* a site whose type syntax the call [c] skips with enough fuel, then the rest of the program *)
  assert (Hsite : forall c t, sites_ok r = true ->
            (exists N, forall m, (N <= m)%nat -> run m c = Ok (t, typed r)) ->
            exists N, forall n, (N <= n)%nat ->
              run n c = Ok (t, typed r) /\ erase n (map kind_of r) (typed r) = Ok (untyped r)).
  { intros c t Hr [N2 H2]. destruct (IH Hr) as [N HN].
    exists (N + N2)%nat. intros n Hn. split; [apply H2|apply HN]; lia. }
  destruct e as [t|[t|t|sat t| |ts|c| ]]; cbn [sites_ok] in H;
    split_andb.
  - (* a JavaScript token *)
    destruct (IH H) as [N HN]. exists N. intros n Hn. cbn. rewrite (HN n Hn). reflexivity.
  - (* SColon *)
    destruct (Hsite (CType LLowest fl0 (R mg t (typed r))) 0) as [N HN]; auto.
    { apply skip_exact_R; auto; [unfold LLowest, LPrefix; lia|apply lvl_ok_lowest]. }
    exists N. intros n Hn. destruct (HN n Hn) as [E1 E2]. cbn. rewrite E1. exact E2.
  - (* SRet *)
    destruct (Hsite (CType LLowest fl_ret (R mg t (typed r))) 0) as [N HN]; auto.
    { apply skip_exact_ret; auto. }
    exists N. intros n Hn. destruct (HN n Hn) as [E1 E2]. cbn. rewrite E1. exact E2.
  - (* SAs *)
    destruct (Hsite (CType LLowest fl0 (R mg t (typed r))) 0) as [N HN]; auto.
    { apply skip_exact_R; auto; [unfold LLowest, LPrefix; lia|apply lvl_ok_lowest]. }
    exists N. intros n Hn. destruct (HN n Hn) as [E1 E2]. destruct sat; cbn; rewrite E1; exact E2.
  - (* SBang *)
    destruct (IH H) as [N HN]. exists N. intros n Hn. cbn. apply HN, Hn.
  - (* SArgs *)
    assert (Hne : ts <> []) by (destruct ts; discriminate).
    assert (W : forallb wfb ts = true) by (destruct ts; [discriminate|assumption]).
    destruct (Hsite (CArgs false (tk1 KLt :: join [tk1 KComma] (map (R mg) ts) (push_gt mg (typed r)))) 1)
      as [N HN]; auto.
    { apply Ev_all, cargs_ok; assumption. }
    exists N. intros n Hn. destruct (HN n Hn) as [E1 E2].
    cbn [map kind_of typed untyped erase]. unfold bind. rewrite E1. exact E2.
  - (* SMod *)
    destruct (IH H) as [N HN]. exists N. intros n Hn. cbn. apply HN, Hn.
  - (* SOpt *)
    destruct (IH H) as [N HN]. exists N. intros n Hn. cbn. apply HN, Hn.
Qed.
End Erase.
