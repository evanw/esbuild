(* C06: skip_exact, object types assembled; the induction over the whole grammar *)
From V Require Import Common.Base C06.TsTokens C06.SkipType C06.SkipMono C06.TypeGrammar
  C06.SkipProofs C06.SkipProofs2 C06.SkipProofs3 C06.SkipProofs4 C06.SkipProofs5.

Section Main6.
Variable mg : bool.
Notation R := (R mg).
Notation Kst := (Kst mg).
Notation Pst := (Pst mg).

Lemma obj_loop : forall ms, Forall Pst ms -> wf_members_with wfb ms = true ->
  forall post, Ev (CObjLoop (join [] (map R ms) (tk1 KRBrace :: post))) (0, post).
Proof.
  induction ms as [|m r IH]; intros HP W post.
  - cbn [map join]. apply ev0. intros s. reflexivity.
  - inversion HP as [|? ? Pm Pr]; subst.
    cbn [wf_members_with] in W. apply andb_true_iff in W as [Wm Wr].
    specialize (IH Pr Wr post).
    set (T := join [] (map R r) (tk1 KRBrace :: post)) in *.
    assert (EJ : join [] (map R (m :: r)) (tk1 KRBrace :: post) = R m T) by (destruct r; reflexivity).
    rewrite EJ. clear EJ.
    assert (Hsep : forall s, sep_ok (match r with [] => true | _ => false end) s = true -> sep_fits s T).
    { intros s Hs. unfold sep_ok in Hs. unfold sep_fits.
      destruct (s =? 0) eqn:E0; [left; lia|]. destruct (s =? 1) eqn:E1; [right; left; lia|].
      cbn [orb] in Hs. apply andb_true_iff in Hs as [Hl E2]. right; right. split; [lia|].
      destruct r; [reflexivity|discriminate]. }
    destruct m; try discriminate; cbn [wf_member_with] in Wm; destruct Pm as [_ Pm];
      split_andb.
    + (* TMProp *) apply member_prop; auto.
      destruct keys; discriminate.
    + (* TMMeth *) destruct Pm as [PTs [PPs PRet]].
      apply member_meth; auto.
      * intros ->. assumption.
      * intros ->. apply negb_true_iff. assumption.
    + (* TMIndex *) destruct Pm as [Pk Pv]. apply member_index; auto.
    + (* TMMapped *) destruct Pm as [Ps [Pa Pv]]. apply member_mapped; auto. intros ->. assumption.
Qed.

Lemma K_obj ms : Forall Pst ms -> Kst (TObj ms).
Proof.
  intros HP. apply K_prefix. intros W lvl f post _. cbn [R wfb] in *.
  assert (HO : Ev (CObject (tk1 KLBrace :: join [] (map R ms) (tk1 KRBrace :: post))) (0, post)).
  { eapply ev1; [apply (obj_loop ms HP W post)|].
    intros s E1. cbn [F]. unfold F_object. cbn. exact E1. }
  eapply ev1; [exact HO|].
  intros s E1. cbn [F]. unfold F_prefix. cbn [hd_tk tk1 fst]. unfold snd_of, bind. rewrite E1. reflexivity.
Qed.

Lemma Forall_Kst l : Forall Pst l -> Forall Kst l.
Proof. intros H. eapply Forall_impl; [|exact H]. intros a [Ha _]. exact Ha. Qed.

Lemma K_all t : Pst t.
Proof.
  induction t using ty_ind'; unfold SkipProofs3.Pst; (split; [|try exact I]).
  - apply K_prim.
  - apply K_lit.
  - apply K_this.
  - apply K_unique.
  - apply K_ref, Forall_Kst; assumption.
  - apply K_typeof, Forall_Kst; assumption.
  - apply K_import, Forall_Kst; assumption.
  - apply K_arr, IHt.
  - apply K_idx; [apply IHt1|apply IHt2].
  - apply K_tuple. assumption.
  - (* TElem *) intros W; discriminate.
  - apply IHt.
  - apply K_union; [apply IHt1|apply IHt2].
  - apply K_inter; [apply IHt1|apply IHt2].
  - apply K_keyof, IHt.
  - apply K_infer.
  - (* TInferC *) intros W; discriminate.
  - apply IHt.
  - apply K_paren, IHt.
  - apply K_fn; assumption.
  - (* TTParam *) intros W; discriminate.
  - split; [apply IHt1|apply IHt2].
  - (* TParam *) intros W; discriminate.
  - apply IHt.
  - (* TAsserts *) intros W; discriminate.
  - apply IHt.
  - apply K_obj. assumption.
  - (* TMProp *) intros W; discriminate.
  - apply IHt.
  - (* TMMeth *) intros W; discriminate.
  - split; [apply tparams_st; assumption|].
    split; [apply params_loop; assumption|].
    apply ret_st; assumption.
  - (* TMIndex *) intros W; discriminate.
  - split; [apply IHt1|apply IHt2].
  - (* TMMapped *) intros W; discriminate.
  - split; [apply IHt1|]. split; [apply IHt2|apply IHt3].
  - apply K_cond; [apply IHt1| |apply IHt3|apply IHt4]. destruct t2; apply IHt2.
  - apply K_pred, IHt.
  - apply K_template, Forall_Kst; assumption.
Qed.

Lemma Kst_all args : Forall Kst args.
Proof. apply Forall_forall. intros x _. apply K_all. Qed.

Lemma cargs_ok args post : args <> [] -> forallb wfb args = true ->
  Ev (CArgs false (tk1 KLt :: join [tk1 KComma] (map R args) (push_gt mg post))) (1, post).
Proof.
  intros Hne W. destruct (push_gt_ok mg post) as [P1 [P3 P4]].
  apply (args_ev mg false); auto using Kst_all.
Qed.

(* tokens that cannot continue a type (at any level), the follow set: [delimiter] of the first token *)
Definition follow_ok (rest : toks) : bool :=
  stop_tk (hd_tk rest) && harmless (hd_tk rest).

Lemma skip_exact_R t rest lvl f :
  wfb t = true -> lvl <= LPrefix -> lvl_ok t lvl = true -> fNoCond f = false ->
  follow_ok rest = true ->
  exists N, forall m, (N <= m)%nat -> run m (CType lvl f (R t rest)) = Ok (0, rest).
Proof.
  intros W Hl Hlv Hf Hfo. apply andb_true_iff in Hfo as [Hs Hh].
  apply Ev_all. apply (proj1 (K_all t)); auto.
  - congruence.
  - apply tail_ok_harmless. exact Hh.
  - apply suffix_stop. exact Hs.
Qed.

(* return positions (isReturnTypeFlag): also assertion signatures *)
Lemma skip_exact_ret ret rest :
  wf_ret_with wfb ret = true -> follow_ok rest = true ->
  exists N, forall m, (N <= m)%nat -> run m (CType LLowest fl_ret (R ret rest)) = Ok (0, rest).
Proof.
  intros W Hfo. apply andb_true_iff in Hfo as [Hs Hh]. apply Ev_all.
  apply (ret_st mg ret (K_all ret) W rest Hs). apply tail_ok_harmless. exact Hh.
Qed.
End Main6.
