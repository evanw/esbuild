(* C06: skip_exact, the statements for parameter lists and return positions;
   cases for tuples and parenthesised types *)
From V Require Import Common.Base C06.TsTokens C06.SkipType C06.SkipMono C06.TypeGrammar C06.SkipProofs C06.SkipProofs2.

Section Main3.
Variable mg : bool.
Notation R := (R mg).
Notation Kst := (Kst mg).

Definition RetSt (ret : ty) : Prop :=
  wf_ret_with wfb ret = true -> forall post, StopAll post -> tail_ok ret post = true ->
  Ev (CType LLowest fl_ret (R ret post)) (0, post).
Definition ParamsSt (ps : list ty) : Prop :=
  wf_params_with wfb ps = true -> forall post,
  Ev (CFnArgLoop (join [tk1 KComma] (map R ps) (tk1 KRParen :: post))) (0, post).

(* [R] renders a type-parameter list like a type-argument list: [targsR] *)
Definition TParamsSt (tps : list ty) : Prop :=
  wf_tparams_with wfb tps = true -> forall post, is KLt post = false ->
  exists code, Ev (CParams false (targsR mg tps post)) (code, post).

(* the statement of the induction over [ty].  Members of lists (tuple elements,
   parameters, type parameters, object members), assertion signatures and the
   operand "infer U extends C" are no types: [wfb] is false on them, [Kst] holds of them for no reason, and what the
   case of the enclosing form needs is [Kst] (or the statement of a list) of their
   components, which [Pst] adds. *)
Definition Pst (t : ty) : Prop :=
  Kst t /\
  match t with
  | TElem _ _ _ _ x | TParam _ _ _ _ x | TAsserts _ _ x | TMProp _ _ x _ | TInferC _ x => Kst x
  | TMMeth _ _ tps ps _ ret _ => TParamsSt tps /\ ParamsSt ps /\ RetSt ret
  | TTParam _ _ _ _ c d => Kst c /\ Kst d
  | TMIndex _ _ kt vt _ => Kst kt /\ Kst vt
  | TMMapped _ _ _ src _ ast _ _ vt _ => Kst src /\ Kst ast /\ Kst vt
  | _ => True
  end.

(* a lone name is a type: labels of tuple elements, index-signature and mapped-type keys *)
Lemma name_type f l Y : fNoCond f = false -> normal l = true -> delimiter (hd_tk Y) = true ->
  Ev (CType LLowest f (tk1 (KIdent l) :: Y)) (0, Y).
Proof.
  intros Hf Hl Hd.
  change (tk1 (KIdent l) :: Y) with (R (TRef l [] []) Y).
  apply K_at; auto.
  - apply K_ref. constructor.
  - cbn. rewrite Hl. reflexivity.
Qed.

Lemma tuple_loop : forall es, Forall Pst es ->
  forallb (fun e => match e with TElem _ l _ _ x => ((l <? 0) || normal l) && wfb x | _ => false end) es = true ->
  forall post, Ev (CTuple (join [tk1 KComma] (map R es) (tk1 KRBrack :: post))) (0, tk1 KRBrack :: post).
Proof.
  induction es as [|e l IH]; intros HP W post.
  - apply ev0. intros s. reflexivity.
  - inversion HP as [|? ? Pe Pl]; subst. cbn [forallb] in W. apply andb_true_iff in W as [We Wl].
    destruct e; try discriminate. destruct Pe as [_ Kx]. apply andb_true_iff in We as [Hlb Wx].
    specialize (IH Pl Wl post). cbn [map]. rewrite join_cons.
    pose proof (loop_tail CTuple ok0 R l (tk1 KRBrack :: post) _ eq_refl eq_refl (fun _ => IH)) as Htail.
    (* rest: what follows this element, "]" or "," and the remaining elements *)
    set (rest := join_rest _ _ _) in *.
    assert (Hrest : delimiter (hd_tk rest) = true /\ is KQuestion rest = false /\ is KColon rest = false)
      by (subst rest; destruct l; repeat split; reflexivity).
    destruct Hrest as [S1 [S3 S4]]. clearbody rest. clear IH.
    assert (Hstart : forall p, is KRBrack (R e p) = false /\ is KDotDotDot (R e p) = false)
      by (intros p; split; apply not_is_of_start; auto).
    cbn [R]. destruct (lbl <? 0) eqn:El.
    + (* unlabelled *)
      assert (HT : Ev (CType LLowest fl_tup (R e (optq opt ++ rest))) (0, optq opt ++ rest))
        by (apply K_at; auto; destruct opt; [reflexivity|exact S1]).
      destruct (Hstart (optq opt ++ rest)) as [A B].
      destruct (dots_prefix dots KRBrack _ eq_refl A B) as [D1 D2].
      apply Ev_step, (ev_mp _ _ Htail), (ev_use HT), ev_always. intros s E1 E2.
      cbn [F]. unfold F_tuple. rewrite D1, D2. unfold type_at, snd_of, bind. rewrite E1.
      destruct opt; cbn; rewrite ?S3, S4; exact E2.
    + (* labelled: name?: t *)
      cbn [orb] in Hlb.
      set (after := optq lopt ++ tk1 KColon :: R e rest).
      assert (HL : Ev (CType LLowest fl_tup (tk1 (KIdent lbl) :: after)) (0, after))
        by (apply name_type; auto; subst after; destruct lopt; reflexivity).
      assert (HT : Ev (CType LLowest fl0 (R e rest)) (0, rest)) by (apply K_at; auto).
      destruct (dots_prefix dots KRBrack (tk1 (KIdent lbl) :: after) eq_refl eq_refl eq_refl) as [D1 D2].
      apply Ev_step, (ev_mp _ _ Htail), (ev_use HT), (ev_use HL), ev_always. intros s E1 E2 E3.
      cbn [F]. unfold F_tuple. rewrite D1, D2. unfold type_at, snd_of, bind. rewrite E1. subst after.
      destruct lopt; cbn; rewrite E2; exact E3.
Qed.

Lemma K_tuple es : Forall Pst es -> Kst (TTuple es).
Proof.
  intros HP. apply K_prefix. intros W lvl f post _. cbn [R wfb] in *.
  eapply ev1; [apply (tuple_loop es HP W post)|].
  intros s E1. cbn [F]. unfold F_prefix. cbn [hd_tk tk1 fst tl].
  unfold snd_of, bind. rewrite E1. reflexivity.
Qed.

(* after "( name": the tokens on which the arrow-argument attempt of
   skipTypeScriptParenOrFnType goes on reading a parameter list *)
Definition param_follows (post : toks) : bool :=
  match post with
  | (k, _) :: rest => match k with KQuestion | KColon | KComma => true | KRParen => is KArrow rest | _ => false end
  | [] => false
  end.

(* the attempt on "( ts" fails after at most two tokens *)
Definition paren_try_fails (ts : toks) : bool :=
  match ts with
  | (k1, _) :: rest =>
      match k1 with
      | KLBrack | KLBrace | KDotDotDot | KRParen => false
      | KIdent _ | KThis => negb (param_follows rest)
      | _ => true
      end
  | [] => true
  end.

Lemma fnargs_try ts : paren_try_fails ts = true ->
  eventually (fun s => (r <- snd_of (s (CFnArgs (tk1 KLParen :: ts)));; expect KArrow r) = Fail).
Proof.
  intros H.
  (* three rounds of [F] decide: no binding starts with the first token, or the
     token after a name is not ")", or no "=>" follows "( name )" *)
  assert (E : exists x, run 3 (CFnArgs (tk1 KLParen :: ts)) = x /\ x <> Oof /\
                       (r <- snd_of x;; expect KArrow r) = Fail).
  { assert (Hf : forall c, run 3 c = Fail ->
                 exists x, run 3 c = x /\ x <> Oof /\ (r <- snd_of x;; expect KArrow r) = Fail)
      by (intros c ->; exists Fail; repeat split; discriminate).
    destruct ts as [|[k1 n1] rest]; [apply Hf; reflexivity|].
    destruct k1; try discriminate H; try (apply Hf; reflexivity).
    (* a name *)
    all: destruct rest as [|[k2 n2] rest2]; [apply Hf; reflexivity|].
    all: destruct k2; try discriminate H; try (apply Hf; reflexivity).
    (* "( name )" *)
    all: exists (Ok (0, rest2)); split; [reflexivity|split; [discriminate|]].
    all: cbn in H |- *; unfold expect; apply negb_true_iff in H; rewrite H; reflexivity. }
  destruct E as [x [E1 [E2 E3]]].
  apply (ev_mp _ _ (eventually_run _ _ _ E1 E2)), ev_always. intros s ->. exact E3.
Qed.

Lemma paren_step ts r1 r2 : paren_try_fails ts = true ->
  Ev (CType LLowest fl0 ts) (0, r1) -> expect KRParen r1 = Ok r2 ->
  Ev (CParenOrFn (tk1 KLParen :: ts)) (0, r2).
Proof.
  intros Ht H1 He.
  apply Ev_step, (ev_use H1), (ev_mp _ _ (fnargs_try ts Ht)), ev_always. intros s E1 E2.
  cbn [F]. unfold F_parenorfn. rewrite E1.
  change (expect KLParen (tk1 KLParen :: ts)) with (Ok (A:=toks) ts). cbn iota.
  unfold type_at, snd_of, bind. rewrite E2, He. reflexivity.
Qed.

Lemma param_follows_start Y : start_tk (hd_tk Y) = true -> param_follows Y = false.
Proof. destruct Y as [|[k n] r]; [reflexivity|]. destruct k; try discriminate; reflexivity. Qed.

(* [head_atomic]: the content starts with a token that starts no parameter, or
   with a name that what follows it does not make a parameter *)
Lemma paren_content t : head_atomic t = true -> wfb t = true ->
  forall post, param_follows post = false -> paren_try_fails (R t post) = true.
Proof.
  induction t; intros Ha W post Hb; try discriminate Ha; cbn [head_atomic wfb R] in *.
  - (* TPrim *) cbn. rewrite Hb. reflexivity.
  - (* TLit *) destruct k; try discriminate W; reflexivity.
  - (* TThis *) cbn. rewrite Hb. reflexivity.
  - (* TUnique *) reflexivity.
  - (* TRef *) destruct q; [|reflexivity]. destruct args; [|reflexivity]. cbn. rewrite Hb. reflexivity.
  - (* TTypeof *) reflexivity.
  - (* TImport *) destruct tof; reflexivity.
  - (* TArr *) apply andb_true_iff in W as [W _]. apply IHt; auto.
  - (* TIdx *) apply andb_true_iff in W as [W _]. apply andb_true_iff in W as [W _]. apply IHt1; auto.
  - (* TUnion *) repeat (apply andb_true_iff in W as [W _]). apply IHt1; auto.
  - (* TInter *) repeat (apply andb_true_iff in W as [W _]). apply IHt1; auto.
  - (* TKeyof *) apply andb_true_iff in W as [W _]. cbn.
    rewrite (param_follows_start _ (R_hd mg t W post)). reflexivity.
  - (* TInfer *) reflexivity.
  - (* TParen *) reflexivity.
  - (* TFn *)
    destruct (kind =? 2); [reflexivity|]. destruct (kind =? 1); [reflexivity|]. destruct tps; reflexivity.
  - (* TCond *) repeat (apply andb_true_iff in W as [W _]). apply IHt1; auto.
  - (* TPred *) unfold bind_tk. destruct (x <? 0); reflexivity.
  - (* TTemplate *) reflexivity.
Qed.

Lemma K_paren t : Kst t -> Kst (TParen t).
Proof.
  intros K. apply K_prefix. intros W lvl f post Ht. cbn [R wfb tail_ok] in *.
  apply andb_true_iff in W as [W Hp]. unfold paren_content_ok in Hp.
  eapply (ev1 _ (CParenOrFn (tk1 KLParen :: R t (tk1 KRParen :: post))) (0, post)).
  - eapply paren_step.
    + apply paren_content; auto. cbn. apply negb_true_iff in Ht. exact Ht.
    + apply K_at; auto; reflexivity.
    + reflexivity.
  - intros s E1. cbn [F]. unfold F_prefix. cbn [hd_tk tk1 fst].
    unfold snd_of, bind. rewrite E1. reflexivity.
Qed.

End Main3.
