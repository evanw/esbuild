(* C06: TypeScript enum member values.

   Model: the SEnum case of visitAndAppendStmt (internal/js_parser/js_parser.go:
   nextNumericValue / hasNumericValue / exportedMembers updates) together with
   the constant folding it switches on (js_ast.FoldBinaryOperator, the unary
   folds, inlining of references to earlier members), over the domain of
   integer-valued numbers |v| <= 2^53, NaN, +-Infinity and strings.  Results
   outside that domain are [VOut] (no claim); expressions esbuild leaves for
   run time are [VDyn].

   Specification: the TypeScript handbook rules for enum member values (first
   member 0, previous numeric + 1, constant enum expressions evaluated with
   ECMAScript semantics, earlier members in scope) as an inductive relation. *)
From V Require Import Common.Base.

Inductive val : Type :=
| VNum (z : Z) | VNaN | VInf (neg : bool) | VStr (s : list Z) | VUndef | VDyn | VOut.

Inductive ex : Type :=
| XNum (z : Z) | XStr (s : list Z) | XNaN | XInf
| XRef (name : Z)                 (* A  or  E.A  or  E["A"] *)
| XNeg (e : ex) | XPos (e : ex) | XNot (e : ex)
| XBin (op : Z) (a b : ex)       (* 0 + 1 - 2 * 3 / 4 % 5 ** 6 | 7 & 8 ^ 9 << 10 >> 11 >>> *)
| XOpaque.                        (* anything esbuild does not fold, e.g. a call *)

Definition lim := 2 ^ 53.
Definition num (z : Z) : val := if (Z.abs z <=? lim) then VNum z else VOut.

Definition to_int32 (z : Z) : Z := let m := z mod 2 ^ 32 in if m >=? 2 ^ 31 then m - 2 ^ 32 else m.
Definition to_uint32 (z : Z) : Z := z mod 2 ^ 32.
Definition i32 (v : val) : option Z :=
  match v with VNum z => Some (to_int32 z) | VNaN | VInf _ => Some 0 | _ => None end.
Definition u32 (v : val) : option Z :=
  match v with VNum z => Some (to_uint32 z) | VNaN | VInf _ => Some 0 | _ => None end.

Definition is_numeric (v : val) : bool := match v with VNum _ | VNaN | VInf _ => true | _ => false end.

(* IEEE arithmetic on the modelled domain (shared by model and specification;
   Go's float64 + - * / and math.Mod are trusted, see DESIGN.md section 4) *)
Definition arith (op : Z) (a b : val) : val :=
  match a, b with
  | VNum x, VNum y =>
      if op =? 0 then num (x + y) else if op =? 1 then num (x - y)
      else if op =? 2 then (if (x * y =? 0) && ((x <? 0) || (y <? 0)) then VOut (* -0 *) else num (x * y))
      else if op =? 3 then
        (if y =? 0 then (if x =? 0 then VNaN else VInf (x <? 0))
         else if x mod y =? 0 then (if (x =? 0) && (y <? 0) then VOut else num (x / y)) else VOut)
      else (* % *)
        (if y =? 0 then VNaN else if (Z.rem x y =? 0) && (x <? 0) then VOut else num (Z.rem x y))
  | VNaN, _ | _, VNaN => if is_numeric a && is_numeric b then VNaN else VDyn
  | _, _ => VOut
  end.

Definition bitop (op : Z) (a b : val) : val :=
  match i32 a, i32 b, u32 a, u32 b with
  | Some x, Some y, Some ux, Some uy =>
      let s := uy mod 32 in
      if op =? 6 then VNum (Z.lor x y) else if op =? 7 then VNum (Z.land x y)
      else if op =? 8 then VNum (Z.lxor x y)
      else if op =? 9 then VNum (to_int32 (x * 2 ^ s))
      else if op =? 10 then VNum (Z.shiftr x s)
      else VNum (Z.shiftr ux s)
  | _, _, _, _ => VDyn
  end.

(* integer powers inside the modelled domain: |x| > 1 and y >= 64 is beyond 2^53.
   ASSUMPTION made explicit: where the exact result is an integer of magnitude <= 2^53
   Go's math.Pow returns it exactly (checked on a grid by the harness); larger finite
   results are VOut -- math.Pow is not correctly rounded there (known finding C06-M) *)
Definition pow_int (x y : Z) : val :=
  if y <? 0 then VOut
  else if x =? 0 then VNum 0                      (* y = 0 is handled before *)
  else if 1 <? Z.abs x then (if 64 <=? y then VOut else num (x ^ y))
  else num (x ^ (y mod 2)).                       (* x = 1 or -1 *)

(* x ** y as computed by FoldBinaryOperator after /repo 9e1822e: NaN when the
   exponent is NaN or when |base| = 1 and the exponent is infinite (the cases in
   which Go's math.Pow returns 1), math.Pow otherwise (Pow(x, +-0) = 1 for any x,
   Pow(1, y) = 1, NaN when the base is NaN) *)
Definition go_pow (a b : val) : val :=
  match a, b with
  | _, VNaN => VNaN
  | VNum 1, VInf _ | VNum (-1), VInf _ => VNaN
  | _, VNum 0 => VNum 1
  | VNum 1, _ => VNum 1
  | VNaN, _ => VNaN
  | VNum x, VNum y => pow_int x y
  | _, _ => VOut
  end.

(* ECMA-262 Number::exponentiate: exponent NaN -> NaN; exponent +-0 -> 1;
   base NaN -> NaN; |base| = 1 and exponent +-Infinity -> NaN *)
Definition js_pow (a b : val) : val :=
  match a, b with
  | _, VNaN => VNaN
  | _, VNum 0 => VNum 1
  | VNaN, _ => VNaN
  | VNum 1, VInf _ | VNum (-1), VInf _ => VNaN
  | VNum 1, _ => VNum 1
  | VNum x, VNum y => pow_int x y
  | _, _ => VOut
  end.

Definition env := list (Z * val).
Fixpoint lookup (n : Z) (e : env) : option val :=
  match e with [] => None | (k, v) :: r => if k =? n then Some v else lookup n r end.

Section Eval.
Variable pow : val -> val -> val.

(* FoldBinaryOperator: folds only when both sides are numeric (or both strings for +) *)
Definition binop (op : Z) (a b : val) : val :=
  match a, b with
  | VOut, _ | _, VOut => VOut
  | _, _ =>
    if is_numeric a && is_numeric b then
      (if op <=? 4 then arith op a b else if op =? 5 then pow a b else bitop op a b)
    else match a, b with
         | VStr x, VStr y => if op =? 0 then VStr (x ++ y) else VDyn
         | _, _ => VDyn
         end
  end.

Fixpoint eval (known : env) (e : ex) : val :=
  match e with
  | XNum z => num z
  | XStr s => VStr s
  | XNaN => VNaN
  | XInf => VInf false
  | XRef n => match lookup n known with Some v => v | None => VDyn end
  | XNeg a =>
      match eval known a with
      | VNum z => if z =? 0 then VOut else VNum (- z)
      | VNaN => VNaN | VInf s => VInf (negb s) | VOut => VOut | _ => VDyn
      end
  | XPos a => match eval known a with VNum z => VNum z | VNaN => VNaN | VInf s => VInf s | VOut => VOut | _ => VDyn end
  | XNot a => match eval known a with VOut => VOut | v => match i32 v with Some x => VNum (- x - 1) | None => VDyn end end
  | XBin op a b => binop op (eval known a) (eval known b)
  | XOpaque => VDyn
  end.
End Eval.

Definition constant (v : val) : bool := match v with VNum _ | VNaN | VInf _ | VStr _ => true | _ => false end.

(* the SEnum visit loop *)
Record st := mkSt { next : val; hasNum : bool; known : env }.
Definition st0 := mkSt (VNum 0) true [].
Definition succ (v : val) : val := match v with VNum z => num (z + 1) | v => v end.

Definition member := (Z * option ex)%type.

Definition step (s : st) (m : member) : st * val :=
  let '(name, init) := m in
  match init with
  | Some e =>
      let v := eval go_pow (known s) e in
      match v with
      | VNum _ | VNaN | VInf _ => (mkSt (succ v) true ((name, v) :: known s), v)
      | VStr _ => (mkSt (next s) false ((name, v) :: known s), v)
      | VOut => (mkSt VOut true ((name, VOut) :: known s), VOut)   (* a number outside the modelled domain *)
      | _ => (mkSt (next s) false (known s), v)
      end
  | None =>
      if hasNum s then (mkSt (succ (next s)) true ((name, next s) :: known s), next s)
      else (mkSt (next s) false (known s), VUndef)
  end.

Fixpoint enum_loop (s : st) (ms : list member) : list val :=
  match ms with
  | [] => []
  | m :: r => let '(s', v) := step s m in v :: enum_loop s' r
  end.
Definition enum_values (ms : list member) : list val := enum_loop st0 ms.

(* the handbook rules; prev: the value of the previous member (None before the first member) *)
Inductive SpecEnum : env -> option val -> list member -> list val -> Prop :=
| SE_nil : forall en prev, SpecEnum en prev [] []
| SE_init : forall en prev name e r v vs,
    v = eval js_pow en e ->
    SpecEnum (if constant v then (name, v) :: en else en) (Some v) r vs ->
    SpecEnum en prev ((name, Some e) :: r) (v :: vs)
| SE_first : forall en name r vs,
    SpecEnum ((name, VNum 0) :: en) (Some (VNum 0)) r vs ->
    SpecEnum en None ((name, None) :: r) (VNum 0 :: vs)
| SE_next : forall en p name r vs,
    is_numeric p = true ->
    SpecEnum ((name, succ p) :: en) (Some (succ p)) r vs ->
    SpecEnum en (Some p) ((name, None) :: r) (succ p :: vs)
| SE_error : forall en p name r vs,           (* "Enum member must have initializer": undefined at run time *)
    is_numeric p = false ->
    SpecEnum en (Some p) r vs ->
    SpecEnum en (Some p) ((name, None) :: r) (VUndef :: vs).

(* [go_pow] and [js_pow] list the same clauses in a different order, and clauses
   that overlap give the same value: the compilation of pattern matching turns
   both into the same term *)
Lemma pow_same : go_pow = js_pow.
Proof. reflexivity. Qed.

Lemma pow_agree a b : go_pow a b = js_pow a b.
Proof. rewrite pow_same. reflexivity. Qed.

(* constant folding of initialisers agrees with ECMAScript evaluation, "**" included *)
Lemma eval_agree known e : eval go_pow known e = eval js_pow known e.
Proof. rewrite pow_same. reflexivity. Qed.

(* loop invariant linking the visitor state to the specification's context *)
Definition inv (s : st) (prev : option val) : Prop :=
  match prev with
  | None => s = st0
  | Some p => if is_numeric p then hasNum s = true /\ next s = succ p else hasNum s = false
  end.

Lemma is_numeric_succ p : is_numeric p = true -> is_numeric (succ p) = true \/ succ p = VOut.
Proof. destruct p; cbn; try discriminate; auto. unfold num. destruct (Z.abs (z + 1) <=? lim); auto. Qed.

(* the model's member values satisfy the handbook rules, as long as no value
   leaves the modelled domain (VOut) *)
Lemma enum_loop_spec : forall ms s prev en,
  en = known s ->
  inv s prev ->
  forallb (fun v => match v with VOut => false | _ => true end) (enum_loop s ms) = true ->
  SpecEnum en prev ms (enum_loop s ms).
Proof.
  induction ms as [|[name init] r IH]; intros s prev en Hen Hi Ho; [constructor|]. subst en.
  cbn [enum_loop] in *.
  destruct init as [e|].
  - (* an initialiser: the state after it depends on its value only *)
    cbn [step] in *. pose proof (eval_agree (known s) e) as Ea.
    destruct (eval go_pow (known s) e) eqn:Ev; cbn [fst enum_loop forallb andb] in *; try discriminate Ho.
    all: eapply SE_init; [exact Ea|]; cbn [constant].
    all: eapply IH; [reflexivity| |exact Ho]; cbn; auto.
  - (* no initialiser: by the invariant *)
    cbn [step] in *. destruct prev as [p|]; cbn [inv] in Hi.
    + destruct (is_numeric p) eqn:Enp.
      * destruct Hi as [Hh Hn]. rewrite Hh in *. cbn [fst enum_loop forallb] in *. rewrite Hn in *.
        apply andb_true_iff in Ho as [Ho1 Ho].
        apply SE_next; [exact Enp|]. eapply IH; [reflexivity| |exact Ho]. cbn.
        destruct (is_numeric_succ p Enp) as [E|E]; [rewrite E; cbn; auto|rewrite E in Ho1; discriminate].
      * rewrite Hi in *. cbn [fst enum_loop forallb] in *. apply SE_error; [exact Enp|].
        eapply IH; [reflexivity| |exact Ho]. cbn. rewrite Enp. reflexivity.
    + subst s. cbn [hasNum st0 next fst enum_loop forallb succ known] in *.
      apply SE_first. eapply IH; [reflexivity| |exact Ho]. cbn. auto.
Qed.

Lemma enum_values_spec_all ms :
  forallb (fun v => match v with VOut => false | _ => true end) (enum_values ms) = true ->
  SpecEnum [] None ms (enum_values ms).
Proof. intros. apply (enum_loop_spec ms st0 None []); auto; reflexivity. Qed.

(* DESIGN section 7-B: enum E { A = 1 ** (0/0) }.  math.Pow alone gives 1 here;
   since /repo 9e1822e FoldBinaryOperator gives NaN, as the specification does,
   and the model follows it *)
Definition pow_witness : list member := [(100, Some (XBin 5 (XNum 1) (XBin 3 (XNum 0) (XNum 0))))].
Lemma enum_pow_witness :
  enum_values pow_witness = [VNaN] /\ SpecEnum [] None pow_witness [VNaN] /\ ~ SpecEnum [] None pow_witness [VNum 1].
Proof.
  split; [reflexivity|]. split.
  - eapply SE_init; [reflexivity|]. constructor.
  - intros H. inversion H as [|? ? ? ? ? ? ? E| | |]; subst. discriminate E.
Qed.

(* correspondence cases (members, observed values): values are encoded (tag, payload) :
   0 number z | 1 NaN | 2 +Inf | 3 -Inf | 4 string | 5 undefined | 6 not constant *)
Definition enum_case := (list (Z * option ex) * list (Z * list Z))%type.
Definition val_matches (v : val) (o : Z * list Z) : bool :=
  let '(tag, pl) := o in
  match v with
  | VNum z => (tag =? 0) && zlist_eqb pl [z]
  | VNaN => tag =? 1
  | VInf false => tag =? 2
  | VInf true => tag =? 3
  | VStr s => (tag =? 4) && zlist_eqb pl s
  | VUndef => tag =? 5
  | VDyn => tag =? 6
  | VOut => true
  end.
Fixpoint all2 {A B} (f : A -> B -> bool) (a : list A) (b : list B) : bool :=
  match a, b with [], [] => true | x :: a', y :: b' => f x y && all2 f a' b' | _, _ => false end.
Definition enum_case_ok (c : enum_case) : bool :=
  let '(ms, obs) := c in all2 val_matches (enum_values ms) obs.

(* Name resolution inside an enum body.
   Model: findSymbol (js_parser.go) -- the names declared in this block's scope
   (its own members), then the exported members of the scope's TypeScript
   namespace object when "tsNamespace.IsEnumScope == member.IsEnumValue" (inside an
   enum: only enum values, i.e. members of sibling blocks of the merged enum; the
   exports of a merged namespace are not visible), then the enclosing scopes.
   Specification: TypeScript's resolveName at an EnumDeclaration looks in the
   enum symbol's exports restricted to enum members, then continues lexically. *)
Inductive res_kind : Type := RMember | ROuter.
Definition res_kind_eqb (a b : res_kind) : bool := match a, b with RMember, RMember | ROuter, ROuter => true | _, _ => false end.

Fixpoint lookup_flag (n : Z) (e : list (Z * bool)) : option bool :=
  match e with [] => None | (k, v) :: r => if k =? n then Some v else lookup_flag n r end.

(* block: the members of the block being visited; exported: the merged object's
   exported members with their IsEnumValue flag (earlier entries win) *)
Definition resolve_name (block : list Z) (exported : list (Z * bool)) (n : Z) : res_kind :=
  if existsb (Z.eqb n) block then RMember
  else match lookup_flag n exported with Some true => RMember | _ => ROuter end.

Definition spec_resolve (enum_members : list Z) (n : Z) : res_kind :=
  if existsb (Z.eqb n) enum_members then RMember else ROuter.

Lemma existsb_filter_flag n : forall exported, NoDup (map fst exported) ->
  existsb (Z.eqb n) (map fst (filter snd exported)) = match lookup_flag n exported with Some true => true | _ => false end.
Proof.
  induction exported as [|[k b] r IH]; intros Hnd; [reflexivity|].
  cbn [map fst] in Hnd. inversion Hnd as [|? ? Hk Hr]; subst. cbn [filter snd lookup_flag].
  destruct (k =? n) eqn:E.
  - apply Z.eqb_eq in E. subst k. destruct b; cbn [map fst existsb].
    + rewrite Z.eqb_refl. reflexivity.
    + rewrite (IH Hr). destruct (lookup_flag n r) as [[|]|] eqn:El; auto.
      exfalso. apply Hk. clear -El. induction r as [|[k' b'] r' IH']; [discriminate|]. cbn in *.
      destruct (k' =? n) eqn:E'; [left; apply Z.eqb_eq; exact E'|right; apply IH'; exact El].
  - destruct b; cbn [map fst existsb]; [rewrite Z.eqb_sym, E; cbn|]; apply IH; exact Hr.
Qed.

(* every member of the visited block is registered as an enum value of the merged object *)
Lemma resolve_is_spec block exported n :
  NoDup (map fst exported) -> (forall m, In m block -> lookup_flag m exported = Some true) ->
  resolve_name block exported n = spec_resolve (map fst (filter snd exported)) n.
Proof.
  intros Hnd Hb. unfold resolve_name, spec_resolve. rewrite (existsb_filter_flag n exported Hnd).
  destruct (existsb (Z.eqb n) block) eqn:E; [|destruct (lookup_flag n exported) as [[|]|]; reflexivity].
  apply existsb_exists in E as [m [Hin Hm]]. apply Z.eqb_eq in Hm. subst m. rewrite (Hb n Hin). reflexivity.
Qed.

(* run-time value of a name in an initialiser: a member is read from the enum
   object, anything else lexically; with the specification's lookup order
   (members first, then the outer environment) this is the same value *)
Definition rt_name (block : list Z) (exported : list (Z * bool)) (obj outer : env) (n : Z) : option val :=
  match resolve_name block exported n with RMember => lookup n obj | ROuter => lookup n outer end.
Definition spec_name (enum_members : list Z) (obj outer : env) (n : Z) : option val :=
  if existsb (Z.eqb n) enum_members then lookup n obj else lookup n outer.

Lemma rt_name_is_spec block exported obj outer n :
  NoDup (map fst exported) -> (forall m, In m block -> lookup_flag m exported = Some true) ->
  rt_name block exported obj outer n = spec_name (map fst (filter snd exported)) obj outer n.
Proof.
  intros Hnd Hb. unfold rt_name, spec_name. rewrite (resolve_is_spec block exported n Hnd Hb). unfold spec_resolve.
  destruct (existsb (Z.eqb n) (map fst (filter snd exported))); reflexivity.
Qed.

(* correspondence cases: (block members, exported (name, IsEnumValue), name,
   observed: 1 = property of the enum object / inlined member, 0 = lexical reference) *)
Definition resolve_case := (list Z * list (Z * bool) * Z * Z)%type.
Definition resolve_case_ok (c : resolve_case) : bool :=
  let '(block, exported, n, obs) := c in
  res_kind_eqb (resolve_name block exported n) (if obs =? 1 then RMember else ROuter).
