(* non-vacuity: concrete values meeting the hypotheses of each theorem *)
From V Require Import Common.Base C06.TsTokens C06.SkipType C06.TypeGrammar C06.SkipProofs C06.SkipProofs6 C06.TypeArgsExpr C06.Erase C06.Enum gen.TsTargetsGen C06.TsTarget C06.ParamProps.

(* Array<Array<number>> = 1 : the ">>" token is split by the inner list *)
Example nested_generic :
  skip_type LLowest fl0 [(KIdent 114,false);(KLt,false);(KIdent 114,false);(KLt,false);(KIdent 11,false);(KGtGt,false);(KEq,false);(KNum,false)]
  = Ok [(KEq,false);(KNum,false)].
Proof. vm_compute. reflexivity. Qed.

(* T extends [infer U, ...any[]] ? Array<Array<U>> | null : (keyof T)[]   followed by "=": the ">>" of the
   nested argument lists is one token under gluing; the "=" follows "]" and is glued to nothing *)
Definition ex_type : ty :=
  TCond (TRef 103 [] []) (TTuple [TElem false (-1) false false (TInfer 104); TElem true (-1) false false (TArr TPrim)])
        (TUnion (TRef 114 [] [TRef 114 [] [TRef 104 [] []]]) (TLit KNull))
        (TArr (TParen (TUnion (TLit KNull) (TKeyof false (TRef 103 [] []))))).
Example ex_wf : wfb ex_type = true /\ lvl_ok ex_type LLowest = true /\ follow_ok [(KEq,false)] = true.
Proof. vm_compute. auto. Qed.
Example ex_tokens_glued : map fst (R true ex_type [(KEq,false)]) =
  [KIdent 103; KExtends; KLBrack; KIdent 6; KIdent 104; KComma; KDotDotDot; KIdent 11; KLBrack; KRBrack; KRBrack; KQuestion;
   KIdent 114; KLt; KIdent 114; KLt; KIdent 104; KGtGt; KBar; KNull; KColon; KLParen; KNull; KBar; KIdent 1; KIdent 103; KRParen; KLBrack; KRBrack; KEq].
Proof. vm_compute. reflexivity. Qed.
Example ex_skip_glued : skip_type LLowest fl0 (R true ex_type [(KEq,false)]) = Ok [(KEq,false)].
Proof. vm_compute. reflexivity. Qed.
Example ex_skip_unglued : skip_type LLowest fl0 (R false ex_type [(KEq,false)]) = Ok [(KEq,false)].
Proof. vm_compute. reflexivity. Qed.
(* "let x: Array<T>= 1": the ">=" token *)
Example ex_gteq : map fst (R true (TRef 114 [] [TRef 103 [] []]) [(KEq,false);(KNum,false)]) = [KIdent 114; KLt; KIdent 103; KGtEq; KNum].
Proof. vm_compute. reflexivity. Qed.

(* erase/annotate: f<Array<T>>(x as T[])!   ->   f(x)  *)
Definition ex_prog : list elem :=
  [J (KIdent 120,false); S (SArgs [TRef 114 [] [TRef 103 [] []]]); J (KLParen,false); J (KIdent 109,false);
   S (SAs false (TArr (TRef 103 [] []))); J (KRParen,false); S SBang; J (KSemi,false)].
Example ex_prog_ok : sites_ok true ex_prog = true.
Proof. vm_compute. reflexivity. Qed.
Example ex_prog_erase : erase 200 (shape ex_prog) (typed true ex_prog) = Ok (untyped ex_prog)
  /\ map fst (untyped ex_prog) = [KIdent 120; KLParen; KIdent 109; KRParen; KSemi].
Proof. vm_compute. auto. Qed.

(* enum E { A, B = 1 << 4, C, D = "x", F = B | 3, G = -F, H = ~G, I } *)
Definition ex_enum : list member :=
  [(100, None); (101, Some (XBin 9 (XNum 1) (XNum 4))); (102, None); (103, Some (XStr [120]));
   (104, Some (XBin 6 (XRef 101) (XNum 3))); (105, Some (XNeg (XRef 104))); (106, Some (XNot (XRef 105))); (107, None)].
Example ex_enum_values : enum_values ex_enum = [VNum 0; VNum 16; VNum 17; VStr [120]; VNum 19; VNum (-19); VNum 18; VNum 19].
Proof. vm_compute. reflexivity. Qed.
Example ex_enum_hyps : forallb (fun v => match v with VOut => false | _ => true end) (enum_values ex_enum) = true.
Proof. vm_compute. reflexivity. Qed.
Example ex_pow : map (fun p => go_pow (fst p) (snd p)) [(VNum 1, VNaN); (VNum (-1), VInf true); (VNaN, VNum 0); (VNum 2, VNum 10)] = [VNaN; VNaN; VNum 1; VNum 1024].
Proof. vm_compute. reflexivity. Qed.

(* every kind of member, parameter and type-parameter modifier at once:
   { readonly a?: A.B<T>; [k: string]: typeof x.y;
     m<const P extends T = "s", in out Q>(this: T, {a, "s": [, b, ...c], ...d}: any, ...r: U[]): r is V,
     -readonly [K in keyof T as `p${K}`]+?: T[K] }
   | (abstract new <P extends keyof T>(x?: import("m").C) => void)
   | [first: T, second?: U]
   | (T extends infer U extends any[] ? U : never) *)
Definition ex_wide : ty :=
  TUnion (TUnion (TUnion
    (TObj [TMProp [2; 120] true (TRef 100 [101] [TRef 103 [] []]) 0;
           TMIndex [] 105 TPrim (TTypeof 109 [110] []) 0;
           TMMeth [121] false [TTParam [0] 107 true true (TRef 103 [] []) (TLit KStr); TTParam [1; 2] 108 false false TPrim TPrim] [TParam false (PId (-1)) false true (TRef 103 [] []); TParam false (PObj [PShort 125; PProp (-2) (PArr 1 [PId 126; PRest (PId 127)]); PObjRest 128]) false true TPrim; TParam true (PId 122) false true (TArr (TRef 104 [] []))] true
                  (TPred 122 (TRef 106 [] [])) 1;
           TMMapped 2 [2] 105 (TKeyof false (TRef 103 [] [])) true (TTemplate [TRef 105 [] []]) 1 true
                    (TIdx (TRef 103 [] []) (TRef 105 [] [])) 2])
    (TParen (TFn 2 [TTParam [] 107 true false (TKeyof false (TRef 103 [] [])) TPrim] [TParam false (PId 109) true true (TImport false [102] [])] (TLit KVoid))))
    (TTuple [TElem false 123 false false (TRef 103 [] []); TElem false 124 true false (TRef 104 [] [])]))
    (TParen (TCond (TRef 103 [] []) (TInferC 104 (TArr TPrim)) (TRef 104 [] []) TPrim)).
Example ex_wide_wf : wfb ex_wide = true /\ lvl_ok ex_wide LLowest = true.
Proof. vm_compute. auto. Qed.
Example ex_wide_skip : skip_type LLowest fl0 (R true ex_wide [(KSemi,false)]) = Ok [(KSemi,false)].
Proof. vm_compute. reflexivity. Qed.
Example ex_wide_len : length (R true ex_wide []) = 142%nat.
Proof. vm_compute. reflexivity. Qed.
(* return position: asserts this is T *)
Example ex_ret : wf_ret_with wfb (TAsserts (-1) true (TRef 103 [] [])) = true /\
  skip_type LLowest fl_ret (R false (TAsserts (-1) true (TRef 103 [] [])) [(KLBrace,false)]) = Ok [(KLBrace,false)].
Proof. vm_compute. auto. Qed.
(* f<T>(x) is a call; a < b > c and a < b > -c are comparisons *)
Example ex_follow : spec_can_follow [(KLParen,false)] = true /\ spec_can_follow [(KIdent 102,false)] = false /\ spec_can_follow [(KMinus,false)] = false
  /\ spec_can_follow [(KIdent 102,true)] = true /\ spec_can_follow [(KRParen,false)] = true.
Proof. vm_compute. auto. Qed.

(* "ES2022" -> define, "es2021" -> assign, "ESNext" -> define, unrecognised -> esbuild's default *)
Example ex_targets : map go_target [[69;83;50;48;50;50]; [101;115;50;48;50;49]; [69;83;78;101;120;116]; [101;115;55]] = [Some true; Some false; Some true; None]
  /\ spec_define 0 (Some [69;83;50;48;50;50]) = true /\ spec_define 0 (Some [101;115;50;48;50;49]) = false /\ spec_define 2 (Some [69;83;50;48;50;50]) = false.
Proof. vm_compute. auto. Qed.

(* class P extends B { f = i1; constructor(public x, y, private z) { s1; super(); s2 } g = i2 } *)
Example ex_pp : lower true [(1, true); (2, false); (3, true)] [10; 11] [SOther 1; SSuper; SOther 2]
  = Some [SOther 1; SSuper; SAssignParam 1; SAssignParam 3; SFieldInit 10; SFieldInit 11; SOther 2]
  /\ forallb user_stmt [SOther 1; SSuper; SOther 2] = true /\ NoDup (map fst [(1, true); (2, false); (3, true)]).
Proof. split; [reflexivity|]. split; [reflexivity|]. repeat constructor; cbn; intuition; discriminate. Qed.

(* const DEFAULT = 10; namespace Level { export const DEFAULT = 5 } enum Level { Low = DEFAULT } : DEFAULT (100) is lexical,
   a sibling enum member (101) is a member *)
Example ex_resolve : resolve_name [200] [(100, false); (101, true); (200, true)] 100 = ROuter
  /\ resolve_name [200] [(100, false); (101, true); (200, true)] 101 = RMember
  /\ rt_name [200] [(100, false); (101, true); (200, true)] [(100, VNum 5); (101, VNum 1)] [(100, VNum 10)] 100 = Some (VNum 10)
  /\ NoDup (map fst [(100, false); (101, true); (200, true)]).
Proof. repeat split; try reflexivity. repeat constructor; cbn; intuition; discriminate. Qed.

(* parenthesised contents starting with "(" and keyof: ((x: T) => void)[] | (keyof T)[] | ((T))  *)
Definition ex_paren : ty :=
  TUnion (TUnion (TArr (TParen (TFn 0 [] [TParam false (PId 109) false true (TRef 103 [] [])] (TLit KVoid))))
                 (TArr (TParen (TKeyof false (TRef 103 [] [])))))
         (TParen (TParen (TRef 103 [] []))).
Example ex_paren_ok : wfb ex_paren = true /\ skip_type LLowest fl0 (R false ex_paren [(KEq,false)]) = Ok [(KEq,false)].
Proof. vm_compute. auto. Qed.
