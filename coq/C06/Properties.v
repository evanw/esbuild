From V Require Import Common.Base C06.TsTokens C06.SkipType C06.SkipMono C06.TypeGrammar
  C06.SkipProofs C06.SkipProofs6 C06.TypeArgsExpr C06.Erase C06.Enum gen.TsTargetsGen C06.TsTarget C06.ParamProps.

(* fuel is a model artefact: a result other than "out of fuel" never changes
   when more fuel is given (all 19 mutually recursive routines) *)
Theorem skipper_fuel_monotone : forall n m c, (n <= m)%nat -> run n c <> Oof -> run m c = run n c.
Proof. exact run_mono. Qed.
Print Assumptions skipper_fuel_monotone.

(* skip_exact over the type grammar of TypeGrammar.v:
     primitive / literal / this / unique symbol; qualified names with (nested)
     type arguments; typeof queries and [typeof] import("m") types with qualified
     names and type arguments; arrays, indexed access; tuples with labelled,
     optional and rest elements; unions, intersections; keyof / readonly; infer;
     parenthesised types; function types, constructor types and abstract
     constructor types with type-parameter lists (const / in / out modifiers,
     extends constraint, = default) and parameter lists (this, optional, rest,
     annotated or not, destructuring patterns [a, ...b] / {a, k: p, ...r} with
     leading holes) and return types incl. predicates "x is T" / "this is T";
     object types with property, method (with type-parameter lists), call,
     construct, accessor, index-signature and mapped-type members (+/- readonly,
     +/- ?, "as" clause) and ";" / "," / no separator; conditional types
     (extends operand: any union-or-higher type without an exposed
     keyof/readonly, incl. a bare "infer U", or "infer U extends C");
     template-literal types.
   For every well-formed type t, every level at which TypeScript parses t without
   parentheses, every flag set without disallowConditionalTypes and every
   following token sequence that cannot continue a type, the skipper started on
   the tokens of t followed by rest stops exactly at rest -- whether adjacent ">"
   characters were lexed as one token (mg = true: ">>", ">>>", ">=", ">>=") or not.
   Partial: excluded (tied by the correspondence run only) are
     "infer U extends C" elsewhere than directly as the extends operand of a
     conditional type (e.g. inside a tuple or type-argument list there);
     "asserts x [is T]" outside return positions (see skip_exact_return);
     parenthesised types whose content starts with "[" or "{" (the
     arrow-parameter attempt of skipTypeScriptParenOrFnType may run arbitrarily
     far on them, or even succeed as a parameter list); a keyof/readonly operand
     exposed in the extends clause of a conditional type; computed keys
     "[expr]:" and "import(..., {with})". *)
Theorem skip_exact_partial : forall mg t rest lvl f,
  wfb t = true -> lvl <= LPrefix -> lvl_ok t lvl = true -> fNoCond f = false ->
  follow_ok rest = true ->
  exists N, forall m, (N <= m)%nat -> run m (CType lvl f (R mg t rest)) = Ok (0, rest).
Proof. exact skip_exact_R. Qed.
Print Assumptions skip_exact_partial.

(* return positions (isReturnTypeFlag): a type of the grammar or an assertion
   signature "asserts x" / "asserts x is T" / "asserts this is T" *)
Theorem skip_exact_return : forall mg ret rest,
  wf_ret_with wfb ret = true -> follow_ok rest = true ->
  exists N, forall m, (N <= m)%nat -> run m (CType LLowest fl_ret (R mg ret rest)) = Ok (0, rest).
Proof. exact skip_exact_ret. Qed.
Print Assumptions skip_exact_return.

(* "f<T>(x)" versus "a < b > c": the model's transcription of
   tsCanFollowTypeArgumentsInExpression equals the TypeScript compiler's rule
   (canFollowTypeArgumentsInExpression / isBinaryOperator / isStartOfExpression)
   on every token sequence, i.e. for every kind of following token *)
Theorem can_follow_type_arguments_is_typescript_rule : forall ts, can_follow_type_args ts = spec_can_follow ts.
Proof. exact can_follow_is_spec. Qed.
Print Assumptions can_follow_type_arguments_is_typescript_rule.

(* trySkipTypeArgumentsInExpressionWithBacktracking: "<" args ">" is consumed as a
   type-argument list iff the following token may follow type arguments under the
   TypeScript rule; otherwise the lexer is back at the "<" (less-than operator) *)
Theorem type_arguments_in_expression_decision : forall mg args post,
  args <> [] -> forallb wfb args = true ->
  let ts := tk1 KLt :: join [tk1 KComma] (map (R mg) args) (tk1 KGt :: post) in
  Ev (CTryArgsExpr ts) (if spec_can_follow post then (1, post) else (0, ts)).
Proof. exact tryargs_decision. Qed.
Print Assumptions type_arguments_in_expression_decision.

(* when the loop at a higher level stops, the enclosing loop at the lower level
   finishes the same work (the reason the skipper's sloppy precedence is harmless) *)
Theorem suffix_loop_split : forall n lvl lvl' f f' post r,
  lvl <= lvl' -> fNoCond f' = fNoCond f -> (f' = f \/ LBitAnd <= lvl') ->
  run n (CSuffix lvl f post) = Ok (0, r) ->
  exists r1, Ev (CSuffix lvl' f' post) (0, r1) /\ Ev (CSuffix lvl f r1) (0, r).
Proof. exact split. Qed.
Print Assumptions suffix_loop_split.

(* erase (annotate p) = p at the token level: for every JavaScript token
   stream with type syntax at sites (": T", return types incl. assertion
   signatures, "as"/"satisfies", "!", "<T,...>", modifiers, "?") drawn from the
   whole grammar of skip_exact_partial, the parser's skipping leaves exactly the
   JavaScript tokens *)
Theorem erase_annotate : forall mg p, sites_ok mg p = true ->
  exists N, forall n, (N <= n)%nat -> erase n (shape p) (typed mg p) = Ok (untyped p).
Proof. exact erase_annotate_all. Qed.
Print Assumptions erase_annotate.

(* enum member values computed by the visitor satisfy the TypeScript handbook
   rules, for every member list whose values stay in the modelled domain
   (integer-valued numbers |v| <= 2^53, NaN, +-Infinity, strings) -- "**" included
   since /repo 9e1822e *)
Theorem enum_values_spec : forall ms,
  forallb (fun v => match v with VOut => false | _ => true end) (enum_values ms) = true ->
  SpecEnum [] None ms (enum_values ms).
Proof. exact enum_values_spec_all. Qed.
Print Assumptions enum_values_spec.

(* constant folding of initialisers agrees with ECMAScript evaluation, for every
   expression and every environment of earlier members (no side condition: the
   special cases 1 ** NaN, (+-1) ** +-Infinity are NaN as in ECMA-262, see [go_pow]) *)
Theorem enum_fold_sound : forall known e, eval go_pow known e = eval js_pow known e.
Proof. exact eval_agree. Qed.
Print Assumptions enum_fold_sound.

(* domain of this statement: the model gives a numeric value for x ** y only when the exact
   result is an integer with |x ** y| <= 2^53 (there math.Pow is exact: checked by the harness on a
   grid on every run) or when an operand is NaN / +-Infinity; every other finite result is VOut on
   both sides (no claim) -- large finite results of math.Pow are some ulps away from V8's
   (known finding C06-M, C03-G family) *)
Theorem enum_pow_is_ecmascript : forall a b, go_pow a b = js_pow a b.
Proof. exact pow_agree. Qed.
Print Assumptions enum_pow_is_ecmascript.

(* DESIGN section 7-B: enum E { A = 1 ** (0/0) } is NaN, not the 1 of math.Pow *)
Theorem enum_pow_special_witness :
  enum_values pow_witness = [VNaN] /\ SpecEnum [] None pow_witness [VNaN] /\ ~ SpecEnum [] None pow_witness [VNum 1].
Proof. exact enum_pow_witness. Qed.
Print Assumptions enum_pow_special_witness.

(* class-field semantics selected by tsconfig: the table generated from the
   switch over "target" in ParseTSConfigJSON is TypeScript's rule for the default
   of useDefineForClassFields (true iff target >= ES2022, ESNext included), for
   EVERY target string (recognised names in any letter case; every other string is
   unrecognised on both sides) *)
Theorem use_define_default_is_typescript_rule : forall name,
  match go_target name, spec_year name with
  | Some above, Some y => above = ts_default_use_define y
  | None, None => True
  | _, _ => False
  end.
Proof. exact go_target_is_rule. Qed.
Print Assumptions use_define_default_is_typescript_rule.

(* ... and combined with an explicit useDefineForClassFields as in parseClass *)
Theorem effective_use_define_is_typescript_rule : forall explicit target,
  effective_define explicit (match target with Some n => go_target n | None => None end) = spec_define explicit target.
Proof. exact effective_define_is_rule. Qed.
Print Assumptions effective_use_define_is_typescript_rule.

(* parameter properties + instance field initialisers under assign semantics
   (constructor(private x, public y = e) and f = init): ORDER -- the lowered
   constructor is [statements before super()] super() [this.x = x in parameter
   order] [field initialisers in declaration order] [rest of the body]; without a
   base class the generated statements come first *)
Theorem parameter_properties_order : forall derived params fields body,
  (derived = true -> existsb is_super body = true) ->
  exists pre post,
    body = pre ++ (if derived then [SSuper] else []) ++ post /\
    (derived = true -> existsb is_super pre = false) /\ (derived = false -> pre = []) /\
    lower derived params fields body =
      Some (pre ++ (if derived then [SSuper] else []) ++
            map SAssignParam (map fst (filter snd params)) ++ map SFieldInit fields ++ post).
Proof. exact lower_order_all. Qed.
Print Assumptions parameter_properties_order.

(* ONCE: the user's statements are all kept, in their order, and the generated
   statements are exactly the listed ones *)
Theorem parameter_properties_preserve_body : forall derived params fields body out,
  forallb user_stmt body = true -> lower derived params fields body = Some out ->
  filter user_stmt out = body /\ filter (fun s => negb (user_stmt s)) out = generated params fields.
Proof. exact lower_preserves_body_all. Qed.
Print Assumptions parameter_properties_preserve_body.

Theorem parameter_property_assigned_once : forall derived params fields body out x,
  forallb user_stmt body = true -> lower derived params fields body = Some out ->
  NoDup (map fst params) -> In (x, true) params ->
  count_occ Z.eq_dec (flat_map (fun s => match s with SAssignParam n => [n] | _ => [] end) out) x = 1%nat.
Proof. exact param_assigned_once_all. Qed.
Print Assumptions parameter_property_assigned_once.

(* names in an enum body resolve against enum members first (this block and the
   sibling blocks of a merged enum), then lexically; the exports of a namespace
   merged with the enum are never captured -- findSymbol's rule equals
   TypeScript's resolveName rule for every name *)
Theorem enum_name_resolution_is_typescript_rule : forall block exported n,
  NoDup (map fst exported) -> (forall m, In m block -> lookup_flag m exported = Some true) ->
  resolve_name block exported n = spec_resolve (map fst (filter snd exported)) n.
Proof. exact resolve_is_spec. Qed.
Print Assumptions enum_name_resolution_is_typescript_rule.

(* ... hence the run-time value of a name in an initialiser, given the enum object
   and the OUTER environment, is the value the specification's lookup order gives *)
Theorem enum_name_value_with_outer_environment : forall block exported obj outer n,
  NoDup (map fst exported) -> (forall m, In m block -> lookup_flag m exported = Some true) ->
  rt_name block exported obj outer n = spec_name (map fst (filter snd exported)) obj outer n.
Proof. exact rt_name_is_spec. Qed.
Print Assumptions enum_name_value_with_outer_environment.
