(* C06: skip_exact, cases for function types and return positions *)
From V Require Import Common.Base C06.TsTokens C06.SkipType C06.SkipMono C06.TypeGrammar
  C06.SkipProofs C06.SkipProofs2 C06.SkipProofs3.

Section Main4.
Variable mg : bool.
Notation R := (R mg).
Notation Kst := (Kst mg).
Notation Pst := (Pst mg).
Notation RetSt := (RetSt mg).
Notation ParamsSt := (ParamsSt mg).
Notation TParamsSt := (TParamsSt mg).
Notation targsR := (targsR mg).

Lemma bind_is (x : Z) Y : bind_ok x = true ->
  (is_ident (tk1 (bind_tk x) :: Y) || is KThis (tk1 (bind_tk x) :: Y)) = true.
Proof. intros _. unfold bind_tk. destruct (x <? 0); reflexivity. Qed.

(* "asserts x" in a return position: the name is skipped, then the code after a name runs *)
Lemma prefix_asserts s lvl x Y : bind_ok x = true ->
  F_prefix s lvl fl_ret (tk1 (KIdent c_asserts) :: tk1 (bind_tk x) :: Y) = ident_tail s true Y.
Proof.
  intros Hx. unfold F_prefix. cbn [hd_tk tk1 fst tl].
  change (ident_kind c_asserts) with IkAsserts. cbn iota zeta.
  rewrite (bind_is x Y Hx). reflexivity.
Qed.

(* return positions: a type, or an assertion signature *)
Lemma ret_st ret : Pst ret -> RetSt ret.
Proof.
  intros [K Kin] W post Hs Ht. destruct ret; try (apply K_delim; auto; fail).
  (* TAsserts x hasis ret *)
  cbn [wf_ret_with] in W. apply andb_true_iff in W as [Hx W]. cbn [R tail_ok] in *.
  destruct hasis.
  - apply type_of_prefix0.
    eapply (ev1 _ (CType LLowest fl0 (R ret post)) (0, post)); [apply K_delim; auto|].
    intros s E1. cbn [F]. rewrite prefix_asserts by exact Hx. apply ident_tail_is, E1.
  - apply andb_true_iff in Ht as [Hi Hl].
    eapply type_of_prefix; [|apply suffix_stop; exact Hs].
    apply Ev_step, (ev_mp _ _ (EvA_no_lt post Hl)), ev_always. intros s HA.
    cbn [F]. rewrite prefix_asserts by exact Hx. apply ident_tail_args; assumption.
Qed.

Lemma binding_ev x Y : Ev (CBinding (tk1 (bind_tk x) :: Y)) (0, Y).
Proof. apply ev0. intros s. cbn [F]. unfold F_binding, bind_tk. destruct (x <? 0); reflexivity. Qed.

Lemma skip_commas_repeat h X : is KComma X = false -> skip_commas (repeat (tk1 KComma) h ++ X) = X.
Proof.
  intros H. induction h as [|h IH]; cbn [repeat app].
  - destruct X as [|[k n] r]; [reflexivity|]. destruct k; try reflexivity. discriminate.
  - cbn. exact IH.
Qed.

Definition BindSt (p : pat) : Prop := top_pat p = true -> forall Y, Ev (CBinding (Rp p Y)) (0, Y).
(* as for [Pst]: "...q" and "k: q" are no patterns by themselves ([top_pat] is false on
   them); the loops over elements and members need [BindSt] of [q] *)
Definition BindSt' (p : pat) : Prop := BindSt p /\ match p with PRest q | PProp _ q => BindSt q | _ => True end.

Lemma pat_first p Y : top_pat p = true ->
  is KRBrack (Rp p Y) = false /\ is KDotDotDot (Rp p Y) = false /\ is KRParen (Rp p Y) = false /\ is KComma (Rp p Y) = false.
Proof.
  destruct p; try discriminate; intros _; cbn [Rp]; unfold bind_tk;
    try match goal with |- context [?a <? 0] => destruct (a <? 0) end; repeat split; reflexivity.
Qed.

Lemma arr_loop : forall es, Forall BindSt' es ->
  forallb (fun e => match e with PRest q => (match q with PId _ | PArr _ _ | PObj _ => wf_pat q | _ => false end)
                              | PId _ | PArr _ _ | PObj _ => wf_pat e | _ => false end) es = true ->
  forall Y, Ev (CBindArr (join [tk1 KComma] (map Rp es) (tk1 KRBrack :: Y))) (0, tk1 KRBrack :: Y).
Proof.
  induction es as [|e l IH]; intros HB W Y.
  - apply ev0. intros s. reflexivity.
  - inversion HB as [|? ? Be Bl]; subst. cbn [forallb] in W. apply andb_true_iff in W as [We Wl].
    specialize (IH Bl Wl Y). cbn [map]. rewrite join_cons.
    pose proof (loop_tail CBindArr ok0 Rp l (tk1 KRBrack :: Y) _ eq_refl eq_refl (fun _ => IH)) as Htail.
    set (rest := join_rest _ _ _) in *.
    clearbody rest. clear IH.
    (* the element proper (without "...") and its binding *)
    assert (Hel : exists (q : pat) (d : bool),
              Rp e rest = (if d then [tk1 KDotDotDot] else []) ++ Rp q rest /\
              top_pat q = true /\ Ev (CBinding (Rp q rest)) (0, rest)).
    { destruct e; try discriminate.
      - exists (PId x), false. repeat split; auto. apply (proj1 Be); exact We.
      - exists (PArr holes es), false. repeat split; auto. apply (proj1 Be); exact We.
      - exists e, true. destruct Be as [_ Bq].
        assert (T : top_pat e = true) by (destruct e; try discriminate; exact We).
        repeat split; auto.
      - exists (PObj ps), false. repeat split; auto. apply (proj1 Be); exact We. }
    destruct Hel as [q [d [-> [Tq Hq]]]].
    destruct (pat_first q rest Tq) as [F1 [F2 _]].
    destruct (dots_prefix d KRBrack _ eq_refl F1 F2) as [D1 D2].
    apply Ev_step, (ev_mp _ _ Htail), (ev_use Hq), ev_always. intros s E1 E2.
    cbn [F]. unfold F_bindarr. rewrite D1, D2. unfold snd_of, bind. rewrite E1. exact E2.
Qed.

Lemma objpat_loop : forall ps, Forall BindSt' ps ->
  forallb (fun m => match m with PShort x | PObjRest x => normal x
                              | PProp _ q => (match q with PId _ | PArr _ _ | PObj _ => wf_pat q | _ => false end)
                              | _ => false end) ps = true ->
  forall Y, Ev (CBindObj (join [tk1 KComma] (map Rp ps) (tk1 KRBrace :: Y))) (0, Y).
Proof.
  induction ps as [|m l IH]; intros HB W Y.
  - apply ev0. intros s. reflexivity.
  - inversion HB as [|? ? Bm Bl]; subst. cbn [forallb] in W. apply andb_true_iff in W as [Wm Wl].
    specialize (IH Bl Wl Y). cbn [map]. rewrite join_cons.
    (* after the member: "," and the loop, or "}" *)
    pose proof (loop_tail CBindObj (fun rest => r2 <- expect KRBrace rest;; ok0 r2) Rp l (tk1 KRBrace :: Y) _
                  eq_refl eq_refl (fun _ => IH)) as Htail.
    set (rest := join_rest _ _ _) in *.
    assert (Hrc : is KColon rest = false) by (subst rest; destruct l; reflexivity).
    clearbody rest. clear IH.
    destruct m; try discriminate; cbn [Rp].
    + (* PShort: a name, and no ":" follows *)
      apply Ev_step, (ev_mp _ _ Htail), ev_always. intros s E.
      cbn [F]. unfold F_bindobj. cbn [is tk1 fst hd_tk tl].
      unfold bind at 1. cbn iota beta. rewrite Hrc. exact E.
    + (* PProp key: q, for each kind of key *)
      destruct Bm as [_ Bq].
      assert (Tq : top_pat m = true) by (destruct m; try discriminate; exact Wm).
      apply Ev_step, (ev_mp _ _ Htail), (ev_use (Bq Tq rest)), ev_always. intros s E1 E2.
      cbn [F]. unfold F_bindobj, key_tk.
      destruct (0 <=? key); [|destruct (key =? -1); [|destruct (key =? -2); [|destruct (key =? -3)]]].
      all: cbn; unfold snd_of, bind; rewrite E1; exact E2.
    + (* PObjRest: "..." and a name, and no ":" follows *)
      apply Ev_step, (ev_mp _ _ Htail), ev_always. intros s E.
      cbn [F]. unfold F_bindobj. cbn [is tk1 fst hd_tk tl is_ident].
      unfold bind at 1. cbn iota beta. rewrite Hrc. exact E.
Qed.

Lemma binding_pat_all p : BindSt' p.
Proof.
  induction p using pat_ind'; unfold BindSt'; (split; [|try exact I; try (apply IHp)]).
  all: intros T Y; try discriminate.
  - apply binding_ev.
  - cbn [top_pat wf_pat] in T. cbn [Rp].
    eapply ev1; [apply (arr_loop es H T Y)|]. intros s E1.
    cbn [F]. unfold F_binding. cbn [hd_tk tk1 fst tl]. rewrite skip_commas_repeat.
    + unfold snd_of, bind. rewrite E1. reflexivity.
    + destruct es as [|e l]; [reflexivity|]. cbn [forallb] in T. apply andb_true_iff in T as [Te _].
      assert (X : forall rest, is KComma (Rp e rest) = false).
      { intros rest. destruct e; try discriminate; cbn [Rp]; unfold bind_tk;
          try match goal with |- context [?a <? 0] => destruct (a <? 0) end; reflexivity. }
      destruct l; cbn [map join]; apply X.
  - cbn [top_pat wf_pat] in T. cbn [Rp].
    eapply ev1; [apply (objpat_loop ps H T Y)|]. intros s E1.
    cbn [F]. unfold F_binding. cbn [hd_tk tk1 fst tl]. exact E1.
Qed.

Lemma binding_pat p Y : top_pat p = true -> Ev (CBinding (Rp p Y)) (0, Y).
Proof. intros T. apply (proj1 (binding_pat_all p) T Y). Qed.

Lemma params_loop : forall ps, Forall Pst ps -> ParamsSt ps.
Proof.
  induction ps as [|pm l IH]; intros HP W post.
  - apply ev0. intros s. reflexivity.
  - inversion HP as [|? ? Pp Pl]; subst. cbn [wf_params_with] in W.
    destruct pm; try discriminate. destruct Pp as [_ Kt].
    apply andb_true_iff in W as [W Wl]. apply andb_true_iff in W as [Hx Wt].
    specialize (IH Pl Wl post). cbn [map]. rewrite join_cons.
    pose proof (loop_tail CFnArgLoop (fun rest => r4 <- expect KRParen rest;; ok0 r4) R l (tk1 KRParen :: post) _
                  eq_refl eq_refl (fun _ => IH)) as Htail.
    set (rest := join_rest _ _ _) in *.
    assert (Hrest : delimiter (hd_tk rest) = true /\ is KQuestion rest = false /\ is KColon rest = false)
      by (subst rest; destruct l; repeat split; reflexivity).
    destruct Hrest as [S1 [S3 S4]]. clearbody rest. clear IH.
    cbn [R].
    set (after := if ann then tk1 KColon :: R pm rest else rest).
    pose proof (binding_pat p (optq opt ++ after) Hx) as HB.
    assert (HT : eventually (fun s => ann = true -> s (CType LLowest fl0 (R pm rest)) = Ok (0, rest)))
      by (apply ev_when; intros ->; apply Ev_all, K_at; auto).
    destruct (pat_first p (optq opt ++ after) Hx) as [_ [F1 [F3 _]]].
    destruct (dots_prefix dots KRParen _ eq_refl F3 F1) as [D1 D2].
    apply Ev_step, (ev_mp _ _ Htail), (ev_mp _ _ HT), (ev_use HB), ev_always. intros s E1 E2 E3.
    cbn [F]. unfold F_fnargloop. rewrite D1, D2. unfold snd_of, bind. rewrite E1. subst after.
    destruct ann; [specialize (E2 eq_refl)|]; destruct opt; cbn.
    all: unfold type_at, snd_of, bind; rewrite ?E2, ?S3, ?S4; exact E3.
Qed.

Lemma fnargs_ev ps post : Forall Pst ps -> wf_params_with wfb ps = true ->
  Ev (CFnArgs (tk1 KLParen :: join [tk1 KComma] (map R ps) (tk1 KRParen :: post))) (0, post).
Proof.
  intros HP W. eapply ev1; [apply (params_loop ps HP W post)|].
  intros s E1. cbn [F]. unfold F_fnargs. cbn. exact E1.
Qed.

(* "( params ) => ret" through skipTypeScriptParenOrFnType *)
Lemma parenfn_ev ps ret post :
  Forall Pst ps -> wf_params_with wfb ps = true -> RetSt ret -> wf_ret_with wfb ret = true ->
  StopAll post -> tail_ok ret post = true ->
  Ev (CParenOrFn (tk1 KLParen :: join [tk1 KComma] (map R ps) (tk1 KRParen :: tk1 KArrow :: R ret post))) (0, post).
Proof.
  intros HP W HR Wr Hs Ht.
  apply Ev_step, (ev_use (HR Wr post Hs Ht)), (ev_use (fnargs_ev ps (tk1 KArrow :: R ret post) HP W)), ev_always.
  intros s E1 E2. cbn [F]. unfold F_parenorfn, snd_of, bind. rewrite E1. cbn.
  unfold type_at, snd_of, bind. rewrite E2. reflexivity.
Qed.

Definition mod_tk (m : Z) : token := tk1 (if m =? 0 then KConst else if m =? 1 then KIn else KIdent c_out).

Lemma mods_ev : forall ms res e x Y, normal x = true ->
  exists code, Ev (CParamMods res e (map mod_tk ms ++ tk1 (KIdent x) :: Y)) (code, tk1 (KIdent x) :: Y).
Proof.
  induction ms as [|m r IH]; intros res e x Y Hx.
  - eexists. apply ev0. intros s. cbn [F map app]. unfold F_parammods.
    assert (E : is_ctx c_out (tk1 (KIdent x) :: Y) = false).
    { unfold is_ctx, is, tk1. cbn [fst]. unfold tk_eqb.
      destruct (tk_eq_dec (KIdent x) (KIdent c_out)) as [E|E]; [|reflexivity].
      inversion E. subst x. discriminate. }
    assert (E1 : is KConst (tk1 (KIdent x) :: Y) = false) by reflexivity.
    assert (E2 : is KIn (tk1 (KIdent x) :: Y) = false) by reflexivity.
    rewrite E1, E2, E. reflexivity.
  - cbn [map app]. unfold mod_tk at 1.
    (* const, in, out *)
    destruct (m =? 0); [destruct (IH 2 true x Y Hx) as [code H]|].
    2: destruct (m =? 1); [destruct (IH res true x Y Hx) as [code H]|destruct (IH res false x Y Hx) as [code H]].
    all: exists code; (eapply ev1; [exact H|]); intros s E; cbn [F]; unfold F_parammods; cbn; exact E.
Qed.

(* what the loop over type parameters does after a parameter that ends before [rest] *)
Definition tparam_tail (s : oracle) (res : Z) (rest : toks) : SkipType.R :=
  if negb (is KComma rest) then Ok (res, rest)
  else if is KGt (tl rest) then Ok (2, tl rest) else s (CParamLoop res (tl rest)).

Lemma tparam_step mods x hc hd c d rest res post' :
  normal x = true -> (hc = true -> Kst c /\ wfb c = true) -> (hd = true -> Kst d /\ wfb d = true) ->
  delimiter (hd_tk rest) = true -> is KExtends rest = false -> is KEq rest = false ->
  (forall r3, exists code, eventually (fun s => tparam_tail s r3 rest = Ok (code, post'))) ->
  exists code, Ev (CParamLoop res (R (TTParam mods x hc hd c d) rest)) (code, post').
Proof.
  intros Hx Hc Hd R1 R3 R4 Htail.
  assert (HD : eventually (fun s => hd = true -> s (CType LLowest fl0 (R d rest)) = Ok (0, rest)))
    by (apply ev_when; intros E; destruct (Hd E); apply Ev_all, K_at; auto).
  set (B := if hd then tk1 KEq :: R d rest else rest).
  assert (HC : eventually (fun s => hc = true -> s (CType LLowest fl0 (R c B)) = Ok (0, B))).
  { apply ev_when. intros E. destruct (Hc E). apply Ev_all, K_at; auto.
    subst B. destruct hd; [reflexivity|exact R1]. }
  set (A := if hc then tk1 KExtends :: R c B else B).
  assert (ER : R (TTParam mods x hc hd c d) rest = map mod_tk mods ++ tk1 (KIdent x) :: A)
    by (subst A B; cbn [R]; unfold mod_tk; destruct hc, hd; reflexivity).
  rewrite ER. clear ER.
  destruct (mods_ev mods res true x A Hx) as [mcode HM].
  destruct (Htail (if hd then 2 else if hc then 2 else if 10 <=? mcode then mcode - 10 else mcode)) as [code Ht].
  exists code. apply Ev_step, (ev_mp _ _ Ht), (ev_mp _ _ HD), (ev_mp _ _ HC), (ev_use HM), ev_always.
  subst A. generalize (R c B). intros Yc. subst B. generalize (R d rest). intros Yd s E1 E2 E3 E4.
  cbn [F]. unfold F_paramloop, type_at, snd_of, bind. rewrite E1. cbn. rewrite orb_true_r.
  destruct hc, hd; cbn.
  - rewrite (E2 eq_refl). cbn. rewrite (E3 eq_refl). exact E4.
  - rewrite (E2 eq_refl). cbn. rewrite R4. exact E4.
  - rewrite (E3 eq_refl). exact E4.
  - rewrite R3, R4. exact E4.
Qed.

Lemma tparam_first mods x hc hd c d l post' :
  is KGt (join [tk1 KComma] (R (TTParam mods x hc hd c d) :: map R l) post') = false.
Proof.
  assert (E : forall rest, is KGt (R (TTParam mods x hc hd c d) rest) = false).
  { intros rest. cbn [R]. destruct mods as [|m ms]; cbn [map app]; [reflexivity|].
    destruct (m =? 0); [reflexivity|]. destruct (m =? 1); reflexivity. }
  destruct l; cbn [map join]; apply E.
Qed.

Lemma tparam_loop : forall tps, tps <> [] -> Forall Pst tps -> wf_tparams_with wfb tps = true ->
  forall res post', delimiter (hd_tk post') = true -> is KComma post' = false ->
  is KExtends post' = false -> is KEq post' = false ->
  exists code, Ev (CParamLoop res (join [tk1 KComma] (map R tps) post')) (code, post').
Proof.
  induction tps as [|tp l IH]; intros Hne HP W res post' Hd Hc He Hq; [congruence|].
  inversion HP as [|? ? Ptp Pl]; subst. cbn [wf_tparams_with] in W.
  destruct tp; try discriminate. destruct Ptp as [_ [Kc Kd]].
  split_andb.
  cbn [map]. rewrite join_cons. apply tparam_step; auto.
  - intros ->. auto.
  - intros ->. auto.
  - destruct l; [exact Hd|reflexivity].
  - destruct l; [exact He|reflexivity].
  - destruct l; [exact Hq|reflexivity].
  - intros r3. unfold tparam_tail. destruct l as [|y l'].
    + exists r3. apply ev_always. intros s. cbn [map join_rest]. rewrite Hc. reflexivity.
    + destruct (IH ltac:(discriminate) Pl ltac:(assumption) r3 post' Hd Hc He Hq) as [code HJ]. exists code.
      apply (ev_use HJ), ev_always. intros s E.
      cbn [join_rest map app is tk1 fst tl negb]. change (tk_eqb KComma KComma) with true. cbn iota.
      (* the next element is a type parameter: no ">" follows the "," *)
      destruct y; try discriminate.
      rewrite tparam_first. exact E.
Qed.

(* "<" type parameters ">" through skipTypeScriptTypeParameters *)
Lemma tparams_st tps : Forall Pst tps -> TParamsSt tps.
Proof.
  intros HP W post Hlt. destruct tps as [|tp l].
  { exists 0. apply ev0. intros s. cbn [F]. unfold F_params. cbn [SkipProofs2.targsR]. rewrite Hlt. reflexivity. }
  destruct (push_gt_ok mg post) as [P1 [P3 P4]].
  assert (P5 : is KExtends (push_gt mg post) = false /\ is KEq (push_gt mg post) = false).
  { unfold push_gt. destruct mg; [|split; reflexivity].
    destruct post as [|[k n] p]; [split; reflexivity|]. destruct k, n; split; reflexivity. }
  destruct (tparam_loop (tp :: l) ltac:(discriminate) HP W 1 (push_gt mg post) P1 P3 (proj1 P5) (proj2 P5)) as [code HL].
  exists code. unfold SkipProofs2.targsR.
  remember (join [tk1 KComma] (map R (tp :: l)) (push_gt mg post)) as J eqn:EJ.
  clear EJ. eapply ev1; [exact HL|]. intros s E1.
  cbn [F]. unfold F_params. cbn [is tk1 fst tl negb].
  change (tk_eqb KLt KLt) with true. cbn [negb andb]. rewrite E1. unfold bind. rewrite P4. reflexivity.
Qed.

Lemma K_fn kind tps ps ret : Forall Pst tps -> Forall Pst ps -> Pst ret -> Kst (TFn kind tps ps ret).
Proof.
  intros HT HP Pr W lvl f post r Hl _ Hf Ht Hst Hs. cbn [wfb tail_ok prec] in *. specialize (Hst eq_refl).
  split_andb.
  pose proof (parenfn_ev ps ret post HP ltac:(assumption) (ret_st ret Pr) ltac:(assumption) Hst Ht) as HF.
  change (R (TFn kind tps ps ret) post) with
     ((if kind =? 2 then [tk1 (KIdent c_abstract); tk1 KNew] else if kind =? 1 then [tk1 KNew] else []) ++
      targsR tps (tk1 KLParen :: join [tk1 KComma] (map R ps) (tk1 KRParen :: tk1 KArrow :: R ret post))).
  revert HF. generalize (join [tk1 KComma] (map R ps) (tk1 KRParen :: tk1 KArrow :: R ret post)). intros J HF.
  destruct (tparams_st tps HT ltac:(assumption) (tk1 KLParen :: J) eq_refl) as [pcode Hpar].
  (* with or without "new" in front *)
  assert (Hnew : forall b : bool,
            Ev (CPrefix lvl f ((if b then [tk1 KNew] else []) ++ targsR tps (tk1 KLParen :: J))) (1, post)).
  { intros b. apply Ev_step, (ev_use HF), (ev_use Hpar), ev_always. unfold SkipProofs2.targsR.
    destruct tps as [|tp l].
    2: generalize (join [tk1 KComma] (map R (tp :: l)) (push_gt mg (tk1 KLParen :: J))); intros J2.
    all: intros s E1 E2; destruct b; cbn; unfold snd_of, bind; rewrite ?andb_false_r, ?E1, E2; reflexivity. }
  eapply type_of_prefix; [|exact Hs].
  destruct (kind =? 2); [|destruct (kind =? 1); [exact (Hnew true)|exact (Hnew false)]].
  (* "abstract new": the first loop goes round once more *)
  cbn [app]. eapply ev1; [exact (Hnew true)|].
  generalize (targsR tps (tk1 KLParen :: J)). intros TB s E1. exact E1.
Qed.
End Main4.
