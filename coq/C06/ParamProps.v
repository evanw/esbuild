(* C06: parameter properties (constructor(private x, public y = e)) and instance
   field initialisers under assign semantics.

   Model: js_parser_lower_class.go -- the constructor arguments with
   IsTypeScriptCtorField yield "this.x = x" statements in argument order
   (ctx.parameterFields), the instance field initialisers follow in declaration
   order (ctx.instanceMembers), and insertStmtsAfterSuperCall places the
   generated statements at the start of the body of a base class, or right after
   the (single, top-level) "super(...)" statement of a derived class.

   Specification: TypeScript's emit rule (handbook, "Parameter Properties";
   tsc's transformConstructorBody): after super() returns -- at the start of the
   constructor when there is no base class -- the parameter properties are
   assigned in parameter order, then the property initialisers run in
   declaration order, then the rest of the body; everything runs exactly once
   and the relative order of the user's statements is unchanged. *)
From V Require Import Common.Base.

Inductive stmt : Type :=
| SSuper                      (* super(...) as a top-level expression statement *)
| SOther (id : Z)             (* any other user statement *)
| SAssignParam (name : Z)     (* this.name = name *)
| SFieldInit (id : Z).        (* this.f = <initialiser id> *)

Definition stmt_eqb (a b : stmt) : bool :=
  match a, b with
  | SSuper, SSuper => true
  | SOther x, SOther y | SAssignParam x, SAssignParam y | SFieldInit x, SFieldInit y => x =? y
  | _, _ => false
  end.

(* parameters: (name, is a parameter property) *)
Definition generated (params : list (Z * bool)) (fields : list Z) : list stmt :=
  map SAssignParam (map fst (filter snd params)) ++ map SFieldInit fields.

Fixpoint insert_after_super (gen body : list stmt) : option (list stmt) :=
  match body with
  | [] => None                                  (* no top-level super(): the general path (not modelled) *)
  | SSuper :: r => Some (SSuper :: gen ++ r)
  | s :: r => match insert_after_super gen r with Some l => Some (s :: l) | None => None end
  end.

Definition lower (derived : bool) (params : list (Z * bool)) (fields : list Z) (body : list stmt) : option (list stmt) :=
  if derived then insert_after_super (generated params fields) body
  else Some (generated params fields ++ body).

(* a user body: no generated statements; a derived class calls super() exactly once at top level *)
Definition user_stmt (s : stmt) : bool := match s with SSuper | SOther _ => true | _ => false end.
Definition is_super (s : stmt) : bool := match s with SSuper => true | _ => false end.

Lemma insert_spec gen : forall body, existsb is_super body = true ->
  exists pre post, body = pre ++ SSuper :: post /\ existsb is_super pre = false /\
                   insert_after_super gen body = Some (pre ++ SSuper :: gen ++ post).
Proof.
  induction body as [|s r IH]; intros H; [discriminate|].
  destruct (is_super s) eqn:Es.
  - destruct s; try discriminate Es. exists [], r. repeat split.
  - cbn [existsb] in H. rewrite Es in H. destruct (IH H) as [pre [post [E [Hp Hi]]]].
    exists (s :: pre), post. subst r. repeat split.
    + cbn [existsb]. rewrite Es. exact Hp.
    + destruct s; try discriminate Es; cbn [insert_after_super]; rewrite Hi; reflexivity.
Qed.

(* ORDER: the lowered constructor is  [statements before super] super()
   [parameter properties in parameter order] [field initialisers in declaration
   order] [rest of the body] *)
Theorem lower_order_all derived params fields body :
  (derived = true -> existsb is_super body = true) ->
  exists pre post,
    body = pre ++ (if derived then [SSuper] else []) ++ post /\
    (derived = true -> existsb is_super pre = false) /\ (derived = false -> pre = []) /\
    lower derived params fields body =
      Some (pre ++ (if derived then [SSuper] else []) ++
            map SAssignParam (map fst (filter snd params)) ++ map SFieldInit fields ++ post).
Proof.
  intros H. unfold lower. destruct derived.
  - destruct (insert_spec (generated params fields) body (H eq_refl)) as [pre [post [E [Hp Hi]]]].
    exists pre, post. repeat split; auto; try discriminate.
    rewrite Hi. unfold generated. cbn [app]. rewrite <- app_assoc. reflexivity.
  - exists [], body. repeat split; auto; try discriminate.
    unfold generated. cbn [app]. rewrite <- app_assoc. reflexivity.
Qed.

Lemma filter_const {A} (p : A -> bool) (b : bool) l : (forall x, In x l -> p x = b) ->
  filter p l = (if b then l else []) /\ filter (fun x => negb (p x)) l = (if b then [] else l).
Proof.
  induction l as [|a l IH]; intros H; [destruct b; auto|].
  destruct (IH (fun x Hx => H x (or_intror Hx))) as [E1 E2].
  cbn [filter]. rewrite (H a (or_introl eq_refl)), E1, E2. destruct b; auto.
Qed.

Lemma generated_not_user params fields x : In x (generated params fields) -> user_stmt x = false.
Proof.
  unfold generated. intros H.
  apply in_app_iff in H as [H|H]; apply in_map_iff in H as [y [<- _]]; reflexivity.
Qed.

Lemma insert_none gen : forall body, existsb is_super body = false -> insert_after_super gen body = None.
Proof.
  induction body as [|s r IH]; intros H; [reflexivity|].
  destruct s; try discriminate H; cbn [insert_after_super]; rewrite (IH H); reflexivity.
Qed.

(* ONCE: removing the generated statements gives back the user's body, and the
   generated statements occur exactly as often as listed *)
Theorem lower_preserves_body_all derived params fields body out :
  forallb user_stmt body = true -> lower derived params fields body = Some out ->
  filter user_stmt out = body /\
  filter (fun s => negb (user_stmt s)) out = generated params fields.
Proof.
  intros Hu H.
  assert (Fu : forall l, forallb user_stmt l = true ->
            filter user_stmt l = l /\ filter (fun s => negb (user_stmt s)) l = [])
    by (intros l E; apply (filter_const user_stmt true), forallb_forall, E).
  destruct (filter_const user_stmt false _ (generated_not_user params fields)) as [G1 G2].
  unfold lower in H. destruct derived.
  - destruct (existsb is_super body) eqn:Hs; [|rewrite insert_none in H by exact Hs; discriminate].
    destruct (insert_spec (generated params fields) body Hs) as [pre [post [E [Hp Hi]]]].
    rewrite Hi in H. inversion H; subst.
    rewrite forallb_app in Hu. apply andb_true_iff in Hu as [U1 U2]. cbn in U2.
    destruct (Fu pre U1) as [A1 A2]. destruct (Fu post U2) as [B1 B2].
    rewrite !filter_app. cbn [filter user_stmt negb]. rewrite !filter_app, G1, G2, A1, A2, B1, B2.
    cbn [app]. rewrite app_nil_r. auto.
  - inversion H; subst. destruct (Fu body Hu) as [A B].
    rewrite !filter_app, G1, G2, A, B, app_nil_r. auto.
Qed.

Lemma count_param_once params x : NoDup (map fst params) -> In (x, true) params ->
  count_occ Z.eq_dec (map fst (filter snd params)) x = 1%nat.
Proof.
  induction params as [|[n b] r IH]; intros Hnd Hin; [contradiction|].
  cbn [map fst] in Hnd. inversion Hnd as [|? ? Hn Hr]; subst.
  destruct Hin as [Hin|Hin].
  - inversion Hin; subst. cbn. destruct (Z.eq_dec x x); [|congruence]. f_equal.
    apply count_occ_not_In. intros Hc. apply Hn.
    apply in_map_iff in Hc as [[n' b'] [E1 E2]]. apply filter_In in E2 as [E2 _].
    apply in_map_iff. exists (n', b'). auto.
  - assert (n <> x) by (intros ->; apply Hn; apply in_map_iff; exists (x, true); auto).
    destruct b; cbn; [destruct (Z.eq_dec n x); [congruence|]|]; apply IH; auto.
Qed.

(* with distinct parameter names every parameter property is assigned exactly once *)
Theorem param_assigned_once_all derived params fields body out x :
  forallb user_stmt body = true -> lower derived params fields body = Some out ->
  NoDup (map fst params) -> In (x, true) params ->
  count_occ Z.eq_dec (flat_map (fun s => match s with SAssignParam n => [n] | _ => [] end) out) x = 1%nat.
Proof.
  intros Hu H Hnd Hin.
  destruct (lower_preserves_body_all derived params fields body out Hu H) as [_ G].
  set (names := fun s => match s with SAssignParam n => [n] | _ => [] end).
  assert (E : flat_map names out = map fst (filter snd params)).
  { (* only generated statements assign, and those are the listed ones *)
    transitivity (flat_map names (filter (fun s => negb (user_stmt s)) out)).
    - clear. induction out as [|s r IH]; [reflexivity|]. destruct s; cbn; rewrite <- IH; reflexivity.
    - rewrite G. unfold generated. rewrite flat_map_app.
      assert (A : forall l, flat_map names (map SAssignParam l) = l) by (induction l; cbn; congruence).
      assert (B : forall l, flat_map names (map SFieldInit l) = []) by (induction l; cbn; auto).
      rewrite A, B, app_nil_r. reflexivity. }
  rewrite E. apply count_param_once; assumption.
Qed.

(* correspondence cases: (derived, params, fields, body, observed constructor body);
   statements are encoded (tag, payload): 0 super, 1 other id, 2 assign-param name, 3 field-init id *)
Definition dec (p : Z * Z) : stmt :=
  let '(t, x) := p in if t =? 0 then SSuper else if t =? 1 then SOther x else if t =? 2 then SAssignParam x else SFieldInit x.
Definition pp_case := (bool * list (Z * bool) * list Z * list (Z * Z) * list (Z * Z))%type.
Definition pp_case_ok (c : pp_case) : bool :=
  let '(derived, params, fields, body, obs) := c in
  match lower derived params fields (map dec body) with
  | Some out => list_eqb stmt_eqb out (map dec obs)
  | None => false
  end.
