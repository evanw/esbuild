(* Model of the hash input streams in /repo/internal/linker/linker.go:

     hashWriteUint32 / hashWriteLengthPrefixed        -> u32le / lenpref
     generateIsolatedHash                             -> isolated_stream, iso_hash
     appendIsolatedHashesForImportedChunks            -> dfs (visited stamps, imports first,
                                                         asset paths, own isolated hash)
     generateChunksInParallel, "Compute the final hashes" loop -> final_loop
       (one [visited] array shared by all roots, stamp ^uint32(chunkIndex))
     config.TemplateToString(SubstituteTemplate(.., {Hash})) -> final_name

   The hash function is the Section variable H (bytes -> bytes); xxhash is
   modelled separately (XXHash.v) and only plugged in when cases are evaluated.
   Executable definitions only. *)
From V Require Import Common.Base C18.Pieces.

Definition u32le (v : Z) : bytes :=
  [v mod 256; (v / 256) mod 256; (v / 65536) mod 256; (v / 16777216) mod 256].
Definition lenpref (b : bytes) : bytes := u32le (Z.of_nat (length b)) ++ b.

(* one entry of partsInChunkInOrder with the fields of its file that are hashed *)
Record part := mkPart {
  pt_ns : bytes;       (* Source.KeyPath.Namespace *)
  pt_key : bytes;      (* Source.KeyPath.Text *)
  pt_pretty : bytes;   (* Source.PrettyPaths.Rel *)
  pt_begin : Z;
  pt_end : Z }.

Definition ns_file : bytes := [102; 105; 108; 101].   (* "file" *)

Definition part_stream (p : part) : bytes :=
  let path := if zlist_eqb (pt_ns p) ns_file then pt_pretty p else pt_key p in
  lenpref (pt_ns p) ++ lenpref path ++ u32le (pt_begin p) ++ u32le (pt_end p).

(* template part: data and placeholder (0 none, 1 dir, 2 name, 3 hash, 4 ext) *)
Definition tpart := (bytes * Z)%type.

Record chunk := mkChunk {
  c_is_js : bool;
  c_parts : list part;
  c_template : list tpart;
  c_pieces : option (list piece);   (* None: intermediateOutput.pieces == nil, joiner kept *)
  c_joiner : bytes;
  c_sm_prefix : bytes;
  c_sm_mappings : bytes;
  c_sm_suffix : bytes;
  c_imports : list nat }.           (* crossChunkImports, chunk indices *)

Definition pieces_stream (c : chunk) : bytes :=
  match c_pieces c with
  | Some ps => concat (map (fun p => lenpref (pdata p)) ps)
  | None => lenpref (c_joiner c)
  end.

Definition isolated_stream (public : bytes) (c : chunk) : bytes :=
  (if c_is_js c then concat (map part_stream (c_parts c)) else [])
  ++ concat (map (fun t : tpart => lenpref (fst t)) (c_template c))
  ++ (match public with [] => [] | _ => lenpref public end)
  ++ pieces_stream c
  ++ lenpref (c_sm_prefix c) ++ lenpref (c_sm_mappings c) ++ lenpref (c_sm_suffix c).

Definition has_hash (t : list tpart) : bool := existsb (fun p : tpart => snd p =? 3) t.

Definition placeholder_text (k : Z) : bytes :=
  if k =? 1 then [91;100;105;114;93] else if k =? 2 then [91;110;97;109;101;93]
  else if k =? 3 then [91;104;97;115;104;93] else if k =? 4 then [91;101;120;116;93] else [].

(* TemplateToString (SubstituteTemplate template {Hash: hs}) *)
Definition final_name (t : list tpart) (hs : option bytes) : bytes :=
  concat (map (fun p : tpart =>
     fst p ++ (if snd p =? 3 then match hs with Some h => h | None => placeholder_text 3 end
               else placeholder_text (snd p))) t).

Fixpoint set_nth {A} (i : nat) (x : A) (l : list A) : list A :=
  match l, i with
  | [], _ => []
  | _ :: r, O => x :: r
  | y :: r, S k => y :: set_nth k x r
  end.

(* "for _, chunkImport := range chunk.crossChunkImports { recurse }" with the visited stamps threaded *)
Fixpoint visit_all (rec : list Z -> nat -> option (list Z * list nat)) (l : list nat) (vis : list Z)
  : option (list Z * list nat) :=
  match l with
  | [] => Some (vis, [])
  | j :: r =>
    match rec vis j with
    | None => None
    | Some (vis1, o1) =>
      match visit_all rec r vis1 with
      | None => None
      | Some (vis2, o2) => Some (vis2, o1 ++ o2)
      end
    end
  end.

Section WithHash.
  Variable H : bytes -> bytes.          (* xxhash.New(); Write*; Sum(nil) *)
  Variable public : bytes.              (* c.options.PublicPath *)
  Variable asset_rel : Z -> bytes.      (* fs.Rel(AbsOutputDir, AdditionalFiles[0].AbsPath) of file [i], "/"-separated *)
  Variable chunks : list chunk.

  Definition iso_hash (c : chunk) : bytes := H (isolated_stream public c).

  (* "Mix in hashes for referenced asset paths" *)
  Definition assets_stream (c : chunk) : bytes :=
    match c_pieces c with
    | Some ps => concat (map (fun p => if pkind p =? 1 then lenpref (asset_rel (pidx p)) else []) ps)
    | None => []
    end.

  (* what visiting chunk [c] itself appends *)
  Definition item (c : chunk) : bytes := assets_stream c ++ iso_hash c.

  (* appendIsolatedHashesForImportedChunks as a traversal: returns the updated
     stamps and the chunk indices in the order in which their items are written.
     A chunk index out of range panics in Go: None.  Fuel:
     HashProofs.dfs_total shows [S (length chunks)] suffices. *)
  Fixpoint dfs (fuel : nat) (visited : list Z) (key : Z) (i : nat) : option (list Z * list nat) :=
    match fuel with
    | O => None
    | S f =>
      match nth_error visited i, nth_error chunks i with
      | Some stamp, Some c =>
        if stamp =? key then Some (visited, [])
        else
          match visit_all (fun vis j => dfs f vis key j) (c_imports c) (set_nth i key visited) with
          | None => None
          | Some (vis', o) => Some (vis', o ++ [i])
          end
      | _, _ => None
      end
    end.

  Definition stream_of_order (o : list nat) : bytes :=
    concat (map (fun i => match nth_error chunks i with Some c => item c | None => [] end) o).

  Definition stamp_of (i : nat) : Z := 4294967295 - Z.of_nat i.     (* ^uint32(chunkIndex) *)

  (* the loop "for chunkIndex := range c.chunks" computing the final hashes:
     the visited array is allocated once and shared; chunks whose template has
     no [hash] are skipped.  Result: per chunk, the stream hashed (None when
     skipped), or None overall on a panic / fuel exhaustion. *)
  Fixpoint final_loop (idxs : list nat) (visited : list Z) : option (list (option bytes)) :=
    match idxs with
    | [] => Some []
    | i :: r =>
      match nth_error chunks i with
      | None => None
      | Some c =>
        if has_hash (c_template c) then
          match dfs (S (length chunks)) visited (stamp_of i) i with
          | None => None
          | Some (vis', o) =>
            match final_loop r vis' with
            | None => None
            | Some rest => Some (Some (stream_of_order o) :: rest)
            end
          end
        else
          match final_loop r visited with
          | None => None
          | Some rest => Some (None :: rest)
          end
      end
    end.

  Definition final_streams : option (list (option bytes)) :=
    final_loop (seq 0 (length chunks)) (repeat 0 (length chunks)).

  (* the traversal from one root with a fresh visited array *)
  Definition final_order (root : nat) : option (list nat) :=
    match dfs (S (length chunks)) (repeat 0 (length chunks)) (stamp_of root) root with
    | Some (_, o) => Some o
    | None => None
    end.
  Definition final_stream (root : nat) : option bytes :=
    match final_order root with Some o => Some (stream_of_order o) | None => None end.
End WithHash.
