(* no_placeholder_survives, overlapping case: an occurrence of the prefix in
   the substituted output lies inside a data piece, or inside the rest, or
   inside the WINDOW around a substituted path (the last |prefix|-1 bytes
   before it, the path, the first |prefix|-1 bytes after it).  So if no such
   window contains the prefix - a condition on the final paths and on at most
   2(|prefix|-1) neighbouring bytes each - no placeholder prefix survives. *)
From V Require Import Common.Base C18.Pieces C18.PiecesProofs.

Definition occ_free (p s : bytes) : Prop := forall j, is_prefix p (skipn j s) = false.

Lemma occ_free_occurs p s : occ_free p s <-> occurs p s = false.
Proof.
  split.
  - intro F. unfold occurs. destruct (index_of p s) as [b|] eqn:E; [|reflexivity].
    apply index_of_some in E as (E & _). rewrite F in E. discriminate.
  - intros O j. unfold occurs in O. destruct (index_of p s) eqn:E; [discriminate|].
    apply index_of_none. exact E.
Qed.

(* an occurrence inside the middle part of U ++ V ++ W is an occurrence in V *)
Lemma occ_middle p U V W j : (length U <= j)%nat -> (j + length p <= length U + length V)%nat ->
  is_prefix p (skipn j (U ++ V ++ W)) = true -> is_prefix p (skipn (j - length U) V) = true.
Proof.
  intros H1 H2 H. rewrite skipn_app in H. rewrite skipn_all2 in H by lia. cbn [app] in H.
  eapply is_prefix_inside; [|exact H]. lia.
Qed.

Definition lastn (n : nat) (l : bytes) : bytes := skipn (length l - n) l.

(* the window lemma *)
Lemma occ_free_glue p A B C : p <> [] ->
  occ_free p A -> occ_free p C ->
  occ_free p (lastn (length p - 1) A ++ B ++ firstn (length p - 1) C) ->
  occ_free p (A ++ B ++ C).
Proof.
  intros NE FA FC FW j.
  destruct (is_prefix p (skipn j (A ++ B ++ C))) eqn:E; [|reflexivity]. exfalso.
  assert (Lp : (1 <= length p)%nat) by (destruct p; [congruence|cbn; lia]).
  assert (Hj : (j + length p <= length (A ++ B ++ C))%nat).
  { apply is_prefix_length in E. rewrite skipn_length in E. lia. }
  rewrite !app_length in Hj.
  destruct (le_lt_dec (j + length p) (length A)) as [InA|NotA].
  - (* inside A *)
    apply is_prefix_inside in E; [|lia]. rewrite FA in E. discriminate.
  - destruct (le_lt_dec (length A + length B) j) as [InC|NotC].
    + (* inside C *)
      rewrite app_assoc in E. rewrite skipn_app in E. rewrite skipn_all2 in E by (rewrite app_length; lia).
      cbn [app] in E. rewrite app_length in E. rewrite FC in E. discriminate.
    + (* inside the window *)
      set (n := (length p - 1)%nat) in *.
      set (U := firstn (length A - n) A).
      set (W := skipn n C).
      assert (EA : A = U ++ lastn n A) by (unfold U, lastn; symmetry; apply firstn_skipn).
      assert (EC : C = firstn n C ++ W) by (unfold W; symmetry; apply firstn_skipn).
      assert (LU : length U = (length A - n)%nat) by (unfold U; rewrite firstn_length; lia).
      assert (Ll : length (lastn n A) = Nat.min n (length A)).
      { unfold lastn. rewrite skipn_length. lia. }
      assert (Lf : length (firstn n C) = Nat.min n (length C)) by (rewrite firstn_length; reflexivity).
      assert (Ew : A ++ B ++ C = U ++ (lastn n A ++ B ++ firstn n C) ++ W).
      { rewrite EA at 1. rewrite EC at 1. rewrite <- !app_assoc. reflexivity. }
      rewrite Ew in E.
      apply occ_middle in E.
      * rewrite FW in E. discriminate.
      * rewrite LU. unfold n. lia.
      * rewrite !app_length, LU, Ll, Lf. unfold n. lia.
Qed.

(* substitution: data, path, rest *)
Definition path_of (pathOf : Z -> Z -> bytes) (p : piece) : bytes :=
  if is_ref (pkind p) then pathOf (pkind p) (pidx p) else [].

Lemma substitute_cons pathOf p r :
  substitute pathOf (p :: r) = pdata p ++ path_of pathOf p ++ substitute pathOf r.
Proof. reflexivity. Qed.

(* every window around a substituted path is free of the prefix *)
Inductive windows_free (prefix : bytes) (pathOf : Z -> Z -> bytes) : list piece -> Prop :=
| wf_nil : windows_free prefix pathOf []
| wf_cons p r :
    occ_free prefix (lastn (length prefix - 1) (pdata p) ++ path_of pathOf p ++
                     firstn (length prefix - 1) (substitute pathOf r)) ->
    windows_free prefix pathOf r -> windows_free prefix pathOf (p :: r).

Lemma no_prefix_after_substitution prefix pathOf : prefix <> [] -> forall ps,
  Forall (fun p => occurs prefix (pdata p) = false) ps ->
  windows_free prefix pathOf ps ->
  occurs prefix (substitute pathOf ps) = false.
Proof.
  intros NE ps F Wf. apply occ_free_occurs.
  induction ps as [|p r IH].
  - intro j. cbn [substitute]. rewrite skipn_nil. destruct prefix; [congruence|reflexivity].
  - inversion F; subst. inversion Wf; subst. rewrite substitute_cons.
    apply occ_free_glue; try assumption.
    + apply occ_free_occurs; assumption.
    + apply IH; assumption.
Qed.

(* for the pieces of breakOutputIntoPieces: only the last data piece needs a hypothesis *)
Lemma broken_data_free prefix nf nc ps : broken prefix nf nc ps ->
  occurs prefix (pdata (last ps (mkPiece [] 0 0))) = false ->
  Forall (fun p => occurs prefix (pdata p) = false) ps.
Proof.
  induction 1 as [d|d k i r Ho Hk Hi H1 H2 Hr IH]; intro Hl.
  - constructor; [exact Hl|constructor].
  - constructor; [exact Ho|]. apply IH. destruct r; [inversion Hr|exact Hl].
Qed.

Lemma no_placeholder_survives_overlap prefix nf nc out ps pathOf :
  prefix <> [] -> break_output prefix nf nc out = Some ps ->
  occurs prefix (pdata (last ps (mkPiece [] 0 0))) = false ->
  windows_free prefix pathOf ps ->
  occurs prefix (substitute pathOf ps) = false.
Proof.
  intros NE Hb Hl Wf. apply no_prefix_after_substitution; try assumption.
  eapply broken_data_free; [eapply break_broken; eassumption|exact Hl].
Qed.
