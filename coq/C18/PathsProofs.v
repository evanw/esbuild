(* import_path_resolves: joining the importing chunk's directory with the
   relative import path that pathBetweenChunks prints gives the imported
   chunk's final path (as goFilepath/Node/a browser resolve it: clean of the
   join).  Over the C17 path model (clean, fs_join, rel). *)
From V Require Import Common.Base C17.WriteSM C17.PathModel C18.Paths.

Lemma peqb_eq a b : path_eqb a b = true <-> a = b.
Proof. apply zlist_eqb_eq. Qed.
Lemma peqb_neq a b : a <> b -> path_eqb a b = false.
Proof. intro N. destruct (path_eqb a b) eqn:E; [apply peqb_eq in E; contradiction|reflexivity]. Qed.

Lemma split_on_nonempty' c p : split_on c p <> [].
Proof.
  induction p as [|x r IH]; simpl; [discriminate|].
  destruct (x =? c); [discriminate|]. destruct (split_on c r); discriminate.
Qed.

Lemma split_on_app' c a b : split_on c (a ++ c :: b) = split_on c a ++ split_on c b.
Proof.
  induction a as [|x a IH]; simpl.
  - rewrite Z.eqb_refl. reflexivity.
  - destruct (x =? c) eqn:E.
    + rewrite IH. reflexivity.
    + rewrite IH. destruct (split_on c a) as [|s t] eqn:ES.
      * exfalso. exact (split_on_nonempty' c a ES).
      * reflexivity.
Qed.

Definition no_byte (b : Z) (s : path) : Prop := Forall (fun c => c <> b) s.

Lemma split_on_nosep c s : no_byte c s -> split_on c s = [s].
Proof.
  induction 1 as [|x s Hx _ IH]; [reflexivity|].
  simpl. replace (x =? c) with false by lia. rewrite IH. reflexivity.
Qed.

Lemma split_join c : forall l, l <> [] -> Forall (no_byte c) l -> split_on c (join_with c l) = l.
Proof.
  induction l as [|s r IH]; intros NE F; [congruence|].
  inversion F; subst. destruct r as [|s2 r].
  - cbn [join_with]. apply split_on_nosep. assumption.
  - change (join_with c (s :: s2 :: r)) with (s ++ c :: join_with c (s2 :: r)).
    rewrite split_on_app', IH by (try discriminate; assumption).
    rewrite split_on_nosep by assumption. reflexivity.
Qed.

Definition plain (s : path) : Prop :=
  s <> [] /\ s <> seg_dot /\ s <> seg_dotdot /\ no_byte SL s /\ no_byte 92 s.

Lemma push_plain st s : plain s -> push false st s = s :: st.
Proof.
  intros (N1 & N2 & N3 & _). unfold push.
  rewrite (peqb_neq s []), (peqb_neq s seg_dot), (peqb_neq s seg_dotdot) by assumption. reflexivity.
Qed.

Lemma clean_stack_plain : forall l st, Forall plain l -> clean_stack false st l = rev l ++ st.
Proof.
  induction l as [|s l IH]; intros st F; [reflexivity|].
  inversion F; subst. unfold clean_stack in *. cbn [fold_left].
  rewrite push_plain by assumption. rewrite IH by assumption.
  cbn [rev]. rewrite <- app_assoc. reflexivity.
Qed.

Lemma clean_stack_pop : forall s st, Forall plain s ->
  clean_stack false (s ++ st) (repeat seg_dotdot (length s)) = st.
Proof.
  induction s as [|x s IH]; intros st F; [reflexivity|].
  inversion F as [|? ? Hx Hs]; subst. cbn [length repeat app]. unfold clean_stack in *. cbn [fold_left].
  destruct Hx as (_ & _ & N3 & _).
  assert (E : push false (x :: s ++ st) seg_dotdot = s ++ st).
  { unfold push. cbn. rewrite (peqb_neq x seg_dotdot) by assumption. reflexivity. }
  rewrite E. apply IH. assumption.
Qed.

Lemma clean_stack_app' r st a b : clean_stack r st (a ++ b) = clean_stack r (clean_stack r st a) b.
Proof. unfold clean_stack. apply fold_left_app. Qed.

Lemma strip_common_spec : forall a b a' b', strip_common a b = (a', b') ->
  exists c, a = c ++ a' /\ b = c ++ b'.
Proof.
  induction a as [|x a IH]; intros b a' b' H.
  - cbn in H. inversion H. exists []. split; reflexivity.
  - destruct b as [|y b]; [cbn in H; inversion H; exists []; split; reflexivity|].
    cbn [strip_common] in H. destruct (path_eqb x y) eqn:E.
    + apply peqb_eq in E. subst y. destruct (IH _ _ _ H) as (c & -> & ->). exists (x :: c). split; reflexivity.
    + inversion H. exists []. split; reflexivity.
Qed.

Lemma no92_join l : Forall (no_byte 92) l -> no_byte 92 (join_with SL l).
Proof.
  induction 1 as [|s r Hs _ IH]; [constructor|].
  destruct r as [|s2 r]; [exact Hs|].
  change (join_with SL (s :: s2 :: r)) with (s ++ SL :: join_with SL (s2 :: r)).
  apply Forall_app. split; [exact Hs|]. constructor; [unfold SL; lia|exact IH].
Qed.

Lemma bs_to_slash_id s : no_byte 92 s -> bs_to_slash s = s.
Proof.
  induction 1 as [|x s Hx _ IH]; [reflexivity|].
  cbn. replace (x =? 92) with false by lia. f_equal. exact IH.
Qed.

Lemma plain_no92 l : Forall plain l -> Forall (no_byte 92) l.
Proof. induction 1 as [|s l (_ & _ & _ & _ & H) _ IH]; constructor; assumption. Qed.
Lemma plain_noSL l : Forall plain l -> Forall (no_byte SL) l.
Proof. induction 1 as [|s l (_ & _ & _ & H & _) _ IH]; constructor; assumption. Qed.

Lemma dotdot_props : no_byte SL seg_dotdot /\ no_byte 92 seg_dotdot.
Proof. split; repeat constructor; unfold SL; lia. Qed.

Lemma Forall_repeat {A} (P : A -> Prop) x n : P x -> Forall P (repeat x n).
Proof. intro H. induction n; constructor; assumption. Qed.

(* the element list of the relative path, pushed on the directory's stack, gives the target's stack *)
Lemma rel_segments_resolve D T b' t' c :
  D = c ++ b' -> T = c ++ t' -> Forall plain D -> Forall plain T ->
  clean_stack false (rev D) (repeat seg_dotdot (length b') ++ t') = rev T.
Proof.
  intros -> -> FD FT.
  apply Forall_app in FD as [Fc Fb]. apply Forall_app in FT as [_ Ft].
  rewrite clean_stack_app'. rewrite rev_app_distr.
  rewrite <- (rev_length b'). rewrite clean_stack_pop by (apply Forall_rev; exact Fb).
  rewrite clean_stack_plain by exact Ft. rewrite rev_app_distr. reflexivity.
Qed.

(* import_path_resolves, no public path *)
Lemma path_between_resolves dir to :
  dir <> [] -> is_rooted dir = false -> is_rooted to = false ->
  Forall plain (clean_segs dir) -> Forall plain (clean_segs to) ->
  fs_join dir (path_between [] dir to) = clean to.
Proof.
  intros NEd Rd Rt FD FT.
  set (D := clean_segs dir) in *. set (T := clean_segs to) in *.
  assert (SD : clean_stack false [] (split_on SL dir) = rev D).
  { unfold D, clean_segs. rewrite Rd, rev_involutive. reflexivity. }
  unfold path_between, rel. fold D T.
  destruct (strip_common D T) as [b' t'] eqn:ES.
  destruct (strip_common_spec _ _ _ _ ES) as (c & ED & ET).
  pose proof (rel_segments_resolve D T b' t' c ED ET FD FT) as RS.
  set (l := repeat seg_dotdot (length b') ++ t') in *.
  assert (Ft : Forall plain t') by (rewrite ET in FT; apply Forall_app in FT; apply FT).
  assert (Fl92 : Forall (no_byte 92) l).
  { unfold l. apply Forall_app. split; [apply Forall_repeat, dotdot_props|apply plain_no92, Ft]. }
  assert (FlSL : Forall (no_byte SL) l).
  { unfold l. apply Forall_app. split; [apply Forall_repeat, dotdot_props|apply plain_noSL, Ft]. }
  (* the printed path [spec] splits into no-op elements followed by l *)
  assert (Hspec : exists spec, spec <> [] /\
     (let r := bs_to_slash (match l with [] => seg_dot | p :: l0 => join_with SL (p :: l0) end) in
      (if has_prefix [46; 47] r || has_prefix [46; 46; 47] r then r else [46; 47] ++ r) = spec) /\
     clean_stack false (rev D) (split_on SL spec) = rev T).
  { destruct l as [|s0 l0] eqn:El.
    - (* same directory: "." *)
      exists [46; 47; 46]. split; [discriminate|]. split; [reflexivity|].
      cbn. exact RS.
    - set (r := join_with SL (s0 :: l0)).
      assert (Er : bs_to_slash r = r) by (apply bs_to_slash_id, no92_join; exact Fl92).
      assert (Sr : split_on SL r = s0 :: l0) by (apply split_join; [discriminate|exact FlSL]).
      cbv zeta. rewrite Er.
      destruct (has_prefix [46; 47] r || has_prefix [46; 46; 47] r).
      + exists r. split; [|split; [reflexivity|rewrite Sr; exact RS]].
        unfold r. destruct l0; cbn [join_with]; [|destruct s0; discriminate].
        inversion FlSL; subst. intro X. subst s0.
        (* an empty first element cannot be: it is ".." or a plain element *)
        unfold l in El. destruct b'; cbn in El; [|inversion El].
        rewrite El in Ft. inversion Ft as [|? ? (N & _) _]. congruence.
      + exists ([46; 47] ++ r). split; [discriminate|]. split; [reflexivity|].
        change ([46; 47] ++ r) with ([46] ++ SL :: r). rewrite split_on_app', Sr.
        cbn [split_on app]. rewrite clean_stack_app'. cbn. exact RS. }
  destruct Hspec as (spec & NEs & Es & Hst). cbv zeta in Es. rewrite Es.
  unfold fs_join. destruct dir as [|d0 dir']; [congruence|]. destruct spec as [|s0 spec']; [congruence|].
  set (dirp := d0 :: dir') in *. set (specp := s0 :: spec') in *.
  unfold clean.
  assert (Rj : is_rooted (dirp ++ SL :: specp) = false) by (unfold dirp in *; cbn in *; exact Rd).
  rewrite Rj, Rt.
  assert (Ej : clean_segs (dirp ++ SL :: specp) = T).
  { unfold clean_segs. rewrite Rj, split_on_app', clean_stack_app', SD, Hst. apply rev_involutive. }
  rewrite Ej. reflexivity.
Qed.

(* with a public path the printed reference is the public path, one slash, the final path *)
Lemma path_between_public public dir to :
  public <> [] -> has_prefix [46; 47] to = false ->
  path_between public dir to = public ++ (if ends_with_slash public then [] else [SL]) ++ to.
Proof.
  intros NE Hp. unfold path_between, join_with_public_path. rewrite Hp.
  destruct public; [congruence|reflexivity].
Qed.

(* K3: a backslash in a file name is turned into a slash in the reference (Unix) *)
Lemma path_between_backslash_refuted :
  exists dir to, dir <> [] /\ is_rooted dir = false /\ is_rooted to = false /\
    fs_join dir (path_between [] dir to) <> clean to.
Proof.
  exists [46], [100; 92; 113; 46; 106; 115].
  split; [discriminate|]. split; [reflexivity|]. split; [reflexivity|]. vm_compute. discriminate.
Qed.
