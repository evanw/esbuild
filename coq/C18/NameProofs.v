(* Lemmas about final names: a change in any transitively imported chunk
   changes the importer's final hash input; what a final name does and does
   not determine. *)
From V Require Import Common.Base C18.Pieces C18.PiecesProofs C18.Hash C18.HashProofs.

Lemma visit_all_ext rec1 rec2 : (forall v j, rec1 v j = rec2 v j) ->
  forall l v, visit_all rec1 l v = visit_all rec2 l v.
Proof.
  intros E. induction l as [|j l IH]; intro v; cbn; [reflexivity|].
  rewrite E. destruct (rec2 v j) as [[v1 o1]|]; [|reflexivity]. rewrite IH. reflexivity.
Qed.

Lemma nth_error_same_imports cs1 cs2 i : map c_imports cs1 = map c_imports cs2 ->
  option_map c_imports (nth_error cs1 i) = option_map c_imports (nth_error cs2 i).
Proof. intro E. rewrite <- !nth_error_map, E. reflexivity. Qed.

(* the traversal order depends on the import lists only *)
Lemma dfs_ext cs1 cs2 : map c_imports cs1 = map c_imports cs2 ->
  forall fuel vis key i, dfs cs1 fuel vis key i = dfs cs2 fuel vis key i.
Proof.
  intros E. induction fuel as [|f IH]; intros vis key i; [reflexivity|].
  cbn [dfs]. destruct (nth_error vis i) as [stamp|]; [|reflexivity].
  pose proof (nth_error_same_imports cs1 cs2 i E) as E'.
  destruct (nth_error cs1 i) as [c1|], (nth_error cs2 i) as [c2|]; cbn in E'; try discriminate; [|reflexivity].
  inversion E' as [E'']. destruct (stamp =? key); [reflexivity|].
  rewrite (visit_all_ext _ _ (fun v j => IH v key j)). reflexivity.
Qed.

Lemma final_order_ext cs1 cs2 root : map c_imports cs1 = map c_imports cs2 ->
  final_order cs1 root = final_order cs2 root.
Proof.
  intro E. unfold final_order. rewrite <- (map_length c_imports cs1), E, map_length.
  rewrite (dfs_ext cs1 cs2 E). reflexivity.
Qed.

Lemma concat_map_eq_inv {A} (f g : A -> bytes) : forall o,
  (forall i, In i o -> length (f i) = length (g i)) ->
  concat (map f o) = concat (map g o) -> forall i, In i o -> f i = g i.
Proof.
  induction o as [|a o IH]; intros L E i Hi; [destruct Hi|].
  cbn in E. apply app_eq_length_inv in E as [E1 E2]; [|apply L; left; reflexivity].
  destruct Hi as [<-|Hi]; [exact E1|].
  apply IH; [intros j Hj; apply L; right; exact Hj|exact E2|exact Hi].
Qed.

Section Names.
  Variable H : bytes -> bytes.
  Variable public : bytes.

  (* two builds with the same import graph write, from a root, the items of the
     same chunks in the same order, and each item has the same length in both *)
  Lemma same_graph_same_layout ar1 ar2 cs1 cs2 root :
    map c_imports cs1 = map c_imports cs2 ->
    wf_graph cs1 -> (root < length cs1)%nat -> Z.of_nat (length cs1) < 4294967296 ->
    (forall a b, length (H a) = length (H b)) ->
    (forall i c1 c2, nth_error cs1 i = Some c1 -> nth_error cs2 i = Some c2 ->
       length (assets_stream ar1 c1) = length (assets_stream ar2 c2)) ->
    exists o, final_stream H public ar1 cs1 root = Some (stream_of_order H public ar1 cs1 o) /\
              final_stream H public ar2 cs2 root = Some (stream_of_order H public ar2 cs2 o) /\
              (forall x, In x o <-> reach cs1 root x) /\
              (forall i,
                 length (match nth_error cs1 i with Some c => item H public ar1 c | None => [] end) =
                 length (match nth_error cs2 i with Some c => item H public ar2 c | None => [] end)).
  Proof.
    intros Ei Hwf Hr Hn Hlen Hass.
    destruct (final_order_spec cs1 Hwf root Hr Hn) as (o & Eo & _ & Ho).
    exists o. unfold final_stream. rewrite <- (final_order_ext cs1 cs2 root Ei), Eo.
    split; [reflexivity|]. split; [reflexivity|]. split; [exact Ho|].
    intros i. pose proof (nth_error_same_imports cs1 cs2 i Ei) as E'.
    destruct (nth_error cs1 i) as [c1|] eqn:E1, (nth_error cs2 i) as [c2|] eqn:E2; cbn in E'; try discriminate; [|reflexivity].
    unfold item, iso_hash. rewrite !app_length, (Hass i c1 c2 E1 E2). f_equal. apply Hlen.
  Qed.

  (* final_name_changes_with_dependency *)
  Lemma final_stream_changes ar1 ar2 cs1 cs2 root x :
    map c_imports cs1 = map c_imports cs2 ->
    wf_graph cs1 -> (root < length cs1)%nat -> Z.of_nat (length cs1) < 4294967296 ->
    (forall a b, length (H a) = length (H b)) ->
    (forall i c1 c2, nth_error cs1 i = Some c1 -> nth_error cs2 i = Some c2 ->
       length (assets_stream ar1 c1) = length (assets_stream ar2 c2)) ->
    reach cs1 root x ->
    (forall c1 c2, nth_error cs1 x = Some c1 -> nth_error cs2 x = Some c2 ->
       assets_stream ar1 c1 = assets_stream ar2 c2 /\
       isolated_stream public c1 <> isolated_stream public c2 /\
       (H (isolated_stream public c1) = H (isolated_stream public c2) ->
        isolated_stream public c1 = isolated_stream public c2)) ->
    exists s1 s2, final_stream H public ar1 cs1 root = Some s1 /\
                  final_stream H public ar2 cs2 root = Some s2 /\ s1 <> s2.
  Proof.
    intros Ei Hwf Hr Hn Hlen Hass R Hx.
    destruct (same_graph_same_layout ar1 ar2 cs1 cs2 root Ei Hwf Hr Hn Hlen Hass) as (o & -> & -> & Ho & L).
    do 2 eexists. split; [reflexivity|]. split; [reflexivity|]. intro E.
    pose proof (concat_map_eq_inv _ _ o (fun i _ => L i) E x (proj2 (Ho x) R)) as Ex. cbv beta in Ex.
    pose proof (nth_error_same_imports cs1 cs2 x Ei) as E'.
    assert (Lx : (x < length cs1)%nat).
    { clear - R Hr Hwf. induction R as [|a b R IH [c [Ec Hin]]]; [exact Hr|]. eapply Hwf; eassumption. }
    destruct (nth_error cs1 x) as [c1|] eqn:E1.
    2:{ apply nth_error_None in E1. lia. }
    destruct (nth_error cs2 x) as [c2|] eqn:E2; [|discriminate].
    destruct (Hx c1 c2 eq_refl eq_refl) as (Ea & Ne & Inj).
    unfold item, iso_hash in Ex. rewrite Ea in Ex. apply app_inv_head in Ex. apply Ne, Inj, Ex.
  Qed.
End Names.

Definition ref_path (pathOf : Z -> Z -> bytes) (p : piece) : bytes :=
  if is_ref (pkind p) then pathOf (pkind p) (pidx p) else [].

Lemma substitute_as_map pathOf : forall ps,
  substitute pathOf ps = concat (map (fun p => pdata p ++ ref_path pathOf p) ps).
Proof. induction ps as [|p r IH]; [reflexivity|]. cbn [substitute map concat]. rewrite IH, <- app_assoc. reflexivity. Qed.

Lemma map_pair_eq {A B C} (f : A -> B) (g : A -> C) (f' : A -> B) (g' : A -> C) : forall l1 l2,
  map f l1 = map f' l2 -> map g l1 = map g' l2 ->
  map (fun x => (f x, g x)) l1 = map (fun x => (f' x, g' x)) l2.
Proof.
  induction l1 as [|a l1 IH]; intros [|b l2] E1 E2; cbn in *; try discriminate; try reflexivity.
  inversion E1; inversion E2. f_equal; try congruence. apply IH; assumption.
Qed.

(* same_name_same_bytes_partial: equal hashed piece data (which is what an
   equal isolated hash gives, up to collisions of H) yields equal final bytes
   PROVIDED the path substituted at every position is the same - and that
   proviso is exactly what the hash does not cover. *)
Lemma same_bytes_partial pathOf1 pathOf2 ps1 ps2 :
  Forall (fun p => fits32 (pdata p)) ps1 -> Forall (fun p => fits32 (pdata p)) ps2 ->
  concat (map (fun p => lenpref (pdata p)) ps1) = concat (map (fun p => lenpref (pdata p)) ps2) ->
  map (ref_path pathOf1) ps1 = map (ref_path pathOf2) ps2 ->
  substitute pathOf1 ps1 = substitute pathOf2 ps2.
Proof.
  intros F1 F2 E Er.
  assert (Ed : map pdata ps1 = map pdata ps2).
  { apply lenpref_concat_inj.
    - apply Forall_map. exact F1.
    - apply Forall_map. exact F2.
    - rewrite !map_map. exact E. }
  rewrite !substitute_as_map.
  pose proof (map_pair_eq pdata (ref_path pathOf1) pdata (ref_path pathOf2) ps1 ps2 Ed Er) as Ep.
  replace (map (fun p => pdata p ++ ref_path pathOf1 p) ps1)
    with (map (fun q : bytes * bytes => fst q ++ snd q) (map (fun x => (pdata x, ref_path pathOf1 x)) ps1))
    by (rewrite map_map; reflexivity).
  rewrite Ep, map_map. reflexivity.
Qed.

(* the witness against same_name_same_bytes (DESIGN section 7-E) *)

(* bundler.HashForFileName: base32 (RFC 4648 alphabet) of the sum, first 8 characters = first 40 bits *)
Definition b32char (v : Z) : Z := if v <? 26 then 65 + v else 24 + v.
Definition hash_for_file_name (sum : bytes) : bytes :=
  let v := fold_left (fun acc b => acc * 256 + b) (firstn 5 sum) 0 in
  map (fun k => b32char ((v / 2 ^ (5 * k)) mod 32)) [7; 6; 5; 4; 3; 2; 1; 0].

Definition wit_tmpl (name : bytes) : list tpart := [(name ++ [45], 3); ([46; 106; 115], 0)].  (* name-[hash].js *)
Definition wit_imp : bytes := [105;109;112;111;114;116;40;34].      (* import( and a quote *)
Definition wit_mid : bytes := [34;41;59;10] ++ wit_imp.               (* quote ) ; newline import( quote *)
Definition wit_end : bytes := [34;41;59;10].
Definition wit_leaf (name body : bytes) : chunk := mkChunk true [] (wit_tmpl name) None body [] [] [] [].
Definition wit_a (first second : Z) : chunk :=
  mkChunk true [] (wit_tmpl [97])
    (Some [mkPiece wit_imp first 2; mkPiece wit_mid second 2; mkPiece wit_end 0 0]) [] [] [] [] [1%nat; 2%nat].
Definition wit_build (first second : Z) : list chunk := [wit_a first second; wit_leaf [120] [120; 10]; wit_leaf [121] [121; 10]].

(* the names and bytes of one build, as generateChunksInParallel computes them
   (all chunks in the output directory: pathBetweenChunks gives dot slash name) *)
Definition name_of (H : bytes -> bytes) (cs : list chunk) (i : nat) : option bytes :=
  match nth_error cs i, final_stream H [] (fun _ => []) cs i with
  | Some c, Some s => Some (final_name (c_template c) (Some (hash_for_file_name (H s))))
  | _, _ => None
  end.
Definition bytes_of (H : bytes -> bytes) (cs : list chunk) (i : nat) : option bytes :=
  match nth_error cs i with
  | Some c =>
    Some (substitute_out (fun k idx => match name_of H cs (Z.to_nat idx) with Some nm => [46; 47] ++ nm | None => [] end)
            (c_pieces c) (c_joiner c))
  | None => None
  end.

(* The two builds hash the same stream for chunk 0, whatever the hash function,
   so the names agree; the bytes differ where the two import paths are swapped:
   byte 10, ahead of any that depends on the hash, is x in one build and y in the other. *)
Lemma same_name_different_bytes (H : bytes -> bytes) :
  exists nm b1 b2,
    name_of H (wit_build 1 2) 0 = Some nm /\ name_of H (wit_build 2 1) 0 = Some nm /\
    bytes_of H (wit_build 1 2) 0 = Some b1 /\ bytes_of H (wit_build 2 1) 0 = Some b2 /\ b1 <> b2.
Proof.
  do 3 eexists. do 4 (split; [reflexivity|]).
  intro E. apply (f_equal (fun b => nth 10 b 0)) in E. discriminate E.
Qed.

Lemma same_stream_different_refs (H : bytes -> bytes) :
  final_stream H [] (fun _ => []) (wit_build 1 2) 0 = final_stream H [] (fun _ => []) (wit_build 2 1) 0
  /\ final_stream H [] (fun _ => []) (wit_build 1 2) 0 <> None.
Proof. split; [reflexivity|discriminate]. Qed.
