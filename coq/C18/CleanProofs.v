(* The converse of pieces_lossless: breakOutputIntoPieces finds exactly the keys
   of a CLEAN text (the prefix occurs nowhere but at the keys, overlapping
   occurrences included).  These lemmas only use the shared pieces model; the
   substitution layer of C19 (coq/C19/SubstProofs.v) imports them from here, so
   that the C18 check does not depend on the JSON layers of C19 / C01. *)
From V Require Import Common.Base C18.Pieces C18.PiecesProofs.

Inductive clean (prefix : bytes) (nf nc : Z) : list piece -> Prop :=
| clean_last d : occurs prefix d = false -> clean prefix nf nc [mkPiece d 0 0]
| clean_cons d k i r :
    is_ref k = true -> 0 <= i < 10 ^ 8 -> (k = 1 -> i < nf) -> (k = 2 -> i < nc) ->
    index_of prefix (d ++ prefix) = Some (length d) ->
    clean prefix nf nc r -> clean prefix nf nc (mkPiece d i k :: r).

Lemma index_of_clean p t : forall d,
  index_of p (d ++ p) = Some (length d) -> index_of p (d ++ p ++ t) = Some (length d).
Proof.
  induction d as [|x d IH]; intro H.
  - cbn [app length]. rewrite index_of_unfold, is_prefix_app. reflexivity.
  - cbn [app length] in *. rewrite index_of_unfold in H. rewrite index_of_unfold.
    assert (E : is_prefix p (x :: d ++ p ++ t) = is_prefix p (x :: d ++ p)).
    { change (x :: d ++ p ++ t) with ((x :: d) ++ p ++ t). rewrite app_assoc.
      apply is_prefix_ext. cbn [app length]. rewrite app_length. lia. }
    rewrite E. destruct (is_prefix p (x :: d ++ p)); [discriminate|].
    destruct (index_of p (d ++ p)) as [n|] eqn:En; [|discriminate].
    inversion H; subst n. rewrite (IH eq_refl). reflexivity.
Qed.

Lemma break_clean prefix nf nc ps : clean prefix nf nc ps ->
  forall fuel, (length (join_with_keys prefix ps) < fuel)%nat ->
  break_pieces fuel prefix nf nc (join_with_keys prefix ps) = Some ps.
Proof.
  induction 1 as [d Ho|d k i r Hk Hi H1 H2 Hx Hc IH]; intros fuel Hf.
  - cbn [join_with_keys pdata pkind pidx] in *. change (is_ref 0) with false in *. cbv iota in *.
    rewrite !app_nil_r in *. destruct fuel; [lia|]. cbn [break_pieces].
    unfold occurs in Ho. destruct (index_of prefix d); [discriminate|reflexivity].
  - cbn [join_with_keys pdata pkind pidx] in *. rewrite Hk in *.
    destruct fuel; [lia|]. cbn [break_pieces].
    unfold key_bytes in *. rewrite <- app_assoc in *.
    rewrite (index_of_clean prefix _ d Hx).
    assert (Es : skipn (length d + length prefix)
                   (d ++ prefix ++ (byte_of_kind k :: digits_n 8 i) ++ join_with_keys prefix r)
                 = byte_of_kind k :: digits_n 8 i ++ join_with_keys prefix r).
    { rewrite app_assoc. rewrite <- app_length. rewrite skipn_app, skipn_all, Nat.sub_diag. reflexivity. }
    rewrite Es. rewrite parse_key_key by assumption.
    assert (E9 : skipn 9 (byte_of_kind k :: digits_n 8 i ++ join_with_keys prefix r) = join_with_keys prefix r).
    { change (skipn 9 (?x :: ?l)) with (skipn 8 l).
      pose proof (digits_n_length 8 i) as L. rewrite <- L at 1.
      rewrite skipn_app, skipn_all, Nat.sub_diag. reflexivity. }
    rewrite E9. rewrite IH.
    2:{ rewrite !app_length in Hf. cbn [length] in Hf. lia. }
    rewrite firstn_app, firstn_all, Nat.sub_diag. cbn [firstn]. rewrite app_nil_r. reflexivity.
Qed.

