(* same final name => same hashed ingredients; every reachable chunk's isolated
   hash is part of the final hash input (cyclic graphs included). *)
From V Require Import Common.Base C18.Pieces C18.PiecesProofs C18.Hash C18.HashProofs C18.NameProofs C18.Ingredients.

Lemma app_eq_tail_inv {A} : forall (a b h1 h2 : list A),
  length h1 = length h2 -> a ++ h1 = b ++ h2 -> a = b /\ h1 = h2.
Proof.
  intros a b h1 h2 L E.
  assert (La : length a = length b).
  { assert (X : length (a ++ h1) = length (b ++ h2)) by (rewrite E; reflexivity). rewrite !app_length in X. lia. }
  apply app_eq_length_inv in E; assumption.
Qed.

Section Deep.
  Variable H : bytes -> bytes.
  Hypothesis Hlen : forall a b, length (H a) = length (H b).

  (* the root is written last *)
  Lemma final_order_ends_with_root chunks root o :
    (root < length chunks)%nat -> Z.of_nat (length chunks) < 4294967296 ->
    final_order chunks root = Some o -> exists o', o = o' ++ [root].
  Proof.
    intros Hr Hn. unfold final_order. cbn [dfs].
    rewrite nth_error_repeat by assumption.
    destruct (nth_error chunks root) as [c|] eqn:Ec; [|discriminate].
    destruct (0 =? stamp_of root) eqn:Es; [unfold stamp_of in Es; lia|].
    destruct (visit_all _ (c_imports c) _) as [[v o1]|]; [|discriminate].
    intro E. inversion E. eexists; reflexivity.
  Qed.

  Lemma stream_of_order_app public ar chunks a b :
    stream_of_order H public ar chunks (a ++ b) =
    stream_of_order H public ar chunks a ++ stream_of_order H public ar chunks b.
  Proof. unfold stream_of_order. rewrite map_app, concat_app. reflexivity. Qed.

  (* same_name_same_ingredients: two builds (any graphs, any options) that give
     a chunk the same final name hash the same ingredients for that chunk *)
  Lemma same_name_same_own_ingredients public1 public2 ar1 ar2 cs1 cs2 r1 r2 c1 c2 s1 s2 :
    (r1 < length cs1)%nat -> (r2 < length cs2)%nat ->
    Z.of_nat (length cs1) < 4294967296 -> Z.of_nat (length cs2) < 4294967296 ->
    nth_error cs1 r1 = Some c1 -> nth_error cs2 r2 = Some c2 ->
    final_stream H public1 ar1 cs1 r1 = Some s1 -> final_stream H public2 ar2 cs2 r2 = Some s2 ->
    (* the same [hash] in the name, and no collision of the (truncated) final hash on these two streams *)
    hash_for_file_name (H s1) = hash_for_file_name (H s2) ->
    (hash_for_file_name (H s1) = hash_for_file_name (H s2) -> s1 = s2) ->
    (* no collision of the isolated hash on these two streams *)
    (H (isolated_stream public1 c1) = H (isolated_stream public2 c2) ->
     isolated_stream public1 c1 = isolated_stream public2 c2) ->
    (* same shape (number of parts, template parts, pieces; public path present or not), sizes below 2^32 *)
    map ishape (iso_ingredients public1 c1) = map ishape (iso_ingredients public2 c2) ->
    Forall ing_ok (iso_ingredients public1 c1) -> Forall ing_ok (iso_ingredients public2 c2) ->
    iso_ingredients public1 c1 = iso_ingredients public2 c2.
  Proof.
    intros Hr1 Hr2 Hn1 Hn2 Ec1 Ec2 E1 E2 Hname Hcoll Hiso Hshape F1 F2.
    specialize (Hcoll Hname). subst s2.
    unfold final_stream in E1, E2.
    destruct (final_order cs1 r1) as [o1|] eqn:O1; [|discriminate].
    destruct (final_order cs2 r2) as [o2|] eqn:O2; [|discriminate].
    destruct (final_order_ends_with_root _ _ _ Hr1 Hn1 O1) as [p1 ->].
    destruct (final_order_ends_with_root _ _ _ Hr2 Hn2 O2) as [p2 ->].
    inversion E1 as [X1]. inversion E2 as [X2]. rewrite <- X1 in X2. clear E1 E2 X1.
    rewrite !stream_of_order_app in X2.
    unfold stream_of_order at 2 4 in X2. cbn [map concat] in X2. rewrite Ec1, Ec2 in X2.
    unfold item, iso_hash in X2. rewrite !app_nil_r, !app_assoc in X2.
    apply app_eq_tail_inv in X2 as [_ Eh]; [|apply Hlen].
    apply isolated_stream_determines_ingredients; try assumption.
    apply Hiso. symmetry. exact Eh.
  Qed.

  (* ... and, when the two builds have the same import graph and the same asset
     references, the same isolated hash for EVERY chunk reachable from it *)
  Lemma same_stream_same_reachable_hashes public ar1 ar2 cs1 cs2 root x c1 c2 s :
    map c_imports cs1 = map c_imports cs2 ->
    wf_graph cs1 -> (root < length cs1)%nat -> Z.of_nat (length cs1) < 4294967296 ->
    (forall i d1 d2, nth_error cs1 i = Some d1 -> nth_error cs2 i = Some d2 ->
       length (assets_stream ar1 d1) = length (assets_stream ar2 d2)) ->
    final_stream H public ar1 cs1 root = Some s -> final_stream H public ar2 cs2 root = Some s ->
    reach cs1 root x -> nth_error cs1 x = Some c1 -> nth_error cs2 x = Some c2 ->
    assets_stream ar1 c1 = assets_stream ar2 c2 /\ iso_hash H public c1 = iso_hash H public c2.
  Proof.
    intros Ei Hwf Hr Hn Hass E1 E2 R Ex1 Ex2.
    destruct (same_graph_same_layout H public ar1 ar2 cs1 cs2 root Ei Hwf Hr Hn Hlen Hass) as (o & F1 & F2 & Ho & L).
    rewrite E1 in F1. rewrite E2 in F2. injection F1 as ->. injection F2 as F2.
    pose proof (concat_map_eq_inv _ _ o (fun i _ => L i) F2 x (proj2 (Ho x) R)) as Ex.
    cbv beta in Ex. rewrite Ex1, Ex2 in Ex. unfold item in Ex.
    apply app_eq_tail_inv in Ex; [exact Ex|apply Hlen].
  Qed.
End Deep.

(* every chunk's final hash input contains the isolated hash of every chunk
   reachable from it - cycles of dynamic imports included *)
Lemma final_stream_contains_reachable (H : bytes -> bytes) public ar chunks root x c :
  wf_graph chunks -> (root < length chunks)%nat -> Z.of_nat (length chunks) < 4294967296 ->
  reach chunks root x -> nth_error chunks x = Some c ->
  exists pre post, final_stream H public ar chunks root = Some (pre ++ iso_hash H public c ++ post).
Proof.
  intros Hwf Hr Hn R Ex.
  destruct (final_order_spec chunks Hwf root Hr Hn) as (o & Eo & _ & Ho).
  unfold final_stream. rewrite Eo.
  destruct (in_split x o (proj2 (Ho x) R)) as (o1 & o2 & ->).
  exists (stream_of_order H public ar chunks o1 ++ assets_stream ar c), (stream_of_order H public ar chunks o2).
  f_equal. rewrite stream_of_order_app. unfold stream_of_order at 2. cbn [map concat]. rewrite Ex.
  unfold item. rewrite <- !app_assoc. reflexivity.
Qed.

(* two chunks on a cycle: each one's final hash input contains the other's isolated hash *)
Lemma cycle_members_hash_each_other (H : bytes -> bytes) public ar chunks a b ca cb :
  wf_graph chunks -> (a < length chunks)%nat -> (b < length chunks)%nat -> Z.of_nat (length chunks) < 4294967296 ->
  reach chunks a b -> reach chunks b a -> nth_error chunks a = Some ca -> nth_error chunks b = Some cb ->
  (exists pre post, final_stream H public ar chunks a = Some (pre ++ iso_hash H public cb ++ post)) /\
  (exists pre post, final_stream H public ar chunks b = Some (pre ++ iso_hash H public ca ++ post)).
Proof.
  intros Hwf Ha Hb Hn Rab Rba Ea Eb. split; eapply final_stream_contains_reachable; eassumption.
Qed.
