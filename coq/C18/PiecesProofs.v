(* Lemmas about the shared pieces model (used by C18 and C19). *)
From V Require Import Common.Base C18.Pieces.

Lemma is_prefix_app p t : is_prefix p (p ++ t) = true.
Proof. induction p as [|x p IH]; cbn; [reflexivity|]. rewrite Z.eqb_refl, IH. reflexivity. Qed.

Lemma is_prefix_true p : forall s, is_prefix p s = true -> s = p ++ skipn (length p) s.
Proof.
  induction p as [|x p IH]; intros s H; cbn in *; [reflexivity|].
  destruct s as [|y s]; [discriminate|].
  apply andb_true_iff in H as [H1 H2]. apply Z.eqb_eq in H1. subst y.
  cbn. f_equal. apply IH, H2.
Qed.

Lemma is_prefix_app_r p a t : is_prefix p a = true -> is_prefix p (a ++ t) = true.
Proof. intro H. apply is_prefix_true in H. rewrite H, <- app_assoc. apply is_prefix_app. Qed.

Lemma is_prefix_iff p s : is_prefix p s = true <-> exists t, s = p ++ t.
Proof.
  split.
  - intro H. eexists. apply is_prefix_true, H.
  - intros [t ->]. apply is_prefix_app.
Qed.

Lemma index_of_unfold p s :
  index_of p s = if is_prefix p s then Some O else
    match s with [] => None | _ :: s' => match index_of p s' with Some n => Some (S n) | None => None end end.
Proof. destruct s; reflexivity. Qed.

Lemma index_of_some p : forall s b, index_of p s = Some b ->
  is_prefix p (skipn b s) = true /\ (b <= length s)%nat /\
  (forall j, (j < b)%nat -> is_prefix p (skipn j s) = false).
Proof.
  induction s as [|y s IH]; intros b H; rewrite index_of_unfold in H.
  - destruct (is_prefix p []) eqn:E; [|discriminate]. inversion H; subst b.
    repeat split; [exact E|lia|intros j Hj; lia].
  - destruct (is_prefix p (y :: s)) eqn:E.
    + inversion H; subst b. repeat split; [exact E|lia|intros j Hj; lia].
    + destruct (index_of p s) as [n|] eqn:En; [|discriminate]. inversion H; subst b.
      destruct (IH n eq_refl) as (H1 & H2 & H3). repeat split; [exact H1|cbn [length]; lia|].
      intros [|j] Hj; [exact E|]. cbn [skipn]. apply H3. lia.
Qed.

Lemma skipn_skipn {A} a : forall b (l : list A), skipn a (skipn b l) = skipn (b + a) l.
Proof. induction b as [|b IH]; intro l; [reflexivity|]. destruct l; [rewrite !skipn_nil; reflexivity|apply IH]. Qed.

Lemma index_of_split p s b : index_of p s = Some b -> s = firstn b s ++ p ++ skipn (b + length p) s.
Proof.
  intro H. apply index_of_some in H as (H & _). apply is_prefix_true in H.
  rewrite skipn_skipn in H. rewrite <- H. symmetry. apply firstn_skipn.
Qed.

Lemma index_of_none p : forall s, index_of p s = None -> forall j, is_prefix p (skipn j s) = false.
Proof.
  induction s as [|y s IH]; intros H j; rewrite index_of_unfold in H.
  - destruct (is_prefix p []) eqn:E; [discriminate|]. destruct j; exact E.
  - destruct (is_prefix p (y :: s)) eqn:E; [discriminate|].
    destruct (index_of p s) eqn:En; [discriminate|].
    destruct j; [exact E|]. cbn [skipn]. apply IH. reflexivity.
Qed.

Lemma is_prefix_length p : forall s, is_prefix p s = true -> (length p <= length s)%nat.
Proof.
  induction p as [|x p IH]; intros s H; cbn in *; [lia|].
  destruct s as [|y s]; [discriminate|]. apply andb_true_iff in H as [_ H]. apply IH in H. cbn. lia.
Qed.

Lemma is_prefix_ext p : forall a t, (length p <= length a)%nat -> is_prefix p (a ++ t) = is_prefix p a.
Proof.
  induction p as [|x p IH]; intros a t H; [reflexivity|].
  destruct a as [|y a]; [cbn in H; lia|]. cbn [app is_prefix].
  rewrite IH by (cbn [length] in H; lia). reflexivity.
Qed.

Lemma index_of_le p s b : index_of p s = Some b -> (b + length p <= length s)%nat.
Proof.
  intro H. apply index_of_some in H as (H & L & _).
  apply is_prefix_length in H. rewrite skipn_length in H. lia.
Qed.

Lemma index_of_first p : forall s b,
  is_prefix p (skipn b s) = true -> (b <= length s)%nat ->
  (forall j, (j < b)%nat -> is_prefix p (skipn j s) = false) ->
  index_of p s = Some b.
Proof.
  induction s as [|y s IH]; intros b Hb Hl Hf; rewrite index_of_unfold.
  - cbn in Hl. assert (b = O) by lia. subst b. cbn in Hb. rewrite Hb. reflexivity.
  - destruct b as [|b].
    + cbn in Hb. rewrite Hb. reflexivity.
    + pose proof (Hf O ltac:(lia)) as H0. cbn [skipn] in H0. rewrite H0.
      cbn [skipn] in Hb. rewrite (IH b); [reflexivity | exact Hb | cbn in Hl; lia |].
      intros j Hj. apply (Hf (S j)). lia.
Qed.

Definition is_digit (c : Z) : bool := negb ((c <? 48) || (57 <? c)).

Lemma parse_digits_snoc ds : forall c acc,
  parse_digits (ds ++ [c]) acc =
  match parse_digits ds acc with
  | Some a => if (c <? 48) || (57 <? c) then None else Some (a * 10 + c - 48)
  | None => None
  end.
Proof.
  induction ds as [|d ds IH]; intros c acc; cbn.
  - destruct ((c <? 48) || (57 <? c)); reflexivity.
  - destruct ((d <? 48) || (57 <? d)); [reflexivity|]. apply IH.
Qed.

Lemma parse_digits_format : forall ds v,
  parse_digits ds 0 = Some v -> digits_n (length ds) v = ds /\ 0 <= v < 10 ^ Z.of_nat (length ds).
Proof.
  induction ds as [|c ds IH] using rev_ind; intros v H.
  - cbn in H. inversion H. split; [reflexivity|cbn; lia].
  - rewrite parse_digits_snoc in H. destruct (parse_digits ds 0) as [a|] eqn:Ea; [|discriminate].
    destruct ((c <? 48) || (57 <? c)) eqn:Ec; [discriminate|]. inversion H; subst v. clear H.
    destruct (IH a eq_refl) as [IH1 IH2].
    rewrite app_length. cbn [length]. replace (length ds + 1)%nat with (S (length ds)) by lia.
    rewrite Nat2Z.inj_succ, Z.pow_succ_r by lia. cbn [digits_n].
    replace ((a * 10 + c - 48) / 10) with a by lia.
    replace (48 + (a * 10 + c - 48) mod 10) with c by lia.
    rewrite IH1. split; [reflexivity|lia].
Qed.

Lemma digits_n_length n : forall v, length (digits_n n v) = n.
Proof. induction n; intro v; cbn; [reflexivity|]. rewrite app_length, IHn. cbn. lia. Qed.

Lemma parse_digits_digits_n n : forall v, 0 <= v < 10 ^ Z.of_nat n -> parse_digits (digits_n n v) 0 = Some v.
Proof.
  induction n as [|n IH]; intros v Hv.
  - cbn in *. f_equal. lia.
  - cbn [digits_n]. rewrite parse_digits_snoc.
    rewrite Nat2Z.inj_succ, Z.pow_succ_r in Hv by lia.
    rewrite IH by lia.
    assert (0 <= v mod 10 < 10) by (apply Z.mod_pos_bound; lia).
    destruct ((48 + v mod 10 <? 48) || (57 <? 48 + v mod 10)) eqn:E; [lia|].
    f_equal. lia.
Qed.

Lemma parse_key_spec nf nc after k idx :
  parse_key nf nc after = Some (k, idx) ->
  after = byte_of_kind k :: digits_n 8 idx ++ skipn 9 after /\
  is_ref k = true /\ 0 <= idx < 10 ^ 8 /\ (k = 1 -> idx < nf) /\ (k = 2 -> idx < nc).
Proof.
  unfold parse_key. intro H.
  destruct (length after <? 9)%nat eqn:El; [discriminate|].
  destruct after as [|c rest]; [discriminate|].
  destruct (parse_digits (firstn 8 rest) 0) as [v|] eqn:Ed; [|discriminate].
  apply parse_digits_format in Ed as [Ed Hv].
  assert (L8 : length (firstn 8 rest) = 8%nat) by (rewrite firstn_length; cbn [length] in El; lia).
  rewrite L8 in Ed, Hv. change (Z.of_nat 8) with 8 in Hv.
  assert (R : rest = firstn 8 rest ++ skipn 8 rest) by (symmetry; apply firstn_skipn).
  unfold kind_of_byte in H.
  destruct (c =? 65) eqn:E65.
  - cbn in H. destruct (v <? nf) eqn:Ev; [|discriminate]. inversion H; subst k idx.
    cbn [byte_of_kind Z.eqb]. replace c with 65 by lia.
    rewrite Ed. change (skipn 9 (65 :: rest)) with (skipn 8 rest).
    repeat split; try lia; try (f_equal; exact R).
  - destruct (c =? 67) eqn:E67.
    + cbn in H. destruct (v <? nc) eqn:Ev; [|discriminate]. inversion H; subst k idx.
      replace c with 67 by lia. rewrite Ed. change (skipn 9 (67 :: rest)) with (skipn 8 rest).
      repeat split; try lia; try (f_equal; exact R).
    + cbn in H. discriminate.
Qed.

Lemma parse_key_key nf nc k idx rest :
  is_ref k = true -> 0 <= idx < 10 ^ 8 -> (k = 1 -> idx < nf) -> (k = 2 -> idx < nc) ->
  parse_key nf nc (byte_of_kind k :: digits_n 8 idx ++ rest) = Some (k, idx).
Proof.
  intros Hk Hi H1 H2. unfold parse_key.
  assert (L : length (digits_n 8 idx) = 8%nat) by apply digits_n_length.
  destruct (length (byte_of_kind k :: digits_n 8 idx ++ rest) <? 9)%nat eqn:El.
  { cbn [length] in El. rewrite app_length, L in El. lia. }
  assert (F : forall a b : bytes, firstn (length a) (a ++ b) = a).
  { intros a b. rewrite firstn_app, firstn_all, Nat.sub_diag. cbn. apply app_nil_r. }
  pose proof (F (digits_n 8 idx) rest) as F'. rewrite L in F'. rewrite F'. clear F F'.
  rewrite parse_digits_digits_n by (change (Z.of_nat 8) with 8; lia).
  unfold is_ref in Hk. unfold byte_of_kind, kind_of_byte.
  destruct (k =? 1) eqn:E1.
  - cbn. assert (k = 1) by lia. subst k. destruct (idx <? nf) eqn:E; [reflexivity|]. specialize (H1 eq_refl). lia.
  - destruct (k =? 2) eqn:E2; [|discriminate]. cbn. assert (k = 2) by lia. subst k.
    destruct (idx <? nc) eqn:E; [reflexivity|]. specialize (H2 eq_refl). lia.
Qed.

(* the three ways a call of break_pieces ends, as an induction principle *)
Lemma break_pieces_ind prefix nf nc (P : bytes -> list piece -> Prop) :
  (forall out, index_of prefix out = None -> P out [mkPiece out 0 0]) ->
  (forall out b, index_of prefix out = Some b ->
     parse_key nf nc (skipn (b + length prefix) out) = None -> P out [mkPiece out 0 0]) ->
  (forall out b k idx ps, index_of prefix out = Some b ->
     parse_key nf nc (skipn (b + length prefix) out) = Some (k, idx) ->
     P (skipn 9 (skipn (b + length prefix) out)) ps -> P out (mkPiece (firstn b out) idx k :: ps)) ->
  forall fuel out ps, break_pieces fuel prefix nf nc out = Some ps -> P out ps.
Proof.
  intros Hfree Hbad Hkey. induction fuel as [|f IH]; intros out ps H; [discriminate|].
  cbn [break_pieces] in H.
  destruct (index_of prefix out) as [b|] eqn:Eb; [|inversion H; apply Hfree, Eb].
  destruct (parse_key nf nc (skipn (b + length prefix) out)) as [[k idx]|] eqn:Ek; [|inversion H; eapply Hbad; eassumption].
  destruct (break_pieces f prefix nf nc (skipn 9 (skipn (b + length prefix) out))) as [ps'|] eqn:Er; [|discriminate].
  inversion H. eapply Hkey; [eassumption|eassumption|]. apply IH, Er.
Qed.

(* pieces_lossless: putting the keys back gives the intermediate output *)
Lemma break_lossless prefix nf nc : forall fuel out ps,
  break_pieces fuel prefix nf nc out = Some ps -> join_with_keys prefix ps = out.
Proof.
  apply (break_pieces_ind prefix nf nc (fun out ps => join_with_keys prefix ps = out)).
  - intros out _. cbn. apply app_nil_r.
  - intros out b _ _. cbn. apply app_nil_r.
  - intros out b k idx ps Eb Ek IH.
    apply index_of_split in Eb as Eo.
    apply parse_key_spec in Ek as (Ea & Hk & _).
    cbn [join_with_keys pdata pkind pidx]. rewrite Hk, IH. unfold key_bytes.
    etransitivity; [|symmetry; exact Eo]. f_equal. rewrite <- app_assoc. f_equal.
    cbn [app]. rewrite Ea at 2. reflexivity.
Qed.

Lemma skipn_length_le {A} n (l : list A) : (length (skipn n l) <= length l)%nat.
Proof. rewrite skipn_length. lia. Qed.

Lemma break_fuel_ok prefix nf nc : forall fuel out, (length out < fuel)%nat ->
  exists ps, break_pieces fuel prefix nf nc out = Some ps.
Proof.
  induction fuel as [|f IH]; intros out Hl; [lia|].
  cbn [break_pieces].
  destruct (index_of prefix out) as [b|] eqn:Eb; [|eexists; reflexivity].
  destruct (parse_key nf nc (skipn (b + length prefix) out)) as [[k idx]|] eqn:Ek; [|eexists; reflexivity].
  assert (L9 : (9 <= length (skipn (b + length prefix) out))%nat).
  { unfold parse_key in Ek. destruct (length (skipn (b + length prefix) out) <? 9)%nat eqn:E; [discriminate|lia]. }
  destruct (IH (skipn 9 (skipn (b + length prefix) out))) as [ps Hps].
  { rewrite skipn_length. pose proof (skipn_length_le (b + length prefix) out). lia. }
  rewrite Hps. eexists; reflexivity.
Qed.

Lemma break_total prefix nf nc out : exists ps, break_output prefix nf nc out = Some ps.
Proof. apply break_fuel_ok. lia. Qed.

Lemma break_fuel_mono prefix nf nc : forall fuel out ps,
  break_pieces fuel prefix nf nc out = Some ps -> forall fuel', (fuel <= fuel')%nat ->
  break_pieces fuel' prefix nf nc out = Some ps.
Proof.
  induction fuel as [|f IH]; intros out ps H fuel' Hf; [discriminate|].
  destruct fuel' as [|f']; [lia|].
  cbn [break_pieces] in *.
  destruct (index_of prefix out) as [b|]; [|exact H].
  destruct (parse_key nf nc (skipn (b + length prefix) out)) as [[k idx]|]; [|exact H].
  destruct (break_pieces f prefix nf nc (skipn 9 (skipn (b + length prefix) out))) as [ps'|] eqn:Er; [|discriminate].
  rewrite (IH _ _ Er f') by lia. exact H.
Qed.

Lemma accurate_count_length pathOf : forall ps,
  accurate_count pathOf ps = Z.of_nat (length (substitute pathOf ps)).
Proof.
  induction ps as [|p r IH]; [reflexivity|].
  cbn [accurate_count substitute]. rewrite !app_length, IH.
  destruct (is_ref (pkind p)); cbn [length]; lia.
Qed.

(* structure of the result: all pieces but the last are references whose data
   is free of the prefix; the last piece is kind 0 *)
Inductive broken (prefix : bytes) (nf nc : Z) : list piece -> Prop :=
| broken_last d : broken prefix nf nc [mkPiece d 0 0]
| broken_cons d k i r :
    occurs prefix d = false -> is_ref k = true -> 0 <= i < 10 ^ 8 ->
    (k = 1 -> i < nf) -> (k = 2 -> i < nc) ->
    broken prefix nf nc r -> broken prefix nf nc (mkPiece d i k :: r).

Lemma occurs_firstn_index p s b : p <> [] -> index_of p s = Some b -> occurs p (firstn b s) = false.
Proof.
  intros NE H. unfold occurs. destruct (index_of p (firstn b s)) as [c|] eqn:Ec; [|reflexivity]. exfalso.
  pose proof (index_of_le _ _ _ Ec) as Lc. rewrite firstn_length in Lc.
  apply index_of_some in Ec as (Ec & _). apply index_of_some in H as (_ & _ & Hf).
  assert (Hc : (c < b)%nat) by (destruct p; [congruence|cbn [length] in Lc; lia]).
  (* an occurrence at c in the first b bytes is one in the whole text, before b *)
  specialize (Hf c Hc).
  rewrite <- (firstn_skipn b s), skipn_app, (is_prefix_app_r _ _ _ Ec) in Hf. discriminate.
Qed.

Lemma break_broken prefix nf nc : prefix <> [] -> forall fuel out ps,
  break_pieces fuel prefix nf nc out = Some ps -> broken prefix nf nc ps.
Proof.
  intro NE. apply (break_pieces_ind prefix nf nc (fun _ ps => broken prefix nf nc ps)); [constructor|constructor|].
  intros out b k idx ps Eb Ek IH.
  apply parse_key_spec in Ek as (_ & Hk & Hi & H1 & H2).
  constructor; try assumption. apply occurs_firstn_index; assumption.
Qed.

(* the last piece: either free of the prefix, or its first occurrence of the
   prefix is not a valid key (input contained placeholder-like text) *)
Lemma break_last prefix nf nc : forall fuel out ps,
  break_pieces fuel prefix nf nc out = Some ps ->
  exists d, last ps (mkPiece [] 0 0) = mkPiece d 0 0 /\
    (occurs prefix d = false \/
     exists b, index_of prefix d = Some b /\ parse_key nf nc (skipn (b + length prefix) d) = None).
Proof.
  intros fuel out ps H.
  enough (exists d r, ps = r ++ [mkPiece d 0 0] /\
            (occurs prefix d = false \/
             exists b, index_of prefix d = Some b /\ parse_key nf nc (skipn (b + length prefix) d) = None))
    as (d & r & -> & Hd) by (exists d; rewrite last_last; split; [reflexivity|exact Hd]).
  revert fuel out ps H. apply break_pieces_ind.
  - intros out Eb. exists out, []. split; [reflexivity|]. left. unfold occurs. rewrite Eb. reflexivity.
  - intros out b Eb Ek. exists out, []. split; [reflexivity|]. right. exists b. split; assumption.
  - intros out b k idx ps _ _ (d & r & -> & Hd). exists d, (mkPiece (firstn b out) idx k :: r). split; [reflexivity|exact Hd].
Qed.

Lemma break_total_lossless prefix nf nc out :
  exists ps, break_output prefix nf nc out = Some ps /\ join_with_keys prefix ps = out.
Proof.
  destruct (break_total prefix nf nc out) as [ps H]. exists ps. split; [exact H|].
  eapply break_lossless. exact H.
Qed.

Lemma broken_interior prefix nf nc ps : broken prefix nf nc ps ->
  Forall (fun p => occurs prefix (pdata p) = false /\ is_ref (pkind p) = true /\
                   0 <= pidx p /\ (pkind p = 1 -> pidx p < nf) /\ (pkind p = 2 -> pidx p < nc)) (removelast ps)
  /\ pkind (last ps (mkPiece [] 0 0)) = 0.
Proof.
  induction 1 as [d|d k i r Ho Hk Hi H1 H2 Hr [IH1 IH2]].
  - split; [constructor|reflexivity].
  - assert (r <> []) by (destruct Hr; discriminate).
    split.
    + destruct r as [|q r]; [congruence|]. cbn [removelast]. constructor; [|exact IH1].
      cbn. repeat split; try assumption; lia.
    + destruct r as [|q r]; [congruence|]. exact IH2.
Qed.

(* an occurrence of the prefix that lies entirely inside [d] is an occurrence in [d] *)
Lemma is_prefix_inside p : forall d b j, (j + length p <= length d)%nat ->
  is_prefix p (skipn j (d ++ b)) = true -> is_prefix p (skipn j d) = true.
Proof.
  intros d b j Hj H. rewrite skipn_app in H.
  replace (j - length d)%nat with O in H by lia. cbn [skipn] in H.
  rewrite is_prefix_ext in H by (rewrite skipn_length; lia). exact H.
Qed.

Lemma occurs_of_is_prefix p : forall d j, is_prefix p (skipn j d) = true -> occurs p d = true.
Proof.
  intros d j H. unfold occurs.
  destruct (index_of p d) as [b|] eqn:E; [reflexivity|].
  pose proof (index_of_none p d E j). congruence.
Qed.

(* no occurrence of the prefix in the substituted output lies inside a data
   piece other than the last one *)
Lemma no_key_inside_interior_data prefix nf nc pathOf ps : broken prefix nf nc ps ->
  forall pre p rest, ps = pre ++ p :: rest -> rest <> [] ->
  forall k, (length (substitute pathOf pre) <= k)%nat ->
    (k + length prefix <= length (substitute pathOf pre) + length (pdata p))%nat ->
    is_prefix prefix (skipn k (substitute pathOf ps)) = false.
Proof.
  intros Hb pre p rest E Hr k H1 H2.
  destruct (broken_interior _ _ _ _ Hb) as [F _].
  assert (Hp : occurs prefix (pdata p) = false).
  { subst ps. rewrite Forall_forall in F. apply F.
    clear - Hr. induction pre as [|a pre IH]; cbn [app].
    - destruct rest; [congruence|]. left; reflexivity.
    - destruct (pre ++ p :: rest) eqn:E; [destruct pre; discriminate|]. right. exact IH. }
  destruct (is_prefix prefix (skipn k (substitute pathOf ps))) eqn:Ei; [|reflexivity]. exfalso.
  assert (Es : substitute pathOf ps = substitute pathOf pre ++ pdata p ++
            ((if is_ref (pkind p) then pathOf (pkind p) (pidx p) else []) ++ substitute pathOf rest)).
  { subst ps. clear. induction pre as [|a pre IH]; cbn [app substitute]; [reflexivity|]. rewrite IH, <- !app_assoc. reflexivity. }
  rewrite Es in Ei. rewrite skipn_app in Ei. rewrite skipn_all2 in Ei by lia. cbn [app] in Ei.
  apply is_prefix_inside in Ei; [|lia].
  apply occurs_of_is_prefix in Ei. congruence.
Qed.
