(* Non-vacuity: concrete non-trivial values meeting each theorem's hypotheses. *)
From V Require Import Common.Base C18.Pieces.

Definition ex_prefix : bytes := [80;81;82;83].          (* "PQRS" *)
Definition ex_key_c1 : bytes := ex_prefix ++ [67;48;48;48;48;48;48;48;49].   (* PQRSC00000001 *)
Definition ex_key_a0 : bytes := ex_prefix ++ [65;48;48;48;48;48;48;48;48].   (* PQRSA00000000 *)
Definition ex_out : bytes := [105;40] ++ ex_key_c1 ++ [41;59;117;40] ++ ex_key_a0 ++ [41].

Example ex_break :
  break_output ex_prefix 1 2 ex_out =
  Some [mkPiece [105;40] 1 2; mkPiece [41;59;117;40] 0 1; mkPiece [41] 0 0].
Proof. vm_compute. reflexivity. Qed.

Example ex_join : join_with_keys ex_prefix [mkPiece [105;40] 1 2; mkPiece [41;59;117;40] 0 1; mkPiece [41] 0 0] = ex_out.
Proof. vm_compute. reflexivity. Qed.

(* an index out of range ends the scan: the later valid key is left in place *)
Example ex_break_stops :
  break_output ex_prefix 0 2 ex_out = Some [mkPiece [105;40] 1 2; mkPiece ([41;59;117;40] ++ ex_key_a0 ++ [41]) 0 0].
Proof. vm_compute. reflexivity. Qed.

From V Require Import C18.Hash C18.HashProofs C18.XXHash C18.NameProofs.

(* a cyclic import graph with a self loop and a duplicate edge: 0 -> 1,2 ; 1 -> 0,1 ; 2 -> 1,1 ; 3 isolated *)
Definition ex_leaf (imps : list nat) (body : bytes) : chunk := mkChunk true [] [([97], 3)] None body [] [] [] imps.
Definition ex_graph : list chunk := [ex_leaf [1;2]%nat [1]; ex_leaf [0;1]%nat [2]; ex_leaf [1;1]%nat [3]; ex_leaf [] [4]].

Example ex_wf : wf_graph ex_graph.
Proof. apply wf_graph_Forall. repeat constructor. Qed.

(* imports are written before the importer, every reachable chunk once, chunk 3 never *)
Example ex_order0 : final_order ex_graph 0 = Some [1; 2; 0]%nat. Proof. vm_compute. reflexivity. Qed.
Example ex_order1 : final_order ex_graph 1 = Some [2; 0; 1]%nat. Proof. vm_compute. reflexivity. Qed.

(* the shared visited array of the real loop gives the same streams as fresh traversals *)
Example ex_loop :
  final_streams xxh64 [] (fun _ => []) ex_graph =
  Some (map (fun i => final_stream xxh64 [] (fun _ => []) ex_graph i) [0;1;2;3]%nat).
Proof. (* true of any hash function: xxhash is abstracted before the traversals are evaluated *)
  generalize xxh64. intro H. vm_compute. reflexivity.
Qed.

(* length prefixes: "a"+"bc" and "ab"+"c" are written differently *)
Example ex_lenpref : concat (map lenpref [[97]; [98; 99]]) <> concat (map lenpref [[97; 98]; [99]]).
Proof. vm_compute. discriminate. Qed.
Example ex_fits : Forall fits32 [[97]; [98; 99]]. Proof. repeat constructor; unfold fits32; cbn; lia. Qed.

(* final_name_changes_with_dependency: editing the body of chunk 2 (reachable from 0 through the cycle) *)
Definition ex_graph' : list chunk := [ex_leaf [1;2]%nat [1]; ex_leaf [0;1]%nat [2]; ex_leaf [1;1]%nat [33]; ex_leaf [] [4]].
Example ex_same_imports : map c_imports ex_graph = map c_imports ex_graph'. Proof. reflexivity. Qed.
Example ex_reach : reach ex_graph 0%nat 2%nat.
Proof. eapply reach_step; [apply reach_refl|]. exists (ex_leaf [1;2]%nat [1]). split; [reflexivity|right; left; reflexivity]. Qed.
Example ex_iso_differs :
  isolated_stream [] (ex_leaf [1;1]%nat [3]) <> isolated_stream [] (ex_leaf [1;1]%nat [33]).
Proof. vm_compute. discriminate. Qed.
Example ex_final_differs :
  final_stream xxh64 [] (fun _ => []) ex_graph 0 <> final_stream xxh64 [] (fun _ => []) ex_graph' 0.
Proof.
  (* xxhash is evaluated on the two isolated streams of chunk 2 only *)
  destruct (final_stream_changes xxh64 [] (fun _ => []) (fun _ => []) ex_graph ex_graph' 0 2 ex_same_imports ex_wf)
    as (s1 & s2 & -> & -> & N); [cbn; lia|cbn; lia|reflexivity| |exact ex_reach| |congruence].
  - intros [|[|[|[|[|i]]]]] c1 c2 E1 E2; try discriminate; injection E1 as <-; injection E2 as <-; reflexivity.
  - intros c1 c2 E1 E2. injection E1 as <-. injection E2 as <-.
    split; [reflexivity|]. split; [exact ex_iso_differs|]. vm_compute. discriminate.
Qed.

(* the refutation witness, spelled out *)
Example ex_wit_name : name_of xxh64 (wit_build 1 2) 0 = name_of xxh64 (wit_build 2 1) 0.
Proof. destruct (same_name_different_bytes xxh64) as (nm & _ & _ & -> & -> & _). reflexivity. Qed.
Example ex_wit_bytes : bytes_of xxh64 (wit_build 1 2) 0 <> bytes_of xxh64 (wit_build 2 1) 0.
Proof. destruct (same_name_different_bytes xxh64) as (_ & b1 & b2 & _ & _ & -> & -> & N). congruence. Qed.

From V Require Import C18.Ingredients C18.DeepProofs C18.CleanProofs.

(* a clean text: two keys, the data before the second key ends with a proper beginning of the prefix *)
Example ex_clean : clean ex_prefix 1 2 [mkPiece [105;40] 1 2; mkPiece [41;59;80;81;117;40] 0 1; mkPiece [41] 0 0].
Proof.
  apply clean_cons; [reflexivity|lia|intro; lia|intro; lia|vm_compute; reflexivity|].
  apply clean_cons; [reflexivity|lia|intro; lia|intro; lia|vm_compute; reflexivity|].
  apply clean_last. vm_compute. reflexivity.
Qed.
(* not clean: a self-overlapping prefix completed by the text right before the key (thorough seed 1) *)
Example ex_not_clean_overlap : index_of [97;98;97] ([120;97;98] ++ [97;98;97]) <> Some 3%nat.
Proof. vm_compute. discriminate. Qed.

(* ingredients of a JavaScript chunk with a part in the "file" namespace, pieces and a source map *)
Definition ex_chunk : chunk :=
  mkChunk true [mkPart ns_file [47;97] [115;114;99;47;97] 0 3] [([97;45], 3); ([46;106;115], 0)]
    (Some [mkPiece [105;40] 1 2; mkPiece [41] 0 0]) [] [123] [65;65] [125] [1%nat].
Example ex_ingredients :
  iso_ingredients [47] ex_chunk =
  [ILen 1 ns_file; ILen 2 [115;114;99;47;97]; IU32 3 0; IU32 4 3; ILen 5 [97;45]; ILen 5 [46;106;115];
   ILen 6 [47]; ILen 7 [105;40]; ILen 7 [41]; ILen 9 [123]; ILen 10 [65;65]; ILen 11 [125]].
Proof. reflexivity. Qed.
Example ex_ing_ok : Forall ing_ok (iso_ingredients [47] ex_chunk).
Proof. repeat constructor; cbn; unfold fits32; cbn; lia. Qed.
(* an edit of the source-map mappings only: same shape, different ingredient, different stream *)
Definition ex_chunk' : chunk :=
  mkChunk true [mkPart ns_file [47;97] [115;114;99;47;97] 0 3] [([97;45], 3); ([46;106;115], 0)]
    (Some [mkPiece [105;40] 1 2; mkPiece [41] 0 0]) [] [123] [65;67] [125] [1%nat].
Example ex_same_shape : map ishape (iso_ingredients [47] ex_chunk) = map ishape (iso_ingredients [47] ex_chunk').
Proof. reflexivity. Qed.
Example ex_stream_differs : isolated_stream [47] ex_chunk <> isolated_stream [47] ex_chunk'.
Proof. vm_compute. discriminate. Qed.

(* chunks 0 and 1 of ex_graph lie on a cycle (0 -> 1 -> 0): each final hash input contains the other's hash *)
Example ex_cycle : reach ex_graph 0%nat 1%nat /\ reach ex_graph 1%nat 0%nat.
Proof.
  split; (eapply reach_step; [apply reach_refl|]).
  - exists (ex_leaf [1;2]%nat [1]). split; [reflexivity|left; reflexivity].
  - exists (ex_leaf [0;1]%nat [2]). split; [reflexivity|left; reflexivity].
Qed.

From V Require Import C18.Escape.
(* the name dot slash d, quotation mark, q, newline, backslash, -H.js in JavaScript and in CSS *)
Definition ex_name : bytes := [46;47;100;34;113;10;92;45;72;46;106;115].
Example ex_escape_js : escape_final_path false ex_name = [46;47;100;92;34;113;92;117;48;48;48;97;92;92;45;72;46;106;115].
Proof. reflexivity. Qed.
Example ex_escape_css : escape_final_path true ex_name = [46;47;100;92;34;113;92;97;32;92;92;45;72;46;106;115].
Proof. reflexivity. Qed.
Example ex_unescape_js : unescape false (escape_final_path false ex_name) = Some ex_name. Proof. reflexivity. Qed.
Example ex_unescape_css : unescape true (escape_final_path true ex_name) = Some ex_name. Proof. reflexivity. Qed.
Example ex_raw_rejected : unescape false ex_name = None. Proof. reflexivity. Qed.
Example ex_name_bytes : Forall (fun c => 0 <= c < 256) ex_name. Proof. repeat constructor; lia. Qed.

From V Require Import C17.WriteSM C17.PathModel C18.Paths C18.PathsProofs C18.SurviveProofs.
(* importer chunks/a-H.js, imported deep/er/z-H.js : ../deep/er/z-H.js *)
Definition ex_from : bytes := [99;104;117;110;107;115;47;97;45;72;46;106;115].
Definition ex_to : bytes := [100;101;101;112;47;101;114;47;122;45;72;46;106;115].
Example ex_dir : fs_dir ex_from = [99;104;117;110;107;115]. Proof. reflexivity. Qed.
Example ex_between : path_between [] (fs_dir ex_from) ex_to = [46;46;47] ++ ex_to. Proof. reflexivity. Qed.
Example ex_resolves : fs_join (fs_dir ex_from) (path_between [] (fs_dir ex_from) ex_to) = clean ex_to. Proof. reflexivity. Qed.
Ltac plain_tac := repeat split; try discriminate; repeat constructor; unfold SL; lia.
Example ex_plain_dir : Forall plain (clean_segs (fs_dir ex_from)).
Proof. vm_compute. constructor; [plain_tac|constructor]. Qed.
Example ex_plain_to : Forall plain (clean_segs ex_to).
Proof. vm_compute. repeat (constructor; [plain_tac|]). constructor. Qed.
Example ex_public : path_between [104;116;116;112;115;58;47;47;99;47;98] (fs_dir ex_from) ex_to =
  [104;116;116;112;115;58;47;47;99;47;98] ++ [47] ++ ex_to. Proof. reflexivity. Qed.

(* windows around the substituted path are free of the prefix *)
Example ex_windows : windows_free ex_prefix (fun _ _ => [46;47;120;46;106;115])
  [mkPiece [105;40] 1 2; mkPiece [41] 0 0].
Proof.
  constructor; [apply occ_free_occurs; reflexivity|].
  constructor; [apply occ_free_occurs; reflexivity|constructor].
Qed.
