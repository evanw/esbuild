(* C18 property theorems. This file contains only statements closed by
   [exact lemma] and Print Assumptions. *)
From V Require Import Common.Base C18.Pieces C18.PiecesProofs C18.Hash C18.HashProofs C18.XXHash C18.NameProofs C18.LoopProofs C18.Ingredients C18.DeepProofs C18.Inventory C18.Escape C18.EscapeProofs C18.CleanProofs C18.SurviveProofs C18.Paths C18.PathsProofs C18.ResolveProofs.
From V Require Import C17.WriteSM C17.PathModel.
From V Require gen.HashInventoryGen.

(* breakOutputIntoPieces terminates on every output (the model's fuel always
   suffices) and re-inserting the unique keys into the pieces gives back
   exactly the intermediate output: the split loses and invents nothing. *)
Theorem pieces_lossless : forall prefix nf nc out,
  exists ps, break_output prefix nf nc out = Some ps /\ join_with_keys prefix ps = out.
Proof. exact break_total_lossless. Qed.
Print Assumptions pieces_lossless.

(* After substitution no occurrence of the unique-key prefix lies inside a data
   piece other than the last: every key the scan reached has been replaced by a
   path (an occurrence can only overlap bytes of a substituted path, or lie in
   the last piece - see last_piece_only_malformed). *)
Theorem no_placeholder_survives : forall prefix nf nc out ps pathOf,
  prefix <> [] -> break_output prefix nf nc out = Some ps ->
  forall pre p rest, ps = pre ++ p :: rest -> rest <> [] ->
  forall k, (length (substitute pathOf pre) <= k)%nat ->
    (k + length prefix <= length (substitute pathOf pre) + length (pdata p))%nat ->
    is_prefix prefix (skipn k (substitute pathOf ps)) = false.
Proof. intros prefix nf nc out ps pathOf NE Hb. eapply no_key_inside_interior_data, break_broken; eassumption. Qed.
Print Assumptions no_placeholder_survives.

(* The last piece is free of the prefix unless the text itself contained the
   prefix followed by something that is not a valid key (wrong letter, a
   non-digit, index out of range, truncated): then the scan stops there and
   everything after it - including later valid keys - is left as it is. *)
Theorem last_piece_only_malformed : forall prefix nf nc out ps,
  break_output prefix nf nc out = Some ps ->
  exists d, last ps (mkPiece [] 0 0) = mkPiece d 0 0 /\
    (occurs prefix d = false \/
     exists b, index_of prefix d = Some b /\ parse_key nf nc (skipn (b + length prefix) d) = None).
Proof. intros prefix nf nc out ps. apply break_last. Qed.
Print Assumptions last_piece_only_malformed.

(* Every reference piece denotes a file (asset) or chunk index of this build;
   its data is free of the prefix; the last piece is not a reference. *)
Theorem references_resolve : forall prefix nf nc out ps,
  prefix <> [] -> break_output prefix nf nc out = Some ps ->
  Forall (fun p => occurs prefix (pdata p) = false /\ is_ref (pkind p) = true /\
                   0 <= pidx p /\ (pkind p = 1 -> pidx p < nf) /\ (pkind p = 2 -> pidx p < nc)) (removelast ps)
  /\ pkind (last ps (mkPiece [] 0 0)) = 0.
Proof. intros prefix nf nc out ps NE Hb. eapply broken_interior, break_broken; eassumption. Qed.
Print Assumptions references_resolve.

(* appendIsolatedHashesForImportedChunks from a fresh visited array terminates
   on every import graph (cycles, self loops, duplicates) and writes the item
   of each chunk reachable from the root exactly once, and of no other chunk. *)
Theorem dfs_visits_reachable_once : forall chunks root,
  wf_graph chunks -> (root < length chunks)%nat -> Z.of_nat (length chunks) < 4294967296 ->
  exists o, final_order chunks root = Some o /\ NoDup o /\ (forall x, In x o <-> reach chunks root x).
Proof. intros chunks root Hwf. apply final_order_spec, Hwf. Qed.
Print Assumptions dfs_visits_reachable_once.

(* The real loop shares ONE visited array between all roots and tells them
   apart by the stamp ^uint32(chunkIndex): for fewer than 2^32 chunks that is
   the same as a fresh traversal per root (chunks without [hash] are skipped). *)
Theorem shared_visited_array_is_transparent : forall (H : bytes -> bytes) public asset_rel chunks,
  wf_graph chunks -> Z.of_nat (length chunks) < 4294967296 ->
  final_streams H public asset_rel chunks =
  Some (map (expected H public asset_rel chunks) (seq 0 (length chunks))).
Proof. exact final_streams_fresh. Qed.
Print Assumptions shared_visited_array_is_transparent.

(* hashWriteLengthPrefixed: the stream written for a list of items (each
   shorter than 2^32) determines the list - boundaries matter. *)
Theorem length_prefix_unambiguous : forall l1 l2, Forall fits32 l1 -> Forall fits32 l2 ->
  concat (map lenpref l1) = concat (map lenpref l2) -> l1 = l2.
Proof. exact lenpref_concat_inj. Qed.
Print Assumptions length_prefix_unambiguous.

(* Two builds with the same import graph: if the isolated hash input of a chunk
   x reachable from the root differs (and H does not collide on these two
   inputs, and outputs of H have one length), the root's final hash input differs. *)
Theorem final_name_changes_with_dependency : forall (H : bytes -> bytes) public ar1 ar2 cs1 cs2 root x,
  map c_imports cs1 = map c_imports cs2 ->
  wf_graph cs1 -> (root < length cs1)%nat -> Z.of_nat (length cs1) < 4294967296 ->
  (forall a b, length (H a) = length (H b)) ->
  (forall i c1 c2, nth_error cs1 i = Some c1 -> nth_error cs2 i = Some c2 ->
     length (assets_stream ar1 c1) = length (assets_stream ar2 c2)) ->
  reach cs1 root x ->
  (forall c1 c2, nth_error cs1 x = Some c1 -> nth_error cs2 x = Some c2 ->
     assets_stream ar1 c1 = assets_stream ar2 c2 /\
     isolated_stream public c1 <> isolated_stream public c2 /\
     (H (isolated_stream public c1) = H (isolated_stream public c2) ->
      isolated_stream public c1 = isolated_stream public c2)) ->
  exists s1 s2, final_stream H public ar1 cs1 root = Some s1 /\
                final_stream H public ar2 cs2 root = Some s2 /\ s1 <> s2.
Proof. exact final_stream_changes. Qed.
Print Assumptions final_name_changes_with_dependency.

(* same_name_same_bytes (equal final name => equal final bytes) is FALSE of the
   faithful model: with H := xxhash, two builds give chunk 0 the same name and
   different bytes (the two dynamic imports swapped; DESIGN section 7-E). *)
Theorem same_name_same_bytes_refuted :
  exists cs1 cs2 i nm b1 b2,
    name_of xxh64 cs1 i = Some nm /\ name_of xxh64 cs2 i = Some nm /\
    bytes_of xxh64 cs1 i = Some b1 /\ bytes_of xxh64 cs2 i = Some b2 /\ b1 <> b2.
Proof. exists (wit_build 1 2), (wit_build 2 1), 0%nat. exact (same_name_different_bytes xxh64). Qed.
Print Assumptions same_name_same_bytes_refuted.

(* ... and not because of xxhash: for EVERY hash function the two builds hash
   the very same stream for that chunk. *)
Theorem same_name_same_bytes_refuted_any_hash : forall H : bytes -> bytes,
  final_stream H [] (fun _ => []) (wit_build 1 2) 0 = final_stream H [] (fun _ => []) (wit_build 2 1) 0
  /\ final_stream H [] (fun _ => []) (wit_build 1 2) 0 <> None.
Proof. exact same_stream_different_refs. Qed.
Print Assumptions same_name_same_bytes_refuted_any_hash.

(* What does hold: equal hashed piece data gives equal final bytes PROVIDED the
   path substituted at each position is the same in both builds; the hash
   covers the data and the set of imported chunks, not the positions. *)
Theorem same_name_same_bytes_partial : forall pathOf1 pathOf2 ps1 ps2,
  Forall (fun p => fits32 (pdata p)) ps1 -> Forall (fun p => fits32 (pdata p)) ps2 ->
  concat (map (fun p => lenpref (pdata p)) ps1) = concat (map (fun p => lenpref (pdata p)) ps2) ->
  map (ref_path pathOf1) ps1 = map (ref_path pathOf2) ps2 ->
  substitute pathOf1 ps1 = substitute pathOf2 ps2.
Proof. exact same_bytes_partial. Qed.
Print Assumptions same_name_same_bytes_partial.

(* breakOutputIntoPieces finds exactly the keys of a CLEAN text (the prefix
   occurs nowhere but at the keys, overlaps included: the first occurrence in
   data ++ prefix is at the end of data) - the converse of pieces_lossless. *)
Theorem clean_text_is_split_at_its_keys : forall prefix nf nc ps,
  CleanProofs.clean prefix nf nc ps -> break_output prefix nf nc (join_with_keys prefix ps) = Some ps.
Proof. exact (fun prefix nf nc ps Hc => break_clean prefix nf nc ps Hc _ (Nat.lt_succ_diag_r _)). Qed.
Print Assumptions clean_text_is_split_at_its_keys.

(* What exactly goes into the isolated hash: the stream the model hashes is the
   encoding of the ingredient list (namespace, path, part range of every part;
   template parts; public path; every piece's data or the whole output; the
   three source-map pieces) ... *)
Theorem isolated_stream_is_its_ingredients : forall public c,
  isolated_stream public c = encode_all (iso_ingredients public c).
Proof. exact isolated_stream_is_ingredients. Qed.
Print Assumptions isolated_stream_is_its_ingredients.

(* ... and that list, with its guards, is what the source writes into the hasher
   (regenerated by the translator c18hashinv on every run; a write that
   is dropped, added, reordered or put under a new condition breaks this). *)
Theorem hash_inventory_is_the_modelled_one :
  HashInventoryGen.iso_writes = map snd iso_expected /\
  HashInventoryGen.final_writes = final_expected /\
  HashInventoryGen.loop_calls = loop_expected /\
  HashInventoryGen.helper_bodies = helpers_expected.
Proof. exact inventory_matches. Qed.
Print Assumptions hash_inventory_is_the_modelled_one.

(* same_name_same_ingredients (widens same_name_same_bytes_partial): two builds
   - any graphs, any options - that give a chunk the same [hash] hash the same
   ingredients for it, field by field.  Visible hypotheses: H has one output
   length; the truncated final hash and the isolated hash do not collide on the
   two streams at hand; same shape; sizes below 2^32. *)
Theorem same_name_same_ingredients : forall (H : bytes -> bytes),
  (forall a b, length (H a) = length (H b)) ->
  forall public1 public2 ar1 ar2 cs1 cs2 r1 r2 c1 c2 s1 s2,
  (r1 < length cs1)%nat -> (r2 < length cs2)%nat ->
  Z.of_nat (length cs1) < 4294967296 -> Z.of_nat (length cs2) < 4294967296 ->
  nth_error cs1 r1 = Some c1 -> nth_error cs2 r2 = Some c2 ->
  final_stream H public1 ar1 cs1 r1 = Some s1 -> final_stream H public2 ar2 cs2 r2 = Some s2 ->
  hash_for_file_name (H s1) = hash_for_file_name (H s2) ->
  (hash_for_file_name (H s1) = hash_for_file_name (H s2) -> s1 = s2) ->
  (H (isolated_stream public1 c1) = H (isolated_stream public2 c2) ->
   isolated_stream public1 c1 = isolated_stream public2 c2) ->
  map ishape (iso_ingredients public1 c1) = map ishape (iso_ingredients public2 c2) ->
  Forall ing_ok (iso_ingredients public1 c1) -> Forall ing_ok (iso_ingredients public2 c2) ->
  iso_ingredients public1 c1 = iso_ingredients public2 c2.
Proof. exact same_name_same_own_ingredients. Qed.
Print Assumptions same_name_same_ingredients.

(* the shape hypothesis cannot be dropped: the stream does not say where the
   template parts end and the pieces begin *)
Theorem same_stream_same_ingredients_without_shape_refuted :
  isolated_stream [] amb1 = isolated_stream [] amb2 /\ iso_ingredients [] amb1 <> iso_ingredients [] amb2.
Proof. exact isolated_stream_ambiguous_across_shapes. Qed.
Print Assumptions same_stream_same_ingredients_without_shape_refuted.

(* with the same import graph and asset references: the same final hash input
   means the same asset paths and the same isolated hash for every chunk
   reachable from the root (the converse of final_name_changes_with_dependency) *)
Theorem same_name_same_reachable_hashes : forall (H : bytes -> bytes),
  (forall a b, length (H a) = length (H b)) ->
  forall public ar1 ar2 cs1 cs2 root x c1 c2 s,
  map c_imports cs1 = map c_imports cs2 ->
  wf_graph cs1 -> (root < length cs1)%nat -> Z.of_nat (length cs1) < 4294967296 ->
  (forall i d1 d2, nth_error cs1 i = Some d1 -> nth_error cs2 i = Some d2 ->
     length (assets_stream ar1 d1) = length (assets_stream ar2 d2)) ->
  final_stream H public ar1 cs1 root = Some s -> final_stream H public ar2 cs2 root = Some s ->
  reach cs1 root x -> nth_error cs1 x = Some c1 -> nth_error cs2 x = Some c2 ->
  assets_stream ar1 c1 = assets_stream ar2 c2 /\ iso_hash H public c1 = iso_hash H public c2.
Proof. exact same_stream_same_reachable_hashes. Qed.
Print Assumptions same_name_same_reachable_hashes.

(* every chunk's final hash input contains the isolated hash of every chunk
   reachable from it, on every import graph - cycles of dynamic imports included *)
Theorem final_hash_input_contains_every_reachable_hash : forall (H : bytes -> bytes) public ar chunks root x c,
  wf_graph chunks -> (root < length chunks)%nat -> Z.of_nat (length chunks) < 4294967296 ->
  reach chunks root x -> nth_error chunks x = Some c ->
  exists pre post, final_stream H public ar chunks root = Some (pre ++ iso_hash H public c ++ post).
Proof. exact final_stream_contains_reachable. Qed.
Print Assumptions final_hash_input_contains_every_reachable_hash.

Theorem cycle_members_hash_each_other : forall (H : bytes -> bytes) public ar chunks a b ca cb,
  wf_graph chunks -> (a < length chunks)%nat -> (b < length chunks)%nat -> Z.of_nat (length chunks) < 4294967296 ->
  reach chunks a b -> reach chunks b a -> nth_error chunks a = Some ca -> nth_error chunks b = Some cb ->
  (exists pre post, final_stream H public ar chunks a = Some (pre ++ iso_hash H public cb ++ post)) /\
  (exists pre post, final_stream H public ar chunks b = Some (pre ++ iso_hash H public ca ++ post)).
Proof. exact DeepProofs.cycle_members_hash_each_other. Qed.
Print Assumptions cycle_members_hash_each_other.

(* What escapeFinalPath writes between the quotation marks reads back - under
   the string syntax of JavaScript/JSON resp. CSS, which rejects a bare
   quotation mark, backslash or control character - as the path itself,
   whatever bytes the file name contains. *)
Theorem escaped_path_reads_back : forall isCSS p, Forall (fun c => 0 <= c < 256) p ->
  unescape isCSS (escape_final_path isCSS p) = Some p.
Proof. exact unescape_escape. Qed.
Print Assumptions escaped_path_reads_back.

(* references resolve, names with quotation marks / backslashes / control
   characters included: the substituted output is data and escaped paths in
   turn, and every escaped path decodes to the path of the file it denotes *)
Theorem references_decode_to_emitted_paths : forall isCSS pathOf ps,
  (forall k i, Forall (fun c => 0 <= c < 256) (pathOf k i)) ->
  substitute_esc isCSS pathOf ps =
    concat (map (fun p => pdata p ++ escape_final_path isCSS (ref_path pathOf p)) ps) /\
  forall p, In p ps -> unescape isCSS (escape_final_path isCSS (ref_path pathOf p)) = Some (ref_path pathOf p).
Proof. exact references_decode. Qed.
Print Assumptions references_decode_to_emitted_paths.

(* the byte count follows the escaping *)
Theorem accurate_count_with_escaping : forall isCSS pathOf ps,
  accurate_count_esc isCSS pathOf ps = Z.of_nat (length (substitute_esc isCSS pathOf ps)).
Proof. exact accurate_count_esc_length. Qed.
Print Assumptions accurate_count_with_escaping.

(* import_path_resolves, with fs.Rel / pathBetweenChunks modelled over C17's
   goFilepath model (clean, fs_join, rel).  For relative final paths
   whose cleaned elements are plain (not empty, ".", "..", no slash, NO
   BACKSLASH; the target does not clean to "." - there goFilepath.rel has a quirk
   outside the tied domain of the model): the text printed for a reference, read as a string of the
   output's language, and joined with the importing file's directory the way
   Node / a browser / filepath.Join resolve it, is the imported file's path. *)
Theorem import_path_resolves : forall isCSS dir to,
  dir <> [] -> is_rooted dir = false -> is_rooted to = false ->
  Forall plain (clean_segs dir) -> Forall plain (clean_segs to) -> clean_segs to <> [] ->
  Forall (fun c => 0 <= c < 256) (path_between [] dir to) ->
  exists spec, unescape isCSS (escape_final_path isCSS (path_between [] dir to)) = Some spec /\
               fs_join dir spec = clean to.
Proof. exact import_path_resolves_all. Qed.
Print Assumptions import_path_resolves.

(* with a public path: public path, exactly one slash, the final path *)
Theorem import_path_resolves_public : forall public dir to,
  public <> [] -> has_prefix [46; 47] to = false ->
  path_between public dir to = public ++ (if ends_with_slash public then [] else [SL]) ++ to.
Proof. exact path_between_public. Qed.
Print Assumptions import_path_resolves_public.

(* without "no backslash in names" the statement is false (finding K3): the file
   d\q.js in the output directory is referred to as ./d/q.js *)
Theorem import_path_resolves_refuted :
  exists dir to, dir <> [] /\ is_rooted dir = false /\ is_rooted to = false /\
    fs_join dir (path_between [] dir to) <> clean to.
Proof. exact path_between_backslash_refuted. Qed.
Print Assumptions import_path_resolves_refuted.

(* no_placeholder_survives, occurrences that overlap a substituted path included:
   if the last data piece is free of the prefix (clean input) and no WINDOW
   around a substituted path (|prefix|-1 bytes before, the path, |prefix|-1
   bytes after) contains the prefix, the substituted output does not contain it *)
Theorem no_placeholder_survives_overlapping : forall prefix nf nc out ps pathOf,
  prefix <> [] -> break_output prefix nf nc out = Some ps ->
  occurs prefix (pdata (last ps (mkPiece [] 0 0))) = false ->
  windows_free prefix pathOf ps ->
  occurs prefix (substitute pathOf ps) = false.
Proof. exact no_placeholder_survives_overlap. Qed.
Print Assumptions no_placeholder_survives_overlapping.
