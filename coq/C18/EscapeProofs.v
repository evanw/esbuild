(* escapeFinalPath: what is written between the quotation marks reads back,
   under the string syntax of the output's language, as the path itself. *)
From V Require Import Common.Base C18.Pieces C18.PiecesProofs C18.Escape C18.NameProofs.

Lemma unescape_esc_byte isCSS c r : 0 <= c < 256 ->
  unescape isCSS (esc_byte isCSS c ++ r) = option_map (cons c) (unescape isCSS r).
Proof.
  intros Hc.
  destruct (Z_lt_dec c 32) as [Lo|Hi].
  - (* control characters: 32 concrete cases, each by conversion with [r] left open *)
    replace c with (Z.of_nat (Z.to_nat c)) by lia.
    assert (Hk : (Z.to_nat c < 32)%nat) by lia. revert Hk. generalize (Z.to_nat c) as k. intros k Hk.
    destruct isCSS; do 32 (destruct k as [|k]; [reflexivity|]); lia.
  - unfold esc_byte. destruct ((c =? 34) || (c =? 92)) eqn:E1.
    + cbn. rewrite E1. reflexivity.
    + replace (32 <=? c) with true by lia. cbn [app unescape].
      replace (c =? 92) with false by lia. replace ((c =? 34) || (c <? 32)) with false by lia.
      reflexivity.
Qed.

(* escaped_path_reads_back.  [unescape] rejects a bare quotation mark or control character,
   so its accepting the escaped text also says that the string literal around the key stays
   one string literal. *)
Lemma unescape_escape isCSS : forall p, Forall (fun c => 0 <= c < 256) p ->
  unescape isCSS (escape_final_path isCSS p) = Some p.
Proof.
  induction p as [|c p IH]; intro F; [reflexivity|].
  inversion F; subst. unfold escape_final_path. cbn [flat_map].
  rewrite unescape_esc_byte by assumption. fold (escape_final_path isCSS p). rewrite IH by assumption. reflexivity.
Qed.

Lemma substitute_esc_as_map isCSS pathOf ps :
  substitute_esc isCSS pathOf ps =
  concat (map (fun p => pdata p ++ escape_final_path isCSS (ref_path pathOf p)) ps).
Proof.
  unfold substitute_esc. rewrite substitute_as_map. f_equal. apply map_ext. intro p.
  unfold ref_path. destruct (is_ref (pkind p)); reflexivity.
Qed.

Lemma accurate_count_esc_length isCSS pathOf ps :
  accurate_count_esc isCSS pathOf ps = Z.of_nat (length (substitute_esc isCSS pathOf ps)).
Proof. apply accurate_count_length. Qed.

(* references_decode_to_emitted_paths: after substitution every reference piece
   contributes a text that reads back, as string contents of the output's
   language, as exactly the path of the chunk / asset it denotes *)
Lemma references_decode isCSS pathOf ps :
  (forall k i, Forall (fun c => 0 <= c < 256) (pathOf k i)) ->
  substitute_esc isCSS pathOf ps =
    concat (map (fun p => pdata p ++ escape_final_path isCSS (ref_path pathOf p)) ps) /\
  forall p, In p ps -> unescape isCSS (escape_final_path isCSS (ref_path pathOf p)) = Some (ref_path pathOf p).
Proof.
  intro Hb. split; [apply substitute_esc_as_map|].
  intros p _. apply unescape_escape. unfold ref_path. destruct (is_ref (pkind p)); [apply Hb|constructor].
Qed.
