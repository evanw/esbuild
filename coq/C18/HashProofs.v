(* Lemmas about the hash-stream model: unambiguous length-prefixed encoding,
   the traversal of appendIsolatedHashesForImportedChunks. *)
From V Require Import Common.Base C18.Pieces C18.Hash.

Lemma u32le_value a : 0 <= a < 4294967296 ->
  a = a mod 256 + 256 * ((a / 256) mod 256) + 65536 * ((a / 65536) mod 256) + 16777216 * ((a / 16777216) mod 256).
Proof. lia. Qed.

Lemma u32le_inj a b : 0 <= a < 4294967296 -> 0 <= b < 4294967296 -> u32le a = u32le b -> a = b.
Proof. intros Ha Hb E. rewrite (u32le_value a Ha), (u32le_value b Hb). injection E as -> -> -> ->. reflexivity. Qed.

Lemma app_eq_length_inv {A} : forall (a b r1 r2 : list A),
  length a = length b -> a ++ r1 = b ++ r2 -> a = b /\ r1 = r2.
Proof.
  induction a as [|x a IH]; intros [|y b] r1 r2 L E; cbn in *; try discriminate.
  - split; [reflexivity|exact E].
  - inversion E; subst. destruct (IH b r1 r2) as [-> ->]; [lia|assumption|]. split; reflexivity.
Qed.

Definition fits32 (b : bytes) : Prop := Z.of_nat (length b) < 4294967296.

Lemma lenpref_inj_app a b r1 r2 : fits32 a -> fits32 b ->
  lenpref a ++ r1 = lenpref b ++ r2 -> a = b /\ r1 = r2.
Proof.
  unfold fits32, lenpref. intros Ha Hb E. rewrite <- !app_assoc in E.
  apply app_eq_length_inv in E as [E1 E2]; [|reflexivity].
  apply u32le_inj in E1; [|lia|lia].
  apply app_eq_length_inv in E2; [exact E2|lia].
Qed.

(* hashWriteLengthPrefixed: "a"+"bc" never hashes like "ab"+"c": the written
   stream determines the list of items *)
Lemma lenpref_concat_inj : forall l1 l2, Forall fits32 l1 -> Forall fits32 l2 ->
  concat (map lenpref l1) = concat (map lenpref l2) -> l1 = l2.
Proof.
  induction l1 as [|a l1 IH]; intros [|b l2] F1 F2 E; cbn in E.
  - reflexivity.
  - unfold lenpref, u32le in E. discriminate.
  - unfold lenpref, u32le in E. discriminate.
  - inversion F1; inversion F2; subst.
    apply lenpref_inj_app in E as [-> E]; [|assumption|assumption].
    f_equal. apply IH; assumption.
Qed.

(* the same with a remainder, when the number of items is known *)
Lemma lenpref_concat_inj_app : forall l1 l2 r1 r2, Forall fits32 l1 -> Forall fits32 l2 ->
  length l1 = length l2 ->
  concat (map lenpref l1) ++ r1 = concat (map lenpref l2) ++ r2 -> l1 = l2 /\ r1 = r2.
Proof.
  induction l1 as [|a l1 IH]; intros [|b l2] r1 r2 F1 F2 L E; cbn in *; try discriminate.
  - split; [reflexivity|exact E].
  - inversion F1; inversion F2; subst. rewrite <- !app_assoc in E.
    apply lenpref_inj_app in E as [-> E]; [|assumption|assumption].
    destruct (IH l2 r1 r2) as [-> ->]; try assumption; [lia|]. split; reflexivity.
Qed.

Lemma NoDup_app_intro {A} : forall (a b : list A), NoDup a -> NoDup b ->
  (forall x, In x a -> In x b -> False) -> NoDup (a ++ b).
Proof.
  induction a as [|x a IH]; intros b Ha Hb D; cbn; [exact Hb|].
  inversion Ha; subst. constructor.
  - intro Hin. apply in_app_iff in Hin as [Hin|Hin]; [contradiction|]. apply (D x); [left; reflexivity|exact Hin].
  - apply IH; [assumption|assumption|]. intros y Hy Hy'. apply (D y); [right; exact Hy|exact Hy'].
Qed.

Lemma nth_error_repeat_eq {A} (a s : A) k x : nth_error (repeat a k) x = Some s -> s = a.
Proof. intro E. eapply repeat_spec, nth_error_In, E. Qed.

Lemma set_nth_beyond {A} (x : A) : forall l i, (length l <= i)%nat -> set_nth i x l = l.
Proof. induction l as [|y l IH]; intros [|i] Hi; cbn in *; try reflexivity; [lia|]. rewrite IH by lia. reflexivity. Qed.

Section Dfs.
  Variable chunks : list chunk.
  Let n := length chunks.

  Definition edge (i j : nat) : Prop := exists c, nth_error chunks i = Some c /\ In j (c_imports c).
  Inductive reach (r : nat) : nat -> Prop :=
  | reach_refl : reach r r
  | reach_step x y : reach r x -> edge x y -> reach r y.

  Lemma reach_trans_edge r x y : edge r x -> reach x y -> reach r y.
  Proof. intros E R. induction R; [eapply reach_step; [apply reach_refl|exact E]|eapply reach_step; eassumption]. Qed.

  (* every import names an existing chunk (otherwise the Go code panics) *)
  Definition wf_graph : Prop := forall i c, nth_error chunks i = Some c -> forall j, In j (c_imports c) -> (j < n)%nat.

  Lemma wf_graph_Forall : Forall (fun c => Forall (fun j => (j < n)%nat) (c_imports c)) chunks -> wf_graph.
  Proof. intros F i c E. apply nth_error_In in E. apply Forall_forall. exact (proj1 (Forall_forall _ _) F c E). Qed.

  Definition marked (vis : list Z) (key : Z) (x : nat) : Prop := nth_error vis x = Some key.

  Lemma set_nth_length {A} (x : A) : forall l i, length (set_nth i x l) = length l.
  Proof. induction l as [|y l IH]; intros [|i]; cbn; try reflexivity. rewrite IH. reflexivity. Qed.

  Lemma nth_error_set_nth {A} (x : A) : forall l i j, (i < length l)%nat ->
    nth_error (set_nth i x l) j = if Nat.eqb j i then Some x else nth_error l j.
  Proof.
    induction l as [|y l IH]; intros i j Hi; cbn in Hi; [lia|].
    destruct i as [|i], j as [|j]; cbn; try reflexivity.
    rewrite IH by lia. reflexivity.
  Qed.

  Lemma marked_set_nth vis key i x : (i < length vis)%nat ->
    (marked (set_nth i key vis) key x <-> x = i \/ marked vis key x).
  Proof.
    intro Hi. unfold marked. rewrite nth_error_set_nth by assumption.
    destruct (Nat.eqb x i) eqn:E.
    - apply Nat.eqb_eq in E. subst. split; [left; reflexivity|reflexivity].
    - apply Nat.eqb_neq in E. split; [right; assumption|intros [->|H]; [congruence|exact H]].
  Qed.

  (* what one call establishes *)
  Record dfs_post (roots : list nat) (vis : list Z) (key : Z) (vis' : list Z) (o : list nat) : Prop := {
    dp_len : length vis' = length vis;
    dp_marked : forall x, marked vis' key x <-> marked vis key x \/ In x o;
    dp_nodup : NoDup o;
    dp_new : forall x, In x o -> ~ marked vis key x;
    dp_reach : forall x, In x o -> exists r, In r roots /\ reach r x;
    dp_closed : forall x, In x o -> forall y, edge x y -> marked vis' key y;
    dp_roots : forall r, In r roots -> marked vis' key r;
    dp_other : forall x s, s <> key -> nth_error vis' x = Some s -> nth_error vis x = Some s
  }.

  Lemma dfs_post_nil roots vis key : (forall r, In r roots -> marked vis key r) -> dfs_post roots vis key vis [].
  Proof.
    intro Hr. constructor.
    - reflexivity.
    - intro x. cbn [In]. tauto.
    - constructor.
    - intros x [].
    - intros x [].
    - intros x [].
    - exact Hr.
    - intros x s _ E; exact E.
  Qed.

  Lemma visit_all_post (rec : list Z -> nat -> option (list Z * list nat)) key :
    (forall vis j vis' o, length vis = n -> (j < n)%nat -> rec vis j = Some (vis', o) -> dfs_post [j] vis key vis' o) ->
    forall l vis vis' o, length vis = n -> (forall j, In j l -> (j < n)%nat) ->
      visit_all rec l vis = Some (vis', o) -> dfs_post l vis key vis' o.
  Proof.
    intros Hrec. induction l as [|j l IH]; intros vis vis' o Hl Hin H; cbn in H.
    - inversion H; subst. apply dfs_post_nil. intros r [].
    - destruct (rec vis j) as [[v1 o1]|] eqn:E1; [|discriminate].
      destruct (visit_all rec l v1) as [[v2 o2]|] eqn:E2; [|discriminate].
      inversion H; subst vis' o. clear H.
      destruct (Hrec _ _ _ _ Hl (Hin j (or_introl eq_refl)) E1) as [L1 M1 N1 W1 R1 C1 T1 O1].
      destruct (IH _ _ _ (eq_trans L1 Hl) (fun j' Hj' => Hin j' (or_intror Hj')) E2) as [L2 M2 N2 W2 R2 C2 T2 O2].
      constructor.
      + rewrite L2. apply L1.
      + intro x. rewrite M2, M1, in_app_iff. apply or_assoc.
      + apply NoDup_app_intro; [apply N1|apply N2|].
        intros x H1 H2. apply (W2 x H2). apply M1. right; exact H1.
      + intros x Hx. apply in_app_iff in Hx as [Hx|Hx]; [apply (W1 x Hx)|].
        intro M. apply (W2 x Hx). apply M1. left; exact M.
      + intros x Hx. apply in_app_iff in Hx as [Hx|Hx].
        * destruct (R1 x Hx) as (r & [<-|[]] & R). exists j. split; [left; reflexivity|exact R].
        * destruct (R2 x Hx) as (r & Hr & R). exists r. split; [right; exact Hr|exact R].
      + intros x Hx y E. apply in_app_iff in Hx as [Hx|Hx].
        * apply M2. left. apply (C1 x Hx y E).
        * apply (C2 x Hx y E).
      + intros r [<-|Hr].
        * apply M2. left. apply T1. left; reflexivity.
        * apply (T2 r Hr).
      + intros x s Hs E. apply (O1 x s Hs). apply (O2 x s Hs E).
  Qed.

  Lemma dfs_post_holds (Hwf : wf_graph) key : forall fuel vis i vis' o,
    length vis = n -> (i < n)%nat -> dfs chunks fuel vis key i = Some (vis', o) -> dfs_post [i] vis key vis' o.
  Proof.
    induction fuel as [|f IH]; intros vis i vis' o Hl Hi H; [discriminate|].
    cbn [dfs] in H.
    destruct (nth_error vis i) as [stamp|] eqn:Es; [|discriminate].
    destruct (nth_error chunks i) as [c|] eqn:Ec; [|discriminate].
    destruct (stamp =? key) eqn:Ek.
    - inversion H; subst vis' o. apply Z.eqb_eq in Ek. subst stamp.
      apply dfs_post_nil. intros r [<-|[]]. exact Es.
    - destruct (visit_all (fun vis0 j => dfs chunks f vis0 key j) (c_imports c) (set_nth i key vis))
        as [[v2 o2]|] eqn:Ev; [|discriminate].
      inversion H; subst vis' o. clear H.
      assert (L1 : length (set_nth i key vis) = n) by (rewrite set_nth_length; exact Hl).
      destruct (visit_all_post _ key (fun v j v' o' A B C => IH v j v' o' A B C) _ _ _ _ L1 (Hwf i c Ec) Ev)
        as [Lp Mp Np Wp Rp Cp Tp Op].
      assert (Hi' : (i < length vis)%nat) by lia.
      assert (Nm : ~ marked vis key i) by (unfold marked; rewrite Es; intro X; inversion X; lia).
      constructor.
      + rewrite Lp. apply set_nth_length.
      + intro x. rewrite Mp, marked_set_nth, in_app_iff by assumption. cbn [In].
        split; [intros [[->|M]|Hx]|intros [M|[Hx|[<-|[]]]]]; auto.
      + apply NoDup_app_intro; [apply Np|constructor; [intros []|constructor]|].
        intros x H1 [<-|[]]. apply (Wp _ H1). apply marked_set_nth; [assumption|left; reflexivity].
      + intros x Hx. apply in_app_iff in Hx as [Hx|[<-|[]]]; [|exact Nm].
        intro M. apply (Wp x Hx). apply marked_set_nth; [assumption|right; exact M].
      + intros x Hx. exists i. split; [left; reflexivity|].
        apply in_app_iff in Hx as [Hx|[<-|[]]]; [|apply reach_refl].
        destruct (Rp x Hx) as (r & Hr & R).
        eapply reach_trans_edge; [|exact R]. exists c. split; assumption.
      + intros x Hx y E. apply in_app_iff in Hx as [Hx|[<-|[]]].
        * apply (Cp x Hx y E).
        * destruct E as (c' & Ec' & Hy). rewrite Ec in Ec'. inversion Ec'; subst c'.
          apply (Tp y Hy).
      + intros r [<-|[]]. apply Mp. left. apply marked_set_nth; [assumption|left; reflexivity].
      + intros x s Hs E. pose proof (Op x s Hs E) as E'.
        rewrite nth_error_set_nth in E' by assumption.
        destruct (Nat.eqb x i); [inversion E'; congruence|exact E'].
  Qed.

  (* termination: the entries not yet stamped [key]; a call that recurses stamps one of them,
     so fuel above their number - at most n - suffices *)
  Fixpoint cnt (vis : list Z) (key : Z) : nat :=
    match vis with [] => O | s :: r => (if s =? key then O else 1%nat) + cnt r key end.

  Lemma cnt_le_length vis key : (cnt vis key <= length vis)%nat.
  Proof. induction vis as [|s r IH]; cbn; [lia|]. destruct (s =? key); cbn; lia. Qed.

  Lemma cnt_set_nth key : forall vis i s, nth_error vis i = Some s -> s <> key ->
    S (cnt (set_nth i key vis) key) = cnt vis key.
  Proof.
    induction vis as [|y vis IH]; intros [|i] s E Hs; cbn in E; try discriminate.
    - inversion E; subst y. cbn. rewrite Z.eqb_refl. destruct (s =? key) eqn:K; [lia|cbn; lia].
    - cbn. rewrite <- (IH i s E Hs). destruct (y =? key); cbn; lia.
  Qed.

  Lemma cnt_mono key : forall v v', length v' = length v ->
    (forall x, marked v key x -> marked v' key x) -> (cnt v' key <= cnt v key)%nat.
  Proof.
    induction v as [|s v IH]; intros [|s' v'] L M; cbn in L; try discriminate; [cbn; lia|].
    cbn. assert (cnt v' key <= cnt v key)%nat.
    { apply IH; [lia|]. intros x Hx. apply (M (S x)). exact Hx. }
    destruct (s =? key) eqn:K.
    - apply Z.eqb_eq in K. subst s. specialize (M O eq_refl). unfold marked in M. cbn in M. inversion M; subst s'.
      rewrite Z.eqb_refl. cbn. lia.
    - destruct (s' =? key); cbn; lia.
  Qed.

  Lemma visit_all_total (rec : list Z -> nat -> option (list Z * list nat)) key bound :
    (forall vis j, length vis = n -> (j < n)%nat -> (cnt vis key <= bound)%nat ->
       exists vis' o, rec vis j = Some (vis', o) /\ dfs_post [j] vis key vis' o) ->
    forall l vis, length vis = n -> (forall j, In j l -> (j < n)%nat) -> (cnt vis key <= bound)%nat ->
      exists r, visit_all rec l vis = Some r.
  Proof.
    intros Hrec. induction l as [|j l IH]; intros vis Hl Hin Hc; cbn; [eexists; reflexivity|].
    destruct (Hrec vis j Hl (Hin j (or_introl eq_refl)) Hc) as (v1 & o1 & E1 & [L1 M1 _ _ _ _ _ _]). rewrite E1.
    assert (C1 : (cnt v1 key <= bound)%nat).
    { etransitivity; [|exact Hc]. apply cnt_mono; [exact L1|].
      intros x Hx. apply M1. left; exact Hx. }
    destruct (IH v1 (eq_trans L1 Hl) (fun j' Hj' => Hin j' (or_intror Hj')) C1) as [[v2 o2] E2]. rewrite E2.
    eexists; reflexivity.
  Qed.

  Lemma dfs_total (Hwf : wf_graph) key : forall fuel vis i,
    length vis = n -> (i < n)%nat -> (cnt vis key < fuel)%nat ->
    exists vis' o, dfs chunks fuel vis key i = Some (vis', o).
  Proof.
    induction fuel as [|f IH]; intros vis i Hl Hi Hc; [lia|].
    cbn [dfs].
    destruct (nth_error vis i) as [stamp|] eqn:Es.
    2:{ apply nth_error_None in Es. lia. }
    destruct (nth_error chunks i) as [c|] eqn:Ec.
    2:{ apply nth_error_None in Ec. unfold n in Hi. lia. }
    destruct (stamp =? key) eqn:Ek; [do 2 eexists; reflexivity|].
    assert (Hs : stamp <> key) by lia.
    pose proof (cnt_set_nth key vis i stamp Es Hs) as C.
    assert (L1 : length (set_nth i key vis) = n) by (rewrite set_nth_length; exact Hl).
    destruct (visit_all_total (fun vis0 j => dfs chunks f vis0 key j) key (cnt (set_nth i key vis) key))
      with (l := c_imports c) (vis := set_nth i key vis) as [[v2 o2] E2].
    - intros v j Lv Hj Cv. destruct (IH v j Lv Hj) as (v' & o' & E); [lia|].
      exists v', o'. split; [exact E|]. eapply dfs_post_holds; eassumption.
    - exact L1.
    - apply (Hwf i c Ec).
    - lia.
    - rewrite E2. do 2 eexists; reflexivity.
  Qed.

  Lemma stamp_nonzero root : (root < n)%nat -> Z.of_nat n < 4294967296 -> stamp_of root <> 0.
  Proof. unfold stamp_of. lia. Qed.

  (* dfs_visits_reachable_once *)
  Lemma final_order_spec (Hwf : wf_graph) root : (root < n)%nat -> Z.of_nat n < 4294967296 ->
    exists o, final_order chunks root = Some o /\ NoDup o /\ (forall x, In x o <-> reach root x).
  Proof.
    intros Hr Hn. unfold final_order. fold n.
    assert (L0 : length (repeat 0 n) = n) by apply repeat_length.
    destruct (dfs_total Hwf (stamp_of root) (S n) (repeat 0 n) root L0 Hr) as (v & o & E).
    { pose proof (cnt_le_length (repeat 0 n) (stamp_of root)). lia. }
    rewrite E. exists o. split; [reflexivity|].
    destruct (dfs_post_holds Hwf _ _ _ _ _ _ L0 Hr E) as [_ Mp Np _ Rp Cp Tp _].
    assert (Un : forall x, ~ marked (repeat 0 n) (stamp_of root) x).
    { intros x M. apply nth_error_repeat_eq in M. exact (stamp_nonzero root Hr Hn M). }
    split; [apply Np|].
    intro x. split.
    - intro Hx. destruct (Rp x Hx) as (r & [<-|[]] & R). exact R.
    - intro R. induction R as [|x y R IHR E'].
      + pose proof (Tp root (or_introl eq_refl)) as M.
        apply Mp in M as [M|M]; [exfalso; eapply Un; exact M|exact M].
      + pose proof (Cp x IHR y E') as M.
        apply Mp in M as [M|M]; [exfalso; eapply Un; exact M|exact M].
  Qed.
End Dfs.
