(* Field-by-field view of what generateIsolatedHash writes into the hasher
   (the list the translator c18hashinv regenerates from the source as
   gen/HashInventoryGen.iso_writes), and: the written stream determines every
   ingredient, given the shape (how many parts / template parts / pieces,
   whether there is a public path). *)
From V Require Import Common.Base C18.Pieces C18.Hash C18.HashProofs.

(* tags: 1 namespace, 2 file path, 3 part begin, 4 part end, 5 template part,
   6 public path, 7 piece data, 8 whole output (no pieces), 9 source-map
   prefix, 10 source-map mappings, 11 source-map suffix *)
Inductive ingredient :=
| ILen (tag : Z) (b : bytes)      (* hashWriteLengthPrefixed *)
| IU32 (tag : Z) (v : Z).         (* hashWriteUint32 *)

Definition encode (i : ingredient) : bytes :=
  match i with ILen _ b => lenpref b | IU32 _ v => u32le v end.
Definition ishape (i : ingredient) : Z * Z :=
  match i with ILen t _ => (0, t) | IU32 t _ => (1, t) end.
Definition ing_ok (i : ingredient) : Prop :=
  match i with ILen _ b => fits32 b | IU32 _ v => 0 <= v < 4294967296 end.

Definition part_ingredients (p : part) : list ingredient :=
  [ILen 1 (pt_ns p);
   ILen 2 (if zlist_eqb (pt_ns p) ns_file then pt_pretty p else pt_key p);
   IU32 3 (pt_begin p); IU32 4 (pt_end p)].

Definition iso_ingredients (public : bytes) (c : chunk) : list ingredient :=
  (if c_is_js c then flat_map part_ingredients (c_parts c) else [])
  ++ map (fun t : tpart => ILen 5 (fst t)) (c_template c)
  ++ (match public with [] => [] | _ => [ILen 6 public] end)
  ++ (match c_pieces c with
      | Some ps => map (fun p => ILen 7 (pdata p)) ps
      | None => [ILen 8 (c_joiner c)]
      end)
  ++ [ILen 9 (c_sm_prefix c); ILen 10 (c_sm_mappings c); ILen 11 (c_sm_suffix c)].

Definition encode_all (l : list ingredient) : bytes := concat (map encode l).

Lemma encode_all_app a b : encode_all (a ++ b) = encode_all a ++ encode_all b.
Proof. unfold encode_all. rewrite map_app, concat_app. reflexivity. Qed.

Lemma encode_part p : encode_all (part_ingredients p) = part_stream p.
Proof. unfold part_stream, encode_all, part_ingredients. cbn [map concat encode]. rewrite app_nil_r. reflexivity. Qed.

Lemma encode_parts : forall ps, encode_all (flat_map part_ingredients ps) = concat (map part_stream ps).
Proof.
  induction ps as [|p r IH]; [reflexivity|].
  cbn [flat_map map concat]. rewrite encode_all_app, IH, encode_part. reflexivity.
Qed.

(* the model's stream is the encoding of the ingredient list *)
Lemma isolated_stream_is_ingredients public c :
  isolated_stream public c = encode_all (iso_ingredients public c).
Proof.
  unfold isolated_stream, iso_ingredients. rewrite !encode_all_app. f_equal.
  - destruct (c_is_js c); [symmetry; apply encode_parts|reflexivity].
  - f_equal.
    + unfold encode_all. rewrite map_map. reflexivity.
    + f_equal; [destruct public; [reflexivity|unfold encode_all; cbn; rewrite app_nil_r; reflexivity]|].
      f_equal.
      * unfold pieces_stream. destruct (c_pieces c) as [ps|].
        -- unfold encode_all. rewrite map_map. reflexivity.
        -- unfold encode_all. cbn. rewrite app_nil_r. reflexivity.
      * unfold encode_all. cbn [map concat encode]. rewrite ?app_nil_r, <- ?app_assoc. reflexivity.
Qed.

Lemma encode_inj_app a b r1 r2 : ishape a = ishape b -> ing_ok a -> ing_ok b ->
  encode a ++ r1 = encode b ++ r2 -> a = b /\ r1 = r2.
Proof.
  destruct a as [ta ba|ta va], b as [tb bb|tb vb]; cbn [ishape ing_ok encode]; intros S Ha Hb E; inversion S; subst.
  - apply lenpref_inj_app in E as [-> ->]; [split; reflexivity|assumption|assumption].
  - apply app_eq_length_inv in E as [E ->]; [|reflexivity].
    apply u32le_inj in E as ->; [split; reflexivity|assumption|assumption].
Qed.

(* the stream determines the ingredients, given their shape *)
Lemma ingredients_determined : forall l1 l2 r1 r2,
  map ishape l1 = map ishape l2 -> Forall ing_ok l1 -> Forall ing_ok l2 ->
  encode_all l1 ++ r1 = encode_all l2 ++ r2 -> l1 = l2 /\ r1 = r2.
Proof.
  induction l1 as [|a l1 IH]; intros [|b l2] r1 r2 S F1 F2 E; cbn in S; try discriminate.
  - split; [reflexivity|exact E].
  - injection S as Sa Sl. inversion F1; inversion F2; subst.
    unfold encode_all in E. cbn [map concat] in E. rewrite <- !app_assoc in E.
    apply encode_inj_app in E as [-> E]; try assumption.
    destruct (IH l2 r1 r2 Sl) as [-> ->]; try assumption. split; reflexivity.
Qed.

Lemma isolated_stream_determines_ingredients public1 public2 c1 c2 :
  map ishape (iso_ingredients public1 c1) = map ishape (iso_ingredients public2 c2) ->
  Forall ing_ok (iso_ingredients public1 c1) -> Forall ing_ok (iso_ingredients public2 c2) ->
  isolated_stream public1 c1 = isolated_stream public2 c2 ->
  iso_ingredients public1 c1 = iso_ingredients public2 c2.
Proof.
  intros S F1 F2 E. rewrite !isolated_stream_is_ingredients in E.
  destruct (ingredients_determined _ _ [] [] S F1 F2) as [R _]; [rewrite !app_nil_r; exact E|exact R].
Qed.

(* without the shape the stream is ambiguous: a template part can be read as a piece *)
Definition amb1 : chunk := mkChunk false [] [([97], 0); ([98], 0)] (Some [mkPiece [99] 0 0]) [] [] [] [] [].
Definition amb2 : chunk := mkChunk false [] [([97], 0)] (Some [mkPiece [98] 0 2; mkPiece [99] 0 0]) [] [] [] [] [].
Lemma isolated_stream_ambiguous_across_shapes :
  isolated_stream [] amb1 = isolated_stream [] amb2 /\ iso_ingredients [] amb1 <> iso_ingredients [] amb2.
Proof. split; [reflexivity|discriminate]. Qed.
