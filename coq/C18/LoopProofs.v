(* The final-hash loop of generateChunksInParallel shares one visited array
   between all roots and tells them apart by the stamp ^uint32(chunkIndex).
   Here: that is the same as running every root on a fresh array. *)
From V Require Import Common.Base C18.Pieces C18.Hash C18.HashProofs.

Section Loop.
  Variable H : bytes -> bytes.
  Variable public : bytes.
  Variable asset_rel : Z -> bytes.
  Variable chunks : list chunk.
  Let n := length chunks.

  Definition same_marks (key : Z) (v1 v2 : list Z) : Prop :=
    length v1 = length v2 /\ forall x, marked v1 key x <-> marked v2 key x.

  Definition related (key : Z) (r1 r2 : option (list Z * list nat)) : Prop :=
    match r1, r2 with
    | Some (a, o1), Some (b, o2) => o1 = o2 /\ same_marks key a b
    | None, None => True
    | _, _ => False
    end.

  Lemma same_marks_set key v1 v2 i : same_marks key v1 v2 -> same_marks key (set_nth i key v1) (set_nth i key v2).
  Proof.
    intros [L M]. split; [rewrite !set_nth_length; exact L|].
    intro x. destruct (lt_dec i (length v1)) as [Hi|Hi].
    - assert (Hi2 : (i < length v2)%nat) by (rewrite <- L; exact Hi).
      rewrite (marked_set_nth chunks v1 key i x Hi), (marked_set_nth chunks v2 key i x Hi2), M. tauto.
    - rewrite !set_nth_beyond by lia. apply M.
  Qed.

  Lemma visit_all_related key rec1 rec2 :
    (forall v1 v2 j, same_marks key v1 v2 -> related key (rec1 v1 j) (rec2 v2 j)) ->
    forall l v1 v2, same_marks key v1 v2 -> related key (visit_all rec1 l v1) (visit_all rec2 l v2).
  Proof.
    intros Hrec. induction l as [|j l IH]; intros v1 v2 S; cbn [visit_all].
    - cbn. split; [reflexivity|exact S].
    - pose proof (Hrec v1 v2 j S) as R.
      destruct (rec1 v1 j) as [[a o1]|], (rec2 v2 j) as [[b o2]|]; cbn in R; try contradiction; [|exact I].
      destruct R as [-> S']. pose proof (IH a b S') as R2.
      destruct (visit_all rec1 l a) as [[a' o1']|], (visit_all rec2 l b) as [[b' o2']|]; cbn in R2; try contradiction; [|exact I].
      destruct R2 as [-> S'']. cbn. split; [reflexivity|exact S''].
  Qed.

  Lemma dfs_related key : forall fuel v1 v2 i, same_marks key v1 v2 ->
    related key (dfs chunks fuel v1 key i) (dfs chunks fuel v2 key i).
  Proof.
    induction fuel as [|f IH]; intros v1 v2 i S; [exact I|].
    cbn [dfs]. destruct S as [L M].
    destruct (nth_error v1 i) as [s1|] eqn:E1, (nth_error v2 i) as [s2|] eqn:E2.
    - destruct (nth_error chunks i) as [c|]; [|exact I].
      assert (Es : (s1 =? key) = (s2 =? key)).
      { specialize (M i). unfold marked in M. rewrite E1, E2 in M.
        destruct (s1 =? key) eqn:K1, (s2 =? key) eqn:K2; try reflexivity.
        - apply Z.eqb_eq in K1. subst s1. destruct M as [M _]. specialize (M eq_refl). inversion M. lia.
        - apply Z.eqb_eq in K2. subst s2. destruct M as [_ M]. specialize (M eq_refl). inversion M. lia. }
      rewrite <- Es. destruct (s1 =? key).
      + cbn. split; [reflexivity|split; assumption].
      + pose proof (visit_all_related key _ _ (fun a b j S' => IH a b j S') (c_imports c) _ _
                      (same_marks_set key v1 v2 i (conj L M))) as R.
        destruct (visit_all _ (c_imports c) (set_nth i key v1)) as [[a o1]|],
                 (visit_all _ (c_imports c) (set_nth i key v2)) as [[b o2]|]; cbn in R; try contradiction; [|exact I].
        destruct R as [-> S']. cbn. split; [reflexivity|exact S'].
    - apply nth_error_None in E2. assert (N : nth_error v1 i <> None) by congruence. apply nth_error_Some in N. lia.
    - apply nth_error_None in E1. assert (N : nth_error v2 i <> None) by congruence. apply nth_error_Some in N. lia.
    - exact I.
  Qed.

  (* stamps present while root [i] is processed: 0 or the stamp of an earlier root *)
  Definition stamps_below (i : nat) (vis : list Z) : Prop :=
    length vis = n /\ forall x s, nth_error vis x = Some s -> s = 0 \/ exists j, (j < i)%nat /\ s = stamp_of j.

  Lemma stamps_below_S k vis : stamps_below k vis -> stamps_below (S k) vis.
  Proof.
    intros [Hl Hs]. split; [exact Hl|]. intros x s Ex.
    destruct (Hs x s Ex) as [Z0|(j & Hj & Ej)]; [left; exact Z0|right; exists j; split; [lia|exact Ej]].
  Qed.

  Definition expected (i : nat) : option bytes :=
    match nth_error chunks i with
    | Some c => if has_hash (c_template c) then final_stream H public asset_rel chunks i else None
    | None => None
    end.

  Lemma final_loop_gen (Hwf : wf_graph chunks) (Hn : Z.of_nat n < 4294967296) :
    forall m k vis, (k + m = n)%nat -> stamps_below k vis ->
      final_loop H public asset_rel chunks (seq k m) vis = Some (map expected (seq k m)).
  Proof.
    induction m as [|m IH]; intros k vis Hk [Hl Hs]; [reflexivity|].
    cbn [seq final_loop map].
    assert (Hkn : (k < n)%nat) by lia.
    destruct (nth_error chunks k) as [c|] eqn:Ec.
    2:{ apply nth_error_None in Ec. unfold n in Hkn. lia. }
    unfold expected at 1. rewrite Ec.
    destruct (has_hash (c_template c)).
    - (* no chunk carries the stamp of k yet: same marks as the fresh array *)
      assert (S0 : same_marks (stamp_of k) vis (repeat 0 n)).
      { split; [rewrite repeat_length; exact Hl|]. intro x. unfold marked. split; intro M.
        - exfalso. destruct (Hs x _ M) as [Z0|(j & Hj & Ej)]; unfold stamp_of in *; lia.
        - exfalso. apply nth_error_repeat_eq in M. unfold stamp_of in M. lia. }
      pose proof (dfs_related (stamp_of k) (S n) vis (repeat 0 n) k S0) as R.
      destruct (dfs_total chunks Hwf (stamp_of k) (S n) vis k Hl Hkn) as (v' & o & E).
      { pose proof (cnt_le_length chunks vis (stamp_of k)). lia. }
      fold n. rewrite E in R.
      unfold final_stream, final_order. fold n.
      destruct (dfs chunks (S n) (repeat 0 n) (stamp_of k) k) as [[b o2]|].
      2:{ unfold related in R. contradiction. }
      unfold related in R. destruct R as [<- _].
      destruct (dfs_post_holds chunks Hwf (stamp_of k) (S n) vis k v' o Hl Hkn E) as [Lp _ _ _ _ _ _ Op].
      rewrite E. rewrite (IH (S k) v'); [reflexivity|lia|].
      split; [rewrite Lp; exact Hl|].
      intros x s Ex. destruct (Z.eq_dec s (stamp_of k)) as [->|Ne].
      + right. exists k. split; [lia|reflexivity].
      + exact (proj2 (stamps_below_S k vis (conj Hl Hs)) x s (Op x s Ne Ex)).
    - rewrite (IH (S k) vis); [reflexivity|lia|]. exact (stamps_below_S k vis (conj Hl Hs)).
  Qed.

  (* the shared, stamped visited array is transparent *)
  Lemma final_streams_fresh (Hwf : wf_graph chunks) (Hn : Z.of_nat n < 4294967296) :
    final_streams H public asset_rel chunks = Some (map expected (seq 0 n)).
  Proof.
    unfold final_streams. fold n. apply final_loop_gen; try assumption; [lia|].
    split; [apply repeat_length|].
    intros x s E. left. exact (nth_error_repeat_eq _ _ _ _ E).
  Qed.
End Loop.
