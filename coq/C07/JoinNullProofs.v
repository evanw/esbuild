(* join_all_decodes with null entries: the list the linker joins is a list of
   compiled files with mappings interleaved with "null entries" (a file whose
   chunk has no mappings, after a file that has some): a null entry writes one
   mapping without original position at the place where the previous file's
   text ended.  After a null entry on a line the linker's prevEndState column
   and prevColumnOffset are both too large by the same amount; the deltas it
   writes are nevertheless the right ones, which is what the invariant of
   join_file_drift (JoinAllProofs.v) and join_null_drift carries. *)
From V Require Import Common.Base C07.Vlq C07.SpecMap C07.Mappings C07.VlqProofs C07.MappingsProofs
  C07.JoinProofs C07.Shift C07.LineCol C07.JoinAll C07.JoinAllProofs.

Inductive jitem :=
| JFile (f : jfile)
| JNull (src : Z).          (* isNullEntry: generatedOffset is the zero value *)

Definition res_of_item (it : jitem) : jres :=
  match it with
  | JFile f => res_of f
  | JNull src => mkJres [] None 0 state0 0 false (0, 0) src true
  end.

Definition item_ok (it : jitem) : Prop := match it with JFile f => file_ok f | JNull _ => True end.

(* all events of the joined map; [pco] = the column where the previous text ended *)
Fixpoint joined_ops_i (tbl : list (Z * Z)) (items : list jitem) (pco total : Z) : list op :=
  match items with
  | [] => []
  | JFile f :: r =>
    let sc := start_col f pco in
    repeat ONewline (Z.to_nat (fst (f_off f)))
      ++ rebase sc (src_of tbl f) total true (f_ops f)
      ++ joined_ops_i tbl r (f_fcol f + (if nlines (f_ops f) =? 0 then sc else 0)) (total + f_nn f)
  | JNull _ :: r => ONull pco :: joined_ops_i tbl r pco total
  end.

(* AppendSourceMapChunk on the null chunk "A" *)
Lemma append_null jl prev c srcs total :
  AppendSourceMapChunk jl prev (mkState 0 c srcs 0 0 total false) (mkChunk [65] None) =
  Some ((if sepb jl then [COMMA] else []) ++ encodeVLQ (c - gcol prev)).
Proof.
  unfold AppendSourceMapChunk, sepb, appendMapping.
  cbn -[encodeVLQ Z.sub Z.add].
  rewrite Z.add_0_r, !app_nil_r. reflexivity.
Qed.

Section Loop.
Variable jl0 : Z.
Variable tbl : list (Z * Z).

Lemma join_null_drift s src pre T d :
  js_out s = ebytes pre jl0 state0 -> gcol_off d (js_prev s) (st_after pre state0) -> js_pco s = T + d ->
  exists s' d', join_one jl0 tbl s (res_of_item (JNull src)) = Some s' /\
    js_out s' = ebytes (pre ++ [ONull T]) jl0 state0 /\
    gcol_off d' (js_prev s') (st_after (pre ++ [ONull T]) state0) /\
    js_pco s' = T + d' /\ js_total s' = js_total s.
Proof.
  intros Hout (A1 & A2 & A3 & A4 & A5) Hpco.
  unfold join_one. cbn [res_of_item j_src j_null j_ignore j_off j_data j_fno j_end j_fcol j_nnames fst snd].
  set (srcs := match tbl_find src tbl with Some i => Some i | None => Some 0 end).
  assert (Hs : exists i, srcs = Some i) by (subst srcs; destruct (tbl_find src tbl); eexists; reflexivity).
  clearbody srcs. destruct Hs as (i & ->).
  change (0 =? 0) with true. cbv iota.
  rewrite append_null.
  set (P := st_after pre state0) in *.
  set (jl := last (js_out s) jl0).
  assert (Hseg : (if sepb jl then [COMMA] else []) ++ encodeVLQ (0 + js_pco s - gcol (js_prev s)) = null_seg jl P T).
  { rewrite null_seg_eq. f_equal. f_equal. lia. }
  rewrite Hseg.
  assert (Hbytes : js_out s ++ null_seg jl P T = ebytes (pre ++ [ONull T]) jl0 state0).
  { rewrite ebytes_app, <- Hout, ebytes_null, ebytes_nil, app_nil_r. reflexivity. }
  rewrite join_finish_eq. cbv zeta.
  eexists. exists (T + 2 * d). split; [reflexivity|].
  cbn [js_out js_prev js_pco js_total gline gcol sidx oline ocol oname]. change (0 =? 0) with true. cbv iota.
  split; [exact Hbytes|]. split; [|split; [lia|reflexivity]].
  rewrite st_after_app. fold P. cbn [st_after]. unfold gcol_off, null_state. cbn [gcol sidx oline ocol oname].
  repeat split; try assumption; lia.
Qed.

(* the n-item statement, bytes *)
Lemma join_loop_bytes_i : forall items s pre T d,
  Forall item_ok items ->
  (forall f, In (JFile f) items -> tbl_find (f_src f) tbl <> None) ->
  js_out s = ebytes pre jl0 state0 -> gcol_off d (js_prev s) (st_after pre state0) -> js_pco s = T + d ->
  exists s', join_loop jl0 tbl s (map res_of_item items) = Some s' /\
    js_out s' = ebytes (pre ++ joined_ops_i tbl items T (js_total s)) jl0 state0.
Proof.
  induction items as [|it items IH]; intros s pre T d Hok Htbl Hout Hag Hpco.
  - exists s. split; [reflexivity|]. cbn [joined_ops_i]. rewrite app_nil_r. exact Hout.
  - inversion Hok as [|it' l Hit Hok']; subst.
    destruct it as [f|src].
    + destruct (join_file_drift jl0 tbl s f pre T d Hit (Htbl f (or_introl eq_refl)) Hout Hag Hpco)
        as (s1 & d1 & E1 & O1 & A1 & P1 & T1).
      cbv zeta in O1, A1.
      destruct (IH s1 _ _ d1 Hok' (fun g Hg => Htbl g (or_intror Hg)) O1 A1 P1) as (s' & E' & O').
      exists s'. cbn [map join_loop res_of_item]. rewrite E1. split; [exact E'|].
      rewrite O'. cbn [joined_ops_i]. rewrite T1. rewrite <- !app_assoc. reflexivity.
    + destruct (join_null_drift s src pre T d Hout Hag Hpco) as (s1 & d1 & E1 & O1 & A1 & P1 & T1).
      destruct (IH s1 _ _ d1 Hok' (fun g Hg => Htbl g (or_intror Hg)) O1 A1 P1) as (s' & E' & O').
      exists s'. cbn [map join_loop]. rewrite E1. split; [exact E'|].
      rewrite O'. cbn [joined_ops_i]. rewrite T1. rewrite <- !app_assoc. reflexivity.
Qed.
End Loop.

(* a null entry: one mapping without original position where the previous text ended *)
Fixpoint joined_abs_i (tbl : list (Z * Z)) (items : list jitem) (pos : Z * Z) (total : Z) : list abs :=
  match items with
  | [] => []
  | JFile f :: r =>
    let start := pos_add pos (f_off f) in
    map (move_abs (fst start) (snd start) (src_of tbl f) total) (abs_of (f_ops f) 0)
      ++ joined_abs_i tbl r (pos_add start (nlines (f_ops f), f_fcol f)) (total + f_nn f)
  | JNull _ :: r => mkAbs (fst pos) (snd pos) None None :: joined_abs_i tbl r pos total
  end.

Lemma abs_of_joined_i tbl : forall items line pco total,
  Forall item_ok items ->
  abs_of (joined_ops_i tbl items pco total) line = joined_abs_i tbl items (line, pco) total.
Proof.
  induction items as [|[f|src] items IH]; intros line pco total Hall; [reflexivity| |];
    inversion Hall as [|it l Hf Hall']; subst; cbn [joined_ops_i joined_abs_i].
  - rewrite abs_of_file, IH, pos_add_off, pos_add_end by (assumption || apply Hf). reflexivity.
  - cbn [abs_of fst snd]. f_equal. apply IH. exact Hall'.
Qed.

(* For every list of compiled files (builder-produced chunks with a mapping, any
   offsets with a non-negative line count, any source indices) interleaved with
   null entries, the loop of generateSourceMapForChunk does not panic and the
   mappings it writes denote exactly: every file's mappings at the place of the
   file's text, and for every null entry one mapping without original position
   at the place where the previous file's text ended. *)
Theorem join_all_decodes_items : forall items,
  Forall item_ok items ->
  let tbl := assign_sources (map res_of_item items) [] 0 in
  exists m, join_all (map res_of_item items) = Some m /\
            m = emit_bytes (joined_ops_i tbl items 0 0) /\
            spec_decode m = Some (joined_abs_i tbl items (0, 0) 0).
Proof.
  intros items Hok tbl. unfold join_all. fold tbl.
  assert (Htbl : forall f, In (JFile f) items -> tbl_find (f_src f) tbl <> None).
  { intros f Hin. subst tbl.
    apply (assign_complete (map res_of_item items) [] 0 (res_of f)); [|reflexivity].
    change (res_of f) with (res_of_item (JFile f)). apply in_map, Hin. }
  destruct (join_loop_bytes_i QUOTE tbl items jst0 [] 0 0 Hok Htbl eq_refl) as (s & E & O).
  { unfold gcol_off. cbn. repeat split. }
  { reflexivity. }
  rewrite E. eexists. split; [reflexivity|].
  cbn [app js_total jst0] in O.
  assert (Hm : js_out s = emit_bytes (joined_ops_i tbl items 0 0)).
  { rewrite O. unfold emit_bytes. apply ebytes_lb. reflexivity. }
  split; [exact Hm|]. rewrite Hm, mappings_roundtrip_all. f_equal.
  apply abs_of_joined_i. exact Hok.
Qed.
