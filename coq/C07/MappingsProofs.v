From V Require Import Common.Base C07.Vlq C07.SpecMap C07.Mappings C07.VlqProofs.

(* expected absolute mappings of a builder event list *)
Fixpoint abs_of (ops : list op) (line : Z) : list abs :=
  match ops with
  | [] => []
  | ONewline :: r => abs_of r (line + 1)
  | OMap gc si ol oc nm :: r => mkAbs line gc (Some (si, ol, oc)) nm :: abs_of r line
  | ONull gc :: r => mkAbs line gc None None :: abs_of r line
  end.

Definition push_field (s : dst) (v : Z) : dst :=
  mkDst (d_line s) (d_col s) (d_src s) (d_oline s) (d_ocol s) (d_name s)
        (v :: d_fields s) 0 0 false (d_out s) (d_err s).

Lemma signed_of_to_vlq v : signed_of (to_vlq v) = v.
Proof.
  unfold signed_of, to_vlq. destruct (Z.ltb_spec v 0).
  - replace (Z.even (2 * - v + 1)) with false; [lia|].
    symmetry. replace (2 * - v + 1) with (1 + 2 * - v) by lia. rewrite Z.even_add_mul_2. reflexivity.
  - replace (Z.even (2 * v)) with true; [lia|].
    symmetry. rewrite Z.even_mul. reflexivity.
Qed.

Lemma spec_digit_char d : 0 <= d < 64 -> spec_digit (b64_char d) = Some d.
Proof. intro H. rewrite <- b64_index_is_spec. apply b64_index_char, H. Qed.

Lemma char_not_sep d : 0 <= d < 64 ->
  let c := b64_char d in c <> 59 /\ c <> 44 /\ c <> 0 /\ c <> 34.
Proof.
  intro Hd. apply (forallb_seq_Z (fun d => let c := b64_char d in
                     negb (c =? 59) && negb (c =? 44) && negb (c =? 0) && negb (c =? 34)) 64) in Hd;
    [|vm_compute; reflexivity].
  cbv zeta in *. lia.
Qed.

Lemma spec_step_digit s d : 0 <= d < 64 ->
  spec_step s (b64_char d) =
    let acc := d_acc s + (d mod 32) * 2 ^ (d_shift s) in
    if d <? 32 then
      mkDst (d_line s) (d_col s) (d_src s) (d_oline s) (d_ocol s) (d_name s)
            (signed_of acc :: d_fields s) 0 0 false (d_out s) (d_err s)
    else
      mkDst (d_line s) (d_col s) (d_src s) (d_oline s) (d_ocol s) (d_name s)
            (d_fields s) acc (d_shift s + 5) true (d_out s) (d_err s).
Proof.
  intro Hd. unfold spec_step. destruct (char_not_sep d Hd) as (H1 & H2 & _).
  replace (b64_char d =? 59) with false by lia.
  replace (b64_char d =? 44) with false by lia.
  rewrite spec_digit_char by exact Hd. reflexivity.
Qed.

Lemma spec_run_enc_loop : forall fuel vlq s,
  (0 < fuel)%nat -> 0 <= vlq < 2 ^ (5 * Z.of_nat fuel) -> 0 <= d_shift s ->
  spec_run s (enc_loop fuel vlq) =
    mkDst (d_line s) (d_col s) (d_src s) (d_oline s) (d_ocol s) (d_name s)
          (signed_of (d_acc s + vlq * 2 ^ d_shift s) :: d_fields s) 0 0 false (d_out s) (d_err s).
Proof.
  induction fuel as [|f IH]; intros vlq s Hf Hv Hs; [lia|].
  cbn [enc_loop]. rewrite pow5 in Hv.
  assert (Hd : 0 <= vlq mod 32 < 32) by (apply Z.mod_pos_bound; lia).
  destruct (Z.eqb_spec (vlq / 32) 0) as [Hz|Hnz].
  - unfold spec_run. cbn [fold_left]. rewrite spec_step_digit by lia. cbv zeta.
    replace (vlq mod 32 <? 32) with true by lia.
    rewrite Z.mod_mod by lia. replace (vlq mod 32) with vlq by lia. reflexivity.
  - unfold spec_run. cbn [fold_left]. rewrite spec_step_digit by lia. cbv zeta.
    replace (vlq mod 32 + 32 <? 32) with false by lia.
    replace ((vlq mod 32 + 32) mod 32) with (vlq mod 32) by lia.
    assert (Hq : 0 <= vlq / 32 < 2 ^ (5 * Z.of_nat f)) by lia.
    assert (Hfpos : (0 < f)%nat) by (destruct f; [simpl in Hq; lia | lia]).
    fold (spec_run (mkDst (d_line s) (d_col s) (d_src s) (d_oline s) (d_ocol s) (d_name s)
            (d_fields s) (d_acc s + vlq mod 32 * 2 ^ d_shift s) (d_shift s + 5) true (d_out s) (d_err s))
            (enc_loop f (vlq / 32))).
    rewrite IH by (cbn; try assumption; lia). cbn [d_line d_col d_src d_oline d_ocol d_name d_fields d_acc d_shift d_out d_err].
    f_equal. f_equal. f_equal.
    rewrite Z.pow_add_r by lia. change (2 ^ 5) with 32.
    pose proof (Z.div_mod vlq 32 ltac:(lia)). nia.
Qed.

Lemma spec_run_encodeVLQ s v :
  d_acc s = 0 -> d_shift s = 0 -> spec_run s (encodeVLQ v) = push_field s v.
Proof.
  intros Ha Hs. unfold encodeVLQ. rewrite spec_run_enc_loop; try lia.
  - rewrite Ha, Hs, Z.pow_0_r, Z.mul_1_r, Z.add_0_l, signed_of_to_vlq. reflexivity.
  - split; [apply to_vlq_nonneg | apply log2_fuel, to_vlq_nonneg].
Qed.

Lemma spec_run_app s a b : spec_run s (a ++ b) = spec_run (spec_run s a) b.
Proof. unfold spec_run. apply fold_left_app. Qed.

(* the last byte of an encoded VLQ is a base64 digit *)
Lemma enc_loop_last fuel vlq dflt : (0 < fuel)%nat ->
  exists d, 0 <= d < 64 /\ last (enc_loop fuel vlq) dflt = b64_char d.
Proof.
  revert vlq; induction fuel as [|f IH]; intros vlq Hf; [lia|].
  cbn [enc_loop].
  assert (Hd : 0 <= vlq mod 32 < 32) by (apply Z.mod_pos_bound; lia).
  destruct (Z.eqb_spec (vlq / 32) 0).
  - exists (vlq mod 32). split; [lia|reflexivity].
  - destruct f as [|f'].
    + cbn [enc_loop]. exists (vlq mod 32 + 32). split; [lia|reflexivity].
    + destruct (IH (vlq / 32) ltac:(lia)) as (d & Hd1 & Hd2).
      exists d. split; [exact Hd1|].
      pose proof (enc_loop_nonempty (S f') (vlq / 32) ltac:(lia)) as Hne.
      destruct (enc_loop (S f') (vlq / 32)) eqn:E; [congruence|].
      rewrite <- Hd2. reflexivity.
Qed.

Lemma last_app_nonempty {A} (a b : list A) d : b <> [] -> last (a ++ b) d = last b d.
Proof.
  intro Hb. induction a as [|x a IH]; [reflexivity|].
  cbn [app]. destruct (a ++ b) eqn:E.
  - destruct a; simpl in E; [subst; congruence|discriminate].
  - rewrite <- IH. reflexivity.
Qed.

Lemma encodeVLQ_last v dflt :
  exists d, 0 <= d < 64 /\ last (encodeVLQ v) dflt = b64_char d.
Proof. unfold encodeVLQ. apply enc_loop_last. lia. Qed.

Lemma spec_run_fields vs : forall s, d_acc s = 0 -> d_shift s = 0 ->
  spec_run s (concat (map encodeVLQ vs)) = fold_left push_field vs s.
Proof.
  induction vs as [|v vs IH]; intros s Ha Hs; [reflexivity|].
  cbn [map concat fold_left]. rewrite spec_run_app, spec_run_encodeVLQ by assumption. apply IH; reflexivity.
Qed.

(* the values appendMappingToBuffer writes: 1, 4 or 5 of them, or 2 for a name without a source *)
Definition deltas (prev cur : state) (omit : bool) : list Z :=
  (gcol cur - gcol prev)
  :: (if omit then [] else [sidx cur - sidx prev; oline cur - oline prev; ocol cur - ocol prev])
  ++ (if has_name cur then [oname cur - oname prev] else []).

Lemma appendMapping_bytes lb prev cur omit :
  fst (appendMapping lb prev cur omit) =
  (if negb (lb =? 0) && negb (lb =? SEMI) && negb (lb =? QUOTE) then [COMMA] else [])
  ++ concat (map encodeVLQ (deltas prev cur omit)).
Proof.
  unfold appendMapping, deltas.
  destruct omit, (has_name cur); cbn [fst map concat app]; rewrite <- ?app_assoc, ?app_nil_r; reflexivity.
Qed.

Lemma deltas_last prev cur omit pre dflt : exists d, 0 <= d < 64 /\
  last (pre ++ concat (map encodeVLQ (deltas prev cur omit))) dflt = b64_char d.
Proof.
  unfold deltas. destruct omit, (has_name cur); cbn [map concat app]; rewrite app_nil_r, ?app_assoc;
    rewrite last_app_nonempty by apply encodeVLQ_nonempty; apply encodeVLQ_last.
Qed.

Definition key (p : state) : Z * Z * Z * Z * Z * Z := (gline p, gcol p, sidx p, oline p, ocol p, oname p).

(* the decoder is between segments and its running values are the builder's prevState *)
Definition synced (prev : state) (s : dst) : Prop :=
  d_fields s = [] /\ d_mid s = false /\ d_acc s = 0 /\ d_shift s = 0 /\ d_err s = false /\
  (d_line s, d_col s, d_src s, d_oline s, d_ocol s, d_name s) = key prev.

(* [lastByte] is what the emitter looks at to decide whether to write a comma: after a
   segment the decoder still holds the segment's fields, and would be synced once it ends *)
Definition J (lastByte : Z) (prev : state) (s : dst) : Prop :=
  if (lastByte =? 0) || (lastByte =? 59) then synced prev s
  else lastByte <> 34 /\ d_mid s = false /\ synced prev (finish_segment s).

Lemma finish_synced prev s : synced prev s -> finish_segment s = s.
Proof.
  intros (Hf & Hm & _). unfold finish_segment. rewrite Hm, Hf. reflexivity.
Qed.

Lemma J_finish lb prev s : J lb prev s -> synced prev (finish_segment s).
Proof.
  unfold J. destruct ((lb =? 0) || (lb =? 59)); [|tauto].
  intro H. rewrite (finish_synced prev s H). exact H.
Qed.

Lemma J_comma lb prev s rest : J lb prev s ->
  spec_run s ((if negb (lb =? 0) && negb (lb =? SEMI) && negb (lb =? QUOTE) then [COMMA] else []) ++ rest) =
  spec_run (finish_segment s) rest.
Proof.
  unfold J, SEMI, QUOTE. intro H.
  destruct (Z.eqb_spec lb 0); [rewrite (finish_synced prev s H); reflexivity|].
  destruct (Z.eqb_spec lb 59); [rewrite (finish_synced prev s H); reflexivity|].
  cbn [orb] in H. replace (lb =? 34) with false by lia. reflexivity.
Qed.

(* prevState after the segment for [cur]: the values the segment carries are [cur]'s *)
Definition advanced (prev cur : state) (omit : bool) (prev' : state) : Prop :=
  key prev' = (gline prev, gcol cur, if omit then sidx prev else sidx cur, if omit then oline prev else oline cur,
               if omit then ocol prev else ocol cur, if has_name cur then oname cur else oname prev).

Lemma finish_fields prev cur omit s prev' :
  synced prev s -> (omit = true -> has_name cur = false) -> advanced prev cur omit prev' ->
  let s2 := fold_left push_field (deltas prev cur omit) s in
  d_mid s2 = false /\ synced prev' (finish_segment s2) /\
  d_out (finish_segment s2) =
    mkAbs (gline prev) (gcol cur) (if omit then None else Some (sidx cur, oline cur, ocol cur))
          (if has_name cur then Some (oname cur) else None) :: d_out s.
Proof.
  intros (Hf & Hm & Ha & Hs & He & Hk) Ho Hk'. unfold advanced in Hk'. destruct s as [l c sr ol oc nm fs a sh m out e].
  cbn [d_fields d_mid d_acc d_shift d_err d_line d_col d_src d_oline d_ocol d_name] in *.
  subst fs m a sh e. unfold key in Hk. injection Hk as -> -> -> -> -> ->.
  unfold synced, deltas. rewrite Hk'.
  destruct omit; [rewrite (Ho eq_refl)|destruct (has_name cur)]; cbn; repeat split; repeat f_equal; lia.
Qed.

Lemma seg_sound lb prev cur omit s prev' :
  J lb prev s -> (omit = true -> has_name cur = false) -> advanced prev cur omit prev' ->
  let seg := fst (appendMapping lb prev cur omit) in
  J (last seg lb) prev' (spec_run s seg) /\
  d_out (finish_segment (spec_run s seg)) =
    mkAbs (gline prev) (gcol cur) (if omit then None else Some (sidx cur, oline cur, ocol cur))
          (if has_name cur then Some (oname cur) else None) :: d_out (finish_segment s).
Proof.
  intros HJ Ho Hk seg. subst seg. rewrite appendMapping_bytes, (J_comma lb prev s _ HJ).
  pose proof (J_finish lb prev s HJ) as Hsy.
  rewrite spec_run_fields by apply Hsy.
  destruct (finish_fields prev cur omit _ prev' Hsy Ho Hk) as (Hm & Hsy2 & Hout).
  split; [|exact Hout].
  (* the segment ends with a base64 digit, which is none of the bytes J tests for *)
  destruct (deltas_last prev cur omit (if negb (lb =? 0) && negb (lb =? SEMI) && negb (lb =? QUOTE) then [COMMA] else []) lb)
    as (d & Hd & ->).
  destruct (char_not_sep d Hd) as (C1 & C2 & C3 & C4). unfold J.
  replace (b64_char d =? 0) with false by lia. replace (b64_char d =? 59) with false by lia.
  split; [exact C4|split; assumption].
Qed.

Lemma emit_sound : forall ops lastByte prev s,
  J lastByte prev s ->
  let '(b, lb, st) := emit ops lastByte prev in
  J lb st (spec_run s b) /\
  d_out (finish_segment (spec_run s b)) = rev (abs_of ops (gline prev)) ++ d_out (finish_segment s).
Proof.
  induction ops as [|o ops IH]; intros lastByte prev s HJ.
  - cbn [emit]. split; [exact HJ|reflexivity].
  - (* every event writes [seg], after which the decoder has the mappings [a] more *)
    assert (Hstep : forall seg prev' a,
              J (last seg lastByte) prev' (spec_run s seg) /\
              d_out (finish_segment (spec_run s seg)) = rev a ++ d_out (finish_segment s) ->
              let '(b, lb, st) := (let '(b, lb, st) := emit ops (last seg lastByte) prev' in (seg ++ b, lb, st)) in
              J lb st (spec_run s b) /\
              d_out (finish_segment (spec_run s b)) =
                rev (a ++ abs_of ops (gline prev')) ++ d_out (finish_segment s)).
    { intros seg prev' a [HJ2 Hout]. specialize (IH _ _ _ HJ2).
      destruct (emit ops (last seg lastByte) prev') as [[b lb] st]. destruct IH as [IH1 IH2].
      rewrite spec_run_app. split; [exact IH1|]. rewrite IH2, Hout, rev_app_distr. apply app_assoc. }
    destruct o as [|gc si ol oc nm|gc]; cbn [emit abs_of].
    + (* ';' ends the pending segment and starts a line *)
      pose proof (J_finish _ _ _ HJ) as (H1 & H2 & H3 & H4 & H5 & H6).
      injection H6 as H6 H7 H8 H9 H10 H11.
      refine (Hstep [SEMI] _ [] _). cbn [last app]. split.
      * unfold J, synced, key. cbn. rewrite H5, H6, H8, H9, H10, H11. repeat split.
      * unfold spec_run, spec_step, finish_segment at 1. cbn. reflexivity.
    + unfold next_state.
      destruct nm as [n|]; refine (Hstep _ _ [_] (seg_sound lastByte prev _ false s _ HJ _ _)); (discriminate || reflexivity).
    + refine (Hstep _ _ [_] (seg_sound lastByte prev _ true s _ HJ _ _)); reflexivity.
Qed.

(* The mappings string written by the builder denotes, under the source-map v3
   semantics, exactly the list of mappings that were added, for every event list. *)
Lemma mappings_roundtrip_all ops : spec_decode (emit_bytes ops) = Some (abs_of ops 0).
Proof.
  unfold spec_decode, emit_bytes.
  assert (HJ0 : J 0 state0 dst0) by (cbn; unfold synced; repeat split).
  pose proof (emit_sound ops 0 state0 dst0 HJ0) as H.
  destruct (emit ops 0 state0) as [[b lb] st]. cbn [fst].
  destruct H as [H1 H2]. apply J_finish in H1 as (_ & _ & _ & _ & -> & _).
  rewrite H2. cbn. rewrite app_nil_r, rev_involutive. reflexivity.
Qed.
