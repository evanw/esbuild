(* pipeline_exact: builder events of n files -> GenerateChunk -> the joining loop
   of generateSourceMapForChunk -> SourceMapPieces.Finalize with a well-formed
   shift list; the final mappings string decodes to every file's specified
   mappings at the file's place, generated columns moved by the shifts.
   Composition of builder_mappings_exact, join_all_decodes and
   finalize_moves_columns; the one further ingredient is that the joined event
   list is sorted within each generated line (needed by Finalize). *)
From V Require Import Common.Base Common.Utf8 C07.Vlq C07.SpecMap C07.Mappings C07.LineCol C07.Builder
  C07.VlqProofs C07.MappingsProofs C07.JoinProofs C07.BuilderProofs C07.LineColAux C07.LineColProofs
  C07.SpecBuilder C07.BuilderExact C07.JoinAll C07.JoinAllProofs C07.JoinNullProofs C07.Shift C07.ShiftAux C07.ShiftProofs.

Lemma joined_ops_files tbl : forall fs pco total,
  joined_ops_i tbl (map JFile fs) pco total = joined_ops tbl fs pco total.
Proof. induction fs as [|f fs IH]; intros pco total; cbn [map joined_ops_i joined_ops]; rewrite ?IH; reflexivity. Qed.

Lemma joined_abs_files tbl : forall fs pos total,
  joined_abs_i tbl (map JFile fs) pos total = joined_abs tbl fs pos total.
Proof. induction fs as [|f fs IH]; intros pos total; cbn [map joined_abs_i joined_abs]; rewrite ?IH; reflexivity. Qed.

(* For every list of compiled files (builder-produced chunks that are not
   ShouldIgnore, any offsets with a non-negative line count, any source
   indices), the loop of generateSourceMapForChunk (with the sources table its
   first loop builds) does not panic, and the mappings it writes denote, under
   the v3 semantics, exactly: every file's mappings, in order, at the place of
   the file's text (start = end of the previous file's text + its offset), with
   the file's "sources" index and the number of names of the previous files
   added. *)
Theorem join_all_decodes_all : forall fs,
  Forall file_ok fs ->
  let tbl := assign_sources (map res_of fs) [] 0 in
  exists m, join_all (map res_of fs) = Some m /\
            m = emit_bytes (joined_ops tbl fs 0 0) /\
            spec_decode m = Some (joined_abs tbl fs (0, 0) 0).
Proof.
  intros fs Hok.
  pose proof (join_all_decodes_items (map JFile fs) (proj2 (Forall_map JFile item_ok fs) Hok)) as H.
  rewrite map_map in H. cbv zeta in H. rewrite joined_ops_files, joined_abs_files in H. exact H.
Qed.

Lemma has_map_split : forall ops, has_map ops = true ->
  exists k gc si ol oc nm rest, ops = repeat ONewline k ++ OMap gc si ol oc nm :: rest.
Proof.
  induction ops as [|[|gc si ol oc nm|gc] r IH]; intro H; cbn [has_map] in H.
  - discriminate.
  - destruct (IH H) as (k & gc & si & ol & oc & nm & rest & ->).
    exists (S k), gc, si, ol, oc, nm, rest. reflexivity.
  - exists 0%nat, gc, si, ol, oc, nm, r. reflexivity.
  - discriminate.
Qed.

Lemma has_map_app_l a b : has_map a = true -> has_map (a ++ b) = true.
Proof. induction a as [|[| |] a IH]; cbn [app has_map]; intro H; [discriminate|exact (IH H)|reflexivity|discriminate]. Qed.

Lemma breaks_ops_nil : forall k has, breaks_ops k [] has = repeat ONewline k.
Proof.
  induction k as [|k IH]; intro has; [reflexivity|].
  cbn [breaks_ops repeat]. destruct has; cbn [app]; rewrite IH; reflexivity.
Qed.

(* a chunk with a mapping is not ShouldIgnore *)
Lemma all_semis_has_map : forall ops lb p, has_map ops = true -> all_semis (ebytes ops lb p) = false.
Proof.
  induction ops as [|[|gc si ol oc nm|gc] r IH]; intros lb p H; cbn [has_map] in H.
  4:{ discriminate. }
  - discriminate.
  - rewrite ebytes_newline. cbn [all_semis]. rewrite (IH _ _ H). apply andb_false_r.
  - destruct (ebytes_map_gen gc si ol oc nm r lb p) as (lb' & _ & ->).
    destruct (sepb lb).
    + reflexivity.
    + cbn [app]. destruct (enc_cons (gc - gcol p)) as (c & t & -> & Hc & _). cbn [app all_semis].
      destruct (Z.eqb_spec c SEMI); [contradiction|reflexivity].
Qed.

Lemma sorted_ops_app : forall a b c, sorted_ops (a ++ b) c <-> sorted_ops a c /\ sorted_ops b (end_col a c).
Proof.
  induction a as [|[|gc si ol oc nm|gc] a IH]; intros b c; cbn [app sorted_ops end_col].
  - tauto.
  - apply IH.
  - rewrite IH. tauto.
  - rewrite IH. tauto.
Qed.

Lemma end_col_app : forall a b c, end_col (a ++ b) c = end_col b (end_col a c).
Proof. induction a as [|[| |] a IH]; intros b c; cbn [app end_col]; [reflexivity| | |]; apply IH. Qed.

Lemma end_col_newlines k c : end_col (repeat ONewline k) c = match k with O => c | S _ => 0 end.
Proof.
  revert c. induction k as [|k IH]; intro c; [reflexivity|].
  cbn [repeat end_col]. rewrite IH. destruct k; reflexivity.
Qed.

Lemma sorted_newlines k c : sorted_ops (repeat ONewline k) c.
Proof. revert c. induction k as [|k IH]; intro c; [exact I|]. cbn [repeat sorted_ops]. apply IH. Qed.

Lemma rebase_sorted_end (dc ds dn : Z) : forall ops c0 c' (fl : bool),
  sorted_ops ops c0 -> c' <= c0 + (if fl then dc else 0) ->
  sorted_ops (rebase dc ds dn fl ops) c' /\
  end_col (rebase dc ds dn fl ops) c' <= end_col ops c0 + (if fl && (nlines ops =? 0) then dc else 0).
Proof.
  induction ops as [|[|gc si ol oc nm|gc] r IH]; intros c0 c' fl Hs Hc; cbn [rebase sorted_ops end_col nlines] in *.
  - rewrite andb_true_r. split; [exact I|exact Hc].
  - destruct (IH 0 0 false Hs ltac:(lia)) as (A & B). split; [exact A|].
    pose proof (nlines_nonneg r).
    assert (Hf : fl && (1 + nlines r =? 0) = false) by (destruct fl; cbn [andb]; lia).
    rewrite Hf. cbn [andb] in B. exact B.
  - destruct Hs as [H1 H2].
    destruct (IH gc (if fl then gc + dc else gc) fl H2 ltac:(destruct fl; lia)) as (A & B).
    split; [split; [destruct fl; lia|exact A]|exact B].
  - destruct Hs as [H1 H2].
    destruct (IH gc (if fl then gc + dc else gc) fl H2 ltac:(destruct fl; lia)) as (A & B).
    split; [split; [destruct fl; lia|exact A]|exact B].
Qed.

(* a compiled file as the builder guarantees it, with an offset that is a position *)
Definition file_wf (f : jfile) : Prop :=
  sorted_ops (f_ops f) 0 /\ end_col (f_ops f) 0 <= f_fcol f /\ 0 <= fst (f_off f) /\ 0 <= snd (f_off f).

(* one file's events inside the joined list; [c]: lower bound for the next column *)
Lemma file_sorted tbl f pco total c r :
  file_wf f -> c <= pco ->
  (forall c', c' <= f_fcol f + (if nlines (f_ops f) =? 0 then start_col f pco else 0) -> sorted_ops r c') ->
  sorted_ops (repeat ONewline (Z.to_nat (fst (f_off f)))
                ++ rebase (start_col f pco) (src_of tbl f) total true (f_ops f) ++ r) c.
Proof.
  intros (W1 & W2 & W3 & W4) Hc Hr.
  apply sorted_ops_app. split; [apply sorted_newlines|].
  rewrite end_col_newlines. apply sorted_ops_app.
  set (c1 := match Z.to_nat (fst (f_off f)) with O => c | S _ => 0 end).
  assert (Hc1 : c1 <= 0 + start_col f pco).
  { subst c1. unfold start_col. destruct (Z.eqb_spec (fst (f_off f)) 0) as [E|E].
    - rewrite E. cbn. lia.
    - destruct (Z.to_nat (fst (f_off f))) eqn:EL; lia. }
  destruct (rebase_sorted_end (start_col f pco) (src_of tbl f) total (f_ops f) 0 c1 true W1 Hc1) as (A & B).
  split; [exact A|]. apply Hr. cbn [andb] in B. lia.
Qed.

Definition item_wf (it : jitem) : Prop := match it with JFile f => file_wf f | JNull _ => True end.

Lemma joined_sorted_i tbl : forall items pco total c,
  Forall item_wf items -> c <= pco ->
  sorted_ops (joined_ops_i tbl items pco total) c.
Proof.
  induction items as [|[f|src] items IH]; intros pco total c Hall Hc; [exact I| |];
    inversion Hall as [|it l Hw Hall']; subst; cbn [joined_ops_i].
  - apply file_sorted; [exact Hw|exact Hc|]. intros c' Hc'. apply IH; assumption.
  - cbn [sorted_ops]. split; [exact Hc|]. apply IH; [exact Hall'|lia].
Qed.

Lemma joined_sorted tbl fs pco total c :
  Forall file_wf fs -> c <= pco -> sorted_ops (joined_ops tbl fs pco total) c.
Proof.
  intros Hall Hc. rewrite <- joined_ops_files.
  apply joined_sorted_i; [apply Forall_map; exact Hall|exact Hc].
Qed.

(* The joining loop, then Finalize: on compiled files and null entries as the
   builder guarantees them, neither panics, and the final string is the encoding
   of the joined events with their columns shifted. *)
Lemma join_finalize_items items sh :
  Forall item_ok items -> Forall item_wf items -> shifts_wf sh ->
  let tbl := assign_sources (map res_of_item items) [] 0 in
  let result := emit_bytes (shift_ops sh (joined_ops_i tbl items 0 0) 0) in
  exists m, join_all (map res_of_item items) = Some m /\
    Finalize sh m = Some result /\
    spec_decode result = Some (map (shift_abs sh) (joined_abs_i tbl items (0, 0) 0)).
Proof.
  intros Hio Hiw Hsh tbl result.
  destruct (join_all_decodes_items items Hio) as (m & Ej & Em & _). fold tbl in Em.
  assert (Hwf : ops_wf (joined_ops_i tbl items 0 0)) by (apply joined_sorted_i; [exact Hiw|lia]).
  exists m. split; [exact Ej|]. rewrite Em. split; [exact (finalize_shift sh _ Hsh Hwf)|].
  subst result. rewrite mappings_roundtrip_all, abs_of_shift_ops, (abs_of_joined_i tbl items 0 0 0 Hio).
  reflexivity.
Qed.

(* one source file as the printer sees it: original text, AddSourceMapping calls,
   final output text; and where the linker puts it: offset, source index *)
Definition src_file := (bytes * list (Z * Z * bytes) * bytes * (Z * Z) * Z)%type.

(* what the file contributes, by specification *)
Definition spec_file (sf : src_file) : jfile :=
  let '(text, evs, fin, off, src) := sf in
  let '(ops, names, fcol) := builder_spec text true evs fin in
  mkJfile ops (Z.of_nat (length names)) fcol off src.

(* what the linker gets from the (modelled) ChunkBuilder *)
Definition built_res (sf : src_file) : option jres :=
  let '(text, evs, fin, off, src) := sf in
  match run_builder (GenerateLineOffsetTables text) (bst0 true) evs with
  | None => None
  | Some b =>
    let '(data, fno, names, endst, fcol, ign) := GenerateChunk b fin in
    Some (mkJres data fno (Z.of_nat (length names)) endst fcol ign off src false)
  end.

Definition src_ok (sf : src_file) : Prop :=
  let '(text, evs, fin, off, src) := sf in
  Forall (fun e => boundary text (fst (fst e))) evs /\ evs <> [] /\ 0 <= fst off /\ 0 <= snd off.

Lemma boundary_nonneg text off : boundary text off -> 0 <= off.
Proof.
  intros [->|H]; [lia|].
  pose proof (wf_runes_offsets (runes text) text 0 off (runes_wf text) H). lia.
Qed.

(* the first call is never a duplicate: the chunk has a mapping *)
Lemma sp_event_first text cover loc name delta :
  0 <= loc -> has_map (snd (sp_event text cover sw0 loc name delta)) = true.
Proof.
  intro Hloc. unfold sp_event. cbn [w_ploc sw0].
  replace (loc =? -1) with false by lia. cbn [andb snd].
  assert (Hcov : cover_op cover (w_last sw0) = []) by (destruct cover; reflexivity).
  rewrite Hcov, breaks_ops_nil, has_map_newlines.
  match goal with |- has_map ((if ?c then _ else _) ++ _) = _ => destruct c end; reflexivity.
Qed.

Lemma spec_has_map text cover evs fin :
  Forall (fun e => boundary text (fst (fst e))) evs -> evs <> [] ->
  has_map (builder_spec_ops text cover evs fin) = true.
Proof.
  intros Hall Hne. destruct evs as [|[[loc name] delta] evs]; [congruence|].
  inversion Hall as [|e l Hb _]; subst. cbn [fst] in Hb. pose proof (boundary_nonneg _ _ Hb) as Hloc.
  unfold builder_spec_ops, builder_spec. cbn [fst snd].
  apply has_map_app_l. cbn [sp_run snd]. apply has_map_app_l.
  apply (sp_event_first text cover loc name delta Hloc).
Qed.

Lemma built_is_spec sf : src_ok sf ->
  built_res sf = Some (res_of (spec_file sf)) /\ file_ok (spec_file sf) /\ file_wf (spec_file sf).
Proof.
  destruct sf as [[[[text evs] fin] off] src]. intros (Hall & Hne & Ho1 & Ho2).
  pose proof (spec_has_map text true evs fin Hall Hne) as Hmap.
  destruct (builder_exact_all text true evs fin Hall) as (b & Erun & H).
  unfold built_res, spec_file. rewrite Erun.
  unfold builder_spec_ops in Hmap.
  destruct (GenerateChunk b fin) as [[[[[data fno] names] endst] fcol] ign] eqn:EG.
  destruct (builder_spec text true evs fin) as [[ops snames] scol] eqn:ES.
  cbn [fst] in Hmap.
  destruct H as (H1 & H2 & H3 & H4 & H5 & H6 & H7 & H8).
  assert (Hign : ign = false).
  { unfold GenerateChunk in EG. injection EG as E1 E2 E3 E4 E5 E6.
    rewrite <- E6, E1, H1. unfold emit_bytes. apply (all_semis_has_map ops 0 state0 Hmap). }
  split; [|split].
  - unfold res_of. cbn [f_ops f_nn f_fcol f_off f_src]. subst. reflexivity.
  - split; [exact (has_map_split ops Hmap)|exact Ho1].
  - unfold file_wf. cbn [f_ops f_fcol f_off]. split; [exact H7|]. split; [|split; assumption].
    rewrite <- H5. exact H8.
Qed.

Lemma built_files_spec : forall sfs, Forall src_ok sfs ->
  map built_res sfs = map Some (map res_of (map spec_file sfs)) /\
  Forall file_ok (map spec_file sfs) /\ Forall file_wf (map spec_file sfs).
Proof.
  induction 1 as [|sf l Hsf _ (A' & B' & C')]; [repeat split; constructor|].
  destruct (built_is_spec sf Hsf) as (A & B & C).
  cbn [map]. rewrite A, A'. repeat split; constructor; assumption.
Qed.

(* every file through the builder, the joining loop, then Finalize *)
Theorem pipeline_exact_all : forall (sfs : list src_file) sh,
  Forall src_ok sfs -> shifts_wf sh ->
  exists rs m result,
    map built_res sfs = map Some rs /\
    join_all rs = Some m /\
    Finalize sh m = Some result /\
    spec_decode result =
      Some (map (shift_abs sh) (joined_abs (assign_sources rs [] 0) (map spec_file sfs) (0, 0) 0)).
Proof.
  intros sfs sh Hok Hsh.
  destruct (built_files_spec sfs Hok) as (Hrs & Hfo & Hfw).
  set (fs := map spec_file sfs) in *.
  destruct (join_finalize_items (map JFile fs) sh) as (m & Ej & F1 & F3);
    [apply Forall_map; exact Hfo|apply Forall_map; exact Hfw|exact Hsh|].
  rewrite map_map in Ej, F1, F3. change (fun f => res_of_item (JFile f)) with res_of in Ej, F1, F3.
  rewrite joined_abs_files in F3.
  eexists (map res_of fs), m, _. repeat split; eassumption.
Qed.
