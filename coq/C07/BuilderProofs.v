(* builder_sorted: whatever sequence of AddSourceMapping / GenerateChunk calls
   is made, the mappings buffer of the ChunkBuilder is the emission of an event
   list whose mappings are sorted by generated position; hence (with
   mappings_roundtrip) it decodes under the v3 semantics to a sorted list. *)
From V Require Import Common.Base Common.Utf8 C07.Vlq C07.SpecMap C07.Mappings C07.LineCol C07.Builder
  C07.VlqProofs C07.MappingsProofs C07.JoinProofs.

(* events sorted within each line; [c] = column of the last mapping on the current line *)
Fixpoint sorted_ops (ops : list op) (c : Z) : Prop :=
  match ops with
  | [] => True
  | ONewline :: r => sorted_ops r 0
  | OMap gc _ _ _ _ :: r => c <= gc /\ sorted_ops r gc
  | ONull gc :: r => c <= gc /\ sorted_ops r gc
  end.

(* column of the last mapping on the current line after ops, starting from c *)
Fixpoint end_col (ops : list op) (c : Z) : Z :=
  match ops with
  | [] => c
  | ONewline :: r => end_col r 0
  | OMap gc _ _ _ _ :: r => end_col r gc
  | ONull gc :: r => end_col r gc
  end.

Lemma sorted_ops_snoc : forall a c o,
  sorted_ops a c ->
  match o with ONewline => True | OMap gc _ _ _ _ => end_col a c <= gc | ONull gc => end_col a c <= gc end ->
  sorted_ops (a ++ [o]) c.
Proof.
  induction a as [|x a IH]; intros c o Ha Ho.
  - destruct o; cbn in *; auto.
  - destruct x as [|gc si ol oc nm|gc]; cbn [app sorted_ops end_col] in *.
    + apply IH; assumption.
    + destruct Ha as [H1 H2]. split; [exact H1|]. apply IH; assumption.
    + destruct Ha as [H1 H2]. split; [exact H1|]. apply IH; assumption.
Qed.

Lemma end_col_snoc a c o :
  end_col (a ++ [o]) c = match o with ONewline => 0 | OMap gc _ _ _ _ => gc | ONull gc => gc end.
Proof.
  revert c. induction a as [|x a IH]; intro c.
  - destruct o; reflexivity.
  - destruct x; cbn [app end_col]; apply IH.
Qed.

(* decoded mappings of sorted events are sorted *)
Lemma abs_of_sorted_aux : forall ops line c,
  sorted_ops ops c ->
  forall prev, a_gline prev <= line -> (a_gline prev = line -> a_gcol prev <= c) ->
  sorted_abs (prev :: abs_of ops line) = true.
Proof.
  induction ops as [|o ops IH]; intros line c Hs prev Hl Hc; [reflexivity|].
  destruct o as [|gc si ol oc nm|gc]; cbn [abs_of sorted_ops] in *.
  - apply (IH (line + 1) 0 Hs); [lia|]. intro; lia.
  - destruct Hs as [H1 H2]. cbn [sorted_abs]. apply andb_true_iff. split.
    + unfold abs_pos_le. cbn. lia.
    + apply (IH line gc H2); cbn; [lia|intro; lia].
  - destruct Hs as [H1 H2]. cbn [sorted_abs]. apply andb_true_iff. split.
    + unfold abs_pos_le. cbn. lia.
    + apply (IH line gc H2); cbn; [lia|intro; lia].
Qed.

Lemma abs_of_sorted ops : sorted_ops ops 0 -> sorted_abs (abs_of ops 0) = true.
Proof.
  intro Hs. destruct ops as [|o ops]; [reflexivity|].
  (* use a virtual predecessor at (0,0) *)
  pose proof (abs_of_sorted_aux (o :: ops) 0 0 Hs (mkAbs 0 0 None None) ltac:(cbn; lia) ltac:(cbn; lia)) as H.
  cbn [sorted_abs] in H. destruct (abs_of (o :: ops) 0) eqn:E; [reflexivity|].
  apply andb_true_iff in H. apply H.
Qed.

(* OriginalName and HasOriginalName of appendMapping's currentState, for an optional name index *)
Definition nm_id (nm : option Z) : Z := match nm with Some n => n | None => 0 end.
Definition nm_has (nm : option Z) : bool := match nm with Some _ => true | None => false end.

(* the mappings buffer is the emission of [ops]; they are sorted, the last one is prevState's
   column, and the generated column has not fallen behind it *)
Definition Emitted (b : bst) (ops : list op) : Prop :=
  emit ops 0 state0 = (b_map b, last (b_map b) 0, b_prev b) /\
  sorted_ops ops 0 /\
  end_col ops 0 = gcol (b_prev b) /\
  gcol (b_prev b) <= b_gencol b.

Definition Inv0 (b : bst) : Prop := exists ops, Emitted b ops.

(* a line without a mapping yet has prevState at column 0 *)
Definition Inv (b : bst) : Prop := Inv0 b /\ (b_linestart b = false -> gcol (b_prev b) = 0).

Lemma emit_snoc ops o bm lb st :
  emit ops 0 state0 = (bm, lb, st) ->
  emit (ops ++ [o]) 0 state0 =
  let '(bb, lbb, sb) := emit [o] lb st in (bm ++ bb, lbb, sb).
Proof. intro E. rewrite emit_app, E. reflexivity. Qed.

Lemma last_app_seg (m seg : bytes) d : seg <> [] -> last (m ++ seg) d = last seg (last m d).
Proof.
  intro H. rewrite last_app_nonempty by exact H.
  destruct seg as [|x seg]; [congruence|]. clear H. revert x.
  induction seg as [|y seg IH]; intro x; [reflexivity|]. cbn [last]. apply IH.
Qed.

Lemma appendMapping_nonempty lb p c : fst (appendMapping lb p c false) <> [].
Proof.
  rewrite appendMapping_bytes. unfold deltas. cbn [map concat]. intro H.
  apply app_eq_nil in H as [_ H]. apply app_eq_nil in H as [H _]. exact (encodeVLQ_nonempty _ H).
Qed.

Lemma emitted_append_raw b ops gc si ol oc nm :
  Emitted b ops -> gcol (b_prev b) <= gc -> gc <= b_gencol b ->
  let b' := append_raw b (mkState (gline (b_prev b)) gc si ol oc (nm_id nm) (nm_has nm)) in
  Emitted b' (ops ++ [OMap gc si ol oc nm]) /\ gcol (b_prev b') = gc /\ b_gencol b' = b_gencol b.
Proof.
  intros (He & Hs & Hec & Hg) Hge Hle.
  set (cur := mkState (gline (b_prev b)) gc si ol oc (nm_id nm) (nm_has nm)).
  cbv zeta. unfold append_raw.
  destruct (appendMapping (last (b_map b) 0) (b_prev b) cur false) as [seg off] eqn:Eapp.
  assert (Hseg : seg = fst (appendMapping (last (b_map b) 0) (b_prev b) cur false)) by (rewrite Eapp; reflexivity).
  unfold set_map, Emitted. cbn [b_map b_prev b_gencol].
  set (prev' := if has_name cur then cur
               else mkState (gline cur) (gcol cur) (sidx cur) (oline cur) (ocol cur) (oname (b_prev b)) false).
  assert (Hcur : next_state (b_prev b) gc si ol oc nm = (cur, prev'))
    by (unfold next_state; subst prev' cur; destruct nm; reflexivity).
  assert (Hgc : gcol prev' = gc) by (subst prev'; destruct (has_name cur); reflexivity).
  rewrite Hgc. repeat split.
  - rewrite (emit_snoc _ _ _ _ _ He). cbn [emit]. rewrite Hcur, Eapp. cbn [fst app]. rewrite app_nil_r.
    f_equal. f_equal. rewrite last_app_seg; [reflexivity|]. rewrite Hseg. apply appendMapping_nonempty.
  - apply sorted_ops_snoc; [exact Hs|rewrite Hec; exact Hge].
  - apply end_col_snoc.
  - exact Hle.
Qed.

Lemma cover_state_eq b :
  cover_state b = mkState (gline (b_prev b)) 0 (sidx (b_prev b)) (oline (b_prev b)) (ocol (b_prev b)) 0 false.
Proof. reflexivity. Qed.

Lemma cover_inv b :
  Inv0 b -> gcol (b_prev b) = 0 ->
  let b' := append_raw b (cover_state b) in
  Inv0 b' /\ gcol (b_prev b') = 0 /\ b_gencol b' = b_gencol b.
Proof.
  intros (ops & HE) H0.
  destruct (emitted_append_raw b ops 0 (sidx (b_prev b)) (oline (b_prev b)) (ocol (b_prev b)) None HE) as (H1 & H2).
  - lia.
  - destruct HE as (_ & _ & _ & Hg). lia.
  - split; [eexists; exact H1|exact H2].
Qed.

(* the ';' of a line break *)
Definition put_semi (b : bst) : bst :=
  let p := b_prev b in
  mkBst (b_map b ++ [SEMI]) (b_names b) (mkState (gline p + 1) 0 (sidx p) (oline p) (ocol p) (oname p) (has_name p))
        0 (b_prevlen b) (b_len b) (b_prevloc b) (b_prevname b) (b_firstname b) (b_hasprev b) false (b_cover b) (b_pending b).

Lemma emitted_put_semi b ops : Emitted b ops -> Emitted (put_semi b) (ops ++ [ONewline]).
Proof.
  intros (He & Hs & Hec & Hg). unfold Emitted, put_semi. cbn [b_map b_prev b_gencol gcol]. repeat split.
  - rewrite (emit_snoc _ _ _ _ _ He). cbn [emit]. f_equal. f_equal.
    rewrite last_app_nonempty by discriminate. reflexivity.
  - apply sorted_ops_snoc; [exact Hs|exact I].
  - apply end_col_snoc.
  - lia.
Qed.

Lemma newline_inv b : Inv0 b -> Inv (put_semi b).
Proof.
  intros (ops & HE). split; [|reflexivity]. eexists. apply (emitted_put_semi _ _ HE).
Qed.

Lemma upd_runes_inv : forall rs rest b, Inv b -> Inv (upd_runes rs rest b).
Proof.
  induction rs as [|[[i c] w] rs IH]; intros rest b HI; [exact HI|].
  cbn [upd_runes].
  destruct (is_newline c) eqn:Enl.
  - destruct ((c =? 13) && match skipn w rest with x :: _ => x =? 10 | [] => false end).
    + apply IH, HI.
    + apply IH.
      destruct HI as [HI0 Hcl].
      destruct (b_cover b && negb (b_linestart b) && b_hasprev b) eqn:Ec.
      * assert (Hls : b_linestart b = false).
        { destruct (b_linestart b); [|reflexivity]. rewrite andb_false_r in Ec. discriminate. }
        destruct (cover_inv b HI0 (Hcl Hls)) as (H1 & _).
        apply (newline_inv _ H1).
      * apply (newline_inv _ HI0).
  - apply IH. destruct HI as [(ops & He & Hs & Hec & Hg) Hcl]. split.
    + exists ops. unfold Emitted. cbn [b_map b_prev b_gencol]. repeat split; try assumption.
      unfold u16w. destruct (c <=? 65535); lia.
    + exact Hcl.
Qed.

Lemma update_gen_inv b delta : Inv b -> Inv (update_gen b delta).
Proof.
  intro HI. unfold update_gen.
  pose proof (upd_runes_inv (runes (b_pending b ++ delta)) (b_pending b ++ delta) b HI) as [(ops & He & Hs & Hec & Hg) Hcl].
  split; [exists ops; cbn [b_map b_prev b_gencol]; repeat split; assumption | exact Hcl].
Qed.

Lemma append_named_inv0 b name gc ol oc :
  Inv0 b -> gcol (b_prev b) <= gc -> gc <= b_gencol b ->
  Inv0 (append_named b name (mkState (gline (b_prev b)) gc 0 ol oc 0 false)).
Proof.
  intros (ops & HE) Hge Hle. unfold append_named.
  destruct (name =? 0).
  - eexists. apply (proj1 (emitted_append_raw b ops gc 0 ol oc None HE Hge Hle)).
  - destruct (index_of_name name (b_names b) 0) as [i|].
    + eexists. apply (proj1 (emitted_append_raw b ops gc 0 ol oc (Some i) HE Hge Hle)).
    + (* the new name is added to the table first, which [Emitted] does not look at *)
      set (b' := mkBst (b_map b) (b_names b ++ [name]) (b_prev b) (b_gencol b) (b_prevlen b) (b_len b)
                       (b_prevloc b) (b_prevname b) (b_firstname b) (b_hasprev b) (b_linestart b) (b_cover b) (b_pending b)).
      eexists. apply (proj1 (emitted_append_raw b' ops gc 0 ol oc (Some (Z.of_nat (length (b_names b)))) HE Hge Hle)).
Qed.

Lemma AddSourceMapping_inv ts b loc name delta b' :
  Inv b -> AddSourceMapping ts b loc name delta = Some b' -> Inv b'.
Proof.
  intros HI H. unfold AddSourceMapping in H.
  destruct ((loc =? b_prevloc b) && _) eqn:Edup.
  - inversion H; subst b'. exact HI.
  - set (b0 := mkBst (b_map b) (b_names b) (b_prev b) (b_gencol b) _ (b_len b) loc name
                     (b_firstname b) (b_hasprev b) (b_linestart b) (b_cover b) (b_pending b)) in H.
    destruct (lookup ts loc) as [[ol oc]|]; [|discriminate].
    assert (HI0 : Inv b0) by exact HI.
    pose proof (update_gen_inv b0 delta HI0) as HI1.
    set (b1 := update_gen b0 delta) in *.
    set (b2 := if b_cover b1 && negb (b_linestart b1) && (0 <? b_gencol b1) && b_hasprev b1
               then append_raw b1 (cover_state b1) else b1) in H.
    assert (HI2 : Inv0 b2 /\ gcol (b_prev b2) <= b_gencol b2).
    { subst b2. destruct HI1 as [HI1 Hcl].
      destruct (b_cover b1 && negb (b_linestart b1) && (0 <? b_gencol b1) && b_hasprev b1) eqn:Ec.
      - assert (Hls : b_linestart b1 = false).
        { destruct (b_linestart b1); [|reflexivity]. rewrite andb_false_r in Ec. cbn in Ec. discriminate. }
        destruct (cover_inv b1 HI1 (Hcl Hls)) as (H1 & H2 & H3).
        split; [exact H1|]. rewrite H2, H3. destruct HI1 as (ops & _ & _ & _ & Hg). rewrite (Hcl Hls) in Hg. exact Hg.
      - split; [exact HI1|]. destruct HI1 as (ops & _ & _ & _ & Hg). exact Hg. }
    destruct HI2 as [HI2 Hg2].
    pose proof (append_named_inv0 b2 name (b_gencol b2) ol oc HI2 Hg2 ltac:(lia)) as HI3.
    inversion H; subst b'. split; [|discriminate].
    destruct HI3 as (ops & He & Hs & Hec & Hg). exists ops. cbn [b_map b_prev b_gencol]. repeat split; assumption.
Qed.

Lemma run_builder_inv ts : forall evs b b', Inv b -> run_builder ts b evs = Some b' -> Inv b'.
Proof.
  induction evs as [|[[loc name] delta] evs IH]; intros b b' HI H; cbn [run_builder] in H.
  - inversion H; subst; exact HI.
  - destruct (AddSourceMapping ts b loc name delta) as [b1|] eqn:E; [|discriminate].
    apply (IH b1 b' (AddSourceMapping_inv _ _ _ _ _ _ HI E) H).
Qed.

Lemma Inv_init cover : Inv (bst0 cover).
Proof.
  split; [|reflexivity]. exists []. unfold Emitted. cbn. repeat split; lia.
Qed.

(* The mappings of every chunk the builder can produce: sorted, and exactly the
   v3 meaning of the emitted bytes. *)
Theorem builder_sorted_all : forall ts cover evs b fin,
  run_builder ts (bst0 cover) evs = Some b ->
  let '(data, _, _, _, _, _) := GenerateChunk b fin in
  exists l, spec_decode data = Some l /\ sorted_abs l = true.
Proof.
  intros ts cover evs b fin Hrun.
  pose proof (run_builder_inv ts evs _ _ (Inv_init cover) Hrun) as HI.
  pose proof (update_gen_inv b fin HI) as [(ops & He & Hs & _) _].
  unfold GenerateChunk.
  exists (abs_of ops 0). split.
  - rewrite <- mappings_roundtrip_all. f_equal. unfold emit_bytes. rewrite He. reflexivity.
  - apply abs_of_sorted, Hs.
Qed.
