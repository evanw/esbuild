(* C07: GenerateLineOffsetTables + the AddSourceMapping lookup compute exactly
   the UTF-16 (line, column) of every rune boundary of the text.
   Proof by a forward invariant over gen_loop kept in lockstep with spec_linecol. *)
From V Require Import Common.Base Common.Utf8 C07.Vlq C07.Shift C07.LineCol C07.LineColAux.

(* start of the current line as the Go loop sees it at rune offset i *)
Definition cs (s : gst) (i : Z) : Z := if g_col s =? 0 then i else g_lineoff s.

(* the column formula of the lookup *)
Definition colf (cols : option (list Z)) (first d : Z) : option Z :=
  match cols with
  | Some l => if first <=? d then nth_error l (Z.to_nat (d - first)) else Some d
  | None => Some d
  end.

(* first half of gen_step: start / extend the non-ASCII column table *)
Definition prep (s : gst) (i c : Z) : option (list Z) * Z * Z :=
  let lineoff := cs s i in
  let '(cols0, first0, coloff0) :=
    match g_cols s with
    | None => if 127 <? c then (Some [], i - lineoff, i - lineoff)
              else (None, g_first s, g_coloff s)
    | Some l => (Some l, g_first s, g_coloff s)
    end in
  let '(cols1, coloff1) :=
    match cols0 with
    | Some l => let '(l', co) := fill_cols l coloff0 (i - lineoff) (g_col s) in (Some l', co)
    | None => (None, coloff0)
    end in
  (cols1, first0, coloff1).

Lemma gen_step_eq : forall s i c b,
  gen_step s i c b =
  let '(cols1, first0, coloff1) := prep s i c in
  if is_newline c then
    if (c =? 13) && b
    then mkGst cols1 first0 (cs s i) coloff1 (g_col s + 1) (g_out s)
    else mkGst None 0 (cs s i) 0 0 (mkLot (cs s i) first0 cols1 :: g_out s)
  else mkGst cols1 first0 (cs s i) coloff1 (g_col s + u16w c) (g_out s).
Proof.
  intros s i c b. unfold gen_step, prep, cs.
  destruct (g_cols s) as [l|]; [|destruct (127 <? c)];
    try destruct (fill_cols _ _ _ _); reflexivity.
Qed.

(* The generator's state before the rune at offset [i]: the tables pushed so
   far start before the current line; as long as the line has no column table
   the column is the byte offset within the line; once it has one, the table
   holds the columns of the bytes [g_first, g_coloff) of the line. *)
Definition Inv0 (s : gst) (i : Z) : Prop :=
  0 <= g_col s /\ cs s i <= i /\
  Forall (fun t => l_start t < cs s i) (g_out s) /\
  match g_cols s with
  | None => g_col s = i - cs s i
  | Some l => 0 < g_col s /\ g_first s <= g_coloff s /\
              Z.of_nat (length l) = g_coloff s - g_first s /\
              g_coloff s <= i - cs s i
  end.

Lemma nth_error_app_repeat : forall (l : list Z) x k idx,
  (length l <= idx < length l + k)%nat ->
  nth_error (l ++ repeat x k) idx = Some x.
Proof.
  intros l x k idx H. rewrite nth_error_app2 by lia.
  apply nth_error_repeat. lia.
Qed.

Lemma prep_spec : forall s i c cols1 first0 coloff1,
  Inv0 s i -> prep s i c = (cols1, first0, coloff1) ->
  (forall d C, d < i - cs s i ->
     colf (g_cols s) (g_first s) d = Some C -> colf cols1 first0 d = Some C) /\
  colf cols1 first0 (i - cs s i) = Some (g_col s) /\
  match cols1 with
  | None => g_col s = i - cs s i /\ c <= 127
  | Some l' => first0 <= coloff1 /\ Z.of_nat (length l') = coloff1 - first0 /\
               coloff1 = i - cs s i + 1
  end.
Proof.
  intros s i c cols1 first0 coloff1 (Hcol & Hcs & _ & Hm) Hp.
  unfold prep in Hp. set (lo := cs s i) in *.
  destruct (g_cols s) as [l|] eqn:Eg.
  - destruct Hm as (Hpos & Hfc & Hlen & Hco).
    unfold fill_cols in Hp.
    destruct (g_coloff s <=? i - lo) eqn:Efill; [|lia].
    inversion Hp; subst cols1 first0 coloff1; clear Hp.
    split; [|split].
    + intros d C Hd Hc. unfold colf in *.
      destruct (g_first s <=? d) eqn:Ed; [|assumption].
      assert (Hi : (Z.to_nat (d - g_first s) < length l)%nat)
        by (apply nth_error_Some; congruence).
      rewrite nth_error_app1 by assumption. assumption.
    + unfold colf. destruct (g_first s <=? i - lo) eqn:Ed; [|lia].
      apply nth_error_app_repeat. lia.
    + rewrite app_length, repeat_length. lia.
  - destruct (127 <? c) eqn:Ec.
    + unfold fill_cols in Hp.
      destruct (i - lo <=? i - lo) eqn:Efill; [|lia].
      inversion Hp; subst cols1 first0 coloff1; clear Hp.
      split; [|split].
      * intros d C Hd Hc. unfold colf in *.
        destruct (i - lo <=? d) eqn:Ed; [lia|assumption].
      * unfold colf. destruct (i - lo <=? i - lo) eqn:Ed; [|lia].
        replace (i - lo - (i - lo)) with 0 by lia.
        replace (i - lo - (i - lo) + 1) with 1 by lia. reflexivity.
      * cbn [app length]. rewrite repeat_length. lia.
    + inversion Hp; subst cols1 first0 coloff1; clear Hp.
      split; [|split].
      * intros d C Hd Hc. assumption.
      * unfold colf. f_equal. lia.
      * lia.
Qed.

(* what the (partial) state already answers for offset o: line L, column C *)
Definition Ans (s : gst) (i o L C : Z) : Prop :=
  (exists pre t post,
      rev (g_out s) = pre ++ t :: post /\ L = Z.of_nat (length pre) /\
      Forall (fun t' => l_start t' <= o) pre /\ l_start t <= o /\
      Forall (fun t' => o < l_start t') post /\ o < cs s i /\
      colf (l_cols t) (l_first t) (o - l_start t) = Some C)
  \/ (L = Z.of_nat (length (g_out s)) /\ cs s i <= o < i /\
      colf (g_cols s) (g_first s) (o - cs s i) = Some C).

Section Step.
  Variables (s : gst) (i c : Z) (w : nat) (cols1 : option (list Z)) (first0 coloff1 : Z).
  Hypothesis HI : Inv0 s i.
  Hypothesis Hp : prep s i c = (cols1, first0, coloff1).
  Hypothesis Hw1 : (1 <= w)%nat.
  Hypothesis Hw2 : c <= 127 -> w = 1%nat.

  Let i1 := i + Z.of_nat w.

  (* a rune that stays on the line; [dl] is its width in columns *)
  Lemma step_cont : forall dl, 1 <= dl -> (c <= 127 -> dl = 1) ->
    let s1 := mkGst cols1 first0 (cs s i) coloff1 (g_col s + dl) (g_out s) in
    Inv0 s1 i1 /\
    (forall o L C, Ans s i o L C -> Ans s1 i1 o L C) /\
    Ans s1 i1 i (Z.of_nat (length (g_out s))) (g_col s).
  Proof.
    intros dl Hd1 Hd2 s1.
    destruct (prep_spec _ _ _ _ _ _ HI Hp) as (Hstab & Hnew & Hshape).
    destruct HI as (Hcol & Hcs & Hall & Hm).
    assert (Ecs : cs s1 i1 = cs s i).
    { unfold cs at 1. subst s1. cbn [g_col g_lineoff].
      destruct (g_col s + dl =? 0) eqn:E; [lia|reflexivity]. }
    split; [|split].
    - unfold Inv0. rewrite Ecs. subst s1 i1. cbn [g_col g_out g_cols g_first g_coloff].
      repeat split; try lia; try assumption.
      destruct cols1 as [l'|]; lia.
    - intros o L C [(pre & t & post & H1 & H2 & H3 & H4 & H5 & H6 & H7) | (H1 & H2 & H3)].
      + left. exists pre, t, post. rewrite Ecs. subst s1. cbn [g_out].
        repeat split; assumption.
      + right. rewrite Ecs. subst s1 i1. cbn [g_out g_cols g_first].
        repeat split; try lia. apply Hstab; [lia|assumption].
    - right. rewrite Ecs. subst s1 i1. cbn [g_out g_cols g_first].
      repeat split; try lia. assumption.
  Qed.

  Let s2 := mkGst None 0 (cs s i) 0 0 (mkLot (cs s i) first0 cols1 :: g_out s).

  Lemma cs_s2 : cs s2 i1 = i1.
  Proof. reflexivity. Qed.

  Lemma cur_to_past : forall o C,
    cs s i <= o <= i -> colf cols1 first0 (o - cs s i) = Some C ->
    Ans s2 i1 o (Z.of_nat (length (g_out s))) C.
  Proof.
    intros o C Ho Hc. destruct HI as (Hcol & Hcs & Hall & Hm).
    left. exists (rev (g_out s)), (mkLot (cs s i) first0 cols1), [].
    rewrite cs_s2. subst s2 i1. cbn [g_out rev l_start l_cols l_first].
    rewrite rev_length. repeat split; try lia; try assumption; try constructor.
    apply Forall_forall. intros t Ht. apply in_rev in Ht.
    rewrite Forall_forall in Hall. specialize (Hall _ Ht). lia.
  Qed.

  (* a line break: the current line's table is pushed *)
  Lemma step_nl :
    Inv0 s2 i1 /\
    (forall o L C, Ans s i o L C -> Ans s2 i1 o L C) /\
    Ans s2 i1 i (Z.of_nat (length (g_out s))) (g_col s).
  Proof.
    destruct (prep_spec _ _ _ _ _ _ HI Hp) as (Hstab & Hnew & Hshape).
    pose proof HI as (Hcol & Hcs & Hall & Hm).
    split; [|split].
    - unfold Inv0. rewrite cs_s2. subst s2 i1. cbn [g_col g_out g_cols g_first g_coloff].
      repeat split; try lia.
      constructor; [cbn [l_start]; lia|].
      eapply Forall_impl; [|exact Hall]. cbn beta. intros; lia.
    - intros o L C [(pre & t & post & H1 & H2 & H3 & H4 & H5 & H6 & H7) | (H1 & H2 & H3)].
      + left. exists pre, t, (post ++ [mkLot (cs s i) first0 cols1]).
        rewrite cs_s2. subst s2 i1. cbn [g_out rev]. rewrite H1.
        rewrite <- app_assoc. cbn [app].
        repeat split; try assumption; try lia.
        apply Forall_app. split; [assumption|].
        constructor; [cbn [l_start]; lia|constructor].
      + subst L. apply cur_to_past; [lia|]. apply Hstab; [lia|assumption].
    - apply cur_to_past; [lia|assumption].
  Qed.
End Step.

(* the (line, column) transition of the specification for one rune *)
Definition sstep (line col c : Z) (b : bool) : Z * Z :=
  if is_newline c then
    if (c =? 13) && b then (line, col + 1) else (line + 1, 0)
  else (line, col + u16w c).

Lemma u16w_facts : forall c, 1 <= u16w c /\ (c <= 127 -> u16w c = 1).
Proof. intro c. unfold u16w. destruct (c <=? 65535) eqn:E; lia. Qed.

Lemma gen_step_all : forall s i c b w,
  Inv0 s i -> (1 <= w)%nat -> (c <= 127 -> w = 1%nat) ->
  let s1 := gen_step s i c b in
  let i1 := i + Z.of_nat w in
  Inv0 s1 i1 /\
  (forall o L C, Ans s i o L C -> Ans s1 i1 o L C) /\
  Ans s1 i1 i (Z.of_nat (length (g_out s))) (g_col s) /\
  Z.of_nat (length (g_out s1)) = fst (sstep (Z.of_nat (length (g_out s))) (g_col s) c b) /\
  g_col s1 = snd (sstep (Z.of_nat (length (g_out s))) (g_col s) c b).
Proof.
  intros s i c b w HI Hw1 Hw2 s1 i1. subst s1 i1.
  rewrite gen_step_eq. unfold sstep.
  destruct (prep s i c) as [[cols1 first0] coloff1] eqn:Hp.
  destruct (u16w_facts c) as (Hu1 & Hu2).
  destruct (is_newline c) eqn:En; [destruct ((c =? 13) && b) eqn:Ecr|].
  - destruct (step_cont s i c w cols1 first0 coloff1 HI Hp Hw1 Hw2 1) as (A & B & C);
      [lia|lia|].
    split; [exact A|]. split; [exact B|]. split; [exact C|]. split; reflexivity.
  - destruct (step_nl s i c w cols1 first0 coloff1 HI Hp Hw1 Hw2) as (A & B & C).
    split; [exact A|]. split; [exact B|]. split; [exact C|].
    split; [|reflexivity]. cbn [g_out length fst]. lia.
  - destruct (step_cont s i c w cols1 first0 coloff1 HI Hp Hw1 Hw2 (u16w c)) as (A & B & C);
      [lia|assumption|].
    split; [exact A|]. split; [exact B|]. split; [exact C|]. split; reflexivity.
Qed.

Definition next_lf (rest' : bytes) : bool :=
  match rest' with b :: _ => b =? 10 | [] => false end.

Lemma advance_cons : forall i c w r rest line col,
  advance_runes ((i, c, w) :: r) rest line col =
  advance_runes r (skipn w rest)
    (fst (sstep line col c (next_lf (skipn w rest))))
    (snd (sstep line col c (next_lf (skipn w rest)))).
Proof.
  intros. cbn [advance_runes]. unfold sstep, next_lf.
  destruct (is_newline c); [destruct ((c =? 13) && _)|]; reflexivity.
Qed.

Lemma spec_cons : forall i c w r rest o line col,
  spec_linecol ((i, c, w) :: r) rest o line col =
  if o <=? i then (line, col) else
  spec_linecol r (skipn w rest) o
    (fst (sstep line col c (next_lf (skipn w rest))))
    (snd (sstep line col c (next_lf (skipn w rest)))).
Proof.
  intros. cbn [spec_linecol]. unfold sstep, next_lf.
  destruct (o <=? i); [reflexivity|].
  destruct (is_newline c); [destruct ((c =? 13) && _)|]; reflexivity.
Qed.

Lemma gen_loop_cons : forall i c w r rest s,
  gen_loop ((i, c, w) :: r) rest s =
  gen_loop r (skipn w rest) (gen_step s i c (next_lf (skipn w rest))).
Proof. reflexivity. Qed.

Lemma loop_inv : forall rs rest s i,
  wf_runes rs rest i -> Inv0 s i ->
  let sf := gen_loop rs rest s in
  let n := i + Z.of_nat (length rest) in
  Inv0 sf n /\
  (Z.of_nat (length (g_out sf)), g_col sf) =
    advance_runes rs rest (Z.of_nat (length (g_out s))) (g_col s) /\
  (forall o L C, Ans s i o L C -> Ans sf n o L C) /\
  (forall o, In o (map roff rs) ->
     Ans sf n o
       (fst (spec_linecol rs rest o (Z.of_nat (length (g_out s))) (g_col s)))
       (snd (spec_linecol rs rest o (Z.of_nat (length (g_out s))) (g_col s)))).
Proof.
  induction rs as [|[[j c] w] r IH]; intros rest s i Hwf HI.
  - cbn [wf_runes] in Hwf. subst rest. cbn [gen_loop length advance_runes map In].
    rewrite Z.add_0_r. cbv zeta.
    split; [exact HI|]. split; [reflexivity|]. split; [auto|]. intros o [].
  - cbn [wf_runes] in Hwf. destruct Hwf as (-> & Hw1 & Hw2 & Hw3 & Hwf).
    rewrite gen_loop_cons. set (b := next_lf (skipn w rest)).
    destruct (gen_step_all s i c b w HI Hw1 Hw3) as (A & B & C & D & E).
    set (s1 := gen_step s i c b) in *.
    specialize (IH (skipn w rest) s1 (i + Z.of_nat w) Hwf A).
    assert (Hn : i + Z.of_nat w + Z.of_nat (length (skipn w rest)) =
                 i + Z.of_nat (length rest)) by (rewrite skipn_length; lia).
    rewrite Hn in IH. cbv zeta in IH. destruct IH as (A' & B' & C' & D').
    cbv zeta. split; [assumption|]. split; [|split].
    + rewrite advance_cons. fold b. rewrite <- D, <- E. assumption.
    + intros o L C0 Ha. apply C', B. assumption.
    + intros o Hin. rewrite spec_cons. fold b.
      cbn [map In roff fst] in Hin. destruct Hin as [<- | Hin].
      * destruct (i <=? i) eqn:Ei; [|lia]. cbn [fst snd]. apply C'. assumption.
      * pose proof (wf_runes_offsets _ _ _ _ Hwf Hin) as Ho.
        destruct (o <=? i) eqn:Ei; [lia|].
        rewrite <- D, <- E. apply D'. assumption.
Qed.

Definition gst0 : gst := mkGst None 0 0 0 0 [].

(* the last table is what a virtual LF at offset [length text] would push *)
Lemma generate_eq : forall text,
  GenerateLineOffsetTables text =
  rev (g_out (gen_step (gen_loop (runes text) text gst0) (Z.of_nat (length text)) 10 false)).
Proof.
  intro text. unfold GenerateLineOffsetTables. fold gst0.
  set (s := gen_loop (runes text) text gst0).
  set (n := Z.of_nat (length text)).
  unfold gen_step.
  destruct (g_cols s) as [l|]; [|reflexivity].
  destruct (fill_cols _ _ _ _); reflexivity.
Qed.

Lemma past_lookup : forall ts pre t post o C,
  ts = pre ++ t :: post ->
  Forall (fun t' => l_start t' <= o) pre -> l_start t <= o ->
  Forall (fun t' => o < l_start t') post ->
  colf (l_cols t) (l_first t) (o - l_start t) = Some C ->
  lookup ts o = Some (Z.of_nat (length pre), C).
Proof.
  intros ts pre t post o C Hts Hpre Ht Hpost Hc.
  assert (Hts' : ts = (pre ++ [t]) ++ post) by (rewrite <- app_assoc; exact Hts).
  unfold lookup. rewrite Hts' at 1 2 3.
  rewrite line_search_count.
  2:{ apply Forall_app. split; [assumption|]. constructor; [assumption|constructor]. }
  2:{ assumption. }
  rewrite app_length. cbn [length]. replace (length pre + 1)%nat with (S (length pre)) by lia.
  assert (Hn : nth_error ts (length pre) = Some t).
  { rewrite Hts. rewrite nth_error_app2 by lia. rewrite Nat.sub_diag. reflexivity. }
  rewrite Hn. unfold colf in Hc.
  destruct (l_cols t) as [cs0|]; [|congruence].
  destruct (l_first t <=? o - l_start t); [|congruence].
  rewrite Hc. reflexivity.
Qed.

Definition boundary (text : bytes) (off : Z) : Prop :=
  off = Z.of_nat (length text) \/ In off (map (fun r => fst (fst r)) (runes text)).

Theorem lineoffset_is_spec : forall text off,
  boundary text off ->
  lookup (GenerateLineOffsetTables text) off = Some (linecol_utf16 text off).
Proof.
  intros text off Hb. rewrite generate_eq.
  set (n := Z.of_nat (length text)).
  assert (HI0 : Inv0 gst0 0).
  { unfold Inv0, gst0, cs. cbn. repeat split; try lia. constructor. }
  destruct (loop_inv (runes text) text gst0 0 (runes_wf text) HI0) as (A & B & C & D).
  cbv zeta in A, B, C, D. rewrite Z.add_0_l in A, C, D. fold n in A, C, D.
  set (sf := gen_loop (runes text) text gst0) in *.
  destruct (gen_step_all sf n 10 false 1 A) as (A' & B' & C' & D' & E'); [lia|lia|].
  set (sF := gen_step sf n 10 false) in *.
  assert (Hans : Ans sF (n + Z.of_nat 1) off
                   (fst (linecol_utf16 text off)) (snd (linecol_utf16 text off))).
  { destruct Hb as [Hb | Hb].
    - subst off. unfold linecol_utf16.
      pose proof (spec_at_end (runes text) text 0 0 0 (runes_wf text)) as Hs.
      rewrite Z.add_0_l in Hs. rewrite Hs.
      change (advance_runes (runes text) text 0 0) with
        (advance_runes (runes text) text (Z.of_nat (length (g_out gst0))) (g_col gst0)).
      rewrite <- B. cbn [fst snd]. exact C'.
    - apply B'. exact (D off Hb). }
  assert (Hc0 : g_col sF = 0) by (rewrite E'; reflexivity).
  destruct Hans as [(pre & t & post & H1 & H2 & H3 & H4 & H5 & H6 & H7) | (H1 & H2 & H3)].
  - rewrite (past_lookup _ pre t post off _ H1 H3 H4 H5 H7). rewrite <- H2.
    destruct (linecol_utf16 text off); reflexivity.
  - unfold cs in H2. rewrite Hc0 in H2. cbn in H2. lia.
Qed.

(* hypotheses are satisfiable: "a é CR LF b", offset of LF (inside CRLF) and end of text *)
Example boundary_ex1 : boundary [97; 195; 169; 13; 10; 98] 4.
Proof. right. vm_compute. auto 10. Qed.
Example boundary_ex2 : boundary [97; 195; 169; 13; 10; 98] 6.
Proof. left. reflexivity. Qed.
Example lineoffset_ex :
  lookup (GenerateLineOffsetTables [97; 195; 169; 13; 10; 98]) 4 = Some (0, 3) /\
  lookup (GenerateLineOffsetTables [97; 195; 169; 13; 10; 98]) 6 = Some (1, 1).
Proof. split; vm_compute; reflexivity. Qed.

Lemma spec_linecol_nonneg : forall rs rest off line col,
  0 <= line -> 0 <= col ->
  0 <= fst (spec_linecol rs rest off line col) /\
  0 <= snd (spec_linecol rs rest off line col).
Proof.
  induction rs as [|[[i c] w] r IH]; intros rest off line col Hl Hc.
  - cbn [spec_linecol fst snd]. lia.
  - cbn [spec_linecol]. destruct (u16w_facts c) as (Hu & _).
    destruct (off <=? i); [cbn [fst snd]; lia|].
    destruct (is_newline c); [destruct ((c =? 13) && _)|]; apply IH; lia.
Qed.

Lemma lookup_line_lt : forall ts off L C,
  lookup ts off = Some (L, C) -> 0 <= L < Z.of_nat (length ts).
Proof.
  intros ts off L C H. unfold lookup in H.
  destruct (line_search _ _ _ _ _) as [|line]; [discriminate|].
  destruct (nth_error ts line) as [t|] eqn:En; [|discriminate].
  assert (Hlt : (line < length ts)%nat) by (apply nth_error_Some; congruence).
  destruct (l_cols t) as [cs0|].
  - destruct (l_first t <=? off - l_start t).
    + destruct (nth_error cs0 _); inversion H; subst; lia.
    + inversion H; subst; lia.
  - inversion H; subst; lia.
Qed.

Theorem lookup_no_panic : forall text off,
  boundary text off -> lookup (GenerateLineOffsetTables text) off <> None.
Proof. intros text off Hb. rewrite (lineoffset_is_spec text off Hb). discriminate. Qed.

Theorem lookup_bounds : forall text off L C,
  boundary text off ->
  lookup (GenerateLineOffsetTables text) off = Some (L, C) ->
  0 <= C /\ 0 <= L < Z.of_nat (length (GenerateLineOffsetTables text)).
Proof.
  intros text off L C Hb H. split; [|eapply lookup_line_lt; exact H].
  rewrite (lineoffset_is_spec text off Hb) in H. inversion H as [H1].
  unfold linecol_utf16 in H1.
  destruct (spec_linecol_nonneg (runes text) text off 0 0) as (_ & Hc); [lia|lia|].
  rewrite H1 in Hc. exact Hc.
Qed.

Example lookup_bounds_ex :
  exists L C, lookup (GenerateLineOffsetTables [97; 195; 169; 13; 10; 98]) 4 = Some (L, C).
Proof. exists 0, 3. vm_compute. reflexivity. Qed.

Print Assumptions lookup_bounds.
Print Assumptions lineoffset_is_spec.
