(* C07 model, part 7: ChunkBuilder with an input source map
   (MakeChunkBuilder(inputSourceMap != nil, ...): coverLinesWithoutMappings =
   false; ChunkBuilder.appendMapping remaps every mapping through
   inputSourceMap.Find, drops it when there is none, and takes the name from
   the input map's Names when the found mapping carries one).
   [AddSourceMappingG None] is AddSourceMapping of Builder.v.
   Names are ids as in Builder.v (0 = the empty string); the input map's Names
   array is a list of ids. *)
From V Require Import Common.Base Common.Utf8 C07.Vlq C07.Mappings C07.LineCol C07.Builder.

(* ChunkBuilder.appendMapping; None = index panic (Names[i] out of range) *)
Definition append_mapping_g (ism : option (list mapping * list Z)) (b : bst) (name : Z) (cur : state) : option bst :=
  match ism with
  | None => Some (append_named b name cur)
  | Some (ms, inames) =>
    match Find ms (oline cur) (ocol cur) with
    | None => Some b
    | Some m =>
      let cur' := mkState (gline cur) (gcol cur) (m_src m) (m_oline m) (m_ocol m) (oname cur) (has_name cur) in
      match m_name m with
      | None => Some (append_named b name cur')
      | Some i =>
        match nth_error inames (Z.to_nat i) with
        | Some name' => Some (append_named b name' cur')
        | None => None
        end
      end
    end
  end.

Definition AddSourceMappingG (ism : option (list mapping * list Z)) (ts : list lot) (b : bst) (loc name : Z) (delta : bytes) : option bst :=
  let newlen := b_len b + Z.of_nat (length (b_pending b)) + Z.of_nat (length delta) in
  if (loc =? b_prevloc b) && ((b_prevlen b =? newlen) || (b_prevname b =? name))
  then Some (mkBst (b_map b) (b_names b) (b_prev b) (b_gencol b) (b_prevlen b) (b_len b) (b_prevloc b) (b_prevname b)
                   (b_firstname b) (b_hasprev b) (b_linestart b) (b_cover b) (b_pending b ++ delta))
  else
    let b0 := mkBst (b_map b) (b_names b) (b_prev b) (b_gencol b) newlen (b_len b) loc name
                    (b_firstname b) (b_hasprev b) (b_linestart b) (b_cover b) (b_pending b) in
    match lookup ts loc with
    | None => None
    | Some (oline, ocol) =>
      let b1 := update_gen b0 delta in
      let b2 := if b_cover b1 && negb (b_linestart b1) && (0 <? b_gencol b1) && b_hasprev b1
                then append_raw b1 (cover_state b1) else b1 in
      match append_mapping_g ism b2 name (mkState (gline (b_prev b2)) (b_gencol b2) 0 oline ocol 0 false) with
      | None => None
      | Some b3 =>
        Some (mkBst (b_map b3) (b_names b3) (b_prev b3) (b_gencol b3) (b_prevlen b3) (b_len b3) (b_prevloc b3)
                    (b_prevname b3) (b_firstname b3) (b_hasprev b3) true (b_cover b3) (b_pending b3))
      end
    end.

Fixpoint run_builder_g (ism : option (list mapping * list Z)) (ts : list lot) (b : bst) (evs : list (Z * Z * bytes)) : option bst :=
  match evs with
  | [] => Some b
  | (loc, name, delta) :: r =>
    match AddSourceMappingG ism ts b loc name delta with
    | None => None
    | Some b' => run_builder_g ism ts b' r
    end
  end.

(* MakeChunkBuilder: coverLinesWithoutMappings = (inputSourceMap == nil) *)
Definition bst0_g (ism : option (list mapping * list Z)) : bst :=
  bst0 (match ism with None => true | Some _ => false end).

Lemma AddSourceMappingG_None ts b loc name delta :
  AddSourceMappingG None ts b loc name delta = AddSourceMapping ts b loc name delta.
Proof. reflexivity. Qed.

Lemma run_builder_g_None ts : forall evs b, run_builder_g None ts b evs = run_builder ts b evs.
Proof.
  induction evs as [|[[loc name] delta] evs IH]; intro b; [reflexivity|].
  cbn [run_builder_g run_builder]. rewrite AddSourceMappingG_None.
  destruct (AddSourceMapping ts b loc name delta); [apply IH|reflexivity].
Qed.
