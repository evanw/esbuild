(* The generated position of the builder specification is measured portion by
   portion ([adv] continued).  Here: measuring the concatenation gives the same
   result whenever the cut is clean, i.e. it is a character boundary of the
   concatenated text (it does not fall inside a UTF-8 sequence) and it does not
   separate a CR from the LF that follows it. *)
From V Require Import Common.Base Common.Utf8 C07.Vlq C07.SpecMap C07.Mappings C07.LineCol
  C07.MappingsProofs C07.LineColAux C07.LineColProofs C07.SpecBuilder C07.BuilderExact.

Lemma wide_or_error (g : bool) x (wx n w : nat) (c : Z) :
  (if g then (x, wx) else (RuneError, 1%nat)) = (c, w) -> (w <= n)%nat -> (n < wx)%nat ->
  (RuneError, 1%nat) = (c, w).
Proof. destruct g; [intros [= <- <-]; lia|trivial]. Qed.

Lemma decode_rune_prefix a b c w :
  a <> [] -> decode_rune (a ++ b) = (c, w) -> (w <= length a)%nat -> decode_rune a = (c, w).
Proof.
  intros Hne H Hw. destruct a as [|b0 a]; [congruence|]. clear Hne.
  cbn [app] in H. unfold decode_rune in *.
  destruct (b0 <? 128); [exact H|].
  destruct (in_range 194 223 b0).
  { destruct a as [|b1 a]; [|exact H].
    destruct b as [|b1 b]; [exact H|].
    apply (wide_or_error _ _ _ 1 _ _ H Hw). lia. }
  destruct (in_range 224 239 b0).
  { destruct a as [|b1 [|b2 a]]; [| |exact H].
    - destruct b as [|b1 [|b2 b]]; try exact H.
      apply (wide_or_error _ _ _ 1 _ _ H Hw). lia.
    - destruct b as [|b2 b]; [exact H|].
      apply (wide_or_error _ _ _ 2 _ _ H Hw). lia. }
  destruct (in_range 240 244 b0).
  { destruct a as [|b1 [|b2 [|b3 a]]]; [| | |exact H].
    - destruct b as [|b1 [|b2 [|b3 b]]]; try exact H.
      apply (wide_or_error _ _ _ 1 _ _ H Hw). lia.
    - destruct b as [|b2 [|b3 b]]; try exact H.
      apply (wide_or_error _ _ _ 2 _ _ H Hw). lia.
    - destruct b as [|b3 b]; [exact H|].
      apply (wide_or_error _ _ _ 3 _ _ H Hw). lia. }
  exact H.
Qed.

(* the runes of [a ++ b] that start inside [a] end inside [a] *)
Fixpoint cut_ok (fuel : nat) (a b : bytes) : Prop :=
  match fuel with
  | O => a = []
  | S f => a = [] \/ ((snd (decode_rune (a ++ b)) <= length a)%nat /\ cut_ok f (skipn (snd (decode_rune (a ++ b))) a) b)
  end.

(* [a] does not end with a CR that [b] continues with LF *)
Definition no_crlf_split (a b : bytes) : Prop := forall a', a = a' ++ [13] -> next_lf b = false.

Lemma skipn_app_le {A} (w : nat) (a b : list A) : (w <= length a)%nat -> skipn w (a ++ b) = skipn w a ++ b.
Proof. intro H. rewrite skipn_app. replace (w - length a)%nat with 0%nat by lia. reflexivity. Qed.

Lemma no_crlf_skipn w a b : no_crlf_split a b -> no_crlf_split (skipn w a) b.
Proof.
  intros H a' E. apply (H (firstn w a ++ a')). rewrite <- app_assoc, <- E. symmetry. apply firstn_skipn.
Qed.

(* advance_runes does not look at offsets or at surplus fuel *)
Lemma advance_rf_irrel : forall f1 f2 l o1 o2 line col,
  (length l <= f1)%nat -> (length l <= f2)%nat ->
  advance_runes (runes_from f1 l o1) l line col = advance_runes (runes_from f2 l o2) l line col.
Proof.
  induction f1 as [|f1 IH]; intros f2 l o1 o2 line col H1 H2.
  - destruct l; [|cbn in H1; lia]. destruct f2; reflexivity.
  - destruct l as [|x r] eqn:El; [destruct f2; reflexivity|]. rewrite <- El in *.
    assert (Hne : l <> []) by (subst; discriminate).
    destruct f2 as [|f2]; [subst; cbn in H2; lia|].
    rewrite !runes_from_S by exact Hne.
    destruct (decode_rune l) as [c w] eqn:Ed. cbn [fst snd].
    destruct (decode_rune_facts l c w Hne Ed) as (Hw1 & Hw2 & _).
    rewrite !advance_cons. apply IH; rewrite skipn_length; lia.
Qed.

Lemma advance_concat : forall fa a b fab fb oa ob oab line col,
  (length a <= fa)%nat -> (length b <= fb)%nat -> (length (a ++ b) <= fab)%nat ->
  cut_ok fa a b -> no_crlf_split a b ->
  advance_runes (runes_from fab (a ++ b) oab) (a ++ b) line col =
  advance_runes (runes_from fb b ob) b
    (fst (advance_runes (runes_from fa a oa) a line col))
    (snd (advance_runes (runes_from fa a oa) a line col)).
Proof.
  induction fa as [|fa IH]; intros a b fab fb oa ob oab line col Ha Hb Hab Hcut Hns.
  - cbn [cut_ok] in Hcut. subst a. cbn [app runes_from advance_runes fst snd].
    apply advance_rf_irrel; assumption.
  - destruct a as [|x0 r0] eqn:Ea.
    { cbn [app runes_from advance_runes fst snd]. apply advance_rf_irrel; assumption. }
    rewrite <- Ea in *. assert (Hne : a <> []) by (subst; discriminate).
    cbn [cut_ok] in Hcut. destruct Hcut as [Hcut|[Hw Hcut]]; [congruence|].
    assert (Hne' : a ++ b <> []) by (subst a; discriminate).
    destruct fab as [|fab]; [subst a; cbn in Hab; lia|].
    rewrite (runes_from_S fab (a ++ b)) by exact Hne'.
    destruct (decode_rune (a ++ b)) as [c w] eqn:Ed. cbn [fst snd] in *.
    pose proof (decode_rune_prefix a b c w Hne Ed Hw) as Eda.
    rewrite (runes_from_S fa a) by exact Hne. rewrite Eda. cbn [fst snd].
    destruct (decode_rune_facts a c w Hne Eda) as (Hw1 & Hw2 & Hw3).
    rewrite !advance_cons. rewrite (skipn_app_le w a b Hw).
    (* the CRLF test sees the same thing *)
    assert (Hlf : c = 13 -> next_lf (skipn w a ++ b) = next_lf (skipn w a)).
    { intro Hc. destruct (skipn w a) as [|y t] eqn:Es; [|reflexivity].
      cbn [app next_lf].
      (* a is the single byte 13 *)
      assert (Hw' : w = 1%nat) by (apply Hw3; lia).
      assert (Hla : length a = 1%nat).
      { pose proof (skipn_length w a) as Hl. rewrite Es in Hl. cbn [length] in Hl. lia. }
      destruct a as [|b0 [|? ?]]; cbn [length] in Hla; try lia.
      pose proof (decode_rune_ascii b0 [] c w Eda ltac:(lia)) as Hb0. subst b0 c.
      apply (Hns []). reflexivity. }
    assert (Hstep : sstep line col c (next_lf (skipn w a ++ b)) = sstep line col c (next_lf (skipn w a))).
    { unfold sstep. destruct (is_newline c) eqn:En; [|reflexivity].
      destruct (Z.eqb_spec c 13) as [E|E]; [rewrite (Hlf E); reflexivity|reflexivity]. }
    rewrite Hstep.
    apply IH; try assumption.
    + rewrite skipn_length. lia.
    + rewrite app_length, skipn_length. rewrite app_length in Hab. lia.
    + apply no_crlf_skipn. exact Hns.
Qed.

(* a boundary of the concatenation is a clean UTF-8 cut *)
Lemma boundary_cut_ok : forall fa a b f i,
  (length a <= fa)%nat -> (length (a ++ b) <= f)%nat ->
  b = [] \/ In (i + Z.of_nat (length a)) (map roff (runes_from f (a ++ b) i)) ->
  cut_ok fa a b.
Proof.
  induction fa as [|fa IH]; intros a b f i Ha Hf Hb.
  - destruct a; [reflexivity|cbn in Ha; lia].
  - cbn [cut_ok]. destruct a as [|x0 r0] eqn:Ea; [left; reflexivity|]. right.
    rewrite <- Ea in *. assert (Hne : a <> []) by (subst; discriminate).
    assert (Hne' : a ++ b <> []) by (subst a; discriminate).
    destruct (decode_rune (a ++ b)) as [c w] eqn:Ed. cbn [snd].
    destruct (decode_rune_facts (a ++ b) c w Hne' Ed) as (Hw1 & Hw2 & _).
    destruct f as [|f]; [subst a; cbn in Hf; lia|].
    assert (Hla : (1 <= length a)%nat) by (subst a; cbn; lia).
    assert (Hwf : wf_runes (runes_from f (skipn w (a ++ b)) (i + Z.of_nat w)) (skipn w (a ++ b)) (i + Z.of_nat w)).
    { apply runes_from_wf. rewrite skipn_length. lia. }
    assert (Hw : (w <= length a)%nat).
    { destruct Hb as [->|Hin]; [rewrite app_nil_r in Hw2; exact Hw2|].
      rewrite (runes_from_S f (a ++ b)) in Hin by exact Hne'. rewrite Ed in Hin. cbn [fst snd map In roff] in Hin.
      destruct Hin as [Hin|Hin]; [lia|].
      pose proof (wf_runes_offsets _ _ _ _ Hwf Hin). lia. }
    split; [exact Hw|].
    apply (IH (skipn w a) b f (i + Z.of_nat w)).
    + rewrite skipn_length. lia.
    + rewrite app_length, skipn_length. rewrite app_length in Hf. lia.
    + destruct Hb as [Hb|Hin]; [left; exact Hb|]. right.
      rewrite (runes_from_S f (a ++ b)) in Hin by exact Hne'. rewrite Ed in Hin. cbn [fst snd map In roff] in Hin.
      destruct Hin as [Hin|Hin]; [lia|].
      rewrite (skipn_app_le w a b Hw) in Hin. rewrite skipn_length.
      replace (i + Z.of_nat w + Z.of_nat (length a - w)) with (i + Z.of_nat (length a)) by lia. exact Hin.
Qed.

(* the cut between [a] and [b] is clean *)
Definition clean_cut (a b : bytes) : Prop :=
  boundary (a ++ b) (Z.of_nat (length a)) /\ no_crlf_split a b.

Theorem adv_concat_all : forall p a b, clean_cut a b -> adv p (a ++ b) = adv (adv p a) b.
Proof.
  intros p a b [Hb Hns]. rewrite !adv_eq. unfold runes.
  assert (Hcut : cut_ok (length a) a b).
  { apply (boundary_cut_ok (length a) a b (length (a ++ b)) 0); try lia.
    destruct Hb as [Hb|Hb].
    - left. rewrite app_length in Hb. destruct b; [reflexivity|cbn [length] in Hb; lia].
    - right. exact Hb. }
  apply (advance_concat (length a) a b _ _ 0 0 0); try lia; assumption.
Qed.

(* SpecBuilder.sp_event with the generated position read off the WHOLE output
   printed so far ([S] = the output measured before this call) *)
Definition sp_event_cat (text : bytes) (cover : bool) (w : sw) (S : bytes) (loc name : Z) (delta : bytes)
  : sw * bytes * list op :=
  let newlen := w_len w + Z.of_nat (length (w_pend w)) + Z.of_nat (length delta) in
  if (loc =? w_ploc w) && ((w_plen w =? newlen) || (w_pname w =? name))
  then (mkSw (w_line w) (w_col w) (w_pend w ++ delta) (w_len w) (w_ploc w) (w_plen w) (w_pname w)
             (w_names w) (w_last w) (w_has w), S, [])
  else
    let t := w_pend w ++ delta in
    let lc := linecol_utf16 (S ++ t) (Z.of_nat (length (S ++ t))) in
    let k := Z.to_nat (fst lc - w_line w) in
    let cov := cover_op cover (w_last w) in
    let has' := match k with O => w_has w | S _ => false end in
    let orig := linecol_utf16 text loc in
    let ni := name_index (w_names w) name in
    (mkSw (fst lc) (snd lc) [] (w_len w + Z.of_nat (length t)) loc newlen name
          (fst ni) (Some orig) true,
     S ++ t,
     breaks_ops k cov (w_has w)
       ++ (if negb has' && (0 <? snd lc) then cov else [])
       ++ [OMap (snd lc) 0 (fst orig) (snd orig) (snd ni)]).

Fixpoint sp_run_cat (text : bytes) (cover : bool) (w : sw) (S : bytes) (evs : list (Z * Z * bytes)) : sw * bytes * list op :=
  match evs with
  | [] => (w, S, [])
  | (loc, name, delta) :: r =>
    let w1 := sp_event_cat text cover w S loc name delta in
    let w2 := sp_run_cat text cover (fst (fst w1)) (snd (fst w1)) r in
    (fst w2, snd w1 ++ snd w2)
  end.

Definition builder_spec_cat (text : bytes) (cover : bool) (evs : list (Z * Z * bytes)) (fin : bytes)
  : list op * list Z * Z :=
  let r := sp_run_cat text cover sw0 [] evs in
  let w := fst (fst r) in let S := snd (fst r) in
  let t := w_pend w ++ fin in
  let lc := linecol_utf16 (S ++ t) (Z.of_nat (length (S ++ t))) in
  (snd r ++ breaks_ops (Z.to_nat (fst lc - w_line w)) (cover_op cover (w_last w)) (w_has w), w_names w, snd lc).

(* every place where the builder stops measuring is a clean cut of the output *)
Fixpoint clean_run (w : sw) (S : bytes) (evs : list (Z * Z * bytes)) (fin : bytes) : Prop :=
  match evs with
  | [] => clean_cut S (w_pend w ++ fin)
  | (loc, name, delta) :: r =>
    let newlen := w_len w + Z.of_nat (length (w_pend w)) + Z.of_nat (length delta) in
    if (loc =? w_ploc w) && ((w_plen w =? newlen) || (w_pname w =? name))
    then clean_run (mkSw (w_line w) (w_col w) (w_pend w ++ delta) (w_len w) (w_ploc w) (w_plen w) (w_pname w)
                         (w_names w) (w_last w) (w_has w)) S r fin
    else clean_cut S (w_pend w ++ delta) /\
         clean_run (mkSw 0 0 [] (w_len w + Z.of_nat (length (w_pend w ++ delta))) loc newlen name [] None true)
                   (S ++ w_pend w ++ delta) r fin
  end.

(* clean_run only looks at the duplicate-suppression fields and the pending text *)
Definition dup_eq (w w' : sw) : Prop :=
  w_pend w = w_pend w' /\ w_len w = w_len w' /\ w_ploc w = w_ploc w' /\ w_plen w = w_plen w' /\ w_pname w = w_pname w'.

Lemma clean_run_ext : forall evs w w' S fin, dup_eq w w' -> clean_run w S evs fin -> clean_run w' S evs fin.
Proof.
  induction evs as [|[[loc name] delta] evs IH]; intros w w' S fin (E1 & E2 & E3 & E4 & E5) H; cbn [clean_run] in *.
  - rewrite <- E1. exact H.
  - rewrite <- E1, <- E2, <- E3, <- E4, <- E5.
    destruct (_ && _).
    + eapply IH; [|exact H]. unfold dup_eq. cbn. rewrite E1. repeat split; assumption.
    + destruct H as [H1 H2]. split; [exact H1|]. eapply IH; [|exact H2]. unfold dup_eq. cbn. repeat split; congruence.
Qed.

Lemma sp_run_cat_eq text cover : forall evs w S fin,
  (w_line w, w_col w) = adv (0, 0) S -> clean_run w S evs fin ->
  let '(w', S', ops) := sp_run_cat text cover w S evs in
  (w', ops) = sp_run text cover w evs /\
  (w_line w', w_col w') = adv (0, 0) S' /\
  clean_cut S' (w_pend w' ++ fin).
Proof.
  induction evs as [|[[loc name] delta] evs IH]; intros w S fin Hpos Hc.
  - cbn [sp_run_cat sp_run clean_run] in *.
    split; [reflexivity|]. split; [exact Hpos|exact Hc].
  - cbn [sp_run_cat sp_run clean_run] in *. unfold sp_event_cat, sp_event.
    destruct ((loc =? w_ploc w) && _) eqn:Edup; cbn [fst snd].
    + match type of Hc with clean_run ?W _ _ _ => specialize (IH W S fin Hpos Hc) end.
      destruct (sp_run_cat text cover _ S evs) as [[w' S'] ops]. cbn [fst snd].
      destruct IH as (A & B). rewrite <- A. split; [reflexivity|exact B].
    + destruct Hc as [Hcut Hc].
      assert (Hlc : linecol_utf16 (S ++ w_pend w ++ delta) (Z.of_nat (length (S ++ w_pend w ++ delta)))
                    = adv (w_line w, w_col w) (w_pend w ++ delta)).
      { change (linecol_utf16 (S ++ w_pend w ++ delta) (Z.of_nat (length (S ++ w_pend w ++ delta))))
          with (adv (0, 0) (S ++ w_pend w ++ delta)).
        rewrite (adv_concat_all (0, 0) S _ Hcut), <- Hpos. reflexivity. }
      rewrite Hlc.
      set (lc := adv (w_line w, w_col w) (w_pend w ++ delta)) in *.
      match goal with |- context [sp_run text cover ?W evs] => set (w1 := W) end.
      assert (Hpos1 : (w_line w1, w_col w1) = adv (0, 0) (S ++ w_pend w ++ delta)).
      { subst w1. cbn [w_line w_col]. rewrite (adv_concat_all (0, 0) S _ Hcut), <- Hpos. fold lc.
        symmetry. apply surjective_pairing. }
      assert (Hc1 : clean_run w1 (S ++ w_pend w ++ delta) evs fin).
      { eapply clean_run_ext; [|exact Hc]. subst w1. unfold dup_eq. cbn. repeat split. }
      specialize (IH w1 _ fin Hpos1 Hc1).
      destruct (sp_run_cat text cover w1 _ evs) as [[w' S'] ops]. cbn [fst snd].
      destruct IH as (A & B). rewrite <- A. split; [reflexivity|exact B].
Qed.

(* with clean cuts the specified chunk is the one whose generated positions are
   measured on the concatenated output *)
Theorem builder_spec_cat_eq : forall text cover evs fin,
  clean_run sw0 [] evs fin ->
  builder_spec_cat text cover evs fin = builder_spec text cover evs fin.
Proof.
  intros text cover evs fin Hc.
  pose proof (sp_run_cat_eq text cover evs sw0 [] fin eq_refl Hc) as H.
  unfold builder_spec_cat, builder_spec, sp_final.
  destruct (sp_run_cat text cover sw0 [] evs) as [[w S] ops]. destruct H as (<- & Hpos & Hcut).
  cbn [fst snd].
  change (linecol_utf16 (S ++ w_pend w ++ fin) (Z.of_nat (length (S ++ w_pend w ++ fin))))
    with (adv (0, 0) (S ++ w_pend w ++ fin)).
  rewrite (adv_concat_all (0, 0) S _ Hcut), <- Hpos. reflexivity.
Qed.
