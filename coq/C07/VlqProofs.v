From V Require Import Common.Base C07.Vlq C07.SpecMap.

Lemma forallb_seq_Z (P : Z -> bool) n :
  forallb (fun k => P (Z.of_nat k)) (seq 0 n) = true -> forall d, 0 <= d < Z.of_nat n -> P d = true.
Proof.
  intros H d Hd. rewrite forallb_forall in H. specialize (H (Z.to_nat d)).
  rewrite Z2Nat.id in H by lia. apply H, in_seq. lia.
Qed.

Lemma b64_index_char d : 0 <= d < 64 -> b64_index (b64_char d) = Some d.
Proof.
  intro Hd. apply (forallb_seq_Z (fun d => option_eqb Z.eqb (b64_index (b64_char d)) (Some d)) 64) in Hd;
    [|vm_compute; reflexivity].
  destruct (b64_index (b64_char d)) as [x|]; [|discriminate]. apply Z.eqb_eq in Hd. congruence.
Qed.

Lemma index_of_range c : forall l i d, index_of c l i = Some d -> In c l /\ i <= d < i + Z.of_nat (length l).
Proof.
  induction l as [|x l IH]; intros i d H; [discriminate|]. cbn [index_of length] in H |- *.
  destruct (Z.eqb_spec x c) as [->|_].
  - injection H as <-. split; [left; reflexivity|lia].
  - apply IH in H as [Hin Hd]. split; [right; exact Hin|lia].
Qed.

Lemma b64_index_range c d : b64_index c = Some d -> 0 <= d < 64.
Proof. intro H. apply index_of_range in H as [_ H]. exact H. Qed.

Lemma base64_ascii c : In c base64 -> 0 <= c < 128.
Proof.
  intro H. assert (A : forallb (fun x => (0 <=? x) && (x <? 128)) base64 = true) by reflexivity.
  rewrite forallb_forall in A. apply A in H. lia.
Qed.

Lemma spec_digit_outside c : c < 0 \/ 128 <= c -> spec_digit c = None.
Proof.
  intro H. unfold spec_digit.
  replace ((65 <=? c) && (c <=? 90)) with false by lia.
  replace ((97 <=? c) && (c <=? 122)) with false by lia.
  replace ((48 <=? c) && (c <=? 57)) with false by lia.
  replace (c =? 43) with false by lia.
  replace (c =? 47) with false by lia.
  reflexivity.
Qed.

(* the table of the code is the RFC 4648 alphabet: by evaluation on the ASCII range;
   outside it the table has no entry and none of the ranges of [spec_digit] applies *)
Lemma b64_index_is_spec c : b64_index c = spec_digit c.
Proof.
  destruct (Z.lt_ge_cases c 0) as [Hneg|Hnn]; [|destruct (Z.lt_ge_cases c 128) as [Hlt|Hge]].
  2:{ assert (H : 0 <= c < Z.of_nat 128) by lia.
      apply (forallb_seq_Z (fun c => option_eqb Z.eqb (b64_index c) (spec_digit c)) 128) in H; [|vm_compute; reflexivity].
      destruct (b64_index c) as [x|], (spec_digit c) as [y|]; try discriminate; try reflexivity.
      apply Z.eqb_eq in H; congruence. }
  all: rewrite spec_digit_outside by lia.
  all: destruct (b64_index c) as [d|] eqn:E; [|reflexivity].
  all: apply index_of_range in E as [E _].
  all: apply base64_ascii in E.
  all: lia.
Qed.

Lemma pow5 fuel : 2 ^ (5 * Z.of_nat (S fuel)) = 32 * 2 ^ (5 * Z.of_nat fuel).
Proof.
  replace (5 * Z.of_nat (S fuel)) with (5 + 5 * Z.of_nat fuel) by lia.
  rewrite Z.pow_add_r by lia. reflexivity.
Qed.

Lemma dec_enc_loop : forall fuel vlq shift acc rest,
  (0 < fuel)%nat -> 0 <= vlq < 2 ^ (5 * Z.of_nat fuel) -> 0 <= shift ->
  dec_loop (enc_loop fuel vlq ++ rest) shift acc = Some (acc + vlq * 2 ^ shift, rest).
Proof.
  induction fuel as [|f IH]; intros vlq shift acc rest Hf Hv Hs; [lia|].
  cbn [enc_loop]. rewrite pow5 in Hv.
  assert (Hd : 0 <= vlq mod 32 < 32) by (apply Z.mod_pos_bound; lia).
  destruct (Z.eqb_spec (vlq / 32) 0) as [Hz|Hnz].
  - cbn [app dec_loop]. rewrite b64_index_char by lia.
    replace (vlq mod 32 <? 32) with true by lia.
    rewrite Z.mod_mod by lia.
    replace (vlq mod 32) with vlq by lia. reflexivity.
  - cbn [app dec_loop]. rewrite b64_index_char by lia.
    replace (vlq mod 32 + 32 <? 32) with false by lia.
    replace ((vlq mod 32 + 32) mod 32) with (vlq mod 32) by lia.
    assert (Hq : 0 <= vlq / 32 < 2 ^ (5 * Z.of_nat f)) by lia.
    assert (Hfpos : (0 < f)%nat).
    { destruct f; [|lia]. simpl in Hq. lia. }
    rewrite IH by (try assumption; lia).
    f_equal. f_equal.
    rewrite Z.pow_add_r by lia. change (2 ^ 5) with 32.
    pose proof (Z.div_mod vlq 32 ltac:(lia)) as Hdm. nia.
Qed.

Lemma log2_fuel vlq : 0 <= vlq -> vlq < 2 ^ (5 * Z.of_nat (S (Z.to_nat (Z.log2 vlq)))).
Proof.
  intro H. destruct (Z.eq_dec vlq 0) as [->|Hne].
  - simpl. lia.
  - assert (Hpos : 0 < vlq) by lia.
    pose proof (Z.log2_spec vlq Hpos) as [_ Hub].
    pose proof (Z.log2_nonneg vlq) as Hl.
    eapply Z.lt_le_trans; [exact Hub|].
    apply Z.pow_le_mono_r; lia.
Qed.

Lemma from_to_vlq v : from_vlq (to_vlq v) = v.
Proof.
  unfold from_vlq, to_vlq. destruct (Z.ltb_spec v 0).
  - replace (Z.odd (2 * - v + 1)) with true.
    + lia.
    + symmetry. replace (2 * - v + 1) with (1 + 2 * - v) by lia.
      rewrite Z.odd_add_mul_2. reflexivity.
  - replace (Z.odd (2 * v)) with false.
    + lia.
    + symmetry. rewrite Z.odd_mul. reflexivity.
Qed.

Lemma to_vlq_nonneg v : 0 <= to_vlq v.
Proof. unfold to_vlq. destruct (Z.ltb_spec v 0); lia. Qed.

(* Round trip for every integer: the decoder applied to the encoding followed
   by arbitrary further bytes returns the value and exactly the further bytes. *)
Lemma vlq_roundtrip_all v rest : DecodeVLQ (encodeVLQ v ++ rest) = Some (v, rest).
Proof.
  unfold DecodeVLQ, encodeVLQ.
  rewrite dec_enc_loop; try lia.
  - rewrite Z.pow_0_r, Z.mul_1_r, Z.add_0_l, from_to_vlq. reflexivity.
  - split; [apply to_vlq_nonneg | apply log2_fuel, to_vlq_nonneg].
Qed.

Lemma enc_loop_nonempty fuel vlq : (0 < fuel)%nat -> enc_loop fuel vlq <> [].
Proof. destruct fuel; [lia|]. intros _. cbn [enc_loop]. destruct (_ =? 0); discriminate. Qed.

Lemma encodeVLQ_nonempty v : encodeVLQ v <> [].
Proof. unfold encodeVLQ. apply enc_loop_nonempty. lia. Qed.

(* number of digits: a value with |v| < 2^62 needs at most 13 digits, so the
   shift in Go's 64-bit decoder never reaches 64 *)
Lemma enc_loop_length fuel vlq : (length (enc_loop fuel vlq) <= fuel)%nat.
Proof.
  revert vlq; induction fuel as [|f IH]; intro vlq; cbn [enc_loop]; [simpl; lia|].
  destruct (_ =? 0); simpl; [lia|]. specialize (IH (vlq / 32)). lia.
Qed.

Lemma enc_loop_length_sharp : forall n fuel vlq,
  (0 < n)%nat -> 0 <= vlq < 2 ^ (5 * Z.of_nat n) -> (length (enc_loop fuel vlq) <= n)%nat.
Proof.
  induction n as [|n IH]; intros fuel vlq Hn Hv; [lia|].
  destruct fuel as [|f]; cbn [enc_loop]; [simpl; lia|].
  rewrite pow5 in Hv.
  destruct (Z.eqb_spec (vlq / 32) 0) as [Hz|Hnz]; [simpl; lia|].
  cbn [length]. apply le_n_S.
  assert (Hq : 0 <= vlq / 32 < 2 ^ (5 * Z.of_nat n)) by lia.
  apply IH; [|exact Hq].
  destruct n; [simpl in Hq; lia | lia].
Qed.

Lemma encodeVLQ_length_bound v : - 2 ^ 62 < v < 2 ^ 62 -> (length (encodeVLQ v) <= 13)%nat.
Proof.
  intro Hv. unfold encodeVLQ.
  apply enc_loop_length_sharp; [lia|].
  assert (E : 2 ^ (5 * Z.of_nat 13) = 4 * 2 ^ 63) by reflexivity. rewrite E.
  assert (E2 : 2 ^ 63 = 2 * 2 ^ 62) by reflexivity. rewrite E2.
  remember (2 ^ 62) as P in *. clear HeqP E E2. unfold to_vlq. destruct (Z.ltb_spec v 0); lia.
Qed.
