(* join_decodes: AppendSourceMapChunk applied to a chunk produced by the
   builder emits exactly the bytes the builder itself would have emitted for
   the rebased events, continuing from the previous chunk's end state.  With
   mappings_roundtrip this gives: every file's mappings survive joining,
   shifted by the file's generated start line/column and by its source and
   name index bases. *)
From V Require Import Common.Base C07.Vlq C07.SpecMap C07.Mappings C07.VlqProofs C07.MappingsProofs.

(* rebase the events of a chunk: source index += ds everywhere; generated
   column += dc on the chunk's first line only; names += dn *)
Fixpoint rebase (dc ds dn : Z) (first_line : bool) (ops : list op) : list op :=
  match ops with
  | [] => []
  | ONewline :: r => ONewline :: rebase dc ds dn false r
  | OMap gc si ol oc nm :: r =>
    OMap (if first_line then gc + dc else gc) (si + ds) ol oc
         (match nm with Some n => Some (n + dn) | None => None end)
      :: rebase dc ds dn first_line r
  | ONull gc :: r => ONull (if first_line then gc + dc else gc) :: rebase dc ds dn first_line r
  end.

(* byte offset of the first name VLQ in the builder's buffer (firstNameOffset) *)
Fixpoint first_name_off (ops : list op) (lastByte : Z) (prev : state) (base : nat) : option nat :=
  match ops with
  | [] => None
  | ONewline :: r =>
    first_name_off r SEMI (mkState (gline prev + 1) 0 (sidx prev) (oline prev) (ocol prev) (oname prev) (has_name prev)) (S base)
  | OMap gc si ol oc nm :: r =>
    let '(cur, prev') := next_state prev gc si ol oc nm in
    let '(seg, off) := appendMapping lastByte prev cur false in
    match off with
    | Some o => Some (base + Z.to_nat o)%nat
    | None => first_name_off r (last seg lastByte) prev' (base + length seg)%nat
    end
  | ONull gc :: r =>
    first_name_off r (last (null_seg lastByte prev gc) lastByte) (null_state prev gc)
                   (base + length (null_seg lastByte prev gc))%nat
  end.

Definition ebytes (ops : list op) (lb : Z) (prev : state) : bytes := fst (fst (emit ops lb prev)).

Definition sepb (lb : Z) : bool := negb (lb =? 0) && negb (lb =? SEMI) && negb (lb =? QUOTE).

Definition nl_state (p : state) : state :=
  mkState (gline p + 1) 0 (sidx p) (oline p) (ocol p) (oname p) (has_name p).

(* the fields of a segment after the generated-column field *)
Definition fields (p : state) (si ol oc : Z) (nm : option Z) : bytes :=
  encodeVLQ (si - sidx p) ++ encodeVLQ (ol - oline p) ++ encodeVLQ (oc - ocol p)
  ++ match nm with Some n => encodeVLQ (n - oname p) | None => [] end.

(* the comma that precedes the next segment, seen as a trailer of the current one *)
Definition commaof (r : list op) : bytes :=
  match r with OMap _ _ _ _ _ :: _ => [COMMA] | ONull _ :: _ => [COMMA] | _ => [] end.

(* prevState after a mapping *)
Definition after (p : state) (gc si ol oc : Z) (nm : option Z) : state :=
  mkState (gline p) gc si ol oc (match nm with Some n => n | None => oname p end)
          (match nm with Some _ => true | None => false end).

Lemma ebytes_nil lb p : ebytes [] lb p = [].
Proof. reflexivity. Qed.

Lemma ebytes_newline r lb p : ebytes (ONewline :: r) lb p = SEMI :: ebytes r SEMI (nl_state p).
Proof.
  unfold ebytes, nl_state. cbn [emit]. destruct (emit r SEMI _) as [[b l] s]. reflexivity.
Qed.

Lemma null_seg_eq lb p gc : null_seg lb p gc = (if sepb lb then [COMMA] else []) ++ encodeVLQ (gc - gcol p).
Proof. reflexivity. Qed.

Lemma ebytes_null gc r lb p :
  ebytes (ONull gc :: r) lb p = null_seg lb p gc ++ ebytes r (last (null_seg lb p gc) lb) (null_state p gc).
Proof. unfold ebytes. cbn [emit]. destruct (emit r _ (null_state p gc)) as [[b l] s]. reflexivity. Qed.

Lemma fields_some p si ol oc n :
  fields p si ol oc (Some n) = fields p si ol oc None ++ encodeVLQ (n - oname p).
Proof. unfold fields. rewrite app_nil_r, <- !app_assoc. reflexivity. Qed.

Lemma append_map lb p gc si ol oc nm :
  appendMapping lb p (fst (next_state p gc si ol oc nm)) false =
  ((if sepb lb then [COMMA] else []) ++ encodeVLQ (gc - gcol p) ++ fields p si ol oc nm,
   match nm with
   | Some _ => Some (Z.of_nat (length ((if sepb lb then [COMMA] else []) ++ encodeVLQ (gc - gcol p) ++ fields p si ol oc None)))
   | None => None
   end).
Proof.
  destruct nm; unfold next_state, appendMapping, fields, sepb;
    cbn [fst has_name gcol sidx oline ocol oname]; rewrite ?app_nil_r, <- !app_assoc; reflexivity.
Qed.

Lemma next_state_after p gc si ol oc nm : snd (next_state p gc si ol oc nm) = after p gc si ol oc nm.
Proof. destruct nm; reflexivity. Qed.

Lemma ebytes_map gc si ol oc nm r lb p :
  ebytes (OMap gc si ol oc nm :: r) lb p =
  let seg := (if sepb lb then [COMMA] else []) ++ encodeVLQ (gc - gcol p) ++ fields p si ol oc nm in
  seg ++ ebytes r (last seg lb) (after p gc si ol oc nm).
Proof.
  unfold ebytes. cbn [emit].
  pose proof (append_map lb p gc si ol oc nm) as Ha. pose proof (next_state_after p gc si ol oc nm) as Hs.
  destruct (next_state p gc si ol oc nm) as [cur prev']. cbn [fst snd] in Ha, Hs.
  rewrite Ha, Hs. cbn [fst]. destruct (emit r _ _) as [[b l] s]. reflexivity.
Qed.

Lemma sepb_digit d : 0 <= d < 64 -> sepb (b64_char d) = true.
Proof.
  intro Hd. pose proof (char_not_sep d Hd) as H. cbv zeta in H. unfold sepb, SEMI, QUOTE. lia.
Qed.

Lemma sepb_last_enc a v lb : sepb (last (a ++ encodeVLQ v) lb) = true.
Proof.
  rewrite last_app_nonempty by apply encodeVLQ_nonempty.
  destruct (encodeVLQ_last v lb) as (d & Hd & ->). apply sepb_digit, Hd.
Qed.

Lemma sepb_last_fields a b p si ol oc nm lb : sepb (last (a ++ b ++ fields p si ol oc nm) lb) = true.
Proof.
  destruct nm; [rewrite fields_some|unfold fields; rewrite app_nil_r]; rewrite !app_assoc; apply sepb_last_enc.
Qed.

Lemma ebytes_map_gen gc si ol oc nm r lb p :
  exists lb', sepb lb' = true /\
  ebytes (OMap gc si ol oc nm :: r) lb p =
  (if sepb lb then [COMMA] else []) ++ encodeVLQ (gc - gcol p) ++ fields p si ol oc nm
  ++ ebytes r lb' (after p gc si ol oc nm).
Proof.
  eexists. split; [|rewrite ebytes_map; cbv zeta; rewrite <- !app_assoc; reflexivity].
  apply sepb_last_fields.
Qed.

Lemma ebytes_null_gen gc r lb p :
  exists lb', sepb lb' = true /\
  ebytes (ONull gc :: r) lb p =
  (if sepb lb then [COMMA] else []) ++ encodeVLQ (gc - gcol p) ++ ebytes r lb' (null_state p gc).
Proof.
  eexists. split; [|rewrite ebytes_null, null_seg_eq, <- app_assoc; reflexivity]. apply sepb_last_enc.
Qed.

Lemma ebytes_lb : forall ops lb1 lb2 p, sepb lb1 = sepb lb2 -> ebytes ops lb1 p = ebytes ops lb2 p.
Proof.
  induction ops as [|[|gc si ol oc nm|gc] r IH]; intros lb1 lb2 p H.
  - reflexivity.
  - rewrite !ebytes_newline. reflexivity.
  - destruct (ebytes_map_gen gc si ol oc nm r lb1 p) as (l1 & H1 & ->).
    destruct (ebytes_map_gen gc si ol oc nm r lb2 p) as (l2 & H2 & ->).
    rewrite H, (IH l1 l2) by congruence. reflexivity.
  - destruct (ebytes_null_gen gc r lb1 p) as (l1 & H1 & ->).
    destruct (ebytes_null_gen gc r lb2 p) as (l2 & H2 & ->).
    rewrite H, (IH l1 l2) by congruence. reflexivity.
Qed.

Lemma sepb_0 : sepb 0 = false. Proof. reflexivity. Qed.

(* Normal form: the separator moves to the end of the preceding segment, and
   every continuation starts with no separator pending. *)
Lemma ebytes_sep ops lb p : sepb lb = true -> ebytes ops lb p = commaof ops ++ ebytes ops 0 p.
Proof.
  intro H. destruct ops as [|[|gc si ol oc nm|gc] r].
  - reflexivity.
  - rewrite !ebytes_newline. reflexivity.
  - destruct (ebytes_map_gen gc si ol oc nm r lb p) as (l1 & H1 & ->).
    destruct (ebytes_map_gen gc si ol oc nm r 0 p) as (l2 & H2 & ->).
    rewrite H, sepb_0, (ebytes_lb r l1 l2) by congruence. reflexivity.
  - destruct (ebytes_null_gen gc r lb p) as (l1 & H1 & ->).
    destruct (ebytes_null_gen gc r 0 p) as (l2 & H2 & ->).
    rewrite H, sepb_0, (ebytes_lb r l1 l2) by congruence. reflexivity.
Qed.

Lemma ebytes_null0 gc r lb p : sepb lb = false ->
  ebytes (ONull gc :: r) lb p = encodeVLQ (gc - gcol p) ++ commaof r ++ ebytes r 0 (null_state p gc).
Proof.
  intro H. destruct (ebytes_null_gen gc r lb p) as (l1 & H1 & ->).
  rewrite H, (ebytes_sep r l1) by exact H1. reflexivity.
Qed.

Lemma ebytes_map0 gc si ol oc nm r lb p : sepb lb = false ->
  ebytes (OMap gc si ol oc nm :: r) lb p =
  encodeVLQ (gc - gcol p) ++ fields p si ol oc nm ++ commaof r
  ++ ebytes r 0 (after p gc si ol oc nm).
Proof.
  intro H. destruct (ebytes_map_gen gc si ol oc nm r lb p) as (l1 & H1 & E1).
  rewrite E1, H, (ebytes_sep r l1) by exact H1. reflexivity.
Qed.

Lemma ebytes_newline0 r lb p : ebytes (ONewline :: r) lb p = SEMI :: ebytes r 0 (nl_state p).
Proof. rewrite ebytes_newline. f_equal. apply ebytes_lb. reflexivity. Qed.

Lemma ebytes_sepb ops lb p : ebytes ops lb p = (if sepb lb then commaof ops else []) ++ ebytes ops 0 p.
Proof.
  destruct (sepb lb) eqn:E; [apply ebytes_sep, E|]. apply ebytes_lb. rewrite E. reflexivity.
Qed.

(* P is p moved like the rebased events: first-line column + dc, source + ds *)
Definition rebased (dc ds : Z) (P p0 : state) (fl : bool) : Prop :=
  gcol P = gcol p0 + (if fl then dc else 0) /\ sidx P = sidx p0 + ds /\
  oline P = oline p0 /\ ocol P = ocol p0.

Lemma commaof_rebase dc ds dn fl ops : commaof (rebase dc ds dn fl ops) = commaof ops.
Proof. destruct ops as [|[| |] r]; reflexivity. Qed.

Lemma rebased_after dc ds P p (fl : bool) gc si ol oc nm nm' :
  rebased dc ds (after P (if fl then gc + dc else gc) (si + ds) ol oc nm') (after p gc si ol oc nm) fl.
Proof. unfold rebased, after. cbn [gcol sidx oline ocol]. destruct fl; repeat split; lia. Qed.

Lemma rebased_null dc ds P p fl gc : rebased dc ds P p fl ->
  rebased dc ds (null_state P (if fl then gc + dc else gc)) (null_state p gc) fl.
Proof.
  intros (H1 & H2 & H3 & H4). unfold rebased, null_state. cbn [gcol sidx oline ocol].
  destruct fl; repeat split; lia.
Qed.

Lemma rebased_nl dc ds P p fl : rebased dc ds P p fl -> rebased dc ds (nl_state P) (nl_state p) false.
Proof. intros (H1 & H2 & H3 & H4). unfold rebased, nl_state. cbn [gcol sidx oline ocol]. repeat split; lia. Qed.

Lemma gcol_rebase dc ds P p fl gc : rebased dc ds P p fl -> (if fl then gc + dc else gc) - gcol P = gc - gcol p.
Proof. intros (H1 & _). destruct fl; lia. Qed.

Lemma fields_rebase dc ds P p fl si ol oc : rebased dc ds P p fl ->
  fields P (si + ds) ol oc None = fields p si ol oc None.
Proof.
  intros (_ & H2 & H3 & H4). unfold fields. rewrite H2, H3, H4.
  replace (si + ds - (sidx p + ds)) with (si - sidx p) by lia. reflexivity.
Qed.

(* every delta is the same: the same bytes *)
Lemma ebytes_rebase dc ds dn : forall ops p P fl,
  rebased dc ds P p fl -> oname P = oname p + dn ->
  ebytes (rebase dc ds dn fl ops) 0 P = ebytes ops 0 p.
Proof.
  induction ops as [|[|gc si ol oc [n|]|gc] r IH]; intros p P fl HR Hn; cbn [rebase].
  - reflexivity.
  - rewrite !ebytes_newline0. f_equal. apply IH; [eapply rebased_nl, HR|exact Hn].
  - rewrite !ebytes_map0, !fields_some, commaof_rebase by apply sepb_0.
    rewrite (gcol_rebase _ _ _ _ _ _ HR), (fields_rebase _ _ _ _ _ _ _ _ HR), Hn.
    replace (n + dn - (oname p + dn)) with (n - oname p) by lia.
    rewrite (IH (after p gc si ol oc (Some n))); [reflexivity|apply rebased_after|reflexivity].
  - rewrite !ebytes_map0, commaof_rebase by apply sepb_0.
    rewrite (gcol_rebase _ _ _ _ _ _ HR), (fields_rebase _ _ _ _ _ _ _ _ HR).
    rewrite (IH (after p gc si ol oc None)); [reflexivity|apply rebased_after|exact Hn].
  - rewrite !ebytes_null0, commaof_rebase, (gcol_rebase _ _ _ _ _ _ HR) by apply sepb_0.
    rewrite (IH (null_state p gc)); [reflexivity|apply rebased_null, HR|exact Hn].
Qed.

Lemma ebytes_rebase_lb dc ds dn ops lb p P fl :
  rebased dc ds P p fl -> oname P = oname p + dn ->
  ebytes (rebase dc ds dn fl ops) lb P = ebytes ops lb p.
Proof.
  intros HR Hn. rewrite (ebytes_sepb _ lb P), (ebytes_sepb _ lb p), commaof_rebase, (ebytes_rebase _ _ _ _ p P fl HR Hn).
  reflexivity.
Qed.

Lemma rebase_id : forall ops fl, rebase 0 0 0 fl ops = ops.
Proof.
  induction ops as [|[|gc si ol oc [n|]|gc] r IH]; intro fl; cbn [rebase]; rewrite ?IH, ?Z.add_0_r;
    destruct fl; reflexivity.
Qed.

Lemma rebase_rebase a b c a' b' c' : forall ops fl,
  rebase a b c fl (rebase a' b' c' fl ops) = rebase (a' + a) (b' + b) (c' + c) fl ops.
Proof.
  induction ops as [|[|gc si ol oc [n|]|gc] r IH]; intro fl; cbn [rebase]; rewrite ?IH; [reflexivity..| | |];
    destruct fl; do 2 f_equal; try lia; f_equal; lia.
Qed.

(* [q] is [p] with the generated column [d] further right (line number and
   has_name, on which no byte depends, are left out) *)
Definition gcol_off (d : Z) (q p : state) : Prop :=
  gcol q = gcol p + d /\ sidx q = sidx p /\ oline q = oline p /\ ocol q = ocol p /\ oname q = oname p.

Lemma ebytes_drift dc ds dn d ops lb p P :
  gcol_off d P p ->
  ebytes (rebase (dc + d) ds dn true ops) lb P = ebytes (rebase dc ds dn true ops) lb p.
Proof.
  intros (H1 & H2 & H3 & H4 & H5).
  rewrite <- (Z.add_0_r ds) at 1. rewrite <- (Z.add_0_r dn) at 1. rewrite <- rebase_rebase.
  apply ebytes_rebase_lb; [unfold rebased; cbv iota|]; lia.
Qed.

Lemma ebytes_irrel ops lb p q : gcol_off 0 p q -> ebytes ops lb p = ebytes ops lb q.
Proof. intro H. rewrite <- (rebase_id ops true). exact (ebytes_drift 0 0 0 0 ops lb q p H). Qed.

Lemma fno_map gc si ol oc nm r lb p base :
  first_name_off (OMap gc si ol oc nm :: r) lb p base =
  let pre := (if sepb lb then [COMMA] else []) ++ encodeVLQ (gc - gcol p) ++ fields p si ol oc None in
  match nm with
  | Some _ => Some (base + length pre)%nat
  | None => first_name_off r (last pre lb) (after p gc si ol oc None) (base + length pre)%nat
  end.
Proof.
  cbn [first_name_off].
  pose proof (append_map lb p gc si ol oc nm) as Ha. pose proof (next_state_after p gc si ol oc nm) as Hs.
  destruct (next_state p gc si ol oc nm) as [cur prev']. cbn [fst snd] in Ha, Hs.
  rewrite Ha, Hs. destruct nm; [rewrite Nat2Z.id|]; reflexivity.
Qed.

Lemma fno_norm : forall ops lb p base,
  first_name_off ops lb p base =
  option_map (fun k => (base + length (if sepb lb then commaof ops else []) + k)%nat) (first_name_off ops 0 p 0).
Proof.
  induction ops as [|[|gc si ol oc [n|]|gc] r IH]; intros lb p base.
  - reflexivity.
  - cbn [first_name_off]. fold (nl_state p). rewrite (IH SEMI _ (S base)), (IH SEMI _ 1%nat).
    change (sepb SEMI) with false.
    destruct (first_name_off r 0 (nl_state p) 0); cbn [option_map commaof]; [|reflexivity].
    f_equal. destruct (sepb lb); cbn [length]; lia.
  - rewrite !fno_map. cbn [option_map commaof]. f_equal. rewrite sepb_0, !app_length.
    destruct (sepb lb); cbn [length]; lia.
  - rewrite !fno_map. cbv zeta. rewrite (IH (last _ lb)), (IH (last _ 0)), !sepb_last_fields, sepb_0.
    destruct (first_name_off r 0 _ 0); cbn [option_map commaof]; [|reflexivity].
    f_equal. rewrite !app_length. destruct (sepb lb); cbn [length]; lia.
  - cbn [first_name_off]. rewrite !null_seg_eq, (IH (last _ lb)), (IH (last _ 0)), !sepb_last_enc, sepb_0.
    destruct (first_name_off r 0 _ 0); cbn [option_map commaof]; [|reflexivity].
    f_equal. rewrite !app_length. destruct (sepb lb); cbn [length]; lia.
Qed.

Lemma fno0_newline r p :
  first_name_off (ONewline :: r) 0 p 0 = option_map S (first_name_off r 0 (nl_state p) 0).
Proof.
  cbn [first_name_off]. fold (nl_state p). rewrite fno_norm. change (sepb SEMI) with false.
  destruct (first_name_off r 0 (nl_state p) 0); reflexivity.
Qed.

Lemma fno0_map_none gc si ol oc r p :
  first_name_off (OMap gc si ol oc None :: r) 0 p 0 =
  option_map (Nat.add (length (encodeVLQ (gc - gcol p) ++ fields p si ol oc None ++ commaof r)))
             (first_name_off r 0 (after p gc si ol oc None) 0).
Proof.
  rewrite fno_map. cbv zeta. rewrite fno_norm, sepb_0, sepb_last_fields.
  destruct (first_name_off r 0 _ 0); cbn [option_map]; [|reflexivity].
  f_equal. rewrite !app_length. cbn [length app]. lia.
Qed.

Lemma fno0_map_some gc si ol oc n r p :
  first_name_off (OMap gc si ol oc (Some n) :: r) 0 p 0 =
  Some (length (encodeVLQ (gc - gcol p) ++ fields p si ol oc None)).
Proof. rewrite fno_map. reflexivity. Qed.

Lemma fno0_null gc r p :
  first_name_off (ONull gc :: r) 0 p 0 =
  option_map (Nat.add (length (encodeVLQ (gc - gcol p) ++ commaof r))) (first_name_off r 0 (null_state p gc) 0).
Proof.
  cbn [first_name_off]. rewrite fno_norm, null_seg_eq, sepb_0, sepb_last_enc.
  destruct (first_name_off r 0 _ 0); cbn [option_map]; [|reflexivity].
  f_equal. rewrite !app_length. cbn [length app]. lia.
Qed.

(* what AppendSourceMapChunk does with FirstNameOffset: decode the VLQ at
   offset [off], add [d], encode it again *)
Definition rename_at (t : bytes) (off : option nat) (d : Z) : option bytes :=
  match off with
  | None => Some t
  | Some o =>
    match DecodeVLQ (skipn o t) with
    | Some (nm, rest) => Some (firstn o t ++ encodeVLQ (nm + d) ++ rest)
    | None => None
    end
  end.

Lemma skipn_app_length {A} (x t : list A) k : skipn (length x + k) (x ++ t) = skipn k t.
Proof. induction x as [|a x IH]; [reflexivity|exact IH]. Qed.

Lemma app_assoc3 {A} (a b c t : list A) : a ++ b ++ c ++ t = (a ++ b ++ c) ++ t.
Proof. rewrite <- !app_assoc. reflexivity. Qed.

Lemma rename_at_app x t o d :
  rename_at (x ++ t) (option_map (Nat.add (length x)) o) d = option_map (app x) (rename_at t o d).
Proof.
  destruct o as [k|]; [|reflexivity]. cbn [option_map rename_at].
  rewrite skipn_app_length, firstn_app_2.
  destruct (DecodeVLQ (skipn k t)) as [[nm rest]|]; [|reflexivity]. cbn [option_map]. rewrite <- app_assoc. reflexivity.
Qed.

Lemma rename_at_here x v post d :
  rename_at (x ++ encodeVLQ v ++ post) (Some (length x)) d = Some (x ++ encodeVLQ (v + d) ++ post).
Proof.
  rewrite <- (Nat.add_0_r (length x)) at 1.
  change (Some (length x + 0)%nat) with (option_map (Nat.add (length x)) (Some 0%nat)).
  rewrite rename_at_app. cbn [rename_at skipn firstn app]. rewrite vlq_roundtrip_all. reflexivity.
Qed.

Lemma rename_rebase dc ds dn : forall ops p P fl d,
  rebased dc ds P p fl -> d = dn - oname P + oname p ->
  rename_at (ebytes ops 0 p) (first_name_off ops 0 p 0) d = Some (ebytes (rebase dc ds dn fl ops) 0 P).
Proof.
  induction ops as [|[|gc si ol oc [n|]|gc] r IH]; intros p P fl d HR Hd; cbn [rebase].
  - reflexivity.
  - rewrite !ebytes_newline0, fno0_newline.
    change (SEMI :: ebytes r 0 (nl_state p)) with ([SEMI] ++ ebytes r 0 (nl_state p)).
    change S with (Nat.add (length [SEMI])).
    rewrite rename_at_app, (IH _ (nl_state P) false d (rebased_nl _ _ _ _ _ HR) Hd). reflexivity.
  - (* the first name: everything after it is moved uniformly *)
    rewrite !ebytes_map0, fno0_map_some, !fields_some, commaof_rebase, <- !app_assoc by apply sepb_0.
    rewrite (app_assoc (encodeVLQ (gc - gcol p))), rename_at_here, <- app_assoc.
    rewrite (gcol_rebase _ _ _ _ _ _ HR), (fields_rebase _ _ _ _ _ _ _ _ HR), Hd.
    replace (n - oname p + (dn - oname P + oname p)) with (n + dn - oname P) by lia.
    rewrite (ebytes_rebase dc ds dn r (after p gc si ol oc (Some n))); [reflexivity|apply rebased_after|reflexivity].
  - rewrite !ebytes_map0, fno0_map_none, commaof_rebase by apply sepb_0.
    rewrite (gcol_rebase _ _ _ _ _ _ HR), (fields_rebase _ _ _ _ _ _ _ _ HR).
    rewrite !app_assoc3.
    rewrite rename_at_app.
    rewrite (IH _ (after P (if fl then gc + dc else gc) (si + ds) ol oc None) fl d
                (rebased_after _ _ _ _ _ gc si ol oc None None) Hd).
    reflexivity.
  - rewrite !ebytes_null0, fno0_null, commaof_rebase, (gcol_rebase _ _ _ _ _ _ HR), !app_assoc by apply sepb_0.
    rewrite rename_at_app, (IH _ (null_state P (if fl then gc + dc else gc)) fl d (rebased_null _ _ _ _ _ _ HR) Hd).
    reflexivity.
Qed.

(* the joiner's last byte after [k] more semicolons *)
Definition lbk (k : nat) (lb : Z) : Z := match k with O => lb | S _ => SEMI end.

Fixpoint nl_iter (k : nat) (p : state) : state :=
  match k with O => p | S k' => nl_iter k' (nl_state p) end.

Lemma ebytes_newlines k X lb p :
  ebytes (repeat ONewline k ++ X) lb p = rep SEMI k ++ ebytes X (lbk k lb) (nl_iter k p).
Proof.
  revert lb p. induction k as [|k IH]; intros lb p; [reflexivity|].
  cbn [repeat app]. rewrite ebytes_newline, IH. cbn [rep repeat app nl_iter].
  unfold rep. f_equal. f_equal. destruct k; reflexivity.
Qed.

Lemma nl_iter_fields k p :
  sidx (nl_iter k p) = sidx p /\ oline (nl_iter k p) = oline p /\ ocol (nl_iter k p) = ocol p /\
  oname (nl_iter k p) = oname p /\ gcol (nl_iter k p) = match k with O => gcol p | S _ => 0 end.
Proof.
  revert p. induction k as [|k IH]; intro p; [repeat split|].
  cbn [nl_iter]. destruct (IH (nl_state p)) as (H1 & H2 & H3 & H4 & H5).
  rewrite H1, H2, H3, H4, H5. unfold nl_state. cbn. repeat split. destruct k; reflexivity.
Qed.

Lemma nl_iter_off k d q p :
  gcol_off d q p -> gcol_off (match k with O => d | S _ => 0 end) (nl_iter k q) (nl_iter k p).
Proof.
  intros (H1 & H2 & H3 & H4 & H5).
  destruct (nl_iter_fields k q) as (Q1 & Q2 & Q3 & Q4 & Q5).
  destruct (nl_iter_fields k p) as (P1 & P2 & P3 & P4 & P5).
  unfold gcol_off. rewrite Q1, Q2, Q3, Q4, Q5, P1, P2, P3, P4, P5.
  destruct k; repeat split; lia.
Qed.

Lemma fno0_newlines k X p :
  first_name_off (repeat ONewline k ++ X) 0 p 0 = option_map (Nat.add k) (first_name_off X 0 (nl_iter k p) 0).
Proof.
  revert p. induction k as [|k IH]; intro p; cbn [repeat app nl_iter].
  - destruct (first_name_off X 0 p 0); reflexivity.
  - rewrite fno0_newline, IH. destruct (first_name_off X 0 _ 0); reflexivity.
Qed.

Lemma rebase_newlines dc ds dn fl k X :
  rebase dc ds dn fl (repeat ONewline k ++ X) =
  repeat ONewline k ++ rebase dc ds dn (match k with O => fl | S _ => false end) X.
Proof.
  revert fl. induction k as [|k IH]; intro fl; [reflexivity|].
  cbn [repeat app rebase]. rewrite IH. destruct k; reflexivity.
Qed.

Lemma span_eq_rep k y : (match y with c :: _ => c <> SEMI | [] => True end) ->
  span_eq SEMI (rep SEMI k ++ y) = (k, y).
Proof.
  intro Hy. induction k as [|k IH].
  - cbn. destruct y as [|c y]; [reflexivity|]. cbn. destruct (Z.eqb_spec c SEMI); [contradiction|reflexivity].
  - cbn [rep repeat app span_eq]. fold (rep SEMI k). rewrite Z.eqb_refl, IH. reflexivity.
Qed.

Lemma encodeVLQ_head v : exists d t, 0 <= d < 64 /\ encodeVLQ v = b64_char d :: t.
Proof.
  unfold encodeVLQ. cbn [enc_loop].
  set (vlq := to_vlq v).
  assert (0 <= vlq mod 32 < 32) by (apply Z.mod_pos_bound; lia).
  destruct (vlq / 32 =? 0); eexists; eexists; (split; [|reflexivity]); lia.
Qed.

Lemma last_cons_d {A} (x : A) l d : last (x :: l) d = last l x.
Proof.
  revert x d. induction l as [|y l IH]; intros x d; [reflexivity|].
  change (last (x :: y :: l) d) with (last (y :: l) d). rewrite (IH y d), (IH y x). reflexivity.
Qed.

Lemma last_rep c k d : last (rep c (S k)) d = c.
Proof.
  induction k as [|k IH]; [reflexivity|].
  change (rep c (S (S k))) with (c :: rep c (S k)).
  change (rep c (S k)) with (c :: rep c k) at 1. cbn [last].
  change (c :: rep c k) with (rep c (S k)). exact IH.
Qed.

Lemma last_reps m k jl : last (rep SEMI m ++ rep SEMI k) jl = lbk k (lbk m jl).
Proof.
  destruct k as [|k].
  - rewrite app_nil_r. destruct m as [|m]; [reflexivity|]. apply last_rep.
  - cbn [lbk]. rewrite last_app_nonempty by discriminate. apply last_rep.
Qed.

Lemma sepb_lbk0 k : sepb (lbk k 0) = false.
Proof. destruct k; reflexivity. Qed.

Definition zero_gcol (p : state) : state :=
  mkState (gline p) 0 (sidx p) (oline p) (ocol p) (oname p) (has_name p).

(* prevEndState as seen by the rewritten first mapping *)
Definition prev_for (m k : nat) (prevEnd : state) : state :=
  match m, k with O, O => prevEnd | _, _ => zero_gcol prevEnd end.

Lemma prev_for_oname m k p : oname (prev_for m k p) = oname p.
Proof. destruct m, k; reflexivity. Qed.

Lemma head_not_sep v t : match encodeVLQ v ++ t with c :: _ => is_sep c = false /\ c <> SEMI | [] => False end.
Proof.
  destruct (encodeVLQ_head v) as (d & t' & Hd & ->). cbn [app].
  destruct (char_not_sep d Hd) as (C1 & C2 & _). unfold is_sep, COMMA, SEMI. split; lia.
Qed.

Lemma match_cons {A B} (l : list A) (a b : B) :
  l <> [] -> match l with [] => a | _ :: _ => b end = b.
Proof. destruct l; [congruence|reflexivity]. Qed.

Lemma omit_enc v t : match encodeVLQ v ++ t with [] => true | c :: _ => is_sep c end = false.
Proof. pose proof (head_not_sep v t) as H. destruct (encodeVLQ v ++ t); [contradiction|apply H]. Qed.

(* [X ++ TAIL] is the chunk: [X] the leading semicolons and the four position
   fields of the first mapping, which are rewritten relative to the previous
   chunk's end state; in [TAIL] only the first name is re-based. *)
Lemma append_eval k gc si ol oc TAIL o jl prevEnd start :
  has_name start = false -> 0 <= gline start ->
  let m := Z.to_nat (gline start) in
  let X := rep SEMI k ++ encodeVLQ gc ++ encodeVLQ si ++ encodeVLQ ol ++ encodeVLQ oc in
  let lb := lbk k (lbk m jl) in
  let PE := prev_for m k prevEnd in
  let rewritten := (if sepb lb then [COMMA] else [])
                   ++ encodeVLQ ((match k with O => gcol start | S _ => 0 end) + gc - gcol PE)
                   ++ fields PE (sidx start + si) (oline start + ol) (ocol start + oc) None in
  AppendSourceMapChunk jl prevEnd start (mkChunk (X ++ TAIL) (option_map (fun j => Z.of_nat (length X + j)) o)) =
  option_map (fun t => rep SEMI m ++ rep SEMI k ++ rewritten ++ t)
             (rename_at TAIL o (oname start - oname prevEnd)).
Proof.
  intros Hhn Hgl m X lb PE rewritten.
  unfold AppendSourceMapChunk. cbn [c_data c_first_name].
  (* the byte index after the stripped fields *)
  assert (Hi : (length (X ++ TAIL) - length TAIL)%nat = length X) by (rewrite app_length; lia).
  assert (Hspan : span_eq SEMI (X ++ TAIL) =
                  (k, encodeVLQ gc ++ encodeVLQ si ++ encodeVLQ ol ++ encodeVLQ oc ++ TAIL)).
  { subst X. rewrite <- !app_assoc. apply span_eq_rep.
    set (T := encodeVLQ si ++ encodeVLQ ol ++ encodeVLQ oc ++ TAIL).
    pose proof (head_not_sep gc T) as H. destruct (encodeVLQ gc ++ T); [exact I|apply H]. }
  rewrite Hspan, match_cons.
  2:{ pose proof (encodeVLQ_nonempty gc). destruct (encodeVLQ gc); [congruence|discriminate]. }
  rewrite vlq_roundtrip_all, omit_enc.
  rewrite !vlq_roundtrip_all, Hi.
  (* out1 / out2 and the states *)
  assert (Hout1 : (if gline start =? 0 then [] else rep SEMI (Z.to_nat (gline start))) = rep SEMI m).
  { subst m. destruct (Z.eqb_spec (gline start) 0) as [->|]; reflexivity. }
  rewrite Hout1, last_reps. fold lb.
  set (prevEnd1 := if gline start =? 0 then prevEnd else _).
  set (prevEnd2 := if Nat.eqb k 0 then prevEnd1 else _).
  set (start2 := if Nat.eqb k 0 then start else _).
  assert (HPE : prevEnd2 = PE).
  { subst prevEnd2 prevEnd1 PE m. unfold prev_for.
    destruct (Z.eqb_spec (gline start) 0) as [->|E].
    - destruct k; reflexivity.
    - destruct (Z.to_nat (gline start)) eqn:Em; [lia|]. destruct k; reflexivity. }
  assert (Hst : start2 = mkState (gline start) (match k with O => gcol start | S _ => 0 end)
                                 (sidx start) (oline start) (ocol start) (oname start) false).
  { subst start2. rewrite <- Hhn. destruct k; [destruct start|]; reflexivity. }
  rewrite HPE, Hst. cbn [gline gcol sidx oline ocol oname has_name].
  assert (Hrew : fst (appendMapping lb
                   (mkState (gline PE) (gcol PE) (sidx PE) (oline PE) (ocol PE) (oname PE) false)
                   (mkState (gline start) ((match k with O => gcol start | S _ => 0 end) + gc) (sidx start + si)
                            (oline start + ol) (ocol start + oc) (oname start) false)
                   false) = rewritten).
  { unfold appendMapping. cbn [has_name fst gcol sidx oline ocol].
    subst rewritten. unfold fields, sepb. rewrite app_nil_r, <- !app_assoc. reflexivity. }
  rewrite Hrew, (prev_for_oname m k prevEnd : oname PE = oname prevEnd).
  destruct o as [j|]; cbn [option_map rename_at]; [|reflexivity].
  rewrite Nat2Z.id, skipn_app_length, Nat.add_comm, Nat.add_sub.
  rewrite <- (Nat.add_0_r (length X)), skipn_app_length. cbn [skipn].
  destruct (DecodeVLQ (skipn j TAIL)) as [[nm afterl]|]; reflexivity.
Qed.

Lemma nl_iter_state0 k :
  gcol (nl_iter k state0) = 0 /\ sidx (nl_iter k state0) = 0 /\ oline (nl_iter k state0) = 0 /\
  ocol (nl_iter k state0) = 0 /\ oname (nl_iter k state0) = 0.
Proof.
  destruct (nl_iter_fields k state0) as (H1 & H2 & H3 & H4 & H5).
  rewrite H1, H2, H3, H4, H5. destruct k; repeat split.
Qed.

Lemma prev_for_off m k p : gcol_off 0 (prev_for m k p) (nl_iter k (nl_iter m p)).
Proof.
  destruct (nl_iter_fields m p) as (A1 & A2 & A3 & A4 & A5).
  destruct (nl_iter_fields k (nl_iter m p)) as (B1 & B2 & B3 & B4 & B5).
  unfold gcol_off. rewrite B1, B2, B3, B4, B5, A1, A2, A3, A4, A5.
  destruct m, k; cbn; repeat split; lia.
Qed.

(* A builder chunk with a mapping: leading semicolons, the four position
   fields of the first mapping, then [chunk_tail]: the first mapping's name,
   if any, and the remaining events.  [chunk_tail_fno]: the offset of the first
   name inside the tail. *)
Definition chunk_tail (nm : option Z) (rest : list op) (pA : state) : bytes :=
  match nm with Some n => encodeVLQ n | None => [] end ++ commaof rest ++ ebytes rest 0 pA.

Definition chunk_tail_fno (nm : option Z) (rest : list op) (pA : state) : option nat :=
  match nm with
  | Some _ => Some 0%nat
  | None => option_map (Nat.add (length (commaof rest))) (first_name_off rest 0 pA 0)
  end.

Lemma chunk_shape k gc si ol oc nm rest :
  let ops := repeat ONewline k ++ OMap gc si ol oc nm :: rest in
  let pA := after (nl_iter k state0) gc si ol oc nm in
  let X := rep SEMI k ++ encodeVLQ gc ++ encodeVLQ si ++ encodeVLQ ol ++ encodeVLQ oc in
  ebytes ops 0 state0 = X ++ chunk_tail nm rest pA /\
  option_map Z.of_nat (first_name_off ops 0 state0 0) =
    option_map (fun j => Z.of_nat (length X + j)) (chunk_tail_fno nm rest pA).
Proof.
  intros ops pA X.
  destruct (nl_iter_state0 k) as (Z1 & Z2 & Z3 & Z4 & Z5).
  set (p0 := nl_iter k state0) in *.
  assert (Hf : encodeVLQ (gc - gcol p0) ++ fields p0 si ol oc None =
               encodeVLQ gc ++ encodeVLQ si ++ encodeVLQ ol ++ encodeVLQ oc).
  { unfold fields. rewrite Z1, Z2, Z3, Z4, !Z.sub_0_r, app_nil_r. reflexivity. }
  subst ops X. unfold chunk_tail, chunk_tail_fno. split.
  - rewrite ebytes_newlines, ebytes_map0 by apply sepb_lbk0. fold p0 pA.
    destruct nm as [n|]; [rewrite fields_some, Z5, Z.sub_0_r|]; rewrite <- Hf, <- !app_assoc; reflexivity.
  - rewrite fno0_newlines. fold p0.
    rewrite <- Hf, (app_length (rep SEMI k)). unfold rep. rewrite repeat_length.
    destruct nm as [n|].
    + rewrite fno0_map_some. cbn [option_map]. rewrite Nat.add_0_r. reflexivity.
    + rewrite fno0_map_none. fold pA. destruct (first_name_off rest 0 pA 0); cbn [option_map]; [|reflexivity].
      rewrite !app_length. do 2 f_equal. lia.
Qed.

(* AppendSourceMapChunk on a builder-produced chunk = the builder's own output
   for the rebased events, continuing after the previous chunk. *)
Theorem join_bytes_all : forall k gc si ol oc nm rest jl prevEnd start,
  has_name start = false -> oline start = 0 -> ocol start = 0 -> 0 <= gline start ->
  let ops := repeat ONewline k ++ OMap gc si ol oc nm :: rest in
  AppendSourceMapChunk jl prevEnd start
     (mkChunk (ebytes ops 0 state0) (option_map Z.of_nat (first_name_off ops 0 state0 0)))
  = Some (ebytes (repeat ONewline (Z.to_nat (gline start))
                  ++ rebase (gcol start) (sidx start) (oname start) true ops) jl prevEnd).
Proof.
  intros k gc si ol oc nm rest jl prevEnd start Hhn Hol Hoc Hgl ops.
  set (m := Z.to_nat (gline start)).
  set (P := nl_iter k (nl_iter m prevEnd)).
  set (fl0 := match k with O => true | S _ => false end).
  destruct (chunk_shape k gc si ol oc nm rest) as (Hdata & Hfno). fold ops in Hdata, Hfno.
  set (pA := after (nl_iter k state0) gc si ol oc nm) in *.
  set (TAIL := chunk_tail nm rest pA) in *.
  set (o := chunk_tail_fno nm rest pA) in *.
  rewrite Hdata, Hfno, (append_eval k gc si ol oc TAIL o jl prevEnd start Hhn Hgl). fold m. cbv zeta.
  set (gc' := if fl0 then gc + gcol start else gc).
  set (nm' := match nm with Some n => Some (n + oname start) | None => None end).
  set (PA := after P gc' (si + sidx start) ol oc nm').
  subst ops. rewrite ebytes_newlines, rebase_newlines, ebytes_newlines. fold P fl0. cbn [rebase]. fold gc' nm'.
  destruct (ebytes_map_gen gc' (si + sidx start) ol oc nm' (rebase (gcol start) (sidx start) (oname start) fl0 rest)
              (lbk k (lbk m jl)) P) as (l1 & H1 & ->).
  rewrite (ebytes_sep _ l1) by exact H1. rewrite commaof_rebase. fold PA.
  destruct (prev_for_off m k prevEnd) as (Q1 & Q2 & Q3 & Q4 & Q5). fold P in Q1, Q2, Q3, Q4, Q5.
  rewrite (prev_for_oname m k prevEnd) in Q5.
  (* the rewritten position fields are those of the rebased first mapping *)
  assert (Hrew : encodeVLQ ((match k with O => gcol start | S _ => 0 end) + gc - gcol (prev_for m k prevEnd))
                 ++ fields (prev_for m k prevEnd) (sidx start + si) (oline start + ol) (ocol start + oc) None
                 = encodeVLQ (gc' - gcol P) ++ fields P (si + sidx start) ol oc None).
  { unfold fields. rewrite Q1, Q2, Q3, Q4, Hol, Hoc, !Z.add_0_l, Z.add_0_r.
    replace ((match k with O => gcol start | S _ => 0 end) + gc) with gc' by (subst gc' fl0; destruct k; lia).
    replace (sidx start + si) with (si + sidx start) by lia. reflexivity. }
  assert (HR : rebased (gcol start) (sidx start) PA pA fl0) by apply rebased_after.
  assert (Htail : rename_at TAIL o (oname start - oname prevEnd) =
                  Some (match nm' with Some n' => encodeVLQ (n' - oname P) | None => [] end ++ commaof rest
                        ++ ebytes (rebase (gcol start) (sidx start) (oname start) fl0 rest) 0 PA)).
  { destruct (nl_iter_state0 k) as (_ & _ & _ & _ & Z5).
    subst TAIL o nm' PA pA. unfold chunk_tail, chunk_tail_fno. destruct nm as [n|].
    - etransitivity; [exact (rename_at_here [] n _ _)|]. cbn [app].
      rewrite (ebytes_rebase _ _ _ _ _ _ _ HR) by reflexivity.
      rewrite <- Q5. do 3 f_equal. lia.
    - cbn [app]. rewrite rename_at_app, (rename_rebase _ _ (oname start) _ _ _ _ _ HR); [reflexivity|].
      cbn [after oname]. rewrite <- Q5, Z5. lia. }
  rewrite Htail. cbn [option_map]. do 3 f_equal.
  rewrite <- !app_assoc, (app_assoc (encodeVLQ _) (fields (prev_for m k prevEnd) _ _ _ _)), Hrew.
  subst nm'. destruct nm; [rewrite fields_some|]; rewrite <- !app_assoc; reflexivity.
Qed.

Lemma emit_app : forall a b lb p,
  emit (a ++ b) lb p =
  let '(ba, lba, sa) := emit a lb p in
  let '(bb, lbb, sb) := emit b lba sa in (ba ++ bb, lbb, sb).
Proof.
  induction a as [|o a IH]; intros b lb p.
  - cbn [app emit]. destruct (emit b lb p) as [[bb lbb] sb]. reflexivity.
  - destruct o as [|gc si ol oc nm|gc]; cbn [app emit].
    + rewrite IH. destruct (emit a SEMI _) as [[ba lba] sa]. destruct (emit b lba sa) as [[bb lbb] sb]. reflexivity.
    + destruct (next_state p gc si ol oc nm) as [cur prev'].
      rewrite IH. destruct (emit a _ prev') as [[ba lba] sa]. destruct (emit b lba sa) as [[bb lbb] sb].
      rewrite app_assoc. reflexivity.
    + rewrite IH. destruct (emit a _ (null_state p gc)) as [[ba lba] sa]. destruct (emit b lba sa) as [[bb lbb] sb].
      rewrite app_assoc. reflexivity.
Qed.

(* join_decodes: whatever the builder has emitted so far (events ops0, ending in
   last byte jl and state prevEnd), appending a builder-produced chunk with
   AppendSourceMapChunk yields a mappings string that denotes, under the v3
   semantics, the previous mappings followed by the chunk's mappings moved to
   (start line, start column on its first line, source index base, name base). *)
Theorem join_decodes_all : forall ops0 k gc si ol oc nm rest start,
  has_name start = false -> oline start = 0 -> ocol start = 0 -> 0 <= gline start ->
  let ops := repeat ONewline k ++ OMap gc si ol oc nm :: rest in
  let '(b0, jl, prevEnd) := emit ops0 0 state0 in
  exists appended,
    AppendSourceMapChunk jl prevEnd start
      (mkChunk (emit_bytes ops) (option_map Z.of_nat (first_name_off ops 0 state0 0))) = Some appended /\
    spec_decode (b0 ++ appended) =
      Some (abs_of (ops0 ++ repeat ONewline (Z.to_nat (gline start))
                    ++ rebase (gcol start) (sidx start) (oname start) true ops) 0).
Proof.
  intros ops0 k gc si ol oc nm rest start Hhn Hol Hoc Hgl ops.
  destruct (emit ops0 0 state0) as [[b0 jl] prevEnd] eqn:E0.
  eexists. split.
  - apply (join_bytes_all k gc si ol oc nm rest jl prevEnd start Hhn Hol Hoc Hgl).
  - rewrite <- mappings_roundtrip_all. f_equal. unfold emit_bytes.
    rewrite emit_app, E0. unfold ebytes.
    destruct (emit _ jl prevEnd) as [[bb lbb] sb]. reflexivity.
Qed.
