(* One compiled file in the joining loop of generateSourceMapForChunk: the
   step of the loop on a builder-produced chunk writes, byte for byte, what a
   single builder would have written for the file's events moved to the file's
   place (on top of join_bytes: one AppendSourceMapChunk); the sources table of
   the first loop; the declarative reading of the joined events.  The loop over
   a whole list is in JoinNullProofs.v. *)
From V Require Import Common.Base C07.Vlq C07.SpecMap C07.Mappings C07.VlqProofs C07.MappingsProofs
  C07.JoinProofs C07.Shift C07.LineCol C07.JoinAll.

Lemma last_app_gen {A} (a b : list A) d : last (a ++ b) d = last b (last a d).
Proof.
  revert d. induction a as [|x a IH]; intro d; [reflexivity|].
  cbn [app]. rewrite last_cons_d, IH, last_cons_d. reflexivity.
Qed.

(* prevState after the events (independent of the last byte) *)
Fixpoint st_after (ops : list op) (p : state) : state :=
  match ops with
  | [] => p
  | ONewline :: r => st_after r (nl_state p)
  | OMap gc si ol oc nm :: r => st_after r (after p gc si ol oc nm)
  | ONull gc :: r => st_after r (null_state p gc)
  end.

Lemma emit_eq : forall ops lb p,
  emit ops lb p = (ebytes ops lb p, last (ebytes ops lb p) lb, st_after ops p).
Proof.
  induction ops as [|[|gc si ol oc nm|gc] r IH]; intros lb p.
  - reflexivity.
  - rewrite ebytes_newline. cbn [emit st_after]. fold (nl_state p).
    rewrite IH, last_cons_d. reflexivity.
  - rewrite ebytes_map. cbv zeta. cbn [emit st_after].
    pose proof (append_map lb p gc si ol oc nm) as Ha.
    pose proof (next_state_after p gc si ol oc nm) as Hs.
    destruct (next_state p gc si ol oc nm) as [cur prev']. cbn [fst snd] in Ha, Hs.
    rewrite Ha, Hs. cbn [fst]. set (seg := _ ++ _ ++ fields p si ol oc nm).
    rewrite IH, last_app_gen. reflexivity.
  - rewrite ebytes_null. cbn [emit st_after]. set (seg := null_seg lb p gc).
    rewrite IH, last_app_gen. reflexivity.
Qed.

Lemma emit_state ops lb p : snd (emit ops lb p) = st_after ops p.
Proof. rewrite emit_eq. reflexivity. Qed.

Lemma ebytes_app a b lb p :
  ebytes (a ++ b) lb p = ebytes a lb p ++ ebytes b (last (ebytes a lb p) lb) (st_after a p).
Proof. unfold ebytes at 1. rewrite emit_app, !emit_eq. reflexivity. Qed.

Lemma st_after_app a b p : st_after (a ++ b) p = st_after b (st_after a p).
Proof.
  revert p. induction a as [|o a IH]; intro p; [reflexivity|].
  destruct o; cbn [app st_after]; apply IH.
Qed.

Fixpoint nlines (ops : list op) : Z :=
  match ops with
  | [] => 0
  | ONewline :: r => 1 + nlines r
  | OMap _ _ _ _ _ :: r => nlines r
  | ONull _ :: r => nlines r
  end.

Lemma nlines_nonneg ops : 0 <= nlines ops.
Proof. induction ops as [|[| |] r IH]; cbn [nlines]; lia. Qed.

Lemma nlines_app a b : nlines (a ++ b) = nlines a + nlines b.
Proof. induction a as [|[| |] a IH]; cbn [app nlines]; lia. Qed.

Lemma nlines_repeat k : nlines (repeat ONewline k) = Z.of_nat k.
Proof. induction k as [|k IH]; cbn [repeat nlines]; lia. Qed.

Lemma st_after_gline ops p : gline (st_after ops p) = gline p + nlines ops.
Proof.
  revert p. induction ops as [|[|gc si ol oc nm|gc] r IH]; intro p; cbn [st_after nlines].
  - lia.
  - rewrite IH. unfold nl_state. cbn [gline]. lia.
  - rewrite IH. unfold after. cbn [gline]. lia.
  - rewrite IH. unfold null_state. cbn [gline]. lia.
Qed.

(* the name index of the last named mapping *)
Fixpoint last_name (ops : list op) : option Z :=
  match ops with
  | [] => None
  | OMap _ _ _ _ (Some n) :: r => match last_name r with Some m => Some m | None => Some n end
  | _ :: r => last_name r
  end.

Lemma st_after_oname : forall ops p,
  oname (st_after ops p) = match last_name ops with Some n => n | None => oname p end.
Proof.
  induction ops as [|[|gc si ol oc [n|]|gc] r IH]; intro p; cbn [st_after last_name];
    rewrite ?IH; try reflexivity.
  destruct (last_name r); reflexivity.
Qed.

Lemma last_name_rebase dc ds dn : forall ops fl,
  last_name (rebase dc ds dn fl ops) = option_map (fun n => n + dn) (last_name ops).
Proof.
  induction ops as [|[|gc si ol oc [n|]|gc] r IH]; intro fl; cbn [rebase last_name];
    rewrite ?IH; try reflexivity.
  destruct (last_name r); reflexivity.
Qed.

Lemma first_name_off_named : forall ops lb p base,
  first_name_off ops lb p base = None <-> last_name ops = None.
Proof.
  induction ops as [|[|gc si ol oc [n|]|gc] r IH]; intros lb p base;
    rewrite ?fno_map; cbn [first_name_off last_name].
  - tauto.
  - apply IH.
  - destruct (last_name r); split; discriminate.
  - apply IH.
  - apply IH.
Qed.

(* the first event that is not a line break is a mapping with an original position *)
Fixpoint has_map (ops : list op) : bool :=
  match ops with
  | [] => false
  | ONewline :: r => has_map r
  | OMap _ _ _ _ _ :: _ => true
  | ONull _ :: _ => false       (* the first mapping of a builder chunk has an original position *)
  end.

Lemma has_map_newlines k X : has_map (repeat ONewline k ++ X) = has_map X.
Proof. induction k as [|k IH]; [reflexivity|]. cbn [repeat app has_map]. exact IH. Qed.

(* The end states are related like the start states; and whatever the start
   states, they are related once a mapping with an original position has set
   every field. *)
Lemma st_after_rebase dc ds dn : forall ops p0 P fl,
  rebased dc ds P p0 fl \/ has_map ops = true ->
  rebased dc ds (st_after (rebase dc ds dn fl ops) P) (st_after ops p0) (fl && (nlines ops =? 0)).
Proof.
  induction ops as [|[|gc si ol oc nm|gc] r IH]; intros p0 P fl HR; cbn [rebase st_after nlines has_map] in *.
  - destruct HR as [HR|HR]; [|discriminate]. rewrite andb_true_r. exact HR.
  - pose proof (nlines_nonneg r).
    replace (fl && (1 + nlines r =? 0)) with (false && (nlines r =? 0)) by (destruct fl; cbn [andb]; lia).
    apply IH. destruct HR as [HR|HR]; [left; eapply rebased_nl, HR|right; exact HR].
  - apply IH. left. apply rebased_after.
  - destruct HR as [HR|HR]; [|discriminate]. apply IH. left. apply rebased_null, HR.
Qed.

(* what the linker knows about one compiled file: its events, the number of its
   names, its final generated column, its offset and its source index *)
Record jfile := mkJfile { f_ops : list op; f_nn : Z; f_fcol : Z; f_off : Z * Z; f_src : Z }.

Definition res_of (f : jfile) : jres :=
  mkJres (emit_bytes (f_ops f)) (option_map Z.of_nat (first_name_off (f_ops f) 0 state0 0)) (f_nn f)
         (snd (emit (f_ops f) 0 state0)) (f_fcol f) false (f_off f) (f_src f) false.

(* the chunk has a mapping (it is not ShouldIgnore) and the offset is a position *)
Definition file_ok (f : jfile) : Prop :=
  (exists k gc si ol oc nm rest, f_ops f = repeat ONewline k ++ OMap gc si ol oc nm :: rest) /\
  0 <= fst (f_off f).

Definition src_of (tbl : list (Z * Z)) (f : jfile) : Z :=
  match tbl_find (f_src f) tbl with Some i => i | None => 0 end.

Definition start_col (f : jfile) (pco : Z) : Z :=
  snd (f_off f) + (if fst (f_off f) =? 0 then pco else 0).

(* all events of the joined map *)
Fixpoint joined_ops (tbl : list (Z * Z)) (fs : list jfile) (pco total : Z) : list op :=
  match fs with
  | [] => []
  | f :: r =>
    let sc := start_col f pco in
    repeat ONewline (Z.to_nat (fst (f_off f)))
      ++ rebase sc (src_of tbl f) total true (f_ops f)
      ++ joined_ops tbl r (f_fcol f + (if nlines (f_ops f) =? 0 then sc else 0)) (total + f_nn f)
  end.

Lemma st_after_newlines k p :
  st_after (repeat ONewline k) p = nl_iter k p.
Proof. revert p. induction k as [|k IH]; intro p; [reflexivity|]. cbn [repeat st_after nl_iter]. apply IH. Qed.

Lemma file_end_state P ops L sc srcs total :
  has_map ops = true ->
  let e := st_after ops state0 in
  gcol_off 0
     (mkState (gline e) (gcol e + (if gline e =? 0 then sc else 0)) (sidx e + srcs) (oline e) (ocol e)
              (match first_name_off ops 0 state0 0 with
               | Some _ => oname e + total | None => oname P end) (has_name e))
     (st_after (repeat ONewline L ++ rebase sc srcs total true ops) P).
Proof.
  intros Hmap e.
  assert (Hgl : gline e = nlines ops) by (subst e; rewrite st_after_gline; reflexivity).
  rewrite st_after_app, st_after_newlines, Hgl.
  destruct (st_after_rebase sc srcs total ops state0 (nl_iter L P) true (or_intror Hmap)) as (B1 & B2 & B3 & B4).
  fold e in B1, B2, B3, B4. cbn [andb] in B1.
  unfold gcol_off. cbn [gcol sidx oline ocol oname].
  repeat (split; [lia|]).
  rewrite st_after_oname, last_name_rebase. subst e. rewrite st_after_oname.
  pose proof (first_name_off_named ops 0 state0 0) as Hnamed.
  destruct (nl_iter_fields L P) as (_ & _ & _ & D4 & _).
  destruct (last_name ops) as [n|]; destruct (first_name_off ops 0 state0 0); cbn [option_map].
  - reflexivity.
  - destruct Hnamed as [Hn _]. discriminate (Hn eq_refl).
  - destruct Hnamed as [_ Hn]. discriminate (Hn eq_refl).
  - exact (eq_sym D4).
Qed.

(* "If this was all one line, include the column offset from the start" *)
Lemma join_finish_eq out pe pco total start :
  let c := if gline pe =? 0 then gcol start else 0 in
  join_finish out pe pco total start =
  mkJst out (mkState (gline pe) (gcol pe + c) (sidx pe) (oline pe) (ocol pe) (oname pe) (has_name pe))
        (pco + c) total.
Proof.
  unfold join_finish. destruct (gline pe =? 0); [reflexivity|].
  cbv zeta. rewrite !Z.add_0_r. destruct pe; reflexivity.
Qed.

Section Loop.
Variable jl0 : Z.
Variable tbl : list (Z * Z).

(* The invariant of the loop.  [js_prev s] is the linker's prevEndState, the
   second state that of a builder that had emitted all events so far itself.
   After a null entry on a line the linker's prevEndState column and
   prevColumnOffset are both too large by the same amount [d]; the deltas it
   writes are nevertheless the right ones.  [T]: the column where the previous
   file's text ended. *)
Lemma join_file_drift s f pre T d :
  file_ok f -> tbl_find (f_src f) tbl <> None ->
  js_out s = ebytes pre jl0 state0 -> gcol_off d (js_prev s) (st_after pre state0) -> js_pco s = T + d ->
  let X := repeat ONewline (Z.to_nat (fst (f_off f)))
             ++ rebase (start_col f T) (src_of tbl f) (js_total s) true (f_ops f) in
  exists s' d', join_one jl0 tbl s (res_of f) = Some s' /\
    js_out s' = ebytes (pre ++ X) jl0 state0 /\
    gcol_off d' (js_prev s') (st_after (pre ++ X) state0) /\
    js_pco s' = f_fcol f + (if nlines (f_ops f) =? 0 then start_col f T else 0) + d' /\
    js_total s' = js_total s + f_nn f.
Proof.
  intros ((k & gc & si & ol & oc & nm & rest & Hops) & Hoff) Htbl Hout Hag Hpco X.
  unfold join_one. cbn [res_of j_src j_null j_ignore j_off j_data j_fno j_end j_fcol j_nnames].
  unfold src_of in X. destruct (tbl_find (f_src f) tbl) as [srcs|] eqn:Et; [|congruence].
  set (start := mkState (fst (f_off f)) (snd (f_off f) + (if fst (f_off f) =? 0 then js_pco s else 0))
                        srcs 0 0 (js_total s) false).
  set (jl := last (js_out s) jl0).
  pose proof (join_bytes_all k gc si ol oc nm rest jl (js_prev s) start eq_refl eq_refl eq_refl Hoff) as HJ.
  cbv zeta in HJ. rewrite <- Hops in HJ.
  change (ebytes (f_ops f) 0 state0) with (emit_bytes (f_ops f)) in HJ.
  rewrite HJ. clear HJ.
  cbn [gline gcol sidx oname start] in *.
  set (dd := if fst (f_off f) =? 0 then d else 0).
  set (sc := start_col f T) in *.
  assert (Hsc : snd (f_off f) + (if fst (f_off f) =? 0 then js_pco s else 0) = sc + dd).
  { subst sc dd. unfold start_col. rewrite Hpco. destruct (fst (f_off f) =? 0); lia. }
  rewrite Hsc.
  set (P := st_after pre state0) in *.
  set (L := Z.to_nat (fst (f_off f))) in *.
  set (ops := f_ops f) in *.
  pose proof Hag as (A1 & A2 & A3 & A4 & A5).
  (* the bytes: the drift is absorbed on the file's first line *)
  assert (HX : ebytes (repeat ONewline L ++ rebase (sc + dd) srcs (js_total s) true ops) jl (js_prev s) = ebytes X jl P).
  { subst X. destruct (Z.eqb_spec (fst (f_off f)) 0) as [E0|E0].
    - assert (HL : L = 0%nat) by (subst L; rewrite E0; reflexivity). rewrite HL. cbn [repeat app].
      subst dd. apply ebytes_drift, Hag.
    - subst dd. rewrite Z.add_0_r, !ebytes_newlines. f_equal.
      apply ebytes_irrel. destruct L as [|L'] eqn:EL; [subst L; lia|].
      exact (nl_iter_off (S L') d _ _ Hag). }
  rewrite HX, emit_state, st_after_app, join_finish_eq. fold P.
  assert (Hmap : has_map ops = true) by (rewrite Hops, has_map_newlines; reflexivity).
  pose proof (file_end_state P ops L sc srcs (js_total s) Hmap) as Hstate.
  cbv zeta in Hstate |- *. fold X in Hstate.
  rewrite (Hsc : gcol start = sc + dd).
  set (e := st_after ops state0) in *.
  assert (Hgl : gline e = nlines ops) by (subst e; rewrite st_after_gline; reflexivity).
  destruct Hstate as (S1 & S2 & S3 & S4 & S5).
  cbn [gline gcol sidx oline ocol oname] in S1, S2, S3, S4, S5 |- *.
  rewrite Hgl in *.
  eexists. exists (if nlines ops =? 0 then dd else 0).
  split; [reflexivity|].
  cbn [js_out js_prev js_pco js_total].
  split; [rewrite ebytes_app, <- Hout; reflexivity|].
  split; [|split; [destruct (nlines ops =? 0); lia|reflexivity]].
  unfold gcol_off. cbn [gcol sidx oline ocol oname].
  split; [destruct (nlines ops =? 0); lia|].
  repeat (split; [assumption|]).
  destruct (first_name_off ops 0 state0 0); cbn [option_map]; lia.
Qed.

End Loop.

Lemma tbl_find_app k t a b :
  tbl_find k (t ++ [(a, b)]) =
  match tbl_find k t with Some x => Some x | None => if a =? k then Some b else None end.
Proof.
  induction t as [|[a' b'] t IH]; cbn [app tbl_find]; [reflexivity|].
  destruct (a' =? k); [reflexivity|exact IH].
Qed.

Lemma assign_keeps : forall rs tbl next k x,
  tbl_find k tbl = Some x -> tbl_find k (assign_sources rs tbl next) = Some x.
Proof.
  induction rs as [|r rs IH]; intros tbl next k x H; [exact H|].
  cbn [assign_sources]. destruct (j_null r); [apply IH, H|].
  destruct (tbl_find (j_src r) tbl); [apply IH, H|].
  apply IH. rewrite tbl_find_app, H. reflexivity.
Qed.

(* every non-null result has a "sources" entry *)
Lemma assign_complete : forall rs tbl next r,
  In r rs -> j_null r = false -> tbl_find (j_src r) (assign_sources rs tbl next) <> None.
Proof.
  induction rs as [|r0 rs IH]; intros tbl next r Hin Hn; [destruct Hin|].
  cbn [assign_sources]. destruct Hin as [<- | Hin].
  - rewrite Hn. destruct (tbl_find (j_src r0) tbl) as [x|] eqn:E.
    + rewrite (assign_keeps _ _ _ _ _ E). discriminate.
    + erewrite assign_keeps; [discriminate|]. rewrite tbl_find_app, E, Z.eqb_refl. reflexivity.
  - destruct (j_null r0); [apply IH; assumption|].
    destruct (tbl_find (j_src r0) tbl); apply IH; assumption.
Qed.

(* the table numbers the distinct source indices 0, 1, 2, ... in order of first
   appearance (what the "sources" array lists) *)
Fixpoint zseq (a : Z) (n : nat) : list Z := match n with O => [] | S n' => a :: zseq (a + 1) n' end.

Lemma zseq_snoc a n : zseq a (S n) = zseq a n ++ [a + Z.of_nat n].
Proof.
  revert a. induction n as [|n IH]; intro a.
  - cbn. rewrite Z.add_0_r. reflexivity.
  - change (zseq a (S (S n))) with (a :: zseq (a + 1) (S n)). rewrite IH. cbn [zseq app].
    replace (a + Z.of_nat (S n)) with (a + 1 + Z.of_nat n) by lia. reflexivity.
Qed.

Lemma tbl_find_none_notin k t : tbl_find k t = None -> ~ In k (map fst t).
Proof.
  induction t as [|[a b] t IH]; cbn [tbl_find map In fst]; [tauto|].
  destruct (Z.eqb_spec a k); [discriminate|]. intros H [E|E]; [congruence|]. exact (IH H E).
Qed.

Lemma NoDup_app_one {A} (l : list A) a : NoDup l -> ~ In a l -> NoDup (l ++ [a]).
Proof.
  induction l as [|x l IH]; intros Hd Hn; cbn [app].
  - constructor; [intros []|constructor].
  - apply NoDup_cons_iff in Hd as [H1 H2]. apply NoDup_cons_iff. split.
    + intro Hin. apply in_app_iff in Hin as [Hin|[<-|[]]]; [exact (H1 Hin)|]. apply Hn. left. reflexivity.
    + apply IH; [exact H2|]. intro Hin. apply Hn. right. exact Hin.
Qed.

Lemma assign_numbering : forall rs tbl next,
  next = Z.of_nat (length tbl) -> map snd tbl = zseq 0 (length tbl) -> NoDup (map fst tbl) ->
  let t := assign_sources rs tbl next in
  map snd t = zseq 0 (length t) /\ NoDup (map fst t).
Proof.
  induction rs as [|r rs IH]; intros tbl next Hn Hs Hd; [split; assumption|].
  cbn [assign_sources]. destruct (j_null r); [apply IH; assumption|].
  destruct (tbl_find (j_src r) tbl) eqn:E; [apply IH; assumption|].
  apply IH.
  - rewrite app_length. cbn [length]. lia.
  - rewrite map_app, app_length, Hs. cbn [map snd length].
    replace (length tbl + 1)%nat with (S (length tbl)) by lia. rewrite zseq_snoc. subst next. reflexivity.
  - rewrite map_app. cbn [map fst].
    apply NoDup_app_one; [exact Hd|]. apply tbl_find_none_notin, E.
Qed.

(* position + relative offset (what LineColumnOffset.Add computes) *)
Definition pos_add (a b : Z * Z) : Z * Z :=
  if fst b =? 0 then (fst a, snd a + snd b) else (fst a + fst b, snd b).

(* a mapping of a file moved to the file's place: [line] lines down, its
   first line [dc] columns right, source index + ds, name index + dn *)
Definition move_abs (line dc ds dn : Z) (a : abs) : abs :=
  mkAbs (a_gline a + line) (a_gcol a + (if a_gline a =? 0 then dc else 0))
        (match a_src a with Some (s, l, c) => Some (s + ds, l, c) | None => None end)
        (match a_name a with Some n => Some (n + dn) | None => None end).

(* [pos]: where the previous file's text ended; every file starts at
   pos + offset and its text ends (nlines, final column) further *)
Fixpoint joined_abs (tbl : list (Z * Z)) (fs : list jfile) (pos : Z * Z) (total : Z) : list abs :=
  match fs with
  | [] => []
  | f :: r =>
    let start := pos_add pos (f_off f) in
    map (move_abs (fst start) (snd start) (src_of tbl f) total) (abs_of (f_ops f) 0)
      ++ joined_abs tbl r (pos_add start (nlines (f_ops f), f_fcol f)) (total + f_nn f)
  end.

Lemma abs_of_app : forall a b l, abs_of (a ++ b) l = abs_of a l ++ abs_of b (l + nlines a).
Proof.
  induction a as [|[|gc si ol oc nm|gc] a IH]; intros b l; cbn [app abs_of nlines].
  - rewrite Z.add_0_r. reflexivity.
  - rewrite IH. f_equal. f_equal. lia.
  - rewrite IH. reflexivity.
  - rewrite IH. reflexivity.
Qed.

Lemma abs_of_newlines k l : abs_of (repeat ONewline k) l = [].
Proof. revert l. induction k as [|k IH]; intro l; [reflexivity|]. cbn [repeat abs_of]. apply IH. Qed.

Lemma nlines_rebase dc ds dn : forall ops fl, nlines (rebase dc ds dn fl ops) = nlines ops.
Proof. induction ops as [|[| |] r IH]; intro fl; cbn [rebase nlines]; [reflexivity| | |]; rewrite IH; reflexivity. Qed.

Lemma abs_of_rebase line dc ds dn : forall ops l0 fl,
  0 <= l0 -> fl = (l0 =? 0) ->
  abs_of (rebase dc ds dn fl ops) (line + l0) = map (move_abs line dc ds dn) (abs_of ops l0).
Proof.
  induction ops as [|[|gc si ol oc nm|gc] r IH]; intros l0 fl H0 Hfl; cbn [rebase abs_of map].
  - reflexivity.
  - replace (line + l0 + 1) with (line + (l0 + 1)) by lia. apply IH; lia.
  - rewrite (IH l0 fl H0 Hfl). f_equal. unfold move_abs. cbn [a_gline a_gcol a_src a_name].
    rewrite <- Hfl. f_equal; [lia|destruct fl; lia].
  - rewrite (IH l0 fl H0 Hfl). f_equal. unfold move_abs. cbn [a_gline a_gcol a_src a_name].
    rewrite <- Hfl. f_equal; [lia|destruct fl; lia].
Qed.

Lemma pos_add_off line pco f : pos_add (line, pco) (f_off f) = (line + fst (f_off f), start_col f pco).
Proof.
  unfold pos_add, start_col. cbn [fst snd].
  destruct (Z.eqb_spec (fst (f_off f)) 0) as [->|_]; f_equal; lia.
Qed.

Lemma pos_add_end l c n fc : pos_add (l, c) (n, fc) = (l + n, fc + (if n =? 0 then c else 0)).
Proof. unfold pos_add. cbn [fst snd]. destruct (Z.eqb_spec n 0) as [->|_]; f_equal; lia. Qed.

Lemma abs_of_file tbl f pco total r line : 0 <= fst (f_off f) ->
  abs_of (repeat ONewline (Z.to_nat (fst (f_off f)))
            ++ rebase (start_col f pco) (src_of tbl f) total true (f_ops f) ++ r) line =
  map (move_abs (line + fst (f_off f)) (start_col f pco) (src_of tbl f) total) (abs_of (f_ops f) 0)
    ++ abs_of r (line + fst (f_off f) + nlines (f_ops f)).
Proof.
  intro Hf. rewrite abs_of_app, abs_of_newlines, nlines_repeat, Z2Nat.id by exact Hf. cbn [app].
  rewrite abs_of_app, nlines_rebase.
  rewrite <- (Z.add_0_r (line + fst (f_off f))) at 1.
  rewrite (abs_of_rebase _ _ _ _ (f_ops f) 0 true (Z.le_refl 0) eq_refl). reflexivity.
Qed.

Lemma abs_of_joined tbl : forall fs line pco total,
  Forall (fun f => 0 <= fst (f_off f)) fs ->
  abs_of (joined_ops tbl fs pco total) line = joined_abs tbl fs (line, pco) total.
Proof.
  induction fs as [|f fs IH]; intros line pco total Hall; [reflexivity|].
  inversion Hall as [|f' l Hf Hall']; subst.
  cbn [joined_ops joined_abs].
  rewrite abs_of_file, IH, pos_add_off, pos_add_end by assumption. reflexivity.
Qed.

(* the sources table: distinct source indices numbered 0,1,2,... in order of
   first appearance, every non-null result has an entry *)
Theorem sources_table_all : forall rs,
  let t := assign_sources rs [] 0 in
  map snd t = zseq 0 (length t) /\ NoDup (map fst t) /\
  (forall r, In r rs -> j_null r = false -> tbl_find (j_src r) t <> None).
Proof.
  intros rs t.
  destruct (assign_numbering rs [] 0 eq_refl eq_refl (NoDup_nil _)) as (A & B).
  split; [exact A|]. split; [exact B|]. intros r Hin Hn. apply assign_complete; assumption.
Qed.
