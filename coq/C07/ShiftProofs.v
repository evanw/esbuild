(* C07: SourceMapPieces.Finalize moves exactly the right generated columns.

   For ALL event lists (sorted within each line, as the builder guarantees) and
   ALL well-formed shift lists, running the byte-level model [Finalize] of
   Shift.v on the emitted "mappings" string gives the "mappings" string of the
   events in which every mapping at generated position (line, col) has been
   moved to column  col + delta_at shifts line col.

   No side condition about placeholders is needed for this statement (see the
   remark before [finalize_shift]). *)
From V Require Import Common.Base C07.Vlq C07.SpecMap C07.Mappings C07.VlqProofs
  C07.MappingsProofs C07.JoinProofs C07.Shift C07.ShiftAux.

Definition sh_before (s : shift) : lc := fst s.
Definition sh_after (s : shift) : lc := snd s.
(* shift.After.Columns - shift.Before.Columns *)
Definition sh_delta (s : shift) : Z := snd (snd s) - snd (fst s).

(* Befores strictly increasing in (line, column) order *)
Fixpoint sorted_sh (l : list shift) : Prop :=
  match l with
  | a :: ((b :: _) as r) => comes_before (sh_before a) (sh_before b) = true /\ sorted_sh r
  | _ => True
  end.

Definition same_line (s : shift) : Prop := fst (sh_before s) = fst (sh_after s).

(* well-formed shift list, as computed by substituteFinalPaths: it starts with
   ((0,0),(0,0)); a substitution contains no newline, so Before and After are on
   the same line; Befores are strictly increasing.  (Non-negativity of the
   columns is not needed.) *)
Definition shifts_wf (sh : list shift) : Prop :=
  match sh with
  | [] => False
  | s0 :: _ => s0 = ((0, 0), (0, 0)) /\ Forall same_line sh /\ sorted_sh sh
  end.

(* does shift s apply to generated position (line, col)?  Its Before is
   strictly before the position (ComesBefore) and on the same line *)
Definition applies (s : shift) (line col : Z) : bool :=
  comes_before (sh_before s) (line, col) && (fst (sh_before s) =? line).

(* delta of the LAST applicable shift, [acc] if none *)
Fixpoint delta_acc (acc : Z) (sh : list shift) (line col : Z) : Z :=
  match sh with
  | [] => acc
  | s :: r => delta_acc (if applies s line col then sh_delta s else acc) r line col
  end.

Definition delta_at (sh : list shift) (line col : Z) : Z := delta_acc 0 sh line col.

(* events with every mapping's generated column moved by delta_at *)
Fixpoint shift_ops (sh : list shift) (ops : list op) (line : Z) : list op :=
  match ops with
  | [] => []
  | ONewline :: r => ONewline :: shift_ops sh r (line + 1)
  | OMap gc si ol oc nm :: r => OMap (gc + delta_at sh line gc) si ol oc nm :: shift_ops sh r line
  | ONull gc :: r => ONull (gc + delta_at sh line gc) :: shift_ops sh r line
  end.

(* generated columns within a line are non-decreasing, starting from [c]
   (same as sorted_ops of BuilderProofs.v, which the builder guarantees) *)
Fixpoint ops_sorted (ops : list op) (c : Z) : Prop :=
  match ops with
  | [] => True
  | ONewline :: r => ops_sorted r 0
  | OMap gc _ _ _ _ :: r => c <= gc /\ ops_sorted r gc
  | ONull gc :: r => c <= gc /\ ops_sorted r gc
  end.

(* columns within a line are non-decreasing and >= 0 *)
Definition ops_wf (ops : list op) : Prop := ops_sorted ops 0.

Lemma cb_spec a b : comes_before a b = true <-> (fst a < fst b \/ (fst a = fst b /\ snd a < snd b)).
Proof. unfold comes_before. lia. Qed.

Lemma cb_false a b : comes_before a b = false <-> ~ (fst a < fst b \/ (fst a = fst b /\ snd a < snd b)).
Proof. unfold comes_before. lia. Qed.

Lemma cb_trans a b c : comes_before a b = true -> comes_before b c = true -> comes_before a c = true.
Proof. rewrite !cb_spec. lia. Qed.

Lemma sorted_sh_tail a r : sorted_sh (a :: r) -> sorted_sh r.
Proof. destruct r as [|b r]; cbn; [trivial|]. intros [_ H]. exact H. Qed.

Lemma sorted_sh_all a r : sorted_sh (a :: r) ->
  Forall (fun b => comes_before (sh_before a) (sh_before b) = true) r.
Proof.
  revert a. induction r as [|b r IH]; intros a H; [constructor|].
  destruct H as [H1 H2]. constructor; [exact H1|].
  specialize (IH b H2). eapply Forall_impl; [|exact IH].
  intros c Hc. cbv beta in Hc. eapply cb_trans; eassumption.
Qed.

Lemma sorted_sh_app_r a b : sorted_sh (a ++ b) -> sorted_sh b.
Proof.
  induction a as [|x a IH]; [trivial|]. intro H. apply IH. eapply sorted_sh_tail. exact H.
Qed.

Lemma sorted_sh_app_l a b : sorted_sh (a ++ b) -> sorted_sh a.
Proof.
  induction a as [|x a IH]; [cbn; trivial|]. intro H.
  destruct a as [|y a]; [cbn; trivial|].
  cbn [app] in *. destruct H as [H1 H2]. split; [exact H1|]. apply IH. exact H2.
Qed.

Lemma delta_acc_app acc a b l c :
  delta_acc acc (a ++ b) l c = delta_acc (delta_acc acc a l c) b l c.
Proof. revert acc. induction a as [|x a IH]; intro acc; [reflexivity|]. cbn [app delta_acc]. apply IH. Qed.

Lemma delta_acc_none acc b l c :
  Forall (fun s => applies s l c = false) b -> delta_acc acc b l c = acc.
Proof.
  revert acc. induction b as [|x b IH]; intros acc H; [reflexivity|].
  inversion H as [|? ? Hx Hb]; subst. cbn [delta_acc]. rewrite Hx. apply IH. exact Hb.
Qed.

(* shifts whose Before is not before (line, gc), and everything after them in a
   sorted list, do not apply at (line, gc) *)
Lemma rest_not_applies rest line gc :
  sorted_sh rest ->
  match rest with [] => True | s1 :: _ => comes_before (sh_before s1) (line, gc) = false end ->
  Forall (fun s => applies s line gc = false) rest.
Proof.
  destruct rest as [|s1 r]; [constructor|]. intros Hs H1.
  pose proof (sorted_sh_all _ _ Hs) as Hall.
  constructor.
  - unfold applies. rewrite H1. reflexivity.
  - eapply Forall_impl; [|exact Hall]. intros s Hlt. cbv beta in Hlt.
    unfold applies. apply andb_false_iff. left.
    apply cb_false. apply cb_false in H1. apply cb_spec in Hlt. cbn [fst snd] in *. lia.
Qed.

(* crossed shifts (all before (line, gc)) seen from a later line: none applies *)
Lemma popped_later_line popped line gc acc l' gc' :
  Forall (fun s => comes_before (sh_before s) (line, gc) = true) popped -> line < l' ->
  delta_acc acc popped l' gc' = acc.
Proof.
  intros H Hl. apply delta_acc_none. eapply Forall_impl; [|exact H].
  intros s Hs. cbv beta in Hs. apply cb_spec in Hs. cbn [fst snd] in Hs.
  unfold applies. apply andb_false_iff. right. lia.
Qed.

Lemma last_in {A} (a : A) l d : In (last (a :: l) d) (a :: l).
Proof.
  revert a. induction l as [|b l IH]; intro a; [left; reflexivity|].
  change (last (a :: b :: l) d) with (last (b :: l) d). right. apply IH.
Qed.

(* crossed shifts seen from the same line, at or after gc: the last one decides *)
Lemma popped_same_line : forall popped line gc acc gc' d,
  popped <> [] -> sorted_sh popped ->
  Forall (fun s => comes_before (sh_before s) (line, gc) = true) popped -> gc <= gc' ->
  delta_acc acc popped line gc' =
  if fst (sh_before (last popped d)) =? line then sh_delta (last popped d) else acc.
Proof.
  induction popped as [|a t IH]; intros line gc acc gc' d Hne Hs Hall Hg; [congruence|].
  inversion Hall as [|? ? Ha Ht]; subst.
  assert (Happ : applies a line gc' = (fst (sh_before a) =? line)).
  { unfold applies. apply cb_spec in Ha. cbn [fst snd] in Ha.
    replace (comes_before (sh_before a) (line, gc')) with true; [reflexivity|].
    symmetry. apply cb_spec. cbn [fst snd]. lia. }
  cbn [delta_acc]. rewrite Happ.
  destruct t as [|b t].
  - cbn [delta_acc last]. reflexivity.
  - rewrite (IH line gc _ gc' d) by (try discriminate; try assumption; eapply sorted_sh_tail; exact Hs).
    change (last (a :: b :: t) d) with (last (b :: t) d).
    destruct (fst (sh_before (last (b :: t) d)) =? line) eqn:E; [reflexivity|].
    (* the last crossed shift is on an earlier line, hence so is a *)
    pose proof (last_in b t d) as Hin.
    pose proof (sorted_sh_all _ _ Hs) as Hlt. rewrite Forall_forall in Hlt, Ht.
    specialize (Hlt _ Hin). specialize (Ht _ Hin). cbv beta in Hlt, Ht.
    apply cb_spec in Hlt, Ht, Ha. cbn [fst snd] in *.
    destruct (fst (sh_before a) =? line) eqn:E2; [lia|reflexivity].
Qed.

Lemma cross_spec gen : forall rest s0 fuel crossed,
  (length rest < fuel)%nat ->
  exists popped rest',
    rest = popped ++ rest' /\
    Forall (fun s => comes_before (sh_before s) gen = true) popped /\
    match rest' with [] => True | s1 :: _ => comes_before (sh_before s1) gen = false end /\
    cross fuel (s0 :: rest) gen crossed =
      (last popped s0 :: rest', crossed || match popped with [] => false | _ => true end).
Proof.
  induction rest as [|s1 r IH]; intros s0 fuel crossed Hf.
  - exists [], []. destruct fuel as [|f]; [cbn in Hf; lia|].
    cbn. rewrite orb_false_r. repeat split; constructor.
  - destruct fuel as [|f]; [cbn in Hf; lia|]. cbn [cross].
    change (fst s1) with (sh_before s1).
    destruct (comes_before (sh_before s1) gen) eqn:E.
    + destruct (IH s1 f true) as (popped & rest' & Hr & Hall & Hhd & Hc); [cbn in Hf; lia|].
      exists (s1 :: popped), rest'. rewrite Hc, Hr. rewrite last_cons_d.
      rewrite orb_true_r. cbn [orb]. repeat split; try assumption.
      constructor; assumption.
    + exists [], (s1 :: r). cbn [app last]. rewrite orb_false_r. repeat split; try assumption. constructor.
Qed.

(* loop invariant: for every position at or after the current one, the shifts
   already passed contribute exactly [pd] on the current line and 0 on later lines *)
Definition Inv (sh rest : list shift) (line c pd : Z) : Prop :=
  forall l' gc', ((l' = line /\ c <= gc') \/ line < l') ->
    delta_at sh l' gc' = delta_acc (if l' =? line then pd else 0) rest l' gc'.

Lemma shift_ops_cons sh o r line :
  shift_ops sh (o :: r) line =
  match gcol_of o with
  | None => o :: shift_ops sh r (line + 1)
  | Some gc => set_gcol o (gc + delta_at sh line gc) :: shift_ops sh r line
  end.
Proof. destruct o; reflexivity. Qed.

Lemma ops_sorted_cons o r c :
  ops_sorted (o :: r) c =
  match gcol_of o with None => ops_sorted r 0 | Some gc => c <= gc /\ ops_sorted r gc end.
Proof. destruct o; reflexivity. Qed.

Lemma popped_stable popped line gc acc gc' :
  sorted_sh popped -> Forall (fun s => comes_before (sh_before s) (line, gc) = true) popped -> gc <= gc' ->
  delta_acc acc popped line gc' = delta_acc acc popped line gc.
Proof.
  intros Hs Hall Hg. destruct popped as [|p1 pt]; [reflexivity|].
  rewrite (popped_same_line _ line gc acc gc' p1), (popped_same_line _ line gc acc gc p1)
    by (assumption || discriminate || lia). reflexivity.
Qed.

Lemma next_delta_spec popped rest' s0 line gc pd :
  sorted_sh popped -> Forall same_line popped ->
  Forall (fun s => comes_before (sh_before s) (line, gc) = true) popped ->
  next_delta line pd (last popped s0 :: rest') (match popped with [] => false | _ => true end) =
  Some (delta_acc pd popped line gc).
Proof.
  intros Hs Hsl Hall. destruct popped as [|p1 pt]; [reflexivity|].
  rewrite (popped_same_line _ line gc pd gc s0) by (assumption || discriminate || lia).
  set (s := last (p1 :: pt) s0).
  assert (Hsame : fst (snd s) = fst (fst s)).
  { rewrite Forall_forall in Hsl. symmetry. apply (Hsl s), last_in. }
  unfold next_delta. cbn [negb]. rewrite Hsame, Z.eqb_refl.
  change (fst (fst s)) with (fst (sh_before s)). destruct (fst (sh_before s) =? line); reflexivity.
Qed.

Lemma fin_ops_spec sh : forall ops line c pd s0 rest,
  sorted_sh rest -> Forall same_line rest -> ops_sorted ops c -> Inv sh rest line c pd ->
  fin_ops ops line pd (s0 :: rest) = Some (shift_ops sh ops line).
Proof.
  induction ops as [|o ops IH]; intros line c pd s0 rest Hs Hsl Ho HI; [reflexivity|].
  rewrite shift_ops_cons. rewrite ops_sorted_cons in Ho. cbn [fin_ops]. destruct (gcol_of o) as [gc|].
  - destruct Ho as [Hc Ho].
    destruct (cross_spec (line, gc) rest s0 (length (s0 :: rest)) false) as
      (popped & rest' & Hr & Hall & Hhd & Hcross); [cbn [length]; lia|].
    rewrite Hcross. cbn [orb].
    rewrite Hr in Hs, Hsl. apply Forall_app in Hsl as [Hslp Hsl'].
    pose proof (sorted_sh_app_r _ _ Hs) as Hs'. pose proof (sorted_sh_app_l _ _ Hs) as Hsp.
    rewrite (next_delta_spec popped rest' s0 line gc pd Hsp Hslp Hall).
    (* the shifts not yet crossed do not apply here *)
    assert (Hnow : delta_at sh line gc = delta_acc pd popped line gc).
    { rewrite (HI line gc) by lia. rewrite Z.eqb_refl, Hr, delta_acc_app.
      apply delta_acc_none, rest_not_applies; assumption. }
    rewrite <- Hnow.
    rewrite (IH line gc (delta_at sh line gc) (last popped s0) rest' Hs' Hsl' Ho); [reflexivity|].
    intros l' gc' [[-> Hg]|Hl]; rewrite (HI _ gc') by lia; rewrite Hr, delta_acc_app.
    + rewrite Z.eqb_refl, Hnow, (popped_stable popped line gc pd gc') by assumption. reflexivity.
    + replace (l' =? line) with false by lia. rewrite (popped_later_line popped line gc) by assumption. reflexivity.
  - rewrite (IH (line + 1) 0 0 s0 rest Hs Hsl Ho); [reflexivity|].
    intros l' gc' Hpos. rewrite (HI l' gc') by lia.
    replace (l' =? line) with false by lia. destruct (l' =? line + 1); reflexivity.
Qed.

Lemma emit_bytes_ebytes ops : emit_bytes ops = ebytes ops 0 state0.
Proof. reflexivity. Qed.

Lemma shift_ops_id sh : (forall l c, delta_at sh l c = 0) ->
  forall ops line, shift_ops sh ops line = ops.
Proof.
  intros H. induction ops as [|[|gc si ol oc nm|gc] ops IH]; intro line; cbn [shift_ops].
  - reflexivity.
  - rewrite IH. reflexivity.
  - rewrite H, Z.add_0_r, IH. reflexivity.
  - rewrite H, Z.add_0_r, IH. reflexivity.
Qed.

(* Remark on the "placeholder" side condition of the linker.  The statement
   below needs NO hypothesis relating mappings to placeholders: whatever the
   positions of the mappings, Finalize moves the mapping at (line, col) by
   delta_at, i.e. by After.col - Before.col of the last shift on that line whose
   Before is STRICTLY before (line, col).  The weakest side condition is [True].
   Where a side condition matters is the meaning of delta_at for the final text:
   for a position strictly inside a placeholder no column of the final text is
   "right", and a mapping located exactly at Before (the character just after a
   substituted path) is NOT moved by that substitution's delta, because the Go
   code tests shifts[1].Before.ComesBefore(generated) strictly. *)
Theorem finalize_shift : forall sh ops,
  shifts_wf sh -> ops_wf ops ->
  Finalize sh (emit_bytes ops) = Some (emit_bytes (shift_ops sh ops 0)).
Proof.
  intros sh ops Hwf Hops. destruct sh as [|s0 rest]; [contradiction|].
  destruct Hwf as (-> & Hsl & Hs).
  destruct rest as [|s1 rest].
  - (* the single-shift fast path *)
    cbn [Finalize]. rewrite shift_ops_id; [reflexivity|].
    intros l c. unfold delta_at. cbn [delta_acc]. unfold sh_delta. cbn [fst snd].
    destruct (applies _ l c); reflexivity.
  - unfold Finalize. rewrite !emit_bytes_ebytes.
    rewrite (fin_loop_ops ops _ 0 0 0 _ state0 state0).
    + rewrite (fin_ops_spec (((0, 0), (0, 0)) :: s1 :: rest) ops 0 0 0 _ (s1 :: rest)).
      * reflexivity.
      * eapply sorted_sh_tail. exact Hs.
      * inversion Hsl; assumption.
      * exact Hops.
      * intros l' gc' _. unfold delta_at. cbn [delta_acc].
        change (sh_delta (0, 0, (0, 0))) with 0.
        destruct (applies (0, 0, (0, 0)) l' gc'), (l' =? 0); reflexivity.
    + lia.
    + unfold gcol_off. cbn. repeat split; reflexivity.
    + reflexivity.
Qed.

(* the declarative reading on decoded mappings *)
Definition shift_abs (sh : list shift) (a : abs) : abs :=
  mkAbs (a_gline a) (a_gcol a + delta_at sh (a_gline a) (a_gcol a)) (a_src a) (a_name a).

Lemma abs_of_shift_ops sh : forall ops line,
  abs_of (shift_ops sh ops line) line = map (shift_abs sh) (abs_of ops line).
Proof.
  induction ops as [|[|gc si ol oc nm|gc] ops IH]; intro line; cbn [shift_ops abs_of map].
  - reflexivity.
  - apply IH.
  - rewrite IH. reflexivity.
  - rewrite IH. reflexivity.
Qed.

(* every decoded mapping of the input reappears with its generated column moved
   by delta_at and everything else unchanged *)
Corollary finalize_decodes_map : forall sh ops,
  shifts_wf sh -> ops_wf ops ->
  exists result,
    Finalize sh (emit_bytes ops) = Some result /\
    spec_decode (emit_bytes ops) = Some (abs_of ops 0) /\
    spec_decode result = Some (map (shift_abs sh) (abs_of ops 0)).
Proof.
  intros sh ops Hwf Hops. eexists.
  split; [apply finalize_shift; assumption|].
  split; [apply mappings_roundtrip_all|].
  rewrite mappings_roundtrip_all, abs_of_shift_ops. reflexivity.
Qed.

(* Before is the position of the character that FOLLOWS the placeholder, After
   the position of the same character in the final text.  So for the final text
   the delta of a shift applies to every position AT or after Before
   (inclusive), whereas Finalize (delta_at) uses ComesBefore, i.e. strictly
   after.  The two readings agree except for a mapping located exactly at a
   Before position; under that side condition Finalize is also right for the
   inclusive reading, and without it it is not ([finalize_inclusive_refuted]). *)
Definition applies_le (s : shift) (line col : Z) : bool :=
  negb (comes_before (line, col) (sh_before s)) && (fst (sh_before s) =? line).

Fixpoint delta_acc_le (acc : Z) (sh : list shift) (line col : Z) : Z :=
  match sh with
  | [] => acc
  | s :: r => delta_acc_le (if applies_le s line col then sh_delta s else acc) r line col
  end.

Definition delta_at_le (sh : list shift) (line col : Z) : Z := delta_acc_le 0 sh line col.

Fixpoint shift_ops_le (sh : list shift) (ops : list op) (line : Z) : list op :=
  match ops with
  | [] => []
  | ONewline :: r => ONewline :: shift_ops_le sh r (line + 1)
  | OMap gc si ol oc nm :: r => OMap (gc + delta_at_le sh line gc) si ol oc nm :: shift_ops_le sh r line
  | ONull gc :: r => ONull (gc + delta_at_le sh line gc) :: shift_ops_le sh r line
  end.

(* no mapping sits exactly at the Before position of a substitution (the first,
   dummy shift ((0,0),(0,0)) is not a substitution) *)
Fixpoint side_condition_from (sh : list shift) (ops : list op) (line : Z) : Prop :=
  match ops with
  | [] => True
  | ONewline :: r => side_condition_from sh r (line + 1)
  | OMap gc _ _ _ _ :: r =>
    (forall s, In s (tl sh) -> sh_before s <> (line, gc)) /\ side_condition_from sh r line
  | ONull gc :: r =>
    (forall s, In s (tl sh) -> sh_before s <> (line, gc)) /\ side_condition_from sh r line
  end.

Definition side_condition (sh : list shift) (ops : list op) : Prop := side_condition_from sh ops 0.

Lemma applies_le_eq s line col : sh_before s <> (line, col) -> applies_le s line col = applies s line col.
Proof.
  destruct s as [[bl bc] a]. unfold applies_le, applies, comes_before, sh_before. cbn [fst snd].
  intro H. assert (H' : bl <> line \/ bc <> col).
  { destruct (Z.eq_dec bl line) as [->|]; [|left; assumption].
    destruct (Z.eq_dec bc col) as [->|]; [|right; assumption]. congruence. }
  lia.
Qed.

Lemma delta_acc_le_eq : forall sh acc line col,
  (forall s, In s sh -> sh_before s <> (line, col)) ->
  delta_acc_le acc sh line col = delta_acc acc sh line col.
Proof.
  induction sh as [|s r IH]; intros acc line col H; [reflexivity|].
  cbn [delta_acc_le delta_acc]. rewrite applies_le_eq by (apply H; left; reflexivity).
  apply IH. intros s' Hs'. apply H. right. exact Hs'.
Qed.

(* the dummy first shift moves nothing under either reading *)
Lemma delta_at_le_eq s0 rest line col :
  sh_delta s0 = 0 -> (forall s, In s rest -> sh_before s <> (line, col)) ->
  delta_at_le (s0 :: rest) line col = delta_at (s0 :: rest) line col.
Proof.
  intros H0 Hh. unfold delta_at_le, delta_at. cbn [delta_acc_le delta_acc].
  rewrite H0, delta_acc_le_eq by exact Hh.
  destruct (applies_le s0 line col), (applies s0 line col); reflexivity.
Qed.

Lemma shift_ops_le_eq s0 rest : sh_delta s0 = 0 -> forall ops line,
  side_condition_from (s0 :: rest) ops line ->
  shift_ops_le (s0 :: rest) ops line = shift_ops (s0 :: rest) ops line.
Proof.
  intros H0. induction ops as [|[|gc si ol oc nm|gc] ops IH]; intros line Hsc;
    cbn [shift_ops_le shift_ops side_condition_from tl] in *.
  - reflexivity.
  - rewrite IH by exact Hsc. reflexivity.
  - destruct Hsc as [Hh Hsc]. rewrite IH, (delta_at_le_eq _ _ _ _ H0 Hh) by exact Hsc. reflexivity.
  - destruct Hsc as [Hh Hsc]. rewrite IH, (delta_at_le_eq _ _ _ _ H0 Hh) by exact Hsc. reflexivity.
Qed.

Theorem finalize_shift_inclusive : forall sh ops,
  shifts_wf sh -> ops_wf ops -> side_condition sh ops ->
  Finalize sh (emit_bytes ops) = Some (emit_bytes (shift_ops_le sh ops 0)).
Proof.
  intros sh ops Hwf Hops Hsc. rewrite (finalize_shift sh ops Hwf Hops).
  destruct sh as [|s0 rest]; [contradiction|]. destruct Hwf as (-> & _ & _).
  rewrite shift_ops_le_eq; [reflexivity|reflexivity|exact Hsc].
Qed.

(* Without the side condition the inclusive statement is false of the model: a
   mapping exactly at Before (column 30, the character after the substituted
   path) stays at column 30 although that character moved to column 20. *)
Theorem finalize_inclusive_refuted : exists sh ops,
  shifts_wf sh /\ ops_wf ops /\
  Finalize sh (emit_bytes ops) <> Some (emit_bytes (shift_ops_le sh ops 0)) /\
  option_map spec_decode (Finalize sh (emit_bytes ops)) =
    Some (Some [mkAbs 0 30 (Some (0, 0, 0)) None]) /\
  abs_of (shift_ops_le sh ops 0) 0 = [mkAbs 0 20 (Some (0, 0, 0)) None].
Proof.
  exists [((0, 0), (0, 0)); ((0, 30), (0, 20))], [OMap 30 0 0 0 None].
  split; [|split; [|split; [|split]]].
  - split; [reflexivity|]. split; [repeat constructor|cbn; repeat split].
  - cbn. lia.
  - vm_compute. discriminate.
  - vm_compute. reflexivity.
  - vm_compute. reflexivity.
Qed.

(* the hypotheses are satisfiable *)

(* two substitutions on line 0 (the text after the first moves from column 30
   to 20, the text after the second from 45 to 47) and one on line 3 (8 to 3);
   mappings before, at, between and after the boundaries, and lines without
   any substitution *)
Definition ex_shifts : list shift :=
  [((0, 0), (0, 0)); ((0, 30), (0, 20)); ((0, 45), (0, 47)); ((3, 8), (3, 3))].

Definition ex_ops : list op :=
  [OMap 0 0 0 0 None; OMap 10 0 0 4 (Some 3); OMap 30 0 0 9 None; OMap 31 0 0 9 None;
   OMap 50 0 1 9 None; ONewline; OMap 5 0 2 0 None; ONewline; ONewline;
   OMap 2 0 2 0 None; OMap 9 0 2 0 (Some 1); OMap 19 0 2 0 (Some 1)].

Example ex_hyps : shifts_wf ex_shifts /\ ops_wf ex_ops.
Proof.
  split.
  - unfold shifts_wf, ex_shifts. split; [reflexivity|]. split.
    + repeat constructor.
    + cbn. repeat split.
  - unfold ops_wf, ex_ops. cbn. lia.
Qed.

(* ... and the side condition of the inclusive form, once the mapping that sits
   exactly at the boundary (0,30) is removed *)
Definition ex_ops_sc : list op :=
  [OMap 0 0 0 0 None; OMap 10 0 0 4 (Some 3); OMap 31 0 0 9 None;
   OMap 50 0 1 9 None; ONewline; OMap 5 0 2 0 None; ONewline; ONewline;
   OMap 2 0 2 0 None; OMap 9 0 2 0 (Some 1); OMap 19 0 2 0 (Some 1)].

Example ex_hyps_sc : shifts_wf ex_shifts /\ ops_wf ex_ops_sc /\ side_condition ex_shifts ex_ops_sc.
Proof.
  split; [apply ex_hyps|]. split; [unfold ops_wf, ex_ops_sc; cbn; lia|].
  unfold side_condition, ex_ops_sc, ex_shifts. cbn [side_condition_from tl].
  repeat split; intros s [<-|[<-|[<-|[]]]]; cbn; congruence.
Qed.

Example ex_shifted :
  shift_ops ex_shifts ex_ops 0 =
  [OMap 0 0 0 0 None; OMap 10 0 0 4 (Some 3); OMap 30 0 0 9 None; OMap 21 0 0 9 None;
   OMap 52 0 1 9 None; ONewline; OMap 5 0 2 0 None; ONewline; ONewline;
   OMap 2 0 2 0 None; OMap 4 0 2 0 (Some 1); OMap 14 0 2 0 (Some 1)].
Proof. vm_compute. reflexivity. Qed.

Example ex_finalize :
  Finalize ex_shifts (emit_bytes ex_ops) = Some (emit_bytes (shift_ops ex_shifts ex_ops 0)).
Proof. apply finalize_shift; apply ex_hyps. Qed.

(* the same by evaluation of the model, independently of the theorem *)
Example ex_finalize_eval :
  option_map spec_decode (Finalize ex_shifts (emit_bytes ex_ops)) =
  Some (Some (map (shift_abs ex_shifts) (abs_of ex_ops 0))).
Proof. vm_compute. reflexivity. Qed.

Print Assumptions finalize_shift.
Print Assumptions finalize_decodes_map.
Print Assumptions finalize_shift_inclusive.
Print Assumptions finalize_inclusive_refuted.
