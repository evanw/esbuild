(* Finalize: the byte-level loop [fin_loop] of Shift.v run on the bytes emitted
   for an event list is the event-level function [fin_ops]
   (same control flow: cross / prevDelta / rewrite of the first mapping after a
   crossed boundary), re-emitted.  No arithmetic about shifts here; the
   declarative meaning of [fin_ops] is in ShiftProofs.v. *)
From V Require Import Common.Base C07.Vlq C07.SpecMap C07.Mappings C07.VlqProofs
  C07.MappingsProofs C07.JoinProofs C07.Shift.

Lemma sepb_SEMI : sepb SEMI = false. Proof. reflexivity. Qed.

(* what follows a segment: nothing, ';...' , or ',' *)
Definition tail_ok (C R : bytes) : Prop :=
  C = [COMMA] \/ (C = [] /\ (R = [] \/ exists t, R = SEMI :: t)).

Lemma tail_ok_ops r p : tail_ok (commaof r) (ebytes r 0 p).
Proof.
  destruct r as [|[|gc si ol oc nm|gc] r]; unfold tail_ok; cbn [commaof].
  - right. split; [reflexivity|]. left. reflexivity.
  - right. split; [reflexivity|]. right. rewrite ebytes_newline0. eexists. reflexivity.
  - left. reflexivity.
  - left. reflexivity.
Qed.

Lemma DecodeVLQ_stop x t : b64_index x = None -> DecodeVLQ (x :: t) = Some (0, x :: t).
Proof. intro H. unfold DecodeVLQ. cbn [dec_loop]. rewrite H. reflexivity. Qed.

Lemma b64_COMMA : b64_index COMMA = None. Proof. reflexivity. Qed.
Lemma b64_SEMI : b64_index SEMI = None. Proof. reflexivity. Qed.

Lemma enc_cons v : exists c t, encodeVLQ v = c :: t /\ c <> SEMI /\ c <> COMMA.
Proof.
  destruct (encodeVLQ_head v) as (d & t & Hd & E).
  destruct (char_not_sep d Hd) as (C1 & C2 & _).
  exists (b64_char d), t. unfold SEMI, COMMA. repeat split; assumption.
Qed.

Lemma skip_fields_enc a b c T :
  skip_fields (encodeVLQ a ++ encodeVLQ b ++ encodeVLQ c ++ T) =
  match T with
  | [] => Some []
  | _ => match DecodeVLQ T with None => None | Some (_, r5) => Some r5 end
  end.
Proof.
  unfold skip_fields. destruct (enc_cons a) as (x & t & E & _).
  destruct (encodeVLQ a ++ encodeVLQ b ++ encodeVLQ c ++ T) eqn:E2.
  { rewrite E in E2. discriminate. }
  rewrite <- E2. rewrite !vlq_roundtrip_all. reflexivity.
Qed.

Lemma skip_fields_ok p si ol oc nm C R : tail_ok C R ->
  skip_fields (fields p si ol oc nm ++ C ++ R) = Some (C ++ R).
Proof.
  intro HT. unfold fields. rewrite <- !app_assoc. rewrite skip_fields_enc.
  destruct nm as [n|].
  - destruct (enc_cons (n - oname p)) as (c' & t' & E' & _).
    destruct (encodeVLQ (n - oname p) ++ C ++ R) eqn:E2.
    { rewrite E' in E2. discriminate. }
    rewrite <- E2, vlq_roundtrip_all. reflexivity.
  - cbn [app]. destruct HT as [->|[-> [->|[t' ->]]]]; cbn [app].
    + rewrite DecodeVLQ_stop by apply b64_COMMA. reflexivity.
    + reflexivity.
    + rewrite DecodeVLQ_stop by apply b64_SEMI. reflexivity.
Qed.

Lemma skip_fields_tail C R : tail_ok C R -> skip_fields (C ++ R) = Some (C ++ R).
Proof.
  intros [->|[-> [->|[t ->]]]]; cbn [app]; [|reflexivity|].
  - unfold skip_fields. rewrite !DecodeVLQ_stop by apply b64_COMMA. reflexivity.
  - unfold skip_fields. rewrite !DecodeVLQ_stop by apply b64_SEMI. reflexivity.
Qed.

Lemma consumed_app (a b : bytes) : consumed (a ++ b) b = a.
Proof.
  unfold consumed. rewrite app_length.
  replace (length a + length b - length b)%nat with (length a) by lia.
  rewrite firstn_app, Nat.sub_diag, firstn_all. cbn [firstn]. apply app_nil_r.
Qed.

Lemma strip_comma C R : tail_ok C R ->
  match C ++ R return bytes with
  | x :: t => if x =? COMMA return bytes then t else C ++ R
  | [] => C ++ R
  end = R.
Proof.
  intros [->|[-> [->|[t ->]]]]; cbn [app]; try reflexivity.
Qed.

(* prevShiftColumnDelta after a segment on [line], given what the crossing loop
   left: unchanged unless a boundary was crossed whose After is on this line *)
Definition next_delta (line pd : Z) (shifts' : list shift) (crossed : bool) : option Z :=
  if negb crossed then Some pd
  else match shifts' with
  | [] => None
  | sh :: _ =>
    if negb (fst (snd sh) =? line) then Some pd
    else if negb (fst (fst sh) =? fst (snd sh)) then None  (* panic *)
    else Some (snd (snd sh) - snd (fst sh))
  end.

Lemma fin_loop_out_run : forall f rest run out gen pd shifts,
  fin_loop f rest run out gen pd shifts =
  option_map (app (out ++ run)) (fin_loop f rest [] [] gen pd shifts).
Proof.
  induction f as [|f IH]; intros rest run out gen pd shifts; [reflexivity|].
  assert (K : forall rest' run1 out1 run2 out2 g p s, out1 ++ run1 = (out ++ run) ++ out2 ++ run2 ->
            fin_loop f rest' run1 out1 g p s = option_map (app (out ++ run)) (fin_loop f rest' run2 out2 g p s)).
  { intros rest' run1 out1 run2 out2 g p s H. rewrite (IH rest' run1), (IH rest' run2), H.
    destruct (fin_loop f rest' [] [] g p s); cbn [option_map]; [rewrite <- !app_assoc|]; reflexivity. }
  cbn [fin_loop]. destruct rest as [|c r]; [cbn; rewrite app_nil_r; reflexivity|].
  destruct (c =? SEMI); [apply K; rewrite <- !app_assoc; reflexivity|].
  destruct (DecodeVLQ (c :: r)) as [[d r1]|]; [|reflexivity].
  destruct (skip_fields r1) as [r5|]; [|reflexivity].
  destruct (cross _ _ _ _) as [shifts' crossed].
  destruct (negb crossed); [apply K; rewrite <- !app_assoc; reflexivity|].
  destruct shifts' as [|sh tl]; [reflexivity|].
  destruct (negb (fst (snd sh) =? _)); [apply K; rewrite <- !app_assoc; reflexivity|].
  destruct (negb _); [reflexivity|]. apply K. rewrite <- !app_assoc. reflexivity.
Qed.

(* [F]: the fields after the generated column, [C]: the comma, [R]: the rest *)
Lemma fin_loop_step f d F C R run out gen pd shifts : tail_ok C R ->
  skip_fields (F ++ C ++ R) = Some (C ++ R) ->
  fin_loop (S f) (encodeVLQ d ++ F ++ C ++ R) run out gen pd shifts =
  let gen' := (fst gen, snd gen + d) in
  let '(shifts', crossed) := cross (length shifts) shifts gen' false in
  match next_delta (fst gen) pd shifts' crossed with
  | None => None
  | Some pd' =>
    option_map (app (out ++ run ++ encodeVLQ (d + pd' - pd) ++ F ++ C)) (fin_loop f R [] [] gen' pd' shifts')
  end.
Proof.
  intros HT HF.
  destruct (enc_cons d) as (c & t & E & Hc & _).
  cbn [fin_loop]. rewrite E at 1. cbn [app].
  replace (c =? SEMI) with false by lia.
  replace (c :: t ++ F ++ C ++ R)
    with (encodeVLQ d ++ F ++ C ++ R) by (rewrite E; reflexivity).
  rewrite vlq_roundtrip_all. cbv beta iota zeta.
  rewrite HF. cbv beta iota.
  destruct (cross (length shifts) shifts (fst gen, snd gen + d) false) as [shifts' crossed].
  rewrite (strip_comma _ _ HT).
  replace (encodeVLQ d ++ F ++ C ++ R)
    with ((encodeVLQ d ++ F ++ C) ++ R) by (rewrite <- !app_assoc; reflexivity).
  rewrite consumed_app.
  replace (F ++ C ++ R) with ((F ++ C) ++ R)
    by (rewrite <- app_assoc; reflexivity).
  rewrite consumed_app.
  assert (Hkeep : fin_loop f R (run ++ encodeVLQ d ++ F ++ C) out (fst gen, snd gen + d) pd shifts' =
                  option_map (app (out ++ run ++ encodeVLQ (d + pd - pd) ++ F ++ C))
                             (fin_loop f R [] [] (fst gen, snd gen + d) pd shifts')).
  { rewrite fin_loop_out_run. replace (d + pd - pd) with d by lia. reflexivity. }
  unfold next_delta. cbn [fst]. destruct (negb crossed); [exact Hkeep|].
  destruct shifts' as [|sh tl]; [reflexivity|].
  destruct (negb (fst (snd sh) =? fst gen)); [exact Hkeep|].
  destruct (negb _); [reflexivity|].
  rewrite fin_loop_out_run, <- !app_assoc. reflexivity.
Qed.

Definition gcol_of (o : op) : option Z :=
  match o with ONewline => None | OMap gc _ _ _ _ => Some gc | ONull gc => Some gc end.

Definition set_gcol (o : op) (gc : Z) : op :=
  match o with ONewline => ONewline | OMap _ si ol oc nm => OMap gc si ol oc nm | ONull _ => ONull gc end.

Definition rest_fields (p : state) (o : op) : bytes :=
  match o with OMap _ si ol oc nm => fields p si ol oc nm | _ => [] end.

Definition op_state (p : state) (o : op) : state :=
  match o with
  | ONewline => nl_state p
  | OMap gc si ol oc nm => after p gc si ol oc nm
  | ONull gc => null_state p gc
  end.

Lemma ebytes_seg0 o gc r p : gcol_of o = Some gc ->
  ebytes (o :: r) 0 p = encodeVLQ (gc - gcol p) ++ rest_fields p o ++ commaof r ++ ebytes r 0 (op_state p o).
Proof.
  destruct o; intros [= <-]; [apply (ebytes_map0 _ _ _ _ _ _ _ _ sepb_0)|apply (ebytes_null0 _ _ _ _ sepb_0)].
Qed.

Lemma skip_rest_fields p o C R : tail_ok C R -> skip_fields (rest_fields p o ++ C ++ R) = Some (C ++ R).
Proof. intro H. destruct o; [exact (skip_fields_tail C R H)|apply skip_fields_ok, H|exact (skip_fields_tail C R H)]. Qed.

Lemma gcol_op_state p o gc : gcol_of o = Some gc -> gcol (op_state p o) = gc.
Proof. destruct o; intros [= <-]; reflexivity. Qed.

Lemma commaof_set_gcol o g a b : commaof (set_gcol o g :: a) = commaof (o :: b).
Proof. destruct o; reflexivity. Qed.

(* [fin_loop] at the level of events: [line] is generated.Lines, [pd] is
   prevShiftColumnDelta; the generated column is the mapping's own column. *)
Fixpoint fin_ops (ops : list op) (line pd : Z) (shifts : list shift) : option (list op) :=
  match ops with
  | [] => Some []
  | o :: r =>
    match gcol_of o with
    | None => option_map (cons o) (fin_ops r (line + 1) 0 shifts)
    | Some gc =>
      let '(shifts', crossed) := cross (length shifts) shifts (line, gc) false in
      match next_delta line pd shifts' crossed with
      | None => None
      | Some pd' => option_map (cons (set_gcol o (gc + pd'))) (fin_ops r line pd' shifts')
      end
    end
  end.

Lemma fin_ops_commaof : forall ops line pd shifts ops',
  fin_ops ops line pd shifts = Some ops' -> commaof ops' = commaof ops.
Proof.
  intros [|o r] line pd shifts ops'; cbn [fin_ops]; [intros [= <-]; reflexivity|].
  destruct (gcol_of o).
  - destruct (cross _ _ _ _) as [shifts' crossed]. destruct (next_delta _ _ _ _); [|discriminate].
    destruct (fin_ops r _ _ _); [|discriminate]. intros [= <-]. apply commaof_set_gcol.
  - destruct (fin_ops r _ _ _); [|discriminate]. intros [= <-]. destruct o; reflexivity.
Qed.

Lemma gcol_off_op p q pd pd' o gc : gcol_off pd q p -> gcol_of o = Some gc ->
  gcol_off pd' (op_state q (set_gcol o (gc + pd'))) (op_state p o).
Proof.
  intros (H1 & H2 & H3 & H4 & H5). unfold gcol_off.
  destruct o as [|g si ol oc nm|g]; intros [= <-]; cbn [op_state set_gcol after null_state gcol sidx oline ocol oname];
    repeat split; try assumption. destruct nm; [reflexivity|exact H5].
Qed.

Lemma gcol_off_nl p q pd : gcol_off pd q p -> gcol_off 0 (nl_state q) (nl_state p).
Proof.
  intros (H1 & H2 & H3 & H4 & H5). unfold gcol_off, nl_state. cbn [gcol sidx oline ocol oname].
  repeat split; assumption.
Qed.

Lemma rest_fields_off p q pd o g : gcol_off pd q p -> rest_fields q (set_gcol o g) = rest_fields p o.
Proof.
  intros (H1 & H2 & H3 & H4 & H5). destruct o; cbn [rest_fields set_gcol]; try reflexivity.
  unfold fields. rewrite H2, H3, H4, H5. reflexivity.
Qed.

Lemma ebytes_length_seg o gc r p : gcol_of o = Some gc ->
  (length (ebytes r 0 (op_state p o)) < length (ebytes (o :: r) 0 p))%nat.
Proof.
  intro E. rewrite (ebytes_seg0 o gc r p E), !app_length.
  destruct (enc_cons (gc - gcol p)) as (c & t & -> & _). cbn [length]. lia.
Qed.

(* the emitted bytes of the shifted segment, split the way the loop writes them *)
Lemma ebytes_shifted o gc r r' p q pd delta :
  gcol_of o = Some gc -> gcol_off pd q p -> commaof r' = commaof r ->
  ebytes (set_gcol o (gc + delta) :: r') 0 q =
  encodeVLQ ((gc - gcol p) + delta - pd) ++ rest_fields p o ++ commaof r
  ++ ebytes r' 0 (op_state q (set_gcol o (gc + delta))).
Proof.
  intros E Ha Hc.
  rewrite (ebytes_seg0 _ (gc + delta)) by (destruct o; inversion E; reflexivity).
  rewrite (rest_fields_off p q pd), Hc by exact Ha.
  destruct Ha as (H1 & _). rewrite H1.
  replace (gc + delta - (gcol p + pd)) with (gc - gcol p + delta - pd) by lia. reflexivity.
Qed.

Theorem fin_loop_ops : forall ops f line c pd shifts p q,
  (length (ebytes ops 0 p) < f)%nat -> gcol_off pd q p -> c = gcol p ->
  fin_loop f (ebytes ops 0 p) [] [] (line, c) pd shifts =
  option_map (fun ops' => ebytes ops' 0 q) (fin_ops ops line pd shifts).
Proof.
  induction ops as [|o ops IH]; intros f line c pd shifts p q Hf Ha ->.
  - destruct f as [|f]; [cbn in Hf; lia|]. reflexivity.
  - destruct f as [|f]; [lia|]. cbn [fin_ops]. destruct (gcol_of o) as [gc|] eqn:E.
    + pose proof (ebytes_length_seg o gc ops p E) as Hlen.
      rewrite (ebytes_seg0 o gc ops p E).
      rewrite fin_loop_step by (apply tail_ok_ops || apply skip_rest_fields, tail_ok_ops).
      cbn [fst snd]. replace (gcol p + (gc - gcol p)) with gc by lia.
      destruct (cross (length shifts) shifts (line, gc) false) as [shifts' crossed].
      destruct (next_delta line pd shifts' crossed) as [pd'|]; [|reflexivity].
      rewrite (IH f line gc pd' shifts' (op_state p o) (op_state q (set_gcol o (gc + pd'))))
        by (lia || (symmetry; apply gcol_op_state, E) || (apply (gcol_off_op p q pd); assumption)).
      destruct (fin_ops ops line pd' shifts') as [ops'|] eqn:E'; cbn [option_map]; [|reflexivity].
      rewrite (ebytes_shifted o gc ops ops' p q pd pd' E Ha (fin_ops_commaof _ _ _ _ _ E')).
      cbn [app]. rewrite <- !app_assoc. reflexivity.
    + destruct o; try discriminate.
      rewrite ebytes_newline0 in Hf |- *. cbn [length] in Hf.
      cbn [fin_loop]. replace (SEMI =? SEMI) with true by reflexivity. cbn [fst snd].
      rewrite fin_loop_out_run, (IH f (line + 1) 0 0 shifts (nl_state p) (nl_state q))
        by (lia || reflexivity || apply (gcol_off_nl p q pd); exact Ha).
      destruct (fin_ops ops (line + 1) 0 shifts) as [ops'|]; cbn [option_map]; [|reflexivity].
      rewrite ebytes_newline0. reflexivity.
Qed.
