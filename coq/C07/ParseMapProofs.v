(* ParseSourceMap returns its mappings sorted by generated position, with every
   index inside Sources / Names: what ChunkBuilder.appendMapping (SourceMap.Find,
   Names[i]) relies on, i.e. the hypotheses of builder_composes. *)
From V Require Import Common.Base C16.Checked C16.Vlq16 C16.Vlq16Proofs C16.Wtf8Proofs
  C07.Vlq C07.FindProofs C07.ParseMap.

(* forgetting needSort gives the C16 model *)
Definition erase (r : res nresult) : res mresult :=
  match r with
  | Ok (NErr c v e cur) => Ok (MErr c v e cur)
  | Ok (NDone st acc _) => Ok (MDone st acc)
  | Crash => Crash
  | Hang => Hang
  end.

(* The two loops have the same text up to [ns]: the proof follows it, splitting at every
   [bind], pair and test until a result or a recursive call is reached. *)
Lemma mloop_ns_erase raw lo co so no sl nl : forall fuel st current acc ns,
  erase (mloop_ns raw lo co so no sl nl fuel st current acc ns) = mloop raw lo co so no sl nl fuel st current acc.
Proof.
  induction fuel as [|f IH]; intros st current acc ns; [reflexivity|].
  cbn [mloop_ns mloop]. cbv zeta.
  repeat match goal with
    | |- erase (mloop_ns _ _ _ _ _ _ _ _ _ _ _ _) = _ => apply IH
    | |- erase (Ok _) = _ => reflexivity
    | |- erase (bind ?e _) = _ => destruct e as [?| |]; cbn [bind]; [|reflexivity|reflexivity]
    | |- erase (let '(_, _) := ?p in _) = _ => destruct p
    | |- erase (if ?c then _ else _) = _ => destruct c
    end.
Qed.

Definition erase_p (r : res presult_ns) : res presult :=
  match r with
  | Ok (QErr k c v e cur) => Ok (PErr k c v e cur)
  | Ok QNil => Ok PNil
  | Ok (QMap ns nn ms _) => Ok (PMap ns nn ms)
  | Crash => Crash
  | Hang => Hang
  end.

Lemma psections_ns_rel : forall secs k nsrc nnames acc gline gcol ns,
  match psections_ns secs k nsrc nnames acc gline gcol ns with
  | Ok (QErr k' c v e cur) => psections secs k nsrc nnames acc = Ok (PErr k' c v e cur)
  | Ok QNil => psections secs k nsrc nnames acc = Ok PNil
  | Ok (QMap n1 n2 ms flag) =>
    exists ms0, psections secs k nsrc nnames acc = Ok (PMap n1 n2 ms0) /\
                ms = (if flag then sort_pos ms0 else ms0)
  | Crash => psections secs k nsrc nnames acc = Crash
  | Hang => psections secs k nsrc nnames acc = Hang
  end.
Proof.
  induction secs as [|[[[[lo co] sl] nl] raw] rest IH]; intros k nsrc nnames acc gline gcol ns.
  - cbn [psections_ns psections]. destruct ((nsrc =? 0) || _); [reflexivity|].
    eexists. split; reflexivity.
  - cbn [psections_ns psections]. destruct ((len raw =? 0) || (sl =? 0)); [apply IH|].
    set (ns1 := ns || (lo <? gline) || ((lo =? gline) && (co <? gcol))).
    rewrite <- (mloop_ns_erase raw lo co (wrap_i32 nsrc) (wrap_i32 nnames) sl nl (S (length raw))
                  (mkM lo co (wrap_i32 nsrc) 0 0 (wrap_i32 nnames)) 0 acc ns1).
    destruct (mloop_ns _ _ _ _ _ _ _ _ _ _ _ ns1) as [[c v e cur|st acc' ns']| |]; cbn [bind erase]; try reflexivity.
    apply IH.
Qed.

(* DecodeVLQUTF16 returns an int32: the upper bound, which keeps the column sums from wrapping *)
Lemma shl32_lt x s : shl32 x s < 2 ^ 31.
Proof. unfold shl32. destruct (32 <=? s); [lia|]. pose proof (wrap_i32_range (Z.shiftl x s)). lia. Qed.

Lemma lor_lt31 a b : a < 2 ^ 31 -> b < 2 ^ 31 -> Z.lor a b < 2 ^ 31.
Proof.
  intros Ha Hb. destruct (Z.lt_ge_cases (Z.lor a b) 0) as [Hn|Hn]; [lia|].
  apply Z.lor_nonneg in Hn as [H1 H2].
  apply (lor_bound a b 31); lia.
Qed.

Lemma vlq_loop_lt fuel : forall enc current shift vlq v i,
  vlq < 2 ^ 31 -> vlq_loop fuel enc current shift vlq = Ok (v, i, true) -> v < 2 ^ 31.
Proof.
  induction fuel as [|f IH]; intros enc current shift vlq v i Hv H; [discriminate|].
  cbn [vlq_loop] in H.
  destruct (len enc <=? current); [inversion H|].
  destruct (idx enc current) as [u| |]; cbn [bind] in H; try discriminate.
  revert H. generalize (index_byte Vlq16.base64 (u mod 256) 0). intros ix H.
  destruct (ix <? 0); [inversion H|].
  set (vlq' := Z.lor vlq (shl32 (Z.land ix 31) shift)) in *.
  assert (Hv' : vlq' < 2 ^ 31) by (apply lor_lt31; [exact Hv|apply shl32_lt]).
  destruct (Z.land ix 32 =? 0).
  - injection H as Hval _. subst v. destruct (negb (Z.land vlq' 1 =? 0)).
    + pose proof (wrap_i32_range (- Z.shiftr vlq' 1)). lia.
    + rewrite Z.shiftr_div_pow2 by lia. change (2 ^ 1) with 2.
      destruct (Z.lt_ge_cases vlq' 0); [|].
      * assert (vlq' / 2 < 0) by (apply Z.div_lt_upper_bound; lia). lia.
      * assert (vlq' / 2 <= vlq') by (apply Z.div_le_upper_bound; lia). lia.
  - eapply IH; [exact Hv'|exact H].
Qed.

Lemma DecodeVLQUTF16_lt enc v i : DecodeVLQUTF16 enc = Ok (v, i, true) -> v < 2 ^ 31.
Proof.
  unfold DecodeVLQUTF16. destruct (len enc =? 0); [intro H; inversion H|].
  apply vlq_loop_lt. lia.
Qed.

Definition mpos (m : Vlq16.mapping) : Z * Z := let '(l, c, _, _, _, _) := m in (l, c).
Definition ple (a b : Z * Z) : Prop := fst a < fst b \/ (fst a = fst b /\ snd a <= snd b).
Definition mle (a b : Vlq16.mapping) : Prop := ple (mpos a) (mpos b).

Fixpoint ssorted (l : list Vlq16.mapping) : Prop :=
  match l with [] => True | x :: r => Forall (mle x) r /\ ssorted r end.

Lemma ple_trans a b c : ple a b -> ple b c -> ple a c.
Proof. unfold ple. lia. Qed.

Lemma ple_total a b : ~ ple a b -> ple b a.
Proof. unfold ple. lia. Qed.

Lemma ssorted_snoc l m : ssorted l -> Forall (fun x => mle x m) l -> ssorted (l ++ [m]).
Proof.
  induction l as [|x l IH]; intros Hs Hm; cbn [app ssorted].
  - split; constructor.
  - destruct Hs as [H1 H2]. inversion Hm as [|? ? Hxm Hm']; subst. split.
    + apply Forall_app. split; [exact H1|constructor; [exact Hxm|constructor]].
    + apply IH; assumption.
Qed.

(* [acc] holds the mappings read so far, newest first: they are in order and none lies
   after the position the loop has reached *)
Definition InvEnd (st : mstate) (acc : list Vlq16.mapping) : Prop :=
  ssorted (rev acc) /\ Forall (fun x => ple (mpos x) (gl st, gc st)) acc /\ - 2 ^ 31 <= gc st < 2 ^ 31.

(* ... and with [fuel] iterations left, each of which goes down one line at most, the int32
   line counter cannot wrap *)
Definition Inv (fuel : nat) (st : mstate) (acc : list Vlq16.mapping) : Prop :=
  InvEnd st acc /\ - 2 ^ 31 <= gl st /\ gl st + Z.of_nat fuel <= 2 ^ 31.

Lemma wrap_nonneg_id x : - 2 ^ 31 <= x < 2 ^ 32 -> 0 <= wrap_i32 x -> wrap_i32 x = x.
Proof.
  intros Hx Hw. destruct (Z.lt_ge_cases x (2 ^ 31)); [apply wrap_i32_id; lia|].
  exfalso. unfold wrap_i32 in Hw.
  replace (x + 2 ^ 31) with ((x - 2 ^ 31) + 1 * 2 ^ 32) in Hw by lia.
  rewrite Z.mod_add in Hw by lia. rewrite Z.mod_small in Hw by lia. lia.
Qed.

Lemma Inv_move f st acc st1 :
  Inv (S f) st acc -> ple (gl st, gc st) (gl st1, gc st1) -> gl st <= gl st1 <= gl st + 1 ->
  - 2 ^ 31 <= gc st1 < 2 ^ 31 ->
  Inv f st1 acc /\ forall s l c n, Inv f st1 ((gl st1, gc st1, s, l, c, n) :: acc).
Proof.
  intros ((Hd & Ha & _) & Hl) Hp Hgl Hgc.
  assert (Ha1 : Forall (fun x => ple (mpos x) (gl st1, gc st1)) acc).
  { eapply Forall_impl; [|exact Ha]. intros x Hx. exact (ple_trans _ _ _ Hx Hp). }
  unfold Inv, InvEnd. cbn [rev]. repeat split; try assumption; try lia.
  - apply ssorted_snoc; [exact Hd|apply Forall_rev, Ha1].
  - constructor; [right; cbn; lia|exact Ha1].
Qed.

(* after a line break at least the iteration that ends the loop is still to come *)
Lemma Inv_nl f st acc s l c n :
  Inv (S (S f)) st acc -> Inv (S f) (mkM (wrap_i32 (gl st + 1)) 0 s l c n) acc.
Proof.
  intro HI. apply (Inv_move (S f) st acc); [exact HI| | |]; cbn [gl gc];
    destruct HI as (_ & Hl); rewrite ?wrap_i32_id by lia; [left; cbn; lia|lia|lia].
Qed.

Lemma Inv_col f st acc t d i b s l c n :
  (d <? 0) = false -> DecodeVLQUTF16 t = Ok (d, i, true) -> b || (wrap_i32 (gc st + d) <? 0) = false ->
  Inv (S f) st acc ->
  let st1 := mkM (gl st) (wrap_i32 (gc st + d)) s l c n in
  Inv f st1 acc /\ forall s' l' c' n', Inv f st1 ((gl st, wrap_i32 (gc st + d), s', l', c', n') :: acc).
Proof.
  intros Hd Hdec Hc HI st1. apply DecodeVLQUTF16_lt in Hdec. apply orb_false_iff in Hc as [_ Hc].
  pose proof HI as ((_ & _ & Hgc) & _).
  assert (E : wrap_i32 (gc st + d) = gc st + d) by (apply wrap_nonneg_id; lia).
  apply (Inv_move f st acc st1); cbn [st1 gl gc]; [exact HI|right; cbn; lia|lia|apply wrap_i32_range].
Qed.

Section Sorted.
  Variable raw : list Z.
  Variables lo co so no sl nl : Z.

  Ltac hstep H :=
    match type of H with
    | bind ?e _ = _ => let v := fresh "v" in destruct e as [v| |] eqn:?; cbn [bind] in H; [|discriminate H|discriminate H]
    | (let '(_, _) := ?p in _) = _ => destruct p
    | (if negb ?b then _ else _) = _ => destruct b eqn:?; cbn [negb] in H
    | (if ?c then _ else _) = _ => destruct c eqn:?
    | Ok (NErr _ _ _ _) = _ => discriminate H
    end.

  (* a generated column was read with delta [d] and passed the loop's test: needSort [Hns] stays
     unset only if [d] is not negative, and then [Inv_col] gives the invariant at the new column,
     [Ha] without and [Hb] with a mapping pushed there *)
  Ltac col_read Hns Ha Hb :=
    let Hd := fresh "Hd" in let HI := fresh "HI" in
    apply orb_false_iff in Hns as [-> Hd]; (split; [reflexivity|]); intro HI;
    edestruct Inv_col as [Ha Hb]; [exact Hd|eassumption|eassumption|exact HI|].

  Lemma mloop_ns_sorted : forall fuel st current acc ns st' acc',
    mloop_ns raw lo co so no sl nl fuel st current acc ns = Ok (NDone st' acc' false) ->
    ns = false /\ (Inv fuel st acc -> InvEnd st' acc').
  Proof.
    induction fuel as [|f IH]; intros st current acc ns st' acc' H; [discriminate|].
    cbn [mloop_ns] in H. cbv zeta in H.
    (* the ways through one iteration that do not end in an error *)
    repeat hstep H.
    - (* a line break *)
      destruct f; [discriminate H|]. apply IH in H as [Hns Himp].
      split; [exact Hns|]. intro HI. apply Himp, Inv_nl, HI.
    - (* a generated column, then the end of the input *)
      injection H as <- <- Hns. col_read Hns Ha Hb. apply Ha.
    - (* a generated column, then ',' *)
      apply IH in H as [Hns Himp]. col_read Hns Ha Hb. apply Himp, Ha.
    - (* a generated column, then ';' *)
      apply IH in H as [Hns Himp]. col_read Hns Ha Hb. apply Himp, Ha.
    - (* a mapping, then ',' *)
      apply IH in H as [Hns Himp]. col_read Hns Ha Hb. apply Himp, Hb.
    - (* a mapping, then ';' *)
      apply IH in H as [Hns Himp]. col_read Hns Ha Hb. apply Himp, Hb.
    - (* a mapping, then the end of the input *)
      apply IH in H as [Hns Himp]. col_read Hns Ha Hb. apply Himp, Hb.
    - (* the end of the input *)
      injection H as <- <- ->. split; [reflexivity|]. intros [HI _]. exact HI.
  Qed.
End Sorted.

Definition conv (m : Vlq16.mapping) : Vlq.mapping :=
  let '(l, c, s, ol, oc, name) := m in mkMapping l c s ol oc (if name <? 0 then None else Some name).

Lemma pos_le_conv a b : mle a b -> pos_le (conv a) (conv b).
Proof.
  destruct a as [[[[[al ac] a3] a4] a5] a6], b as [[[[[bl bc] b3] b4] b5] b6].
  unfold mle, ple, pos_le, mpos, conv. cbn. tauto.
Qed.

Lemma ssorted_sorted_maps l : ssorted l -> sorted_maps (map conv l).
Proof.
  induction l as [|x [|y r] IH]; intro H; cbn [map sorted_maps]; [exact I|exact I|].
  destruct H as [H1 H2]. split.
  - apply pos_le_conv. inversion H1; assumption.
  - apply IH. exact H2.
Qed.

Lemma insert_pos_cases m l :
  insert_pos m l = match l with
                   | [] => [m]
                   | x :: r => if less_m m x then m :: l else x :: insert_pos m r
                   end.
Proof.
  destruct l as [|x r]; [reflexivity|]. cbn [insert_pos]. unfold less_m.
  destruct m as [[[[[ml mc] m3] m4] m5] m6], x as [[[[[xl xc] x3] x4] x5] x6]. reflexivity.
Qed.

Lemma less_m_spec a b : less_m a b = true <-> mle a b.
Proof.
  destruct a as [[[[[al ac] a3] a4] a5] a6], b as [[[[[bl bc] b3] b4] b5] b6].
  unfold less_m, mle, ple, mpos. cbn [fst snd]. lia.
Qed.

Lemma Forall_insert (P : Vlq16.mapping -> Prop) m : forall l, P m -> Forall P l -> Forall P (insert_pos m l).
Proof.
  induction l as [|x r IH]; intros Hm Hl; rewrite insert_pos_cases.
  - constructor; [exact Hm|constructor].
  - inversion Hl; subst. destruct (less_m m x); constructor; auto.
Qed.

Lemma insert_ssorted m : forall l, ssorted l -> ssorted (insert_pos m l).
Proof.
  induction l as [|x r IH]; intro Hs; rewrite insert_pos_cases.
  - split; constructor.
  - destruct Hs as [H1 H2]. destruct (less_m m x) eqn:E.
    + apply less_m_spec in E. split; [|split; assumption].
      constructor; [exact E|]. eapply Forall_impl; [|exact H1]. intros y Hy. exact (ple_trans _ _ _ E Hy).
    + assert (Hxm : mle x m).
      { apply ple_total. intro Hc. apply less_m_spec in Hc. congruence. }
      split; [apply Forall_insert; assumption|apply IH; exact H2].
Qed.

Lemma sort_pos_ssorted l : ssorted (sort_pos l).
Proof. induction l as [|x r IH]; [exact I|]. cbn [sort_pos fold_right]. apply insert_ssorted. exact IH. Qed.

Lemma Forall_sort_pos (P : Vlq16.mapping -> Prop) l : Forall P l -> Forall P (sort_pos l).
Proof.
  induction l as [|x r IH]; intro H; [constructor|]. inversion H; subst.
  cbn [sort_pos fold_right]. apply Forall_insert; auto.
Qed.

(* the section offsets are int32 and the line counter cannot overflow *)
Definition sec_bounds (s : section) : Prop :=
  let '(lo, co, _, _, raw) := s in - 2 ^ 31 <= lo /\ lo + len raw < 2 ^ 31 /\ - 2 ^ 31 <= co < 2 ^ 31.

Lemma psections_ns_sorted : forall secs k nsrc nnames acc gline gcol ns n1 n2 ms,
  psections_ns secs k nsrc nnames acc gline gcol ns = Ok (QMap n1 n2 ms false) ->
  ns = false /\
  (Forall sec_bounds secs -> ssorted (rev acc) -> Forall (fun x => ple (mpos x) (gline, gcol)) acc -> ssorted ms).
Proof.
  induction secs as [|[[[[lo co] sl] nl] raw] rest IH]; intros k nsrc nnames acc gline gcol ns n1 n2 ms H.
  - cbn [psections_ns] in H. destruct ((nsrc =? 0) || _); [discriminate|].
    injection H as _ _ Hms Hns. subst ns. split; [reflexivity|]. intros _ Hd _. subst ms. exact Hd.
  - cbn [psections_ns] in H. destruct ((len raw =? 0) || (sl =? 0)).
    + destruct (IH _ _ _ _ _ _ _ _ _ _ H) as [Hns Himp]. split; [exact Hns|].
      intros Hb. inversion Hb; subst. apply Himp. assumption.
    + cbv zeta in H.
      destruct (mloop_ns raw lo co (wrap_i32 nsrc) (wrap_i32 nnames) sl nl (S (length raw)) _ 0 acc _)
        as [[c v e cur|st acc' ns']| |] eqn:Em; cbn [bind] in H; try discriminate.
      destruct (IH _ _ _ _ _ _ _ _ _ _ H) as [Hns' Himp]. subst ns'.
      destruct (mloop_ns_sorted _ _ _ _ _ _ _ _ _ _ _ _ _ _ Em) as [Hns Hinv].
      apply orb_false_iff in Hns as [Hns H3]. apply orb_false_iff in Hns as [Hns H2].
      split; [exact Hns|].
      intros Hb Hd Hall. inversion Hb as [|? ? Hhd Hb']; subst. unfold sec_bounds in Hhd. destruct Hhd as (B1 & B2 & B3).
      assert (HI : Inv (S (length raw)) (mkM lo co (wrap_i32 nsrc) 0 0 (wrap_i32 nnames)) acc).
      { unfold Inv, InvEnd, len in *. cbn [gl gc]. repeat split; try assumption; try lia.
        eapply Forall_impl; [|exact Hall]. intros x Hx. eapply ple_trans; [exact Hx|].
        unfold ple. cbn [fst snd]. lia. }
      destruct (Hinv HI) as (D1 & D2 & _).
      apply Himp; assumption.
Qed.

(* ParseSourceMap's Mappings are sorted by generated position and index inside
   Sources / Names *)
Theorem parse_sorted_in_range : forall secs n1 n2 ms flag,
  sections_ok secs -> total_sources secs < 2 ^ 31 -> total_names secs < 2 ^ 31 ->
  Forall sec_bounds secs ->
  ParseMappingsOrdered secs = Ok (QMap n1 n2 ms flag) ->
  sorted_maps (map conv ms) /\ Forall (good_mapping n1 n2) ms.
Proof.
  intros secs n1 n2 ms flag Hok Hs Hn Hb E. unfold ParseMappingsOrdered in E.
  pose proof (psections_ns_rel secs 0 0 0 [] 0 0 false) as R. rewrite E in R.
  destruct R as (ms0 & E0 & Ems).
  pose proof (parsed_map_indices_in_range_all secs n1 n2 ms0 Hok Hs Hn E0) as Hgood.
  destruct flag.
  - subst ms. split; [apply ssorted_sorted_maps, sort_pos_ssorted|apply Forall_sort_pos, Hgood].
  - subst ms. split; [|exact Hgood].
    apply ssorted_sorted_maps.
    destruct (psections_ns_sorted _ _ _ _ _ _ _ _ _ _ _ E) as [_ Himp].
    apply Himp; [exact Hb|exact I|constructor].
Qed.

From V Require Import C07.BuilderInProofs.

Lemma good_names_in_range n1 n2 ms (inames : list Z) :
  Z.of_nat (length inames) = n2 -> Forall (good_mapping n1 n2) ms -> names_in_range (map conv ms) inames.
Proof.
  intros Hl H. unfold names_in_range. apply Forall_map. eapply Forall_impl; [|exact H].
  intros [[[[[l c] s] ol] oc] name] Hg. unfold good_mapping in Hg. cbn [conv m_name].
  destruct (name <? 0) eqn:E; [exact I|]. lia.
Qed.

(* every source map ParseSourceMap returns satisfies what builder_composes asks
   of an input map: sorted by generated position, name indices inside Names *)
Theorem parsed_map_composable : forall secs n1 n2 ms flag (inames : list Z),
  sections_ok secs -> total_sources secs < 2 ^ 31 -> total_names secs < 2 ^ 31 ->
  Forall sec_bounds secs ->
  ParseMappingsOrdered secs = Ok (QMap n1 n2 ms flag) ->
  Z.of_nat (length inames) = n2 ->
  sorted_maps (map conv ms) /\ names_in_range (map conv ms) inames.
Proof.
  intros secs n1 n2 ms flag inames H1 H2 H3 H4 E Hl.
  destruct (parse_sorted_in_range secs n1 n2 ms flag H1 H2 H3 H4 E) as [A B].
  split; [exact A|]. eapply good_names_in_range; eassumption.
Qed.
