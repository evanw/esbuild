(* builder_mappings_exact: what the mappings of a ChunkBuilder chunk ARE.
   The model of Builder.v (AddSourceMapping / updateGeneratedLineAndColumn /
   appendMapping / GenerateChunk) is related, call by call, to the specification
   walk of SpecBuilder.v: the walk's state is a projection [view] of the builder's,
   and the invariant [Rel] says which events the builder has written. *)
From V Require Import Common.Base Common.Utf8 C07.Vlq C07.SpecMap C07.Mappings C07.LineCol C07.Builder
  C07.VlqProofs C07.MappingsProofs C07.JoinProofs C07.BuilderProofs C07.LineColAux C07.LineColProofs
  C07.SpecBuilder.

(* updateGeneratedLineAndColumn in closed form: [iter_nl k] for the k line breaks crossed,
   then the column where the scan ends ([upd_runes_eq]) *)

Definition set_gencol (b : bst) (c : Z) : bst :=
  mkBst (b_map b) (b_names b) (b_prev b) c (b_prevlen b) (b_len b) (b_prevloc b)
        (b_prevname b) (b_firstname b) (b_hasprev b) (b_linestart b) (b_cover b) (b_pending b).

(* the body of the line-break case *)
Definition nl_step (b : bst) : bst :=
  put_semi (if b_cover b && negb (b_linestart b) && b_hasprev b then append_raw b (cover_state b) else b).

Fixpoint iter_nl (k : nat) (b : bst) : bst :=
  match k with O => b | S k' => iter_nl k' (nl_step b) end.

Lemma upd_runes_cons i c w r rest b :
  upd_runes ((i, c, w) :: r) rest b =
  if is_newline c then
    if (c =? 13) && next_lf (skipn w rest) then upd_runes r (skipn w rest) b
    else upd_runes r (skipn w rest) (nl_step b)
  else upd_runes r (skipn w rest) (set_gencol b (b_gencol b + u16w c)).
Proof. reflexivity. Qed.

Lemma set_gencol_id b : set_gencol b (b_gencol b) = b.
Proof. destruct b; reflexivity. Qed.

Lemma append_raw_gencol b c cur : append_raw (set_gencol b c) cur = set_gencol (append_raw b cur) c.
Proof. unfold append_raw, set_gencol. cbn [b_map b_prev b_firstname]. destruct (appendMapping _ _ _ _). reflexivity. Qed.

Lemma nl_step_gencol b c : nl_step (set_gencol b c) = nl_step b.
Proof.
  unfold nl_step. change (cover_state (set_gencol b c)) with (cover_state b). rewrite append_raw_gencol.
  cbn [set_gencol b_cover b_linestart b_hasprev]. destruct (b_cover b && negb (b_linestart b) && b_hasprev b); reflexivity.
Qed.

Lemma iter_nl_gencol k b x c : set_gencol (iter_nl k (set_gencol b x)) c = set_gencol (iter_nl k b) c.
Proof.
  destruct k as [|k]; [reflexivity|]. cbn [iter_nl]. rewrite nl_step_gencol. reflexivity.
Qed.

Lemma next_lf_head rest : next_lf rest = true -> exists r, rest = 10 :: r.
Proof.
  destruct rest as [|x r]; cbn; [discriminate|]. intro H. exists r. f_equal. lia.
Qed.

Lemma upd_runes_eq : forall fuel rest i b line col,
  (length rest <= fuel)%nat ->
  (b_gencol b = col \/ next_lf rest = true) ->
  line <= fst (advance_runes (runes_from fuel rest i) rest line col) /\
  upd_runes (runes_from fuel rest i) rest b =
    set_gencol (iter_nl (Z.to_nat (fst (advance_runes (runes_from fuel rest i) rest line col) - line)) b)
               (snd (advance_runes (runes_from fuel rest i) rest line col)).
Proof.
  induction fuel as [|f IH]; intros rest i b line col Hlen Hc; destruct rest as [|x0 r0] eqn:Er.
  1, 3:
    cbn [runes_from advance_runes upd_runes fst snd];
    destruct Hc as [Hc|Hc]; [|discriminate]; rewrite Z.sub_diag; cbn [Z.to_nat iter_nl];
    split; [lia|]; rewrite <- Hc; symmetry; apply set_gencol_id.
  - cbn in Hlen. lia.
  - rewrite <- Er in *. assert (Hne : rest <> []) by (subst; discriminate).
    rewrite runes_from_S by exact Hne.
    destruct (decode_rune rest) as [c w] eqn:Ed. cbn [fst snd].
    destruct (decode_rune_facts rest c w Hne Ed) as (Hw1 & Hw2 & _).
    assert (Hlen' : (length (skipn w rest) <= f)%nat) by (rewrite skipn_length; lia).
    rewrite upd_runes_cons, advance_cons. unfold sstep.
    destruct (is_newline c) eqn:Enl; [destruct ((c =? 13) && next_lf (skipn w rest)) eqn:Ecr|].
    + (* CR of CRLF *)
      cbn [fst snd]. apply IH; [exact Hlen'|]. right. apply andb_true_iff in Ecr. apply Ecr.
    + (* line break *)
      cbn [fst snd].
      destruct (IH (skipn w rest) (i + Z.of_nat w) (nl_step b) (line + 1) 0 Hlen' (or_introl eq_refl)) as [H1 H2].
      split; [lia|]. rewrite H2.
      set (L := fst (advance_runes _ _ (line + 1) 0)) in *.
      replace (Z.to_nat (L - line)) with (S (Z.to_nat (L - (line + 1)))) by lia.
      reflexivity.
    + (* ordinary character *)
      assert (Hg : b_gencol b = col).
      { destruct Hc as [Hc|Hc]; [exact Hc|]. destruct (next_lf_head _ Hc) as (r & Hr).
        rewrite Hr in Ed. cbn in Ed. inversion Ed; subst c. discriminate. }
      cbn [fst snd]. rewrite Hg.
      destruct (IH (skipn w rest) (i + Z.of_nat w) (set_gencol b (col + u16w c)) line (col + u16w c) Hlen' (or_introl eq_refl)) as [H1 H2].
      split; [exact H1|]. rewrite H2. apply iter_nl_gencol.
Qed.

Lemma advance_mono : forall rs rest line col, 0 <= col ->
  line <= fst (advance_runes rs rest line col) /\
  0 <= snd (advance_runes rs rest line col) /\
  (fst (advance_runes rs rest line col) = line -> col <= snd (advance_runes rs rest line col)).
Proof.
  induction rs as [|[[i c] w] r IH]; intros rest line col Hc.
  - cbn. lia.
  - rewrite advance_cons. unfold sstep. destruct (u16w_facts c) as (Hu & _).
    destruct (is_newline c); [destruct ((c =? 13) && _)|]; cbn [fst snd].
    + destruct (IH (skipn w rest) line (col + 1) ltac:(lia)) as (A & B & C). repeat split; try lia; intro E; specialize (C E); lia.
    + destruct (IH (skipn w rest) (line + 1) 0 ltac:(lia)) as (A & B & C). repeat split; lia.
    + destruct (IH (skipn w rest) line (col + u16w c) ltac:(lia)) as (A & B & C). repeat split; try lia; intro E; specialize (C E); lia.
Qed.

Lemma adv_eq p t : adv p t = advance_runes (runes t) t (fst p) (snd p).
Proof.
  unfold adv. pose proof (spec_at_end (runes t) t 0 (fst p) (snd p) (runes_wf t)) as H.
  rewrite Z.add_0_l in H. exact H.
Qed.

(* The walk of SpecBuilder.v needs no state of its own: what it keeps is a projection of
   the builder's fields. *)
Definition view (b : bst) : sw :=
  mkSw (gline (b_prev b)) (b_gencol b) (b_pending b) (b_len b) (b_prevloc b) (b_prevlen b) (b_prevname b)
       (b_names b) (if b_hasprev b then Some (oline (b_prev b), ocol (b_prev b)) else None) (b_linestart b).

(* [ops] is what the builder has written; with coverLinesWithoutMappings every mapping is to
   source 0, so that a cover mapping repeats the previous one's source *)
Definition Rel0 (cover : bool) (b : bst) (ops : list op) : Prop :=
  Emitted b ops /\
  0 <= gcol (b_prev b) /\
  b_firstname b = option_map Z.of_nat (first_name_off ops 0 state0 0) /\
  b_cover b = cover /\
  (cover = true -> sidx (b_prev b) = 0).

Definition Rel (cover : bool) (b : bst) (ops : list op) : Prop :=
  Rel0 cover b ops /\ (b_linestart b = false -> gcol (b_prev b) = 0).

Lemma first_name_off_app : forall a b lb p base,
  first_name_off (a ++ b) lb p base =
  match first_name_off a lb p base with
  | Some x => Some x
  | None => let '(ba, lba, sa) := emit a lb p in first_name_off b lba sa (base + length ba)%nat
  end.
Proof.
  induction a as [|o a IH]; intros b lb p base.
  - cbn. rewrite Nat.add_0_r. reflexivity.
  - destruct o as [|gc si ol oc nm|gc]; cbn [app first_name_off emit].
    + rewrite IH. destruct (first_name_off a SEMI _ (S base)); [reflexivity|].
      destruct (emit a SEMI _) as [[ba lba] sa]. cbn [length].
      replace (S base + length ba)%nat with (base + S (length ba))%nat by lia. reflexivity.
    + destruct (next_state p gc si ol oc nm) as [cur prev'].
      destruct (appendMapping lb p cur false) as [seg off] eqn:Eapp. cbn [fst].
      destruct off as [o|]; [reflexivity|].
      rewrite IH. destruct (first_name_off a _ prev' _); [reflexivity|].
      destruct (emit a (last seg lb) prev') as [[ba lba] sa]. rewrite app_length.
      replace (base + length seg + length ba)%nat with (base + (length seg + length ba))%nat by lia. reflexivity.
    + rewrite IH. destruct (first_name_off a _ (null_state p gc) _); [reflexivity|].
      destruct (emit a _ (null_state p gc)) as [[ba lba] sa]. rewrite app_length.
      replace (base + length (null_seg lb p gc) + length ba)%nat with (base + (length (null_seg lb p gc) + length ba))%nat by lia.
      reflexivity.
Qed.

Definition set_last (w : sw) (ol oc : Z) : sw :=
  mkSw (w_line w) (w_col w) (w_pend w) (w_len w) (w_ploc w) (w_plen w) (w_pname w) (w_names w) (Some (ol, oc)) (w_has w).

(* appendMappingWithoutRemapping of a mapping on the current line *)
Lemma rel0_append_raw cover b ops gc si ol oc nm :
  Rel0 cover b ops -> gcol (b_prev b) <= gc -> gc <= b_gencol b -> (cover = true -> si = 0) ->
  let b' := append_raw b (mkState (gline (b_prev b)) gc si ol oc (nm_id nm) (nm_has nm)) in
  Rel0 cover b' (ops ++ [OMap gc si ol oc nm]) /\ view b' = set_last (view b) ol oc.
Proof.
  intros (HE & Hnn & Hfno & Hcov & Hsidx) Hge Hgc Hsi.
  destruct (emitted_append_raw b ops gc si ol oc nm HE Hge Hgc) as (HE' & Hgc' & _).
  set (cur := mkState (gline (b_prev b)) gc si ol oc (nm_id nm) (nm_has nm)) in *.
  cbv zeta in *. split.
  - split; [exact HE'|]. rewrite Hgc'. split; [lia|]. clear HE' Hgc'.
    destruct HE as (He & _). unfold append_raw.
    destruct (appendMapping (last (b_map b) 0) (b_prev b) cur false) as [seg off] eqn:Eapp.
    unfold set_map. cbn [b_firstname b_cover b_prev]. repeat split.
    + rewrite first_name_off_app, Hfno.
      destruct (first_name_off ops 0 state0 0) as [x|]; [reflexivity|].
      rewrite He. cbn [first_name_off].
      assert (Hcur : fst (next_state (b_prev b) gc si ol oc nm) = cur)
        by (unfold next_state; subst cur; destruct nm; reflexivity).
      destruct (next_state (b_prev b) gc si ol oc nm) as [cur0 prev0]. cbn [fst] in Hcur. subst cur0.
      rewrite Eapp. unfold appendMapping in Eapp. subst cur. destruct nm as [n|]; cbn [has_name nm_has] in *.
      * inversion Eapp. cbn [option_map]. f_equal. lia.
      * inversion Eapp. reflexivity.
    + exact Hcov.
    + intro Hc. subst cur. destruct nm; cbn; exact (Hsi Hc).
  - unfold append_raw. destruct (appendMapping (last (b_map b) 0) (b_prev b) cur false) as [seg off].
    subst cur. destruct nm; reflexivity.
Qed.

(* the cover mapping: a copy of the previous mapping at column 0 *)
Lemma rel0_cover b ops :
  Rel0 true b ops -> b_hasprev b = true -> gcol (b_prev b) = 0 ->
  let b' := append_raw b (cover_state b) in
  Rel0 true b' (ops ++ cover_op true (w_last (view b))) /\ view b' = view b.
Proof.
  intros R Hp Hz.
  pose proof R as ((_ & _ & _ & Hle) & _ & _ & _ & Hsidx).
  destruct (rel0_append_raw true b ops 0 0 (oline (b_prev b)) (ocol (b_prev b)) None R) as (A & C);
    [lia|lia|reflexivity|].
  cbv zeta in A, C. cbn [nm_id nm_has] in A, C.
  unfold cover_state. rewrite (Hsidx eq_refl). cbn [view w_last]. rewrite Hp.
  split; [exact A|].
  rewrite C. unfold set_last, view. cbn. rewrite Hp. reflexivity.
Qed.

(* ... which AddSourceMapping puts in front of a mapping that is not at column 0 *)
Lemma rel_cover_before cover b ops :
  Rel cover b ops ->
  let b' := if b_cover b && negb (b_linestart b) && (0 <? b_gencol b) && b_hasprev b
            then append_raw b (cover_state b) else b in
  Rel0 cover b' (ops ++ (if negb (b_linestart b) && (0 <? b_gencol b) then cover_op cover (w_last (view b)) else [])) /\
  view b' = view b.
Proof.
  intros (R & Rz). cbv zeta. pose proof R as (_ & _ & _ & Hcov & _). rewrite Hcov. cbn [view w_last].
  destruct cover, (b_linestart b), (0 <? b_gencol b), (b_hasprev b) eqn:Ep;
    cbn [andb negb cover_op]; rewrite ?app_nil_r; try (split; [exact R|reflexivity]).
  destruct (rel0_cover b ops R Ep (Rz eq_refl)) as (A & C).
  cbn [view w_last cover_op] in A. rewrite Ep in A. split; [exact A|exact C].
Qed.

Lemma rel0_put_semi cover b ops : Rel0 cover b ops -> Rel cover (put_semi b) (ops ++ [ONewline]).
Proof.
  intros (HE & Hnn & Hfno & Hcov & Hsidx). split; [|reflexivity].
  split; [exact (emitted_put_semi b ops HE)|]. cbn [put_semi b_prev b_firstname b_cover gcol sidx].
  repeat split; try assumption; [lia|].
  rewrite first_name_off_app, Hfno.
  destruct (first_name_off ops 0 state0 0); [reflexivity|]. destruct HE as (-> & _). reflexivity.
Qed.

(* the walk after [k] line breaks *)
Definition w_nls (k : nat) (w : sw) : sw :=
  mkSw (w_line w + Z.of_nat k) (match k with O => w_col w | S _ => 0 end) (w_pend w) (w_len w)
       (w_ploc w) (w_plen w) (w_pname w) (w_names w) (w_last w) (match k with O => w_has w | S _ => false end).

Lemma rel_nl cover b ops :
  Rel cover b ops ->
  Rel cover (nl_step b) (ops ++ (if b_linestart b then [] else cover_op cover (w_last (view b))) ++ [ONewline]) /\
  view (nl_step b) = w_nls 1 (view b).
Proof.
  intros (R & Hz). unfold nl_step. pose proof R as (_ & _ & _ & Hcov & _).
  destruct (b_cover b && negb (b_linestart b) && b_hasprev b) eqn:Ec.
  - (* the cover mapping is inserted *)
    apply andb_true_iff in Ec as [Ec Hp]. apply andb_true_iff in Ec as [E1 E2].
    rewrite Hcov in E1. clear Hcov. subst cover. destruct (b_linestart b); [discriminate|].
    destruct (rel0_cover b ops R Hp (Hz eq_refl)) as (A & C).
    cbv iota. rewrite app_assoc. split; [exact (rel0_put_semi _ _ _ A)|].
    change (w_nls 1 (view (append_raw b (cover_state b))) = w_nls 1 (view b)). rewrite C. reflexivity.
  - split; [|reflexivity].
    replace (if b_linestart b then [] else cover_op cover (w_last (view b))) with (@nil op);
      [exact (rel0_put_semi _ _ _ R)|].
    rewrite <- Hcov. cbn [view w_last]. unfold cover_op.
    destruct (b_linestart b), (b_cover b), (b_hasprev b); try reflexivity. discriminate.
Qed.

Lemma rel_iter_nl cover : forall k b ops,
  Rel cover b ops ->
  Rel cover (iter_nl k b) (ops ++ breaks_ops k (cover_op cover (w_last (view b))) (b_linestart b)) /\
  view (iter_nl k b) = w_nls k (view b).
Proof.
  induction k as [|k IH]; intros b ops H.
  - cbn [iter_nl breaks_ops]. rewrite app_nil_r. split; [exact H|].
    unfold w_nls. rewrite Z.add_0_r. destruct (view b); reflexivity.
  - cbn [iter_nl breaks_ops].
    destruct (rel_nl _ _ _ H) as [H1 V1]. destruct (IH _ _ H1) as [H2 V2].
    change (b_linestart (nl_step b)) with (w_has (view (nl_step b))) in H2.
    rewrite V1 in H2. rewrite V2, V1. cbn [w_nls w_last w_has] in H2. rewrite <- !app_assoc in H2. split; [exact H2|].
    unfold w_nls. cbn [w_line w_col w_pend w_len w_ploc w_plen w_pname w_names w_last w_has].
    destruct k; f_equal; lia.
Qed.

(* updateGeneratedLineAndColumn(output) *)
Definition w_scan (w : sw) (delta : bytes) : sw :=
  let t := w_pend w ++ delta in
  let lc := adv (w_line w, w_col w) t in
  mkSw (fst lc) (snd lc) [] (w_len w + Z.of_nat (length t)) (w_ploc w) (w_plen w) (w_pname w) (w_names w) (w_last w)
       (match Z.to_nat (fst lc - w_line w) with O => w_has w | S _ => false end).

Lemma rel_update_gen cover b ops delta :
  Rel cover b ops ->
  let lc := adv (gline (b_prev b), b_gencol b) (b_pending b ++ delta) in
  Rel cover (update_gen b delta)
      (ops ++ breaks_ops (Z.to_nat (fst lc - gline (b_prev b))) (cover_op cover (w_last (view b))) (b_linestart b)) /\
  view (update_gen b delta) = w_scan (view b) delta.
Proof.
  intros H lc. subst lc. unfold update_gen, w_scan. cbn [view w_line w_col w_pend w_len w_has].
  set (t := b_pending b ++ delta).
  destruct (upd_runes_eq (length t) t 0 b (gline (b_prev b)) (b_gencol b) (le_n _) (or_introl eq_refl)) as [_ Heq].
  fold (runes t) in Heq. rewrite Heq.
  set (lc := adv (gline (b_prev b), b_gencol b) t).
  assert (Hlc : advance_runes (runes t) t (gline (b_prev b)) (b_gencol b) = lc) by (subst lc; rewrite adv_eq; reflexivity).
  rewrite Hlc.
  set (k := Z.to_nat (fst lc - gline (b_prev b))).
  destruct (rel_iter_nl cover k b ops H) as (((HE & Hnn & K0) & Kz) & V).
  assert (Hw0 : 0 <= b_gencol b).
  { destruct H as (((_ & _ & _ & Hle) & Hnn0 & _) & _). lia. }
  destruct (advance_mono (runes t) t (gline (b_prev b)) (b_gencol b) Hw0) as (M1 & M2 & M3).
  rewrite Hlc in M1, M2, M3.
  split.
  - split; [|exact Kz]. split; [|split; [exact Hnn|exact K0]].
    (* the column has not fallen behind prevState: on a new line that is at column 0 *)
    destruct HE as (He & Hs & Hec & Hle). repeat split; try assumption.
    cbn [set_gencol b_prev b_gencol].
    assert (Hc : b_gencol (iter_nl k b) = w_col (w_nls k (view b))) by (rewrite <- V; reflexivity).
    rewrite Hc in Hle. cbn [w_nls w_col view] in Hle. destruct k eqn:Ek; [|lia].
    apply (Z.le_trans _ _ _ Hle). apply M3. lia.
  - unfold view in V |- *.
    cbn [set_gencol b_prev b_gencol b_pending b_len b_prevloc b_prevlen b_prevname b_names b_hasprev b_linestart].
    injection V as V1 _ V3 V4 V5 V6 V7 V8 V9 V10.
    rewrite V1, V5, V6, V7, V8, V9, V10. fold k. f_equal. lia.
Qed.

(* AddSourceMapping before anything is appended: the call is recorded as the previous one and
   the output printed since the last recorded call is scanned *)
Lemma rel_record_scan cover b ops loc name delta :
  Rel cover b ops ->
  let newlen := b_len b + Z.of_nat (length (b_pending b)) + Z.of_nat (length delta) in
  let b0 := mkBst (b_map b) (b_names b) (b_prev b) (b_gencol b) newlen (b_len b) loc name
                  (b_firstname b) (b_hasprev b) (b_linestart b) (b_cover b) (b_pending b) in
  let lc := adv (gline (b_prev b), b_gencol b) (b_pending b ++ delta) in
  let k := Z.to_nat (fst lc - gline (b_prev b)) in
  Rel cover (update_gen b0 delta) (ops ++ breaks_ops k (cover_op cover (w_last (view b))) (b_linestart b)) /\
  view (update_gen b0 delta) =
    mkSw (fst lc) (snd lc) [] (b_len b + Z.of_nat (length (b_pending b ++ delta))) loc newlen name
         (b_names b) (w_last (view b)) (match k with O => b_linestart b | S _ => false end).
Proof.
  (* [Rel] does not look at the three fields that record the call *)
  intros H newlen b0. exact (rel_update_gen cover b0 ops delta H).
Qed.

Lemma name_pos_eq id l i : name_pos id l i = index_of_name id l i.
Proof. reflexivity. Qed.

(* the walk after a mapping to (ol, oc) named [name] *)
Definition w_mapped (w : sw) (name ol oc : Z) : sw :=
  mkSw (w_line w) (w_col w) (w_pend w) (w_len w) (w_ploc w) (w_plen w) (w_pname w)
       (fst (name_index (w_names w) name)) (Some (ol, oc)) (w_has w).

(* appendMapping without input map at the current position: name lookup + raw append *)
Lemma rel0_append_named cover b ops name si ol oc :
  Rel0 cover b ops -> (cover = true -> si = 0) ->
  let b' := append_named b name (mkState (gline (b_prev b)) (b_gencol b) si ol oc 0 false) in
  Rel0 cover b' (ops ++ [OMap (b_gencol b) si ol oc (snd (name_index (b_names b) name))]) /\
  view b' = w_mapped (view b) name ol oc.
Proof.
  intros R Hsi. cbv zeta.
  pose proof R as ((_ & _ & _ & Hle) & _).
  unfold w_mapped. cbn [view w_line w_col w_pend w_len w_ploc w_plen w_pname w_names w_has].
  unfold name_index, append_named. rewrite (name_pos_eq name (b_names b) 0).
  destruct (name =? 0); [|destruct (index_of_name name (b_names b) 0) as [idx|]]; cbn [fst snd].
  - exact (rel0_append_raw cover b ops (b_gencol b) si ol oc None R Hle (Z.le_refl _) Hsi).
  - exact (rel0_append_raw cover b ops (b_gencol b) si ol oc (Some idx) R Hle (Z.le_refl _) Hsi).
  - (* the new name is added to the table first, which [Rel0] does not look at *)
    set (b' := mkBst (b_map b) (b_names b ++ [name]) (b_prev b) (b_gencol b) (b_prevlen b) (b_len b)
                     (b_prevloc b) (b_prevname b) (b_firstname b) (b_hasprev b) (b_linestart b) (b_cover b) (b_pending b)).
    exact (rel0_append_raw cover b' ops (b_gencol b) si ol oc (Some (Z.of_nat (length (b_names b)))) R Hle (Z.le_refl _) Hsi).
Qed.

(* lineStartsWithMapping = true *)
Definition set_has (w : sw) : sw :=
  mkSw (w_line w) (w_col w) (w_pend w) (w_len w) (w_ploc w) (w_plen w) (w_pname w) (w_names w) (w_last w) true.

Section Event.
Variable text : bytes.
Variable cover : bool.

Lemma rel_event b ops loc name delta :
  Rel cover b ops -> boundary text loc ->
  exists b', AddSourceMapping (GenerateLineOffsetTables text) b loc name delta = Some b' /\
             view b' = fst (sp_event text cover (view b) loc name delta) /\
             Rel cover b' (ops ++ snd (sp_event text cover (view b) loc name delta)).
Proof.
  intros H Hb. unfold AddSourceMapping, sp_event.
  cbn [view w_line w_col w_pend w_len w_ploc w_plen w_pname w_names w_last w_has].
  set (newlen := b_len b + Z.of_nat (length (b_pending b)) + Z.of_nat (length delta)).
  destruct ((loc =? b_prevloc b) && ((b_prevlen b =? newlen) || (b_prevname b =? name))).
  - (* suppressed as a duplicate: only the pending output grows *)
    eexists. split; [reflexivity|]. cbn [fst snd]. rewrite app_nil_r. split; [reflexivity|exact H].
  - rewrite (lineoffset_is_spec text loc Hb).
    destruct (linecol_utf16 text loc) as [ol oc].
    eexists. split; [reflexivity|]. cbn [fst snd].
    destruct (rel_record_scan cover b ops loc name delta H) as [R1 W]. cbv zeta in R1, W. fold newlen in R1, W.
    set (lc := adv (gline (b_prev b), b_gencol b) (b_pending b ++ delta)) in *.
    set (k := Z.to_nat (fst lc - gline (b_prev b))) in *.
    set (b1 := update_gen _ delta) in *.
    set (last := w_last (view b)) in *.
    set (ops1 := ops ++ breaks_ops k (cover_op cover last) (b_linestart b)) in *.
    (* b2: the cover mapping in front of a mapping that is not at column 0 *)
    destruct (rel_cover_before cover b1 ops1 R1) as [R2 V2]. cbv zeta in R2, V2.
    set (b2 := if b_cover b1 && negb (b_linestart b1) && (0 <? b_gencol b1) && b_hasprev b1
               then append_raw b1 (cover_state b1) else b1) in *.
    rewrite (f_equal w_has W : b_linestart b1 = _), (f_equal w_col W : b_gencol b1 = _),
            (f_equal w_last W : w_last (view b1) = _) in R2.
    cbn [w_has w_col w_last] in R2. rewrite W in V2. clear W.
    set (cov := if negb (match k with O => b_linestart b | S _ => false end) && (0 <? snd lc)
                then cover_op cover last else []) in *.
    (* b3: the mapping itself, after which lineStartsWithMapping is set *)
    destruct (rel0_append_named cover b2 (ops1 ++ cov) name 0 ol oc R2 (fun _ => eq_refl)) as (A & V).
    cbv zeta in A, V. set (b3 := append_named b2 name _) in *. rewrite V2 in V.
    rewrite (f_equal w_col V2 : b_gencol b2 = _), (f_equal w_names V2 : b_names b2 = _) in A.
    cbn [w_col w_names] in A.
    split; [|split; [|discriminate]].
    + change (set_has (view b3) = mkSw (fst lc) (snd lc) [] (b_len b + Z.of_nat (length (b_pending b ++ delta))) loc newlen name
                                       (fst (name_index (b_names b) name)) (Some (ol, oc)) true).
      rewrite V. reflexivity.
    + subst ops1 cov. rewrite <- !app_assoc in A. exact A.
Qed.

Lemma rel_run : forall evs b ops,
  Rel cover b ops -> Forall (fun e => boundary text (fst (fst e))) evs ->
  exists b', run_builder (GenerateLineOffsetTables text) b evs = Some b' /\
             view b' = fst (sp_run text cover (view b) evs) /\
             Rel cover b' (ops ++ snd (sp_run text cover (view b) evs)).
Proof.
  induction evs as [|[[loc name] delta] evs IH]; intros b ops H Hall.
  - exists b. split; [reflexivity|]. cbn [sp_run fst snd]. rewrite app_nil_r. split; [reflexivity|exact H].
  - inversion Hall as [|e l Hb Hall']; subst. cbn [fst] in Hb.
    destruct (rel_event b ops loc name delta H Hb) as (b1 & E1 & V1 & R1).
    destruct (IH b1 _ R1 Hall') as (b' & E' & V' & R').
    exists b'. cbn [run_builder]. rewrite E1. split; [exact E'|].
    cbn [sp_run fst snd]. rewrite <- V1, app_assoc. split; [exact V'|exact R'].
Qed.
End Event.

Lemma Rel_init cover : Rel cover (bst0 cover) [].
Proof.
  split; [|reflexivity]. unfold Rel0, Emitted. cbn. repeat split; lia.
Qed.

(* GenerateChunk(output ++ fin) scans the rest of the output and returns what has been written *)
Lemma rel_chunk cover b ops fin :
  Rel cover b ops ->
  let lc := adv (gline (b_prev b), b_gencol b) (b_pending b ++ fin) in
  let ops' := ops ++ breaks_ops (Z.to_nat (fst lc - gline (b_prev b))) (cover_op cover (w_last (view b))) (b_linestart b) in
  let '(data, fno, names, endst, fcol, _) := GenerateChunk b fin in
  data = emit_bytes ops' /\
  spec_decode data = Some (abs_of ops' 0) /\
  fno = option_map Z.of_nat (first_name_off ops' 0 state0 0) /\
  names = b_names b /\ fcol = snd lc /\
  endst = snd (emit ops' 0 state0) /\
  sorted_ops ops' 0 /\ end_col ops' 0 <= fcol.
Proof.
  intros R lc ops'.
  destruct (rel_update_gen cover b ops fin R) as ((((He & Hs & Hec & Hle) & _ & Hfno & _) & _) & V).
  fold lc ops' in He, Hs, Hec, Hfno. unfold GenerateChunk.
  assert (Hdata : b_map (update_gen b fin) = emit_bytes ops') by (unfold emit_bytes; rewrite He; reflexivity).
  repeat split.
  - exact Hdata.
  - rewrite Hdata. apply mappings_roundtrip_all.
  - exact Hfno.
  - exact (f_equal w_names V).
  - exact (f_equal w_col V).
  - rewrite He. reflexivity.
  - exact Hs.
  - rewrite Hec. exact Hle.
Qed.

(* For every original text, every list of AddSourceMapping calls at character
   boundaries of the text, every output text, with or without
   coverLinesWithoutMappings: the builder does not panic, and the chunk it
   returns is, byte for byte, the v3 encoding of the specified events; its name
   table, first-name offset, end state and final column are the specified ones
   and the events are sorted within each generated line. *)
Theorem builder_exact_all : forall text cover evs fin,
  Forall (fun e => boundary text (fst (fst e))) evs ->
  exists b, run_builder (GenerateLineOffsetTables text) (bst0 cover) evs = Some b /\
    let '(data, fno, names, endst, fcol, _) := GenerateChunk b fin in
    let '(ops, snames, scol) := builder_spec text cover evs fin in
    data = emit_bytes ops /\
    spec_decode data = Some (abs_of ops 0) /\
    fno = option_map Z.of_nat (first_name_off ops 0 state0 0) /\
    names = snames /\ fcol = scol /\
    endst = snd (emit ops 0 state0) /\
    sorted_ops ops 0 /\ end_col ops 0 <= fcol.
Proof.
  intros text cover evs fin Hall.
  destruct (rel_run text cover evs _ _ (Rel_init cover) Hall) as (b & Erun & V & R).
  exists b. split; [exact Erun|].
  cbn [app] in R. change (view (bst0 cover)) with sw0 in V, R.
  unfold builder_spec, sp_final. rewrite <- V. cbn [fst snd].
  exact (rel_chunk cover b _ fin R).
Qed.
