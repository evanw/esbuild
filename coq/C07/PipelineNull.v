(* pipeline_exact and the emitted JSON with null entries: the compiled files of a
   chunk interleaved with files whose chunk has no mappings. *)
From V Require Import Common.Base Common.Utf8 C07.Vlq C07.SpecMap C07.Mappings C07.LineCol C07.Builder
  C07.VlqProofs C07.MappingsProofs C07.JoinProofs C07.BuilderProofs C07.LineColAux C07.LineColProofs
  C07.SpecBuilder C07.BuilderExact C07.JoinAll C07.JoinAllProofs C07.JoinNullProofs C07.Shift C07.ShiftAux C07.ShiftProofs
  C07.Pipeline C19.Json C19.JsonSpec C19.JsonProofs C07.SmJson C07.SmJsonProofs C07.SmPipeline.

(* a source file with mappings, or a file without mappings (only its source index matters) *)
Inductive src_item := SFile (sf : src_file) | SNull (src : Z).

Definition spec_item (si : src_item) : jitem :=
  match si with SFile sf => JFile (spec_file sf) | SNull src => JNull src end.

Definition built_item (si : src_item) : option jres :=
  match si with SFile sf => built_res sf | SNull src => Some (res_of_item (JNull src)) end.

Definition src_item_ok (si : src_item) : Prop := match si with SFile sf => src_ok sf | SNull _ => True end.

Lemma built_items_spec : forall sis, Forall src_item_ok sis ->
  map built_item sis = map Some (map res_of_item (map spec_item sis)) /\
  Forall item_ok (map spec_item sis) /\ Forall item_wf (map spec_item sis).
Proof.
  induction 1 as [|[sf|src] l Hs _ IH]; [repeat split; constructor| |]; destruct IH as (A' & B' & C'); cbn [map].
  - destruct (built_is_spec sf Hs) as (A & B & C). cbn [built_item spec_item res_of_item].
    rewrite A, A'. repeat split; constructor; assumption.
  - cbn [built_item spec_item]. rewrite A'. repeat split; constructor; try assumption; exact I.
Qed.

Theorem pipeline_exact_items : forall (sis : list src_item) sh,
  Forall src_item_ok sis -> shifts_wf sh ->
  exists rs m result,
    map built_item sis = map Some rs /\
    join_all rs = Some m /\
    Finalize sh m = Some result /\
    result = emit_bytes (shift_ops sh (joined_ops_i (assign_sources rs [] 0) (map spec_item sis) 0 0) 0) /\
    spec_decode result =
      Some (map (shift_abs sh) (joined_abs_i (assign_sources rs [] 0) (map spec_item sis) (0, 0) 0)).
Proof.
  intros sis sh Hok Hsh.
  destruct (built_items_spec sis Hok) as (Hrs & Hio & Hiw).
  destruct (join_finalize_items _ sh Hio Hiw Hsh) as (m & Ej & F1 & F3).
  eexists (map res_of_item (map spec_item sis)), m, _.
  split; [exact Hrs|]. split; [exact Ej|]. split; [exact F1|]. split; [reflexivity|exact F3].
Qed.

Theorem sourcemap_json_items : forall (sis : list src_item) sh ascii (items : list (bytes * bytes)) root excl (names : list bytes),
  Forall src_item_ok sis -> shifts_wf sh ->
  Forall (fun it => bytes_ok (fst it) /\ bytes_ok (snd it)) items ->
  (forall r, root = Some r -> bytes_ok r) -> Forall bytes_ok names ->
  exists rs m result,
    map built_item sis = map Some rs /\
    join_all rs = Some m /\
    Finalize sh m = Some result /\
    spec_decode result =
      Some (map (shift_abs sh) (joined_abs_i (assign_sources rs [] 0) (map spec_item sis) (0, 0) 0)) /\
    parse_json (sourcemap_text_items ascii items root excl result names) =
      Some (sm_jv (map fst items) root (if excl then None else Some (map snd items)) result names).
Proof.
  intros sis sh ascii items root excl names Hok Hsh Hit Hroot Hnames.
  destruct (pipeline_exact_items sis sh Hok Hsh) as (rs & m & result & A & B & C & D & E).
  exists rs, m, result. repeat (split; [assumption|]).
  unfold sourcemap_text_items. apply sm_json_all.
  - apply Forall_map. eapply Forall_impl; [|exact Hit]. intros it [H _]. exact H.
  - exact Hroot.
  - intros cs Ec. destruct excl; [discriminate|]. inversion Ec; subst.
    apply Forall_map. eapply Forall_impl; [|exact Hit]. intros it [_ H]. exact H.
  - rewrite D. apply emit_bytes_safe.
  - exact Hnames.
Qed.
