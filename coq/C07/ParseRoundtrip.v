(* ParseSourceMap reads back what the emitter writes: for every event list whose
   values are in range, the parser model applied to [emit_bytes ops] returns
   exactly the mappings [spec_decode] assigns to that string (those with an
   original position; the parser ignores one-field segments), in the order
   needSort leaves them. *)
From V Require Import Common.Base C07.Vlq C07.VlqProofs C07.SpecMap C07.Mappings C07.MappingsProofs C07.JoinProofs C07.Shift C07.ShiftAux.
From V Require Import C16.Checked C16.Vlq16 C16.Vlq16Proofs.
From V Require Import C07.ParseMap C07.ParseMapProofs.

Lemma b64_facts d : 0 <= d < 64 ->
  index_byte Vlq16.base64 (b64_char d mod 256) 0 = d /\ Z.land d 31 = d mod 32 /\ (Z.land d 32 =? 0) = (d <? 32).
Proof.
  intro Hd. apply (forallb_seq_Z (fun d => (index_byte Vlq16.base64 (b64_char d mod 256) 0 =? d) &&
                     (Z.land d 31 =? d mod 32) && Bool.eqb (Z.land d 32 =? 0) (d <? 32)) 64) in Hd;
    [|vm_compute; reflexivity].
  apply andb_true_iff in Hd as [H H3]. apply andb_true_iff in H as [H1 H2].
  apply Bool.eqb_prop in H3. repeat split; [lia|lia|exact H3].
Qed.

Lemma testbit_small a s n : 0 <= a < 2 ^ s -> s <= n -> Z.testbit a n = false.
Proof.
  intros Ha Hn. destruct (Z.eq_dec a 0) as [->|Hz]; [apply Z.testbit_0_l|].
  apply Z.bits_above_log2; [lia|]. assert (Z.log2 a < s) by (apply Z.log2_lt_pow2; lia). lia.
Qed.

Lemma lor_disjoint a b s : 0 <= a < 2 ^ s -> 0 <= b -> 0 <= s -> Z.lor a (Z.shiftl b s) = a + b * 2 ^ s.
Proof.
  intros Ha Hb Hs. rewrite <- Z.shiftl_mul_pow2 by lia.
  assert (Hl : Z.land a (Z.shiftl b s) = 0).
  { apply Z.bits_inj'. intros n Hn. rewrite Z.land_spec, Z.bits_0.
    destruct (Z.lt_ge_cases n s).
    - rewrite Z.shiftl_spec_low by lia. apply andb_false_r.
    - rewrite (testbit_small a s n Ha) by lia. reflexivity. }
  rewrite Z.add_nocarry_lxor by exact Hl. symmetry. apply Z.lxor_lor. exact Hl.
Qed.

(* int32(x) << shift, or-ed into an accumulator below it, adds: a shift of 32 or more
   only meets x = 0, since the sum stays an int32 *)
Lemma lor_shl32 acc x shift :
  0 <= shift -> 0 <= acc < 2 ^ shift -> 0 <= x -> acc + x * 2 ^ shift < 2 ^ 31 ->
  Z.lor acc (shl32 x shift) = acc + x * 2 ^ shift.
Proof.
  intros Hs Ha Hx Hb. unfold shl32. destruct (32 <=? shift) eqn:E.
  - assert (2 ^ 31 <= 2 ^ shift) by (apply Z.pow_le_mono_r; lia).
    assert (x = 0) by nia. subst x. rewrite Z.lor_0_r. lia.
  - rewrite wrap_i32_id by (rewrite Z.shiftl_mul_pow2 by lia; nia). apply lor_disjoint; lia.
Qed.

(* the sign is the lowest bit: how vlq_loop ends *)
Definition fin16 (x : Z) : Z :=
  let value := Z.shiftr x 1 in if negb (Z.land x 1 =? 0) then wrap_i32 (- value) else value.

Lemma idx_mid (pre : list Z) c t : idx (pre ++ c :: t) (len pre) = Ok c.
Proof.
  unfold idx, len. destruct (Z.of_nat (length pre) <? 0) eqn:E; [lia|].
  rewrite Nat2Z.id, nth_error_app2 by lia. rewrite Nat.sub_diag. reflexivity.
Qed.

Lemma vlq_loop_digit F pre d rest shift acc : 0 <= d < 64 ->
  vlq_loop (S F) (pre ++ b64_char d :: rest) (len pre) shift acc =
  let vlq' := Z.lor acc (shl32 (d mod 32) shift) in
  if d <? 32 then Ok (fin16 vlq', len pre + 1, true)
  else vlq_loop F (pre ++ b64_char d :: rest) (len pre + 1) (shift + 5) vlq'.
Proof.
  intro Hd. cbn [vlq_loop].
  replace (len (pre ++ b64_char d :: rest) <=? len pre) with false
    by (rewrite len_app, len_cons; pose proof (len_nonneg rest); lia).
  rewrite idx_mid. cbn [bind]. change Vlq.base64 with Vlq16.base64.
  destruct (b64_facts d Hd) as (-> & -> & ->). replace (d <? 0) with false by lia. reflexivity.
Qed.

Lemma vlq16_enc : forall fuel rem F pre rest shift acc,
  (0 < fuel)%nat -> 0 <= rem < 2 ^ (5 * Z.of_nat fuel) -> 0 <= shift -> 0 <= acc < 2 ^ shift ->
  acc + rem * 2 ^ shift < 2 ^ 31 -> (length (enc_loop fuel rem) <= F)%nat ->
  vlq_loop F (pre ++ enc_loop fuel rem ++ rest) (len pre) shift acc =
  Ok (fin16 (acc + rem * 2 ^ shift), len pre + len (enc_loop fuel rem), true).
Proof.
  induction fuel as [|f IH]; intros rem F pre rest shift acc Hf Hrem Hs Hacc Hb HF; [lia|].
  rewrite pow5 in Hrem. cbn [enc_loop] in HF |- *.
  (* rem = 32 q + r, and from here on q and r are plain variables *)
  pose proof (Z.div_mod rem 32 ltac:(lia)) as Hdm. pose proof (Z.mod_pos_bound rem 32 ltac:(lia)) as Hr.
  set (q := rem / 32) in *. set (r := rem mod 32) in *. clearbody q r. subst rem.
  assert (Hpow : 2 ^ (shift + 5) = 32 * 2 ^ shift) by (rewrite Z.pow_add_r by lia; lia).
  assert (Hp : 0 < 2 ^ shift) by (apply Z.pow_pos_nonneg; lia).
  assert (HqP : 0 <= q * 2 ^ shift) by (apply Z.mul_nonneg_nonneg; lia).
  assert (HrP : r * 2 ^ shift <= 31 * 2 ^ shift) by (apply Z.mul_le_mono_nonneg_r; lia).
  destruct F as [|F]; [destruct (q =? 0); cbn [length] in HF; lia|].
  destruct (Z.eqb_spec q 0) as [->|Hnz]; cbn [app].
  - rewrite vlq_loop_digit by lia. replace (r <? 32) with true by lia. cbv zeta.
    rewrite Z.mod_small, lor_shl32 by lia. replace (32 * 0 + r) with r by lia. reflexivity.
  - rewrite vlq_loop_digit by lia. replace (r + 32 <? 32) with false by lia. cbv zeta.
    replace ((r + 32) mod 32) with r by lia. rewrite lor_shl32 by lia.
    assert (Hfpos : (0 < f)%nat) by (destruct f; [change (2 ^ (5 * Z.of_nat 0)) with 1 in Hrem; lia|lia]).
    replace (pre ++ b64_char (r + 32) :: enc_loop f q ++ rest)
      with ((pre ++ [b64_char (r + 32)]) ++ enc_loop f q ++ rest) by (rewrite <- app_assoc; reflexivity).
    replace (len pre + 1) with (len (pre ++ [b64_char (r + 32)])) by (rewrite len_app; reflexivity).
    cbn [length] in HF. rewrite IH by (rewrite ?Hpow; lia).
    replace (acc + r * 2 ^ shift + q * 2 ^ (shift + 5)) with (acc + (32 * q + r) * 2 ^ shift) by lia.
    rewrite len_app, (len_cons _ (enc_loop f q)), Z.add_assoc. reflexivity.
Qed.

Lemma fin16_to_vlq v : - 2 ^ 30 < v < 2 ^ 30 -> fin16 (to_vlq v) = v.
Proof.
  intro Hv. unfold fin16, to_vlq.
  assert (Hl : forall x, Z.land x 1 = x mod 2).
  { intro x. change 1 with (Z.ones 1) at 1. rewrite Z.land_ones by lia. reflexivity. }
  rewrite Hl, Z.shiftr_div_pow2 by lia. change (2 ^ 1) with 2.
  destruct (v <? 0) eqn:E.
  - replace ((2 * - v + 1) mod 2) with 1 by lia. cbn [Z.eqb negb].
    replace ((2 * - v + 1) / 2) with (- v) by lia. rewrite wrap_i32_id by lia. lia.
  - replace ((2 * v) mod 2) with 0 by lia. cbn [Z.eqb negb]. lia.
Qed.

Theorem decode16_encode v rest : - 2 ^ 30 < v < 2 ^ 30 ->
  DecodeVLQUTF16 (encodeVLQ v ++ rest) = Ok (v, len (encodeVLQ v), true).
Proof.
  intro Hv. unfold DecodeVLQUTF16.
  pose proof (encodeVLQ_nonempty v) as Hne.
  destruct (len (encodeVLQ v ++ rest) =? 0) eqn:E0.
  { exfalso. unfold len in E0. rewrite app_length in E0. destruct (encodeVLQ v); [congruence|cbn [length] in E0; lia]. }
  unfold encodeVLQ in *.
  set (vlq := to_vlq v) in *.
  assert (Hvlq : 0 <= vlq < 2 ^ 31) by (subst vlq; unfold to_vlq; destruct (v <? 0) eqn:?; lia).
  pose proof (vlq16_enc (S (Z.to_nat (Z.log2 vlq))) vlq (S (length (enc_loop (S (Z.to_nat (Z.log2 vlq))) vlq ++ rest)))
                [] rest 0 0) as H.
  cbn [app] in H. change (len []) with 0 in H. rewrite Z.add_0_l, Z.mul_1_r in H.
  change (2 ^ 0) with 1 in H. rewrite Z.mul_1_r in H || idtac.
  rewrite H; try lia.
  - f_equal. f_equal. f_equal. apply fin16_to_vlq. exact Hv.
  - split; [lia|]. apply log2_fuel. lia.
  - rewrite app_length. lia.
Qed.

Lemma from_at (pre suf : list Z) : from (pre ++ suf) (len pre) = Ok suf.
Proof.
  rewrite from_ok by (rewrite len_app; pose proof (len_nonneg pre); pose proof (len_nonneg suf); lia).
  unfold len. rewrite Nat2Z.id, skipn_app, Nat.sub_diag, skipn_all. reflexivity.
Qed.

Lemma decode_at pre v rest : - 2 ^ 30 < v < 2 ^ 30 ->
  (t <- from (pre ++ encodeVLQ v ++ rest) (len pre) ;; DecodeVLQUTF16 t) = Ok (v, len (encodeVLQ v), true).
Proof. intro Hv. rewrite from_at. cbn [bind]. apply decode16_encode, Hv. Qed.

Lemma decode16_stop c t : c = 44 \/ c = 59 -> DecodeVLQUTF16 (c :: t) = Ok (0, 0, false).
Proof.
  intros [->| ->]; unfold DecodeVLQUTF16; (destruct (len (_ :: t) =? 0) eqn:E; [reflexivity|]);
    cbn [vlq_loop]; (destruct (len (_ :: t) <=? 0) eqn:E1; [reflexivity|]);
    change (idx (_ :: t) 0) with (Ok (A:=Z) 44) || change (idx (_ :: t) 0) with (Ok (A:=Z) 59); reflexivity.
Qed.

Lemma from_at' (raw pre suf : list Z) : raw = pre ++ suf -> from raw (len pre) = Ok suf.
Proof. intros ->. apply from_at. Qed.
Lemma idx_at' (raw pre : list Z) c t : raw = pre ++ c :: t -> idx raw (len pre) = Ok c.
Proof. intros ->. apply idx_mid. Qed.
Lemma lt_at' (raw pre : list Z) c t : raw = pre ++ c :: t -> (len pre <? len raw) = true.
Proof. intros ->. rewrite len_app, len_cons. pose proof (len_nonneg t). lia. Qed.
Lemma eq_at' (raw pre : list Z) c t : raw = pre ++ c :: t -> (len pre =? len raw) = false.
Proof. intros ->. rewrite len_app, len_cons. pose proof (len_nonneg t). lia. Qed.

Lemma read_field {A} (raw pre : list Z) v rest (k : Z * Z * bool -> res A) :
  raw = pre ++ encodeVLQ v ++ rest -> - 2 ^ 30 < v < 2 ^ 30 ->
  (t <- from raw (len pre) ;; r <- DecodeVLQUTF16 t ;; k r) = k (v, len (encodeVLQ v), true).
Proof. intros -> Hv. rewrite from_at. cbn [bind]. rewrite decode16_encode by exact Hv. reflexivity. Qed.

(* a field holds the difference to the previous value: adding it back cannot wrap *)
Lemma wrap_delta x y : 0 <= x < 2 ^ 30 -> 0 <= y < 2 ^ 30 -> wrap_i32 (x + (y - x)) = y.
Proof. intros Hx Hy. rewrite wrap_i32_id; lia. Qed.

Lemma enc_cons v : exists c t, encodeVLQ v = c :: t /\ c <> 59 /\ c <> 44.
Proof.
  destruct (encodeVLQ_head v) as (d & t & Hd & E).
  destruct (char_not_sep d Hd) as (C1 & C2 & _).
  exists (b64_char d), t. repeat split; assumption.
Qed.

Definition in30 (x : Z) : Prop := 0 <= x < 2 ^ 30.

Section Step.
  Variables sl nl : Z.
  Hypothesis Hsl : in30 sl.
  Hypothesis Hnl : in30 nl.
  Variable raw : list Z.

  (* one iteration over a segment of four or five fields *)
  Lemma step_map f st pre gcn sidx' ol' oc' (nm : option Z) C R acc ns :
    in30 (gc st) -> in30 (si st) -> in30 (ol st) -> in30 (oc st) -> in30 (on st) ->
    in30 gcn -> 0 <= sidx' < sl -> in30 ol' -> in30 oc' ->
    match nm with Some n => 0 <= n < nl | None => True end ->
    tail_ok C R ->
    let NM := match nm with Some n => encodeVLQ (n - on st) | None => [] end in
    let seg := encodeVLQ (gcn - gc st) ++ encodeVLQ (sidx' - si st) ++ encodeVLQ (ol' - ol st)
               ++ encodeVLQ (oc' - oc st) ++ NM in
    raw = pre ++ seg ++ C ++ R ->
    mloop_ns raw 0 0 0 0 sl nl (S f) st (len pre) acc ns =
    mloop_ns raw 0 0 0 0 sl nl f
      (mkM (gl st) gcn sidx' ol' oc' (match nm with Some n => n | None => on st end))
      (len (pre ++ seg ++ C))
      ((gl st, gcn, sidx', ol', oc', match nm with Some n => n | None => -1 end) :: acc)
      (ns || (gcn - gc st <? 0)).
  Proof.
    unfold in30 in *. intros G1 G2 G3 G4 G5 N1 N2 N3 N4 N5 HT Hraw. unfold tail_ok, COMMA, SEMI in HT.
    set (NM := match nm with Some n => encodeVLQ (n - on st) | None => [] end) in *.
    set (E1 := encodeVLQ (gcn - gc st)) in *. set (E2 := encodeVLQ (sidx' - si st)) in *.
    set (E3 := encodeVLQ (ol' - ol st)) in *. set (E4 := encodeVLQ (oc' - oc st)) in *.
    rewrite <- !app_assoc in Hraw. rewrite <- !app_assoc.
    cbn [mloop_ns].
    (* the segment starts with a digit, not with ';' *)
    destruct (enc_cons (gcn - gc st)) as (c1 & t1 & Ec1 & Hc1 & _).
    assert (R0 : raw = pre ++ c1 :: (t1 ++ E2 ++ E3 ++ E4 ++ NM ++ C ++ R)).
    { rewrite Hraw. fold E1 in Ec1. rewrite Ec1. reflexivity. }
    rewrite (lt_at' _ _ _ _ R0). cbn [negb]. rewrite (idx_at' _ _ _ _ R0). cbn [bind].
    replace (c1 =? 59) with false by lia.
    (* generated column *)
    rewrite (read_field raw pre (gcn - gc st) _ _ Hraw) by lia. cbn [negb]. cbv zeta.
    rewrite wrap_delta by assumption.
    replace (((gl st =? 0) && (gcn <? 0)) || (gcn <? 0)) with false by lia.
    fold E1. rewrite <- len_app.
    (* a digit follows, neither the end nor a separator *)
    assert (R1 : raw = (pre ++ E1) ++ E2 ++ E3 ++ E4 ++ NM ++ C ++ R) by (rewrite Hraw, <- !app_assoc; reflexivity).
    destruct (enc_cons (sidx' - si st)) as (c2 & t2 & Ec2 & Hc2 & Hc2').
    assert (R1' : raw = (pre ++ E1) ++ c2 :: (t2 ++ E3 ++ E4 ++ NM ++ C ++ R)).
    { rewrite R1. fold E2 in Ec2. rewrite Ec2. reflexivity. }
    rewrite (eq_at' _ _ _ _ R1'), (idx_at' _ _ _ _ R1'). cbn [bind].
    replace (c2 =? 44) with false by lia.
    replace (c2 =? 59) with false by lia.
    (* source index *)
    rewrite (read_field raw _ (sidx' - si st) _ _ R1) by lia. cbn [negb]. cbv zeta.
    rewrite wrap_delta by lia.
    rewrite (wrap_i32_id sl), (wrap_i32_id (0 + sl)) by lia.
    replace ((sidx' <? 0) || (0 + sl <=? sidx')) with false by lia.
    fold E2. rewrite <- len_app.
    (* original line *)
    assert (R2 : raw = ((pre ++ E1) ++ E2) ++ E3 ++ E4 ++ NM ++ C ++ R) by (rewrite R1, <- !app_assoc; reflexivity).
    rewrite (read_field raw _ (ol' - ol st) _ _ R2) by lia. cbn [negb]. cbv zeta.
    rewrite wrap_delta by assumption.
    replace (ol' <? 0) with false by lia.
    fold E3. rewrite <- len_app.
    (* original column *)
    assert (R3 : raw = (((pre ++ E1) ++ E2) ++ E3) ++ E4 ++ NM ++ C ++ R) by (rewrite R2, <- !app_assoc; reflexivity).
    rewrite (read_field raw _ (oc' - oc st) _ _ R3) by lia. cbn [negb]. cbv zeta.
    rewrite wrap_delta by assumption.
    replace (oc' <? 0) with false by lia.
    fold E4. rewrite <- len_app.
    (* name *)
    set (P4 := (((pre ++ E1) ++ E2) ++ E3) ++ E4) in *.
    assert (R4 : raw = P4 ++ NM ++ C ++ R) by (subst P4; rewrite R3, <- !app_assoc; reflexivity).
    assert (Hfin : pre ++ E1 ++ E2 ++ E3 ++ E4 ++ NM ++ C = (P4 ++ NM) ++ C).
    { subst P4. rewrite <- !app_assoc. reflexivity. }
    rewrite Hfin.
    (* what comes after the segment *)
    assert (Htail : forall PP, raw = PP ++ C ++ R ->
      forall st' m ns',
      (if len PP <? len raw
       then c2 <- idx raw (len PP);;
            (if c2 =? 44
             then mloop_ns raw 0 0 0 0 sl nl f st' (len PP + 1) (m :: acc) ns'
             else
              if negb (c2 =? 59)
              then _ <- slice raw (len PP) (len PP + 1);; Ok (NErr 10 c2 1 (len PP))
              else mloop_ns raw 0 0 0 0 sl nl f st' (len PP) (m :: acc) ns')
       else mloop_ns raw 0 0 0 0 sl nl f st' (len PP) (m :: acc) ns') =
      mloop_ns raw 0 0 0 0 sl nl f st' (len (PP ++ C)) (m :: acc) ns').
    { intros PP HR st' m ns'. destruct HT as [->|[-> [->|[t ->]]]].
      - rewrite (lt_at' _ _ _ _ HR), (idx_at' _ _ _ _ HR). cbn [bind]. cbn [Z.eqb Pos.eqb].
        rewrite len_app. reflexivity.
      - cbn [app] in HR. rewrite app_nil_r in HR. rewrite app_nil_r.
        replace (len PP <? len raw) with false by (rewrite HR; lia). reflexivity.
      - cbn [app] in HR. rewrite (lt_at' _ _ _ _ HR), (idx_at' _ _ _ _ HR). cbn [bind]. cbn [Z.eqb Pos.eqb negb].
        rewrite app_nil_r. reflexivity. }
    destruct nm as [n|]; subst NM.
    - rewrite (read_field raw _ (n - on st) _ _ R4) by lia. cbn [andb]. cbv zeta.
      rewrite wrap_delta by lia.
      rewrite (wrap_i32_id nl), (wrap_i32_id (0 + nl)) by lia.
      replace ((n <? 0) || (0 + nl <=? n)) with false by lia. cbv iota.
      rewrite <- len_app.
      apply Htail. rewrite R4, <- app_assoc. reflexivity.
    - rewrite (from_at' raw _ _ R4). cbn [bind]. cbn [app] in *. rewrite app_nil_r.
      assert (Hstop : DecodeVLQUTF16 (C ++ R) = Ok (0, 0, false)).
      { destruct HT as [->|[-> [->|[t ->]]]]; cbn [app]; [apply decode16_stop; left; reflexivity|reflexivity|apply decode16_stop; right; reflexivity]. }
      rewrite Hstop. cbn [bind andb]. cbv zeta iota.
      apply Htail. exact R4.
  Qed.
End Step.

Section Step2.
  Variables sl nl : Z.
  Variable raw : list Z.

  Lemma step_nl f st pre rest acc ns :
    - 2 ^ 30 < gl st < 2 ^ 30 -> raw = pre ++ 59 :: rest ->
    mloop_ns raw 0 0 0 0 sl nl (S f) st (len pre) acc ns =
    mloop_ns raw 0 0 0 0 sl nl f (mkM (gl st + 1) 0 (si st) (ol st) (oc st) (on st)) (len (pre ++ [59])) acc ns.
  Proof.
    intros Hg HR. cbn [mloop_ns].
    rewrite (lt_at' _ _ _ _ HR). cbn [negb]. rewrite (idx_at' _ _ _ _ HR). cbn [bind Z.eqb Pos.eqb].
    rewrite wrap_i32_id by lia. rewrite len_app. reflexivity.
  Qed.

  (* a one-field segment is read and dropped; when it ends the string, the iteration after it stops *)
  Lemma step_null f st pre gcn C R acc ns :
    in30 (gc st) -> in30 gcn -> tail_ok C R ->
    raw = pre ++ encodeVLQ (gcn - gc st) ++ C ++ R ->
    mloop_ns raw 0 0 0 0 sl nl (S (S f)) st (len pre) acc ns =
    mloop_ns raw 0 0 0 0 sl nl (S f) (mkM (gl st) gcn (si st) (ol st) (oc st) (on st))
             (len (pre ++ encodeVLQ (gcn - gc st) ++ C)) acc (ns || (gcn - gc st <? 0)).
  Proof.
    unfold in30. intros G1 N1 HT HR. unfold tail_ok, COMMA, SEMI in HT.
    set (E1 := encodeVLQ (gcn - gc st)) in *.
    remember (S f) as F eqn:EF. cbn [mloop_ns].
    destruct (enc_cons (gcn - gc st)) as (c1 & t1 & Ec1 & Hc1 & Hc1').
    assert (R0 : raw = pre ++ c1 :: (t1 ++ C ++ R)) by (rewrite HR; fold E1 in Ec1; rewrite Ec1; reflexivity).
    rewrite (lt_at' _ _ _ _ R0). cbn [negb]. rewrite (idx_at' _ _ _ _ R0). cbn [bind].
    replace (c1 =? 59) with false by lia.
    rewrite (read_field raw pre (gcn - gc st) _ _ HR) by lia. cbn [negb]. cbv zeta.
    rewrite wrap_delta by assumption.
    replace (((gl st =? 0) && (gcn <? 0)) || (gcn <? 0)) with false by lia.
    fold E1. rewrite <- len_app.
    assert (R1 : raw = (pre ++ E1) ++ C ++ R) by (rewrite HR, <- !app_assoc; reflexivity).
    rewrite app_assoc.
    destruct HT as [->|[-> [->|[t ->]]]].
    - rewrite (eq_at' _ _ _ _ R1), (idx_at' _ _ _ _ R1). cbn [bind Z.eqb Pos.eqb].
      rewrite (len_app (pre ++ E1)). reflexivity.
    - cbn [app] in R1. rewrite app_nil_r in R1. rewrite app_nil_r.
      replace (len (pre ++ E1) =? len raw) with true by (rewrite <- R1; lia).
      subst F. cbn [mloop_ns]. replace (len (pre ++ E1) <? len raw) with false by (rewrite <- R1; lia). reflexivity.
    - cbn [app] in R1. rewrite (eq_at' _ _ _ _ R1), (idx_at' _ _ _ _ R1). cbn [bind Z.eqb Pos.eqb].
      rewrite app_nil_r. reflexivity.
  Qed.
End Step2.

(* the mappings the parser keeps: those with an original position *)
Fixpoint pmaps (ops : list op) (line : Z) : list Vlq16.mapping :=
  match ops with
  | [] => []
  | ONewline :: r => pmaps r (line + 1)
  | OMap gc si ol oc nm :: r => (line, gc, si, ol, oc, match nm with Some n => n | None => -1 end) :: pmaps r line
  | ONull _ :: r => pmaps r line
  end.

(* needSort: some generated column goes backwards within a line *)
Fixpoint negd (ops : list op) (c : Z) : bool :=
  match ops with
  | [] => false
  | ONewline :: r => negd r 0
  | OMap gc _ _ _ _ :: r => (gc - c <? 0) || negd r gc
  | ONull gc :: r => (gc - c <? 0) || negd r gc
  end.

(* every value of the events fits the parser's int32 arithmetic and indexes inside sources / names *)
Fixpoint ops_in30 (sl nl : Z) (ops : list op) : Prop :=
  match ops with
  | [] => True
  | ONewline :: r => ops_in30 sl nl r
  | OMap gc si ol oc nm :: r =>
    in30 gc /\ 0 <= si < sl /\ in30 ol /\ in30 oc /\
    match nm with Some n => 0 <= n < nl | None => True end /\ ops_in30 sl nl r
  | ONull gc :: r => in30 gc /\ ops_in30 sl nl r
  end.

Fixpoint nlines16 (ops : list op) : Z :=
  match ops with [] => 0 | ONewline :: r => 1 + nlines16 r | _ :: r => nlines16 r end.

Lemma nlines16_nonneg ops : 0 <= nlines16 ops.
Proof. induction ops as [|[| |] r IH]; cbn [nlines16]; lia. Qed.

Definition st_of (p : state) : mstate := mkM (gline p) (gcol p) (sidx p) (oline p) (ocol p) (oname p).

Definition p_in30 (p : state) : Prop :=
  in30 (gcol p) /\ in30 (sidx p) /\ in30 (oline p) /\ in30 (ocol p) /\ in30 (oname p).

(* the events still to be read, and the emitter's state before them, fit the parser's arithmetic *)
Definition fits (sl nl : Z) (ops : list op) (p : state) : Prop :=
  ops_in30 sl nl ops /\ p_in30 p /\ - 2 ^ 30 < gline p /\ gline p + nlines16 ops < 2 ^ 30.

Lemma fits_nl sl nl ops p : fits sl nl (ONewline :: ops) p -> fits sl nl ops (nl_state p).
Proof.
  intros (Hin & (_ & P) & Hg1 & Hg2). pose proof (nlines16_nonneg ops). cbn [ops_in30 nlines16] in *.
  split; [exact Hin|]. split; [split; [unfold in30; cbn; lia|exact P]|]. cbn [nl_state gline]. lia.
Qed.

Lemma fits_map sl nl gc si ol oc nm ops p :
  in30 sl -> in30 nl -> fits sl nl (OMap gc si ol oc nm :: ops) p -> fits sl nl ops (after p gc si ol oc nm).
Proof.
  intros Hsl Hnl ((I1 & I2 & I3 & I4 & I5 & Hin) & (_ & _ & _ & _ & P5) & Hg). cbn [nlines16] in Hg.
  split; [exact Hin|]. split; [|exact Hg].
  unfold p_in30, after. cbn [gcol sidx oline ocol oname].
  split; [exact I1|]. split; [unfold in30 in *; lia|]. split; [exact I3|]. split; [exact I4|].
  unfold in30 in *. destruct nm; lia.
Qed.

Lemma fits_null sl nl gc ops p : fits sl nl (ONull gc :: ops) p -> fits sl nl ops (null_state p gc).
Proof.
  intros ((I1 & Hin) & (_ & P) & Hg). split; [exact Hin|]. split; [split; [exact I1|exact P]|exact Hg].
Qed.

Lemma mloop_emit sl nl raw : in30 sl -> in30 nl ->
  forall ops F pre p acc ns,
  raw = pre ++ ebytes ops 0 p -> fits sl nl ops p -> (length ops < F)%nat ->
  exists st', mloop_ns raw 0 0 0 0 sl nl F (st_of p) (len pre) acc ns =
              Ok (NDone st' (rev (pmaps ops (gline p)) ++ acc) (ns || negd ops (gcol p))).
Proof.
  intros Hsl Hnl. induction ops as [|o ops IH]; intros F pre p acc ns HR Hfit HF.
  - destruct F as [|f]; [cbn in HF; lia|]. cbn [ebytes pmaps rev app negb negd] in *.
    rewrite ebytes_nil, app_nil_r in HR. cbn [mloop_ns].
    replace (len pre <? len raw) with false by (rewrite HR; lia). cbn [negb].
    rewrite orb_false_r. eexists. reflexivity.
  - destruct F as [|[|f]]; [cbn in HF; lia|cbn in HF; lia|]. cbn [length] in HF.
    pose proof Hfit as (Hin & (P1 & P2 & P3 & P4 & P5) & Hg1 & Hg2).
    pose proof (nlines16_nonneg ops) as Hnn.
    destruct o as [|gx sx lx cx nm|gx]; cbn [ops_in30 nlines16 pmaps negd] in *.
    + (* line break *)
      rewrite ebytes_newline0 in HR.
      rewrite (step_nl sl nl raw (S f) (st_of p) pre (ebytes ops 0 (nl_state p)) acc ns); [|cbn [st_of gl]; lia|exact HR].
      destruct (IH (S f) (pre ++ [59]) (nl_state p) acc ns) as (st' & E);
        [rewrite HR, <- app_assoc; reflexivity|exact (fits_nl _ _ _ _ Hfit)|lia|].
      exists st'. exact E.
    + (* mapping with an original position *)
      destruct Hin as (I1 & I2 & I3 & I4 & I5 & Hin).
      rewrite (ebytes_map0 gx sx lx cx nm ops 0 p sepb_0) in HR.
      pose proof (tail_ok_ops ops (after p gx sx lx cx nm)) as HT.
      rewrite (step_map sl nl Hsl Hnl raw (S f) (st_of p) pre gx sx lx cx nm (commaof ops)
                        (ebytes ops 0 (after p gx sx lx cx nm)) acc ns); cbn [st_of gl gc si ol oc on]; try assumption;
        [|rewrite HR; unfold fields; rewrite <- !app_assoc; reflexivity].
      (* the induction hypothesis at the position, mappings and flag the iteration has reached *)
      match goal with |- context [mloop_ns raw 0 0 0 0 sl nl (S f) _ (len ?PRE) ?ACC ?NS] =>
        destruct (IH (S f) PRE (after p gx sx lx cx nm) ACC NS) as (st' & E) end;
        [rewrite HR; unfold fields; rewrite <- !app_assoc; reflexivity|exact (fits_map _ _ _ _ _ _ _ _ _ Hsl Hnl Hfit)|lia|].
      exists st'. unfold st_of, after in E. cbn [gline gcol sidx oline ocol oname] in E.
      rewrite E. cbn [rev]. rewrite <- app_assoc. cbn [app]. rewrite orb_assoc. reflexivity.
    + (* mapping without original position *)
      destruct Hin as (I1 & Hin).
      rewrite (ebytes_null0 gx ops 0 p sepb_0) in HR.
      pose proof (tail_ok_ops ops (null_state p gx)) as HT.
      rewrite (step_null sl nl raw f (st_of p) pre gx (commaof ops) (ebytes ops 0 (null_state p gx)) acc ns);
        cbn [st_of gl gc si ol oc on]; try assumption.
      destruct (IH (S f) (pre ++ encodeVLQ (gx - gcol p) ++ commaof ops) (null_state p gx) acc (ns || (gx - gcol p <? 0)))
        as (st' & E); [rewrite HR, <- !app_assoc; reflexivity|exact (fits_null _ _ _ _ _ Hfit)|lia|].
      exists st'. unfold st_of, null_state in E. cbn [gline gcol sidx oline ocol oname] in E.
      rewrite E. rewrite orb_assoc. reflexivity.
Qed.

Lemma ebytes_len_ge : forall ops lb p, (length ops <= length (ebytes ops lb p))%nat.
Proof.
  induction ops as [|[|gc si ol oc nm|gc] r IH]; intros lb p; [cbn; lia| | |].
  - rewrite ebytes_newline. cbn [length]. specialize (IH SEMI (nl_state p)). lia.
  - destruct (ebytes_map_gen gc si ol oc nm r lb p) as (lb' & _ & ->).
    rewrite !app_length. pose proof (encodeVLQ_nonempty (gc - gcol p)).
    destruct (encodeVLQ (gc - gcol p)); [congruence|]. cbn [length].
    specialize (IH lb' (after p gc si ol oc nm)). lia.
  - rewrite ebytes_null, null_seg_eq, !app_length. pose proof (encodeVLQ_nonempty (gc - gcol p)).
    destruct (encodeVLQ (gc - gcol p)); [congruence|]. cbn [length].
    match goal with |- context [ebytes r ?a ?b] => specialize (IH a b) end. lia.
Qed.

Lemma pmaps_sl sl nl : forall ops line, pmaps ops line <> [] -> ops_in30 sl nl ops -> 0 < sl.
Proof.
  induction ops as [|[|gc si ol oc nm|gc] r IH]; intros line Hne Hin; cbn [pmaps ops_in30] in *.
  - congruence.
  - eapply IH; eassumption.
  - lia.
  - destruct Hin as [_ Hin]. eapply IH; eassumption.
Qed.

(* the same list, read off the specification's decoding *)
Definition abs6 (a : abs) : list Vlq16.mapping :=
  match a_src a with
  | Some (s, l, c) => [(a_gline a, a_gcol a, s, l, c, match a_name a with Some n => n | None => -1 end)]
  | None => []
  end.

Lemma pmaps_abs : forall ops line, pmaps ops line = flat_map abs6 (abs_of ops line).
Proof.
  induction ops as [|[|gc si ol oc nm|gc] r IH]; intro line; cbn [pmaps abs_of flat_map]; [reflexivity|apply IH| |].
  - unfold abs6 at 1. cbn [a_src a_gline a_gcol a_name app]. rewrite IH. reflexivity.
  - unfold abs6 at 1. cbn [a_src app]. apply IH.
Qed.

(* ParseSourceMap reads back what the emitter writes *)
Theorem parse_emit_all : forall sl nl ops,
  in30 sl -> in30 nl -> ops_in30 sl nl ops -> nlines16 ops < 2 ^ 30 -> pmaps ops 0 <> [] ->
  spec_decode (emit_bytes ops) = Some (abs_of ops 0) /\
  ParseMappingsOrdered [(0, 0, sl, nl, emit_bytes ops)] =
    Ok (QMap sl nl (let l := flat_map abs6 (abs_of ops 0) in if negd ops 0 then sort_pos l else l) (negd ops 0)).
Proof.
  intros sl nl ops Hsl Hnl Hin Hnl16 Hne. split; [apply mappings_roundtrip_all|].
  rewrite <- pmaps_abs. cbv zeta.
  pose proof (pmaps_sl sl nl ops 0 Hne Hin) as Hslpos.
  assert (Hops : ops <> []) by (intro E; subst ops; apply Hne; reflexivity).
  set (raw := emit_bytes ops).
  assert (Hlen : (length ops <= length raw)%nat) by (subst raw; unfold emit_bytes; apply (ebytes_len_ge ops 0 state0)).
  assert (Hraw0 : (len raw =? 0) = false).
  { unfold len. destruct ops; [congruence|]. cbn [length] in Hlen. lia. }
  unfold ParseMappingsOrdered. cbn [psections_ns].
  rewrite Hraw0. replace (sl =? 0) with false by lia. cbn [orb].
  change (wrap_i32 0) with 0.
  assert (Hfit : fits sl nl ops state0) by (unfold fits, p_in30, in30; cbn; repeat split; try assumption; lia).
  destruct (mloop_emit sl nl raw Hsl Hnl ops (S (length raw)) [] state0 [] false eq_refl Hfit) as (st' & E); [lia|].
  change (st_of state0) with (mkM 0 0 0 0 0 0) in E. change (len []) with 0 in E.
  cbn [Z.ltb Z.eqb Z.compare orb andb].
  rewrite E. cbn [bind psections_ns gcol state0 gline orb].
  rewrite app_nil_r, rev_involutive.
  replace (0 + sl =? 0) with false by lia. cbn [orb].
  destruct (rev (pmaps ops 0)) eqn:Er.
  { exfalso. apply Hne. rewrite <- (rev_involutive (pmaps ops 0)), Er. reflexivity. }
  rewrite !Z.add_0_l. reflexivity.
Qed.
