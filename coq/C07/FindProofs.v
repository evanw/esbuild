From V Require Import Common.Base C07.Vlq.

(* Specification of a source-map lookup (Mozilla source-map semantics used by
   esbuild): the last mapping whose generated position is <= the query, and
   only if it is on the queried line. *)
Definition spec_find (ms : list mapping) (line col : Z) : option mapping :=
  match rev (filter (fun m => mapping_le_pos m line col) ms) with
  | m :: _ => if m_gline m =? line then Some m else None
  | [] => None
  end.

Definition pos_le (a b : mapping) : Prop :=
  m_gline a < m_gline b \/ (m_gline a = m_gline b /\ m_gcol a <= m_gcol b).

Fixpoint sorted_maps (l : list mapping) : Prop :=
  match l with
  | a :: ((b :: _) as r) => pos_le a b /\ sorted_maps r
  | _ => True
  end.

Lemma le_pos_mono a b line col :
  pos_le a b -> mapping_le_pos b line col = true -> mapping_le_pos a line col = true.
Proof. unfold pos_le, mapping_le_pos. intros H Hb. lia. Qed.

Lemma sorted_tail a l : sorted_maps (a :: l) -> sorted_maps l.
Proof. destruct l; cbn; tauto. Qed.

Lemma sorted_all_false a l line col :
  sorted_maps (a :: l) -> mapping_le_pos a line col = false ->
  Forall (fun m => mapping_le_pos m line col = false) (a :: l).
Proof.
  revert a. induction l as [|b l IH]; intros a Hs Ha; constructor; try assumption; [constructor|].
  destruct Hs as [Hab Hs]. apply (IH b Hs).
  destruct (mapping_le_pos b line col) eqn:E; [|reflexivity].
  rewrite (le_pos_mono a b line col Hab E) in Ha. discriminate.
Qed.

Lemma sorted_split ms line col : sorted_maps ms ->
  exists a b, ms = a ++ b /\
    Forall (fun m => mapping_le_pos m line col = true) a /\
    Forall (fun m => mapping_le_pos m line col = false) b.
Proof.
  induction ms as [|m ms IH]; intro Hs.
  - exists [], []. repeat split; constructor.
  - destruct (mapping_le_pos m line col) eqn:E.
    + destruct (IH (sorted_tail _ _ Hs)) as (a & b & -> & Ha & Hb).
      exists (m :: a), b. repeat split; [constructor; assumption|exact Hb].
    + exists [], (m :: ms). repeat split; [constructor|].
      apply sorted_all_false; assumption.
Qed.

Lemma nth_error_app_l {A} (a b : list A) i : (i < length a)%nat -> nth_error (a ++ b) i = nth_error a i.
Proof. intro H. apply nth_error_app1. exact H. Qed.

(* The binary search that Find and the line lookup of AddSourceMapping share:
   first index in [index, index + count) whose element fails [P]. *)
Fixpoint bsearch {A} (P : A -> bool) (fuel : nat) (l : list A) (index count : nat) : nat :=
  match fuel with
  | O => index
  | S f =>
    match count with
    | O => index
    | _ =>
      let step := Nat.div count 2 in
      match nth_error l (index + step) with
      | None => index
      | Some x =>
        if P x then bsearch P f l (S (index + step)) (count - (step + 1))
        else bsearch P f l index step
      end
    end
  end.

Lemma bsearch_cut {A} (P : A -> bool) a b :
  Forall (fun x => P x = true) a -> Forall (fun x => P x = false) b ->
  forall fuel index count,
    (count <= fuel)%nat -> (index <= length a)%nat -> (length a <= index + count)%nat ->
    (index + count <= length (a ++ b))%nat ->
    bsearch P fuel (a ++ b) index count = length a.
Proof.
  intros Ha Hb. rewrite Forall_forall in Ha, Hb.
  induction fuel as [|f IH]; intros index count Hf Hi Hc Hl; [cbn [bsearch]; lia|].
  cbn [bsearch]. destruct count as [|c]; [lia|].
  set (step := Nat.div (S c) 2).
  assert (Hstep : (step <= c)%nat).
  { subst step. pose proof (Nat.div_lt (S c) 2 ltac:(lia) ltac:(lia)). lia. }
  destruct (nth_error (a ++ b) (index + step)) as [x|] eqn:En.
  2:{ apply nth_error_None in En. lia. }
  destruct (P x) eqn:Ex.
  - assert (Hin : (index + step < length a)%nat).
    { destruct (Nat.lt_ge_cases (index + step) (length a)) as [|Hge]; [assumption|].
      rewrite nth_error_app2 in En by exact Hge.
      apply nth_error_In, Hb in En. congruence. }
    apply IH; lia.
  - assert (Hin : (length a <= index + step)%nat).
    { destruct (Nat.lt_ge_cases (index + step) (length a)) as [Hlt|]; [|assumption].
      rewrite nth_error_app1 in En by exact Hlt.
      apply nth_error_In, Ha in En. congruence. }
    apply IH; lia.
Qed.

Lemma find_loop_bsearch line col ms : forall fuel index count,
  find_loop fuel ms index count line col = bsearch (fun m => mapping_le_pos m line col) fuel ms index count.
Proof.
  induction fuel as [|f IH]; intros index count; [reflexivity|].
  cbn [find_loop bsearch]. destruct count; [reflexivity|].
  destruct (nth_error ms _); [|reflexivity]. rewrite !IH. reflexivity.
Qed.

Lemma filter_all_true {A} (P : A -> bool) l : Forall (fun x => P x = true) l -> filter P l = l.
Proof. induction 1 as [|x l Hx _ IH]; cbn [filter]; [reflexivity|]. rewrite Hx, IH. reflexivity. Qed.

Lemma filter_all_false {A} (P : A -> bool) l : Forall (fun x => P x = false) l -> filter P l = [].
Proof. induction 1 as [|x l Hx _ IH]; cbn [filter]; [reflexivity|]. rewrite Hx. exact IH. Qed.

Lemma rev_head_nth {A} (a : list A) k : length a = S k ->
  match rev a with x :: _ => nth_error a k = Some x | [] => False end.
Proof.
  intro H. destruct a as [|y a] using rev_ind; [discriminate|].
  rewrite rev_app_distr. cbn [rev app]. rewrite app_length in H. cbn [length] in H.
  rewrite nth_error_app2 by lia. replace (k - length a)%nat with 0%nat by lia. reflexivity.
Qed.

Lemma find_is_spec ms line col : sorted_maps ms -> Find ms line col = spec_find ms line col.
Proof.
  intro Hs. destruct (sorted_split ms line col Hs) as (a & b & -> & Ha & Hb).
  unfold Find, spec_find.
  rewrite find_loop_bsearch, (bsearch_cut _ a b Ha Hb) by (rewrite ?app_length; lia).
  rewrite filter_app, (filter_all_true _ a Ha), (filter_all_false _ b Hb), app_nil_r.
  destruct (length a) as [|k] eqn:El.
  - destruct a; [reflexivity|discriminate].
  - pose proof (rev_head_nth a k El) as H.
    destruct (rev a) as [|x r]; [contradiction|].
    rewrite nth_error_app1 by lia. rewrite H. reflexivity.
Qed.
