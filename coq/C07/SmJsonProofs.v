(* sourcemap_json_wellformed_and_faithful: the text of SmJson.v is accepted by the
   RFC 8259 parser of coq/C19/JsonSpec.v and parses to the object one expects:
   version 3, sources, [sourceRoot], [sourcesContent = the files' texts],
   mappings = the given mappings string, names.  Uses C19's parse_render_all
   (any text written as a layout tree parses to the tree's value) and
   json_quote_roundtrip (inside it). *)
From V Require Import Common.Base C01.Utf C01.Quote C19.Json C19.JsonSpec C19.JsonProofs C19.Layout C19.LayoutProofs
  C07.SmJson.

(* the layout tree (C19/Layout.v) whose rendering is [sourcemap_text]: a newline and two spaces
   before each key, a space after each colon and between array elements *)
Definition W : bytes := [10; 32; 32].
Definition SP : bytes := [32].

Definition elems (l : list bytes) : list (bytes * lj) :=
  match l with
  | [] => []
  | x :: r => ([], LS (SQ x)) :: map (fun y => (SP, LS (SQ y))) r
  end.

Definition sm_members (sources : list bytes) (root : option bytes) (contents : option (list bytes))
                      (mappings : bytes) (names : list bytes) : list (bytes * ls * bytes * lj) :=
  [(W, SR k_version, SP, LNum 3); (W, SR k_sources, SP, LArr (elems sources) [])]
  ++ (match root with Some r => [(W, SR k_sourceRoot, SP, LS (SQ r))] | None => [] end)
  ++ (match contents with Some cs => [(W, SR k_sourcesContent, SP, LArr (elems cs) [])] | None => [] end)
  ++ [(W, SR k_mappings, SP, LS (SR mappings)); (W, SR k_names, SP, LArr (elems names) [])].

Definition sm_lj sources root contents mappings names : lj :=
  LObj (sm_members sources root contents mappings names) [10].

Definition no_rq : Z -> Z -> bytes := fun _ _ => [].

Lemma join_cs_commas ascii : forall l,
  join_cs (map (quote_for_json ascii) l) =
  commas (map (fun e => fst e ++ render ascii no_rq (snd e)) (elems l)).
Proof.
  destruct l as [|x r]; [reflexivity|]. cbn [elems map].
  revert x. induction r as [|y r IH]; intro x; [cbn; rewrite ?app_nil_r; reflexivity|].
  cbn [map join_cs commas fst snd render render_ls app].
  specialize (IH y). cbn [map join_cs commas fst snd render render_ls app] in IH.
  destruct r as [|z r].
  - cbn [map join_cs commas fst snd render render_ls app SP]. reflexivity.
  - cbn [map] in *. rewrite IH. reflexivity.
Qed.

Lemma render_elems ascii l :
  render ascii no_rq (LArr (elems l) []) = [91] ++ join_cs (map (quote_for_json ascii) l) ++ [93].
Proof. cbn [render]. rewrite <- join_cs_commas. reflexivity. Qed.

(* one member of an object, with the comma that precedes all but the first *)
Definition mtext ascii (first : bool) (m : bytes * ls * bytes * lj) : bytes :=
  let '(w1, k, w2, v) := m in
  (if first then [] else [44]) ++ w1 ++ render_ls ascii no_rq k ++ 58 :: w2 ++ render ascii no_rq v.

Lemma commas_mtext ascii : forall ms m,
  commas (map (fun m => let '(w1, k, w2, v) := m in
                        w1 ++ render_ls ascii no_rq k ++ 58 :: w2 ++ render ascii no_rq v) (m :: ms)) =
  mtext ascii true m ++ flat_map (mtext ascii false) ms.
Proof.
  induction ms as [|y ms IH]; intros [[[w1 k] w2] v].
  - cbn. rewrite ?app_nil_r. reflexivity.
  - specialize (IH y). destruct y as [[[w1' k'] w2'] v'].
    change (commas (map ?f (?a :: ?b :: ?r))) with (f a ++ 44 :: commas (map f (b :: r))).
    rewrite IH. reflexivity.
Qed.

Lemma render_obj ascii m ms cw :
  render ascii no_rq (LObj (m :: ms) cw) = 123 :: mtext ascii true m ++ flat_map (mtext ascii false) ms ++ cw ++ [125].
Proof. cbn [render]. rewrite commas_mtext, <- app_assoc. reflexivity. Qed.

Lemma mtext_head ascii first k v :
  mtext ascii first (W, SR k, SP, v) = member_head first k ++ render ascii no_rq v.
Proof. unfold mtext, member_head, W, SP. destruct first; cbn [render_ls app]; rewrite <- ?app_assoc; reflexivity. Qed.

Lemma mtext_opt ascii {A} (o : option A) k (v : A -> lj) (t : A -> bytes) :
  (forall x, render ascii no_rq (v x) = t x) ->
  flat_map (mtext ascii false) (match o with Some x => [(W, SR k, SP, v x)] | None => [] end) =
  match o with Some x => member_head false k ++ t x | None => [] end.
Proof. intro H. destruct o; [|reflexivity]. cbn [flat_map]. rewrite app_nil_r, mtext_head, H. reflexivity. Qed.

Lemma text_is_render ascii sources root contents mappings names :
  sourcemap_text ascii sources root contents mappings names =
  render ascii no_rq (sm_lj sources root contents mappings names) ++ [10].
Proof.
  unfold sourcemap_text, sm_lj, sm_members. cbn [app]. rewrite render_obj.
  cbn [flat_map]. rewrite !flat_map_app.
  rewrite (mtext_opt ascii root k_sourceRoot _ (quote_for_json ascii)) by reflexivity.
  rewrite (mtext_opt ascii contents k_sourcesContent _ _ (render_elems ascii)).
  cbn [flat_map]. rewrite !mtext_head, !render_elems. cbn [render render_ls]. change (dec 3) with [51].
  repeat (rewrite <- !app_assoc; cbn [app]). reflexivity.
Qed.

(* printable ASCII other than the quotation mark and the backslash *)
Definition safe_char (c : Z) : Prop := 32 <= c <= 126 /\ c <> 34 /\ c <> 92.

Lemma quote_body_safe : forall s, Forall safe_char s -> quote_body (length s) false s = s.
Proof.
  induction s as [|c t IH]; intro H; [reflexivity|].
  inversion H as [|? ? (Hc & H1 & H2) Ht]; subst.
  cbn [length quote_body]. unfold quote_step. cbn [DecodeWTF8Rune].
  replace (c <? 128) with true by lia.
  unfold can_print, is_invalid_byte.
  replace (c <=? 126) with true by lia. replace (32 <=? c) with true by lia.
  replace (c =? 92) with false by lia. replace (c =? 34) with false by lia.
  replace (c =? 65533) with false by lia. cbn [negb andb Z.to_nat].
  change (Pos.to_nat 1) with 1%nat. cbn [firstn skipn app].
  rewrite (IH Ht). reflexivity.
Qed.

Lemma safe_raw_ok s : Forall safe_char s -> raw_ok s.
Proof.
  intro H. split; [|apply quote_body_safe, H].
  unfold bytes_ok. eapply Forall_impl; [|exact H]. intros c (Hc & _). lia.
Qed.

Lemma units_safe : forall s, Forall safe_char s -> units s = s.
Proof.
  unfold units. induction s as [|c t IH]; intro H; [reflexivity|].
  inversion H as [|? ? (Hc & H1 & H2) Ht]; subst.
  cbn [length str_units DecodeWTF8Rune]. replace (c <? 128) with true by lia.
  cbn [Z.to_nat]. change (Pos.to_nat 1) with 1%nat. cbn [skipn]. rewrite (IH Ht).
  unfold rune_units. replace (c <=? 65535) with true by lia. reflexivity.
Qed.

Definition jstrs (l : list bytes) : jv := JArr (map (fun s => JStr (units s)) l).

(* the JSON value the text stands for *)
Definition sm_jv (sources : list bytes) (root : option bytes) (contents : option (list bytes))
                 (mappings : bytes) (names : list bytes) : jv :=
  JObj ([(units k_version, JNum [51]); (units k_sources, jstrs sources)]
        ++ (match root with Some r => [(units k_sourceRoot, JStr (units r))] | None => [] end)
        ++ (match contents with Some cs => [(units k_sourcesContent, jstrs cs)] | None => [] end)
        ++ [(units k_mappings, JStr mappings); (units k_names, jstrs names)]).

Lemma key_raw_ok : raw_ok k_version /\ raw_ok k_sources /\ raw_ok k_sourceRoot /\ raw_ok k_sourcesContent /\
                   raw_ok k_mappings /\ raw_ok k_names.
Proof. repeat split; try (repeat constructor; lia); vm_compute; reflexivity. Qed.

Lemma elems_ok (l : list bytes) : Forall bytes_ok l -> lj_ok (fun _ _ => False) (LArr (elems l) []).
Proof.
  intro H. cbn [lj_ok]. split; [reflexivity|].
  destruct l as [|x r]; [exact I|]. inversion H as [|? ? Hx Hr]; subst. cbn [elems].
  split; [split; [reflexivity|exact Hx]|]. clear H Hx.
  induction Hr as [|y r Hy _ IH]; [exact I|]. cbn [map]. split; [split; [reflexivity|exact Hy]|exact IH].
Qed.

Lemma erase_elems ru (l : list bytes) :
  JArr (map (fun e : bytes * lj => erase ru (snd e)) (elems l)) = jstrs l.
Proof.
  unfold jstrs. f_equal. destruct l as [|x r]; [reflexivity|]. cbn [elems map snd erase ls_units].
  f_equal. rewrite map_map. reflexivity.
Qed.

Theorem sm_json_all : forall ascii sources root contents mappings names,
  Forall bytes_ok sources ->
  (forall r, root = Some r -> bytes_ok r) ->
  (forall cs, contents = Some cs -> Forall bytes_ok cs) ->
  Forall safe_char mappings -> Forall bytes_ok names ->
  parse_json (sourcemap_text ascii sources root contents mappings names) =
  Some (sm_jv sources root contents mappings names).
Proof.
  intros ascii sources root contents mappings names Hs Hr Hc Hm Hn.
  rewrite text_is_render.
  destruct key_raw_ok as (K1 & K2 & K3 & K4 & K5 & K6).
  assert (Hrq : sf_reads (fun _ _ => False) (fun _ _ => []) no_rq) by (intros k i []).
  rewrite (parse_render_all ascii (fun _ _ => False) (fun _ _ => []) no_rq _ [10] Hrq); [| |reflexivity].
  - f_equal. unfold sm_lj, sm_jv, sm_members. cbn [erase].
    rewrite !map_app. cbn [map ls_units erase].
    rewrite !erase_elems. change (dec 3) with [51]. rewrite (units_safe mappings Hm).
    destruct root, contents; cbn [map ls_units erase app]; rewrite ?erase_elems; reflexivity.
  - unfold sm_lj, sm_members.
    pose proof (elems_ok sources Hs) as E1. pose proof (elems_ok names Hn) as E2.
    pose proof (safe_raw_ok mappings Hm) as E3.
    destruct K1, K2, K3, K4, K5, K6, E3.
    destruct root as [r|], contents as [cs|]; cbn [lj_ok app];
      repeat split; try assumption; try reflexivity; try (unfold num_ok; lia);
      try (apply (Hr r eq_refl)); try (apply elems_ok, (Hc cs eq_refl)); try (apply E1); try (apply E2).
Qed.

(* the assembly as the linker runs it: one (source, contents) item per "sources" entry *)
Definition sourcemap_text_items (ascii : bool) (items : list (bytes * bytes)) (root : option bytes)
                                (exclude_content : bool) (mappings : bytes) (names : list bytes) : bytes :=
  sourcemap_text ascii (map fst items) root (if exclude_content then None else Some (map snd items)) mappings names.
