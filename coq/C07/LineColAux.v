(* Line offset tables: what decode_rune can return, the rune list
   as a faithful left-to-right cut of the text, and the binary search of the
   lookup (the search of FindProofs.v) on a table list partitioned at the
   queried offset. *)
From V Require Import Common.Base Common.Utf8 C07.Vlq C07.Shift C07.LineCol C07.FindProofs.

Lemma in_range_spec lo hi x : in_range lo hi x = true <-> lo <= x <= hi.
Proof. unfold in_range. lia. Qed.

(* the value of a well-formed multi-byte sequence is not ASCII: the lead byte
   or, for the smallest lead byte, the raised lower bound of the second byte
   contributes at least 128 *)
Lemma value2_ge b0 b1 : 194 <= b0 <= 223 -> 128 <= b0 mod 32 * 64 + b1 mod 64.
Proof. lia. Qed.

Lemma value3_ge b0 b1 b2 : 224 <= b0 <= 239 ->
  (if b0 =? 224 then 160 else 128) <= b1 <= 191 ->
  128 <= b0 mod 16 * 4096 + b1 mod 64 * 64 + b2 mod 64.
Proof. destruct (Z.eqb_spec b0 224); lia. Qed.

Lemma value4_ge b0 b1 b2 b3 : 240 <= b0 <= 244 ->
  (if b0 =? 240 then 144 else 128) <= b1 <= 191 ->
  128 <= b0 mod 8 * 262144 + b1 mod 64 * 4096 + b2 mod 64 * 64 + b3 mod 64.
Proof. destruct (Z.eqb_spec b0 240); lia. Qed.

Lemma decode_rune_shape b0 r c w : decode_rune (b0 :: r) = (c, w) ->
  (w = 1%nat /\ (c = b0 \/ c = RuneError)) \/
  ((2 <= w <= S (length r))%nat /\ 128 <= c).
Proof.
  unfold decode_rune, is_cont.
  destruct (b0 <? 128); [intros [= <- <-]; auto|].
  destruct (in_range 194 223 b0) eqn:E0.
  { apply in_range_spec in E0.
    destruct r as [|b1 r]; [intros [= <- <-]; auto|].
    destruct (in_range 128 191 b1); intros [= <- <-]; [right|auto].
    split; [cbn [length]; lia|apply value2_ge, E0]. }
  destruct (in_range 224 239 b0) eqn:E1.
  { apply in_range_spec in E1.
    destruct r as [|b1 [|b2 r]]; try (intros [= <- <-]; auto).
    destruct (in_range _ _ b1) eqn:E; cbn [andb]; [destruct (in_range 128 191 b2)|]; intros [= <- <-]; auto.
    right. apply in_range_spec in E.
    split; [cbn [length]; lia|apply value3_ge; [exact E1|destruct (b0 =? 237); lia]]. }
  destruct (in_range 240 244 b0) eqn:E2.
  { apply in_range_spec in E2.
    destruct r as [|b1 [|b2 [|b3 r]]]; try (intros [= <- <-]; auto).
    destruct (in_range _ _ b1) eqn:E; cbn [andb];
      [destruct (in_range 128 191 b2); cbn [andb]; [destruct (in_range 128 191 b3)|]|]; intros [= <- <-]; auto.
    right. apply in_range_spec in E.
    split; [cbn [length]; lia|apply value4_ge; [exact E2|destruct (b0 =? 244); lia]]. }
  intros [= <- <-]; auto.
Qed.

Lemma decode_rune_facts : forall l c w,
  l <> [] -> decode_rune l = (c, w) ->
  (1 <= w)%nat /\ (w <= length l)%nat /\ (c <= 127 -> w = 1%nat).
Proof.
  intros [|b0 r] c w Hne H; [congruence|].
  destruct (decode_rune_shape b0 r c w H) as [[-> _]|[Hw Hc]]; cbn [length]; lia.
Qed.

Lemma decode_rune_ascii b0 r c w : decode_rune (b0 :: r) = (c, w) -> 0 <= c <= 127 -> c = b0.
Proof.
  intros H Hc. destruct (decode_rune_shape b0 r c w H) as [[_ [E|E]]|[_ Hge]]; [exact E|unfold RuneError in E|]; lia.
Qed.

(* the rune list is a faithful left-to-right cut of [rest] starting at offset [i] *)
Fixpoint wf_runes (rs : list (Z * Z * nat)) (rest : bytes) (i : Z) : Prop :=
  match rs with
  | [] => rest = []
  | (j, c, w) :: r =>
    j = i /\ (1 <= w)%nat /\ (w <= length rest)%nat /\ (c <= 127 -> w = 1%nat) /\
    wf_runes r (skipn w rest) (i + Z.of_nat w)
  end.

Lemma runes_from_S : forall f l off, l <> [] ->
  runes_from (S f) l off =
  (off, fst (decode_rune l), snd (decode_rune l)) ::
    runes_from f (skipn (snd (decode_rune l)) l) (off + Z.of_nat (snd (decode_rune l))).
Proof.
  intros f l off Hne. destruct l as [|b r]; [congruence|].
  cbn [runes_from]. destruct (decode_rune (b :: r)); reflexivity.
Qed.

Lemma runes_from_wf : forall fuel l off,
  (length l <= fuel)%nat -> wf_runes (runes_from fuel l off) l off.
Proof.
  induction fuel as [|f IH]; intros l off Hf.
  - destruct l; cbn in *; [reflexivity | lia].
  - destruct l as [|b r] eqn:El; [reflexivity|]. rewrite <- El in *.
    assert (Hne : l <> []) by (subst; discriminate).
    rewrite runes_from_S by assumption.
    destruct (decode_rune l) as [c w] eqn:Ed. cbn [fst snd].
    destruct (decode_rune_facts l c w Hne Ed) as (H1 & H2 & H3).
    cbn [wf_runes]. repeat split; try assumption.
    apply IH. rewrite skipn_length. lia.
Qed.

Lemma runes_wf : forall text, wf_runes (runes text) text 0.
Proof. intro. apply runes_from_wf. lia. Qed.

Definition roff (r : Z * Z * nat) : Z := fst (fst r).

Lemma wf_runes_offsets : forall rs rest i o,
  wf_runes rs rest i -> In o (map roff rs) -> i <= o < i + Z.of_nat (length rest).
Proof.
  induction rs as [|[[j c] w] r IH]; intros rest i o Hwf Hin; [destruct Hin|].
  cbn [wf_runes] in Hwf. destruct Hwf as (-> & H1 & H2 & _ & Hwf).
  cbn [map In roff fst] in Hin. destruct Hin as [<- | Hin]; [lia|].
  specialize (IH _ _ _ Hwf Hin). rewrite skipn_length in IH. lia.
Qed.

Lemma spec_at_end : forall rs rest i line col,
  wf_runes rs rest i ->
  spec_linecol rs rest (i + Z.of_nat (length rest)) line col = advance_runes rs rest line col.
Proof.
  induction rs as [|[[j c] w] r IH]; intros rest i line col Hwf; [reflexivity|].
  cbn [wf_runes] in Hwf. destruct Hwf as (-> & H1 & H2 & _ & Hwf).
  cbn [spec_linecol advance_runes].
  destruct (i + Z.of_nat (length rest) <=? i) eqn:E; [lia|].
  assert (Hn : i + Z.of_nat (length rest) =
               i + Z.of_nat w + Z.of_nat (length (skipn w rest))).
  { rewrite skipn_length. lia. }
  rewrite Hn.
  destruct (is_newline c); [destruct ((c =? 13) && _)|]; apply IH; assumption.
Qed.

Lemma line_search_bsearch loc ts : forall fuel orig count,
  line_search fuel ts orig count loc = bsearch (fun t => l_start t <=? loc) fuel ts orig count.
Proof.
  induction fuel as [|f IH]; intros orig count; [reflexivity|].
  cbn [line_search bsearch]. destruct count; [reflexivity|].
  destruct (nth_error ts _); [|reflexivity]. rewrite !IH, Nat.sub_add_distr. reflexivity.
Qed.

Lemma line_search_count : forall pre post loc,
  Forall (fun t => l_start t <= loc) pre ->
  Forall (fun t => loc < l_start t) post ->
  line_search (S (length (pre ++ post))) (pre ++ post) 0 (length (pre ++ post)) loc
  = length pre.
Proof.
  intros pre post loc Hpre Hpost. rewrite line_search_bsearch.
  apply bsearch_cut; rewrite ?app_length; try lia.
  - eapply Forall_impl; [|exact Hpre]. intros t Ht. apply Z.leb_le, Ht.
  - eapply Forall_impl; [|exact Hpost]. intros t Ht. apply Z.leb_gt, Ht.
Qed.
