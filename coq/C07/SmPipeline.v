(* The emitted source map as a whole: the text assembled around the mappings of
   pipeline_exact is well-formed JSON and says what it should. *)
From V Require Import Common.Base Common.Utf8 C07.Vlq C07.SpecMap C07.Mappings C07.VlqProofs C07.MappingsProofs
  C07.JoinProofs C07.Shift C07.ShiftAux C07.ShiftProofs C07.LineCol C07.Builder C07.BuilderProofs C07.LineColProofs
  C07.SpecBuilder C07.JoinAll C07.JoinAllProofs C07.Pipeline
  C19.Json C19.JsonSpec C19.JsonProofs C07.SmJson C07.SmJsonProofs.

(* a mappings string stands for itself between quotation marks *)
Lemma b64_safe d : 0 <= d < 64 -> safe_char (b64_char d).
Proof.
  intro Hd. apply (forallb_seq_Z (fun d => let c := b64_char d in
                     (32 <=? c) && (c <=? 126) && negb (c =? 34) && negb (c =? 92)) 64) in Hd;
    [|vm_compute; reflexivity].
  cbv zeta in Hd. unfold safe_char. lia.
Qed.

Lemma enc_loop_safe : forall fuel vlq, Forall safe_char (enc_loop fuel vlq).
Proof.
  induction fuel as [|f IH]; intro vlq; [constructor|].
  cbn [enc_loop]. assert (0 <= vlq mod 32 < 32) by (apply Z.mod_pos_bound; lia).
  destruct (vlq / 32 =? 0).
  - constructor; [apply b64_safe; lia|constructor].
  - constructor; [apply b64_safe; lia|apply IH].
Qed.

Lemma encodeVLQ_safe v : Forall safe_char (encodeVLQ v).
Proof. apply enc_loop_safe. Qed.

Lemma comma_safe (c : bool) : Forall safe_char (if c then [COMMA] else []).
Proof. destruct c; [|constructor]. constructor; [unfold safe_char, COMMA; lia|constructor]. Qed.

Lemma fields_safe p si ol oc nm : Forall safe_char (fields p si ol oc nm).
Proof.
  unfold fields. destruct nm; repeat (apply Forall_app; split); try apply encodeVLQ_safe. constructor.
Qed.

Lemma ebytes_safe : forall ops lb p, Forall safe_char (ebytes ops lb p).
Proof.
  induction ops as [|[|gc si ol oc nm|gc] r IH]; intros lb p.
  - constructor.
  - rewrite ebytes_newline. constructor; [unfold safe_char, SEMI; lia|apply IH].
  - destruct (ebytes_map_gen gc si ol oc nm r lb p) as (lb' & _ & ->).
    apply Forall_app. split; [apply comma_safe|].
    apply Forall_app. split; [apply encodeVLQ_safe|].
    apply Forall_app. split; [apply fields_safe|apply IH].
  - rewrite ebytes_null, null_seg_eq.
    apply Forall_app. split; [|apply IH].
    apply Forall_app. split; [apply comma_safe|apply encodeVLQ_safe].
Qed.

Lemma emit_bytes_safe ops : Forall safe_char (emit_bytes ops).
Proof. rewrite emit_bytes_ebytes. apply ebytes_safe. Qed.

Theorem sourcemap_json_all : forall (sfs : list src_file) sh ascii (items : list (bytes * bytes)) root excl (names : list bytes),
  Forall src_ok sfs -> shifts_wf sh ->
  Forall (fun it => bytes_ok (fst it) /\ bytes_ok (snd it)) items ->
  (forall r, root = Some r -> bytes_ok r) -> Forall bytes_ok names ->
  exists rs m result,
    map built_res sfs = map Some rs /\
    join_all rs = Some m /\
    Finalize sh m = Some result /\
    spec_decode result =
      Some (map (shift_abs sh) (joined_abs (assign_sources rs [] 0) (map spec_file sfs) (0, 0) 0)) /\
    parse_json (sourcemap_text_items ascii items root excl result names) =
      Some (sm_jv (map fst items) root (if excl then None else Some (map snd items)) result names).
Proof.
  intros sfs sh ascii items root excl names Hok Hsh Hit Hroot Hnames.
  set (fs := map spec_file sfs).
  assert (Hrs : map built_res sfs = map Some (map res_of fs) /\ Forall file_ok fs /\ Forall file_wf fs).
  { subst fs. clear -Hok. induction Hok as [|sf l Hsf _ IH]; [repeat split; constructor|].
    destruct (built_is_spec sf Hsf) as (A & B & C). destruct IH as (A' & B' & C').
    cbn [map]. rewrite A, A'. repeat split; constructor; assumption. }
  destruct Hrs as (Hrs & Hfo & Hfw).
  destruct (join_all_decodes_all fs Hfo) as (m & Ej & Em & _). cbv zeta in Ej, Em.
  set (tbl := assign_sources (map res_of fs) [] 0) in *.
  assert (Hwf : ops_wf (joined_ops tbl fs 0 0)) by (apply joined_sorted; [exact Hfw|lia]).
  pose proof (finalize_shift sh _ Hsh Hwf) as F1.
  set (result := emit_bytes (shift_ops sh (joined_ops tbl fs 0 0) 0)) in *.
  exists (map res_of fs), m, result.
  split; [exact Hrs|]. split; [exact Ej|]. rewrite Em. split; [exact F1|]. split.
  - subst result. rewrite mappings_roundtrip_all, abs_of_shift_ops. f_equal. f_equal. apply abs_of_joined.
    clear -Hfo. induction Hfo as [|f l Hf _ IH]; constructor; [apply Hf|exact IH].
  - unfold sourcemap_text_items. apply sm_json_all.
    + apply Forall_map. eapply Forall_impl; [|exact Hit]. intros it [H _]. exact H.
    + exact Hroot.
    + intros cs E. destruct excl; [discriminate|]. inversion E; subst.
      apply Forall_map. eapply Forall_impl; [|exact Hit]. intros it [_ H]. exact H.
    + subst result. apply emit_bytes_safe.
    + exact Hnames.
Qed.
