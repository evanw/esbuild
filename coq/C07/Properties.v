(* C07 property theorems. This file contains only statements closed by
   [exact lemma] and Print Assumptions. *)
From V Require Import Common.Base Common.Utf8 C07.LineCol C07.Builder C07.BuilderProofs C07.LineColAux C07.LineColProofs C07.Shift C07.ShiftAux C07.ShiftProofs C07.Vlq C07.SpecMap C07.Mappings C07.VlqProofs C07.MappingsProofs C07.FindProofs C07.JoinProofs C07.SpecBuilder C07.BuilderExact C07.JoinAll C07.JoinAllProofs C07.JoinNullProofs C07.Pipeline C07.BuilderIn C07.BuilderInProofs C07.AdvConcat C07.ParseMap C07.ParseMapProofs.
From V Require C16.Checked C16.Vlq16 C16.Vlq16Proofs.
From V Require C19.Json C19.JsonSpec C19.JsonProofs C07.SmJson C07.SmJsonProofs C07.SmPipeline C07.PipelineNull.

(* encodeVLQ/DecodeVLQ round trip, every integer, arbitrary trailing bytes *)
Theorem vlq_roundtrip : forall v rest, DecodeVLQ (encodeVLQ v ++ rest) = Some (v, rest).
Proof. exact vlq_roundtrip_all. Qed.
Print Assumptions vlq_roundtrip.

(* within Go's 64-bit int the encoding has at most 13 digits: no shift >= 64 *)
Theorem vlq_digits_fit_int64 : forall v, - 2 ^ 62 < v < 2 ^ 62 -> (length (encodeVLQ v) <= 13)%nat.
Proof. exact encodeVLQ_length_bound. Qed.
Print Assumptions vlq_digits_fit_int64.

(* the base64 table in the code is the RFC 4648 alphabet *)
Theorem base64_table_is_rfc4648 : forall c, b64_index c = spec_digit c.
Proof. exact b64_index_is_spec. Qed.
Print Assumptions base64_table_is_rfc4648.

(* the mappings string the builder writes means, under the v3 semantics,
   exactly the mappings that were added: every event list, no size bound *)
Theorem mappings_roundtrip : forall ops, spec_decode (emit_bytes ops) = Some (abs_of ops 0).
Proof. exact mappings_roundtrip_all. Qed.
Print Assumptions mappings_roundtrip.

(* SourceMap.Find (binary search) returns the last mapping at or before the
   queried generated position, on the queried line: every sorted mapping list *)
Theorem find_is_last_le : forall ms line col, sorted_maps ms -> Find ms line col = spec_find ms line col.
Proof. exact find_is_spec. Qed.
Print Assumptions find_is_last_le.

(* AppendSourceMapChunk on a chunk produced by the builder writes exactly the
   bytes the builder would write for the rebased events (start line/column,
   source index base, name base), for every chunk and every previous state *)
Theorem join_bytes : forall k gc si ol oc nm rest jl prevEnd start,
  has_name start = false -> oline start = 0 -> ocol start = 0 -> 0 <= gline start ->
  let ops := repeat ONewline k ++ OMap gc si ol oc nm :: rest in
  AppendSourceMapChunk jl prevEnd start
     (mkChunk (ebytes ops 0 state0) (option_map Z.of_nat (first_name_off ops 0 state0 0)))
  = Some (ebytes (repeat ONewline (Z.to_nat (gline start))
                  ++ rebase (gcol start) (sidx start) (oname start) true ops) jl prevEnd).
Proof. exact join_bytes_all. Qed.
Print Assumptions join_bytes.

(* ... hence every file's mappings survive joining, shifted to the file's place *)
Theorem join_decodes : forall ops0 k gc si ol oc nm rest start,
  has_name start = false -> oline start = 0 -> ocol start = 0 -> 0 <= gline start ->
  let ops := repeat ONewline k ++ OMap gc si ol oc nm :: rest in
  let '(b0, jl, prevEnd) := emit ops0 0 state0 in
  exists appended,
    AppendSourceMapChunk jl prevEnd start
      (mkChunk (emit_bytes ops) (option_map Z.of_nat (first_name_off ops 0 state0 0))) = Some appended /\
    spec_decode (b0 ++ appended) =
      Some (abs_of (ops0 ++ repeat ONewline (Z.to_nat (gline start))
                    ++ rebase (gcol start) (sidx start) (oname start) true ops) 0).
Proof. exact join_decodes_all. Qed.
Print Assumptions join_decodes.

(* every chunk the ChunkBuilder can produce (any line tables, any sequence of
   AddSourceMapping calls with any output text, then GenerateChunk) carries a
   mappings string that is well-formed under the v3 semantics and sorted by
   generated position *)
Theorem builder_sorted : forall ts cover evs b fin,
  run_builder ts (bst0 cover) evs = Some b ->
  let '(data, _, _, _, _, _) := GenerateChunk b fin in
  exists l, spec_decode data = Some l /\ sorted_abs l = true.
Proof. exact builder_sorted_all. Qed.
Print Assumptions builder_sorted.

(* The line offset tables built from a source text, looked up the way
   AddSourceMapping does (binary search + per-line column table), give for
   every character boundary the true 0-based line and UTF-16 column of that
   byte offset (CR, LF, CRLF, U+2028, U+2029 line breaks; astral characters
   count two columns; invalid UTF-8 decodes as Go's range does): every text *)
Theorem lineoffset_table_is_spec : forall text off,
  boundary text off ->
  lookup (GenerateLineOffsetTables text) off = Some (linecol_utf16 text off).
Proof. exact lineoffset_is_spec. Qed.
Print Assumptions lineoffset_table_is_spec.

(* SourceMapPieces.Finalize applied to a builder-produced mappings string moves
   exactly the generated columns that lie after a substituted path on the same
   line, by that path's length difference: every event list sorted within
   lines, every well-formed shift list (first shift zero, Before/After on one
   line, Befores strictly increasing) *)
Theorem finalize_moves_columns : forall sh ops, shifts_wf sh -> ops_wf ops ->
  exists result, Finalize sh (emit_bytes ops) = Some result /\
    spec_decode (emit_bytes ops) = Some (abs_of ops 0) /\
    spec_decode result = Some (map (shift_abs sh) (abs_of ops 0)).
Proof. exact finalize_decodes_map. Qed.
Print Assumptions finalize_moves_columns.

(* What the mappings of a ChunkBuilder chunk ARE: for every original text, every
   sequence of AddSourceMapping(loc, name, output) calls with loc at a character
   boundary of the text, any output text, with or without
   coverLinesWithoutMappings: the builder does not panic and the chunk returned
   by GenerateChunk is byte for byte the v3 encoding of the event list of
   SpecBuilder.v, i.e. in order, for every call not suppressed as a duplicate,
   one mapping
     (generated line, generated UTF-16 column of the end of the output printed
      so far)  |->  (source 0, linecol_utf16 text loc, index of the name)
   plus (cover on, a previous mapping exists) its copy at column 0 of every
   generated line left without a mapping and of the line of a mapping that is
   not at column 0 on a line without mapping.  The name table, first-name
   offset, end state and final generated column are the specified ones and the
   events are sorted within each line (what Finalize and the joiner rely on).
   Combines the Builder.v model with lineoffset_table_is_spec. *)
Theorem builder_mappings_exact : forall text cover evs fin,
  Forall (fun e => boundary text (fst (fst e))) evs ->
  exists b, run_builder (GenerateLineOffsetTables text) (bst0 cover) evs = Some b /\
    let '(data, fno, names, endst, fcol, _) := GenerateChunk b fin in
    let '(ops, snames, scol) := builder_spec text cover evs fin in
    data = emit_bytes ops /\
    spec_decode data = Some (abs_of ops 0) /\
    fno = option_map Z.of_nat (first_name_off ops 0 state0 0) /\
    names = snames /\ fcol = scol /\
    endst = snd (emit ops 0 state0) /\
    sorted_ops ops 0 /\ end_col ops 0 <= fcol.
Proof. exact builder_exact_all. Qed.
Print Assumptions builder_mappings_exact.

(* Many files. The "Write the mappings" loop of linker.generateSourceMapForChunk
   (JoinAll.v: prevEndState / prevColumnOffset / totalQuotedNameLen bookkeeping,
   the two "Internal error" panics, null entries, the sourceIndexToSourcesIndex
   table of the first loop), applied to ANY list of compiled files whose chunks
   are builder outputs with at least one mapping (ShouldIgnore chunks never
   reach the loop) and whose offsets have a non-negative line count: the loop
   does not panic, and the mappings string it writes denotes, under the v3
   semantics, exactly every file's mappings, in order, moved to the place of the
   file's text -- start of file i = end of file i-1's text + offset i, end of
   its text = start + (number of line breaks, final column) -- with the file's
   "sources" index added to the source index and the number of names of the
   earlier files added to the name index. By induction over the file list on
   top of join_bytes.  The list may contain null entries (a file without
   mappings after a file with mappings): each contributes one mapping without
   original position at the place where the previous file's text ended; the
   linker's bookkeeping after a null entry on one line carries a common excess
   in prevEndState's column and prevColumnOffset (JoinProofs.v: gcol_off),
   which cancels in every delta it writes. *)
Theorem join_all_decodes : forall items,
  Forall item_ok items ->
  let tbl := assign_sources (map res_of_item items) [] 0 in
  exists m, join_all (map res_of_item items) = Some m /\
            m = emit_bytes (joined_ops_i tbl items 0 0) /\
            spec_decode m = Some (joined_abs_i tbl items (0, 0) 0).
Proof. exact join_all_decodes_items. Qed.
Print Assumptions join_all_decodes.

(* the "sources" numbering used above: distinct source indices get 0,1,2,...
   in order of first appearance and every non-null result has an entry *)
Theorem sources_table_first_appearance : forall rs,
  let t := assign_sources rs [] 0 in
  map snd t = zseq 0 (length t) /\ NoDup (map fst t) /\
  (forall r, In r rs -> j_null r = false -> tbl_find (j_src r) t <> None).
Proof. exact sources_table_all. Qed.
Print Assumptions sources_table_first_appearance.

(* End to end over the modelled code: n source files, each with its original
   text, its AddSourceMapping calls (locs at character boundaries, at least one
   call) and its output text, placed by the linker at offsets that are
   positions (no input source maps: coverLinesWithoutMappings on), possibly
   interleaved with null entries (files without mappings), any well-formed
   shift list.  Every builder run succeeds, the joining loop of
   generateSourceMapForChunk does not panic, Finalize succeeds, and the final
   mappings string denotes exactly: for every file in order, the mappings
   specified by SpecBuilder.v (generated position of the output so far |->
   UTF-16 line/column of loc in the original text, name index, cover mappings)
   moved to the file's place in the chunk, source index = the file's "sources"
   index, name index + number of names of earlier files, and every generated
   column moved by the shift that applies at that position.
   Composes builder_mappings_exact, join_all_decodes, finalize_moves_columns. *)
Theorem pipeline_exact : forall (sis : list PipelineNull.src_item) sh,
  Forall PipelineNull.src_item_ok sis -> shifts_wf sh ->
  exists rs m result,
    map PipelineNull.built_item sis = map Some rs /\
    join_all rs = Some m /\
    Finalize sh m = Some result /\
    result = emit_bytes (shift_ops sh (joined_ops_i (assign_sources rs [] 0) (map PipelineNull.spec_item sis) 0 0) 0) /\
    spec_decode result =
      Some (map (shift_abs sh) (joined_abs_i (assign_sources rs [] 0) (map PipelineNull.spec_item sis) (0, 0) 0)).
Proof. exact PipelineNull.pipeline_exact_items. Qed.
Print Assumptions pipeline_exact.

(* Composition through an input source map. The ChunkBuilder created with a
   non-nil inputSourceMap (BuilderIn.v; AddSourceMappingG None is the builder of
   builder_mappings_exact) whose mappings [ms] are sorted by generated position
   and whose name indices lie inside its Names array: for every original text,
   calls at character boundaries and output text, the builder does not panic
   and the chunk is byte for byte the encoding of the event list of
   builder_in_spec (BuilderInProofs.v), which is the list of
   builder_mappings_exact without cover mappings in which every original
   position  linecol_utf16 text loc  is replaced by the target (source index,
   line, column) of  spec_find ms line col  -- the last input mapping at or
   before that position on that line, find_is_last_le -- and the mapping is
   dropped when there is none; the name is the input mapping's name when it has
   one, otherwise the caller's. *)
Theorem builder_composes : forall text ms inames,
  sorted_maps ms -> names_in_range ms inames ->
  forall evs fin,
  Forall (fun e => boundary text (fst (fst e))) evs ->
  exists b, run_builder_g (Some (ms, inames)) (GenerateLineOffsetTables text) (bst0_g (Some (ms, inames))) evs = Some b /\
    let '(data, fno, names, endst, fcol, _) := GenerateChunk b fin in
    let '(ops, snames, scol) := builder_in_spec text ms inames evs fin in
    data = emit_bytes ops /\
    spec_decode data = Some (abs_of ops 0) /\
    fno = option_map Z.of_nat (first_name_off ops 0 state0 0) /\
    names = snames /\ fcol = scol /\
    endst = snd (emit ops 0 state0) /\
    sorted_ops ops 0 /\ end_col ops 0 <= fcol.
Proof. exact builder_composes_all. Qed.
Print Assumptions builder_composes.

(* The generated position of builder_mappings_exact is measured portion by
   portion (the builder scans only the output added since its last scan).
   Measuring the concatenated output gives the same position whenever the cut
   is clean: a character boundary of the concatenation (not inside a UTF-8
   sequence) that does not separate a CR from the LF that follows it. *)
Theorem generated_position_concat : forall p a b,
  clean_cut a b -> adv p (a ++ b) = adv (adv p a) b.
Proof. exact adv_concat_all. Qed.
Print Assumptions generated_position_concat.

(* ... and the hypothesis is needed: the builder that has scanned "...CR" and
   then scans "LF..." counts two line breaks where the text has one *)
Theorem generated_position_dirty_cut_differs :
  adv (0, 0) ([13] ++ [10]) = (1, 0) /\ adv (adv (0, 0) [13]) [10] = (2, 0).
Proof. exact (conj eq_refl eq_refl). Qed.
Print Assumptions generated_position_dirty_cut_differs.

(* Hence, when every place where the builder stops scanning is a clean cut of
   the output ([clean_run]: the hypothesis about the printers, which record
   mappings between whole tokens / whole comments; exercised by the cut-probe
   corpus through api.Transform), the chunk of builder_mappings_exact is the one
   whose generated positions are  linecol_utf16 (all output printed so far)
   (its length)  -- the same direct scan that specifies original positions. *)
Theorem builder_spec_on_concatenated_output : forall text cover evs fin,
  clean_run sw0 [] evs fin ->
  builder_spec_cat text cover evs fin = builder_spec text cover evs fin.
Proof. exact builder_spec_cat_eq. Qed.
Print Assumptions builder_spec_on_concatenated_output.

(* builder_composes relative to builder_mappings_exact: names aside, the
   mappings of the chunk built with input map [ms] are the mappings of the chunk
   built without one (cover off), each with its original position (line,
   column) replaced by the target of spec_find ms line column, and dropped when
   spec_find finds nothing; generated positions are untouched. *)
Theorem composes_is_remapping : forall text ms inames evs fin,
  map strip_abs (abs_of (fst (fst (builder_in_spec text ms inames evs fin))) 0) =
  flat_map (remap_abs ms) (abs_of (builder_spec_ops text false evs fin) 0).
Proof. exact composes_remaps_abs. Qed.
Print Assumptions composes_is_remapping.

(* js_parser.ParseSourceMap (the decoder of INPUT source maps). The decoding loop
   is the model of coq/C16/Vlq16.v (imported, tied to the Go code by C16's
   correspondence, C16.parsed_map_indices_in_range); ParseMap.v adds the one
   variable that model leaves out -- needSort -- and the final sort, and
   mloop_ns_erase shows that forgetting the flag gives back C16's loop.
   For every list of sections whose offsets are int32 and whose line counter
   cannot overflow (sec_bounds) and fewer than 2^31 sources and names: a
   returned map has its mappings sorted by generated position (whether or not
   the needSort path ran: if no negative generated-column delta was read and no
   section starts before the end of the previous one, the decoded order is
   already sorted) and every source / name index lies inside Sources / Names. *)
Theorem parsed_map_sorted_in_range : forall secs n1 n2 ms flag,
  Vlq16Proofs.sections_ok secs -> Vlq16Proofs.total_sources secs < 2 ^ 31 -> Vlq16Proofs.total_names secs < 2 ^ 31 ->
  Forall sec_bounds secs ->
  ParseMappingsOrdered secs = Checked.Ok (QMap n1 n2 ms flag) ->
  sorted_maps (map conv ms) /\ Forall (Vlq16Proofs.good_mapping n1 n2) ms.
Proof. exact parse_sorted_in_range. Qed.
Print Assumptions parsed_map_sorted_in_range.

(* ... hence every map ParseSourceMap returns meets the hypotheses of
   builder_composes (sorted_maps, names_in_range for a Names array of the
   returned length): composition through a parsed input map never panics and
   is the spec_find remapping. *)
Theorem parsed_map_is_composable : forall secs n1 n2 ms flag (inames : list Z),
  Vlq16Proofs.sections_ok secs -> Vlq16Proofs.total_sources secs < 2 ^ 31 -> Vlq16Proofs.total_names secs < 2 ^ 31 ->
  Forall sec_bounds secs ->
  ParseMappingsOrdered secs = Checked.Ok (QMap n1 n2 ms flag) ->
  Z.of_nat (length inames) = n2 ->
  sorted_maps (map conv ms) /\ names_in_range (map conv ms) inames.
Proof. exact parsed_map_composable. Qed.
Print Assumptions parsed_map_is_composable.

(* the ordered model is the C16 model with the flag forgotten *)
Theorem parse_model_refines_c16 : forall raw lo co so no sl nl fuel st current acc ns,
  erase (mloop_ns raw lo co so no sl nl fuel st current acc ns) = Vlq16.mloop raw lo co so no sl nl fuel st current acc.
Proof. exact mloop_ns_erase. Qed.
Print Assumptions parse_model_refines_c16.

(* The text of the emitted map (SmJson.v: the AddString / QuoteForJSON calls of
   generateSourceMapForChunk around the mappings), for every list of sources,
   optional source root, optional list of file contents, every names list (any
   bytes: control characters, quotes, invalid UTF-8 ...) and every mappings
   string made of mapping characters: the text is accepted by the RFC 8259
   parser of coq/C19/JsonSpec.v and denotes the object
     version 3, sources, [sourceRoot], [sourcesContent], mappings, names
   where every string reads back as the UTF-16 units of the bytes it was written
   from (C19.json_quote_roundtrip, imported: an invalid byte reads as U+FFFD)
   and "mappings" reads back as the mappings string itself. *)
Theorem sourcemap_text_parses : forall ascii sources root contents mappings names,
  Forall JsonProofs.bytes_ok sources ->
  (forall r, root = Some r -> JsonProofs.bytes_ok r) ->
  (forall cs, contents = Some cs -> Forall JsonProofs.bytes_ok cs) ->
  Forall SmJsonProofs.safe_char mappings -> Forall JsonProofs.bytes_ok names ->
  JsonSpec.parse_json (SmJson.sourcemap_text ascii sources root contents mappings names) =
  Some (SmJsonProofs.sm_jv sources root contents mappings names).
Proof. exact SmJsonProofs.sm_json_all. Qed.
Print Assumptions sourcemap_text_parses.

(* ... and for the map esbuild emits for a chunk: n source files through the
   builder, the joining loop and Finalize (pipeline_exact), with one (source
   path, file contents) item per "sources" entry: the emitted text is
   well-formed JSON whose "version" is 3, whose "sources" and "sourcesContent"
   have one entry per item -- sourcesContent[i] is exactly file i's text (absent
   altogether with --sources-content=false) --, whose "names" are the given
   names and whose "mappings" is the string that pipeline_exact decodes. *)
Theorem sourcemap_json_wellformed_and_faithful :
  forall (sis : list PipelineNull.src_item) sh ascii (items : list (bytes * bytes)) root excl (names : list bytes),
  Forall PipelineNull.src_item_ok sis -> shifts_wf sh ->
  Forall (fun it => JsonProofs.bytes_ok (fst it) /\ JsonProofs.bytes_ok (snd it)) items ->
  (forall r, root = Some r -> JsonProofs.bytes_ok r) -> Forall JsonProofs.bytes_ok names ->
  exists rs m result,
    map PipelineNull.built_item sis = map Some rs /\
    join_all rs = Some m /\
    Finalize sh m = Some result /\
    spec_decode result =
      Some (map (shift_abs sh) (joined_abs_i (assign_sources rs [] 0) (map PipelineNull.spec_item sis) (0, 0) 0)) /\
    JsonSpec.parse_json (SmJsonProofs.sourcemap_text_items ascii items root excl result names) =
      Some (SmJsonProofs.sm_jv (map fst items) root (if excl then None else Some (map snd items)) result names).
Proof. exact PipelineNull.sourcemap_json_items. Qed.
Print Assumptions sourcemap_json_wellformed_and_faithful.

(* ParseSourceMap = the v3 decoding, on every mappings string written by the
   emitter (the canonical encoding esbuild and its chunk builder produce): for
   every event list whose columns, lines and indices are below 2^30 and inside
   the sources / names arrays, the parser model applied to the single section
   [emit_bytes ops] returns exactly the mappings that spec_decode assigns to
   that string and that have an original position (the parser ignores
   one-field segments), in decoding order when no generated column goes
   backwards within a line, stably sorted otherwise.  With
   parsed_map_is_composable and builder_composes this makes composition through
   an input map end-to-end: text of the input map -> parsed list -> Find. *)
From V Require C07.ParseRoundtrip.
Theorem parse_reads_back_emitted : forall sl nl ops,
  ParseRoundtrip.in30 sl -> ParseRoundtrip.in30 nl -> ParseRoundtrip.ops_in30 sl nl ops ->
  ParseRoundtrip.nlines16 ops < 2 ^ 30 -> ParseRoundtrip.pmaps ops 0 <> [] ->
  spec_decode (emit_bytes ops) = Some (abs_of ops 0) /\
  ParseMappingsOrdered [(0, 0, sl, nl, emit_bytes ops)] =
    Checked.Ok (QMap sl nl (let l := flat_map ParseRoundtrip.abs6 (abs_of ops 0) in
                            if ParseRoundtrip.negd ops 0 then sort_pos l else l) (ParseRoundtrip.negd ops 0)).
Proof. exact ParseRoundtrip.parse_emit_all. Qed.
Print Assumptions parse_reads_back_emitted.
