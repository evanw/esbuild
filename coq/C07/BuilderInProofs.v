(* builder_composes: the ChunkBuilder with an input source map [ms] (sorted by
   generated position) emits, for every recorded AddSourceMapping call, the
   mapping  (generated position of the output so far) |-> the target of
   [spec_find ms (linecol_utf16 text loc)]  (source index, original line and
   column of the LAST input mapping at or before that position on that line),
   and nothing when there is none; the name is the input mapping's name when it
   has one, else the caller's; no cover mappings. *)
From V Require Import Common.Base Common.Utf8 C07.Vlq C07.SpecMap C07.Mappings C07.LineCol C07.Builder
  C07.VlqProofs C07.MappingsProofs C07.JoinProofs C07.BuilderProofs C07.LineColAux C07.LineColProofs
  C07.SpecBuilder C07.BuilderExact C07.FindProofs C07.BuilderIn.

Definition in_name (inames : list Z) (m : mapping) (name : Z) : Z :=
  match m_name m with Some i => nth (Z.to_nat i) inames 0 | None => name end.

Definition sp_event_in (text : bytes) (ms : list mapping) (inames : list Z) (w : sw) (loc name : Z) (delta : bytes) : sw * list op :=
  let newlen := w_len w + Z.of_nat (length (w_pend w)) + Z.of_nat (length delta) in
  if (loc =? w_ploc w) && ((w_plen w =? newlen) || (w_pname w =? name))
  then (mkSw (w_line w) (w_col w) (w_pend w ++ delta) (w_len w) (w_ploc w) (w_plen w) (w_pname w)
             (w_names w) (w_last w) (w_has w), [])
  else
    let t := w_pend w ++ delta in
    let lc := adv (w_line w, w_col w) t in
    let k := Z.to_nat (fst lc - w_line w) in
    let orig := linecol_utf16 text loc in
    match spec_find ms (fst orig) (snd orig) with
    | None =>
      (mkSw (fst lc) (snd lc) [] (w_len w + Z.of_nat (length t)) loc newlen name (w_names w) (w_last w) true,
       repeat ONewline k)
    | Some m =>
      let ni := name_index (w_names w) (in_name inames m name) in
      (mkSw (fst lc) (snd lc) [] (w_len w + Z.of_nat (length t)) loc newlen name (fst ni)
            (Some (m_oline m, m_ocol m)) true,
       repeat ONewline k ++ [OMap (snd lc) (m_src m) (m_oline m) (m_ocol m) (snd ni)])
    end.

Fixpoint sp_run_in (text : bytes) (ms : list mapping) (inames : list Z) (w : sw) (evs : list (Z * Z * bytes)) : sw * list op :=
  match evs with
  | [] => (w, [])
  | (loc, name, delta) :: r =>
    let w1 := sp_event_in text ms inames w loc name delta in
    let w2 := sp_run_in text ms inames (fst w1) r in
    (fst w2, snd w1 ++ snd w2)
  end.

Definition builder_in_spec (text : bytes) (ms : list mapping) (inames : list Z) (evs : list (Z * Z * bytes)) (fin : bytes)
  : list op * list Z * Z :=
  let r := sp_run_in text ms inames sw0 evs in
  let lc := adv (w_line (fst r), w_col (fst r)) (w_pend (fst r) ++ fin) in
  (snd r ++ repeat ONewline (Z.to_nat (fst lc - w_line (fst r))), w_names (fst r), snd lc).

(* every name index of the input map is inside its Names array (else Go panics) *)
Definition names_in_range (ms : list mapping) (inames : list Z) : Prop :=
  Forall (fun m => match m_name m with Some i => (Z.to_nat i < length inames)%nat | None => True end) ms.

Lemma breaks_nil : forall k has, breaks_ops k [] has = repeat ONewline k.
Proof. induction k as [|k IH]; intro has; [reflexivity|]. cbn [breaks_ops repeat]. destruct has; cbn [app]; rewrite IH; reflexivity. Qed.

Lemma spec_find_In ms line col m : spec_find ms line col = Some m -> In m ms.
Proof.
  unfold spec_find. destruct (rev (filter _ ms)) as [|x l] eqn:E; [discriminate|].
  destruct (m_gline x =? line); [|discriminate]. intro H. inversion H; subst x.
  assert (Hin : In m (rev (filter (fun m0 => mapping_le_pos m0 line col) ms))) by (rewrite E; left; reflexivity).
  apply in_rev in Hin. apply filter_In in Hin. apply Hin.
Qed.

Section EventIn.
Variable text : bytes.
Variable ms : list mapping.
Variable inames : list Z.
Hypothesis Hsorted : sorted_maps ms.
Hypothesis Hrange : names_in_range ms inames.

Lemma append_mapping_g_found b name cur m :
  Find ms (oline cur) (ocol cur) = Some m -> In m ms ->
  append_mapping_g (Some (ms, inames)) b name cur =
  Some (append_named b (in_name inames m name)
          (mkState (gline cur) (gcol cur) (m_src m) (m_oline m) (m_ocol m) (oname cur) (has_name cur))).
Proof.
  intros Hf Hin. unfold append_mapping_g, in_name. rewrite Hf.
  destruct (m_name m) as [i|] eqn:Em; [|reflexivity].
  unfold names_in_range in Hrange. rewrite Forall_forall in Hrange. specialize (Hrange m Hin). rewrite Em in Hrange.
  rewrite (nth_error_nth' inames 0 Hrange). reflexivity.
Qed.

Lemma rel_event_in b ops loc name delta :
  Rel false b ops -> boundary text loc ->
  exists b', AddSourceMappingG (Some (ms, inames)) (GenerateLineOffsetTables text) b loc name delta = Some b' /\
             view b' = fst (sp_event_in text ms inames (view b) loc name delta) /\
             Rel false b' (ops ++ snd (sp_event_in text ms inames (view b) loc name delta)).
Proof.
  intros H Hb. unfold AddSourceMappingG, sp_event_in.
  cbn [view w_line w_col w_pend w_len w_ploc w_plen w_pname w_names w_last w_has].
  set (newlen := b_len b + Z.of_nat (length (b_pending b)) + Z.of_nat (length delta)).
  destruct ((loc =? b_prevloc b) && ((b_prevlen b =? newlen) || (b_prevname b =? name))).
  - eexists. split; [reflexivity|]. cbn [fst snd]. rewrite app_nil_r. split; [reflexivity|exact H].
  - rewrite (lineoffset_is_spec text loc Hb).
    destruct (linecol_utf16 text loc) as [ol oc]. cbn [fst snd].
    destruct (rel_record_scan false b ops loc name delta H) as [[R1 _] W]. cbv zeta in R1, W. fold newlen in R1, W.
    cbn [cover_op] in R1. rewrite breaks_nil in R1.
    set (lc := adv (gline (b_prev b), b_gencol b) (b_pending b ++ delta)) in *.
    set (k := Z.to_nat (fst lc - gline (b_prev b))) in *.
    set (b1 := update_gen _ delta) in *.
    set (last := w_last (view b)) in *.
    (* no cover mappings with an input map *)
    pose proof R1 as (_ & _ & _ & Hcov1 & _). rewrite Hcov1. cbn [andb].
    pose proof (find_is_spec ms ol oc Hsorted) as Hfind.
    destruct (spec_find ms ol oc) as [m|] eqn:Ef.
    + (* remapped *)
      rewrite (append_mapping_g_found b1 name (mkState (gline (b_prev b1)) (b_gencol b1) 0 ol oc 0 false) m Hfind
                 (spec_find_In _ _ _ _ Ef)). cbn [gline gcol oname has_name].
      set (nm := in_name inames m name).
      destruct (rel0_append_named false b1 (ops ++ repeat ONewline k) nm (m_src m) (m_oline m) (m_ocol m) R1 ltac:(discriminate))
        as (A & V).
      cbv zeta in A, V. set (b3 := append_named b1 nm _) in *. rewrite W in V.
      rewrite (f_equal w_col W : b_gencol b1 = _), (f_equal w_names W : b_names b1 = _) in A.
      cbn [w_col w_names] in A. rewrite <- app_assoc in A.
      eexists. split; [reflexivity|]. split; [|split; [exact A|discriminate]].
      change (set_has (view b3) = mkSw (fst lc) (snd lc) [] (b_len b + Z.of_nat (length (b_pending b ++ delta))) loc newlen name
                                       (fst (name_index (b_names b) nm)) (Some (m_oline m, m_ocol m)) true).
      rewrite V. reflexivity.
    + (* no input mapping: dropped *)
      unfold append_mapping_g. cbn [oline ocol]. rewrite Hfind.
      eexists. split; [reflexivity|]. split; [|split; [exact R1|discriminate]].
      change (set_has (view b1) = mkSw (fst lc) (snd lc) [] (b_len b + Z.of_nat (length (b_pending b ++ delta))) loc newlen name
                                       (b_names b) last true).
      rewrite W. reflexivity.
Qed.

Lemma rel_run_in : forall evs b ops,
  Rel false b ops -> Forall (fun e => boundary text (fst (fst e))) evs ->
  exists b', run_builder_g (Some (ms, inames)) (GenerateLineOffsetTables text) b evs = Some b' /\
             view b' = fst (sp_run_in text ms inames (view b) evs) /\
             Rel false b' (ops ++ snd (sp_run_in text ms inames (view b) evs)).
Proof.
  induction evs as [|[[loc name] delta] evs IH]; intros b ops H Hall.
  - exists b. split; [reflexivity|]. cbn [sp_run_in fst snd]. rewrite app_nil_r. split; [reflexivity|exact H].
  - inversion Hall as [|e l Hb Hall']; subst. cbn [fst] in Hb.
    destruct (rel_event_in b ops loc name delta H Hb) as (b1 & E1 & V1 & R1).
    destruct (IH b1 _ R1 Hall') as (b' & E' & V' & R').
    exists b'. cbn [run_builder_g]. rewrite E1. split; [exact E'|].
    cbn [sp_run_in fst snd]. rewrite <- V1, app_assoc. split; [exact V'|exact R'].
Qed.

Theorem builder_composes_all : forall evs fin,
  Forall (fun e => boundary text (fst (fst e))) evs ->
  exists b, run_builder_g (Some (ms, inames)) (GenerateLineOffsetTables text) (bst0_g (Some (ms, inames))) evs = Some b /\
    let '(data, fno, names, endst, fcol, _) := GenerateChunk b fin in
    let '(ops, snames, scol) := builder_in_spec text ms inames evs fin in
    data = emit_bytes ops /\
    spec_decode data = Some (abs_of ops 0) /\
    fno = option_map Z.of_nat (first_name_off ops 0 state0 0) /\
    names = snames /\ fcol = scol /\
    endst = snd (emit ops 0 state0) /\
    sorted_ops ops 0 /\ end_col ops 0 <= fcol.
Proof.
  intros evs fin Hall.
  destruct (rel_run_in evs _ _ (Rel_init false) Hall) as (b & Erun & V & R).
  exists b. split; [exact Erun|].
  cbn [app] in R. change (view (bst0 false)) with sw0 in V, R.
  pose proof (rel_chunk false b _ fin R) as C. cbv zeta in C. cbn [cover_op] in C. rewrite breaks_nil in C.
  unfold builder_in_spec. rewrite <- V. exact C.
Qed.
End EventIn.

(* remapping of an event list through an input map: every mapping's original
   position is looked up with spec_find; no target = dropped; names aside *)
Fixpoint remap_ops (ms : list mapping) (ops : list op) : list op :=
  match ops with
  | [] => []
  | ONewline :: r => ONewline :: remap_ops ms r
  | OMap gc si ol oc nm :: r =>
    match spec_find ms ol oc with
    | Some m => OMap gc (m_src m) (m_oline m) (m_ocol m) None :: remap_ops ms r
    | None => remap_ops ms r
    end
  | ONull _ :: r => remap_ops ms r      (* nothing to remap: dropped (the builder never emits one) *)
  end.

Fixpoint strip_names (ops : list op) : list op :=
  match ops with
  | [] => []
  | ONewline :: r => ONewline :: strip_names r
  | OMap gc si ol oc _ :: r => OMap gc si ol oc None :: strip_names r
  | ONull gc :: r => ONull gc :: strip_names r
  end.

Lemma remap_ops_app ms a b : remap_ops ms (a ++ b) = remap_ops ms a ++ remap_ops ms b.
Proof.
  induction a as [|[|gc si ol oc nm|gc] a IH]; cbn [app remap_ops]; [reflexivity|rewrite IH; reflexivity| |exact IH].
  destruct (spec_find ms ol oc); rewrite IH; reflexivity.
Qed.
Lemma strip_names_app a b : strip_names (a ++ b) = strip_names a ++ strip_names b.
Proof. induction a as [|[|gc si ol oc nm|gc] a IH]; cbn [app strip_names]; rewrite ?IH; reflexivity. Qed.
Lemma remap_newlines ms k : remap_ops ms (repeat ONewline k) = repeat ONewline k.
Proof. induction k as [|k IH]; cbn [repeat remap_ops]; rewrite ?IH; reflexivity. Qed.
Lemma strip_newlines k : strip_names (repeat ONewline k) = repeat ONewline k.
Proof. induction k as [|k IH]; cbn [repeat strip_names]; rewrite ?IH; reflexivity. Qed.

(* the two specification walks agree on everything but names and last position *)
Definition sim (w w' : sw) : Prop :=
  w_line w = w_line w' /\ w_col w = w_col w' /\ w_pend w = w_pend w' /\ w_len w = w_len w' /\
  w_ploc w = w_ploc w' /\ w_plen w = w_plen w' /\ w_pname w = w_pname w'.

Lemma sim_event text ms inames w w' loc name delta :
  sim w w' ->
  sim (fst (sp_event text false w loc name delta)) (fst (sp_event_in text ms inames w' loc name delta)) /\
  strip_names (snd (sp_event_in text ms inames w' loc name delta)) =
  remap_ops ms (snd (sp_event text false w loc name delta)).
Proof.
  intros (E1 & E2 & E3 & E4 & E5 & E6 & E7).
  unfold sp_event, sp_event_in. rewrite <- E1, <- E2, <- E3, <- E4, <- E5, <- E6, <- E7.
  destruct ((loc =? w_ploc w) && _).
  - cbn [fst snd]. split; [|reflexivity]. unfold sim. cbn. repeat split; congruence.
  - cbn [cover_op]. rewrite breaks_nil.
    set (lc := adv (w_line w, w_col w) (w_pend w ++ delta)).
    set (orig := linecol_utf16 text loc).
    assert (Hif : forall (c : bool), (if c then @nil op else []) = []) by (intros []; reflexivity).
    rewrite Hif. cbn [app].
    destruct (spec_find ms (fst orig) (snd orig)) as [m|] eqn:Ef; cbn [fst snd].
    + split; [unfold sim; cbn; repeat split; reflexivity|].
      rewrite strip_names_app, remap_ops_app, strip_newlines, remap_newlines. cbn [strip_names remap_ops].
      rewrite Ef. reflexivity.
    + split; [unfold sim; cbn; repeat split; reflexivity|].
      rewrite remap_ops_app, strip_newlines, remap_newlines. cbn [remap_ops]. rewrite Ef, app_nil_r. reflexivity.
Qed.

Lemma sim_run text ms inames : forall evs w w',
  sim w w' ->
  sim (fst (sp_run text false w evs)) (fst (sp_run_in text ms inames w' evs)) /\
  strip_names (snd (sp_run_in text ms inames w' evs)) = remap_ops ms (snd (sp_run text false w evs)).
Proof.
  induction evs as [|[[loc name] delta] evs IH]; intros w w' Hs.
  - cbn. split; [exact Hs|reflexivity].
  - cbn [sp_run sp_run_in fst snd].
    destruct (sim_event text ms inames w w' loc name delta Hs) as (S1 & O1).
    destruct (IH _ _ S1) as (S2 & O2).
    split; [exact S2|]. rewrite strip_names_app, remap_ops_app, O1, O2. reflexivity.
Qed.

(* the positions of the composed chunk are the positions of the chunk of
   builder_mappings_exact (cover off), remapped through spec_find *)
Theorem composes_remaps_all : forall text ms inames evs fin,
  strip_names (fst (fst (builder_in_spec text ms inames evs fin))) =
  remap_ops ms (builder_spec_ops text false evs fin).
Proof.
  intros. unfold builder_in_spec, builder_spec_ops, builder_spec, sp_final. cbn [fst snd].
  destruct (sim_run text ms inames evs sw0 sw0) as ((E1 & E2 & E3 & _) & O).
  { unfold sim. repeat split. }
  rewrite strip_names_app, remap_ops_app, O. cbn [cover_op]. rewrite breaks_nil, strip_newlines, remap_newlines.
  rewrite <- E1, <- E2, <- E3. reflexivity.
Qed.

(* the same on decoded mappings *)
Definition remap_abs (ms : list mapping) (a : abs) : list abs :=
  match a_src a with
  | Some (_, l, c) =>
    match spec_find ms l c with
    | Some m => [mkAbs (a_gline a) (a_gcol a) (Some (m_src m, m_oline m, m_ocol m)) None]
    | None => []
    end
  | None => []
  end.

Definition strip_abs (a : abs) : abs := mkAbs (a_gline a) (a_gcol a) (a_src a) None.

Lemma abs_of_remap ms : forall ops l, abs_of (remap_ops ms ops) l = flat_map (remap_abs ms) (abs_of ops l).
Proof.
  induction ops as [|[|gc si ol oc nm|gc] r IH]; intro l; cbn [remap_ops abs_of flat_map].
  - reflexivity.
  - apply IH.
  - unfold remap_abs at 1. cbn [a_src a_gline a_gcol]. destruct (spec_find ms ol oc); cbn [abs_of app]; rewrite IH; reflexivity.
  - unfold remap_abs at 1. cbn [a_src app]. apply IH.
Qed.

Lemma abs_of_strip : forall ops l, abs_of (strip_names ops) l = map strip_abs (abs_of ops l).
Proof.
  induction ops as [|[|gc si ol oc nm|gc] r IH]; intro l; cbn [strip_names abs_of map]; rewrite ?IH; reflexivity.
Qed.

Theorem composes_remaps_abs : forall text ms inames evs fin,
  map strip_abs (abs_of (fst (fst (builder_in_spec text ms inames evs fin))) 0) =
  flat_map (remap_abs ms) (abs_of (builder_spec_ops text false evs fin) 0).
Proof.
  intros. rewrite <- abs_of_strip, composes_remaps_all. apply abs_of_remap.
Qed.
