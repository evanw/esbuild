(* Predicates on expressions that are preserved by Not, JoinWithLeftAssociativeOp
   and SimplifyBooleanExpr (these only rearrange subexpressions and add !, &&, ||,
   ?: and boolean literals), and the shapes excluded from simplify_unused_sound *)
From V Require Import Common.Base C03.Num C03.Tree C03.JoinLeft C03.MiniJS C03.Worlds C03.TreeProofs4.

Section Closed.
  Variable Q : expr -> Prop.
  Hypothesis Q_un_inv : forall op v w, Q (EUn op v w) -> Q v.
  Hypothesis Q_bin_inv : forall op l r, Q (EBin op l r) -> Q l /\ Q r.
  Hypothesis Q_if_inv : forall t y n, Q (EIf t y n) -> Q t /\ Q y /\ Q n.
  Hypothesis Q_annot_inv : forall v r, Q (EAnnot v r) -> Q v.
  Hypothesis Q_enum_inv : forall v, Q (EInlinedEnum v) -> Q v.
  Hypothesis Q_bool : forall b, Q (EBool b).
  Hypothesis Q_not : forall v, Q v -> Q (EUn UNot v false).
  Hypothesis Q_bin : forall op l r, Q l -> Q r -> Q (EBin op l r).
  Hypothesis Q_if : forall t y n, Q t -> Q y -> Q n -> Q (EIf t y n).

  Lemma Q_msn : forall e e', Q e -> maybe_simplify_not e = Some e' -> Q e'.
  Proof.
    induction e; intros e' Hq Hm; cbn [maybe_simplify_not] in Hm; try discriminate;
      try (inversion Hm; subst; apply Q_bool).
    - destruct (check_equality_bigint s [48]) as [eq ok]. destruct ok; inversion Hm. apply Q_bool.
    - destruct op; try discriminate. destruct (ptype_eqb (known_type e) PBoolean); inversion Hm; subst. eapply Q_un_inv; eauto.
    - destruct (Q_bin_inv _ _ _ Hq) as [H1 H2].
      destruct op; try discriminate; inversion Hm; subst; try (apply Q_bin; assumption).
      apply Q_bin; [assumption|].
      destruct (maybe_simplify_not e2) eqn:Hn; [eauto | apply Q_not; assumption].
    - eauto.
    - eauto.
  Qed.

  Lemma Q_not_ : forall e, Q e -> Q (not_ e).
  Proof.
    intros e Hq. unfold not_. destruct (maybe_simplify_not e) eqn:Hm; [eapply Q_msn; eauto | apply Q_not; assumption].
  Qed.

  Lemma Q_join : forall op b a, Q a -> Q b -> Q (join_left_assoc op b a).
  Proof.
    intros op. apply (join_left_assoc_ind op (fun a b r => Q a -> Q b -> Q r)).
    - intros a b. apply Q_bin.
    - intros al ar b r IH Ha Hb. destruct (Q_bin_inv _ _ _ Ha). apply Q_bin; auto.
    - intros a bl br r1 r2 IH1 IH2 Ha Hb. destruct (Q_bin_inv _ _ _ Hb). auto.
  Qed.

  Lemma Q_sb_size : forall ub n e, (esize e <= n)%nat -> Q e -> Q (simplify_boolean ub e).
  Proof.
    intros ub. induction n as [|n IH]; intros e Hsz Hq; [destruct e; cbn [esize] in Hsz; lia|].
    assert (Hdef : forall e0, Q e0 ->
              Q (let '(b, se, ok) := to_boolean e0 in if ok && (se || can_be_removed ub e0) then EBool b else e0)).
    { intros e0 H0. destruct (to_boolean e0) as [[b se] ok]. destruct (ok && (se || can_be_removed ub e0)); [apply Q_bool | assumption]. }
    destruct e; try (exact (Hdef _ Hq)).
    - cbn [simplify_boolean]. cbn [esize] in Hsz. pose proof (Q_un_inv _ _ _ Hq) as Hv.
      destruct (unop_eqb op UNot); [|assumption].
      assert (Hgen : Q (EUn UNot (simplify_boolean ub e) false)) by (apply Q_not; apply IH; [lia|assumption]).
      destruct e; try exact Hgen.
      destruct (unop_eqb op0 UNot); [|exact Hgen].
      cbn [esize] in Hsz. apply IH; [lia|]. eapply Q_un_inv; eauto.
    - cbn [esize] in Hsz. destruct (Q_bin_inv _ _ _ Hq) as [H1 H2].
      assert (F1 : Q (simplify_boolean ub e1)) by (apply IH; [lia|assumption]).
      assert (F2 : Q (simplify_boolean ub e2)) by (apply IH; [lia|assumption]).
      destruct op; cbn [simplify_boolean]; try assumption;
        try (destruct (extract_numeric_value e2); [|assumption];
             destruct (is_zero n0 && is_int32_or_uint32 e1); [|assumption];
             first [assumption | apply Q_not_; assumption]).
      + destruct (to_boolean (simplify_boolean ub e2)) as [[b se] ok].
        destruct (ok && negb b && se); [assumption | apply Q_bin; assumption].
      + destruct (to_boolean (simplify_boolean ub e2)) as [[b se] ok].
        destruct (ok && b && se); [assumption | apply Q_bin; assumption].
    - cbn [esize] in Hsz. destruct (Q_if_inv _ _ _ Hq) as [H1 [H2 H3]].
      assert (F2 : Q (simplify_boolean ub e2)) by (apply IH; [lia|assumption]).
      assert (F3 : Q (simplify_boolean ub e3)) by (apply IH; [lia|assumption]).
      cbn [simplify_boolean].
      destruct (to_boolean (simplify_boolean ub e2)) as [[yb yse] yok].
      destruct (yok && yse).
      { destruct yb; unfold join_left; apply Q_join; try assumption. apply Q_not_; assumption. }
      destruct (to_boolean (simplify_boolean ub e3)) as [[nb nse] nok].
      destruct (nok && nse).
      { destruct nb; unfold join_left; apply Q_join; try assumption. apply Q_not_; assumption. }
      apply Q_if; assumption.
  Qed.

  Lemma Q_sb : forall ub e, Q e -> Q (simplify_boolean ub e).
  Proof. intros ub e H. exact (Q_sb_size ub (esize e) e (le_n _) H). Qed.
End Closed.

(* The side condition of simplify_unused_sound:
   A (known finding, excluded shape): an object literal without spread that has a
      computed key (residue k + "");
   K (repaired, a3926ba): a call marked pure in an optional chain is unwrapped only
      when all its arguments can be removed; the arguments of such a call have to
      evaluate in the model (the call itself evaluates without evaluating them when
      the chain short-circuits, and the model is partial) *)
Fixpoint no_bad (W : world) (e : expr) {struct e} : Prop :=
  let all := fix all (l : list expr) : Prop := match l with [] => True | x :: r => no_bad W x /\ all r end in
  match e with
  | EDot t _ _ _ _ => no_bad W t
  | EIndex t i _ => no_bad W t /\ no_bad W i
  | ECall t args oc pure =>
      (pure = true -> oc <> 0 -> can_be_removed (w_unbound W) e = true ->
         forall x, In x args -> forall tr, eval W tr x <> None) /\ no_bad W t /\ all args
  | ENew t args _ => no_bad W t /\ all args
  | EUn _ v _ => no_bad W v
  | EBin _ l r => no_bad W l /\ no_bad W r
  | EIf t y n => no_bad W t /\ no_bad W y /\ no_bad W n
  | ETemplate _ parts =>
      (fix go (l : list (expr * list Z)) : Prop := match l with [] => True | (v, _) :: r => no_bad W v /\ go r end) parts
  | EArray items => all items
  | ESpread v => no_bad W v
  | EObject props =>
      (existsb (fun p : Z * bool * expr * expr => let '(kind, _, _, _) := p in kind =? 1) props = true \/
       forallb (fun p : Z * bool * expr * expr => let '(_, computed, _, _) := p in negb computed) props = true) /\
      (fix go (l : list (Z * bool * expr * expr)) : Prop :=
         match l with [] => True | (_, _, k, v) :: r => no_bad W k /\ no_bad W v /\ go r end) props
  | EAnnot v _ => no_bad W v
  | EInlinedEnum v => no_bad W v
  | _ => True
  end.

Lemma no_bad_sb : forall W ub e, no_bad W e -> no_bad W (simplify_boolean ub e).
Proof.
  intros W ub e. apply Q_sb; intros; cbn [no_bad] in *; tauto.
Qed.

Lemma flags_sb : forall W ub e, flags_ok W e -> flags_ok W (simplify_boolean ub e).
Proof.
  intros W ub e. apply Q_sb; cbn [flags_ok]; intuition discriminate.
Qed.
