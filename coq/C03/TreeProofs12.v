(* Fuel sufficiency of the SimplifyUnusedExpr model: SimplifyBooleanExpr never
   grows an expression, so the recursion of su_fuel (which goes through
   simplify_boolean on the left operand of a logical operator) is bounded by
   the size of its argument, and simplify_unused never returns UFuel. *)
From V Require Import Common.Base C03.Num C03.Tree C03.MiniJS C03.Worlds C03.JoinLeft C03.TreeProofs4 C03.TreeProofs7 C03.TreeProofs8.

Lemma esize_pos : forall e, (1 <= esize e)%nat.
Proof. destruct e; cbn [esize]; lia. Qed.

(* "!e" has size S (esize e); its simplification is not larger *)
Lemma msn_size : forall e e', maybe_simplify_not e = Some e' -> (esize e' <= S (esize e))%nat.
Proof.
  induction e; intros e' Hm; cbn [maybe_simplify_not] in Hm; try discriminate Hm;
    try (inversion Hm; subst; cbn [esize]; lia).
  - destruct (check_equality_bigint s [48]) as [eq ok]. destruct ok; inversion Hm. cbn [esize]. lia.
  - destruct op; try discriminate Hm. destruct (ptype_eqb (known_type e) PBoolean); inversion Hm; subst. cbn [esize]. lia.
  - destruct op; try discriminate Hm; inversion Hm; subst; cbn [esize]; try lia.
    destruct (maybe_simplify_not e2) eqn:Hn; [pose proof (IHe2 _ eq_refl); lia | cbn [esize]; lia].
  - pose proof (IHe _ Hm). cbn [esize]. lia.
  - pose proof (IHe _ Hm). cbn [esize]. lia.
Qed.

Lemma not_size : forall e, (esize (not_ e) <= S (esize e))%nat.
Proof.
  intros e. unfold not_. destruct (maybe_simplify_not e) eqn:Hm; [apply msn_size; exact Hm | cbn [esize]; lia].
Qed.

Lemma jla_size : forall op b a, (esize (join_left_assoc op b a) <= S (esize a + esize b))%nat.
Proof.
  intros op. apply join_left_assoc_ind with (P := fun a b r => (esize r <= S (esize a + esize b))%nat);
    cbn [esize]; lia.
Qed.

Lemma jl_size : forall op a b, (esize (join_left op a b) <= S (esize a + esize b))%nat.
Proof. intros. unfold join_left. apply jla_size. Qed.

Theorem sb_size : forall ub n e, (esize e <= n)%nat -> (esize (simplify_boolean ub e) <= esize e)%nat.
Proof.
  intros ub. induction n as [|n IH]; intros e Hsz; [pose proof (esize_pos e); lia|].
  assert (Hdef : forall e0,
            (esize (let '(b, se, ok) := to_boolean e0 in if ok && (se || can_be_removed ub e0) then EBool b else e0) <= esize e0)%nat).
  { intros e0. destruct (to_boolean e0) as [[b se] ok]. destruct (ok && (se || can_be_removed ub e0)); [apply esize_pos | lia]. }
  destruct e; try (match goal with |- (_ <= esize ?x)%nat => exact (Hdef x) end).
  - cbn [simplify_boolean]. cbn [esize] in Hsz.
    destruct (unop_eqb op UNot); [|lia].
    assert (Hgen : (esize (EUn UNot (simplify_boolean ub e) false) <= S (esize e))%nat)
      by (cbn [esize]; pose proof (IH e ltac:(lia)); lia).
    destruct e; try exact Hgen.
    destruct (unop_eqb op0 UNot); [|exact Hgen].
    cbn [esize] in Hsz |- *. pose proof (IH e ltac:(lia)). lia.
  - cbn [esize] in Hsz.
    pose proof (IH e1 ltac:(lia)) as F1. pose proof (IH e2 ltac:(lia)) as F2.
    pose proof (not_size e1) as N1. pose proof (esize_pos e2) as P2.
    (* the four equality operators give e1, not_ e1, or the expression itself *)
    destruct op; cbn [simplify_boolean]; try lia; cbn [esize];
      try (destruct (extract_numeric_value e2) as [z|]; [|cbn [esize]; lia];
           destruct (is_zero z && is_int32_or_uint32 e1); cbn [esize]; lia).
    + destruct (to_boolean (simplify_boolean ub e2)) as [[b se] ok].
      destruct (ok && negb b && se); cbn [esize]; lia.
    + destruct (to_boolean (simplify_boolean ub e2)) as [[b se] ok].
      destruct (ok && b && se); cbn [esize]; lia.
  - cbn [esize] in Hsz.
    pose proof (IH e2 ltac:(lia)) as F2. pose proof (IH e3 ltac:(lia)) as F3.
    pose proof (esize_pos (simplify_boolean ub e2)) as P2. pose proof (esize_pos (simplify_boolean ub e3)) as P3.
    pose proof (not_size e1) as N1.
    cbn [simplify_boolean].
    destruct (to_boolean (simplify_boolean ub e2)) as [[yb yse] yok].
    destruct (yok && yse).
    { destruct yb; [pose proof (jl_size BLogOr e1 (simplify_boolean ub e3)) | pose proof (jl_size BLogAnd (not_ e1) (simplify_boolean ub e3))];
        cbn [esize]; lia. }
    destruct (to_boolean (simplify_boolean ub e3)) as [[nb nse] nok].
    destruct (nok && nse).
    { destruct nb; [pose proof (jl_size BLogOr (not_ e1) (simplify_boolean ub e2)) | pose proof (jl_size BLogAnd e1 (simplify_boolean ub e2))];
        cbn [esize]; lia. }
    cbn [esize]. lia.
Qed.

Lemma sb_size_le : forall ub e, (esize (simplify_boolean ub e) <= esize e)%nat.
Proof. intros ub e. exact (sb_size ub (esize e) e (le_n _)). Qed.

Lemma join_u_ok : forall a b, a <> UFuel -> b <> UFuel -> join_u a b <> UFuel.
Proof. intros [|a|] [|b|] Ha Hb; cbn [join_u]; congruence. Qed.

Lemma fold_join_ok : forall A (g : A -> ures) l acc,
  (forall x, In x l -> g x <> UFuel) -> acc <> UFuel -> fold_left (fun a x => join_u a (g x)) l acc <> UFuel.
Proof.
  intros A g. induction l as [|x r IH]; intros acc H Ha; cbn [fold_left]; [exact Ha|].
  apply IH; [intros y Hy; apply H; right; exact Hy|]. apply join_u_ok; [exact Ha | apply H; left; reflexivity].
Qed.

(* the arguments of a call marked pure *)
Lemma args_ok : forall (su : expr -> ures) args, (forall x, In x args -> su x <> UFuel) ->
  fold_left (fun a x => join_u a (match x with ESpread _ => UExpr (EArray [x]) | _ => su x end)) args UNil <> UFuel.
Proof.
  intros su args H. apply fold_join_ok; [|discriminate].
  intros x Hin. destruct x; try discriminate; apply H; exact Hin.
Qed.

Lemma keep_items_go_ok : forall (f : expr -> ures) l acc,
  (forall x, In x l -> f x <> UFuel) -> keep_items_go f l acc <> UFuel.
Proof.
  intros f. induction l as [|x r IH]; intros acc H; cbn [keep_items_go]; [discriminate|].
  pose proof (H x (or_introl eq_refl)) as Hx.
  destruct (f x); [ | | congruence]; apply IH; intros y Hy; apply H; right; exact Hy.
Qed.

Lemma props_go_ok : forall (f : expr -> ures) l acc,
  (forall a b k v, In (a, b, k, v) l -> f v <> UFuel) -> acc <> UFuel -> props_go f l acc <> UFuel.
Proof.
  intros f. induction l as [|[[[kind computed] key] value] r IH]; intros acc H Ha; cbn [props_go]; [exact Ha|].
  apply IH; [intros a b k v Hin; eapply H; right; exact Hin|].
  apply join_u_ok; [|eapply H; left; reflexivity].
  destruct computed; [apply join_u_ok; [exact Ha | discriminate] | exact Ha].
Qed.

Lemma keep_props_go_ok : forall (f : expr -> ures) l acc,
  (forall a b k v, In (a, b, k, v) l -> f v <> UFuel) -> keep_props_go f l acc <> UFuel.
Proof.
  intros f. induction l as [|[[[kind computed] key] value] r IH]; intros acc H; cbn [keep_props_go]; [discriminate|].
  assert (Hr : forall a b k v, In (a, b, k, v) r -> f v <> UFuel) by (intros a b k v Hin; eapply H; right; exact Hin).
  destruct (kind =? 1); [apply IH; exact Hr|].
  pose proof (H _ _ _ _ (or_introl eq_refl)) as Hv.
  destruct (f value); [ | | congruence]; [destruct computed|]; apply IH; exact Hr.
Qed.

Lemma flush_ok : forall comma pend, comma <> UFuel -> flush comma pend <> UFuel.
Proof. intros comma [|p pend] H; cbn [flush]; [exact H | apply join_u_ok; [exact H | discriminate]]. Qed.

Lemma tpl_go_ok : forall (f : expr -> ures) l comma pend,
  (forall v t, In (v, t) l -> f v <> UFuel) -> comma <> UFuel -> tpl_go f l comma pend <> UFuel.
Proof.
  intros f. induction l as [|[v tl] r IH]; intros comma pend H Hc; cbn [tpl_go]; [apply flush_ok; exact Hc|].
  assert (Hr : forall v0 t, In (v0, t) r -> f v0 <> UFuel) by (intros v0 t Hin; eapply H; right; exact Hin).
  destruct (negb (ptype_eqb (known_type v) PUnknown)).
  - apply IH; [exact Hr|]. apply join_u_ok; [apply flush_ok; exact Hc | eapply H; left; reflexivity].
  - apply IH; [exact Hr | exact Hc].
Qed.

Section Fuel.
  Variable ub : Z -> bool.
  Variable noOC : bool.

  Theorem su_fuel_enough : forall f e, (esize e < f)%nat -> su_fuel f ub noOC e <> UFuel.
  Proof.
    induction f as [|f IH]; intros e Hsz; [lia|].
    destruct e; cbn [su_fuel]; try discriminate.
    - (* EId *) destruct mustkeep; [discriminate|]. destruct (removable || negb (ub ref)); discriminate.
    - (* EDot *) destruct removable; discriminate.
    - (* ECall *)
      destruct pure; [|discriminate].
      destruct (negb (oc =? 0) && negb (can_be_removed ub (ECall e args oc true))); [discriminate|].
      rewrite esize_call in Hsz.
      apply args_ok. intros x Hin. apply IH. pose proof (in_sum_sizes _ _ Hin). lia.
    - (* ENew *)
      destruct pure; [|discriminate].
      rewrite esize_new in Hsz.
      apply args_ok. intros x Hin. apply IH. pose proof (in_sum_sizes _ _ Hin). lia.
    - (* EUn *)
      cbn [esize] in Hsz.
      assert (He : su_fuel f ub noOC e <> UFuel) by (apply IH; lia).
      destruct op; try discriminate; try exact He.
      + (* UNeg *) clear. destruct e; discriminate.
      + (* UTypeof *) clear Hsz. destruct e; try exact He. destruct wasTypeofId; [discriminate | exact He].
    - (* EBin *)
      cbn [esize] in Hsz.
      assert (H1 : su_fuel f ub noOC e1 <> UFuel) by (apply IH; lia).
      assert (H2 : su_fuel f ub noOC e2 <> UFuel) by (apply IH; lia).
      assert (Hb : su_fuel f ub noOC (simplify_boolean ub e1) <> UFuel)
        by (apply IH; pose proof (sb_size_le ub e1); lia).
      assert (Hlog : forall l', su_fuel f ub noOC l' <> UFuel -> forall op,
        match su_fuel f ub noOC e2 with
        | UFuel => UFuel
        | UNil => su_fuel f ub noOC l'
        | UExpr r' => chain_or noOC op l' r'
        end <> UFuel).
      { intros l' Hl' op0. destruct (su_fuel f ub noOC e2) as [|r'|]; [exact Hl' | | congruence].
        apply chain_or_cases; discriminate. }
      destruct op; try discriminate.
      + (* BAdd *) destruct (simplify_unused_string_chain _) as [res isStr]. destruct isStr; discriminate.
      + (* BLooseEq *) destruct (negb _); [apply join_u_ok; assumption | discriminate].
      + (* BLooseNe *) destruct (negb _); [apply join_u_ok; assumption | discriminate].
      + (* BStrictEq *) apply join_u_ok; assumption.
      + (* BStrictNe *) apply join_u_ok; assumption.
      + (* BNullish *) apply (Hlog _ H1).
      + (* BLogOr *) apply (Hlog _ Hb).
      + (* BLogAnd *) apply (Hlog _ Hb).
      + (* BComma *) apply join_u_ok; assumption.
    - (* EIf *)
      cbn [esize] in Hsz.
      assert (H1 : su_fuel f ub noOC e1 <> UFuel) by (apply IH; lia).
      assert (H2 : su_fuel f ub noOC e2 <> UFuel) by (apply IH; lia).
      assert (H3 : su_fuel f ub noOC e3 <> UFuel) by (apply IH; lia).
      destruct (su_fuel f ub noOC e2); [ | | congruence]; destruct (su_fuel f ub noOC e3); try congruence; discriminate.
    - (* ETemplate *)
      change (tpl_go (su_fuel f ub noOC) parts UNil [] <> UFuel). apply tpl_go_ok; [|discriminate].
      intros v t Hin. apply IH. pose proof (in_sum_parts _ _ _ Hin) as Hs.
      change (esize (ETemplate head parts)) with (S (sum_parts parts)) in Hsz. lia.
    - (* EArray *)
      rewrite esize_array in Hsz.
      assert (Hall : forall x, In x items -> su_fuel f ub noOC x <> UFuel)
        by (intros x Hin; apply IH; pose proof (in_sum_sizes _ _ Hin); lia).
      destruct (existsb _ items).
      + change (keep_items_go (su_fuel f ub noOC) items [] <> UFuel). apply keep_items_go_ok. exact Hall.
      + change (fold_left (fun a x => join_u a (su_fuel f ub noOC x)) items UNil <> UFuel). apply fold_join_ok; [exact Hall | discriminate].
    - (* EObject *)
      assert (Hall : forall a b k v, In (a, b, k, v) props -> su_fuel f ub noOC v <> UFuel).
      { intros a b k v Hin. apply IH. pose proof (in_sum_props _ _ _ _ _ Hin) as Hs.
        change (esize (EObject props)) with (S (sum_props props)) in Hsz. lia. }
      destruct (existsb _ props).
      + change (keep_props_go (su_fuel f ub noOC) props [] <> UFuel). apply keep_props_go_ok. exact Hall.
      + change (props_go (su_fuel f ub noOC) props UNil <> UFuel). apply props_go_ok; [exact Hall | discriminate].
    - (* EAnnot *) destruct removable; discriminate.
    - (* EInlinedEnum *) apply IH. cbn [esize] in Hsz. lia.
  Qed.

  Theorem simplify_unused_total_all : forall e, simplify_unused ub noOC e <> UFuel.
  Proof. intros e. unfold simplify_unused. apply su_fuel_enough. lia. Qed.
End Fuel.

(* simplify_unused_sound without the "fuel did not run out" hypothesis *)
Theorem simplify_unused_sound_nofuel_all : forall (W : world), world_ok W ->
  forall noOptChain e tr res,
    flags_ok W e -> no_bad W e ->
    eval W tr e = Some res ->
    same_effects (Some res) (eval_unused W tr (simplify_unused (w_unbound W) noOptChain e)).
Proof.
  intros W Wok noOC e tr res Hf Hn Hev.
  exact (su_fuel_same_effects W Wok noOC _ e tr res Hf Hn (simplify_unused_total_all _ noOC e) Hev).
Qed.
