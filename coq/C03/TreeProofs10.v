(* ValuesLookTheSame is sound: two expressions that look the same have the same
   evaluation at the same time (same trace, same completion, same value), in
   every world.  It does not say the evaluation has no effects: two identical
   calls look the same. *)
From V Require Import Common.Base C03.Num C03.Tree C03.MiniJS C03.Worlds C03.TreeProofs C03.TreeProofs4.

(* number literals as num_of_bits produces them: one representation per value *)
Definition canon_num (n : num) : Prop :=
  match n with
  | Fin _ m e => (e = -1074 /\ 0 <= m < two52) \/ (two52 <= m < two53 /\ -1074 <= e)
  | _ => True
  end.

Definition is_lit (e : expr) : bool :=
  match e with ENull | EUndefined | EBool _ | ENum _ | EBig _ | EStr _ => true | _ => false end.

(* the inputs of the helper: canonical number literals; inlined enum constants wrap literals *)
Fixpoint vls_ok (e : expr) {struct e} : Prop :=
  let all := fix all (l : list expr) : Prop := match l with [] => True | x :: r => vls_ok x /\ all r end in
  match e with
  | ENum n => canon_num n
  | EInlinedEnum v => is_lit v = true /\ vls_ok v
  | EDot t _ _ _ _ => vls_ok t
  | EIndex t i _ => vls_ok t /\ vls_ok i
  | ECall t args _ _ => vls_ok t /\ all args
  | EUn _ v _ => vls_ok v
  | EBin _ l r => vls_ok l /\ vls_ok r
  | EIf t y n => vls_ok t /\ vls_ok y /\ vls_ok n
  | ESpread v => vls_ok v
  | _ => True
  end.

Lemma canon_scale : forall s1 m1 e1 s2 m2 e2, canon_num (Fin s1 m1 e1) -> canon_num (Fin s2 m2 e2) ->
  e1 < e2 -> m1 = m2 * 2 ^ (e2 - e1) -> False.
Proof.
  intros s1 m1 e1 s2 m2 e2 Ca Cb L E. cbn [canon_num] in Ca, Cb.
  assert (Hk : 2 ^ 1 <= 2 ^ (e2 - e1)) by (apply Z.pow_le_mono_r; lia).
  unfold two52, two53 in *. nia.
Qed.

Lemma canon_eq : forall a b, canon_num a -> canon_num b -> num_eq a b = true ->
  (is_zero a && is_zero b && negb (Bool.eqb (signbit a) (signbit b)) = false) -> a = b.
Proof.
  intros [| s1 | s1 m1 e1] [| s2 | s2 m2 e2] Ca Cb He Hz; unfold num_eq in He; cbn [num_cmp] in He; try discriminate.
  - destruct s1, s2; try reflexivity; discriminate.
  - destruct s1; discriminate.
  - destruct s2; discriminate.
  - unfold fin_cmp in He.
    destruct (Z.compare_spec (signed s1 (m1 * 2 ^ (e1 - Z.min e1 e2))) (signed s2 (m2 * 2 ^ (e2 - Z.min e1 e2)))) as [E|E|E]; try discriminate.
    clear He. cbn [is_zero signbit] in Hz.
    assert (Hm1 : 0 <= m1) by (cbn in Ca; unfold two52 in *; lia).
    assert (Hm2 : 0 <= m2) by (cbn in Cb; unfold two52 in *; lia).
    (* equal exponents, otherwise one mantissa is the other scaled *)
    assert (e1 = e2) as <-.
    { destruct (Z.lt_trichotomy e1 e2) as [L|[Ee|L]]; [exfalso | exact Ee | exfalso].
      - rewrite Z.min_l, Z.sub_diag, Z.mul_1_r in E by lia.
        apply (canon_scale _ _ _ _ _ _ Ca Cb L).
        assert (0 < 2 ^ (e2 - e1)) by (apply Z.pow_pos_nonneg; lia). destruct s1, s2; cbn [signed] in E; nia.
      - rewrite Z.min_r, Z.sub_diag, Z.mul_1_r in E by lia.
        apply (canon_scale _ _ _ _ _ _ Cb Ca L).
        assert (0 < 2 ^ (e1 - e2)) by (apply Z.pow_pos_nonneg; lia). destruct s1, s2; cbn [signed] in E; nia. }
    rewrite Z.min_id, Z.sub_diag, !Z.mul_1_r in E.
    assert (m1 = m2) as <- by (destruct s1, s2; cbn [signed] in E; lia).
    f_equal. destruct (m1 =? 0) eqn:Z1.
    + cbn [andb] in Hz. destruct s1, s2; try reflexivity; discriminate Hz.
    + apply Z.eqb_neq in Z1. destruct s1, s2; try reflexivity; cbn [signed] in E; lia.
Qed.

Section VLS.
  Variable W : world.
  Notation ev := (eval W).
  Notation raw := (eval_raw W).

  Definition plain_item (x : expr) : bool := match x with ESpread _ | EMissing => false | _ => true end.

  (* same evaluation, also as the target of a continued optional chain *)
  Definition same_eval (a b : expr) : Prop := forall tr, ev tr a = ev tr b /\ raw tr a = raw tr b.

  Lemma same_eval_refl : forall a, same_eval a a.
  Proof. intros a tr. auto. Qed.

  Lemma strip_eval : forall r, vls_ok r -> same_eval r (strip_enum r).
  Proof.
    induction r; intros Hok; try apply same_eval_refl.
    cbn [vls_ok] in Hok. destruct Hok as [Hl Hok]. cbn [strip_enum]. intros tr.
    destruct (IHr Hok tr) as [E1 E2]. split; [cbn [eval]; exact E1|].
    (* the operand is a literal: neither side is a chain node *)
    cbn [eval_raw]. destruct r; try discriminate Hl; reflexivity.
  Qed.

  Lemma strip_ok : forall r, vls_ok r -> vls_ok (strip_enum r).
  Proof. induction r; intros Hok; try exact Hok. cbn [vls_ok] in Hok. cbn [strip_enum]. tauto. Qed.

  Lemma strip_idem : forall r, strip_enum (strip_enum r) = strip_enum r.
  Proof. induction r; cbn [strip_enum]; auto. Qed.

  (* a literal only looks the same as an equal literal *)
  Lemma lit_looks_same : forall v r, is_lit v = true -> vls_ok v -> vls_ok r ->
    values_look_the_same v r = true -> v = strip_enum r.
  Proof.
    intros v r Hl Hv Hr H. pose proof (strip_ok r Hr) as Hr'. pose proof (strip_idem r) as Hs.
    destruct v; try discriminate Hl; cbn [values_look_the_same] in H;
      revert H Hr' Hs; generalize (strip_enum r); clear r Hr; intros r H Hr Hs;
      destruct r; cbn [check_equality_base is_primitive_literal] in H; try discriminate H; try reflexivity;
      try (cbn [strip_enum] in Hs; repeat match type of H with context [if ?c then _ else _] => destruct c end; discriminate H).
    all: try (destruct b; cbn in H; discriminate H).
    - (* EBool *) cbn in H. apply eqb_prop in H. subst. reflexivity.
    - (* ENum: equal numbers that are not zeros of opposite sign *)
      match type of H with context [if ?c then _ else _] => destruct c eqn:Hz end; [discriminate H|].
      cbn [andb] in H. cbn [vls_ok] in Hv, Hr. f_equal. apply canon_eq; assumption.
    - (* EBig *)
      unfold check_equality_bigint in H. destruct (zlist_eqb s s0) eqn:E; [apply zlist_eqb_eq in E; subst; reflexivity|].
      destruct (no_radix s && no_radix s0); discriminate H.
    - (* EStr *) cbn [andb] in H. apply zlist_eqb_eq in H. subst. reflexivity.
  Qed.

  Lemma lit_same_eval : forall v r, is_lit v = true -> vls_ok v -> vls_ok r ->
    values_look_the_same v r = true -> same_eval v (strip_enum r).
  Proof. intros v r Hl Hv Hr H. rewrite <- (lit_looks_same v r Hl Hv Hr H). apply same_eval_refl. Qed.

  Lemma vls_all : forall l,
    (fix all (l : list expr) : Prop := match l with [] => True | x :: r => vls_ok x /\ all r end) l ->
    forall x, In x l -> vls_ok x.
  Proof.
    induction l as [|y r IH]; intros H x Hin; [destruct Hin|].
    destruct H as [H1 H2]. destruct Hin as [->|Hin]; [assumption | eauto].
  Qed.

  Lemma items_plain_cons : forall x r tr acc, plain_item x = true ->
    eval_items_with W ev tr (x :: r) acc = lstep (ev tr x) acc (fun tr2 acc2 => eval_items_with W ev tr2 r acc2).
  Proof. intros x r tr acc H. destruct x; try discriminate H; reflexivity. Qed.

  (* arguments that pairwise have the same evaluation and are not spreads or holes *)
  Lemma items_same : forall a1 a2 tr acc,
    (fix go (x y : list expr) : bool :=
       match x, y with
       | e1 :: x', e2 :: y' => values_look_the_same e1 e2 && go x' y'
       | _, _ => true
       end) a1 a2 = true ->
    length a1 = length a2 ->
    (forall x y, In x a1 -> In y a2 -> values_look_the_same x y = true ->
        plain_item x = true /\ plain_item y = true /\ forall t, ev t x = ev t y) ->
    eval_items_with W ev tr a1 acc = eval_items_with W ev tr a2 acc.
  Proof.
    induction a1 as [|x r IH]; intros [|y r2] tr acc Hgo Hlen Hel; try discriminate Hlen; [reflexivity|].
    apply andb_true_iff in Hgo as [Hxy Hgo]. injection Hlen as Hlen.
    destruct (Hel x y (or_introl eq_refl) (or_introl eq_refl) Hxy) as [Px [Py Hev]].
    rewrite !items_plain_cons, Hev by assumption. unfold lstep.
    destruct (ev tr y) as [[t0 [v|v]]|]; try reflexivity.
    apply IH; [assumption|assumption|]. intros; apply Hel; try (right; assumption); assumption.
  Qed.

  Lemma same_eval_trans : forall a b c, same_eval a b -> same_eval b c -> same_eval a c.
  Proof. intros a b c H1 H2 tr. destruct (H1 tr), (H2 tr). split; congruence. Qed.
  Lemma same_eval_sym : forall a b, same_eval a b -> same_eval b a.
  Proof. intros a b H tr. destruct (H tr). split; congruence. Qed.

  Lemma target_same : forall oc t1 t2 tr, same_eval t1 t2 -> eval_target W oc tr t1 = eval_target W oc tr t2.
  Proof. intros oc t1 t2 tr H. unfold eval_target. destruct (H tr). destruct (is_cont oc); assumption. Qed.

  Lemma vls_plain : forall x y, values_look_the_same x y = true -> plain_item x = true /\ plain_item (strip_enum y) = true.
  Proof.
    intros x y H. destruct x; cbn [values_look_the_same] in H; try discriminate H; cbn [plain_item];
      try (split; [reflexivity|]; destruct (strip_enum y); try discriminate H; reflexivity).
    - (* EInlinedEnum on the left is not an item mode of its own *) split; [reflexivity|].
      destruct (strip_enum y); try reflexivity.
      + (* EMissing *) exfalso. clear -H. induction x; cbn [values_look_the_same strip_enum] in H; try discriminate H; auto.
      + (* ESpread *) exfalso. clear -H. induction x; cbn [values_look_the_same strip_enum] in H; try discriminate H; auto.
  Qed.

  Lemma dot_cong : forall t1 t2 n oc c1 s1 c2 s2, same_eval t1 t2 -> same_eval (EDot t1 n oc c1 s1) (EDot t2 n oc c2 s2).
  Proof.
    intros t1 t2 n oc c1 s1 c2 s2 St tr. split.
    - rewrite !eval_dot_eq. rewrite (target_same _ _ _ tr St). reflexivity.
    - rewrite !eval_raw_dot_eq. rewrite (target_same _ _ _ tr St). reflexivity.
  Qed.

  Lemma index_cong : forall t1 t2 i1 i2 oc, same_eval t1 t2 -> same_eval i1 i2 -> same_eval (EIndex t1 i1 oc) (EIndex t2 i2 oc).
  Proof.
    intros t1 t2 i1 i2 oc St Si tr.
    assert (Hstep : index_step W (eval_target W oc tr t1) (fun tr1 => ev tr1 i1) oc = index_step W (eval_target W oc tr t2) (fun tr1 => ev tr1 i2) oc).
    { rewrite (target_same _ _ _ tr St). unfold index_step.
      destruct (eval_target W oc tr t2) as [[t0 [ov|z]]|]; cbn [bind]; try reflexivity.
      unfold short_if. destruct ((oc =? 1) && nullish ov); try reflexivity. rewrite (proj1 (Si t0)). reflexivity. }
    split.
    - rewrite !eval_index_eq. rewrite Hstep. reflexivity.
    - rewrite !eval_raw_index_eq. exact Hstep.
  Qed.

  Lemma call_cong : forall t1 t2 a1 a2 oc p1 p2, same_eval t1 t2 ->
    (forall t a, eval_items_with W ev t a1 a = eval_items_with W ev t a2 a) ->
    same_eval (ECall t1 a1 oc p1) (ECall t2 a2 oc p2).
  Proof.
    intros t1 t2 a1 a2 oc p1 p2 St Sa tr.
    assert (Hstep : call_step W (eval_target W oc tr t1) (fun tr1 => eval_items_with W ev tr1 a1 []) oc
                  = call_step W (eval_target W oc tr t2) (fun tr1 => eval_items_with W ev tr1 a2 []) oc).
    { rewrite (target_same _ _ _ tr St). unfold call_step.
      destruct (eval_target W oc tr t2) as [[t0 [fv|z]]|]; cbn [bind]; try reflexivity.
      unfold short_if. destruct ((oc =? 1) && nullish fv); try reflexivity. rewrite Sa. reflexivity. }
    split; [rewrite !eval_call_eq | rewrite !eval_raw_call_eq]; rewrite Hstep; reflexivity.
  Qed.

  Lemma eval_typeof_other : forall v w tr, as_id v = None ->
    ev tr (EUn UTypeof v w) = bind (ev tr v) (fun tr1 x => Some (tr1, Val (VStr (typeof_value x)))).
  Proof. intros v w tr H. cbn [eval]. destruct v; try reflexivity. discriminate H. Qed.

  Lemma typeof_cong : forall l e w, as_id l = as_id e -> (forall tr, ev tr l = ev tr e) ->
    forall tr, ev tr (EUn UTypeof l w) = ev tr (EUn UTypeof e w).
  Proof.
    intros l e w Hid Hs tr. destruct (as_id l) as [r|] eqn:Hl.
    - apply as_id_some in Hl as (c & m & ->). symmetry in Hid. apply as_id_some in Hid as (c' & m' & ->). reflexivity.
    - rewrite !eval_typeof_other, Hs by congruence. reflexivity.
  Qed.

  Lemma strip_as_id : forall e, vls_ok e -> as_id (strip_enum e) = as_id e.
  Proof.
    destruct e; try reflexivity. cbn [vls_ok]. intros [Hl _]. destruct e; try discriminate Hl; reflexivity.
  Qed.

  Lemma vls_as_id : forall l e, vls_ok l -> vls_ok e -> values_look_the_same l e = true -> as_id l = as_id e.
  Proof.
    intros l e Hl He H. rewrite <- (strip_as_id e He). destruct (as_id l) eqn:Al.
    - apply as_id_some in Al as (c & m & ->). cbn [values_look_the_same] in H.
      destruct (strip_enum e); try discriminate H.
      destruct (z =? ref) eqn:E; [|discriminate H]. apply Z.eqb_eq in E. subst. reflexivity.
    - destruct (strip_enum e) eqn:S; try reflexivity. exfalso.
      destruct l; cbn [values_look_the_same] in H; rewrite ?S in H; try discriminate H.
      + discriminate Al.
      + destruct Hl as [Hlit _]. destruct l; try discriminate Hlit; discriminate H.
  Qed.

  Lemma plain_strip : forall y, plain_item (strip_enum y) = true -> plain_item y = true.
  Proof. destruct y; cbn [strip_enum plain_item]; auto. Qed.

  Theorem vls_sound_size : forall n l, (esize l <= n)%nat -> forall r,
    vls_ok l -> vls_ok r -> values_look_the_same l r = true -> same_eval l r.
  Proof.
    induction n as [|n IH]; intros l Hsz r Hl Hr H; [destruct l; cbn [esize] in Hsz; lia|].
    apply same_eval_trans with (b := strip_enum r); [|apply same_eval_sym; apply strip_eval; exact Hr].
    pose proof (strip_ok r Hr) as Hr'.
    destruct l; try (apply lit_same_eval; [reflexivity | exact Hl | exact Hr | exact H]);
      cbn [values_look_the_same] in H;
      try (exfalso; destruct (strip_enum r); discriminate H).
    - (* EId *)
      destruct (strip_enum r); try discriminate H. destruct (ref =? ref0) eqn:E; [|discriminate H].
      apply Z.eqb_eq in E. subst. intros tr. split; reflexivity.
    - (* EDot *)
      destruct (strip_enum r) eqn:Er; try discriminate H.
      rewrite !andb_true_iff in H. destruct H as [[[[Ho _] _] Hn] Ht].
      apply Z.eqb_eq in Ho. apply zlist_eqb_eq in Hn. subst.
      cbn [esize vls_ok] in Hsz, Hl, Hr'.
      apply dot_cong. apply IH; [lia|assumption|assumption|assumption].
    - (* EIndex *)
      destruct (strip_enum r) eqn:Er; try discriminate H.
      rewrite !andb_true_iff in H. destruct H as [[Ho Ht] Hi].
      apply Z.eqb_eq in Ho. subst.
      cbn [esize vls_ok] in Hsz, Hl, Hr'. destruct Hl as [Hl1 Hl2]. destruct Hr' as [Hr1 Hr2].
      apply index_cong; apply IH; try assumption; lia.
    - (* ECall *)
      destruct (strip_enum r) eqn:Er; try discriminate H.
      rewrite !andb_true_iff in H. destruct H as [[[[Ho Hp] Hlen] Ht] Ha].
      apply Z.eqb_eq in Ho. apply eqb_prop in Hp. apply Nat.eqb_eq in Hlen. subst.
      rewrite esize_call in Hsz. cbn [vls_ok] in Hl, Hr'. destruct Hl as [Hl1 Hl2]. destruct Hr' as [Hr1 Hr2].
      assert (St : same_eval l e) by (apply IH; [lia|assumption|assumption|assumption]).
      assert (Sa : forall t a, eval_items_with W ev t args a = eval_items_with W ev t args0 a).
      { intros t a. apply items_same; [assumption|assumption|].
        intros x y Hx Hy Hxy. destruct (vls_plain _ _ Hxy) as [Px Py]. split; [exact Px|]. split; [apply plain_strip; exact Py|].
        pose proof (in_sum_sizes _ _ Hx) as Hs.
        assert (Sxy : same_eval x y) by (apply IH; [lia | exact (vls_all args Hl2 x Hx) | exact (vls_all args0 Hr2 y Hy) | exact Hxy]).
        intros t0. exact (proj1 (Sxy t0)). }
      apply call_cong; assumption.
    - (* EUn *)
      destruct (strip_enum r) eqn:Er; try discriminate H.
      rewrite !andb_true_iff in H. destruct H as [[Ho Hw] Hv].
      apply internal_unop_dec_bl in Ho. apply eqb_prop in Hw. subst.
      cbn [esize vls_ok] in Hsz, Hl, Hr'.
      assert (Sv : same_eval l e) by (apply IH; [lia|assumption|assumption|assumption]).
      intros tr. split; [|reflexivity].
      destruct op0; try (cbn [eval]; first [reflexivity | rewrite (proj1 (Sv tr)); reflexivity]).
      apply typeof_cong; [apply vls_as_id; assumption | intros t; exact (proj1 (Sv t))].
    - (* EBin *)
      destruct (strip_enum r) eqn:Er; try discriminate H.
      rewrite !andb_true_iff in H. destruct H as [[Ho H1] H2].
      apply internal_binop_dec_bl in Ho. subst.
      cbn [esize vls_ok] in Hsz, Hl, Hr'. destruct Hl as [Hl1 Hl2]. destruct Hr' as [Hr1 Hr2].
      assert (S1 : same_eval l1 e1) by (apply IH; [lia|assumption|assumption|assumption]).
      assert (S2 : same_eval l2 e2) by (apply IH; [lia|assumption|assumption|assumption]).
      intros tr. split; [|reflexivity]. apply bin_cong; intros t; [apply S1 | apply S2].
    - (* EIf *)
      destruct (strip_enum r) eqn:Er; try discriminate H.
      rewrite !andb_true_iff in H. destruct H as [[H1 H2] H3].
      cbn [esize vls_ok] in Hsz, Hl, Hr'. destruct Hl as [Hl1 [Hl2 Hl3]]. destruct Hr' as [Hr1 [Hr2 Hr3]].
      assert (S1 : same_eval l1 e1) by (apply IH; [lia|assumption|assumption|assumption]).
      assert (S2 : same_eval l2 e2) by (apply IH; [lia|assumption|assumption|assumption]).
      assert (S3 : same_eval l3 e3) by (apply IH; [lia|assumption|assumption|assumption]).
      intros tr. split; [|reflexivity]. apply if_cong; intros t; [apply S1 | apply S2 | apply S3].
    - (* EInlinedEnum *)
      cbn [esize vls_ok] in Hsz, Hl. destruct Hl as [Hlit0 Hlv].
      apply same_eval_trans with (b := l).
      + intros tr. split; [reflexivity|]. cbn [eval_raw]. destruct l; try discriminate Hlit0; reflexivity.
      + exact (IH l ltac:(lia) (strip_enum r) Hlv Hr' H).
  Qed.

  Theorem values_look_the_same_sound_all : forall l r,
    vls_ok l -> vls_ok r -> values_look_the_same l r = true -> forall tr, ev tr l = ev tr r.
  Proof. intros l r Hl Hr H tr. exact (proj1 (vls_sound_size (esize l) l (le_n _) r Hl Hr H tr)). Qed.
End VLS.
