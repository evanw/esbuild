(* FoldBinaryOperator's ** (fix 9e1822e + math.Pow special cases) agrees with the
   special cases of Number::exponentiate, for all doubles *)
From V Require Import Common.Base C03.Num C03.SpecOps C03.Tree C03.Fold.

Definition wf_double (x : num) : Prop :=
  match x with Fin _ m _ => 0 <= m < two53 | _ => True end.

Definition abs_cmp1 (m e : Z) : comparison := fin_cmp false m e false 1 0.

Lemma pow2_gt0 : forall k, 0 <= k -> 0 < 2 ^ k.
Proof. intros. apply Z.pow_pos_nonneg; lia. Qed.

Lemma cmp_zero : forall s m e s2 e2, 0 <= m ->
  fin_cmp s m e s2 0 e2 = Z.compare (signed s m) 0.
Proof.
  intros s m e s2 e2 Hm. unfold fin_cmp.
  assert (Hs : signed s2 (0 * 2 ^ (e2 - Z.min e e2)) = 0) by (destruct s2; cbn; lia).
  rewrite Hs. assert (Hp : 0 < 2 ^ (e - Z.min e e2)) by (apply pow2_gt0; lia).
  destruct s; cbn [signed].
  - destruct (Z.compare_spec (- m) 0), (Z.compare_spec (- (m * 2 ^ (e - Z.min e e2))) 0); try reflexivity; nia.
  - destruct (Z.compare_spec m 0), (Z.compare_spec (m * 2 ^ (e - Z.min e e2)) 0); try reflexivity; nia.
Qed.

Lemma lt_zero : forall s m e, 0 <= m -> num_lt (Fin s m e) pzero = s && negb (m =? 0).
Proof.
  intros s m e Hm. unfold num_lt, pzero. cbn [num_cmp]. rewrite cmp_zero by assumption.
  destruct s; cbn [signed andb]; destruct (Z.compare_spec (- m) 0); destruct (Z.compare_spec m 0); destruct (m =? 0) eqn:E; try reflexivity; lia.
Qed.

Lemma gt_zero : forall s m e, 0 <= m -> num_gt (Fin s m e) pzero = negb s && negb (m =? 0).
Proof.
  intros s m e Hm. unfold num_gt, pzero. cbn [num_cmp]. rewrite cmp_zero by assumption.
  destruct s; cbn [signed andb negb]; destruct (Z.compare_spec (- m) 0); destruct (Z.compare_spec m 0); destruct (m =? 0) eqn:E; try reflexivity; lia.
Qed.

Lemma eq_one : forall s m e, 0 <= m ->
  num_eq (Fin s m e) one = negb s && match abs_cmp1 m e with Eq => true | _ => false end.
Proof.
  intros s m e Hm. unfold num_eq, one, abs_cmp1. cbn [num_cmp]. destruct s; [|reflexivity].
  cbn [negb andb]. unfold fin_cmp. cbn [signed].
  assert (H1 : 0 < 2 ^ (e - Z.min e 0)) by (apply pow2_gt0; lia).
  assert (H2 : 0 < 2 ^ (0 - Z.min e 0)) by (apply pow2_gt0; lia).
  destruct (Z.compare_spec (- (m * 2 ^ (e - Z.min e 0))) (1 * 2 ^ (0 - Z.min e 0))); try reflexivity; nia.
Qed.

Lemma eq_mone : forall s m e, 0 <= m ->
  num_eq (Fin s m e) (num_neg one) = s && match abs_cmp1 m e with Eq => true | _ => false end.
Proof.
  intros s m e Hm. unfold num_eq, one, num_neg, abs_cmp1. cbn [num_cmp negb]. unfold fin_cmp. cbn [signed].
  assert (H1 : 0 < 2 ^ (e - Z.min e 0)) by (apply pow2_gt0; lia).
  assert (H2 : 0 < 2 ^ (0 - Z.min e 0)) by (apply pow2_gt0; lia).
  destruct s; cbn [signed andb].
  - destruct (Z.compare_spec (- (m * 2 ^ (e - Z.min e 0))) (- (1 * 2 ^ (0 - Z.min e 0))));
      destruct (Z.compare_spec (m * 2 ^ (e - Z.min e 0)) (1 * 2 ^ (0 - Z.min e 0))); try reflexivity; lia.
  - destruct (Z.compare_spec (m * 2 ^ (e - Z.min e 0)) (- (1 * 2 ^ (0 - Z.min e 0)))); try reflexivity; nia.
Qed.

Lemma abs_lt_one : forall s m e, num_lt (num_abs (Fin s m e)) one = match abs_cmp1 m e with Lt => true | _ => false end.
Proof. reflexivity. Qed.

Lemma abs_cmp_zero : forall e, abs_cmp1 0 e = Lt.
Proof.
  intros e. unfold abs_cmp1, fin_cmp. cbn [signed]. rewrite Z.mul_0_l.
  assert (H2 : 0 < 2 ^ (0 - Z.min e 0)) by (apply pow2_gt0; lia).
  destruct (Z.compare_spec 0 (1 * 2 ^ (0 - Z.min e 0))); try reflexivity; lia.
Qed.

(* |y| = 1 exactly: y is the odd integer 1 *)
Lemma abs_eq_one_int : forall m e, 0 <= m -> abs_cmp1 m e = Eq ->
  is_int m e = true /\ Z.odd (trunc_abs m e) = true /\ (m =? 0) = false.
Proof.
  intros m e Hm H. unfold abs_cmp1, fin_cmp in H. cbn [signed] in H. apply Z.compare_eq in H.
  unfold is_int, trunc_abs. destruct (0 <=? e) eqn:He.
  - assert (Hmin : Z.min e 0 = 0) by lia. rewrite Hmin in H. rewrite Z.sub_0_r in H. cbn in H.
    split; [reflexivity|]. rewrite H. split; [reflexivity|]. destruct (m =? 0) eqn:E; [|reflexivity].
    apply Z.eqb_eq in E. subst. lia.
  - assert (Hmin : Z.min e 0 = e) by lia. rewrite Hmin in H. rewrite Z.sub_diag in H.
    replace (0 - e) with (- e) in H by lia. rewrite Z.pow_0_r, Z.mul_1_r, Z.mul_1_l in H. subst m.
    assert (Hp : 0 < 2 ^ (- e)) by (apply pow2_gt0; lia).
    rewrite Z.mod_same by lia. rewrite Z.div_same by lia.
    split; [reflexivity|]. split; [reflexivity|]. destruct (2 ^ (- e) =? 0) eqn:E; [lia|reflexivity].
Qed.

Lemma odd_int_small : forall m e, 0 <= m < two53 ->
  is_int m e && Z.odd (trunc_abs m e) = true -> num_lt (Fin false m e) (Fin false two53 0) = true.
Proof.
  intros m e Hm H. apply andb_true_iff in H as [Hi Ho].
  unfold trunc_abs in Ho. unfold num_lt. cbn [num_cmp]. unfold fin_cmp. cbn [signed].
  destruct (0 <=? e) eqn:He.
  - destruct (Z.eq_dec e 0) as [->|Hne].
    + unfold two53 in *. cbn. match goal with |- context [?a ?= ?b] => destruct (Z.compare_spec a b) end; try reflexivity; lia.
    + exfalso. replace e with (Z.succ (e - 1)) in Ho by lia. rewrite Z.pow_succ_r in Ho by lia.
      rewrite Z.mul_assoc, (Z.mul_comm m 2), <- Z.mul_assoc in Ho. rewrite Z.odd_mul in Ho. cbn in Ho. discriminate.
  - assert (Hmin : Z.min e 0 = e) by lia. rewrite Hmin, Z.sub_diag, Z.pow_0_r, Z.mul_1_r.
    assert (Hp : 1 <= 2 ^ (0 - e)) by (assert (0 < 2 ^ (0 - e)) by (apply pow2_gt0; lia); lia).
    destruct (Z.compare_spec m (two53 * 2 ^ (0 - e))); try reflexivity; unfold two53 in *; nia.
Qed.

Lemma odd_int_agree : forall y, wf_double y -> is_odd_int y = spec_is_odd_integer y.
Proof.
  intros [| |s m e] Hw; try reflexivity. cbn [is_odd_int spec_is_odd_integer wf_double] in *.
  destruct (is_int m e && Z.odd (trunc_abs m e)) eqn:H.
  - rewrite (odd_int_small m e Hw H). apply andb_true_iff in H as [-> ->]. reflexivity.
  - apply andb_false_iff in H as [->| ->]; rewrite ?andb_false_r; reflexivity.
Qed.

Lemma neg_wf : forall y, wf_double y -> wf_double (num_neg y).
Proof. destruct y; cbn; auto. Qed.

Lemma odd_neg : forall y, spec_is_odd_integer (num_neg y) = spec_is_odd_integer y.
Proof. destruct y; reflexivity. Qed.

(* all tests on a finite number, in terms of its sign, zero-ness, |x| ? 1, integrality and parity *)
Ltac norm_fin H :=
  repeat first
    [ rewrite eq_one in H by lia | rewrite eq_mone in H by lia
    | rewrite lt_zero in H by lia | rewrite gt_zero in H by lia
    | rewrite abs_lt_one in H ].

(* split on zero-ness and on |x| ? 1, with the consequences of |x| = 1 *)
Ltac fin_atoms m e Hc :=
  destruct (m =? 0) eqn:?;
  [ match goal with Z0 : (m =? 0) = true |- _ => apply Z.eqb_eq in Z0; subst m; rewrite ?abs_cmp_zero in * end
  | destruct (abs_cmp1 m e) eqn:?;
    try (let Hi := fresh "Hi" in let Ho := fresh "Ho" in let Hz := fresh "Hz" in
         destruct (Hc eq_refl) as (Hi & Ho & Hz); rewrite ?Hi, ?Ho in *) ].
Ltac bool_atoms H :=
  repeat match type of H with
         | context [is_int ?a ?b] => destruct (is_int a b) eqn:?
         | context [Z.odd (trunc_abs ?a ?b)] => destruct (Z.odd (trunc_abs a b)) eqn:?
         end.

Lemma is_odd_fin : forall s m e, 0 <= m < two53 ->
  is_odd_int (Fin s m e) = is_int m e && Z.odd (trunc_abs m e).
Proof. intros s m e H. rewrite (odd_int_agree (Fin s m e)) by exact H. reflexivity. Qed.

Theorem fold_pow_special_cases_all : forall x y, wf_double x -> wf_double y ->
  forall r, fold_pow x y = Some r ->
  match spec_exponentiate_special x y with Some r' => num_same r r' = true | None => True end.
Proof.
  intros x y Hx Hy r H. unfold fold_pow, go_pow_special in H.
  (* by class of x and y (NaN, infinite, finite); on finite operands every test of the code
     becomes a combination of the atoms the standard's case list uses *)
  destruct y as [|sy|sy my ey]; destruct x as [|sx|sx mx ex]; cbn [wf_double] in Hx, Hy;
    cbn [is_nan is_zero orb andb signbit num_neg negb num_abs] in H;
    rewrite ?is_odd_fin in H by assumption;
    norm_fin H;
    cbn [spec_exponentiate_special spec_abs_cmp_one spec_gt_zero spec_is_odd_integer];
    try change (num_cmp (Fin false mx ex) (Fin false 1 0)) with (Some (abs_cmp1 mx ex));
    try (pose proof (abs_cmp_zero ex) as Hcz);
    try (pose proof (abs_eq_one_int mx ex ltac:(lia)) as Hce);
    try (pose proof (abs_eq_one_int my ey ltac:(lia)) as Hcey).
  all: try (cbn in H; inversion H; subst; reflexivity).
  (* y infinite, x NaN / infinite *)
  1: (destruct sy; cbv in H; inversion H; subst; reflexivity).
  1: (destruct sx, sy; cbv in H; inversion H; subst; reflexivity).
  (* a finite operand: by zero-ness, |x| ? 1, integrality, parity and sign, both sides compute *)
  all: try change (fin_cmp false mx ex false 1 0) with (abs_cmp1 mx ex) in *;
    try (fin_atoms mx ex Hce); try (fin_atoms my ey Hcey); bool_atoms H;
    try congruence;
    try (destruct sx); try (destruct sy); cbn in H;
    try change (fin_cmp false mx ex false 1 0) with (abs_cmp1 mx ex) in H;
    repeat match goal with E : abs_cmp1 _ _ = _ |- _ => rewrite E in H end; cbn in H;
    inversion H; subst; cbn; try reflexivity; try exact I;
    try (apply andb_true_iff; split; [reflexivity|]; rewrite Z.min_id, Z.sub_diag; apply Z.eqb_refl).
Qed.
