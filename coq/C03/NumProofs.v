(* Proofs about the numeric cores (Num.v) against SpecOps.v *)
From V Require Import Common.Base C03.Num C03.SpecOps.

Lemma two32_eq : 2 ^ 32 = two32. Proof. reflexivity. Qed.
Lemma two31_eq : 2 ^ 31 = two31. Proof. reflexivity. Qed.

Lemma pow2_pos k : 0 < 2 ^ k \/ 2 ^ k = 0.
Proof.
  destruct (Z_lt_le_dec k 0) as [H|H].
  - right. apply Z.pow_neg_r; lia.
  - left. apply Z.pow_pos_nonneg; lia.
Qed.

(* truncation: the model's floor-of-magnitude with the sign put back equals
   the standard's truncate *)
Lemma trunc_is_spec s m e : 0 <= m -> signed s (trunc_abs m e) = spec_truncate s m e.
Proof.
  intros Hm. unfold trunc_abs, spec_truncate.
  destruct (0 <=? e) eqn:He.
  - destruct s; cbn [signed]; lia.
  - assert (Hp : 0 < 2 ^ (- e)) by (apply Z.pow_pos_nonneg; lia).
    destruct s; cbn [signed].
    + rewrite Z.quot_opp_l by lia. rewrite Z.quot_div_nonneg by lia. reflexivity.
    + rewrite Z.quot_div_nonneg by lia. reflexivity.
Qed.

(* uint32(math.Mod(|f|, 2^32)) = floor(|f|) mod 2^32 *)
Lemma fmod_trunc m e : 0 <= m ->
  (let '(m', e') := fmod_abs_two32 m e in trunc_abs m' e') = trunc_abs m e mod two32.
Proof.
  intros Hm. unfold fmod_abs_two32, trunc_abs at 2.
  destruct (0 <=? e) eqn:He.
  - unfold trunc_abs. cbn. rewrite Z.mul_1_r. reflexivity.
  - unfold trunc_abs. rewrite He.
    assert (Hp : 0 < 2 ^ (- e)) by (apply Z.pow_pos_nonneg; lia).
    rewrite Z.rem_mul_r by (unfold two32; lia).
    rewrite Z.mul_comm, Z.div_add by lia.
    rewrite Z.div_small by (apply Z.mod_pos_bound; lia). lia.
Qed.

Lemma wrap32_alt z :
  wrap32 z = (if two31 <=? z mod two32 then z mod two32 - two32 else z mod two32).
Proof.
  unfold wrap32. cbv zeta. destruct (Z.ltb_spec (z mod two32) two31), (Z.leb_spec two31 (z mod two32)); lia.
Qed.

Lemma wrap32_mod z : wrap32 z mod two32 = z mod two32.
Proof.
  unfold wrap32. cbv zeta. destruct (_ <? _); [apply Z.mod_mod; discriminate|].
  rewrite <- (Z_mod_plus_full (z mod two32 - two32) 1 two32).
  replace (z mod two32 - two32 + 1 * two32) with (z mod two32) by lia. apply Z.mod_mod. discriminate.
Qed.

Lemma wrap32_eq a b : a mod two32 = b mod two32 -> wrap32 a = wrap32 b.
Proof. unfold wrap32. intros ->. reflexivity. Qed.

Lemma wrap32_neg_wrap a : wrap32 (- wrap32 a) = wrap32 (- a).
Proof.
  apply wrap32_eq. change (- wrap32 a) with (0 - wrap32 a). change (- a) with (0 - a).
  rewrite <- Zminus_mod_idemp_r, wrap32_mod, Zminus_mod_idemp_r. reflexivity.
Qed.

Lemma wrap32_range z : - two31 <= wrap32 z < two31.
Proof. unfold wrap32, two31, two32. cbv zeta. destruct (Z.ltb _ _) eqn:?; lia. Qed.

Lemma wrap32_id z : - two31 <= z < two31 -> wrap32 z = z.
Proof. unfold wrap32, two31, two32. intros H. cbv zeta. destruct (Z.ltb _ _) eqn:?; lia. Qed.

(* the slow path of ToInt32 computes the standard's result *)
Lemma slow_path_is_spec (s : bool) (m e : Z) : 0 <= m ->
  (let '(m', e') := fmod_abs_two32 m e in
   let i := wrap32 (trunc_abs m' e') in if s then wrap32 (- i) else i)
  = spec_ToInt32 (Fin s m e).
Proof.
  intros Hm. pose proof (fmod_trunc m e Hm) as HF.
  destruct (fmod_abs_two32 m e) as [m' e']. rewrite HF.
  cbn [spec_ToInt32]. rewrite <- trunc_is_spec by assumption.
  rewrite two32_eq, two31_eq.
  destruct s; cbn [signed].
  - rewrite wrap32_neg_wrap, (wrap32_eq (- (trunc_abs m e mod two32)) (- trunc_abs m e)); [apply wrap32_alt|].
    change (- (trunc_abs m e mod two32)) with (0 - trunc_abs m e mod two32). apply Zminus_mod_idemp_r.
  - rewrite (wrap32_eq _ (trunc_abs m e)) by (apply Z.mod_mod; discriminate). apply wrap32_alt.
Qed.

(* the fast path: an exactly represented int32 is its own ToInt32 *)
Lemma fast_path_is_spec s m e i : 0 <= m -> - two31 <= i < two31 ->
  float_of_int_eqb i (Fin s m e) = true -> i = spec_ToInt32 (Fin s m e).
Proof.
  intros Hm Hi H. cbn [float_of_int_eqb] in H.
  apply andb_true_iff in H as [_ H]. apply Z.eqb_eq in H.
  cbn [spec_ToInt32]. rewrite <- trunc_is_spec by assumption. rewrite H.
  rewrite two32_eq, two31_eq. unfold two31, two32 in *.
  destruct (Z.leb _ _) eqn:?; lia.
Qed.

Theorem to_int32_is_spec_all :
  forall (cvt : num -> Z) (f : num),
    (forall x, - two31 <= cvt x < two31) -> wf_num f ->
    go_ToInt32 cvt f = spec_ToInt32 f.
Proof.
  intros cvt f Hc Hw. unfold go_ToInt32.
  destruct f as [|n|s m e]; try reflexivity.
  cbn [wf_num] in Hw.
  destruct (float_of_int_eqb _ _) eqn:Hf.
  - apply fast_path_is_spec; [assumption| |assumption].
    unfold go_int32_of_float.
    destruct (andb _ _) eqn:Hr; [lia | apply Hc].
  - apply slow_path_is_spec; assumption.
Qed.

Theorem to_uint32_is_spec_all :
  forall (cvt : num -> Z) (f : num),
    (forall x, - two31 <= cvt x < two31) -> wf_num f ->
    go_ToUint32 cvt f = spec_ToUint32 f.
Proof.
  intros cvt f Hc Hw. unfold go_ToUint32. rewrite to_int32_is_spec_all by assumption.
  destruct f as [|n|s m e]; try reflexivity.
  cbn [spec_ToInt32 spec_ToUint32]. unfold wrapu32. rewrite two32_eq, two31_eq. unfold two31, two32.
  destruct (Z.leb _ _) eqn:?; lia.
Qed.

Lemma num_of_bits_wf b : 0 <= b -> wf_num (num_of_bits b).
Proof.
  intros Hb. unfold num_of_bits.
  destruct (_ =? 2047); [destruct (_ =? 0); exact I|].
  assert (H : 0 <= Z.land b (two52 - 1)) by (apply Z.land_nonneg; left; assumption).
  destruct (_ =? 0); cbn [wf_num]; unfold two52 in *; lia.
Qed.

(* stringCompareUCS2 against IsLessThan on strings (SpecOps.spec_string_lt) *)
Lemma compare_ucs2_lt_all : forall a b, (go_compare_ucs2 a b <? 0) = spec_string_lt a b.
Proof.
  induction a as [|x a IH]; intros [|y b]; unfold spec_string_lt; cbn [go_compare_ucs2 is_string_prefix first_diff length].
  - reflexivity.
  - cbn [length Z.of_nat]. lia.
  - cbn [length Z.of_nat]. lia.
  - destruct (x - y =? 0) eqn:E.
    + assert (x = y) by lia. subst y. rewrite !Z.eqb_refl. cbn [andb].
      rewrite IH. unfold spec_string_lt. reflexivity.
    + assert (Hxy : (x =? y) = false) by lia. assert (Hyx : (y =? x) = false) by lia.
      rewrite Hxy, Hyx. cbn [andb]. lia.
Qed.

Lemma compare_ucs2_eq_all : forall a b, (go_compare_ucs2 a b =? 0) = zlist_eqb a b.
Proof.
  unfold zlist_eqb.
  induction a as [|x a IH]; intros [|y b]; cbn [go_compare_ucs2 list_eqb length]; try reflexivity.
  - destruct (x - y =? 0) eqn:E.
    + assert (Hxy : (x =? y) = true) by lia. rewrite Hxy. cbn [andb]. apply IH.
    + assert (Hxy : (x =? y) = false) by lia. rewrite Hxy. cbn [andb]. lia.
Qed.

Lemma compare_ucs2_antisym : forall a b, go_compare_ucs2 b a = - go_compare_ucs2 a b.
Proof.
  induction a as [|x a IH]; intros [|y b]; cbn [go_compare_ucs2 length]; try lia.
  destruct (x - y =? 0) eqn:E.
  - assert (Hyx : (y - x =? 0) = true) by lia. rewrite Hyx. apply IH.
  - assert (Hyx : (y - x =? 0) = false) by lia. rewrite Hyx. lia.
Qed.

Lemma compare_ucs2_gt_all : forall a b, (0 <? go_compare_ucs2 a b) = spec_string_lt b a.
Proof.
  intros a b. rewrite <- compare_ucs2_lt_all, (compare_ucs2_antisym a b). lia.
Qed.

(* FoldBinaryOperator: the integer operators << >> >>> & | ^ *)
From V Require Import C03.Tree C03.Fold.

Definition spec_int_op (op : binop) (l r : num) : option Z :=
  (* 6.1.6.1.9-6.1.6.1.11 Number::leftShift / signedRightShift / unsignedRightShift,
     6.1.6.1.17 NumberBitwiseOp *)
  let shift := spec_ToUint32 r mod 32 in
  match op with
  | BShl => let v := (spec_ToInt32 l * 2 ^ shift) mod 2 ^ 32 in Some (if 2 ^ 31 <=? v then v - 2 ^ 32 else v)
  | BShr => Some (spec_ToInt32 l / 2 ^ shift)
  | BUShr => Some (spec_ToUint32 l / 2 ^ shift)
  | BBitAnd => Some (Z.land (spec_ToInt32 l) (spec_ToInt32 r))
  | BBitOr => Some (Z.lor (spec_ToInt32 l) (spec_ToInt32 r))
  | BBitXor => Some (Z.lxor (spec_ToInt32 l) (spec_ToInt32 r))
  | _ => None
  end.

Lemma land31_is_mod32 u : 0 <= u -> Z.land u 31 = u mod 32.
Proof. intros H. change 31 with (Z.ones 5). rewrite Z.land_ones by lia. reflexivity. Qed.

Lemma spec_ToUint32_nonneg f : 0 <= spec_ToUint32 f.
Proof.
  destruct f as [| |s m e]; cbn [spec_ToUint32]; lia.
Qed.

Theorem fold_int_ops_is_spec_all :
  forall (cvt : num -> Z) (op : binop) (l r : num),
    (forall x, - two31 <= cvt x < two31) -> wf_num l -> wf_num r ->
    forall z, spec_int_op op l r = Some z -> fold_num_num cvt op l r = FNum (num_of_Z z).
Proof.
  intros cvt op l r Hc Hl Hr z Hs.
  unfold fold_num_num, go_ToUint32.
  rewrite !to_int32_is_spec_all by assumption.
  pose proof (to_uint32_is_spec_all cvt r Hc Hr) as Hur. unfold go_ToUint32 in Hur.
  rewrite to_int32_is_spec_all in Hur by assumption.
  pose proof (to_uint32_is_spec_all cvt l Hc Hl) as Hul. unfold go_ToUint32 in Hul.
  rewrite to_int32_is_spec_all in Hul by assumption.
  rewrite Hur, Hul.
  pose proof (spec_ToUint32_nonneg r) as Hn.
  destruct op; cbn [spec_int_op] in Hs; try discriminate; inversion Hs; subst z; clear Hs;
    rewrite ?land31_is_mod32 by assumption; try reflexivity.
  (* BShl: int32 << k wraps *)
  unfold go_shl32, wrap32. cbv zeta.
  change (Z.pow_pos 2 31) with two31. change (Z.pow_pos 2 32) with two32.
  set (v := (spec_ToInt32 l * 2 ^ (spec_ToUint32 r mod 32)) mod two32).
  do 2 f_equal. unfold two31 in *.
  destruct (Z.ltb v _) eqn:E1; destruct (Z.leb _ v) eqn:E2; try reflexivity; lia.
Qed.
