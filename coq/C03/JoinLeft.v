(* JoinWithLeftAssociativeOp as a relation: every fact about [join_left_assoc]
   follows from three closure properties, without unfolding its two nested
   recursions again. *)
From V Require Import Common.Base C03.Num C03.Tree.

(* apply f to the last operand of a comma spine *)
Definition on_comma_tail (f : expr -> expr) : expr -> expr :=
  fix go (a : expr) : expr :=
    match a with
    | EBin BComma al ar => EBin BComma al (go ar)
    | _ => f a
    end.

Lemma on_comma_tail_ind : forall f (P : expr -> expr -> Prop),
  (forall a, P a (f a)) ->
  (forall al ar r, P ar r -> P (EBin BComma al ar) (EBin BComma al r)) ->
  forall a, P a (on_comma_tail f a).
Proof.
  intros f P Hf Hc. induction a; try apply Hf.
  destruct op; try apply Hf. apply Hc, IHa2.
Qed.

Lemma join_left_assoc_eq : forall op b,
  join_left_assoc op b =
  on_comma_tail (fun a => match b with
                          | EBin op' bl br =>
                              if binop_eqb op' op then join_left_assoc op br (join_left_assoc op bl a)
                              else EBin op a b
                          | _ => EBin op a b
                          end).
Proof. destruct b; reflexivity. Qed.

(* P a b r: "r may be the result of joining a and b" *)
Theorem join_left_assoc_ind : forall op (P : expr -> expr -> expr -> Prop),
  (forall a b, P a b (EBin op a b)) ->
  (forall al ar b r, P ar b r -> P (EBin BComma al ar) b (EBin BComma al r)) ->
  (forall a bl br r1 r2, P a bl r1 -> P r1 br r2 -> P a (EBin op bl br) r2) ->
  forall b a, P a b (join_left_assoc op b a).
Proof.
  intros op P Hbase Hcomma Hassoc.
  induction b; intros a; rewrite join_left_assoc_eq;
    apply on_comma_tail_ind with (P := fun a r => P a _ r); try (intros; apply Hcomma; assumption);
    try (intros; apply Hbase).
  intros a0. destruct (binop_eqb op0 op) eqn:E; [|apply Hbase].
  apply internal_binop_dec_bl in E. subst op0. eapply Hassoc; [apply IHb1 | apply IHb2].
Qed.
