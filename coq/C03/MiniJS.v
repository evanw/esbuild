(* C03 specification side, part 2: MiniJS, a big-step semantics with probe
   traces for the expression fragment on which the helper rewrites are proved
   sound.  Written from ECMA-262 (13.5 unary operators, 13.10-13.14 relational,
   equality, logical, conditional, comma; 7.1.2 ToBoolean; 7.2.15
   IsStrictlyEqual), not from esbuild's code.

   * values: primitives, objects with an identity (returned by probes), literal
     objects (no identity), symbols, functions;
   * every operation that can run user code is a parameter of the WORLD and may
     emit any trace and complete normally or abruptly, as a function of its
     operands and of the time (length of the trace so far): calls, new,
     property reads (getters, Proxy traps), ToPropertyKey, ToString in template
     literals, spread/iteration, unary + - ~, arithmetic/relational/equality
     operators on arbitrary operands.  Two evaluations of the same operation
     at different times may differ;
   * reading a bound identifier is pure (exclusions NoTDZ / ReadsArePure of the
     property); reading an unbound one throws ReferenceError unless the global
     exists; typeof of an unbound identifier never throws;
   * operators that may run user code (valueOf/toString of objects) or whose
     numeric result is not needed by any rewrite are section parameters
     [un_sem], [bin_sem]: every theorem holds for all of them;
   * covered: every constructor of Tree.expr except class expressions,
     assignments, ++/-- and delete: those evaluate to None and are excluded
     from the theorems' hypotheses (eval e = Some _);
   * optional chains (13.3.9): a node with oc = 1 (a?.b) short-circuits the whole
     chain when its target is null/undefined; a node with oc = 2 continues the
     chain of its target; any other context ends the chain.  Short-circuiting is
     the internal abrupt completion Throw VShort, caught where the chain ends; a
     world operation throwing that marker is outside the semantics (None);
   * the receiver (this) of a method call is not tracked: the callee value
     returned by the property read stands for the bound method. *)
From V Require Import Common.Base C03.Num C03.Tree.

Inductive value :=
| VUndef | VNull | VBool (b : bool) | VNum (n : num) | VBig (z : Z) | VStr (s : list Z)
| VObj (id : Z)        (* object with identity (from a probe) *)
| VObjLit              (* object created by a literal: {} /re/ *)
| VArr                 (* array created by a literal *)
| VFun                 (* function created by a literal *)
| VSym (id : Z)
| VShort.              (* internal: completion marker of a short-circuited optional chain; never a world's throw *)

Inductive outcome := Val (v : value) | Throw (v : value).
Definition trace := list Z.

Definition truthy (v : value) : bool :=
  match v with
  | VUndef | VNull => false
  | VBool b => b
  | VNum n => negb (is_zero n) && negb (is_nan n)
  | VBig z => negb (z =? 0)
  | VStr s => match s with [] => false | _ => true end
  | _ => true
  end.

Definition nullish (v : value) : bool := match v with VUndef | VNull => true | _ => false end.

Definition s_undefined : list Z := [117; 110; 100; 101; 102; 105; 110; 101; 100].
Definition s_object : list Z := [111; 98; 106; 101; 99; 116].
Definition s_boolean : list Z := [98; 111; 111; 108; 101; 97; 110].
Definition s_number : list Z := [110; 117; 109; 98; 101; 114].
Definition s_bigint : list Z := [98; 105; 103; 105; 110; 116].
Definition s_string : list Z := [115; 116; 114; 105; 110; 103].
Definition s_symbol : list Z := [115; 121; 109; 98; 111; 108].
Definition s_function : list Z := [102; 117; 110; 99; 116; 105; 111; 110].
Definition s_TypeError : list Z := [84; 121; 112; 101; 69; 114; 114; 111; 114].
Definition s_ReferenceError : list Z := [82; 101; 102; 101; 114; 101; 110; 99; 101; 69; 114; 114; 111; 114].

Definition typeof_value (v : value) : list Z :=
  match v with
  | VUndef => s_undefined | VNull => s_object | VBool _ => s_boolean | VNum _ => s_number
  | VBig _ => s_bigint | VStr _ => s_string | VObj _ | VObjLit | VArr => s_object | VFun => s_function
  | VSym _ => s_symbol
  | VShort => s_undefined
  end.

(* 7.2.15 IsStrictlyEqual; None when it would compare the identity of an
   object created by a literal (not tracked) *)
Definition strict_eq (a b : value) : option bool :=
  match a, b with
  | VUndef, VUndef | VNull, VNull => Some true
  | VBool x, VBool y => Some (Bool.eqb x y)
  | VNum x, VNum y => Some (num_eq x y)
  | VBig x, VBig y => Some (x =? y)
  | VStr x, VStr y => Some (zlist_eqb x y)
  | VObj x, VObj y => Some (x =? y)
  | VSym x, VSym y => Some (x =? y)
  | (VObjLit | VArr | VFun), (VObjLit | VArr | VFun | VObj _) => None
  | VObj _, (VObjLit | VArr | VFun) => None
  | _, _ => Some false
  end.

(* decimal bigint literal text (no radix prefix) *)
Fixpoint dec_value (l : list Z) (acc : Z) : option Z :=
  match l with
  | [] => Some acc
  | c :: r => if (48 <=? c) && (c <=? 57) then dec_value r (acc * 10 + (c - 48)) else None
  end.
Definition big_value (s : list Z) : option Z :=
  match s with
  | [] => None
  | [c] => dec_value s 0
  | c :: _ => if c =? 48 then None else dec_value s 0      (* leading 0: radix literal or invalid *)
  end.

(* The world: everything esbuild cannot see. *)
Record world := {
  w_unbound : Z -> bool;              (* esbuild's view: identifier not declared in the code *)
  w_lenv : Z -> value;                (* declared identifiers: always readable (NoTDZ) *)
  w_this : value;
  w_genv : Z -> option value;         (* globals: None = does not exist *)
  w_un : unop -> value -> nat -> trace * outcome;              (* + - ~ *)
  w_bin : binop -> value -> value -> nat -> trace * outcome;   (* arithmetic, relational, ==, in, instanceof *)
  w_call : value -> list value -> nat -> trace * outcome;      (* callee, arguments *)
  w_new : value -> list value -> nat -> trace * outcome;
  w_get : value -> value -> nat -> trace * outcome;            (* object, primitive key: getters / traps *)
  w_tokey : value -> nat -> trace * outcome;                   (* ToPropertyKey *)
  w_tostr : value -> nat -> trace * outcome;                   (* ToString of a template substitution *)
  w_spread : value -> nat -> trace * outcome                   (* iteration / CopyDataProperties of a spread operand *)
}.

Inductive lres := LVals (vs : list value) | LThrow (x : value).

Section Semantics.
  Variable W : world.

  Definition bind (r : option (trace * outcome)) (k : trace -> value -> option (trace * outcome)) : option (trace * outcome) :=
    match r with
    | Some (tr, Val v) => k tr v
    | Some (tr, Throw x) => Some (tr, Throw x)
    | None => None
    end.

  (* an effectful step of the world performed at the current time *)
  Definition eff (tr : trace) (f : nat -> trace * outcome) : option (trace * outcome) :=
    let '(t2, o) := f (length tr) in
    match o with
    | Throw VShort => None
    | _ => Some (tr ++ t2, o)
    end.

  Definition lbind (r : option (trace * lres)) (k : trace -> list value -> option (trace * outcome)) : option (trace * outcome) :=
    match r with
    | Some (tr, LVals vs) => k tr vs
    | Some (tr, LThrow x) => Some (tr, Throw x)
    | None => None
    end.

  Definition neg_outcome (r : option (trace * outcome)) : option (trace * outcome) :=
    match r with
    | Some (tr, Val (VBool b)) => Some (tr, Val (VBool (negb b)))
    | Some (tr, Val _) => None                       (* an equality operator always yields a boolean *)
    | other => other
    end.

  Definition is_sem_binop (op : binop) : bool :=
    match op with
    | BAdd | BSub | BMul | BDiv | BRem | BPow | BLt | BLe | BGt | BGe | BIn | BInstanceof
    | BShl | BShr | BUShr | BBitOr | BBitAnd | BBitXor => true
    | _ => false
    end.

  Definition apply_bin (op : binop) (tr : trace) (a b : value) : option (trace * outcome) :=
    eff tr (w_bin W op a b).

  Definition is_object (v : value) : bool :=
    match v with VObj _ | VObjLit | VArr | VFun => true | _ => false end.

  (* a + b: a symbol operand that survives ToPrimitive makes ToString/ToNumber
     throw a TypeError (7.1.17, 7.1.4); everything else is the world's *)
  Definition add_values (tr : trace) (x y : value) : option (trace * outcome) :=
    if is_object x || is_object y then apply_bin BAdd tr x y
    else match x, y with
         | VSym _, _ | _, VSym _ => Some (tr, Throw (VStr s_TypeError))
         | _, _ => apply_bin BAdd tr x y
         end.

  (* one step of a list evaluation: run k on an element, accumulate *)
  Definition lstep (r : option (trace * outcome)) (acc : list value)
             (k : trace -> list value -> option (trace * lres)) : option (trace * lres) :=
    match r with
    | Some (tr, Val v) => k tr (acc ++ [v])
    | Some (tr, Throw x) => Some (tr, LThrow x)
    | None => None
    end.

  (* a link that continues the optional chain of its target (OptionalChainContinue):
     every flag other than 0 (none) and 1 (start) *)
  Definition is_cont (oc : Z) : bool := negb (oc =? 0) && negb (oc =? 1).

  (* end of an optional chain *)
  Definition catch_short (r : option (trace * outcome)) : option (trace * outcome) :=
    match r with
    | Some (t, Throw VShort) => Some (t, Val VUndef)
    | _ => r
    end.

  (* the steps of the three chain-capable nodes, given the evaluated target *)
  Definition short_if (oc : Z) (tr : trace) (v : value) (k : option (trace * outcome)) : option (trace * outcome) :=
    if (oc =? 1) && nullish v then Some (tr, Throw VShort) else k.
  Definition dot_step (rt : option (trace * outcome)) (name : list Z) (oc : Z) : option (trace * outcome) :=
    bind rt (fun tr1 ov => short_if oc tr1 ov (eff tr1 (w_get W ov (VStr name)))).
  Definition index_step (rt : option (trace * outcome)) (evi : trace -> option (trace * outcome)) (oc : Z) : option (trace * outcome) :=
    bind rt (fun tr1 ov => short_if oc tr1 ov
      (bind (evi tr1) (fun tr2 kv => bind (eff tr2 (w_tokey W kv)) (fun tr3 key => eff tr3 (w_get W ov key))))).
  Definition call_step (rt : option (trace * outcome)) (evargs : trace -> option (trace * lres)) (oc : Z) : option (trace * outcome) :=
    bind rt (fun tr1 fv => short_if oc tr1 fv (lbind (evargs tr1) (fun tr2 vs => eff tr2 (w_call W fv vs)))).

  Notation evaluator := (trace -> expr -> option (trace * outcome)).

  (* call / new arguments and array items: left to right; a spread operand is
     evaluated and then iterated by the world; holes are skipped *)
  Fixpoint eval_items_with (ev : evaluator) (tr : trace) (l : list expr) (acc : list value) {struct l}
    : option (trace * lres) :=
    match l with
    | [] => Some (tr, LVals acc)
    | x :: r =>
        match x with
        | ESpread v => lstep (bind (ev tr v) (fun tr1 xv => eff tr1 (w_spread W xv))) acc
                             (fun tr2 acc2 => eval_items_with ev tr2 r acc2)
        | EMissing => eval_items_with ev tr r acc
        | _ => lstep (ev tr x) acc (fun tr2 acc2 => eval_items_with ev tr2 r acc2)
        end
    end.

  (* object literal properties: kind 1 = spread (CopyDataProperties runs
     getters), computed keys go through ToPropertyKey *)
  Fixpoint eval_props_with (ev : evaluator) (tr : trace) (l : list (Z * bool * expr * expr)) {struct l}
    : option (trace * outcome) :=
    match l with
    | [] => Some (tr, Val VObjLit)
    | (kind, computed, key, value) :: r =>
        if kind =? 1 then
          bind (ev tr value) (fun tr1 xv => bind (eff tr1 (w_spread W xv)) (fun tr2 _ => eval_props_with ev tr2 r))
        else if computed then
          bind (ev tr key) (fun tr1 kv => bind (eff tr1 (w_tokey W kv)) (fun tr2 _ =>
            bind (ev tr2 value) (fun tr3 _ => eval_props_with ev tr3 r)))
        else bind (ev tr value) (fun tr1 _ => eval_props_with ev tr1 r)
    end.

  (* template literal: every substitution is evaluated and converted by ToString *)
  Fixpoint eval_parts_with (ev : evaluator) (tr : trace) (l : list (expr * list Z)) (acc : list Z) {struct l}
    : option (trace * outcome) :=
    match l with
    | [] => Some (tr, Val (VStr acc))
    | (v, tail) :: r =>
        bind (ev tr v) (fun tr1 x => bind (eff tr1 (w_tostr W x)) (fun tr2 sv =>
          match sv with
          | VStr s => eval_parts_with ev tr2 r (acc ++ s ++ tail)
          | _ => None                      (* ToString yields a string *)
          end))
    end.

  Fixpoint eval (tr : trace) (e : expr) {struct e} : option (trace * outcome) :=
    let eval_items :=
      fix go (tr : trace) (l : list expr) (acc : list value) {struct l} : option (trace * lres) :=
        match l with
        | [] => Some (tr, LVals acc)
        | x :: r =>
            match x with
            | ESpread v => lstep (bind (eval tr v) (fun tr1 xv => eff tr1 (w_spread W xv))) acc (fun tr2 acc2 => go tr2 r acc2)
            | EMissing => go tr r acc
            | _ => lstep (eval tr x) acc (fun tr2 acc2 => go tr2 r acc2)
            end
        end in
    match e with
    | ENull => Some (tr, Val VNull)
    | EUndefined => Some (tr, Val VUndef)
    | EThis => Some (tr, Val (w_this W))
    | EBool b => Some (tr, Val (VBool b))
    | ENum n => Some (tr, Val (VNum n))
    | EBig s => match big_value s with Some z => Some (tr, Val (VBig z)) | None => None end
    | EStr s => Some (tr, Val (VStr s))
    | ERegExp _ => Some (tr, Val VObjLit)
    | EFunc _ | EArrow _ => Some (tr, Val VFun)
    | EId ref _ _ =>
        if w_unbound W ref then
          match w_genv W ref with
          | Some v => Some (tr, Val v)
          | None => Some (tr, Throw (VStr s_ReferenceError))
          end
        else Some (tr, Val (w_lenv W ref))
    | EDot t name oc _ _ =>
        catch_short (dot_step (if is_cont oc then eval_raw tr t else eval tr t) name oc)
    | EIndex t i oc =>
        catch_short (index_step (if is_cont oc then eval_raw tr t else eval tr t) (fun tr1 => eval tr1 i) oc)
    | ECall t args oc _ =>
        catch_short (call_step (if is_cont oc then eval_raw tr t else eval tr t) (fun tr1 => eval_items tr1 args []) oc)
    | ENew t args _ =>
        bind (eval tr t) (fun tr1 fv => lbind (eval_items tr1 args []) (fun tr2 vs => eff tr2 (w_new W fv vs)))
    | EArray items => lbind (eval_items tr items []) (fun tr1 _ => Some (tr1, Val VArr))
    | EObject props =>
        (fix go (tr : trace) (l : list (Z * bool * expr * expr)) {struct l} : option (trace * outcome) :=
           match l with
           | [] => Some (tr, Val VObjLit)
           | (kind, computed, key, value) :: r =>
               if kind =? 1 then
                 bind (eval tr value) (fun tr1 xv => bind (eff tr1 (w_spread W xv)) (fun tr2 _ => go tr2 r))
               else if computed then
                 bind (eval tr key) (fun tr1 kv => bind (eff tr1 (w_tokey W kv)) (fun tr2 _ =>
                   bind (eval tr2 value) (fun tr3 _ => go tr3 r)))
               else bind (eval tr value) (fun tr1 _ => go tr1 r)
           end) tr props
    | ETemplate head parts =>
        (fix go (tr : trace) (l : list (expr * list Z)) (acc : list Z) {struct l} : option (trace * outcome) :=
           match l with
           | [] => Some (tr, Val (VStr acc))
           | (v, tail) :: r =>
               bind (eval tr v) (fun tr1 x => bind (eff tr1 (w_tostr W x)) (fun tr2 sv =>
                 match sv with
                 | VStr s => go tr2 r (acc ++ s ++ tail)
                 | _ => None
                 end))
           end) tr parts head
    | EAnnot v _ => eval tr v
    | EInlinedEnum v => eval tr v
    | EUn op v w =>
        match op with
        | UNot => bind (eval tr v) (fun tr1 x => Some (tr1, Val (VBool (negb (truthy x)))))
        | UVoid => bind (eval tr v) (fun tr1 _ => Some (tr1, Val VUndef))
        | UTypeof =>
            (* "typeof x" on a bare identifier never throws; a node whose operand
               became an identifier later (w = false) stands for "typeof (0, x)" *)
            match v with
            | EId ref _ _ =>
                if w then
                  if w_unbound W ref then
                    match w_genv W ref with
                    | Some x => Some (tr, Val (VStr (typeof_value x)))
                    | None => Some (tr, Val (VStr s_undefined))
                    end
                  else Some (tr, Val (VStr (typeof_value (w_lenv W ref))))
                else bind (eval tr v) (fun tr1 x => Some (tr1, Val (VStr (typeof_value x))))
            | _ => bind (eval tr v) (fun tr1 x => Some (tr1, Val (VStr (typeof_value x))))
            end
        | UPos | UNeg | UCpl => bind (eval tr v) (fun tr1 x => eff tr1 (w_un W op x))
        | _ => None
        end
    | EBin op l r =>
        match op with
        | BComma => bind (eval tr l) (fun tr1 _ => eval tr1 r)
        | BLogAnd => bind (eval tr l) (fun tr1 x => if truthy x then eval tr1 r else Some (tr1, Val x))
        | BLogOr => bind (eval tr l) (fun tr1 x => if truthy x then Some (tr1, Val x) else eval tr1 r)
        | BNullish => bind (eval tr l) (fun tr1 x => if nullish x then eval tr1 r else Some (tr1, Val x))
        | BStrictEq =>
            bind (eval tr l) (fun tr1 x => bind (eval tr1 r) (fun tr2 y =>
              match strict_eq x y with Some b => Some (tr2, Val (VBool b)) | None => None end))
        | BStrictNe =>
            bind (eval tr l) (fun tr1 x => bind (eval tr1 r) (fun tr2 y =>
              match strict_eq x y with Some b => Some (tr2, Val (VBool (negb b))) | None => None end))
        | BLooseEq =>
            bind (eval tr l) (fun tr1 x => bind (eval tr1 r) (fun tr2 y => apply_bin BLooseEq tr2 x y))
        | BLooseNe =>
            neg_outcome (bind (eval tr l) (fun tr1 x => bind (eval tr1 r) (fun tr2 y => apply_bin BLooseEq tr2 x y)))
        | BAdd =>
            bind (eval tr l) (fun tr1 x => bind (eval tr1 r) (fun tr2 y => add_values tr2 x y))
        | _ =>
            if is_sem_binop op then
              bind (eval tr l) (fun tr1 x => bind (eval tr1 r) (fun tr2 y => apply_bin op tr2 x y))
            else None
        end
    | EIf t y n =>
        bind (eval tr t) (fun tr1 x => if truthy x then eval tr1 y else eval tr1 n)
    | _ => None
    end
  (* the same three nodes without ending the chain: used for the target of an oc = 2 node *)
  with eval_raw (tr : trace) (e : expr) {struct e} : option (trace * outcome) :=
    let eval_items :=
      fix go (tr : trace) (l : list expr) (acc : list value) {struct l} : option (trace * lres) :=
        match l with
        | [] => Some (tr, LVals acc)
        | x :: r =>
            match x with
            | ESpread v => lstep (bind (eval tr v) (fun tr1 xv => eff tr1 (w_spread W xv))) acc (fun tr2 acc2 => go tr2 r acc2)
            | EMissing => go tr r acc
            | _ => lstep (eval tr x) acc (fun tr2 acc2 => go tr2 r acc2)
            end
        end in
    match e with
    | EDot t name oc _ _ => dot_step (if is_cont oc then eval_raw tr t else eval tr t) name oc
    | EIndex t i oc => index_step (if is_cont oc then eval_raw tr t else eval tr t) (fun tr1 => eval tr1 i) oc
    | ECall t args oc _ => call_step (if is_cont oc then eval_raw tr t else eval tr t) (fun tr1 => eval_items tr1 args []) oc
    | _ => None
    end.

  (* the target of a chain-capable node *)
  Definition eval_target (oc : Z) (tr : trace) (t : expr) : option (trace * outcome) :=
    if is_cont oc then eval_raw tr t else eval tr t.

  Lemma lstep_ext : forall r acc k1 k2, (forall t a, k1 t a = k2 t a) -> lstep r acc k1 = lstep r acc k2.
  Proof. intros [[t [v|x]]|] acc k1 k2 H; cbn; auto. Qed.

  (* the local list evaluators of [eval] are the named ones *)
  Lemma items_local_eq : forall args tr acc,
    (fix go (tr : trace) (l : list expr) (acc : list value) {struct l} : option (trace * lres) :=
        match l with
        | [] => Some (tr, LVals acc)
        | x :: r =>
            match x with
            | ESpread v => lstep (bind (eval tr v) (fun tr1 xv => eff tr1 (w_spread W xv))) acc (fun tr2 acc2 => go tr2 r acc2)
            | EMissing => go tr r acc
            | _ => lstep (eval tr x) acc (fun tr2 acc2 => go tr2 r acc2)
            end
        end) tr args acc = eval_items_with eval tr args acc.
  Proof.
    induction args as [|x r IH]; intros tr acc; [reflexivity|].
    cbn [eval_items_with]. destruct x; try (apply lstep_ext; intros; apply IH). apply IH.
  Qed.

  Lemma call_step_ext : forall rt f g oc, (forall t, f t = g t) -> call_step rt f oc = call_step rt g oc.
  Proof.
    intros rt f g oc H. unfold call_step. destruct rt as [[t [v|v]]|]; cbn [bind]; try reflexivity.
    unfold short_if. destruct ((oc =? 1) && nullish v); [reflexivity|]. rewrite H. reflexivity.
  Qed.

  Lemma eval_call_eq : forall t args oc p tr,
    eval tr (ECall t args oc p) =
    catch_short (call_step (eval_target oc tr t) (fun tr1 => eval_items_with eval tr1 args []) oc).
  Proof.
    intros t args oc p tr. cbn [eval]. unfold eval_target. f_equal.
    apply call_step_ext. intros t0. apply items_local_eq.
  Qed.

  Lemma eval_raw_call_eq : forall t args oc p tr,
    eval_raw tr (ECall t args oc p) =
    call_step (eval_target oc tr t) (fun tr1 => eval_items_with eval tr1 args []) oc.
  Proof.
    intros t args oc p tr. cbn [eval_raw]. unfold eval_target.
    apply call_step_ext. intros t0. apply items_local_eq.
  Qed.

  Lemma eval_dot_eq : forall t name oc c s tr,
    eval tr (EDot t name oc c s) = catch_short (dot_step (eval_target oc tr t) name oc).
  Proof. reflexivity. Qed.
  Lemma eval_index_eq : forall t i oc tr,
    eval tr (EIndex t i oc) = catch_short (index_step (eval_target oc tr t) (fun tr1 => eval tr1 i) oc).
  Proof. reflexivity. Qed.
  Lemma eval_raw_dot_eq : forall t name oc c s tr,
    eval_raw tr (EDot t name oc c s) = dot_step (eval_target oc tr t) name oc.
  Proof. reflexivity. Qed.
  Lemma eval_raw_index_eq : forall t i oc tr,
    eval_raw tr (EIndex t i oc) = index_step (eval_target oc tr t) (fun tr1 => eval tr1 i) oc.
  Proof. reflexivity. Qed.

  Lemma eval_array_eq : forall items tr,
    eval tr (EArray items) = lbind (eval_items_with eval tr items []) (fun tr1 _ => Some (tr1, Val VArr)).
  Proof. intros items tr. cbn [eval]. f_equal. apply items_local_eq. Qed.

  Lemma eval_new_eq : forall t args p tr,
    eval tr (ENew t args p) =
    bind (eval tr t) (fun tr1 fv => lbind (eval_items_with eval tr1 args []) (fun tr2 vs => eff tr2 (w_new W fv vs))).
  Proof.
    intros t args p tr. cbn [eval].
    destruct (eval tr t) as [[tr1 [fv|x]]|]; cbn [bind]; try reflexivity. f_equal. apply items_local_eq.
  Qed.

  Lemma bind_ext : forall r k1 k2, (forall t v, k1 t v = k2 t v) -> bind r k1 = bind r k2.
  Proof. intros [[t [v|x]]|] k1 k2 H; cbn; auto. Qed.

  Lemma eval_object_eq : forall props tr, eval tr (EObject props) = eval_props_with eval tr props.
  Proof.
    intros props tr. cbn [eval]. revert tr.
    induction props as [|[[[kind computed] key] value] r IH]; intros tr; [reflexivity|].
    cbn [eval_props_with]. destruct (kind =? 1); [|destruct computed].
    - apply bind_ext; intros. apply bind_ext; intros. apply IH.
    - apply bind_ext; intros. apply bind_ext; intros. apply bind_ext; intros. apply IH.
    - apply bind_ext; intros. apply IH.
  Qed.

  Lemma eval_template_eq : forall head parts tr, eval tr (ETemplate head parts) = eval_parts_with eval tr parts head.
  Proof.
    intros head parts tr. cbn [eval]. revert tr head.
    induction parts as [|[v tail] r IH]; intros tr head; [reflexivity|].
    cbn [eval_parts_with]. apply bind_ext; intros. apply bind_ext; intros t1 sv. destruct sv; try reflexivity. apply IH.
  Qed.

  (* evaluation of a possibly removed expression statement *)
  Definition eval_unused (tr : trace) (r : ures) : option (trace * outcome) :=
    match r with
    | UNil => Some (tr, Val VUndef)
    | UExpr e => eval tr e
    | UFuel => None
    end.

  (* observable agreement of an expression statement: same trace, same
     completion kind, same thrown value *)
  Definition same_effects (a b : option (trace * outcome)) : Prop :=
    match a, b with
    | Some (t1, Val _), Some (t2, Val _) => t1 = t2
    | Some (t1, Throw x), Some (t2, Throw y) => t1 = t2 /\ x = y
    | _, _ => False
    end.

  (* agreement in a boolean context *)
  Definition same_truthiness (a b : option (trace * outcome)) : Prop :=
    match a, b with
    | Some (t1, Val x), Some (t2, Val y) => t1 = t2 /\ truthy x = truthy y
    | Some (t1, Throw x), Some (t2, Throw y) => t1 = t2 /\ x = y
    | _, _ => False
    end.
End Semantics.

(* 7.2.14 IsLooselyEqual restricted to primitive operands of the kinds the
   equality table of CheckEqualityIfNoSideEffects answers for:
   1. same type -> IsStrictlyEqual; 2-3. null/undefined pair -> true;
   9-10. a Boolean operand is replaced by ToNumber of it; 14. otherwise false
   (a null/undefined operand against any other primitive).
   None: pairs outside the table (Number/String, BigInt/Number, ...). *)
Definition bool_to_number (b : bool) : num := num_of_Z (if b then 1 else 0).
Definition spec_loose_eq (x y : value) : option bool :=
  match x, y with
  | (VUndef | VNull), (VUndef | VNull) => Some true
  | (VUndef | VNull), (VBool _ | VNum _ | VBig _ | VStr _ | VSym _) => Some false
  | (VBool _ | VNum _ | VBig _ | VStr _ | VSym _), (VUndef | VNull) => Some false
  | VBool a, VBool b => Some (Bool.eqb a b)
  | VBool a, VNum n => Some (num_eq (bool_to_number a) n)
  | VNum n, VBool b => Some (num_eq n (bool_to_number b))
  | VNum a, VNum b => Some (num_eq a b)
  | VBig a, VBig b => Some (a =? b)
  | VStr a, VStr b => Some (zlist_eqb a b)
  | _, _ => None
  end.

(* value of a bare literal (possibly an inlined enum constant) *)
Fixpoint lit_value (e : expr) : option value :=
  match e with
  | ENull => Some VNull
  | EUndefined => Some VUndef
  | EBool b => Some (VBool b)
  | ENum n => Some (VNum n)
  | EStr s => Some (VStr s)
  | EBig s => match big_value s with Some z => Some (VBig z) | None => None end
  | EInlinedEnum v => lit_value v
  | _ => None
  end.
