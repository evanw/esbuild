(* Non-vacuity of [world_ok]: a concrete world with effectful calls, getters
   and object conversions that satisfies every guarantee assumed of worlds. *)
From V Require Import Common.Base C03.Num C03.SpecOps C03.Tree C03.MiniJS C03.Worlds.

Definition zero_val : value := VNum (Fin false 0 0).

Definition good_un (op : unop) (v : value) (n : nat) : trace * outcome :=
  if negb (is_prim v) then ([77], Val zero_val)                    (* valueOf of an object runs: logged *)
  else if is_sym v then ([], Throw (VStr s_TypeError))
  else if is_big v then (match op with UPos => ([], Throw (VStr s_TypeError)) | _ => ([], Val v) end)
  else ([], Val zero_val).

Definition good_bin (op : binop) (a b : value) (n : nat) : trace * outcome :=
  let t := if is_prim a && is_prim b then [] else [88] in           (* conversions of objects are logged *)
  if is_arith op then (t, Val zero_val)
  else if is_rel op then
    match a, b with
    | VStr x, VStr y =>
        ([], Val (VBool (match op with
                         | BLt => spec_string_lt x y | BGt => spec_string_lt y x
                         | BLe => negb (spec_string_lt y x) | _ => negb (spec_string_lt x y) end)))
    | _, _ => (t, Val (VBool false))
    end
  else match op with
       | BLooseEq => match a, b with
                     | VStr x, VStr y => ([], Val (VBool (zlist_eqb x y)))
                     | VNum x, VNum y => ([], Val (VBool (num_eq x y)))
                     | _, VNull => ([], Val (VBool (nullish a)))
                     | VNull, _ => ([], Val (VBool (nullish b)))
                     | _, _ => (t, Val (VBool false))
                     end
       | BAdd => match a, b with
                 | VStr x, VStr y => ([], Val (VStr (x ++ y)))
                 | _, _ =>
                 if is_str a || is_str b then (t, Val (VStr []))
                 else if is_big a && is_big b then (t, Val (VBig 0))
                 else (t, Val zero_val)
                 end
       | _ => (t, Val (VBool false))
       end.

Definition Wgood : world := {|
  w_unbound := fun r => 1000 <=? r;
  w_lenv := fun r => if r =? 1 then VObj 1 else VNum (Fin false 1 0);
  w_this := VUndef;
  w_genv := fun r => if r =? 1000 then Some (VObj 1000) else None;
  w_un := good_un;
  w_bin := good_bin;
  w_call := fun f _ n => ([99], if Nat.even n then Val VUndef else Throw (VStr [101]));   (* calls log, and may throw *)
  w_new := fun _ _ _ => ([98], Val (VObj 2));
  w_get := fun _ _ _ => ([7], Val (VObj 5));                                             (* every read is a logged getter *)
  w_tokey := fun v _ => if is_prim v then ([], Val v) else ([66], Val (VStr []));
  w_tostr := fun v _ => if negb (is_prim v) then ([55], Val (VStr [])) else
                        if is_sym v then ([], Throw (VStr s_TypeError)) else ([], Val (VStr []));
  w_spread := fun v _ => match v with VArr => ([], Val VUndef) | _ => ([44], Val VUndef) end
|}.

Lemma good_bin_arith : forall op a b n, is_arith op = true ->
  good_bin op a b n = (if is_prim a && is_prim b then [] else [88], Val zero_val).
Proof. intros op a b n H. unfold good_bin. rewrite H. reflexivity. Qed.

Lemma good_bin_rel : forall op a b n, is_rel op = true ->
  exists r, good_bin op a b n = (if is_prim a && is_prim b then [] else [88], Val (VBool r)).
Proof.
  intros op a b n H. assert (Ha : is_arith op = false) by (destruct op; try discriminate H; reflexivity).
  unfold good_bin. rewrite Ha, H. destruct a; eauto. destruct b; eauto.
Qed.

Lemma good_bin_looseeq : forall a b n, exists t r,
  good_bin BLooseEq a b n = (t, Val (VBool r)) /\ (is_prim a = true -> is_prim b = true -> t = []).
Proof.
  intros a b n. unfold good_bin. cbn [is_arith is_rel].
  destruct a, b; (eexists _, _; split; [reflexivity | intros Ha Hb; try reflexivity; discriminate]).
Qed.

Lemma good_bin_bool : forall op a b n, is_arith op = false -> op <> BAdd ->
  exists t r, good_bin op a b n = (t, Val (VBool r)).
Proof.
  intros op a b n Ha Hadd. destruct (is_rel op) eqn:Hr; [destruct (good_bin_rel op a b n Hr) as [r E]; eauto|].
  destruct (binop_eq_dec op BLooseEq) as [->|Hl]; [destruct (good_bin_looseeq a b n) as (t & r & E & _); eauto|].
  unfold good_bin. rewrite Ha, Hr. destruct op; try congruence; eauto.
Qed.

Lemma good_bin_add : forall a b n, exists t r, good_bin BAdd a b n = (t, Val r) /\
  is_str r || is_numeric r = true /\ (is_str a || is_str b = true -> is_str r = true) /\
  (is_big a = true -> is_big b = true -> is_big r = true) /\
  (is_plain a = true -> is_plain b = true -> is_num r = true).
Proof.
  intros a b n. unfold good_bin. cbn [is_arith is_rel].
  destruct a, b; (eexists _, _; split; [reflexivity|]); cbn; repeat split; intros; (reflexivity || discriminate).
Qed.

Lemma Wgood_ok : world_ok Wgood.
Proof.
  constructor; cbn [Wgood w_un w_bin w_tokey w_tostr w_spread].
  - (* ok_un_numeric *) intros op v n t r H. destruct v; destruct op; inversion H; reflexivity.
  - (* ok_un_pos *) intros v n t r H. destruct v; inversion H; reflexivity.
  - (* ok_un_big *) intros op v n t r H Hb. destruct v; try discriminate Hb. destruct op; inversion H; reflexivity.
  - (* ok_un_plain *) intros op v n t r H Hp Hb. destruct v; try discriminate; inversion H; reflexivity.
  - (* ok_arith *) intros op a b n t r Ha H. rewrite good_bin_arith in H by exact Ha. inversion H. reflexivity.
  - (* ok_ushr *) intros a b n t r H. rewrite good_bin_arith in H by reflexivity. inversion H. unfold zero_val. eauto.
  - (* ok_boolop *) intros op a b n t r Hb H.
    destruct (good_bin_bool op a b n) as (t0 & r0 & E); try (destruct op; (discriminate || reflexivity)).
    rewrite E in H. inversion H. reflexivity.
  - (* ok_add_prim *) intros a b n t r H. destruct (good_bin_add a b n) as (t0 & r0 & E & H1 & _).
    rewrite E in H. inversion H. subst. exact H1.
  - (* ok_add_str *) intros a b n t r H. destruct (good_bin_add a b n) as (t0 & r0 & E & _ & H2 & _).
    rewrite E in H. inversion H. subst. exact H2.
  - (* ok_add_big *) intros a b n t r H. destruct (good_bin_add a b n) as (t0 & r0 & E & _ & _ & H3 & _).
    rewrite E in H. inversion H. subst. exact H3.
  - (* ok_add_plain *) intros a b n t r H. destruct (good_bin_add a b n) as (t0 & r0 & E & _ & _ & _ & H4).
    rewrite E in H. inversion H. subst. exact H4.
  - (* ok_rel_prim *) intros op a b n Hr Ha Hb _ _. destruct (good_bin_rel op a b n Hr) as [r E].
    rewrite E, Ha, Hb. eauto.
  - (* ok_looseeq_prim *) intros a b n Ha Hb. destruct (good_bin_looseeq a b n) as (t & r & E & Ht).
    rewrite E, (Ht Ha Hb). eauto.
  - reflexivity.
  - (* ok_add_str_str *) reflexivity.
  - (* ok_add_indep_r *) intros a s1 s2 n. destruct a; cbn; auto.
  - (* ok_add_indep_l *) intros b s1 s2 n. destruct b; cbn; auto.
  - (* ok_looseeq_null_r *) intros a n. destruct a; reflexivity.
  - (* ok_looseeq_null_l *) intros a n. destruct a; reflexivity.
  - reflexivity.
  - reflexivity.
  - reflexivity.
  - reflexivity.
  - reflexivity.
  - (* ok_neg_big *) intros z n. cbn. eauto.
  - (* ok_tokey_prim *) intros v n Hp. rewrite Hp. eauto.
  - (* ok_tostr_prim *) intros v n Hp Hs. rewrite Hp, Hs. cbn. eauto.
  - (* ok_tostr_str *) intros v n t r H. destruct (negb (is_prim v)), (is_sym v); inversion H; reflexivity.
  - (* ok_spread_arr *) intros n. eauto.
Qed.
