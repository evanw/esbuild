(* TryToInsertOptionalChain (after fix 01a3711): when it succeeds on "test" and a
   chain e, the result e' short-circuits when test is null or undefined and
   otherwise evaluates like e. *)
From V Require Import Common.Base C03.Num C03.Tree C03.MiniJS C03.Worlds C03.TreeProofs C03.TreeProofs4
  C03.TreeProofs9 C03.TreeProofs10.

Section TIOC.
  Variable W : world.
  Notation ev := (eval W).
  Notation raw := (eval_raw W).

  Definition is_chain (e : expr) : bool :=
    match e with EDot _ _ _ _ _ | EIndex _ _ _ | ECall _ _ _ _ => true | _ => false end.
  Definition oc_of (e : expr) : Z :=
    match e with EDot _ _ oc _ _ => oc | EIndex _ _ oc => oc | ECall _ _ oc _ => oc | _ => 0 end.
  Definition target_of (e : expr) : expr :=
    match e with EDot t _ _ _ _ => t | EIndex t _ _ => t | ECall t _ _ _ => t | _ => e end.
  (* what a link does once its target value is known and the link is not skipped *)
  Definition body_of (e : expr) (tr1 : trace) (v : value) : option (trace * outcome) :=
    match e with
    | EDot _ name _ _ _ => eff tr1 (w_get W v (VStr name))
    | EIndex _ i _ => bind (ev tr1 i) (fun tr2 kv => bind (eff tr2 (w_tokey W kv)) (fun tr3 key => eff tr3 (w_get W v key)))
    | ECall _ args _ _ => lbind (eval_items_with W ev tr1 args []) (fun tr2 vs => eff tr2 (w_call W v vs))
    | _ => None
    end.
  (* the shape dot_step, index_step and call_step share: K is what the link does *)
  Definition link_step (K : trace -> value -> option (trace * outcome)) (rt : option (trace * outcome)) (oc : Z)
    : option (trace * outcome) :=
    bind rt (fun tr1 v => short_if oc tr1 v (K tr1 v)).
  Definition relink (e t' : expr) (oc' : Z) : expr :=
    match e with
    | EDot _ name _ c s => EDot t' name oc' c s
    | EIndex _ i _ => EIndex t' i oc'
    | ECall _ args _ p => ECall t' args oc' p
    | _ => e
    end.

  Lemma raw_relink : forall e t' oc' tr, is_chain e = true ->
    raw tr (relink e t' oc') = link_step (body_of e) (eval_target W oc' tr t') oc'.
  Proof.
    destruct e; try discriminate; intros t' oc' tr _; cbn [relink body_of];
      [reflexivity | reflexivity | rewrite eval_raw_call_eq; reflexivity].
  Qed.

  Lemma raw_link : forall e tr, is_chain e = true ->
    raw tr e = link_step (body_of e) (eval_target W (oc_of e) tr (target_of e)) (oc_of e).
  Proof.
    destruct e; try discriminate; intros tr _; cbn [oc_of target_of body_of];
      [reflexivity | reflexivity | rewrite eval_raw_call_eq; reflexivity].
  Qed.

  Lemma chain_eval : forall e tr, is_chain e = true -> ev tr e = catch_short (raw tr e).
  Proof.
    destruct e; try discriminate; intros tr _;
      [reflexivity | reflexivity | rewrite eval_call_eq, eval_raw_call_eq; reflexivity].
  Qed.

  Lemma raw_nonchain : forall e tr, is_chain e = false -> raw tr e = None.
  Proof. destruct e; try discriminate; reflexivity. Qed.

  Lemma relink_chain : forall e t' oc', is_chain e = true -> is_chain (relink e t' oc') = true.
  Proof. destruct e; try discriminate; reflexivity. Qed.

  Lemma target_size : forall e, is_chain e = true -> (esize (target_of e) < esize e)%nat.
  Proof. destruct e; try discriminate; intros _; cbn [target_of esize]; lia. Qed.

  Lemma target_vls : forall e, is_chain e = true -> vls_ok e -> vls_ok (target_of e).
  Proof. destruct e; try discriminate; intros _ H; cbn [vls_ok target_of] in *; tauto. Qed.

  Lemma tioc_inv : forall test e e', try_insert_optional_chain test e = Some e' ->
    is_chain e = true /\
    ((values_look_the_same test (target_of e) = true /\ e' = relink e (target_of e) 1) \/
     (ends_paren_chain (oc_of e) (target_of e) = false /\
      exists t', try_insert_optional_chain test (target_of e) = Some t' /\
                 e' = relink e t' (if oc_of e =? 0 then 2 else oc_of e))).
  Proof.
    intros test e e' H.
    destruct e; try discriminate H; cbn [try_insert_optional_chain] in H; cbn [is_chain target_of oc_of relink];
      (split; [reflexivity|]);
      (match type of H with context [values_look_the_same test ?t] =>
         destruct (values_look_the_same test t) eqn:V; [left; inv H; split; reflexivity|];
         destruct (ends_paren_chain oc t) eqn:P; [discriminate H|];
         destruct (try_insert_optional_chain test t) as [t'|] eqn:T; [|discriminate H];
         inv H; right; (split; [reflexivity|]); exists t'; split; reflexivity
       end).
  Qed.

  (* a link that is not part of an optional chain never yields the short-circuit marker *)
  Lemma body_ns : forall e tr1 v, ns (body_of e tr1 v).
  Proof.
    intros e tr1 v. destruct e; cbn [body_of]; try (intros t H; discriminate H).
    - apply ns_eff.
    - apply ns_bind; [intros t; apply eval_no_short|]. intros t kv.
      apply ns_bind; [apply ns_eff|]. intros; apply ns_eff.
    - apply ns_lbind; [|intros; apply ns_eff].
      apply (nsl_items W (sum_sizes args)); [|lia]. intros y _ t t0. apply eval_no_short.
  Qed.

  Lemma raw_ns0 : forall e tr, is_chain e = true -> oc_of e = 0 -> ns (raw tr e).
  Proof.
    intros e tr Hc H0. rewrite raw_link by exact Hc. rewrite H0. unfold link_step, eval_target. cbn [Z.eqb Pos.eqb].
    apply ns_bind; [intros t; apply eval_no_short|]. intros t v. unfold short_if. cbn [Z.eqb Pos.eqb andb]. apply body_ns.
  Qed.

  Lemma catch_ns : forall r, ns r -> catch_short r = r.
  Proof. intros [[t [v|z]]|] H; try reflexivity. destruct z; try reflexivity. exfalso. exact (H t eq_refl). Qed.

  (* the value of a target that evaluates to a non-nullish value, in either mode *)
  Lemma target_value : forall oc t tr a, ev tr t = Some (tr, Val a) -> nullish a = false ->
    forall x, eval_target W oc tr t = Some x -> x = (tr, Val a).
  Proof.
    intros oc t tr a E Hn x H. unfold eval_target in H. destruct (is_cont oc); [|congruence].
    destruct (is_chain t) eqn:C; [|rewrite raw_nonchain in H by exact C; discriminate H].
    rewrite (chain_eval t tr C), H in E. destruct x as [t0 [v|z]]; cbn [catch_short] in E.
    - congruence.
    - destruct z; try discriminate E. inv E. discriminate Hn.
  Qed.

  Definition le_res (p q : option (trace * outcome)) : Prop := forall r, p = Some r -> q = Some r.

  (* e' is the chain e guarded by test: it completes like test when test throws, is
     undefined (no link evaluated) when test is null or undefined, and is e otherwise *)
  Definition guarded_by (test e e' : expr) : Prop :=
    forall tr,
      (forall tr1 z, ev tr test = Some (tr1, Throw z) -> ev tr e' = Some (tr1, Throw z)) /\
      (forall a, ev tr test = Some (tr, Val a) ->
         (nullish a = true -> ev tr e' = Some (tr, Val VUndef)) /\
         (nullish a = false -> le_res (ev tr e) (ev tr e'))).

  Lemma le_res_map : forall f : option (trace * outcome) -> option (trace * outcome), f None = None ->
    forall p q, le_res p q -> le_res (f p) (f q).
  Proof.
    intros f Hf p q H r Hr. destruct p as [x|]; [|rewrite Hf in Hr; discriminate Hr].
    rewrite (H x eq_refl). exact Hr.
  Qed.

  Section Core.
    Variable test : expr.
    (* a property of the chain that goes down to its targets and makes "looks the same as test" sound *)
    Variable Q : expr -> Prop.
    Hypothesis Q_target : forall e, is_chain e = true -> Q e -> Q (target_of e).
    Hypothesis Q_same : forall t, Q t -> values_look_the_same test t = true -> same_eval W test t.

    Theorem tioc_core_size : forall n e, (esize e <= n)%nat -> forall e',
      Q e -> try_insert_optional_chain test e = Some e' ->
      is_chain e' = true /\
      forall tr,
        (forall tr1 z, ev tr test = Some (tr1, Throw z) -> raw tr e' = Some (tr1, Throw z)) /\
        (forall a, ev tr test = Some (tr, Val a) ->
           (nullish a = true -> raw tr e' = Some (tr, Throw VShort)) /\
           (nullish a = false -> le_res (raw tr e) (raw tr e'))).
    Proof.
      induction n as [|n IH]; intros e Hsz e' Hq H; [destruct e; cbn [esize] in Hsz; lia|].
      destruct (tioc_inv _ _ _ H) as [Hc [[V ->] | [P [t' [T ->]]]]].
      - (* the insertion point *)
        split; [apply relink_chain; exact Hc|]. intros tr. rewrite raw_relink by exact Hc.
        pose proof (Q_same _ (Q_target e Hc Hq) V) as St.
        assert (Et1 : eval_target W 1 tr (target_of e) = ev tr test)
          by (unfold eval_target; cbn; symmetry; exact (proj1 (St tr))).
        rewrite Et1. split.
        + intros tr1 z E. rewrite E. reflexivity.
        + intros a E. rewrite E. unfold link_step. cbn [bind]. unfold short_if. cbn [Z.eqb Pos.eqb andb].
          split; intros Hn; rewrite Hn; [reflexivity|].
          intros r Hr. rewrite raw_link in Hr by exact Hc. unfold link_step in Hr.
          destruct (eval_target W (oc_of e) tr (target_of e)) as [x|] eqn:Et; [|discriminate Hr].
          assert (E0 : ev tr (target_of e) = Some (tr, Val a)) by (rewrite <- (proj1 (St tr)); exact E).
          rewrite (target_value _ _ _ _ E0 Hn _ Et) in Hr. cbn [bind] in Hr. unfold short_if in Hr.
          rewrite Hn, andb_false_r in Hr. exact Hr.
      - (* a link above the insertion point *)
        pose proof (target_size e Hc) as Hts.
        destruct (IH (target_of e) ltac:(lia) t' (Q_target e Hc Hq) T) as [Hct' Hraw'].
        pose proof (proj1 (tioc_inv _ _ _ T)) as Hct.
        split; [apply relink_chain; exact Hc|]. intros tr. rewrite raw_relink by exact Hc.
        destruct (Hraw' tr) as [Hthrow Hval].
        set (oc' := if oc_of e =? 0 then 2 else oc_of e).
        (* the new flag is "start" exactly when the old one is, and otherwise "continue" *)
        assert (Hoc' : (oc' =? 1) = (oc_of e =? 1) /\ is_cont oc' = negb (oc_of e =? 1)).
        { unfold oc', is_cont. destruct (oc_of e =? 0) eqn:E0; [apply Z.eqb_eq in E0; rewrite E0; split; reflexivity|].
          rewrite E0. split; reflexivity. }
        destruct Hoc' as [Hs1 Hc1].
        split.
        + intros tr1 z E. pose proof (Hthrow _ _ E) as Rt.
          assert (Et : eval_target W oc' tr t' = Some (tr1, Throw z)).
          { unfold eval_target. destruct (is_cont oc'); [exact Rt|].
            rewrite (chain_eval t' tr Hct'), Rt. cbn [catch_short]. destruct z; try reflexivity.
            exfalso. exact (eval_no_short W test tr tr1 E). }
          rewrite Et. reflexivity.
        + intros a E. destruct (Hval a E) as [Hnull Hnon]. split; intros Hn.
          * pose proof (Hnull Hn) as Rt. unfold eval_target. rewrite Hc1.
            destruct (oc_of e =? 1) eqn:E1; cbn [negb].
            -- rewrite (chain_eval t' tr Hct'), Rt. unfold link_step. cbn [catch_short bind]. unfold short_if.
               rewrite Hs1. reflexivity.
            -- rewrite Rt. reflexivity.
          * pose proof (Hnon Hn) as Dt. rewrite (raw_link e) by exact Hc.
            unfold link_step, short_if. rewrite Hs1.
            apply (le_res_map (fun rt => bind rt _)); [reflexivity|].
            unfold eval_target, is_cont at 1. rewrite Hc1.
            destruct (oc_of e =? 1) eqn:E1; cbn [negb andb].
            -- (* a link that starts a chain *)
               rewrite andb_false_r, (chain_eval _ tr Hct), (chain_eval t' tr Hct').
               exact (le_res_map catch_short eq_refl _ _ Dt).
            -- destruct (oc_of e =? 0) eqn:E0; cbn [negb andb]; [|exact Dt].
               (* a link outside of any chain: its target is not an optional chain (fix 01a3711) *)
               unfold ends_paren_chain in P. rewrite E0 in P. cbn [andb] in P.
               assert (O' : oc_of (target_of e) = 0).
               { destruct (target_of e); try discriminate Hct; cbn [is_optional_chain oc_of] in *;
                   apply negb_false_iff in P; apply Z.eqb_eq in P; exact P. }
               rewrite (chain_eval _ tr Hct), (catch_ns _ (raw_ns0 _ tr Hct O')). exact Dt.
    Qed.

    Theorem tioc_core : forall e e', Q e -> try_insert_optional_chain test e = Some e' ->
      is_chain e = true /\ is_chain e' = true /\
      guarded_by test e e'.
    Proof.
      intros e e' Hq H.
      destruct (tioc_core_size (esize e) e (le_n _) e' Hq H) as [Hc' Hr].
      pose proof (proj1 (tioc_inv _ _ _ H)) as Hc.
      split; [exact Hc|]. split; [exact Hc'|]. intros tr. destruct (Hr tr) as [Hthrow Hval]. split.
      - intros tr1 z E. rewrite (chain_eval e' tr Hc'), (Hthrow _ _ E). cbn [catch_short].
        destruct z; try reflexivity. exfalso. exact (eval_no_short W test tr tr1 E).
      - intros a E. destruct (Hval a E) as [Hnull Hnon]. split; intros Hn.
        + rewrite (chain_eval e' tr Hc'), (Hnull Hn). reflexivity.
        + rewrite (chain_eval e tr Hc), (chain_eval e' tr Hc').
          exact (le_res_map catch_short eq_refl _ _ (Hnon Hn)).
    Qed.
  End Core.

  (* any guard, canonical number literals *)
  Theorem tioc_sound : forall test e e',
    vls_ok test -> vls_ok e -> try_insert_optional_chain test e = Some e' ->
    is_chain e = true /\ is_chain e' = true /\
    guarded_by test e e'.
  Proof.
    intros test e e' Hvt Hv H. apply (tioc_core test vls_ok); [exact target_vls | | exact Hv | exact H].
    intros t Ht V. exact (vls_sound_size W (esize test) test (le_n _) t Hvt Ht V).
  Qed.

  (* an identifier as guard: no condition on the chain *)
  Lemma strip_same : forall t tr, ev tr t = ev tr (strip_enum t).
  Proof. induction t; intros tr; try reflexivity. cbn [strip_enum eval]. apply IHt. Qed.

  Lemma vls_id_same : forall r c m t, values_look_the_same (EId r c m) t = true -> same_eval W (EId r c m) t.
  Proof.
    intros r c m t H. cbn [values_look_the_same] in H.
    destruct (strip_enum t) eqn:S; try discriminate H.
    destruct (r =? ref) eqn:E; [|discriminate H]. apply Z.eqb_eq in E. subst ref.
    intros tr. split.
    - rewrite (strip_same t tr), S. reflexivity.
    - destruct t; try discriminate S; reflexivity.
  Qed.

  Theorem tioc_sound_id : forall r c m e e',
    try_insert_optional_chain (EId r c m) e = Some e' ->
    is_chain e = true /\ is_chain e' = true /\
    guarded_by (EId r c m) e e'.
  Proof.
    intros r c m e e' H. apply (tioc_core (EId r c m) (fun _ => True)); [auto | | exact I | exact H].
    intros t _ V. apply vls_id_same. exact V.
  Qed.
End TIOC.
