(* JoinWithLeftAssociativeOp evaluates like the operator it joins with, and
   ToNullOrUndefinedWithSideEffects is sound over MiniJS *)
From V Require Import Common.Base C03.Num C03.Tree C03.JoinLeft C03.MiniJS C03.Worlds C03.TreeProofs.

Section Proofs2.
  Variable W : world.

  Notation ev := (eval W).

  Definition short_circuit (op : binop) : Prop := op = BLogAnd \/ op = BLogOr \/ op = BNullish.

  (* (a op b) op c  =  a op (b op c)  for the three short-circuit operators *)
  Lemma sc_assoc : forall op a b c tr, short_circuit op ->
    ev tr (EBin op (EBin op a b) c) = ev tr (EBin op a (EBin op b c)).
  Proof.
    intros op a b c tr [ -> | [ -> | -> ] ]; cbn [eval];
      destruct (ev tr a) as [[t1 [x|x]]|]; cbn [bind]; try reflexivity.
    - destruct (truthy x) eqn:Hx; cbn [bind]; [reflexivity | rewrite Hx; reflexivity].
    - destruct (truthy x) eqn:Hx; cbn [bind]; [rewrite Hx; reflexivity | reflexivity].
    - destruct (nullish x) eqn:Hx; cbn [bind]; [reflexivity | rewrite Hx; reflexivity].
  Qed.

  (* (a1, a2) op b  =  a1, (a2 op b) *)
  Lemma sc_comma : forall op a1 a2 b tr, short_circuit op ->
    ev tr (EBin op (EBin BComma a1 a2) b) = ev tr (EBin BComma a1 (EBin op a2 b)).
  Proof.
    intros op a1 a2 b tr [ -> | [ -> | -> ] ]; cbn [eval];
      destruct (ev tr a1) as [[t1 [x|x]]|]; cbn [bind]; reflexivity.
  Qed.

  Theorem join_left_assoc_equiv_all : forall op, short_circuit op ->
    forall b a tr, ev tr (join_left op a b) = ev tr (EBin op a b).
  Proof.
    intros op Hop. unfold join_left.
    apply (join_left_assoc_ind op (fun a b r => forall tr, ev tr r = ev tr (EBin op a b))).
    - reflexivity.
    - intros al ar b r IH tr. rewrite sc_comma by assumption. apply bin_cong; [reflexivity | exact IH].
    - intros a bl br r1 r2 IH1 IH2 tr.
      rewrite IH2, <- sc_assoc by assumption. apply bin_cong; [exact IH1 | reflexivity].
  Qed.

  (* ToNullOrUndefinedWithSideEffects needs what the standard guarantees about the
     operators left abstract:
     + - ~ and the arithmetic / relational / equality operators never produce
     null or undefined *)
  Hypothesis Wok : world_ok W.

  Lemma numeric_nn : forall w, is_numeric w = true -> nullish w = false.
  Proof. destruct w; cbn; congruence. Qed.

  Lemma bin_not_nullish : forall op a b t tr' w, (is_sem_binop op = true \/ op = BLooseEq) ->
    w_bin W op a b t = (tr', Val w) -> nullish w = false.
  Proof.
    intros op a b t tr' w Hop H.
    destruct (is_arith op) eqn:Ha.
    - apply numeric_nn. eapply ok_arith; eauto.
    - destruct (is_boolop op) eqn:Hb.
      + pose proof (ok_boolop W Wok _ _ _ _ _ _ Hb H). destruct w; cbn in *; congruence.
      + assert (op = BAdd) by (destruct Hop as [Hop|Hop]; [destruct op; cbn in *; congruence | subst; discriminate]).
        subst op. pose proof (ok_add_prim W Wok _ _ _ _ _ H). destruct w; cbn in *; congruence.
  Qed.

  Lemma to_nullish_value : forall e tr tr' v b se,
    ev tr e = Some (tr', Val v) -> to_nullish e = (b, se, true) -> nullish v = b.
  Proof.
    induction e; intros tr tr' v0 b0 se Hev Hb; cbn [to_nullish] in Hb; try discriminate Hb;
      (* literals *) try (inv Hb; cbn [eval] in Hev; inv Hev; reflexivity).
    - (* EBig *) inv Hb. cbn [eval] in Hev. destruct (big_value s); inv Hev. reflexivity.
    - (* EUn *)
      destruct op; inv Hb; cbn [eval] in Hev; try discriminate Hev;
        try (apply bind_val in Hev as (tr1 & x & Hx & Hk)).
      1-3: (* + - ~ *) apply eff_inv in Hk as (t2 & E & _); exact (numeric_nn _ (ok_un_numeric W Wok _ _ _ _ _ E)).
      + (* UNot *) inv Hk. reflexivity.
      + (* UVoid *) inv Hk. reflexivity.
      + (* UTypeof *) apply typeof_result in Hev as [x ->]. reflexivity.
    - (* EBin *)
      destruct op; try discriminate Hb; try (cbn [eval is_sem_binop] in Hev; discriminate Hev);
        (* operators of the world *)
        try (inv Hb; apply world_bin_val in Hev as (t1 & x & t2 & y & t3 & _ & _ & E); [|auto];
             eapply bin_not_nullish; [|exact E]; auto);
        (* != === !== *)
        try (inv Hb; apply eq_bin_bool in Hev as [b ->]; [reflexivity | auto]).
      (* BComma *)
      cbn [eval] in Hev.
      destruct (to_nullish e2) as [[b' se'] ok'] eqn:Hte. destruct ok'; inv Hb.
      apply bind_val in Hev as (tr1 & x & Hx & Hk). eauto.
    - (* EArray *)
      inv Hb. apply array_value in Hev. subst v0. reflexivity.
    - (* EObject *)
      inv Hb. rewrite eval_object_eq in Hev. apply props_value in Hev. subst v0. reflexivity.
    - (* EAnnot *)
      destruct (to_nullish e) as [[b' se'] ok'] eqn:Hte. inv Hb. cbn [eval] in Hev. eauto.
    - (* EInlinedEnum *) cbn [eval] in Hev. eauto.
  Qed.

  Lemma to_nullish_pure : forall e tr b, flags_ok W e -> to_nullish e = (b, true, true) -> pure_at tr (ev tr e).
  Proof.
    induction e; intros tr b0 Hwf Hb; cbn [to_nullish] in Hb; try discriminate Hb;
      (* literals *) try (cbn [eval]; apply pure_val).
    - (* EBig *) cbn [eval]. destruct (big_value s); [apply pure_val | apply pure_none].
    - (* EUn *)
      destruct Hwf as [Hty Hwf]. destruct op; try discriminate Hb.
      inv Hb. destruct (Hty eq_refl eq_refl) as (r & c & m & ->). apply typeof_id_pure.
    - (* EBin *)
      destruct op; try discriminate Hb. destruct (to_nullish e2) as [[b' se'] ok']. destruct ok'; discriminate Hb.
    - (* EAnnot *)
      destruct (to_nullish e) as [[b' se'] ok'] eqn:Hte. cbn [flags_ok] in Hwf. destruct Hwf as [Hp Hwf].
      cbn [eval]. destruct removable; [exact (pure_here_at W _ _ (Hp eq_refl)) | inv Hb; eauto].
    - (* EInlinedEnum *) cbn [eval]. eauto.
  Qed.

  Theorem to_nullish_sound_all : forall e tr tr' out b se,
    flags_ok W e ->
    ev tr e = Some (tr', out) -> to_nullish e = (b, se, true) ->
    (forall v, out = Val v -> nullish v = b) /\ (se = true -> tr' = tr /\ exists v, out = Val v).
  Proof.
    intros e tr tr' out b se Hwf Hev Hb. split.
    - intros v ->. exact (to_nullish_value _ _ _ _ _ _ Hev Hb).
    - intros ->. exact (to_nullish_pure e tr b Hwf Hb _ _ Hev).
  Qed.
End Proofs2.
