(* SimplifyBooleanExpr preserves the trace, the completion and the truthiness
   of the value, in every world *)
From V Require Import Common.Base C03.Num C03.Tree C03.MiniJS C03.Worlds
  C03.TreeProofs C03.TreeProofs2 C03.TreeProofs3 C03.TreeProofs4 C03.TreeProofs5 C03.TreeProofs7.

Section SB.
  Variable W : world.
  Hypothesis Wok : world_ok W.
  Notation ev := (eval W).
  Notation ub := (w_unbound W).

  (* r' agrees with r in a boolean context whenever r is defined *)
  Definition agree (r r' : option (trace * outcome)) : Prop :=
    forall res, r = Some res -> same_truthiness (Some res) r'.

  (* e' agrees with e in a boolean context whenever e evaluates *)
  Definition ST (e e' : expr) : Prop := forall tr, agree (ev tr e) (ev tr e').

  Lemma agree_refl : forall r, agree r r.
  Proof. intros r [t [v|v]] ->; cbn; auto. Qed.

  Lemma agree_val : forall t x y, truthy x = truthy y -> agree (Some (t, Val x)) (Some (t, Val y)).
  Proof. intros t x y H res E. inv E. cbn. auto. Qed.

  Lemma agree_trans : forall a b c, agree a b -> agree b c -> agree a c.
  Proof.
    intros a b c H1 H2 [t [x|x]] E; specialize (H1 _ E);
      destruct b as [[t2 [y|y]]|]; try contradiction; specialize (H2 _ eq_refl);
      destruct c as [[t3 [z|z]]|]; try contradiction; cbn in *; intuition congruence.
  Qed.

  Lemma agree_bind : forall r r' k k', agree r r' ->
    (forall t x y, truthy x = truthy y -> agree (k t x) (k' t y)) -> agree (bind r k) (bind r' k').
  Proof.
    intros r r' k k' Hr Hk. destruct r as [[t [x|x]]|]; [| |intros res E; discriminate E];
      specialize (Hr _ eq_refl); destruct r' as [[t' [y|y]]|]; try contradiction;
      destruct Hr as [-> Hr]; cbn [bind].
    - exact (Hk _ _ _ Hr).
    - subst. apply agree_refl.
  Qed.

  Lemma agree_bind_l : forall r k,
    (forall t x, r = Some (t, Val x) -> agree (k t x) (Some (t, Val x))) -> agree (bind r k) r.
  Proof.
    intros [[t [x|x]]|] k H; cbn [bind]; [exact (H _ _ eq_refl) | apply agree_refl | apply agree_refl].
  Qed.

  Lemma agree_bind_same : forall r k k',
    (forall t x, r = Some (t, Val x) -> agree (k t x) (k' t x)) -> agree (bind r k) (bind r k').
  Proof.
    intros [[t [x|x]]|] k k' H; cbn [bind]; [exact (H _ _ eq_refl) | apply agree_refl | apply agree_refl].
  Qed.

  Lemma neg_outcome_bind : forall r k, neg_outcome (bind r k) = bind r (fun t x => neg_outcome (k t x)).
  Proof. intros [[t [x|x]]|] k; reflexivity. Qed.

  Lemma ST_refl_eq : forall a b, (forall tr, ev tr a = ev tr b) -> ST a b.
  Proof. intros a b H. intros tr. rewrite H. apply agree_refl. Qed.
  Lemma ST_refl : forall a, ST a a.
  Proof. intros a. apply ST_refl_eq. reflexivity. Qed.

  Lemma ST_trans : forall a b c, ST a b -> ST b c -> ST a c.
  Proof. intros a b c H1 H2 tr. exact (agree_trans _ _ _ (H1 tr) (H2 tr)). Qed.

  Lemma ST_not : forall a a' w w', ST a a' -> ST (EUn UNot a w) (EUn UNot a' w').
  Proof.
    intros a a' w w' H. intros tr. cbn [eval].
    apply agree_bind; [exact (H tr)|]. intros t x y Ht. apply agree_val. cbn [truthy]. rewrite Ht. reflexivity.
  Qed.

  Lemma ST_and : forall l l' r r', ST l l' -> ST r r' -> ST (EBin BLogAnd l r) (EBin BLogAnd l' r').
  Proof.
    intros l l' r r' Hl Hr. intros tr. cbn [eval].
    apply agree_bind; [exact (Hl tr)|]. intros t x y Ht. rewrite <- Ht.
    destruct (truthy x) eqn:E; [exact (Hr t) | apply agree_val; congruence].
  Qed.

  Lemma ST_or : forall l l' r r', ST l l' -> ST r r' -> ST (EBin BLogOr l r) (EBin BLogOr l' r').
  Proof.
    intros l l' r r' Hl Hr. intros tr. cbn [eval].
    apply agree_bind; [exact (Hl tr)|]. intros t x y Ht. rewrite <- Ht.
    destruct (truthy x) eqn:E; [apply agree_val; congruence | exact (Hr t)].
  Qed.

  Lemma ST_if : forall t y y' n n', ST y y' -> ST n n' -> ST (EIf t y n) (EIf t y' n').
  Proof.
    intros t y y' n n' Hy Hn. intros tr. cbn [eval].
    apply agree_bind_same. intros t1 x _. destruct (truthy x); [exact (Hy t1) | exact (Hn t1)].
  Qed.

  Lemma int32_value : forall l tr t x, is_int32_or_uint32 l = true -> ev tr l = Some (t, Val x) ->
    exists m e, x = VNum (Fin false m e).
  Proof.
    induction l; intros tr t x Hi Hev; cbn [is_int32_or_uint32] in Hi; try discriminate Hi.
    - destruct op; try discriminate Hi; cbn [eval is_sem_binop] in Hev;
        apply bind_val in Hev as (t1 & a & Ha & Hk).
      + (* >>> *)
        apply bind_val in Hk as (t2 & b & Hb & Hk2).
        apply eff_inv in Hk2 as (t3 & E & _). exact (ok_ushr W Wok _ _ _ _ _ E).
      + apply andb_true_iff in Hi as [H1 H2].
        destruct (truthy a); [inv Hk; exact (IHl1 _ _ _ H1 Ha) | exact (IHl2 _ _ _ H2 Hk)].
      + apply andb_true_iff in Hi as [H1 H2].
        destruct (truthy a); [exact (IHl2 _ _ _ H2 Hk) | inv Hk; exact (IHl1 _ _ _ H1 Ha)].
    - apply andb_true_iff in Hi as [H1 H2]. cbn [eval] in Hev.
      apply bind_val in Hev as (t1 & a & Ha & Hk).
      destruct (truthy a); [exact (IHl2 _ _ _ H1 Hk) | exact (IHl3 _ _ _ H2 Hk)].
  Qed.

  Lemma extract_eval : forall r n t, extract_numeric_value r = Some n -> ev t r = Some (t, Val (VNum n)).
  Proof.
    induction r; intros n0 t H; cbn [extract_numeric_value] in H; try discriminate; cbn [eval]; eauto.
    inv H. reflexivity.
  Qed.

  Lemma num_eq_zero : forall m e n, is_zero n = true -> num_eq (Fin false m e) n = (m =? 0).
  Proof.
    intros m e [| |s m2 e2] Hz; cbn in Hz; try discriminate. apply Z.eqb_eq in Hz. subst m2.
    unfold num_eq. cbn [num_cmp]. unfold fin_cmp.
    assert (Hs : signed s (0 * 2 ^ (e2 - Z.min e e2)) = 0) by (destruct s; cbn; lia).
    rewrite Hs. cbn [signed].
    assert (Hp : 0 < 2 ^ (e - Z.min e e2)) by (apply Z.pow_pos_nonneg; lia).
    destruct (m =? 0) eqn:Hm.
    - apply Z.eqb_eq in Hm. subst m. rewrite Z.mul_0_l. reflexivity.
    - apply Z.eqb_neq in Hm. destruct (Z.compare_spec (m * 2 ^ (e - Z.min e e2)) 0) as [E|E|E]; try reflexivity.
      exfalso. apply Hm. nia.
  Qed.

  (* "l !== 0" (strict or loose) is l in a boolean context when l is an integer *)
  Lemma ST_ne_zero : forall op l r n,
    (op = BStrictNe \/ op = BLooseNe) -> extract_numeric_value r = Some n -> is_zero n = true ->
    is_int32_or_uint32 l = true -> ST (EBin op l r) l.
  Proof.
    intros op l r n Hop Hr Hz Hi. intros tr.
    destruct Hop as [-> | ->]; cbn [eval]; [|rewrite neg_outcome_bind];
      apply agree_bind_l; intros t x Hx; cbn beta; rewrite (extract_eval _ _ t Hr); cbn [bind];
      destruct (int32_value _ _ _ _ Hi Hx) as (m & e & ->).
    - cbn [strict_eq]. apply agree_val. cbn. rewrite (num_eq_zero _ _ _ Hz), andb_true_r. reflexivity.
    - unfold apply_bin. rewrite (eff_quiet _ _ _ (ok_looseeq_num W Wok _ _ _)). apply agree_val.
      cbn. rewrite (num_eq_zero _ _ _ Hz), andb_true_r. reflexivity.
  Qed.

  (* "l === 0" is "!l" *)
  Lemma ST_eq_zero : forall op l r n,
    (op = BStrictEq \/ op = BLooseEq) -> extract_numeric_value r = Some n -> is_zero n = true ->
    is_int32_or_uint32 l = true -> ST (EBin op l r) (EUn UNot l false).
  Proof.
    intros op l r n Hop Hr Hz Hi. intros tr.
    destruct Hop as [-> | ->]; cbn [eval];
      apply agree_bind_same; intros t x Hx; rewrite (extract_eval _ _ t Hr); cbn [bind];
      destruct (int32_value _ _ _ _ Hi Hx) as (m & e & ->).
    - cbn [strict_eq]. apply agree_val. cbn. rewrite (num_eq_zero _ _ _ Hz), andb_true_r, negb_involutive. reflexivity.
    - unfold apply_bin. rewrite (eff_quiet _ _ _ (ok_looseeq_num W Wok _ _ _)). apply agree_val.
      cbn. rewrite (num_eq_zero _ _ _ Hz), andb_true_r, negb_involutive. reflexivity.
  Qed.

  Lemma ST_not_ : forall l, ST (EUn UNot l false) (not_ l).
  Proof.
    intros l tr res Hev. rewrite (not_correct W Wok _ _ _ Hev). destruct res as [t [v|v]]; cbn; auto.
  Qed.

  Lemma ST_dneg : forall v w w', ST (EUn UNot (EUn UNot v w') w) v.
  Proof.
    intros v w w' tr res Hev. cbn [eval] in Hev.
    destruct (ev tr v) as [[t [x|x]]|]; cbn [bind] in Hev; try discriminate; inv Hev; cbn; auto.
    split; [reflexivity|]. rewrite negb_involutive. reflexivity.
  Qed.

  Lemma default_case : forall e, flags_ok W e ->
    ST e (let '(b, se, ok) := to_boolean e in if ok && (se || can_be_removed ub e) then EBool b else e).
  Proof.
    intros e Hf. destruct (to_boolean e) as [[b se] ok] eqn:Htb.
    destruct (ok && (se || can_be_removed ub e)) eqn:C; [|apply ST_refl].
    apply andb_true_iff in C as [-> C]. intros tr [tr' out] Hev.
    destruct (to_boolean_sound_all W e tr tr' out b se Hf Hev Htb) as [H1 H2].
    assert (Hp : tr' = tr /\ exists v, out = Val v).
    { apply orb_true_iff in C as [->|Hc]; [auto|].
      exact (can_be_removed_sound_all W Wok e tr tr' out Hf Hc Hev). }
    destruct Hp as [-> [v ->]]. cbn. split; [reflexivity|]. rewrite (H1 v eq_refl). destruct b; reflexivity.
  Qed.

  Lemma const_agree : forall r b, flags_ok W r -> to_boolean r = (b, true, true) ->
    forall t x, truthy x = b -> agree (ev t r) (Some (t, Val x)).
  Proof.
    intros r b Hf Htb t x Hx [t' out] Hk.
    destruct (to_boolean_sound_all W r t t' out b true Hf Hk Htb) as [H1 H2].
    destruct (H2 eq_refl) as [-> [v ->]]. cbn. split; [reflexivity|]. rewrite (H1 v eq_refl). congruence.
  Qed.

  Lemma and_drop : forall l r, flags_ok W r -> to_boolean r = (true, true, true) -> ST (EBin BLogAnd l r) l.
  Proof.
    intros l r Hf Htb. intros tr. cbn [eval]. apply agree_bind_l. intros t x _.
    destruct (truthy x) eqn:Hx; [exact (const_agree r true Hf Htb t x Hx) | apply agree_refl].
  Qed.

  Lemma or_drop : forall l r, flags_ok W r -> to_boolean r = (false, true, true) -> ST (EBin BLogOr l r) l.
  Proof.
    intros l r Hf Htb. intros tr. cbn [eval]. apply agree_bind_l. intros t x _.
    destruct (truthy x) eqn:Hx; [apply agree_refl | exact (const_agree r false Hf Htb t x Hx)].
  Qed.

  Lemma not_eval : forall t tr t1 x, ev tr t = Some (t1, Val x) -> ev tr (not_ t) = Some (t1, Val (VBool (negb (truthy x)))).
  Proof. intros t tr t1 x H. apply (not_correct W Wok). cbn [eval]. rewrite H. reflexivity. Qed.
  Lemma not_eval_throw : forall t tr t1 x, ev tr t = Some (t1, Throw x) -> ev tr (not_ t) = Some (t1, Throw x).
  Proof. intros t tr t1 x H. apply (not_correct W Wok). cbn [eval]. rewrite H. reflexivity. Qed.

  Lemma agree_bind_not : forall t tr k k',
    (forall t1 x, agree (k t1 x) (k' t1 (VBool (negb (truthy x))))) ->
    agree (bind (ev tr t) k) (bind (ev tr (not_ t)) k').
  Proof.
    intros t tr k k' H. destruct (ev tr t) as [[t1 [x|x]]|] eqn:E; cbn [bind].
    - rewrite (not_eval _ _ _ _ E). apply H.
    - rewrite (not_eval_throw _ _ _ _ E). apply agree_refl.
    - intros res Hres. discriminate Hres.
  Qed.

  Lemma if_yes_const : forall t y n b, flags_ok W y -> to_boolean y = (b, true, true) ->
    ST (EIf t y n) (if b then EBin BLogOr t n else EBin BLogAnd (not_ t) n).
  Proof.
    intros t y n b Hf Htb. intros tr. destruct b; cbn [eval].
    - apply agree_bind_same. intros t1 x _.
      destruct (truthy x) eqn:Hx; [exact (const_agree y true Hf Htb t1 x Hx) | apply agree_refl].
    - apply agree_bind_not. intros t1 x. cbn [truthy].
      destruct (truthy x); [exact (const_agree y false Hf Htb t1 (VBool false) eq_refl) | apply agree_refl].
  Qed.

  Lemma if_no_const : forall t y n b, flags_ok W n -> to_boolean n = (b, true, true) ->
    ST (EIf t y n) (if b then EBin BLogOr (not_ t) y else EBin BLogAnd t y).
  Proof.
    intros t y n b Hf Htb. intros tr. destruct b; cbn [eval].
    - apply agree_bind_not. intros t1 x. cbn [truthy].
      destruct (truthy x); [apply agree_refl | exact (const_agree n true Hf Htb t1 (VBool true) eq_refl)].
    - apply agree_bind_same. intros t1 x _.
      destruct (truthy x) eqn:Hx; [apply agree_refl | exact (const_agree n false Hf Htb t1 x Hx)].
  Qed.

  Lemma ST_join : forall op a b, short_circuit op -> ST (EBin op a b) (join_left op a b).
  Proof. intros op a b Hop. apply ST_refl_eq. intros tr. symmetry. apply join_left_assoc_equiv_all. exact Hop. Qed.

  Lemma sc_and : short_circuit BLogAnd. Proof. left; reflexivity. Qed.
  Lemma sc_or : short_circuit BLogOr. Proof. right; left; reflexivity. Qed.

  Theorem simplify_boolean_sound_size : forall n e, (esize e <= n)%nat -> flags_ok W e ->
    ST e (simplify_boolean ub e).
  Proof.
    induction n as [|n IH]; intros e Hsz Hf; [destruct e; cbn [esize] in Hsz; lia|].
    destruct e; try (exact (default_case _ Hf)).
    - (* EUn *)
      cbn [simplify_boolean]. cbn [esize] in Hsz. cbn [flags_ok] in Hf. destruct Hf as [_ Hfv].
      destruct (unop_eqb op UNot) eqn:Hop; [|apply ST_refl].
      apply internal_unop_dec_bl in Hop. subst op.
      assert (Hgen : ST (EUn UNot e wasTypeofId) (EUn UNot (simplify_boolean ub e) false))
        by (apply ST_not, IH; [lia | exact Hfv]).
      destruct e; try exact Hgen.
      destruct (unop_eqb op UNot) eqn:Hop2; [|exact Hgen].
      apply internal_unop_dec_bl in Hop2. subst op.
      cbn [esize] in Hsz. cbn [flags_ok] in Hfv.
      eapply ST_trans; [apply ST_dneg | apply IH; [lia | tauto]].
    - (* EBin *)
      cbn [esize] in Hsz. cbn [flags_ok] in Hf. destruct Hf as [Hf1 Hf2].
      pose proof (IH e1 ltac:(lia) Hf1) as S1. pose proof (IH e2 ltac:(lia) Hf2) as S2.
      pose proof (flags_sb W ub e2 Hf2) as F2.
      destruct op; cbn [simplify_boolean]; try apply ST_refl.
      1-4: destruct (extract_numeric_value e2) as [nn|] eqn:Hx; [|apply ST_refl];
           destruct (is_zero nn && is_int32_or_uint32 e1) eqn:C; [|apply ST_refl];
           apply andb_true_iff in C as [Hz Hi].
      + (* == 0 *) eapply ST_trans; [eapply ST_eq_zero; eauto | apply ST_not_].
      + (* != 0 *) eapply ST_ne_zero; eauto.
      + (* === 0 *) eapply ST_trans; [eapply ST_eq_zero; eauto | apply ST_not_].
      + (* !== 0 *) eapply ST_ne_zero; eauto.
      + (* || *)
        destruct (to_boolean (simplify_boolean ub e2)) as [[b se] ok] eqn:Htb.
        destruct (ok && negb b && se) eqn:C; [|apply ST_or; assumption].
        apply andb_true_iff in C as [C ->]. apply andb_true_iff in C as [-> C]. destruct b; [discriminate|].
        eapply ST_trans; [apply ST_or; eassumption | apply or_drop; assumption].
      + (* && *)
        destruct (to_boolean (simplify_boolean ub e2)) as [[b se] ok] eqn:Htb.
        destruct (ok && b && se) eqn:C; [|apply ST_and; assumption].
        apply andb_true_iff in C as [C ->]. apply andb_true_iff in C as [-> ->].
        eapply ST_trans; [apply ST_and; eassumption | apply and_drop; assumption].
    - (* EIf *)
      cbn [esize] in Hsz. cbn [flags_ok] in Hf. destruct Hf as [Hf1 [Hf2 Hf3]].
      pose proof (flags_sb W ub e2 Hf2) as F2. pose proof (flags_sb W ub e3 Hf3) as F3.
      cbn [simplify_boolean].
      assert (Hcong : ST (EIf e1 e2 e3) (EIf e1 (simplify_boolean ub e2) (simplify_boolean ub e3)))
        by (apply ST_if; apply IH; (lia || assumption)).
      destruct (to_boolean (simplify_boolean ub e2)) as [[yb yse] yok] eqn:Hty.
      destruct (yok && yse) eqn:Cy.
      { apply andb_true_iff in Cy as [-> ->].
        eapply ST_trans; [exact Hcong|].
        eapply ST_trans; [exact (if_yes_const e1 _ _ yb F2 Hty)|].
        destruct yb; apply ST_join; [apply sc_or | apply sc_and]. }
      destruct (to_boolean (simplify_boolean ub e3)) as [[nb nse] nok] eqn:Htn.
      destruct (nok && nse) eqn:Cn; [|exact Hcong].
      apply andb_true_iff in Cn as [-> ->].
      eapply ST_trans; [exact Hcong|].
      eapply ST_trans; [exact (if_no_const e1 _ _ nb F3 Htn)|].
      destruct nb; apply ST_join; [apply sc_or | apply sc_and].
  Qed.

  Theorem simplify_boolean_sound_all : forall e tr res,
    flags_ok W e -> ev tr e = Some res -> same_truthiness (Some res) (ev tr (simplify_boolean ub e)).
  Proof.
    intros e tr res Hf Hev. exact (simplify_boolean_sound_size (esize e) e (le_n _) Hf tr res Hev).
  Qed.

  Theorem simplify_boolean_flags : forall e, flags_ok W e -> flags_ok W (simplify_boolean ub e).
  Proof using Wok. apply flags_sb. Qed.
End SB.
