(* KnownPrimitiveType is sound w.r.t. the value semantics *)
From V Require Import Common.Base C03.Num C03.Tree C03.MiniJS C03.Worlds C03.TreeProofs.

Definition type_ok (t : ptype) (v : value) : bool :=
  match t with
  | PUnknown => true
  | PMixed => is_prim v && negb (is_sym v)
  | PNull => match v with VNull => true | _ => false end
  | PUndefined => match v with VUndef => true | _ => false end
  | PBoolean => is_bool v
  | PNumber => is_num v
  | PString => is_str v
  | PBigInt => is_big v
  end.

Lemma type_ok_mixed : forall t v, t <> PUnknown -> type_ok t v = true -> type_ok PMixed v = true.
Proof. intros [] [] Hn H; cbn in *; congruence. Qed.

Lemma merge_ok : forall a b v, type_ok a v = true \/ type_ok b v = true -> type_ok (merge_types a b) v = true.
Proof.
  intros a b v H. unfold merge_types.
  destruct a; try reflexivity; destruct b; try reflexivity; cbn [ptype_beq];
    destruct H as [H|H]; try assumption; (eapply type_ok_mixed; [|eassumption]; discriminate).
Qed.

Section KT.
  Variable W : world.
  Hypothesis Wok : world_ok W.
  Notation ev := (eval W).

  Lemma parts_value : forall (evf : trace -> expr -> option (trace * outcome)) l tr acc tr' v,
    eval_parts_with W evf tr l acc = Some (tr', Val v) -> is_str v = true.
  Proof.
    induction l as [|[p tail] r IH]; intros tr acc tr' v H; cbn [eval_parts_with] in H.
    - inv H. reflexivity.
    - apply bind_val in H as (t1 & x & Hx & H). apply bind_val in H as (t2 & sv & Hs & H).
      destruct sv; try discriminate. eauto.
  Qed.

  Lemma numeric_mixed : forall v, is_numeric v = true -> type_ok PMixed v = true.
  Proof. destruct v; cbn; congruence. Qed.

  Lemma un_type : forall op x n t r ty, w_un W op x n = (t, Val r) -> type_ok ty x = true ->
    type_ok (match ty with PBigInt => PBigInt | PUnknown | PMixed => PMixed | _ => PNumber end) r = true.
  Proof.
    intros op x n t r ty E Hx.
    destruct ty; cbn [type_ok] in *;
      try (apply numeric_mixed; exact (ok_un_numeric W Wok _ _ _ _ _ E));
      try exact (ok_un_big W Wok _ _ _ _ _ E Hx);
      apply (ok_un_plain W Wok _ _ _ _ _ E); destruct x; try discriminate Hx; reflexivity.
  Qed.

  Theorem known_type_sound_all : forall e tr tr' v,
    ev tr e = Some (tr', Val v) -> type_ok (known_type e) v = true.
  Proof.
    induction e; intros tr tr' v0 Hev; cbn [known_type]; try reflexivity;
      try (cbn [eval] in Hev; inv Hev; reflexivity).
    - (* EBig *) cbn [eval] in Hev. destruct (big_value s); inv Hev. reflexivity.
    - (* EUn *)
      destruct op; try (cbn [eval] in Hev; discriminate Hev).
      1-5: cbn [eval] in Hev; apply bind_val in Hev as (t1 & x & Hx & Hk).
      + (* UPos *) apply eff_inv in Hk as (t2 & E & _). exact (ok_un_pos W Wok _ _ _ _ E).
      + (* UNeg *) apply eff_inv in Hk as (t2 & E & _). exact (un_type _ _ _ _ _ _ E (IHe _ _ _ Hx)).
      + (* UCpl *) apply eff_inv in Hk as (t2 & E & _). exact (un_type _ _ _ _ _ _ E (IHe _ _ _ Hx)).
      + (* UNot *) inv Hk. reflexivity.
      + (* UVoid *) inv Hk. reflexivity.
      + (* UTypeof *) apply typeof_result in Hev as [x ->]. reflexivity.
    - (* EBin *)
      destruct op; try (cbn [eval is_sem_binop] in Hev; discriminate Hev); cbn [type_ok];
        (* arithmetic and relational operators: the result types the world guarantees *)
        try (apply world_bin_val in Hev as (t1 & x & t2 & y & t3 & _ & _ & E); [|auto];
             first [ apply numeric_mixed; refine (ok_arith W Wok _ _ _ _ _ _ _ E); reflexivity
                   | refine (ok_boolop W Wok _ _ _ _ _ _ _ E); reflexivity ]);
        (* != === !== *)
        try (apply eq_bin_bool in Hev as [b ->]; [reflexivity | auto]).
      + (* BAdd *)
        apply world_bin_val in Hev as (t1 & x & t2 & y & t3 & Hx & Hy & E); [|auto].
        pose proof (IHe1 _ _ _ Hx) as Htx. pose proof (IHe2 _ _ _ Hy) as Hty.
        destruct (ptype_eqb (known_type e1) PString || ptype_eqb (known_type e2) PString) eqn:Hs.
        { cbn [type_ok]. apply (ok_add_str W Wok _ _ _ _ _ E).
          apply orb_true_iff in Hs as [Hs|Hs]; apply internal_ptype_dec_bl in Hs; rewrite Hs in *; cbn [type_ok] in *;
            [rewrite Htx | rewrite Hty; rewrite orb_true_r]; reflexivity. }
        destruct (ptype_eqb (known_type e1) PBigInt && ptype_eqb (known_type e2) PBigInt) eqn:Hb.
        { apply andb_true_iff in Hb as [H1 H2]. apply internal_ptype_dec_bl in H1, H2. rewrite H1, H2 in *.
          exact (ok_add_big W Wok _ _ _ _ _ E Htx Hty). }
        match goal with |- type_ok (if ?c then _ else _) _ = true => destruct c eqn:Hp end.
        { (* neither type is unknown, mixed or bigint (nor string): undefined, null, boolean or number *)
          apply orb_false_iff in Hs as [Hs1 Hs2]. apply (ok_add_plain W Wok _ _ _ _ _ E).
          - destruct (known_type e1); try discriminate Hp; try discriminate Hs1;
              destruct x; try discriminate Htx; reflexivity.
          - destruct (known_type e2); try (rewrite ?andb_false_r in Hp; discriminate Hp); try discriminate Hs2;
              destruct y; try discriminate Hty; reflexivity. }
        pose proof (ok_add_prim W Wok _ _ _ _ _ E) as Hr. destruct v0; try discriminate Hr; reflexivity.
      + (* BNullish *)
        cbn [eval] in Hev. apply bind_val in Hev as (t1 & x & Hx & Hk).
        pose proof (IHe1 _ _ _ Hx) as Htx.
        destruct (nullish x) eqn:Hn.
        * pose proof (IHe2 _ _ _ Hk) as Hty.
          destruct (known_type e1) eqn:K1; try reflexivity; try assumption;
            try (destruct x; discriminate).
          destruct (known_type e2) eqn:K2; try reflexivity; (eapply type_ok_mixed; [|exact Hty]; discriminate).
        * inv Hk.
          destruct (known_type e1) eqn:K1; try reflexivity; try assumption;
            try (destruct v0; discriminate).
          destruct (known_type e2); try reflexivity; assumption.
      + (* BLogOr *)
        cbn [eval] in Hev. apply bind_val in Hev as (t1 & x & Hx & Hk).
        destruct (truthy x); [inv Hk; apply merge_ok; left; eauto | apply merge_ok; right; eauto].
      + (* BLogAnd *)
        cbn [eval] in Hev. apply bind_val in Hev as (t1 & x & Hx & Hk).
        destruct (truthy x); [apply merge_ok; right; eauto | inv Hk; apply merge_ok; left; eauto].
      + (* BComma *)
        cbn [eval] in Hev. apply bind_val in Hev as (t1 & x & Hx & Hk). eauto.
    - (* EIf *)
      cbn [eval] in Hev. apply bind_val in Hev as (t1 & x & Hx & Hk).
      destruct (truthy x); apply merge_ok; [left | right]; eauto.
    - (* ETemplate *)
      rewrite eval_template_eq in Hev. cbn [type_ok]. eapply parts_value; eauto.
    - (* EAnnot *) cbn [eval] in Hev. eauto.
    - (* EInlinedEnum *) cbn [eval] in Hev. eauto.
  Qed.

  Lemma known_prim : forall e tr tr' v,
    ev tr e = Some (tr', Val v) -> ptype_eqb (known_type e) PUnknown = false ->
    is_prim v = true /\ is_sym v = false.
  Proof.
    intros e tr tr' v H Hk. pose proof (known_type_sound_all _ _ _ _ H) as Ht.
    destruct (known_type e); try discriminate; destruct v; cbn in Ht |- *; try discriminate; auto.
  Qed.
End KT.
