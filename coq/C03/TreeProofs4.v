(* ExprCanBeRemovedIfUnused is sound: a removable expression evaluates without
   any trace event and completes normally, in every world *)
From V Require Import Common.Base C03.Num C03.SpecOps C03.Tree C03.MiniJS C03.Worlds C03.TreeProofs C03.TreeProofs3.

Fixpoint sum_sizes (l : list expr) : nat := match l with [] => O | x :: r => (esize x + sum_sizes r)%nat end.
Fixpoint sum_parts (l : list (expr * list Z)) : nat := match l with [] => O | (v, _) :: r => (esize v + sum_parts r)%nat end.
Fixpoint sum_props (l : list (Z * bool * expr * expr)) : nat :=
  match l with [] => O | (_, _, k, v) :: r => (esize k + esize v + sum_props r)%nat end.

Lemma esize_array : forall items, esize (EArray items) = S (sum_sizes items).
Proof. intros. reflexivity. Qed.
Lemma esize_call : forall t args oc p, esize (ECall t args oc p) = S (esize t + sum_sizes args).
Proof. intros. reflexivity. Qed.
Lemma esize_new : forall t args p, esize (ENew t args p) = S (esize t + sum_sizes args).
Proof. intros. reflexivity. Qed.
Lemma esize_template : forall h parts, esize (ETemplate h parts) = S (sum_parts parts).
Proof. intros. reflexivity. Qed.
Lemma esize_object : forall props, esize (EObject props) = S (sum_props props).
Proof. intros. reflexivity. Qed.

Lemma in_sum_sizes : forall l x, In x l -> (esize x <= sum_sizes l)%nat.
Proof.
  induction l as [|y l IH]; intros x H; [destruct H|].
  destruct H as [->|H]; cbn [sum_sizes]; [lia | apply IH in H; lia].
Qed.

Lemma in_sum_parts : forall l v t, In (v, t) l -> (esize v <= sum_parts l)%nat.
Proof.
  induction l as [|[p q] l IH]; intros v t H; [destruct H|].
  destruct H as [E|H]; cbn [sum_parts]; [inv E; lia | apply IH in H; lia].
Qed.

Lemma in_sum_props : forall l a b k v, In (a, b, k, v) l -> (esize k + esize v <= sum_props l)%nat.
Proof.
  induction l as [|[[[a0 b0] k0] v0] l IH]; intros a b k v H; [destruct H|].
  destruct H as [E|H]; cbn [sum_props]; [inv E; lia | apply IH in H; lia].
Qed.

Section CBR.
  Variable W : world.
  Hypothesis Wok : world_ok W.
  Notation ev := (eval W).
  Notation ub := (w_unbound W).

  Definition pure_eval (e : expr) : Prop := forall tr, pure_at tr (ev tr e).

  Definition prim_eval (e : expr) : Prop :=
    forall t t' o, ev t e = Some (t', o) -> t' = t /\ exists v, o = Val v /\ is_prim v = true.

  Lemma prim_lit_eval : forall e, is_primitive_literal e = true -> prim_eval e.
  Proof.
    induction e; intros Hp tr tr' out H; cbn [is_primitive_literal] in Hp; try discriminate Hp; cbn [eval] in H;
      try (inv H; split; [reflexivity|]; eexists; split; reflexivity).
    - destruct (big_value s); inv H. split; [reflexivity|]. eexists; split; reflexivity.
    - exact (IHe Hp _ _ _ H).
    - exact (IHe Hp _ _ _ H).
  Qed.

  Lemma key_prim_eval : forall key, flags_ok W key ->
    is_primitive_literal key || is_symbol_instance key = true -> prim_eval key.
  Proof.
    intros key Hf H. apply orb_true_iff in H as [Hl|Hs]; [exact (prim_lit_eval _ Hl)|].
    destruct key; try discriminate Hs. cbn [is_symbol_instance] in Hs. subst symInst.
    destruct Hf as [_ [Hsym _]]. intros t t' o Hk.
    destruct (Hsym eq_refl t) as [id Hid]. rewrite Hid in Hk. inv Hk.
    split; [reflexivity|]. eexists; split; reflexivity.
  Qed.

  (* Guarded references to undeclared globals: "typeof x !== 'undefined' && x".
     The type names typeof can yield compare with "u" exactly as they compare with
     "undefined", which is what the minified guards typeof x < "u" rely on. *)
  Lemma typeof_lt_u : forall v, spec_string_lt (typeof_value v) str_u = negb (zlist_eqb (typeof_value v) s_undefined).
  Proof. destruct v; vm_compute; reflexivity. Qed.
  Lemma typeof_gt_u : forall v, spec_string_lt str_u (typeof_value v) = zlist_eqb (typeof_value v) s_undefined.
  Proof. destruct v; vm_compute; reflexivity. Qed.
  Lemma undefined_lt_u : spec_string_lt s_undefined str_u = false /\ spec_string_lt str_u s_undefined = true.
  Proof. split; vm_compute; reflexivity. Qed.

  (* the string typeof yields for an unbound identifier *)
  Definition typeof_ref (ref : Z) : list Z :=
    match w_genv W ref with Some x => typeof_value x | None => s_undefined end.

  Lemma typeof_ref_exists : forall ref, zlist_eqb (typeof_ref ref) s_undefined = false -> w_genv W ref <> None.
  Proof. intros ref H E. unfold typeof_ref in H. rewrite E in H. vm_compute in H. discriminate. Qed.

  Lemma zlist_eqb_sym : forall a b, zlist_eqb a b = zlist_eqb b a.
  Proof.
    intros a b. apply Bool.eq_true_iff_eq. rewrite !zlist_eqb_eq. split; congruence.
  Qed.

  Lemma as_str_some : forall e s, as_str e = Some s -> e = EStr s.
  Proof. destruct e; cbn; intros; congruence. Qed.
  Lemma as_id_some : forall e r, as_id e = Some r -> exists c m, e = EId r c m.
  Proof. destruct e; cbn; intros r0 H; try discriminate. inv H. eauto. Qed.
  Lemma as_typeof_some : forall e tv, as_typeof_marked e = Some tv -> e = EUn UTypeof tv true.
  Proof.
    destruct e; cbn; intros tv H; try discriminate.
    destruct op; try discriminate. destruct wasTypeofId; inv H. reflexivity.
  Qed.

  Lemma typeof_missing : forall ref c m t, ub ref = true -> w_genv W ref = None ->
    ev t (EUn UTypeof (EId ref c m) true) = Some (t, Val (VStr s_undefined)).
  Proof. intros. cbn [eval]. rewrite H, H0. reflexivity. Qed.

  (* the equality and relational operators on two strings: no user code runs and
     the world answers with the code-unit comparison *)
  Definition str_cmp (op : binop) (a b : list Z) : option bool :=
    match op with
    | BStrictEq | BLooseEq => Some (zlist_eqb a b)
    | BStrictNe | BLooseNe => Some (negb (zlist_eqb a b))
    | BLt => Some (spec_string_lt a b)
    | BGt => Some (spec_string_lt b a)
    | BLe => Some (negb (spec_string_lt b a))
    | BGe => Some (negb (spec_string_lt a b))
    | _ => None
    end.

  Lemma str_cmp_eval : forall op l r tr a b c,
    ev tr l = Some (tr, Val (VStr a)) -> ev tr r = Some (tr, Val (VStr b)) -> str_cmp op a b = Some c ->
    ev tr (EBin op l r) = Some (tr, Val (VBool c)).
  Proof.
    intros op l r tr a b c Hl Hr Hc.
    destruct op; try discriminate Hc; inv Hc;
      cbn [eval is_sem_binop]; rewrite Hl; cbn [bind]; rewrite Hr; cbn [bind strict_eq];
      try reflexivity; unfold apply_bin.
    - rewrite (eff_quiet _ _ _ (ok_lt_str W Wok _ _ _)). reflexivity.
    - rewrite (eff_quiet _ _ _ (ok_le_str W Wok _ _ _)). reflexivity.
    - rewrite (eff_quiet _ _ _ (ok_gt_str W Wok _ _ _)). reflexivity.
    - rewrite (eff_quiet _ _ _ (ok_ge_str W Wok _ _ _)). reflexivity.
    - rewrite (eff_quiet _ _ _ (ok_looseeq_str W Wok _ _ _)). reflexivity.
    - rewrite (eff_quiet _ _ _ (ok_looseeq_str W Wok _ _ _)). reflexivity.
  Qed.

  (* isSideEffectFreeUnboundIdentifierRef accepts a reference to x in the branch
     taken when a guard "typeof x OP text" (either order) comes out as isYes only
     if "undefined" in the place of typeof x makes the guard come out the other way *)
  Lemma sefree_guard : forall value guard isYes,
    is_sefree_unbound_ref ub value guard isYes = true ->
    exists ref c m c2 m2 op a b,
      value = EId ref c m /\ ub ref = true /\
      (guard = EBin op (EUn UTypeof (EId ref c2 m2) true) (EStr b) /\ a = s_undefined \/
       guard = EBin op (EStr a) (EUn UTypeof (EId ref c2 m2) true) /\ b = s_undefined) /\
      str_cmp op a b = Some (negb isYes).
  Proof.
    intros value guard isYes Hs. unfold is_sefree_unbound_ref in Hs.
    destruct (as_id value) as [ref|] eqn:Hid; [|discriminate].
    apply as_id_some in Hid as (c & m & ->).
    destruct (ub ref) eqn:Hub; [|discriminate].
    destruct guard; try discriminate Hs.
    destruct op; try discriminate Hs.
    (* which operand is the string and which the typeof *)
    all: destruct (as_str guard1) as [text|] eqn:H1;
      [ apply as_str_some in H1 as ->;
        destruct (as_typeof_marked guard2) as [tv|] eqn:H2; [|discriminate Hs];
        apply as_typeof_some in H2 as ->;
        cbn [as_str] in Hs
      | destruct (as_typeof_marked guard1) as [tv|] eqn:H2; [|discriminate Hs];
        apply as_typeof_some in H2 as ->;
        destruct (as_str guard2) as [text|] eqn:H3; [|discriminate Hs];
        apply as_str_some in H3 as -> ].
    all: match type of Hs with context [if ?c then _ else _] => destruct c eqn:Hc; [|discriminate Hs] end.
    all: destruct (as_id tv) as [r2|] eqn:H4; [|discriminate Hs].
    all: apply as_id_some in H4 as (c2 & m2 & ->).
    all: apply Z.eqb_eq in Hs; subst r2.
    all: exists ref, c, m, c2, m2; do 3 eexists.
    all: split; [reflexivity|]; split; [exact Hub|].
    all: split; [first [left; split; reflexivity | right; split; reflexivity]|].
    all: cbn [str_cmp is_ne_op is_lt_le_op] in Hc |- *.
    (* relational guards: text is "u", below "undefined" *)
    1-8: apply andb_true_iff in Hc as [Hu Hc]; apply zlist_eqb_eq in Hu; subst text.
    1-8: rewrite ?(proj1 undefined_lt_u), ?(proj2 undefined_lt_u).
    1-8: destruct isYes; try discriminate Hc; reflexivity.
    (* equality guards: text is compared with "undefined" *)
    all: rewrite ?(zlist_eqb_sym s_undefined); change str_undefined with s_undefined in Hc.
    all: destruct (zlist_eqb text s_undefined), isYes; try discriminate Hc; reflexivity.
  Qed.

  Lemma sefree_sound : forall value guard isYes tr tr1 x,
    is_sefree_unbound_ref ub value guard isYes = true ->
    ev tr guard = Some (tr1, Val x) -> truthy x = isYes ->
    forall tr2, exists v, ev tr2 value = Some (tr2, Val v).
  Proof.
    intros value guard isYes tr tr1 x Hs Hg Ht tr2.
    destruct (sefree_guard _ _ _ Hs) as (ref & c & m & c2 & m2 & op & a & b & -> & Hub & Hshape & Hcmp).
    cbn [eval]. rewrite Hub. destruct (w_genv W ref) eqn:Hgv; [eauto|exfalso].
    (* x does not exist: typeof x is "undefined" and the guard comes out the other way *)
    pose proof (typeof_missing ref c2 m2 tr Hub Hgv) as Hty.
    assert (Hg' : ev tr guard = Some (tr, Val (VBool (negb isYes)))).
    { destruct Hshape as [[-> ->] | [-> ->]]; eapply str_cmp_eval; try exact Hty; try exact Hcmp; reflexivity. }
    rewrite Hg' in Hg. injection Hg as _ <-. destruct isYes; discriminate Ht.
  Qed.

  Lemma guarded_pure : forall value guard isYes tr x,
    ev tr guard = Some (tr, Val x) -> truthy x = isYes ->
    is_sefree_unbound_ref ub value guard isYes || can_be_removed ub value = true ->
    (can_be_removed ub value = true -> pure_eval value) -> pure_at tr (ev tr value).
  Proof.
    intros value guard isYes tr x Hg Ht H Hp.
    apply orb_true_iff in H as [Hs|Hc]; [|exact (Hp Hc tr)].
    destruct (sefree_sound _ _ _ _ _ _ Hs Hg Ht tr) as [v Hv]. rewrite Hv. apply pure_val.
  Qed.

  Lemma pure_binop : forall e1 e2 tr (k : trace -> value -> value -> option (trace * outcome)),
    pure_eval e1 -> pure_eval e2 ->
    (forall x y, ev tr e1 = Some (tr, Val x) -> ev tr e2 = Some (tr, Val y) -> pure_at tr (k tr x y)) ->
    pure_at tr (bind (ev tr e1) (fun tr1 x => bind (ev tr1 e2) (fun tr2 y => k tr2 x y))).
  Proof.
    intros e1 e2 tr k H1 H2 Hk. apply pure_bind; [exact (H1 tr)|]. intros x Hx.
    apply pure_bind; [exact (H2 tr)|]. intros y Hy. exact (Hk x y Hx Hy).
  Qed.

  Lemma rel_pure : forall op e1 e2 tr, is_rel op = true -> pure_eval e1 -> pure_eval e2 ->
    ptype_eqb (known_type e1) PUnknown = false -> ptype_eqb (known_type e2) PUnknown = false ->
    pure_at tr (bind (ev tr e1) (fun tr1 x => bind (ev tr1 e2) (fun tr2 y => apply_bin W op tr2 x y))).
  Proof.
    intros op e1 e2 tr Hop H1 H2 K1 K2. apply pure_binop; try assumption. intros x y Hx Hy.
    destruct (known_prim W Wok _ _ _ _ Hx K1) as [Hpx Hsx]. destruct (known_prim W Wok _ _ _ _ Hy K2) as [Hpy Hsy].
    destruct (ok_rel_prim W Wok op x y (length tr) Hop Hpx Hpy Hsx Hsy) as [r Hr]. exact (pure_eff _ _ _ Hr).
  Qed.

  Lemma loose_pure : forall e1 e2 tr, pure_eval e1 -> pure_eval e2 ->
    can_change_strict_to_loose e1 e2 = true ->
    pure_at tr (bind (ev tr e1) (fun tr1 x => bind (ev tr1 e2) (fun tr2 y => apply_bin W BLooseEq tr2 x y))).
  Proof.
    intros e1 e2 tr H1 H2 Hcs. unfold can_change_strict_to_loose in Hcs.
    apply andb_true_iff in Hcs as [Hcs _]. apply andb_true_iff in Hcs as [Hsame K1].
    apply internal_ptype_dec_bl in Hsame. apply negb_true_iff in K1.
    apply pure_binop; try assumption. intros x y Hx Hy.
    destruct (known_prim W Wok _ _ _ _ Hx K1) as [Hpx _].
    rewrite Hsame in K1. destruct (known_prim W Wok _ _ _ _ Hy K1) as [Hpy _].
    destruct (ok_looseeq_prim W Wok x y (length tr) Hpx Hpy) as [r Hr]. exact (pure_eff _ _ _ Hr).
  Qed.

  Lemma rel_removable : forall op l r, is_rel op = true -> can_be_removed ub (EBin op l r) = true ->
    ptype_eqb (known_type l) PUnknown = false /\ ptype_eqb (known_type r) PUnknown = false /\
    can_be_removed ub l = true /\ can_be_removed ub r = true.
  Proof.
    intros op l r Hop H.
    assert (H' : ptype_eqb (known_type r) (known_type l) && can_be_removed ub l && can_be_removed ub r = true /\
                 ptype_eqb (known_type l) PUnknown = false).
    { destruct op; try discriminate Hop; cbn [can_be_removed] in H;
        destruct (known_type l); try discriminate H; auto. }
    destruct H' as [H' K1]. rewrite !andb_true_iff in H'. destruct H' as [[K H1] H2].
    apply internal_ptype_dec_bl in K. rewrite K. auto.
  Qed.

  Lemma parts_pure : forall l tr acc,
    (forall v t, In (v, t) l -> pure_eval v /\ ptype_eqb (known_type v) PUnknown = false) ->
    pure_at tr (eval_parts_with W ev tr l acc).
  Proof.
    induction l as [|[p tail] r IH]; intros tr acc Hall; cbn [eval_parts_with]; [apply pure_val|].
    destruct (Hall p tail (or_introl eq_refl)) as [Hp Hk].
    apply pure_bind; [exact (Hp tr)|]. intros x Hx.
    destruct (known_prim W Wok _ _ _ _ Hx Hk) as [Hpr Hns].
    destruct (ok_tostr_prim W Wok x (length tr) Hpr Hns) as [sv Hsv].
    rewrite (eff_quiet _ _ _ Hsv). cbn [bind].
    apply IH. intros v0 t0 Hin; apply (Hall v0 t0); right; assumption.
  Qed.

  Lemma props_pure : forall l tr,
    (forall kind computed key value, In (kind, computed, key, value) l ->
       (kind =? 1) = false /\ pure_eval value /\ (computed = true -> prim_eval key)) ->
    pure_at tr (eval_props_with W ev tr l).
  Proof.
    induction l as [|[[[kind computed] key] value] r IH]; intros tr Hall; cbn [eval_props_with]; [apply pure_val|].
    destruct (Hall kind computed key value (or_introl eq_refl)) as [Hk [Hv Hkey]].
    assert (Hr : forall t, pure_at t (eval_props_with W ev t r))
      by (intros t; apply IH; intros k1 c1 key1 v1 Hin1; apply (Hall k1 c1 key1 v1); right; assumption).
    rewrite Hk. destruct computed; [|apply pure_bind; [exact (Hv tr) | intros; apply Hr]].
    apply pure_bind.
    - intros t' o Ho. destruct (Hkey eq_refl _ _ _ Ho) as [-> [kv [-> _]]]. eauto.
    - intros kv Hkv. destruct (Hkey eq_refl _ _ _ Hkv) as [_ [kv' [E Hpr]]]. inv E.
      destruct (ok_tokey_prim W Wok kv' (length tr) Hpr) as [k2 Hk2].
      rewrite (eff_quiet _ _ _ Hk2). cbn [bind]. apply pure_bind; [exact (Hv tr) | intros; apply Hr].
  Qed.

  Lemma all_args : forall l,
    (fix all (l : list expr) : bool := match l with [] => true | x :: r => can_be_removed ub x && all r end) l = true ->
    forall x, In x l -> can_be_removed ub x = true.
  Proof.
    induction l as [|y r IH]; intros H x Hin; [destruct Hin|].
    apply andb_true_iff in H as [H1 H2]. destruct Hin as [->|Hin]; [assumption | eauto].
  Qed.

  Lemma removable_not_spread : forall v, can_be_removed ub (ESpread v) = false.
  Proof. reflexivity. Qed.

  (* the test applied to an item of an array literal: a spread is accepted only on
     an array literal, which is looked into; a removable argument passes it too *)
  Definition item_removable (x : expr) : bool :=
    match x with
    | ESpread (EArray inner) => can_be_removed ub (EArray inner)
    | _ => can_be_removed ub x
    end.

  Lemma removable_item : forall x, can_be_removed ub x = true -> item_removable x = true.
  Proof. intros x H. destruct x; try exact H. rewrite removable_not_spread in H. discriminate H. Qed.

  Lemma plain_implies_array : forall inner,
    (forall x, In x inner -> can_be_removed ub x = true) -> can_be_removed ub (EArray inner) = true.
  Proof.
    induction inner as [|x r IH]; intros H; [reflexivity|].
    assert (Hx : can_be_removed ub x = true) by (apply H; left; reflexivity).
    assert (Hr : can_be_removed ub (EArray r) = true) by (apply IH; intros; apply H; right; assumption).
    cbn [can_be_removed] in Hr |- *. rewrite Hr. rewrite andb_true_r.
    destruct x; try exact Hx. discriminate Hx.
  Qed.

  Lemma array_items_removable : forall items, can_be_removed ub (EArray items) = true ->
    forall x, In x items -> item_removable x = true.
  Proof.
    induction items as [|y r IHr]; intros Hc x Hin; [destruct Hin|].
    cbn [can_be_removed] in Hc. apply andb_true_iff in Hc as [Hy Hr].
    destruct Hin as [<-|Hin]; [|exact (IHr Hr x Hin)].
    destruct y; try exact Hy. destruct y; try exact Hy.
    apply plain_implies_array, all_args. exact Hy.
  Qed.

  Lemma template_parts_removable : forall h parts, can_be_removed ub (ETemplate h parts) = true ->
    forall v t, In (v, t) parts -> can_be_removed ub v = true /\ ptype_eqb (known_type v) PUnknown = false.
  Proof.
    intros h. induction parts as [|[p q] r IHr]; intros Hc v t Hin; [destruct Hin|].
    cbn [can_be_removed] in Hc.
    destruct (negb (can_be_removed ub p) || ptype_eqb (known_type p) PUnknown) eqn:Hp; [discriminate|].
    destruct Hin as [E|Hin]; [|exact (IHr Hc v t Hin)].
    inv E. apply orb_false_iff in Hp as [Hp1 Hp2]. apply negb_false_iff in Hp1. auto.
  Qed.

  Lemma object_props_removable : forall props, can_be_removed ub (EObject props) = true ->
    forall kind computed key value, In (kind, computed, key, value) props ->
    (kind =? 1) = false /\ can_be_removed ub value = true /\
    (computed = true -> is_primitive_literal key || is_symbol_instance key = true).
  Proof.
    induction props as [|[[[kind computed] key] value] r IHr]; intros Hc k0 c0 key0 v0 Hin; [destruct Hin|].
    cbn [can_be_removed] in Hc.
    destruct (kind =? 1) eqn:Hk1; [discriminate|].
    destruct (computed && negb (is_primitive_literal key) && negb (is_symbol_instance key)) eqn:Hkey; [discriminate|].
    destruct (negb (can_be_removed ub value)) eqn:Hcv; [discriminate|].
    destruct Hin as [E|Hin]; [|exact (IHr Hc _ _ _ _ Hin)].
    inv E. apply negb_false_iff in Hcv. split; [assumption|]. split; [assumption|].
    intros ->. destruct (is_primitive_literal key0), (is_symbol_instance key0); try reflexivity. discriminate Hkey.
  Qed.

  Lemma flags_all : forall l,
    (fix all (l : list expr) : Prop := match l with [] => True | x :: r => flags_ok W x /\ all r end) l ->
    forall x, In x l -> flags_ok W x.
  Proof.
    induction l as [|y r IH]; intros H x Hin; [destruct Hin|].
    destruct H as [H1 H2]. destruct Hin as [->|Hin]; [assumption | eauto].
  Qed.

  Lemma flags_parts : forall h parts, flags_ok W (ETemplate h parts) ->
    forall v t, In (v, t) parts -> flags_ok W v.
  Proof.
    intros h. induction parts as [|[p q] r IHr]; intros Hf v t Hin; [destruct Hin|].
    destruct Hf as [Hp Hr]. destruct Hin as [E|Hin]; [inv E; exact Hp | exact (IHr Hr v t Hin)].
  Qed.

  Lemma flags_props : forall props, flags_ok W (EObject props) ->
    forall kind computed key value, In (kind, computed, key, value) props -> flags_ok W key /\ flags_ok W value.
  Proof.
    induction props as [|[[[k0 c0] key0] v0] r IHr]; intros Hf kind computed key value Hin; [destruct Hin|].
    destruct Hf as [Hk [Hv Hr]]. destruct Hin as [E|Hin]; [inv E; auto | exact (IHr Hr _ _ _ _ Hin)].
  Qed.

  (* items that pass the test evaluate purely, given the theorem for smaller expressions *)
  Lemma removable_items_pure : forall n l tr acc,
    (forall c, (esize c <= n)%nat -> flags_ok W c -> can_be_removed ub c = true -> pure_eval c) ->
    (sum_sizes l <= n)%nat ->
    (forall x, In x l -> flags_ok W x) -> (forall x, In x l -> item_removable x = true) ->
    lpure_at tr (eval_items_with W ev tr l acc).
  Proof.
    intros n l tr acc IH. revert tr acc.
    induction l as [|x r IHl]; intros tr acc Hs Hf Hc; cbn [eval_items_with].
    - intros tr' res H. inv H. eauto.
    - cbn [sum_sizes] in Hs.
      assert (Hr : forall t a, lpure_at t (eval_items_with W ev t r a))
        by (intros; apply IHl; [lia | intros; apply Hf; right; assumption | intros; apply Hc; right; assumption]).
      pose proof (Hf x (or_introl eq_refl)) as Hfx. pose proof (Hc x (or_introl eq_refl)) as Hcx.
      destruct x; try (apply lpure_lstep; [apply IH; [lia | exact Hfx | exact Hcx] | intros; apply Hr]).
      + (* a hole *) apply Hr.
      + (* a spread of an array literal, which the world iterates without effects *)
        destruct x; try discriminate Hcx.
        apply lpure_lstep; [|intros; apply Hr].
        apply pure_bind; [apply (IH (EArray items)); [cbn [esize] in Hs |- *; lia | exact Hfx | exact Hcx]|].
        intros xv Hxv. apply array_value in Hxv. subst xv.
        destruct (ok_spread_arr W Wok (length tr)) as [rr Hrr]. exact (pure_eff _ _ _ Hrr).
  Qed.

  (* the operator cases of the theorem, given it for the operands *)
  Lemma removable_un_pure : forall op e w,
    (can_be_removed ub e = true -> pure_eval e) ->
    can_be_removed ub (EUn op e w) = true -> pure_eval (EUn op e w).
  Proof.
    intros op e w He Hc tr. cbn [can_be_removed] in Hc.
    assert (Hop : forall k, can_be_removed ub e = true -> pure_at tr (bind (ev tr e) (fun tr1 x => Some (tr1, Val (k x))))).
    { intros k Hce. apply pure_bind; [exact (He Hce tr)|]. intros; apply pure_val. }
    destruct op; try discriminate Hc; cbn [eval].
    - (* -x on a bigint literal *)
      destruct e; try discriminate Hc. cbn [eval]. destruct (big_value s); [|apply pure_none]. cbn [bind].
      destruct (ok_neg_big W Wok z (length tr)) as [r Hr]. exact (pure_eff _ _ _ Hr).
    - (* UNot *) exact (Hop _ Hc).
    - (* UVoid *) exact (Hop (fun _ => VUndef) Hc).
    - (* UTypeof *)
      destruct e; try exact (Hop _ Hc).
      destruct w; [apply (typeof_id_pure W ref removable mustkeep) | exact (Hop _ Hc)].
  Qed.

  Lemma removable_bin_pure : forall op e1 e2,
    (can_be_removed ub e1 = true -> pure_eval e1) -> (can_be_removed ub e2 = true -> pure_eval e2) ->
    can_be_removed ub (EBin op e1 e2) = true -> pure_eval (EBin op e1 e2).
  Proof.
    intros op e1 e2 H1 H2 Hc tr.
    destruct (is_rel op) eqn:Hrel.
    { destruct (rel_removable op e1 e2 Hrel Hc) as (K1 & K2 & Hc1 & Hc2).
      destruct op; try discriminate Hrel; apply rel_pure; auto. }
    cbn [can_be_removed] in Hc.
    destruct op; try discriminate Hc; try discriminate Hrel; cbn [eval is_sem_binop].
    1-2: apply andb_true_iff in Hc as [Hc Hc2]; apply andb_true_iff in Hc as [Hcs Hc1].
    3-8: apply andb_true_iff in Hc as [Hc1 Hc2].
    - (* BLooseEq *) apply loose_pure; auto.
    - (* BLooseNe *) apply pure_neg, loose_pure; auto.
    - (* BStrictEq *)
      apply pure_binop; auto. intros x y _ _. destruct (strict_eq x y); [apply pure_val | apply pure_none].
    - (* BStrictNe *)
      apply pure_binop; auto. intros x y _ _. destruct (strict_eq x y); [apply pure_val | apply pure_none].
    - (* BNullish *)
      apply pure_bind; [exact (H1 Hc1 tr)|]. intros x _.
      destruct (nullish x); [exact (H2 Hc2 tr) | apply pure_val].
    - (* BLogOr *)
      apply pure_bind; [exact (H1 Hc1 tr)|]. intros x Hx.
      destruct (truthy x) eqn:Htx; [apply pure_val | exact (guarded_pure _ _ _ _ _ Hx Htx Hc2 H2)].
    - (* BLogAnd *)
      apply pure_bind; [exact (H1 Hc1 tr)|]. intros x Hx.
      destruct (truthy x) eqn:Htx; [exact (guarded_pure _ _ _ _ _ Hx Htx Hc2 H2) | apply pure_val].
    - (* BComma *)
      apply pure_bind; [exact (H1 Hc1 tr)|]. intros x _. exact (H2 Hc2 tr).
  Qed.

  Lemma removable_if_pure : forall e1 e2 e3,
    (can_be_removed ub e1 = true -> pure_eval e1) -> (can_be_removed ub e2 = true -> pure_eval e2) ->
    (can_be_removed ub e3 = true -> pure_eval e3) ->
    can_be_removed ub (EIf e1 e2 e3) = true -> pure_eval (EIf e1 e2 e3).
  Proof.
    intros e1 e2 e3 H1 H2 H3 Hc tr. cbn [can_be_removed] in Hc.
    apply andb_true_iff in Hc as [Hc1 Hc]. apply andb_true_iff in Hc as [Hc2 Hc3].
    cbn [eval]. apply pure_bind; [exact (H1 Hc1 tr)|]. intros x Hx.
    destruct (truthy x) eqn:Htx.
    - exact (guarded_pure _ _ _ _ _ Hx Htx Hc2 H2).
    - exact (guarded_pure _ _ _ _ _ Hx Htx Hc3 H3).
  Qed.

  Theorem can_be_removed_sound_size : forall n e, (esize e <= n)%nat ->
    flags_ok W e -> can_be_removed ub e = true -> pure_eval e.
  Proof.
    induction n as [|n IH]; intros e Hsz Hfl Hc; [destruct e; cbn [esize] in Hsz; lia|].
    intros tr. change (pure_at tr (ev tr e)).
    destruct e; cbn [can_be_removed] in Hc; try discriminate Hc;
      try (cbn [eval]; first [apply pure_val | apply pure_none]).
    - (* EBig *) cbn [eval]. destruct (big_value s); [apply pure_val | apply pure_none].
    - (* EId *)
      cbn [flags_ok] in Hfl. cbn [eval].
      destruct mustkeep; [discriminate|].
      destruct (ub ref) eqn:Hub; [|apply pure_val].
      destruct removable; [|discriminate].
      destruct (w_genv W ref) eqn:Hg; [apply pure_val | exfalso; apply (Hfl eq_refl eq_refl); reflexivity].
    - (* EDot *)
      subst removable. cbn [flags_ok] in Hfl. destruct Hfl as [Hp _]. exact (pure_here_at W _ _ (Hp eq_refl)).
    - (* ECall *)
      destruct pure; [|discriminate].
      rewrite esize_call in Hsz. cbn [flags_ok] in Hfl. destruct Hfl as [Hpc [_ Hfa]].
      rewrite eval_call_eq.
      destruct (Hpc eq_refl tr) as [fv [Hfv Hcall]]. rewrite Hfv.
      unfold call_step. cbn [bind]. unfold short_if.
      destruct ((oc =? 1) && nullish fv); [apply pure_val|].
      apply pure_catch, pure_lbind.
      + apply (removable_items_pure n); [exact IH | lia | exact (flags_all _ Hfa)|].
        intros x Hin. exact (removable_item x (all_args _ Hc x Hin)).
      + intros vs. destruct (Hcall vs (length tr)) as [r Hr]. exact (pure_eff _ _ _ Hr).
    - (* ENew *)
      destruct pure; [|discriminate].
      rewrite esize_new in Hsz. cbn [flags_ok] in Hfl. destruct Hfl as [Hpc [_ Hfa]].
      rewrite eval_new_eq.
      destruct (Hpc eq_refl tr) as [fv [Hfv Hcall]]. change (eval_target W 0 tr e) with (ev tr e) in Hfv.
      rewrite Hfv. cbn [bind]. apply pure_lbind.
      + apply (removable_items_pure n); [exact IH | lia | exact (flags_all _ Hfa)|].
        intros x Hin. exact (removable_item x (all_args _ Hc x Hin)).
      + intros vs. destruct (Hcall vs (length tr)) as [r Hr]. exact (pure_eff _ _ _ Hr).
    - (* EUn *)
      cbn [esize] in Hsz. cbn [flags_ok] in Hfl. destruct Hfl as [_ Hfv].
      apply removable_un_pure; [apply IH; [lia | exact Hfv] | exact Hc].
    - (* EBin *)
      cbn [esize] in Hsz. cbn [flags_ok] in Hfl. destruct Hfl as [Hf1 Hf2].
      apply removable_bin_pure; [apply IH; [lia | exact Hf1] | apply IH; [lia | exact Hf2] | exact Hc].
    - (* EIf *)
      cbn [esize] in Hsz. cbn [flags_ok] in Hfl. destruct Hfl as [Hf1 [Hf2 Hf3]].
      apply removable_if_pure;
        [apply IH; [lia | exact Hf1] | apply IH; [lia | exact Hf2] | apply IH; [lia | exact Hf3] | exact Hc].
    - (* ETemplate *)
      rewrite esize_template in Hsz. rewrite eval_template_eq. apply parts_pure. intros v t Hin.
      destruct (template_parts_removable head parts Hc v t Hin) as [Hcv Hk]. split; [|exact Hk].
      pose proof (in_sum_parts _ _ _ Hin). apply IH; [lia | exact (flags_parts _ _ Hfl v t Hin) | exact Hcv].
    - (* EArray *)
      rewrite esize_array in Hsz. rewrite eval_array_eq.
      apply pure_lbind; [|intros; apply pure_val].
      apply (removable_items_pure n); [exact IH | lia | exact (flags_all _ Hfl) | exact (array_items_removable items Hc)].
    - (* EObject *)
      rewrite esize_object in Hsz. rewrite eval_object_eq. apply props_pure. intros kind computed key value Hin.
      destruct (object_props_removable props Hc _ _ _ _ Hin) as (Hk & Hcv & Hkey).
      destruct (flags_props props Hfl _ _ _ _ Hin) as [Hfk Hfv].
      pose proof (in_sum_props _ _ _ _ _ Hin).
      split; [exact Hk|]. split; [apply IH; [lia | exact Hfv | exact Hcv]|].
      intros Hcomp. exact (key_prim_eval key Hfk (Hkey Hcomp)).
    - (* EAnnot *)
      subst removable. cbn [flags_ok] in Hfl. destruct Hfl as [Hp _]. cbn [eval]. exact (pure_here_at W _ _ (Hp eq_refl)).
    - (* EInlinedEnum *)
      cbn [esize] in Hsz. cbn [flags_ok] in Hfl. cbn [eval].
      exact (IH e ltac:(lia) Hfl Hc tr).
  Qed.

  Theorem can_be_removed_sound_all : forall e tr tr' out,
    flags_ok W e -> can_be_removed ub e = true ->
    ev tr e = Some (tr', out) -> tr' = tr /\ exists v, out = Val v.
  Proof.
    intros e tr tr' out Hf Hc Hev.
    exact (can_be_removed_sound_size (esize e) e (le_n _) Hf Hc tr tr' out Hev).
  Qed.
End CBR.

