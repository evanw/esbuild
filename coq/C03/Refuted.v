(* Statements that are FALSE of the faithful model (the real code has the
   defect), with their witnesses, and the strongest parts that do hold. *)
From V Require Import Common.Base C03.Num C03.SpecOps C03.Tree C03.Fold C03.MiniJS.

(* SimplifyUnusedExpr on an unused object literal with a computed key *)
Section UnusedKey.
  Definition ub (r : Z) : bool := 1000 <=? r.
  Definition zero_v : value := VNum (Fin false 0 0).
  (* a world in which the declared identifier 1 holds a symbol (var k = Symbol.iterator)
     and every abstract operation is free of effects *)
  Definition W0 : world := {|
    w_unbound := ub;
    w_lenv := fun _ => VSym 1;
    w_this := VUndef;
    w_genv := fun _ => None;
    w_un := fun _ _ _ => ([], Val zero_v);
    w_bin := fun _ _ _ _ => ([], Val zero_v);
    w_call := fun _ _ _ => ([], Val VUndef);
    w_new := fun _ _ _ => ([], Val VObjLit);
    w_get := fun _ _ _ => ([], Val VUndef);
    w_tokey := fun v _ => ([], Val v);
    w_tostr := fun _ _ => ([], Val (VStr []));
    w_spread := fun _ _ => ([], Val VUndef)
  |}.

  Definition obj_with_symbol_key : expr := EObject [(0, true, EId 1 false false, ENum (Fin false 1 0))].

  (* the statement one would like: an unused expression statement and its
     simplification have the same effects *)
  Definition simplify_unused_preserves_effects (e : expr) : Prop :=
    same_effects (eval W0 [] e) (eval_unused W0 [] (simplify_unused ub false e)).

  (* ({[k]: 1}) completes normally; its simplification k + "" throws TypeError *)
  Lemma simplify_unused_object_key_refuted_w :
    exists e, simplify_unused ub false e = UExpr (EBin BAdd (EId 1 false false) (EStr []))
              /\ eval W0 [] e = Some ([], Val VObjLit)
              /\ ~ simplify_unused_preserves_effects e.
  Proof.
    exists obj_with_symbol_key. split; [vm_compute; reflexivity|]. split; [vm_compute; reflexivity|].
    unfold simplify_unused_preserves_effects. vm_compute. exact (fun H => H).
  Qed.
End UnusedKey.

(* SimplifyUnusedExpr and optional chains (findings J and K, repaired by 01a3711 / a3926ba) *)
Section Chains.
  Definition s_q : list Z := [113].
  Definition s_y : list Z := [121].
  Definition s_z : list Z := [122].
  (* a world where the declared identifier 1 is an object whose property q is null,
     reading a property of undefined throws a TypeError, and calling the global 1000 logs *)
  Definition WJ : world := {|
    w_unbound := ub;
    w_lenv := fun r => if r =? 1 then VObj 1 else VNull;
    w_this := VUndef;
    w_genv := fun r => Some (VObj r);
    w_un := fun _ _ _ => ([], Val zero_v);
    w_bin := fun op a b _ => match op, b with BLooseEq, VNull => ([], Val (VBool (nullish a))) | _, _ => ([], Val zero_v) end;
    w_call := fun f _ _ => (match f with VObj r => [r] | _ => [] end, Val VUndef);
    w_new := fun _ _ _ => ([], Val VObjLit);
    w_get := fun o k _ => match o with
                          | VObj 1 => ([], Val VNull)
                          | VUndef | VNull => ([], Throw (VStr s_TypeError))
                          | _ => ([], Val VUndef)
                          end;
    w_tokey := fun v _ => ([], Val v);
    w_tostr := fun _ _ => ([], Val (VStr []));
    w_spread := fun _ _ => ([], Val VUndef)
  |}.

  (* a != null && (a.q?.y).z : the parenthesized chain a.q?.y ends before .z *)
  Definition paren_chain : expr :=
    EBin BLogAnd (EBin BLooseNe (EId 1 false false) ENull)
      (EDot (EDot (EDot (EId 1 false false) s_q 0 false false) s_y 1 false false) s_z 0 false false).

  (* J (repaired by 01a3711): the input throws TypeError (reading .z of undefined);
     TryToInsertOptionalChain stops at the link that ends the parenthesized chain, the
     expression is kept and still throws (before the fix: a?.q?.y.z, which completes normally) *)
  Lemma simplify_unused_paren_chain_fixed_w :
    simplify_unused ub false paren_chain = UExpr paren_chain
    /\ eval WJ [] paren_chain = Some ([], Throw (VStr s_TypeError))
    /\ eval_unused WJ [] (simplify_unused ub false paren_chain) = Some ([], Throw (VStr s_TypeError)).
  Proof. repeat split; vm_compute; reflexivity. Qed.

  (* the chain without parentheses is still shortened: a != null && a.q.y  =>  a?.q.y *)
  Definition plain_chain : expr :=
    EBin BLogAnd (EBin BLooseNe (EId 1 false false) ENull)
      (EDot (EDot (EId 1 false false) s_q 0 false false) s_y 0 false false).
  Lemma simplify_unused_plain_chain_inserted :
    simplify_unused ub false plain_chain
      = UExpr (EDot (EDot (EId 1 false false) s_q 1 false false) s_y 2 false false)
    /\ eval WJ [] plain_chain = eval_unused WJ [] (simplify_unused ub false plain_chain).
  Proof. repeat split; vm_compute; reflexivity. Qed.

  (* K (repaired by a3926ba): /* @__PURE__ */ n?.(g()) with n null never calls g; the
     call is kept because its argument cannot be removed (before the fix: g()) *)
  Definition pure_optional_call : expr :=
    ECall (EId 2 false false) [ECall (EId 1000 false false) [] 0 false] 1 true.
  Lemma simplify_unused_pure_optional_call_fixed_w :
    simplify_unused ub true pure_optional_call = UExpr pure_optional_call
    /\ eval WJ [] pure_optional_call = Some ([], Val VUndef)
    /\ eval_unused WJ [] (simplify_unused ub true pure_optional_call) = Some ([], Val VUndef).
  Proof. repeat split; vm_compute; reflexivity. Qed.

  (* with removable arguments the pure optional call is still dropped *)
  Lemma simplify_unused_pure_optional_call_removable :
    simplify_unused ub true (ECall (EId 2 false false) [ENum zero_num; EStr []] 1 true) = UNil.
  Proof. vm_compute. reflexivity. Qed.
End Chains.

(* ValuesLookTheSame and the typeof-identifier mark (finding P, fixed by 71e396b) *)
Section TypeofMark.
  (* a world where the identifier 1000 is not declared and does not exist, and the
     declared identifier 1 is falsy *)
  Definition WP : world := {|
    w_unbound := ub;
    w_lenv := fun _ => VNum (Fin false 0 0);
    w_this := VUndef;
    w_genv := fun _ => None;
    w_un := fun _ _ _ => ([], Val zero_v);
    w_bin := fun _ _ _ _ => ([], Val zero_v);
    w_call := fun _ _ _ => ([], Val VUndef);
    w_new := fun _ _ _ => ([], Val VObjLit);
    w_get := fun _ _ _ => ([], Val VUndef);
    w_tokey := fun v _ => ([], Val v);
    w_tostr := fun _ _ => ([], Val (VStr []));
    w_spread := fun _ _ => ([], Val VUndef)
  |}.
  Definition typeof_bare : expr := EUn UTypeof (EId 1000 false false) true.    (* typeof x *)
  Definition typeof_comma : expr := EUn UTypeof (EId 1000 false false) false.  (* typeof (0, x) *)

  (* after fix 71e396b the helper tells them apart, and the conditional is kept *)
  Lemma values_look_the_same_typeof_mark :
    values_look_the_same typeof_bare typeof_comma = false
    /\ eval WP [] typeof_bare = Some ([], Val (VStr s_undefined))
    /\ eval WP [] typeof_comma = Some ([], Throw (VStr s_ReferenceError)).
  Proof. repeat split; vm_compute; reflexivity. Qed.

  Lemma mangle_if_typeof_mark_kept :
    mangle_if ub false false (EId 1 false false) typeof_bare typeof_comma
      = Some (EIf (EId 1 false false) typeof_bare typeof_comma).
  Proof. vm_compute. reflexivity. Qed.
End TypeofMark.
