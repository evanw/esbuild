From V Require Import Common.Base C03.Num C03.SpecOps.
(* non-vacuity / sanity: concrete values *)
(* 2^32 + 5 -> 5 ; -(2^31 + 1) -> 2^31 - 1 ; 2^31 -> -2^31 ; -1.5 -> -1 ; 1e300-ish (m*2^900) -> 0 *)
Example toint32_ex :
  map (go_ToInt32 cvt_amd64) [Fin false (two32 + 5) 0; Fin true (two31 + 1) 0; Fin false two31 0; Fin true 3 (-1); Fin false 12345 900; NaN; Inf true]
  = [5; two31 - 1; - two31; -1; 0; 0; 0].
Proof. vm_compute. reflexivity. Qed.
Example bits_ex : num_of_bits 4607182418800017408 = Fin false two52 (-52).  (* 1.0 *)
Proof. vm_compute. reflexivity. Qed.
Example cmp_ex : spec_string_lt [97; 55357] [97; 65281] = true.  (* lone/high surrogate < U+FF01 in code-unit order *)
Proof. vm_compute. reflexivity. Qed.

From V Require Import C03.Tree C03.Fold C03.MiniJS C03.Worlds C03.NumProofs C03.TreeProofs.
(* (-1) >>> 0 = 4294967295 ; 1 << 31 = -2147483648 ; 2^32+5 | 0 = 5 *)
Example fold_ex :
  [fold_num_num cvt_amd64 BUShr (Fin true 1 0) (Fin false 0 0);
   fold_num_num cvt_amd64 BShl (Fin false 1 0) (Fin false 31 0);
   fold_num_num cvt_amd64 BBitOr (Fin false (two32 + 5) 0) (Fin false 0 0)]
  = [FNum (Fin false 4294967295 0); FNum (Fin true 2147483648 0); FNum (Fin false 5 0)].
Proof. vm_compute. reflexivity. Qed.
Example spec_int_op_ex : spec_int_op BUShr (Fin true 1 0) (Fin false 0 0) = Some 4294967295.
Proof. vm_compute. reflexivity. Qed.

(* to_boolean_sound is not vacuous: `f(), !0` evaluates (probe 1000 logged) and is reported truthy with side effects *)
Definition ex_e : expr := EBin BComma (ECall (EId 1000 false false) [] 0 false) (EUn UNot (ENum (Fin false 0 0)) false).
(* a world where calling the global 1000 logs 1000 and returns null *)
Definition Wex : world := {|
  w_unbound := fun r => 1000 <=? r; w_lenv := fun _ => VUndef; w_this := VUndef;
  w_genv := fun r => Some (VObj r);
  w_un := fun _ _ _ => ([], Val (VNum (Fin false 0 0)));
  w_bin := fun _ _ _ _ => ([], Val (VNum (Fin false 0 0)));
  w_call := fun f _ _ => (match f with VObj r => [r] | _ => [] end, Val VNull);
  w_new := fun _ _ _ => ([], Val VObjLit);
  w_get := fun _ _ _ => ([7], Val VUndef);          (* every property read is a logged getter *)
  w_tokey := fun v _ => ([], Val v);
  w_tostr := fun _ _ => ([], Val (VStr []));
  w_spread := fun _ _ => ([], Val VUndef) |}.
Example to_boolean_ex :
  to_boolean ex_e = (true, false, true) /\
  eval Wex [] ex_e = Some ([1000], Val (VBool true)) /\
  flags_ok Wex ex_e.
Proof.
  split; [vm_compute; reflexivity|]. split; [vm_compute; reflexivity|].
  cbn. repeat split; intros; try discriminate; exact I.
Qed.

(* the models rewrite: a ? true : f()  ->  a || f() in a boolean context *)
Example simplify_boolean_ex :
  simplify_boolean (fun r => 1000 <=? r) (EIf (EId 1 false false) (EBool true) (ECall (EId 1000 false false) [] 0 false))
  = EBin BLogOr (EId 1 false false) (ECall (EId 1000 false false) [] 0 false).
Proof. vm_compute. reflexivity. Qed.
Example mangle_if_ex :
  mangle_if (fun r => 1000 <=? r) false false (EBin BLooseNe (EId 1 false false) ENull) (EId 1 false false) (EStr [98])
  = Some (EBin BNullish (EId 1 false false) (EStr [98])).
Proof. vm_compute. reflexivity. Qed.

(* check_equality_sound is not vacuous: -0 === 0 is true, NaN == NaN false, null == undefined true, true == 1 true *)
Example check_equality_ex :
  [check_equality (ENum (Fin true 0 0)) (ENum (Fin false 0 0)) true; check_equality (ENum NaN) (EInlinedEnum (ENum NaN)) false;
   check_equality ENull EUndefined false; check_equality ENull EUndefined true; check_equality (EBool true) (ENum (Fin false 1 0)) false]
  = [(true, true); (false, true); (true, true); (false, true); (true, true)].
Proof. vm_compute. reflexivity. Qed.

From V Require Import C03.TreeProofs2.
(* join_left_assoc_equiv is about a real rotation: a || (b || c) becomes (a || b) || c, and a comma is hoisted *)
Example join_left_ex :
  join_left BLogOr (EBin BComma (EId 1 false false) (EId 2 false false)) (EBin BLogOr (EId 3 false false) (EId 4 false false))
  = EBin BComma (EId 1 false false) (EBin BLogOr (EBin BLogOr (EId 2 false false) (EId 3 false false)) (EId 4 false false)).
Proof. vm_compute. reflexivity. Qed.
Example short_circuit_ex : short_circuit BLogOr.
Proof. right; left; reflexivity. Qed.
Example to_nullish_ex : to_nullish (EBin BComma (ECall (EId 1000 false false) [] 0 false) (EUn UVoid (EStr [97]) false)) = (true, false, true).
Proof. vm_compute. reflexivity. Qed.

From V Require Import C03.WorldEx C03.TreeProofs3 C03.TreeProofs4.
(* expr_can_be_removed_sound / known_type_sound are not vacuous: Wgood is a world_ok
   world with logged getters, calls and object conversions; the expression
     [ typeof g !== "undefined" && g, ...[x], "a" < "b", `t${1}`, {["k"]: !x} ]
   is removable, its flags are ok and it evaluates *)
Definition ex_guard : expr :=
  EBin BLogAnd (EBin BStrictNe (EUn UTypeof (EId 1000 false false) true) (EStr str_undefined)) (EId 1000 false false).
Definition ex_removable : expr :=
  EArray [ex_guard; ESpread (EArray [EId 1 false false]); EBin BLt (EStr [97]) (EStr [98]);
          ETemplate [116] [(ENum (Fin false 1 0), [])];
          EObject [(0, true, EStr [107], EUn UNot (EId 1 false false) false)]].
Example can_be_removed_ex :
  can_be_removed (w_unbound Wgood) ex_removable = true /\
  eval Wgood [] ex_removable = Some ([], Val VArr) /\
  flags_ok Wgood ex_removable /\ world_ok Wgood.
Proof.
  split; [vm_compute; reflexivity|]. split; [vm_compute; reflexivity|]. split; [|exact Wgood_ok].
  cbn. repeat split; intros; try discriminate; try exact I; eauto.
Qed.
(* ... while a property read is a logged getter in that world (and is not removable) *)
Example getter_effect_ex :
  eval Wgood [] (EDot (EId 1 false false) [120] 0 false false) = Some ([7], Val (VObj 5)) /\
  can_be_removed (w_unbound Wgood) (EDot (EId 1 false false) [120] 0 false false) = false.
Proof. split; vm_compute; reflexivity. Qed.
Example known_type_ex :
  known_type (EBin BAdd (EStr [97]) (EId 1 false false)) = PString /\
  eval Wgood [] (EBin BAdd (EStr [97]) (EId 1 false false)) = Some ([88], Val (VStr [])).
Proof. split; vm_compute; reflexivity. Qed.

From V Require Import C03.TreeProofs5.
(* simplify_not_correct is about real rewrites: !(f(), NaN) => f(), true ; !!(a == b) keeps one == ; !(a === b) => a !== b *)
Example simplify_not_ex :
  maybe_simplify_not (EBin BComma (ECall (EId 1000 false false) [] 0 false) (ENum NaN))
  = Some (EBin BComma (ECall (EId 1000 false false) [] 0 false) (EBool true)) /\
  maybe_simplify_not (EUn UNot (EBin BLooseEq (EId 1 false false) (EId 2 false false)) false)
  = Some (EBin BLooseEq (EId 1 false false) (EId 2 false false)) /\
  eval Wgood [] (EUn UNot (EBin BComma (ECall (EId 1000 false false) [] 0 false) (ENum NaN)) false)
  = Some ([99], Val (VBool true)).
Proof. repeat split; vm_compute; reflexivity. Qed.

From V Require Import C03.TreeProofs6.
(* simplify_boolean_sound on a real rewrite in an effectful world: (g() ? 1 : 0) is simplified to g() || false
   and ((x >>> 0) === 0) to !(x >>> 0) *)
Definition ex_sb : expr :=
  EBin BLogAnd (EIf (ECall (EId 1000 false false) [] 0 false) (ENum (Fin false 1 0)) (EBool false))
               (EBin BStrictEq (EBin BUShr (EId 1 false false) (ENum (Fin false 0 0))) (ENum (Fin false 0 0))).
Example simplify_boolean_sound_ex :
  simplify_boolean (w_unbound Wgood) ex_sb
  = EBin BLogAnd (EBin BLogOr (ECall (EId 1000 false false) [] 0 false) (EBool false))
                 (EUn UNot (EBin BUShr (EId 1 false false) (ENum (Fin false 0 0))) false) /\
  eval Wgood [] ex_sb = Some ([99], Val (VBool false)) /\ flags_ok Wgood ex_sb.
Proof.
  split; [vm_compute; reflexivity|]. split; [vm_compute; reflexivity|].
  cbn. repeat split; intros; try discriminate; try exact I; eauto.
Qed.

From V Require Import C03.PowProofs.
(* fold_pow_special_cases: the witnesses of the defect repaired by 9e1822e fold to NaN, as the standard says *)
Example fold_pow_ex :
  map (fun p => fold_pow (fst p) (snd p))
      [(Fin false 1 0, NaN); (Fin false 1 0, Inf false); (Fin true 1 0, Inf true); (Fin false 2 0, Inf true); (Fin true 0 0, Fin true 3 0)]
  = [Some NaN; Some NaN; Some NaN; Some (Fin false 0 0); Some (Inf true)] /\ wf_double (Fin false 1 0).
Proof. split; [vm_compute; reflexivity | cbn; unfold two53; lia]. Qed.

From V Require Import C03.TreeProofs7 C03.TreeProofs8.
(* simplify_unused_sound_partial on a real input in the effectful world Wgood:
     [`t${g()}${1}`, x.k, ...[g()]] && (g() ? 1 : g())   (unused)
   keeps the template conversion, the getter and the calls, drops the rest *)
Definition ex_su : expr :=
  EBin BLogAnd
    (EArray [ETemplate [116] [(ECall (EId 1000 false false) [] 0 false, []); (ENum (Fin false 1 0), [])];
             EDot (EId 1 false false) [107] 0 false false;
             ESpread (EArray [ECall (EId 1000 false false) [] 0 false])])
    (EIf (ECall (EId 1000 false false) [] 0 false) (ENum (Fin false 1 0)) (ECall (EId 1000 false false) [] 0 false)).
Example simplify_unused_ex :
  simplify_unused (w_unbound Wgood) false ex_su <> UFuel /\ no_bad Wgood ex_su /\ flags_ok Wgood ex_su /\
  eval Wgood [] ex_su = Some ([99; 7; 99; 99], Throw (VStr [101])) /\
  eval_unused Wgood [] (simplify_unused (w_unbound Wgood) false ex_su) = Some ([99; 7; 99; 99], Throw (VStr [101])).
Proof.
  split; [vm_compute; discriminate|]. split; [cbn; tauto|]. split; [cbn; repeat split; intros; try discriminate; exact I|].
  split; vm_compute; reflexivity.
Qed.

From V Require Import C03.TreeProofs10.
(* values_look_the_same_sound_partial is about effectful expressions too: g(x.k, -0) looks the same as itself
   (and not as g(x.k, 0)); its evaluation logs the getter and the call *)
Definition ex_vls : expr := ECall (EId 1000 false false) [EDot (EId 1 false false) [107] 0 false false; ENum (Fin true 0 (-1074))] 0 false.
Example vls_ex :
  values_look_the_same ex_vls ex_vls = true /\ vls_ok ex_vls /\
  values_look_the_same ex_vls (ECall (EId 1000 false false) [EDot (EId 1 false false) [107] 0 false false; ENum (Fin false 0 (-1074))] 0 false) = false /\
  eval Wgood [] ex_vls = Some ([7; 99], Throw (VStr [101])).
Proof. repeat split; try (vm_compute; reflexivity); cbn; unfold two52; try lia; auto; left; lia. Qed.

From V Require Import C03.TreeProofs13 C03.TreeProofs11.
(* mangle_if_equiv_partial / mangle_if_total on real rewrites in the effectful world Wgood:
     (g(), !b) ? f(g(), 1) : f(x.k, 1)   =>   g(), f(b ? x.k : g(), 1)
   (comma hoisted, negation flipped, the two calls merged through the recursive call), with the
   same logged evaluation (call, getter, call); and  a != null ? a : g()  =>  a ?? g() *)
Definition ex_mi_g : expr := ECall (EId 1000 false false) [] 0 false.
Definition ex_mi_one : expr := ENum (Fin false 4503599627370496 (-52)).
Definition ex_mi_t : expr := EBin BComma ex_mi_g (EUn UNot (EId 2 false false) false).
Definition ex_mi_y : expr := ECall (EId 3 false false) [ex_mi_g; ex_mi_one] 0 false.
Definition ex_mi_n : expr := ECall (EId 3 false false) [EDot (EId 1 false false) [107] 0 false false; ex_mi_one] 0 false.
Definition ex_mi_r : expr :=
  EBin BComma ex_mi_g
    (ECall (EId 3 false false) [EIf (EId 2 false false) (EDot (EId 1 false false) [107] 0 false false) ex_mi_g; ex_mi_one] 0 false).
Example mangle_if_equiv_ex :
  mangle_if (w_unbound Wgood) false true ex_mi_t ex_mi_y ex_mi_n = Some ex_mi_r /\
  (flags_ok Wgood ex_mi_t /\ flags_ok Wgood ex_mi_y /\ flags_ok Wgood ex_mi_n) /\
  (vls_ok ex_mi_t /\ vls_ok ex_mi_y /\ vls_ok ex_mi_n) /\ (no_hole_args ex_mi_y /\ no_hole_args ex_mi_n) /\
  eval Wgood [] (EIf ex_mi_t ex_mi_y ex_mi_n) = Some ([99; 7; 99], Val VUndef) /\
  eval Wgood [] ex_mi_r = Some ([99; 7; 99], Val VUndef) /\
  mangle_if (w_unbound Wgood) false true (EBin BLooseNe (EId 1 false false) ENull) (EId 1 false false) ex_mi_g
    = Some (EBin BNullish (EId 1 false false) ex_mi_g).
Proof.
  split; [vm_compute; reflexivity|].
  split; [cbn; repeat split; intros; try discriminate; exact I|].
  split; [cbn; unfold two52, two53; repeat split; try (right; lia); exact I|].
  split; [cbn; repeat split; try discriminate; exact I|].
  repeat split; vm_compute; reflexivity.
Qed.

(* try_insert_optional_chain_sound_partial / mangle_if_equiv_partial with optional-chain insertion:
   x != null ? x.k.l : undefined  =>  x?.k.l  (both getters logged), while over the parenthesized
   chain  null == b ? undefined : (b.k?.l).m  nothing is inserted (fix 01a3711) *)
Example mangle_if_chain_ex :
  mangle_if (w_unbound Wgood) false false (EBin BLooseNe (EId 1 false false) ENull)
    (EDot (EDot (EId 1 false false) [107] 0 false false) [108] 0 false false) EUndefined
    = Some (EDot (EDot (EId 1 false false) [107] 1 false false) [108] 2 false false) /\
  eval Wgood [] (EDot (EDot (EId 1 false false) [107] 1 false false) [108] 2 false false) = Some ([7; 7], Val (VObj 5)) /\
  eval Wgood [] (EIf (EBin BLooseNe (EId 1 false false) ENull)
                   (EDot (EDot (EId 1 false false) [107] 0 false false) [108] 0 false false) EUndefined)
    = Some ([7; 7], Val (VObj 5)) /\
  try_insert_optional_chain (EId 2 false false)
    (EDot (EDot (EDot (EId 2 false false) [107] 0 false false) [108] 1 false false) [109] 0 false false) = None.
Proof. repeat split; vm_compute; reflexivity. Qed.

(* simplify_boolean_never_grows / simplify_unused_total on a real input: the left operand
   (g() ? 1 : 0) of an unused && shrinks to g() || false before it is simplified again *)
Example simplify_unused_total_ex :
  esize (simplify_boolean (w_unbound Wgood) ex_sb) = 9%nat /\ esize ex_sb = 11%nat /\
  simplify_unused (w_unbound Wgood) false (EBin BLogAnd ex_sb (EId 1 false false)) <> UFuel.
Proof. repeat split; vm_compute; try reflexivity; discriminate. Qed.

From V Require Import C03.Stmt C03.StmtProofs.
(* stmt_normal_form_sound / mangle_stmts_equiv_partial on a real rewrite of the parser:
     if (x) return g(); h(); return k();   =>   return x ? g() : (h(), k());
   same normal form, and the body runs (x is truthy in Wgood: the call is logged, its result returned) *)
Definition ex_ms_call (r : Z) : expr := ECall (EId r false false) [] 0 false.
Definition ex_ms_in : list stmt :=
  [SIf (EId 1 false false) (SReturn (Some (ex_ms_call 1000))) SEmpty; SExpr (ex_ms_call 1001); SReturn (Some (ex_ms_call 1002))].
Definition ex_ms_out : list stmt :=
  [SReturn (Some (EIf (EId 1 false false) (ex_ms_call 1000) (EBin BComma (ex_ms_call 1001) (ex_ms_call 1002))))].
Example mangle_stmts_ex :
  norm_fn (w_unbound Wgood) ex_ms_in = norm_fn (w_unbound Wgood) ex_ms_out /\
  norm_fn (w_unbound Wgood) ex_ms_in =
    TIf (EId 1 false false) (TRet (Some (ex_ms_call 1000))) (TEff (ex_ms_call 1001) (TRet (Some (ex_ms_call 1002)))) /\
  exec_fn Wgood (fun _ _ => ([], Val VUndef)) [] ex_ms_in = Some ([99], CReturn VUndef) /\
  check_mangle_stmts (w_unbound Wgood) (ex_ms_in, ex_ms_out) = true /\
  check_mangle_stmts (w_unbound Wgood) (ex_ms_in, [SReturn (Some (ex_ms_call 1002))]) = false.
Proof. repeat split; vm_compute; reflexivity. Qed.
