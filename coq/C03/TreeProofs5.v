(* MaybeSimplifyNot / Not are correct: the rewritten expression evaluates
   exactly like "!e" (same trace, same completion, same value) *)
From V Require Import Common.Base C03.Num C03.Tree C03.MiniJS C03.Worlds C03.TreeProofs C03.TreeProofs3.

Section NotProofs.
  Variable W : world.
  Hypothesis Wok : world_ok W.
  Notation ev := (eval W).

  Lemma not_num : forall n, negb (truthy (VNum n)) = (is_zero n || is_nan n).
  Proof. intros n. cbn [truthy]. destruct (is_zero n), (is_nan n); reflexivity. Qed.

  Theorem simplify_not_correct_all : forall e e' w tr res,
    maybe_simplify_not e = Some e' ->
    ev tr (EUn UNot e w) = Some res -> ev tr e' = Some res.
  Proof.
    induction e; intros e' w0 tr res Hm Hev; cbn [maybe_simplify_not] in Hm; try discriminate Hm;
      (* null, undefined, booleans, functions, regular expressions: both sides compute *)
      try (inv Hm; exact Hev).
    - (* ENum *) inv Hm. cbn [eval bind] in Hev |- *. rewrite not_num in Hev. exact Hev.
    - (* EBig *)
      destruct (check_equality_bigint s [48]) as [eq ok] eqn:Hc. destruct ok; [|discriminate]. inv Hm.
      cbn [eval] in Hev |- *. destruct (big_value s) as [z|] eqn:Hz; [|discriminate]. cbn [bind] in Hev.
      cbn [truthy] in Hev. rewrite <- (bigint_zero_test _ _ _ Hz Hc) in Hev. rewrite negb_involutive in Hev. exact Hev.
    - (* EStr *) inv Hm. cbn [eval bind truthy] in Hev |- *. destruct s; exact Hev.
    - (* EUn: !!x with x boolean *)
      destruct op; try discriminate Hm.
      destruct (ptype_eqb (known_type e) PBoolean) eqn:Hk; [|discriminate]. inv Hm.
      apply internal_ptype_dec_bl in Hk.
      cbn [eval] in Hev.
      destruct (ev tr e') as [[t1 [x|x]]|] eqn:Hx; cbn [bind] in Hev; try exact Hev.
      pose proof (known_type_sound_all W Wok _ _ _ _ Hx) as Ht. rewrite Hk in Ht.
      destruct x; try discriminate Ht. cbn [truthy] in Hev. rewrite negb_involutive in Hev. exact Hev.
    - (* EBin *)
      destruct op; try discriminate Hm; inv Hm; cbn [eval] in Hev |- *.
      + (* !(a == b) => a != b *)
        unfold neg_outcome.
        destruct (bind (ev tr e1) _) as [[t1 [x|x]]|] eqn:Hb; cbn [bind] in Hev; try exact Hev.
        assert (Hbool : is_bool x = true) by exact (known_type_sound_all W Wok (EBin BLooseEq e1 e2) _ _ _ Hb).
        destruct x; try discriminate Hbool. exact Hev.
      + (* !(a != b) => a == b *)
        unfold neg_outcome in Hev.
        destruct (bind (ev tr e1) _) as [[t1 [x|x]]|] eqn:Hb; cbn [bind] in Hev; try exact Hev.
        destruct x; try discriminate. cbn [bind truthy] in Hev. rewrite negb_involutive in Hev. exact Hev.
      + (* !(a === b) => a !== b *)
        destruct (ev tr e1) as [[t1 [x|x]]|]; cbn [bind] in Hev |- *; try exact Hev.
        destruct (ev t1 e2) as [[t2 [y|y]]|]; cbn [bind] in Hev |- *; try exact Hev.
        destruct (strict_eq x y); cbn [bind truthy] in Hev |- *; exact Hev.
      + (* !(a !== b) => a === b *)
        destruct (ev tr e1) as [[t1 [x|x]]|]; cbn [bind] in Hev |- *; try exact Hev.
        destruct (ev t1 e2) as [[t2 [y|y]]|]; cbn [bind] in Hev |- *; try exact Hev.
        destruct (strict_eq x y); cbn [bind truthy] in Hev |- *; [rewrite negb_involutive in Hev|]; exact Hev.
      + (* !(a, b) => a, !b *)
        destruct (ev tr e1) as [[t1 [x|x]]|]; cbn [bind] in Hev |- *; try exact Hev.
        destruct (maybe_simplify_not e2) as [nb|] eqn:Hn.
        * apply (IHe2 nb false t1 res eq_refl). cbn [eval]. exact Hev.
        * cbn [eval]. exact Hev.
    - (* EAnnot *) cbn [eval] in Hev. apply (IHe e' false tr res Hm). cbn [eval]. exact Hev.
    - (* EInlinedEnum *) cbn [eval] in Hev. apply (IHe e' false tr res Hm). cbn [eval]. exact Hev.
  Qed.

  Corollary not_correct : forall e tr res, ev tr (EUn UNot e false) = Some res -> ev tr (not_ e) = Some res.
  Proof.
    intros e tr res H. unfold not_. destruct (maybe_simplify_not e) eqn:Hm; [|exact H].
    eapply simplify_not_correct_all; eauto.
  Qed.
End NotProofs.
