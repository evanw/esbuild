(* How a result of the evaluator decomposes (bind_inv, eff_inv, world_bin_val), what
   it means for an evaluation to be pure (pure_at), and the soundness of
   ToBooleanWithSideEffects and CheckEqualityIfNoSideEffects over MiniJS *)
From V Require Import Common.Base C03.Num C03.Tree C03.MiniJS C03.Worlds.

Ltac inv H := inversion H; subst; clear H.

Lemma dec_value_ge : forall l acc z, 0 <= acc -> dec_value l acc = Some z -> acc <= z.
Proof.
  induction l as [|c l IH]; intros acc z Ha H; cbn [dec_value] in H.
  - inv H. lia.
  - destruct ((48 <=? c) && (c <=? 57)) eqn:Hc; [|discriminate].
    apply IH in H; lia.
Qed.

Lemma dec_value_cons_nz : forall c l z, dec_value (c :: l) 0 = Some z -> c <> 48 -> z <> 0.
Proof.
  intros c l z H Hc. change (dec_value (c :: l) 0) with
    (if (48 <=? c) && (c <=? 57) then dec_value l (0 * 10 + (c - 48)) else None) in H.
  destruct ((48 <=? c) && (c <=? 57)) eqn:Hd; [|discriminate].
  apply dec_value_ge in H; lia.
Qed.

Lemma bigint_zero_test : forall s z eq,
  big_value s = Some z -> check_equality_bigint s [48] = (eq, true) -> negb eq = negb (z =? 0).
Proof.
  intros s z eq Hv Hc. unfold check_equality_bigint in Hc.
  destruct (zlist_eqb s [48]) eqn:Hs.
  - apply zlist_eqb_eq in Hs. subst s. inv Hc. cbn in Hv. inv Hv. reflexivity.
  - destruct (no_radix s && no_radix [48]) eqn:Hn; inv Hc.
    apply andb_true_iff in Hn as [Hn _].
    assert (Hz : z <> 0).
    { destruct s as [|c [|c2 s]]; cbn [big_value] in Hv; try discriminate.
      - apply dec_value_cons_nz in Hv; [assumption|]. intro; subst c. cbn in Hs. discriminate.
      - cbn [no_radix] in Hn. destruct (c =? 48) eqn:Hc48; [discriminate|].
        apply dec_value_cons_nz in Hv; [assumption|lia]. }
    destruct (z =? 0) eqn:E; [lia|reflexivity].
Qed.

Section Proofs.
  Variable W : world.

  Notation ev := (eval W).

  Lemma bind_inv : forall r k tr' out,
    bind r k = Some (tr', out) ->
    (exists tr1 v, r = Some (tr1, Val v) /\ k tr1 v = Some (tr', out)) \/
    (exists x, r = Some (tr', Throw x) /\ out = Throw x).
  Proof.
    intros r k tr' out H. unfold bind in H.
    destruct r as [[tr1 [v|x]]|]; try discriminate.
    - left. eauto.
    - right. inv H. eauto.
  Qed.

  Lemma bind_val : forall r k tr' v,
    bind r k = Some (tr', Val v) -> exists tr1 x, r = Some (tr1, Val x) /\ k tr1 x = Some (tr', Val v).
  Proof.
    intros r k tr' v H. apply bind_inv in H as [H|(x & _ & H)]; [exact H | discriminate H].
  Qed.

  Lemma eff_inv : forall tr f tr' out, eff tr f = Some (tr', out) -> exists t2, f (length tr) = (t2, out) /\ tr' = tr ++ t2.
  Proof.
    intros tr f tr' out H. unfold eff in H. destruct (f (length tr)) as [t2 o].
    destruct o as [v|x]; [inv H; eauto|]. destruct x; inv H; eauto.
  Qed.

  Lemma add_values_val : forall tr x y tr' v,
    add_values W tr x y = Some (tr', Val v) -> exists t2, w_bin W BAdd x y (length tr) = (t2, Val v).
  Proof.
    intros tr x y tr' v H. unfold add_values in H.
    destruct (is_object x || is_object y); [apply eff_inv in H as (t2 & E & _); eauto|].
    destruct x, y; try discriminate H; apply eff_inv in H as (t2 & E & _); eauto.
  Qed.

  (* is_sem_binop or ==: the operators whose value the world computes *)
  Lemma world_bin_val : forall op l r tr tr' v, is_sem_binop op = true \/ op = BLooseEq ->
    ev tr (EBin op l r) = Some (tr', Val v) ->
    exists t1 x t2 y t3, ev tr l = Some (t1, Val x) /\ ev t1 r = Some (t2, Val y) /\
                         w_bin W op x y (length t2) = (t3, Val v).
  Proof.
    intros op l r tr tr' v Hop H.
    assert (Hk : bind (ev tr l) (fun tr1 x => bind (ev tr1 r) (fun tr2 y =>
                   if binop_eqb op BAdd then add_values W tr2 x y else apply_bin W op tr2 x y)) = Some (tr', Val v)).
    { destruct Hop as [Hop| ->]; [|exact H]. destruct op; try discriminate Hop; exact H. }
    apply bind_val in Hk as (t1 & x & Hx & Hk). apply bind_val in Hk as (t2 & y & Hy & Hk).
    exists t1, x, t2, y. destruct (binop_eqb op BAdd) eqn:E.
    - apply internal_binop_dec_bl in E. subst op. apply add_values_val in Hk as [t3 Hk]. eauto.
    - apply eff_inv in Hk as (t3 & Hk & _). eauto.
  Qed.

  Lemma eq_bin_bool : forall op l r tr tr' v, op = BLooseNe \/ op = BStrictEq \/ op = BStrictNe ->
    ev tr (EBin op l r) = Some (tr', Val v) -> exists b, v = VBool b.
  Proof.
    intros op l r tr tr' v [-> | [-> | ->]] H; cbn [eval] in H.
    - unfold neg_outcome in H. destruct (bind _ _) as [[t [w|w]]|]; try discriminate H.
      destruct w; inv H. eauto.
    - apply bind_val in H as (t1 & x & _ & H). apply bind_val in H as (t2 & y & _ & H).
      destruct (strict_eq x y); inv H. eauto.
    - apply bind_val in H as (t1 & x & _ & H). apply bind_val in H as (t2 & y & _ & H).
      destruct (strict_eq x y); inv H. eauto.
  Qed.

  Lemma props_value : forall (evf : trace -> expr -> option (trace * outcome)) l tr tr' v,
    eval_props_with W evf tr l = Some (tr', Val v) -> v = VObjLit.
  Proof.
    induction l as [|[[[kind computed] key] value] r IH]; intros tr tr' v H; cbn [eval_props_with] in H.
    - inv H. reflexivity.
    - destruct (kind =? 1); [|destruct computed];
        repeat (apply bind_inv in H as [(? & ? & ? & H)|(? & ? & ?)]; [|discriminate]); eauto.
  Qed.

  Lemma array_value : forall items tr tr' v, ev tr (EArray items) = Some (tr', Val v) -> v = VArr.
  Proof.
    intros items tr tr' v H. rewrite eval_array_eq in H.
    destruct (eval_items_with W ev tr items []) as [[t1 [vs|x]]|]; inv H. reflexivity.
  Qed.

  Lemma bin_cong : forall op l l' r r',
    (forall tr, ev tr l = ev tr l') -> (forall tr, ev tr r = ev tr r') ->
    forall tr, ev tr (EBin op l r) = ev tr (EBin op l' r').
  Proof.
    intros op l l' r r' Hl Hr tr. cbn [eval]. rewrite Hl.
    destruct op; try reflexivity;
      (destruct (ev tr l') as [[t1 [x|z]]|]; cbn [bind neg_outcome]; rewrite ?Hr; reflexivity).
  Qed.

  Lemma if_cong : forall t t' y y' n n',
    (forall tr, ev tr t = ev tr t') -> (forall tr, ev tr y = ev tr y') -> (forall tr, ev tr n = ev tr n') ->
    forall tr, ev tr (EIf t y n) = ev tr (EIf t' y' n').
  Proof.
    intros t t' y y' n n' Ht Hy Hn tr. cbn [eval]. rewrite Ht.
    apply bind_ext. intros t1 x. rewrite Hy, Hn. reflexivity.
  Qed.

  (* r completes normally and leaves the trace tr as it is *)
  Definition pure_at (tr : trace) (r : option (trace * outcome)) : Prop :=
    forall tr' out, r = Some (tr', out) -> tr' = tr /\ exists v, out = Val v.

  Lemma pure_val : forall tr v, pure_at tr (Some (tr, Val v)).
  Proof. intros tr v tr' out H. inv H. eauto. Qed.

  Lemma pure_none : forall tr, pure_at tr None.
  Proof. intros tr tr' out H. discriminate H. Qed.

  Lemma pure_bind : forall tr r k,
    pure_at tr r -> (forall v, r = Some (tr, Val v) -> pure_at tr (k tr v)) -> pure_at tr (bind r k).
  Proof.
    intros tr [[t [v|x]]|] k Hr Hk; cbn [bind]; [| |apply pure_none].
    - destruct (Hr _ _ eq_refl) as [-> _]. apply Hk. reflexivity.
    - destruct (Hr _ _ eq_refl) as [_ [v Hv]]. discriminate Hv.
  Qed.

  Lemma eff_quiet : forall tr f r, f (length tr) = ([], Val r) -> eff tr f = Some (tr, Val r).
  Proof. intros tr f r H. unfold eff. rewrite H, app_nil_r. reflexivity. Qed.

  Lemma pure_eff : forall tr f r, f (length tr) = ([], Val r) -> pure_at tr (eff tr f).
  Proof. intros tr f r H. rewrite (eff_quiet _ _ _ H). apply pure_val. Qed.

  Lemma pure_catch : forall tr r, pure_at tr r -> pure_at tr (catch_short r).
  Proof.
    intros tr [[t [v|x]]|] H; try exact H.
    destruct (H _ _ eq_refl) as [_ [v Hv]]. discriminate Hv.
  Qed.

  Lemma pure_neg : forall tr r, pure_at tr r -> pure_at tr (neg_outcome r).
  Proof.
    intros tr [[t [v|x]]|] H; try exact H.
    destruct (H _ _ eq_refl) as [-> _]. destruct v; try apply pure_none. apply pure_val.
  Qed.

  (* [pure_at] for the evaluation of a list *)
  Definition lpure_at (tr : trace) (r : option (trace * lres)) : Prop :=
    forall tr' res, r = Some (tr', res) -> tr' = tr /\ exists vs, res = LVals vs.

  Lemma pure_lbind : forall tr r k,
    lpure_at tr r -> (forall vs, pure_at tr (k tr vs)) -> pure_at tr (lbind r k).
  Proof.
    intros tr [[t [vs|x]]|] k Hr Hk; cbn [lbind]; [| |apply pure_none].
    - destruct (Hr _ _ eq_refl) as [-> _]. apply Hk.
    - destruct (Hr _ _ eq_refl) as [_ [vs Hvs]]. discriminate Hvs.
  Qed.

  Lemma lpure_lstep : forall tr r acc k,
    pure_at tr r -> (forall acc', lpure_at tr (k tr acc')) -> lpure_at tr (lstep r acc k).
  Proof.
    intros tr [[t [v|x]]|] acc k Hr Hk; cbn [lstep]; [| |intros tr' res H; discriminate H].
    - destruct (Hr _ _ eq_refl) as [-> _]. apply Hk.
    - destruct (Hr _ _ eq_refl) as [_ [v Hv]]. discriminate Hv.
  Qed.

  Lemma pure_here_at : forall e tr, pure_here W e -> pure_at tr (ev tr e).
  Proof. intros e tr H. destruct (H tr) as [v Hv]. rewrite Hv. apply pure_val. Qed.

  Lemma typeof_id_pure : forall r c m tr, pure_at tr (ev tr (EUn UTypeof (EId r c m) true)).
  Proof.
    intros r c m tr. cbn [eval].
    destruct (w_unbound W r); [destruct (w_genv W r)|]; apply pure_val.
  Qed.

  Lemma typeof_result : forall e w tr tr' v,
    ev tr (EUn UTypeof e w) = Some (tr', Val v) -> exists x, v = VStr (typeof_value x).
  Proof.
    intros e w tr tr' v H. cbn [eval] in H.
    destruct e; try (apply bind_val in H as (t1 & x & _ & Hk); inv Hk; eauto).
    destruct w; [|apply bind_val in H as (t1 & x & _ & Hk); inv Hk; eauto].
    destruct (w_unbound W ref); [destruct (w_genv W ref)|]; inv H; eauto. exists VUndef. reflexivity.
  Qed.

  Lemma typeof_nonempty : forall v, truthy (VStr (typeof_value v)) = true.
  Proof. destruct v; reflexivity. Qed.

  (* ToBooleanWithSideEffects: when it answers (ok), every normal completion of
     the expression has that truthiness; when it says NoSideEffects, the
     expression completes normally and leaves the trace unchanged *)
  Lemma to_boolean_value : forall e tr tr' v b se,
    ev tr e = Some (tr', Val v) -> to_boolean e = (b, se, true) -> truthy v = b.
  Proof.
    induction e; intros tr tr' v0 b0 se Hev Hb; cbn [to_boolean] in Hb; try discriminate Hb;
      (* literals *) try (inv Hb; cbn [eval] in Hev; inv Hev; reflexivity).
    - (* EBig *)
      destruct (check_equality_bigint s [48]) as [eq ok] eqn:Hc. inv Hb.
      cbn [eval] in Hev. destruct (big_value s) as [z|] eqn:Hz; inv Hev.
      cbn [truthy]. symmetry. eapply bigint_zero_test; eauto.
    - (* EUn *)
      destruct op; try discriminate Hb.
      + (* UNot *)
        destruct (to_boolean e) as [[b' se'] ok'] eqn:Hte. destruct ok'; inv Hb.
        cbn [eval] in Hev. apply bind_val in Hev as (t1 & x & Hx & Hk). inv Hk.
        cbn [truthy]. f_equal. eauto.
      + (* UVoid *)
        inv Hb. cbn [eval] in Hev. apply bind_val in Hev as (t1 & x & Hx & Hk). inv Hk. reflexivity.
      + (* UTypeof *)
        inv Hb. apply typeof_result in Hev as [x ->]. apply typeof_nonempty.
    - (* EBin: the value is that of an operand *)
      destruct op; try discriminate Hb; cbn [eval] in Hev;
        destruct (to_boolean e2) as [[b' se'] ok'] eqn:Hte; apply bind_val in Hev as (t1 & x & Hx & Hk).
      + (* || *)
        destruct (ok' && b') eqn:Hok; inv Hb. apply andb_true_iff in Hok as [-> ->].
        destruct (truthy x) eqn:Htx; [inv Hk; assumption | eauto].
      + (* && *)
        destruct (ok' && negb b') eqn:Hok; inv Hb. apply andb_true_iff in Hok as [-> Hnb].
        destruct b'; [discriminate|]. destruct (truthy x) eqn:Htx; [eauto | inv Hk; assumption].
      + (* , *) destruct ok'; inv Hb. eauto.
    - (* EArray *)
      inv Hb. apply array_value in Hev. subst v0. reflexivity.
    - (* EObject *)
      inv Hb. rewrite eval_object_eq in Hev. apply props_value in Hev. subst v0. reflexivity.
    - (* EAnnot *)
      destruct (to_boolean e) as [[b' se'] ok'] eqn:Hte. inv Hb. cbn [eval] in Hev. eauto.
    - (* EInlinedEnum *) cbn [eval] in Hev. eauto.
  Qed.

  Lemma to_boolean_pure : forall e tr b, flags_ok W e -> to_boolean e = (b, true, true) -> pure_at tr (ev tr e).
  Proof.
    induction e; intros tr b0 Hwf Hb; cbn [to_boolean] in Hb; try discriminate Hb;
      (* literals *) try (cbn [eval]; apply pure_val).
    - (* EBig *) cbn [eval]. destruct (big_value s); [apply pure_val | apply pure_none].
    - (* EUn *)
      destruct Hwf as [Hty Hwf]. destruct op; try discriminate Hb.
      + (* UNot *)
        destruct (to_boolean e) as [[b' se'] ok'] eqn:Hte. destruct ok'; inv Hb.
        cbn [eval]. apply pure_bind; [eauto|]. intros; apply pure_val.
      + (* UTypeof *)
        inv Hb. destruct (Hty eq_refl eq_refl) as (r & c & m & ->). apply typeof_id_pure.
    - (* EBin *)
      destruct op; try discriminate Hb; destruct (to_boolean e2) as [[b' se'] ok'];
        [destruct (ok' && b') | destruct (ok' && negb b') | destruct ok']; discriminate Hb.
    - (* EAnnot *)
      destruct (to_boolean e) as [[b' se'] ok'] eqn:Hte. cbn [flags_ok] in Hwf. destruct Hwf as [Hp Hwf].
      cbn [eval]. destruct removable; [exact (pure_here_at _ _ (Hp eq_refl)) | inv Hb; eauto].
    - (* EInlinedEnum *) cbn [eval]. eauto.
  Qed.

  Theorem to_boolean_sound_all : forall e tr tr' out b se,
    flags_ok W e ->
    ev tr e = Some (tr', out) -> to_boolean e = (b, se, true) ->
    (forall v, out = Val v -> truthy v = b) /\ (se = true -> tr' = tr /\ exists v, out = Val v).
  Proof.
    intros e tr tr' out b se Hwf Hev Hb. split.
    - intros v ->. exact (to_boolean_value _ _ _ _ _ _ Hev Hb).
    - intros ->. exact (to_boolean_pure e tr b Hwf Hb _ _ Hev).
  Qed.
End Proofs.

Lemma lit_value_strip : forall e, lit_value (strip_enum e) = lit_value e.
Proof. induction e; cbn [strip_enum lit_value]; auto. Qed.

Lemma lit_is_primitive : forall e v, lit_value e = Some v -> is_primitive_literal (strip_enum e) = true.
Proof.
  induction e; intros v H; cbn [lit_value] in H; try discriminate; cbn [strip_enum is_primitive_literal]; eauto.
Qed.

Lemma strip_not_enum : forall e v, strip_enum e <> EInlinedEnum v.
Proof. induction e; cbn [strip_enum]; intros v0 H; try discriminate. eapply IHe; eauto. Qed.

Lemma lit_value_view : forall e v, lit_value e = Some v ->
  match strip_enum e with
  | ENull => v = VNull
  | EUndefined => v = VUndef
  | EBool b => v = VBool b
  | ENum n => v = VNum n
  | EStr s => v = VStr s
  | EBig s => exists z, big_value s = Some z /\ v = VBig z
  | _ => False
  end.
Proof.
  induction e; intros v H; cbn [lit_value] in H; try discriminate H; cbn [strip_enum];
    try (injection H as <-; reflexivity).
  - destruct (big_value s) as [z|]; [|discriminate H]. injection H as <-. eauto.
  - exact (IHe v H).
Qed.

Lemma num_eq_sym : forall a b, num_eq a b = num_eq b a.
Proof.
  intros [|s1|s1 m1 e1] [|s2|s2 m2 e2]; unfold num_eq; cbn [num_cmp]; try reflexivity.
  - destruct s1, s2; reflexivity.
  - destruct s1, s2; reflexivity.
  - destruct s1, s2; reflexivity.
  - unfold fin_cmp. rewrite (Z.min_comm e2 e1). rewrite (Z.compare_antisym (signed s1 _) (signed s2 _)).
    destruct (Z.compare _ _); reflexivity.
Qed.

Definition both_bigint (l r : expr) : bool :=
  match strip_enum l, strip_enum r with EBig _, EBig _ => true | _, _ => false end.

(* CheckEqualityIfNoSideEffects on two literals answers what IsStrictlyEqual /
   IsLooselyEqual compute on their values (pairs of two bigint literals are
   compared textually by the code and are not covered here) *)
Theorem check_equality_sound_all : forall l r strict eq x y,
  lit_value l = Some x -> lit_value r = Some y -> both_bigint l r = false ->
  check_equality l r strict = (eq, true) ->
  (if strict then strict_eq x y else spec_loose_eq x y) = Some eq.
Proof.
  intros l r strict eq x y Hl Hr Hbb Hc.
  apply lit_value_view in Hl, Hr. unfold check_equality in Hc. unfold both_bigint in Hbb.
  (* the table, entry by entry; a bigint is only ever compared with another kind of literal *)
  destruct (strip_enum l), (strip_enum r); try contradiction; try discriminate Hbb;
    try (destruct Hl as (zl & _ & Hl)); try (destruct Hr as (zr & _ & Hr)); subst x y;
    cbn [check_equality_base is_primitive_literal] in Hc;
    destruct strict; cbn [negb andb] in Hc; try destruct b;
    cbn in Hc; try discriminate Hc; injection Hc as <-; try reflexivity;
    unfold spec_loose_eq, bool_to_number; f_equal; apply num_eq_sym.
Qed.
