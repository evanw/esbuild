(* MangleIfExpr: every rewrite of the conditional evaluates like the conditional
   it replaces -- same trace, same completion, same value -- in every world_ok
   world; and the fuel of the model is sufficient, so the model is total. *)
From V Require Import Common.Base C03.Num C03.Tree C03.MiniJS C03.Worlds C03.TreeProofs C03.TreeProofs2
  C03.TreeProofs3 C03.TreeProofs4 C03.TreeProofs5 C03.TreeProofs10 C03.TreeProofs13.

(* call arguments are never holes (the parser produces holes in array literals only) *)
Fixpoint no_hole_args (e : expr) {struct e} : Prop :=
  let all := fix all (l : list expr) : Prop :=
               match l with [] => True | x :: r => (x <> EMissing /\ no_hole_args x) /\ all r end in
  match e with
  | ECall _ args _ _ => all args
  | ESpread v => no_hole_args v
  | _ => True
  end.

(* the operand that "a == null" or "null == a" tests *)
Definition null_operand (bl br : expr) : option expr :=
  if is_null br then Some bl else if is_null bl then Some br else None.

(* what mi_nullish returns once it has found the tested operand and which arm is for null *)
Definition nullish_rewrite (ub : Z -> bool) (noN noC : bool) (check whenNull whenNonNull : expr) : option expr :=
  if can_be_removed ub check then
    if negb noN && values_look_the_same check whenNonNull then Some (join_left BNullish check whenNull)
    else if negb noC then
      (if (match whenNull with EUndefined => true | _ => false end)
       then try_insert_optional_chain check whenNonNull else None)
    else None
  else None.

(* the three ways one step of MangleIfExpr goes: "(a, b) ? c : d", "!a ? b : c", anything else *)
Lemma mangle_if_step : forall f ub noN noC yes no (P : expr -> option expr -> Prop),
  (forall cl cr, P (EBin BComma cl cr)
     (match mangle_if_fuel f ub noN noC cr yes no with Some x => Some (EBin BComma cl x) | None => None end)) ->
  (forall v w, P (EUn UNot v w) (mangle_tail (mangle_if_fuel f ub noN noC) ub noN noC v no yes)) ->
  (forall test, P test (mangle_tail (mangle_if_fuel f ub noN noC) ub noN noC test yes no)) ->
  forall test, P test (mangle_if_fuel (S f) ub noN noC test yes no).
Proof.
  intros f ub noN noC yes no P Hc Hn Hd test.
  destruct test; try apply Hd; destruct op; try apply Hd; [apply Hn | apply Hc].
Qed.

Section MI.
  Variable W : world.
  Hypothesis Wok : world_ok W.
  Notation ev := (eval W).
  Notation ub := (w_unbound W).

  (* whenever a evaluates, b evaluates to the same trace and completion *)
  Definition EQ (a b : expr) : Prop := forall tr res, ev tr a = Some res -> ev tr b = Some res.

  (* what is assumed of the test, and of each arm *)
  Definition okt (e : expr) : Prop := flags_ok W e /\ vls_ok e.
  Definition okb (e : expr) : Prop := flags_ok W e /\ vls_ok e /\ no_hole_args e.

  Lemma EQ_refl : forall a, EQ a a.
  Proof. intros a tr res H. exact H. Qed.

  Lemma if_eval : forall t y n tr,
    ev tr (EIf t y n) = bind (ev tr t) (fun tr1 x => if truthy x then ev tr1 y else ev tr1 n).
  Proof. reflexivity. Qed.

  Lemma bin_eval_and : forall l r tr,
    ev tr (EBin BLogAnd l r) = bind (ev tr l) (fun tr1 x => if truthy x then ev tr1 r else Some (tr1, Val x)).
  Proof. reflexivity. Qed.
  Lemma bin_eval_or : forall l r tr,
    ev tr (EBin BLogOr l r) = bind (ev tr l) (fun tr1 x => if truthy x then Some (tr1, Val x) else ev tr1 r).
  Proof. reflexivity. Qed.
  Lemma bin_eval_nullish : forall l r tr,
    ev tr (EBin BNullish l r) = bind (ev tr l) (fun tr1 x => if nullish x then ev tr1 r else Some (tr1, Val x)).
  Proof. reflexivity. Qed.
  Lemma bin_eval_comma : forall l r tr,
    ev tr (EBin BComma l r) = bind (ev tr l) (fun tr1 _ => ev tr1 r).
  Proof. reflexivity. Qed.

  Lemma jl_and : forall a b tr, ev tr (join_left BLogAnd a b) = ev tr (EBin BLogAnd a b).
  Proof. intros. apply join_left_assoc_equiv_all. left. reflexivity. Qed.
  Lemma jl_or : forall a b tr, ev tr (join_left BLogOr a b) = ev tr (EBin BLogOr a b).
  Proof. intros. apply join_left_assoc_equiv_all. right. left. reflexivity. Qed.
  Lemma jl_nullish : forall a b tr, ev tr (join_left BNullish a b) = ev tr (EBin BNullish a b).
  Proof. intros. apply join_left_assoc_equiv_all. right. right. reflexivity. Qed.

  (* one step of a control-flow case analysis *)
  Ltac step :=
    match goal with
    | H : truthy ?x = _ |- context [truthy ?x] => rewrite H
    | |- context [bind (Some _) _] => cbn [bind]
    | |- context [bind (ev ?tr ?e) _] => destruct (ev tr e) as [[? [?|?]]|]; cbn [bind]
    | |- context [if truthy ?x then _ else _] => destruct (truthy x) eqn:?
    end.

  (* "(a, b) ? c : d" => "a, b ? c : d" *)
  Lemma if_comma : forall cl cr y n x, EQ (EIf cr y n) x -> EQ (EIf (EBin BComma cl cr) y n) (EBin BComma cl x).
  Proof.
    intros cl cr y n x H tr res. rewrite if_eval, !bin_eval_comma.
    destruct (ev tr cl) as [[tr1 [v|z]]|]; cbn [bind]; try (intros E; exact E).
    intros E. apply H. rewrite if_eval. exact E.
  Qed.

  (* "!a ? b : c" => "a ? c : b" *)
  Lemma if_not : forall v w y n tr, ev tr (EIf (EUn UNot v w) y n) = ev tr (EIf v n y).
  Proof.
    intros v w y n tr. rewrite !if_eval. cbn [eval].
    destruct (ev tr v) as [[tr1 [x|z]]|]; cbn [bind]; try reflexivity.
    destruct (truthy x); reflexivity.
  Qed.

  (* "a ? b : b" => "a, b" or "b" *)
  Lemma same_branches : forall t y n, (forall tr, ev tr y = ev tr n) -> EQ (EIf t y n) (EBin BComma t y).
  Proof.
    intros t y n H tr res. rewrite if_eval, bin_eval_comma.
    destruct (ev tr t) as [[tr1 [x|z]]|]; cbn [bind]; auto.
    destruct (truthy x); [auto | rewrite H; auto].
  Qed.

  Lemma pure_test : forall t tr r, flags_ok W t -> can_be_removed ub t = true ->
    ev tr t = Some r -> exists v, r = (tr, Val v).
  Proof.
    intros t tr [tr1 o] Hf Hc E.
    destruct (can_be_removed_sound_all W Wok t tr tr1 o Hf Hc E) as [-> [v ->]]. eauto.
  Qed.

  Lemma same_branches_pure : forall t y n, flags_ok W t -> can_be_removed ub t = true ->
    (forall tr, ev tr y = ev tr n) -> EQ (EIf t y n) y.
  Proof.
    intros t y n Hf Hc H tr res. rewrite if_eval.
    destruct (ev tr t) as [r|] eqn:E; [|discriminate].
    destruct (pure_test t tr r Hf Hc E) as [v ->]. cbn [bind].
    destruct (truthy v); [auto | rewrite H; auto].
  Qed.

  Lemma not_eval : forall t tr tr1 x, ev tr t = Some (tr1, Val x) ->
    ev tr (not_ t) = Some (tr1, Val (VBool (negb (truthy x)))).
  Proof. intros t tr tr1 x E. apply (not_correct W Wok). cbn [eval]. rewrite E. reflexivity. Qed.
  Lemma not_eval_throw : forall t tr tr1 z, ev tr t = Some (tr1, Throw z) -> ev tr (not_ t) = Some (tr1, Throw z).
  Proof. intros t tr tr1 z E. apply (not_correct W Wok). cbn [eval]. rewrite E. reflexivity. Qed.

  Lemma bools_ft : forall t, EQ (EIf t (EBool false) (EBool true)) (not_ t).
  Proof.
    intros t tr res. rewrite if_eval.
    destruct (ev tr t) as [[tr1 [x|z]]|] eqn:E; cbn [bind]; [| |discriminate].
    - rewrite (not_eval _ _ _ _ E). destruct (truthy x); cbn [eval negb]; auto.
    - rewrite (not_eval_throw _ _ _ _ E). auto.
  Qed.

  Lemma bools_tf : forall t, EQ (EIf t (EBool true) (EBool false)) (not_ (not_ t)).
  Proof.
    intros t tr res. rewrite if_eval.
    destruct (ev tr t) as [[tr1 [x|z]]|] eqn:E; cbn [bind]; [| |discriminate].
    - rewrite (not_eval _ _ _ _ (not_eval _ _ _ _ E)). cbn [truthy]. destruct (truthy x); cbn [eval negb]; auto.
    - rewrite (not_eval_throw _ _ _ _ (not_eval_throw _ _ _ _ E)). auto.
  Qed.

  Lemma bools_sound : forall t y n x, mi_bools t y n = Some x -> EQ (EIf t y n) x.
  Proof.
    intros t y n x H. unfold mi_bools in H.
    destruct y; cbn [as_bool] in H; try discriminate H. destruct n; cbn [as_bool] in H; try (destruct b; discriminate H).
    destruct b, b0; try discriminate H; inv H; [apply bools_tf | apply bools_ft].
  Qed.

  (* "a ? a : b" => "a || b",  "a ? b : a" => "a && b" *)
  Lemma id_or : forall r c m c' m' n, EQ (EIf (EId r c m) (EId r c' m') n) (EBin BLogOr (EId r c m) n).
  Proof.
    intros r c m c' m' n tr res. rewrite if_eval, bin_eval_or. cbn [eval].
    destruct (w_unbound W r); [destruct (w_genv W r)|]; cbn [bind]; try (destruct (truthy _)); auto.
  Qed.
  Lemma id_and : forall r c m c' m' y, EQ (EIf (EId r c m) y (EId r c' m')) (EBin BLogAnd (EId r c m) y).
  Proof.
    intros r c m c' m' y tr res. rewrite if_eval, bin_eval_and. cbn [eval].
    destruct (w_unbound W r); [destruct (w_genv W r)|]; cbn [bind]; try (destruct (truthy _)); auto.
  Qed.

  Lemma idcase_sound : forall t y n x, mi_idcase t y n = Some x -> EQ (EIf t y n) x.
  Proof.
    intros t y n x H. unfold mi_idcase in H.
    destruct t; cbn [as_id] in H; try discriminate H.
    destruct (match as_id y with Some r2 => ref =? r2 | None => false end) eqn:Ey.
    - inv H. destruct y; cbn [as_id] in Ey; try discriminate Ey. apply Z.eqb_eq in Ey. subst ref0.
      intros tr res E. rewrite jl_or. revert E. apply id_or.
    - destruct (match as_id n with Some r3 => ref =? r3 | None => false end) eqn:En; [|discriminate H].
      inv H. destruct n; cbn [as_id] in En; try discriminate En. apply Z.eqb_eq in En. subst ref0.
      intros tr res E. rewrite jl_and. revert E. apply id_and.
  Qed.

  (* the six rewrites that merge an arm into the test *)
  Lemma yesif_eq : forall t yt yy yn n, (forall tr, ev tr yn = ev tr n) ->
    EQ (EIf t (EIf yt yy yn) n) (EIf (join_left BLogAnd t yt) yy n).
  Proof.
    intros t yt yy yn n H tr res. rewrite !if_eval, jl_and, bin_eval_and.
    repeat (step; try rewrite ?if_eval; try rewrite ?H); auto; try discriminate.
  Qed.

  Lemma noif_eq : forall t y nt ny nn, (forall tr, ev tr y = ev tr ny) ->
    EQ (EIf t y (EIf nt ny nn)) (EIf (join_left BLogOr t nt) y nn).
  Proof.
    intros t y nt ny nn H tr res. rewrite !if_eval, jl_or, bin_eval_or.
    repeat (step; try rewrite ?if_eval; try rewrite <- ?H); auto; try discriminate.
  Qed.

  Lemma nocomma_eq : forall t y cl cr, (forall tr, ev tr y = ev tr cr) ->
    EQ (EIf t y (EBin BComma cl cr)) (EBin BComma (join_left BLogOr t cl) cr).
  Proof.
    intros t y cl cr H tr res. rewrite !if_eval, !bin_eval_comma, jl_or, bin_eval_or.
    repeat (step; try rewrite ?bin_eval_comma; try rewrite <- ?H); auto; try discriminate.
  Qed.

  Lemma yescomma_eq : forall t cl cr n, (forall tr, ev tr cr = ev tr n) ->
    EQ (EIf t (EBin BComma cl cr) n) (EBin BComma (join_left BLogAnd t cl) cr).
  Proof.
    intros t cl cr n H tr res. rewrite !if_eval, !bin_eval_comma, jl_and, bin_eval_and.
    repeat (step; try rewrite ?bin_eval_comma; try rewrite ?H); auto; try discriminate.
  Qed.

  Lemma yesor_eq : forall t bl br n, (forall tr, ev tr br = ev tr n) ->
    EQ (EIf t (EBin BLogOr bl br) n) (EBin BLogOr (join_left BLogAnd t bl) br).
  Proof.
    intros t bl br n H tr res. rewrite !if_eval, !bin_eval_or, jl_and, bin_eval_and.
    repeat (step; try rewrite ?bin_eval_or; try rewrite ?H); auto; try discriminate.
  Qed.

  Lemma noand_eq : forall t y bl br, (forall tr, ev tr y = ev tr br) ->
    EQ (EIf t y (EBin BLogAnd bl br)) (EBin BLogAnd (join_left BLogOr t bl) br).
  Proof.
    intros t y bl br H tr res. rewrite !if_eval, !bin_eval_and, jl_or, bin_eval_or.
    repeat (step; try rewrite ?bin_eval_and; try rewrite <- ?H); auto; try discriminate.
  Qed.

  Notation vls_eq := (values_look_the_same_sound_all W).

  Lemma yesif_sound : forall t y n x, vls_ok y -> vls_ok n -> mi_yesif t y n = Some x -> EQ (EIf t y n) x.
  Proof.
    intros t y n x Hy Hn H. unfold mi_yesif in H. destruct y; try discriminate H.
    destruct (values_look_the_same y3 n) eqn:V; [|discriminate H]. inv H.
    cbn [vls_ok] in Hy. destruct Hy as [_ [_ Hy3]]. apply yesif_eq. apply vls_eq; assumption.
  Qed.
  Lemma noif_sound : forall t y n x, vls_ok y -> vls_ok n -> mi_noif t y n = Some x -> EQ (EIf t y n) x.
  Proof.
    intros t y n x Hy Hn H. unfold mi_noif in H. destruct n; try discriminate H.
    destruct (values_look_the_same y n2) eqn:V; [|discriminate H]. inv H.
    cbn [vls_ok] in Hn. destruct Hn as [_ [Hn2 _]]. apply noif_eq. apply vls_eq; assumption.
  Qed.
  Lemma nocomma_sound : forall t y n x, vls_ok y -> vls_ok n -> mi_nocomma t y n = Some x -> EQ (EIf t y n) x.
  Proof.
    intros t y n x Hy Hn H. unfold mi_nocomma in H. destruct n; try discriminate H. destruct op; try discriminate H.
    destruct (values_look_the_same y n2) eqn:V; [|discriminate H]. inv H.
    cbn [vls_ok] in Hn. destruct Hn as [_ Hn2]. apply nocomma_eq. apply vls_eq; assumption.
  Qed.
  Lemma yescomma_sound : forall t y n x, vls_ok y -> vls_ok n -> mi_yescomma t y n = Some x -> EQ (EIf t y n) x.
  Proof.
    intros t y n x Hy Hn H. unfold mi_yescomma in H. destruct y; try discriminate H. destruct op; try discriminate H.
    destruct (values_look_the_same y2 n) eqn:V; [|discriminate H]. inv H.
    cbn [vls_ok] in Hy. destruct Hy as [_ Hy2]. apply yescomma_eq. apply vls_eq; assumption.
  Qed.
  Lemma yesor_sound : forall t y n x, vls_ok y -> vls_ok n -> mi_yesor t y n = Some x -> EQ (EIf t y n) x.
  Proof.
    intros t y n x Hy Hn H. unfold mi_yesor in H. destruct y; try discriminate H. destruct op; try discriminate H.
    destruct (values_look_the_same y2 n) eqn:V; [|discriminate H]. inv H.
    cbn [vls_ok] in Hy. destruct Hy as [_ Hy2]. apply yesor_eq. apply vls_eq; assumption.
  Qed.
  Lemma noand_sound : forall t y n x, vls_ok y -> vls_ok n -> mi_noand t y n = Some x -> EQ (EIf t y n) x.
  Proof.
    intros t y n x Hy Hn H. unfold mi_noand in H. destruct n; try discriminate H. destruct op; try discriminate H.
    destruct (values_look_the_same y n2) eqn:V; [|discriminate H]. inv H.
    cbn [vls_ok] in Hn. destruct Hn as [_ Hn2]. apply noand_eq. apply vls_eq; assumption.
  Qed.

  Lemma simple_sound : forall t y n x, vls_ok y -> vls_ok n -> mi_simple t y n = Some x -> EQ (EIf t y n) x.
  Proof.
    intros t y n x Hy Hn H. unfold mi_simple, orelse in H.
    destruct (mi_bools t y n) eqn:E1; [inv H; eapply bools_sound; eauto|].
    destruct (mi_idcase t y n) eqn:E2; [inv H; eapply idcase_sound; eauto|].
    destruct (mi_yesif t y n) eqn:E3; [inv H; eapply yesif_sound; eauto|].
    destruct (mi_noif t y n) eqn:E4; [inv H; eapply noif_sound; eauto|].
    destruct (mi_nocomma t y n) eqn:E5; [inv H; eapply nocomma_sound; eauto|].
    destruct (mi_yescomma t y n) eqn:E6; [inv H; eapply yescomma_sound; eauto|].
    destruct (mi_yesor t y n) eqn:E7; [inv H; eapply yesor_sound; eauto|].
    eapply noand_sound; eauto.
  Qed.

  Lemma catch_short_trace : forall tr1 o, exists o', catch_short (Some (tr1, o)) = Some (tr1, o').
  Proof. intros tr1 [v|x]; [eexists; reflexivity|]. destruct x; eexists; reflexivity. Qed.

  Lemma eval_catch_raw_dot : forall t name oc c s tr,
    ev tr (EDot t name oc c s) = catch_short (eval_raw W tr (EDot t name oc c s)).
  Proof. reflexivity. Qed.
  Lemma eval_catch_raw_call : forall t args oc p tr,
    ev tr (ECall t args oc p) = catch_short (eval_raw W tr (ECall t args oc p)).
  Proof. intros. rewrite eval_call_eq, eval_raw_call_eq. reflexivity. Qed.

  (* reading a removable call target has no effects, also as a chain continuation *)
  Lemma target_pure : forall oc t tr tr1 o, flags_ok W t -> can_be_removed ub t = true ->
    eval_target W oc tr t = Some (tr1, o) -> tr1 = tr.
  Proof.
    intros oc t tr tr1 o Hf Hc H. unfold eval_target in H.
    assert (E : exists o', ev tr t = Some (tr1, o')).
    { destruct (is_cont oc); [|eauto].
      destruct t; try discriminate H; try discriminate Hc.
      - rewrite eval_catch_raw_dot, H. apply catch_short_trace.
      - rewrite eval_catch_raw_call, H. apply catch_short_trace. }
    destruct E as [o' E]. exact (proj1 (can_be_removed_sound_all W Wok t tr tr1 o' Hf Hc E)).
  Qed.

  Lemma evaluates_plain : forall x tr r, ev tr x = Some r -> plain_item x = true.
  Proof. intros x tr r H. destruct x; try reflexivity; cbn [eval] in H; discriminate H. Qed.

  Lemma items_head : forall x l tr acc, plain_item x = true ->
    eval_items_with W ev tr (x :: l) acc = lstep (ev tr x) acc (fun tr2 acc2 => eval_items_with W ev tr2 l acc2).
  Proof. intros x l tr acc P. destruct x; try discriminate P; reflexivity. Qed.

  (* the first argument, possibly under a spread *)
  Definition as_arg (spread : bool) (e : expr) : expr := if spread then ESpread e else e.

  Lemma items_subst : forall spread y0 x l tr acc, (spread = false -> plain_item y0 = true) ->
    (forall r, ev tr y0 = Some r -> ev tr x = Some r) ->
    forall R, eval_items_with W ev tr (as_arg spread y0 :: l) acc = Some R ->
              eval_items_with W ev tr (as_arg spread x :: l) acc = Some R.
  Proof.
    intros spread y0 x l tr acc P H R E. destruct spread; cbn [as_arg] in E |- *.
    - cbn [eval_items_with] in E |- *. destruct (ev tr y0) as [r|] eqn:Ey; [|discriminate E].
      rewrite (H r eq_refl). exact E.
    - rewrite items_head in E by (apply P; reflexivity).
      destruct (ev tr y0) as [r|] eqn:Ey; [|discriminate E].
      pose proof (H r eq_refl) as Ex. rewrite items_head by (eapply evaluates_plain; eauto). rewrite Ex. exact E.
  Qed.

  (* replacing the first argument of a call whose target has no effects *)
  Lemma call_subst : forall yt a0 a0' l oc p tr res,
    (forall tr1 o, eval_target W oc tr yt = Some (tr1, o) -> tr1 = tr) ->
    (forall acc R, eval_items_with W ev tr (a0 :: l) acc = Some R -> eval_items_with W ev tr (a0' :: l) acc = Some R) ->
    ev tr (ECall yt (a0 :: l) oc p) = Some res -> ev tr (ECall yt (a0' :: l) oc p) = Some res.
  Proof.
    intros yt a0 a0' l oc p tr res Hp Hs H. rewrite eval_call_eq in H |- *.
    destruct (eval_target W oc tr yt) as [[tr1 [fv|z]]|] eqn:Eg; [| exact H | exact H].
    pose proof (Hp _ _ eq_refl). subst tr1. unfold call_step in H |- *. cbn [bind] in H |- *.
    unfold short_if in H |- *. destruct ((oc =? 1) && nullish fv); [exact H|].
    destruct (eval_items_with W ev tr (a0 :: l) []) as [R|] eqn:Ei; [|discriminate H].
    rewrite (Hs _ _ Ei). exact H.
  Qed.

  Lemma as_call_inv : forall e t a0 tl oc p, as_call e = Some (t, a0, tl, oc, p) -> e = ECall t (a0 :: tl) oc p.
  Proof. intros e t a0 tl oc p H. destruct e; try discriminate H. destruct args; try discriminate H. inv H. reflexivity. Qed.

  Lemma as_spread_inv : forall e v, as_spread e = Some v -> e = ESpread v.
  Proof. intros e v H. destruct e; try discriminate H. inv H. reflexivity. Qed.

  Lemma as_spread_none : forall e, as_spread e = None -> e <> EMissing -> plain_item e = true.
  Proof. intros e H N. destruct e; try reflexivity; [contradiction | discriminate H]. Qed.

  Lemma tail_items_same : forall ytl ntl, all_look_same ytl ntl = true -> length ytl = length ntl ->
    (forall x, In x ytl -> vls_ok x) -> (forall x, In x ntl -> vls_ok x) ->
    forall tr acc, eval_items_with W ev tr ytl acc = eval_items_with W ev tr ntl acc.
  Proof.
    intros ytl ntl Ha Hl Hy Hn tr acc. apply items_same; [exact Ha | exact Hl |].
    intros x y Ix Iy V. destruct (vls_plain x y V) as [Px Py]. apply plain_strip in Py.
    split; [exact Px|]. split; [exact Py|]. intros t. apply vls_eq; auto.
  Qed.

  Lemma items_cons_cong : forall l1 l2,
    (forall tr acc, eval_items_with W ev tr l1 acc = eval_items_with W ev tr l2 acc) ->
    forall a tr acc, eval_items_with W ev tr (a :: l1) acc = eval_items_with W ev tr (a :: l2) acc.
  Proof.
    intros l1 l2 H a tr acc. cbn [eval_items_with]. unfold lstep.
    destruct a; try (destruct (ev tr _) as [[? [?|?]]|]; try reflexivity; apply H); try apply H.
    destruct (bind _ _) as [[? [?|?]]|]; try reflexivity; apply H.
  Qed.

  (* two calls that differ in their first argument only (both under a spread, or neither),
     where neither the test nor the target has effects: the conditional moves into the argument *)
  Lemma call_merge : forall test yt ytl oc p (spread : bool) ya na x0 no_call,
    flags_ok W test -> can_be_removed ub test = true ->
    (forall tr tr1 o, eval_target W oc tr yt = Some (tr1, o) -> tr1 = tr) ->
    (forall tr, ev tr no_call = ev tr (ECall yt (as_arg spread na :: ytl) oc p)) ->
    (spread = false -> plain_item ya = true /\ plain_item na = true) ->
    EQ (EIf test ya na) x0 ->
    EQ (EIf test (ECall yt (as_arg spread ya :: ytl) oc p) no_call) (ECall yt (as_arg spread x0 :: ytl) oc p).
  Proof.
    intros test yt ytl oc p spread ya na x0 no_call Htf Hc Hp Hno Hpl HX tr res E. rewrite if_eval in E.
    destruct (ev tr test) as [r|] eqn:Et; [|discriminate E].
    destruct (pure_test test tr r Htf Hc Et) as [v ->]. cbn [bind] in E.
    (* the conditional evaluates the call on the argument the test chooses *)
    assert (E' : ev tr (ECall yt (as_arg spread (if truthy v then ya else na) :: ytl) oc p) = Some res)
      by (destruct (truthy v); [exact E | rewrite <- Hno; exact E]).
    revert E'. apply call_subst; [apply Hp|]. intros acc R0. apply items_subst.
    - intros Hs. destruct (Hpl Hs). destruct (truthy v); assumption.
    - intros r Er. apply HX. rewrite if_eval, Et. cbn [bind]. destruct (truthy v); exact Er.
  Qed.

  Section Rec.
    Variable rec : expr -> expr -> expr -> option expr.
    Hypothesis Hrec : forall t y n x, rec t y n = Some x -> okt t -> okb y -> okb n -> EQ (EIf t y n) x.

    Lemma calls_sound : forall test yes no x, okt test -> okb yes -> okb no ->
      mi_calls rec ub test yes no = Some (Some x) -> EQ (EIf test yes no) x.
    Proof.
      intros test yes no x Ht Hy Hn H. unfold mi_calls in H.
      destruct (as_call yes) as [[[[[yt y0] ytl] yoc] yp]|] eqn:Ay; [|discriminate H].
      destruct (as_call no) as [[[[[nt n0] ntl] noc] np]|] eqn:An; [|discriminate H].
      apply as_call_inv in Ay, An. subst yes no.
      match type of H with (if ?c then _ else _) = _ => destruct c eqn:C; [|discriminate H] end.
      rewrite !andb_true_iff in C. destruct C as [[[[[[C1 C2] C3] C4] C5] C6] C7].
      apply Nat.eqb_eq in C1. apply Z.eqb_eq in C2. subst noc. apply Bool.eqb_prop in C3. subst np.
      destruct Ht as [Htf Htv].
      destruct Hy as [Hyf [Hyv Hyh]]. destruct Hn as [Hnf [Hnv Hnh]].
      cbn [flags_ok] in Hyf, Hnf. destruct Hyf as [_ [Hytf [Hy0f Hytlf]]]. destruct Hnf as [_ [Hntf [Hn0f Hntlf]]].
      cbn [vls_ok] in Hyv, Hnv. destruct Hyv as [Hytv [Hy0v Hytlv]]. destruct Hnv as [Hntv [Hn0v Hntlv]].
      cbn [no_hole_args] in Hyh, Hnh. destruct Hyh as [[Hy0m Hy0h] _]. destruct Hnh as [[Hn0m Hn0h] _].
      assert (St : same_eval W yt nt) by (exact (vls_sound_size W (esize yt) yt (le_n _) nt Hytv Hntv C4)).
      assert (Htl : forall tr acc, eval_items_with W ev tr ytl acc = eval_items_with W ev tr ntl acc).
      { apply tail_items_same; try assumption; apply vls_all; assumption. }
      assert (Hp : forall tr tr1 o, eval_target W yoc tr yt = Some (tr1, o) -> tr1 = tr)
        by (intros tr0 tr1 o Hev; exact (target_pure yoc yt tr0 tr1 o Hytf C6 Hev)).
      (* the "no" call with the target and the tail of the "yes" call *)
      assert (Hno : forall a tr, ev tr (ECall nt (a :: ntl) yoc yp) = ev tr (ECall yt (a :: ytl) yoc yp)).
      { intros a tr. symmetry. apply (call_cong W yt nt (a :: ytl) (a :: ntl) yoc yp yp St).
        intros t acc. apply items_cons_cong, Htl. }
      destruct (as_spread y0) as [ys|] eqn:Sy; destruct (as_spread n0) as [ns|] eqn:Sn; try discriminate H.
      - apply as_spread_inv in Sy, Sn. subst y0 n0.
        destruct (rec test ys ns) as [x0|] eqn:R; [|discriminate H]. inv H.
        apply (call_merge test yt ytl yoc yp true ys ns x0 _ Htf C5 Hp (Hno _)); [discriminate|].
        exact (Hrec _ _ _ _ R (conj Htf Htv) (conj Hy0f (conj Hy0v Hy0h)) (conj Hn0f (conj Hn0v Hn0h))).
      - destruct (rec test y0 n0) as [x0|] eqn:R; [|discriminate H]. inv H.
        apply (call_merge test yt ytl yoc yp false y0 n0 x0 _ Htf C5 Hp (Hno _)).
        + intros _. split; apply as_spread_none; assumption.
        + exact (Hrec _ _ _ _ R (conj Htf Htv) (conj Hy0f (conj Hy0v Hy0h)) (conj Hn0f (conj Hn0v Hn0h))).
    Qed.
  End Rec.

  Lemma null_test_eval : forall bop bl br check tr,
    null_operand bl br = Some check -> bop = BLooseEq \/ bop = BLooseNe ->
    ev tr (EBin bop bl br) =
    bind (ev tr check) (fun tr1 a => Some (tr1, Val (VBool (if binop_eqb bop BLooseNe then negb (nullish a) else nullish a)))).
  Proof.
    intros bop bl br check tr Hsel Hbop. unfold null_operand in Hsel.
    assert (E : ev tr (EBin BLooseEq bl br) = bind (ev tr check) (fun tr1 a => Some (tr1, Val (VBool (nullish a))))).
    { cbn [eval]. destruct (is_null br) eqn:Nr.
      - inv Hsel. destruct br; try discriminate Nr.
        destruct (ev tr check) as [[tr1 [a|z]]|]; cbn [bind eval]; try reflexivity.
        unfold apply_bin, eff. rewrite (ok_looseeq_null_r W Wok), app_nil_r. reflexivity.
      - destruct (is_null bl) eqn:Nl; [|discriminate Hsel]. inv Hsel. destruct bl; try discriminate Nl.
        cbn [bind eval]. destruct (ev tr check) as [[tr1 [a|z]]|]; cbn [bind]; try reflexivity.
        unfold apply_bin, eff. rewrite (ok_looseeq_null_l W Wok), app_nil_r. reflexivity. }
    destruct Hbop as [-> | ->]; [exact E|].
    cbn [eval] in E |- *. rewrite E. destruct (ev tr check) as [[tr1 [a|z]]|]; reflexivity.
  Qed.

  (* a conditional on a null test t of check, with its arms named by what they are for *)
  Lemma null_if_eval : forall check t whenNull whenNonNull (neg : bool) tr,
    (forall tr, ev tr t = bind (ev tr check) (fun tr1 a => Some (tr1, Val (VBool (if neg then negb (nullish a) else nullish a))))) ->
    ev tr (if neg then EIf t whenNonNull whenNull else EIf t whenNull whenNonNull) =
    bind (ev tr check) (fun tr1 a => if nullish a then ev tr1 whenNull else ev tr1 whenNonNull).
  Proof.
    intros check t whenNull whenNonNull neg tr Ht.
    destruct neg; rewrite if_eval, Ht; destruct (ev tr check) as [[tr1 [a|z]]|]; cbn [bind truthy]; try reflexivity;
      destruct (nullish a); reflexivity.
  Qed.

  (* "a != null ? a : b" => "a ?? b" and "a != null ? a.b : undefined" => "a?.b", for a
     conditional on a null test t of check *)
  Lemma nullish_rewrite_sound : forall noN noC check t whenNull whenNonNull (neg : bool) x,
    flags_ok W check -> vls_ok check -> vls_ok whenNonNull ->
    (forall tr, ev tr t = bind (ev tr check) (fun tr1 a => Some (tr1, Val (VBool (if neg then negb (nullish a) else nullish a))))) ->
    nullish_rewrite ub noN noC check whenNull whenNonNull = Some x ->
    EQ (if neg then EIf t whenNonNull whenNull else EIf t whenNull whenNonNull) x.
  Proof.
    intros noN noC check t whenNull whenNonNull neg x Hf Hcv Hwv Ht Hx tr res E.
    rewrite (null_if_eval check t whenNull whenNonNull neg tr Ht) in E.
    unfold nullish_rewrite in Hx. destruct (can_be_removed ub check) eqn:Hc; [|discriminate Hx].
    destruct (ev tr check) as [r'|] eqn:Ec; [|discriminate E].
    destruct (pure_test check tr r' Hf Hc Ec) as [v ->]. cbn [bind] in E.
    destruct (negb noN && values_look_the_same check whenNonNull) eqn:Cn.
    - inv Hx. apply andb_true_iff in Cn. destruct Cn as [_ V].
      rewrite jl_nullish, bin_eval_nullish, Ec. cbn [bind].
      destruct (nullish v); [exact E|]. rewrite <- (vls_eq _ _ Hcv Hwv V tr), Ec in E. exact E.
    - destruct (negb noC); [|discriminate Hx]. destruct whenNull; try discriminate Hx.
      destruct (tioc_sound W check whenNonNull x Hcv Hwv Hx) as [_ [_ Hsem]].
      destruct (proj2 (Hsem tr) v Ec) as [Hnull Hnon].
      destruct (nullish v); [rewrite (Hnull eq_refl); exact E | exact (Hnon eq_refl _ E)].
  Qed.

  Lemma nullish_sound : forall noN noC test yes no x, okt test ->
    vls_ok yes -> vls_ok no ->
    mi_nullish ub noN noC test yes no = Some x -> EQ (EIf test yes no) x.
  Proof.
    intros noN noC test yes no x [Htf Htv] Hyv Hnv H. unfold mi_nullish in H.
    destruct test as [| | | | | | | | | | | | | | | | | | bop bl br | | | | | | |]; try discriminate H.
    cbn [flags_ok] in Htf. destruct Htf as [Hlf Hrf]. cbn [vls_ok] in Htv. destruct Htv as [Hlv Hrv].
    pose proof (fun check Hsel Hbop tr => null_test_eval bop bl br check tr Hsel Hbop) as Hte.
    unfold null_operand in Hte.
    destruct bop; try discriminate H.
    - (* == : the "yes" arm is for null *)
      destruct (is_null br); [|destruct (is_null bl); [|discriminate H]].
      + exact (nullish_rewrite_sound noN noC bl _ yes no false x Hlf Hlv Hnv (Hte _ eq_refl (or_introl eq_refl)) H).
      + exact (nullish_rewrite_sound noN noC br _ yes no false x Hrf Hrv Hnv (Hte _ eq_refl (or_introl eq_refl)) H).
    - (* != : the "no" arm is for null *)
      destruct (is_null br); [|destruct (is_null bl); [|discriminate H]].
      + exact (nullish_rewrite_sound noN noC bl _ no yes true x Hlf Hlv Hyv (Hte _ eq_refl (or_intror eq_refl)) H).
      + exact (nullish_rewrite_sound noN noC br _ no yes true x Hrf Hrv Hyv (Hte _ eq_refl (or_intror eq_refl)) H).
  Qed.

  Lemma tail_sound : forall rec noN noC test yes no x,
    (forall t y n x, rec t y n = Some x -> okt t -> okb y -> okb n -> EQ (EIf t y n) x) ->
    okt test -> okb yes -> okb no ->
    mangle_tail rec ub noN noC test yes no = Some x -> EQ (EIf test yes no) x.
  Proof.
    intros rec noN noC test yes no x Hrec Ht Hy Hn H. unfold mangle_tail in H.
    pose proof Ht as [Htf Htv]. pose proof Hy as [Hyf [Hyv _]]. pose proof Hn as [Hnf [Hnv _]].
    destruct (values_look_the_same yes no) eqn:V.
    - destruct (can_be_removed ub test) eqn:C; inv H.
      + apply same_branches_pure; try assumption. apply vls_eq; assumption.
      + apply same_branches. apply vls_eq; assumption.
    - destruct (mi_simple test yes no) as [x1|] eqn:S1; [inv H; eapply simple_sound; eauto|].
      destruct (mi_calls rec ub test yes no) as [[x2|]|] eqn:S2; [inv H; eapply calls_sound; eauto | | discriminate H].
      destruct (mi_nullish ub noN noC test yes no) as [x3|] eqn:S3; inv H; [eapply nullish_sound; eauto | apply EQ_refl].
  Qed.

  Theorem mangle_if_fuel_sound : forall f noN noC test yes no x,
    okt test -> okb yes -> okb no ->
    mangle_if_fuel f ub noN noC test yes no = Some x -> EQ (EIf test yes no) x.
  Proof.
    induction f as [|f IH]; intros noN noC test yes no x Ht Hy Hn; [discriminate|].
    assert (Hgen : forall t y n, okt t -> okb y -> okb n ->
              mangle_tail (mangle_if_fuel f ub noN noC) ub noN noC t y n = Some x -> EQ (EIf t y n) x).
    { intros t y n Ht' Hy' Hn'. apply tail_sound; try assumption. intros; eapply IH; eauto. }
    revert Ht. apply mangle_if_step.
    - intros cl cr [Htf Htv] H. cbn [flags_ok] in Htf. cbn [vls_ok] in Htv.
      destruct (mangle_if_fuel f ub noN noC cr yes no) as [x0|] eqn:R; [|discriminate H]. inv H.
      apply if_comma. eapply IH; eauto. split; [apply Htf | apply Htv].
    - intros v w [Htf Htv] H tr res E. rewrite if_not in E. revert E. apply Hgen; try assumption.
      cbn [flags_ok] in Htf. cbn [vls_ok] in Htv. split; [apply Htf | exact Htv].
    - intros t Ht. apply Hgen; assumption.
  Qed.
End MI.

Section Fuel.
  Variable unbound : Z -> bool.
  Variables noN noC : bool.

  Lemma tail_total : forall rec (k : nat) test yes no,
    (forall t y n, (esize t + esize y + esize n < k)%nat -> rec t y n <> None) ->
    (esize test + esize yes + esize no <= k)%nat ->
    mangle_tail rec unbound noN noC test yes no <> None.
  Proof.
    intros rec k test yes no Hrec Hsz. unfold mangle_tail.
    destruct (values_look_the_same yes no); [destruct (can_be_removed unbound test); discriminate|].
    destruct (mi_simple test yes no); [discriminate|].
    assert (Hc : mi_calls rec unbound test yes no <> None).
    { unfold mi_calls.
      destruct (as_call yes) as [[[[[yt y0] ytl] yoc] yp]|] eqn:Ay; [|discriminate].
      destruct (as_call no) as [[[[[nt n0] ntl] noc] np]|] eqn:An; [|discriminate].
      apply as_call_inv in Ay, An.
      subst yes no. cbn [esize] in Hsz.
      match goal with |- (if ?c then _ else _) <> None => destruct c; [|discriminate] end.
      destruct (as_spread y0) as [ys|] eqn:Sy; destruct (as_spread n0) as [ns|] eqn:Sn; try discriminate.
      - apply as_spread_inv in Sy, Sn. subst y0 n0.
        cbn [esize] in Hsz.
        destruct (rec test ys ns) eqn:R; [discriminate|]. exfalso. revert R. apply Hrec. lia.
      - destruct (rec test y0 n0) eqn:R; [discriminate|]. exfalso. revert R. apply Hrec. lia. }
    destruct (mi_calls rec unbound test yes no) as [[x|]|]; [discriminate| |contradiction].
    destruct (mi_nullish unbound noN noC test yes no); discriminate.
  Qed.

  Theorem mangle_if_fuel_enough : forall f test yes no,
    (esize test + esize yes + esize no < f)%nat ->
    mangle_if_fuel f unbound noN noC test yes no <> None.
  Proof.
    induction f as [|f IH]; intros test yes no Hsz; [lia|].
    assert (Hgen : forall t y n, (esize t + esize y + esize n <= f)%nat ->
              mangle_tail (mangle_if_fuel f unbound noN noC) unbound noN noC t y n <> None).
    { intros t y n Hs. apply tail_total with (k := f); [|exact Hs]. intros; apply IH; assumption. }
    revert Hsz. apply mangle_if_step; cbn [esize].
    - intros cl cr Hsz. destruct (mangle_if_fuel f unbound noN noC cr yes no) eqn:R; [discriminate|].
      exfalso. revert R. apply IH. lia.
    - intros v w Hsz. apply Hgen. lia.
    - intros t Hsz. apply Hgen. lia.
  Qed.

  Theorem mangle_if_total_all : forall test yes no, exists e', mangle_if unbound noN noC test yes no = Some e'.
  Proof.
    intros test yes no. unfold mangle_if.
    destruct (mangle_if_fuel _ unbound noN noC test yes no) eqn:E; [eauto|].
    exfalso. revert E. apply mangle_if_fuel_enough. lia.
  Qed.
End Fuel.

Theorem mangle_if_equiv_all : forall (W : world), world_ok W ->
  forall noNullish noOptChain test yes no,
    flags_ok W test -> flags_ok W yes -> flags_ok W no ->
    vls_ok test -> vls_ok yes -> vls_ok no ->
    no_hole_args yes -> no_hole_args no ->
    exists e', mangle_if (w_unbound W) noNullish noOptChain test yes no = Some e' /\
      forall tr res, eval W tr (EIf test yes no) = Some res -> eval W tr e' = Some res.
Proof.
  intros W Wok noN noC test yes no Ft Fy Fn Vt Vy Vn Hy Hn.
  destruct (mangle_if_total_all (w_unbound W) noN noC test yes no) as [e' E].
  exists e'. split; [exact E|].
  unfold mangle_if in E.
  exact (mangle_if_fuel_sound W Wok _ noN noC test yes no e' (conj Ft Vt)
           (conj Fy (conj Vy Hy)) (conj Fn (conj Vn Hn)) E).
Qed.
