(* SimplifyUnusedExpr preserves the effects of an unused expression statement:
   same trace, same kind of completion, same thrown value.  Proved as a refinement
   of partial effects (le_eff): whenever the expression evaluates in the model, what
   is left of it does the same; sequencing (seq_eff) and branching (branch) are
   monotone for it, so the cases of su_fuel compose. *)
From V Require Import Common.Base C03.Num C03.Tree C03.MiniJS C03.Worlds
  C03.TreeProofs C03.TreeProofs2 C03.TreeProofs3 C03.TreeProofs4 C03.TreeProofs5 C03.TreeProofs6 C03.TreeProofs7 C03.TreeProofs9 C03.TreeProofs10 C03.TreeProofs13 C03.TreeProofs11.

(* the observable part of a completion: the trace and the thrown value, if any *)
Definition effects := option (trace * option value).
Definition eff_of (r : option (trace * outcome)) : effects :=
  match r with
  | Some (t, Val _) => Some (t, None)
  | Some (t, Throw z) => Some (t, Some z)
  | None => None
  end.
Definition seq_eff (r : effects) (k : trace -> effects) : effects :=
  match r with
  | Some (t, None) => k t
  | Some (t, Some z) => Some (t, Some z)
  | None => None
  end.

Lemma seq_assoc : forall r k1 k2, seq_eff (seq_eff r k1) k2 = seq_eff r (fun t => seq_eff (k1 t) k2).
Proof. intros [[t [z|]]|] k1 k2; reflexivity. Qed.
Lemma seq_ret : forall r, seq_eff r (fun t => Some (t, None)) = r.
Proof. intros [[t [z|]]|]; reflexivity. Qed.
Lemma seq_ext : forall r k1 k2, (forall t, k1 t = k2 t) -> seq_eff r k1 = seq_eff r k2.
Proof. intros [[t [z|]]|] k1 k2 H; cbn; auto. Qed.
Lemma seq_some : forall r k, seq_eff r k <> None -> r <> None.
Proof. intros [[t [z|]]|] k H; cbn in *; congruence. Qed.

Lemma eff_of_some : forall r, r <> None -> eff_of r <> None.
Proof. intros [[t [v|z]]|] H; cbn; congruence. Qed.

Lemma same_effects_of_eff : forall a b, eff_of a = eff_of b -> a <> None -> same_effects a b.
Proof.
  intros [[t1 [x|x]]|] [[t2 [y|y]]|] H Hn; cbn in *; try congruence; inversion H; auto.
Qed.

(* b does what a does, whenever a is defined (evaluation in the model is partial) *)
Definition le_eff (a b : effects) : Prop := a <> None -> b = a.

Lemma le_eff_refl : forall a, le_eff a a.
Proof. intros a _. reflexivity. Qed.
Lemma le_eff_trans : forall a b c, le_eff a b -> le_eff b c -> le_eff a c.
Proof. intros a b c Hab Hbc Ha. pose proof (Hab Ha) as E. rewrite <- E. apply Hbc. rewrite E. exact Ha. Qed.
Lemma le_eff_seq : forall a a' k k', le_eff a a' -> (forall t, le_eff (k t) (k' t)) -> le_eff (seq_eff a k) (seq_eff a' k').
Proof.
  intros a a' k k' Ha Hk Hn. rewrite (Ha (seq_some _ _ Hn)).
  destruct a as [[t [z|]]|]; cbn [seq_eff] in *; [reflexivity | apply Hk; exact Hn | congruence].
Qed.

Lemma le_eff_seq_r : forall r k k', (forall t, le_eff (k t) (k' t)) -> le_eff (seq_eff r k) (seq_eff r k').
Proof. intros r k k' H. apply le_eff_seq; [apply le_eff_refl | exact H]. Qed.

(* the effects of the elements of a list, in order *)
Fixpoint seq_all {A : Type} (E : A -> trace -> effects) (l : list A) (t : trace) : effects :=
  match l with
  | [] => Some (t, None)
  | x :: r => seq_eff (E x t) (seq_all E r)
  end.

Lemma seq_all_app : forall A (E : A -> trace -> effects) l1 l2 t,
  seq_all E (l1 ++ l2) t = seq_eff (seq_all E l1 t) (seq_all E l2).
Proof.
  induction l1 as [|x r IH]; intros l2 t; [reflexivity|].
  cbn [app seq_all]. rewrite seq_assoc. apply seq_ext. intros; apply IH.
Qed.

(* one step of a traversal that collects what it keeps in reverse: the element is
   replaced by one that does the same, or dropped when it does nothing *)
Lemma le_eff_keep : forall A (E : A -> trace -> effects) acc x x' r tr, (forall t, le_eff (E x t) (E x' t)) ->
  le_eff (seq_eff (seq_all E (rev acc) tr) (fun t => seq_eff (E x t) (seq_all E r)))
         (seq_eff (seq_all E (rev (x' :: acc)) tr) (seq_all E r)).
Proof.
  intros A E acc x x' r tr H. cbn [rev]. rewrite seq_all_app, seq_assoc. apply le_eff_seq_r. intros t.
  cbn [seq_all]. rewrite seq_assoc. apply le_eff_seq; [apply H | intros; apply le_eff_refl].
Qed.

Lemma le_eff_drop : forall A (E : A -> trace -> effects) acc x r tr, (forall t, le_eff (E x t) (Some (t, None))) ->
  le_eff (seq_eff (seq_all E (rev acc) tr) (fun t => seq_eff (E x t) (seq_all E r)))
         (seq_eff (seq_all E (rev acc) tr) (seq_all E r)).
Proof.
  intros A E acc x r tr H. apply le_eff_seq_r. intros t.
  apply (le_eff_seq _ _ (seq_all E r) (seq_all E r) (H t)). intros; apply le_eff_refl.
Qed.

(* The traversals of template parts, array items and object properties that su_fuel
   performs with local fixpoints, as functions of the simplifier [f] it applies to the
   elements.  [f] is a section variable, so that each of them at f := su_fuel n ub noOC
   is convertible with the corresponding local fixpoint of su_fuel (S n). *)
Definition flush (comma : ures) (pend : list (expr * list Z)) : ures :=
  match pend with
  | [] => comma
  | _ => join_u comma (UExpr (ETemplate [] (rev pend)))
  end.

Section Traversals.
  Variable f : expr -> ures.

  (* array with a spread: the array is kept, removable items are dropped *)
  Fixpoint keep_items_go (l : list expr) (acc : list expr) : ures :=
    match l with
    | [] => UExpr (EArray (rev acc))
    | x :: r => match f x with
                | UExpr x' => keep_items_go r (x' :: acc)
                | UNil => keep_items_go r acc
                | UFuel => UFuel
                end
    end.

  (* object without spread: the values in order, each computed key as key + "" *)
  Fixpoint props_go (l : list (Z * bool * expr * expr)) (acc : ures) : ures :=
    match l with
    | [] => acc
    | (kind, computed, key, value) :: r =>
        let acc := if computed then join_u acc (UExpr (EBin BAdd key (EStr []))) else acc in
        props_go r (join_u acc (f value))
    end.

  (* object with a spread: the object is kept; a property is kept, dropped, or keeps its key with value 0 *)
  Fixpoint keep_props_go (l : list (Z * bool * expr * expr)) (acc : list (Z * bool * expr * expr)) : ures :=
    match l with
    | [] => UExpr (EObject (rev acc))
    | (kind, computed, key, value) :: r =>
        if kind =? 1 then keep_props_go r ((kind, computed, key, value) :: acc)
        else match f value with
             | UExpr v' => keep_props_go r ((kind, computed, key, v') :: acc)
             | UNil => if computed then keep_props_go r ((kind, computed, key, ENum zero_num) :: acc) else keep_props_go r acc
             | UFuel => UFuel
             end
    end.

  (* template: parts of known primitive type are simplified on their own; the others
     are collected in [pend] and kept in one template *)
  Fixpoint tpl_go (l : list (expr * list Z)) (comma : ures) (pend : list (expr * list Z)) : ures :=
    match l with
    | [] => flush comma pend
    | (v, _) :: r =>
        if negb (ptype_eqb (known_type v) PUnknown)
        then tpl_go r (join_u (flush comma pend) (f v)) []
        else tpl_go r comma ((v, []) :: pend)
    end.
End Traversals.

(* what su_fuel returns for a logical operator whose right operand r' is kept:
   "l' op r'", or r' with an optional chain in place of the null test l' *)
Definition chain_or (noOC : bool) (op : binop) (l' r' : expr) : ures :=
  let dflt := UExpr (EBin op l' r') in
  if noOC then dflt
  else match l' with
       | EBin bop bl br =>
           if (binop_eqb bop BLooseNe && binop_eqb op BLogAnd) || (binop_eqb bop BLooseEq && binop_eqb op BLogOr) then
             let test := if is_null br then Some bl else if is_null bl then Some br else None in
             match test with
             | Some tst =>
                 match tst with
                 | EId ref c mustkeep =>
                     if mustkeep then dflt
                     else match try_insert_optional_chain tst r' with
                          | Some r'' => UExpr r''
                          | None => dflt
                          end
                 | _ => dflt
                 end
             | None => dflt
             end
           else dflt
       | _ => dflt
       end.

Lemma chain_or_cases : forall (P : ures -> Prop) noOC op l' r',
  P (UExpr (EBin op l' r')) ->
  (forall bop bl br r c r'', l' = EBin bop bl br ->
     (binop_eqb bop BLooseNe && binop_eqb op BLogAnd) || (binop_eqb bop BLooseEq && binop_eqb op BLogOr) = true ->
     null_operand bl br = Some (EId r c false) ->
     try_insert_optional_chain (EId r c false) r' = Some r'' -> P (UExpr r'')) ->
  P (chain_or noOC op l' r').
Proof.
  intros P noOC op l' r' H Hc. unfold chain_or. cbv zeta. destruct noOC; [exact H|].
  destruct l' as [| | | | | | | | | | | | | | | | | | bop bl br | | | | | | |]; try exact H.
  destruct (_ || _) eqn:Hops; [|exact H].
  fold (null_operand bl br). destruct (null_operand bl br) as [tst|] eqn:Hsel; [|exact H].
  destruct tst; try exact H. destruct mustkeep; [exact H|].
  destruct (try_insert_optional_chain _ r') as [r''|] eqn:TI; [|exact H].
  exact (Hc _ _ _ _ _ _ eq_refl Hops Hsel TI).
Qed.

Section SU.
  Variable W : world.
  Hypothesis Wok : world_ok W.
  Notation ev := (eval W).
  Notation ub := (w_unbound W).

  (* the effects of e, and of a result r of the simplification, evaluated after tr *)
  Definition EE (e : expr) (tr : trace) : effects := eff_of (ev tr e).
  Definition EU (r : ures) (tr : trace) : effects := eff_of (eval_unused W tr r).

  (* r does what E does whenever E is defined; nothing is claimed of a result
     that ran out of fuel, so that soundness composes without fuel hypotheses *)
  Definition sound_at (E : trace -> effects) (r : ures) : Prop :=
    match r with
    | UFuel => True
    | _ => forall tr, le_eff (E tr) (EU r tr)
    end.
  Definition SE (e : expr) (r : ures) : Prop := sound_at (EE e) r.

  Lemma sound_le : forall (E E' : trace -> effects) r,
    (forall tr, le_eff (E tr) (E' tr)) -> sound_at E' r -> sound_at E r.
  Proof.
    intros E E' r H S. destruct r; [| |exact I]; intros tr; (eapply le_eff_trans; [apply H | apply S]).
  Qed.

  Lemma eff_of_bind_val : forall r (k : trace -> value -> option (trace * outcome)),
    (forall t v, exists v', k t v = Some (t, Val v')) -> eff_of (bind r k) = eff_of r.
  Proof. intros [[t [v|z]]|] k H; try reflexivity. cbn [bind]. destruct (H t v) as [v' ->]. reflexivity. Qed.

  Lemma EU_expr : forall e tr, EU (UExpr e) tr = EE e tr.
  Proof. reflexivity. Qed.

  Lemma EE_comma : forall a b tr, EE (EBin BComma a b) tr = seq_eff (EE a tr) (EE b).
  Proof. intros. unfold EE. cbn [eval]. destruct (ev tr a) as [[t [v|z]]|]; reflexivity. Qed.

  Lemma EU_join : forall ra rb tr, ra <> UFuel -> rb <> UFuel ->
    EU (join_u ra rb) tr = seq_eff (EU ra tr) (EU rb).
  Proof.
    intros ra rb tr Ha Hb. destruct ra as [|a|]; destruct rb as [|b|]; try congruence; cbn [join_u].
    - reflexivity.
    - reflexivity.
    - symmetry. apply seq_ret.
    - apply EE_comma.
  Qed.

  (* composition: "a then b" *)
  Lemma sound_join : forall (E Ea Eb : trace -> effects) ra rb,
    (forall tr, le_eff (E tr) (seq_eff (Ea tr) Eb)) -> sound_at Ea ra -> sound_at Eb rb ->
    sound_at E (join_u ra rb).
  Proof.
    intros E Ea Eb ra rb Hd Ha Hb.
    destruct ra as [|a|]; [| |exact I]; (destruct rb as [|b|]; [| |exact I]).
    all: intros tr.
    all: eapply le_eff_trans; [apply Hd|].
    all: rewrite EU_join by discriminate.
    all: apply le_eff_seq; [apply Ha | apply Hb].
  Qed.

  Lemma sound_fold : forall A (g : A -> ures) (E : A -> trace -> effects) l acc Eacc,
    sound_at Eacc acc -> (forall x, In x l -> sound_at (E x) (g x)) ->
    sound_at (fun tr => seq_eff (Eacc tr) (seq_all E l)) (fold_left (fun a x => join_u a (g x)) l acc).
  Proof.
    intros A g E. induction l as [|x r IH]; intros acc Eacc Ha Hall; cbn [fold_left seq_all].
    - revert Ha. apply sound_le. intros tr. rewrite seq_ret. apply le_eff_refl.
    - generalize (IH (join_u acc (g x)) (fun tr => seq_eff (Eacc tr) (E x))
                     (sound_join _ Eacc (E x) _ _ (fun tr => le_eff_refl _) Ha (Hall x (or_introl eq_refl)))
                     (fun y Hy => Hall y (or_intror Hy))).
      apply sound_le. intros tr. rewrite seq_assoc. apply le_eff_refl.
  Qed.

  Lemma sound_fold_nil : forall A (g : A -> ures) (E : A -> trace -> effects) l,
    (forall x, In x l -> sound_at (E x) (g x)) ->
    sound_at (seq_all E l) (fold_left (fun a x => join_u a (g x)) l UNil).
  Proof.
    intros A g E l. apply (sound_fold A g E l UNil (fun tr => Some (tr, None))). intros tr. apply le_eff_refl.
  Qed.

  Lemma SE_refl : forall e, SE e (UExpr e).
  Proof. intros e tr. apply le_eff_refl. Qed.

  Lemma SE_eq : forall e (E : trace -> effects) r, (forall tr, EE e tr = E tr) -> sound_at E r -> SE e r.
  Proof. intros e E r H. apply sound_le. intros tr. rewrite H. apply le_eff_refl. Qed.

  Lemma EE_unary_pure : forall op v w tr, (op = UVoid \/ op = UNot) -> EE (EUn op v w) tr = EE v tr.
  Proof.
    intros op v w tr [-> | ->]; unfold EE; cbn [eval]; apply eff_of_bind_val; eauto.
  Qed.

  Lemma EE_typeof : forall v w tr, (forall r c m, v = EId r c m -> w = false) -> EE (EUn UTypeof v w) tr = EE v tr.
  Proof.
    intros v w tr Hw. unfold EE. cbn [eval].
    destruct v; try (apply eff_of_bind_val; eauto).
    rewrite (Hw _ _ _ eq_refl). apply eff_of_bind_val; eauto.
  Qed.

  Lemma EE_two : forall a b tr (k : trace -> value -> value -> option (trace * outcome)),
    (forall t1 x t2 y, ev tr a = Some (t1, Val x) -> ev t1 b = Some (t2, Val y) ->
       k t2 x y = None \/ exists v, k t2 x y = Some (t2, Val v)) ->
    le_eff (eff_of (bind (ev tr a) (fun t1 x => bind (ev t1 b) (fun t2 y => k t2 x y)))) (seq_eff (EE a tr) (EE b)).
  Proof.
    intros a b tr k Hk Hn. unfold EE.
    destruct (ev tr a) as [[t1 [x|x]]|]; cbn [bind eff_of seq_eff] in *; try reflexivity.
    destruct (ev t1 b) as [[t2 [y|y]]|] eqn:Eb; cbn [bind eff_of seq_eff] in *; try reflexivity.
    destruct (Hk t1 x t2 y eq_refl Eb) as [E|[v E]]; rewrite E in *; cbn in *; congruence.
  Qed.

  Lemma EE_strict : forall op a b tr, (op = BStrictEq \/ op = BStrictNe) ->
    le_eff (EE (EBin op a b) tr) (seq_eff (EE a tr) (EE b)).
  Proof.
    intros op a b tr [-> | ->]; unfold EE at 1; cbn [eval];
      apply (EE_two a b tr (fun t2 x y => match strict_eq x y with Some bb => Some (t2, Val (VBool _)) | None => None end));
      intros t1 x t2 y _ _; destruct (strict_eq x y); eauto.
  Qed.

  Lemma eff_of_neg : forall r, le_eff (eff_of (neg_outcome r)) (eff_of r).
  Proof. intros [[t [v|z]]|] Hn; try reflexivity. destruct v; try reflexivity; cbn in Hn; congruence. Qed.

  Lemma EE_loose : forall op a b tr, (op = BLooseEq \/ op = BLooseNe) ->
    ptype_eqb (merged_known_types a b) PUnknown = false ->
    le_eff (EE (EBin op a b) tr) (seq_eff (EE a tr) (EE b)).
  Proof.
    intros op a b tr Hop Hk.
    assert (Ha : ptype_eqb (known_type a) PUnknown = false /\ ptype_eqb (known_type b) PUnknown = false).
    { unfold merged_known_types, merge_types in Hk.
      destruct (known_type a); try discriminate; destruct (known_type b); try discriminate; split; reflexivity. }
    destruct Ha as [Ha Hb].
    assert (Heq : le_eff (EE (EBin BLooseEq a b) tr) (seq_eff (EE a tr) (EE b))).
    { apply (EE_two a b tr (apply_bin W BLooseEq)). intros t1 x t2 y Hx Hy. right.
      destruct (known_prim W Wok _ _ _ _ Hx Ha) as [Hpx _]. destruct (known_prim W Wok _ _ _ _ Hy Hb) as [Hpy _].
      destruct (ok_looseeq_prim W Wok x y (length t2) Hpx Hpy) as [r Hr].
      exists (VBool r). unfold apply_bin, eff. rewrite Hr. cbn. rewrite app_nil_r. reflexivity. }
    destruct Hop as [-> | ->]; [exact Heq|].
    eapply le_eff_trans; [|exact Heq]. apply eff_of_neg.
  Qed.

  (* the effects of a construct that evaluates a subexpression and goes on by its value *)
  Definition branch (r : option (trace * outcome)) (k : trace -> value -> effects) : effects :=
    match r with
    | Some (t1, Val x) => k t1 x
    | Some (t1, Throw z) => Some (t1, Some z)
    | None => None
    end.

  Lemma le_branch : forall r k k', (forall t1 x, le_eff (k t1 x) (k' t1 x)) -> le_eff (branch r k) (branch r k').
  Proof. intros [[t1 [x|z]]|] k k' H; cbn [branch]; [apply H | apply le_eff_refl | apply le_eff_refl]. Qed.

  Lemma EE_branch : forall e tr, EE e tr = branch (ev tr e) (fun t1 _ => Some (t1, None)).
  Proof. intros e tr. unfold EE. destruct (ev tr e) as [[t1 [x|z]]|]; reflexivity. Qed.

  Lemma EE_if : forall t y n tr,
    EE (EIf t y n) tr = branch (ev tr t) (fun t1 x => if truthy x then EE y t1 else EE n t1).
  Proof.
    intros. unfold EE. cbn [eval]. destruct (ev tr t) as [[t1 [x|z]]|]; cbn [bind eff_of branch]; try reflexivity.
    destruct (truthy x); reflexivity.
  Qed.

  (* whether "x op r" evaluates r *)
  Definition takes_right (op : binop) (x : value) : bool :=
    match op with BLogAnd => truthy x | BLogOr => negb (truthy x) | _ => nullish x end.

  Lemma EE_sc : forall op l r tr, short_circuit op ->
    EE (EBin op l r) tr = branch (ev tr l) (fun t1 x => if takes_right op x then EE r t1 else Some (t1, None)).
  Proof.
    intros op l r tr [-> | [-> | ->]]; unfold EE; cbn [eval takes_right];
      destruct (ev tr l) as [[t1 [x|z]]|]; cbn [bind eff_of branch]; try reflexivity.
    - destruct (truthy x); reflexivity.
    - destruct (truthy x); reflexivity.
    - destruct (nullish x); reflexivity.
  Qed.

  Lemma sc_nullish : short_circuit BNullish. Proof. right; right; reflexivity. Qed.

  Lemma EE_join : forall op a b tr, short_circuit op -> EE (join_left op a b) tr = EE (EBin op a b) tr.
  Proof. intros. unfold EE. rewrite join_left_assoc_equiv_all by assumption. reflexivity. Qed.

  Lemma if_sound : forall t y n ry rn rt, SE y ry -> SE n rn -> SE t rt ->
    SE (EIf t y n) (match ry, rn with
                    | UFuel, _ | _, UFuel => UFuel
                    | UNil, UNil => rt
                    | UNil, UExpr n' => UExpr (join_left BLogOr t n')
                    | UExpr y', UNil => UExpr (join_left BLogAnd t y')
                    | UExpr y', UExpr n' => UExpr (EIf t y' n')
                    end).
  Proof.
    intros t y n ry rn rt Sy Sn St.
    destruct ry as [|y'|]; [| |exact I]; (destruct rn as [|n'|]; [| |exact I]).
    - revert St. apply sound_le. intros tr. rewrite EE_if, (EE_branch t). apply le_branch. intros t1 x.
      destruct (truthy x); [apply Sy | apply Sn].
    - intros tr. rewrite EU_expr, EE_join, EE_sc, EE_if by apply sc_or. apply le_branch. intros t1 x.
      cbn [takes_right]. destruct (truthy x); [apply Sy | apply Sn].
    - intros tr. rewrite EU_expr, EE_join, EE_sc, EE_if by apply sc_and. apply le_branch. intros t1 x.
      cbn [takes_right]. destruct (truthy x); [apply Sy | apply Sn].
    - intros tr. rewrite EU_expr, !EE_if. apply le_branch. intros t1 x.
      destruct (truthy x); [apply Sy | apply Sn].
  Qed.

  (* l' completes like l and makes "op" take the same branch *)
  Definition same_branch (op : binop) (l l' : expr) : Prop :=
    forall tr res, ev tr l = Some res ->
      match res, ev tr l' with
      | (t, Val x), Some (t', Val y) => t = t' /\ takes_right op x = takes_right op y
      | (t, Throw x), Some (t', Throw y) => t = t' /\ x = y
      | _, _ => False
      end.

  Lemma same_branch_refl : forall op l, same_branch op l l.
  Proof. intros op l tr [t [x|x]] E; rewrite E; auto. Qed.

  Lemma same_branch_ST : forall op l l', op = BLogAnd \/ op = BLogOr -> ST W l l' -> same_branch op l l'.
  Proof.
    intros op l l' Hop Hst tr res E. pose proof (Hst tr res E) as Hs.
    destruct res as [t [x|x]]; destruct (ev tr l') as [[t' [y|y]]|]; cbn in Hs; try contradiction; try exact Hs.
    destruct Hs as [-> Ht]. split; [reflexivity|]. destruct Hop as [-> | ->]; cbn [takes_right]; rewrite Ht; reflexivity.
  Qed.

  Lemma le_branch_same : forall op l l' tr k k', same_branch op l l' ->
    (forall t1 x y, takes_right op x = takes_right op y -> le_eff (k t1 x) (k' t1 y)) ->
    le_eff (branch (ev tr l) k) (branch (ev tr l') k').
  Proof.
    intros op l l' tr k k' H Hk. destruct (ev tr l) as [res|] eqn:E; [|intros Hn; cbn in Hn; congruence].
    specialize (H tr res E). destruct res as [t [x|x]]; destruct (ev tr l') as [[t' [y|y]]|]; try contradiction.
    - destruct H as [-> Ht]. apply Hk, Ht.
    - destruct H as [-> ->]. apply le_eff_refl.
  Qed.

  Lemma sc_nil : forall op l l' r rl, short_circuit op -> same_branch op l l' -> SE r UNil -> SE l' rl ->
    SE (EBin op l r) rl.
  Proof.
    intros op l l' r rl Hop Hb Sr. apply sound_le. intros tr.
    rewrite EE_sc, (EE_branch l') by assumption. apply (le_branch_same op); [exact Hb|]. intros t1 x y _.
    destruct (takes_right op x); [apply Sr | apply le_eff_refl].
  Qed.

  Lemma sc_expr : forall op l l' r r', short_circuit op -> same_branch op l l' -> SE r (UExpr r') ->
    SE (EBin op l r) (UExpr (EBin op l' r')).
  Proof.
    intros op l l' r r' Hop Hb Sr tr. rewrite EU_expr, !EE_sc by assumption.
    apply (le_branch_same op); [exact Hb|]. intros t1 x y Ht. rewrite <- Ht.
    destruct (takes_right op x); [apply Sr | apply le_eff_refl].
  Qed.

  (* the effects of a list evaluation, and of one array element or call argument *)
  Definition eff_l (r : option (trace * lres)) : effects :=
    match r with
    | Some (t, LVals _) => Some (t, None)
    | Some (t, LThrow z) => Some (t, Some z)
    | None => None
    end.
  Definition EEspread (v : expr) (t : trace) : effects := eff_of (bind (ev t v) (fun t1 xv => eff t1 (w_spread W xv))).
  Definition EEitem (x : expr) (t : trace) : effects :=
    match x with
    | ESpread v => EEspread v t
    | EMissing => Some (t, None)
    | _ => EE x t
    end.

  Lemma eff_l_lstep : forall r acc k (kk : trace -> effects),
    (forall t a, eff_l (k t a) = kk t) -> eff_l (lstep r acc k) = seq_eff (eff_of r) kk.
  Proof. intros [[t [v|z]]|] acc k kk H; cbn; auto. Qed.

  Lemma items_all : forall l t acc, eff_l (eval_items_with W ev t l acc) = seq_all EEitem l t.
  Proof.
    induction l as [|x r IH]; intros t acc; [reflexivity|].
    cbn [eval_items_with seq_all].
    destruct x; cbn [EEitem]; unfold EEspread; try (apply eff_l_lstep; intros; apply IH).
    rewrite IH. reflexivity.
  Qed.

  Lemma EE_array : forall items t, EE (EArray items) t = seq_all EEitem items t.
  Proof.
    intros. unfold EE. rewrite eval_array_eq, <- (items_all items t []).
    destruct (eval_items_with W ev t items []) as [[t1 [vs|z]]|]; reflexivity.
  Qed.

  Lemma EEitem_plain : forall x, plain_item x = true -> EEitem x = EE x.
  Proof. intros x Hp. destruct x; try reflexivity; discriminate Hp. Qed.

  Lemma EE_plain : forall x t, EE x t <> None -> plain_item x = true.
  Proof. intros x t H. destruct x; try reflexivity; exfalso; apply H; reflexivity. Qed.

  (* an argument of a call marked pure and its residue *)
  Lemma arg_sound : forall noOC f x, SE x (su_fuel f ub noOC x) ->
    sound_at (EEitem x) (match x with ESpread _ => UExpr (EArray [x]) | _ => su_fuel f ub noOC x end).
  Proof.
    intros noOC f x H. destruct (plain_item x) eqn:P.
    - rewrite EEitem_plain by exact P.
      replace (match x with ESpread _ => UExpr (EArray [x]) | _ => su_fuel f ub noOC x end) with (su_fuel f ub noOC x)
        by (destruct x; try reflexivity; discriminate P).
      exact H.
    - destruct x; try discriminate P.
      + (* a hole *) destruct f; [exact I | intros tr; apply le_eff_refl].
      + (* a spread is kept in an array of its own *)
        intros tr. rewrite EU_expr, EE_array. cbn [seq_all]. rewrite seq_ret. apply le_eff_refl.
  Qed.

  Lemma args_sound : forall noOC f args, (forall x, In x args -> SE x (su_fuel f ub noOC x)) ->
    sound_at (seq_all EEitem args)
      (fold_left (fun a x => join_u a (match x with ESpread _ => UExpr (EArray [x]) | _ => su_fuel f ub noOC x end)) args UNil).
  Proof.
    intros noOC f args H. apply sound_fold_nil. intros x Hin. apply arg_sound, H, Hin.
  Qed.

  (* what keep_items_go needs of the result for one item *)
  Definition item_keep (x : expr) (r : ures) : Prop :=
    match r with
    | UExpr x' => forall t, le_eff (EEitem x t) (EEitem x' t)
    | UNil => forall t, le_eff (EEitem x t) (Some (t, None))
    | UFuel => True
    end.

  Lemma keep_items : forall (f : expr -> ures) l acc,
    (forall x, In x l -> item_keep x (f x)) ->
    sound_at (fun tr => seq_eff (seq_all EEitem (rev acc) tr) (seq_all EEitem l)) (keep_items_go f l acc).
  Proof.
    intros f. induction l as [|x r IH]; intros acc Hall; cbn [keep_items_go seq_all].
    - intros tr. rewrite EU_expr, EE_array, seq_ret. apply le_eff_refl.
    - pose proof (Hall x (or_introl eq_refl)) as Hx. unfold item_keep in Hx.
      destruct (f x) as [|x'|]; [| |exact I].
      + generalize (IH acc (fun y Hy => Hall y (or_intror Hy))). apply sound_le. intros tr. apply le_eff_drop, Hx.
      + generalize (IH (x' :: acc) (fun y Hy => Hall y (or_intror Hy))). apply sound_le. intros tr. apply le_eff_keep, Hx.
  Qed.

  Lemma keep_of_SE : forall x r, plain_item x = true -> SE x r -> item_keep x r.
  Proof.
    intros x r Hp S. destruct r as [|x'|]; cbn [item_keep]; [| |exact I]; intros t Hn;
      rewrite (EEitem_plain x Hp) in *; pose proof (S t Hn) as E.
    - exact E.
    - rewrite EU_expr in E. rewrite EEitem_plain by (apply (EE_plain x' t); rewrite E; exact Hn). exact E.
  Qed.

  Lemma item_keep_su : forall noOC f x, SE x (su_fuel f ub noOC x) ->
    item_keep x (su_fuel f ub noOC x).
  Proof.
    intros noOC f x H. destruct (plain_item x) eqn:P; [apply keep_of_SE; assumption|].
    destruct x; try discriminate P; (destruct f; [exact I | intros t; apply le_eff_refl]).
  Qed.

  (* the effects of one property of an object literal *)
  Definition EEkey (k : expr) (t : trace) : effects := eff_of (bind (ev t k) (fun t1 kv => eff t1 (w_tokey W kv))).
  Definition EEprop (p : Z * bool * expr * expr) (t : trace) : effects :=
    let '(kind, computed, key, value) := p in
    if kind =? 1 then EEspread value t
    else if computed then seq_eff (EEkey key t) (EE value)
    else EE value t.

  Lemma EE_object : forall props t, EE (EObject props) t = seq_all EEprop props t.
  Proof.
    intros props t. unfold EE. rewrite eval_object_eq. revert t.
    induction props as [|[[[kind computed] key] value] r IH]; intros t; [reflexivity|].
    cbn [eval_props_with seq_all EEprop]. destruct (kind =? 1); [|destruct computed].
    - unfold EEspread. destruct (ev t value) as [[t1 [xv|z]]|]; cbn [bind eff_of seq_eff]; try reflexivity.
      destruct (eff t1 (w_spread W xv)) as [[t2 [y|z]]|]; cbn [bind eff_of seq_eff]; try reflexivity. apply IH.
    - unfold EEkey, EE. destruct (ev t key) as [[t1 [kv|z]]|]; cbn [bind eff_of seq_eff]; try reflexivity.
      destruct (eff t1 (w_tokey W kv)) as [[t2 [y|z]]|]; cbn [bind eff_of seq_eff]; try reflexivity.
      destruct (ev t2 value) as [[t3 [y2|z]]|]; cbn [bind eff_of seq_eff]; try reflexivity. apply IH.
    - unfold EE. destruct (ev t value) as [[t1 [y|z]]|]; cbn [bind eff_of seq_eff]; try reflexivity. apply IH.
  Qed.

  Lemma props_go_plain : forall f l acc,
    forallb (fun p : Z * bool * expr * expr => let '(_, computed, _, _) := p in negb computed) l = true ->
    props_go f l acc = fold_left (fun a p => join_u a (f (snd p))) l acc.
  Proof.
    intros f. induction l as [|[[[kind computed] key] value] r IH]; intros acc H; [reflexivity|].
    cbn [forallb] in H. apply andb_true_iff in H as [Hc Hr]. destruct computed; [discriminate Hc|].
    cbn [props_go fold_left snd]. apply IH. exact Hr.
  Qed.

  Lemma plain_props : forall l,
    existsb (fun p : Z * bool * expr * expr => let '(kind, _, _, _) := p in kind =? 1) l = false ->
    forallb (fun p : Z * bool * expr * expr => let '(_, computed, _, _) := p in negb computed) l = true ->
    forall t, seq_all EEprop l t = seq_all (fun p => EE (snd p)) l t.
  Proof.
    induction l as [|[[[kind computed] key] value] r IH]; intros Hs Hc t; [reflexivity|].
    cbn [existsb forallb] in Hs, Hc. apply orb_false_iff in Hs as [Hk Hs]. apply andb_true_iff in Hc as [Hc Hr].
    destruct computed; [discriminate Hc|]. cbn [seq_all EEprop snd]. rewrite Hk. apply seq_ext. apply IH; assumption.
  Qed.

  Lemma EEprop_value : forall kind computed key v v' t, (kind =? 1) = false ->
    (forall t1, le_eff (EE v t1) (EE v' t1)) ->
    le_eff (EEprop (kind, computed, key, v) t) (EEprop (kind, computed, key, v') t).
  Proof.
    intros kind computed key v v' t Hk H. unfold EEprop. rewrite Hk.
    destruct computed; [apply le_eff_seq_r; exact H | apply H].
  Qed.

  Lemma keep_props : forall (f : expr -> ures) l acc,
    (forall p, In p l -> SE (snd p) (f (snd p))) ->
    sound_at (fun tr => seq_eff (seq_all EEprop (rev acc) tr) (seq_all EEprop l)) (keep_props_go f l acc).
  Proof.
    intros f. induction l as [|[[[kind computed] key] value] r IH]; intros acc Hall; cbn [keep_props_go seq_all].
    - intros tr. rewrite EU_expr, EE_object, seq_ret. apply le_eff_refl.
    - pose proof (Hall _ (or_introl eq_refl)) as Hx. cbn [snd] in Hx.
      assert (Hr : forall p, In p r -> SE (snd p) (f (snd p))) by (intros; apply Hall; right; assumption).
      destruct (kind =? 1) eqn:Hk.
      { refine (sound_le _ _ _ _ (IH _ Hr)). intros tr. apply le_eff_keep. intros; apply le_eff_refl. }
      destruct (f value) as [|v'|]; [destruct computed| |exact I].
      + (* the key is kept with the value 0, which has no effects either *)
        refine (sound_le _ _ _ _ (IH _ Hr)). intros tr. apply le_eff_keep. intros t.
        apply EEprop_value; [exact Hk | exact Hx].
      + generalize (IH acc Hr). apply sound_le. intros tr. apply le_eff_drop. intros t.
        unfold EEprop. rewrite Hk. apply Hx.
      + refine (sound_le _ _ _ _ (IH _ Hr)). intros tr. apply le_eff_keep. intros t.
        apply EEprop_value; [exact Hk | exact Hx].
  Qed.

  (* the effects of one substitution of a template literal: evaluation, then ToString *)
  Definition EEpart (p : expr * list Z) (t : trace) : effects :=
    eff_of (bind (ev t (fst p)) (fun t1 x => eff t1 (w_tostr W x))).

  Lemma tostr_is_str : forall t1 x t2 sv, eff t1 (w_tostr W x) = Some (t2, Val sv) -> is_str sv = true.
  Proof.
    intros t1 x t2 sv H. apply eff_inv in H as (t3 & E & _). eapply ok_tostr_str; eauto.
  Qed.

  Lemma parts_all : forall l t acc, eff_of (eval_parts_with W ev t l acc) = seq_all EEpart l t.
  Proof.
    induction l as [|[v tl] r IH]; intros t acc; [reflexivity|].
    cbn [eval_parts_with seq_all]. unfold EEpart at 1. cbn [fst].
    destruct (ev t v) as [[t1 [x|z]]|]; cbn [bind eff_of seq_eff]; try reflexivity.
    destruct (eff t1 (w_tostr W x)) as [[t2 [sv|z]]|] eqn:E; cbn [bind eff_of seq_eff]; try reflexivity.
    pose proof (tostr_is_str _ _ _ _ E) as Hs. destruct sv; try discriminate Hs. apply IH.
  Qed.

  Lemma EE_template : forall h parts t, EE (ETemplate h parts) t = seq_all EEpart parts t.
  Proof. intros. unfold EE. rewrite eval_template_eq. apply parts_all. Qed.

  Lemma known_part : forall v tl t, ptype_eqb (known_type v) PUnknown = false -> EEpart (v, tl) t = EE v t.
  Proof.
    intros v tl t Hk. unfold EEpart, EE. cbn [fst]. destruct (ev t v) as [[t1 [x|z]]|] eqn:E; cbn [bind eff_of]; try reflexivity.
    destruct (known_prim W Wok _ _ _ _ E Hk) as [Hp Hs].
    destruct (ok_tostr_prim W Wok x (length t1) Hp Hs) as [sv Hsv].
    unfold eff. rewrite Hsv. cbn. rewrite app_nil_r. reflexivity.
  Qed.

  Lemma flush_fuel : forall pend, flush UFuel pend = UFuel.
  Proof. destruct pend; reflexivity. Qed.

  Lemma flush_nofuel : forall comma pend, flush comma pend <> UFuel -> comma <> UFuel.
  Proof. intros comma pend H E. subst. rewrite flush_fuel in H. congruence. Qed.

  Lemma sound_flush : forall Ec comma pend, sound_at Ec comma ->
    sound_at (fun tr => seq_eff (Ec tr) (seq_all EEpart (rev pend))) (flush comma pend).
  Proof.
    intros Ec comma pend Hc. destruct pend as [|p q].
    - revert Hc. apply sound_le. intros tr. cbn [rev seq_all]. rewrite seq_ret. apply le_eff_refl.
    - unfold flush. apply (sound_join _ Ec (seq_all EEpart (rev (p :: q)))); [intros; apply le_eff_refl | exact Hc |].
      intros tr. rewrite EU_expr, EE_template. apply le_eff_refl.
  Qed.

  Lemma tpl_sound : forall (f : expr -> ures) l comma pend Ec,
    sound_at Ec comma ->
    (forall v tl, In (v, tl) l -> ptype_eqb (known_type v) PUnknown = false -> SE v (f v)) ->
    sound_at (fun tr => seq_eff (seq_eff (Ec tr) (seq_all EEpart (rev pend))) (seq_all EEpart l)) (tpl_go f l comma pend).
  Proof.
    intros f. induction l as [|[v tl] r IH]; intros comma pend Ec Hc Hall; cbn [tpl_go seq_all].
    - generalize (sound_flush Ec comma pend Hc). apply sound_le. intros tr. rewrite seq_ret. apply le_eff_refl.
    - assert (Hr : forall v0 tl0, In (v0, tl0) r -> ptype_eqb (known_type v0) PUnknown = false -> SE v0 (f v0))
        by (intros v0 tl0 Hin; apply (Hall v0 tl0); right; exact Hin).
      destruct (ptype_eqb (known_type v) PUnknown) eqn:Hk; cbn [negb].
      + generalize (IH comma ((v, []) :: pend) Ec Hc Hr). apply sound_le. intros tr.
        cbn [rev]. rewrite !seq_assoc. apply le_eff_seq_r. intros t. rewrite seq_all_app, seq_assoc. apply le_eff_seq_r. intros t0.
        cbn [seq_all]. rewrite seq_assoc. apply le_eff_refl.
      + assert (Hj : sound_at (fun tr => seq_eff (seq_eff (Ec tr) (seq_all EEpart (rev pend))) (EE v))
                              (join_u (flush comma pend) (f v))).
        { eapply sound_join; [intros; apply le_eff_refl | apply sound_flush; exact Hc | apply (Hall v tl); [left; reflexivity | exact Hk]]. }
        generalize (IH _ [] _ Hj Hr). apply sound_le. intros tr.
        cbn [rev seq_all]. rewrite seq_ret, !seq_assoc. apply le_eff_seq_r. intros t. apply le_eff_seq_r. intros t0.
        rewrite known_part by exact Hk. apply le_eff_refl.
  Qed.

  Lemma EE_pure_call : forall t args tr, pure_callee W (w_call W) 0 t ->
    EE (ECall t args 0 true) tr = seq_all EEitem args tr.
  Proof.
    intros t args tr Hp. unfold EE. rewrite eval_call_eq, <- (items_all args tr []).
    destruct (Hp tr) as [fv [Hfv Hcall]]. rewrite Hfv. unfold call_step. cbn [bind]. unfold short_if. cbn [Z.eqb andb].
    destruct (eval_items_with W ev tr args []) as [[t1 [vs|z]]|] eqn:El; cbn [lbind catch_short eff_of eff_l]; try reflexivity.
    - destruct (Hcall vs (length t1)) as [r Hr]. unfold eff. rewrite Hr. cbn. rewrite app_nil_r. reflexivity.
    - destruct z; try reflexivity. exfalso.
      exact (nsl_items W (sum_sizes args) (fun y _ t => eval_no_short W y t) args tr [] (le_n _) _ El).
  Qed.

  Lemma EE_pure_new : forall t args tr, pure_callee W (w_new W) 0 t ->
    EE (ENew t args true) tr = seq_all EEitem args tr.
  Proof.
    intros t args tr Hp. unfold EE. rewrite eval_new_eq, <- (items_all args tr []).
    destruct (Hp tr) as [fv [Hfv Hcall]]. change (eval_target W 0 tr t) with (ev tr t) in Hfv. rewrite Hfv. cbn [bind].
    destruct (eval_items_with W ev tr args []) as [[t1 [vs|z]]|]; cbn [lbind eff_of eff_l]; try reflexivity.
    destruct (Hcall vs (length t1)) as [r Hr]. unfold eff. rewrite Hr. cbn. rewrite app_nil_r. reflexivity.
  Qed.

  (* simplifyUnusedStringAdditionChain replaces values by values that are equal, or that are
     both strings (their contents are not observable in an unused + chain) *)
  Definition Rv (v v' : value) : Prop := v = v' \/ (is_str v = true /\ is_str v' = true).

  (* a completion r' that is r up to the contents of string values *)
  Definition Rres (r r' : option (trace * outcome)) : Prop :=
    match r with
    | Some (t, Val v) => exists v', r' = Some (t, Val v') /\ Rv v v'
    | Some (t, Throw z) => r' = Some (t, Throw z)
    | None => True
    end.
  Definition CH (e e' : expr) : Prop := forall tr, Rres (ev tr e) (ev tr e').
  Definition str_valued (e : expr) : Prop := forall tr t v, ev tr e = Some (t, Val v) -> is_str v = true.

  Lemma Rres_refl : forall r, Rres r r.
  Proof. intros [[t [v|z]]|]; cbn; auto. exists v. split; [reflexivity | left; reflexivity]. Qed.

  Lemma CH_refl : forall e, CH e e.
  Proof. intros e tr. apply Rres_refl. Qed.

  Lemma Rv_str : forall v v', Rv v v' -> is_str v = true -> is_str v' = true.
  Proof. intros v v' [->|[_ H]] Hs; assumption. Qed.

  Lemma add_val_str : forall t x y t2 r, add_values W t x y = Some (t2, Val r) -> is_str x || is_str y = true -> is_str r = true.
  Proof.
    intros t x y t2 r H Hs. unfold add_values in H.
    assert (Ha : apply_bin W BAdd t x y = Some (t2, Val r) -> is_str r = true).
    { intros E. unfold apply_bin in E. apply eff_inv in E as (t3 & E & _). eapply ok_add_str; eauto. }
    destruct (is_object x || is_object y); [auto|]. destruct x, y; try discriminate; auto.
  Qed.

  Lemma add_values_str_r : forall t x s, add_values W t x (VStr s) =
    if is_sym x then Some (t, Throw (VStr s_TypeError)) else apply_bin W BAdd t x (VStr s).
  Proof. intros t x s. destruct x; reflexivity. Qed.
  Lemma add_values_str_l : forall t s y, add_values W t (VStr s) y =
    if is_sym y then Some (t, Throw (VStr s_TypeError)) else apply_bin W BAdd t (VStr s) y.
  Proof. intros t s y. destruct y; reflexivity. Qed.

  Lemma add_str_rel : forall t a b a' b',
    fst (w_bin W BAdd a b (length t)) = fst (w_bin W BAdd a' b' (length t)) /\
    match snd (w_bin W BAdd a b (length t)), snd (w_bin W BAdd a' b' (length t)) with
    | Val _, Val _ => True | Throw x, Throw y => x = y | _, _ => False end ->
    is_str a || is_str b = true -> is_str a' || is_str b' = true ->
    Rres (apply_bin W BAdd t a b) (apply_bin W BAdd t a' b').
  Proof.
    intros t a b a' b' [Hf Ho] Hs Hs'. unfold apply_bin, eff.
    destruct (w_bin W BAdd a b (length t)) as [t1 o1] eqn:E1, (w_bin W BAdd a' b' (length t)) as [t2 o2] eqn:E2.
    cbn in Hf, Ho. subst t2. destruct o1 as [r|z], o2 as [r'|z']; try contradiction.
    - exists r'. split; [reflexivity|]. right. split; eapply ok_add_str; eauto.
    - subst z'. destruct z; reflexivity.
  Qed.

  (* x + y and x' + y' where the operands are equal or both strings *)
  Lemma add_rel : forall t x x' y y', Rv x x' -> Rv y y' -> Rres (add_values W t x y) (add_values W t x' y').
  Proof.
    intros t x x' y y' Hx Hy.
    destruct Hx as [<-|[Hsx Hsx']]; destruct Hy as [<-|[Hsy Hsy']].
    - apply Rres_refl.
    - destruct y; try discriminate Hsy. destruct y'; try discriminate Hsy'.
      rewrite !add_values_str_r. destruct (is_sym x); [reflexivity|].
      apply add_str_rel; [apply (ok_add_indep_r W Wok) | apply orb_true_r | apply orb_true_r].
    - destruct x; try discriminate Hsx. destruct x'; try discriminate Hsx'.
      rewrite !add_values_str_l. destruct (is_sym y); [reflexivity|].
      apply add_str_rel; [apply (ok_add_indep_l W Wok) | reflexivity | reflexivity].
    - destruct x; try discriminate Hsx. destruct x'; try discriminate Hsx'.
      destruct y; try discriminate Hsy. destruct y'; try discriminate Hsy'.
      unfold add_values, apply_bin, eff. cbn [is_object orb]. rewrite !(ok_add_str_str W Wok).
      eexists. split; [reflexivity|]. right. split; reflexivity.
  Qed.

  Lemma CH_add : forall l l' r r', CH l l' -> CH r r' -> CH (EBin BAdd l r) (EBin BAdd l' r').
  Proof.
    intros l l' r r' Hl Hr tr. cbn [eval]. specialize (Hl tr). unfold Rres in Hl.
    destruct (ev tr l) as [[t1 [x|z]]|]; cbn [bind]; [| rewrite Hl; reflexivity | exact I].
    destruct Hl as [x' [-> Rx]]. cbn [bind]. specialize (Hr t1). unfold Rres in Hr.
    destruct (ev t1 r) as [[t2 [y|z]]|]; cbn [bind]; [| rewrite Hr; reflexivity | exact I].
    destruct Hr as [y' [-> Ry]]. cbn [bind]. apply add_rel; assumption.
  Qed.

  Lemma add_str_valued : forall l r, str_valued l \/ str_valued r -> str_valued (EBin BAdd l r).
  Proof.
    intros l r H tr t v E. cbn [eval] in E.
    apply bind_inv in E as [(t1 & x & Hx & E)|(x & Hx & Ho)]; [|discriminate].
    apply bind_inv in E as [(t2 & y & Hy & E)|(y & Hy & Ho)]; [|discriminate].
    eapply add_val_str; [exact E|]. destruct H as [H|H]; [rewrite (H _ _ _ Hx) | rewrite (H _ _ _ Hy)]; auto using orb_true_r.
  Qed.

  Lemma str_lit_valued : forall s, str_valued (EStr s).
  Proof. intros s tr t v E. cbn [eval] in E. inv E. reflexivity. Qed.

  Lemma CH_str : forall s s', CH (EStr s) (EStr s').
  Proof. intros s s' tr. cbn [eval Rres]. eexists. split; [reflexivity | right; split; reflexivity]. Qed.

  Lemma chain_sound : forall e res isS, simplify_unused_string_chain e = (res, isS) ->
    CH e res /\ (isS = true -> str_valued e /\ str_valued res).
  Proof.
    induction e; intros res isS H; cbn [simplify_unused_string_chain] in H;
      try (inv H; split; [apply CH_refl | discriminate]).
    - (* EStr *)
      inv H. split; [apply CH_str | intros _; split; apply str_lit_valued].
    - (* EBin *)
      destruct op; try (inv H; split; [apply CH_refl | discriminate]).
      destruct (simplify_unused_string_chain e1) as [lft leftIs] eqn:Hc.
      destruct (IHe1 _ _ eq_refl) as [CHl Hstr].
      assert (Hgen : forall r r', CH r r' -> CH (EBin BAdd e1 r) (EBin BAdd lft r') /\
                               (leftIs = true -> str_valued (EBin BAdd e1 r) /\ str_valued (EBin BAdd lft r'))).
      { intros r r' Hr. split; [apply CH_add; assumption|].
        intros Hl. destruct (Hstr Hl) as [S1 S2]. split; apply add_str_valued; left; assumption. }
      destruct e2; try (inv H; exact (Hgen _ _ (CH_refl _))).
      (* the right operand is a string literal *)
      destruct leftIs.
      + (* the chain on the left is a string already: the literal is dropped *)
        inv H. destruct (Hstr eq_refl) as [S1 S2]. split.
        * intros tr. cbn [eval]. specialize (CHl tr). unfold Rres in CHl |- *.
          destruct (ev tr e1) as [[t1 [x|z]]|] eqn:E1; cbn [bind]; [| exact CHl | exact I].
          destruct CHl as [x' [El Rx]]. pose proof (S1 _ _ _ E1) as Hsx.
          destruct x; try discriminate Hsx.
          unfold add_values, apply_bin, eff. cbn [is_object orb]. rewrite (ok_add_str_str W Wok). cbn. rewrite app_nil_r.
          exists x'. split; [exact El|]. right. split; [reflexivity | eapply Rv_str; eauto].
        * intros _. split; [|exact S2]. apply add_str_valued. right. apply str_lit_valued.
      + destruct s as [|c s]; inv H; [exact (Hgen _ _ (CH_refl _))|].
        split; [apply CH_add; [exact CHl | apply CH_str]|].
        intros _. split; apply add_str_valued; right; apply str_lit_valued.
  Qed.

  Lemma CH_SE : forall e e', CH e e' -> SE e (UExpr e').
  Proof.
    intros e e' H tr Hn. rewrite EU_expr. unfold EE in *. specialize (H tr). unfold Rres in H.
    destruct (ev tr e) as [[t [v|z]]|]; [| rewrite H; reflexivity | cbn in Hn; congruence].
    destruct H as [v' [-> _]]. reflexivity.
  Qed.

  (* the list predicates of flags_ok and no_bad, elementwise *)
  Lemma all_In : forall (P : expr -> Prop) l,
    (fix all (l : list expr) : Prop := match l with [] => True | x :: r => P x /\ all r end) l ->
    forall x, In x l -> P x.
  Proof.
    intros P. induction l as [|y r IH]; intros H x Hin; [destruct Hin|].
    destruct H as [H1 H2]. destruct Hin as [->|Hin]; [assumption | eauto].
  Qed.
  Lemma parts_In : forall (P : expr -> Prop) l,
    (fix go (l : list (expr * list Z)) : Prop := match l with [] => True | (v, _) :: r => P v /\ go r end) l ->
    forall v t, In (v, t) l -> P v.
  Proof.
    intros P. induction l as [|[p q] r IH]; intros H v t Hin; [destruct Hin|].
    destruct H as [H1 H2]. destruct Hin as [E|Hin]; [inv E; assumption | eauto].
  Qed.
  Lemma props_In : forall (P : expr -> Prop) l,
    (fix go (l : list (Z * bool * expr * expr)) : Prop :=
       match l with [] => True | (_, _, k, v) :: r => P k /\ P v /\ go r end) l ->
    forall p, In p l -> P (snd p).
  Proof.
    intros P. induction l as [|[[[a0 b0] k0] v0] r IH]; intros H p Hin; [destruct Hin|].
    destruct H as [H1 [H2 H3]]. destruct Hin as [<-|Hin]; [assumption | eauto].
  Qed.

  Lemma su_spread : forall noOC f v, su_fuel f ub noOC (ESpread v) <> UFuel -> su_fuel f ub noOC (ESpread v) = UExpr (ESpread v).
  Proof. intros noOC; destruct f; cbn; congruence. Qed.

  Lemma by_cbr : forall e, flags_ok W e -> can_be_removed ub e = true -> SE e UNil.
  Proof.
    intros e Hf Hc tr Hn. unfold EE in *. destruct (ev tr e) as [[t o]|] eqn:E; [|cbn in Hn; congruence].
    destruct (can_be_removed_sound_all W Wok e tr t o Hf Hc E) as [-> [v ->]]. reflexivity.
  Qed.

  Lemma neg_sound : forall v w, SE (EUn UNeg v w) (match v with EBig _ => UNil | _ => UExpr (EUn UNeg v w) end).
  Proof.
    intros v w. destruct v; try apply SE_refl. apply by_cbr; [split; [discriminate | exact I] | reflexivity].
  Qed.

  Lemma typeof_sound : forall v w r, flags_ok W v -> SE v r ->
    SE (EUn UTypeof v w) (match v with EId _ _ _ => if w then UNil else r | _ => r end).
  Proof.
    intros v w r Hf S.
    destruct v; try (eapply (SE_eq _ (EE _)); [intros; apply EE_typeof; discriminate | exact S]).
    destruct w; [apply by_cbr; [split; eauto | reflexivity]|].
    eapply (SE_eq _ (EE _)); [intros; apply EE_typeof; reflexivity | exact S].
  Qed.

  Lemma id_eval : forall r c m tr, exists o, ev tr (EId r c m) = Some (tr, o).
  Proof.
    intros r c m tr. cbn [eval]. destruct (w_unbound W r); [destruct (w_genv W r)|]; eauto.
  Qed.

  (* "a != null && r'" and "a == null || r'" evaluate r' exactly when a is not nullish *)
  Lemma guard_effects : forall op bop bl br r c r' r'',
    (binop_eqb bop BLooseNe && binop_eqb op BLogAnd) || (binop_eqb bop BLooseEq && binop_eqb op BLogOr) = true ->
    null_operand bl br = Some (EId r c false) ->
    try_insert_optional_chain (EId r c false) r' = Some r'' ->
    forall tr, le_eff (EE (EBin op (EBin bop bl br) r') tr) (EE r'' tr).
  Proof.
    intros op bop bl br r c r' r'' Hops Hsel TI tr Hn.
    destruct (tioc_sound_id W r c false r' r'' TI) as [_ [_ Hsem]]. destruct (Hsem tr) as [Hthrow Hval].
    destruct (id_eval r c false tr) as [o Eo].
    assert (Hcases : (bop = BLooseNe /\ op = BLogAnd) \/ (bop = BLooseEq /\ op = BLogOr)).
    { apply orb_true_iff in Hops. destruct Hops as [H|H]; apply andb_true_iff in H; destruct H as [H1 H2];
        apply internal_binop_dec_bl in H1, H2; auto. }
    assert (Hsc : short_circuit op) by (destruct Hcases as [[_ ->]|[_ ->]]; [apply sc_and | apply sc_or]).
    rewrite EE_sc in Hn |- * by exact Hsc.
    rewrite (null_test_eval W Wok bop bl br _ tr Hsel) in Hn |- * by (destruct Hcases as [[-> _]|[-> _]]; auto).
    rewrite Eo in Hn |- *. destruct o as [a|z]; cbn [bind branch] in Hn |- *; [|unfold EE; rewrite (Hthrow _ _ Eo); reflexivity].
    destruct (Hval a Eo) as [Hnull Hnon].
    assert (Ht : takes_right op (VBool (if binop_eqb bop BLooseNe then negb (nullish a) else nullish a)) = negb (nullish a))
      by (destruct Hcases as [[-> ->]|[-> ->]]; cbn; destruct (nullish a); reflexivity).
    rewrite Ht in Hn |- *. unfold EE in Hn |- *. destruct (nullish a); cbn [negb] in Hn |- *.
    - rewrite (Hnull eq_refl). reflexivity.
    - destruct (ev tr r') as [x|] eqn:Er; [|cbn in Hn; congruence]. rewrite (Hnon eq_refl x eq_refl). reflexivity.
  Qed.

  (* arguments that can all be removed and evaluate: no effects *)
  Lemma items_all_pure : forall l,
    (forall x, In x l -> flags_ok W x /\ can_be_removed ub x = true /\ forall tr, ev tr x <> None) ->
    forall t, seq_all EEitem l t = Some (t, None).
  Proof.
    induction l as [|x r IHl]; intros H t; [reflexivity|].
    cbn [seq_all]. destruct (H x (or_introl eq_refl)) as [Hf [Hc Hd]].
    assert (HE : EE x t = Some (t, None)) by (symmetry; apply (by_cbr x Hf Hc t), eff_of_some, Hd).
    rewrite EEitem_plain by (apply (EE_plain x t); rewrite HE; discriminate). rewrite HE. cbn [seq_eff].
    apply IHl. intros y Hy. apply H. right. exact Hy.
  Qed.

  (* a call marked pure that is not kept has the effects of its arguments: outside an
     optional chain by the mark; inside one (fix a3926ba) it is not kept only when it
     can be removed, and then its arguments can be removed too *)
  Lemma pure_call_effects : forall t args oc,
    flags_ok W (ECall t args oc true) -> no_bad W (ECall t args oc true) ->
    negb (oc =? 0) && negb (can_be_removed ub (ECall t args oc true)) = false ->
    forall tr, le_eff (EE (ECall t args oc true) tr) (seq_all EEitem args tr).
  Proof.
    intros t args oc Hfl Hnb Ck tr. destruct (oc =? 0) eqn:Eoc.
    - apply Z.eqb_eq in Eoc. subst oc. cbn [flags_ok] in Hfl.
      rewrite (EE_pure_call _ _ _ (proj1 Hfl eq_refl)). apply le_eff_refl.
    - cbn [negb andb] in Ck. apply negb_false_iff in Ck. apply Z.eqb_neq in Eoc.
      rewrite items_all_pure; [exact (by_cbr _ Hfl Ck tr)|].
      cbn [flags_ok] in Hfl. cbn [no_bad] in Hnb. destruct Hnb as [Hdef _].
      intros x Hin. split; [exact (all_In _ _ (proj2 (proj2 Hfl)) x Hin)|]. split.
      + cbn [can_be_removed] in Ck. exact (all_args W _ Ck x Hin).
      + exact (Hdef eq_refl Eoc Ck x Hin).
  Qed.

  Lemma logic_sound : forall op l l' r rr rl (noOC : bool),
    short_circuit op -> same_branch op l l' -> SE r rr -> SE l' rl ->
    SE (EBin op l r) (match rr with UFuel => UFuel | UNil => rl | UExpr r' => chain_or noOC op l' r' end).
  Proof.
    intros op l l' r rr rl noOC Hop Hb Sr Sl. destruct rr as [|r'|]; [eapply sc_nil; eassumption | | exact I].
    pose proof (sc_expr op l l' r r' Hop Hb Sr) as H.
    apply chain_or_cases; [exact H|]. intros bop bl br r0 c r'' -> Hops Hsel TI tr.
    eapply le_eff_trans; [apply H|]. rewrite !EU_expr. eapply guard_effects; eassumption.
  Qed.

  Theorem su_sound_fuel : forall noOC f e, flags_ok W e -> no_bad W e -> SE e (su_fuel f ub noOC e).
  Proof.
    intros noOC. induction f as [|f IH]; intros e Hfl Hnb; [exact I|].
    destruct e; cbn [su_fuel]; try (apply by_cbr; [assumption|reflexivity]); try apply SE_refl.
    - (* EId *)
      destruct mustkeep; [apply SE_refl|].
      destruct (removable || negb (ub ref)) eqn:C; [|apply SE_refl].
      apply by_cbr; [assumption|]. cbn [can_be_removed]. exact C.
    - (* EDot *)
      destruct removable; [|apply SE_refl]. apply by_cbr; [assumption|reflexivity].
    - (* ECall *)
      destruct pure; [|apply SE_refl].
      destruct (negb (oc =? 0) && negb (can_be_removed ub (ECall e args oc true))) eqn:Ck; [apply SE_refl|].
      apply (sound_le _ _ _ (pure_call_effects e args oc Hfl Hnb Ck)).
      cbn [flags_ok] in Hfl. cbn [no_bad] in Hnb.
      apply args_sound. intros x Hin.
      apply IH; [exact (all_In _ _ (proj2 (proj2 Hfl)) x Hin) | exact (all_In _ _ (proj2 (proj2 Hnb)) x Hin)].
    - (* ENew *)
      destruct pure; [|apply SE_refl].
      cbn [no_bad] in Hnb. destruct Hnb as [Hnt Hna].
      cbn [flags_ok] in Hfl. destruct Hfl as [Hpc [Hft Hfa]].
      apply (SE_eq _ _ _ (fun tr => EE_pure_new e args tr (Hpc eq_refl))).
      apply args_sound. intros x Hin. apply IH; [exact (all_In _ _ Hfa x Hin) | exact (all_In _ _ Hna x Hin)].
    - (* EUn *)
      cbn [flags_ok] in Hfl. destruct Hfl as [_ Hfv]. cbn [no_bad] in Hnb.
      destruct op; try apply SE_refl.
      + (* UNeg *) apply neg_sound.
      + (* UNot *) eapply SE_eq; [intros; apply EE_unary_pure; auto | apply IH; assumption].
      + (* UVoid *) eapply SE_eq; [intros; apply EE_unary_pure; auto | apply IH; assumption].
      + (* UTypeof *) apply typeof_sound; [exact Hfv | apply IH; assumption].
    - (* EBin *)
      cbn [flags_ok] in Hfl. destruct Hfl as [Hf1 Hf2]. cbn [no_bad] in Hnb. destruct Hnb as [Hn1 Hn2].
      pose proof (IH e1 Hf1 Hn1) as S1. pose proof (IH e2 Hf2 Hn2) as S2.
      assert (Sb : SE (simplify_boolean ub e1) (su_fuel f ub noOC (simplify_boolean ub e1)))
        by (apply IH; [apply simplify_boolean_flags | apply no_bad_sb]; assumption).
      assert (Hsb : forall o, o = BLogAnd \/ o = BLogOr -> same_branch o e1 (simplify_boolean ub e1))
        by (intros o Hop; apply same_branch_ST; [exact Hop|]; intros tr res; apply simplify_boolean_sound_all; assumption).
      (* the operators whose effects are those of the operands, in order *)
      assert (Hjoin : forall op, (forall tr, le_eff (EE (EBin op e1 e2) tr) (seq_eff (EE e1 tr) (EE e2))) ->
                SE (EBin op e1 e2) (join_u (su_fuel f ub noOC e1) (su_fuel f ub noOC e2)))
        by (intros op0 H; exact (sound_join _ (EE e1) (EE e2) _ _ H S1 S2)).
      destruct op; try apply SE_refl.
      + (* BAdd *)
        destruct (simplify_unused_string_chain (EBin BAdd e1 e2)) as [res isStr] eqn:Hc.
        destruct isStr; [|apply SE_refl].
        apply CH_SE. exact (proj1 (chain_sound _ _ _ Hc)).
      + (* BLooseEq *)
        destruct (negb (ptype_eqb (merged_known_types e1 e2) PUnknown)) eqn:C; [|apply SE_refl].
        apply negb_true_iff in C. apply Hjoin. intros tr. apply EE_loose; auto.
      + (* BLooseNe *)
        destruct (negb (ptype_eqb (merged_known_types e1 e2) PUnknown)) eqn:C; [|apply SE_refl].
        apply negb_true_iff in C. apply Hjoin. intros tr. apply EE_loose; auto.
      + (* BStrictEq *) apply Hjoin. intros tr. apply EE_strict; auto.
      + (* BStrictNe *) apply Hjoin. intros tr. apply EE_strict; auto.
      + (* BNullish *) apply logic_sound; [apply sc_nullish | apply same_branch_refl | exact S2 | exact S1].
      + (* BLogOr *) apply logic_sound; [apply sc_or | apply Hsb; auto | exact S2 | exact Sb].
      + (* BLogAnd *) apply logic_sound; [apply sc_and | apply Hsb; auto | exact S2 | exact Sb].
      + (* BComma *) apply Hjoin. intros tr. rewrite EE_comma. apply le_eff_refl.
    - (* EIf *)
      cbn [flags_ok] in Hfl. destruct Hfl as [Hf1 [Hf2 Hf3]]. cbn [no_bad] in Hnb. destruct Hnb as [Hn1 [Hn2 Hn3]].
      apply if_sound; apply IH; assumption.
    - (* ETemplate *)
      cbn [flags_ok] in Hfl. cbn [no_bad] in Hnb.
      apply (SE_eq _ _ _ (EE_template head parts)).
      apply (tpl_sound (su_fuel f ub noOC) parts UNil [] (fun tr => Some (tr, None))); [intros tr; apply le_eff_refl|].
      intros v tl Hin _. apply IH; [exact (parts_In _ _ Hfl v tl Hin) | exact (parts_In _ _ Hnb v tl Hin)].
    - (* EArray *)
      cbn [flags_ok] in Hfl. cbn [no_bad] in Hnb.
      assert (Hitems : forall x, In x items -> SE x (su_fuel f ub noOC x))
        by (intros x Hin; apply IH; [exact (all_In _ _ Hfl x Hin) | exact (all_In _ _ Hnb x Hin)]).
      apply (SE_eq _ _ _ (EE_array items)).
      destruct (existsb (fun x => match x with ESpread _ => true | _ => false end) items) eqn:Hsp.
      + apply (keep_items (su_fuel f ub noOC) items []). intros x Hin. apply item_keep_su, Hitems, Hin.
      + apply sound_fold_nil. intros x Hin.
        pose proof (arg_sound noOC f x (Hitems x Hin)) as Hx. destruct x; try exact Hx.
        (* no item is a spread *)
        rewrite (proj2 (existsb_exists _ _) (ex_intro _ _ (conj Hin eq_refl))) in Hsp. discriminate Hsp.
    - (* EObject *)
      cbn [flags_ok] in Hfl. cbn [no_bad] in Hnb. destruct Hnb as [Hshape Hnb].
      assert (Hvals : forall p, In p props -> SE (snd p) (su_fuel f ub noOC (snd p)))
        by (intros p Hin; apply IH; [exact (props_In _ _ Hfl p Hin) | exact (props_In _ _ Hnb p Hin)]).
      apply (SE_eq _ _ _ (EE_object props)).
      destruct (existsb (fun p : Z * bool * expr * expr => let '(kind, _, _, _) := p in kind =? 1) props) eqn:Hsp.
      + exact (keep_props (su_fuel f ub noOC) props [] Hvals).
      + destruct Hshape as [Hs|Hnc]; [congruence|].
        change (sound_at (seq_all EEprop props) (props_go (su_fuel f ub noOC) props UNil)).
        rewrite props_go_plain by exact Hnc.
        generalize (sound_fold_nil _ (fun p => su_fuel f ub noOC (snd p)) (fun p => EE (snd p)) props Hvals).
        apply sound_le. intros tr. rewrite plain_props by assumption. apply le_eff_refl.
    - (* EAnnot *)
      destruct removable; [|apply SE_refl]. apply by_cbr; [assumption|reflexivity].
    - (* EInlinedEnum *)
      cbn [flags_ok] in Hfl. cbn [no_bad] in Hnb.
      apply (SE_eq (EInlinedEnum e) (EE e)); [intros; reflexivity | apply IH; assumption].
  Qed.

  (* in the terms of MiniJS: same trace, same kind of completion, same thrown value,
     at any fuel at which the model gives a result *)
  Theorem su_fuel_same_effects : forall noOC f e tr res,
    flags_ok W e -> no_bad W e ->
    su_fuel f ub noOC e <> UFuel ->
    ev tr e = Some res ->
    same_effects (Some res) (eval_unused W tr (su_fuel f ub noOC e)).
  Proof.
    intros noOC f e tr res Hf Hn Hfu Hev.
    pose proof (su_sound_fuel noOC f e Hf Hn) as S.
    apply same_effects_of_eff; [|discriminate]. symmetry. rewrite <- Hev.
    destruct (su_fuel f ub noOC e); [| |congruence];
      (apply (S tr); unfold EE; rewrite Hev; destruct res as [t [v|z]]; discriminate).
  Qed.
End SU.
