(* C03 property theorems. This file contains only statements closed by
   [exact lemma] and Print Assumptions. *)
From V Require Import Common.Base C03.Num C03.SpecOps C03.NumProofs C03.Tree C03.Fold C03.PowProofs C03.MiniJS C03.Worlds C03.TreeProofs C03.TreeProofs2 C03.TreeProofs3 C03.TreeProofs4 C03.TreeProofs5 C03.TreeProofs6 C03.TreeProofs7 C03.TreeProofs8 C03.TreeProofs9 C03.TreeProofs10 C03.TreeProofs13 C03.TreeProofs11 C03.TreeProofs12 C03.Stmt C03.StmtProofs C03.Refuted.

(* js_ast.ToInt32 computes ECMA-262 ToInt32 for every float64 (finite dyadic of
   any magnitude, NaN, infinities), whatever Go's implementation-defined
   out-of-range int32(f) conversion returns *)
Theorem to_int32_is_spec :
  forall (cvt : num -> Z) (f : num),
    (forall x, - two31 <= cvt x < two31) -> wf_num f ->
    go_ToInt32 cvt f = spec_ToInt32 f.
Proof. exact to_int32_is_spec_all. Qed.
Print Assumptions to_int32_is_spec.

Theorem to_uint32_is_spec :
  forall (cvt : num -> Z) (f : num),
    (forall x, - two31 <= cvt x < two31) -> wf_num f ->
    go_ToUint32 cvt f = spec_ToUint32 f.
Proof. exact to_uint32_is_spec_all. Qed.
Print Assumptions to_uint32_is_spec.

(* stringCompareUCS2 decides IsLessThan on strings (UTF-16 code unit order),
   for all code-unit sequences *)
Theorem compare_ucs2_is_spec :
  forall a b : list Z,
    (go_compare_ucs2 a b <? 0) = spec_string_lt a b /\
    (0 <? go_compare_ucs2 a b) = spec_string_lt b a /\
    (go_compare_ucs2 a b =? 0) = zlist_eqb a b.
Proof. intros a b. exact (conj (compare_ucs2_lt_all a b) (conj (compare_ucs2_gt_all a b) (compare_ucs2_eq_all a b))). Qed.
Print Assumptions compare_ucs2_is_spec.

(* FoldBinaryOperator's << >> >>> & | ^ on two numbers = the standard's
   Number::leftShift, signedRightShift, unsignedRightShift, bitwiseAND/OR/XOR
   (defined through ToInt32/ToUint32), for all float64 operands *)
Theorem fold_int_ops_is_spec :
  forall (cvt : num -> Z) (op : binop) (l r : num),
    (forall x, - two31 <= cvt x < two31) -> wf_num l -> wf_num r ->
    forall z, spec_int_op op l r = Some z -> fold_num_num cvt op l r = FNum (num_of_Z z).
Proof. exact fold_int_ops_is_spec_all. Qed.
Print Assumptions fold_int_ops_is_spec.

(* ToBooleanWithSideEffects is sound over MiniJS, for every world (effectful
   calls, getters, conversions ...): the truthiness it reports is the
   truthiness of every normal completion, and NoSideEffects means normal
   completion with an unchanged trace.  [flags_ok]: the parser's annotations
   (pure marks, typeof-identifier marks) are true in the world *)
Theorem to_boolean_sound :
  forall (W : world) e tr tr' out b se,
    flags_ok W e ->
    eval W tr e = Some (tr', out) ->
    to_boolean e = (b, se, true) ->
    (forall v, out = Val v -> truthy v = b) /\ (se = true -> tr' = tr /\ exists v, out = Val v).
Proof. exact to_boolean_sound_all. Qed.
Print Assumptions to_boolean_sound.

(* ToNullOrUndefinedWithSideEffects is sound, for every world that respects the
   result types ECMA-262 guarantees of the operators ([world_ok]) *)
Theorem to_nullish_sound :
  forall (W : world), world_ok W ->
    forall e tr tr' out b se,
    flags_ok W e ->
    eval W tr e = Some (tr', out) ->
    to_nullish e = (b, se, true) ->
    (forall v, out = Val v -> nullish v = b) /\ (se = true -> tr' = tr /\ exists v, out = Val v).
Proof. exact to_nullish_sound_all. Qed.
Print Assumptions to_nullish_sound.

(* JoinWithLeftAssociativeOp(op, a, b) evaluates exactly like (a op b) for the
   short-circuit operators it is used with (&&, ||, ??): same trace, same
   completion, in every world *)
Theorem join_left_assoc_equiv :
  forall (W : world) op, short_circuit op ->
    forall b a tr, eval W tr (join_left op a b) = eval W tr (EBin op a b).
Proof. exact join_left_assoc_equiv_all. Qed.
Print Assumptions join_left_assoc_equiv.

(* KnownPrimitiveType is sound w.r.t. the value semantics: whatever value an
   expression produces in whatever world has the reported type (Mixed = some
   primitive other than a symbol) *)
Theorem known_type_sound :
  forall (W : world), world_ok W ->
    forall e tr tr' v, eval W tr e = Some (tr', Val v) -> type_ok (known_type e) v = true.
Proof. exact known_type_sound_all. Qed.
Print Assumptions known_type_sound.

(* ExprCanBeRemovedIfUnused is sound over the whole modelled AST (calls, new,
   property reads, templates, array/object literals with spreads and computed
   keys, guarded references to undeclared globals ...) and every effectful
   world: if the model says true, evaluating e emits no trace event and
   completes normally.  The world has no other mutable state than the trace
   (time), on which every effectful operation may depend, so "trace unchanged"
   is "world unchanged". *)
Theorem expr_can_be_removed_sound :
  forall (W : world), world_ok W ->
    forall e tr tr' out,
    flags_ok W e -> can_be_removed (w_unbound W) e = true ->
    eval W tr e = Some (tr', out) -> tr' = tr /\ exists v, out = Val v.
Proof. exact can_be_removed_sound_all. Qed.
Print Assumptions expr_can_be_removed_sound.

(* MaybeSimplifyNot: whenever it rewrites "!e" to e', e' evaluates exactly like
   "!e" (same trace, same completion, same value), in every world_ok world; and
   Not(e) always evaluates like "!e" *)
Theorem simplify_not_correct :
  forall (W : world), world_ok W ->
    forall e e' w tr res,
    maybe_simplify_not e = Some e' ->
    eval W tr (EUn UNot e w) = Some res -> eval W tr e' = Some res.
Proof. exact simplify_not_correct_all. Qed.
Print Assumptions simplify_not_correct.

Theorem not_is_negation :
  forall (W : world), world_ok W ->
    forall e tr res, eval W tr (EUn UNot e false) = Some res -> eval W tr (not_ e) = Some res.
Proof. exact not_correct. Qed.
Print Assumptions not_is_negation.

(* SimplifyBooleanExpr: in every world_ok world, whenever e evaluates, the
   simplified expression evaluates with the same trace, the same kind of
   completion (same thrown value) and a value of the same truthiness; and the
   parser's annotations stay true of the result *)
Theorem simplify_boolean_sound :
  forall (W : world), world_ok W ->
    forall e tr res, flags_ok W e -> eval W tr e = Some res ->
    same_truthiness (Some res) (eval W tr (simplify_boolean (w_unbound W) e)).
Proof. exact simplify_boolean_sound_all. Qed.
Print Assumptions simplify_boolean_sound.

Theorem simplify_boolean_keeps_flags :
  forall (W : world), world_ok W ->
    forall e, flags_ok W e -> flags_ok W (simplify_boolean (w_unbound W) e).
Proof. exact simplify_boolean_flags. Qed.
Print Assumptions simplify_boolean_keeps_flags.

(* an expression never completes with the internal short-circuit marker of
   optional chains: a chain ends inside the expression that contains it *)
Theorem eval_never_short :
  forall (W : world) e tr t, eval W tr e <> Some (t, Throw VShort).
Proof. exact eval_no_short. Qed.
Print Assumptions eval_never_short.

(* SimplifyUnusedExpr (with or without optional-chain insertion): in every
   world_ok world, whenever the unused expression e evaluates, its simplification
   has the same trace, the same kind of completion and the same thrown value.
   Covers templates, array/object literals with spreads, pure calls and new,
   conditionals, logical operators (left operand through SimplifyBooleanExpr),
   equality operators, typeof, unused string-addition chains, and the rewrite
   a != null && a.b.c => a?.b.c (TryToInsertOptionalChain after fix 01a3711:
   finding J).
   PARTIAL: [no_bad] excludes the shape on which the statement is false of the
   real code (refuted below): an object literal without spread that has a
   computed key (finding A).  For a call marked pure inside an optional chain
   (finding K, repaired by a3926ba: unwrapped only when all its arguments can be
   removed) [no_bad] asks that the arguments of the unwrapped call evaluate in
   the model: the call evaluates without evaluating them when the chain
   short-circuits, and the model is partial.
   The model is total (no fuel hypothesis: see simplify_unused_total).
   Full statement: forall e, flags_ok W e -> ... same_effects (eval e) (eval_unused (simplify_unused ub noOC e)) *)
Theorem simplify_unused_sound_partial :
  forall (W : world), world_ok W ->
    forall noOptChain e tr res,
    flags_ok W e -> no_bad W e ->
    eval W tr e = Some res ->
    same_effects (Some res) (eval_unused W tr (simplify_unused (w_unbound W) noOptChain e)).
Proof. exact simplify_unused_sound_nofuel_all. Qed.
Print Assumptions simplify_unused_sound_partial.

(* CheckEqualityIfNoSideEffects on two literals (also inlined enum constants)
   answers what IsStrictlyEqual / IsLooselyEqual compute on their values: -0 == 0,
   NaN != NaN, null == undefined, true == 1, ... (two bigint literals are compared
   textually by the code: not covered) *)
Theorem check_equality_sound :
  forall l r strict eq x y,
    lit_value l = Some x -> lit_value r = Some y -> both_bigint l r = false ->
    check_equality l r strict = (eq, true) ->
    (if strict then strict_eq x y else spec_loose_eq x y) = Some eq.
Proof. exact check_equality_sound_all. Qed.
Print Assumptions check_equality_sound.

(* FoldBinaryOperator's ** (after fix 9e1822e): whenever the folded result is
   decided by a special case (of the fix or of math.Pow), Number::exponentiate
   decides the same value, or leaves it implementation-approximated; for ALL
   doubles.  (Was refuted with witness 1 ** NaN before the fix, DESIGN 7-B.) *)
Theorem fold_pow_special_cases :
  forall x y, wf_double x -> wf_double y ->
    forall r, fold_pow x y = Some r ->
    match spec_exponentiate_special x y with Some r' => num_same r r' = true | None => True end.
Proof. exact fold_pow_special_cases_all. Qed.
Print Assumptions fold_pow_special_cases.

(* REFUTED (DESIGN 7-A): SimplifyUnusedExpr does not preserve the effects of an
   unused object literal with a computed key: ({[k]: 1}) with k a symbol
   completes normally, the residue k + "" throws TypeError *)
Theorem simplify_unused_object_key_refuted :
  exists e, simplify_unused ub false e = UExpr (EBin BAdd (EId 1 false false) (EStr []))
            /\ eval W0 [] e = Some ([], Val VObjLit)
            /\ ~ simplify_unused_preserves_effects e.
Proof. exact simplify_unused_object_key_refuted_w. Qed.
Print Assumptions simplify_unused_object_key_refuted.

(* Finding J (repaired by 01a3711): with optional-chain insertion, the witness
   a != null && (a.q?.y).z of the defect is not turned into a?.q?.y.z (which
   short-circuits where the input throws): it is kept and throws like the input *)
Theorem simplify_unused_paren_chain_fixed :
  simplify_unused ub false paren_chain = UExpr paren_chain
  /\ eval WJ [] paren_chain = Some ([], Throw (VStr s_TypeError))
  /\ eval_unused WJ [] (simplify_unused ub false paren_chain) = Some ([], Throw (VStr s_TypeError)).
Proof. exact simplify_unused_paren_chain_fixed_w. Qed.
Print Assumptions simplify_unused_paren_chain_fixed.

(* Finding K (repaired by a3926ba): the witness of the defect, an unused pure optional
   call whose argument has effects, is not unwrapped to its arguments (which the
   input does not evaluate when the callee is null): it is kept *)
Theorem simplify_unused_pure_optional_call_fixed :
  simplify_unused ub true pure_optional_call = UExpr pure_optional_call
  /\ eval WJ [] pure_optional_call = Some ([], Val VUndef)
  /\ eval_unused WJ [] (simplify_unused ub true pure_optional_call) = Some ([], Val VUndef).
Proof. exact simplify_unused_pure_optional_call_fixed_w. Qed.
Print Assumptions simplify_unused_pure_optional_call_fixed.

(* ValuesLookTheSame (after fix 71e396b, which made it compare the typeof-identifier
   mark: finding P) is sound in every world: two expressions that look the same
   have the same evaluation at the same time -- same trace, same completion, same
   value.  (Not "no effects": two identical calls look the same.)
   PARTIAL: [vls_ok] = number literals are canonical (one representation per
   value, as num_of_bits produces them) and inlined enum constants wrap literals. *)
Theorem values_look_the_same_sound_partial :
  forall (W : world) l r,
    vls_ok l -> vls_ok r -> values_look_the_same l r = true ->
    forall tr, eval W tr l = eval W tr r.
Proof. exact values_look_the_same_sound_all. Qed.
Print Assumptions values_look_the_same_sound_partial.

(* the witness of finding P: the two operands are told apart, and the conditional is kept *)
Theorem values_look_the_same_typeof_mark_fixed :
  values_look_the_same typeof_bare typeof_comma = false
  /\ mangle_if ub false false (EId 1 false false) typeof_bare typeof_comma
      = Some (EIf (EId 1 false false) typeof_bare typeof_comma).
Proof. exact (conj (proj1 values_look_the_same_typeof_mark) mangle_if_typeof_mark_kept). Qed.
Print Assumptions values_look_the_same_typeof_mark_fixed.

(* TryToInsertOptionalChain (after fix 01a3711): when it turns the chain e guarded
   by "test" into e', then e' completes like test when test throws, evaluates to
   undefined (without evaluating any link) when test is null or undefined, and
   otherwise evaluates exactly like e.
   PARTIAL: [vls_ok] (canonical number literals; not needed when test is an
   identifier: tioc_sound_id).
   Full statement: the same without vls_ok. *)
Theorem try_insert_optional_chain_sound_partial :
  forall (W : world) test e e',
    vls_ok test -> vls_ok e -> try_insert_optional_chain test e = Some e' ->
    forall tr,
      (forall tr1 z, eval W tr test = Some (tr1, Throw z) -> eval W tr e' = Some (tr1, Throw z)) /\
      (forall a, eval W tr test = Some (tr, Val a) ->
         (nullish a = true -> eval W tr e' = Some (tr, Val VUndef)) /\
         (nullish a = false -> forall r, eval W tr e = Some r -> eval W tr e' = Some r)).
Proof. intros W test e e' H1 H2 H4. exact (proj2 (proj2 (tioc_sound W test e e' H1 H2 H4))). Qed.
Print Assumptions try_insert_optional_chain_sound_partial.

(* MangleIfExpr: in every world_ok world, whenever the conditional test ? yes : no
   evaluates, the expression MangleIfExpr returns for it evaluates to the same
   trace, the same completion and the same value.  Covers all rewrites of the
   function: comma hoisting, negated test, equal branches (test kept or dropped when
   removable), boolean arms, a ? a : b => a || b, a ? b : a => a && b, the six
   rewrites that merge an arm into the test (nested conditional, comma, ||, &&),
   the merge of two calls that differ in their first argument (also spread;
   recursive), a != null ? a : b => a ?? b, and a != null ? a.b.c : undefined =>
   a?.b.c (optional-chain insertion, after fix 01a3711).
   The model is total (no fuel hypothesis: see mangle_if_total).
   PARTIAL: [vls_ok] as for values_look_the_same_sound_partial; [no_hole_args]: call
   arguments are not array holes.
   Full statement: the same without these two well-formedness hypotheses. *)
Theorem mangle_if_equiv_partial :
  forall (W : world), world_ok W ->
  forall noNullish noOptChain test yes no,
    flags_ok W test -> flags_ok W yes -> flags_ok W no ->
    vls_ok test -> vls_ok yes -> vls_ok no ->
    no_hole_args yes -> no_hole_args no ->
    exists e', mangle_if (w_unbound W) noNullish noOptChain test yes no = Some e' /\
      forall tr res, eval W tr (EIf test yes no) = Some res -> eval W tr e' = Some res.
Proof. exact mangle_if_equiv_all. Qed.
Print Assumptions mangle_if_equiv_partial.

(* the fuel of the MangleIfExpr model suffices for every input *)
Theorem mangle_if_total :
  forall unbound noNullish noOptChain test yes no,
    exists e', mangle_if unbound noNullish noOptChain test yes no = Some e'.
Proof. exact mangle_if_total_all. Qed.
Print Assumptions mangle_if_total.

(* the fuel of the SimplifyUnusedExpr model suffices for every input (its recursion
   goes through SimplifyBooleanExpr, which never grows an expression) *)
Theorem simplify_boolean_never_grows :
  forall unbound e, (esize (simplify_boolean unbound e) <= esize e)%nat.
Proof. exact sb_size_le. Qed.
Print Assumptions simplify_boolean_never_grows.

Theorem simplify_unused_total :
  forall unbound noOptChain e, simplify_unused unbound noOptChain e <> UFuel.
Proof. exact simplify_unused_total_all. Qed.
Print Assumptions simplify_unused_total.

(* Statement-level mangling (mangleStmts / mangleIf of the parser), by translation
   validation.  Statement lists (expression statements, if/else, return, throw,
   break/continue, labelled statements, blocks, var/let/const declarations, loops as
   opaque effects) have
   a completion-record trace semantics over the worlds of MiniJS; [norm_fn] turns a
   function body into a decision tree of effects, tests and completions, splitting
   the operators the mangler builds statements from (comma, !, void, &&, ||, ?: in
   statement, test, return and throw position).  The tree has exactly the
   executions of the body, so two bodies with the same tree are equivalent.  The
   check computes both trees for every generated function body as parsed by
   js_parser.Parse without and with MinifySyntax and compares them (and checks that
   no hoisted "var" name is lost).
   PARTIAL (which rewrites of the mangler are inside, i.e. identified by the normal
   form): "if (a) return b; return c" => "return a ? b : c" (also throw), "if (a) b;
   else c" => "a ? b : c" / "a && b" / "a || b", negated tests, dropping "else"
   after a jump, "if (a) return; rest" => "a || rest", joining expression
   statements (and a following return / throw / if test / for initializer) with
   comma, merging adjacent declarations, dead code after jumps, dropping empty
   statements and blocks, a trailing "return;" / "return void a" at the end of a
   function, "if (a) return;" at the end of a function, reading a declared
   identifier for nothing, "if (a) break L; if (b) break L" => "if (a || b) break L",
   dropping an unused label.  Not inside: an if with equal arms that are not jumps, the
   store (a declaration evaluates its initializer, the binding is not modelled: the
   single-use substitution of the mangler is not covered), loop bodies (opaque),
   switch / try / continue to a label.
   Full statement: mangleStmts preserves the executions of every statement list. *)
Theorem stmt_normal_form_sound :
  forall (W : world) (wloop : Z -> nat -> trace * outcome) body tr,
    exec_tree W wloop tr (norm_fn (w_unbound W) body) = exec_fn W wloop tr body.
Proof. exact norm_fn_sound. Qed.
Print Assumptions stmt_normal_form_sound.

Theorem mangle_stmts_equiv_partial :
  forall (W : world) (wloop : Z -> nat -> trace * outcome) input output,
    norm_fn (w_unbound W) input = norm_fn (w_unbound W) output ->
    forall tr, exec_fn W wloop tr input = exec_fn W wloop tr output.
Proof. exact same_normal_form_equiv. Qed.
Print Assumptions mangle_stmts_equiv_partial.
