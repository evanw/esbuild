(* The normal form of a statement list has the semantics of the list; statement
   lists with the same normal form have the same executions. *)
From V Require Import Common.Base C03.Num C03.Tree C03.MiniJS C03.Stmt.

Section StmtProofs.
  Variable W : world.
  Variable wloop : Z -> nat -> trace * outcome.
  Notation ev := (eval W).
  Notation xt := (exec_tree W wloop).
  Notation ex := (exec W wloop).
  Notation ub := (w_unbound W).
  Notation split_eff := (split_eff ub).
  Notation split_test := (split_test ub).
  Notation split_ret := (split_ret ub).
  Notation split_throw := (split_throw ub).
  Notation graft := (graft ub).
  Notation norm := (norm ub).
  Notation norm_list := (norm_list ub).
  Notation norm_fn := (norm_fn ub).

  Lemma ebind_bind : forall r f k, ebind (bind r f) k = ebind r (fun tr1 v => ebind (f tr1 v) k).
  Proof. intros [[t [v|x]]|] f k; reflexivity. Qed.
  Lemma ebind_ext : forall r k1 k2, (forall t v, k1 t v = k2 t v) -> ebind r k1 = ebind r k2.
  Proof. intros [[t [v|x]]|] k1 k2 H; cbn [ebind]; auto. Qed.
  Lemma cseq_ebind : forall r k f, cseq (ebind r k) f = ebind r (fun t v => cseq (k t v) f).
  Proof. intros [[t [v|x]]|] k f; reflexivity. Qed.
  Lemma cseq_cseq : forall r f g, cseq (cseq r f) g = cseq r (fun t => cseq (f t) g).
  Proof. intros [[t [| | | |]]|] f g; reflexivity. Qed.
  Lemma cseq_ext : forall r f g, (forall t, f t = g t) -> cseq r f = cseq r g.
  Proof. intros [[t [| | | |]]|] f g H; cbn [cseq]; auto. Qed.

  Lemma mk_eff_sound : forall e k tr, xt tr (mk_eff ub e k) = ebind (ev tr e) (fun tr1 _ => xt tr1 k).
  Proof.
    intros e k tr. destruct e; try reflexivity. cbn [mk_eff].
    destruct (w_unbound W ref) eqn:U; [reflexivity|]. cbn [eval]. rewrite U. reflexivity.
  Qed.

  Lemma oz_eqb_eq : forall a b, oz_eqb a b = true -> a = b.
  Proof. intros [x|] [y|] H; try discriminate H; [apply Z.eqb_eq in H; subst|]; reflexivity. Qed.

  Lemma leaf_eqb_eq : forall a b, leaf_eqb a b = true -> a = b.
  Proof.
    intros a b H. destruct a as [|[ea|]| |la|la| | | |]; destruct b as [|[eb|]| |lb|lb| | | |];
      try discriminate H; try reflexivity; apply oz_eqb_eq in H; subst; reflexivity.
  Qed.

  Lemma mk_if_sound : forall e k1 k2 tr,
    xt tr (mk_if ub e k1 k2) = ebind (ev tr e) (fun tr1 v => if truthy v then xt tr1 k1 else xt tr1 k2).
  Proof.
    intros e k1 k2 tr. unfold mk_if. destruct (leaf_eqb k1 k2) eqn:L; [|reflexivity].
    apply leaf_eqb_eq in L. subst k2. rewrite mk_eff_sound. apply ebind_ext. intros t v. destruct (truthy v); reflexivity.
  Qed.

  (* split_eff and split_test call each other: one induction for both *)
  Lemma split_sound : forall e,
    (forall k tr, xt tr (split_eff e k) = ebind (ev tr e) (fun tr1 _ => xt tr1 k)) /\
    (forall k1 k2 tr, xt tr (split_test e k1 k2) = ebind (ev tr e) (fun tr1 v => if truthy v then xt tr1 k1 else xt tr1 k2)).
  Proof.
    induction e; split; intros; try apply mk_eff_sound; try apply mk_if_sound.
    - (* EUn, effect *)
      destruct IHe as [He Ht]. destruct op; try apply mk_eff_sound; cbn [Stmt.split_eff]; rewrite He; cbn [eval];
        rewrite ebind_bind; apply ebind_ext; reflexivity.
    - (* EUn, test *)
      destruct IHe as [He Ht]. destruct op; try apply mk_if_sound. cbn [Stmt.split_test]. rewrite Ht. cbn [eval].
      rewrite ebind_bind. apply ebind_ext. intros t v. cbn [ebind truthy]. destruct (truthy v); reflexivity.
    - (* EBin, effect *)
      destruct IHe1 as [He1 Ht1]. destruct IHe2 as [He2 Ht2].
      destruct op; try apply mk_eff_sound; cbn [Stmt.split_eff]; cbn [eval]; rewrite ebind_bind.
      + rewrite Ht1. apply ebind_ext. intros t v. destruct (truthy v); [reflexivity | rewrite He2; reflexivity].
      + rewrite Ht1. apply ebind_ext. intros t v. destruct (truthy v); [rewrite He2; reflexivity | reflexivity].
      + rewrite He1. apply ebind_ext. intros t v. rewrite He2. reflexivity.
    - (* EBin, test *)
      destruct IHe1 as [He1 Ht1]. destruct IHe2 as [He2 Ht2].
      destruct op; try apply mk_if_sound; cbn [Stmt.split_test]; cbn [eval]; rewrite ebind_bind.
      + rewrite Ht1. apply ebind_ext. intros t v. destruct (truthy v) eqn:Tv; [cbn [ebind]; rewrite Tv; reflexivity | rewrite Ht2; reflexivity].
      + rewrite Ht1. apply ebind_ext. intros t v. destruct (truthy v) eqn:Tv; [rewrite Ht2; reflexivity | cbn [ebind]; rewrite Tv; reflexivity].
      + rewrite He1. apply ebind_ext. intros t v. rewrite Ht2. reflexivity.
    - (* EIf, effect *)
      destruct IHe1 as [He1 Ht1]. destruct IHe2 as [He2 Ht2]. destruct IHe3 as [He3 Ht3].
      cbn [Stmt.split_eff]. rewrite Ht1. cbn [eval]. rewrite ebind_bind. apply ebind_ext. intros t v.
      destruct (truthy v); [rewrite He2 | rewrite He3]; reflexivity.
    - (* EIf, test *)
      destruct IHe1 as [He1 Ht1]. destruct IHe2 as [He2 Ht2]. destruct IHe3 as [He3 Ht3].
      cbn [Stmt.split_test]. rewrite Ht1. cbn [eval]. rewrite ebind_bind. apply ebind_ext. intros t v.
      destruct (truthy v); [rewrite Ht2 | rewrite Ht3]; reflexivity.
  Qed.

  Lemma split_eff_sound : forall e k tr, xt tr (split_eff e k) = ebind (ev tr e) (fun tr1 _ => xt tr1 k).
  Proof. intros e. exact (proj1 (split_sound e)). Qed.
  Lemma split_test_sound : forall e k1 k2 tr,
    xt tr (split_test e k1 k2) = ebind (ev tr e) (fun tr1 v => if truthy v then xt tr1 k1 else xt tr1 k2).
  Proof. intros e. exact (proj2 (split_sound e)). Qed.

  Lemma split_ret_sound : forall e tr, xt tr (split_ret e) = ebind (ev tr e) (fun tr1 v => Some (tr1, CReturn v)).
  Proof.
    induction e; intros tr; try reflexivity.
    - destruct op; try reflexivity. cbn [Stmt.split_ret]. rewrite split_eff_sound. cbn [eval]. rewrite ebind_bind.
      apply ebind_ext. reflexivity.
    - destruct op; try reflexivity. cbn [Stmt.split_ret]. rewrite split_eff_sound. cbn [eval]. rewrite ebind_bind.
      apply ebind_ext. intros t v. apply IHe2.
    - cbn [Stmt.split_ret]. rewrite split_test_sound. cbn [eval]. rewrite ebind_bind. apply ebind_ext. intros t v.
      destruct (truthy v); [apply IHe2 | apply IHe3].
  Qed.

  Lemma split_throw_sound : forall e tr, xt tr (split_throw e) = ebind (ev tr e) (fun tr1 v => Some (tr1, CThrow v)).
  Proof.
    induction e; intros tr; try reflexivity.
    - destruct op; try reflexivity. cbn [Stmt.split_throw]. rewrite split_eff_sound. cbn [eval]. rewrite ebind_bind.
      apply ebind_ext. intros t v. apply IHe2.
    - cbn [Stmt.split_throw]. rewrite split_test_sound. cbn [eval]. rewrite ebind_bind. apply ebind_ext. intros t v.
      destruct (truthy v); [apply IHe2 | apply IHe3].
  Qed.

  Lemma cseq_id : forall r, cseq r (fun t => Some (t, CNormal)) = r.
  Proof. intros [[t [| | | |]]|]; reflexivity. Qed.

  (* what follows a labelled statement *)
  Definition after (l : Z) (r : option (trace * completion)) (k : tree) : option (trace * completion) :=
    match r with
    | Some (tr1, CNormal) => xt tr1 k
    | Some (tr1, CBreak (Some l')) => if l' =? l then xt tr1 k else r
    | _ => r
    end.

  Lemma after_ebind : forall l r f k, after l (ebind r f) k = ebind r (fun t v => after l (f t v) k).
  Proof. intros l [[t [v|x]]|] f k; reflexivity. Qed.

  Lemma graft_sound : forall l t k tr, xt tr (graft l t k) = after l (xt tr t) k.
  Proof.
    intros l t k. induction t; intros tr; cbn [Stmt.graft]; try reflexivity.
    - destruct v; [|reflexivity]. cbn [exec_tree]. rewrite after_ebind. apply ebind_ext. reflexivity.
    - cbn [exec_tree]. rewrite after_ebind. apply ebind_ext. reflexivity.
    - destruct l0 as [l'|]; [|reflexivity]. cbn [exec_tree after]. destruct (l' =? l); reflexivity.
    - cbn [exec_tree]. rewrite after_ebind. apply ebind_ext. intros t0 v. apply IHt.
    - rewrite mk_if_sound. cbn [exec_tree]. rewrite after_ebind. apply ebind_ext. intros t0 v.
      destruct (truthy v); [apply IHt1 | apply IHt2].
    - cbn [exec_tree]. rewrite after_ebind. apply ebind_ext. intros t0 v. apply IHt.
    - cbn [exec_tree]. unfold run_loop. destruct (eff tr (wloop id)) as [[t0 [v|x]]|]; cbn [ebind cseq after]; try reflexivity. apply IHt.
  Qed.

  (* size of a statement, for the induction through blocks *)
  Fixpoint ssize (s : stmt) : nat :=
    S (match s with
       | SIf _ y n => ssize y + ssize n
       | SBlock b => (fix go (l : list stmt) : nat := match l with [] => O | x :: r => (ssize x + go r)%nat end) b
       | SLabel _ b => ssize b
       | _ => O
       end)%nat.

  Theorem norm_sound_size : forall n s, (ssize s <= n)%nat -> forall k tr,
    xt tr (norm s k) = cseq (ex tr s) (fun tr1 => xt tr1 k).
  Proof.
    induction n as [|n IH]; intros s Hsz k tr; [destruct s; cbn [ssize] in Hsz; lia|].
    destruct s; cbn [Stmt.norm exec].
    - (* SExpr *) rewrite split_eff_sound, cseq_ebind. apply ebind_ext. reflexivity.
    - (* SIf *) cbn [ssize] in Hsz. rewrite split_test_sound, cseq_ebind. apply ebind_ext. intros t0 v.
      destruct (truthy v); apply IH; lia.
    - (* SReturn *) destruct v as [e|]; [|reflexivity]. rewrite split_ret_sound, cseq_ebind. apply ebind_ext. reflexivity.
    - (* SThrow *) rewrite split_throw_sound, cseq_ebind. apply ebind_ext. reflexivity.
    - reflexivity.
    - reflexivity.
    - (* SBlock *) cbn [ssize] in Hsz. revert tr.
      induction body as [|x r IHb]; intros tr; [reflexivity|].
      cbn [ssize] in Hsz. rewrite IH by lia. rewrite cseq_cseq. apply cseq_ext. intros t0. apply IHb. lia.
    - (* SLocal *) clear Hsz. revert tr. induction decls as [|[ref [e|]] r IHd]; intros tr; [reflexivity | | apply IHd].
      cbn [exec_tree]. rewrite cseq_ebind. apply ebind_ext. intros t0 v. apply IHd.
    - (* SLoop *) destruct init as [e|]; [|reflexivity].
      rewrite split_eff_sound, cseq_ebind. apply ebind_ext. reflexivity.
    - (* SLabel *) cbn [ssize] in Hsz. rewrite graft_sound, IH by lia. rewrite cseq_id.
      destruct (ex tr s) as [[t0 [| | |[l'|]|]]|]; cbn [after end_label cseq]; try reflexivity.
      destruct (l' =? l); reflexivity.
    - reflexivity.
  Qed.

  Theorem norm_sound : forall s k tr, xt tr (norm s k) = cseq (ex tr s) (fun tr1 => xt tr1 k).
  Proof. intros s. exact (norm_sound_size (ssize s) s (le_n _)). Qed.

  Theorem norm_list_sound : forall l k tr,
    xt tr (norm_list l k) = cseq (exec_list W wloop tr l) (fun tr1 => xt tr1 k).
  Proof.
    induction l as [|x r IH]; intros k tr; [reflexivity|].
    cbn [Stmt.norm_list exec_list]. rewrite norm_sound, cseq_cseq. apply cseq_ext. intros t0. apply IH.
  Qed.

  Theorem norm_fn_sound : forall l tr, xt tr (norm_fn l) = exec_fn W wloop tr l.
  Proof. intros l tr. unfold Stmt.norm_fn, exec_fn. rewrite norm_list_sound. reflexivity. Qed.

  (* translation validation: the same normal form, the same executions of the function body *)
  Theorem same_normal_form_equiv : forall a b, norm_fn a = norm_fn b ->
    forall tr, exec_fn W wloop tr a = exec_fn W wloop tr b.
  Proof. intros a b H tr. rewrite <- !norm_fn_sound, H. reflexivity. Qed.

  (* ... and of a block (statement lists that complete normally, break or continue) *)
  Theorem same_normal_form_equiv_block : forall a b, norm_list a TEnd = norm_list b TEnd ->
    forall tr, exec_list W wloop tr a = exec_list W wloop tr b.
  Proof.
    intros a b H tr.
    assert (E : forall l, xt tr (norm_list l TEnd) = exec_list W wloop tr l)
      by (intros l; rewrite norm_list_sound; apply cseq_id).
    rewrite <- !E, H. reflexivity.
  Qed.
End StmtProofs.
