(* The whole mangleRules loop (empty-rule removal, @layer collapsing, nested
   duplicate @media unwrapping, adjacent merging, then the back-to-front
   duplicate removal) preserves every winner. *)
From V Require Import Common.Base C12.Cascade C12.CascadeProofs C12.Mangle C12.MangleProofs C12.MergeProofs C12.LayerCollapse.

Section Equiv.
  Variable w : world.

  (* items that differ only in their condition lists, with the same truth *)
  Definition isim (a b : item) : Prop :=
    i_stmt a = i_stmt b /\ i_layer a = i_layer b /\ i_sels a = i_sels b /\ i_decls a = i_decls b /\
    conds_hold w (i_conds a) = conds_hold w (i_conds b).

  Lemma isim_equiv L1 L2 : Forall2 isim L1 L2 -> equiv w L1 L2.
  Proof.
    induction 1 as [|a b L1 L2 [H1 [H2 [H3 [H4 H5]]]] HL IH]; [apply equiv_refl|].
    apply (equiv_app w [a] [b]); [|exact IH]. apply equiv_of_same.
    - rewrite !declared_one, H1, H2, H5. reflexivity.
    - intros D e p. rewrite !cands_one.
      unfold item_cands, item_active. rewrite H1, H2, H3, H4, H5. reflexivity.
  Qed.

  Lemma isim_flat_map {A} (f g : A -> list item) (l : list A) :
    Forall (fun x => Forall2 isim (f x) (g x)) l -> Forall2 isim (flat_map f l) (flat_map g l).
  Proof.
    induction 1 as [|x l Hx Hl IH]; cbn [flat_map]; [constructor|].
    apply Forall2_app; assumption.
  Qed.

  Lemma isim_refl_list L : Forall2 isim L L.
  Proof. induction L; constructor; auto. repeat split; reflexivity. Qed.

  (* two condition lists with the same truth under every extension *)
  Definition conds_sim (c1 c2 : list Z) : Prop := forall x, conds_hold w (c1 ++ x) = conds_hold w (c2 ++ x).

  Lemma conds_sim_hold c1 c2 : conds_sim c1 c2 -> conds_hold w c1 = conds_hold w c2.
  Proof. intros H. specialize (H []). rewrite !app_nil_r in H. exact H. Qed.

  Lemma conds_sim_app c1 c2 x : conds_sim c1 c2 -> conds_sim (c1 ++ x) (c2 ++ x).
  Proof. intros H y. rewrite <- !app_assoc. apply H. Qed.

  Lemma conds_sim_again c q : In q c -> conds_sim c (c ++ [q]).
  Proof.
    intros Hq x. unfold conds_hold. rewrite <- app_assoc, !forallb_app. cbn [forallb app].
    destruct (forallb (cond_true w) c) eqn:E; [|reflexivity].
    rewrite forallb_forall in E. rewrite (E q Hq). reflexivity.
  Qed.

  Definition flatten_sim (r : rule) : Prop := forall c1 c2 layer,
    conds_sim c1 c2 -> Forall2 isim (flatten c1 layer r) (flatten c2 layer r).

  Lemma flat_map_sim body c1 c2 layer : Forall flatten_sim body -> conds_sim c1 c2 ->
    Forall2 isim (flat_map (flatten c1 layer) body) (flat_map (flatten c2 layer) body).
  Proof.
    intros IH H. apply isim_flat_map. eapply Forall_impl; [|exact IH]. intros r Hr. apply Hr, H.
  Qed.

  Lemma flatten_conds_sim : forall r, flatten_sim r.
  Proof.
    induction r as [s d|q body IH|t p body IH|n aid body IH|k i|i|i] using rule_ind';
      intros c1 c2 layer H; cbn [flatten]; try constructor.
    - repeat split. apply conds_sim_hold, H.
    - constructor.
    - apply flat_map_sim; [exact IH | apply conds_sim_app, H].
    - apply flat_map_sim; [exact IH | apply conds_sim_app, H].
    - assert (HS : forall l, isim (stmt_item c1 l) (stmt_item c2 l)).
      { intros l. repeat split. apply conds_sim_hold, H. }
      destruct n as [|n1 [|n2 ns]].
      + constructor; [apply HS | apply flat_map_sim; assumption].
      + constructor; [apply HS | apply flat_map_sim; assumption].
      + apply Forall2_app; [|apply flat_map_sim; assumption].
        generalize (n1 :: n2 :: ns). intros l. induction l; cbn [map]; constructor; auto.
  Qed.

  (* an item without declarations that is not a statement is neutral *)
  Lemma equiv_empty_item conds layer sels : equiv w [mkItem false conds layer sels []] [].
  Proof.
    apply equiv_of_same; [reflexivity|].
    intros D e p. rewrite cands_one. unfold item_cands. cbn [i_decls filter map].
    destruct (item_active w _); [|reflexivity]. destruct (best_spec w _ e); reflexivity.
  Qed.
End Equiv.

Definition silent (r : rule) : Prop := match r with RComment _ => True | _ => False end.

Definition no_collapse (r : rule) : Prop :=
  match r with
  | RLayer [_] _ [RLayer [_] _ _] => False
  | _ => True
  end.

Lemma set_nth_app {A} (o1 : list A) x y cs : set_nth (length o1) x (o1 ++ y :: cs) = o1 ++ x :: cs.
Proof. induction o1 as [|a o1 IH]; cbn [length set_nth app]; [reflexivity|]. rewrite IH. reflexivity. Qed.

Lemma nth_error_mid {A} (o1 : list A) y cs : nth_error (o1 ++ y :: cs) (length o1) = Some y.
Proof. induction o1 as [|a o1 IH]; cbn; [reflexivity | exact IH]. Qed.

Section Loop.
  Variable w : world.
  Variable conds layer encl : list Z.
  (* the @media rules the parser is inside of are among the conditions of the context *)
  Hypothesis Hencl : forall q, In q encl -> In q conds.
  (* isSafeSelectors: what esbuild calls safe is understood by the browsers considered *)
  Hypothesis Hsafe : forall s, s_safe s = true -> sel_understood w (s_id s) = true.

  Notation FL := (flatten_list conds layer).

  Lemma FL_app a b : FL (a ++ b) = FL a ++ FL b.
  Proof. unfold flatten_list. apply flat_map_app. Qed.

  Lemma FL_cons r rs : FL (r :: rs) = flatten conds layer r ++ FL rs.
  Proof. reflexivity. Qed.

  Lemma FL_silent cs : Forall silent cs -> FL cs = [].
  Proof.
    induction 1 as [|c cs Hc Hcs IH]; [reflexivity|].
    unfold flatten_list in *. cbn [flat_map]. rewrite IH. destruct c; try contradiction. reflexivity.
  Qed.

  (* prev, when set, points at a style rule of the output that only comments follow *)
  Definition inv (out : list rule) (prev : option nat) : Prop :=
    match prev with
    | None => True
    | Some i => exists o1 ps pd cs, out = o1 ++ RSel ps pd :: cs /\ length o1 = i /\ Forall silent cs
    end.

  Lemma inv_new out sels decls : inv (out ++ [RSel sels decls]) (Some (length out)).
  Proof. exists out, sels, decls, []. repeat split. constructor. Qed.

  Lemma inv_comment out prev i : inv out prev -> inv (out ++ [RComment i]) prev.
  Proof.
    destruct prev as [j|]; [|exact (fun H => H)].
    intros [o1 [ps [pd [cs [-> [Hlen Hcs]]]]]].
    exists o1, ps, pd, (cs ++ [RComment i]). split; [|split].
    - rewrite <- app_assoc. reflexivity.
    - exact Hlen.
    - apply Forall_app. split; [exact Hcs | repeat constructor].
  Qed.

  Lemma inv_unwrap out body : body <> [] ->
    inv (out ++ body) (match last body (RComment 0) with
                       | RSel _ _ => Some (length out + length body - 1)%nat
                       | _ => None
                       end).
  Proof.
    intros Hne. pose proof (app_removelast_last (RComment 0) Hne) as HL.
    destruct (last body (RComment 0)) as [sels decls| | | | | |]; try exact I.
    exists (out ++ removelast body), sels, decls, []. split; [|split].
    - rewrite HL at 1. rewrite <- app_assoc. reflexivity.
    - rewrite app_length. rewrite HL at 2. rewrite app_length. cbn [length]. lia.
    - constructor.
  Qed.

  Lemma unwrap_equiv q body : In q encl ->
    equiv w (FL body) (flatten conds layer (RMedia q body)).
  Proof.
    intros Hq. cbn [flatten]. unfold flatten_list. apply isim_equiv.
    apply isim_flat_map. apply Forall_forall. intros r _.
    apply flatten_conds_sim, conds_sim_again, Hencl, Hq.
  Qed.

  (* "@layer a { @layer b { X } }" => "@layer a.b { X }" *)
  Lemma layer_collapse_equiv n1 n2 aid aid2 body2 :
    equiv w (FL [RLayer [n1 ++ n2] aid body2]) (FL [RLayer [n1] aid [RLayer [n2] aid2 body2]]).
  Proof.
    unfold flatten_list. cbn [flat_map flatten]. rewrite !app_nil_r, app_assoc.
    intros pre post e p.
    apply (stmt_prefix_redundant w conds (layer ++ n1) n2 pre
             (flat_map (flatten conds ((layer ++ n1) ++ n2)) body2 ++ post) e p).
  Qed.

  (* "a {D} /**/ b {D}" => "a, b {D} /**/" *)
  Lemma merge_step_equiv ps sels pd cs :
    Forall silent cs -> forallb s_safe ps = true -> forallb s_safe sels = true ->
    equiv w (FL (RSel (merge_sels ps sels) pd :: cs)) (FL ((RSel ps pd :: cs) ++ [RSel sels pd])).
  Proof.
    intros Hcs Hsp Hss. rewrite FL_app, !FL_cons, (FL_silent cs Hcs).
    unfold flatten_list. cbn [flat_map flatten app].
    intros pre post e p. apply adjacent_merge_keeps_winner_all.
    intros s Hs. apply Hsafe. rewrite forallb_forall in Hsp, Hss.
    apply in_app_or in Hs as [Hs|Hs]; [apply Hsp | apply Hss]; exact Hs.
  Qed.

  Lemma mr_equiv : forall rules out prev,
    inv out prev ->
    equiv w (FL (mr encl rules out prev)) (FL (out ++ rules)).
  Proof.
    induction rules as [|r rest IH]; intros out prev Hinv.
    - cbn [mr]. rewrite app_nil_r. apply equiv_refl.
    - (* every branch goes on with an output list that stands for out ++ [r] *)
      assert (Hstep : forall out' prev', inv out' prev' -> equiv w (FL out') (FL (out ++ [r])) ->
                equiv w (FL (mr encl rest out' prev')) (FL (out ++ r :: rest))).
      { intros out' prev' Hi He. eapply equiv_trans; [apply IH; exact Hi|].
        replace (out ++ r :: rest) with ((out ++ [r]) ++ rest) by (rewrite <- app_assoc; reflexivity).
        rewrite !(FL_app _ rest). apply equiv_app; [exact He | apply equiv_refl]. }
      assert (Happend : forall prev', inv (out ++ [r]) prev' ->
                equiv w (FL (mr encl rest (out ++ [r]) prev')) (FL (out ++ r :: rest))).
      { intros prev' Hi. apply Hstep; [exact Hi | apply equiv_refl]. }
      assert (Hreplace : forall rs prev', inv (out ++ rs) prev' -> equiv w (FL rs) (FL [r]) ->
                equiv w (FL (mr encl rest (out ++ rs) prev')) (FL (out ++ r :: rest))).
      { intros rs prev' Hi He. apply Hstep; [exact Hi|].
        rewrite !(FL_app out). apply equiv_app; [apply equiv_refl | exact He]. }
      assert (Hskip : equiv w [] (FL [r]) ->
                equiv w (FL (mr encl rest out prev)) (FL (out ++ r :: rest))).
      { intros He. rewrite <- (app_nil_r out) at 1. apply Hreplace; [rewrite app_nil_r; exact Hinv | exact He]. }
      destruct r as [sels decls|q body|tok pre body|names aid body|k i|i|i]; cbn [mr].
      + (* RSel *)
        destruct (is_nil decls) eqn:En.
        * destruct decls; [|discriminate]. apply Hskip, equiv_sym, equiv_empty_item.
        * pose proof (Happend _ (inv_new out sels decls)) as Hnew.
          destruct prev as [i|]; [|exact Hnew].
          destruct Hinv as [o1 [ps [pd [cs [Hout [Hlen Hcs]]]]]]. subst out i.
          rewrite nth_error_mid.
          destruct (leqb decl_eqb decls pd && forallb s_safe sels && forallb s_safe ps) eqn:Ec; [|exact Hnew].
          apply andb_true_iff in Ec as [Ec Hsp]. apply andb_true_iff in Ec as [Hd Hss].
          apply leqb_decl in Hd. subst decls. rewrite set_nth_app.
          apply Hstep; [exists o1, (merge_sels ps sels), pd, cs; repeat split; exact Hcs|].
          rewrite <- app_assoc, !(FL_app o1). apply equiv_app; [apply equiv_refl|].
          apply merge_step_equiv; assumption.
      + (* RMedia *)
        destruct (is_nil body) eqn:En.
        * destruct body; [|discriminate]. apply Hskip, equiv_refl.
        * destruct (existsb (Z.eqb q) encl) eqn:Ex; [|apply Happend; exact I].
          apply existsb_exists in Ex as [q' [Hq' Hqq]]. apply Z.eqb_eq in Hqq. subst q'.
          apply Hreplace.
          -- apply inv_unwrap. destruct body; discriminate.
          -- unfold flatten_list at 2. cbn [flat_map]. rewrite app_nil_r. apply unwrap_equiv, Hq'.
      + (* RCond *)
        destruct (is_nil body) eqn:En.
        * destruct body; [|discriminate]. apply Hskip, equiv_refl.
        * apply Happend. exact I.
      + (* RLayer: only the shape [n1], [RLayer [n2] _ _] is rewritten *)
        apply (Hreplace [_]); [exact I|].
        destruct names as [|n1 [|? ?]]; try apply equiv_refl.
        destruct body as [|b body']; try apply equiv_refl.
        destruct b as [| | |names2 aid2 body2| | |]; try apply equiv_refl.
        destruct names2 as [|n2 [|? ?]]; try apply equiv_refl.
        destruct body'; try apply equiv_refl.
        apply layer_collapse_equiv.
      + apply Happend. exact I.
      + apply Happend. exact I.
      + (* RComment *)
        apply Happend, inv_comment, Hinv.
  Qed.

  Hypothesis Hdead : forall s e, s_dead s = true -> matches w (s_id s) e = false.

  Theorem mangle_rules_keeps_winner_all : forall rules top,
    forall pre post e p,
    winner w (pre ++ FL (mangle_rules encl rules top) ++ post) e p =
    winner w (pre ++ FL rules ++ post) e p.
  Proof.
    intros rules top. unfold mangle_rules.
    assert (H : equiv w (FL (mr encl rules [] None)) (FL rules)).
    { apply (mr_equiv rules [] None I). }
    destruct top; [exact H|].
    eapply equiv_trans; [|exact H].
    intros pre post e p. apply dedupe_keeps_winner_all. exact Hdead.
  Qed.
End Loop.
