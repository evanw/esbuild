(* C12 model, part 5: internal/css_parser/css_decls.go
     expandTokenQuad (1-4 values -> top right bottom left) and
     compactTokenQuad (the shortest 1-4 value form of four sides),
   the core of the box shorthand collapsing done by boxTracker.compactRules
   (css_decls_box.go).  A token is its identity up to whitespace
   (EqualIgnoringWhitespace is equality of identities).
   The tracker's bookkeeping (which declarations are removed, unit safety,
   the !important reset) is modelled in BoxTracker.v. *)
From V Require Import Common.Base.

Definition quad := (Z * Z * Z * Z)%type.

(* expandTokenQuad on a list of 1..4 tokens *)
Definition expand_quad (l : list Z) : option quad :=
  match l with
  | [a] => Some (a, a, a, a)
  | [a; b] => Some (a, b, a, b)
  | [a; b; c] => Some (a, b, c, b)
  | [a; b; c; d] => Some (a, b, c, d)
  | _ => None
  end.

(* compactTokenQuad *)
Definition compact_quad (q : quad) : list Z :=
  let '(a, b, c, d) := q in
  if d =? b then
    if c =? a then
      if b =? a then [a] else [a; b]
    else [a; b; c]
  else [a; b; c; d].

(* the shorthand written by compactRules denotes exactly the four sides it was
   built from (CSS Box 4: 1 value = all; 2 = vertical | horizontal;
   3 = top | horizontal | bottom; 4 = top right bottom left) *)
Theorem box_quad_roundtrip_all : forall q, expand_quad (compact_quad q) = Some q.
Proof.
  intros [[[a b] c] d]. unfold compact_quad.
  destruct (Z.eqb_spec d b); [|reflexivity]. subst.
  destruct (Z.eqb_spec c a); [|reflexivity]. subst.
  destruct (Z.eqb_spec b a); [subst|]; reflexivity.
Qed.

(* and it is the shortest form: no shorter list expands to the same sides *)
Theorem box_quad_shortest_all : forall q l, expand_quad l = Some q -> (length (compact_quad q) <= length l)%nat.
Proof.
  intros [[[a b] c] d] l H.
  destruct l as [|x [|y [|z [|w [|]]]]]; cbn in H; try discriminate; inversion H; subst;
    unfold compact_quad; rewrite ?Z.eqb_refl.
  - reflexivity.
  - destruct (d =? c); cbn [length]; lia.
  - destruct (c =? a); [destruct (d =? a)|]; cbn [length]; lia.
  - destruct (d =? b); [destruct (c =? a); [destruct (b =? a)|]|]; cbn [length]; lia.
Qed.
