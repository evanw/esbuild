(* The border-radius tracker as an instance of the bookkeeping of GenInv: a slot
   remembers the two radii of a corner; what they say about the rule the slot points at. *)
From V Require Import Common.Base C12.Mangle C12.BoxTracker C12.BoxSpec C12.BoxLemmas C12.BoxTokens C12.BoxCompact
  C12.GenSem C12.GenInv C12.RadiusTracker C12.RadiusSpec.

(* the declaration a tracked corner points at, and the two tokens h0 v0 in it that give the corner's radii *)
Definition rshape (r : bdecl) (c : nat) (single : bool) (h0 v0 : tok) : Prop :=
  if single then
    exists one : bool, b_key r = KSide c /\ b_val r = (if one then [h0] else [h0; v0]) /\
      is_numeric h0 = true /\ is_numeric v0 = true /\ (one = true -> v0 = h0)
  else
    exists before aft q1 q2, b_key r = KShort /\ split_slash (b_val r) = (before, aft) /\
      forallb is_numeric before = true /\ forallb is_numeric (second_list before aft) = true /\
      spec_expand before = Some q1 /\ spec_expand (second_list before aft) = Some q2 /\
      h0 = qnth q1 c /\ v0 = qnth q2 c.

Lemma rvalid_single e c h v imp (one : bool) : is_numeric h = true -> is_numeric v = true -> (one = true -> v = h) ->
  rvalid e (mkB (KSide c) (if one then [h] else [h; v]) imp) = rok e h && rok e v.
Proof.
  intros Hh Hv Hone. unfold rvalid, rtoks. cbn [b_val]. destruct one.
  - rewrite (Hone eq_refl). assert (F : filter nonslash [h] = [h]) by (apply numeric_facts; cbn; rewrite Hh; reflexivity).
    rewrite F. cbn. destruct (rok e h); reflexivity.
  - assert (F : filter nonslash [h; v] = [h; v]) by (apply numeric_facts; cbn; rewrite Hh, Hv; reflexivity).
    rewrite F. cbn. rewrite andb_true_r. reflexivity.
Qed.

(* what a rule of the tracked shape does *)
Lemma rshape_facts r c single h0 v0 : (c < 4)%nat -> rshape r c single h0 v0 ->
  (forall e, rsets e r c = if rvalid e r then Some (RV (norm h0) (norm v0)) else None) /\
  (forall e, rvalid e r = false -> forall c', rsets e r c' = None) /\
  (forall e, rvalid e r = true -> rok e h0 = true /\ rok e v0 = true) /\
  (single = true -> forall e, rvalid e r = rok e h0 && rok e v0).
Proof.
  intros Hc Hs. destruct r as [k val i]. unfold rshape in Hs. cbn [b_key b_val] in Hs. destruct single.
  - destruct Hs as [one [-> [-> [Hh [Hv Hone]]]]].
    split; [|split; [|split]].
    + intros e. rewrite rsets_single, rvalid_single by assumption. rewrite Nat.eqb_refl. reflexivity.
    + intros e Hf c'. rewrite rsets_single by assumption. rewrite rvalid_single in Hf by assumption. rewrite Hf.
      destruct (Nat.eqb c c'); reflexivity.
    + intros e Ht. rewrite rvalid_single in Ht by assumption. apply andb_true_iff in Ht. exact Ht.
    + intros _ e. apply rvalid_single; assumption.
  - destruct Hs as [before [aft [q1 [q2 [-> [Hsp [Hb [Ha [H1 [H2 [-> ->]]]]]]]]]]].
    split; [|split; [|split]].
    + intros e. rewrite (rsets_short e val i c before aft q1 q2), (rvalid_short e val i before aft) by assumption.
      replace (c <? 4)%nat with true by (symmetry; apply Nat.ltb_lt; lia). reflexivity.
    + intros e Hf c'. rewrite (rsets_short e val i c' before aft q1 q2) by assumption.
      rewrite (rvalid_short e val i before aft) in Hf by assumption. rewrite Hf. destruct (c' <? 4)%nat; reflexivity.
    + intros e Ht. rewrite (rvalid_short e val i before aft) in Ht by assumption.
      apply andb_true_iff in Ht as [T1 T2].
      rewrite (forallb_spec_expand _ _ q1 H1) in T1. rewrite (forallb_spec_expand _ _ q2 H2) in T2.
      split; apply all4_nth; assumption.
    + discriminate.
Qed.

(* all corners tracked in one shorthand read the same two quads *)
Lemma rshape_short r c h v : rshape r c false h v ->
  exists q1 q2, (forall c' h' v', rshape r c' false h' v' -> h' = qnth q1 c' /\ v' = qnth q2 c') /\
    (forall e, rvalid e r = all4 (rok e) q1 && all4 (rok e) q2).
Proof.
  intros [before [aft [q1 [q2 [Hk [Hsp [Hb [Ha [H1 [H2 _]]]]]]]]]]. exists q1, q2. split.
  - intros c' h' v' [before' [aft' [q1' [q2' [_ [Hsp' [_ [_ [H1' [H2' [-> ->]]]]]]]]]]].
    rewrite Hsp in Hsp'. inversion Hsp'; subst before' aft'. rewrite H1 in H1'. rewrite H2 in H2'.
    inversion H1'; inversion H2'; subst. split; reflexivity.
  - intros e. destruct r as [k val i]. cbn [b_key b_val] in *. subst k.
    rewrite (rvalid_short e val i before aft) by assumption.
    rewrite (forallb_spec_expand _ _ q1 H1), (forallb_spec_expand _ _ q2 H2). reflexivity.
Qed.

Lemma leqb_tok_eq : forall a b, leqb tok_eqb a b = true -> a = b.
Proof.
  induction a as [|x a IH]; intros [|y b]; simpl; intros H; try discriminate; [reflexivity|].
  apply andb_true_iff in H as [H1 H2]. f_equal; [apply tok_eqb_eq; exact H1 | apply IH; exact H2].
Qed.

Lemma compact_inj q q' : compact_quad_tok q = compact_quad_tok q' -> q = q'.
Proof.
  intros H. pose proof (spec_expand_compact q) as A. rewrite H, spec_expand_compact in A. inversion A; reflexivity.
Qed.

(* the tokens compactRules writes: "h{1,4}", or "h{1,4} / v{1,4}" when the two lists differ *)
Definition radius_tokens (qf qs : quad) : list tok :=
  if leqb tok_eqb (compact_quad_tok qf) (compact_quad_tok qs) then compact_quad_tok qf
  else compact_quad_tok qf ++ [TOther 0] ++ compact_quad_tok qs.

Lemma comb_shape qf qs imp c : all4 is_numeric qf = true -> all4 is_numeric qs = true ->
  rshape (mkB KShort (radius_tokens qf qs) imp) c false (qnth qf c) (qnth qs c).
Proof.
  intros Nf Ns. unfold rshape, radius_tokens. cbn [b_key b_val].
  assert (Cf : forallb is_numeric (compact_quad_tok qf) = true) by (rewrite forallb_compact; exact Nf).
  assert (Cs : forallb is_numeric (compact_quad_tok qs) = true) by (rewrite forallb_compact; exact Ns).
  destruct (leqb tok_eqb (compact_quad_tok qf) (compact_quad_tok qs)) eqn:E.
  - apply leqb_tok_eq in E. apply compact_inj in E. subst qs.
    exists (compact_quad_tok qf), None, qf, qf. cbn [second_list].
    repeat split; try assumption; try apply spec_expand_compact. apply split_slash_numeric; exact Cf.
  - exists (compact_quad_tok qf), (Some (compact_quad_tok qs)), qf, qs. cbn [second_list].
    repeat split; try assumption; try apply spec_expand_compact. cbn [app]. apply split_slash_app; exact Cf.
Qed.

Definition radii := (tok * tok)%type.
Definition rpval (p : radii) : rval := RV (norm (fst p)) (norm (snd p)).
Definition rpok (e : benv) (p : radii) : bool := rok e (fst p) && rok e (snd p).

(* rule r gives corner c the radii h0 v0; the slot holds them, possibly after 0px -> 0 *)
Definition rdesc (r : bdecl) (c : nat) (single : bool) (p : radii) : Prop :=
  (c < 4)%nat /\
  exists h0 v0, rshape r c single h0 v0 /\
    norm (fst p) = norm h0 /\ norm (snd p) = norm v0 /\
    (forall e, rok e (fst p) = rok e h0) /\ (forall e, rok e (snd p) = rok e v0) /\
    is_numeric (fst p) = true /\ is_numeric (snd p) = true.

Lemma rsets_hi e d c : b_key d = KShort -> (4 <= c)%nat -> rsets e d c = None.
Proof.
  intros Hk Hc. unfold rsets. rewrite Hk.
  replace (c <? 4)%nat with false by (symmetry; apply Nat.ltb_ge; exact Hc). reflexivity.
Qed.

Lemma rdesc_key r c sg p : rdesc r c sg p -> b_key r = if sg then KSide c else KShort.
Proof.
  intros [_ [h0 [v0 [Hsh _]]]]. destruct sg; [destruct Hsh as [one [Hk _]] | destruct Hsh as [? [? [? [? [Hk _]]]]]]; exact Hk.
Qed.

Lemma rdesc_sets r c sg p : rdesc r c sg p -> (c < 4)%nat ->
  forall e, rsets e r c = if rvalid e r then Some (rpval p) else None.
Proof.
  intros [Hc [h0 [v0 [Hsh [Hnh [Hnv _]]]]]] _ e.
  destruct (rshape_facts r c sg h0 v0 Hc Hsh) as [F4 _]. unfold rpval. rewrite F4, Hnh, Hnv. reflexivity.
Qed.

Lemma rdesc_invalid r c sg p : rdesc r c sg p -> forall e, rvalid e r = false -> forall c', rsets e r c' = None.
Proof. intros [Hc [h0 [v0 [Hsh _]]]]. apply (rshape_facts r c sg h0 v0 Hc Hsh). Qed.

Lemma rdesc_ok r c sg p : rdesc r c sg p -> (c < 4)%nat -> forall e, rvalid e r = true -> rpok e p = true.
Proof.
  intros [Hc [h0 [v0 [Hsh [_ [_ [Hokh [Hokv _]]]]]]]] _ e Hv.
  destruct (rshape_facts r c sg h0 v0 Hc Hsh) as [_ [_ [F6 _]]]. destruct (F6 e Hv) as [A B].
  unfold rpok. rewrite Hokh, Hokv, A, B. reflexivity.
Qed.

Lemma rdesc_single r c p : rdesc r c true p -> forall e, rvalid e r = rpok e p.
Proof.
  intros [Hc [h0 [v0 [Hsh [_ [_ [Hokh [Hokv _]]]]]]]] e.
  destruct (rshape_facts r c true h0 v0 Hc Hsh) as [_ [_ [_ F7]]].
  unfold rpok. rewrite Hokh, Hokv. apply F7. reflexivity.
Qed.

Lemma rdesc_short r (p : nat -> radii) : (forall k, (k < 4)%nat -> rdesc r k false (p k)) ->
  forall e, (forall k, (k < 4)%nat -> rpok e (p k) = true) -> rvalid e r = true.
Proof.
  intros H e Hall. destruct (H 0%nat ltac:(lia)) as [_ [h [v [Hsh _]]]].
  destruct (rshape_short r 0%nat h v Hsh) as [q1 [q2 [Hq Hqv]]]. rewrite Hqv.
  assert (Hqk : forall k, (k < 4)%nat -> rok e (qnth q1 k) = true /\ rok e (qnth q2 k) = true).
  { intros k Hk. destruct (H k Hk) as [_ [h' [v' [Hsh' [_ [_ [Hokh [Hokv _]]]]]]]].
    destruct (Hq k h' v' Hsh') as [-> ->]. rewrite <- Hokh, <- Hokv. apply andb_true_iff. apply Hall. exact Hk. }
  unfold all4.
  destruct (Hqk 0%nat ltac:(lia)) as [A0 B0], (Hqk 1%nat ltac:(lia)) as [A1 B1].
  destruct (Hqk 2%nat ltac:(lia)) as [A2 B2], (Hqk 3%nat ltac:(lia)) as [A3 B3].
  rewrite A0, A1, A2, A3, B0, B1, B2, B3. reflexivity.
Qed.

Definition rcomb (p : nat -> radii) : list tok :=
  radius_tokens (fst (p 0%nat), fst (p 1%nat), fst (p 2%nat), fst (p 3%nat))
                (snd (p 0%nat), snd (p 1%nat), snd (p 2%nat), snd (p 3%nat)).

Lemma rdesc_comb (p : nat -> radii) imp : (forall k, (k < 4)%nat -> exists r sg, rdesc r k sg (p k)) ->
  forall k, (k < 4)%nat -> rdesc (mkB KShort (rcomb p) imp) k false (p k).
Proof.
  intros H k Hk.
  assert (Hn : forall j, (j < 4)%nat -> is_numeric (fst (p j)) = true /\ is_numeric (snd (p j)) = true).
  { intros j Hj. destruct (H j Hj) as [r [sg [_ [h [v [_ [_ [_ [_ [_ N]]]]]]]]]]. exact N. }
  destruct (Hn 0%nat ltac:(lia)) as [A0 B0], (Hn 1%nat ltac:(lia)) as [A1 B1].
  destruct (Hn 2%nat ltac:(lia)) as [A2 B2], (Hn 3%nat ltac:(lia)) as [A3 B3].
  split; [exact Hk|]. exists (fst (p k)), (snd (p k)).
  split; [|repeat split; apply Hn; exact Hk].
  assert (S := fun c => comb_shape (fst (p 0%nat), fst (p 1%nat), fst (p 2%nat), fst (p 3%nat))
                                   (snd (p 0%nat), snd (p 1%nat), snd (p 2%nat), snd (p 3%nat)) imp c).
  unfold all4 in S. cbn [qnth] in S. rewrite A0, A1, A2, A3, B0, B1, B2, B3 in S.
  destruct k as [|[|[|[|]]]]; try lia;
    [exact (S 0%nat eq_refl eq_refl) | exact (S 1%nat eq_refl eq_refl) | exact (S 2%nat eq_refl eq_refl) | exact (S 3%nat eq_refl eq_refl)].
Qed.

Definition rview (rc : rcorner) : slot radii := mkSlot radii (rc_first rc, rc_second rc) (rc_us rc) (rc_idx rc) (rc_single rc).
Definition rslots (tr : rtracker) : nat -> option (slot radii) := fun c => option_map rview (rt_corners tr c).

Lemma rslots_some tr c rc : rt_corners tr c = Some rc -> rslots tr c = Some (rview rc).
Proof. intros E. unfold rslots. rewrite E. reflexivity. Qed.

Definition rtrinv (rs : rules) (tr : rtracker) : Prop := ginv radii rvalid rdesc rs (rslots tr) (rt_imp tr).

Lemma rtrinv_none rs imp : rtrinv rs (mkRT no_corners imp).
Proof. apply ginv_none. Qed.

Definition rkeeps := gkeeps rval rsets rtracker rtrinv.

Definition radius_update1 := ginv_update1 rval rsets rsets_affects rsets_hi radii rpval rvalid rdesc rdesc_key rdesc_sets.
Definition radius_update4 := ginv_update4 rval rsets rsets_affects rsets_hi radii rpval rvalid rdesc rdesc_key rdesc_sets.
Definition radius_compact := ginv_compact_safe rval rsets rsets_affects rsets_hi radii rpval rvalid rdesc
  rdesc_key rdesc_sets rpok rdesc_invalid rdesc_ok rdesc_single rdesc_short rcomb rdesc_comb.

(* borderRadius.compactRules *)
Lemma rcompact_inv rs tr : rtrinv rs tr -> rkeeps rs (rcompact_rules rs tr).
Proof.
  intros H. unfold rcompact_rules.
  assert (Hsame : rkeeps rs (rs, tr)) by (split; [apply gsem_eq_refl | exact H]).
  destruct (rt_corners tr 0%nat) as [c0|] eqn:E0; [|exact Hsame].
  destruct (rt_corners tr 1%nat) as [c1|] eqn:E1; [|exact Hsame].
  destruct (rt_corners tr 2%nat) as [c2|] eqn:E2; [|exact Hsame].
  destruct (rt_corners tr 3%nat) as [c3|] eqn:E3; [|exact Hsame].
  destruct (safe_with (rc_us c1) (rc_us c0) && safe_with (rc_us c2) (rc_us c0) && safe_with (rc_us c3) (rc_us c0)) eqn:ES;
    [|exact Hsame].
  destruct (radius_compact rs (rslots tr) (rt_imp tr) _ _ _ _ H
              (rslots_some _ _ _ E0) (rslots_some _ _ _ E1) (rslots_some _ _ _ E2) (rslots_some _ _ _ E3) ES) as [S I].
  split; [exact S|]. apply I. intros s. destruct s as [|[|[|[|]]]]; reflexivity.
Qed.
