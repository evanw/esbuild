(* What the duplicate removal over a declaration list is, exactly. *)
From V Require Import Common.Base C12.Cascade C12.Mangle C12.MangleProofs.

Section KeepLast.
  Context {R : Type} (eqb : R -> R -> bool).
  Hypothesis eqb_eq : forall a b, eqb a b = true -> a = b.

  (* keep an element iff no equal element follows *)
  Fixpoint keep_last (l : list R) : list R :=
    match l with
    | [] => []
    | x :: t => if existsb (eqb x) t then keep_last t else x :: keep_last t
    end.

  Lemma existsb_keep_last r : forall t, existsb (eqb r) (keep_last t) = existsb (eqb r) t.
  Proof.
    induction t as [|x t IH]; [reflexivity|]. cbn [keep_last existsb].
    destruct (existsb (eqb x) t) eqn:Ex.
    - rewrite IH. destruct (eqb r x) eqn:Er; [|reflexivity].
      apply eqb_eq in Er. subst. rewrite Ex. reflexivity.
    - cbn [existsb]. rewrite IH. reflexivity.
  Qed.

  Lemma rd_keep_last : forall l, rd eqb (fun _ => false) (fun _ => true) l [] = (keep_last l, keep_last l).
  Proof.
    induction l as [|x t IH]; [reflexivity|]. cbn [rd keep_last]. rewrite IH.
    rewrite existsb_keep_last. destruct (existsb (eqb x) t); reflexivity.
  Qed.

  Lemma keep_last_in : forall l1 d l2, existsb (eqb d) l2 = false -> In d (keep_last (l1 ++ d :: l2)).
  Proof.
    induction l1 as [|x l1 IH]; intros d l2 H; cbn [app keep_last].
    - rewrite H. left. reflexivity.
    - destruct (existsb (eqb x) (l1 ++ d :: l2)); [apply IH; exact H | right; apply IH; exact H].
  Qed.
End KeepLast.

Lemma decl_eqb_refl d : decl_eqb d d = true.
Proof. destruct d. unfold decl_eqb. cbn. rewrite !Z.eqb_refl, eqb_reflx. reflexivity. Qed.

Theorem dedupe_is_keep_last_all : forall ds, remove_dead_decls ds = keep_last decl_eqb ds.
Proof. intros ds. unfold remove_dead_decls. rewrite (rd_keep_last decl_eqb decl_eqb_eq). reflexivity. Qed.

Theorem dedupe_keeps_last_occurrence : forall ds1 d ds2,
  existsb (decl_eqb d) ds2 = false -> In d (remove_dead_decls (ds1 ++ d :: ds2)).
Proof.
  intros ds1 d ds2 H. rewrite dedupe_is_keep_last_all. apply keep_last_in. exact H.
Qed.
