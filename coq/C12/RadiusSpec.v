(* C12 specification side for border-radius (CSS Backgrounds and Borders 3,
   section 5.1-5.5: border-radius = <length-percentage>{1,4} [ / <length-percentage>{1,4} ]?,
   the values before the slash are the horizontal radii of the four corners, the
   values after it the vertical radii, a missing second list repeats the first;
   border-*-radius = <length-percentage>{1,2}, a missing second value repeats the
   first; CSS Cascade: within a block the last valid declaration of a corner
   wins, important over normal; CSS Syntax: a declaration with a value the
   browser does not understand is dropped as a whole).  Written from the
   standards; it does not use the tracker's unit-safety classification.

   Tokens and declarations are those of BoxTracker.v (KShort = border-radius,
   KSide 0..3 = the corners top-left, top-right, bottom-right, bottom-left, the
   slash is the token TOther 0); browser environments are those of BoxSpec.v. *)
From V Require Import Common.Base C12.Mangle C12.BoxTracker C12.BoxSpec C12.BoxLemmas C12.BoxTokens C12.RadiusTracker.

(* the value of one corner: horizontal and vertical radius, or an opaque whole declaration *)
Inductive rval := RV (h v : tok) | RWhole (l : list tok) (c : nat).

(* radii are lengths or percentages: never auto *)
Definition rok (e : benv) (t : tok) : bool := tok_ok e false t.

Fixpoint cut_slash (l : list tok) : list tok * option (list tok) :=
  match l with
  | [] => ([], None)
  | TOther 0 :: r => ([], Some r)
  | t :: r => let '(a, b) := cut_slash r in (t :: a, b)
  end.

Definition second_list (before : list tok) (aft : option (list tok)) : list tok :=
  match aft with Some a => a | None => before end.

(* what declaration d sets corner c to, if this browser accepts it and it concerns corner c *)
Definition rsets (e : benv) (d : bdecl) (c : nat) : option rval :=
  match b_key d with
  | KOther _ => None
  | KSide c' =>
    if Nat.eqb c' c then
      if plain (b_val d) then
        match b_val d with
        | [t] => if rok e t then Some (RV (norm t) (norm t)) else None
        | [t1; t2] => if rok e t1 && rok e t2 then Some (RV (norm t1) (norm t2)) else None
        | _ => None
        end
      else if opaque_ok e (b_key d) (b_val d) then Some (RWhole (b_val d) c) else None
    else None
  | KShort =>
    if (c <? 4)%nat then
      let '(before, aft) := cut_slash (b_val d) in
      let after := second_list before aft in
      if plain before && plain after then
        match spec_expand before, spec_expand after with
        | Some q1, Some q2 =>
          if forallb (rok e) before && forallb (rok e) after
          then Some (RV (norm (qnth q1 c)) (norm (qnth q2 c))) else None
        | _, _ => None
        end
      else if opaque_ok e (b_key d) (b_val d) then Some (RWhole (b_val d) c) else None
    else None
  end.

Definition reff (e : benv) (imp : bool) (c : nat) (d : bdecl) : option rval :=
  if Bool.eqb (b_imp d) imp then rsets e d c else None.

(* the last declaration of the given importance that sets corner c *)
Definition rlayer (e : benv) (imp : bool) (c : nat) (l : list bdecl) : option rval :=
  fold_left (fun acc d => match reff e imp c d with Some v => Some v | None => acc end) l None.

Definition corner_value (e : benv) (l : list bdecl) (c : nat) : option rval :=
  match rlayer e true c l with Some v => Some v | None => rlayer e false c l end.

Lemma cut_slash_eq l : cut_slash l = split_slash l.
Proof.
  induction l as [|t l IH]; [reflexivity|]. cbn [cut_slash split_slash]. rewrite IH.
  destruct t as [| | | |[|p|p]]; reflexivity.
Qed.

Lemma rsets_affects e d c : affects d c = false -> rsets e d c = None.
Proof. unfold affects, rsets. destruct (b_key d); intros H; [discriminate | rewrite H; reflexivity | reflexivity]. Qed.

Definition nonslash (t : tok) : bool := negb (is_slash t).
Definition rtoks (d : bdecl) : list tok := filter nonslash (b_val d).
Definition rvalid (e : benv) (d : bdecl) : bool := forallb (rok e) (rtoks d).

Lemma numeric_facts l : forallb is_numeric l = true -> plain l = true /\ filter nonslash l = l.
Proof.
  induction l as [|t l IH]; cbn [forallb]; [repeat split|].
  intros H. apply andb_true_iff in H as [Ht Hl]. destruct (IH Hl) as [P F].
  unfold plain in *. cbn [forallb filter]. rewrite P, F.
  destruct t; cbn in *; try discriminate; repeat split.
Qed.

Lemma split_slash_numeric b : forallb is_numeric b = true -> split_slash b = (b, None).
Proof.
  induction b as [|t b IH]; cbn [forallb]; [reflexivity|]. intros H. apply andb_true_iff in H as [Ht Hb].
  cbn [split_slash]. rewrite (IH Hb). destruct t; cbn in *; try discriminate; reflexivity.
Qed.

Lemma split_slash_app b a : forallb is_numeric b = true -> split_slash (b ++ TOther 0 :: a) = (b, Some a).
Proof.
  induction b as [|t b IH]; cbn [forallb app]; [reflexivity|]. intros H. apply andb_true_iff in H as [Ht Hb].
  cbn [split_slash]. rewrite (IH Hb). destruct t; cbn in *; try discriminate; reflexivity.
Qed.

Lemma split_slash_toks : forall l b a, split_slash l = (b, a) ->
  filter nonslash l = filter nonslash b ++ match a with Some x => filter nonslash x | None => [] end.
Proof.
  induction l as [|t l IH]; intros b a H; cbn [split_slash] in H.
  - inversion H; reflexivity.
  - destruct (is_slash t) eqn:Es.
    + assert (N : nonslash t = false) by (unfold nonslash; rewrite Es; reflexivity).
      inversion H; subst. cbn [filter]. rewrite N. reflexivity.
    + assert (N : nonslash t = true) by (unfold nonslash; rewrite Es; reflexivity).
      destruct (split_slash l) as [b0 a0]. inversion H; subst. cbn [filter]. rewrite N. cbn [app].
      rewrite (IH b0 a eq_refl). reflexivity.
Qed.

Lemma rsets_single e c h v imp c' (one : bool) : is_numeric h = true -> is_numeric v = true -> (one = true -> v = h) ->
  rsets e (mkB (KSide c) (if one then [h] else [h; v]) imp) c' =
  if Nat.eqb c c' then (if rok e h && rok e v then Some (RV (norm h) (norm v)) else None) else None.
Proof.
  intros Hh Hv Hone. unfold rsets. cbn [b_key b_val]. destruct (Nat.eqb c c'); [|reflexivity].
  destruct one.
  - rewrite (Hone eq_refl). assert (P : plain [h] = true) by (apply numeric_facts; cbn; rewrite Hh; reflexivity).
    rewrite P. destruct (rok e h); reflexivity.
  - assert (P : plain [h; v] = true) by (apply numeric_facts; cbn; rewrite Hh, Hv; reflexivity).
    rewrite P. reflexivity.
Qed.

Lemma rsets_short e l imp c before aft q1 q2 :
  split_slash l = (before, aft) ->
  forallb is_numeric before = true -> forallb is_numeric (second_list before aft) = true ->
  spec_expand before = Some q1 -> spec_expand (second_list before aft) = Some q2 ->
  rsets e (mkB KShort l imp) c =
  if (c <? 4)%nat then
    (if forallb (rok e) before && forallb (rok e) (second_list before aft)
     then Some (RV (norm (qnth q1 c)) (norm (qnth q2 c))) else None)
  else None.
Proof.
  intros Hs Hb Ha H1 H2. unfold rsets. cbn [b_key b_val]. destruct (c <? 4)%nat; [|reflexivity].
  rewrite cut_slash_eq, Hs.
  destruct (numeric_facts _ Hb) as [Pb _]. destruct (numeric_facts _ Ha) as [Pa _].
  rewrite Pb, Pa, H1, H2. reflexivity.
Qed.

Lemma rvalid_short e l imp before aft :
  split_slash l = (before, aft) ->
  forallb is_numeric before = true -> forallb is_numeric (second_list before aft) = true ->
  rvalid e (mkB KShort l imp) = forallb (rok e) before && forallb (rok e) (second_list before aft).
Proof.
  intros Hs Hb Ha. unfold rvalid, rtoks. cbn [b_val]. rewrite (split_slash_toks l before aft Hs).
  destruct (numeric_facts _ Hb) as [_ Fb]. rewrite Fb.
  destruct aft as [a|]; cbn [second_list] in *.
  - destruct (numeric_facts _ Ha) as [_ Fa]. rewrite Fa. apply forallb_app.
  - rewrite app_nil_r. destruct (forallb (rok e) before); reflexivity.
Qed.
