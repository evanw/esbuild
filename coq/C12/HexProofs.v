(* Proofs about the hex colour helpers. *)
From V Require Import Common.Base C12.Hex C12.ColorSpec.

(* the numbers 0 .. n-1, for sweeps over a finite range *)
Definition zrange (n : nat) : list Z := map Z.of_nat (seq 0 n).
Lemma in_zrange n d : 0 <= d < Z.of_nat n -> In d (zrange n).
Proof. intros H. replace d with (Z.of_nat (Z.to_nat d)) by lia. apply in_map, in_seq. lia. Qed.

Lemma hex_digit_char d : 0 <= d < 16 -> hex_digit (hex_char d) = Some d.
Proof.
  intros H. apply (in_zrange 16) in H. revert d H. apply Forall_forall.
  repeat constructor.
Qed.

Lemma spec_hexval_char d : 0 <= d < 16 -> spec_hexval (hex_char d) = Some d.
Proof.
  intros H. apply (in_zrange 16) in H. revert d H. apply Forall_forall.
  repeat constructor.
Qed.

(* parsing what Sprintf("%0nx") wrote gives the number back *)
Lemma parse_fmt_hex : forall n v acc r,
  0 <= v < 16 ^ Z.of_nat n -> 0 <= acc -> acc * 16 ^ Z.of_nat n + v < 2 ^ 32 ->
  parseHex_loop (fmt_hex n v ++ r) acc = parseHex_loop r (acc * 16 ^ Z.of_nat n + v).
Proof.
  induction n as [|k IH]; intros v acc r Hv Hacc Hb.
  - simpl. change (16 ^ Z.of_nat 0) with 1 in *. f_equal. lia.
  - cbn [fmt_hex]. rewrite <- app_assoc. cbn [app].
    replace (Z.of_nat (S k)) with (Z.of_nat k + 1) in * by lia.
    rewrite Z.pow_add_r in * by lia. change (16 ^ 1) with 16 in *.
    assert (Hp : 0 < 16 ^ Z.of_nat k) by (apply Z.pow_pos_nonneg; lia).
    rewrite IH; try lia; try nia.
    cbn [parseHex_loop]. rewrite hex_digit_char by lia.
    f_equal. rewrite Z.mod_small by nia. nia.
Qed.

Lemma parseHex_fmt_hex n v : 0 <= v < 16 ^ Z.of_nat n -> v < 2 ^ 32 ->
  parseHex (fmt_hex n v) = Some v.
Proof.
  intros Hv Hb. unfold parseHex.
  rewrite <- (app_nil_r (fmt_hex n v)). rewrite parse_fmt_hex; try lia.
  reflexivity.
Qed.

Lemma land_mask v k m : 0 <= k -> 0 <= m -> Z.land v (Z.ones m * 2 ^ k) = (v / 2 ^ k) mod 2 ^ m * 2 ^ k.
Proof.
  intros Hk Hm. rewrite <- !Z.shiftl_mul_pow2, <- Z.shiftr_div_pow2, <- Z.land_ones by assumption.
  apply Z.bits_inj'. intros n Hn. rewrite Z.land_spec.
  destruct (Z.lt_ge_cases n k).
  - rewrite !Z.shiftl_spec_low by assumption. apply andb_false_r.
  - rewrite !Z.shiftl_spec_high, Z.land_spec, Z.shiftr_spec by lia. do 2 f_equal. lia.
Qed.

Lemma lor_low x a k : 0 <= k -> x mod 2 ^ k = 0 -> 0 <= a < 2 ^ k -> Z.lor x a = x + a.
Proof.
  intros Hk Hx Ha. rewrite (Z.div_mod x (2 ^ k)), Hx, Z.add_0_r, Z.mul_comm by lia.
  set (b := x / 2 ^ k).
  assert (D : Z.land (b * 2 ^ k) a = 0).
  { apply Z.bits_inj'. intros n Hn. rewrite Z.land_spec, Z.bits_0.
    destruct (Z.lt_ge_cases n k).
    - rewrite Z.mul_pow2_bits_low by assumption. reflexivity.
    - rewrite <- (Z.mod_small a (2 ^ k)), Z.mod_pow2_bits_high by lia. apply andb_false_r. }
  rewrite <- Z.lxor_lor, <- Z.add_nocarry_lxor by exact D. reflexivity.
Qed.

Lemma compactHex_digits v : compactHex v = (v / 2 ^ 20) mod 256 * 256 + (v / 16) mod 256.
Proof.
  unfold compactHex.
  change 267386880 with (Z.ones 8 * 2 ^ 20). change 4080 with (Z.ones 8 * 2 ^ 4).
  rewrite !land_mask, !Z.shiftr_div_pow2 by lia.
  change (2 ^ 8) with 256. change (2 ^ 4) with 16.
  replace ((v / 2 ^ 20) mod 256 * 2 ^ 20 / 2 ^ 12) with ((v / 2 ^ 20) mod 256 * 2 ^ 8) by lia.
  replace ((v / 16) mod 256 * 16 / 16) with ((v / 16) mod 256) by lia.
  apply (lor_low _ _ 8); lia.
Qed.

Lemma expandHex_digits v :
  expandHex v = rgba (17 * ((v / 4096) mod 16)) (17 * ((v / 256) mod 16)) (17 * ((v / 16) mod 16)) (17 * (v mod 16)).
Proof.
  unfold expandHex.
  change 61440 with (Z.ones 4 * 2 ^ 12). change 65280 with (Z.ones 8 * 2 ^ 8).
  change 4080 with (Z.ones 8 * 2 ^ 4). change 255 with (Z.ones 8 * 2 ^ 0). change 15 with (Z.ones 4 * 2 ^ 0).
  rewrite !land_mask, !Z.shiftl_mul_pow2 by lia.
  change (2 ^ 0) with 1. change (2 ^ 4) with 16. change (2 ^ 8) with 256. change (2 ^ 12) with 4096.
  change (2 ^ 16) with 65536. change (2 ^ 32) with 4294967296.
  rewrite Z.div_1_r.
  (* the two-digit fields in terms of the four digits *)
  replace ((v / 256) mod 256) with ((v / 4096) mod 16 * 16 + (v / 256) mod 16) by lia.
  replace ((v / 16) mod 256) with ((v / 256) mod 16 * 16 + (v / 16) mod 16) by lia.
  replace (v mod 256) with ((v / 16) mod 16 * 16 + v mod 16) by lia.
  generalize (Z.mod_pos_bound (v / 4096) 16 eq_refl) (Z.mod_pos_bound (v / 256) 16 eq_refl)
             (Z.mod_pos_bound (v / 16) 16 eq_refl) (Z.mod_pos_bound v 16 eq_refl).
  generalize ((v / 4096) mod 16) ((v / 256) mod 16) ((v / 16) mod 16) (v mod 16).
  intros a b c d Ha Hb Hc Hd.
  rewrite !Z.mod_small by lia.
  rewrite (lor_low (a * 4096 * 65536) _ 28) by lia.
  rewrite (lor_low (_ + _) _ 20), (lor_low (_ + _) _ 12), (lor_low (_ + _) _ 4) by lia.
  unfold rgba. lia.
Qed.

Theorem hex_compact_roundtrip_all : forall v, 0 <= v < 2 ^ 16 -> compactHex (expandHex v) = v.
Proof.
  intros v H. rewrite compactHex_digits, expandHex_digits. unfold rgba.
  assert (Hv : v = (v / 4096) mod 16 * 4096 + (v / 256) mod 16 * 256 + (v / 16) mod 16 * 16 + v mod 16) by lia.
  revert Hv.
  generalize (Z.mod_pos_bound (v / 4096) 16 eq_refl) (Z.mod_pos_bound (v / 256) 16 eq_refl)
             (Z.mod_pos_bound (v / 16) 16 eq_refl) (Z.mod_pos_bound v 16 eq_refl).
  generalize ((v / 4096) mod 16) ((v / 256) mod 16) ((v / 16) mod 16) (v mod 16).
  intros a b c d Ha Hb Hc Hd Hv. lia.
Qed.

Lemma compactHex_bound v : 0 <= compactHex v < 2 ^ 16.
Proof. rewrite compactHex_digits. lia. Qed.

(* the digits Sprintf("%0nx") writes, as numbers; a browser reads them back *)
Fixpoint hex_digits (n : nat) (v : Z) : list Z :=
  match n with
  | O => []
  | S k => hex_digits k (v / 16) ++ [v mod 16]
  end.

Lemma all_some_snoc {A} (l : list (option A)) x :
  all_some (l ++ [Some x]) = match all_some l with Some r => Some (r ++ [x]) | None => None end.
Proof.
  induction l as [|[y|] l IH]; cbn [app all_some]; [reflexivity | | reflexivity].
  rewrite IH. destruct (all_some l); reflexivity.
Qed.

Lemma spec_hexvals_fmt n : forall v, all_some (map spec_hexval (fmt_hex n v)) = Some (hex_digits n v).
Proof.
  induction n as [|k IH]; intros v; cbn [fmt_hex hex_digits]; [reflexivity|].
  rewrite map_app. cbn [map]. rewrite spec_hexval_char by (apply Z.mod_pos_bound; lia).
  rewrite all_some_snoc, IH. reflexivity.
Qed.

Lemma spec_hash_3 v : 0 <= v < 2 ^ 12 ->
  spec_hash_value (fmt_hex 3 v) = Some (expandHex v * 256 + 255).
Proof.
  intros H. unfold spec_hash_value. rewrite spec_hexvals_fmt. cbn [hex_digits app].
  rewrite expandHex_digits. unfold rgba. f_equal. lia.
Qed.

Lemma spec_hash_4 v : 0 <= v < 2 ^ 16 ->
  spec_hash_value (fmt_hex 4 v) = Some (expandHex v).
Proof.
  intros H. unfold spec_hash_value. rewrite spec_hexvals_fmt. cbn [hex_digits app].
  rewrite expandHex_digits. unfold rgba. f_equal. lia.
Qed.

Lemma spec_hash_6 v : 0 <= v < 2 ^ 24 ->
  spec_hash_value (fmt_hex 6 v) = Some (v * 256 + 255).
Proof.
  intros H. unfold spec_hash_value. rewrite spec_hexvals_fmt. cbn [hex_digits app].
  unfold rgba. f_equal. lia.
Qed.

Lemma spec_hash_8 v : 0 <= v < 2 ^ 32 ->
  spec_hash_value (fmt_hex 8 v) = Some v.
Proof.
  intros H. unfold spec_hash_value. rewrite spec_hexvals_fmt. cbn [hex_digits app].
  unfold rgba. f_equal. lia.
Qed.

Section GenerateValue.
  Variable short_names : list (Z * list Z).
  Variable named : list (list Z * Z).
  Hypothesis names_consistent :
    forall h n, assoc_z h short_names = Some n -> assoc_l n named = Some h.

  (* whatever form tryToGenerateColor chooses denotes the same RGBA value *)
  Theorem generate_color_value_all : forall minify unsupported hex,
    0 <= hex < 2 ^ 32 ->
    spec_color_value named (generate_color short_names minify unsupported hex) = Some hex.
  Proof.
    intros minify unsupported hex H. unfold generate_color, hexA.
    destruct (hex mod 256 =? 255) eqn:EA.
    - assert (Hh : 0 <= hex / 256 < 2 ^ 24) by lia.
      assert (Hx : hex = hex / 256 * 256 + 255) by lia.
      destruct (if minify then assoc_z hex short_names else None) as [name|] eqn:EN.
      + destruct minify; [|discriminate]. cbn [spec_color_value]. apply names_consistent. exact EN.
      + destruct (minify && (hex / 256 =? expandHex (compactHex (hex / 256)))) eqn:EC.
        * apply andb_true_iff in EC as [_ EC]. rewrite Z.eqb_eq in EC.
          cbn [spec_color_value].
          pose proof (compactHex_bound (hex / 256)) as CB.
          assert (C12 : compactHex (hex / 256) < 2 ^ 12).
          { destruct (Z_lt_ge_dec (compactHex (hex / 256)) (2 ^ 12)) as [L|G]; [exact L|exfalso].
            rewrite expandHex_digits in EC. unfold rgba in EC. lia. }
          rewrite spec_hash_3 by lia. rewrite <- EC. f_equal. lia.
        * cbn [spec_color_value]. rewrite spec_hash_6 by lia. f_equal. lia.
    - destruct unsupported; cbn [negb].
      + cbn [spec_color_value]. unfold rgba, hexR, hexG, hexB. f_equal. lia.
      + destruct (minify && (hex =? expandHex (compactHex hex))) eqn:EC.
        * apply andb_true_iff in EC as [_ EC]. rewrite Z.eqb_eq in EC.
          cbn [spec_color_value].
          pose proof (compactHex_bound hex) as CB.
          rewrite spec_hash_4 by lia. f_equal. lia.
        * cbn [spec_color_value]. apply spec_hash_8. exact H.
  Qed.
End GenerateValue.
