(* C12 property theorems. This file contains only statements closed by
   [exact lemma] and Print Assumptions. *)
From V Require Import Common.Base C12.Hex C12.ColorSpec C12.HexProofs gen.ColorTablesGen C12.TablesProofs.
From V Require Import C12.Cascade C12.CascadeProofs C12.Mangle C12.MangleProofs C12.MergeProofs C12.MangleRulesProofs C12.LayerCollapse C12.MangleTreeProofs.
From V Require Import C12.NumberCss C12.NumberSpec C12.NumberProofs C12.ShiftProofs.

(* compactHex undoes expandHex on every 16-bit value (0xABCD -> 0xAABBCCDD -> 0xABCD) *)
Theorem hex_compact_roundtrip : forall v, 0 <= v < 2 ^ 16 -> compactHex (expandHex v) = v.
Proof. exact hex_compact_roundtrip_all. Qed.
Print Assumptions hex_compact_roundtrip.

(* every entry of shortColorName (regenerated from source) maps back, through
   colorNameToHex, to the hex value it abbreviates *)
Theorem color_names_consistent :
  forall h n, assoc_z h shortColorName = Some n -> assoc_l n colorNameToHex = Some h.
Proof. exact color_names_consistent_all. Qed.
Print Assumptions color_names_consistent.

(* whatever notation tryToGenerateColor picks (short name, #rgb, #rrggbb, #rgba,
   #rrggbbaa, rgba()) denotes, under the CSS Color 4 reading of hex notations
   and named colours, exactly the RGBA value it was given: all 2^32 values,
   with and without minification, with and without #rrggbbaa support *)
Theorem generate_color_value : forall minify unsupported hex,
  0 <= hex < 2 ^ 32 ->
  spec_color_value colorNameToHex (generate_color shortColorName minify unsupported hex) = Some hex.
Proof. exact generate_color_value_tables. Qed.
Print Assumptions generate_color_value.

(* RemoveDeadRulesInPlace (drop every rule that is structurally equal to a later
   sibling, drop rules whose selectors all contain an empty :is()/:where()),
   applied to a rule list anywhere in a style sheet (any enclosing conditions
   and layer, anything before and after), changes no winner: every world
   (condition truth, understood selectors and values, matching, specificity),
   every element, every property.  The only assumption is the Selectors-4 fact
   that a dead selector matches nothing. *)
Theorem dedupe_keeps_winner : forall w,
  (forall s e, s_dead s = true -> matches w (s_id s) e = false) ->
  forall pre conds layer rs post e p,
  winner w (pre ++ flatten_list conds layer (remove_dead rs) ++ post) e p =
  winner w (pre ++ flatten_list conds layer rs ++ post) e p.
Proof. exact dedupe_keeps_winner_all. Qed.
Print Assumptions dedupe_keeps_winner.

(* the same pass over the declarations of one rule (duplicate declarations) *)
Theorem dedupe_decls_keeps_winner : forall w pre stmt conds layer sels ds post e p,
  winner w (pre ++ [mkItem stmt conds layer sels (remove_dead_decls ds)] ++ post) e p =
  winner w (pre ++ [mkItem stmt conds layer sels ds] ++ post) e p.
Proof. exact dedupe_decls_keeps_winner_all. Qed.
Print Assumptions dedupe_decls_keeps_winner.

(* the linker's loop (one remover shared by all files, last file first) is one
   pass over the concatenation of the top-level rule lists *)
Theorem dedupe_calls_concat : forall (a b seen : list rule),
  rd rule_eqb all_dead hashable (a ++ b) seen =
  let '(kb, sb) := rd rule_eqb all_dead hashable b seen in
  let '(ka, sa) := rd rule_eqb all_dead hashable a sb in (ka ++ kb, sa).
Proof. exact (rd_app rule_eqb all_dead hashable). Qed.
Print Assumptions dedupe_calls_concat.

(* "a {D} b {D}" => "a, b {D}" (adjacent rules, equal bodies; selectors already
   present are not repeated) changes no winner in any world that understands
   every selector of the two rules - which is what isSafeSelectors is for *)
Theorem adjacent_merge_keeps_winner : forall w pre conds layer s1 s2 ds post e p,
  (forall s, In s (s1 ++ s2) -> sel_understood w (s_id s) = true) ->
  winner w (pre ++ [mkItem false conds layer (map s_id (merge_sels s1 s2)) ds] ++ post) e p =
  winner w (pre ++ [mkItem false conds layer (map s_id s1) ds; mkItem false conds layer (map s_id s2) ds] ++ post) e p.
Proof. exact adjacent_merge_keeps_winner_all. Qed.
Print Assumptions adjacent_merge_keeps_winner.

(* mangleRules as a whole on one rule list - empty-rule removal, layer
   collapsing ("@layer a { @layer b {X} }" => "@layer a.b {X}"), unwrapping of a
   nested @media that repeats an enclosing one, adjacent merging (declarations
   only, fix 5a4c9dc) with the prevNonComment bookkeeping, then duplicate
   removal when not at top level - in any context whose conditions include the
   enclosing @media queries, in every world where the selectors esbuild calls
   safe are understood and dead selectors match nothing: every winner is
   unchanged.  No rule list is excluded. *)
Theorem mangle_rules_keeps_winner : forall w conds layer encl,
  (forall q, In q encl -> In q conds) ->
  (forall s, s_safe s = true -> sel_understood w (s_id s) = true) ->
  (forall s e, s_dead s = true -> matches w (s_id s) e = false) ->
  forall rules top pre post e p,
  winner w (pre ++ flatten_list conds layer (mangle_rules encl rules top) ++ post) e p =
  winner w (pre ++ flatten_list conds layer rules ++ post) e p.
Proof. exact mangle_rules_keeps_winner_all. Qed.
Print Assumptions mangle_rules_keeps_winner.

(* THE WHOLE RULE TREE.  mangle_sheet is the minifier pass over a complete style
   sheet as the parser and the linker perform it: every nested rule list
   (@media / @supports / @container / @layer bodies, to any depth) is mangled
   children first with the @media rules enclosing it, every style rule loses
   duplicate selectors and duplicate declarations, and the cross-file duplicate
   removal runs over the top level.  For every sheet (all rule kinds of the
   model: style rules with declarations, @media, @supports/@container, @layer
   statements and blocks incl. anonymous, opaque at-rules, comments, imports),
   every element, every property and every world (truth of every condition,
   understood value syntaxes, matching, specificity) in which safe selectors are
   understood and dead selectors match nothing, the cascade winner is unchanged.
   Not in the model (oracle only): style rules with nested rules, @scope. *)
Theorem mangle_sheet_keeps_winner : forall w,
  (forall s, s_safe s = true -> sel_understood w (s_id s) = true) ->
  (forall s e, s_dead s = true -> matches w (s_id s) e = false) ->
  forall rules e p,
  winner w (flatten_list [] [] (mangle_sheet rules)) e p = winner w (flatten_list [] [] rules) e p.
Proof. exact mangle_sheet_keeps_winner_all. Qed.
Print Assumptions mangle_sheet_keeps_winner.

(* the layer-order lemma behind layer collapsing: a layer statement immediately
   followed by a statement for an extension of its path, under the same
   conditions, is redundant (the declared list loses one entry, positions shift,
   no comparison of two strengths changes) *)
Theorem layer_statement_prefix_redundant : forall w conds p n pre post e pr,
  winner w (pre ++ [stmt_item conds (p ++ n)] ++ post) e pr =
  winner w (pre ++ [stmt_item conds p; stmt_item conds (p ++ n)] ++ post) e pr.
Proof. exact stmt_prefix_redundant. Qed.
Print Assumptions layer_statement_prefix_redundant.

(* mangleNumber keeps the exact value (CSS Syntax 3 "convert a string to a
   number", as an exact pair m * 10^e) of every CSS number token: every sign,
   integer part, fractional part and exponent allowed by the <number-token>
   grammar (after fix 4a7b5a3, numbers with an exponent included) *)
Theorem mangle_number_value : forall sg ip fo x, wf_num sg ip fo x ->
  exists v v', css_number_value (render sg ip fo x) = Some v /\
               css_number_value (fst (mangleNumber (render sg ip fo x))) = Some v' /\ qeq v v'.
Proof. exact mangle_number_value_all. Qed.
Print Assumptions mangle_number_value.

(* shiftDot (used to turn "ms" into "s" and back) multiplies the exact value by
   10^offset for every number without exponent - every sign, integer part and
   fractional part, all-zero numbers included (fix 0f05885) - and the result is
   again a CSS number *)
Theorem shift_dot_value : forall sg ip fo k, wf_num sg ip fo NoExp ->
  exists s' v', shiftDot (render sg ip fo NoExp) k = Some s' /\
    css_number_value s' = Some v' /\
    qeq v' (sgv sg * digits_val (ip ++ frac_digits fo), - Z.of_nat (length (frac_digits fo)) + k).
Proof. exact shift_dot_value_all. Qed.
Print Assumptions shift_dot_value.

From V Require Import C12.ImportOrder.
(* isConditionalImportRedundant is sound: when it answers true, the later copy of
   the imported file applies in every environment in which the earlier one
   applies (truth of supports() / media conditions arbitrary), and it sits in
   the same layers along the later chain *)
Theorem redundant_condition_sound : forall supp_true media_true earlier later,
  redundant earlier later = true ->
  (chain_holds supp_true media_true earlier = true -> chain_holds supp_true media_true later = true) /\
  map ic_layer (firstn (length later) earlier) = map ic_layer later.
Proof. exact redundant_sound_all. Qed.
Print Assumptions redundant_condition_sound.

From V Require Import C12.Box C12.BoxTracker C12.BoxSpec C12.BoxMain C12.DedupeSpec.
(* BOX SHORTHAND COLLAPSING.
   box_process is the faithful model of the margin / padding / inset tracking in
   processDeclarations (boxTracker: sides with ruleIndex and wasSingleRule, the
   important flag, unit-safety status, updateSide's blanking, compactRules,
   final compaction of blanked rules; tied to the Go code by box_cases).
   For EVERY declaration list (keys well-typed: a longhand names one of the four
   sides), for both trackers that allow / forbid auto, with and without
   compaction (inset with the shorthand unsupported), in EVERY browser
   environment (which non-safe units, which unitless numbers, which opaque
   var()/keyword declarations it accepts) and for every side:
   the cascaded value of the side (last valid !important declaration, else last
   valid normal one; 0px = 0, auto case-insensitive) is the same before and
   after. *)
Theorem box_collapse_keeps_sides : forall aa cc l, wf_keys l -> forall e s,
  side_value e aa (box_process aa cc false l) s = side_value e aa l s.
Proof. exact box_collapse_keeps_sides_all. Qed.
Print Assumptions box_collapse_keeps_sides.

(* stronger: each importance layer separately *)
Theorem box_collapse_keeps_layers : forall aa cc l, wf_keys l -> forall e imp s,
  layer e aa imp s (box_process aa cc false l) = layer e aa imp s l.
Proof. exact box_layers_all. Qed.
Print Assumptions box_collapse_keeps_layers.

(* every declaration of another property survives, unchanged and in the same relative order *)
Theorem box_collapse_keeps_others : forall aa cc l, wf_keys l ->
  filter is_other (box_process aa cc false l) = filter is_other l.
Proof. exact box_collapse_keeps_others_all. Qed.
Print Assumptions box_collapse_keeps_others.

(* With the lowering of `inset` to four longhands (lower = true) the statement is
   FALSE of the faithful model: a browser that rejects one value drops the whole
   shorthand of the input but only one longhand of the output (known finding
   C12-I, by design upstream; the witness is replayed from the fixed corpus:
   a{bottom:3px;inset:2vw 1em 10% 0px;bottom:1vw} for firefox65). *)
Theorem box_collapse_keeps_sides_lowering_refuted : exists e l s, wf_keys l /\
  side_value e true (box_process true false true l) s <> side_value e true l s.
Proof. exact box_lowering_refuted_witness. Qed.
Print Assumptions box_collapse_keeps_sides_lowering_refuted.

(* the quad core: what compactTokenQuad writes re-expands to the same four sides, and is shortest *)
Theorem box_quad_roundtrip : forall q, expand_quad (compact_quad q) = Some q.
Proof. exact box_quad_roundtrip_all. Qed.
Print Assumptions box_quad_roundtrip.

Theorem box_collapse_shortest : forall q l, expand_quad l = Some q -> (length (compact_quad q) <= length l)%nat.
Proof. exact box_quad_shortest_all. Qed.
Print Assumptions box_collapse_shortest.

From V Require Import C12.RadiusTracker C12.RadiusSpec C12.RadiusMain.
(* BORDER-RADIUS COLLAPSING.  radius_process is the faithful model of the
   border-radius tracking in processDeclarations (borderRadiusTracker: four
   corners each with two radii, ruleIndex and wasSingleRule, the important flag,
   unit-safety status, updateCorner's blanking, mangleCorners with the optional
   "/ vertical radii" list, mangleCorner's in-place rewrite (0px -> 0, two equal
   radii merged into one, the second radius copied before the rewrite),
   compactRules writing "h{1,4}" or "h{1,4} / v{1,4}" at the greatest tracked
   index; tied to the Go code by radius_cases).  The specification rsets /
   corner_value is written from CSS Backgrounds 3: a corner has a horizontal and
   a vertical radius, a missing second value or second list repeats the first.
   For EVERY declaration list (keys well-typed), in EVERY browser environment
   (which non-safe units, which unitless numbers, which opaque declarations it
   accepts) and for every corner: the cascaded value of the corner (last valid
   !important declaration, else last valid normal one; both radii; 0px = 0) is
   the same before and after. *)
Theorem radius_collapse_keeps_corners : forall l, wf_keys l -> forall e c,
  corner_value e (radius_process l) c = corner_value e l c.
Proof. exact radius_collapse_keeps_corners_all. Qed.
Print Assumptions radius_collapse_keeps_corners.

(* stronger: each importance layer separately *)
Theorem radius_collapse_keeps_layers : forall l, wf_keys l -> forall e imp c,
  rlayer e imp c (radius_process l) = rlayer e imp c l.
Proof. exact radius_layers_all. Qed.
Print Assumptions radius_collapse_keeps_layers.

(* every declaration of another property survives, unchanged and in the same relative order *)
Theorem radius_collapse_keeps_others : forall l, wf_keys l ->
  filter is_other (radius_process l) = filter is_other l.
Proof. exact radius_collapse_keeps_others_all. Qed.
Print Assumptions radius_collapse_keeps_others.

From V Require Import C12.Nesting C12.NestingProofs C12.NestingFree C12.NestingExpand.
(* NESTING LOWERING, the branch that may use :is() (or has at most one parent
   selector).  lower_is is the faithful model of lowerNestingInRuleWithContext
   pass 1 (the implicit "&" of relative selectors) and pass 2
   (substituteAmpersandsInCompoundSelector with the replacement made by
   multipleComplexSelectorsToSingleComplexSelector: splicing the parent's
   leading compounds, merging its last compound, :is(type) for a second type
   selector, :is(parent) where a combinator or a longer parent forbids merging,
   recursion into :is()/:not() arguments; tied to the Go code by nest_cases).
   Selectors: types, classes, the four combinators, :is()/:not() nested
   arbitrarily, "&" anywhere.  For EVERY element structure (any finite set of
   elements with arbitrary type/class assignment and arbitrary meaning of the
   four combinators as relations to sets of elements), every parent selector
   list without leading combinators, every nested selector and every element:
   the element matches the lowered selector iff it matches the nested selector
   read as CSS Nesting 1 prescribes - a relative selector starts with an
   implicit "&", and "&" stands for the elements matched by :is(parent list).
   The lowered selector contains no "&" (nesting_lowering_is_amp_free), so it
   is evaluated with an arbitrary meaning A' of "&". *)
Theorem nesting_lowering_is_preserves_matching : forall D parents cx A', parents_ok parents = true ->
  forall x, matches D A' (lower_is parents cx) x = matches D (parent_set D parents) (inject_amp cx) x.
Proof. exact lower_is_matching_any. Qed.
Print Assumptions nesting_lowering_is_preserves_matching.

Theorem nesting_lowering_is_amp_free : forall parents cx, parents_ok parents = true -> has_amp_x (lower_is parents cx) = false.
Proof. exact lower_is_amp_free. Qed.
Print Assumptions nesting_lowering_is_amp_free.

(* The cross-product branch, the part that HOLDS: when no "&" of the nested
   selector sits inside a pseudo-class argument (top_only; then the shared
   pseudo-class nodes play no role), the element matches SOME selector of the
   cross product iff it matches the nested selector per CSS Nesting - in every
   element structure whose combinator relations distribute over unions of sets
   (every existential relation does), in particular in every forest
   (nesting_lowering_expand_preserves_matching_forest).  Partial: one selector in
   the nested rule's list (the Go loop pads the index vectors of the shorter
   selectors of a list; that only duplicates selectors), and top_only. *)
Theorem nesting_lowering_expand_preserves_matching_partial : forall D,
  (forall k (f : nat -> nat -> bool) (l : list nat) z,
     d_rel D k (tab (size D) (fun y => existsb (fun i => f i y) l)) z = existsb (fun i => d_rel D k (tab (size D) (f i)) z) l) ->
  forall parents cx A', parents_ok parents = true -> parents <> LNil -> top_only (inject_amp cx) = true ->
  forall x, (x < size D)%nat ->
  existsb (fun s => matches D A' s x) (lower_expand parents (LCons cx LNil)) =
  matches D (parent_set D parents) (inject_amp cx) x.
Proof. exact lower_expand_matching. Qed.
Print Assumptions nesting_lowering_expand_preserves_matching_partial.

Theorem nesting_lowering_expand_preserves_matching_forest : forall d parents cx A',
  parents_ok parents = true -> parents <> LNil -> top_only (inject_amp cx) = true ->
  forall x, (x < length d)%nat ->
  existsb (fun s => matches (tree_dom d) A' s x) (lower_expand parents (LCons cx LNil)) =
  matches (tree_dom d) (parent_set (tree_dom d) parents) (inject_amp cx) x.
Proof. exact lower_expand_matching_tree. Qed.
Print Assumptions nesting_lowering_expand_preserves_matching_forest.

(* The cross-product branch (several parents, target without :is()).  lower_expand
   models the index-vector loop literally, including the pseudo-class nodes shared
   between the rounds (tied by nestx_cases).  Of this faithful model the matching
   statement is FALSE (known finding C12-N; replayed from the fixed corpus as
   `a, b { :not(&).c1 { color: red } }` / `:is(&, i)` for firefox70): an "&" inside
   a pseudo-class argument is replaced by the first parent in every copy, so
   `div, a { :not(&).c1 {} }` becomes `:not(div).c1, :not(div).c1`, which matches an
   element a.c1 that the nested rule excludes (the replayed witness); likewise
   `a, b { :is(&, span) {} }` becomes `:is(a, span), :is(a, span)` and an element b,
   matched by the nested rule, is matched by no lowered selector
   (NestingProofs.expand_amp_in_pseudo_arg_witness). *)
Theorem nesting_lowering_expand_preserves_matching_refuted :
  exists (d : list node) parents cx x, parents_ok parents = true /\
    existsb (fun s => matches (tree_dom d) [] s x) (lower_expand parents (LCons cx LNil))
    <> matches (tree_dom d) (parent_set (tree_dom d) parents) (inject_amp cx) x.
Proof.
  exists wN2_doc, wN2_parents, wN2_child, 0%nat. split; [reflexivity|].
  destruct expand_not_amp_witness as [_ [H1 H2]]. cbv zeta in H1, H2. rewrite H1, H2. discriminate.
Qed.
Print Assumptions nesting_lowering_expand_preserves_matching_refuted.

(* ... and the specificity statement is false too (known finding C12-L, by design
   upstream; replayed as `div, #i9 { > a {...} }` for chrome60): natively "&" has
   the specificity of :is(parent list), i.e. of its most specific member; in the
   cross product every copy has the specificity of the parent it was built from:
   `div, .c1 { > a {} }` -> `div > a` (0,0,2) and `.c1 > a` (0,1,1), natively (0,1,1). *)
Theorem nesting_lowering_expand_preserves_specificity_refuted :
  exists parents cx s, parents_ok parents = true /\ In s (lower_expand parents (LCons cx LNil)) /\
    spec_x s <> native_spec parents cx.
Proof.
  exists wL_parents, wL_child, (XCons (Cp 0 false (Some 3) SNil) (XCons (Cp 1 false (Some 1) SNil) XNil)).
  split; [reflexivity|]. split; [left; reflexivity|]. vm_compute. discriminate.
Qed.
Print Assumptions nesting_lowering_expand_preserves_specificity_refuted.

From V Require Import C12.HslSpec C12.HslModel.
(* hsl() / hwb() TO sRGB.  HslSpec.v is the CSS Color 4 conversion (sample code of
   sections 7.1 and 8.1: hue taken modulo 360 for ANY number of turns, positive or
   negative; percentages clamped) in exact rationals; HslModel.v mirrors
   hslToRgb / hueToRgb / hwbToRgb of css_decls_color.go (hue - floor(hue)).  Both
   are compared with the bytes esbuild prints by hslrgb_cases (hues over many
   turns in number / deg / grad / turn form, percentages at and beyond the
   boundaries).  The two statements are on a grid (every multiple of 30
   degrees over six turns, hues next to the breakpoints and turn boundaries,
   percentages -10, 0, 30, 50, 70, 100); HslModel.hsl_model_is_spec and
   hwb_model_is_spec prove model = spec for all rationals. *)
Theorem hsl_to_rgb_is_spec_partial : forall h s l, In h hue_grid -> In s pct_grid -> In l pct_grid ->
  rgb_eqb (model_hsl (QArith_base.inject_Z h) (QArith_base.inject_Z s) (QArith_base.inject_Z l)) (hsl_spec (QArith_base.inject_Z h) (QArith_base.inject_Z s) (QArith_base.inject_Z l)) = true.
Proof. exact hsl_grid_all. Qed.
Print Assumptions hsl_to_rgb_is_spec_partial.

Theorem hwb_to_rgb_is_spec_partial : forall h w k, In h hue_grid -> In w pct_grid -> In k pct_grid ->
  rgb_eqb (model_hwb (QArith_base.inject_Z h) (QArith_base.inject_Z w) (QArith_base.inject_Z k)) (hwb_spec (QArith_base.inject_Z h) (QArith_base.inject_Z w) (QArith_base.inject_Z k)) = true.
Proof. exact hwb_grid_all. Qed.
Print Assumptions hwb_to_rgb_is_spec_partial.

(* DUPLICATE DECLARATIONS AT A DISTANCE.  The back-to-front duplicate removal over
   a declaration list keeps exactly the LAST occurrence of every declaration,
   where identity includes the property, the value and !important: a declaration
   is dropped if and only if an identical declaration occurs later in the same
   list - never because of a later non-identical declaration of the same
   property, whatever lies in between. *)
Theorem dedupe_is_keep_last : forall ds, remove_dead_decls ds = keep_last decl_eqb ds.
Proof. exact dedupe_is_keep_last_all. Qed.
Print Assumptions dedupe_is_keep_last.

(* in particular a declaration without an identical later copy is never dropped,
   whatever other declarations of the same property (other value, other
   importance) follow it *)
Theorem dedupe_keeps_unrepeated : forall ds1 d ds2,
  existsb (decl_eqb d) ds2 = false -> In d (remove_dead_decls (ds1 ++ d :: ds2)).
Proof. exact dedupe_keeps_last_occurrence. Qed.
Print Assumptions dedupe_keeps_unrepeated.

(* the alpha text of the rgba() fallback (table regenerated from source) reads
   back as the same alpha byte, for all 256 bytes (finite sweep) *)
Theorem alpha_table_roundtrip : forall a, 0 <= a < 256 -> alpha_ok a = true.
Proof. exact alpha_table_roundtrip_all. Qed.
Print Assumptions alpha_table_roundtrip.

From V Require Import gen.CssPrefixGen.
(* prefix insertion (insertPrefixedDeclaration, which overwrites the last rule and
   appends one) is only ever applied to the keys of cssPrefixTable (regenerated
   from source); none of them is a property of the box / border-radius trackers
   (DMargin* DPadding* DInset DTop DRight DBottom DLeft DBorder*Radius), so for the
   trackers it is an "other property" step and cannot move, duplicate or blank a
   tracked declaration *)
Theorem prefix_table_disjoint_from_trackers :
  forall p, In p cssPrefixedProps -> existsb (zlist_eqb p) trackedProps = false.
Proof. exact prefix_table_disjoint_from_trackers_all. Qed.
Print Assumptions prefix_table_disjoint_from_trackers.

(* PERCENTAGE REFERENCE RANGES of lab()/lch()/oklab()/oklch()/color().  The full
   statement "forall fn comp, model_pct_ref fn comp = spec_pct_ref fn comp" is
   FALSE of the faithful model: the chroma of lch() is resolved against 125, CSS
   Color 4 says 150 (known finding C12-Q; witness a{color:lch(60% 40% 120)} is
   replayed from the corpus, it changes the rendered colour). Everything else agrees. *)
Theorem pct_reference_lch_chroma_refuted : model_pct_ref 2 1 <> spec_pct_ref 2 1.
Proof. exact pct_reference_lch_chroma_refuted_all. Qed.
Print Assumptions pct_reference_lch_chroma_refuted.

Theorem pct_reference_ranges_partial : forall fn comp,
  1 <= fn <= 5 -> 0 <= comp <= 2 ->
  ~ (fn = 2 /\ comp = 1) -> model_pct_ref fn comp = spec_pct_ref fn comp.
Proof. exact pct_reference_ranges_partial_all. Qed.
Print Assumptions pct_reference_ranges_partial.
