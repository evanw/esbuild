(* Merging two adjacent style rules with equal bodies preserves the winner in
   every environment that understands all their selectors. *)
From V Require Import Common.Base C12.Cascade C12.CascadeProofs C12.Mangle C12.MangleProofs.

Section BestSpec.
  Variable w : world.
  Variable e : Z.

  Lemma best_spec_absorb i l : In i l -> omax (best_spec w l e) (spec_if_match w e i) = best_spec w l e.
  Proof.
    intros H. apply in_split in H as [l1 [l2 ->]].
    rewrite best_spec_app, best_spec_cons.
    destruct (best_spec w l1 e), (spec_if_match w e i), (best_spec w l2 e); simpl; f_equal; lia.
  Qed.

  Lemma best_spec_merge : forall new prev,
    best_spec w (map s_id (merge_sels prev new)) e =
    omax (best_spec w (map s_id prev) e) (best_spec w (map s_id new) e).
  Proof.
    unfold merge_sels. induction new as [|s new IH]; intros prev; cbn [fold_left map].
    - change (best_spec w [] e) with (@None Z). rewrite omax_none_r. reflexivity.
    - rewrite IH, best_spec_cons.
      destruct (existsb (sel_eqb s) prev) eqn:Ex.
      + apply existsb_exists in Ex as [s' [Hin He]]. apply sel_eqb_eq in He. subst s'.
        rewrite <- omax_assoc. rewrite best_spec_absorb; [reflexivity|].
        apply in_map. exact Hin.
      + rewrite map_app, best_spec_app. cbn [map].
        rewrite best_spec_cons. change (best_spec w [] e) with (@None Z).
        rewrite omax_none_r, omax_assoc. reflexivity.
  Qed.
End BestSpec.

Lemma merge_sels_in : forall new prev x, In x (merge_sels prev new) <-> In x prev \/ In x new.
Proof.
  unfold merge_sels. induction new as [|s new IH]; intros prev x; cbn [fold_left In]; [tauto|].
  rewrite IH. destruct (existsb (sel_eqb s) prev) eqn:Ex.
  - apply existsb_exists in Ex as [s' [Hin He]]. apply sel_eqb_eq in He. subst s'.
    split; [tauto|]. intros [H|[<-|H]]; tauto.
  - rewrite in_app_iff. cbn [In]. tauto.
Qed.

Lemma lex_cmp_snoc : forall K a b, lex_cmp (K ++ [b]) (K ++ [a]) = (b ?= a).
Proof.
  induction K as [|k K IH]; intros a b; cbn [app lex_cmp].
  - destruct (b ?= a); reflexivity.
  - rewrite Z.compare_refl. apply IH.
Qed.

Section MergeStep.
  Variable D : list (list Z).
  Variable layer : list Z.

  Definition mk (sp : Z) (c : bool * Z) : cand := (strength D (fst c) layer sp, snd c).

  Lemma ltb_mk sp x y : ltb (mk sp y) (mk sp x) = fst x && negb (fst y).
  Proof.
    unfold ltb, mk, strength. cbn [fst].
    destruct (fst x), (fst y); cbn [lex_cmp]; rewrite ?Z.compare_refl, ?lex_refl; reflexivity.
  Qed.

  Lemma join_two_specs a b c :
    join (Some (mk a c)) (Some (mk b c)) = Some (mk (Z.max a b) c).
  Proof.
    assert (E : ltb (mk b c) (mk a c) = (b <? a)).
    { unfold ltb, mk, strength. cbn [fst].
      destruct (fst c); cbn [lex_cmp]; rewrite Z.compare_refl, lex_cmp_snoc; reflexivity. }
    rewrite join_some, E. destruct (Z.ltb_spec b a).
    - rewrite Z.max_l by lia. reflexivity.
    - rewrite Z.max_r by lia. reflexivity.
  Qed.

  Lemma best_two_specs a b L :
    join (best (map (mk a) L)) (best (map (mk b) L)) = best (map (mk (Z.max a b)) L).
  Proof.
    rewrite !best_map.
    rewrite (argbest_ext (mk b) (mk a)), (argbest_ext (mk (Z.max a b)) (mk a))
      by (intros; rewrite !ltb_mk; reflexivity).
    destruct (argbest (mk a) L) as [c|]; [apply join_two_specs | reflexivity].
  Qed.
End MergeStep.

(* "a { D }  b { D }"  ==>  "a, b { D }"  (selectors already present are not
   added twice), anywhere in a sheet, for every element and property, in every
   world that understands all selectors involved. *)
Theorem adjacent_merge_keeps_winner_all : forall w pre conds layer s1 s2 ds post e p,
  (forall s, In s (s1 ++ s2) -> sel_understood w (s_id s) = true) ->
  winner w (pre ++ [mkItem false conds layer (map s_id (merge_sels s1 s2)) ds] ++ post) e p =
  winner w (pre ++ [mkItem false conds layer (map s_id s1) ds; mkItem false conds layer (map s_id s2) ds] ++ post) e p.
Proof.
  intros w pre conds layer s1 s2 ds post e p HU. revert pre post e p.
  apply (equiv_of_same w [_] [_; _]); [reflexivity|].
  intros D e p. rewrite !cands_one, cands_cons, cands_one, best_app.
  unfold item_cands, item_active. cbn [i_stmt i_conds i_sels i_decls i_layer negb andb].
  assert (U : forall l, (forall s, In s l -> In s s1 \/ In s s2) -> forallb (sel_understood w) (map s_id l) = true).
  { intros l Hl. apply forallb_forall. intros i Hi. apply in_map_iff in Hi as [s [<- Hs]].
    apply HU, in_or_app, Hl, Hs. }
  rewrite (U (merge_sels s1 s2)) by apply merge_sels_in.
  rewrite (U s1), (U s2) by auto.
  destruct (conds_hold w conds); cbn [andb]; [|reflexivity].
  rewrite best_spec_merge.
  set (F := fun d : decl => (d_prop d =? p) && val_understood w (d_syn d)).
  set (L := map (fun d => (d_imp d, d_val d)) (filter F ds)).
  assert (HC : forall sp, map (fun d => (strength D (d_imp d) layer sp, d_val d)) (filter F ds) = map (mk D layer sp) L).
  { intros sp. unfold L. rewrite map_map. reflexivity. }
  destruct (best_spec w (map s_id s1) e) as [a|], (best_spec w (map s_id s2) e) as [b|]; cbn [omax];
    rewrite ?HC, ?best_nil, ?join_none_l, ?join_none_r; try reflexivity.
  symmetry. apply best_two_specs.
Qed.
