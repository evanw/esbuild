From V Require Import Common.Base C12.Mangle C12.BoxTracker C12.BoxSpec.

Lemma set_nth_length {A} (x : A) : forall l n, length (set_nth n x l) = length l.
Proof. induction l as [|y l IH]; intros [|n]; cbn [set_nth length]; auto. Qed.

Lemma nth_set_nth {A} (x : A) : forall l n j,
  nth_error (set_nth n x l) j = if Nat.eqb j n && Nat.ltb n (length l) then Some x else nth_error l j.
Proof.
  induction l as [|y l IH]; intros n j.
  { assert (E : set_nth n x (@nil A) = []) by (destruct n; reflexivity). rewrite E. cbn [length].
    replace (n <? 0)%nat with false by (symmetry; apply Nat.ltb_ge; lia). rewrite andb_false_r. reflexivity. }
  destruct n as [|n], j as [|j]; cbn [set_nth nth_error length]; try reflexivity.
  - rewrite IH. cbn [Nat.eqb]. destruct (Nat.eqb j n); cbn [andb]; [|reflexivity].
    change (S n <? S (length l))%nat with (n <? length l)%nat. reflexivity.
Qed.

Lemma nth_set_nth_same {A} (x : A) l n : (n < length l)%nat -> nth_error (set_nth n x l) n = Some x.
Proof. intros H. rewrite nth_set_nth, Nat.eqb_refl. apply Nat.ltb_lt in H. rewrite H. reflexivity. Qed.

Lemma nth_set_nth_other {A} (x : A) l n j : j <> n -> nth_error (set_nth n x l) j = nth_error l j.
Proof. intros H. rewrite nth_set_nth. apply Nat.eqb_neq in H. rewrite H. reflexivity. Qed.

Lemma live_app a b : live (a ++ b) = live a ++ live b.
Proof. induction a as [|[d|] a IH]; cbn [app live]; rewrite ?IH; reflexivity. Qed.

(* the last position below n at which f is defined *)
Fixpoint lastset (f : nat -> option sval) (n : nat) : option sval :=
  match n with
  | O => None
  | S k => match f k with Some v => Some v | None => lastset f k end
  end.

Lemma lastset_none f n : (forall j, (j < n)%nat -> f j = None) -> lastset f n = None.
Proof.
  induction n as [|n IH]; intros H; cbn [lastset]; [reflexivity|].
  rewrite (H n) by lia. apply IH. intros; apply H; lia.
Qed.

(* anything computed declaration by declaration is determined position by position *)
Lemma flat_map_live_pointwise {X} (g : bdecl -> list X) : forall rs rs',
  length rs = length rs' ->
  (forall j, match nth_error rs j with Some (Some d) => g d | _ => [] end =
             match nth_error rs' j with Some (Some d) => g d | _ => [] end) ->
  flat_map g (live rs) = flat_map g (live rs').
Proof.
  induction rs as [|x rs IH]; intros [|y rs'] HL H; try discriminate; [reflexivity|].
  cbn [length] in HL. pose proof (H O) as H0. cbn [nth_error] in H0.
  assert (HT : flat_map g (live rs) = flat_map g (live rs')).
  { apply IH; [lia|]. intros j. apply (H (S j)). }
  destruct x as [d|], y as [d'|]; cbn [live flat_map]; rewrite ?HT, ?H0; try reflexivity.
  - rewrite <- H0. reflexivity.
Qed.

Lemma filter_as_flat_map {A} (f : A -> bool) (l : list A) :
  filter f l = flat_map (fun d => if f d then [d] else []) l.
Proof. induction l as [|x l IH]; cbn [filter flat_map]; [reflexivity|]. rewrite IH. destruct (f x); reflexivity. Qed.

Lemma other_pointwise rs rs' : length rs = length rs' ->
  (forall j, match nth_error rs j with Some (Some d) => if is_other d then [d] else [] | _ => [] end =
             match nth_error rs' j with Some (Some d) => if is_other d then [d] else [] | _ => [] end) ->
  filter is_other (live rs) = filter is_other (live rs').
Proof. intros HL H. rewrite !filter_as_flat_map. apply flat_map_live_pointwise; assumption. Qed.

Lemma set_nth_last {A} (l : list A) x y : set_nth (length l) y (l ++ [x]) = l ++ [y].
Proof. induction l as [|a l IH]; cbn [length set_nth app]; [reflexivity|]. rewrite IH. reflexivity. Qed.
