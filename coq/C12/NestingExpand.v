(* The cross-product branch of nesting lowering preserves matching when no "&"
   of the nested selector sits inside a pseudo-class argument, in element
   structures whose combinator relations distribute over unions of sets. *)
From V Require Import Common.Base C12.Nesting C12.NestingProofs C12.NestingFree.
Require Import Btauto.

Definition memo (o : option (list bool)) (x : nat) : bool := match o with Some S0 => mem S0 x | None => false end.

Fixpoint top_only (cx : complex) : bool :=
  match cx with XNil => true | XCons (Cp _ _ _ s) r => negb (has_amp_s s) && top_only r end.
Fixpoint count_top (cx : complex) : nat :=
  match cx with XNil => O | XCons (Cp _ a _ _) r => ((if a then 1 else 0) + count_top r)%nat end.
Lemma top_only_cons k a t s r :
  top_only (XCons (Cp k a t s) r) = true -> has_amp_s s = false /\ top_only r = true.
Proof. cbn [top_only]. rewrite andb_true_iff, negb_true_iff. tauto. Qed.

(* an exhausted index vector stands for zeros *)
Lemma expand_x_amp ps v k t s r results :
  expand_x ps v (XCons (Cp k true t s) r) results =
  expand_x ps (tl v) r (subst_amp (nth (hd O v) ps XNil) false k t s results).
Proof. destruct v; reflexivity. Qed.

Lemma existsb_flat_map {X Y} (g : Y -> bool) (F : X -> list Y) l :
  existsb g (flat_map F l) = existsb (fun i => existsb g (F i)) l.
Proof. induction l as [|a l IH]; cbn; [reflexivity|]. rewrite existsb_app, IH. reflexivity. Qed.
Lemma existsb_map {X Y} (g : Y -> bool) (h : X -> Y) l : existsb g (map h l) = existsb (fun i => g (h i)) l.
Proof. induction l as [|a l IH]; cbn; [reflexivity | rewrite IH; reflexivity]. Qed.
Lemma existsb_ext_in {X} (f g : X -> bool) l : (forall i, In i l -> f i = g i) -> existsb f l = existsb g l.
Proof.
  induction l as [|a l IH]; intros H; cbn; [reflexivity|].
  rewrite (H a) by (left; reflexivity). rewrite IH; [reflexivity|]. intros; apply H; right; assumption.
Qed.
Lemma existsb_and {X} b (f : X -> bool) l : b && existsb f l = existsb (fun i => b && f i) l.
Proof. induction l as [|a l IH]; cbn; [btauto|]. rewrite <- IH. btauto. Qed.
Lemma existsb_and_r {X} b (f : X -> bool) l : existsb f l && b = existsb (fun i => f i && b) l.
Proof. induction l as [|a l IH]; cbn; [reflexivity|]. rewrite <- IH. btauto. Qed.

Section Expand.
  Variable D : dom.
  Notation n := (size D).
  Hypothesis rel_union : forall k (f : nat -> nat -> bool) (l : list nat) z,
    d_rel D k (tab n (fun y => existsb (fun i => f i y) l)) z = existsb (fun i => d_rel D k (tab n (f i)) z) l.
  Variable ps : list complex.
  Hypothesis Hps : Forall pok ps.
  Hypothesis Hne : ps <> [].
  Notation np := (length ps).

  (* the elements the i-th parent matches, and those any parent matches *)
  Definition Aset (i : nat) : list bool := tab n (matches D [] (nth i ps XNil)).
  Definition Aall : list bool := tab n (fun x => existsb (fun i => mem (Aset i) x) (seq 0 np)).

  Lemma nth_pok i : (i < np)%nat -> pok (nth i ps XNil).
  Proof. intros H. rewrite Forall_forall in Hps. apply Hps. apply nth_In. exact H. Qed.

  Lemma Aset_fix i : (i < np)%nat -> ev D (Aset i) (nth i ps XNil) None = Some (Aset i).
  Proof.
    intros Hi. destruct (nth_pok i Hi) as [Hn [_ Ha]].
    rewrite (amp_free_ev D (Aset i) []) by exact Ha.
    destruct (ev_is_tab D [] (nth i ps XNil) None Hn) as [f Hf]. rewrite Hf. f_equal.
    unfold Aset, matches. rewrite Hf. apply tab_ext. intros x Hx. rewrite mem_tab by exact Hx. reflexivity.
  Qed.

  (* the k-th "&" stands for the parent the vector picks *)
  Fixpoint evv (v : list nat) (cx : complex) (L : option (list bool)) : option (list bool) :=
    match cx with
    | XNil => L
    | XCons (Cp k a t s) r =>
      if a then
        evv (tl v) r (Some (tab n (fun x => mem (Aset (hd O v)) x && tyok D t x && ok_s D [] s x && relpart D L k x)))
      else evv v r (Some (tab n (fun x => tyok D t x && ok_s D [] s x && relpart D L k x)))
    end.

  Lemma np_pos : (0 < np)%nat.
  Proof. destruct ps; [contradiction | cbn; lia]. Qed.

  Lemma one_amp i k t s results : (i < np)%nat -> has_amp_s s = false -> has_amp_x results = false ->
    has_amp_x (subst_amp (nth i ps XNil) false k t s results) = false /\
    ev D [] (subst_amp (nth i ps XNil) false k t s results) None =
    Some (tab n (fun x => mem (Aset i) x && tyok D t x && ok_s D [] s x && relpart D (ev D [] results None) k x)).
  Proof.
    intros Hi Hs Hres. destruct (nth_pok i Hi) as [Hn [Hf Ha]].
    assert (Hfree : has_amp_x (subst_amp (nth i ps XNil) false k t s results) = false) by (apply subst_amp_free; assumption).
    split; [exact Hfree|].
    rewrite (amp_free_ev D [] (Aset i)) by exact Hfree.
    rewrite (subst_amp_ok D (Aset i) (nth i ps XNil) Hf (Aset_fix i Hi) Ha false k t s s results (fun _ => eq_refl)).
    rewrite ev_one, (amp_free_ev D (Aset i) [] results Hres). f_equal. apply tab_ext. intros x Hx.
    rewrite ok_c_eq. cbn [c_comb]. rewrite (amp_free_ok_s D (Aset i) [] s Hs). reflexivity.
  Qed.

  Lemma expand_sem : forall cx v results, top_only cx = true -> has_amp_x results = false ->
    Forall (fun i => (i < np)%nat) v ->
    has_amp_x (expand_x ps v cx results) = false /\
    ev D [] (expand_x ps v cx results) None = evv v cx (ev D [] results None).
  Proof.
    induction cx as [|c r IH]; intros v results Ht Hres Hv; [split; [exact Hres | reflexivity]|].
    destruct c as [k a t s]. apply top_only_cons in Ht as [Hs Ht]. cbn [evv]. destruct a.
    - assert (Hi : (hd O v < np)%nat) by (destruct Hv; [apply np_pos | assumption]).
      assert (Hv' : Forall (fun i => (i < np)%nat) (tl v)) by (destruct Hv; [constructor | assumption]).
      destruct (one_amp (hd O v) k t s results Hi Hs Hres) as [F E].
      destruct (IH (tl v) _ Ht F Hv') as [F2 E2].
      rewrite expand_x_amp. split; [exact F2|]. rewrite E2, E. reflexivity.
    - assert (F : has_amp_x (xsnoc results (Cp k false t s)) = false) by (rewrite has_amp_snoc, Hres, ha_c, Hs; reflexivity).
      cbn [expand_x]. destruct (IH v _ Ht F Hv) as [F2 E2]. split; [exact F2|]. rewrite E2, ev_snoc.
      reflexivity.   (* ok_c of a compound without "&" computes to the conjunction in evv *)
  Qed.

  (* ev is a union homomorphism in the set to the left *)
  Lemma ev_linear A : forall r (f : nat -> nat -> bool) l x, (x < n)%nat ->
    memo (ev D A r (Some (tab n (fun y => existsb (fun i => f i y) l)))) x =
    existsb (fun i => memo (ev D A r (Some (tab n (f i)))) x) l.
  Proof.
    induction r as [|c r IH]; intros f l x Hx.
    - cbn [ev memo]. rewrite mem_tab by exact Hx. apply existsb_ext_in. intros i _. rewrite mem_tab by exact Hx. reflexivity.
    - rewrite ev_cons.
      assert (E : tab n (fun z => ok_c D A c z && relpart D (Some (tab n (fun y => existsb (fun i => f i y) l))) (c_comb c) z) =
                  tab n (fun z => existsb (fun i => ok_c D A c z && d_rel D (c_comb c) (tab n (f i)) z) l)).
      { apply tab_ext. intros z _. cbn [relpart]. rewrite rel_union. apply existsb_and. }
      rewrite E. rewrite (IH (fun i z => ok_c D A c z && d_rel D (c_comb c) (tab n (f i)) z) l x Hx).
      apply existsb_ext_in. intros i _. reflexivity.
  Qed.

  Lemma vectors_lt : forall d v, In v (vectors np d) -> Forall (fun i => (i < np)%nat) v.
  Proof.
    induction d as [|d IH]; intros v H; cbn in H.
    - destruct H as [<-|[]]. constructor.
    - apply in_flat_map in H as [i [Hi H]]. apply in_map_iff in H as [v' [<- Hv']]. apply in_seq in Hi.
      constructor; [lia | apply IH; exact Hv'].
  Qed.

  Lemma union_sem : forall cx L x, top_only cx = true -> (x < n)%nat ->
    memo (ev D Aall cx L) x = existsb (fun v => memo (evv v cx L) x) (vectors np (count_top cx)).
  Proof.
    induction cx as [|c r IH]; intros L x Ht Hx.
    - cbn. rewrite orb_false_r. reflexivity.
    - destruct c as [k a t s]. apply top_only_cons in Ht as [Hs Ht].
      pose proof (amp_free_ok_s D Aall [] s Hs) as HIs.
      rewrite ev_cons. cbn [c_comb count_top]. destruct a.
      + cbn [Nat.add vectors]. rewrite existsb_flat_map.
        assert (E : tab n (fun z => ok_c D Aall (Cp k true t s) z && relpart D L k z) =
                    tab n (fun z => existsb (fun i => mem (Aset i) z && tyok D t z && ok_s D [] s z && relpart D L k z) (seq 0 np))).
        { apply tab_ext. intros z Hz. rewrite ok_c_eq, HIs. unfold Aall. rewrite mem_tab by exact Hz.
          rewrite !existsb_and_r. reflexivity. }
        rewrite E, (ev_linear Aall r _ (seq 0 np) x Hx).
        apply existsb_ext_in. intros i Hi. rewrite existsb_map. rewrite (IH _ x Ht Hx).
        apply existsb_ext_in. intros v' _. reflexivity.
      + cbn [Nat.add]. rewrite (IH _ x Ht Hx). apply existsb_ext_in. intros v _. cbn [evv].
        do 3 f_equal. apply tab_ext. intros z _. rewrite ok_c_eq, HIs. btauto.
  Qed.
End Expand.

Lemma count_zero :
  (forall c, has_amp_c c = false -> count_amp_c c = O) /\
  (forall s, has_amp_s s = false -> count_amp_s s = O) /\
  (forall cx, has_amp_x cx = false -> count_amp_x cx = O) /\
  (forall l, has_amp_l l = false -> count_amp_l l = O).
Proof.
  apply sel_mutind.
  - intros k a t s IH H. rewrite ha_c in H. apply orb_false_iff in H as [-> Hs].
    change (count_amp_c (Cp k false t s)) with (0 + count_amp_s s)%nat. rewrite (IH Hs). reflexivity.
  - reflexivity.
  - intros i r IH H. rewrite ha_s_class in H. change (count_amp_s (SClass i r)) with (count_amp_s r). exact (IH H).
  - intros ng l IHl r IHr H. rewrite ha_s_pc in H. apply orb_false_iff in H as [Hl Hr].
    change (count_amp_s (SPc ng l r)) with (count_amp_l l + count_amp_s r)%nat. rewrite (IHl Hl), (IHr Hr). reflexivity.
  - reflexivity.
  - intros c IHc r IHr H. rewrite ha_x_cons in H. apply orb_false_iff in H as [Hc Hr].
    change (count_amp_x (XCons c r)) with (count_amp_c c + count_amp_x r)%nat. rewrite (IHc Hc), (IHr Hr). reflexivity.
  - reflexivity.
  - intros cx IHx r IHr H. rewrite ha_l_cons in H. apply orb_false_iff in H as [Hx Hr].
    change (count_amp_l (LCons cx r)) with (count_amp_x cx + count_amp_l r)%nat. rewrite (IHx Hx), (IHr Hr). reflexivity.
Qed.

Lemma count_top_eq : forall cx, top_only cx = true -> count_amp_x cx = count_top cx.
Proof.
  induction cx as [|c r IH]; intros H; [reflexivity|]. destruct c as [k a t s].
  apply top_only_cons in H as [Hs Ht].
  change (count_amp_x (XCons (Cp k a t s) r)) with (((if a then 1 else 0) + count_amp_s s) + count_amp_x r)%nat.
  destruct count_zero as [_ [Z _]]. rewrite (Z _ Hs), (IH Ht). cbn [count_top]. lia.
Qed.

Lemma freeze_id p0 : forall cx, top_only cx = true -> freeze_x p0 cx = cx.
Proof.
  induction cx as [|c r IH]; intros H; [reflexivity|]. destruct c as [k a t s].
  apply top_only_cons in H as [Hs Ht]. cbn [freeze_x].
  destruct (subst_id p0) as [_ [I _]]. rewrite (I _ Hs), (IH Ht). reflexivity.
Qed.

Lemma parents_pok : forall l, parents_ok l = true -> Forall pok (l2l l).
Proof.
  induction l as [|p r IH]; intros H; cbn [l2l]; [constructor|].
  apply parents_ok_cons in H as [Hp Hr]. constructor; [exact Hp | apply IH, Hr].
Qed.

Lemma ok_l_nth D : forall l x, ok_l D [] l x = existsb (fun i => matches D [] (nth i (l2l l) XNil) x) (seq 0 (length (l2l l))).
Proof.
  induction l as [|p r IH]; intros x; [reflexivity|].
  rewrite ok_l_cons. cbn [l2l length]. rewrite <- cons_seq, <- seq_shift. cbn [existsb nth]. rewrite existsb_map, IH. reflexivity.
Qed.

Theorem lower_expand_matching D
  (rel_union : forall k (f : nat -> nat -> bool) (l : list nat) z,
     d_rel D k (tab (size D) (fun y => existsb (fun i => f i y) l)) z = existsb (fun i => d_rel D k (tab (size D) (f i)) z) l)
  parents cx A' :
  parents_ok parents = true -> parents <> LNil -> top_only (inject_amp cx) = true ->
  forall x, (x < size D)%nat ->
  existsb (fun s => matches D A' s x) (lower_expand parents (LCons cx LNil)) =
  matches D (parent_set D parents) (inject_amp cx) x.
Proof.
  intros Hok Hne Ht x Hx.
  pose proof (parents_pok parents Hok) as Hps.
  assert (Hne' : l2l parents <> []) by (destruct parents; [contradiction | discriminate]).
  unfold lower_expand. cbn [l2l map fold_left]. rewrite Nat.max_0_l.
  rewrite (freeze_id _ _ Ht), (count_top_eq _ Ht).
  rewrite existsb_flat_map. cbn [map existsb].
  assert (EA : parent_set D parents = Aall D (l2l parents)).
  { unfold parent_set, Aall. apply tab_ext. intros z Hz. rewrite ok_l_nth. apply existsb_ext_in. intros i _.
    unfold Aset. rewrite mem_tab by exact Hz. reflexivity. }
  rewrite EA. unfold matches at 2. fold (memo (ev D (Aall D (l2l parents)) (inject_amp cx) None) x).
  rewrite (union_sem D rel_union (l2l parents) _ None x Ht Hx).
  apply existsb_ext_in. intros v Hv. rewrite orb_false_r.
  destruct (expand_sem D (l2l parents) Hps Hne' (inject_amp cx) v XNil Ht eq_refl (vectors_lt (l2l parents) _ v Hv)) as [F E].
  unfold matches. rewrite (amp_free_ev D A' [] _ F), E. reflexivity.
Qed.

(* the concrete forest structures satisfy the union hypothesis *)
Lemma mem_tab_ge n f y : (n <= y)%nat -> mem (tab n f) y = false.
Proof. intros H. unfold mem, tab. apply nth_overflow. rewrite map_length, seq_length. exact H. Qed.
Lemma existsb_false {X} (l : list X) : existsb (fun _ => false) l = false.
Proof. induction l; cbn; auto. Qed.
Lemma existsb_swap {X Y} (g : X -> Y -> bool) (a : list X) (b : list Y) :
  existsb (fun x => existsb (fun y => g x y) b) a = existsb (fun y => existsb (fun x => g x y) a) b.
Proof.
  induction a as [|x a IH]; cbn; [rewrite existsb_false; reflexivity|]. rewrite IH. clear IH.
  induction b as [|y b IHb]; cbn; [reflexivity|]. rewrite <- IHb. btauto.
Qed.
Lemma mem_tab_union n (f : nat -> nat -> bool) l y :
  mem (tab n (fun y => existsb (fun i => f i y) l)) y = existsb (fun i => mem (tab n (f i)) y) l.
Proof.
  destruct (Nat.lt_ge_cases y n) as [H|H].
  - rewrite mem_tab by exact H. apply existsb_ext_in. intros i _. rewrite mem_tab by exact H. reflexivity.
  - rewrite mem_tab_ge by exact H. symmetry. erewrite existsb_ext_in; [apply existsb_false|].
    intros i _. apply mem_tab_ge. exact H.
Qed.

Lemma tree_rel_union d : forall k (f : nat -> nat -> bool) (l : list nat) z,
  d_rel (tree_dom d) k (tab (size (tree_dom d)) (fun y => existsb (fun i => f i y) l)) z =
  existsb (fun i => d_rel (tree_dom d) k (tab (size (tree_dom d)) (f i)) z) l.
Proof.
  intros k f l z. cbn [tree_dom d_rel size].
  assert (One : forall next, match chain d next 1 z with y :: _ => mem (tab (length d) (fun y => existsb (fun i => f i y) l)) y | [] => false end =
                 existsb (fun i => match chain d next 1 z with y :: _ => mem (tab (length d) (f i)) y | [] => false end) l).
  { intros next. destruct (chain d next 1 z) as [|y ?]; [symmetry; apply existsb_false | apply mem_tab_union]. }
  assert (All : forall next, existsb (mem (tab (length d) (fun y => existsb (fun i => f i y) l))) (chain d next (length d) z) =
                 existsb (fun i => existsb (mem (tab (length d) (f i))) (chain d next (length d) z)) l).
  { intros next. rewrite existsb_swap. apply existsb_ext_in. intros y _. apply mem_tab_union. }
  destruct (k =? 1); [apply One|]. destruct (k =? 2); [apply One|]. destruct (k =? 3); apply All.
Qed.

Theorem lower_expand_matching_tree d parents cx A' :
  parents_ok parents = true -> parents <> LNil -> top_only (inject_amp cx) = true ->
  forall x, (x < length d)%nat ->
  existsb (fun s => matches (tree_dom d) A' s x) (lower_expand parents (LCons cx LNil)) =
  matches (tree_dom d) (parent_set (tree_dom d) parents) (inject_amp cx) x.
Proof. intros. apply lower_expand_matching; try assumption. apply tree_rel_union. Qed.
