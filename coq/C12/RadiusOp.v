(* borderRadius.mangleCorner (a corner longhand) and mangleCorners (the
   shorthand) preserve the semantics and the invariant. *)
From V Require Import Common.Base C12.Mangle C12.BoxTracker C12.BoxSpec C12.BoxLemmas C12.BoxTokens C12.BoxCompact
  C12.GenSem C12.GenInv C12.RadiusTracker C12.RadiusSpec C12.RadiusInv.

Lemma rreset_trinv rs tr imp : rtrinv rs tr -> rtrinv rs (rreset_if_imp tr imp) /\ rt_imp (rreset_if_imp tr imp) = imp.
Proof.
  intros H. unfold rreset_if_imp. destruct (Bool.eqb (rt_imp tr) imp) eqn:E.
  - apply eqb_prop in E. split; assumption.
  - split; [apply rtrinv_none | reflexivity].
Qed.

(* with a status that is "safe", 0px -> 0 changes neither value nor validity of any numeric token of the list *)
Lemma safe_turn_numeric T t : forallb is_numeric T = true -> In t T ->
  let t' := if us_safe (stat false T) then turn t else t in
  is_numeric t' = true /\ norm t' = norm t /\ (forall e, rok e t' = rok e t).
Proof.
  intros HT Hin t'. destruct (safe_turn false T t) as [A B]; [rewrite trk_false_all; exact HT | exact Hin |].
  rewrite trk_false in A. exact (conj A B).
Qed.

Lemma stat_numeric_valid e T : forallb is_numeric T = true -> stat false T <> UMixed ->
  forallb (rok e) T = us_valid e (stat false T).
Proof. intros HT HM. apply (stat_valid e false T); [rewrite trk_false_all; exact HT | exact HM]. Qed.

Lemma update_corner_rules rs tr c new :
  fst (update_corner rs tr c new) = upd_rules radii rs (rslots tr c) (rc_single new) (rc_us new).
Proof. unfold update_corner, rslots. destruct (rt_corners tr c); reflexivity. Qed.

(* updateCorner for a longhand d, just appended *)
Lemma update_corner_inv rs0 tr d c0 f s us :
  rtrinv rs0 tr -> b_imp d = rt_imp tr -> (c0 < 4)%nat -> rdesc d c0 true (f, s) ->
  (us <> UMixed -> forall e, rvalid e d = us_valid e us) ->
  rkeeps (rs0 ++ [Some d]) (update_corner (rs0 ++ [Some d]) tr c0 (mkC f s us (length rs0) true)).
Proof.
  intros Hinv Himp Hc0 Hd Hval. unfold rkeeps, gkeeps. rewrite update_corner_rules. cbn [rc_single rc_us].
  apply (radius_update1 rs0 (rslots tr) (rt_imp tr) d c0 us (f, s)); try assumption.
  intros c. unfold update_corner, rslots, set_corner. cbn [snd rt_corners]. destruct (Nat.eqb c c0); reflexivity.
Qed.

Lemma corner_go_inv rs0 tr1 c0 imp t1 t2o :
  rtrinv rs0 tr1 -> rt_imp tr1 = imp -> (c0 < 4)%nat ->
  is_numeric t1 = true -> (forall t, t2o = Some t -> is_numeric t = true) ->
  let d := mkB (KSide c0) (match t2o with None => [t1] | Some t => [t1; t] end) imp in
  rkeeps (rs0 ++ [Some d]) (mangle_corner_go (rs0 ++ [Some d]) tr1 d c0 t1 t2o).
Proof.
  intros Hinv1 Himp1 Hc0 Hn1 Hn2o d. unfold mangle_corner_go.
  set (t2 := match t2o with Some t => t | None => t1 end).
  assert (Hn2 : is_numeric t2 = true) by (unfold t2; destruct t2o as [t|]; [apply Hn2o; reflexivity | exact Hn1]).
  change (include_unit (include_unit USafe t1) t2) with (stat false [t1; t2]).
  set (us := stat false [t1; t2]).
  assert (HT : forallb is_numeric [t1; t2] = true) by (cbn; rewrite Hn1, Hn2; reflexivity).
  destruct (safe_turn_numeric [t1; t2] t1 HT ltac:(left; reflexivity)) as [Nh [Hnh Hokh]].
  destruct (safe_turn_numeric [t1; t2] t2 HT ltac:(right; left; reflexivity)) as [Nv [Hnv Hokv]].
  fold us in Nh, Hnh, Hokh, Nv, Hnv, Hokv.
  set (h0 := if us_safe us then turn t1 else t1) in *.
  set (v0 := if us_safe us then turn t2 else t2) in *.
  set (second := match t2o with Some t => if us_safe us then turn t else t | None => t1 end).
  assert (Hsec : is_numeric second = true /\ norm second = norm v0 /\ forall e, rok e second = rok e v0).
  { unfold second. destruct t2o as [t|]; [repeat split; try reflexivity; exact Nv|].
    unfold t2 in *. repeat split; [exact Hn1 | symmetry; exact Hnv | intros e; symmetry; apply Hokv]. }
  destruct Hsec as [Nsec [Hnsec Hoksec]].
  set (one := match t2o with None => true | Some _ => tok_eqb h0 v0 end).
  assert (Hone : one = true -> v0 = h0).
  { unfold one. destruct t2o as [t|]; [intros H; symmetry; apply tok_eqb_eq; exact H | intros _; reflexivity]. }
  assert (Eval : match t2o with None => [h0] | Some _ => if tok_eqb h0 second then [h0] else [h0; second] end
                 = if one then [h0] else [h0; v0]).
  { unfold one, second. destruct t2o as [t|]; [|reflexivity]. reflexivity. }
  rewrite Eval. clear Eval.
  cbn [b_key b_imp b_val d].
  rewrite app_length. cbn [length]. replace (length rs0 + 1 - 1)%nat with (length rs0) by lia.
  set (d' := mkB (KSide c0) (if one then [h0] else [h0; v0]) imp).
  (* the rule array after the in-place token rewrite always ends with d' *)
  match goal with |- context [update_corner ?X tr1 c0 _] => assert (Hrs2 : X = rs0 ++ [Some d']) end.
  { destruct (leqb tok_eqb (if one then [h0] else [h0; v0]) (match t2o with None => [t1] | Some t => [t1; t] end)) eqn:Ec; [|apply set_nth_last].
    apply leqb_tok_eq in Ec. unfold d', d. rewrite Ec. reflexivity. }
  rewrite Hrs2. clear Hrs2.
  set (oned := match t2o with None => true | Some _ => false end).
  assert (Ed : d = mkB (KSide c0) (if oned then [t1] else [t1; t2]) imp).
  { unfold d, oned, t2. destruct t2o; reflexivity. }
  assert (Honed : oned = true -> t2 = t1) by (unfold oned, t2; destruct t2o; [discriminate | reflexivity]).
  assert (Hsem12 : gsem_eq rval rsets (rs0 ++ [Some d]) (rs0 ++ [Some d'])).
  { apply gappend_sem; try (rewrite Ed; reflexivity); try reflexivity.
    intros e c. rewrite Ed. unfold d'. rewrite !rsets_single by assumption. rewrite Hokh, Hokv, Hnh, Hnv. reflexivity. }
  assert (Hd'shape : rshape d' c0 true h0 v0).
  { exists one. repeat split; assumption. }
  assert (Hd'v : forall e, rvalid e d' = rok e t1 && rok e t2).
  { intros e. unfold d'. rewrite rvalid_single by assumption. rewrite Hokh, Hokv. reflexivity. }
  assert (Hval : us <> UMixed -> forall e, rvalid e d' = us_valid e us).
  { intros HM e. rewrite Hd'v. pose proof (stat_numeric_valid e [t1; t2] HT HM) as V. cbn [forallb] in V.
    rewrite andb_true_r in V. exact V. }
  apply (gkeeps_trans _ _ _ _ _ _ _ Hsem12).
  destruct (update_corner_inv rs0 tr1 d' c0 h0 second us Hinv1 (eq_sym Himp1) Hc0) as [HU1 HU2]; [|exact Hval|].
  - split; [exact Hc0|]. exists h0, v0.
    exact (conj Hd'shape (conj eq_refl (conj Hnsec (conj (fun e => eq_refl) (conj Hoksec (conj Nh Nsec)))))).
  - exact (gkeeps_trans _ _ _ _ _ _ _ HU1 (rcompact_inv _ _ HU2)).
Qed.

Lemma mangle_corner_inv rs0 tr d c0 :
  rtrinv rs0 tr -> b_key d = KSide c0 -> (c0 < 4)%nat ->
  rkeeps (rs0 ++ [Some d]) (mangle_corner (rs0 ++ [Some d]) tr d c0).
Proof.
  intros Hinv Hkey Hc0. destruct d as [k l imp]. cbn [b_key] in Hkey. subst k.
  unfold mangle_corner. cbn [b_val b_imp].
  destruct (rreset_trinv rs0 tr imp Hinv) as [Hinv1 Himp1].
  set (tr1 := rreset_if_imp tr imp) in *.
  assert (Hreset : rkeeps (rs0 ++ [Some (mkB (KSide c0) l imp)]) (rs0 ++ [Some (mkB (KSide c0) l imp)], mkRT no_corners (rt_imp tr1)))
    by (split; [apply gsem_eq_refl | apply rtrinv_none]).
  destruct l as [|t1 [|t2 [|t3 l3]]]; try exact Hreset.
  - destruct (is_numeric t1) eqn:N1; [|exact Hreset].
    apply (corner_go_inv rs0 tr1 c0 imp t1 None Hinv1 Himp1 Hc0 N1). intros t H; discriminate H.
  - destruct (is_numeric t1 && is_numeric t2) eqn:N; [|exact Hreset]. apply andb_true_iff in N as [N1 N2].
    apply (corner_go_inv rs0 tr1 c0 imp t1 (Some t2) Hinv1 Himp1 Hc0 N1). intros t H; inversion H as [H1]; rewrite <- H1; exact N2.
Qed.

Lemma corners4_tracker rs tr mk c :
  rt_corners (snd (corners4 rs tr mk)) c = (if (c <? 4)%nat then Some (mk c) else rt_corners tr c) /\
  rt_imp (snd (corners4 rs tr mk)) = rt_imp tr.
Proof. split; [destruct c as [|[|[|[|c]]]]; reflexivity | reflexivity]. Qed.

(* the four updateCorner calls of mangleCorners for a shorthand d, just appended, and
   the overwriting of the second radii when d has a second list *)
Lemma corners4_inv rs0 tr d (f g : nat -> tok) us :
  rtrinv rs0 tr -> b_imp d = rt_imp tr -> (forall c, (c < 4)%nat -> rdesc d c false (f c, g c)) ->
  (us <> UMixed -> forall e, rvalid e d = us_valid e us) ->
  let st := corners4 (rs0 ++ [Some d]) tr (fun c => mkC (f c) (f c) us (length rs0) false) in
  gsem_eq rval rsets (rs0 ++ [Some d]) (fst st) /\ rtrinv (fst st) (set_seconds (snd st) g) /\
  ((forall c, g c = f c) -> rtrinv (fst st) (snd st)).
Proof.
  intros Hinv Himp Hd Hval st.
  replace (fst st) with (upd_rules4 radii (rs0 ++ [Some d]) (rslots tr) us)
    by (unfold st, corners4; cbn [fst snd]; rewrite !update_corner_rules; reflexivity).
  assert (G := fun slots' => radius_update4 rs0 (rslots tr) (rt_imp tr) d us (fun c => (f c, g c)) slots' Hinv Himp Hd Hval).
  destruct (G (rslots (set_seconds (snd st) g))) as [S I].
  { intros c. destruct c as [|[|[|[|c]]]]; try reflexivity.
    unfold rslots, set_seconds. cbn. destruct (rt_corners tr (S (S (S (S c))))); reflexivity. }
  split; [exact S|]. split; [exact I|].
  intros Hg. apply (G (rslots (snd st))). intros c. destruct c as [|[|[|[|c]]]]; cbn; rewrite ?Hg; reflexivity.
Qed.

Lemma stat_false_fold T : fold_left include_unit T USafe = stat false T.
Proof. reflexivity. Qed.

(* registering a shorthand whose lists expand to q1 and q2 *)
Lemma corners_core rs0 tr1 imp l before aft q1 q2 :
  rtrinv rs0 tr1 -> rt_imp tr1 = imp ->
  split_slash l = (before, aft) ->
  forallb is_numeric before = true -> forallb is_numeric (second_list before aft) = true ->
  spec_expand before = Some q1 -> spec_expand (second_list before aft) = Some q2 ->
  let d := mkB KShort l imp in
  let rs1 := rs0 ++ [Some d] in
  let T := before ++ match aft with Some a => a | None => [] end in
  let us := stat false T in
  let tt := fun t => if us_safe us then turn t else t in
  let st := corners4 rs1 tr1 (fun c => mkC (tt (qnth q1 c)) (tt (qnth q1 c)) us (length rs0) false) in
  gsem_eq rval rsets rs1 (fst st) /\ rtrinv (fst st) (set_seconds (snd st) (fun c => tt (qnth q2 c))) /\
  (q2 = q1 -> rtrinv (fst st) (snd st)).
Proof.
  intros Hinv1 Himp1 Hsp Hb Ha H1 H2 d rs1 T us tt st.
  assert (HTnum : forallb is_numeric T = true).
  { unfold T. rewrite forallb_app, Hb. destruct aft as [a|]; [exact Ha | reflexivity]. }
  assert (HokT : forall e, forallb (rok e) T = rvalid e d).
  { intros e. unfold d. rewrite (rvalid_short e l imp before aft) by assumption. unfold T. rewrite forallb_app.
    destruct aft as [a|]; cbn [second_list forallb]; [reflexivity|]. rewrite andb_true_r. destruct (forallb (rok e) before); reflexivity. }
  assert (Hin1 : forall k, (k < 4)%nat -> In (qnth q1 k) T).
  { intros k Hk. unfold T. apply in_or_app. left. exact (spec_expand_in _ _ _ H1 Hk). }
  assert (Hin2 : forall k, (k < 4)%nat -> In (qnth q2 k) T).
  { intros k Hk. unfold T. destruct aft as [a|]; cbn [second_list] in H2.
    - apply in_or_app. right. exact (spec_expand_in _ _ _ H2 Hk).
    - rewrite H1 in H2. inversion H2; subst q2. apply Hin1. exact Hk. }
  destruct (corners4_inv rs0 tr1 d (fun c => tt (qnth q1 c)) (fun c => tt (qnth q2 c)) us Hinv1 (eq_sym Himp1)) as [S [I1 I2]].
  - intros c Hc.
    destruct (safe_turn_numeric T _ HTnum (Hin1 c Hc)) as [K1 [K2 K3]]. destruct (safe_turn_numeric T _ HTnum (Hin2 c Hc)) as [L1 [L2 L3]].
    split; [exact Hc|]. exists (qnth q1 c), (qnth q2 c). split; [|repeat split; assumption].
    exists before, aft, q1, q2. repeat split; assumption.
  - intros HM e. rewrite <- HokT. apply stat_numeric_valid; assumption.
  - split; [exact S|]. split; [exact I1|]. intros ->. apply I2. reflexivity.
Qed.

Lemma mangle_corners_inv rs0 tr d :
  rtrinv rs0 tr -> b_key d = KShort ->
  rkeeps (rs0 ++ [Some d]) (mangle_corners (rs0 ++ [Some d]) tr d).
Proof.
  intros Hinv Hkey. destruct d as [k l imp]. cbn [b_key] in Hkey. subst k.
  unfold mangle_corners. cbn [b_val b_imp].
  destruct (rreset_trinv rs0 tr imp Hinv) as [Hinv1 Himp1].
  set (tr1 := rreset_if_imp tr imp) in *.
  set (d := mkB KShort l imp). set (rs1 := rs0 ++ [Some d]).
  assert (Hreset : rkeeps rs1 (rs1, mkRT no_corners (rt_imp tr1))) by (split; [apply gsem_eq_refl | apply rtrinv_none]).
  destruct (split_slash l) as [before aft] eqn:Hsp.
  destruct (existsb is_slash match aft with Some a => a | None => [] end); [exact Hreset|].
  rewrite stat_false_fold.
  destruct (expand_quad_tok false before) as [q1|] eqn:E1; [|exact Hreset].
  destruct (expand_quad_tok_spec false before q1 E1) as [H1 T1]. rewrite trk_false_all in T1.
  assert (HL1 : (length rs1 - 1)%nat = length rs0) by (unfold rs1; rewrite app_length; cbn; lia).
  rewrite HL1.
  destruct (expand_quad_tok false match aft with Some a => a | None => [] end) as [q2|] eqn:E2.
  - (* a second list *)
    destruct (expand_quad_tok_spec false _ q2 E2) as [H2 T2]. rewrite trk_false_all in T2.
    assert (Ea : exists a, aft = Some a) by (destruct aft as [a|]; [exists a; reflexivity | cbn in H2; discriminate H2]).
    destruct Ea as [a ->].
    destruct (corners_core rs0 tr1 imp l before (Some a) q1 q2 Hinv1 Himp1 Hsp T1 T2 H1 H2) as [S1 [I1 _]].
    exact (gkeeps_trans _ _ _ _ _ _ _ S1 (rcompact_inv _ _ I1)).
  - destruct aft as [a|]; [exact Hreset|].
    destruct (corners_core rs0 tr1 imp l before None q1 q1 Hinv1 Himp1 Hsp T1 T1 H1 H1) as [S1 [_ I2]].
    exact (gkeeps_trans _ _ _ _ _ _ _ S1 (rcompact_inv _ _ (I2 eq_refl))).
Qed.
