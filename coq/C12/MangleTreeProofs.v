(* The whole minifier pass over a rule tree: every nested rule list is mangled
   (children first), the selector parser's duplicate-selector removal and the
   declaration-level duplicate removal are applied in every style rule, and the
   linker's cross-file duplicate removal runs over the top level.  Every winner
   is preserved, layer collapsing ("@layer a { @layer b {..} }" => "@layer a.b {..}")
   included. *)
From V Require Import Common.Base C12.Cascade C12.CascadeProofs C12.Mangle C12.MangleProofs C12.MergeProofs C12.MangleRulesProofs.

Section Tree.
  Variable w : world.
  Hypothesis Hsafe : forall s, s_safe s = true -> sel_understood w (s_id s) = true.
  Hypothesis Hdead : forall s e, s_dead s = true -> matches w (s_id s) e = false.

  Lemma equiv_flat_map (f g : rule -> list item) rs :
    Forall (fun r => equiv w (f r) (g r)) rs -> equiv w (flat_map f rs) (flat_map g rs).
  Proof.
    induction 1 as [|r rs Hr Hrs IH]; cbn [flat_map]; [apply equiv_refl|]. apply equiv_app; assumption.
  Qed.

  Lemma sel_dedupe_equiv conds layer sels ds :
    equiv w [mkItem false conds layer (map s_id (merge_sels [] sels)) ds] [mkItem false conds layer (map s_id sels) ds].
  Proof.
    apply equiv_of_same; [reflexivity|]. intros D e p. rewrite !cands_one. f_equal.
    unfold item_cands, item_active. cbn [i_stmt i_conds i_sels i_decls i_layer].
    assert (HU : forallb (sel_understood w) (map s_id (merge_sels [] sels)) = forallb (sel_understood w) (map s_id sels)).
    { apply eq_true_iff_eq. rewrite !forallb_forall.
      split; intros H i Hi; apply in_map_iff in Hi as [s [<- Hs]]; apply H; apply in_map.
      - apply merge_sels_in. right. exact Hs.
      - apply merge_sels_in in Hs as [[]|Hs]. exact Hs. }
    rewrite HU, best_spec_merge. cbn [map].
    change (best_spec w [] e) with (@None Z). cbn [omax]. reflexivity.
  Qed.

  Definition tree_ok (r : rule) : Prop := forall encl conds layer,
    (forall q, In q encl -> In q conds) ->
    equiv w (flatten conds layer (mangle_tree encl r)) (flatten conds layer r).

  Lemma body_equiv encl conds layer body top :
    (forall q, In q encl -> In q conds) -> Forall tree_ok body ->
    equiv w (flatten_list conds layer (mangle_rules encl (map (mangle_tree encl) body) top))
            (flatten_list conds layer body).
  Proof.
    intros Hencl Hb. eapply equiv_trans.
    - intros pre post e p. apply (mangle_rules_keeps_winner_all w conds layer encl Hencl Hsafe Hdead).
    - unfold flatten_list. rewrite flat_map_concat_map, map_map, <- flat_map_concat_map.
      apply (equiv_flat_map (fun x => flatten conds layer (mangle_tree encl x))).
      eapply Forall_impl; [|exact Hb]. intros r Hr. apply Hr, Hencl.
  Qed.

  Lemma tree_equiv : forall r, tree_ok r.
  Proof.
    induction r as [s d|q body IH|t p body IH|n aid body IH|k i|i|i] using rule_ind';
      intros encl conds layer Hencl; cbn [mangle_tree flatten]; try apply equiv_refl.
    - (* style rule *)
      eapply equiv_trans; [|apply sel_dedupe_equiv].
      intros pre post e p. apply dedupe_decls_keeps_winner_all.
    - (* @media *)
      apply body_equiv; [|exact IH].
      intros x. rewrite !in_app_iff. intros [Hx|Hx]; auto.
    - (* @supports / @container *)
      apply body_equiv; [|exact IH].
      intros x Hx. apply in_or_app. left. apply Hencl, Hx.
    - (* @layer *)
      destruct n as [|n1 [|n2 ns]].
      + apply (equiv_app w [_] [_]); [apply equiv_refl | apply body_equiv; assumption].
      + apply (equiv_app w [_] [_]); [apply equiv_refl | apply body_equiv; assumption].
      + apply equiv_app; [apply equiv_refl | apply body_equiv; assumption].
  Qed.

  (* the parser's pass over the whole sheet followed by the linker's duplicate
     removal, in any surrounding context *)
  Lemma mangle_sheet_equiv conds layer rules :
    equiv w (flatten_list conds layer (mangle_sheet rules)) (flatten_list conds layer rules).
  Proof.
    unfold mangle_sheet.
    eapply equiv_trans; [intros pre post e p; apply (dedupe_keeps_winner_all w Hdead)|].
    apply body_equiv; [intros q []|]. apply Forall_forall. intros r _. apply tree_equiv.
  Qed.

  Theorem mangle_sheet_keeps_winner_all : forall rules,
    forall e p, winner w (flatten_list [] [] (mangle_sheet rules)) e p = winner w (flatten_list [] [] rules) e p.
  Proof.
    intros rules e p. pose proof (mangle_sheet_equiv [] [] rules [] [] e p) as H.
    cbn [app] in H. rewrite !app_nil_r in H. exact H.
  Qed.
End Tree.
