(* mangleSide (a longhand) and mangleSides (the shorthand) preserve the
   semantics and the invariant. *)
From V Require Import Common.Base C12.Mangle C12.BoxTracker C12.BoxSpec C12.BoxLemmas C12.BoxTokens C12.GenSem C12.GenInv C12.BoxInv.

Section Op.
  Variable aa : bool.

  Lemma reset_trinv rs tr imp : trinv aa rs tr -> trinv aa rs (reset_if_imp tr imp) /\ tr_imp (reset_if_imp tr imp) = imp.
  Proof.
    intros H. unfold reset_if_imp. destruct (Bool.eqb (tr_imp tr) imp) eqn:E.
    - apply eqb_prop in E. split; assumption.
    - split; [apply trinv_none | reflexivity].
  Qed.

  Lemma update_side_rules rs tr s new :
    fst (update_side rs tr s new) = upd_rules tok rs (bslots tr s) (sd_single new) (sd_us new).
  Proof. unfold update_side, bslots. destruct (tr_sides tr s); reflexivity. Qed.

  (* updateSide for a longhand d, just appended *)
  Lemma update_side_inv rs0 tr d s0 t us :
    trinv aa rs0 tr -> b_imp d = tr_imp tr -> (s0 < 4)%nat -> bdesc aa d s0 true t ->
    (us <> UMixed -> forall e, bvalid aa e d = us_valid e us) ->
    bkeeps aa (rs0 ++ [Some d]) (update_side (rs0 ++ [Some d]) tr s0 (mkSide t us (length rs0) true)).
  Proof.
    intros Hinv Himp Hs0 Hd Hval. unfold bkeeps, gkeeps. rewrite update_side_rules. cbn [sd_single sd_us].
    apply (box_update1 aa rs0 (bslots tr) (tr_imp tr) d s0 us t); try assumption.
    intros s. unfold update_side, bslots, set_side. cbn [snd tr_sides]. destruct (Nat.eqb s s0); reflexivity.
  Qed.

  Lemma mangle_side_inv cc rs0 tr d s0 :
    trinv aa rs0 tr -> b_key d = KSide s0 -> (s0 < 4)%nat ->
    bkeeps aa (rs0 ++ [Some d]) (mangle_side aa cc (rs0 ++ [Some d]) tr d s0).
  Proof.
    intros Hinv Hkey Hs0. destruct d as [k l imp]. cbn [b_key] in Hkey. subst k.
    unfold mangle_side. cbn [b_val b_imp b_key].
    destruct (reset_trinv rs0 tr imp Hinv) as [Hinv1 Himp1].
    set (tr1 := reset_if_imp tr imp) in *.
    assert (Hreset : bkeeps aa (rs0 ++ [Some (mkB (KSide s0) l imp)]) (rs0 ++ [Some (mkB (KSide s0) l imp)], mkTr no_sides (tr_imp tr1)))
      by (split; [apply gsem_eq_refl | apply trinv_none]).
    destruct l as [|t [|t2 l2]]; [exact Hreset | | exact Hreset].
    destruct (is_numeric t || match t with TAuto _ => aa | _ => false end) eqn:Etrk; [|exact Hreset].
    assert (Ht : trk aa t = true) by exact Etrk.
    change (if negb aa || is_numeric t then include_unit USafe t else USafe) with (stat aa [t]).
    set (us := stat aa [t]). set (t' := if us_safe us then turn t else t).
    assert (HT : forallb (trk aa) [t] = true) by (cbn; rewrite Ht; reflexivity).
    destruct (safe_turn aa [t] t HT (or_introl eq_refl)) as [Ht' [Hnorm Hok]]. fold us t' in Ht', Hnorm, Hok.
    rewrite app_length. cbn [length]. replace (length rs0 + 1 - 1)%nat with (length rs0) by lia.
    set (d := mkB (KSide s0) [t] imp). set (d' := mkB (KSide s0) [t'] imp).
    (* the rule array after the in-place token rewrite always ends with d' *)
    assert (Hrs2 : (if us_safe us && negb (tok_eqb t' t) then set_nth (length rs0) (Some d') (rs0 ++ [Some d]) else rs0 ++ [Some d]) = rs0 ++ [Some d']).
    { destruct (us_safe us && negb (tok_eqb t' t)) eqn:Ec; [apply set_nth_last|].
      assert (Et : t' = t).
      { apply andb_false_iff in Ec as [Ec|Ec].
        - unfold t'. rewrite Ec. reflexivity.
        - apply negb_false_iff in Ec. apply tok_eqb_eq. exact Ec. }
      unfold d'. rewrite Et. reflexivity. }
    rewrite Hrs2. clear Hrs2.
    assert (Hsem12 : gsem_eq sval (bsets aa) (rs0 ++ [Some d]) (rs0 ++ [Some d'])).
    { apply gappend_sem; try reflexivity. intros e s. unfold d, d', bsets. rewrite !sets_single by assumption. rewrite Hok, Hnorm. reflexivity. }
    apply (gkeeps_trans _ _ _ _ _ _ _ Hsem12).
    destruct (update_side_inv rs0 tr1 d' s0 t' us Hinv1 (eq_sym Himp1) Hs0) as [HU1 HU2].
    - split; [cbn; rewrite Ht'; reflexivity|]. split; [exact Ht'|]. exists t'. repeat split.
    - intros HM e. unfold bvalid. cbn [b_val d' forallb]. rewrite Hok. exact (stat_valid e aa [t] HT HM).
    - exact (gkeeps_trans _ _ _ _ _ _ _ HU1 (compact_inv aa cc _ _ HU2)).
  Qed.

  (* the four updateSide calls of mangleSides for a shorthand d, just appended *)
  Lemma update4_inv rs0 tr d (tk : nat -> tok) us :
    trinv aa rs0 tr -> b_imp d = tr_imp tr -> (forall k, (k < 4)%nat -> bdesc aa d k false (tk k)) ->
    (us <> UMixed -> forall e, bvalid aa e d = us_valid e us) ->
    let side := fun (st : rules * tracker) s => update_side (fst st) (snd st) s (mkSide (tk s) us (length rs0) false) in
    bkeeps aa (rs0 ++ [Some d]) (side (side (side (side (rs0 ++ [Some d], tr) 0%nat) 1%nat) 2%nat) 3%nat).
  Proof.
    intros Hinv Himp Hd Hval side. set (st := side _ 3%nat). unfold bkeeps, gkeeps.
    replace (fst st) with (upd_rules4 tok (rs0 ++ [Some d]) (bslots tr) us)
      by (unfold st, side; cbn [fst snd]; rewrite !update_side_rules; reflexivity).
    apply (box_update4 aa rs0 (bslots tr) (tr_imp tr) d us tk); try assumption.
    intros s. destruct s as [|[|[|[|s]]]]; reflexivity.
  Qed.

  Lemma mangle_sides_inv cc rs0 tr d :
    trinv aa rs0 tr -> b_key d = KShort ->
    bkeeps aa (rs0 ++ [Some d]) (mangle_sides aa cc (rs0 ++ [Some d]) tr d).
  Proof.
    intros Hinv Hkey. destruct d as [k l imp]. cbn [b_key] in Hkey. subst k.
    unfold mangle_sides. cbn [b_val b_imp].
    destruct (reset_trinv rs0 tr imp Hinv) as [Hinv1 Himp1].
    set (tr1 := reset_if_imp tr imp) in *.
    destruct (expand_quad_tok aa l) as [q|] eqn:Eq; [|split; [apply gsem_eq_refl | apply trinv_none]].
    destruct (expand_quad_tok_spec aa l q Eq) as [Hq Htrk].
    set (d := mkB KShort l imp). set (rs1 := rs0 ++ [Some d]).
    assert (HL1 : (length rs1 - 1)%nat = length rs0) by (unfold rs1; rewrite app_length; cbn; lia).
    rewrite HL1.
    set (T := [qnth q 0; qnth q 1; qnth q 2; qnth q 3]).
    change (fold_left (fun us t => if negb aa || is_numeric t then include_unit us t else us) T USafe) with (stat aa T).
    set (us := stat aa T).
    assert (HT : forallb (trk aa) T = true).
    { unfold T. rewrite forallb_quad, <- (forallb_spec_expand _ l q Hq). exact Htrk. }
    assert (HTq : forall k, (k < 4)%nat -> In (qnth q k) T).
    { intros k Hk. unfold T. destruct k as [|[|[|[|]]]]; try lia; cbn; auto. }
    assert (HokT : forall e, forallb (tok_ok e aa) T = forallb (tok_ok e aa) l).
    { intros e. unfold T. rewrite forallb_quad. symmetry. apply forallb_spec_expand. exact Hq. }
    set (tk := fun k => if us_safe us then turn (qnth q k) else qnth q k).
    assert (Htk : forall k, (k < 4)%nat -> trk aa (tk k) = true /\ norm (tk k) = norm (qnth q k) /\ forall e, tok_ok e aa (tk k) = tok_ok e aa (qnth q k)).
    { intros k Hk. apply (safe_turn aa T _ HT (HTq k Hk)). }
    set (st4 := update_side _ _ 3%nat _).
    assert (HU : bkeeps aa rs1 st4).
    { apply (update4_inv rs0 tr1 d tk us Hinv1 (eq_sym Himp1)).
      - intros k Hk. destruct (Htk k Hk) as [K1 [K2 K3]]. split; [exact Htrk|]. split; [exact K1|].
        exists (qnth q k). split; [|split; assumption]. split; [reflexivity|]. exists q. split; [exact Hq | reflexivity].
      - intros HM e. unfold bvalid. cbn [b_val d]. rewrite <- HokT. apply stat_valid; assumption. }
    destruct HU as [HU1 HU2]. exact (gkeeps_trans _ _ _ _ _ _ _ HU1 (compact_inv aa cc _ _ HU2)).
  Qed.
End Op.
