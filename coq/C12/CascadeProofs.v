(* Lemmas about the cascade specification: the strength order is a total
   order, [join] (later wins unless strictly weaker) is an associative,
   idempotent operation with  x . b . x = b . x, [best] is the monoid product
   of the candidates and depends on a labelling of them only through the
   comparisons ([argbest]), and [equiv]: two item lists that may replace each
   other in every sheet. *)
From V Require Import Common.Base C12.Cascade.

Lemma lex_refl a : lex_cmp a a = Eq.
Proof. induction a as [|x a IH]; simpl; [reflexivity|]. rewrite Z.compare_refl. exact IH. Qed.

Lemma lex_antisym : forall a b, lex_cmp b a = CompOpp (lex_cmp a b).
Proof.
  induction a as [|x a IH]; intros [|y b]; simpl; try reflexivity.
  rewrite (Z.compare_antisym x y). destruct (x ?= y); simpl; auto.
Qed.

Lemma lex_eq : forall a b, lex_cmp a b = Eq -> a = b.
Proof.
  induction a as [|x a IH]; intros [|y b]; simpl; intros H; try discriminate; [reflexivity|].
  destruct (x ?= y) eqn:E; try discriminate.
  apply Z.compare_eq in E. subst. f_equal. apply IH. exact H.
Qed.

Lemma lex_trans_lt : forall a b c, lex_cmp a b = Lt -> lex_cmp b c = Lt -> lex_cmp a c = Lt.
Proof.
  induction a as [|x a IH]; intros [|y b] [|z c]; simpl; try discriminate; try reflexivity.
  destruct (Z.compare_spec x y) as [->|Hxy|Hxy]; try discriminate;
    destruct (Z.compare_spec y z) as [->|Hyz|Hyz]; try discriminate; intros H1 H2.
  - exact (IH b c H1 H2).
  - reflexivity.
  - rewrite (proj2 (Z.compare_lt_iff x z) Hxy). reflexivity.
  - rewrite (proj2 (Z.compare_lt_iff x z)) by lia. reflexivity.
Qed.

(* y strictly weaker than x *)
Definition ltb (y x : cand) : bool := match lex_cmp (fst y) (fst x) with Lt => true | _ => false end.

Lemma join_some x y : join (Some x) (Some y) = if ltb y x then Some x else Some y.
Proof. unfold join, ltb. destruct (lex_cmp (fst y) (fst x)); reflexivity. Qed.

Lemma ltb_irrefl x : ltb x x = false.
Proof. unfold ltb. rewrite lex_refl. reflexivity. Qed.

Lemma ltb_trans z y x : ltb z y = true -> ltb y x = true -> ltb z x = true.
Proof.
  unfold ltb. intros H1 H2.
  destruct (lex_cmp (fst z) (fst y)) eqn:E1; try discriminate.
  destruct (lex_cmp (fst y) (fst x)) eqn:E2; try discriminate.
  rewrite (lex_trans_lt _ _ _ E1 E2). reflexivity.
Qed.

Lemma ltb_asym y x : ltb y x = true -> ltb x y = false.
Proof.
  unfold ltb. intros H. rewrite (lex_antisym (fst y) (fst x)).
  destruct (lex_cmp (fst y) (fst x)); try discriminate. reflexivity.
Qed.

(* z >= y >= x  ->  z >= x *)
Lemma geb_trans z y x : ltb z y = false -> ltb y x = false -> ltb z x = false.
Proof.
  unfold ltb. intros H1 H2.
  destruct (lex_cmp (fst z) (fst x)) eqn:E3; try reflexivity. exfalso.
  (* z < x.  y >= x means x <= y: x = y or x < y *)
  destruct (lex_cmp (fst y) (fst x)) eqn:E2; try discriminate.
  - apply lex_eq in E2. rewrite E2 in H1. rewrite E3 in H1. discriminate.
  - (* y > x, i.e. x < y *)
    assert (Hxy : lex_cmp (fst x) (fst y) = Lt) by (rewrite lex_antisym, E2; reflexivity).
    rewrite (lex_trans_lt _ _ _ E3 Hxy) in H1. discriminate.
Qed.

Lemma join_none_l a : join None a = a.
Proof. destruct a; reflexivity. Qed.
Lemma join_none_r a : join a None = a.
Proof. destruct a; reflexivity. Qed.

Lemma join_assoc a b c : join (join a b) c = join a (join b c).
Proof.
  destruct a as [x|], b as [y|], c as [z|]; rewrite ?join_none_l, ?join_none_r; try reflexivity.
  rewrite !join_some.
  destruct (ltb y x) eqn:Eyx, (ltb z y) eqn:Ezy; rewrite ?join_some, ?Eyx, ?Ezy.
  - rewrite (ltb_trans _ _ _ Ezy Eyx). reflexivity.
  - reflexivity.
  - reflexivity.
  - rewrite (geb_trans _ _ _ Ezy Eyx). reflexivity.
Qed.

(* x . b . x = b . x : an earlier copy of something that occurs again later is irrelevant *)
Lemma join_xbx x b : join (join x b) x = join b x.
Proof.
  destruct x as [x|], b as [b|]; rewrite ?join_none_l, ?join_none_r; try reflexivity.
  - rewrite !join_some. destruct (ltb b x) eqn:E.
    + rewrite join_some, ltb_irrefl. rewrite (ltb_asym _ _ E). reflexivity.
    + rewrite join_some. reflexivity.
  - rewrite join_some, ltb_irrefl. reflexivity.
Qed.

Lemma join_idem x : join x x = x.
Proof. pose proof (join_xbx x None) as H. rewrite join_none_r, join_none_l in H. exact H. Qed.

(* x in front of B makes no difference *)
Definition absorbs (x B : option cand) : Prop := join x B = B.

Lemma absorbs_self x C : absorbs x (join x C).
Proof. unfold absorbs. rewrite <- join_assoc, join_idem. reflexivity. Qed.

Lemma absorbs_step x y B : absorbs x B -> absorbs x (join y B).
Proof.
  unfold absorbs. intros H.
  rewrite <- H at 1. rewrite <- !join_assoc. rewrite join_xbx.
  rewrite join_assoc, H. reflexivity.
Qed.

Lemma fold_join l : forall acc, fold_left (fun a c => join a (Some c)) l acc = join acc (best l).
Proof.
  induction l as [|c l IH]; intros acc; simpl.
  - unfold best. simpl. rewrite join_none_r. reflexivity.
  - rewrite IH. unfold best. simpl. rewrite (IH (Some c)). rewrite join_assoc. reflexivity.
Qed.

Lemma best_app l1 l2 : best (l1 ++ l2) = join (best l1) (best l2).
Proof.
  unfold best at 1. rewrite fold_left_app. rewrite (fold_join l2). reflexivity.
Qed.

Lemma best_nil : best [] = None.
Proof. reflexivity. Qed.

(* [best] over the image of a list under f, computed on the list itself: only
   the comparisons between images matter, so two labellings that compare alike
   pick the same element *)
Section BestMap.
  Context {T : Type}.
  Definition pick (f : T -> cand) (a : option T) (c : T) : option T :=
    match a with Some x => if ltb (f c) (f x) then a else Some c | None => Some c end.
  Definition argbest (f : T -> cand) (l : list T) : option T := fold_left (pick f) l None.

  Lemma best_map f l : best (map f l) = option_map f (argbest f l).
  Proof.
    unfold best, argbest. change (@None cand) with (option_map f None). generalize (@None T).
    induction l as [|c l IH]; intros acc; cbn [map fold_left]; [reflexivity|].
    rewrite <- IH. f_equal. destruct acc as [x|]; cbn [option_map pick]; [|reflexivity].
    rewrite join_some. destruct (ltb (f c) (f x)); reflexivity.
  Qed.

  Lemma argbest_ext f g l : (forall a b, ltb (f b) (f a) = ltb (g b) (g a)) -> argbest f l = argbest g l.
  Proof.
    intros H. unfold argbest. generalize (@None T).
    induction l as [|c l IH]; intros acc; cbn [fold_left]; [reflexivity|].
    rewrite IH. f_equal. destruct acc as [x|]; cbn [pick]; [rewrite H|]; reflexivity.
  Qed.

  Lemma best_map_ext (f g : T -> cand) l :
    (forall a b, ltb (f b) (f a) = ltb (g b) (g a)) -> (forall a, snd (f a) = snd (g a)) ->
    option_map snd (best (map f l)) = option_map snd (best (map g l)).
  Proof.
    intros H S. rewrite !best_map, (argbest_ext f g l H).
    destruct (argbest g l); cbn [option_map]; [rewrite S|]; reflexivity.
  Qed.
End BestMap.

(* product of per-element results *)
Section Prod.
  Context {R : Type} (x : R -> option cand).
  Definition prod (l : list R) : option cand := fold_right (fun r acc => join (x r) acc) None l.
  Lemma prod_app l1 l2 : prod (l1 ++ l2) = join (prod l1) (prod l2).
  Proof.
    induction l1 as [|r l1 IH]; [rewrite join_none_l; reflexivity|].
    change (join (x r) (prod (l1 ++ l2)) = join (join (x r) (prod l1)) (prod l2)).
    rewrite IH, join_assoc. reflexivity.
  Qed.
End Prod.

Lemma cands_cons w D e p it sheet : cands w D e p (it :: sheet) = item_cands w D e p it ++ cands w D e p sheet.
Proof. reflexivity. Qed.

Lemma cands_one w D e p it : cands w D e p [it] = item_cands w D e p it.
Proof. apply app_nil_r. Qed.

Lemma best_flat_map {R} (h : R -> list cand) (l : list R) :
  best (flat_map h l) = prod (fun r => best (h r)) l.
Proof.
  induction l as [|r l IH]; [reflexivity|].
  cbn [flat_map]. rewrite best_app, IH. reflexivity.
Qed.

Lemma filter_flat_map {A B} (f : B -> bool) (g : A -> list B) (l : list A) :
  filter f (flat_map g l) = flat_map (fun x => filter f (g x)) l.
Proof.
  induction l as [|x l IH]; simpl; [reflexivity|].
  rewrite filter_app, IH. reflexivity.
Qed.

Lemma flat_map_flat_map {A B C} (f : B -> list C) (g : A -> list B) (l : list A) :
  flat_map f (flat_map g l) = flat_map (fun x => flat_map f (g x)) l.
Proof.
  induction l as [|x l IH]; simpl; [reflexivity|].
  rewrite flat_map_app, IH. reflexivity.
Qed.

(* best_spec is the product, in the max monoid, of the specificities that match *)
Definition omax (a b : option Z) : option Z :=
  match a, b with
  | None, x => x
  | x, None => x
  | Some m, Some n => Some (Z.max m n)
  end.

Lemma omax_assoc a b c : omax (omax a b) c = omax a (omax b c).
Proof. destruct a, b, c; simpl; f_equal; lia. Qed.
Lemma omax_none_r a : omax a None = a.
Proof. destruct a; reflexivity. Qed.

Section BestSpec.
  Variable w : world.
  Variable e : Z.
  Definition spec_if_match (s : Z) : option Z := if matches w s e then Some (spec w s) else None.

  Lemma best_spec_fold l : forall acc,
    fold_left (fun acc s => if matches w s e then
        match acc with None => Some (spec w s) | Some m => Some (Z.max m (spec w s)) end else acc) l acc
    = omax acc (best_spec w l e).
  Proof.
    unfold best_spec. induction l as [|s l IH]; intros acc; cbn [fold_left].
    - rewrite omax_none_r. reflexivity.
    - rewrite IH. rewrite (IH (if matches w s e then Some (spec w s) else None)).
      rewrite <- omax_assoc. f_equal. destruct (matches w s e), acc; reflexivity.
  Qed.

  Lemma best_spec_cons s l : best_spec w (s :: l) e = omax (spec_if_match s) (best_spec w l e).
  Proof. unfold best_spec at 1. cbn [fold_left]. rewrite best_spec_fold. reflexivity. Qed.

  Lemma best_spec_app l1 l2 : best_spec w (l1 ++ l2) e = omax (best_spec w l1 e) (best_spec w l2 e).
  Proof.
    induction l1 as [|s l1 IH]; [reflexivity|].
    cbn [app]. rewrite !best_spec_cons, IH, omax_assoc. reflexivity.
  Qed.
End BestSpec.

Lemma map_filter_flat_map {A B} (f : A -> B) (g : A -> bool) (l : list A) :
  map f (filter g l) = flat_map (fun x => if g x then [f x] else []) l.
Proof.
  induction l as [|x l IH]; cbn [filter flat_map]; [reflexivity|].
  destruct (g x); cbn [map app]; rewrite IH; reflexivity.
Qed.

(* two item lists that may replace each other anywhere in a sheet *)
Section Equiv.
  Variable w : world.

  Definition equiv (L1 L2 : list item) : Prop :=
    forall pre post e p, winner w (pre ++ L1 ++ post) e p = winner w (pre ++ L2 ++ post) e p.

  Lemma equiv_refl L : equiv L L.
  Proof. intros pre post e p. reflexivity. Qed.
  Lemma equiv_trans A B C : equiv A B -> equiv B C -> equiv A C.
  Proof. intros H1 H2 pre post e p. rewrite H1. apply H2. Qed.
  Lemma equiv_sym A B : equiv A B -> equiv B A.
  Proof. intros H pre post e p. symmetry. apply H. Qed.

  Lemma equiv_app A A' B B' : equiv A A' -> equiv B B' -> equiv (A ++ B) (A' ++ B').
  Proof.
    intros HA HB pre post e p. rewrite <- !app_assoc, HA, !(app_assoc pre), HB. reflexivity.
  Qed.

  Lemma declared_app a b : declared w (a ++ b) = declared w a ++ declared w b.
  Proof. unfold declared. rewrite filter_app. apply map_app. Qed.

  Lemma declared_one it :
    declared w [it] = if i_stmt it && conds_hold w (i_conds it) then [i_layer it] else [].
  Proof. unfold declared. cbn [filter]. destruct (i_stmt it && conds_hold w (i_conds it)); reflexivity. Qed.

  Lemma equiv_of_same L1 L2 :
    declared w L1 = declared w L2 ->
    (forall D e p, best (cands w D e p L1) = best (cands w D e p L2)) ->
    equiv L1 L2.
  Proof.
    intros HS HC pre post e p. unfold winner, cands.
    rewrite !declared_app, HS, !flat_map_app, !best_app. unfold cands in HC. rewrite HC. reflexivity.
  Qed.
End Equiv.
