(* mangleNumber preserves the exact value of every CSS number token. *)
From V Require Import Common.Base C12.Text C12.NumberCss C12.NumberSpec.

Definition dig (c : Z) : Prop := 48 <= c <= 57.
Definition digits (l : list Z) : Prop := Forall dig l.
Definition signs (sg : list Z) : Prop := sg = [] \/ sg = [43] \/ sg = [45].
Definition sgv (sg : list Z) : Z := match sg with [45] => -1 | _ => 1 end.

Lemma isdig_dig c : dig c -> isdig c = true.
Proof. unfold dig, isdig. lia. Qed.

Lemma sign_digits_Forall (P : Z -> Prop) sg ip : signs sg -> digits ip ->
  P 43 -> P 45 -> (forall c, dig c -> P c) -> Forall P (sg ++ ip).
Proof.
  intros Hsg Hip H43 H45 Hd. apply Forall_app. split.
  - destruct Hsg as [->|[->| ->]]; repeat constructor; assumption.
  - eapply Forall_impl; [exact Hd | exact Hip].
Qed.

Lemma dig_not_sign c : dig c -> is_sign c = false.
Proof. unfold dig, is_sign. lia. Qed.
Lemma dig_not_dot c : dig c -> (c =? 46) = false.
Proof. unfold dig. lia. Qed.

Definition no46 (l : list Z) : Prop := Forall (fun c => c <> 46) l.
Definition no_e (l : list Z) : Prop := Forall (fun c => c <> 101 /\ c <> 69) l.

Lemma digits_no46 l : digits l -> no46 l.
Proof. apply Forall_impl. unfold dig. lia. Qed.
Lemma digits_no_e l : digits l -> no_e l.
Proof. apply Forall_impl. unfold dig. lia. Qed.
Lemma sign_digits_no46 sg ip : signs sg -> digits ip -> no46 (sg ++ ip).
Proof. intros Hsg Hip. apply sign_digits_Forall; [exact Hsg | exact Hip | lia | lia | unfold dig; lia]. Qed.
Lemma sign_digits_no_e sg ip : signs sg -> digits ip -> no_e (sg ++ ip).
Proof. intros Hsg Hip. apply sign_digits_Forall; [exact Hsg | exact Hip | lia | lia | unfold dig; lia]. Qed.

Lemma fold_dv l : forall acc, fold_left (fun a d => a * 10 + (d - 48)) l acc = acc * 10 ^ Z.of_nat (length l) + digits_val l.
Proof.
  unfold digits_val. induction l as [|d l IH]; intros acc; cbn [fold_left length].
  - change (10 ^ Z.of_nat 0) with 1. lia.
  - rewrite IH. rewrite (IH (0 * 10 + (d - 48))).
    replace (Z.of_nat (S (length l))) with (Z.of_nat (length l) + 1) by lia.
    rewrite Z.pow_add_r by lia. lia.
Qed.

Lemma dv_app a b : digits_val (a ++ b) = digits_val a * 10 ^ Z.of_nat (length b) + digits_val b.
Proof. unfold digits_val at 1. rewrite fold_left_app. rewrite fold_dv. reflexivity. Qed.

Lemma dv_zeros k : digits_val (repeat 48 k) = 0.
Proof.
  induction k as [|k IH]; [reflexivity|].
  change (repeat 48 (S k)) with ([48] ++ repeat 48 k). rewrite dv_app, IH. reflexivity.
Qed.

Lemma dv_lead0 l : digits_val (48 :: l) = digits_val l.
Proof. change (48 :: l) with ([48] ++ l). rewrite dv_app. reflexivity. Qed.

Lemma span_digits_app a rest :
  digits a -> (match rest with c :: _ => isdig c = false | [] => True end) ->
  span_digits (a ++ rest) = (a, rest).
Proof.
  intros Ha Hr. induction Ha as [|c a Hc Ha IH]; cbn [app span_digits].
  - destruct rest as [|c r]; [reflexivity|]. cbn [span_digits]. rewrite Hr. reflexivity.
  - rewrite (isdig_dig c Hc), IH. reflexivity.
Qed.

Lemma take_sign_sg sg rest : signs sg ->
  (match rest with c :: _ => c <> 43 /\ c <> 45 | [] => True end) ->
  take_sign (sg ++ rest) = (sgv sg, rest).
Proof.
  intros [->|[->| ->]] Hr; cbn; try reflexivity.
  destruct rest as [|c r]; [reflexivity|]. cbn. destruct Hr as [H1 H2].
  apply Z.eqb_neq in H1, H2. rewrite H1, H2. reflexivity.
Qed.

Definition frac_text (fo : option (list Z)) : list Z := match fo with Some f => 46 :: f | None => [] end.
Definition frac_digits (fo : option (list Z)) : list Z := match fo with Some f => f | None => [] end.

Inductive expo :=
| NoExp
| Exp (c : Z) (es ed : list Z).
Definition exp_text (x : expo) : list Z := match x with NoExp => [] | Exp c es ed => c :: es ++ ed end.
Definition exp_val (x : expo) : Z := match x with NoExp => 0 | Exp _ es ed => sgv es * digits_val ed end.
Definition wf_exp (x : expo) : Prop :=
  match x with NoExp => True | Exp c es ed => (c = 101 \/ c = 69) /\ signs es /\ digits ed /\ ed <> [] end.

Definition render (sg ip : list Z) (fo : option (list Z)) (x : expo) : list Z :=
  sg ++ ip ++ frac_text fo ++ exp_text x.

Definition wf_num (sg ip : list Z) (fo : option (list Z)) (x : expo) : Prop :=
  signs sg /\ digits ip /\
  (match fo with Some f => digits f /\ f <> [] | None => ip <> [] end) /\ wf_exp x.

(* the value m * 10^e of a rendered number, as the pair (m, e) *)
Definition rvalue (sg ip : list Z) (fo : option (list Z)) (x : expo) : Z * Z :=
  (sgv sg * digits_val (ip ++ frac_digits fo), - Z.of_nat (length (frac_digits fo)) + exp_val x).

Lemma nil_b_false {A} (l : list A) : l <> [] -> nil_b l = false.
Proof. destruct l; [contradiction | reflexivity]. Qed.

Lemma css_value_render sg ip fo x : wf_num sg ip fo x ->
  css_number_value (render sg ip fo x) = Some (rvalue sg ip fo x).
Proof.
  intros [Hsg [Hip [Hfo Hx]]]. unfold css_number_value, render, rvalue.
  (* sign *)
  rewrite take_sign_sg; [|exact Hsg|].
  2:{ destruct ip as [|i ip]; cbn [app].
      - destruct fo as [f|]; [cbn; lia | contradiction].
      - inversion Hip; subst. unfold dig in *. lia. }
  assert (HexpStart : match exp_text x with c :: _ => isdig c = false | [] => True end).
  { destruct x as [|c es ed]; cbn [exp_text]; [exact I|]. destruct Hx as [[->| ->] _]; reflexivity. }
  (* integer part *)
  rewrite span_digits_app; [|exact Hip|].
  2:{ destruct fo as [f|]; cbn [frac_text app]; [reflexivity | exact HexpStart]. }
  (* fraction *)
  assert (Hfr : (match frac_text fo ++ exp_text x with
                 | c :: r' => if c =? 46 then let '(f, r'') := span_digits r' in
                                if nil_b f then ([], frac_text fo ++ exp_text x) else (f, r'')
                              else ([], frac_text fo ++ exp_text x)
                 | [] => ([], frac_text fo ++ exp_text x) end) = (frac_digits fo, exp_text x)).
  { destruct fo as [f|]; cbn [frac_text frac_digits app].
    - destruct Hfo as [Hf Hne]. rewrite Z.eqb_refl. rewrite span_digits_app by assumption.
      rewrite nil_b_false by exact Hne. reflexivity.
    - destruct x as [|c es ed]; cbn [exp_text]; [reflexivity|].
      destruct Hx as [[->| ->] _]; reflexivity. }
  rewrite Hfr.
  assert (Hnn : nil_b ip && nil_b (frac_digits fo) = false).
  { destruct fo as [f|]; cbn [frac_digits].
    - destruct Hfo as [_ Hne]. rewrite (nil_b_false f Hne). apply andb_false_r.
    - rewrite (nil_b_false ip Hfo). reflexivity. }
  rewrite Hnn.
  destruct x as [|c es ed]; cbn [exp_text exp_val].
  - f_equal. f_equal. lia.
  - destruct Hx as [Hc [Hes [Hed Hne]]].
    assert (Ec : (c =? 101) || (c =? 69) = true) by (destruct Hc as [->| ->]; reflexivity).
    rewrite Ec.
    rewrite <- (app_nil_r ed) at 1. rewrite take_sign_sg; [|exact Hes|].
    2:{ destruct ed as [|d ed]; [contradiction|]. cbn [app]. inversion Hed; subst. unfold dig in *. lia. }
    rewrite span_digits_app by (try exact Hed; exact I).
    rewrite (nil_b_false ed Hne). cbn [nil_b negb orb]. reflexivity.
Qed.

Lemma index_byte_none l : no46 l -> index_byte 46 l = None.
Proof.
  induction 1 as [|c l Hc Hl IH]; cbn [index_byte]; [reflexivity|].
  destruct (Z.eqb_spec c 46); [contradiction|]. rewrite IH. reflexivity.
Qed.

Lemma index_byte_app l r : no46 l -> index_byte 46 (l ++ 46 :: r) = Some (length l).
Proof.
  induction 1 as [|c l Hc Hl IH]; cbn [index_byte app length]; [reflexivity|].
  destruct (Z.eqb_spec c 46); [contradiction|]. rewrite IH. reflexivity.
Qed.

Lemma drop_zeros_decomp l : exists k, l = repeat 48 k ++ drop_zeros l.
Proof.
  induction l as [|c l [k IH]]; [exists O; reflexivity|].
  cbn [drop_zeros]. destruct (Z.eqb_spec c 48).
  - subst. exists (S k). cbn [repeat app]. f_equal. exact IH.
  - exists O. reflexivity.
Qed.

Lemma drop_zeros_app x c y : c <> 48 -> drop_zeros (x ++ c :: y) = drop_zeros x ++ c :: y.
Proof.
  intros Hc. induction x as [|a x IH]; cbn [app drop_zeros].
  - destruct (Z.eqb_spec c 48); [contradiction | reflexivity].
  - destruct (Z.eqb_spec a 48); [exact IH | reflexivity].
Qed.

Lemma repeat_rev {A} (a : A) k : rev (repeat a k) = repeat a k.
Proof.
  induction k as [|k IH]; [reflexivity|]. cbn [repeat rev]. rewrite IH. symmetry. apply repeat_cons.
Qed.

Lemma rev_repeat_prefix {A} (a : A) l k r : rev l = repeat a k ++ r -> l = rev r ++ repeat a k.
Proof. intros H. rewrite <- (rev_involutive l), H, rev_app_distr, repeat_rev. reflexivity. Qed.

Lemma strip_decomp l : exists k, l = strip_trailing_zeros l ++ repeat 48 k.
Proof.
  unfold strip_trailing_zeros. destruct (drop_zeros_decomp (rev l)) as [k H].
  exists k. apply rev_repeat_prefix, H.
Qed.

Lemma strip_app a f : strip_trailing_zeros (a ++ 46 :: f) = a ++ 46 :: strip_trailing_zeros f.
Proof.
  unfold strip_trailing_zeros. rewrite rev_app_distr. cbn [rev]. rewrite <- app_assoc. cbn [app].
  rewrite drop_zeros_app by lia. rewrite rev_app_distr. cbn [rev].
  rewrite rev_involutive, <- app_assoc. reflexivity.
Qed.

Lemma digits_app_inv a b : digits (a ++ b) -> digits a /\ digits b.
Proof. unfold digits. apply Forall_app. Qed.

Lemma contains_e_false l : no_e l -> contains_e l = false.
Proof.
  unfold contains_e. induction 1 as [|c l [H1 H2] Hl IH]; cbn [existsb]; [reflexivity|].
  rewrite IH. destruct (Z.eqb_spec c 101), (Z.eqb_spec c 69); try contradiction. reflexivity.
Qed.

Lemma qeq_refl v : qeq v v.
Proof. unfold qeq. reflexivity. Qed.

Lemma qeq_scale a n t e e' : 0 <= n -> 0 <= t -> e' = e + n - t -> qeq (a * 10 ^ n, e) (a * 10 ^ t, e').
Proof.
  intros Hn Ht ->. unfold qeq. cbn [fst snd].
  (* both sides are a * 10^(n + e - min) *)
  rewrite <- !Z.mul_assoc, <- !Z.pow_add_r by lia. do 2 f_equal. lia.
Qed.

Lemma qeq_trailing a k e : 0 <= k -> qeq (a * 10 ^ k, e - k) (a, e).
Proof. intros Hk. rewrite <- (Z.mul_1_r a) at 2. apply (qeq_scale a k 0); lia. Qed.

Lemma pow10_pos n : 0 < 10 ^ Z.of_nat n.
Proof. apply Z.pow_pos_nonneg; lia. Qed.

Lemma match_same {A B} (l : list A) (x : B) : match l with [] => x | _ :: _ => x end = x.
Proof. destruct l; reflexivity. Qed.

Lemma wf_frac_digits sg ip fo x : wf_num sg ip fo x -> digits (frac_digits fo).
Proof. intros [_ [_ [Hfo _]]]. destruct fo as [f|]; [apply Hfo | constructor]. Qed.

Lemma render_no_e sg ip fo : signs sg -> digits ip -> digits (frac_digits fo) ->
  contains_e (render sg ip fo NoExp) = false.
Proof.
  intros Hsg Hip Hf. apply contains_e_false. unfold render. cbn [exp_text].
  rewrite app_nil_r, app_assoc. apply Forall_app. split; [apply sign_digits_no_e; assumption|].
  destruct fo as [f|]; cbn [frac_text]; [|constructor].
  constructor; [lia | apply digits_no_e, Hf].
Qed.

Lemma rvalue_noexp sg ip fo :
  rvalue sg ip fo NoExp = (sgv sg * digits_val (ip ++ frac_digits fo), - Z.of_nat (length (frac_digits fo))).
Proof. unfold rvalue. cbn [exp_val]. rewrite Z.add_0_r. reflexivity. Qed.

Lemma qeq_frac_zeros s ip f k :
  qeq (s * digits_val (ip ++ f ++ repeat 48 k), - Z.of_nat (length (f ++ repeat 48 k)))
      (s * digits_val (ip ++ f), - Z.of_nat (length f)).
Proof.
  rewrite app_assoc, dv_app, dv_zeros, app_length, !repeat_length, Z.add_0_r, Z.mul_assoc.
  replace (- Z.of_nat (length f + k)) with (- Z.of_nat (length f) - Z.of_nat k) by lia.
  apply qeq_trailing. lia.
Qed.

(* the main case: sign, digits, dot, digits, no exponent *)
Lemma mangle_frac sg ip f : signs sg -> digits ip -> digits f ->
  exists sg' ip' fo', wf_num sg' ip' fo' NoExp /\
    fst (mangleNumber (render sg ip (Some f) NoExp)) = render sg' ip' fo' NoExp /\
    qeq (rvalue sg ip (Some f) NoExp) (rvalue sg' ip' fo' NoExp).
Proof.
  intros Hsg Hip Hf.
  unfold mangleNumber. rewrite (render_no_e sg ip (Some f)) by assumption.
  unfold render. cbn [frac_text exp_text]. rewrite !app_nil_r, app_assoc.
  rewrite index_byte_app by (apply sign_digits_no46; assumption).
  rewrite strip_app.
  destruct (strip_decomp f) as [k Hk]. set (f' := strip_trailing_zeros f) in *.
  assert (Hf' : digits f') by (rewrite Hk in Hf; apply digits_app_inv in Hf; tauto).
  assert (Hq : qeq (sgv sg * digits_val (ip ++ f), - Z.of_nat (length f))
                   (sgv sg * digits_val (ip ++ f'), - Z.of_nat (length f'))).
  { rewrite Hk. apply qeq_frac_zeros. }
  clearbody f'. clear Hk Hf.
  cbn [fst]. remember (sg ++ ip) as pre eqn:Epre.
  destruct f' as [|d0 fr].
  - (* all fractional digits were zeros: the dot goes, an empty integer part becomes 0 *)
    assert (HL : Nat.eqb (S (length pre)) (length (pre ++ [46])) = true)
      by (apply Nat.eqb_eq; rewrite app_length; cbn [length]; lia).
    rewrite HL.
    assert (HF : firstn (length pre) (pre ++ [46]) = pre)
      by (rewrite firstn_app, Nat.sub_diag, firstn_all; cbn [firstn]; apply app_nil_r).
    rewrite HF. subst pre.
    exists sg, (match ip with [] => [48] | _ => ip end), None.
    split; [|split].
    + repeat split; try assumption.
      * destruct ip; [repeat constructor; unfold dig; lia | assumption].
      * destruct ip; discriminate.
    + unfold render. cbn [frac_text exp_text]. rewrite !app_nil_r.
      destruct Hsg as [->|[->| ->]]; destruct ip as [|i1 [|i2 ip]]; cbn [app]; try reflexivity.
      inversion Hip as [|? ? Hi1 _]; subst. rewrite (dig_not_sign _ Hi1). reflexivity.
    + rewrite !rvalue_noexp. cbn [frac_digits]. rewrite app_nil_r in *.
      destruct ip; [rewrite dv_lead0|]; exact Hq.
  - (* some fractional digits remain: a lone integer digit 0 goes *)
    assert (HL : Nat.eqb (S (length pre)) (length (pre ++ 46 :: d0 :: fr)) = false)
      by (apply Nat.eqb_neq; rewrite app_length; cbn [length]; lia).
    rewrite HL. subst pre.
    assert (Hd0 : dig d0) by (inversion Hf'; assumption).
    exists sg, (match ip with [i] => if i =? 48 then [] else ip | _ => ip end), (Some (d0 :: fr)).
    split; [|split].
    + repeat split; try assumption; try discriminate.
      destruct ip as [|i [|]]; try assumption. destruct (i =? 48); [constructor | assumption].
    + unfold render. cbn [frac_text exp_text]. rewrite !app_nil_r.
      assert (Id0 : is_digit d0 = true) by exact (isdig_dig d0 Hd0).
      destruct ip as [|i1 [|i2 ip3]].
      * (* no integer digit: nothing to drop *)
        destruct Hsg as [->|[->| ->]]; destruct fr as [|? [|? ?]]; reflexivity.
      * (* one integer digit: dropped when it is 0 *)
        inversion Hip as [|? ? Hi1 _]; subst.
        destruct Hsg as [->|[->| ->]]; cbn [app];
          rewrite Id0, ?(dig_not_sign i1 Hi1);
          destruct (i1 =? 48), fr; reflexivity.
      * (* two or more integer digits: the second is not a dot *)
        inversion Hip as [|? ? Hi1 Hip']; inversion Hip' as [|? ? Hi2 _]; subst.
        destruct Hsg as [->|[->| ->]]; destruct ip3 as [|? [|? ?]]; cbn [app];
          rewrite (dig_not_dot i2 Hi2), ?(dig_not_sign i1 Hi1);
          destruct (i1 =? 48); reflexivity.
    + rewrite !rvalue_noexp. cbn [frac_digits].
      destruct ip as [|i [|]]; try exact Hq.
      destruct (Z.eqb_spec i 48); [subst; cbn [app] in *; rewrite dv_lead0 in Hq|]; exact Hq.
Qed.

(* unchanged when there is no dot, or when there is an exponent *)
Lemma mangle_nodot sg ip x : signs sg -> digits ip -> wf_exp x ->
  fst (mangleNumber (render sg ip None x)) = render sg ip None x.
Proof.
  intros Hsg Hip Hx. unfold mangleNumber, render. cbn [frac_text app].
  rewrite index_byte_none; [reflexivity|]. unfold no46. rewrite app_assoc. apply Forall_app. split.
  { apply sign_digits_no46; assumption. }
  destruct x as [|c es ed]; cbn [exp_text]; [constructor|].
  destruct Hx as [Hc [Hes [Hed _]]]. constructor; [destruct Hc; lia|].
  apply sign_digits_no46; assumption.
Qed.

Lemma contains_e_app_true a c b : (c = 101 \/ c = 69) -> contains_e (a ++ c :: b) = true.
Proof.
  intros Hc. unfold contains_e. apply existsb_exists. exists c. split; [apply in_or_app; right; left; reflexivity|].
  destruct Hc as [->| ->]; reflexivity.
Qed.

Lemma mangle_exp sg ip fo c es ed :
  (c = 101 \/ c = 69) ->
  fst (mangleNumber (render sg ip fo (Exp c es ed))) = render sg ip fo (Exp c es ed).
Proof.
  intros Hc. unfold mangleNumber. destruct (index_byte 46 _); [|reflexivity].
  unfold render. cbn [exp_text]. rewrite !app_assoc. rewrite contains_e_app_true by exact Hc. reflexivity.
Qed.

Lemma mangle_number_render sg ip fo x : wf_num sg ip fo x ->
  exists sg' ip' fo', wf_num sg' ip' fo' x /\
    fst (mangleNumber (render sg ip fo x)) = render sg' ip' fo' x /\
    qeq (rvalue sg ip fo x) (rvalue sg' ip' fo' x).
Proof.
  intros H. destruct x as [|c es ed]; [destruct fo as [f|]|].
  - destruct H as [Hsg [Hip [[Hf _] _]]]. apply mangle_frac; assumption.
  - exists sg, ip, None. split; [exact H|]. split; [|apply qeq_refl].
    destruct H as [Hsg [Hip [_ Hx]]]. apply mangle_nodot; assumption.
  - exists sg, ip, fo. split; [exact H|]. split; [|apply qeq_refl].
    destruct H as [_ [_ [_ [Hc _]]]]. apply mangle_exp, Hc.
Qed.

Theorem mangle_number_value_all : forall sg ip fo x, wf_num sg ip fo x ->
  exists v v', css_number_value (render sg ip fo x) = Some v /\
               css_number_value (fst (mangleNumber (render sg ip fo x))) = Some v' /\ qeq v v'.
Proof.
  intros sg ip fo x H. destruct (mangle_number_render sg ip fo x H) as [sg' [ip' [fo' [H' [E Hq]]]]].
  eexists. eexists. split; [apply css_value_render, H|]. rewrite E. split; [apply css_value_render, H' | exact Hq].
Qed.
