(* Duplicate-rule removal preserves the cascade winner. *)
From V Require Import Common.Base C12.Cascade C12.CascadeProofs C12.Mangle.

Section RdGeneric.
  Context {R : Type} (eqb : R -> R -> bool) (dead hashb : R -> bool).

  (* anything mapped to [] on removed elements is unaffected *)
  Lemma rd_flat_map {B} (g : R -> list B) :
    (forall r, dead r = true -> g r = []) ->
    (forall r s, eqb r s = true -> g r = []) ->
    forall rs seen, flat_map g (fst (rd eqb dead hashb rs seen)) = flat_map g rs.
  Proof.
    intros Hd He. induction rs as [|r t IH]; intros seen; [reflexivity|].
    cbn [rd]. specialize (IH seen). destruct (rd eqb dead hashb t seen) as [kept sn] eqn:E.
    cbn [fst] in IH. cbn [flat_map].
    destruct (dead r) eqn:Ed.
    - cbn [fst]. rewrite (Hd r Ed). exact IH.
    - destruct (hashb r).
      + destruct (existsb (eqb r) sn) eqn:Ex.
        * apply existsb_exists in Ex as [s [_ Hs]]. cbn [fst]. rewrite (He r s Hs). exact IH.
        * cbn [fst flat_map]. rewrite IH. reflexivity.
      + cbn [fst flat_map]. rewrite IH. reflexivity.
  Qed.

  (* x r: the strongest candidate of r.  In front of a tail T that absorbs every
     entry seen so far, the pass changes nothing, and what it has seen afterwards
     is absorbed by what it kept followed by T. *)
  Variable x : R -> option cand.
  Hypothesis Hdead : forall r, dead r = true -> x r = None.
  Hypothesis Heq : forall r s, eqb r s = true -> x r = x s.

  Lemma rd_prod : forall rs seen0 T,
    (forall s, In s seen0 -> absorbs (x s) T) ->
    join (prod x rs) T = join (prod x (fst (rd eqb dead hashb rs seen0))) T /\
    (forall s, In s (snd (rd eqb dead hashb rs seen0)) ->
       absorbs (x s) (join (prod x (fst (rd eqb dead hashb rs seen0))) T)).
  Proof.
    induction rs as [|r t IH]; intros seen0 T Hs0.
    - cbn [rd fst snd prod fold_right]. rewrite join_none_l. split; [reflexivity|]. intros s Hs. apply Hs0. exact Hs.
    - cbn [rd]. destruct (IH seen0 T Hs0) as [IH1 IH2].
      destruct (rd eqb dead hashb t seen0) as [kept sn] eqn:E. cbn [fst snd] in *.
      change (prod x (r :: t)) with (join (x r) (prod x t)).
      rewrite join_assoc, IH1.
      destruct (dead r) eqn:Ed.
      + cbn [fst snd]. rewrite (Hdead r Ed), join_none_l. split; [reflexivity | exact IH2].
      + destruct (hashb r).
        * destruct (existsb (eqb r) sn) eqn:Ex.
          -- apply existsb_exists in Ex as [s [Hin Hs]]. cbn [fst snd].
             rewrite (Heq r s Hs). split; [apply IH2; exact Hin | exact IH2].
          -- cbn [fst snd]. change (prod x (r :: kept)) with (join (x r) (prod x kept)).
             rewrite join_assoc. split; [reflexivity|].
             intros s [<-|Hin]; [apply absorbs_self | apply absorbs_step, IH2, Hin].
        * cbn [fst snd]. change (prod x (r :: kept)) with (join (x r) (prod x kept)).
          rewrite join_assoc. split; [reflexivity|].
          intros s Hin. apply absorbs_step, IH2, Hin.
  Qed.

  Corollary rd_prod_nil rs : prod x (fst (rd eqb dead hashb rs [])) = prod x rs.
  Proof.
    destruct (rd_prod rs [] None) as [H _]; [intros s []|]. rewrite !join_none_r in H. symmetry. exact H.
  Qed.
End RdGeneric.

(* several calls with shared entries, last list first (the linker's loop over
   files) equal one call on the concatenation *)
Lemma rd_app {R} (eqb : R -> R -> bool) dead hashb (a b seen : list R) :
  rd eqb dead hashb (a ++ b) seen =
  let '(kb, sb) := rd eqb dead hashb b seen in
  let '(ka, sa) := rd eqb dead hashb a sb in (ka ++ kb, sa).
Proof.
  induction a as [|r a IH]; cbn [app rd].
  - destruct (rd eqb dead hashb b seen). reflexivity.
  - rewrite IH. destruct (rd eqb dead hashb b seen) as [kb sb].
    destruct (rd eqb dead hashb a sb) as [ka sa].
    destruct (dead r); [reflexivity|]. destruct (hashb r); [|reflexivity].
    destruct (existsb (eqb r) sa); reflexivity.
Qed.

Section RuleInd.
  Variable P : rule -> Prop.
  Hypothesis HSel : forall s d, P (RSel s d).
  Hypothesis HMedia : forall q b, Forall P b -> P (RMedia q b).
  Hypothesis HCond : forall t p b, Forall P b -> P (RCond t p b).
  Hypothesis HLayer : forall n a b, Forall P b -> P (RLayer n a b).
  Hypothesis HOpaque : forall k i, P (ROpaque k i).
  Hypothesis HImport : forall i, P (RImport i).
  Hypothesis HComment : forall i, P (RComment i).
  Fixpoint rule_ind' (r : rule) : P r :=
    let go := fix go (l : list rule) : Forall P l :=
      match l with [] => Forall_nil P | y :: t => Forall_cons y (rule_ind' y) (go t) end in
    match r with
    | RSel s d => HSel s d
    | RMedia q b => HMedia q b (go b)
    | RCond t p b => HCond t p b (go b)
    | RLayer n a b => HLayer n a b (go b)
    | ROpaque k i => HOpaque k i
    | RImport i => HImport i
    | RComment i => HComment i
    end.
End RuleInd.

Fixpoint no_layer (r : rule) : bool :=
  match r with
  | RLayer _ _ _ => false
  | RMedia _ b => forallb no_layer b
  | RCond _ _ b => forallb no_layer b
  | _ => true
  end.

Lemma leqb_eq {A} (eqb : A -> A -> bool) : (forall x y, eqb x y = true -> x = y) ->
  forall a b, leqb eqb a b = true -> a = b.
Proof.
  intros E. induction a as [|x a IH]; intros [|y b]; simpl; intros H; try discriminate; [reflexivity|].
  apply andb_true_iff in H as [H1 H2]. f_equal; [apply E; exact H1 | apply IH; exact H2].
Qed.

Lemma sel_eqb_eq a b : sel_eqb a b = true -> a = b.
Proof.
  destruct a, b. unfold sel_eqb. cbn. intros H.
  apply andb_true_iff in H as [H H3]. apply andb_true_iff in H as [H1 H2].
  apply Z.eqb_eq in H1. apply eqb_prop in H2. apply eqb_prop in H3. congruence.
Qed.

Lemma decl_eqb_eq a b : decl_eqb a b = true -> a = b.
Proof.
  destruct a, b. unfold decl_eqb. cbn. intros H.
  apply andb_true_iff in H as [H H4]. apply andb_true_iff in H as [H H3]. apply andb_true_iff in H as [H1 H2].
  apply Z.eqb_eq in H1, H2, H4. apply eqb_prop in H3. congruence.
Qed.

Lemma leqb_decl a b : leqb decl_eqb a b = true -> a = b.
Proof. apply leqb_eq, decl_eqb_eq. Qed.

Definition eqb_sound (a : rule) : Prop := forall b, rule_eqb a b = true -> a = b /\ no_layer a = true.

Lemma leqb_rule_true a : Forall eqb_sound a ->
  forall b, leqb rule_eqb a b = true -> a = b /\ forallb no_layer a = true.
Proof.
  induction 1 as [|x a Hx Ha IH]; intros [|y b] H; cbn [leqb] in H; try discriminate; [split; reflexivity|].
  apply andb_true_iff in H as [H1 H2]. destruct (Hx y H1) as [-> Nx], (IH b H2) as [-> Na].
  cbn [forallb]. rewrite Nx, Na. split; reflexivity.
Qed.

(* Equal is sound (it implies Leibniz equality) and never holds of anything that
   contains an @layer rule *)
Lemma rule_eqb_true : forall a, eqb_sound a.
Proof.
  induction a as [s d|q body IH|t p body IH|n aid body IH|k i|i|i] using rule_ind';
    intros b H; destruct b; cbn [rule_eqb] in H; try discriminate.
  - apply andb_true_iff in H as [H1 H2]. apply (leqb_eq _ sel_eqb_eq) in H1. apply leqb_decl in H2.
    subst. split; reflexivity.
  - apply andb_true_iff in H as [H1 H2]. apply Z.eqb_eq in H1. subst.
    destruct (leqb_rule_true _ IH _ H2) as [-> N]. split; [reflexivity | exact N].
  - apply andb_true_iff in H as [H H3]. apply andb_true_iff in H as [H1 H2].
    apply Z.eqb_eq in H1, H2. subst.
    destruct (leqb_rule_true _ IH _ H3) as [-> N]. split; [reflexivity | exact N].
  - apply andb_true_iff in H as [H1 H2]. apply Z.eqb_eq in H1, H2. subst. split; reflexivity.
  - apply Z.eqb_eq in H. subst. split; reflexivity.
Qed.

Lemma no_layer_no_stmt : forall r, no_layer r = true ->
  forall conds layer, Forall (fun it => i_stmt it = false) (flatten conds layer r).
Proof.
  induction r as [s d|q body IH|t p body IH|n aid body IH|k i|i|i] using rule_ind';
    intros H conds layer; cbn [flatten]; try (constructor; fail).
  - repeat constructor.
  - cbn [no_layer] in H. rewrite forallb_forall in H. rewrite Forall_forall in IH.
    apply Forall_flat_map, Forall_forall. intros r Hr. apply IH; auto.
  - cbn [no_layer] in H. rewrite forallb_forall in H. rewrite Forall_forall in IH.
    apply Forall_flat_map, Forall_forall. intros r Hr. apply IH; auto.
  - discriminate.
Qed.

Lemma filter_none {A} (f g : A -> bool) l : Forall (fun x => f x = false) l -> filter (fun x => f x && g x) l = [].
Proof.
  induction 1 as [|x l Hx Hl IH]; simpl; [reflexivity|]. rewrite Hx. exact IH.
Qed.

Section Dedupe.
  Variable w : world.
  (* Selectors 4: an empty :is() / :where() matches nothing *)
  Hypothesis dead_matches_nothing : forall s e, s_dead s = true -> matches w (s_id s) e = false.

  Lemma best_spec_none sels e :
    (forall s, In s sels -> matches w s e = false) -> best_spec w sels e = None.
  Proof.
    induction sels as [|s sels IH]; intros H; [reflexivity|].
    rewrite best_spec_cons, IH by (intros s' Hs'; apply H; right; exact Hs').
    unfold spec_if_match. rewrite (H s (or_introl eq_refl)). reflexivity.
  Qed.

  Definition stmt_active (it : item) : bool := i_stmt it && conds_hold w (i_conds it).

  (* Removing duplicate rules (keeping the last copy) and rules whose selectors
     are all dead, anywhere in a style sheet, does not change any winner. *)
  Theorem dedupe_keeps_winner_all : forall pre conds layer rs post e p,
    winner w (pre ++ flatten_list conds layer (remove_dead rs) ++ post) e p =
    winner w (pre ++ flatten_list conds layer rs ++ post) e p.
  Proof.
    intros pre conds layer rs post. revert pre post. apply equiv_of_same.
    - (* a removed rule contributes no layer statement *)
      unfold declared, flatten_list, remove_dead. rewrite !filter_flat_map. f_equal. apply rd_flat_map.
      + intros r Hd. destruct r; cbn in Hd; try discriminate. reflexivity.
      + intros r s He. apply rule_eqb_true in He as [_ Hn].
        apply (filter_none i_stmt (fun it => conds_hold w (i_conds it))), no_layer_no_stmt, Hn.
    - intros D e p. unfold cands, flatten_list, remove_dead.
      rewrite !flat_map_flat_map, !best_flat_map. apply rd_prod_nil.
      + intros r Hd. destruct r as [sels decls| | | | | |]; cbn in Hd; try discriminate.
        cbn [flatten flat_map]. rewrite app_nil_r. unfold item_cands. cbn [i_sels].
        destruct (item_active w _); [|reflexivity].
        rewrite best_spec_none; [reflexivity|].
        intros s Hs. apply in_map_iff in Hs as [ms [<- Hms]].
        apply dead_matches_nothing. rewrite forallb_forall in Hd. apply Hd. exact Hms.
      + intros r s He. apply rule_eqb_true in He as [-> _]. reflexivity.
  Qed.
End Dedupe.

(* the same pass over the declarations of one style rule *)
Theorem dedupe_decls_keeps_winner_all : forall w pre stmt conds layer sels ds post e p,
  winner w (pre ++ [mkItem stmt conds layer sels (remove_dead_decls ds)] ++ post) e p =
  winner w (pre ++ [mkItem stmt conds layer sels ds] ++ post) e p.
Proof.
  intros w pre stmt conds layer sels ds post. revert pre post. apply equiv_of_same.
  { rewrite !declared_one. reflexivity. }
  intros D e p. rewrite !cands_one. unfold item_cands. cbn [i_sels i_decls i_layer].
  change (item_active w (mkItem stmt conds layer sels (remove_dead_decls ds)))
    with (item_active w (mkItem stmt conds layer sels ds)).
  destruct (item_active w _); [|reflexivity]. destruct (best_spec w sels e) as [sp|]; [|reflexivity].
  rewrite !map_filter_flat_map, !best_flat_map. unfold remove_dead_decls.
  apply rd_prod_nil.
  - discriminate.
  - intros r s He. apply decl_eqb_eq in He. subst. reflexivity.
Qed.
