(* The box instance of the layer semantics of GenSem. *)
From V Require Import Common.Base C12.Mangle C12.BoxTracker C12.BoxSpec C12.BoxLemmas C12.BoxTokens C12.GenSem.

Lemma lastset_ext f g n : (forall j, (j < n)%nat -> f j = g j) -> lastset f n = lastset g n.
Proof. exact (glastset_ext sval f g n). Qed.

Lemma lastset_at f n j v : (j < n)%nat -> f j = Some v ->
  (forall j', (j < j')%nat -> (j' < n)%nat -> f j' = None) -> lastset f n = Some v.
Proof. exact (glastset_at sval f n j v). Qed.

Section Sem.
  Variable aa : bool.

  Lemma eff_none e imp s d : sets e aa d s = None -> eff e aa imp s d = None.
  Proof. exact (geff_none sval (fun e => sets e aa) e imp s d). Qed.

  Lemma layer_app e imp s l1 l2 : layer e aa imp s (l1 ++ l2) =
    match layer e aa imp s l2 with Some v => Some v | None => layer e aa imp s l1 end.
  Proof. exact (glayer_app sval (fun e => sets e aa) e imp s l1 l2). Qed.

  Lemma layer_one e imp s d : layer e aa imp s [d] = eff e aa imp s d.
  Proof. exact (glayer_one sval (fun e => sets e aa) e imp s d). Qed.

  (* = gsem_eq sval (fun e => sets e aa), by unfolding *)
  Definition sem_eq (rs rs' : rules) : Prop :=
    length rs' = length rs /\
    (forall e imp s, layer e aa imp s (live rs') = layer e aa imp s (live rs)) /\
    filter is_other (live rs') = filter is_other (live rs).

  (* replacing one entry by a declaration with the same effect *)
  Lemma replace_preserves rs i d d' :
    nth_error rs i = Some (Some d) ->
    (forall e s, sets e aa d' s = sets e aa d s) -> b_imp d' = b_imp d ->
    is_other d = false -> is_other d' = false ->
    sem_eq rs (set_nth i (Some d') rs).
  Proof. exact (greplace_preserves sval (fun e => sets e aa) (fun e => not_affects_sets e aa) rs i d d'). Qed.
End Sem.
