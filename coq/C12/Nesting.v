(* C12 model, part 8: internal/css_parser/css_nesting.go, the lowering of a
   nested style rule's selectors (lowerNestingInRuleWithContext pass 1 and the
   ":is()-available / single parent" branch of pass 2,
   substituteAmpersandsInCompoundSelector, multipleComplexSelectorsToSingleComplexSelector),
   together with a selector semantics over an abstract element structure.
   Tied to the Go code by nest_cases.

   Fragment: type selectors, classes, :is(...) / :not(...) with selector-list
   arguments (nested arbitrarily), the four combinators, at most one "&" per
   compound selector, "&" anywhere (also inside pseudo-class arguments).

   comb: 0 = none (first compound) or descendant, 1 = ">", 2 = "+", 3 = "~".

   The Go code re-runs the substitution over the sub-selectors it has just
   inserted from the parent; those contain no "&" any more (the parent was
   substituted before), so that pass rebuilds what it reads.  The model only
   recurses into the nested rule's own pseudo-class arguments.  (The pointer
   sharing this involves matters only in the cross-product branch: C12-N.) *)
From V Require Import Common.Base.

Inductive compound := Cp (comb : Z) (amp : bool) (ty : option Z) (subs : sublist)
with sublist := SNil | SClass (id : Z) (rest : sublist) | SPc (neg : bool) (args : sellist) (rest : sublist)
with complex := XNil | XCons (c : compound) (rest : complex)
with sellist := LNil | LCons (x : complex) (rest : sellist).

Scheme compound_mut := Induction for compound Sort Prop
with sublist_mut := Induction for sublist Sort Prop
with complex_mut := Induction for complex Sort Prop
with sellist_mut := Induction for sellist Sort Prop.
Combined Scheme sel_mutind from compound_mut, sublist_mut, complex_mut, sellist_mut.

Definition c_comb (c : compound) : Z := match c with Cp k _ _ _ => k end.
Definition c_ty (c : compound) : option Z := match c with Cp _ _ t _ => t end.
Definition c_subs (c : compound) : sublist := match c with Cp _ _ _ s => s end.
Definition clear_comb (c : compound) : compound := match c with Cp _ a t s => Cp 0 a t s end.

Fixpoint sapp (a b : sublist) : sublist :=
  match a with SNil => b | SClass i r => SClass i (sapp r b) | SPc n l r => SPc n l (sapp r b) end.
Fixpoint xapp (a b : complex) : complex := match a with XNil => b | XCons c r => XCons c (xapp r b) end.
Definition xsnoc (a : complex) (c : compound) : complex := xapp a (XCons c XNil).
Fixpoint xlen (a : complex) : nat := match a with XNil => O | XCons _ r => S (xlen r) end.
Definition xnil (a : complex) : bool := match a with XNil => true | _ => false end.
(* all but the last compound, and the last compound *)
Fixpoint xsplit (a : complex) : option (complex * compound) :=
  match a with
  | XNil => None
  | XCons c r => match xsplit r with None => Some (XNil, c) | Some (p, l) => Some (XCons c p, l) end
  end.
Definition clear_first (a : complex) : complex := match a with XNil => XNil | XCons c r => XCons (clear_comb c) r end.
Definition first_comb (a : complex) : Z := match a with XNil => 0 | XCons c _ => c_comb c end.

(* the substitution *)
Section Subst.
  Variable repl : complex.      (* what "&" is replaced with *)

  Definition is_type (u : Z) : sublist := SPc false (LCons (XCons (Cp 0 false (Some u) SNil) XNil) LNil) SNil.

  (* "Insert the type selector" / "Insert the subclass selectors" *)
  Definition merge_into (k : Z) (single : compound) (sty : option Z) (ssubs : sublist) : compound :=
    match c_ty single with
    | Some t => Cp k false (Some t) (sapp (match sty with Some u => is_type u | None => SNil end) (sapp (c_subs single) ssubs))
    | None => Cp k false sty (sapp (c_subs single) ssubs)
    end.

  (* one "&" of a compound selector with combinator scomb, type sty, (already substituted) sub-selectors ssubs *)
  Definition subst_amp (strip : bool) (scomb : Z) (sty : option Z) (ssubs : sublist) (results : complex) : complex :=
    let n := xlen repl in
    match xsplit repl with
    | None => results
    | Some (prefix, single) =>
      if (scomb =? 0) && ((n =? 1)%nat || xnil results) then
        let prefix' := if strip && (1 <? n)%nat then clear_first prefix else prefix in
        let single' := if strip && (n =? 1)%nat then clear_comb single else single in
        xsnoc (xapp results prefix') (merge_into (c_comb single') single' sty ssubs)
      else if (n =? 1)%nat then
        xsnoc results (merge_into scomb single sty ssubs)
      else
        xsnoc results (merge_into scomb (Cp 0 false None (SPc false (LCons repl LNil) SNil)) sty ssubs)
    end.

  Fixpoint sb_c (strip : bool) (c : compound) (results : complex) {struct c} : complex :=
    match c with
    | Cp scomb samp sty ssubs =>
      let ssubs' := sb_s ssubs in
      if samp then subst_amp strip scomb sty ssubs' results
      else xsnoc results (Cp scomb false sty ssubs')
    end
  with sb_s (s : sublist) {struct s} : sublist :=
    match s with
    | SNil => SNil
    | SClass i r => SClass i (sb_s r)
    | SPc n l r => SPc n (sb_l l) (sb_s r)
    end
  with sb_x (strip : bool) (cx : complex) (results : complex) {struct cx} : complex :=
    match cx with
    | XNil => results
    | XCons c r => sb_x strip r (sb_c strip c results)
    end
  with sb_l (l : sellist) {struct l} : sellist :=
    match l with
    | LNil => LNil
    | LCons cx r => LCons (sb_x true cx XNil) (sb_l r)
    end.
End Subst.

(* does the selector contain "&" anywhere *)
Fixpoint has_amp_c (c : compound) : bool := match c with Cp _ a _ s => a || has_amp_s s end
with has_amp_s (s : sublist) : bool :=
  match s with SNil => false | SClass _ r => has_amp_s r | SPc _ l r => has_amp_l l || has_amp_s r end
with has_amp_x (cx : complex) : bool := match cx with XNil => false | XCons c r => has_amp_c c || has_amp_x r end
with has_amp_l (l : sellist) : bool := match l with LNil => false | LCons cx r => has_amp_x cx || has_amp_l r end.

Fixpoint llen (l : sellist) : nat := match l with LNil => O | LCons _ r => S (llen r) end.

(* ComplexSelector.IsRelative, then "Inject the implicit & now" *)
Definition is_relative (cx : complex) : bool := negb ((first_comb cx =? 0) && has_amp_x cx).
Definition inject_amp (cx : complex) : complex :=
  if is_relative cx then XCons (Cp 0 true None SNil) cx else cx.

(* multipleComplexSelectorsToSingleComplexSelector (parents without leading combinators) *)
Definition parents_single (parents : sellist) : complex :=
  match parents with
  | LCons p LNil => p
  | _ => XCons (Cp 0 false None (SPc false parents SNil)) XNil
  end.

(* pass 1 + pass 2 (":is" usable, or at most one parent) for one selector of the nested rule *)
Definition lower_is (parents : sellist) (cx : complex) : complex :=
  sb_x (parents_single parents) false (inject_amp cx) XNil.

(* semantics: which elements a selector matches.  An element structure has a
   finite number of elements 0..size-1, says which element has which type and
   class, and, for every combinator k and set S of elements, which elements x
   have an element of S in relation k (ancestor, parent, previous sibling,
   earlier sibling).  Sets are tabulated as lists of booleans. *)
Record dom := mkDom { size : nat; d_ty : nat -> Z -> bool; d_cls : nat -> Z -> bool; d_rel : Z -> list bool -> nat -> bool }.

Definition mem (S : list bool) (x : nat) : bool := nth x S false.
Definition tab (n : nat) (f : nat -> bool) : list bool := map f (seq 0 n).

Section Sem.
  Variable D : dom.
  Variable A : list bool.       (* the elements "&" stands for *)

  Definition relpart (L : option (list bool)) (k : Z) (x : nat) : bool :=
    match L with None => true | Some S0 => d_rel D k S0 x end.

  (* ev cx L: the elements matched by "left cx" where L is the set matched by the compounds to the left (None: nothing to the left) *)
  Fixpoint ok_c (c : compound) (x : nat) {struct c} : bool :=
    match c with
    | Cp _ a t s => (if a then mem A x else true) && (match t with Some u => d_ty D x u | None => true end) && ok_s s x
    end
  with ok_s (s : sublist) (x : nat) {struct s} : bool :=
    match s with
    | SNil => true
    | SClass i r => d_cls D x i && ok_s r x
    | SPc n l r => xorb n (ok_l l x) && ok_s r x
    end
  with ev (cx : complex) (L : option (list bool)) {struct cx} : option (list bool) :=
    match cx with
    | XNil => L
    | XCons c r => ev r (Some (tab (size D) (fun x => ok_c c x && relpart L (c_comb c) x)))
    end
  with ok_l (l : sellist) (x : nat) {struct l} : bool :=
    match l with
    | LNil => false
    | LCons cx r => (match ev cx None with Some S0 => mem S0 x | None => false end) || ok_l r x
    end.

  Definition matches (cx : complex) (x : nat) : bool :=
    match ev cx None with Some S0 => mem S0 x | None => false end.
End Sem.

(* a concrete element structure: a forest with sibling order *)
Record node := mkN { n_ty : Z; n_cls : list Z; n_par : option nat; n_prev : option nat }.
Fixpoint chain (d : list node) (next : node -> option nat) (fuel : nat) (x : nat) : list nat :=
  match fuel with
  | O => []
  | S f => match nth_error d x with
           | Some nd => match next nd with Some y => y :: chain d next f y | None => [] end
           | None => []
           end
  end.
Definition tree_dom (d : list node) : dom :=
  mkDom (length d)
    (fun x u => match nth_error d x with Some nd => n_ty nd =? u | None => false end)
    (fun x i => match nth_error d x with Some nd => existsb (Z.eqb i) (n_cls nd) | None => false end)
    (fun k S0 x =>
       let one := fun next => match chain d next 1 x with y :: _ => mem S0 y | [] => false end in
       let all := fun next => existsb (mem S0) (chain d next (length d) x) in
       if k =? 1 then one n_par else if k =? 2 then one n_prev else if k =? 3 then all n_prev else all n_par).

(* pass 2 without :is() and with several parents: the cross product.
   The Go loop substitutes, for every index vector (one dimension per "&"
   met while substituting; the dimensions are discovered during the first
   round, in which every index is 0), every "&" of every selector of the
   nested rule by the parent selector the vector picks.  The pseudo-class
   nodes of the nested rule are shared between the rounds and the substitution
   writes its result back into them, so after the first round the "&" inside
   :is()/:not() arguments are gone: they stay replaced by the FIRST parent in
   every later round, while their dimensions remain (duplicated selectors).
   This is modelled literally (freeze_x). *)
Fixpoint l2l (l : sellist) : list complex := match l with LNil => [] | LCons x r => x :: l2l r end.

Fixpoint count_amp_c (c : compound) : nat := match c with Cp _ a _ s => ((if a then 1 else 0) + count_amp_s s)%nat end
with count_amp_s (s : sublist) : nat :=
  match s with SNil => O | SClass _ r => count_amp_s r | SPc _ l r => (count_amp_l l + count_amp_s r)%nat end
with count_amp_x (cx : complex) : nat := match cx with XNil => O | XCons c r => (count_amp_c c + count_amp_x r)%nat end
with count_amp_l (l : sellist) : nat := match l with LNil => O | LCons cx r => (count_amp_x cx + count_amp_l r)%nat end.

Fixpoint freeze_x (p0 : complex) (cx : complex) : complex :=
  match cx with
  | XNil => XNil
  | XCons (Cp k a t s) r => XCons (Cp k a t (sb_s p0 s)) (freeze_x p0 r)
  end.

Fixpoint expand_x (parents : list complex) (v : list nat) (cx : complex) (results : complex) : complex :=
  match cx with
  | XNil => results
  | XCons (Cp k a t s) r =>
    if a then
      match v with
      | i :: v' => expand_x parents v' r (subst_amp (nth i parents XNil) false k t s results)
      | [] => expand_x parents [] r (subst_amp (nth O parents XNil) false k t s results)
      end
    else expand_x parents v r (xsnoc results (Cp k false t s))
  end.

(* the index vectors in the order of the "addition with carry" (last dimension fastest) *)
Fixpoint vectors (np d : nat) : list (list nat) :=
  match d with
  | O => [[]]
  | S d' => flat_map (fun i => map (cons i) (vectors np d')) (seq 0 np)
  end.

Definition lower_expand (parents child : sellist) : list complex :=
  let ps := l2l parents in
  let inj := map inject_amp (l2l child) in
  let d := fold_left Nat.max (map count_amp_x inj) O in
  let ch := map (freeze_x (nth O ps XNil)) inj in
  flat_map (fun v => map (fun cx => expand_x ps v cx XNil) ch) (vectors (length ps) d).

(* specificity (ids, classes, types); :is()/:not() count as their most specific argument *)
Definition spec3 := (nat * nat * nat)%type.
Definition spec_add (a b : spec3) : spec3 := let '(a1, a2, a3) := a in let '(b1, b2, b3) := b in ((a1 + b1)%nat, (a2 + b2)%nat, (a3 + b3)%nat).
Definition spec_ltb (a b : spec3) : bool :=
  let '(a1, a2, a3) := a in let '(b1, b2, b3) := b in
  (a1 <? b1)%nat || ((a1 =? b1)%nat && ((a2 <? b2)%nat || ((a2 =? b2)%nat && (a3 <? b3)%nat))).
Definition spec_max (a b : spec3) : spec3 := if spec_ltb a b then b else a.
Fixpoint spec_c (c : compound) : spec3 := match c with Cp _ _ t s => spec_add (match t with Some _ => (O, O, 1%nat) | None => (O, O, O) end) (spec_s s) end
with spec_s (s : sublist) : spec3 :=
  match s with SNil => (O, O, O) | SClass _ r => spec_add (O, 1%nat, O) (spec_s r) | SPc _ l r => spec_add (spec_l l) (spec_s r) end
with spec_x (cx : complex) : spec3 := match cx with XNil => (O, O, O) | XCons c r => spec_add (spec_c c) (spec_x r) end
with spec_l (l : sellist) : spec3 := match l with LNil => (O, O, O) | LCons cx r => spec_max (spec_x cx) (spec_l r) end.
