(* shiftDot multiplies the exact value by 10^offset, for every number without
   exponent (it refuses numbers with an exponent). *)
From V Require Import Common.Base C12.Text C12.NumberCss C12.NumberSpec C12.NumberProofs.

Lemma lead_loop_spec : forall D dot, exists j,
  D = repeat 48 j ++ fst (lead_loop D dot) /\ snd (lead_loop D dot) = dot - Z.of_nat j.
Proof.
  induction D as [|x D IH]; intros dot; cbn [lead_loop].
  - exists O. cbn. split; [reflexivity | lia].
  - destruct ((0 <? dot) && (x =? 48)) eqn:E.
    + apply andb_true_iff in E as [_ E]. apply Z.eqb_eq in E. subst x.
      destruct (IH (dot - 1)) as [j [H1 H2]]. exists (S j). cbn [repeat app]. split; [f_equal; exact H1 | lia].
    + exists O. cbn. split; [reflexivity | lia].
Qed.

Lemma trail_loop_spec : forall R dot, exists t, R = repeat 48 t ++ trail_loop R dot.
Proof.
  induction R as [|x R IH]; intros dot; cbn [trail_loop].
  - exists O. reflexivity.
  - destruct ((dot <? Z.of_nat (length (x :: R))) && (x =? 48)) eqn:E.
    + apply andb_true_iff in E as [_ E]. apply Z.eqb_eq in E. subst x.
      destruct (IH dot) as [t H]. exists (S t). cbn [repeat app]. f_equal. exact H.
    + exists O. reflexivity.
Qed.

Lemma dv_lead_zeros j D : digits_val (repeat 48 j ++ D) = digits_val D.
Proof. rewrite dv_app, dv_zeros. lia. Qed.

Lemma digits_zeros n : digits (repeat 48 n).
Proof. induction n; constructor; [unfold dig; lia | assumption]. Qed.

Lemma sign_split sg body : signs sg ->
  (match body with c :: _ => is_sign c = false | [] => True end) ->
  (match sg ++ body with
   | c :: r => if is_sign c then ([c], r) else ([], sg ++ body)
   | [] => ([], [])
   end) = (sg, body).
Proof.
  intros [->|[->| ->]] Hb; cbn [app]; try reflexivity.
  destruct body as [|c r]; [reflexivity|]. rewrite Hb. reflexivity.
Qed.

Lemma dot_removal ip fo : digits ip ->
  (match index_byte 46 (ip ++ frac_text fo) with
   | None => (Z.of_nat (length (ip ++ frac_text fo)), ip ++ frac_text fo)
   | Some d => (Z.of_nat d, firstn d (ip ++ frac_text fo) ++ skipn (S d) (ip ++ frac_text fo))
   end) = (Z.of_nat (length ip), ip ++ frac_digits fo).
Proof.
  intros Hip. pose proof (digits_no46 ip Hip) as H46.
  destruct fo as [f|]; cbn [frac_text frac_digits].
  - rewrite index_byte_app by exact H46.
    rewrite firstn_app, Nat.sub_diag, firstn_all. cbn [firstn]. rewrite app_nil_r.
    replace (S (length ip)) with (length ip + 1)%nat by lia.
    rewrite skipn_app. rewrite skipn_all2 by lia.
    replace (length ip + 1 - length ip)%nat with 1%nat by lia. reflexivity.
  - rewrite !app_nil_r. rewrite index_byte_none by exact H46. reflexivity.
Qed.

(* the zeros appended when the dot moves past the last digit; an all-zero
   number, of which no digit is left, keeps one *)
Lemma pad_zeros_spec D n : digits D -> 0 <= n ->
  let tz := if nil_l D && (n =? 0) then [48] else zeros n in
  digits tz /\ digits_val (D ++ tz) = digits_val D * 10 ^ n /\ D ++ tz <> [].
Proof.
  intros HD Hn. destruct (nil_l D && (n =? 0)) eqn:En; cbv zeta.
  - apply andb_true_iff in En as [E1 E2]. destruct D; [|discriminate]. apply Z.eqb_eq in E2. rewrite E2.
    repeat split; [repeat constructor; unfold dig; lia | discriminate].
  - unfold zeros. repeat split.
    + apply digits_zeros.
    + rewrite dv_app, dv_zeros, repeat_length. rewrite Z2Nat.id by lia. lia.
    + destruct D as [|d D']; [|discriminate]. cbn [nil_l andb] in En.
      apply Z.eqb_neq in En. cbn [app]. destruct (Z.to_nat n) eqn:EN; [lia | discriminate].
Qed.

Lemma shift_dot_render sg ip fo k : wf_num sg ip fo NoExp ->
  exists ip' fo', wf_num sg ip' fo' NoExp /\
    shiftDot (render sg ip fo NoExp) k = Some (render sg ip' fo' NoExp) /\
    qeq (rvalue sg ip' fo' NoExp)
        (sgv sg * digits_val (ip ++ frac_digits fo), - Z.of_nat (length (frac_digits fo)) + k).
Proof.
  intros Hwf. pose proof (wf_frac_digits sg ip fo NoExp Hwf) as Hf.
  destruct Hwf as [Hsg [Hip [Hfo _]]].
  unfold shiftDot. rewrite render_no_e by assumption. unfold render. cbn [exp_text]. rewrite app_nil_r.
  rewrite sign_split; [|exact Hsg|].
  2:{ destruct ip as [|i ip]; cbn [app].
      - destruct fo as [f|]; [reflexivity | contradiction].
      - inversion Hip; subst. apply dig_not_sign. assumption. }
  rewrite dot_removal by exact Hip.
  set (D := ip ++ frac_digits fo).
  assert (HD : digits D) by (apply Forall_app; split; assumption).
  set (dot := Z.of_nat (length ip) + k).
  destruct (lead_loop_spec D dot) as [j [HL1 HL2]].
  destruct (lead_loop D dot) as [D1 dot1] eqn:EL. cbn [fst snd] in HL1, HL2.
  assert (HD1 : digits D1) by (rewrite HL1 in HD; apply digits_app_inv in HD; tauto).
  destruct (trail_loop_spec (rev D1) dot1) as [t HT].
  set (D2 := rev (trail_loop (rev D1) dot1)).
  assert (HD12 : D1 = D2 ++ repeat 48 t) by (apply rev_repeat_prefix, HT).
  assert (HD2 : digits D2) by (rewrite HD12 in HD1; apply digits_app_inv in HD1; tauto).
  (* the value in terms of D2 *)
  set (a := sgv sg * digits_val D2).
  assert (Hval : sgv sg * digits_val D = a * 10 ^ Z.of_nat t).
  { unfold a. rewrite HL1, dv_lead_zeros, HD12, dv_app, dv_zeros, repeat_length. lia. }
  assert (Hexp : - Z.of_nat (length (frac_digits fo)) + k = dot1 - Z.of_nat (length D2) - Z.of_nat t).
  { assert (Z.of_nat (length D) = Z.of_nat (length ip) + Z.of_nat (length (frac_digits fo)))
      by (unfold D; rewrite app_length; lia).
    assert (Z.of_nat (length D) = Z.of_nat j + Z.of_nat (length D1))
      by (rewrite HL1 at 1; rewrite app_length, repeat_length; lia).
    assert (Z.of_nat (length D1) = Z.of_nat (length D2) + Z.of_nat t)
      by (rewrite HD12 at 1; rewrite app_length, repeat_length; lia).
    unfold dot in HL2. lia. }
  rewrite Hval, Hexp.
  destruct (Z.of_nat (length D2) <=? dot1) eqn:Ecmp.
  - (* no fractional part in the result *)
    apply Z.leb_le in Ecmp. set (n := dot1 - Z.of_nat (length D2)) in *.
    destruct (pad_zeros_spec D2 n HD2 ltac:(unfold n; lia)) as [Htz1 [Htz2 Htz3]].
    set (tz := if nil_l D2 && (n =? 0) then [48] else zeros n) in *.
    exists (D2 ++ tz), None. split; [|split].
    + repeat split; try assumption. apply Forall_app. split; assumption.
    + unfold render. cbn [frac_text exp_text]. rewrite !app_nil_r. reflexivity.
    + unfold rvalue. cbn [frac_digits exp_val length]. rewrite app_nil_r, Htz2, Z.mul_assoc.
      apply qeq_scale; unfold n; lia.
  - (* a fractional part remains *)
    apply Z.leb_gt in Ecmp.
    destruct (dot1 <? 0) eqn:Eneg.
    + apply Z.ltb_lt in Eneg.
      exists [], (Some (zeros (- dot1) ++ D2)). split; [|split].
      * repeat split; try assumption; try constructor.
        -- apply Forall_app. split; [apply digits_zeros | exact HD2].
        -- unfold zeros. destruct (Z.to_nat (- dot1)) eqn:EN; [lia | discriminate].
      * unfold render. cbn [frac_text exp_text Z.to_nat firstn skipn app]. rewrite !app_nil_r. reflexivity.
      * unfold rvalue. cbn [frac_digits exp_val app]. unfold zeros. rewrite dv_lead_zeros, app_length, repeat_length.
        rewrite Nat2Z.inj_add, Z2Nat.id by lia.
        rewrite <- (Z.mul_1_r (sgv sg * digits_val D2)). apply (qeq_scale a 0); lia.
    + apply Z.ltb_ge in Eneg.
      exists (firstn (Z.to_nat dot1) D2), (Some (skipn (Z.to_nat dot1) D2)).
      assert (Hsplit : D2 = firstn (Z.to_nat dot1) D2 ++ skipn (Z.to_nat dot1) D2) by (symmetry; apply firstn_skipn).
      assert (Hfs : digits (firstn (Z.to_nat dot1) D2) /\ digits (skipn (Z.to_nat dot1) D2))
        by (apply digits_app_inv; rewrite <- Hsplit; exact HD2).
      assert (Hsl : Z.of_nat (length (skipn (Z.to_nat dot1) D2)) = Z.of_nat (length D2) - dot1)
        by (rewrite skipn_length; lia).
      split; [|split].
      * repeat split; try tauto.
        intros Hnil. rewrite Hnil in Hsl. cbn [length] in Hsl. lia.
      * unfold render. cbn [frac_text exp_text]. rewrite !app_nil_r. reflexivity.
      * unfold rvalue. cbn [frac_digits exp_val]. rewrite <- Hsplit, Hsl.
        rewrite <- (Z.mul_1_r (sgv sg * digits_val D2)). apply (qeq_scale a 0); lia.
Qed.

Theorem shift_dot_value_all : forall sg ip fo k, wf_num sg ip fo NoExp ->
  exists s' v', shiftDot (render sg ip fo NoExp) k = Some s' /\
    css_number_value s' = Some v' /\
    qeq v' (sgv sg * digits_val (ip ++ frac_digits fo), - Z.of_nat (length (frac_digits fo)) + k).
Proof.
  intros sg ip fo k Hwf. destruct (shift_dot_render sg ip fo k Hwf) as [ip' [fo' [W [E Q]]]].
  eexists. eexists. split; [exact E|]. split; [apply css_value_render, W | exact Q].
Qed.
