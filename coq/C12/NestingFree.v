(* The substitution leaves no "&" behind, and is the identity on selectors without "&". *)
From V Require Import Common.Base C12.Nesting C12.NestingProofs.
Require Import Btauto.

Lemma ha_c k a t s : has_amp_c (Cp k a t s) = a || has_amp_s s. Proof. reflexivity. Qed.
Lemma ha_s_class i r : has_amp_s (SClass i r) = has_amp_s r. Proof. reflexivity. Qed.
Lemma ha_s_pc ng l r : has_amp_s (SPc ng l r) = has_amp_l l || has_amp_s r. Proof. reflexivity. Qed.
Lemma ha_x_cons c r : has_amp_x (XCons c r) = has_amp_c c || has_amp_x r. Proof. reflexivity. Qed.
Lemma ha_l_cons x r : has_amp_l (LCons x r) = has_amp_x x || has_amp_l r. Proof. reflexivity. Qed.

Lemma sb_c_eq repl strip k a t s results : sb_c repl strip (Cp k a t s) results =
  if a then subst_amp repl strip k t (sb_s repl s) results else xsnoc results (Cp k false t (sb_s repl s)).
Proof. reflexivity. Qed.
Lemma sb_s_class repl i r : sb_s repl (SClass i r) = SClass i (sb_s repl r). Proof. reflexivity. Qed.
Lemma sb_s_pc repl ng l r : sb_s repl (SPc ng l r) = SPc ng (sb_l repl l) (sb_s repl r). Proof. reflexivity. Qed.
Lemma sb_x_cons repl strip c r results :
  sb_x repl strip (XCons c r) results = sb_x repl strip r (sb_c repl strip c results).
Proof. reflexivity. Qed.
Lemma sb_l_cons repl cx r : sb_l repl (LCons cx r) = LCons (sb_x repl true cx XNil) (sb_l repl r). Proof. reflexivity. Qed.

Lemma has_amp_app a b : has_amp_x (xapp a b) = has_amp_x a || has_amp_x b.
Proof. induction a as [|c r IH]; cbn [xapp]; [reflexivity | rewrite !ha_x_cons, IH; btauto]. Qed.
Lemma has_amp_s_app a b : has_amp_s (sapp a b) = has_amp_s a || has_amp_s b.
Proof.
  induction a as [|i r IH|ng l r IH]; cbn [sapp]; [reflexivity | |].
  - rewrite !ha_s_class. exact IH.
  - rewrite !ha_s_pc, IH. btauto.
Qed.
Lemma has_amp_clear_first p : has_amp_x (clear_first p) = has_amp_x p.
Proof. destruct p as [|c r]; [reflexivity|]. destruct c; reflexivity. Qed.
Lemma has_amp_clear c : has_amp_c (clear_comb c) = has_amp_c c.
Proof. destruct c; reflexivity. Qed.
Lemma has_amp_merge k single t s : has_amp_c single = false -> has_amp_c (merge_into k single t s) = has_amp_s s.
Proof.
  destruct single as [k0 a0 t0 s0]. rewrite ha_c. intros H. apply orb_false_iff in H as [-> H0].
  unfold merge_into. cbn [c_ty c_subs]. destruct t0; rewrite ha_c, !has_amp_s_app, H0; cbn [orb].
  - destruct t; reflexivity.
  - reflexivity.
Qed.

Lemma has_amp_snoc_merge R k single t s : has_amp_c single = false ->
  has_amp_x (xsnoc R (merge_into k single t s)) = has_amp_x R || has_amp_s s.
Proof. intros H. rewrite has_amp_snoc, has_amp_merge by exact H. reflexivity. Qed.

Lemma subst_amp_free repl strip k t s results :
  has_amp_x repl = false -> has_amp_s s = false -> has_amp_x results = false ->
  has_amp_x (subst_amp repl strip k t s results) = false.
Proof.
  intros HR Hs Hres. unfold subst_amp.
  destruct (xsplit repl) as [[prefix single]|] eqn:Esp; [|exact Hres].
  destruct (xsplit_snoc _ _ _ Esp) as [ER _]. rewrite ER, has_amp_snoc in HR. apply orb_false_iff in HR as [Hp Hsg].
  destruct ((k =? 0) && ((xlen repl =? 1)%nat || xnil results)).
  - rewrite has_amp_snoc_merge, has_amp_app, Hres, Hs.
    + destruct (strip && (1 <? xlen repl)%nat); [rewrite has_amp_clear_first|]; rewrite Hp; reflexivity.
    + destruct (strip && (xlen repl =? 1)%nat); [rewrite has_amp_clear|]; exact Hsg.
  - destruct (xlen repl =? 1)%nat; rewrite has_amp_snoc_merge, Hres, Hs; try reflexivity; [exact Hsg|].
    (* the replacement wrapped in :is() *)
    rewrite ha_c, ha_s_pc, ha_l_cons, ER, has_amp_snoc, Hp, Hsg. reflexivity.
Qed.

Theorem subst_amp_free_all repl : has_amp_x repl = false ->
  (forall c strip results, has_amp_x results = false -> has_amp_x (sb_c repl strip c results) = false) /\
  (forall s, has_amp_s (sb_s repl s) = false) /\
  (forall cx strip results, has_amp_x results = false -> has_amp_x (sb_x repl strip cx results) = false) /\
  (forall l, has_amp_l (sb_l repl l) = false).
Proof.
  intros HR. apply sel_mutind.
  - intros k a t s IH strip results Hres. rewrite sb_c_eq. destruct a.
    + apply subst_amp_free; assumption.
    + rewrite has_amp_snoc, Hres, ha_c. cbn [orb]. exact IH.
  - reflexivity.
  - intros i r IH. rewrite sb_s_class, ha_s_class. exact IH.
  - intros ng l IHl r IHr. rewrite sb_s_pc, ha_s_pc, IHl, IHr. reflexivity.
  - intros strip results H. exact H.
  - intros c IHc r IHr strip results H. rewrite sb_x_cons. apply IHr. apply IHc. exact H.
  - reflexivity.
  - intros cx IHx r IHr. rewrite sb_l_cons, ha_l_cons, IHx by reflexivity. exact IHr.
Qed.

Theorem subst_id repl :
  (forall c, has_amp_c c = false -> forall strip results, sb_c repl strip c results = xsnoc results c) /\
  (forall s, has_amp_s s = false -> sb_s repl s = s) /\
  (forall cx, has_amp_x cx = false -> forall strip results, sb_x repl strip cx results = xapp results cx) /\
  (forall l, has_amp_l l = false -> sb_l repl l = l).
Proof.
  apply sel_mutind.
  - intros k a t s IH H strip results. rewrite ha_c in H. apply orb_false_iff in H as [-> Hs].
    rewrite sb_c_eq, (IH Hs). reflexivity.
  - reflexivity.
  - intros i r IH H. rewrite ha_s_class in H. rewrite sb_s_class, (IH H). reflexivity.
  - intros ng l IHl r IHr H. rewrite ha_s_pc in H. apply orb_false_iff in H as [Hl Hr].
    rewrite sb_s_pc, (IHl Hl), (IHr Hr). reflexivity.
  - intros _ strip results. cbn. rewrite xapp_nil_r. reflexivity.
  - intros c IHc r IHr H strip results. rewrite ha_x_cons in H. apply orb_false_iff in H as [Hc Hr].
    rewrite sb_x_cons, (IHc Hc), (IHr Hr). unfold xsnoc. rewrite xapp_assoc. reflexivity.
  - reflexivity.
  - intros cx IHx r IHr H. rewrite ha_l_cons in H. apply orb_false_iff in H as [Hx Hr].
    rewrite sb_l_cons, (IHx Hx), (IHr Hr). reflexivity.
Qed.

(* the lowered selector contains no "&": what it matches does not depend on what "&" stands for *)
Theorem lower_is_amp_free parents cx : parents_ok parents = true -> has_amp_x (lower_is parents cx) = false.
Proof.
  intros Hok. unfold lower_is.
  pose proof (parents_single_amp parents Hok) as HR.
  destruct (subst_amp_free_all _ HR) as [_ [_ [HX _]]]. apply HX. reflexivity.
Qed.

Theorem lower_is_matching_any D parents cx A' : parents_ok parents = true ->
  forall x, matches D A' (lower_is parents cx) x = matches D (parent_set D parents) (inject_amp cx) x.
Proof.
  intros Hok x. rewrite <- lower_is_matching by exact Hok. unfold matches.
  rewrite (amp_free_ev D A' (parent_set D parents)) by (apply lower_is_amp_free; exact Hok). reflexivity.
Qed.
