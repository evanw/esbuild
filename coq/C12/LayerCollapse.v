(* "@layer a { @layer b { X } }"  =>  "@layer a.b { X }":  a layer statement that
   is immediately followed by a statement for a path it is a prefix of (same
   conditions) is redundant.  The declared-layer list loses one entry, every
   first-declaration position after it shifts by one, and no comparison of two
   strengths changes. *)
From V Require Import Common.Base C12.Cascade C12.CascadeProofs C12.Mangle.

(* The candidates of a sheet before their strengths are computed: a relabelling
   of the strengths that changes no comparison changes no winner (best_map_ext). *)
Definition tc := (bool * list Z * Z * Z)%type.      (* importance, layer, specificity, value *)
Definition mkc (D : list (list Z)) (t : tc) : cand :=
  let '(imp, layer, sp, v) := t in (strength D imp layer sp, v).

Definition item_tcs (w : world) (e p : Z) (it : item) : list tc :=
  if item_active w it then
    match best_spec w (i_sels it) e with
    | None => []
    | Some sp => map (fun d => (d_imp d, i_layer it, sp, d_val d))
                     (filter (fun d => (d_prop d =? p) && val_understood w (d_syn d)) (i_decls it))
    end
  else [].

Lemma item_cands_tcs w D e p it : item_cands w D e p it = map (mkc D) (item_tcs w e p it).
Proof.
  unfold item_cands, item_tcs. destruct (item_active w it); [|reflexivity].
  destruct (best_spec w (i_sels it) e); [|reflexivity]. rewrite map_map. reflexivity.
Qed.

Lemma cands_tcs w D e p sheet : cands w D e p sheet = map (mkc D) (flat_map (item_tcs w e p) sheet).
Proof.
  unfold cands. induction sheet as [|it sheet IH]; [reflexivity|].
  cbn [flat_map]. rewrite map_app, IH, item_cands_tcs. reflexivity.
Qed.

Lemma is_prefix_length p q : is_prefix p q = true -> (length p <= length q)%nat.
Proof.
  revert q. induction p as [|x p IH]; intros [|y q] H; cbn in *; try lia; try discriminate.
  apply andb_true_iff in H as [_ H]. apply IH in H. lia.
Qed.

Lemma is_prefix_app p q n : is_prefix p q = true -> is_prefix p (q ++ n) = true.
Proof.
  revert q. induction p as [|x p IH]; intros [|y q] H; cbn in *; try reflexivity; try discriminate.
  apply andb_true_iff in H as [H1 H2]. rewrite H1. cbn. apply IH. exact H2.
Qed.

Lemma is_prefix_app_longer p q n : is_prefix p (q ++ n) = true -> is_prefix p q = false -> (length q < length p)%nat.
Proof.
  revert q. induction p as [|x p IH]; intros [|y q] H1 H2; cbn in *; try discriminate; try lia.
  apply andb_true_iff in H1 as [E H1]. rewrite E in H2. cbn in H2. specialize (IH q H1 H2). lia.
Qed.

Lemma fp_shift A pfx : forall i, first_pos A pfx (i + 1) = first_pos A pfx i + 1.
Proof.
  induction A as [|d A IH]; intros i; cbn [first_pos]; [reflexivity|].
  destruct (is_prefix pfx d); [reflexivity|]. apply IH.
Qed.

Lemma fp_range A pfx : forall i, i <= first_pos A pfx i <= i + Z.of_nat (length A).
Proof.
  induction A as [|d A IH]; intros i; cbn [first_pos length]; [lia|].
  destruct (is_prefix pfx d); [lia|]. specialize (IH (i + 1)). lia.
Qed.

Lemma fp_app A B pfx : forall i,
  first_pos (A ++ B) pfx i =
  if existsb (is_prefix pfx) A then first_pos A pfx i else first_pos B pfx (i + Z.of_nat (length A)).
Proof.
  induction A as [|d A IH]; intros i; cbn [app first_pos existsb length].
  - f_equal. lia.
  - destruct (is_prefix pfx d); [reflexivity|]. cbn [orb]. rewrite IH.
    destruct (existsb (is_prefix pfx) A); [reflexivity|]. f_equal. lia.
Qed.

Lemma fp_found_lt A pfx i : existsb (is_prefix pfx) A = true -> first_pos A pfx i < i + Z.of_nat (length A).
Proof.
  revert i. induction A as [|d A IH]; intros i H; cbn in *; [discriminate|].
  destruct (is_prefix pfx d); [lia|]. cbn in H. specialize (IH (i + 1) H). lia.
Qed.

Lemma compare_same a b c d : (a < b <-> c < d) -> (b < a <-> d < c) -> (a ?= b) = (c ?= d).
Proof. intros H1 H2. destruct (Z.compare_spec a b), (Z.compare_spec c d); try reflexivity; lia. Qed.

Lemma lex_head_neq x y (A B : comparison) : x <> y ->
  match x ?= y with Eq => A | c => c end = match x ?= y with Eq => B | c => c end.
Proof. intros H. destruct (Z.compare_spec x y); [contradiction | reflexivity | reflexivity]. Qed.

(* a layer's sort key with every entry multiplied by sg, followed by the specificity *)
Definition skey (sg : Z) (D : list (list Z)) (acc p : list Z) (s : Z) : list Z :=
  map (fun v => sg * v) (map (fun pfx => first_pos D pfx 0) (prefixes_from acc p) ++ [Z.of_nat (length D) + 1]) ++ [s].

Lemma strength_skey D imp layer sp :
  strength D imp layer sp = (if imp then 1 else 0) :: skey (if imp then -1 else 1) D [] layer sp.
Proof.
  unfold strength, skey, layer_key. destruct imp; do 2 f_equal.
  (* imp = true is closed by f_equal: Z.opp v and -1 * v are convertible *)
  symmetry. etransitivity; [|apply map_id]. apply map_ext. intros; lia.
Qed.

Section Shift.
  Variables D1 D2 : list (list Z).
  Variables p n : list Z.
  Let D := D1 ++ p :: (p ++ n) :: D2.
  Let D' := D1 ++ (p ++ n) :: D2.
  Let k := Z.of_nat (length D1).
  (* where position i of D is in D' *)
  Definition gsh (i : Z) : Z := if i <=? k then i else i - 1.

  Lemma fp_cases pfx :
    (first_pos D pfx 0 < k /\ first_pos D' pfx 0 = first_pos D pfx 0) \/
    (first_pos D pfx 0 = k /\ first_pos D' pfx 0 = k /\ is_prefix pfx p = true) \/
    (first_pos D pfx 0 = k + 1 /\ first_pos D' pfx 0 = k /\ is_prefix pfx p = false /\ is_prefix pfx (p ++ n) = true) \/
    (k + 2 <= first_pos D pfx 0 /\ first_pos D' pfx 0 = first_pos D pfx 0 - 1).
  Proof.
    unfold D, D'. rewrite !fp_app. fold k.
    destruct (existsb (is_prefix pfx) D1) eqn:E1.
    - left. split; [|reflexivity]. pose proof (fp_found_lt D1 pfx 0 E1) as B. fold k in B. lia.
    - right. cbn [first_pos]. destruct (is_prefix pfx p) eqn:Ep.
      + left. rewrite (is_prefix_app pfx p n Ep). repeat split; lia.
      + right. destruct (is_prefix pfx (p ++ n)) eqn:Epn.
        * left. repeat split; lia.
        * right. replace (0 + k + 1 + 1) with ((0 + k + 1) + 1) by lia. rewrite (fp_shift D2 pfx (0 + k + 1)).
          pose proof (fp_range D2 pfx (0 + k + 1)). split; lia.
  Qed.

  Lemma fp_gsh pfx : first_pos D' pfx 0 = gsh (first_pos D pfx 0).
  Proof.
    unfold gsh. destruct (fp_cases pfx) as [[H1 H2]|[[H1 [H2 _]]|[[H1 [H2 _]]|[H1 H2]]]]; rewrite H2;
      destruct (Z.leb_spec (first_pos D pfx 0) k); lia.
  Qed.

  Lemma fp_le pfx : first_pos D pfx 0 <= Z.of_nat (length D).
  Proof. pose proof (fp_range D pfx 0). lia. Qed.

  Lemma len_D : Z.of_nat (length D) = k + 2 + Z.of_nat (length D2) /\ Z.of_nat (length D') = Z.of_nat (length D) - 1.
  Proof. unfold D, D', k. rewrite !app_length. cbn [length]. lia. Qed.

  (* two prefixes of the same length never sit on the two merged positions *)
  Lemma no_collision u v : length u = length v ->
    ~ (first_pos D u 0 = k /\ first_pos D v 0 = k + 1).
  Proof.
    intros HL [Hu Hv].
    destruct (fp_cases u) as [[H1 _]|[[_ [_ Hup]]|[[H1 _]|[H1 _]]]]; try lia.
    destruct (fp_cases v) as [[H1 _]|[[H1 _]|[[_ [_ [Hvp Hvpn]]]|[H1 _]]]]; try lia.
    apply is_prefix_length in Hup. pose proof (is_prefix_app_longer v p n Hvpn Hvp). lia.
  Qed.

  Lemma cmp_gsh sg u v : (sg = 1 \/ sg = -1) ->
    ~ (u = k /\ v = k + 1) -> ~ (v = k /\ u = k + 1) ->
    (sg * gsh u ?= sg * gsh v) = (sg * u ?= sg * v).
  Proof.
    (* gsh is monotone, and injective except on k, k + 1 *)
    intros Hsg N1 N2. unfold gsh.
    apply compare_same; destruct (Z.leb_spec u k), (Z.leb_spec v k); destruct Hsg as [-> | ->]; lia.
  Qed.

  Lemma sentinel_gsh : Z.of_nat (length D') + 1 = gsh (Z.of_nat (length D) + 1).
  Proof. destruct len_D as [LD LD']. unfold gsh. destruct (Z.leb_spec (Z.of_nat (length D) + 1) k); lia. Qed.

  Lemma key_cmp_shift sg : (sg = 1 \/ sg = -1) -> forall x y accx accy s t,
    length accx = length accy ->
    lex_cmp (skey sg D' accx x s) (skey sg D' accy y t) = lex_cmp (skey sg D accx x s) (skey sg D accy y t).
  Proof.
    intros Hsg. unfold skey. destruct len_D as [LD LD']. rewrite sentinel_gsh.
    set (S := Z.of_nat (length D) + 1).
    assert (HS : k + 3 <= S) by (unfold S; lia).
    induction x as [|a x IH]; intros [|b y] accx accy s t HL; cbn [prefixes_from map app lex_cmp].
    - rewrite !Z.compare_refl. reflexivity.
    - (* x is exhausted: its sentinel meets a position of y, and never ties with it *)
      rewrite (fp_gsh (accy ++ [b])). pose proof (fp_le (accy ++ [b])) as B. fold S in B.
      rewrite (cmp_gsh sg S _ Hsg) by lia.
      apply lex_head_neq. destruct Hsg as [-> | ->]; lia.
    - rewrite (fp_gsh (accx ++ [a])). pose proof (fp_le (accx ++ [a])) as B. fold S in B.
      rewrite (cmp_gsh sg _ S Hsg) by lia.
      apply lex_head_neq. destruct Hsg as [-> | ->]; lia.
    - rewrite (fp_gsh (accx ++ [a])), (fp_gsh (accy ++ [b])).
      assert (HL' : length (accx ++ [a]) = length (accy ++ [b])) by (rewrite !app_length; cbn; lia).
      rewrite (cmp_gsh sg _ _ Hsg (no_collision _ _ HL') (no_collision _ _ (eq_sym HL'))).
      destruct (sg * first_pos D (accx ++ [a]) 0 ?= sg * first_pos D (accy ++ [b]) 0); try reflexivity.
      apply IH. exact HL'.
  Qed.
End Shift.

Lemma strength_cmp_shift D1 D2 p n i j x y s t :
  lex_cmp (strength (D1 ++ (p ++ n) :: D2) i x s) (strength (D1 ++ (p ++ n) :: D2) j y t) =
  lex_cmp (strength (D1 ++ p :: (p ++ n) :: D2) i x s) (strength (D1 ++ p :: (p ++ n) :: D2) j y t).
Proof.
  rewrite !strength_skey.
  (* different importance is decided at the head *)
  destruct i, j; cbn [lex_cmp]; try reflexivity.
  - rewrite Z.compare_refl. apply key_cmp_shift; [right; reflexivity | reflexivity].
  - rewrite Z.compare_refl. apply key_cmp_shift; [left; reflexivity | reflexivity].
Qed.

Lemma stmt_tcs w e p conds layer : item_tcs w e p (stmt_item conds layer) = [].
Proof. reflexivity. Qed.

(* a layer statement immediately followed by a statement for an extension of its
   path, under the same conditions, can be dropped *)
Theorem stmt_prefix_redundant : forall w conds p n pre post e pr,
  winner w (pre ++ [stmt_item conds (p ++ n)] ++ post) e pr =
  winner w (pre ++ [stmt_item conds p; stmt_item conds (p ++ n)] ++ post) e pr.
Proof.
  intros w conds p n pre post e pr. unfold winner. rewrite !cands_tcs.
  assert (HT : flat_map (item_tcs w e pr) (pre ++ [stmt_item conds (p ++ n)] ++ post) =
               flat_map (item_tcs w e pr) (pre ++ [stmt_item conds p; stmt_item conds (p ++ n)] ++ post)).
  { rewrite !flat_map_app. cbn [flat_map]. rewrite !stmt_tcs. reflexivity. }
  rewrite HT. set (T := flat_map _ _).
  unfold declared. rewrite !filter_app, !map_app. cbn [filter stmt_item i_stmt i_conds andb].
  destruct (conds_hold w conds); cbn [map app i_layer]; [|reflexivity].
  apply best_map_ext.
  - intros [[[ia la] sa] va] [[[ib lb] sb] vb]. unfold ltb, mkc. cbn [fst i_layer stmt_item].
    rewrite strength_cmp_shift. reflexivity.
  - intros [[[ia la] sa] va]. reflexivity.
Qed.
