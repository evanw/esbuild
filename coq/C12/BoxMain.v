(* The tracker pass of processDeclarations preserves, in every browser, the
   value of each of the four sides, and leaves all other declarations alone. *)
From V Require Import Common.Base C12.Mangle C12.BoxTracker C12.BoxSpec C12.BoxLemmas C12.BoxTokens C12.GenSem C12.GenInv C12.BoxInv C12.BoxOp.

Section Main.
  Variables aa cc : bool.

  Lemma step_inv rs tr d : trinv aa rs tr ->
    match b_key d with KSide s => (s < 4)%nat | _ => True end ->
    bkeeps aa (rs ++ [Some d]) (box_step aa cc false (rs, tr) d).
  Proof.
    intros HT Hwf. unfold box_step. destruct (b_key d) as [|s|i] eqn:Ek.
    - apply mangle_sides_inv; assumption.
    - apply mangle_side_inv; assumption.
    - split; [apply gsem_eq_refl|]. apply ginv_app; [exact HT|].
      intros s. unfold affects. rewrite Ek. reflexivity.
  Qed.

  Lemma box_same l : wf_keys l -> same_as sval (bsets aa) l (fst (fold_left (box_step aa cc false) l ([], tracker0))).
  Proof. intros Hwf. apply (process_same sval (bsets aa) tracker _ (trinv aa) step_inv); [exact Hwf | apply trinv_none]. Qed.

  Theorem box_layers_all : forall l, wf_keys l -> forall e imp s,
    layer e aa imp s (box_process aa cc false l) = layer e aa imp s l.
  Proof. intros l Hwf. apply (box_same l Hwf). Qed.

  Theorem box_collapse_keeps_sides_all : forall l, wf_keys l -> forall e s,
    side_value e aa (box_process aa cc false l) s = side_value e aa l s.
  Proof. intros l Hwf e s. unfold side_value. rewrite !box_layers_all by exact Hwf. reflexivity. Qed.

  Theorem box_collapse_keeps_others_all : forall l, wf_keys l ->
    filter is_other (box_process aa cc false l) = filter is_other l.
  Proof. intros l Hwf. apply (box_same l Hwf). Qed.
End Main.

(* the lowering of inset changes the unit of invalidation: witness *)
Definition lower_env : benv := mkBE (fun _ => false) (fun _ => false) (fun _ _ => false).
Definition lower_wit : list bdecl :=
  [mkB (KSide 2) [TDim 3 7] false; mkB KShort [TDim 2 20; TDim 1 2; TPct 1; TDim 0 7] false; mkB (KSide 2) [TDim 1 20] false].
Lemma box_lowering_refuted_witness : exists e l s, wf_keys l /\
  side_value e true (box_process true false true l) s <> side_value e true l s.
Proof.
  exists lower_env, lower_wit, 2%nat. split.
  - repeat constructor.
  - vm_compute. discriminate.
Qed.
