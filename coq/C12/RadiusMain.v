(* The border-radius tracker pass of processDeclarations preserves, in every
   browser, the value (both radii) of each of the four corners, and leaves all
   other declarations alone. *)
From V Require Import Common.Base C12.Mangle C12.BoxTracker C12.BoxSpec C12.BoxLemmas C12.BoxTokens C12.BoxCompact
  C12.GenSem C12.GenInv C12.RadiusTracker C12.RadiusSpec C12.RadiusInv C12.RadiusOp.

Lemma rlayer_glayer e imp c l : rlayer e imp c l = glayer rval rsets e imp c l.
Proof. reflexivity. Qed.

Lemma rlayer_app e imp c l1 l2 : rlayer e imp c (l1 ++ l2) =
  match rlayer e imp c l2 with Some v => Some v | None => rlayer e imp c l1 end.
Proof. apply (glayer_app rval rsets). Qed.

Lemma rstep_inv rs tr d : rtrinv rs tr ->
  match b_key d with KSide c => (c < 4)%nat | _ => True end ->
  rkeeps (rs ++ [Some d]) (radius_step (rs, tr) d).
Proof.
  intros HT Hwf. unfold radius_step. destruct (b_key d) as [|c|i] eqn:Ek.
  - apply mangle_corners_inv; assumption.
  - apply mangle_corner_inv; assumption.
  - split; [apply gsem_eq_refl|]. apply ginv_app; [exact HT|].
    intros c. unfold affects. rewrite Ek. reflexivity.
Qed.

Lemma radius_same l : wf_keys l -> same_as rval rsets l (fst (fold_left radius_step l ([], rtracker0))).
Proof. intros Hwf. apply (process_same rval rsets rtracker _ rtrinv rstep_inv); [exact Hwf | apply rtrinv_none]. Qed.

Theorem radius_layers_all : forall l, wf_keys l -> forall e imp c,
  rlayer e imp c (radius_process l) = rlayer e imp c l.
Proof. intros l Hwf. apply (radius_same l Hwf). Qed.

Theorem radius_collapse_keeps_corners_all : forall l, wf_keys l -> forall e c,
  corner_value e (radius_process l) c = corner_value e l c.
Proof. intros l Hwf e c. unfold corner_value. rewrite !radius_layers_all by exact Hwf. reflexivity. Qed.

Theorem radius_collapse_keeps_others_all : forall l, wf_keys l ->
  filter is_other (radius_process l) = filter is_other l.
Proof. intros l Hwf. apply (radius_same l Hwf). Qed.
