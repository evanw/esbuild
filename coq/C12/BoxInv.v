(* The box tracker as an instance of the bookkeeping of GenInv: a slot
   remembers one token; what that token says about the rule the slot points at.
   compactRules is the generic compaction read through that view. *)
From V Require Import Common.Base C12.Mangle C12.BoxTracker C12.BoxSpec C12.BoxLemmas C12.BoxTokens C12.BoxCompact
  C12.GenSem C12.GenInv.

Section Inv.
  Variable aa : bool.

  Definition bsets (e : benv) : bdecl -> nat -> option sval := sets e aa.
  Definition bvalid (e : benv) (r : bdecl) : bool := forallb (tok_ok e aa) (b_val r).
  Definition bval (t : tok) : sval := SV (norm t).
  Definition bok (e : benv) (t : tok) : bool := tok_ok e aa t.

  (* rule r gives side s the token t0; the slot holds t, which is t0 or, with a safe status, t0 after 0px -> 0 *)
  Definition bdesc (r : bdecl) (s : nat) (single : bool) (t : tok) : Prop :=
    forallb (trk aa) (b_val r) = true /\ trk aa t = true /\
    exists t0,
      (if single then b_key r = KSide s /\ b_val r = [t0]
       else b_key r = KShort /\ exists q, spec_expand (b_val r) = Some q /\ t0 = qnth q s) /\
      norm t = norm t0 /\ forall e, tok_ok e aa t = tok_ok e aa t0.

  Lemma bsets_affects e d s : affects d s = false -> bsets e d s = None.
  Proof. apply not_affects_sets. Qed.

  Lemma bsets_hi e d s : b_key d = KShort -> (4 <= s)%nat -> bsets e d s = None.
  Proof.
    intros Hk Hs. unfold bsets, sets. rewrite Hk.
    replace (s <? 4)%nat with false by (symmetry; apply Nat.ltb_ge; exact Hs). reflexivity.
  Qed.

  Lemma bdesc_key r s sg t : bdesc r s sg t -> b_key r = if sg then KSide s else KShort.
  Proof. intros [_ [_ [t0 [Hsh _]]]]. destruct sg; destruct Hsh as [Hk _]; exact Hk. Qed.

  Lemma bdesc_sets r s sg t : bdesc r s sg t -> (s < 4)%nat ->
    forall e, bsets e r s = if bvalid e r then Some (bval t) else None.
  Proof.
    intros [Htrk [_ [t0 [Hsh [Hn _]]]]] Hs e. destruct r as [k v i]. unfold bsets, bvalid, bval. cbn [b_key b_val] in *.
    destruct sg.
    - destruct Hsh as [-> ->].
      assert (Ht0 : trk aa t0 = true) by (cbn in Htrk; rewrite andb_true_r in Htrk; exact Htrk).
      rewrite sets_single by exact Ht0. rewrite Nat.eqb_refl. cbn [forallb]. rewrite andb_true_r, Hn. reflexivity.
    - destruct Hsh as [-> [q [Hq ->]]]. rewrite (sets_short e aa v q) by assumption.
      replace (s <? 4)%nat with true by (symmetry; apply Nat.ltb_lt; exact Hs). rewrite Hn. reflexivity.
  Qed.

  Lemma bdesc_invalid r s sg t : bdesc r s sg t -> forall e, bvalid e r = false -> forall s', bsets e r s' = None.
  Proof.
    intros [Htrk [_ [t0 [Hsh _]]]] e Hf s'. destruct r as [k v i]. unfold bsets, bvalid in *. cbn [b_key b_val] in *.
    destruct sg.
    - destruct Hsh as [-> ->].
      assert (Ht0 : trk aa t0 = true) by (cbn in Htrk; rewrite andb_true_r in Htrk; exact Htrk).
      rewrite sets_single by exact Ht0. cbn [forallb] in Hf. rewrite andb_true_r in Hf. rewrite Hf.
      destruct (Nat.eqb s s'); reflexivity.
    - destruct Hsh as [-> [q [Hq _]]]. rewrite (sets_short e aa v q) by assumption. rewrite Hf.
      destruct (s' <? 4)%nat; reflexivity.
  Qed.

  Lemma bdesc_ok r s sg t : bdesc r s sg t -> (s < 4)%nat -> forall e, bvalid e r = true -> bok e t = true.
  Proof.
    intros [_ [_ [t0 [Hsh [_ Hok]]]]] Hs e H. unfold bok, bvalid in *. rewrite Hok. destruct sg.
    - destruct Hsh as [_ Hv]. rewrite Hv in H. cbn [forallb] in H. rewrite andb_true_r in H. exact H.
    - destruct Hsh as [_ [q [Hq ->]]]. rewrite (forallb_spec_expand _ _ q Hq) in H. apply all4_nth; assumption.
  Qed.

  Lemma bdesc_single r s t : bdesc r s true t -> forall e, bvalid e r = bok e t.
  Proof.
    intros [_ [_ [t0 [[_ Hv] [_ Hok]]]]] e. unfold bvalid, bok. rewrite Hv, Hok. cbn [forallb]. apply andb_true_r.
  Qed.

  Lemma bdesc_short r (p : nat -> tok) : (forall k, (k < 4)%nat -> bdesc r k false (p k)) ->
    forall e, (forall k, (k < 4)%nat -> bok e (p k) = true) -> bvalid e r = true.
  Proof.
    intros H e Hall. destruct (H 0%nat ltac:(lia)) as [_ [_ [t0 [[_ [q [Hq _]]] _]]]].
    unfold bvalid. rewrite (forallb_spec_expand _ _ q Hq).
    assert (Hqk : forall k, (k < 4)%nat -> tok_ok e aa (qnth q k) = true).
    { intros k Hk. destruct (H k Hk) as [_ [_ [t0' [[_ [q' [Hq' ->]]] [_ Hok]]]]].
      rewrite Hq in Hq'. inversion Hq'; subst q'. rewrite <- Hok. apply Hall. exact Hk. }
    unfold all4. rewrite !Hqk by lia. reflexivity.
  Qed.

  (* compactRules writes the shortest form of the four remembered tokens *)
  Definition bcomb (p : nat -> tok) : list tok := compact_quad_tok (p 0%nat, p 1%nat, p 2%nat, p 3%nat).

  Lemma bdesc_comb (p : nat -> tok) imp : (forall k, (k < 4)%nat -> exists r sg, bdesc r k sg (p k)) ->
    forall k, (k < 4)%nat -> bdesc (mkB KShort (bcomb p) imp) k false (p k).
  Proof.
    intros H k Hk.
    assert (Ht : forall j, (j < 4)%nat -> trk aa (p j) = true) by (intros j Hj; destruct (H j Hj) as [r [sg [_ [T _]]]]; exact T).
    split.
    { cbn [b_val]. unfold bcomb. rewrite forallb_compact. unfold all4. cbn [qnth].
      rewrite !Ht by lia. reflexivity. }
    split; [apply Ht; exact Hk|].
    exists (p k). split; [|split; reflexivity].
    split; [reflexivity|].
    exists (p 0%nat, p 1%nat, p 2%nat, p 3%nat).
    split; [apply spec_expand_compact|].
    destruct k as [|[|[|[|]]]]; try lia; reflexivity.
  Qed.

  Definition bview (sd : bside) : slot tok := mkSlot tok (sd_tok sd) (sd_us sd) (sd_idx sd) (sd_single sd).
  Definition bslots (tr : tracker) : nat -> option (slot tok) := fun s => option_map bview (tr_sides tr s).

  Lemma bslots_some tr s sd : tr_sides tr s = Some sd -> bslots tr s = Some (bview sd).
  Proof. intros E. unfold bslots. rewrite E. reflexivity. Qed.

  Definition trinv (rs : rules) (tr : tracker) : Prop := ginv tok bvalid bdesc rs (bslots tr) (tr_imp tr).

  Lemma trinv_none rs imp : trinv rs (mkTr no_sides imp).
  Proof. apply ginv_none. Qed.

  Definition bkeeps := gkeeps sval bsets tracker trinv.

  Definition box_update1 := ginv_update1 sval bsets bsets_affects bsets_hi tok bval bvalid bdesc bdesc_key bdesc_sets.
  Definition box_update4 := ginv_update4 sval bsets bsets_affects bsets_hi tok bval bvalid bdesc bdesc_key bdesc_sets.
  Definition box_compact := ginv_compact_safe sval bsets bsets_affects bsets_hi tok bval bvalid bdesc
    bdesc_key bdesc_sets bok bdesc_invalid bdesc_ok bdesc_single bdesc_short bcomb bdesc_comb.

  Lemma compact_inv cc rs tr : trinv rs tr -> bkeeps rs (compact_rules cc rs tr).
  Proof.
    intros H. unfold compact_rules.
    assert (Hsame : bkeeps rs (rs, tr)) by (split; [apply gsem_eq_refl | exact H]).
    destruct cc; cbn [negb]; [|exact Hsame].
    destruct (tr_sides tr 0%nat) as [s0|] eqn:E0; [|exact Hsame].
    destruct (tr_sides tr 1%nat) as [s1|] eqn:E1; [|exact Hsame].
    destruct (tr_sides tr 2%nat) as [s2|] eqn:E2; [|exact Hsame].
    destruct (tr_sides tr 3%nat) as [s3|] eqn:E3; [|exact Hsame].
    destruct (safe_with (sd_us s1) (sd_us s0) && safe_with (sd_us s2) (sd_us s0) && safe_with (sd_us s3) (sd_us s0)) eqn:ES;
      [|exact Hsame].
    destruct (box_compact rs (bslots tr) (tr_imp tr) _ _ _ _ H
                (bslots_some _ _ _ E0) (bslots_some _ _ _ E1) (bslots_some _ _ _ E2) (bslots_some _ _ _ E3) ES) as [S I].
    split; [exact S|]. apply I. intros s. destruct s as [|[|[|[|]]]]; reflexivity.
  Qed.
End Inv.
