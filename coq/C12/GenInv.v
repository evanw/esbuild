(* What boxTracker and borderRadiusTracker share.  Both remember, for each of
   four positions, which rule last set it (an index into the rule array), the
   unit-safety status of that rule and whether it was a longhand; both blank
   the remembered rule when a newer one overrides it in every browser, and
   both collapse four remembered rules into one shorthand at the greatest
   index.  The invariant of that bookkeeping and the lemmas for the three
   edits are stated once, over
     - what a declaration sets a position to (gsets, as in GenSem),
     - what a slot remembers of the value (P: one token, or two radii),
     - `describes r s single p`: rule r is a longhand (single) or shorthand
       whose value for position s is p.
   A tracker enters only through its slots, read as nat -> option slot. *)
From V Require Import Common.Base C12.Mangle C12.BoxTracker C12.BoxSpec C12.BoxLemmas C12.BoxTokens C12.BoxCompact C12.GenSem.

(* rs' is rs with some entries blanked, each at an index satisfying Q *)
Definition brel (Q : nat -> Prop) (rs rs' : rules) : Prop :=
  length rs' = length rs /\ forall j, nth_error rs' j = nth_error rs j \/ (nth_error rs' j = Some None /\ Q j).

Lemma brel_refl Q rs : brel Q rs rs.
Proof. split; [reflexivity | left; reflexivity]. Qed.

Lemma brel_trans Q a b c : brel Q a b -> brel Q b c -> brel Q a c.
Proof.
  intros [L1 H1] [L2 H2]. split; [congruence|]. intros j.
  destruct (H2 j) as [E|[E Qj]]; [|right; split; assumption].
  rewrite E. apply H1.
Qed.

Section Track.
  Variable V : Type.
  Variable gsets : benv -> bdecl -> nat -> option V.
  Hypothesis gsets_affects : forall e d s, affects d s = false -> gsets e d s = None.
  Hypothesis gsets_hi : forall e d s, b_key d = KShort -> (4 <= s)%nat -> gsets e d s = None.

  Variable P : Type.
  Variable pval : P -> V.
  (* the browser accepts the declaration (all its tokens) *)
  Variable valid : benv -> bdecl -> bool.
  Variable describes : bdecl -> nat -> bool -> P -> Prop.
  Hypothesis d_key : forall r s sg p, describes r s sg p -> b_key r = if sg then KSide s else KShort.
  Hypothesis d_sets : forall r s sg p, describes r s sg p -> (s < 4)%nat ->
    forall e, gsets e r s = if valid e r then Some (pval p) else None.

  Record slot := mkSlot { sl_pay : P; sl_us : ustatus; sl_idx : nat; sl_single : bool }.

  Inductive gtracked (rs : rules) (imp0 : bool) (s : nat) (sl : slot) : Prop :=
  | GTracked (r : bdecl)
      (Hs : (s < 4)%nat)
      (Hnth : nth_error rs (sl_idx sl) = Some (Some r))
      (Himp : b_imp r = imp0)
      (Hdesc : describes r s (sl_single sl) (sl_pay sl))
      (Hval : sl_us sl <> UMixed -> forall e, valid e r = us_valid e (sl_us sl))
      (Hafter : forall j r', (sl_idx sl < j)%nat -> nth_error rs j = Some (Some r') -> affects r' s = false).

  (* the second part: the slots that came from a shorthand all came from the same one *)
  Definition ginv (rs : rules) (slots : nat -> option slot) (imp : bool) : Prop :=
    (forall s sl, slots s = Some sl -> gtracked rs imp s sl) /\
    (forall s s' sl sl', slots s = Some sl -> slots s' = Some sl' ->
       sl_single sl = false -> sl_single sl' = false -> sl_idx sl = sl_idx sl').

  Lemma ginv_none rs imp : ginv rs (fun _ => None) imp.
  Proof. split; intros; discriminate. Qed.

  Lemma gtracked_lt rs imp0 s sl : gtracked rs imp0 s sl -> (sl_idx sl < length rs)%nat.
  Proof. intros [r _ Hnth]. apply nth_error_Some. rewrite Hnth. discriminate. Qed.

  Lemma describes_not_other r s sg p : describes r s sg p -> is_other r = false.
  Proof. intros H. unfold is_other. rewrite (d_key _ _ _ _ H). destruct sg; reflexivity. Qed.

  Lemma gtracked_transfer rs rs' imp0 s sl :
    gtracked rs imp0 s sl ->
    nth_error rs' (sl_idx sl) = nth_error rs (sl_idx sl) ->
    (forall j r', (sl_idx sl < j)%nat -> nth_error rs' j = Some (Some r') ->
       nth_error rs j = Some (Some r') \/ affects r' s = false) ->
    gtracked rs' imp0 s sl.
  Proof.
    intros [r Hs Hnth Himp Hdesc Hval Hafter] Hsame Hnew.
    apply (GTracked rs' imp0 s sl r); try assumption.
    - rewrite Hsame. exact Hnth.
    - intros j r' Hj Hr'. destruct (Hnew j r' Hj Hr') as [H|H]; [eapply Hafter; eassumption | exact H].
  Qed.

  Lemma ginv_app rs slots imp d : ginv rs slots imp -> (forall s, affects d s = false) ->
    ginv (rs ++ [Some d]) slots imp.
  Proof.
    intros [HC HE] Hd. split; [|exact HE]. intros s sl Hsl. pose proof (HC s sl Hsl) as Tk.
    pose proof (gtracked_lt _ _ _ _ Tk) as Lt.
    apply (gtracked_transfer rs _ _ s sl Tk); [apply nth_error_app1; exact Lt|].
    intros j r' Hj Hr. destruct (Nat.lt_ge_cases j (length rs)) as [Hl|Hg].
    - left. rewrite nth_error_app1 in Hr by exact Hl. exact Hr.
    - right. rewrite nth_error_app2 in Hr by exact Hg.
      destruct (j - length rs)%nat as [|n]; cbn in Hr; [|destruct n; discriminate].
      inversion Hr; subst r'. apply Hd.
  Qed.

  (* what updateSide / updateCorner do to the rule array *)
  Definition upd_rules (rs : rules) (old : option slot) (nsg : bool) (nus : ustatus) : rules :=
    match old with
    | Some o => if (negb nsg || sl_single o) && us_safe (sl_us o) && us_safe nus then set_nth (sl_idx o) None rs else rs
    | None => rs
    end.

  Definition upd_rules4 (rs : rules) (slots : nat -> option slot) (nus : ustatus) : rules :=
    upd_rules (upd_rules (upd_rules (upd_rules rs (slots 0%nat) false nus) (slots 1%nat) false nus) (slots 2%nat) false nus)
              (slots 3%nat) false nus.

  Lemma upd_rules_brel (Q : nat -> Prop) rs old nsg nus :
    (forall o, old = Some o -> (negb nsg || sl_single o) && us_safe (sl_us o) && us_safe nus = true -> Q (sl_idx o)) ->
    brel Q rs (upd_rules rs old nsg nus).
  Proof.
    intros HQ. unfold upd_rules. destruct old as [o|]; [|apply brel_refl].
    destruct ((negb nsg || sl_single o) && us_safe (sl_us o) && us_safe nus) eqn:Ec; [|apply brel_refl].
    split; [apply set_nth_length|]. intros j. rewrite nth_set_nth.
    destruct (Nat.eqb_spec j (sl_idx o)) as [->|Hne]; cbn [andb]; [|left; reflexivity].
    destruct (sl_idx o <? length rs)%nat; [|left; reflexivity].
    right. split; [reflexivity|]. apply (HQ o eq_refl Ec).
  Qed.

  (* the entries an update may blank: the rule of a slot among the positions K being
     re-registered, when both statuses are safe; a longhand only blanks a longhand *)
  Definition overridden (slots : nat -> option slot) (K : nat -> bool) (sg : bool) (us : ustatus) (j : nat) : Prop :=
    us_safe us = true /\
    exists k o, K k = true /\ slots k = Some o /\ j = sl_idx o /\ us_safe (sl_us o) = true /\ (sg = true -> sl_single o = true).

  (* The appended declaration d is registered for the positions K (one position
     for a longhand, all four for a shorthand), and rs' is the rule array after
     the blanking that goes with it. *)
  Section Update.
    Variables (rs0 : rules) (slots : nat -> option slot) (imp : bool) (d : bdecl).
    Variables (K : nat -> bool) (sg : bool) (us : ustatus) (p : nat -> P).
    Variables (rs' : rules) (slots' : nat -> option slot).
    Hypothesis Hinv : ginv rs0 slots imp.
    Hypothesis Himp : b_imp d = imp.
    Hypothesis HK : forall k, K k = true -> (k < 4)%nat /\ describes d k sg (p k).
    Hypothesis HnK : forall s, K s = false -> (s < 4)%nat -> sg = true /\ affects d s = false.
    Hypothesis Hval : us <> UMixed -> forall e, valid e d = us_valid e us.
    Hypothesis Hrel : brel (overridden slots K sg us) (rs0 ++ [Some d]) rs'.
    Hypothesis Hslots : forall s, slots' s = if K s then Some (mkSlot (p s) us (length rs0) sg) else slots s.

    Lemma overridden_lt j : overridden slots K sg us j -> (j < length rs0)%nat.
    Proof. intros [_ [k [o [_ [Ho [-> _]]]]]]. apply (gtracked_lt rs0 imp k o). apply Hinv. exact Ho. Qed.

    Lemma upd_last : nth_error rs' (length rs0) = Some (Some d).
    Proof.
      destruct (proj2 Hrel (length rs0)) as [E|[_ Q]].
      - rewrite E, nth_error_app2 by apply Nat.le_refl. rewrite Nat.sub_diag. reflexivity.
      - destruct (Nat.lt_irrefl _ (overridden_lt _ Q)).
    Qed.

    Lemma upd_beyond j : (length rs0 < j)%nat -> nth_error rs' j = None.
    Proof. intros Hj. apply nth_error_None. rewrite (proj1 Hrel), app_length, Nat.add_1_r. exact Hj. Qed.

    Lemma upd_below j : (j < length rs0)%nat ->
      nth_error rs' j = nth_error rs0 j \/ (nth_error rs' j = Some None /\ overridden slots K sg us j).
    Proof.
      intros Hj. destruct (proj2 Hrel j) as [E|B]; [left | right; exact B].
      rewrite E. apply nth_error_app1. exact Hj.
    Qed.

    (* blanking needs a safe status, and then every browser accepts d *)
    Lemma upd_sets : us_safe us = true -> forall e k, K k = true -> gsets e d k = Some (pval (p k)).
    Proof.
      intros Es e k Hk. destruct (HK k Hk) as [Hk4 Hdk]. rewrite (d_sets _ _ _ _ Hdk Hk4).
      assert (Eu : us = USafe) by (destruct us; try discriminate; reflexivity).
      rewrite Hval by (rewrite Eu; discriminate). rewrite Eu. reflexivity.
    Qed.

    (* whatever a blanked rule set, d sets too *)
    Lemma update_sem : gsem_eq V gsets (rs0 ++ [Some d]) rs'.
    Proof.
      assert (HL1 : (length (rs0 ++ [Some d]) - 1)%nat = length rs0) by (rewrite app_length; apply Nat.add_sub).
      assert (Hd1 : nth_error (rs0 ++ [Some d]) (length rs0) = Some (Some d))
        by (rewrite nth_error_app2 by apply Nat.le_refl; rewrite Nat.sub_diag; reflexivity).
      apply (gblank_preserves V gsets gsets_affects); [exact (proj1 Hrel) | rewrite HL1, upd_last, Hd1; reflexivity |].
      intros j. destruct (proj2 Hrel j) as [E|[E Q]]; [left; exact E|]. right. split; [exact E|].
      pose proof (overridden_lt j Q) as Hj. destruct Q as [Es [k [o [Hk [Ho [-> [Uo Hsg]]]]]]].
      destruct (proj1 Hinv k o Ho) as [r Hk4 Hnth Hri Hdesc _ _].
      exists r. split; [rewrite nth_error_app1 by exact Hj; exact Hnth|].
      split; [exact (describes_not_other _ _ _ _ Hdesc)|].
      pose proof (d_key _ _ _ _ Hdesc) as Hkey.
      intros e imp' s He. exists d. split; [rewrite HL1; exact Hd1|].
      unfold geff in *. rewrite Hri in He. rewrite Himp. destruct (Bool.eqb imp imp'); [|contradiction].
      (* r sets s, so s is one of the positions d takes over *)
      assert (Ks : K s = true).
      { destruct (sl_single o) eqn:So.
        - destruct (Nat.eq_dec k s) as [<-|Hne]; [exact Hk|]. exfalso. apply He, gsets_affects.
          unfold affects. rewrite Hkey. apply Nat.eqb_neq. exact Hne.
        - destruct (le_lt_dec 4 s) as [Hs|Hs]; [exfalso; apply He, gsets_hi; assumption|].
          destruct (K s) eqn:EK; [reflexivity|]. destruct (HnK s EK Hs) as [Esg _].
          specialize (Hsg Esg). congruence. }
      rewrite (upd_sets Es e s Ks). discriminate.
    Qed.

    (* the rule of a slot outside K is a shorthand or a longhand of another position: it is not blanked *)
    Lemma upd_keeps s sl : K s = false -> slots s = Some sl -> nth_error rs' (sl_idx sl) = nth_error rs0 (sl_idx sl).
    Proof.
      intros EK Hsl. pose proof (proj1 Hinv s sl Hsl) as Tk.
      destruct (upd_below _ (gtracked_lt _ _ _ _ Tk)) as [E|[_ [_ [k [o [Hk [Ho [Ej [_ Hsg]]]]]]]]]; [exact E|].
      exfalso. destruct (proj1 Hinv k o Ho) as [ro _ Hro _ Do _ _]. destruct Tk as [r Hs4 Hr _ Ds _ _].
      destruct (HnK s EK Hs4) as [Esg _].
      rewrite Ej, Hro in Hr. inversion Hr; subst r.
      apply d_key in Do, Ds. rewrite (Hsg Esg) in Do. rewrite Do in Ds.
      destruct (sl_single sl); [|discriminate Ds]. inversion Ds; subst k. congruence.
    Qed.

    Lemma update_tracked s sl : slots' s = Some sl -> gtracked rs' imp s sl.
    Proof.
      intros Hsl. rewrite Hslots in Hsl. destruct (K s) eqn:EK.
      - inversion Hsl; subst sl. destruct (HK s EK) as [Hs4 Hds].
        apply (GTracked rs' imp s _ d); cbn [sl_idx sl_single sl_pay sl_us]; try assumption; [apply upd_last|].
        intros j r' Hj Hr. rewrite upd_beyond in Hr by exact Hj. discriminate Hr.
      - pose proof (proj1 Hinv s sl Hsl) as Tk.
        assert (Hs4 : (s < 4)%nat) by (destruct Tk; assumption).
        apply (gtracked_transfer rs0 rs' imp s sl Tk (upd_keeps s sl EK Hsl)).
        intros j r' Hj Hr. destruct (Nat.lt_trichotomy j (length rs0)) as [Hlt|[->|Hgt]].
        + left. destruct (upd_below j Hlt) as [E|[E _]]; [|congruence]. rewrite <- E. exact Hr.
        + right. rewrite upd_last in Hr. inversion Hr; subst r'. apply (HnK s EK Hs4).
        + rewrite upd_beyond in Hr by exact Hgt. discriminate Hr.
    Qed.

    Lemma ginv_update : gsem_eq V gsets (rs0 ++ [Some d]) rs' /\ ginv rs' slots' imp.
    Proof.
      split; [exact update_sem|]. split; [exact update_tracked|].
      assert (Hout : forall s sl, K s = false -> slots s = Some sl -> sg = true).
      { intros s sl EK Hsl. apply (HnK s EK). destruct (proj1 Hinv s sl Hsl); assumption. }
      intros s s' sl sl' Hsl Hsl' S1 S2. rewrite Hslots in Hsl, Hsl'.
      destruct (K s) eqn:E1, (K s') eqn:E2.
      - inversion Hsl; inversion Hsl'; reflexivity.
      - inversion Hsl; subst sl. cbn [sl_single] in S1. rewrite (Hout s' sl' E2 Hsl') in S1. discriminate S1.
      - inversion Hsl'; subst sl'. cbn [sl_single] in S2. rewrite (Hout s sl E1 Hsl) in S2. discriminate S2.
      - exact (proj2 Hinv s s' sl sl' Hsl Hsl' S1 S2).
    Qed.
  End Update.

  Lemma ginv_update1 rs0 slots imp d s0 us p slots' :
    ginv rs0 slots imp -> b_imp d = imp -> (s0 < 4)%nat -> describes d s0 true p ->
    (us <> UMixed -> forall e, valid e d = us_valid e us) ->
    (forall s, slots' s = if Nat.eqb s s0 then Some (mkSlot p us (length rs0) true) else slots s) ->
    gsem_eq V gsets (rs0 ++ [Some d]) (upd_rules (rs0 ++ [Some d]) (slots s0) true us) /\
    ginv (upd_rules (rs0 ++ [Some d]) (slots s0) true us) slots' imp.
  Proof.
    intros Hinv Himp Hs0 Hd Hval Hslots.
    apply (ginv_update rs0 slots imp d (fun s => Nat.eqb s s0) true us (fun _ => p)); try assumption.
    - intros k Hk. apply Nat.eqb_eq in Hk. subst k. split; assumption.
    - intros s Hs _. split; [reflexivity|]. unfold affects. rewrite (d_key _ _ _ _ Hd), Nat.eqb_sym. exact Hs.
    - apply upd_rules_brel. intros o Ho Hc.
      apply andb_true_iff in Hc as [Hc Hc3]. apply andb_true_iff in Hc as [Hc1 Hc2].
      split; [exact Hc3|]. exists s0, o. rewrite Nat.eqb_refl. repeat split; try assumption. intros _. exact Hc1.
  Qed.

  Lemma ginv_update4 rs0 slots imp d us (p : nat -> P) slots' :
    ginv rs0 slots imp -> b_imp d = imp -> (forall k, (k < 4)%nat -> describes d k false (p k)) ->
    (us <> UMixed -> forall e, valid e d = us_valid e us) ->
    (forall s, slots' s = if (s <? 4)%nat then Some (mkSlot (p s) us (length rs0) false) else slots s) ->
    gsem_eq V gsets (rs0 ++ [Some d]) (upd_rules4 (rs0 ++ [Some d]) slots us) /\
    ginv (upd_rules4 (rs0 ++ [Some d]) slots us) slots' imp.
  Proof.
    intros Hinv Himp Hd Hval Hslots.
    apply (ginv_update rs0 slots imp d (fun s => (s <? 4)%nat) false us p); try assumption.
    - intros k Hk. apply Nat.ltb_lt in Hk. split; [exact Hk | apply Hd; exact Hk].
    - intros s Hs Hs4. apply Nat.ltb_ge in Hs. destruct (Nat.lt_irrefl _ (Nat.lt_le_trans _ _ _ Hs4 Hs)).
    - assert (HQ : forall k rs, (k < 4)%nat ->
                brel (overridden slots (fun s => (s <? 4)%nat) false us) rs (upd_rules rs (slots k) false us)).
      { intros k rs Hk. apply upd_rules_brel. intros o Ho Hc.
        apply andb_true_iff in Hc as [Hc Hc3]. apply andb_true_iff in Hc as [_ Hc2].
        split; [exact Hc3|]. exists k, o. repeat split; try assumption; [apply Nat.ltb_lt; exact Hk | discriminate]. }
      unfold upd_rules4. eapply brel_trans; [eapply brel_trans; [eapply brel_trans|]|]; apply HQ; repeat constructor.
  Qed.

  (* pok: the browser accepts what a slot remembers *)
  Variable pok : benv -> P -> bool.
  Hypothesis d_invalid : forall r s sg p, describes r s sg p ->
    forall e, valid e r = false -> forall s', gsets e r s' = None.
  Hypothesis d_ok : forall r s sg p, describes r s sg p -> (s < 4)%nat ->
    forall e, valid e r = true -> pok e p = true.
  Hypothesis d_single : forall r s p, describes r s true p -> forall e, valid e r = pok e p.
  Hypothesis d_short : forall r p, (forall k, (k < 4)%nat -> describes r k false (p k)) ->
    forall e, (forall k, (k < 4)%nat -> pok e (p k) = true) -> valid e r = true.
  Variable mkcomb : (nat -> P) -> list tok.
  Hypothesis d_comb : forall p imp, (forall k, (k < 4)%nat -> exists r sg, describes r k sg (p k)) ->
    forall k, (k < 4)%nat -> describes (mkB KShort (mkcomb p) imp) k false (p k).

  (* A declaration giving the four positions the values of four rules that are all valid
     (b = true) or all invalid (b = false) in browser e is valid exactly when they are: if
     they are invalid, either one is a longhand with an invalid value, or all four are one
     shorthand containing one. *)
  Lemma comb_valid e (rk : nat -> bdecl) (sg : nat -> bool) (pay : nat -> P) comb b :
    (forall k, (k < 4)%nat -> describes (rk k) k (sg k) (pay k) /\ valid e (rk k) = b) ->
    (forall k, (k < 4)%nat -> sg k = false -> sg 0%nat = false -> rk k = rk 0%nat) ->
    (forall k, (k < 4)%nat -> describes comb k false (pay k)) ->
    valid e comb = b.
  Proof.
    intros Hrk Hsame Hcd.
    assert (H04 : (0 < 4)%nat) by apply Nat.lt_0_succ.
    destruct b.
    - apply (d_short comb pay Hcd). intros k Hk. destruct (Hrk k Hk) as [Hd Hv].
      exact (d_ok _ _ _ _ Hd Hk e Hv).
    - destruct (valid e comb) eqn:EC; [|reflexivity]. exfalso.
      assert (Hall : forall k, (k < 4)%nat -> pok e (pay k) = true)
        by (intros k Hk; exact (d_ok _ _ _ _ (Hcd k Hk) Hk e EC)).
      assert (Hns : forall k, (k < 4)%nat -> sg k = false).
      { intros k Hk. destruct (Hrk k Hk) as [Hd Hv]. destruct (sg k); [|reflexivity].
        rewrite (d_single _ _ _ Hd e), (Hall k Hk) in Hv. discriminate Hv. }
      assert (Hv0 : valid e (rk 0%nat) = true).
      { apply (d_short (rk 0%nat) pay); [|exact Hall]. intros k Hk.
        destruct (Hrk k Hk) as [Hd _]. rewrite (Hns k Hk), (Hsame k Hk (Hns k Hk) (Hns 0%nat H04)) in Hd. exact Hd. }
      destruct (Hrk 0%nat H04) as [_ Hv]. rewrite Hv in Hv0. discriminate Hv0.
  Qed.

  Lemma ginv_compact rs slots imp (sl : nat -> slot) us0 :
    ginv rs slots imp ->
    (forall k, (k < 4)%nat -> slots k = Some (sl k)) ->
    (forall k, (k < 4)%nat -> sl_us (sl k) = us0) -> us0 <> UMixed ->
    let idx := fun k => sl_idx (sl k) in
    let pay := fun k => sl_pay (sl k) in
    let comb := mkB KShort (mkcomb pay) imp in
    gsem_eq V gsets rs (compacted rs idx comb) /\
    forall slots',
      (forall s, slots' s = if (s <? 4)%nat then Some (mkSlot (pay s) (sl_us (sl s)) (last4 idx) false) else slots s) ->
      ginv (compacted rs idx comb) slots' imp.
  Proof.
    intros [HC HE] Hsl Hus HM idx pay comb.
    assert (H04 : (0 < 4)%nat) by apply Nat.lt_0_succ.
    assert (Htk : forall k, (k < 4)%nat -> gtracked rs imp k (sl k)) by (intros k Hk; apply HC, Hsl, Hk).
    set (rk := fun k => match nth_error rs (idx k) with Some (Some r) => r | _ => comb end).
    assert (Hrk : forall k, (k < 4)%nat ->
      nth_error rs (idx k) = Some (Some (rk k)) /\ b_imp (rk k) = imp /\
      describes (rk k) k (sl_single (sl k)) (pay k) /\ forall e, valid e (rk k) = us_valid e us0).
    { intros k Hk. destruct (Htk k Hk) as [r _ Hnth Hi Hd Hv _]. unfold rk, idx. rewrite Hnth.
      repeat split; try assumption. intros e. rewrite <- (Hus k Hk). apply Hv. rewrite (Hus k Hk). exact HM. }
    assert (Hn : forall k, (k < 4)%nat -> nth_error rs (idx k) = Some (Some (rk k))) by (intros k Hk; apply Hrk; exact Hk).
    assert (Hcd : forall k, (k < 4)%nat -> describes comb k false (pay k)).
    { apply d_comb. intros k Hk. exists (rk k), (sl_single (sl k)). apply Hrk; exact Hk. }
    assert (Hcv : forall e, valid e comb = us_valid e us0).
    { intros e. apply (comb_valid e rk (fun k => sl_single (sl k)) pay); [| |exact Hcd].
      - intros k Hk. split; apply Hrk; exact Hk.
      - (* slots that came from a shorthand point at the same rule *)
        intros k Hk S1 S2.
        assert (E : idx k = idx 0%nat) by (apply (HE k 0%nat (sl k) (sl 0%nat)); auto).
        pose proof (Hn k Hk) as N1. rewrite E, (Hn 0%nat H04) in N1. inversion N1; reflexivity. }
    assert (Hafter : forall k j r', (k < 4)%nat -> (idx k < j)%nat -> nth_error rs j = Some (Some r') -> affects r' k = false).
    { intros k j r' Hk Hj Hr. destruct (Htk k Hk) as [? _ _ _ _ _ HA]. eapply HA; eassumption. }
    split.
    - apply (gcompact_preserves V gsets gsets_affects rs idx rk comb imp); try assumption; try reflexivity.
      + intros k Hk. apply Hrk; exact Hk.
      + intros k Hk. destruct (Hrk k Hk) as [_ [_ [Hd _]]]. exact (describes_not_other _ _ _ _ Hd).
      + intros e k s Hk Hs. destruct (Hrk k Hk) as [_ [_ [Hd _]]]. pose proof (d_key _ _ _ _ Hd) as Hkey.
        destruct (sl_single (sl k)); [|apply gsets_hi; assumption].
        apply gsets_affects. unfold affects. rewrite Hkey. apply Nat.eqb_neq.
        intros ->. exact (Nat.lt_irrefl _ (Nat.lt_le_trans _ _ _ Hk Hs)).
      + intros e s Hs. apply gsets_hi; [reflexivity | exact Hs].
      + intros e. destruct (us_valid e us0) eqn:EV.
        * left. intros k Hk. exists (pval (pay k)). destruct (Hrk k Hk) as [_ [_ [Hd Hv]]].
          rewrite (d_sets _ _ _ _ Hd Hk), Hv, EV, (d_sets _ _ _ _ (Hcd k Hk) Hk), Hcv, EV. split; reflexivity.
        * right. split.
          -- intros k s Hk. destruct (Hrk k Hk) as [_ [_ [Hd Hv]]]. apply (d_invalid _ _ _ _ Hd). rewrite Hv. exact EV.
          -- intros s. apply (d_invalid _ _ _ _ (Hcd 0%nat H04)). rewrite Hcv. exact EV.
    - intros slots' Hslots.
      assert (G : forall s x, slots' s = Some x ->
                (s < 4)%nat /\ x = mkSlot (pay s) (sl_us (sl s)) (last4 idx) false).
      { intros s x Hx. rewrite Hslots in Hx. destruct (Nat.ltb_spec s 4) as [Hs|Hs]; [inversion Hx; split; [exact Hs | reflexivity]|].
        destruct (HC s x Hx) as [? Hlt]. destruct (Nat.lt_irrefl _ (Nat.lt_le_trans _ _ _ Hlt Hs)). }
      split.
      + intros s x Hx. destruct (G s x Hx) as [Hs4 ->].
        apply (GTracked _ imp s _ comb); cbn [sl_idx sl_single sl_pay sl_us]; try reflexivity.
        * exact Hs4.
        * rewrite (nth_compacted rs idx comb rk Hn), Nat.eqb_refl. reflexivity.
        * apply Hcd; exact Hs4.
        * intros _ e. rewrite (Hus s Hs4). apply Hcv.
        * intros j r' Hj Hr. rewrite (nth_compacted rs idx comb rk Hn) in Hr.
          assert (Ej1 : Nat.eqb j (last4 idx) = false) by (apply Nat.eqb_neq, Nat.neq_sym, Nat.lt_neq; exact Hj). rewrite Ej1 in Hr.
          destruct (is_idx idx j) eqn:Ei; [discriminate|].
          apply (Hafter s j r' Hs4); [|exact Hr]. exact (Nat.le_lt_trans _ _ _ (last4_ge idx s Hs4) Hj).
      + intros s s' x x' Hx Hx' _ _. destruct (G s x Hx) as [_ ->], (G s' x' Hx') as [_ ->]. reflexivity.
  Qed.

  (* compactRules fires when the four positions are tracked and their statuses agree (isSafeWith) *)
  Lemma ginv_compact_safe rs slots imp s0 s1 s2 s3 :
    ginv rs slots imp ->
    slots 0%nat = Some s0 -> slots 1%nat = Some s1 -> slots 2%nat = Some s2 -> slots 3%nat = Some s3 ->
    safe_with (sl_us s1) (sl_us s0) && safe_with (sl_us s2) (sl_us s0) && safe_with (sl_us s3) (sl_us s0) = true ->
    let sl := fun k => match k with O => s0 | 1%nat => s1 | 2%nat => s2 | _ => s3 end in
    let idx := fun k => sl_idx (sl k) in
    let pay := fun k => sl_pay (sl k) in
    let comb := mkB KShort (mkcomb pay) imp in
    gsem_eq V gsets rs (compacted rs idx comb) /\
    forall slots',
      (forall s, slots' s = if (s <? 4)%nat then Some (mkSlot (pay s) (sl_us (sl s)) (last4 idx) false) else slots s) ->
      ginv (compacted rs idx comb) slots' imp.
  Proof.
    intros H E0 E1 E2 E3 ES sl.
    apply andb_true_iff in ES as [ES ES3]. apply andb_true_iff in ES as [ES1 ES2].
    apply safe_with_eq in ES1 as [U1 N1], ES2 as [U2 _], ES3 as [U3 _].
    apply (ginv_compact rs slots imp sl (sl_us s0) H).
    - intros k Hk. destruct k as [|[|[|[|]]]]; try assumption. lia.
    - intros k Hk. destruct k as [|[|[|[|]]]]; cbn; congruence.
    - rewrite <- U1. exact N1.
  Qed.

  Section Fold.
    Variable T : Type.
    Variable step : rules * T -> bdecl -> rules * T.
    Variable I : rules -> T -> Prop.
    Hypothesis step_ok : forall rs tr d, I rs tr ->
      match b_key d with KSide s => (s < 4)%nat | _ => True end ->
      gkeeps V gsets T I (rs ++ [Some d]) (step (rs, tr) d).

    Definition same_as (inL : list bdecl) (rs : rules) : Prop :=
      (forall e imp s, glayer V gsets e imp s (live rs) = glayer V gsets e imp s inL) /\
      filter is_other (live rs) = filter is_other inL.

    Lemma fold_same : forall l inL st, wf_keys l -> same_as inL (fst st) -> I (fst st) (snd st) ->
      same_as (inL ++ l) (fst (fold_left step l st)).
    Proof.
      induction l as [|d l IH]; intros inL st Hwf HS HI; cbn [fold_left]; [rewrite app_nil_r; exact HS|].
      inversion Hwf as [|? ? Hd Hl]; subst. destruct st as [rs tr]. cbn [fst snd] in *.
      destruct (step_ok rs tr d HI Hd) as [[_ [S1 O1]] I1].
      replace (inL ++ d :: l) with ((inL ++ [d]) ++ l) by (rewrite <- app_assoc; reflexivity).
      apply IH; [exact Hl | | exact I1]. destruct HS as [HA HB]. split.
      - intros e imp s. rewrite S1, live_app, !(glayer_app V gsets). cbn [live]. rewrite HA. reflexivity.
      - rewrite O1, live_app, !filter_app, HB. reflexivity.
    Qed.

    Lemma process_same t0 l : wf_keys l -> I [] t0 -> same_as l (fst (fold_left step l ([], t0))).
    Proof. intros Hwf H0. apply (fold_same l [] ([], t0) Hwf); [split; reflexivity | exact H0]. Qed.
  End Fold.
End Track.
