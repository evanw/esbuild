(* Layers of a declaration block, for an arbitrary "what does this declaration
   set position s to" function (a side value for the box properties, a pair of
   radii for border-radius): the last-setter view of a layer, and the three
   kinds of edit the trackers make to the rule array, each preserving every
   layer in every browser: blanking overridden entries, replacing an entry by
   an equivalent one, collapsing four tracked entries into one placed at the
   greatest index. *)
From V Require Import Common.Base C12.Mangle C12.BoxTracker C12.BoxSpec C12.BoxLemmas C12.BoxTokens C12.BoxCompact.

Section Gen.
  Variable V : Type.
  Variable gsets : benv -> bdecl -> nat -> option V.
  Hypothesis gsets_affects : forall e d s, affects d s = false -> gsets e d s = None.

  Definition geff (e : benv) (imp : bool) (s : nat) (d : bdecl) : option V :=
    if Bool.eqb (b_imp d) imp then gsets e d s else None.
  Definition glayer (e : benv) (imp : bool) (s : nat) (l : list bdecl) : option V :=
    fold_left (fun acc d => match geff e imp s d with Some v => Some v | None => acc end) l None.

  Lemma geff_none e imp s d : gsets e d s = None -> geff e imp s d = None.
  Proof. intros H. unfold geff. rewrite H. destruct (Bool.eqb (b_imp d) imp); reflexivity. Qed.

  Fixpoint glastset (f : nat -> option V) (n : nat) : option V :=
    match n with
    | O => None
    | S k => match f k with Some v => Some v | None => glastset f k end
    end.

  Lemma glastset_ext f g n : (forall j, (j < n)%nat -> f j = g j) -> glastset f n = glastset g n.
  Proof.
    induction n as [|n IH]; intros H; cbn [glastset]; [reflexivity|].
    rewrite (H n) by lia. rewrite IH by (intros; apply H; lia). reflexivity.
  Qed.

  Lemma glastset_at f n j v : (j < n)%nat -> f j = Some v ->
    (forall j', (j < j')%nat -> (j' < n)%nat -> f j' = None) -> glastset f n = Some v.
  Proof.
    induction n as [|n IH]; intros Hj Hv Hn; [lia|]. cbn [glastset].
    destruct (Nat.eq_dec j n) as [->|Hne].
    - rewrite Hv. reflexivity.
    - rewrite (Hn n) by lia. apply IH; [lia | exact Hv | intros; apply Hn; lia].
  Qed.

  Lemma glastset_none f n : (forall j, (j < n)%nat -> f j = None) -> glastset f n = None.
  Proof.
    induction n as [|n IH]; intros H; cbn [glastset]; [reflexivity|].
    rewrite (H n) by lia. apply IH. intros; apply H; lia.
  Qed.

  Section GLayer.
  Variable e : benv.
  Variable imp : bool.
  Variable s : nat.

  Definition gstep (acc : option V) (d : bdecl) : option V :=
    match geff e imp s d with Some v => Some v | None => acc end.

  Lemma glayer_from l : forall acc,
    fold_left gstep l acc = match fold_left gstep l None with Some v => Some v | None => acc end.
  Proof.
    induction l as [|d l IH]; intros acc; cbn [fold_left]; [reflexivity|].
    rewrite IH. rewrite (IH (gstep None d)). unfold gstep.
    destruct (fold_left _ l None); [reflexivity|]. destruct (geff e imp s d); reflexivity.
  Qed.

  Lemma glayer_app l1 l2 : glayer e imp s (l1 ++ l2) =
    match glayer e imp s l2 with Some v => Some v | None => glayer e imp s l1 end.
  Proof. unfold glayer. fold gstep. rewrite fold_left_app. apply glayer_from. Qed.

  Lemma glayer_one d : glayer e imp s [d] = geff e imp s d.
  Proof. unfold glayer. cbn. destruct (geff e imp s d); reflexivity. Qed.

  (* positional view *)
  Definition geffO (x : option (option bdecl)) : option V :=
    match x with Some (Some d) => geff e imp s d | _ => None end.

  Lemma glayer_lastset : forall rs,
    glayer e imp s (live rs) = glastset (fun j => geffO (nth_error rs j)) (length rs).
  Proof.
    induction rs as [|x rs IH] using rev_ind; [reflexivity|].
    rewrite live_app, glayer_app, app_length. cbn [length]. rewrite Nat.add_1_r. cbn [glastset].
    rewrite nth_error_app2 by lia. rewrite Nat.sub_diag. cbn [nth_error].
    assert (HX : glayer e imp s (live [x]) = geffO (Some x)).
    { destruct x as [d|]; cbn [live geffO]; [apply glayer_one | reflexivity]. }
    rewrite HX. destruct (geffO (Some x)); [reflexivity|].
    rewrite IH. apply glastset_ext. intros j Hj. rewrite nth_error_app1 by exact Hj. reflexivity.
  Qed.
  End GLayer.

  Definition gsem_eq (rs rs' : rules) : Prop :=
    length rs' = length rs /\
    (forall e imp s, glayer e imp s (live rs') = glayer e imp s (live rs)) /\
    filter is_other (live rs') = filter is_other (live rs).

  Lemma gsem_eq_refl rs : gsem_eq rs rs.
  Proof. repeat split. Qed.
  Lemma gsem_eq_trans a b c : gsem_eq a b -> gsem_eq b c -> gsem_eq a c.
  Proof.
    intros [L1 [S1 O1]] [L2 [S2 O2]]. split; [congruence|]. split; [|congruence].
    intros e imp s. rewrite S2, S1. reflexivity.
  Qed.

  (* a step from rs to the state st keeps every layer and establishes I *)
  Definition gkeeps (T : Type) (I : rules -> T -> Prop) (rs : rules) (st : rules * T) : Prop :=
    gsem_eq rs (fst st) /\ I (fst st) (snd st).

  Lemma gkeeps_trans T (I : rules -> T -> Prop) a b st : gsem_eq a b -> gkeeps T I b st -> gkeeps T I a st.
  Proof. intros H [S HI]. split; [exact (gsem_eq_trans a b _ H S) | exact HI]. Qed.

  (* entries may be blanked when the last entry overrides them in every browser *)
  Lemma gblank_preserves rs rs' :
    length rs' = length rs ->
    nth_error rs' (length rs - 1) = nth_error rs (length rs - 1) ->
    (forall j, nth_error rs' j = nth_error rs j \/
       (nth_error rs' j = Some None /\ exists r, nth_error rs j = Some (Some r) /\ is_other r = false /\
          forall e imp s, geff e imp s r <> None ->
            exists dn, nth_error rs (length rs - 1) = Some (Some dn) /\ geff e imp s dn <> None)) ->
    gsem_eq rs rs'.
  Proof.
    intros HL Hlast H. split; [exact HL|]. split.
    - intros e imp s. rewrite !glayer_lastset, HL.
      set (n := length rs) in *.
      destruct (geffO e imp s (nth_error rs (n - 1))) as [v|] eqn:EL.
      + assert (Hn : (n - 1 < n)%nat).
        { subst n. destruct rs as [|x0 rs0]; [destruct (0 - 1)%nat; cbn in EL; discriminate EL | cbn [length]; lia]. }
        rewrite (glastset_at _ n (n - 1) v); try lia; [|rewrite Hlast; exact EL].
        rewrite (glastset_at _ n (n - 1) v); try lia; [reflexivity | exact EL].
      + apply glastset_ext. intros j Hj. destruct (H j) as [E|[E [r [Er [_ Hov]]]]]; [rewrite E; reflexivity|].
        rewrite E, Er. cbn [geffO]. destruct (geff e imp s r) eqn:Ef; [|reflexivity].
        destruct (Hov e imp s) as [dn [Hd1 Hd2]]; [rewrite Ef; discriminate|].
        rewrite Hd1 in EL. cbn [geffO] in EL. contradiction.
    - symmetry. apply other_pointwise; [symmetry; exact HL|]. intros j.
      destruct (H j) as [E|[E [r [Er [Ho _]]]]]; [rewrite E; reflexivity|].
      rewrite E, Er, Ho. reflexivity.
  Qed.

  (* replacing one entry by a declaration with the same effect *)
  Lemma greplace_preserves rs i d d' :
    nth_error rs i = Some (Some d) ->
    (forall e s, gsets e d' s = gsets e d s) -> b_imp d' = b_imp d ->
    is_other d = false -> is_other d' = false ->
    gsem_eq rs (set_nth i (Some d') rs).
  Proof.
    intros Hi Hs Himp Ho Ho'.
    assert (Hlt : (i < length rs)%nat) by (apply nth_error_Some; rewrite Hi; discriminate).
    split; [apply set_nth_length|]. split.
    - intros e imp s. rewrite !glayer_lastset, set_nth_length. apply glastset_ext. intros j Hj.
      destruct (Nat.eq_dec j i) as [->|Hne].
      + rewrite nth_set_nth_same by exact Hlt. rewrite Hi. cbn [geffO]. unfold geff. rewrite Himp, Hs. reflexivity.
      + rewrite nth_set_nth_other by exact Hne. reflexivity.
    - apply other_pointwise; [apply set_nth_length|]. intros j.
      destruct (Nat.eq_dec j i) as [->|Hne].
      + rewrite nth_set_nth_same by exact Hlt. rewrite Hi, Ho, Ho'. reflexivity.
      + rewrite nth_set_nth_other by exact Hne. reflexivity.
  Qed.

  Lemma gappend_sem rs0 d d' :
    (forall e s, gsets e d' s = gsets e d s) -> b_imp d' = b_imp d ->
    is_other d = false -> is_other d' = false ->
    gsem_eq (rs0 ++ [Some d]) (rs0 ++ [Some d']).
  Proof.
    intros Hs Hi Ho Ho'. split; [rewrite !app_length; reflexivity|]. split.
    - intros e imp s. rewrite !live_app, !glayer_app. cbn [live]. rewrite !glayer_one. unfold geff. rewrite Hi, Hs. reflexivity.
    - rewrite !live_app, !filter_app. cbn [live filter]. rewrite Ho, Ho'. reflexivity.
  Qed.

  Section GCompact.
  Variable rs : rules.
  Variable idx : nat -> nat.
  Variable rk : nat -> bdecl.
  Variable comb : bdecl.
  Variable imp0 : bool.
  Hypothesis Hn : forall k, (k < 4)%nat -> nth_error rs (idx k) = Some (Some (rk k)).
  Hypothesis Himp : forall k, (k < 4)%nat -> b_imp (rk k) = imp0.
  Hypothesis Himpc : b_imp comb = imp0.
  Hypothesis Hoth : forall k, (k < 4)%nat -> is_other (rk k) = false.
  Hypothesis Hothc : is_other comb = false.
  Hypothesis Hhi : forall e k s, (k < 4)%nat -> (4 <= s)%nat -> gsets e (rk k) s = None.
  Hypothesis Hhic : forall e s, (4 <= s)%nat -> gsets e comb s = None.
  Hypothesis Hafter : forall k j r', (k < 4)%nat -> (idx k < j)%nat ->
    nth_error rs j = Some (Some r') -> affects r' k = false.
  Hypothesis Hsem : forall e,
    (forall k, (k < 4)%nat -> exists v, gsets e (rk k) k = Some v /\ gsets e comb k = Some v) \/
    ((forall k s, (k < 4)%nat -> gsets e (rk k) s = None) /\ forall s, gsets e comb s = None).


  Theorem gcompact_preserves : gsem_eq rs (compacted rs idx comb).
  Proof.
    assert (HL : length (compacted rs idx comb) = length rs) by (unfold compacted, blanked; rewrite !set_nth_length; reflexivity).
    destruct (last4_is idx) as [kl [Hkl Ekl]].
    split; [exact HL|]. split.
    - intros e imp s. rewrite !glayer_lastset, HL.
      (* a blanked position held one of the four rules *)
      assert (Hmod : forall j, is_idx idx j = true -> exists k, (k < 4)%nat /\
                geffO e imp s (nth_error rs j) = geff e imp s (rk k)).
      { intros j Hj. destruct (is_idx_true idx j Hj) as [k [Hk ->]]. exists k. split; [exact Hk|]. rewrite (Hn k Hk). reflexivity. }
      (* when none of the five rules has an effect in this layer, the two arrays agree position by position *)
      assert (Hpoint : (forall k, (k < 4)%nat -> geff e imp s (rk k) = None) -> geff e imp s comb = None ->
                glastset (fun j => geffO e imp s (nth_error (compacted rs idx comb) j)) (length rs) =
                glastset (fun j => geffO e imp s (nth_error rs j)) (length rs)).
      { intros Hr Hc. apply glastset_ext. intros j Hj. rewrite (nth_compacted rs idx comb rk Hn).
        destruct (Nat.eqb j (last4 idx)) eqn:El.
        - apply Nat.eqb_eq in El. subst j. cbn [geffO]. rewrite Hc, Ekl, (Hn kl Hkl). cbn [geffO]. rewrite Hr by exact Hkl. reflexivity.
        - destruct (is_idx idx j) eqn:Ei; [|reflexivity]. destruct (Hmod j Ei) as [k [Hk E]]. rewrite E, Hr by exact Hk. reflexivity. }
      destruct (bool_dec imp0 imp) as [Eimp|Eimp].
      2:{ assert (Ef : Bool.eqb imp0 imp = false) by (apply Bool.eqb_false_iff; exact Eimp).
          apply Hpoint.
          - intros k Hk. unfold geff. rewrite (Himp k Hk), Ef. reflexivity.
          - unfold geff. rewrite Himpc, Ef. reflexivity. }
      destruct (le_lt_dec 4 s) as [Hs|Hs].
      { apply Hpoint.
        - intros k Hk. apply geff_none. apply Hhi; assumption.
        - apply geff_none. apply Hhic; assumption. }
      destruct (Hsem e) as [HV|[HN HNc]].
      2:{ apply Hpoint.
          - intros k Hk. apply geff_none. apply HN; assumption.
          - apply geff_none. apply HNc. }
      (* otherwise rule s and comb both set s to v, rule s is the last that affects s, and comb sits no earlier *)
      destruct (HV s Hs) as [v [Hv1 Hv2]].
      assert (Hafter' : forall j, (idx s < j)%nat -> geffO e imp s (nth_error rs j) = None).
      { intros j Hj. destruct (nth_error rs j) as [[r'|]|] eqn:En; try reflexivity. cbn [geffO].
        apply geff_none. apply gsets_affects. apply (Hafter s j r' Hs Hj En). }
      transitivity (Some v).
      + apply (glastset_at _ _ (last4 idx) v).
        * rewrite Ekl; apply (idx_lt rs idx rk Hn); exact Hkl.
        * rewrite (nth_compacted rs idx comb rk Hn), Nat.eqb_refl. cbn [geffO]. unfold geff. rewrite Himpc, Eimp, Bool.eqb_reflx. exact Hv2.
        * intros j' H1 H2. rewrite (nth_compacted rs idx comb rk Hn).
          assert (E1 : Nat.eqb j' (last4 idx) = false) by (apply Nat.eqb_neq; lia). rewrite E1.
          destruct (is_idx idx j') eqn:Ei; [reflexivity|].
          apply Hafter'. pose proof (last4_ge idx s Hs). lia.
      + symmetry. apply (glastset_at _ _ (idx s) v).
        * apply (idx_lt rs idx rk Hn); exact Hs.
        * rewrite (Hn s Hs). cbn [geffO]. unfold geff. rewrite (Himp s Hs), Eimp, Bool.eqb_reflx. exact Hv1.
        * intros j' H1 H2. apply Hafter'. exact H1.
    - symmetry. apply other_pointwise; [symmetry; exact HL|]. intros j. rewrite (nth_compacted rs idx comb rk Hn).
      destruct (Nat.eqb j (last4 idx)) eqn:El.
      + apply Nat.eqb_eq in El. subst j. rewrite Ekl, (Hn kl Hkl), (Hoth kl Hkl), Hothc. reflexivity.
      + destruct (is_idx idx j) eqn:Ei; [|reflexivity].
        destruct (is_idx_true idx j Ei) as [k [Hk ->]]. rewrite (Hn k Hk), (Hoth k Hk). reflexivity.
  Qed.
  End GCompact.
End Gen.
