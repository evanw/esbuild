(* compactRules on the rule array: four entries blanked, one written at the
   greatest of their indices. *)
From V Require Import Common.Base C12.Mangle C12.BoxTracker C12.BoxSpec C12.BoxLemmas.

Section Compact.
  Variable rs : rules.
  Variable idx : nat -> nat.
  Variable comb : bdecl.

  Definition last4 : nat := Nat.max (Nat.max (idx 0) (idx 1)) (Nat.max (idx 2) (idx 3)).
  Definition blanked : rules :=
    set_nth (idx 3) None (set_nth (idx 2) None (set_nth (idx 1) None (set_nth (idx 0) None rs))).
  Definition compacted : rules := set_nth last4 (Some comb) blanked.

  Definition is_idx (j : nat) : bool :=
    Nat.eqb j (idx 0) || Nat.eqb j (idx 1) || Nat.eqb j (idx 2) || Nat.eqb j (idx 3).

  Lemma is_idx_true j : is_idx j = true -> exists k, (k < 4)%nat /\ j = idx k.
  Proof.
    unfold is_idx. intros H. repeat (apply orb_true_iff in H as [H|H]); apply Nat.eqb_eq in H.
    - exists 0%nat; split; [lia | exact H].
    - exists 1%nat; split; [lia | exact H].
    - exists 2%nat; split; [lia | exact H].
    - exists 3%nat; split; [lia | exact H].
  Qed.

  Lemma last4_is : exists k, (k < 4)%nat /\ last4 = idx k.
  Proof.
    unfold last4.
    destruct (Nat.max_dec (Nat.max (idx 0) (idx 1)) (Nat.max (idx 2) (idx 3))) as [-> | ->].
    - destruct (Nat.max_dec (idx 0) (idx 1)) as [-> | ->].
      + exists 0%nat. split; [lia | reflexivity].
      + exists 1%nat. split; [lia | reflexivity].
    - destruct (Nat.max_dec (idx 2) (idx 3)) as [-> | ->].
      + exists 2%nat. split; [lia | reflexivity].
      + exists 3%nat. split; [lia | reflexivity].
  Qed.

  Lemma last4_ge k : (k < 4)%nat -> (idx k <= last4)%nat.
  Proof. intros H. unfold last4. destruct k as [|[|[|[|]]]]; lia. Qed.

  Variable rk : nat -> bdecl.
  Hypothesis Hn : forall k, (k < 4)%nat -> nth_error rs (idx k) = Some (Some (rk k)).

  Lemma idx_lt k : (k < 4)%nat -> (idx k < length rs)%nat.
  Proof. intros H. apply nth_error_Some. rewrite (Hn k H). discriminate. Qed.

  Lemma idx_is k : (k < 4)%nat -> is_idx (idx k) = true.
  Proof.
    intros H. unfold is_idx. destruct k as [|[|[|[|]]]]; try lia; rewrite Nat.eqb_refl; rewrite ?orb_true_r; reflexivity.
  Qed.

  Lemma nth_blanked j : nth_error blanked j = if is_idx j then Some None else nth_error rs j.
  Proof.
    unfold blanked, is_idx. rewrite !nth_set_nth, !set_nth_length.
    pose proof (idx_lt 0 ltac:(lia)) as L0. pose proof (idx_lt 1 ltac:(lia)) as L1.
    pose proof (idx_lt 2 ltac:(lia)) as L2. pose proof (idx_lt 3 ltac:(lia)) as L3.
    apply Nat.ltb_lt in L0, L1, L2, L3. rewrite L0, L1, L2, L3, !andb_true_r.
    destruct (Nat.eqb j (idx 0)), (Nat.eqb j (idx 1)), (Nat.eqb j (idx 2)), (Nat.eqb j (idx 3)); reflexivity.
  Qed.

  Lemma nth_compacted j : nth_error compacted j =
    if Nat.eqb j last4 then Some (Some comb) else if is_idx j then Some None else nth_error rs j.
  Proof.
    unfold compacted. rewrite nth_set_nth. unfold blanked at 1. rewrite !set_nth_length.
    destruct last4_is as [k [Hk Ek]]. pose proof (idx_lt k Hk) as L. rewrite <- Ek in L.
    apply Nat.ltb_lt in L. rewrite L, andb_true_r.
    destruct (Nat.eqb j last4); [reflexivity | apply nth_blanked].
  Qed.

End Compact.
