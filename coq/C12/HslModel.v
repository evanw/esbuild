(* C12 model, part 9: internal/css_parser/css_decls_color.go hslToRgb, hueToRgb,
   hwbToRgb (the hue is normalised with hue - floor(hue), any number of
   turns), in exact rational arithmetic, and its agreement with the CSS Color 4
   conversion of HslSpec.v for all rational arguments (hsl_model_is_spec,
   hwb_model_is_spec).  hue_grid and pct_grid are the grid of the two statements
   in Properties.v: every multiple of 30 degrees over six turns (-1080 .. 1080),
   further hues next to the breakpoints and the turn boundaries, percentages at,
   inside and beyond the [0%, 100%] boundaries.  Tied to the Go code by
   hslrgb_cases (the printed bytes are compared with the model AND the spec). *)
From Coq Require Import QArith Qround Qabs Lqa.
From V Require Import Common.Base C12.HslSpec.
Local Open Scope Q_scope.

Definition lerp (a b t : Q) : Q := a + (b - a) * t.

Definition hue_to_rgb (t1 t2 hue : Q) : Q :=
  let hue := hue - inject_Z (Qfloor hue) in
  let hue := hue * 6 in
  if Qle_bool 1 hue then
    if Qle_bool 3 hue then
      if Qle_bool 4 hue then t1 else lerp t1 t2 (4 - hue)
    else t2
  else lerp t1 t2 hue.

(* hue in degrees, sat and light fractions in [0,1] *)
Definition hsl_to_rgb (hue sat light : Q) : Q * Q * Q :=
  let hue := hue / 360 in
  let t2 := if Qle_bool light (1 # 2) then (sat + 1) * light else light + sat - light * sat in
  let t1 := light * 2 - t2 in
  (hue_to_rgb t1 t2 (hue + (1 # 3)), hue_to_rgb t1 t2 hue, hue_to_rgb t1 t2 (hue - (1 # 3))).

Definition hwb_to_rgb (hue white black : Q) : Q * Q * Q :=
  if Qle_bool 1 (white + black) then
    let gray := white / (white + black) in (gray, gray, gray)
  else
    let delta := 1 - (white + black) in
    let '(r, g, b) := hsl_to_rgb hue 1 (1 # 2) in
    (delta * r + white, delta * g + white, delta * b + white).

(* with the percentages clamped as ClampedFractionForPercentage does *)
Definition model_hsl (hue sat light : Q) : Q * Q * Q := hsl_to_rgb hue (clamp01 (sat / 100)) (clamp01 (light / 100)).
Definition model_hwb (hue white black : Q) : Q * Q * Q := hwb_to_rgb hue (clamp01 (white / 100)) (clamp01 (black / 100)).

Definition rgb_eqb (a b : Q * Q * Q) : bool :=
  let '(r1, g1, b1) := a in let '(r2, g2, b2) := b in Qeq_bool r1 r2 && Qeq_bool g1 g2 && Qeq_bool b1 b2.

Definition hue_grid : list Z := map (fun i => (30 * Z.of_nat i - 1080)%Z) (seq 0 73) ++ [1; -1; 7; 59; 61; 119; 121; 359; 361; 601; -241; 719; 721; -359; -361; 1000; -1000]%Z.
Definition pct_grid : list Z := [-10; 0; 30; 50; 70; 100]%Z.

(* Model and specification agree for all rational arguments.  Both compute, per
   channel, light - a * c with a = sat * min(light, 1 - light): the model as
   t1 = light - a, t2 = light + a and a piecewise-linear function of
   x = 6 frac(y + 1/3), the specification through k = 12 frac(y), where y is the
   hue in turns shifted by 0, 1/3 or 2/3 for the three channels (channel_rel). *)
Lemma floor_lt x : x < inject_Z (Qfloor x) + 1.
Proof. pose proof (Qlt_floor x) as F. rewrite inject_Z_plus in F. exact F. Qed.

Lemma floor_unique x z : inject_Z z <= x -> x < inject_Z z + 1 -> Qfloor x = z.
Proof.
  intros H1 H2. pose proof (Qfloor_le x) as F1. pose proof (floor_lt x) as F2.
  assert (A : (z < Qfloor x + 1)%Z) by (rewrite Zlt_Qlt, inject_Z_plus; change (inject_Z 1) with 1; lra).
  assert (B : (Qfloor x < z + 1)%Z) by (rewrite Zlt_Qlt, inject_Z_plus; change (inject_Z 1) with 1; lra).
  lia.
Qed.

Definition frac (x : Q) : Q := x - inject_Z (Qfloor x).

Lemma frac_bounds x : 0 <= frac x /\ frac x < 1.
Proof.
  unfold frac. pose proof (Qfloor_le x) as F1. pose proof (floor_lt x) as F2. split; lra.
Qed.

Lemma frac_comp x y : x == y -> frac x == frac y.
Proof. intros E. unfold frac. rewrite (Qfloor_comp x y E). lra. Qed.

Lemma frac_unique x r i : x == r + inject_Z i -> 0 <= r -> r < 1 -> frac x == r.
Proof. intros E H0 H1. unfold frac. rewrite (floor_unique x i) by lra. lra. Qed.

Lemma frac_shift x x' i : x == x' + inject_Z i -> frac x == frac x'.
Proof.
  intros E. destruct (frac_bounds x') as [B0 B1].
  apply (frac_unique x (frac x') (Qfloor x' + i)); [|exact B0|exact B1].
  rewrite inject_Z_plus. unfold frac. lra.
Qed.

Lemma qle_cases a b : (Qle_bool a b = true /\ a <= b) \/ (Qle_bool a b = false /\ b < a).
Proof.
  destruct (Qle_bool a b) eqn:E; [left | right]; split; try reflexivity.
  - apply Qle_bool_iff. exact E.
  - apply Qnot_le_lt. intros H. apply Qle_bool_iff in H. congruence.
Qed.

Lemma qmin_comp a a' b b' : a == a' -> b == b' -> qmin a b == qmin a' b'.
Proof. intros Ha Hb. unfold qmin. rewrite (Qleb_comp _ _ Ha _ _ Hb). destruct (Qle_bool a' b'); assumption. Qed.

Lemma qmax_comp a a' b b' : a == a' -> b == b' -> qmax a b == qmax a' b'.
Proof. intros Ha Hb. unfold qmax. rewrite (Qleb_comp _ _ Ha _ _ Hb). destruct (Qle_bool a' b'); assumption. Qed.

(* two colours with == channels *)
Definition teq (x y : Q * Q * Q) : Prop :=
  fst (fst x) == fst (fst y) /\ snd (fst x) == snd (fst y) /\ snd x == snd y.

Lemma teq_trans x y z : teq x y -> teq y z -> teq x z.
Proof. intros [A [B C]] [D [E F]]. repeat split; etransitivity; eassumption. Qed.

Lemma rgb_eqb_iff x y : rgb_eqb x y = true <-> teq x y.
Proof.
  destruct x as [[a b] c], y as [[d e] f]. unfold teq. cbn [fst snd rgb_eqb].
  rewrite !andb_true_iff, !Qeq_bool_iff. tauto.
Qed.

(* hueToRgb after the hue is normalised to [0, 6) *)
Definition norm6 (hue : Q) : Q := frac hue * 6.
Definition pick (t1 t2 hue : Q) : Q :=
  if Qle_bool 1 hue then
    if Qle_bool 3 hue then
      if Qle_bool 4 hue then t1 else lerp t1 t2 (4 - hue)
    else t2
  else lerp t1 t2 hue.

Lemma hue_to_rgb_pick t1 t2 hue : hue_to_rgb t1 t2 hue = pick t1 t2 (norm6 hue).
Proof. reflexivity. Qed.

Lemma pick_comp t1 t1' t2 t2' h h' : t1 == t1' -> t2 == t2' -> h == h' -> pick t1 t2 h == pick t1' t2' h'.
Proof.
  intros E1 E2 E3. unfold pick, lerp.
  assert (L1 : Qle_bool 1 h = Qle_bool 1 h') by (rewrite E3; reflexivity).
  assert (L3 : Qle_bool 3 h = Qle_bool 3 h') by (rewrite E3; reflexivity).
  assert (L4 : Qle_bool 4 h = Qle_bool 4 h') by (rewrite E3; reflexivity).
  rewrite L1, L3, L4.
  destruct (Qle_bool 1 h'), (Qle_bool 3 h'), (Qle_bool 4 h'); rewrite ?E1, ?E2, ?E3; reflexivity.
Qed.

Lemma pick_cases t1 t2 x :
  (x < 1 -> pick t1 t2 x == t1 + (t2 - t1) * x) /\ (1 <= x -> x < 3 -> pick t1 t2 x == t2) /\
  (3 <= x -> x < 4 -> pick t1 t2 x == t1 + (t2 - t1) * (4 - x)) /\ (4 <= x -> pick t1 t2 x == t1).
Proof.
  unfold pick, lerp.
  destruct (qle_cases 1 x) as [[-> A]|[-> A]];
    [destruct (qle_cases 3 x) as [[-> B]|[-> B]]; [destruct (qle_cases 4 x) as [[-> C]|[-> C]]|]|];
    repeat split; intros; try reflexivity; lra.
Qed.

(* the clamped factor of the specification's f, as a function of k *)
Definition cfac (k : Q) : Q := qmax (-1) (qmin (qmin (k - 3) (9 - k)) 1).

Lemma cfac_eq k : cfac k = qmax (-1) (qmin (qmin (k - 3) (9 - k)) 1).
Proof. reflexivity. Qed.

Lemma cfac_comp k k' : k == k' -> cfac k == cfac k'.
Proof.
  intros E. unfold cfac. apply qmax_comp; [reflexivity|].
  apply qmin_comp; [apply qmin_comp; rewrite E; reflexivity | reflexivity].
Qed.

Lemma cfac_cases k :
  (k <= 2 -> cfac k == -1) /\ (2 <= k -> k <= 4 -> cfac k == k - 3) /\ (4 <= k -> k <= 8 -> cfac k == 1) /\
  (8 <= k -> k <= 10 -> cfac k == 9 - k) /\ (10 <= k -> cfac k == -1).
Proof.
  unfold cfac, qmax, qmin.
  destruct (qle_cases (k - 3) (9 - k)) as [[-> A]|[-> A]].
  - destruct (qle_cases (k - 3) 1) as [[-> B]|[-> B]].
    + destruct (qle_cases (-1) (k - 3)) as [[-> C]|[-> C]]; repeat split; intros; lra.
    + destruct (qle_cases (-1) 1) as [[-> C]|[-> C]]; repeat split; intros; lra.
  - destruct (qle_cases (9 - k) 1) as [[-> B]|[-> B]].
    + destruct (qle_cases (-1) (9 - k)) as [[-> C]|[-> C]]; repeat split; intros; lra.
    + destruct (qle_cases (-1) 1) as [[-> C]|[-> C]]; repeat split; intros; lra.
Qed.

(* t2 = light + a (and so t1 = 2 light - t2 = light - a), a the amplitude of the specification *)
Lemma t2_amp S L : (if Qle_bool L (1 # 2) then (S + 1) * L else L + S - L * S) == L + S * qmin L (1 - L).
Proof.
  unfold qmin.
  destruct (qle_cases L (1 # 2)) as [[-> A]|[-> A]], (qle_cases L (1 - L)) as [[-> B]|[-> B]]; try lra; ring.
Qed.

(* with u = frac y: 6 frac (y + 1/3) is 6u + 2 or 6u - 4, and on each piece of
   the model's function of it the specification's factor of 12u is linear too *)
Lemma channel_rel y L a : pick (L - a) (L + a) (6 * frac (y + (1 # 3))) == L - a * cfac (12 * frac y).
Proof.
  destruct (frac_bounds y) as [U0 U1]. set (u := frac y) in *.
  destruct (pick_cases (L - a) (L + a) (6 * frac (y + (1 # 3)))) as [P1 [P2 [P3 P4]]].
  destruct (cfac_cases (12 * u)) as [C1 [C2 [C3 [C4 C5]]]].
  destruct (Qlt_le_dec u (2 # 3)) as [H|H].
  - assert (X : 6 * frac (y + (1 # 3)) == 6 * u + 2).
    { rewrite (frac_unique _ (u + (1 # 3)) (Qfloor y)); [ring | unfold u, frac; lra | lra | lra]. }
    destruct (Qlt_le_dec u (1 # 6)) as [H1|H1]; [|destruct (Qlt_le_dec u (1 # 3)) as [H2|H2]].
    + rewrite P2, C1 by lra. ring.
    + rewrite P3, C2 by lra. rewrite X. ring.
    + rewrite P4, C3 by lra. ring.
  - assert (X : 6 * frac (y + (1 # 3)) == 6 * u - 4).
    { rewrite (frac_unique _ (u - (2 # 3)) (Qfloor y + 1)); [ring | | lra | lra].
      rewrite inject_Z_plus. change (inject_Z 1) with 1. unfold u, frac. lra. }
    destruct (Qlt_le_dec u (5 # 6)) as [H1|H1].
    + rewrite P1, C4 by lra. rewrite X. ring.
    + rewrite P2, C5 by lra. ring.
Qed.

(* the specification's k for the offset n, where n/12 is c plus an integer *)
Lemma spec_k h n c m : n / 12 == c + inject_Z m ->
  qmod (n + qmod h 360 / 30) 12 == 12 * frac (h / 360 + c).
Proof.
  intros En. unfold qmod. set (z := Qfloor (h / 360)).
  set (X := n + (h - 360 * inject_Z z) / 30).
  assert (F : frac (X / 12) == frac (h / 360 + c)).
  { apply (frac_shift _ _ (m - z)). unfold X, Z.sub. rewrite inject_Z_plus, inject_Z_opp.
    unfold Qdiv in *. change (/ 12) with (1 # 12) in *. change (/ 30) with (1 # 30). change (/ 360) with (1 # 360). lra. }
  rewrite <- F. unfold frac, Qdiv. change (/ 12) with (1 # 12). lra.
Qed.

Lemma channel_ok h S L n c m t1 t2 x :
  n / 12 == c + inject_Z m -> x == h / 360 + c + (1 # 3) ->
  t1 == L - S * qmin L (1 - L) -> t2 == L + S * qmin L (1 - L) ->
  pick t1 t2 (norm6 x) == L - S * qmin L (1 - L) * cfac (qmod (n + qmod h 360 / 30) 12).
Proof.
  intros En Ex E1 E2. rewrite (cfac_comp _ _ (spec_k h n c m En)), <- channel_rel.
  apply pick_comp; [exact E1 | exact E2 |].
  unfold norm6. rewrite (frac_comp _ _ Ex). ring.
Qed.

Theorem hsl_model_is_spec h s l : teq (model_hsl h s l) (hsl_spec h s l).
Proof.
  unfold model_hsl, hsl_to_rgb, hsl_spec. cbv beta zeta. rewrite !hue_to_rgb_pick, <- !cfac_eq.
  generalize (clamp01 (s / 100)) (clamp01 (l / 100)). intros S L.
  pose proof (t2_amp S L) as T2.
  assert (T1 : L * 2 - (if Qle_bool L (1 # 2) then (S + 1) * L else L + S - L * S) == L - S * qmin L (1 - L)).
  { rewrite T2. ring. }
  unfold teq. cbn [fst snd]. repeat split.
  - apply (channel_ok h S L 0 0 0%Z _ _ _ (eq_refl : 0 / 12 == 0 + inject_Z 0)).
    + ring.
    + exact T1.
    + exact T2.
  - apply (channel_ok h S L 8 (- (1 # 3)) 1%Z _ _ _ (eq_refl : 8 / 12 == - (1 # 3) + inject_Z 1)).
    + ring.
    + exact T1.
    + exact T2.
  - apply (channel_ok h S L 4 (- (2 # 3)) 1%Z _ _ _ (eq_refl : 4 / 12 == - (2 # 3) + inject_Z 1)).
    + ring.
    + exact T1.
    + exact T2.
Qed.

Theorem hsl_grid_all : forall h s l, In h hue_grid -> In s pct_grid -> In l pct_grid ->
  rgb_eqb (model_hsl (inject_Z h) (inject_Z s) (inject_Z l)) (hsl_spec (inject_Z h) (inject_Z s) (inject_Z l)) = true.
Proof. intros h s l _ _ _. apply rgb_eqb_iff, hsl_model_is_spec. Qed.

Lemma hsl_to_rgb_comp h s s' l l' : s == s' -> l == l' -> teq (hsl_to_rgb h s l) (hsl_to_rgb h s' l').
Proof.
  intros Es El. unfold hsl_to_rgb. cbv zeta. rewrite !hue_to_rgb_pick.
  assert (L : Qle_bool l (1 # 2) = Qle_bool l' (1 # 2)) by (rewrite El; reflexivity).
  assert (T2 : (if Qle_bool l (1 # 2) then (s + 1) * l else l + s - l * s) ==
               (if Qle_bool l' (1 # 2) then (s' + 1) * l' else l' + s' - l' * s')).
  { rewrite L. destruct (Qle_bool l' (1 # 2)); rewrite Es, El; reflexivity. }
  unfold teq. cbn [fst snd]. repeat split; apply pick_comp; rewrite ?T2, ?El; reflexivity.
Qed.

(* hwbToRgb and the specification's hwbToRgb differ only in how a channel c of
   the fully saturated colour of the hue is mixed with white: ch *)
Definition hwb_with (ch : Q -> Q) (m : Q * Q * Q) (white black : Q) : Q * Q * Q :=
  if Qle_bool 1 (white + black) then
    let gray := white / (white + black) in (gray, gray, gray)
  else
    let '(r, g, b) := m in (ch r, ch g, ch b).

Lemma hwb_with_teq ch ch' m m' w w' b b' : (forall c c', c == c' -> ch c == ch' c') ->
  teq m m' -> w == w' -> b == b' -> teq (hwb_with ch m w b) (hwb_with ch' m' w' b').
Proof.
  intros Hch Hm Hw Hb. unfold hwb_with.
  assert (L : Qle_bool 1 (w + b) = Qle_bool 1 (w' + b')) by (rewrite Hw, Hb; reflexivity).
  rewrite L. destruct (Qle_bool 1 (w' + b')).
  - unfold teq. cbn [fst snd]. rewrite Hw, Hb. repeat split; reflexivity.
  - destruct m as [[r g] c], m' as [[r' g'] c'], Hm as [A [B C]]. cbn [fst snd] in *.
    repeat split; apply Hch; assumption.
Qed.

(* both mix the same colour with white, by formulas that are equal as polynomials *)
Theorem hwb_model_is_spec h w k : teq (model_hwb h w k) (hwb_spec h w k).
Proof.
  set (W := clamp01 (w / 100)). set (K := clamp01 (k / 100)).
  change (teq (hwb_with (fun c => (1 - (W + K)) * c + W) (hsl_to_rgb h 1 (1 # 2)) W K)
              (hwb_with (fun c => c * (1 - W - K) + W) (hsl_spec h 100 50) W K)).
  apply hwb_with_teq; try reflexivity.
  - intros c c' Hc. rewrite Hc. ring.
  - apply (teq_trans _ (model_hsl h 100 50)); [|apply hsl_model_is_spec].
    unfold model_hsl. apply hsl_to_rgb_comp; unfold Qeq; reflexivity.
Qed.

Theorem hwb_grid_all : forall h w k, In h hue_grid -> In w pct_grid -> In k pct_grid ->
  rgb_eqb (model_hwb (inject_Z h) (inject_Z w) (inject_Z k)) (hwb_spec (inject_Z h) (inject_Z w) (inject_Z k)) = true.
Proof. intros h w k _ _ _. apply rgb_eqb_iff, hwb_model_is_spec. Qed.

(* the seeded single-step wrap is NOT the spec: hsl(720 100% 50%) *)
Definition hue_to_rgb_one_step (t1 t2 hue : Q) : Q :=
  let hue := if Qle_bool 0 hue then (if Qle_bool 1 hue then hue - 1 else hue) else hue + 1 in
  let hue := hue * 6 in
  if Qle_bool 1 hue then
    if Qle_bool 3 hue then
      if Qle_bool 4 hue then t1 else lerp t1 t2 (4 - hue)
    else t2
  else lerp t1 t2 hue.
Lemma one_step_wrap_differs : Qeq_bool (hue_to_rgb_one_step 0 1 (2 + (1 # 3))) (hue_to_rgb 0 1 (2 + (1 # 3))) = false.
Proof. vm_compute. reflexivity. Qed.

(* correspondence: the printed bytes against model and spec *)
Definition hslrgb_both_ok (c : Z * Z * Z * Z * Z * Z * (Z * Z * Z)) : bool :=
  let '(fn, unit, num, den, p1, p2, (r, g, b)) := c in
  let h := degrees unit num den in
  let '(mr, mg, mb) := if (fn =? 0)%Z then model_hsl h (inject_Z p1) (inject_Z p2) else model_hwb h (inject_Z p1) (inject_Z p2) in
  hslrgb_ok c && byte_ok mr r && byte_ok mg g && byte_ok mb b.
