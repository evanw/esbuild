(* C12 model, part 4: internal/linker/linker.go isConditionalImportRedundant
   (is an earlier copy of an imported file, wrapped in the condition chain
   [earlier], made redundant by a later copy wrapped in [later]?).
   An import condition is the identity of its layer token, supports token and
   media query list ([] = absent); TokensEqualIgnoringWhitespace /
   MediaQueriesEqualIgnoringWhitespace are equality of identities.
   With the specification of what a condition chain means and the soundness
   proof. *)
From V Require Import Common.Base.

Record icond := mkIC { ic_layer : list Z; ic_supp : list Z; ic_media : list Z }.

Definition nilb {A} (l : list A) : bool := match l with [] => true | _ => false end.

Fixpoint redundant (earlier later : list icond) : bool :=
  match later, earlier with
  | [], _ => true
  | _ :: _, [] => false                         (* len(later) > len(earlier) *)
  | b :: lt, a :: et =>
    if zlist_eqb (ic_layer a) (ic_layer b) then
      let sameS := zlist_eqb (ic_supp a) (ic_supp b) in
      let sameM := zlist_eqb (ic_media a) (ic_media b) in
      if (sameS && sameM) || (sameM && nilb (ic_supp b)) || (sameS && nilb (ic_media b))
      then redundant et lt else false
    else false
  end.

(* what a chain of import conditions means (CSS Cascade 5, section 2.1:
   "@import url supports(S) M" applies iff S is supported and M matches) *)
Section Meaning.
  Variable supp_true : list Z -> bool.     (* truth of a supports() condition *)
  Variable media_true : list Z -> bool.    (* truth of a media query list *)
  Definition cond_holds (c : icond) : bool :=
    (nilb (ic_supp c) || supp_true (ic_supp c)) && (nilb (ic_media c) || media_true (ic_media c)).
  Definition chain_holds (l : list icond) : bool := forallb cond_holds l.

  (* if the check says "redundant", the later copy applies whenever the earlier
     one does, and sits in the same layers along the later chain *)
  Theorem redundant_sound_all : forall earlier later,
    redundant earlier later = true ->
    (chain_holds earlier = true -> chain_holds later = true) /\
    map ic_layer (firstn (length later) earlier) = map ic_layer later.
  Proof.
    induction earlier as [|a et IH]; intros [|b lt] H; cbn [redundant] in H; try discriminate.
    - split; [intros _; reflexivity | reflexivity].
    - split; [intros _; reflexivity | reflexivity].
    - destruct (zlist_eqb (ic_layer a) (ic_layer b)) eqn:EL; [|discriminate].
      apply zlist_eqb_eq in EL.
      destruct ((zlist_eqb (ic_supp a) (ic_supp b) && zlist_eqb (ic_media a) (ic_media b))
                || (zlist_eqb (ic_media a) (ic_media b) && nilb (ic_supp b))
                || (zlist_eqb (ic_supp a) (ic_supp b) && nilb (ic_media b))) eqn:EC; [|discriminate].
      destruct (IH lt H) as [IH1 IH2]. split.
      + cbn [chain_holds forallb]. intros Hh. apply andb_true_iff in Hh as [Ha Het].
        apply andb_true_iff. split; [|apply IH1; exact Het].
        unfold cond_holds in *. apply andb_true_iff in Ha as [Hs Hm].
        apply orb_true_iff in EC as [EC|EC]; [apply orb_true_iff in EC as [EC|EC]|];
          apply andb_true_iff in EC as [E1 E2].
        * apply zlist_eqb_eq in E1, E2. rewrite <- E1, <- E2, Hs, Hm. reflexivity.
        * apply zlist_eqb_eq in E1. rewrite <- E1, Hm, E2. reflexivity.
        * apply zlist_eqb_eq in E1. rewrite <- E1, Hs, E2. rewrite orb_true_l. reflexivity.
      + cbn [length firstn map]. rewrite IH2, EL. reflexivity.
  Qed.
End Meaning.
