(* The ":is()-available / single parent" branch of nesting lowering preserves
   which elements a nested rule's selector matches (CSS Nesting 1: "&" stands
   for :is(parent selector list)). *)
From V Require Import Common.Base C12.Nesting.
Require Import Btauto.

Lemma mem_tab n f x : (x < n)%nat -> mem (tab n f) x = f x.
Proof.
  intros H. unfold mem, tab. rewrite (nth_indep _ false (f O)) by (rewrite map_length, seq_length; exact H).
  rewrite map_nth, seq_nth by exact H. reflexivity.
Qed.
Lemma tab_ext n f g : (forall x, (x < n)%nat -> f x = g x) -> tab n f = tab n g.
Proof. intros H. unfold tab. apply map_ext_in. intros x Hx. apply in_seq in Hx. apply H. lia. Qed.

Lemma xapp_nil_r a : xapp a XNil = a.
Proof. induction a as [|c r IH]; cbn; [reflexivity | rewrite IH; reflexivity]. Qed.
Lemma xapp_assoc a b c : xapp (xapp a b) c = xapp a (xapp b c).
Proof. induction a as [|x r IH]; cbn; [reflexivity | rewrite IH; reflexivity]. Qed.

Lemma xsplit_none R : xsplit R = None -> R = XNil.
Proof.
  destruct R as [|c r]; [reflexivity|]. cbn [xsplit]. destruct (xsplit r) as [[p l]|]; discriminate.
Qed.

Lemma xsplit_snoc : forall R p s, xsplit R = Some (p, s) -> R = xsnoc p s /\ xlen R = S (xlen p).
Proof.
  induction R as [|c r IH]; intros p s H; cbn in H; [discriminate|].
  destruct (xsplit r) as [[p0 l0]|] eqn:E.
  - inversion H; subst. destruct (IH p0 s eq_refl) as [-> HL]. split; [reflexivity|]. cbn. rewrite HL. reflexivity.
  - inversion H; subst. rewrite (xsplit_none r E). split; reflexivity.
Qed.

Lemma has_amp_snoc p s : has_amp_x (xsnoc p s) = has_amp_x p || has_amp_c s.
Proof. induction p as [|c r IH]; cbn; [btauto | unfold xsnoc in IH; rewrite IH; btauto]. Qed.

Lemma ev_cons D A c r L :
  ev D A (XCons c r) L = ev D A r (Some (tab (size D) (fun x => ok_c D A c x && relpart D L (c_comb c) x))).
Proof. reflexivity. Qed.

Section Proofs.
  Variable D : dom.
  Variable A : list bool.
  Notation n := (size D).

  Lemma ev_app a : forall b L, ev D A (xapp a b) L = ev D A b (ev D A a L).
  Proof. induction a as [|c r IH]; intros b L; cbn; [reflexivity | apply IH]. Qed.
  Lemma ev_snoc a c L : ev D A (xsnoc a c) L = ev D A (XCons c XNil) (ev D A a L).
  Proof. apply ev_app. Qed.
  Lemma ev_one c L : ev D A (XCons c XNil) L = Some (tab n (fun x => ok_c D A c x && relpart D L (c_comb c) x)).
  Proof. reflexivity. Qed.
  Lemma ev_clear_first p : ev D A (clear_first p) None = ev D A p None.
  Proof. destruct p as [|c r]; [reflexivity|]. destruct c. reflexivity. Qed.
  Definition tyok (t : option Z) (x : nat) : bool := match t with Some u => d_ty D x u | None => true end.
  Lemma ok_c_eq k a t s x : ok_c D A (Cp k a t s) x = (if a then mem A x else true) && tyok t x && ok_s D A s x.
  Proof. reflexivity. Qed.
  Lemma ok_s_nil x : ok_s D A SNil x = true. Proof. reflexivity. Qed.
  Lemma ok_s_class i r x : ok_s D A (SClass i r) x = d_cls D x i && ok_s D A r x. Proof. reflexivity. Qed.
  Lemma ok_s_pc ng l r x : ok_s D A (SPc ng l r) x = xorb ng (ok_l D A l x) && ok_s D A r x. Proof. reflexivity. Qed.
  Lemma ok_l_nil x : ok_l D A LNil x = false. Proof. reflexivity. Qed.
  Lemma ok_l_cons cx r x :
    ok_l D A (LCons cx r) x = (match ev D A cx None with Some S0 => mem S0 x | None => false end) || ok_l D A r x.
  Proof. reflexivity. Qed.

  Lemma ok_s_app a b x : ok_s D A (sapp a b) x = ok_s D A a x && ok_s D A b x.
  Proof.
    induction a as [|i r IH|ng l r IH]; cbn [sapp]; [reflexivity | |].
    - rewrite !ok_s_class, IH. btauto.
    - rewrite !ok_s_pc, IH. btauto.
  Qed.
  Lemma ok_clear c x : ok_c D A (clear_comb c) x = ok_c D A c x.
  Proof. destruct c; reflexivity. Qed.

  Lemma ok_is_type u x : (x < n)%nat -> ok_s D A (is_type u) x = d_ty D x u.
  Proof.
    intros Hx. unfold is_type. rewrite ok_s_pc, ok_l_cons, ok_l_nil, ok_s_nil, ev_one, mem_tab by exact Hx.
    rewrite ok_c_eq, ok_s_nil. cbn [tyok relpart xorb]. btauto.
  Qed.

  Lemma ok_merge k k0 ts ss sty ssubs x : (x < n)%nat ->
    ok_c D A (merge_into k (Cp k0 false ts ss) sty ssubs) x = ok_c D A (Cp k0 false ts ss) x && tyok sty x && ok_s D A ssubs x.
  Proof.
    intros Hx. unfold merge_into. cbn [c_ty c_subs]. destruct ts as [t|]; rewrite !ok_c_eq.
    - rewrite !ok_s_app. destruct sty as [u|]; cbn [tyok]; [rewrite ok_is_type by exact Hx | rewrite ok_s_nil]; btauto.
    - rewrite ok_s_app. cbn [tyok]. btauto.
  Qed.
  Lemma comb_merge k single sty ssubs : c_comb (merge_into k single sty ssubs) = k.
  Proof. unfold merge_into. destruct (c_ty single); reflexivity. Qed.

  Lemma ev_snoc_merge R k k0 ts ss sty ssubs :
    ev D A (xsnoc R (merge_into k (Cp k0 false ts ss) sty ssubs)) None =
    Some (tab n (fun x => ok_c D A (Cp k0 false ts ss) x && tyok sty x && ok_s D A ssubs x &&
                          relpart D (ev D A R None) k x)).
  Proof.
    rewrite ev_snoc, ev_one. f_equal. apply tab_ext. intros x Hx.
    rewrite comb_merge, ok_merge by exact Hx. reflexivity.
  Qed.

  (* the replacement for "&": no leading combinator, no "&" of its own, and it
     matches exactly the elements "&" stands for *)
  Variable repl : complex.
  Hypothesis HR1 : first_comb repl = 0.
  Hypothesis HR2 : ev D A repl None = Some A.
  Hypothesis HR3 : has_amp_x repl = false.

  Lemma subst_amp_ok strip scomb sty ssubs ssubs' results :
    (forall x, ok_s D A ssubs' x = ok_s D A ssubs x) ->
    ev D A (subst_amp repl strip scomb sty ssubs' results) None =
    ev D A (XCons (Cp scomb true sty ssubs) XNil) (ev D A results None).
  Proof.
    intros Hs. unfold subst_amp.
    destruct (xsplit repl) as [[prefix single]|] eqn:Esp.
    2:{ apply xsplit_none in Esp. rewrite Esp in HR2. discriminate. }
    destruct (xsplit_snoc _ _ _ Esp) as [ER EL].
    destruct single as [ks as_ ts ss].
    assert (Eas : as_ = false).
    { rewrite ER, has_amp_snoc in HR3. apply orb_false_iff in HR3 as [_ H].
      cbn in H. apply orb_false_iff in H as [H _]. exact H. }
    subst as_.
    (* what A is *)
    assert (HA : A = tab n (fun x => ok_c D A (Cp ks false ts ss) x && relpart D (ev D A prefix None) ks x)).
    { pose proof HR2 as H. rewrite ER, ev_snoc, ev_one in H. injection H as H1. symmetry. exact H1. }
    assert (HAm : forall x, (x < n)%nat -> mem A x = ok_c D A (Cp ks false ts ss) x && relpart D (ev D A prefix None) ks x).
    { intros x Hx. rewrite HA at 1. apply mem_tab. exact Hx. }
    rewrite EL, ev_one. set (L := ev D A results None).
    destruct ((scomb =? 0) && ((S (xlen prefix) =? 1)%nat || xnil results)) eqn:Ec.
    - apply andb_true_iff in Ec as [Ek Ec]. apply Z.eqb_eq in Ek. subst scomb.
      destruct prefix as [|p0 pr].
      + (* the replacement is a single compound *)
        assert (Eks : ks = 0) by (rewrite ER in HR1; exact HR1). subst ks.
        cbn [xlen Nat.eqb Nat.ltb Nat.leb andb]. rewrite !andb_false_r, xapp_nil_r.
        replace (if strip && true then clear_comb (Cp 0 false ts ss) else Cp 0 false ts ss)
          with (Cp 0 false ts ss) by (destruct strip; reflexivity).
        rewrite ev_snoc_merge. fold L. f_equal. apply tab_ext. intros x Hx.
        rewrite !ok_c_eq, (HAm x Hx), Hs, ok_c_eq. cbn [c_comb relpart ev]. btauto.
      + (* several compounds: only at the start *)
        cbn [xlen Nat.eqb orb] in Ec. destruct results as [|r0 rr]; [|discriminate Ec].
        cbn [xlen Nat.eqb andb xapp]. rewrite andb_false_r, ev_snoc_merge.
        assert (Epre : ev D A (if strip && (1 <? S (S (xlen pr)))%nat then clear_first (XCons p0 pr) else XCons p0 pr) None =
                       ev D A (XCons p0 pr) None).
        { destruct (strip && (1 <? S (S (xlen pr)))%nat); [apply ev_clear_first | reflexivity]. }
        rewrite Epre. subst L. f_equal. apply tab_ext. intros x Hx.
        rewrite !ok_c_eq, (HAm x Hx), Hs, ok_c_eq. cbn [c_comb relpart ev]. btauto.
    - destruct (S (xlen prefix) =? 1)%nat eqn:E1; rewrite ev_snoc_merge; fold L; f_equal; apply tab_ext; intros x Hx.
      + (* single compound, not at the start or behind a combinator *)
        destruct prefix; [|discriminate E1].
        rewrite !ok_c_eq, (HAm x Hx), Hs, ok_c_eq. cbn [c_comb relpart ev]. btauto.
      + (* wrapped in :is() *)
        rewrite !ok_c_eq, ok_s_pc, ok_l_cons, ok_l_nil, ok_s_nil, HR2, Hs. cbn [c_comb tyok xorb]. btauto.
  Qed.

  Theorem subst_sound :
    (forall c strip results, ev D A (sb_c repl strip c results) None = ev D A (XCons c XNil) (ev D A results None)) /\
    (forall s x, ok_s D A (sb_s repl s) x = ok_s D A s x) /\
    (forall cx strip results, ev D A (sb_x repl strip cx results) None = ev D A cx (ev D A results None)) /\
    (forall l x, ok_l D A (sb_l repl l) x = ok_l D A l x).
  Proof.
    apply sel_mutind.
    - intros scomb samp sty ssubs IH strip results. cbn [sb_c]. destruct samp.
      + apply subst_amp_ok. exact IH.
      + rewrite ev_snoc, !ev_one. f_equal. apply tab_ext. intros x Hx. rewrite !ok_c_eq. cbn [c_comb]. rewrite IH. reflexivity.
    - reflexivity.
    - intros i r IH x. cbn [sb_s]. rewrite !ok_s_class, IH. reflexivity.
    - intros ng l IHl r IHr x. cbn [sb_s]. rewrite !ok_s_pc, IHl, IHr. reflexivity.
    - reflexivity.
    - intros c IHc r IHr strip results. cbn [sb_x]. rewrite IHr, IHc. reflexivity.
    - reflexivity.
    - intros cx IHx r IHr x. cbn [sb_l]. rewrite !ok_l_cons, IHx, IHr. reflexivity.
  Qed.
End Proofs.

(* a selector without "&" means the same whatever "&" stands for *)
Lemma amp_free_indep D A A' :
  (forall c, has_amp_c c = false -> forall x, ok_c D A c x = ok_c D A' c x) /\
  (forall s, has_amp_s s = false -> forall x, ok_s D A s x = ok_s D A' s x) /\
  (forall cx, has_amp_x cx = false -> forall L, ev D A cx L = ev D A' cx L) /\
  (forall l, has_amp_l l = false -> forall x, ok_l D A l x = ok_l D A' l x).
Proof.
  apply sel_mutind.
  - intros k a t s IH H x. cbn [has_amp_c] in H. apply orb_false_iff in H as [-> Hs]. rewrite !ok_c_eq, (IH Hs). reflexivity.
  - reflexivity.
  - intros i r IH H x. cbn [has_amp_s] in H. rewrite !ok_s_class, (IH H). reflexivity.
  - intros ng l IHl r IHr H x. cbn [has_amp_s] in H. apply orb_false_iff in H as [Hl Hr].
    rewrite !ok_s_pc, (IHl Hl), (IHr Hr). reflexivity.
  - reflexivity.
  - intros c IHc r IHr H L. cbn [has_amp_x] in H. apply orb_false_iff in H as [Hc Hr].
    rewrite !ev_cons, (IHr Hr). f_equal. f_equal. apply tab_ext. intros x _. rewrite (IHc Hc). reflexivity.
  - reflexivity.
  - intros cx IHx r IHr H x. cbn [has_amp_l] in H. apply orb_false_iff in H as [Hx Hr].
    rewrite !ok_l_cons, (IHx Hx), (IHr Hr). reflexivity.
Qed.

Lemma amp_free_ok_s D A A' s : has_amp_s s = false -> forall x, ok_s D A s x = ok_s D A' s x.
Proof. apply amp_free_indep. Qed.
Lemma amp_free_ev D A A' cx : has_amp_x cx = false -> forall L, ev D A cx L = ev D A' cx L.
Proof. apply amp_free_indep. Qed.
Lemma amp_free_ok_l D A A' l : has_amp_l l = false -> forall x, ok_l D A l x = ok_l D A' l x.
Proof. apply amp_free_indep. Qed.

Lemma ev_is_tab D A cx : forall L, cx <> XNil -> exists f, ev D A cx L = Some (tab (size D) f).
Proof.
  induction cx as [|c r IH]; intros L H; [contradiction|].
  rewrite ev_cons. destruct r as [|c' r']; [eexists; reflexivity|]. apply IH. discriminate.
Qed.

(* parents: no "&" (already substituted), no leading combinator, not empty *)
Fixpoint parents_ok (l : sellist) : bool :=
  match l with LNil => true | LCons p r => negb (xnil p) && (first_comb p =? 0) && negb (has_amp_x p) && parents_ok r end.

(* what parents_ok asks of one parent *)
Definition pok (p : complex) : Prop := p <> XNil /\ first_comb p = 0 /\ has_amp_x p = false.

Lemma parents_ok_cons p r : parents_ok (LCons p r) = true -> pok p /\ parents_ok r = true.
Proof.
  cbn [parents_ok]. rewrite !andb_true_iff, !negb_true_iff, Z.eqb_eq. intros [[[Hn Hf] Ha] Hr].
  repeat split; try assumption. intros ->. discriminate Hn.
Qed.

Lemma parents_ok_amp l : parents_ok l = true -> has_amp_l l = false.
Proof.
  induction l as [|p r IH]; [reflexivity|]. intros H. apply parents_ok_cons in H as [[_ [_ Ha]] Hr].
  cbn [has_amp_l]. rewrite Ha, (IH Hr). reflexivity.
Qed.

Lemma parents_single_amp parents : parents_ok parents = true -> has_amp_x (parents_single parents) = false.
Proof.
  intros Hok. pose proof (parents_ok_amp parents Hok) as H.
  assert (W : has_amp_x (XCons (Cp 0 false None (SPc false parents SNil)) XNil) = false) by (cbn; rewrite H; reflexivity).
  destruct parents as [|p [|p2 r]]; try exact W.
  cbn in H. apply orb_false_iff in H as [H _]. exact H.
Qed.

(* the set "&" stands for: the elements matched by :is(parent list) *)
Definition parent_set (D : dom) (parents : sellist) : list bool := tab (size D) (ok_l D [] parents).

Lemma parents_single_facts D parents : parents_ok parents = true ->
  let A := parent_set D parents in
  first_comb (parents_single parents) = 0 /\
  ev D A (parents_single parents) None = Some A /\
  has_amp_x (parents_single parents) = false.
Proof.
  intros Hok A.
  enough (H : first_comb (parents_single parents) = 0 /\ ev D A (parents_single parents) None = Some A)
    by (destruct H; repeat split; try assumption; apply parents_single_amp, Hok).
  assert (Hind : forall x, ok_l D A parents x = ok_l D [] parents x)
    by (apply amp_free_ok_l, parents_ok_amp, Hok).
  assert (Hwrap : first_comb (XCons (Cp 0 false None (SPc false parents SNil)) XNil) = 0 /\
                  ev D A (XCons (Cp 0 false None (SPc false parents SNil)) XNil) None = Some A).
  { split; [reflexivity|]. rewrite ev_one. f_equal. unfold A, parent_set. apply tab_ext. intros x Hx.
    rewrite ok_c_eq, ok_s_pc, ok_s_nil, Hind. cbn [tyok relpart xorb]. btauto. }
  destruct parents as [|p [|p2 r]]; try exact Hwrap.
  cbn [parents_single]. apply parents_ok_cons in Hok as [[Hp [Hfc _]] _].
  split; [exact Hfc|].
  destruct (ev_is_tab D A p None Hp) as [f Hf]. rewrite Hf. f_equal. unfold A, parent_set. apply tab_ext. intros x Hx.
  rewrite <- Hind, ok_l_cons, ok_l_nil. fold A. rewrite Hf, mem_tab by exact Hx. btauto.
Qed.

Theorem lower_is_matching D parents cx : parents_ok parents = true ->
  forall x, matches D (parent_set D parents) (lower_is parents cx) x = matches D (parent_set D parents) (inject_amp cx) x.
Proof.
  intros Hok x. destruct (parents_single_facts D parents Hok) as [H1 [H2 H3]].
  destruct (subst_sound D (parent_set D parents) (parents_single parents) H1 H2 H3) as [_ [_ [HX _]]].
  unfold matches, lower_is. rewrite HX. reflexivity.
Qed.

(* the cross-product branch: witnesses *)
Definition ty1 (t : Z) : complex := XCons (Cp 0 false (Some t) SNil) XNil.
Definition amp1 : complex := XCons (Cp 0 true None SNil) XNil.

(* C12-N: a, b { :is(&, span) {} } for a target without :is(): the "&" inside the
   pseudo-class argument is replaced by the first parent in every copy *)
Definition wN_parents : sellist := LCons (ty1 1) (LCons (ty1 2) LNil).
Definition wN_child : complex := XCons (Cp 0 false None (SPc false (LCons amp1 (LCons (ty1 4) LNil)) SNil)) XNil.
Definition wN_doc : list node := [mkN 1 [] None None; mkN 2 [] None (Some 0%nat)].

Lemma expand_amp_in_pseudo_arg_witness :
  lower_expand wN_parents (LCons wN_child LNil) =
    [XCons (Cp 0 false None (SPc false (LCons (ty1 1) (LCons (ty1 4) LNil)) SNil)) XNil;
     XCons (Cp 0 false None (SPc false (LCons (ty1 1) (LCons (ty1 4) LNil)) SNil)) XNil] /\
  let D := tree_dom wN_doc in
  existsb (fun s => matches D [] s 1%nat) (lower_expand wN_parents (LCons wN_child LNil)) = false /\
  matches D (parent_set D wN_parents) (inject_amp wN_child) 1%nat = true.
Proof. vm_compute. repeat split; reflexivity. Qed.

(* C12-L: div, .c1 { > a {} } without :is(): each copy has its own specificity,
   natively "&" carries the specificity of :is(div, .c1) *)
Definition wL_parents : sellist := LCons (ty1 3) (LCons (XCons (Cp 0 false None (SClass 1 SNil)) XNil) LNil).
Definition wL_child : complex := XCons (Cp 1 false (Some 1) SNil) XNil.
(* the nested selector with "&" literally replaced by :is(parent list): CSS Nesting's definition of its specificity *)
Definition native_spec (parents : sellist) (cx : complex) : spec3 :=
  spec_x (sb_x (XCons (Cp 0 false None (SPc false parents SNil)) XNil) false (inject_amp cx) XNil).

Lemma expand_specificity_witness :
  map spec_x (lower_expand wL_parents (LCons wL_child LNil)) = [(0, 0, 2); (0, 1, 1)]%nat /\
  native_spec wL_parents wL_child = (0, 1, 1)%nat.
Proof. vm_compute. split; reflexivity. Qed.

(* the replayed C12-N input: div, a { :not(&).c1 {} } for firefox70, element a.c1 *)
Definition wN2_parents : sellist := LCons (ty1 3) (LCons (ty1 1) LNil).
Definition wN2_child : complex := XCons (Cp 0 false None (SPc true (LCons amp1 LNil) (SClass 1 SNil))) XNil.
Definition wN2_doc : list node := [mkN 1 [1] None None].
Lemma expand_not_amp_witness :
  lower_expand wN2_parents (LCons wN2_child LNil) =
    [XCons (Cp 0 false None (SPc true (LCons (ty1 3) LNil) (SClass 1 SNil))) XNil;
     XCons (Cp 0 false None (SPc true (LCons (ty1 3) LNil) (SClass 1 SNil))) XNil] /\
  let D := tree_dom wN2_doc in
  existsb (fun s => matches D [] s 0%nat) (lower_expand wN2_parents (LCons wN2_child LNil)) = true /\
  matches D (parent_set D wN2_parents) (inject_amp wN2_child) 0%nat = false.
Proof. vm_compute. repeat split; reflexivity. Qed.
