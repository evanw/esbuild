(* Token-level lemmas for the box proofs: quads, unit-safety status vs validity. *)
From V Require Import Common.Base C12.Mangle C12.BoxTracker C12.BoxSpec.

Lemma tok_eqb_eq a b : tok_eqb a b = true -> a = b.
Proof.
  destruct a, b; cbn; intros H; try discriminate.
  - apply Z.eqb_eq in H; congruence.
  - apply Z.eqb_eq in H; congruence.
  - apply andb_true_iff in H as [H1 H2]. apply Z.eqb_eq in H1, H2. congruence.
  - apply eqb_prop in H. congruence.
  - apply Z.eqb_eq in H; congruence.
Qed.

Lemma spec_expand_compact q : spec_expand (compact_quad_tok q) = Some q.
Proof.
  destruct q as [[[a b] c] d]. unfold compact_quad_tok.
  destruct (tok_eqb d b) eqn:E1; [apply tok_eqb_eq in E1; subst|reflexivity].
  destruct (tok_eqb c a) eqn:E2; [apply tok_eqb_eq in E2; subst|reflexivity].
  destruct (tok_eqb b a) eqn:E3; [apply tok_eqb_eq in E3; subst|]; reflexivity.
Qed.

Definition all4 (P : tok -> bool) (q : quad) : bool :=
  P (qnth q 0) && P (qnth q 1) && P (qnth q 2) && P (qnth q 3).

Lemma forallb_spec_expand (P : tok -> bool) l q : spec_expand l = Some q -> forallb P l = all4 P q.
Proof.
  destruct l as [|a [|b [|c [|d [|]]]]]; cbn; intros H; inversion H; subst; unfold all4; cbn.
  - destruct (P a); reflexivity.
  - destruct (P a), (P b); reflexivity.
  - destruct (P a), (P b), (P c); reflexivity.
  - destruct (P a), (P b), (P c), (P d); reflexivity.
Qed.

Lemma spec_expand_in l q k : spec_expand l = Some q -> (k < 4)%nat -> In (qnth q k) l.
Proof.
  destruct l as [|a [|b [|c [|d [|]]]]]; cbn; intros H Hk; inversion H; subst;
    destruct k as [|[|[|[|]]]]; try lia; cbn; auto.
Qed.

Lemma all4_nth (P : tok -> bool) q c : all4 P q = true -> (c < 4)%nat -> P (qnth q c) = true.
Proof.
  unfold all4. intros H Hc. repeat (apply andb_true_iff in H as [H ?]).
  destruct c as [|[|[|[|]]]]; try lia; assumption.
Qed.

Lemma forallb_quad (P : tok -> bool) q : forallb P [qnth q 0; qnth q 1; qnth q 2; qnth q 3] = all4 P q.
Proof. unfold all4. cbn [forallb]. rewrite andb_true_r, !andb_assoc. reflexivity. Qed.

Lemma forallb_compact (P : tok -> bool) q : forallb P (compact_quad_tok q) = all4 P q.
Proof. apply forallb_spec_expand. apply spec_expand_compact. Qed.

(* what the trackers accept as a side value *)
Definition trk (aa : bool) (t : tok) : bool :=
  is_numeric t || match t with TAuto _ => aa | _ => false end.

Lemma quad_ok_trk aa t : quad_tok_ok aa t = true -> trk aa t = true.
Proof. unfold quad_tok_ok, trk. destruct t as [| | |[|]|]; cbn; intros H; try discriminate H; auto. Qed.

Lemma trk_plain aa l : forallb (trk aa) l = true -> plain l = true.
Proof.
  unfold plain. induction l as [|t l IH]; cbn; [reflexivity|]. intros H.
  apply andb_true_iff in H as [H1 H2]. rewrite IH by exact H2. destruct t; cbn in *; try reflexivity. discriminate.
Qed.

Lemma expand_quad_tok_spec aa l q : expand_quad_tok aa l = Some q ->
  spec_expand l = Some q /\ forallb (trk aa) l = true.
Proof.
  unfold expand_quad_tok. destruct (forallb (quad_tok_ok aa) l) eqn:E; [|discriminate].
  intros H. split.
  - destruct l as [|a [|b [|c [|d [|]]]]]; cbn in *; try discriminate; exact H.
  - rewrite forallb_forall in *. intros t Ht. apply quad_ok_trk. apply E. exact Ht.
Qed.

(* the unit-safety status mangleSides / mangleCorners compute for a value list *)
Definition stat_step (aa : bool) (us : ustatus) (t : tok) : ustatus :=
  if negb aa || is_numeric t then include_unit us t else us.
Definition stat (aa : bool) (T : list tok) : ustatus := fold_left (stat_step aa) T USafe.

Lemma safe_with_eq a b : safe_with a b = true -> a = b /\ a <> UMixed.
Proof.
  destruct a as [|u|], b as [|w|]; cbn; intros H; try discriminate.
  - split; [reflexivity | discriminate].
  - apply Z.eqb_eq in H. subst. split; [reflexivity | discriminate].
Qed.

Definition us_valid (e : benv) (us : ustatus) : bool :=
  match us with USafe => true | USingle u => unit_ok e u | UMixed => false end.

Definition stat_inv (e : benv) (aa : bool) (us : ustatus) (T : list tok) : Prop :=
  match us with
  | USafe => forallb (tok_ok e aa) T = true
  | USingle u => safe_unit u = false /\ forallb (tok_ok e aa) T = unit_ok e u
  | UMixed => True
  end.

Lemma mixed_stays aa T : fold_left (stat_step aa) T UMixed = UMixed.
Proof.
  induction T as [|t T IH]; [reflexivity|]. cbn [fold_left]. unfold stat_step at 2.
  destruct (negb aa || is_numeric t); [|exact IH]. destruct t as [v| |v u| |]; cbn [include_unit]; try exact IH.
  - destruct (v =? 0); exact IH.
  - destruct (safe_unit u); exact IH.
Qed.

Lemma stat_inv_keep e aa us pre t : tok_ok e aa t = true -> stat_inv e aa us pre -> stat_inv e aa us (pre ++ [t]).
Proof.
  intros Ht H. destruct us as [|u|]; cbn [stat_inv] in *; rewrite ?forallb_app; cbn [forallb];
    rewrite ?Ht, ?andb_true_r; exact H.
Qed.

Lemma stat_step_inv e aa us pre t : trk aa t = true -> stat_inv e aa us pre ->
  stat_inv e aa (stat_step aa us t) (pre ++ [t]).
Proof.
  intros Ht H. unfold stat_step.
  destruct t as [v| p |v u|ex|i]; cbn [is_numeric orb negb include_unit trk] in *; rewrite ?orb_true_r; cbv iota.
  - destruct (Z.eqb_spec v 0) as [->|Hv]; [apply stat_inv_keep; [reflexivity | exact H] | exact I].
  - apply stat_inv_keep; [reflexivity | exact H].
  - destruct (safe_unit u) eqn:Su; [apply stat_inv_keep; [cbn [tok_ok]; rewrite Su; reflexivity | exact H]|].
    (* a unit outside the safe list: the list is valid exactly where that unit is known *)
    assert (FA : forallb (tok_ok e aa) (pre ++ [TDim v u]) = forallb (tok_ok e aa) pre && unit_ok e u)
      by (rewrite forallb_app; cbn [forallb tok_ok]; rewrite Su, andb_true_r; reflexivity).
    destruct us as [|u0|]; cbn [stat_inv] in *.
    + split; [exact Su|]. rewrite FA, H. reflexivity.
    + destruct (Z.eqb_spec u0 u) as [->|Hne]; cbn [stat_inv]; [|exact I].
      destruct H as [H1 H2]. split; [exact H1|]. rewrite FA, H2. destruct (unit_ok e u); reflexivity.
    + exact I.
  - destruct aa; [|discriminate Ht]. apply stat_inv_keep; [reflexivity | exact H].
  - discriminate.
Qed.

Lemma stat_fold_inv e aa : forall T us pre, forallb (trk aa) T = true -> stat_inv e aa us pre ->
  stat_inv e aa (fold_left (stat_step aa) T us) (pre ++ T).
Proof.
  induction T as [|t T IH]; intros us pre HT H; cbn [fold_left].
  - rewrite app_nil_r. exact H.
  - cbn [forallb] in HT. apply andb_true_iff in HT as [Ht HT].
    replace (pre ++ t :: T) with ((pre ++ [t]) ++ T) by (rewrite <- app_assoc; reflexivity).
    apply IH; [exact HT|]. apply stat_step_inv; assumption.
Qed.

(* a status other than "mixed" says exactly in which browsers the value list is valid *)
Lemma stat_valid e aa T : forallb (trk aa) T = true -> stat aa T <> UMixed ->
  forallb (tok_ok e aa) T = us_valid e (stat aa T).
Proof.
  intros HT HM. pose proof (stat_fold_inv e aa T USafe [] HT eq_refl) as H. cbn [app] in H.
  unfold stat in *. destruct (fold_left (stat_step aa) T USafe); cbn [stat_inv us_valid] in *;
    [exact H | destruct H; assumption | contradiction].
Qed.

Definition dims_safe (t : tok) : Prop := match t with TDim _ u => safe_unit u = true | _ => True end.

Lemma notsafe_stays aa : forall T us, us <> USafe -> fold_left (stat_step aa) T us <> USafe.
Proof.
  induction T as [|t T IH]; intros us H; cbn [fold_left]; [exact H|]. apply IH.
  unfold stat_step. destruct (negb aa || is_numeric t); [|exact H].
  destruct t as [v| |v u| |]; cbn [include_unit]; try discriminate; try exact H.
  - destruct (v =? 0); [exact H | discriminate].
  - destruct (safe_unit u); [exact H|].
    destruct us as [|u1|]; [contradiction | destruct (u1 =? u); discriminate | discriminate].
Qed.

Lemma stat_safe_dims aa : forall T us, fold_left (stat_step aa) T us = USafe ->
  Forall (fun t => is_numeric t = true -> dims_safe t) T.
Proof.
  induction T as [|t T IH]; intros us H; [constructor|]. cbn [fold_left] in H.
  constructor; [|eapply IH; exact H].
  intros Hn. destruct t as [| |v u| |]; cbn [dims_safe]; try exact I.
  destruct (safe_unit u) eqn:Su; [reflexivity|]. exfalso.
  apply (notsafe_stays aa T (stat_step aa us (TDim v u))); [|exact H].
  unfold stat_step. cbn [is_numeric]. rewrite orb_true_r. cbn [include_unit]. rewrite Su.
  destruct us as [|u0|]; [discriminate | destruct (u0 =? u); discriminate | discriminate].
Qed.

Lemma turn_safe t : dims_safe t -> norm (turn t) = norm t /\ forall e aa, tok_ok e aa (turn t) = tok_ok e aa t.
Proof.
  destruct t as [| |v u| |]; cbn [turn dims_safe]; try (split; reflexivity).
  intros Su. destruct (Z.eqb_spec v 0) as [->|Hv]; [|split; reflexivity].
  cbn [norm tok_ok]. rewrite Su. cbn. split; reflexivity.
Qed.

Lemma turn_trk aa t : trk aa t = true -> trk aa (turn t) = true.
Proof. destruct t as [| |v u| |]; cbn; auto. destruct (v =? 0); reflexivity. Qed.

Lemma turn_numeric t : is_numeric t = true -> is_numeric (turn t) = true.
Proof. destruct t as [| |v u| |]; cbn; auto. destruct (v =? 0); reflexivity. Qed.

(* what mangleSides / mangleCorners store: with a safe status 0px becomes 0, which changes nothing a browser sees *)
Lemma safe_turn aa T t : forallb (trk aa) T = true -> In t T ->
  let t' := if us_safe (stat aa T) then turn t else t in
  trk aa t' = true /\ norm t' = norm t /\ forall e, tok_ok e aa t' = tok_ok e aa t.
Proof.
  intros HT Hin t'.
  assert (Ht : trk aa t = true) by (rewrite forallb_forall in HT; apply HT; exact Hin).
  unfold t'. destruct (stat aa T) eqn:Eu; cbn [us_safe]; [|repeat split; auto ..].
  pose proof (stat_safe_dims aa T USafe Eu) as F. rewrite Forall_forall in F.
  assert (D : dims_safe t) by (destruct t; try exact I; apply (F _ Hin); reflexivity).
  destruct (turn_safe t D) as [A B]. split; [apply turn_trk; exact Ht|]. split; [exact A | intros e; apply B].
Qed.

(* radii are never auto *)
Lemma trk_false t : trk false t = is_numeric t.
Proof. destruct t; reflexivity. Qed.

Lemma trk_false_all l : forallb (trk false) l = forallb is_numeric l.
Proof. induction l as [|t l IH]; cbn [forallb]; [reflexivity|]. rewrite trk_false, IH. reflexivity. Qed.

Lemma sets_single e aa s t imp s' : trk aa t = true ->
  sets e aa (mkB (KSide s) [t] imp) s' =
  if Nat.eqb s s' then (if tok_ok e aa t then Some (SV (norm t)) else None) else None.
Proof.
  intros Ht. unfold sets. cbn [b_key b_val]. destruct (Nat.eqb s s'); [|reflexivity].
  assert (P : plain [t] = true) by (apply (trk_plain aa); cbn; rewrite Ht; reflexivity).
  rewrite P. reflexivity.
Qed.

Lemma sets_short e aa l q imp s : spec_expand l = Some q -> forallb (trk aa) l = true ->
  sets e aa (mkB KShort l imp) s =
  if (s <? 4)%nat then (if forallb (tok_ok e aa) l then Some (SV (norm (qnth q s))) else None) else None.
Proof.
  intros Hq Ht. unfold sets. cbn [b_key b_val]. destruct (s <? 4)%nat; [|reflexivity].
  rewrite (trk_plain aa l Ht), Hq. reflexivity.
Qed.

Definition affects (d : bdecl) (s : nat) : bool :=
  match b_key d with KShort => true | KSide s' => Nat.eqb s' s | KOther _ => false end.

Lemma not_affects_sets e aa d s : affects d s = false -> sets e aa d s = None.
Proof. unfold affects, sets. destruct (b_key d); intros H; [discriminate | rewrite H; reflexivity | reflexivity]. Qed.
