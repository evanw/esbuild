(* Congruence of the evaluator: every construct behaves the same when its
   operands are replaced by expressions that behave the same in every
   temporary store.  Together with the per-step theorems (Steps.v) this gives
   the whole-visitor theorem (Visit2.v). *)
From V Require Import Common.Base C05.Syntax C05.Sem C05.Lower C05.Frame C05.SimLogic C05.Steps.

Section Compose.
  Variable S : Type.
  Variable w : world S.
  Variable th : val.
  Notation ev := (eval w th).
  Notation evl := (eval_list S w th).
  Notation simM := (simM S).

  Definition Lall : tpred := fun _ => True.
  Definition T0 : tstore -> Prop := fun _ => True.

  (* e' (possibly containing temporaries) behaves like e whatever the two
     temporary stores are; results related by P *)
  Definition R (P : out -> out -> Prop) (e' e : expr) : Prop :=
    simM Lall T0 (fun _ a b => P a b) (ev e') (ev e).
  Definition pv (a b : out) : Prop := valof a = valof b.
  Definition pb (a b : out) : Prop := valof a = valof b /\ baseof a = baseof b.
  Definition Rv := R pv.
  Definition Rb := R pb.
  Definition Rx := R eq.

  Lemma simM_pre_const {A B} (L : tpred) (P : Prop) (Post : tstore -> A -> B -> Prop) cl cn :
    (P -> simM L T0 Post cl cn) -> simM L (fun _ => P) Post cl cn.
  Proof. intros H m m0 s Hs p. apply (H p m m0 s Hs I). Qed.

  Lemma simM_pre_and {A B} (L : tpred) (P : Prop) (Post : tstore -> A -> B -> Prop) cl cn :
    (P -> simM L T0 Post cl cn) -> simM L (fun m => P /\ T0 m) Post cl cn.
  Proof. intros H m m0 s Hs [p _]. apply (H p m m0 s Hs I). Qed.

  Lemma R_weaken (P Q : out -> out -> Prop) e' e : (forall a b, P a b -> Q a b) -> R P e' e -> R Q e' e.
  Proof. intros HPQ H. eapply simM_conseq; [| | exact H]; cbn; auto. Qed.

  Lemma Rx_Rb e' e : Rx e' e -> Rb e' e.
  Proof. apply R_weaken. intros a b ->. split; reflexivity. Qed.
  Lemma Rb_Rv e' e : Rb e' e -> Rv e' e.
  Proof. apply R_weaken. intros a b [H _]. exact H. Qed.
  Lemma Rx_Rv e' e : Rx e' e -> Rv e' e.
  Proof. intro H. apply Rb_Rv, Rx_Rb, H. Qed.

  Ltac pre H := cbn beta; first [apply simM_pre_const | apply simM_pre_and]; intro H.
  Ltac lft := eapply simM_bind; [apply simM_lift |]; let a := fresh "x" in let b := fresh "x" in
              let E := fresh "E" in intros a b; pre E; subst.
  Ltac fin := apply simM_ret; intros; cbn; auto.

  (* a source expression behaves the same in every store *)
  Lemma R_refl e : tmps e = [] -> Rx e e.
  Proof.
    intro Ht. eapply simM_conseq; [intros m H; exact H | | apply (simM_fresh S w th Lall T0 e)].
    - intros m a b [H _]. exact H.
    - intros k _. rewrite Ht. intros [].
    - apply stable_true.
  Qed.

  (* an observation-level step followed by a congruence *)
  Lemma obs_then_R lo mid e :
    (forall m s, observe (ev lo m s) = observe (ev mid m s)) -> Rv mid e -> Rv lo e.
  Proof.
    intros Ho Hr m m0 s Hs Hp. specialize (Ho m s). specialize (Hr m m0 s Hs Hp).
    destruct (ev lo m s) as [[[t1 m1] s1] r1], (ev mid m s) as [[[t2 m2] s2] r2],
             (ev e m0 s) as [[[t3 m3] s3] r3].
    cbn in Ho. destruct Hr as (-> & -> & _ & Hr).
    assert (t1 = t3 /\ s1 = s3) as [-> ->] by (split; congruence).
    repeat split; try (intros k Hk; exfalso; apply Hk; exact I).
    destruct r1 as [a | v], r2 as [b | v2], r3 as [c | v3]; try contradiction; try discriminate;
      unfold pv in *; cbn in *; congruence.
  Qed.

  Lemma Rv_observe e' e : Rv e' e -> forall m s, observe (ev e' m s) = observe (ev e m s).
  Proof. apply (simM_observe S Lall (fun _ a b => pv a b)). intros m a b H. exact H. Qed.

  Lemma bind_pv {X Y} (c c0 : M S out) (k : out -> M S X) (k0 : out -> M S Y) (Post : tstore -> X -> Y -> Prop) :
    simM Lall T0 (fun _ a b => pv a b) c c0 ->
    (forall a a0, valof a = valof a0 -> simM Lall T0 Post (k a) (k0 a0)) ->
    simM Lall T0 Post (bind c k) (bind c0 k0).
  Proof. intros H Hk. eapply simM_bind; [exact H |]. intros a a0. pre E. apply Hk, E. Qed.

  (* What a member access or call with optional-chain kind o needs of the
     expression it is applied to: inside a chain (OcCont) the same outcome,
     short circuit included; at the start of a chain or outside one, P. *)
  Definition plink (P : out -> out -> Prop) (o : oc) (a b : out) : Prop :=
    match o with OcCont => a = b | _ => P a b end.

  Lemma cong_access (P : out -> out -> Prop) o a b (k k0 : val -> M S out) (Post : tstore -> out -> out -> Prop) :
    plink P o a b -> (forall x y, P x y -> valof x = valof y) -> (forall m, Post m OShort OShort) ->
    (valof a = valof b -> simM Lall T0 Post (k (valof a)) (k0 (valof b))) ->
    simM Lall T0 Post (access S o a k) (access S o b k0).
  Proof.
    intros Hl Hv Hs Hk. destruct o; cbn [plink] in Hl; cbn [access].
    - apply Hk, Hv, Hl.
    - pose proof (Hv a b Hl) as E. specialize (Hk E). rewrite E in *.
      destruct (nullish (valof b)); [apply simM_ret; intros; apply Hs | exact Hk].
    - subst b. destruct a; [apply Hk; reflexivity | apply simM_ret; intros; apply Hs].
  Qed.

  Lemma pv_valof x y : pv x y -> valof x = valof y.
  Proof. intro H. exact H. Qed.

  Lemma cong_dot_oc o t' t name : R (plink pv o) t' t -> Rx (EDot t' name o) (EDot t name o).
  Proof.
    intro H. unfold Rx, R. cbn [eval]. eapply simM_bind; [exact H |]. intros a b. pre E.
    apply (cong_access pv o a b _ _ _ E pv_valof); [reflexivity |]. intro Ev. rewrite Ev. lft. fin.
  Qed.

  Lemma cong_index_oc o t' t k' k : R (plink pv o) t' t -> Rv k' k -> Rx (EIndex t' k' o) (EIndex t k o).
  Proof.
    intros H Hk. unfold Rx, R. cbn [eval]. eapply simM_bind; [exact H |]. intros a b. pre E.
    apply (cong_access pv o a b _ _ _ E pv_valof); [reflexivity |]. intro Ev. rewrite Ev.
    apply (bind_pv _ _ _ _ _ Hk). intros c c0 E2. rewrite E2. lft. fin.
  Qed.

  Lemma cong_list args' args :
    Forall2 Rv args' args -> simM Lall T0 (fun _ a b => a = b) (evl args') (evl args).
  Proof.
    induction 1 as [| x y l l' Hxy Hl IH]; cbn [eval_list].
    - fin.
    - apply (bind_pv _ _ _ _ _ Hxy). intros a a0 E. rewrite E.
      eapply simM_bind; [exact IH |]. intros vs vs0. pre E2. subst. fin.
  Qed.

  Lemma cong_call_oc o f' f args' args :
    R (plink pb o) f' f -> Forall2 Rv args' args -> Rx (ECall f' args' o) (ECall f args o).
  Proof.
    intros H Ha. unfold Rx, R. cbn [eval]. fold (evl args'). fold (evl args).
    eapply simM_bind; [exact H |]. intros a b. pre E.
    assert (Eb : baseof a = baseof b) by (destruct o; cbn in E; [apply E | apply E | subst; reflexivity]).
    apply (cong_access pb o a b _ _ _ E); [intros x y Hxy; apply Hxy | reflexivity |]. intro Ev. rewrite Ev, Eb.
    eapply simM_bind; [apply cong_list, Ha |]. intros vs vs0. pre E2. subst. lft. fin.
  Qed.

  Lemma cong_delete_dot_oc o t' t name :
    R (plink pv o) t' t -> Rx (EDelete (EDot t' name o)) (EDelete (EDot t name o)).
  Proof.
    intro H. unfold Rx, R. cbn [eval]. eapply simM_bind; [exact H |]. intros a b. pre E.
    eapply simM_bind with (Mid := fun _ (x y : out) => x = y).
    - apply (cong_access pv o a b _ _ _ E pv_valof); [reflexivity |]. intro Ev. rewrite Ev. lft. fin.
    - intros x y. pre E2. subst. fin.
  Qed.

  Lemma cong_delete_index_oc o t' t k' k :
    R (plink pv o) t' t -> Rv k' k -> Rx (EDelete (EIndex t' k' o)) (EDelete (EIndex t k o)).
  Proof.
    intros H Hk. unfold Rx, R. cbn [eval]. eapply simM_bind; [exact H |]. intros a b. pre E.
    eapply simM_bind with (Mid := fun _ (x y : out) => x = y).
    - apply (cong_access pv o a b _ _ _ E pv_valof); [reflexivity |]. intro Ev. rewrite Ev.
      apply (bind_pv _ _ _ _ _ Hk). intros c c0 E2. rewrite E2. lft. fin.
    - intros x y. pre E2. subst. fin.
  Qed.

  Lemma cong_assign_id x v' v : Rv v' v -> Rx (EAssign (EId x) v') (EAssign (EId x) v).
  Proof.
    intro H. unfold Rx, R. cbn [eval].
    apply (bind_pv _ _ _ _ _ H). intros a a0 E. rewrite E. lft. fin.
  Qed.

  Lemma cong_assign_dot t' t name v' v :
    Rv t' t -> Rv v' v -> Rx (EAssign (EDot t' name OcNone) v') (EAssign (EDot t name OcNone) v).
  Proof.
    intros Ht H. unfold Rx, R. cbn [eval].
    apply (bind_pv _ _ _ _ _ Ht). intros b b0 E0. rewrite E0.
    apply (bind_pv _ _ _ _ _ H). intros a a0 E. rewrite E. lft. fin.
  Qed.

  Lemma cong_assign_index t' t k' k v' v :
    Rv t' t -> Rv k' k -> Rv v' v ->
    Rx (EAssign (EIndex t' k' OcNone) v') (EAssign (EIndex t k OcNone) v).
  Proof.
    intros Ht Hk H. unfold Rx, R. cbn [eval].
    apply (bind_pv _ _ _ _ _ Ht). intros b b0 E0. rewrite E0.
    apply (bind_pv _ _ _ _ _ Hk). intros c c0 E1. rewrite E1.
    apply (bind_pv _ _ _ _ _ H). intros a a0 E. rewrite E. lft. fin.
  Qed.

  Lemma cong_value b' b : Rv b' b ->
    simM Lall T0 (fun _ x y => x = y) (bind (ev b') (fun r => ret (ov (valof r))))
                                       (bind (ev b) (fun r => ret (ov (valof r)))).
  Proof. intro Hb. apply (bind_pv _ _ _ _ _ Hb). intros y y0 E. rewrite E. fin. Qed.

  Lemma cong_bin op a' a b' b : Rv a' a -> Rv b' b -> Rx (EBin op a' b') (EBin op a b).
  Proof.
    intros Ha Hb. pose proof (cong_value b' b Hb) as Hv. unfold Rx, R.
    destruct op; cbn [eval]; apply (bind_pv _ _ _ _ _ Ha); intros x x0 E; rewrite ?E.
    - destruct (nullish (valof x0)); [exact Hv | fin].
    - destruct (truthy (valof x0)); [fin | exact Hv].
    - destruct (truthy (valof x0)); [exact Hv | fin].
    - apply (bind_pv _ _ _ _ _ Hb). intros y y0 E2. rewrite E2. lft. fin.
    - apply (bind_pv _ _ _ _ _ Hb). intros y y0 E2. rewrite E2. lft. fin.
    - exact Hv.
  Qed.

  Lemma cong_pow a' a b' b : Rv a' a -> Rv b' b -> Rx (EPowCall a' b') (EBin BPow a b).
  Proof.
    intros Ha Hb. unfold Rx, R. cbn [eval].
    apply (bind_pv _ _ _ _ _ Ha). intros x x0 E. rewrite E.
    apply (bind_pv _ _ _ _ _ Hb). intros y y0 E2. rewrite E2. lft. fin.
  Qed.

  Lemma cong_opasg_core op lval (ev' ev0 : M S out) (st : val -> M S unit) :
    simM Lall T0 (fun _ a b => pv a b) ev' ev0 ->
    (forall x, simM Lall T0 (fun _ a b => a = b) (st x) (st x)) ->
    simM Lall T0 (fun _ a b => a = b) (opasg S w op lval ev' st) (opasg S w op lval ev0 st).
  Proof.
    intros He Hs. unfold opasg.
    assert (Hassign : simM Lall T0 (fun _ a b => a = b)
              (bind ev' (fun r => bind (st (valof r)) (fun _ => ret (ov (valof r)))))
              (bind ev0 (fun r => bind (st (valof r)) (fun _ => ret (ov (valof r)))))).
    { apply (bind_pv _ _ _ _ _ He). intros a a0 E. rewrite E.
      eapply simM_bind; [apply Hs |]. intros u u0. pre E2. fin. }
    assert (Harith : forall b, simM Lall T0 (fun _ a b => a = b)
              (bind ev' (fun r => bind (lift (w_binop w b lval (valof r))) (fun x => bind (st x) (fun _ => ret (ov x)))))
              (bind ev0 (fun r => bind (lift (w_binop w b lval (valof r))) (fun x => bind (st x) (fun _ => ret (ov x)))))).
    { intro b. apply (bind_pv _ _ _ _ _ He). intros a a0 E. rewrite E.
      lft. eapply simM_bind; [apply Hs |]. intros u u0. pre E2. fin. }
    destruct op.
    - destruct (nullish lval); [exact Hassign | fin].
    - destruct (truthy lval); [fin | exact Hassign].
    - destruct (truthy lval); [exact Hassign | fin].
    - apply Harith.
    - apply Harith.
  Qed.

  Lemma lift_self {A} (f : S -> list event * S * res A) :
    simM Lall T0 (fun _ a b => a = b) (lift f) (lift f).
  Proof. eapply simM_conseq; [| | apply (simM_lift S Lall T0 f)]; cbn; auto. intros m a b [H _]; exact H. Qed.

  Lemma cong_opasg_id op x v' v : Rv v' v -> Rx (EOpAsg op (EId x) v') (EOpAsg op (EId x) v).
  Proof.
    intro H. unfold Rx, R. cbn [eval]. lft.
    apply cong_opasg_core; [exact H | intro; apply lift_self].
  Qed.

  Lemma cong_opasg_dot op t' t name v' v :
    Rv t' t -> Rv v' v -> Rx (EOpAsg op (EDot t' name OcNone) v') (EOpAsg op (EDot t name OcNone) v).
  Proof.
    intros Ht H. unfold Rx, R. cbn [eval].
    apply (bind_pv _ _ _ _ _ Ht). intros b b0 E0. rewrite E0.
    lft. apply cong_opasg_core; [exact H | intro; apply lift_self].
  Qed.

  Lemma cong_opasg_index op t' t k' k v' v :
    Rv t' t -> Rv k' k -> Rv v' v ->
    Rx (EOpAsg op (EIndex t' k' OcNone) v') (EOpAsg op (EIndex t k OcNone) v).
  Proof.
    intros Ht Hk H. unfold Rx, R. cbn [eval].
    apply (bind_pv _ _ _ _ _ Ht). intros b b0 E0. rewrite E0.
    apply (bind_pv _ _ _ _ _ Hk). intros c c0 E1. rewrite E1.
    lft. apply cong_opasg_core; [exact H | intro; apply lift_self].
  Qed.

  (* (0, f) behaves like f but never has a base *)
  Lemma cong_comma0 f' f : Rv f' f -> Rv (EBin BComma (ENum 0) f') f.
  Proof.
    intro H. unfold Rv, R. cbn [eval]. apply simM_ret_l.
    intros m m0 s Hs Hp. specialize (H m m0 s Hs Hp). unfold bind.
    destruct (ev f' m s) as [[[t1 m1] s1] r1], (ev f m0 s) as [[[t2 m2] s2] r2].
    destruct H as (-> & -> & Hs' & Hr). cbn.
    destruct r1, r2; try contradiction; rewrite ?app_nil_r; repeat split; auto.
  Qed.
End Compose.
