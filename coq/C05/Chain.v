(* Optional chains of arbitrary length: semantics of a chain as "start value,
   then links" [run, native_chain, native_delete], and the evaluation of the
   expression that apply_links builds (induction over the list of links). *)
From V Require Import Common.Base C05.Syntax C05.Sem C05.Lower C05.Frame C05.LowerProofs C05.SimLogic C05.Steps.

Section Chain.
  Variable S : Type.
  Variable w : world S.
  Variable th : val.
  Notation ev := (eval w th).
  Notation evl := (eval_list S w th).
  Notation simM := (simM S).

  (* one link applied to the outcome r of what precedes it *)
  Definition run1 (l : link) (r : out) : M S out :=
    match l with
    | LDot name => bind (lift (w_get w (valof r) (VStr name))) (fun v => ret (OVal v (valof r)))
    | LIndex k => bind (ev k) (fun kr => bind (lift (w_get w (valof r) (valof kr))) (fun v => ret (OVal v (valof r))))
    | LCall args => bind (evl args) (fun vs => bind (lift (w_call w (valof r) (baseof r) vs)) (fun v => ret (ov v)))
    | LDelete => ret (ov (VBool true))
    end.

  Fixpoint run (ls : list link) (r : out) : M S out :=
    match ls with
    | [] => ret r
    | l :: rest => bind (run1 l r) (run rest)
    end.

  Definition link_expr (l : link) (result : expr) : expr :=
    match l with
    | LDot name => EDot result name OcNone
    | LIndex k => EIndex result k OcNone
    | LCall args => ECall result args OcNone
    | LDelete => EDelete result
    end.

  Definition no_delete (ls : list link) : Prop := Forall (fun l => l <> LDelete) ls.

  Definition link_tmps (l : link) : list Z :=
    match l with LDot _ => [] | LIndex k => tmps k | LCall args => flat_map tmps args | LDelete => [] end.
  Definition links_fresh (L : tpred) (ls : list link) : Prop :=
    forall l, In l ls -> forall k, L k -> ~ In k (link_tmps l).

  Lemma links_fresh_cons (L : tpred) l ls :
    links_fresh L (l :: ls) <-> (forall k, L k -> ~ In k (link_tmps l)) /\ links_fresh L ls.
  Proof.
    split.
    - intro H. split; [apply H; left; reflexivity | intros x Hx; apply H; right; exact Hx].
    - intros [H1 H2] x [<- | Hx]; [exact H1 | apply H2, Hx].
  Qed.

  Lemma links_fresh_app (L : tpred) ls ls2 :
    links_fresh L (ls ++ ls2) <-> links_fresh L ls /\ links_fresh L ls2.
  Proof.
    split.
    - intro H. split; intros x Hx; apply H, in_app_iff; auto.
    - intros [H1 H2] x Hx. apply in_app_iff in Hx as [Hx | Hx]; [apply H1, Hx | apply H2, Hx].
  Qed.

  Lemma ev_link_expr l result m s : l <> LDelete ->
    ev (link_expr l result) m s = bind (ev result) (run1 l) m s.
  Proof. destruct l; intro H; try contradiction; reflexivity. Qed.

  (* a link whose sub-expressions are fresh for L runs the same on both sides *)
  Lemma run1_fresh (L : tpred) Pre l r :
    (forall k, L k -> ~ In k (link_tmps l)) -> stable L Pre ->
    simM L Pre (fun m a b => a = b /\ Pre m) (run1 l r) (run1 l r).
  Proof.
    intros Hd Hst. destruct l; cbn [run1 link_tmps] in *.
    - apply simM_both_lift. intro v. apply simM_ret. auto.
    - apply simM_both_ev; [exact Hd | exact Hst |]. intro kr. apply simM_both_lift. intro v. apply simM_ret. auto.
    - apply simM_both_evl; [exact Hd | exact Hst |]. intro vs. apply simM_both_lift. intro v. apply simM_ret. auto.
    - apply simM_ret. auto.
  Qed.

  Lemma run_fresh (L : tpred) Pre ls : links_fresh L ls -> stable L Pre ->
    forall r, simM L Pre (fun m a b => a = b /\ Pre m) (run ls r) (run ls r).
  Proof.
    intros Hf Hst. induction ls as [| l rest IH]; intro r; cbn [run].
    - apply simM_ret. auto.
    - apply links_fresh_cons in Hf as [Hl Hrest]. eapply simM_bind.
      + apply run1_fresh; [exact Hl | exact Hst].
      + intros a b. apply simM_pure. intros ->. apply IH, Hrest.
  Qed.

  Lemma bind_post {A B} (Q : A -> Prop) (c : M S A) (k k' : A -> M S B) :
    (forall m s, match c m s with (_, _, _, Ok a) => Q a | _ => True end) ->
    (forall a, Q a -> forall m s, k a m s = k' a m s) ->
    forall m s, bind c k m s = bind c k' m s.
  Proof.
    intros Hc Hk m s. unfold bind. specialize (Hc m s).
    destruct (c m s) as [[[t1 m1] s1] [a | v]]; [| reflexivity]. rewrite (Hk a Hc). reflexivity.
  Qed.

  Lemma run_app ls l r m s : run (ls ++ [l]) r m s = bind (run ls r) (run1 l) m s.
  Proof.
    revert r m s. induction ls as [| x rest IH]; intros r m s; cbn [app run].
    - rewrite bind_ret_l. apply bind_ret_r.
    - rewrite bind_assoc. apply bind_cong. intros a m1 s1. apply IH.
  Qed.

  Lemma run1_nonshort l r m s : match run1 l r m s with (_, _, _, Ok o) => o <> OShort | _ => True end.
  Proof.
    destruct l; cbn [run1]; unfold bind, lift, ret.
    - destruct (w_get w (valof r) (VStr name) s) as [[? ?] [?|?]]; [discriminate | exact I].
    - destruct (ev k m s) as [[[t1 m1] s1] [kr | x]]; [| exact I].
      destruct (w_get w (valof r) (valof kr) s1) as [[? ?] [?|?]]; [discriminate | exact I].
    - destruct (evl args m s) as [[[t1 m1] s1] [vs | x]]; [| exact I].
      destruct (w_call w (valof r) (baseof r) vs s1) as [[? ?] [?|?]]; [discriminate | exact I].
    - discriminate.
  Qed.

  Lemma run_nonshort ls : ls <> [] -> forall r m s,
    match run ls r m s with (_, _, _, Ok o) => o <> OShort | _ => True end.
  Proof.
    intros Hne r m s. destruct (exists_last Hne) as (pre & l & ->). rewrite run_app. unfold bind.
    destruct (run pre r m s) as [[[t1 m1] s1] [a | v]]; [| exact I].
    pose proof (run1_nonshort l a m1 s1) as H. destruct (run1 l a m1 s1) as [[[t2 m2] s2] r2]. exact H.
  Qed.

  (* a well-formed chain fragment: Start at the bottom, Cont above *)
  Fixpoint frag (e : expr) : Prop :=
    match e with
    | EDot t _ o | EIndex t _ o | ECall t _ o =>
        match o with OcStart => True | OcCont => frag t | OcNone => False end
    | _ => False
    end.

  Definition head_call (ls : list link) : bool := match ls with LCall _ :: _ => true | _ => false end.

  Lemma head_call_app ls l : ls <> [] -> head_call (ls ++ [l]) = head_call ls.
  Proof. destruct ls; [contradiction | reflexivity]. Qed.

  (* the outermost link of a member access or call, with what it is applied to *)
  Definition unlink (e : expr) : option (expr * link * oc) :=
    match e with
    | EDot t name o => Some (t, LDot name, o)
    | EIndex t k o => Some (t, LIndex k, o)
    | ECall f args o => Some (f, LCall args, o)
    | _ => None
    end.

  Lemma ev_unlink e t l o : unlink e = Some (t, l, o) ->
    forall m s, ev e m s = bind (ev t) (fun r => access S o r (fun _ => run1 l r)) m s.
  Proof.
    intros E m s. destruct e; try discriminate E; injection E as -> <- ->.
    all: rewrite ?ev_call; cbn [eval run1]; apply bind_cong; intros r m1 s1.
    all: destruct o; [| destruct (nullish (valof r)) | destruct r]; reflexivity.
  Qed.

  Lemma flatten_unlink e t l o : unlink e = Some (t, l, o) ->
    flatten e = match o with
                | OcStart => Some (t, [l], head_call [l])
                | _ => match flatten t with Some (s, ls, c) => Some (s, ls ++ [l], c) | None => None end
                end.
  Proof. intro E. destruct e; try discriminate E; injection E as -> <- ->; destruct o; reflexivity. Qed.

  Lemma frag_ind' (P : expr -> Prop) :
    (forall e t l, unlink e = Some (t, l, OcStart) -> P e) ->
    (forall e t l, unlink e = Some (t, l, OcCont) -> frag t -> P t -> P e) ->
    forall e, frag e -> P e.
  Proof.
    intros H1 H2. induction e using expr_ind'; cbn [frag]; intro Hf; try contradiction;
      (destruct o; [contradiction | eapply H1; reflexivity | eapply H2; [reflexivity | exact Hf | auto]]).
  Qed.

  Lemma frag_no_delete e : frag e -> forall start ls swc, flatten e = Some (start, ls, swc) -> no_delete ls.
  Proof.
    assert (Hl : forall d t l o, unlink d = Some (t, l, o) -> l <> LDelete).
    { intros d t l o E. destruct d; try discriminate E; injection E as _ <- _; discriminate. }
    revert e. apply (frag_ind' (fun e => forall start ls swc, flatten e = Some (start, ls, swc) -> no_delete ls)).
    - intros e t l E start ls swc Hfl. rewrite (flatten_unlink e t l _ E) in Hfl. injection Hfl as <- <- <-.
      constructor; [exact (Hl e t l _ E) | constructor].
    - intros e t l E _ IH start ls swc Hfl. rewrite (flatten_unlink e t l _ E) in Hfl.
      destruct (flatten t) as [[[s0 ls0] c0] |]; [| discriminate Hfl]. injection Hfl as <- <- <-.
      apply Forall_app. split; [apply (IH _ _ _ eq_refl) | constructor; [exact (Hl e t l _ E) | constructor]].
  Qed.

  Lemma frag_flatten_head e : frag e ->
    exists start ls, flatten e = Some (start, ls, head_call ls) /\ ls <> [].
  Proof.
    revert e. apply frag_ind'.
    - intros e t l E. rewrite (flatten_unlink e t l _ E). exists t, [l]. split; [reflexivity | discriminate].
    - intros e t l E _ (st & ls & Efl & Hne). rewrite (flatten_unlink e t l _ E), Efl.
      exists st, (ls ++ [l]). rewrite (head_call_app ls l Hne). split; [reflexivity | destruct ls; discriminate].
  Qed.

  Lemma frag_flatten e : frag e -> exists start ls swc, flatten e = Some (start, ls, swc) /\ ls <> [].
  Proof. intro Hf. destruct (frag_flatten_head e Hf) as (st & ls & E & Hne). eauto. Qed.

  Lemma flatten_head e : frag e -> forall start ls swc, flatten e = Some (start, ls, swc) -> swc = head_call ls.
  Proof.
    intros Hf start ls swc E. destruct (frag_flatten_head e Hf) as (st & ls' & E' & _).
    rewrite E' in E. injection E as <- <- <-. reflexivity.
  Qed.

  (* native evaluation of a chain = start, nullish test, links *)
  Lemma native_chain e : frag e -> forall start ls swc, flatten e = Some (start, ls, swc) ->
    ls <> [] /\
    forall m s, ev e m s = bind (ev start) (fun r => if nullish (valof r) then ret OShort else run ls r) m s.
  Proof.
    intros Hf start ls swc Hfl. split.
    { destruct (frag_flatten e Hf) as (? & ? & ? & E & Hne). rewrite E in Hfl. injection Hfl as <- <- <-. exact Hne. }
    revert e Hf start ls swc Hfl. apply (frag_ind' (fun e => forall start ls swc, flatten e = Some (start, ls, swc) ->
      forall m s, ev e m s = bind (ev start) (fun r => if nullish (valof r) then ret OShort else run ls r) m s)).
    - intros e t l E start ls swc Hfl m s. rewrite (flatten_unlink e t l _ E) in Hfl. injection Hfl as <- <- <-.
      rewrite (ev_unlink e t l _ E). apply bind_cong. intros r m1 s1. cbn [access run].
      destruct (nullish (valof r)); [reflexivity |]. symmetry. apply bind_ret_r.
    - intros e t l E Hf IH start ls swc Hfl m s. rewrite (flatten_unlink e t l _ E) in Hfl.
      destruct (frag_flatten t Hf) as (st & ls0 & c0 & E0 & Hne). rewrite E0 in Hfl. injection Hfl as <- <- <-.
      rewrite (ev_unlink e t l _ E), (bind_cong_l _ _ _ m s (IH st ls0 c0 E0)), bind_assoc.
      apply bind_cong. intros r m1 s1. destruct (nullish (valof r)).
      + rewrite bind_ret_l. reflexivity.
      + rewrite run_app. apply bind_post with (Q := fun o => o <> OShort); [apply run_nonshort, Hne |].
        intros a Ha m2 s2. destruct a; [reflexivity | contradiction].
  Qed.

  Lemma run_base ls a b : ls <> [] -> head_call ls = false -> valof a = valof b ->
    forall m s, run ls a m s = run ls b m s.
  Proof.
    intros Hne Hh Hv m s. destruct ls as [| l rest]; [contradiction |]. cbn [run].
    destruct l; cbn [head_call] in Hh; try discriminate Hh; cbn [run1]; rewrite ?Hv; reflexivity.
  Qed.

  (* the expression apply_links builds when no this value and no capture is involved *)
  Definition fold_links (ls : list link) (result : expr) : expr :=
    fold_left (fun acc l => link_expr l acc) ls result.

  Lemma apply_links_plain ls : ls <> [] -> forall result inner n,
    apply_links ls result None inner false n = (fold_links ls result, None, n).
  Proof.
    induction ls as [| l rest IH]; intros Hne result inner n; [contradiction |].
    cbn [apply_links fold_links fold_left]. destruct rest as [| l2 rest2].
    - cbn. destruct l; destruct inner; reflexivity.
    - cbn [andb]. rewrite IH by discriminate. destruct l; destruct inner; reflexivity.
  Qed.

  Lemma apply_links_noinner ls t store : forall r1 n1,
    apply_links ls r1 (Some t) false store n1 = apply_links ls r1 None false store n1.
  Proof.
    induction ls as [| x xs IHx]; intros r1 n1; [reflexivity |]. cbn [apply_links].
    destruct xs.
    - destruct (true && store); [destruct (capture r1 n1) as [[? ?] ?] |]; destruct x; reflexivity.
    - cbn [andb]. rewrite IHx. destruct x; reflexivity.
  Qed.

  Lemma apply_links_this args rest result t n :
    apply_links (LCall args :: rest) result (Some t) true false n
    = (fold_links rest (ECallThis result t args), None, n).
  Proof.
    cbn [apply_links]. destruct rest as [| l2 rest2]; [reflexivity |].
    cbn [andb]. rewrite apply_links_noinner. apply apply_links_plain. discriminate.
  Qed.

  Lemma ev_fold ls : no_delete ls -> forall result m s,
    ev (fold_links ls result) m s = bind (ev result) (run ls) m s.
  Proof.
    induction ls as [| l rest IH]; intros Hnd result m s; cbn [fold_links fold_left run].
    - symmetry. apply bind_ret_r.
    - inversion Hnd as [| ? ? Hl Hrest]; subst. fold (fold_links rest (link_expr l result)).
      rewrite (IH Hrest). rewrite (bind_cong_l _ _ _ m s (fun m0 s0 => ev_link_expr l result m0 s0 Hl)).
      apply bind_assoc.
  Qed.

  Lemma start_match {A} (start : expr) (X Y : A) : start <> ENull -> start <> EUndef ->
    match start with ENull | EUndef => X | _ => Y end = Y.
  Proof. destruct start; intros; try reflexivity; contradiction. Qed.

  Lemma frag_not_delete e : frag e -> is_delete e = false.
  Proof. destruct e; cbn; intro H; try contradiction; reflexivity. Qed.

  (* the temporaries a lowered chain takes from counter n on: at most one, two, three *)
  Definition L1 (n : Z) : tpred := fun k => k = n.
  Definition L2 (n : Z) : tpred := fun k => n <= k < n + 2.
  Definition L3 (n : Z) : tpred := fun k => n <= k < n + 3.

  (* null?.a.b(c): the chain is dead code, whatever the feature set *)
  Theorem chain_dead F e' i childOut n start ls swc :
    frag e' -> flatten e' = Some (start, ls, swc) -> start = ENull \/ start = EUndef ->
    forall m s, observe (ev (fst (fst (lowerOptionalChain F e' i childOut n))) m s) = observe (ev e' m s).
  Proof.
    intros Hfr Hfl Hs m s. destruct (native_chain e' Hfr _ _ _ Hfl) as [_ Hnat]. rewrite Hnat.
    unfold lowerOptionalChain. rewrite Hfl, (frag_not_delete e' Hfr).
    destruct Hs as [-> | ->]; reflexivity.
  Qed.

  (* the last link of a chain under delete: the property is deleted, not read *)
  Definition run1d (l : link) (r : out) : M S out :=
    match l with
    | LDot name => bind (lift (w_del w (valof r) (VStr name))) (fun v => ret (ov v))
    | LIndex k => bind (ev k) (fun kr => bind (lift (w_del w (valof r) (valof kr))) (fun v => ret (ov v)))
    | _ => ret (ov (VBool true))
    end.

  Definition member_link (l : link) : Prop := match l with LDot _ | LIndex _ => True | _ => False end.

  Lemma run1d_fresh (L : tpred) Pre l r :
    (forall k, L k -> ~ In k (link_tmps l)) -> stable L Pre ->
    simM L Pre (fun m a b => a = b /\ Pre m) (run1d l r) (run1d l r).
  Proof.
    intros Hd Hst. destruct l; cbn [run1d link_tmps] in *; try (apply simM_ret; auto).
    - apply simM_both_lift. intro v. apply simM_ret. auto.
    - apply simM_both_ev; [exact Hd | exact Hst |]. intro kr. apply simM_both_lift. intro v. apply simM_ret. auto.
  Qed.

  Lemma frag_unlink d t l o : unlink d = Some (t, l, o) -> frag d ->
    match o with OcStart => True | OcCont => frag t | OcNone => False end.
  Proof. intro E. destruct d; try discriminate E; injection E as -> <- ->; exact (fun H => H). Qed.

  Lemma ev_delete_unlink d t l o : unlink d = Some (t, l, o) -> member_link l ->
    forall m s, ev (EDelete d) m s
      = bind (ev t) (fun r => bind (access S o r (fun _ => run1d l r)) (fun r' => ret (unshort_true r'))) m s.
  Proof.
    intros E Hm m s. destruct d; try discriminate E; injection E as -> <- ->; try contradiction.
    all: cbn [eval run1d]; apply bind_cong; intros r m1 s1; apply bind_cong_l; intros m2 s2.
    all: destruct o; [| destruct (nullish (valof r)) | destruct r]; reflexivity.
  Qed.

  Lemma run1d_unshort l r m s : bind (run1d l r) (fun r' => ret (unshort_true r')) m s = run1d l r m s.
  Proof.
    destruct l; cbn [run1d]; rewrite ?bind_assoc;
      repeat (apply bind_cong; intros ? ? ?; rewrite ?bind_assoc); rewrite bind_ret_l; reflexivity.
  Qed.

  Lemma ev_delete_link l result m s : member_link l ->
    ev (EDelete (link_expr l result)) m s = bind (ev result) (run1d l) m s.
  Proof.
    intro Hm. rewrite (ev_delete_unlink _ result l OcNone) by (destruct l; try contradiction; auto).
    apply bind_cong. intros r m1 s1. apply run1d_unshort.
  Qed.

  (* native: delete (t.name) / delete (t[k]) where t.name / t[k] is the end of a chain *)
  Lemma native_delete d : frag d -> ends_with_access d = true ->
    exists start ls0 l swc,
      flatten d = Some (start, ls0 ++ [l], swc) /\ member_link l /\ swc = head_call (ls0 ++ [l]) /\
      forall m s, ev (EDelete d) m s =
        bind (ev start) (fun r => if nullish (valof r) then ret (ov (VBool true))
                                  else bind (run ls0 r) (run1d l)) m s.
  Proof.
    intros Hf Ha.
    assert (exists t l o, unlink d = Some (t, l, o) /\ member_link l) as (t & l & o & E & Hm).
    { destruct d; try discriminate Ha; do 3 eexists; (split; [reflexivity | exact I]). }
    pose proof (flatten_unlink d t l o E) as Hfl. pose proof (ev_delete_unlink d t l o E Hm) as Hev.
    pose proof (frag_unlink d t l o E Hf) as Hfo. destruct o; [contradiction | |].
    - exists t, [], l, (head_call [l]). repeat split; auto.
      intros m s. rewrite Hev. apply bind_cong. intros r m1 s1. cbn [access run].
      destruct (nullish (valof r)); rewrite !bind_ret_l; [reflexivity | apply run1d_unshort].
    - destruct (frag_flatten_head t Hfo) as (st & ls0 & E0 & Hne).
      destruct (native_chain t Hfo st ls0 _ E0) as [_ Hnat]. rewrite E0 in Hfl.
      exists st, ls0, l, (head_call ls0). repeat split; auto. { symmetry. apply head_call_app, Hne. }
      intros m s. rewrite Hev, (bind_cong_l _ _ _ m s Hnat), bind_assoc. apply bind_cong. intros r m1 s1.
      destruct (nullish (valof r)).
      + rewrite bind_ret_l. cbn [access]. rewrite bind_ret_l. reflexivity.
      + apply bind_post with (Q := fun o => o <> OShort); [apply run_nonshort, Hne |].
        intros a Hna m2 s2. destruct a; [| contradiction]. apply run1d_unshort.
  Qed.

  Lemma rund_base ls0 l a b : head_call (ls0 ++ [l]) = false -> member_link l -> valof a = valof b ->
    forall m s, bind (run ls0 a) (run1d l) m s = bind (run ls0 b) (run1d l) m s.
  Proof.
    intros Hh Hm Hv m s. destruct ls0 as [| x xs].
    - cbn [run]. rewrite !bind_ret_l. destruct l; try contradiction; cbn [run1d]; rewrite Hv; reflexivity.
    - apply bind_cong_l. intros m0 s0. apply run_base; [discriminate | exact Hh | exact Hv].
  Qed.

  Lemma fold_links_app ls ls2 r : fold_links (ls ++ ls2) r = fold_links ls2 (fold_links ls r).
  Proof. unfold fold_links. apply fold_left_app. Qed.

  Lemma run1_member_base l a b : member_link l -> valof a = valof b ->
    forall m s, run1 l a m s = run1 l b m s.
  Proof. intros Hm Hv m s. destruct l; try contradiction; cbn [run1]; rewrite Hv; reflexivity. Qed.

  Lemma run1_member_baseof l r : member_link l ->
    forall m s, match run1 l r m s with (_, _, _, Ok o) => baseof o = valof r | _ => True end.
  Proof.
    intros Hm m s. destruct l; try contradiction; cbn [run1]; unfold bind, lift, ret.
    - destruct (w_get w (valof r) (VStr name) s) as [[? ?] [?|?]]; [reflexivity | exact I].
    - destruct (ev k m s) as [[[t1 m1] s1] [kr | x]]; [| exact I].
      destruct (w_get w (valof r) (valof kr) s1) as [[? ?] [?|?]]; [reflexivity | exact I].
  Qed.

  Lemma run1_member_sim (L : tpred) Pre l a b :
    member_link l -> valof a = valof b ->
    (forall k, L k -> ~ In k (link_tmps l)) -> stable L Pre ->
    simM L Pre (fun m x y => x = y /\ baseof y = valof b /\ Pre m) (run1 l a) (run1 l b).
  Proof.
    intros Hm Hv Hd Hst.
    eapply simM_ext; [intros m s; apply (run1_member_base l a b Hm Hv) | intros; reflexivity |].
    pose proof (simM_post_right L Pre _ (fun o => baseof o = valof b) _ _
                  (run1_fresh L Pre l b Hd Hst) (run1_member_baseof l b Hm)) as H.
    eapply simM_conseq; [| | exact H]; [auto |].
    intros m x y [Hb [-> Hp]]. auto.
  Qed.

  Lemma member_not_delete l : member_link l -> l <> LDelete.
  Proof. destruct l; intro H; try contradiction; discriminate. Qed.

  Lemma apply_links_store pre l : member_link l -> forall again inner n,
    apply_links (pre ++ [l]) again None inner true n
    = (let '(f, a, n1) := capture (fold_links pre again) n in (link_expr l f, Some a, n1)).
  Proof.
    intro Hm. induction pre as [| x xs IH]; intros again inner n.
    - cbn [app apply_links fold_links fold_left andb]. destruct (capture again n) as [[f a] n1].
      destruct l; try contradiction; reflexivity.
    - cbn [app fold_links fold_left]. fold (fold_links xs (link_expr x again)).
      rewrite <- (IH (link_expr x again) false n).
      destruct xs as [| y ys]; cbn [app apply_links andb]; destruct x, inner; reflexivity.
  Qed.

  Lemma fold_not_inline pre r : pre <> [] -> is_inline_value (fold_links pre r) = false.
  Proof.
    intro Hne. destruct (exists_last Hne) as (xs & x & ->). rewrite fold_links_app.
    cbn [fold_links fold_left]. destruct x; reflexivity.
  Qed.

  Lemma fold_keeps_not_inline pre r : is_inline_value r = false -> is_inline_value (fold_links pre r) = false.
  Proof. intro Hr. destruct pre as [| p ps]; [exact Hr | apply fold_not_inline; discriminate]. Qed.
End Chain.
