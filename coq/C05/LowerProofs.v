(* Equivalence of each lowering step with the construct it replaces, for every
   world, every state and all operand expressions, when the operands are
   captured in temporaries.  The set of temporaries in flight grows with each
   capture, so a captured operand may itself mention the temporary it is
   about to be stored in. *)
From V Require Import Common.Base C05.Syntax C05.Sem C05.Lower C05.Frame C05.SimLogic C05.Steps C05.Witness.

Section Proofs.
  Variable S : Type.
  Variable w : world S.
  Variable th : val.
  Notation ev := (eval w th).
  Notation evl := (eval_list S w th).
  Notation simM := (simM S).

  (* reading identifier x has no effect and no event (it may throw) *)
  Definition pure_var (x : Z) : Prop := forall s, exists r, w_getvar w x s = ([], s, r).

  Definition obs_eq (e1 e2 : expr) : Prop :=
    forall m s, observe (ev e1 m s) = observe (ev e2 m s).

  Lemma agree_tset L m n v : ~ In n L -> agree L (tset m n v) m.
  Proof. intros Hn k Hk. apply tget_tset_other. intro; subst; contradiction. Qed.

  Lemma agree_tset2 L m n v n' v' : ~ In n L -> ~ In n' L -> agree L (tset (tset m n v) n' v') m.
  Proof.
    intros Hn Hn' k Hk. rewrite !tget_tset_other; [reflexivity | |]; intro; subst; contradiction.
  Qed.

  (* evaluating b does not depend on a temporary that does not occur in it *)
  Lemma fresh_irrelevant b n v m s : ~ In n (tmps b) ->
    observe (ev b (tset m n v) s) = observe (ev b m s).
  Proof.
    intro Hn. destruct (eval_framed S w th b) as [F _].
    specialize (F (tset m n v) m s (agree_tset _ _ _ _ Hn)).
    destruct (ev b (tset m n v) s) as [[[t1 m1] s1] r1], (ev b m s) as [[[t2 m2] s2] r2].
    destruct F as (-> & -> & -> & _). reflexivity.
  Qed.

  Lemma bind_cong_l {A B} (c c' : M S A) (k : A -> M S B) m s :
    (forall m s, c m s = c' m s) -> bind c k m s = bind c' k m s.
  Proof. intro H. unfold bind. rewrite H. reflexivity. Qed.

  Lemma bind_ret_r {A} (c : M S A) m s : bind c ret m s = c m s.
  Proof. unfold bind, ret. destruct (c m s) as [[[t1 m1] s1] [a | v]]; [rewrite app_nil_r |]; reflexivity. Qed.

  Lemma ev_call f args o :
    ev (ECall f args o)
    = bind (ev f) (fun r => access S o r (fun fv =>
      bind (evl args) (fun vs => bind (lift (w_call w fv (baseof r) vs)) (fun v => ret (ov v))))).
  Proof. reflexivity. Qed.

  Lemma ev_callthis f t args :
    ev (ECallThis f t args)
    = bind (ev f) (fun fr => bind (lift (w_get w (valof fr) (VStr name_call))) (fun _ =>
      bind (ev t) (fun tr => bind (evl args) (fun vs =>
      bind (lift (w_call w (valof fr) (valof tr) vs)) (fun v => ret (ov v)))))).
  Proof. reflexivity. Qed.

  Lemma simM_both_lift {A B C} (L : tpred) Pre (Post : tstore -> B -> C -> Prop)
        (f : S -> list event * S * res A) k k0 :
    (forall a, simM L Pre Post (k a) (k0 a)) -> simM L Pre Post (bind (lift f) k) (bind (lift f) k0).
  Proof. intro H. eapply simM_bind; [apply simM_lift |]. intros a b. apply simM_pure. intros ->. apply H. Qed.

  Lemma simM_both_ev {B C} (L : tpred) Pre (Post : tstore -> B -> C -> Prop) e k k0 :
    (forall j, L j -> ~ In j (tmps e)) -> stable L Pre ->
    (forall r, simM L Pre Post (k r) (k0 r)) -> simM L Pre Post (bind (ev e) k) (bind (ev e) k0).
  Proof.
    intros Hd Hst H. eapply simM_bind; [apply (simM_fresh S w th L Pre e Hd Hst) |].
    intros a b. apply simM_pure. intros ->. apply H.
  Qed.

  Lemma simM_both_evl {B C} (L : tpred) Pre (Post : tstore -> B -> C -> Prop) args k k0 :
    (forall j, L j -> ~ In j (flat_map tmps args)) -> stable L Pre ->
    (forall vs, simM L Pre Post (k vs) (k0 vs)) -> simM L Pre Post (bind (evl args) k) (bind (evl args) k0).
  Proof.
    intros Hd Hst H. eapply simM_bind; [apply (simM_fresh_list S w th L Pre args Hd Hst) |].
    intros a b. apply simM_pure. intros ->. apply H.
  Qed.

  Lemma simM_head_l {A B C} (L : tpred) Pre (Post : tstore -> A -> B -> Prop) (c c' : M S C) k cn :
    (forall m s, c m s = c' m s) -> simM L Pre Post (bind c' k) cn -> simM L Pre Post (bind c k) cn.
  Proof. intro E. apply simM_ext; intros m s; [apply bind_cong_l, E | reflexivity]. Qed.

  Lemma simM_left_tmp {A B} (L : tpred) (Pre : tstore -> Prop) (Post : tstore -> A -> B -> Prop) n v k cn :
    (forall m, Pre m -> tget m n = v) ->
    simM L Pre Post (k (ov v)) cn -> simM L Pre Post (bind (fun m s => ([], m, s, Ok (ov (tget m n)))) k) cn.
  Proof. intro H. apply simM_left_pure. intros m s Hp. cbn. rewrite (H m Hp). reflexivity. Qed.

  Lemma simM_left_skip {A B C} (L : tpred) (Pre : tstore -> Prop) (Post : tstore -> A -> B -> Prop)
        (c : M S C) k cn :
    (forall m s, Pre m -> exists a, c m s = ([], m, s, Ok a)) ->
    (forall a, simM L Pre Post (k a) cn) -> simM L Pre Post (bind c k) cn.
  Proof.
    intros Hc H m m0 s Hs Hp. unfold bind. destruct (Hc m s Hp) as [a Ea]. rewrite Ea.
    specialize (H a m m0 s Hs Hp).
    destruct (k a m s) as [[[t1 m1] s1] r1], (cn m0 s) as [[[t2 m2] s2] r2]. exact H.
  Qed.

  (* f.call(t, ...) reaches f with this = t: reading "call" from a non-nullish
     callee is pure (Function.prototype.call intact, no own "call" property) *)
  Definition call_intact : Prop :=
    forall fv s, nullish fv = false -> exists c, w_get w fv (VStr name_call) s = ([], s, Ok c).

  Lemma simM_left_getcall {A B} (L : tpred) (Pre : tstore -> Prop) (Post : tstore -> A -> B -> Prop) fv k cn :
    call_intact -> nullish fv = false ->
    (forall c, simM L Pre Post (k c) cn) -> simM L Pre Post (bind (lift (w_get w fv (VStr name_call))) k) cn.
  Proof.
    intros Hc Hn. apply simM_left_skip. intros m s _. unfold lift.
    destruct (Hc fv s Hn) as [c ->]. eexists; reflexivity.
  Qed.

  Lemma simM_post_right {A B} (L : tpred) (Pre : tstore -> Prop) (Post : tstore -> A -> B -> Prop)
        (Q : B -> Prop) cl cn :
    simM L Pre Post cl cn ->
    (forall m s, match cn m s with (_, _, _, Ok b) => Q b | _ => True end) ->
    simM L Pre (fun m a b => Q b /\ Post m a b) cl cn.
  Proof.
    intros H HQ m m0 s Hs Hp. specialize (H m m0 s Hs Hp). specialize (HQ m0 s).
    destruct (cl m s) as [[[t1 m1] s1] r1], (cn m0 s) as [[[t2 m2] s2] r2].
    destruct H as (-> & -> & Hs' & Hr). repeat split; auto. destruct r1, r2; auto.
  Qed.

  (* Only what an observer sees of the two runs is compared here, so the set L
     of temporaries in flight may grow on the way: a capture "_n = e" adds n. *)
  Definition obsM (L : tpred) (Pre : tstore -> Prop) (cl cn : M S out) : Prop :=
    forall m m0 s, simL L m m0 -> Pre m -> observe (cl m s) = observe (cn m0 s).

  Lemma obsM_simM L Pre cl cn : simM L Pre veq cl cn -> obsM L Pre cl cn.
  Proof.
    intros H m m0 s Hs Hp. specialize (H m m0 s Hs Hp).
    destruct (cl m s) as [[[t1 m1] s1] r1], (cn m0 s) as [[[t2 m2] s2] r2].
    destruct H as (-> & -> & _ & Hr). cbn.
    destruct r1, r2; try contradiction; [rewrite Hr | subst]; reflexivity.
  Qed.

  Lemma obsM_obs_eq e1 e2 : obsM (fun _ => False) (fun _ => True) (ev e1) (ev e2) -> obs_eq e1 e2.
  Proof. intros H m s. apply H; [apply simL_refl | exact I]. Qed.

  Lemma obsM_assoc_l {A B} L Pre (c : M S A) (k : A -> M S B) (h : B -> M S out) cn :
    obsM L Pre (bind c (fun a => bind (k a) h)) cn -> obsM L Pre (bind (bind c k) h) cn.
  Proof. intros H m m0 s Hs Hp. rewrite bind_assoc. apply H; assumption. Qed.

  Lemma obsM_assoc_r {A B} L Pre (c : M S A) (k : A -> M S B) (h : B -> M S out) cl :
    obsM L Pre cl (bind c (fun a => bind (k a) h)) -> obsM L Pre cl (bind (bind c k) h).
  Proof. intros H m m0 s Hs Hp. rewrite bind_assoc. apply H; assumption. Qed.

  Lemma obsM_capture (L L' : tpred) (Pre : tstore -> Prop) e n (k k0 : out -> M S out) :
    (forall j, L j -> ~ In j (tmps e)) -> stable L Pre ->
    (forall j, L j -> L' j) -> L' n -> ~ L n ->
    (forall r, obsM L' (fun m => tget m n = valof r /\ Pre m) (k (ov (valof r))) (k0 r)) ->
    obsM L Pre
      (bind (ev e) (fun r => bind (fun m s => ([], tset m n (valof r), s, Ok (ov (valof r)))) k))
      (bind (ev e) k0).
  Proof.
    intros Hd Hst Hsub Hn Hnn H m m0 s Hs Hp.
    pose proof (simM_fresh S w th L Pre e Hd Hst m m0 s Hs Hp) as Q. unfold bind.
    destruct (ev e m s) as [[[t1 m1] s1] r1], (ev e m0 s) as [[[t2 m2] s2] r2].
    destruct Q as (-> & -> & Hs1 & Hr).
    destruct r1 as [a | x], r2 as [b | y]; try contradiction; [| subst; reflexivity].
    destruct Hr as [-> Hp1].
    assert (Hk : forall j, j <> n -> tget (tset m1 n (valof b)) j = tget m1 j).
    { intros j Hj. apply tget_tset_other. congruence. }
    specialize (H b (tset m1 n (valof b)) m2 s2).
    destruct (k (ov (valof b)) (tset m1 n (valof b)) s2) as [[[t3 m3] s3] r3], (k0 b m2 s2) as [[[t4 m4] s4] r4].
    assert (E : observe (t3, m3, s3, r3) = observe (t4, m4, s4, r4)).
    { apply H.
      - intros j Hj. rewrite Hk; [apply Hs1 | ]; intro; [apply Hj, Hsub; assumption | subst; contradiction].
      - split; [apply tget_tset_same |]. apply (Hst m1); [| exact Hp1].
        intros j Hj. apply Hk. intro; subst; contradiction. }
    cbn in *. injection E as -> -> E. rewrite E. reflexivity.
  Qed.

  (* the first capture: nothing is in flight yet *)
  Lemma obsM_capture_head (L' : tpred) e n (k k0 : out -> M S out) :
    L' n ->
    (forall r, obsM L' (fun m => tget m n = valof r) (k (ov (valof r))) (k0 r)) ->
    obsM (fun _ => False) (fun _ => True)
      (bind (ev e) (fun r => bind (fun m s => ([], tset m n (valof r), s, Ok (ov (valof r)))) k))
      (bind (ev e) k0).
  Proof.
    intros Hn H.
    apply (obsM_capture (fun _ => False) L'); [intros j [] | apply stable_true | intros j [] | exact Hn | intros [] |].
    intros r m m0 s Hs [Hp _]. apply (H r m m0 s Hs Hp).
  Qed.

  Lemma inline_pure a m s : is_inline_value a = true -> (forall x, a = EId x -> pure_var x) ->
    exists r : res val, ev a m s = ([], m, s, match r with Ok v => Ok (ov v) | Throw x => Throw x end).
  Proof.
    intros Hi Hp. destruct a; try discriminate Hi; cbn; try (eexists (Ok _); reflexivity).
    destruct (Hp x eq_refl s) as [r Hr]. exists r. unfold bind, lift, ret. rewrite Hr. destruct r; reflexivity.
  Qed.

  Theorem lowerNullish_equiv a b n :
    ~ In n (tmps b) ->
    (forall x, a = EId x -> pure_var x) ->
    obs_eq (fst (lowerNullishCoalescing a b n)) (EBin BNullish a b).
  Proof.
    intros Hn Hp. unfold lowerNullishCoalescing, capture.
    destruct (is_inline_value a) eqn:Ei; cbn [fst].
    - intros m s. destruct (inline_pure a m s Ei Hp) as [r Hr]. cbn [eval]. unfold bind. rewrite Hr.
      destruct r as [v | x]; [| reflexivity]. cbn. destruct (nullish v); cbn.
      + destruct (ev b m s) as [[[t1 m1] s1] [o | x]]; reflexivity.
      + rewrite Hr. reflexivity.
    - apply obsM_obs_eq. cbn [eval]. repeat apply obsM_assoc_l.
      apply (obsM_capture_head (fun j => j = n)); [reflexivity |]. intro r. apply obsM_simM.
      apply simM_ret_l. cbn [valof ov xorb truthy].
      destruct (nullish (valof r)).
      + apply simM_both_ev; [intros j ->; exact Hn | apply stable_tget; reflexivity |].
        intro r2. apply simM_ret. reflexivity.
      + apply simM_left_tmp with (v := valof r); [auto |]. apply simM_ret. reflexivity.
  Qed.

  (* the short-circuit operators ??, ||, && and their assignment forms, as one case *)
  Definition short_op (op : binop) : Prop := op = BNullish \/ op = BOr \/ op = BAnd.
  Definition asg_of (op : binop) : asgop := match op with BNullish => ANullish | BOr => AOr | _ => AAnd end.

  (* [go] where the right operand is evaluated, [stop] where the left one is the result *)
  Definition choose {A} (op : binop) (v : val) (go stop : A) : A :=
    match op with
    | BNullish => if nullish v then go else stop
    | BOr => if truthy v then stop else go
    | _ => if truthy v then go else stop
    end.

  Lemma choose_cases op v :
    (forall A (x y : A), choose op v x y = x) \/ (forall A (x y : A), choose op v x y = y).
  Proof. unfold choose. destruct op, (nullish v), (truthy v); auto. Qed.

  Lemma ev_short op a b : short_op op ->
    ev (EBin op a b)
    = bind (ev a) (fun r => choose op (valof r) (bind (ev b) (fun r2 => ret (ov (valof r2)))) (ret (ov (valof r)))).
  Proof. intros [-> | [-> | ->]]; reflexivity. Qed.

  Lemma opasg_short op lval c store : short_op op ->
    opasg S w (asg_of op) lval c store
    = choose op lval (bind c (fun r => bind (store (valof r)) (fun _ => ret (ov (valof r))))) (ret (ov lval)).
  Proof. intros [-> | [-> | ->]]; reflexivity. Qed.

  (* x op= v  =>  x op (x = v): read once, written once by both forms *)
  Lemma logasg_id op x v : short_op op ->
    obs_eq (EBin op (EId x) (EAssign (EId x) v)) (EOpAsg (asg_of op) (EId x) v).
  Proof.
    intro Hop. apply obsM_obs_eq, obsM_simM. rewrite (ev_short op _ _ Hop). cbn [eval].
    apply simM_assoc_l. apply simM_both_lift. intro l. apply simM_ret_l. cbn [valof ov].
    rewrite (opasg_short op _ _ _ Hop). destruct (choose_cases op l) as [E | E]; rewrite !E.
    - repeat apply simM_assoc_l. apply simM_both_ev; [intros j [] | apply stable_true |]. intro r.
      apply simM_assoc_l. apply simM_both_lift. intro u. apply simM_ret_l. apply simM_ret. reflexivity.
    - apply simM_ret. reflexivity.
  Qed.

  (* t.name op= v  =>  (_n = t).name op (_n.name = v) *)
  Lemma logasg_dot_captured op t name v n : short_op op -> ~ In n (tmps v) ->
    obs_eq (EBin op (EDot (EAssign (ETmp n) t) name OcNone) (EAssign (EDot (ETmp n) name OcNone) v))
           (EOpAsg (asg_of op) (EDot t name OcNone) v).
  Proof.
    intros Hop Hn. apply obsM_obs_eq. rewrite (ev_short op _ _ Hop). cbn [eval access].
    repeat apply obsM_assoc_l.
    apply (obsM_capture_head (fun j => j = n)); [reflexivity |]. intro r. apply obsM_simM.
    cbn [access valof ov]. apply simM_assoc_l. apply simM_both_lift. intro l.
    apply simM_ret_l. cbn [valof ov].
    rewrite (opasg_short op _ _ _ Hop). destruct (choose_cases op l) as [E | E]; rewrite !E.
    - repeat apply simM_assoc_l. apply simM_left_tmp with (v := valof r); [auto |]. cbn [valof ov].
      apply simM_assoc_l. apply simM_both_ev; [intros j ->; exact Hn | apply stable_tget; reflexivity |]. intro r0.
      apply simM_assoc_l. apply simM_both_lift. intro u. apply simM_ret_l. apply simM_ret. reflexivity.
    - apply simM_ret. reflexivity.
  Qed.

  (* t[k] op= v with both object and key captured:  (_n = t)[_n1 = k] op (_n[_n1] = v);
     object and key are evaluated once, in this order *)
  Lemma logasg_index_captured op t k v n : short_op op ->
    ~ In n (tmps k) -> ~ In n (tmps v) -> ~ In (n + 1) (tmps v) ->
    obs_eq (EBin op (EIndex (EAssign (ETmp n) t) (EAssign (ETmp (n + 1)) k) OcNone)
                    (EAssign (EIndex (ETmp n) (ETmp (n + 1)) OcNone) v))
           (EOpAsg (asg_of op) (EIndex t k OcNone) v).
  Proof.
    intros Hop Hnk Hn Hn1. apply obsM_obs_eq. rewrite (ev_short op _ _ Hop). cbn [eval access].
    repeat apply obsM_assoc_l.
    apply (obsM_capture_head (fun j => j = n)); [reflexivity |]. intro r.
    cbn [access valof ov]. repeat apply obsM_assoc_l.
    apply (obsM_capture (fun j => j = n) (fun j => n <= j < n + 2)); try lia;
      [intros j ->; exact Hnk | apply stable_tget; reflexivity |].
    intro kr. apply obsM_simM. cbn [valof ov]. apply simM_assoc_l. apply simM_both_lift. intro l.
    apply simM_ret_l. cbn [valof ov].
    assert (Hst : stable (fun j => n <= j < n + 2) (fun m => tget m (n + 1) = valof kr /\ tget m n = valof r)).
    { apply stable_and; apply stable_tget; lia. }
    rewrite (opasg_short op _ _ _ Hop). destruct (choose_cases op l) as [E | E]; rewrite !E.
    - apply simM_assoc_l. apply simM_left_tmp with (v := valof r); [intros m H; apply H |]. cbn beta.
      apply simM_assoc_l. apply simM_left_tmp with (v := valof kr); [intros m H; apply H |]. cbn [valof ov].
      apply simM_assoc_l. apply simM_both_ev; [| exact Hst |].
      { intros j Hj. assert (j = n \/ j = n + 1) as [-> | ->] by lia; assumption. }
      intro r0. apply simM_assoc_l. apply simM_both_lift. intro u. apply simM_ret_l. apply simM_ret. reflexivity.
    - apply simM_ret. reflexivity.
  Qed.

  Theorem lowerLogicalAsg_dot_captured F op t name v n :
    f_logasg F = true ->
    is_inline_value t = false ->
    ~ In n (tmps v) ->
    forall r, lowerLogicalAsg F op (EDot t name OcNone) v n = Some r ->
    (op = BOr -> obs_eq (fst r) (EOpAsg AOr (EDot t name OcNone) v)) /\
    (op = BAnd -> obs_eq (fst r) (EOpAsg AAnd (EDot t name OcNone) v)).
  Proof.
    intros HF Hi Hn r. unfold lowerLogicalAsg, lowerAssignmentOperator, capture. rewrite HF, Hi.
    intro E; injection E as <-. cbn [fst].
    split; intros ->; [apply (logasg_dot_captured BOr) | apply (logasg_dot_captured BAnd)]; unfold short_op; auto.
  Qed.

  (* identifier targets are read once and written once by both forms: no side condition *)
  Theorem lowerLogicalAsg_id_equiv F x v n r :
    f_logasg F = true ->
    (lowerLogicalAsg F BOr (EId x) v n = Some r -> obs_eq (fst r) (EOpAsg AOr (EId x) v)) /\
    (lowerLogicalAsg F BAnd (EId x) v n = Some r -> obs_eq (fst r) (EOpAsg AAnd (EId x) v)).
  Proof.
    intro HF. unfold lowerLogicalAsg, lowerAssignmentOperator. rewrite HF.
    split; intro E; injection E as <-; [apply (logasg_id BOr) | apply (logasg_id BAnd)]; unfold short_op; auto.
  Qed.

  Theorem lowerLogicalAsg_index_captured F op t k v n :
    f_logasg F = true ->
    is_inline_value t = false -> is_inline_value k = false ->
    ~ In n (tmps k) -> ~ In n (tmps v) -> ~ In (n + 1) (tmps v) ->
    forall r, lowerLogicalAsg F op (EIndex t k OcNone) v n = Some r ->
    (op = BOr -> obs_eq (fst r) (EOpAsg AOr (EIndex t k OcNone) v)) /\
    (op = BAnd -> obs_eq (fst r) (EOpAsg AAnd (EIndex t k OcNone) v)).
  Proof.
    intros HF Hi Hik Hnk Hn Hn1 r. unfold lowerLogicalAsg, lowerAssignmentOperator, capture. rewrite HF, Hi, Hik.
    intro E; injection E as <-. cbn [fst].
    split; intros ->; [apply (logasg_index_captured BOr) | apply (logasg_index_captured BAnd)]; unfold short_op; auto.
  Qed.

  (* a.b ??= v, both when ?? itself is lowered and when it is not *)
  Theorem lowerNullishAsg_dot_captured F t name v n r :
    f_logasg F = true ->
    is_inline_value t = false ->
    ~ In n (tmps v) -> ~ In (n + 1) (tmps v) ->
    lowerNullishAsg F (EDot t name OcNone) v n = Some r ->
    obs_eq (fst r) (EOpAsg ANullish (EDot t name OcNone) v).
  Proof.
    intros HF Hi Hn Hn1. unfold lowerNullishAsg, lowerAssignmentOperator, capture. rewrite HF, Hi.
    assert (Hd : obs_eq (EBin BNullish (EDot (EAssign (ETmp n) t) name OcNone) (EAssign (EDot (ETmp n) name OcNone) v))
                        (EOpAsg ANullish (EDot t name OcNone) v)).
    { apply (logasg_dot_captured BNullish); unfold short_op; auto. }
    destruct (f_nullish F); intro E; injection E as <-; [| exact Hd].
    intros m s. rewrite <- Hd. apply lowerNullish_equiv; [| intros x Hx; discriminate Hx].
    cbn. intros [H | H]; [lia | exact (Hn1 H)].
  Qed.

  (* x **= v  =>  x = __pow(x, v) *)
  Theorem lowerExpAsg_id_equiv x v n :
    obs_eq (fst (lowerExpAsg (EId x) v n)) (EOpAsg APow (EId x) v).
  Proof.
    apply obsM_obs_eq, obsM_simM. cbn [lowerExpAsg lowerAssignmentOperator fst eval opasg].
    repeat apply simM_assoc_l. apply simM_both_lift. intro l. apply simM_ret_l. cbn [valof ov].
    repeat apply simM_assoc_l. apply simM_both_ev; [intros j [] | apply stable_true |]. intro r.
    repeat apply simM_assoc_l. apply simM_both_lift. intro p. apply simM_ret_l. cbn [valof ov].
    apply simM_both_lift. intro u. apply simM_ret. reflexivity.
  Qed.

  (* t.name **= v  =>  (_n = t).name = __pow(_n.name, v) *)
  Theorem lowerExpAsg_dot_captured t name v n :
    is_inline_value t = false ->
    ~ In n (tmps v) ->
    obs_eq (fst (lowerExpAsg (EDot t name OcNone) v n)) (EOpAsg APow (EDot t name OcNone) v).
  Proof.
    intros Hi Hn. unfold lowerExpAsg, lowerAssignmentOperator, capture. rewrite Hi. cbn [fst].
    apply obsM_obs_eq. cbn [eval access opasg]. repeat apply obsM_assoc_l.
    apply (obsM_capture_head (fun j => j = n)); [reflexivity |]. intro r. apply obsM_simM.
    repeat apply simM_assoc_l. apply simM_left_tmp with (v := valof r); [auto |]. cbn [access valof ov].
    repeat apply simM_assoc_l. apply simM_both_lift. intro l. apply simM_ret_l. cbn [valof ov].
    repeat apply simM_assoc_l. apply simM_both_ev; [intros j ->; exact Hn | apply stable_tget; reflexivity |].
    intro r0. repeat apply simM_assoc_l. apply simM_both_lift. intro p. apply simM_ret_l. cbn [valof ov].
    apply simM_both_lift. intro u. apply simM_ret. reflexivity.
  Qed.

  (* steps 1-3 and 5 of lowerOptionalChain for a chain that does not start with
     a call and whose start is captured *)
  Lemma loc_captured F e i t ls n :
    flatten e = Some (t, ls, false) -> is_inline_value t = false -> f_optchain F = true ->
    lowerOptionalChain F e i out0 n
    = (let '(result, pth, n') :=
         apply_links ls (ETmp n) None true (storeThis i && ends_with_access e) (n + 1) in
       (EIf (EEqNull false (EAssign (ETmp n) t)) (if is_delete e then EBool true else EUndef) result,
        mkOut pth false, n')).
  Proof.
    intros Hfl Hi HF. unfold lowerOptionalChain, capture. rewrite Hfl.
    destruct t; try discriminate Hi; rewrite HF; reflexivity.
  Qed.

  (* t?.name  =>  (_n = t) == null ? void 0 : _n.name *)
  Theorem lowerOptionalChain_dot_captured F t name n :
    f_optchain F = true ->
    is_inline_value t = false ->
    obs_eq (fst (fst (lowerOptionalChain F (EDot t name OcStart) (mkIn false false) out0 n)))
           (EDot t name OcStart).
  Proof.
    intros HF Hi. rewrite (loc_captured F (EDot t name OcStart) _ t [LDot name] n eq_refl Hi HF). cbn [apply_links andb storeThis fst].
    apply obsM_obs_eq. cbn [eval access]. repeat apply obsM_assoc_l.
    apply (obsM_capture_head (fun j => j = n)); [reflexivity |]. intro r. apply obsM_simM.
    apply simM_ret_l. cbn [valof ov xorb truthy].
    destruct (nullish (valof r)).
    - apply simM_ret_l. apply simM_ret. reflexivity.
    - apply simM_assoc_l. apply simM_left_tmp with (v := valof r); [auto |]. cbn [access valof ov].
      apply simM_assoc_l. apply simM_both_lift. intro x. apply simM_ret_l. apply simM_ret. reflexivity.
  Qed.

  (* delete t?.name  =>  (_n = t) == null ? true : delete _n.name *)
  Theorem lowerOptionalChain_delete_captured F t name n :
    f_optchain F = true ->
    is_inline_value t = false ->
    obs_eq (fst (fst (lowerOptionalChain F (EDelete (EDot t name OcStart)) (mkIn true false) out0 n)))
           (EDelete (EDot t name OcStart)).
  Proof.
    intros HF Hi. rewrite (loc_captured F (EDelete (EDot t name OcStart)) _ t [LDot name; LDelete] n eq_refl Hi HF).
    cbn [apply_links andb storeThis is_delete fst].
    apply obsM_obs_eq. cbn [eval access]. repeat apply obsM_assoc_l.
    apply (obsM_capture_head (fun j => j = n)); [reflexivity |]. intro r. apply obsM_simM.
    apply simM_ret_l. cbn [valof ov xorb truthy].
    destruct (nullish (valof r)).
    - apply simM_ret_l. apply simM_ret_r. apply simM_ret. reflexivity.
    - repeat apply simM_assoc_l. apply simM_left_tmp with (v := valof r); [auto |]. cbn [access valof ov].
      repeat apply simM_assoc_l. apply simM_assoc_r. apply simM_both_lift. intro x.
      repeat apply simM_ret_l. repeat apply simM_ret_r. apply simM_ret. reflexivity.
  Qed.

  (* t.name?.(args)  =>  (_n1 = (_n = t).name) == null ? void 0 : _n1.call(_n, args) *)
  Theorem lowerOptionalChain_call_captured F t name args n :
    f_optchain F = true ->
    is_inline_value t = false ->
    call_intact ->
    (forall k, In k [n; n + 1] -> ~ In k (flat_map tmps args)) ->
    obs_eq (fst (fst (lowerOptionalChain F (ECall (EDot t name OcNone) args OcStart) (mkIn false false) out0 n)))
           (ECall (EDot t name OcNone) args OcStart).
  Proof.
    intros HF Hi Hc Hd. unfold lowerOptionalChain. cbn [flatten is_delete].
    rewrite HF. cbn [negb thisArg out0 storeThis andb].
    unfold capture. rewrite Hi. cbn [is_inline_value apply_links andb fst].
    set (L := fun j => n <= j < n + 2).
    apply obsM_obs_eq. rewrite ev_call. cbn [eval access]. fold (evl args).
    repeat apply obsM_assoc_l. apply obsM_assoc_r.
    apply (obsM_capture_head L); [unfold L; lia |]. intro r. apply obsM_simM.
    cbn [valof ov]. apply simM_assoc_l. apply simM_assoc_r. apply simM_both_lift. intro fv.
    apply simM_ret_l. apply simM_ret_r. cbn [valof baseof].
    apply (simM_left_write S L _ (fun m => tget m (n + 1) = fv /\ tget m n = valof r)); [unfold L; lia | |].
    { intros m H. split; [apply tget_tset_same | rewrite tget_tset_other by lia; exact H]. }
    apply simM_ret_l. cbn [valof ov xorb truthy].
    destruct (nullish fv) eqn:Hnf.
    - apply simM_ret_l. apply simM_ret. reflexivity.
    - repeat apply simM_assoc_l. apply simM_left_tmp with (v := fv); [intros m H; apply H |]. cbn [valof ov].
      apply simM_assoc_l. apply (simM_left_getcall _ _ _ fv _ _ Hc Hnf).
      intros _. apply simM_assoc_l. apply simM_left_tmp with (v := valof r); [intros m H; apply H |]. cbn [valof ov].
      apply simM_assoc_l. apply simM_both_evl.
      { intros j Hj. apply Hd. unfold L in Hj. assert (j = n \/ j = n + 1) as [-> | ->] by lia; cbn; auto. }
      { apply stable_and; apply stable_tget; unfold L; lia. }
      intro vs. apply simM_assoc_l. apply simM_both_lift. intro x. apply simM_ret_l. apply simM_ret. reflexivity.
  Qed.

  (* x may be read again later: reading is pure and getters do not change it *)
  Definition stable_var (x : Z) : Prop :=
    pure_var x /\
    forall b k s, match w_get w b k s with (_, s', _) => snd (w_getvar w x s') = snd (w_getvar w x s) end.
End Proofs.

Arguments bind_cong {S A B}. Arguments bind_cong_l {S A B}. Arguments bind_ret_r {S A}.
Arguments simM_head_l {S A B C}. Arguments simM_left_skip {S A B C}. Arguments simM_left_getcall {S w A B}.
Arguments simM_post_right {S A B}.

(* The full statement is false of the faithful model: the sources f1_src to f4_src
   and f6_src of Witness.v behave differently once lowered, in the world wit_world. *)
Definition lowering_preserves_behaviour : Prop :=
  forall (S : Type) (w : world S) (th : val) (F : feat) (e : expr) (s : S),
    tmps e = [] -> run w th (lower F e) s = run w th e s.

Lemma refute (e : expr) :
  tmps e = [] -> wit_run (lower all_features e) <> wit_run e -> ~ lowering_preserves_behaviour.
Proof. intros Ht Hne H. apply Hne. apply (H Z wit_world VUndef all_features e 1 Ht). Qed.

Lemma refuted_F1 : wit_run (lower all_features f1_src) <> wit_run f1_src.
Proof. vm_compute. discriminate. Qed.
Lemma refuted_F2 : wit_run (lower all_features f2_src) <> wit_run f2_src.
Proof. vm_compute. discriminate. Qed.
Lemma refuted_F3 : wit_run (lower all_features f3_src) <> wit_run f3_src.
Proof. vm_compute. discriminate. Qed.
Lemma refuted_F4 : wit_run (lower all_features f4_src) <> wit_run f4_src.
Proof. vm_compute. discriminate. Qed.
Lemma refuted_F6 : wit_run (lower all_features f6_src) <> wit_run f6_src.
Proof. vm_compute. discriminate. Qed.

Lemma lowering_refuted_all :
  exists (S : Type) (w : world S) (th : val) (F : feat) (e : expr) (s : S),
    tmps e = [] /\ run w th (lower F e) s <> run w th e s.
Proof. exists Z, wit_world, VUndef, all_features, f4_src, 1. split; [reflexivity | exact refuted_F4]. Qed.
