(* Where the temporaries of visit's output come from: each occurs in the
   input or was numbered by the counter on the way.  Stated for an arbitrary
   property P of temporaries: the lower bounds [above] and the upper bounds
   that give freshness (Visit2.v) are both instances.  Purely syntactic facts
   about the model, together with the case analysis of lowerOptionalChain that
   the other syntactic facts about it are read off from. *)
From V Require Import Common.Base C05.Syntax C05.Lower.

Definition above (n : Z) (e : expr) : Prop := forall j, In j (tmps e) -> n <= j.

Lemma above_mono n n' e : n' <= n -> above n e -> above n' e.
Proof. intros Hn H j Hj. specialize (H j Hj). lia. Qed.

Definition tall (P : Z -> Prop) (e : expr) : Prop := Forall P (tmps e).
(* P holds of every number the counter hands out between n and n' *)
Definition span (P : Z -> Prop) (n n' : Z) : Prop := forall j, n <= j < n' -> P j.

Lemma span_sub P a b a' b' : a <= a' -> b' <= b -> span P a b -> span P a' b'.
Proof. intros Ha Hb H j Hj. apply H. lia. Qed.

Lemma tall_above lo e : tall (fun j => lo <= j) e <-> above lo e.
Proof. apply Forall_forall. Qed.

Lemma tall_list P args : Forall P (flat_map tmps args) -> Forall (tall P) args.
Proof. apply Forall_flat_map. Qed.

Ltac tl := unfold tall in *; cbn [tmps flat_map] in *; rewrite ?Forall_app in *;
           intuition (auto using Forall_nil, Forall_cons).

Lemma capture_tall P t n f a n1 : capture t n = (f, a, n1) ->
  n <= n1 /\ (span P n n1 -> tall P t -> tall P f /\ tall P a).
Proof.
  unfold capture. destruct (is_inline_value t); intro H; injection H as <- <- <-.
  - split; [lia | auto].
  - split; [lia |]. intros Hs Ht. specialize (Hs n ltac:(lia)). tl.
Qed.

Lemma lowerNullish_tall P a b n r n1 : lowerNullishCoalescing a b n = (r, n1) ->
  n <= n1 /\ (span P n n1 -> tall P a -> tall P b -> tall P r).
Proof.
  unfold lowerNullishCoalescing. destruct (capture a n) as [[f ag] k] eqn:Hc. intro E; injection E as <- <-.
  destruct (capture_tall P a n f ag k Hc) as [Hk Hf]. split; [exact Hk |].
  intros Hs Ha Hb. destruct (Hf Hs Ha). tl.
Qed.

Lemma lao_tall P (Q : Prop) tgt (cb : expr -> expr -> Z -> expr * Z) n r n1 :
  (forall a b k r' k', cb a b k = (r', k') ->
     k <= k' /\ (span P k k' -> Q -> tall P a -> tall P b -> tall P r')) ->
  lowerAssignmentOperator tgt cb n = (r, n1) -> n <= n1 /\ (span P n n1 -> Q -> tall P tgt -> tall P r).
Proof.
  intros Hcb. unfold lowerAssignmentOperator.
  destruct tgt; try (intro E; injection E as <- <-; split; [lia | auto]).
  - intro E. destruct (Hcb _ _ _ _ _ E) as [Hn H]. auto.
  - destruct o; try (intro E; injection E as <- <-; split; [lia | auto]).
    destruct (capture tgt n) as [[f a] k] eqn:Hc. destruct (capture_tall P tgt n f a k Hc) as [Hk Hf].
    intro E. destruct (Hcb _ _ _ _ _ E) as [Hn H]. split; [lia |]. intros Hs q Ht.
    destruct (Hf (span_sub P n n1 n k ltac:(lia) Hn Hs) Ht).
    apply (H (span_sub P n n1 k n1 Hk ltac:(lia) Hs) q); assumption.
  - destruct o; try (intro E; injection E as <- <-; split; [lia | auto]).
    destruct (capture tgt1 n) as [[f a] k] eqn:Hc. destruct (capture_tall P tgt1 n f a k Hc) as [Hk Hf].
    destruct (capture tgt2 k) as [[kf ka] k2] eqn:Hck. destruct (capture_tall P tgt2 k kf ka k2 Hck) as [Hk2 Hf2].
    intro E. destruct (Hcb _ _ _ _ _ E) as [Hn H]. split; [lia |]. intros Hs q Ht.
    assert (Ht12 : tall P tgt1 /\ tall P tgt2) by tl. destruct Ht12 as [Ht1 Ht2].
    destruct (Hf (span_sub P n n1 n k ltac:(lia) ltac:(lia) Hs) Ht1).
    destruct (Hf2 (span_sub P n n1 k k2 Hk Hn Hs) Ht2).
    apply (H (span_sub P n n1 k2 n1 ltac:(lia) ltac:(lia) Hs) q); tl.
Qed.

Lemma lowerExpAsg_tall P tgt v n r n1 : lowerExpAsg tgt v n = (r, n1) ->
  n <= n1 /\ (span P n n1 -> tall P v -> tall P tgt -> tall P r).
Proof.
  apply lao_tall. intros a b k r' k' E. injection E as <- <-. split; [lia |]. intros _ Hv Ha Hb. tl.
Qed.

Lemma lowerLogicalAsg_tall P F op tgt v n r n1 : lowerLogicalAsg F op tgt v n = Some (r, n1) ->
  n <= n1 /\ (span P n n1 -> tall P v -> tall P tgt -> tall P r).
Proof.
  unfold lowerLogicalAsg. destruct (f_logasg F); [| discriminate]. intro E; injection E as E. revert E.
  apply lao_tall. intros a b k r' k' E. injection E as <- <-. split; [lia |]. intros _ Hv Ha Hb. tl.
Qed.

Lemma lowerNullishAsg_tall P F tgt v n r n1 : lowerNullishAsg F tgt v n = Some (r, n1) ->
  n <= n1 /\ (span P n n1 -> tall P v -> tall P tgt -> tall P r).
Proof.
  unfold lowerNullishAsg. destruct (f_logasg F); [| discriminate]. intro E; injection E as E. revert E.
  apply lao_tall. intros a b k r' k' E. destruct (f_nullish F).
  - destruct (lowerNullish_tall P _ _ _ _ _ E) as [Hk H]. split; [exact Hk |]. intros Hs Hv Ha Hb. apply H; tl.
  - injection E as <- <-. split; [lia |]. intros _ Hv Ha Hb. tl.
Qed.

Definition ltmps (l : link) : list Z :=
  match l with LDot _ => [] | LIndex k => tmps k | LCall args => flat_map tmps args | LDelete => [] end.
Definition ltall (P : Z -> Prop) (ls : list link) : Prop := Forall (fun l => Forall P (ltmps l)) ls.

(* a chain node is a link on top of an expression *)
Definition unlink (e : expr) : option (expr * link * oc) :=
  match e with
  | EDot t name o => Some (t, LDot name, o)
  | EIndex t k o => Some (t, LIndex k, o)
  | ECall f args o => Some (f, LCall args, o)
  | EDelete v => Some (v, LDelete, OcNone)
  | _ => None
  end.

Lemma flatten_unlink e : flatten e =
  match unlink e with
  | None => None
  | Some (t, l, o) =>
      if oc_eqb o OcStart then Some (t, [l], match l with LCall _ => true | _ => false end)
      else match flatten t with Some (s, ls, c) => Some (s, ls ++ [l], c) | None => None end
  end.
Proof. destruct e; try reflexivity; destruct o; reflexivity. Qed.

Lemma unlink_tmps e t l o : unlink e = Some (t, l, o) -> tmps e = tmps t ++ ltmps l.
Proof. destruct e; intro H; try discriminate H; injection H as <- <- <-; cbn; rewrite ?app_nil_r; reflexivity. Qed.

Lemma unlink_ind (Q : expr -> Prop) :
  (forall e, (forall t l o, unlink e = Some (t, l, o) -> Q t) -> Q e) -> forall e, Q e.
Proof.
  intros H. induction e; apply H; intros t l o0 E; try discriminate E; injection E as <- <- <-; assumption.
Qed.

Lemma flatten_tall P e : forall start ls swc, flatten e = Some (start, ls, swc) -> tall P e ->
  tall P start /\ ltall P ls.
Proof.
  induction e as [e IH] using unlink_ind. intros start ls swc E Ht. rewrite flatten_unlink in E.
  destruct (unlink e) as [[[t l] o] |] eqn:Hu; [| discriminate E].
  unfold tall in Ht. rewrite (unlink_tmps e t l o Hu), Forall_app in Ht. destruct Ht as [Ht Hl].
  destruct (oc_eqb o OcStart).
  - injection E as <- <- <-. split; [exact Ht | repeat constructor; exact Hl].
  - destruct (flatten t) as [[[s ls0] c] |] eqn:E0; [| discriminate E]. injection E as <- <- <-.
    destruct (IH t l o eq_refl s ls0 c E0 Ht) as [Hs Hls]. split; [exact Hs |].
    apply Forall_app. split; [exact Hls | repeat constructor; exact Hl].
Qed.

Lemma link_apply_tall P l result (thisA : option expr) (inner : bool) :
  tall P result -> (forall t, thisA = Some t -> tall P t) -> Forall P (ltmps l) ->
  tall P (match l with
          | LDot name => EDot result name OcNone
          | LIndex k => EIndex result k OcNone
          | LCall args => match inner, thisA with
                          | true, Some t => ECallThis result t args
                          | _, _ => ECall result args OcNone
                          end
          | LDelete => EDelete result
          end).
Proof.
  intros Hr Ht Hl. destruct l; cbn [ltmps] in Hl; try exact Hr.
  - tl.
  - destruct inner, thisA as [t |]; try specialize (Ht t eq_refl); tl.
Qed.

Lemma apply_links_tall P ls : forall result thisA inner store n res pth n4,
  apply_links ls result thisA inner store n = (res, pth, n4) ->
  n <= n4 /\ (span P n n4 -> tall P result -> (forall t, thisA = Some t -> tall P t) -> ltall P ls ->
              tall P res /\ (forall t, pth = Some t -> tall P t)).
Proof.
  induction ls as [| l rest IH]; intros result thisA inner store n res pth n4 E; cbn [apply_links] in E.
  - injection E as <- <- <-. split; [lia |]. intros _ Hr _ _. split; [exact Hr | intros t E; discriminate E].
  - destruct rest as [| l2 rest2].
    + destruct (true && store).
      * destruct (capture result n) as [[f a] n1] eqn:Hc. injection E as <- <- <-.
        destruct (capture_tall P result n f a n1 Hc) as [Hn Hf]. split; [exact Hn |].
        intros Hs Hr Ht Hl. destruct (Hf Hs Hr) as [Hff Ha]. inversion_clear Hl as [| ? ? Hl1 _].
        split; [apply link_apply_tall; assumption | intros t E; injection E as <-; exact Ha].
      * injection E as <- <- <-. split; [lia |]. intros _ Hr Ht Hl. inversion_clear Hl as [| ? ? Hl1 _].
        split; [apply link_apply_tall; assumption | intros t E; discriminate E].
    + cbn [andb] in E. destruct (IH _ _ _ _ _ _ _ _ E) as [Hn H]. split; [exact Hn |].
      intros Hs Hr Ht Hl. inversion_clear Hl as [| ? ? Hl1 Hlr].
      apply H; auto. apply link_apply_tall; assumption.
Qed.

Lemma apply_links_nostore ls : forall result thisA inner n,
  snd (fst (apply_links ls result thisA inner false n)) = None.
Proof.
  induction ls as [| l rest IH]; intros result thisA inner n; [reflexivity |].
  cbn [apply_links]. destruct rest; [rewrite andb_false_r; reflexivity |]. cbn [andb]. apply IH.
Qed.

(* The outcomes of lowerOptionalChain: the expression is left alone (not a
   chain, or chains are supported), the chain starts at null/undefined, or
   steps 2-5 run.  Of step 2 only what it does to the temporaries is recorded. *)
Lemma loc_cases F e i co n :
  let wu := if is_delete e then EBool true else EUndef in
  let r := lowerOptionalChain F e i co n in
  r = (e, out0, n) \/ r = (wu, out0, n) \/
  exists start links swc start0 thisA n0,
    flatten e = Some (start, links, swc) /\
    (n <= n0 /\ forall P, span P n n0 -> tall P start -> (forall t, thisArg co = Some t -> tall P t) ->
                          tall P start0 /\ forall t, thisA = Some t -> tall P t) /\
    r = (let '(first, again, n1) := capture start0 n0 in
         let '(result, pth, n2) := apply_links links again thisA true (storeThis i && ends_with_access e) n1 in
         (EIf (EEqNull false first) wu result, mkOut pth false, n2)).
Proof.
  cbn zeta. remember (lowerOptionalChain F e i co n) as r eqn:Er. unfold lowerOptionalChain in Er.
  destruct (flatten e) as [[[start links] swc] |]; [| left; exact Er].
  assert (Hd : (start = ENull \/ start = EUndef) \/
               forall (X : Type) (a b : X), match start with ENull | EUndef => a | _ => b end = b)
    by (destruct start; auto).
  destruct Hd as [[-> | ->] | Hm]; [right; left; exact Er | right; left; exact Er |].
  rewrite Hm in Er. destruct (negb (f_optchain F)); [left; exact Er |]. right. right.
  set (x := if swc then _ else _) in Er.
  assert (Hx : let '(start0, thisA, n0) := x in
               n <= n0 /\ forall P, span P n n0 -> tall P start -> (forall t, thisArg co = Some t -> tall P t) ->
                                    tall P start0 /\ forall t, thisA = Some t -> tall P t).
  { subst x. destruct swc; [destruct (thisArg co) as [t0 |]; [| destruct start] |];
      try (split; [lia |]; intros P _ Hs Ht; split; [exact Hs |]; intros t E; first [discriminate E | exact (Ht t E)]).
    - destruct (capture start n) as [[f a] n1] eqn:Hc. split; [apply (capture_tall (fun _ => True) _ _ _ _ _ Hc) |].
      intros P Hsp Hs _. destruct (capture_tall P _ _ _ _ _ Hc) as [_ H]. destruct (H Hsp Hs) as [Hf Ha].
      split; [exact Hf | intros t E; injection E as <-; exact Ha].
    - destruct (capture start1 n) as [[f a] n1] eqn:Hc. split; [apply (capture_tall (fun _ => True) _ _ _ _ _ Hc) |].
      intros P Hsp Hs _. destruct (capture_tall P _ _ _ _ _ Hc) as [_ H].
      destruct (H Hsp) as [Hf Ha]; [tl |]. split; [tl | intros t E; injection E as <-; exact Ha]. }
  clearbody x. destruct x as [[start0 thisA] n0]. exists start, links, swc, start0, thisA, n0.
  split; [reflexivity |]. split; [exact Hx | exact Er].
Qed.

Lemma loc_shape F e0 i co n :
  let lo := fst (fst (lowerOptionalChain F e0 i co n)) in
  lo = e0 \/ lo = EBool true \/ lo = EUndef \/ exists c a b, lo = EIf c a b.
Proof.
  cbn zeta. destruct (loc_cases F e0 i co n) as [-> | [-> | (? & links & ? & start0 & thisA & n0 & _ & _ & ->)]].
  - left. reflexivity.
  - right. destruct (is_delete e0); auto.
  - destruct (capture start0 n0) as [[first again] n1]. destruct (apply_links links again thisA true _ n1) as [[result pth] n2].
    right. right. right. eexists _, _, _. reflexivity.
Qed.

Lemma loc_child F e0 i co n : childChain (snd (fst (lowerOptionalChain F e0 i co n))) = false.
Proof.
  destruct (loc_cases F e0 i co n) as [-> | [-> | (? & links & ? & start0 & thisA & n0 & _ & _ & ->)]]; try reflexivity.
  destruct (capture start0 n0) as [[first again] n1]. destruct (apply_links links again thisA true _ n1) as [[result pth] n2].
  reflexivity.
Qed.

Lemma loc_this_none F e0 i co n :
  storeThis i && ends_with_access e0 = false ->
  thisArg (snd (fst (lowerOptionalChain F e0 i co n))) = None.
Proof.
  intro Hst.
  destruct (loc_cases F e0 i co n) as [-> | [-> | (? & links & ? & start0 & thisA & n0 & _ & _ & ->)]]; try reflexivity.
  rewrite Hst. destruct (capture start0 n0) as [[first again] n1].
  pose proof (apply_links_nostore links again thisA true n1) as H.
  destruct (apply_links links again thisA true false n1) as [[result pth] n2]. exact H.
Qed.

Definition vres (lo n : Z) (r : expr * xout * Z) : Prop :=
  match r with (e', o, n') => above lo e' /\ (forall t, thisArg o = Some t -> above lo t) /\ n <= n' end.

Definition vtall (P : Z -> Prop) (n : Z) (r : expr * xout * Z) : Prop :=
  match r with (e', o, n') =>
    n <= n' /\ (span P n n' -> tall P e' /\ forall t, thisArg o = Some t -> tall P t)
  end.

Lemma vtall_out0 P n e' n' : n <= n' -> (span P n n' -> tall P e') -> vtall P n (e', out0, n').
Proof. intros Hn H. split; [exact Hn |]. intro Hs. split; [auto | intros t E; discriminate E]. Qed.

Lemma loc_tall P F e i co n0 n : vtall P n0 (e, co, n) -> vtall P n0 (lowerOptionalChain F e i co n).
Proof.
  intros [Hn0 He].
  destruct (loc_cases F e i co n) as [-> | [-> | (start & links & swc & start0 & thisA & n1 & Hfl & [Hn1 Hx] & ->)]].
  - apply vtall_out0; [exact Hn0 | apply He].
  - apply vtall_out0; [exact Hn0 | intros _; destruct (is_delete e); constructor].
  - destruct (capture start0 n1) as [[first again] n2] eqn:Hc. destruct (capture_tall P _ _ _ _ _ Hc) as [Hn2 Hf].
    destruct (apply_links links again thisA true _ n2) as [[result pth] n3] eqn:Ha.
    destruct (apply_links_tall P _ _ _ _ _ _ _ _ _ Ha) as [Hn3 Hr].
    split; [lia |]. intro Hsp. cbn [thisArg].
    destruct (He (span_sub P n0 n3 n0 n ltac:(lia) ltac:(lia) Hsp)) as [Hte Hco].
    destruct (flatten_tall P e _ _ _ Hfl Hte) as [Hs Hl].
    destruct (Hx P (span_sub P n0 n3 n n1 Hn0 ltac:(lia) Hsp) Hs Hco) as [Hs0 HtA].
    destruct (Hf (span_sub P n0 n3 n1 n2 ltac:(lia) Hn3 Hsp) Hs0) as [Hfi Hag].
    destruct (Hr (span_sub P n0 n3 n2 n3 ltac:(lia) ltac:(lia) Hsp) Hag HtA Hl) as [Hres Hp].
    split; [| exact Hp]. destruct (is_delete e); tl.
Qed.

Section VA.
Variable F : feat.

(* visit's nested function on argument lists: the elements are visited in
   operand position, one after the other.  The operands of a node that is
   rebuilt around them (assignment, binary operator, conditional ...) are
   visited the same way, so [vlist_tall] serves those nodes too. *)
Fixpoint vlist (l : list expr) (n : Z) : list expr * Z :=
  match l with
  | [] => ([], n)
  | x :: r => let '(x', _, n1) := visit F (mkIn false false) x n in
              let '(r', n2) := vlist r n1 in (x' :: r', n2)
  end.

Lemma root_tall P node i out (b c : bool) n n1 : vtall P n (node, out, n1) ->
  vtall P n (if b then lowerOptionalChain F node i out n1 else (node, mkOut (keep_this i out) c, n1)).
Proof.
  intro H. destruct b; [apply loc_tall, H |]. destruct H as [Hn H]. split; [exact Hn |].
  intro Hs. destruct (H Hs) as [He Ht]. split; [exact He |].
  unfold keep_this. cbn [thisArg]. destruct (hasChainParent i); [exact Ht | intros t E; discriminate E].
Qed.

Lemma vlist_tall P args :
  Forall (fun e => forall i n, tall P e -> vtall P n (visit F i e n)) args ->
  Forall (tall P) args -> forall n,
  match vlist args n with (args', n2) => n <= n2 /\ (span P n n2 -> Forall P (flat_map tmps args')) end.
Proof.
  induction 1 as [| x l Hx _ IH]; intros Ht n; cbn [vlist].
  - split; [lia | constructor].
  - inversion_clear Ht as [| ? ? Htx Htl]. specialize (Hx (mkIn false false) n Htx).
    destruct (visit F (mkIn false false) x n) as [[x' ox] n1]. destruct Hx as [Hn1 Hx].
    specialize (IH Htl n1). destruct (vlist l n1) as [l' n2]. destruct IH as [Hn2 Hl].
    split; [lia |]. intro Hs. cbn [flat_map]. apply Forall_app. split.
    + destruct (Hx (span_sub P n n2 n n1 ltac:(lia) Hn2 Hs)) as [H1 _]. exact H1.
    + apply (Hl (span_sub P n n2 n1 n2 Hn1 ltac:(lia) Hs)).
Qed.

Theorem visit_tall P : forall e i n, tall P e -> vtall P n (visit F i e n).
Proof.
  induction e using expr_ind'; intros i c Ht; cbn [visit].
  1-8: (apply vtall_out0; [lia | intros _; exact Ht]).
  - (* EDot *)
    specialize (IHe (mkIn (oc_eqb o OcCont) false) c Ht).
    destruct (visit F _ e c) as [[t' ot] n1]. apply root_tall, IHe.
  - (* EIndex *)
    assert (Ht12 : tall P e1 /\ tall P e2) by tl. destruct Ht12 as [Ht1 Ht2].
    specialize (IHe1 (mkIn (oc_eqb o OcCont) false) c Ht1). destruct (visit F _ e1 c) as [[t' ot] n1].
    specialize (IHe2 (mkIn false false) n1 Ht2). destruct (visit F _ e2 n1) as [[k' ok] n2].
    destruct IHe1 as [Hn1 H1], IHe2 as [Hn2 H2].
    apply root_tall. split; [lia |]. intro Hsp.
    destruct (H1 (span_sub P c n2 c n1 ltac:(lia) Hn2 Hsp)) as [Ha Hta].
    destruct (H2 (span_sub P c n2 n1 n2 Hn1 ltac:(lia) Hsp)) as [Hb _].
    split; [tl | exact Hta].
  - (* ECall *)
    fold (vlist args).
    assert (Ht12 : tall P e /\ Forall (tall P) args) by (split; [| apply tall_list]; tl). destruct Ht12 as [Ht1 Ht2].
    specialize (IHe (mkIn (oc_eqb o OcCont) (oc_eqb o OcStart || oc_eqb o OcNone && is_chain_access e)) c Ht1).
    destruct (visit F _ e c) as [[f' of] n1].
    pose proof (vlist_tall P args H Ht2 n1) as Hl. destruct (vlist args n1) as [args' n2].
    set (f'' := if _ : bool then EBin BComma (ENum 0) f' else f').
    assert (Hnode : vtall P c (ECall f'' args' o, of, n2)).
    { destruct IHe as [Hn1 Hf], Hl as [Hn2 Hl]. split; [lia |]. intro Hs.
      destruct (Hf (span_sub P c n2 c n1 ltac:(lia) Hn2 Hs)) as [Hf1 Hf2].
      specialize (Hl (span_sub P c n2 n1 n2 Hn1 ltac:(lia) Hs)).
      split; [| exact Hf2]. subst f''. destruct (_ && _ && _); tl. }
    destruct (oc_eqb o OcNone && is_chain_access e); [destruct (thisArg of) as [t |] eqn:Et |];
      try apply root_tall, Hnode.
    destruct Hnode as [Hn Hnode]. apply vtall_out0; [exact Hn |]. intro Hs. destruct (Hnode Hs) as [H1 H2].
    specialize (H2 t Et). tl.
  - (* ECallThis *)
    fold (vlist args).
    assert (Hts : Forall (tall P) (e1 :: e2 :: args)) by (repeat constructor; [| | apply tall_list]; tl).
    pose proof (vlist_tall P (e1 :: e2 :: args) ltac:(auto) Hts c) as Hl. cbn [vlist] in Hl.
    destruct (visit F _ e1 c) as [[f' of] n1]. destruct (visit F _ e2 n1) as [[t' ot] n2].
    destruct (vlist args n2) as [args' n3]. destruct Hl as [Hn Hl].
    apply vtall_out0; [exact Hn |]. intro Hsp. specialize (Hl Hsp). tl.
  - (* EDelete *)
    specialize (IHe (mkIn true false) c Ht). destruct (visit F _ e c) as [[v' ov] n1].
    destruct (childChain ov); [apply loc_tall, IHe |].
    destruct IHe as [Hn H]. apply vtall_out0; [exact Hn | intro Hs; exact (proj1 (H Hs))].
  - (* EAssign *)
    pose proof (vlist_tall P [e1; e2] ltac:(auto) ltac:(repeat constructor; tl) c) as Hl. cbn [vlist] in Hl.
    destruct (visit F _ e1 c) as [[t' ot] n1]. destruct (visit F _ e2 n1) as [[v' ov] n2]. destruct Hl as [Hn Hl].
    apply vtall_out0; [exact Hn |]. intro Hsp. specialize (Hl Hsp). tl.
  - (* EBin *)
    pose proof (vlist_tall P [e1; e2] ltac:(auto) ltac:(repeat constructor; tl) c) as Hl. cbn [vlist] in Hl.
    destruct (visit F _ e1 c) as [[a' oa] n1]. destruct (visit F _ e2 n1) as [[b' ob] n2]. destruct Hl as [Hn Hs].
    assert (Hsame : forall r, (tall P a' -> tall P b' -> tall P r) -> vtall P c (r, out0, n2)).
    { intros r Hr. apply vtall_out0; [exact Hn |]. intro Hsp. specialize (Hs Hsp). apply Hr; tl. }
    assert (Hlow : vtall P c (let '(r, n3) := lowerNullishCoalescing a' b' n2 in (r, out0, n3))).
    { destruct (lowerNullishCoalescing a' b' n2) as [r n3] eqn:El.
      destruct (lowerNullish_tall P _ _ _ _ _ El) as [Hn3 Hr]. apply vtall_out0; [lia |]. intro Hsp.
      specialize (Hs (span_sub P c n3 c n2 ltac:(lia) Hn3 Hsp)).
      apply (Hr (span_sub P c n3 n2 n3 Hn ltac:(lia) Hsp)); tl. }
    destruct op; try (apply Hsame; intros; tl).
    + destruct (to_null_or_undef a') as [[[|] [|]] |]; try (apply Hsame; auto);
        (destruct (f_nullish F); [exact Hlow | apply Hsame; intros; tl]).
    + destruct (f_exp F); apply Hsame; intros; tl.
  - (* EOpAsg *)
    pose proof (vlist_tall P [e1; e2] ltac:(auto) ltac:(repeat constructor; tl) c) as Hl. cbn [vlist] in Hl.
    destruct (visit F _ e1 c) as [[t' ot] n1]. destruct (visit F _ e2 n1) as [[v' ov] n2]. destruct Hl as [Hn Hs].
    assert (Hkeep : vtall P c (EOpAsg op t' v', out0, n2)).
    { apply vtall_out0; [exact Hn |]. intro Hsp. specialize (Hs Hsp). tl. }
    assert (Hlow : forall r n3, n2 <= n3 /\ (span P n2 n3 -> tall P v' -> tall P t' -> tall P r) ->
                                vtall P c (r, out0, n3)).
    { intros r n3 [Hn3 Hr]. apply vtall_out0; [lia |]. intro Hsp.
      specialize (Hs (span_sub P c n3 c n2 ltac:(lia) Hn3 Hsp)).
      apply (Hr (span_sub P c n3 n2 n3 Hn ltac:(lia) Hsp)); tl. }
    destruct op; try exact Hkeep.
    + destruct (lowerNullishAsg F t' v' n2) as [[r n3] |] eqn:El; [| exact Hkeep].
      apply Hlow, (lowerNullishAsg_tall P _ _ _ _ _ _ El).
    + destruct (lowerLogicalAsg F BOr t' v' n2) as [[r n3] |] eqn:El; [| exact Hkeep].
      apply Hlow, (lowerLogicalAsg_tall P _ _ _ _ _ _ _ El).
    + destruct (lowerLogicalAsg F BAnd t' v' n2) as [[r n3] |] eqn:El; [| exact Hkeep].
      apply Hlow, (lowerLogicalAsg_tall P _ _ _ _ _ _ _ El).
    + destruct (f_exp F); [| exact Hkeep]. destruct (lowerExpAsg t' v' n2) as [r n3] eqn:El.
      apply Hlow, (lowerExpAsg_tall P _ _ _ _ _ El).
  - (* EIf *)
    pose proof (vlist_tall P [e1; e2; e3] ltac:(auto) ltac:(repeat constructor; tl) c) as Hl. cbn [vlist] in Hl.
    destruct (visit F _ e1 c) as [[c' oc0] n1]. destruct (visit F _ e2 n1) as [[a' oa] n2].
    destruct (visit F _ e3 n2) as [[b' ob] n3]. destruct Hl as [Hn Hl].
    apply vtall_out0; [exact Hn |]. intro Hsp. specialize (Hl Hsp). tl.
  - (* EEqNull *)
    specialize (IHe (mkIn false false) c Ht). destruct (visit F _ e c) as [[v' ov] n1].
    destruct IHe as [Hn H]. apply vtall_out0; [exact Hn | intro Hs; exact (proj1 (H Hs))].
  - (* EPowCall *)
    pose proof (vlist_tall P [e1; e2] ltac:(auto) ltac:(repeat constructor; tl) c) as Hl. cbn [vlist] in Hl.
    destruct (visit F _ e1 c) as [[a' oa] n1]. destruct (visit F _ e2 n1) as [[b' ob] n2]. destruct Hl as [Hn Hl].
    apply vtall_out0; [exact Hn |]. intro Hsp. specialize (Hl Hsp). tl.
Qed.

Theorem visit_above : forall e lo i n, above lo e -> lo <= n -> vres lo n (visit F i e n).
Proof.
  intros e lo i n Ha Hlo. pose proof (visit_tall (fun j => lo <= j) e i n (proj2 (tall_above lo e) Ha)) as H.
  destruct (visit F i e n) as [[e' o] n']. destruct H as [Hn H].
  destruct H as [He Ht]; [intros j Hj; lia |].
  split; [apply tall_above, He |]. split; [intros t E; apply tall_above, (Ht t E) | exact Hn].
Qed.
End VA.
