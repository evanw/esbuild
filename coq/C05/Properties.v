(* C05 property theorems.  Only statements closed by [exact lemma] and
   Print Assumptions.  S, w, th range over ALL worlds (arbitrary effects of
   identifier reads, property get/set/delete, calls and operators on an
   arbitrary user state) and all values of this. *)
From V Require Import Common.Base C05.Syntax C05.Sem C05.Lower C05.Frame C05.LowerProofs C05.SimLogic C05.Steps C05.Compose C05.Visit C05.Chain C05.Chain2 C05.Above C05.Visit2 C05.Witness C05.Private C05.PrivateProofs.

(* An evaluation reads and writes only the temporaries that occur in the
   expression: fresh temporaries cannot be observed by, or interfere with, any
   other sub-expression (every expression, every world). *)
Theorem temporaries_are_framed :
  forall (S : Type) (w : world S) (th : val) (e : expr), framed S (tmps e) (eval w th e).
Proof. exact eval_framed. Qed.
Print Assumptions temporaries_are_framed.

(* Per-step theorems, ALL operand expressions (already lowered or not), all
   worlds.  An operand is either captured in a temporary by esbuild or is one
   of the expressions it duplicates instead (null, undefined, this, literals,
   identifiers).  [cap_ok t]: t is not such an expression, or it is a literal /
   this, or it is an identifier that is a constant binding [const_var].  The
   refuted shapes F1-F3 are exactly duplicated identifiers that are not
   constant (accessor-backed global; variable reassigned by a getter).
   [below n e]: every temporary in e is smaller than n (what the visitor's
   counter guarantees). *)

(* a ?? b  ==  (_n = a) != null ? _n : b   /   a != null ? a : b *)
Theorem lower_nullish_equiv :
  forall (S : Type) (w : world S) (th : val) (a b : expr) (n : Z),
    cap_ok S w a -> ~ In n (tmps a) -> ~ In n (tmps b) ->
    forall m s, observe (eval w th (fst (lowerNullishCoalescing a b n)) m s)
              = observe (eval w th (EBin BNullish a b) m s).
Proof. exact lowerNullish_general. Qed.
Print Assumptions lower_nullish_equiv.

(* tgt ||= v, tgt &&= v for tgt = x | t.name | t[k]: object and key evaluated
   once and in order, the key value reaches get and set unchanged, v evaluated
   at most once and only when the test fails / succeeds *)
Theorem lower_logical_assign_equiv :
  forall (S : Type) (w : world S) (th : val) F bop aop tgt v n r,
    f_logasg F = true -> (bop = BOr /\ aop = AOr) \/ (bop = BAnd /\ aop = AAnd) ->
    valid_target S w tgt -> below n tgt -> below n v ->
    lowerLogicalAsg F bop tgt v n = Some r ->
    forall m s, observe (eval w th (fst r) m s) = observe (eval w th (EOpAsg aop tgt v) m s).
Proof. exact lowerLogicalAsg_general. Qed.
Print Assumptions lower_logical_assign_equiv.

(* tgt ??= v, whether or not ?? itself must be lowered as well *)
Theorem lower_nullish_assign_equiv :
  forall (S : Type) (w : world S) (th : val) F tgt v n r,
    f_logasg F = true ->
    valid_target S w tgt -> below n tgt -> below n v ->
    (f_nullish F = true -> forall x, tgt = EId x -> const_var S w x) ->
    lowerNullishAsg F tgt v n = Some r ->
    forall m s, observe (eval w th (fst r) m s) = observe (eval w th (EOpAsg ANullish tgt v) m s).
Proof. exact lowerNullishAsg_general. Qed.
Print Assumptions lower_nullish_assign_equiv.

(* tgt **= v  ==  tgt' = __pow(tgt'', v) *)
Theorem lower_exponent_assign_equiv :
  forall (S : Type) (w : world S) (th : val) tgt v n,
    valid_target S w tgt -> below n tgt -> below n v ->
    forall m s, observe (eval w th (fst (lowerExpAsg tgt v n)) m s)
              = observe (eval w th (EOpAsg APow tgt v) m s).
Proof. exact lowerExpAsg_general. Qed.
Print Assumptions lower_exponent_assign_equiv.

(* WHOLE-VISITOR THEOREM (expressions without optional-chain links).
   Lowering every sub-expression bottom-up, exactly as the model of
   visitExprInOut does - nested ??, ||=, &&=, ??=, **=, ** inside member
   accesses, calls, arguments, keys, assignment targets, delete, comma ... with
   the folding of "literal ?? x" and the printer's (0, a.b)() wrapper - yields
   an expression with the same events, final state and value/exception as the
   source, for every world, feature set and start state.
     src F C e   e is built from the parser's constructors, assignment targets
                 are identifiers or member accesses, and every identifier that
                 esbuild would duplicate instead of capturing (the left operand
                 of a lowered ??, the object/key of a lowered compound
                 assignment) belongs to C;
     C           a set of constant bindings (exactly what F1-F3 violate);
     binop_nonnull / del_nonnull   arithmetic and delete never yield
                 null/undefined (used by esbuild's folding of "(a - b) ?? c").
   Optional chains: per-step theorems below, and lower_sound_chains for the
   composition over chains. *)
Theorem lower_sound_chainfree :
  forall (S : Type) (w : world S) (th : val),
    binop_nonnull S w -> del_nonnull S w ->
    forall (F : feat) (C : Z -> Prop), (forall x, C x -> const_var S w x) ->
    forall e, src F C e ->
    forall m s, observe (eval w th (lower F e) m s) = observe (eval w th e m s).
Proof. exact lower_sound. Qed.
Print Assumptions lower_sound_chainfree.

(* OPTIONAL CHAINS OF ARBITRARY LENGTH (induction over the list of links).
   e' is a well-formed chain [frag]: an OcStart link at the bottom, OcCont
   links above; [flatten e'] = (start, links from the inside out, starts-with-
   call) is the model's step 1 of lowerOptionalChain.  The sub-expressions of
   the links (keys, arguments) and start may already be lowered; their
   temporaries are below the counter ([links_fresh], ~ In n (tmps start)).
   Each theorem: the lowered expression has the same events, final state and
   value/exception as the native chain, for every world and state. *)

(* start?.a.b(c)[k]...  (the chain does not start with a call) *)
Theorem lower_optional_chain_equiv :
  forall (S : Type) (w : world S) (th : val) F e' i n start ls,
    frag e' -> flatten e' = Some (start, ls, false) -> no_delete ls ->
    f_optchain F = true -> storeThis i = false ->
    start <> ENull -> start <> EUndef -> cap_ok S w start ->
    ~ In n (tmps start) -> links_fresh (L1 n) ls ->
    forall m s, observe (eval w th (fst (fst (lowerOptionalChain F e' i out0 n))) m s)
              = observe (eval w th e' m s).
Proof. exact chain_plain. Qed.
Print Assumptions lower_optional_chain_equiv.

(* tg.name?.(args).x.y(z)...  : the call that starts the chain is made with
   this = tg, tg evaluated once (captured, or a constant binding - F3/F3b are
   the non-constant identifiers); requires Function.prototype.call intact (F5) *)
Theorem lower_optional_call_member_equiv :
  forall (S : Type) (w : world S) (th : val) F e' i n tg name args rest,
    frag e' -> flatten e' = Some (EDot tg name OcNone, LCall args :: rest, true) -> no_delete rest ->
    f_optchain F = true -> storeThis i = false ->
    cap_ok S w tg -> call_intact S w ->
    (forall k, L2 n k -> ~ In k (tmps tg)) -> links_fresh (L2 n) (LCall args :: rest) ->
    forall m s, observe (eval w th (fst (fst (lowerOptionalChain F e' i out0 n))) m s)
              = observe (eval w th e' m s).
Proof. exact chain_call_member. Qed.
Print Assumptions lower_optional_call_member_equiv.

(* tg[key]?.(args)... *)
Theorem lower_optional_call_index_equiv :
  forall (S : Type) (w : world S) (th : val) F e' i n tg key args rest,
    frag e' -> flatten e' = Some (EIndex tg key OcNone, LCall args :: rest, true) -> no_delete rest ->
    f_optchain F = true -> storeThis i = false ->
    cap_ok S w tg -> call_intact S w ->
    (forall k, L2 n k -> ~ In k (tmps tg)) -> (forall k, L2 n k -> ~ In k (tmps key)) ->
    links_fresh (L2 n) (LCall args :: rest) ->
    forall m s, observe (eval w th (fst (fst (lowerOptionalChain F e' i out0 n))) m s)
              = observe (eval w th e' m s).
Proof. exact chain_call_index. Qed.
Print Assumptions lower_optional_call_index_equiv.

(* start?.(args)...  where start is not a member access (this is undefined) *)
Theorem lower_optional_call_plain_equiv :
  forall (S : Type) (w : world S) (th : val) F e' i n start args rest,
    frag e' -> flatten e' = Some (start, LCall args :: rest, true) -> no_delete rest ->
    f_optchain F = true -> storeThis i = false ->
    start <> ENull -> start <> EUndef -> ends_with_access start = false ->
    (forall m s, match eval w th start m s with (_, _, _, Ok o) => baseof o = VUndef | _ => True end) ->
    cap_ok S w start -> ~ In n (tmps start) -> links_fresh (L1 n) (LCall args :: rest) ->
    forall m s, observe (eval w th (fst (fst (lowerOptionalChain F e' i out0 n))) m s)
              = observe (eval w th e' m s).
Proof. exact chain_call_plain. Qed.
Print Assumptions lower_optional_call_plain_equiv.

(* delete start?.a.b[k]...  (short-circuits to true) *)
Theorem lower_optional_delete_equiv :
  forall (S : Type) (w : world S) (th : val) F d i n,
    frag d -> ends_with_access d = true ->
    forall start ls0 l,
    flatten d = Some (start, ls0 ++ [l], false) -> no_delete (ls0 ++ [l]) ->
    f_optchain F = true ->
    start <> ENull -> start <> EUndef -> cap_ok S w start ->
    ~ In n (tmps start) -> links_fresh (L1 n) (ls0 ++ [l]) ->
    forall m s, observe (eval w th (fst (fst (lowerOptionalChain F (EDelete d) i out0 n))) m s)
              = observe (eval w th (EDelete d) m s).
Proof. exact chain_delete_plain. Qed.
Print Assumptions lower_optional_delete_equiv.

(* null?.a.b(c) is dead code: replaced by undefined for every feature set *)
Theorem lower_optional_chain_dead :
  forall (S : Type) (w : world S) (th : val) F e' i childOut n start ls swc,
    frag e' -> flatten e' = Some (start, ls, swc) -> start = ENull \/ start = EUndef ->
    forall m s, observe (eval w th (fst (fst (lowerOptionalChain F e' i childOut n))) m s)
              = observe (eval w th e' m s).
Proof. exact chain_dead. Qed.
Print Assumptions lower_optional_chain_dead.

(* THIS PASSING between an inner chain and the optional call made on it:
   a?.b?.(x).c ...   and   a?.b.c?.(x) ...
   The callee P = start?.l1...lk.lm is lowered first with storeThisArgForParent-
   OptionalChain (producer_*: what lowerOptionalChain returns for it, including
   exprOut.thisArgFunc); the outer chain eo' then has the lowered callee as its
   start and receives that thisArg.  Conclusion: the fully lowered expression
   behaves like the native two-level chain eo: the call is made with this = the
   object the last member of P was read from, everything evaluated once. *)
Theorem lower_optional_call_over_member_equiv :
  forall (S : Type) (w : world S) (th : val) F eo eo' i n start lm args rest first again n3,
    member_link lm ->
    capture start n = (first, again, n3) ->
    forall P, frag P -> flatten P = Some (start, [lm], false) ->
    frag eo -> flatten eo = Some (P, LCall args :: rest, true) ->
    frag eo' ->
    flatten eo' = Some (EIf (EEqNull false first) EUndef (link_expr lm again), LCall args :: rest, true) ->
    no_delete rest -> f_optchain F = true -> storeThis i = false ->
    cap_ok S w start -> call_intact S w ->
    (forall k, L3 n k -> ~ In k (tmps start)) ->
    (forall k, L3 n k -> ~ In k (link_tmps lm)) ->
    links_fresh (L3 n) (LCall args :: rest) ->
    forall m s, observe (eval w th (fst (fst (lowerOptionalChain F eo' i (mkOut (Some again) false) n3))) m s)
              = observe (eval w th eo m s).
Proof. exact chain_call_over_member. Qed.
Print Assumptions lower_optional_call_over_member_equiv.

Theorem lower_optional_call_over_chain_equiv :
  forall (S : Type) (w : world S) (th : val) F eo eo' i n start pre lm args rest first again n3,
    member_link lm -> pre <> [] -> no_delete pre ->
    capture start n = (first, again, n3) ->
    forall P, frag P -> flatten P = Some (start, pre ++ [lm], false) ->
    frag eo -> flatten eo = Some (P, LCall args :: rest, true) ->
    frag eo' ->
    flatten eo' = Some (EIf (EEqNull false first) EUndef (link_expr lm (EAssign (ETmp n3) (fold_links pre again))),
                        LCall args :: rest, true) ->
    no_delete rest -> f_optchain F = true -> storeThis i = false ->
    cap_ok S w start -> call_intact S w ->
    (forall k, L3 n k -> ~ In k (tmps start)) ->
    links_fresh (L3 n) (pre ++ [lm]) ->
    links_fresh (L3 n) (LCall args :: rest) ->
    forall m s, observe (eval w th (fst (fst (lowerOptionalChain F eo' i (mkOut (Some (ETmp n3)) false) (n3 + 1)))) m s)
              = observe (eval w th eo m s).
Proof. exact chain_call_over_chain. Qed.
Print Assumptions lower_optional_call_over_chain_equiv.

(* the two hypotheses about eo' above are exactly what the model computes for the callee *)
Theorem optional_callee_producer :
  forall F P hcp n start pre lm first again n3,
    frag P -> flatten P = Some (start, pre ++ [lm], false) -> member_link lm -> ends_with_access P = true ->
    pre <> [] -> f_optchain F = true -> start <> ENull -> start <> EUndef ->
    capture start n = (first, again, n3) ->
    lowerOptionalChain F P (mkIn hcp true) out0 n
    = (EIf (EEqNull false first) EUndef (link_expr lm (EAssign (ETmp n3) (fold_links pre again))),
       mkOut (Some (ETmp n3)) false, n3 + 1).
Proof. exact producer_general. Qed.
Print Assumptions optional_callee_producer.

Theorem optional_callee_producer_single :
  forall F P hcp n start lm first again n3,
    frag P -> flatten P = Some (start, [lm], false) -> member_link lm -> ends_with_access P = true ->
    f_optchain F = true -> start <> ENull -> start <> EUndef ->
    capture start n = (first, again, n3) ->
    lowerOptionalChain F P (mkIn hcp true) out0 n
    = (EIf (EEqNull false first) EUndef (link_expr lm again), mkOut (Some again) false, n3).
Proof. exact producer_single. Qed.
Print Assumptions optional_callee_producer_single.

(* WHOLE-VISITOR THEOREM WITH OPTIONAL CHAINS.  src2 F C e extends src to
   optional-chain links anywhere in the tree (in starts, keys, arguments,
   assignment right-hand sides, nested chains, under delete, chains that start
   with a call a.b?.(x).c, f()?.(x)[k] ...).  A chain fragment is carried
   through the induction with lowered pieces, its root applies
   lowerOptionalChain, and the result is composed with the surrounding
   lowerings.  Side conditions of src2, each tied to a refutation or to the
   item below:
     - a call whose callee is a chain ending in a member access is excluded:
       (a?.b)(x) is refuted (F4); a?.b?.(x) needs the this value of the inner
       chain - proved per step (lower_optional_call_over_member_equiv,
       optional_chain_root_explicit_this), not yet composed;
     - the callee of an optional call is not a foldable "null ?? a.b" (F6);
     - identifiers that esbuild duplicates are constant bindings (F1-F3b). *)
Theorem lower_sound_chains :
  forall (S : Type) (w : world S) (th : val),
    binop_nonnull S w -> del_nonnull S w -> call_intact S w ->
    forall (F : feat) (C : Z -> Prop), (forall x, C x -> const_var S w x) ->
    forall e, src2 F C e ->
    forall m s, observe (eval w th (lower F e) m s) = observe (eval w th e m s).
Proof. exact lower_sound2. Qed.
Print Assumptions lower_sound_chains.

(* The general account of lowerOptionalChain behind it (Chain2.v), for every
   list of links, every way the start is lowered [StartPost: plain capture,
   captured object of a member callee, or a callee chain that was lowered first
   and left its this in a temporary], with or without the capture for the
   parent's this (TStore: storeThisArgForParentOptionalChain) and under delete
   (TDelete).  This covers a.b?.().c?.() (call-start producer) and
   delete a.b?.().c (call-start chain under delete) at the per-step level. *)
Theorem optional_chain_root_plain_this :
  forall (S : Type) (w : world S) (th : val) (L : tpred) F e0 i childOut n start ls swc first again n3
         (cS : M S out) (isdel : bool),
    flatten e0 = Some (start, (if isdel then ls ++ [LDelete] else ls), swc) ->
    is_delete e0 = isdel -> (isdel = true -> ends_with_access e0 = false) ->
    start <> ENull -> start <> EUndef -> f_optchain F = true ->
    step2 swc (thisArg childOut) start n = (start, None, n) ->
    capture start n = (first, again, n3) ->
    simM S L (fun _ => True) (StartPost S w th ls again None) (eval w th first) cS -> robust S w th L n3 again ->
    ls <> [] -> links_fresh L ls -> no_delete ls -> L n3 ->
    let store := storeThis i && ends_with_access e0 in
    let md := mode_of isdel store in
    (md = TStore -> member_link (last ls LDelete)) ->
    (md = TDelete -> exists pre l, ls = pre ++ [l] /\ member_link l) ->
    simM S L (fun _ => True) (PostR S w th md (thisArg (snd (fst (lowerOptionalChain F e0 i childOut n)))))
         (eval w th (fst (fst (lowerOptionalChain F e0 i childOut n))))
         (bind cS (fun r => if nullish (valof r) then ret (if isdel then ov (VBool true) else OShort)
                            else tail_run S w th md ls r)).
Proof. exact loc_sound_none. Qed.
Print Assumptions optional_chain_root_plain_this.

Theorem optional_chain_root_explicit_this :
  forall (S : Type) (w : world S) (th : val) (L : tpred) F e0 i childOut n start args rest swc start2 t n2
         first again n3 (cS : M S out) (isdel : bool),
    flatten e0 = Some (start, (if isdel then (LCall args :: rest) ++ [LDelete] else LCall args :: rest), swc) ->
    is_delete e0 = isdel -> (isdel = true -> ends_with_access e0 = false) ->
    start <> ENull -> start <> EUndef -> f_optchain F = true ->
    step2 swc (thisArg childOut) start n = (start2, Some t, n2) ->
    capture start2 n2 = (first, again, n3) ->
    simM S L (fun _ => True) (StartPost S w th (LCall args :: rest) again (Some t)) (eval w th first) cS ->
    robust S w th L n3 again -> robust S w th L n3 t -> call_intact S w ->
    links_fresh L (LCall args :: rest) -> no_delete rest -> L n3 ->
    let store := storeThis i && ends_with_access e0 in
    let md := mode_of isdel store in
    (md = TStore -> rest <> [] /\ member_link (last rest LDelete)) ->
    (md = TDelete -> exists pre l, rest = pre ++ [l] /\ member_link l) ->
    simM S L (fun _ => True) (PostR S w th md (thisArg (snd (fst (lowerOptionalChain F e0 i childOut n)))))
         (eval w th (fst (fst (lowerOptionalChain F e0 i childOut n))))
         (bind cS (fun r => if nullish (valof r) then ret (if isdel then ov (VBool true) else OShort)
                            else tail_run S w th md (LCall args :: rest) r)).
Proof. exact loc_sound_some. Qed.
Print Assumptions optional_chain_root_explicit_this.

(* a callee chain that was lowered first hands its this over to the call *)
Theorem optional_chain_start_from_lowered_callee :
  forall (S : Type) (w : world S) (th : val) (L : tpred) ls lowP P' t n2,
    simM S L (fun _ => True) (PostR S w th TStore (Some t)) (eval w th lowP) (eval w th P') ->
    robust S w th L n2 t -> L n2 ->
    simM S L (fun _ => True) (StartPost S w th ls (ETmp n2) (Some t)) (eval w th (EAssign (ETmp n2) lowP)) (eval w th P').
Proof. exact start_producer. Qed.
Print Assumptions optional_chain_start_from_lowered_callee.

(* every temporary visit creates from counter n on is numbered >= n *)
Theorem visit_temporaries_above :
  forall F e lo i n, above lo e -> lo <= n -> vres lo n (visit F i e n).
Proof. exact visit_above. Qed.
Print Assumptions visit_temporaries_above.

(* ---- private names (Private.v, PrivateProofs.v) ----
   [plower] mirrors lowerPrivateGet/Set/BrandCheck/SetBinOp, the private
   branches of the **=, ??=, ||=, &&= lowerings and the private call case of
   visitExprInOut; [peval] runs the emitted helper calls with the helper bodies
   of runtime.go (__privateGet, __privateSet, __privateIn, __privateMethod,
   __privateAdd, __accessCheck) over WeakMap/WeakSet primitives; [neval] is the
   native semantics (PrivateGet, PrivateSet, PrivateFieldAdd,
   PrivateMethodOrAccessorAdd, "#x in o", ToObject of the base).  All worlds
   over a user state U paired with the private storage, all operand
   expressions (already lowered or not), all kinds of private member (field,
   method, getter, setter, pair; static or not - a static member is the same
   with the class constructor as the object).
   Hypotheses: Function.prototype.call is intact ([call_intact], as for
   optional calls); fields live in WeakMaps and the brand of methods/accessors
   in a WeakSet (what the class lowering sets up); a duplicated identifier
   target is a constant binding ([cap_ok], F2c is the counterexample); for a
   call through a private FIELD or GETTER the callee is not null/undefined
   unless there are no arguments (F13 is the counterexample). *)

(* t.#x  =>  __privateGet(t, _x [, x_get])  or  __privateMethod(t, _C_instances, x_fn):
   same result, same TypeError cases (missing brand, null base, setter-only accessor) *)
Theorem private_get_equiv :
  forall (U : Type) (w : world (U * pst)) (th terr : val)
         (names : Z -> pname) (fobj : Z -> Z) (isset : Z -> bool),
    call_intact (U * pst) w ->
    (forall x, isset (pn_store (names x)) = match pn_kind (names x) with KField => false | _ => true end) ->
    forall (F : feat) (t : expr) (x n : Z) (m : tstore) (s : U * pst),
      peval w th terr fobj isset (fst (plower names F (PGet t x) n)) m s
      = neval w th terr names fobj (PGet t x) m s.
Proof. exact private_get_sound. Qed.
Print Assumptions private_get_equiv.

(* t.#x = v  =>  __privateSet(t, _x, v [, x_set]): the value is evaluated before
   the brand check, writing a method or a getter-only accessor throws *)
Theorem private_set_equiv :
  forall (U : Type) (w : world (U * pst)) (th terr : val)
         (names : Z -> pname) (fobj : Z -> Z) (isset : Z -> bool),
    call_intact (U * pst) w ->
    (forall x, isset (pn_store (names x)) = match pn_kind (names x) with KField => false | _ => true end) ->
    forall (F : feat) (t : expr) (x : Z) (v : expr) (n : Z) (m : tstore) (s : U * pst),
      peval w th terr fobj isset (fst (plower names F (PSet t x v) n)) m s
      = neval w th terr names fobj (PSet t x v) m s.
Proof. exact private_set_sound. Qed.
Print Assumptions private_set_equiv.

(* #x in t  =>  __privateIn(_x, t): TypeError on a non-object, no other effect *)
Theorem private_in_equiv :
  forall (U : Type) (w : world (U * pst)) (th terr : val)
         (names : Z -> pname) (fobj : Z -> Z) (isset : Z -> bool)
         (F : feat) (t : expr) (x n : Z) (m : tstore) (s : U * pst),
    peval w th terr fobj isset (fst (plower names F (PIn x t) n)) m s
    = neval w th terr names fobj (PIn x t) m s.
Proof. exact private_in_sound. Qed.
Print Assumptions private_in_equiv.

(* t.#x(args)  =>  __privateGet(_n = t, _x).call(_n, args)  /  __privateMethod(...).call(...) *)
Theorem private_call_equiv :
  forall (U : Type) (w : world (U * pst)) (th terr : val)
         (names : Z -> pname) (fobj : Z -> Z) (isset : Z -> bool),
    call_intact (U * pst) w ->
    (forall x, isset (pn_store (names x)) = match pn_kind (names x) with KField => false | _ => true end) ->
    forall (F : feat) (t : expr) (x : Z) (args : list expr) (n : Z),
      pn_kind (names x) = KMethod \/ args = [] /\ nullish_callee_throws U w terr ->
      ~ In n (tmps t) -> ~ In n (flat_map tmps args) ->
      forall (m : tstore) (s : U * pst),
        observe (peval w th terr fobj isset (fst (plower names F (PCall t x args) n)) m s)
        = observe (neval w th terr names fobj (PCall t x args) m s).
Proof. exact private_call_sound. Qed.
Print Assumptions private_call_equiv.

(* t.#x -= v  =>  __privateSet(_n = t, _x, __privateGet(_n, _x) - v)   (every strict operator)
   t.#x **= v =>  __privateSet(_n = t, _x, __pow(__privateGet(_n, _x), v)) *)
Theorem private_arith_assign_equiv :
  forall (U : Type) (w : world (U * pst)) (th terr : val)
         (names : Z -> pname) (fobj : Z -> Z) (isset : Z -> bool),
    call_intact (U * pst) w ->
    (forall x, isset (pn_store (names x)) = match pn_kind (names x) with KField => false | _ => true end) ->
    forall (F : feat) (op : binop) (t : expr) (x : Z) (v : expr) (n : Z),
      strict_op op -> cap_ok (U * pst) w t -> ~ In n (tmps t) -> ~ In n (tmps v) ->
      forall (m : tstore) (s : U * pst),
        observe (peval w th terr fobj isset (fst (plower names F (PArith op t x v) n)) m s)
        = observe (neval w th terr names fobj (PArith op t x v) m s).
Proof. exact private_arith_assign_sound. Qed.
Print Assumptions private_arith_assign_equiv.

(* t.#x ||= v, &&= v, ??= v  =>  __privateGet(_n = t, _x) || __privateSet(_n, _x, v) ...
   and (_k = __privateGet(_n = t, _x)) != null ? _k : __privateSet(_n, _x, v) *)
Theorem private_logical_assign_equiv :
  forall (U : Type) (w : world (U * pst)) (th terr : val)
         (names : Z -> pname) (fobj : Z -> Z) (isset : Z -> bool),
    call_intact (U * pst) w ->
    (forall x, isset (pn_store (names x)) = match pn_kind (names x) with KField => false | _ => true end) ->
    forall (F : feat) (op : lop) (t : expr) (x : Z) (v : expr) (n : Z),
      cap_ok (U * pst) w t ->
      (forall k, n <= k < n + 2 -> ~ In k (tmps t) /\ ~ In k (tmps v)) ->
      forall (m : tstore) (s : U * pst),
        observe (peval w th terr fobj isset (fst (plower names F (PLog op t x v) n)) m s)
        = observe (neval w th terr names fobj (PLog op t x v) m s).
Proof. exact private_logical_assign_sound. Qed.
Print Assumptions private_logical_assign_equiv.

(* the constructor prologue  __privateAdd(this, _C_instances); __privateAdd(this, _x, init); ...
   is InitializeInstanceElements (brand, then every field right after its initialiser;
   adding twice throws) *)
Theorem private_add_equiv :
  forall (U : Type) (w : world (U * pst)) (th terr : val) (names : Z -> pname) (isset : Z -> bool),
    (forall x, isset (pn_store (names x)) = match pn_kind (names x) with KField => false | _ => true end) ->
    forall l : list pinit, Forall (pinit_ok names isset) l ->
    forall (m : tstore) (s : U * pst),
      hinit U w th terr names isset l m s = ninit U w th terr names l m s.
Proof. exact private_add_sound. Qed.
Print Assumptions private_add_equiv.

(* t.#x as an assignment target ([t.#x = d] = ..., for (t.#x of ...))
   =>  __privateWrapper(t, _x [, x_set])._ : t is evaluated when the reference is,
   whatever runs in between (default value, other elements, the iterator: mid),
   the later store is PrivateSet (the shape the fix 9d95b30 of F15/F16 emits) *)
Theorem private_target_equiv :
  forall (U : Type) (w : world (U * pst)) (th terr : val)
         (names : Z -> pname) (fobj : Z -> Z) (isset : Z -> bool),
    call_intact (U * pst) w ->
    (forall x, isset (pn_store (names x)) = match pn_kind (names x) with KField => false | _ => true end) ->
    forall (F : feat) (t : expr) (x n : Z) (mid : M (U * pst) unit) (v : val) (m : tstore) (s : U * pst),
      bind (ptarget w th terr fobj isset (fst (plower names F (PTarget t x) n)))
           (fun k => bind mid (fun _ => lift (k v))) m s
      = bind (ntarget w th terr names fobj (PTarget t x))
             (fun k => bind mid (fun _ => lift (k v))) m s.
Proof. exact private_target_sound. Qed.
Print Assumptions private_target_equiv.

(* every private-name form at once *)
Theorem private_lowering_sound :
  forall (U : Type) (w : world (U * pst)) (th terr : val)
         (names : Z -> pname) (fobj : Z -> Z) (isset : Z -> bool),
    call_intact (U * pst) w ->
    (forall x, isset (pn_store (names x)) = match pn_kind (names x) with KField => false | _ => true end) ->
    forall (F : feat) (f : pform) (n : Z), pform_ok U w terr names f n ->
    forall (m : tstore) (s : U * pst),
      observe (peval w th terr fobj isset (fst (plower names F f n)) m s)
      = observe (neval w th terr names fobj f m s).
Proof. exact plower_sound. Qed.
Print Assumptions private_lowering_sound.

(* F13  o.#f(g()) with #f undefined: natively g() runs and then the call throws;
   the lowered code throws while reading ".call" and never runs g() *)
Theorem private_call_nullish_callee_refuted :
  pwit_lowered f13_src <> pwit_native f13_src.
Proof. exact refuted_F13. Qed.
Print Assumptions private_call_nullish_callee_refuted.

(* F2c  o.#p ??= 5 where the getter of #p reassigns o: the setter runs on the new object *)
Theorem private_logical_assign_getter_reassigns_refuted :
  pwit_lowered f2c_src <> pwit_native f2c_src.
Proof. exact refuted_F2c. Qed.
Print Assumptions private_logical_assign_getter_reassigns_refuted.

(* NOT PROVED: the composition of the this-passing case (a?.b?.(x), a.b?.().c?.())
   with the visitor theorem (all per-step ingredients above are proved; the
   induction needs the lowered callee's own temporaries to be tracked across
   the arguments); the minify-only dead-chain branch of lowerOptionalChain;
   private names inside optional chains (o?.#x), t.#x++ and the read side of
   __privateWrapper, and the class-level set-up that creates the
   WeakMaps (F14: one "var _x" shared by every evaluation of the class). *)

(* The full statement of the property - for every world, feature set and
   temporary-free source expression the lowered tree behaves like the source -
   is FALSE of the faithful model.  Witnesses (each replayed on the real code
   by the harness, see witnessReplay):
     F1  ga ?? 2            accessor-backed global read twice
     F2  a.b ||= 5          a re-read after the getter of b reassigned it
     F3  c.m?.()            c re-read for this after the getter of m reassigned it
     F4  (a?.b)(g())        a = null: arguments not evaluated before the TypeError
     F6  (null ?? o.f)?.()  folded callee becomes a property access: this = o *)
Theorem lowering_preserves_behaviour_refuted :
  exists (S : Type) (w : world S) (th : val) (F : feat) (e : expr) (s : S),
    tmps e = [] /\ Sem.run w th (lower F e) s <> Sem.run w th e s.
Proof. exact lowering_refuted_all. Qed.
Print Assumptions lowering_preserves_behaviour_refuted.

Theorem lowering_nullish_identifier_refuted :
  Sem.run wit_world VUndef (lower all_features f1_src) 1 <> Sem.run wit_world VUndef f1_src 1.
Proof. exact refuted_F1. Qed.
Print Assumptions lowering_nullish_identifier_refuted.

Theorem lowering_logical_assign_reread_refuted :
  Sem.run wit_world VUndef (lower all_features f2_src) 1 <> Sem.run wit_world VUndef f2_src 1.
Proof. exact refuted_F2. Qed.
Print Assumptions lowering_logical_assign_reread_refuted.

Theorem lowering_optional_call_this_reread_refuted :
  Sem.run wit_world VUndef (lower all_features f3_src) 1 <> Sem.run wit_world VUndef f3_src 1.
Proof. exact refuted_F3. Qed.
Print Assumptions lowering_optional_call_this_reread_refuted.

Theorem lowering_parenthesized_chain_call_refuted :
  Sem.run wit_world VUndef (lower all_features f4_src) 1 <> Sem.run wit_world VUndef f4_src 1.
Proof. exact refuted_F4. Qed.
Print Assumptions lowering_parenthesized_chain_call_refuted.

Theorem lowering_folded_callee_this_refuted :
  Sem.run wit_world VUndef (lower all_features f6_src) 1 <> Sem.run wit_world VUndef f6_src 1.
Proof. exact refuted_F6. Qed.
Print Assumptions lowering_folded_callee_this_refuted.
