(* Frame property of the evaluator with respect to temporaries: an evaluation
   reads and writes only the temporaries that occur in the expression. *)
From V Require Import Common.Base C05.Syntax C05.Sem.

Section Frame.
  Variable S : Type.
  Variable w : world S.
  Variable th : val.

  Definition agree (L : list Z) (m1 m2 : tstore) : Prop :=
    forall k, In k L -> tget m1 k = tget m2 k.

  Lemma agree_refl L m : agree L m m.
  Proof. intros k _; reflexivity. Qed.

  Lemma agree_sub L L' m1 m2 : incl L L' -> agree L' m1 m2 -> agree L m1 m2.
  Proof. intros Hi Ha k Hk; apply Ha, Hi, Hk. Qed.

  Lemma tget_tset_same m k v : tget (tset m k v) k = v.
  Proof. unfold tset; cbn. rewrite Z.eqb_refl. reflexivity. Qed.

  Lemma tget_tset_other m k k' v : k <> k' -> tget (tset m k v) k' = tget m k'.
  Proof. intro H; unfold tset; cbn. destruct (k =? k') eqn:E; [apply Z.eqb_eq in E; contradiction | reflexivity]. Qed.

  (* a computation is framed by L: deterministic up to agreement on L, and it
     leaves every temporary outside L unchanged *)
  Definition framed {A} (L : list Z) (c : M S A) : Prop :=
    (forall m1 m2 s, agree L m1 m2 ->
       match c m1 s, c m2 s with
       | (t1, m1', s1, r1), (t2, m2', s2, r2) => t1 = t2 /\ s1 = s2 /\ r1 = r2 /\ agree L m1' m2'
       end) /\
    (forall m s k, ~ In k L -> match c m s with (_, m', _, _) => tget m' k = tget m k end).

  Lemma framed_mono {A} L L' (c : M S A) : incl L L' -> framed L c -> framed L' c.
  Proof.
    intros Hi [H1 H2]; split.
    - intros m1 m2 s Ha.
      specialize (H1 m1 m2 s (agree_sub _ _ _ _ Hi Ha)).
      pose proof (H2 m1 s) as F1. pose proof (H2 m2 s) as F2.
      destruct (c m1 s) as [[[t1 m1'] s1] r1], (c m2 s) as [[[t2 m2'] s2] r2].
      destruct H1 as (-> & -> & -> & Ha').
      repeat split; try reflexivity.
      intros k Hk. destruct (in_dec Z.eq_dec k L) as [HL | HL].
      + apply Ha', HL.
      + rewrite (F1 k HL), (F2 k HL). apply Ha, Hk.
    - intros m s k Hk. apply H2. intro; apply Hk, Hi; assumption.
  Qed.

  Lemma framed_ret {A} L (a : A) : framed L (ret a).
  Proof. split; intros; cbn; auto. Qed.

  Lemma framed_lift {A} L (f : S -> list event * S * res A) : framed L (lift f).
  Proof.
    split; intros; unfold lift.
    - destruct (f s) as [[t s'] r]. auto.
    - destruct (f s) as [[t s'] r]. reflexivity.
  Qed.

  Lemma framed_bind {A B} L (c : M S A) (k : A -> M S B) :
    framed L c -> (forall a, framed L (k a)) -> framed L (bind c k).
  Proof.
    intros [H1 H2] Hk; split.
    - intros m1 m2 s Ha. unfold bind.
      specialize (H1 m1 m2 s Ha).
      destruct (c m1 s) as [[[t1 m1'] s1] r1], (c m2 s) as [[[t2 m2'] s2] r2].
      destruct H1 as (-> & -> & -> & Ha').
      destruct r2 as [a | v]; [| auto].
      destruct (Hk a) as [K1 _]. specialize (K1 m1' m2' s2 Ha').
      destruct (k a m1' s2) as [[[u1 n1] q1] x1], (k a m2' s2) as [[[u2 n2] q2] x2].
      destruct K1 as (-> & -> & -> & Hb). auto.
    - intros m s k0 Hk0. unfold bind.
      specialize (H2 m s k0 Hk0).
      destruct (c m s) as [[[t1 m1'] s1] r1].
      destruct r1 as [a | v]; [| assumption].
      destruct (Hk a) as [_ K2]. specialize (K2 m1' s1 k0 Hk0).
      destruct (k a m1' s1) as [[[u1 n1] q1] x1]. congruence.
  Qed.

  Lemma framed_tmp_read n L : In n L -> framed L (fun m s => ([], m, s, Ok (ov (tget m n))) : list event * tstore * S * res out).
  Proof.
    intro Hn; split.
    - intros m1 m2 s Ha. rewrite (Ha n Hn). auto.
    - intros; reflexivity.
  Qed.

  Lemma framed_tmp_write n L (v : val) : In n L ->
    framed L (fun m s => ([], tset m n v, s, Ok (ov v)) : list event * tstore * S * res out).
  Proof.
    intro Hn; split.
    - intros m1 m2 s Ha. repeat split; try reflexivity.
      intros k Hk. destruct (Z.eq_dec n k) as [-> | Hne].
      + rewrite !tget_tset_same; reflexivity.
      + rewrite !tget_tset_other by assumption. apply Ha, Hk.
    - intros m s k Hk. apply tget_tset_other. intro; subst; contradiction.
  Qed.

  Lemma framed_access L o r (k : val -> M S out) :
    (forall b, framed L (k b)) -> framed L (access S o r k).
  Proof.
    intro Hk. unfold access. destruct o.
    - apply Hk.
    - destruct (nullish (valof r)); [apply framed_ret | apply Hk].
    - destruct r; [apply Hk | apply framed_ret].
  Qed.

  Lemma framed_opasg L op lval (ev : M S out) (store : val -> M S unit) :
    framed L ev -> (forall x, framed L (store x)) -> framed L (opasg S w op lval ev store).
  Proof.
    intros He Hs. unfold opasg.
    assert (Ha : framed L (bind ev (fun r => bind (store (valof r)) (fun _ => ret (ov (valof r)))))).
    { apply framed_bind; [assumption | intro]. apply framed_bind; [apply Hs | intro; apply framed_ret]. }
    assert (Hb : forall b, framed L (bind ev (fun r => bind (lift (w_binop w b lval (valof r))) (fun x =>
                  bind (store x) (fun _ => ret (ov x)))))).
    { intro b. apply framed_bind; [assumption | intro]. apply framed_bind; [apply framed_lift | intro].
      apply framed_bind; [apply Hs | intro; apply framed_ret]. }
    destruct op.
    - destruct (nullish lval); [assumption | apply framed_ret].
    - destruct (truthy lval); [apply framed_ret | assumption].
    - destruct (truthy lval); [assumption | apply framed_ret].
    - apply Hb.
    - apply Hb.
  Qed.

  (* eval's nested evaluator of argument lists, as a function of its own *)
  Fixpoint eval_list (l : list expr) : M S (list val) :=
    match l with
    | [] => ret []
    | x :: r => bind (eval w th x) (fun o => bind (eval_list r) (fun vs => ret (valof o :: vs)))
    end.

  Lemma framed_eval_list l :
    Forall (fun e => framed (tmps e) (eval w th e)) l -> framed (flat_map tmps l) (eval_list l).
  Proof.
    induction 1 as [| x r Hx Hr IH]; cbn [eval_list flat_map].
    - apply framed_ret.
    - apply framed_bind.
      + eapply framed_mono; [| exact Hx]. intros k Hk; apply in_app_iff; auto.
      + intro. apply framed_bind.
        * eapply framed_mono; [| exact IH]. intros k Hk; apply in_app_iff; auto.
        * intro; apply framed_ret.
  Qed.

  Definition sub_ok (e : expr) : Prop :=
    match e with
    | EDot t _ _ => framed (tmps t) (eval w th t)
    | EIndex t k _ => framed (tmps t) (eval w th t) /\ framed (tmps k) (eval w th k)
    | _ => True
    end.

  (* the framing of a sub-expression, widened to the temporaries of the whole *)
  Ltac sa := eapply framed_mono; [| eassumption];
             intros k0 Hk0; cbn [tmps]; repeat rewrite in_app_iff; solve [auto 6].
  Ltac step := first [ apply framed_ret | apply framed_lift | apply framed_bind; [| intro]
                     | apply framed_access; intro | apply framed_opasg; [| intro]
                     | match goal with |- framed _ (if ?c then _ else _) => destruct c end ].
  Ltac fr := repeat first [eassumption | sa | step].

  (* eval looks through a member access that is the operand of delete or the
     target of an assignment: the statement is strengthened by its parts *)
  Lemma eval_framed_strong : forall e, framed (tmps e) (eval w th e) /\ sub_ok e.
  Proof.
    induction e using expr_ind'; cbn [eval tmps sub_ok];
      try (fold (eval_list args));
      repeat match goal with H : _ /\ _ |- _ => destruct H end;
      try solve [split; [fr | auto]].
    - (* ETmp *) split; [apply framed_tmp_read; left; reflexivity | exact I].
    - (* ECall *)
      assert (Hl : framed (flat_map tmps args) (eval_list args)).
      { apply framed_eval_list. eapply Forall_impl; [| exact H]. intros a [Ha _]; exact Ha. }
      split; [fr | exact I].
    - (* ECallThis *)
      assert (Hl : framed (flat_map tmps args) (eval_list args)).
      { apply framed_eval_list. eapply Forall_impl; [| exact H]. intros a [Ha _]; exact Ha. }
      split; [fr | exact I].
    - (* EDelete *)
      split; [| exact I].
      destruct e; cbn [sub_ok tmps] in *; repeat match goal with H : _ /\ _ |- _ => destruct H end; fr.
    - (* EAssign *)
      split; [| exact I].
      destruct e1; cbn [sub_ok tmps] in *; repeat match goal with H : _ /\ _ |- _ => destruct H end; fr.
      apply framed_tmp_write. left; reflexivity.
    - (* EBin *) split; [destruct op; fr | exact I].
    - (* EOpAsg *)
      split; [| exact I].
      destruct e1; cbn [sub_ok tmps] in *; repeat match goal with H : _ /\ _ |- _ => destruct H end; fr.
  Qed.

  Theorem eval_framed : forall e, framed (tmps e) (eval w th e).
  Proof. intro e; apply eval_framed_strong. Qed.
End Frame.
