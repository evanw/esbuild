(* What the whole-visitor theorem (Visit2.v) is stated with and built from:
   the source fragment without optional chains [src], the relation [inv] of a
   visited expression to its source, the soundness of esbuild's folding of
   "a ?? b", and what a visited assignment target has to do with its source. *)
From V Require Import Common.Base C05.Syntax C05.Sem C05.Lower C05.Frame C05.SimLogic C05.Steps C05.Compose C05.Above.

Section Visit.
  Variable S : Type.
  Variable w : world S.
  Variable th : val.
  Notation ev := (eval w th).
  Notation evl := (eval_list S w th).
  Notation Rv := (Rv S w th).
  Notation Rb := (Rb S w th).
  Notation Rx := (Rx S w th).

  (* JavaScript facts about the world that esbuild's folding of "x ?? y" relies
     on: arithmetic and delete never produce null/undefined *)
  Definition binop_nonnull : Prop :=
    forall op a b s, match w_binop w op a b s with (_, _, Ok v) => nullish v = false | _ => True end.
  Definition del_nonnull : Prop :=
    forall a b s, match w_del w a b s with (_, _, Ok v) => nullish v = false | _ => True end.
  Hypothesis Hbin : binop_nonnull.
  Hypothesis Hdel : del_nonnull.

  Definition okres (P : out -> Prop) (c : M S out) : Prop :=
    forall m s, match c m s with (_, _, _, Ok o) => P o | _ => True end.

  Lemma okres_ret (P : out -> Prop) o : P o -> okres P (ret o).
  Proof. intros H m s. exact H. Qed.
  Lemma okres_bind {A} (P : out -> Prop) (c : M S A) k : (forall a, okres P (k a)) -> okres P (bind c k).
  Proof.
    intros H m s. unfold bind. destruct (c m s) as [[[t1 m1] s1] [a | v]]; [| exact I].
    specialize (H a m1 s1). destruct (k a m1 s1) as [[[t2 m2] s2] r]. exact H.
  Qed.
  Lemma okres_bind2 (Q P : out -> Prop) (c : M S out) k :
    okres Q c -> (forall a, Q a -> okres P (k a)) -> okres P (bind c k).
  Proof.
    intros Hc H m s. unfold bind. specialize (Hc m s).
    destruct (c m s) as [[[t1 m1] s1] [a | v]]; [| exact I].
    specialize (H a Hc m1 s1). destruct (k a m1 s1) as [[[t2 m2] s2] r]. exact H.
  Qed.
  Lemma okres_access (P : out -> Prop) o r k : P OShort -> (forall b, okres P (k b)) -> okres P (access S o r k).
  Proof.
    intros Hs H. unfold access. destruct o; [apply H | | destruct r; [apply H | apply okres_ret, Hs]].
    destruct (nullish (valof r)); [apply okres_ret, Hs | apply H].
  Qed.
  Lemma okres_if (P : out -> Prop) (b : bool) c1 c2 : okres P c1 -> okres P c2 -> okres P (if b then c1 else c2).
  Proof. destruct b; auto. Qed.

  (* only a member access yields a base, the this value of a call made on it *)
  Definition nob (o : out) : Prop := baseof o = VUndef.

  Ltac ok_tac :=
    repeat match goal with
      | |- okres _ (ret _) => apply okres_ret; cbv; reflexivity
      | |- okres _ (bind _ _) => apply okres_bind; intro
      | |- okres _ (access _ _ _ _) => apply okres_access; [cbv; reflexivity | intro]
      | |- okres _ (if _ then _ else _) => apply okres_if
      | |- okres _ (match ?x with _ => _ end) => destruct x
      end.

  Lemma opasg_nob op lval e0 st : okres nob (opasg S w op lval e0 st).
  Proof. unfold opasg. destruct op; ok_tac. Qed.

  Lemma nonaccess_base e : ends_with_access e = false -> okres nob (ev e).
  Proof.
    destruct e; cbn [ends_with_access]; intro H; try discriminate H; cbn [eval];
      try solve [ok_tac].
    - (* ETmp *) intros m s. reflexivity.
    - (* EDelete *)
      destruct e; try solve [ok_tac];
        (apply okres_bind; intro r;
         apply okres_bind2 with (Q := nob); [ok_tac | intros a Ha; apply okres_ret; destruct a; [exact Ha | reflexivity]]).
    - (* EAssign *) destruct e1; ok_tac. intros m s. reflexivity.
    - (* EOpAsg *) destruct e1; ok_tac; apply opasg_nob.
  Qed.

  Lemma Rv_nonaccess_Rb a b : ends_with_access a = false -> ends_with_access b = false -> Rv a b -> Rb a b.
  Proof.
    intros Ha Hb H m m0 s Hs Hp. specialize (H m m0 s Hs Hp).
    pose proof (nonaccess_base a Ha m s) as Na. pose proof (nonaccess_base b Hb m0 s) as Nb.
    destruct (ev a m s) as [[[t1 m1] s1] r1], (ev b m0 s) as [[[t2 m2] s2] r2].
    destruct H as (-> & -> & Hs' & Hr). repeat split; auto.
    destruct r1, r2; try contradiction; auto. split; [exact Hr | unfold nob in *; congruence].
  Qed.

  Definition nn (o : out) : Prop := nullish (valof o) = false.

  Lemma okres_binop (P : out -> Prop) op a b k :
    (forall v, nullish v = false -> okres P (k v)) -> okres P (bind (lift (w_binop w op a b)) k).
  Proof.
    intros H m s. unfold bind, lift. pose proof (Hbin op a b s) as Hb.
    destruct (w_binop w op a b s) as [[t1 s1] [v | x]]; [| exact I].
    specialize (H v Hb m s1). destruct (k v m s1) as [[[t2 m2] s2] r]. exact H.
  Qed.

  Lemma okres_del (P : out -> Prop) a b k :
    (forall v, nullish v = false -> okres P (k v)) -> okres P (bind (lift (w_del w a b)) k).
  Proof.
    intros H m s. unfold bind, lift. pose proof (Hdel a b s) as Hb.
    destruct (w_del w a b s) as [[t1 s1] [v | x]]; [| exact I].
    specialize (H v Hb m s1). destruct (k v m s1) as [[[t2 m2] s2] r]. exact H.
  Qed.

  Lemma opasg_arith_nn op lval e0 st : op = APow \/ op = ASub -> okres nn (opasg S w op lval e0 st).
  Proof.
    intros [-> | ->]; unfold opasg; apply okres_bind; intro r; apply okres_binop; intros v Hv;
      apply okres_bind; intro; apply okres_ret; exact Hv.
  Qed.

  Lemma unshort_nn c : okres (fun o => o = OShort \/ nn o) c -> okres nn (bind c (fun r => ret (unshort_true r))).
  Proof.
    intro H. apply okres_bind2 with (Q := fun o => o = OShort \/ nn o); [exact H |].
    intros q [-> | Hq]; apply okres_ret; [reflexivity | destruct q; [exact Hq | reflexivity]].
  Qed.

  Lemma tnu_nonnull a : forall se, to_null_or_undef a = Some (false, se) -> okres nn (ev a).
  Proof.
    induction a using expr_ind'; intros se Hs; cbn in Hs; try discriminate Hs; cbn [eval].
    - ok_tac.
    - ok_tac.
    - ok_tac.
    - (* EDelete *)
      destruct a; try solve [ok_tac]; apply okres_bind; intro r; apply unshort_nn;
        (apply okres_access; [left; reflexivity | intro b]).
      + apply okres_del. intros v Hv. apply okres_ret. right. exact Hv.
      + apply okres_bind; intro kr. apply okres_del. intros v Hv. apply okres_ret. right. exact Hv.
    - (* EBin *)
      assert (Harith : forall op', okres nn (bind (ev a1) (fun r => bind (ev a2) (fun r2 =>
                bind (lift (w_binop w op' (valof r) (valof r2))) (fun v => ret (ov v)))))).
      { intro op'. apply okres_bind; intro r. apply okres_bind; intro r2.
        apply okres_binop. intros v Hv. apply okres_ret. exact Hv. }
      destruct op; try discriminate Hs; [apply Harith | apply Harith |].
      destruct (to_null_or_undef a2) as [[isn se2] |] eqn:E2; [| discriminate Hs].
      injection Hs as -> _.
      apply okres_bind; intro r.
      apply okres_bind2 with (Q := nn); [apply (IHa2 se2 eq_refl) |].
      intros o Ho. apply okres_ret. exact Ho.
    - (* EOpAsg *)
      assert (Hop : op = APow \/ op = ASub) by (destruct op; try discriminate Hs; auto).
      destruct a1; try solve [apply okres_bind; intro; apply okres_ret; reflexivity].
      + apply okres_bind; intro l. apply opasg_arith_nn, Hop.
      + apply okres_bind; intro r. apply okres_bind; intro l. apply opasg_arith_nn, Hop.
      + apply okres_bind; intro r. apply okres_bind; intro kr. apply okres_bind; intro l.
        apply opasg_arith_nn, Hop.
    - (* EEqNull *) apply okres_bind; intro r. apply okres_ret. reflexivity.
  Qed.

  Lemma tnu_null_pure a : to_null_or_undef a = Some (true, true) -> a = ENull \/ a = EUndef.
  Proof.
    destruct a; cbn; intro H; try discriminate H; auto.
    - destruct op; try discriminate H. destruct (to_null_or_undef a2) as [[? ?] |]; discriminate H.
    - destruct op; discriminate H.
  Qed.

  Lemma below_mono n n' e : n <= n' -> below n e -> below n' e.
  Proof. intros Hn H j Hj. specialize (H j Hj). lia. Qed.

  Lemma tall_below n e : tall (fun j => j < n) e <-> below n e.
  Proof. apply Forall_forall. Qed.

  (* the upper-bound reading of the lemmas of Above.v about one lowering step with two operands *)
  Lemma below_step n n' a b r :
    (forall P, n <= n' /\ (span P n n' -> tall P a -> tall P b -> tall P r)) ->
    below n a -> below n b -> n <= n' /\ below n' r.
  Proof.
    intros H Ha Hb. destruct (H (fun j => j < n')) as [Hn Hr]. split; [exact Hn |].
    apply tall_below, Hr; [intros j Hj; lia | |]; apply tall_below; eapply below_mono; eassumption.
  Qed.

  Definition tgt_shape (t : expr) : Prop :=
    match t with EId _ => True | EDot _ _ OcNone => True | EIndex _ _ OcNone => True | _ => False end.

  Variable F : feat.
  (* the identifiers known to be constant bindings *)
  Variable C : Z -> Prop.
  Hypothesis HC : forall x, C x -> const_var S w x.

  (* identifiers that can end up as an operand esbuild duplicates *)
  Fixpoint head_ids (e : expr) : list Z :=
    match e with
    | EId x => [x]
    | EBin BNullish a b => head_ids a ++ head_ids b
    | _ => []
    end.

  Definition op_lowered (op : asgop) : bool :=
    match op with AOr | AAnd | ANullish => f_logasg F | APow => f_exp F | ASub => false end.

  Definition all_const (l : list Z) : Prop := forall x, In x l -> C x.

  Fixpoint src (e : expr) : Prop :=
    let fix all (l : list expr) : Prop :=
      match l with [] => True | x :: r => src x /\ all r end in
    match e with
    | ENull | EUndef | EThis | EBool _ | ENum _ | EStr _ | EId _ => True
    | EDot t _ o => o = OcNone /\ src t
    | EIndex t k o => o = OcNone /\ src t /\ src k
    | ECall f args o => o = OcNone /\ src f /\ all args
    | EDelete d => ends_with_access d = true /\ src d
    | EAssign tgt v => tgt_shape tgt /\ src tgt /\ src v
    | EBin op a b => src a /\ src b /\
        (op = BNullish -> f_nullish F = true -> all_const (head_ids a))
    | EOpAsg op tgt v => tgt_shape tgt /\ src tgt /\ src v /\
        (op_lowered op = true ->
         match tgt with
         | EDot t _ _ => all_const (head_ids t)
         | EIndex t k _ => all_const (head_ids t) /\ all_const (head_ids k)
         | EId x => op = ANullish -> f_nullish F = true -> C x
         | _ => True
         end)
    | _ => False
    end.

  Fixpoint srcs (l : list expr) : Prop := match l with [] => True | x :: r => src x /\ srcs r end.

  Definition inv (e e' : expr) (n n' : Z) : Prop :=
    n <= n' /\ below n' e' /\ Rv e' e /\
    (ends_with_access e = true -> Rx e' e /\ ends_with_access e' = true) /\
    (forall k, e' <> ETmp k) /\ (forall x, e' = EId x -> In x (head_ids e)).

  Definition shape_ok (e e' : expr) : Prop :=
    (forall k, e' <> ETmp k) /\ (forall x, e' = EId x -> In x (head_ids e)).

  Definition sub_inv (e e' : expr) : Prop :=
    match e with
    | EId x => e' = EId x
    | EDot t name o => exists t', e' = EDot t' name o /\ Rv t' t /\ shape_ok t t'
    | EIndex t k o => exists t' k', e' = EIndex t' k' o /\ Rv t' t /\ Rv k' k /\ shape_ok t t' /\ shape_ok k k'
    | _ => True
    end.

  Lemma shape_cap_ok e e' : shape_ok e e' -> all_const (head_ids e) -> cap_ok S w e'.
  Proof.
    intros [Ht Hid] Hc. unfold cap_ok.
    destruct (is_inline_value e') eqn:Hi; [right | left; reflexivity].
    destruct e'; cbn in Hi; try discriminate Hi; cbn; try exact I.
    - apply HC, Hc, Hid. reflexivity.
    - apply (Ht n). reflexivity.
  Qed.

  Lemma inv_cap_ok e e' n n' : inv e e' n n' -> all_const (head_ids e) -> cap_ok S w e'.
  Proof. intros (_ & _ & _ & _ & Hsh). exact (shape_cap_ok e e' Hsh). Qed.

  Lemma src_not_chain e : src e -> is_chain_access e = false.
  Proof. destruct e; cbn; auto; intros [-> _]; reflexivity. Qed.

  (* folding of "a ?? b" when a is known never / always to be null or undefined *)
  Lemma fold_nonnull a' a b : Rv a' a -> okres nn (ev a') -> Rv a' (EBin BNullish a b).
  Proof.
    intros H Hn m m0 s Hs Hp. specialize (H m m0 s Hs Hp). specialize (Hn m s).
    cbn [eval]. unfold bind.
    destruct (ev a' m s) as [[[t1 m1] s1] r1], (ev a m0 s) as [[[t2 m2] s2] r2].
    destruct H as (-> & -> & Hs' & Hr).
    destruct r1 as [x | v], r2 as [y | v0]; try contradiction; [| auto].
    unfold pv in Hr. unfold nn in Hn. rewrite <- Hr, Hn. cbn. rewrite app_nil_r.
    repeat split; auto.
  Qed.

  Lemma fold_null a' a b' b : Rv a' a -> a' = ENull \/ a' = EUndef -> Rv b' b -> Rv b' (EBin BNullish a b).
  Proof.
    intros H Ha Hb m m0 s Hs Hp. specialize (H m m0 s Hs Hp).
    cbn [eval]. unfold bind.
    assert (Ea : exists v, nullish v = true /\ ev a' m s = ([], m, s, Ok (ov v))).
    { destruct Ha as [-> | ->]; eexists; split; try reflexivity; reflexivity. }
    destruct Ea as (v & Hv & Ea). rewrite Ea in H.
    destruct (ev a m0 s) as [[[t2 m2] s2] r2].
    destruct H as (<- & <- & Hs' & Hr).
    destruct r2 as [y | v0]; [| contradiction].
    unfold pv in Hr. cbn in Hr. rewrite <- Hr, Hv.
    specialize (Hb m m2 s Hs' I).
    destruct (ev b' m s) as [[[t3 m3] s3] r3], (ev b m2 s) as [[[t4 m4] s4] r4].
    destruct Hb as (-> & -> & Hs3 & Hr3). cbn.
    destruct r3, r4; try contradiction; rewrite ?app_nil_r; repeat split; auto.
  Qed.

  Lemma src_srcs args :
    (fix all (l : list expr) : Prop := match l with [] => True | x :: r => src x /\ all r end) args = srcs args.
  Proof. induction args; cbn; congruence. Qed.

  (* what a lowering step returns is none of the expressions esbuild duplicates and no member access *)
  Definition compound (r : expr) : Prop :=
    match r with EIf _ _ _ | EBin _ _ _ | EAssign _ _ => True | _ => False end.

  Lemma compound_facts r : compound r ->
    (forall k, r <> ETmp k) /\ (forall x, r <> EId x) /\ ends_with_access r = false.
  Proof. destruct r; intro H; try contradiction; repeat split; intros; discriminate. Qed.

  Lemma lowerNullish_compound a b n : compound (fst (lowerNullishCoalescing a b n)).
  Proof. unfold lowerNullishCoalescing. destruct (capture a n) as [[? ?] ?]. exact I. Qed.

  Lemma lao_compound tgt (cb : expr -> expr -> Z -> expr * Z) n :
    tgt_shape tgt -> (forall a b k, compound (fst (cb a b k))) ->
    compound (fst (lowerAssignmentOperator tgt cb n)).
  Proof.
    intros Hsh Hcb. rewrite (lao_refs tgt cb n Hsh). destruct (refs tgt n) as [[A B] n']. apply Hcb.
  Qed.

  Lemma lowerExpAsg_compound t v n : tgt_shape t -> compound (fst (lowerExpAsg t v n)).
  Proof. intro Hsh. apply lao_compound; [exact Hsh | intros; exact I]. Qed.

  Lemma lowerLogicalAsg_on bop t v n r : lowerLogicalAsg F bop t v n = Some r -> f_logasg F = true.
  Proof. unfold lowerLogicalAsg. destruct (f_logasg F); [reflexivity | discriminate]. Qed.

  Lemma lowerNullishAsg_on t v n r : lowerNullishAsg F t v n = Some r -> f_logasg F = true.
  Proof. unfold lowerNullishAsg. destruct (f_logasg F); [reflexivity | discriminate]. Qed.

  Lemma lowerLogicalAsg_compound bop t v n r :
    tgt_shape t -> lowerLogicalAsg F bop t v n = Some r -> compound (fst r).
  Proof.
    intro Hsh. unfold lowerLogicalAsg. destruct (f_logasg F); [| discriminate]. intro E; injection E as <-.
    apply lao_compound; [exact Hsh | intros; exact I].
  Qed.

  Lemma lowerNullishAsg_compound t v n r : tgt_shape t -> lowerNullishAsg F t v n = Some r -> compound (fst r).
  Proof.
    intro Hsh. unfold lowerNullishAsg. destruct (f_logasg F); [| discriminate]. intro E; injection E as <-.
    apply lao_compound; [exact Hsh |]. intros a b k. destruct (f_nullish F); [apply lowerNullish_compound | exact I].
  Qed.

  Definition concl (e : expr) (r : expr * xout * Z) (n : Z) : Prop :=
    match r with (e', o, n') => inv e e' n n' /\ sub_inv e e' /\ childChain o = false end.

  (* relation of a visited assignment target to its source *)
  Lemma tgt_facts tgt tgt' :
    tgt_shape tgt -> sub_inv tgt tgt' ->
    tgt_shape tgt' /\
    (forall op v' v, Rv v' v -> Rx (EOpAsg op tgt' v') (EOpAsg op tgt v)) /\
    (forall v' v, Rv v' v -> Rx (EAssign tgt' v') (EAssign tgt v)) /\
    ((match tgt with
      | EDot t _ _ => all_const (head_ids t)
      | EIndex t k _ => all_const (head_ids t) /\ all_const (head_ids k)
      | _ => True
      end) -> valid_target S w tgt').
  Proof.
    intros Hsh Hsub. destruct tgt; try contradiction; cbn [sub_inv] in Hsub.
    - subst tgt'. split; [exact I |]. split; [| split]; [| | intros _; exact I].
      + intros. apply cong_opasg_id; assumption.
      + intros. apply cong_assign_id; assumption.
    - destruct o; try contradiction. destruct Hsub as (t' & -> & Hr & Hshape).
      split; [exact I |]. split; [| split].
      + intros. apply cong_opasg_dot; assumption.
      + intros. apply cong_assign_dot; assumption.
      + intro Hc. cbn. apply (shape_cap_ok tgt t' Hshape Hc).
    - destruct o; try contradiction. destruct Hsub as (t' & k' & -> & Hr & Hrk & Hsh1 & Hsh2).
      split; [exact I |]. split; [| split].
      + intros. apply cong_opasg_index; assumption.
      + intros. apply cong_assign_index; assumption.
      + intros [Hc1 Hc2]. cbn. split; [apply (shape_cap_ok tgt1 t' Hsh1 Hc1) | apply (shape_cap_ok tgt2 k' Hsh2 Hc2)].
  Qed.
End Visit.
