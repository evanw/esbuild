(* Private names: the helper calls esbuild emits behave like the native
   private-name operations (ECMA-262), for every operand expression. *)
From V Require Import Common.Base C05.Syntax C05.Sem C05.Lower C05.Frame C05.SimLogic C05.Steps C05.Witness C05.LowerProofs C05.Private.

Section PrivProofs.
  Variable U : Type.
  Notation S := (U * pst)%type.
  Variable w : world S.
  Variable th terr : val.
  Variable names : Z -> pname.
  Variable fobj : Z -> Z.
  Variable isset : Z -> bool.
  Notation ev := (eval w th).
  Notation evl := (eval_list S w th).
  Notation simM := (simM S).
  Notation pev := (peval w th terr fobj isset).
  Notation nev := (neval w th terr names fobj).
  Notation hget := (h_get U w terr fobj isset).
  Notation hset := (h_set U w terr fobj isset).
  Notation hmethod := (h_method U terr fobj).
  Notation hin := (h_in U terr).
  Notation hadd := (h_add U terr isset).
  Notation nget := (n_get U w terr names fobj).
  Notation nset := (n_set U w terr names fobj).
  Notation nin := (n_in U terr names).
  Notation nadd := (n_add U terr).

  (* Function.prototype.call is intact *)
  Hypothesis Hcall : call_intact S w.
  (* a field is stored in a WeakMap, the brand of methods/accessors is a WeakSet *)
  Hypothesis Hstore : forall x, isset (pn_store (names x)) =
    match pn_kind (names x) with KField => false | _ => true end.

  (* the helper call lowerPrivateGet / lowerPrivateSet chooses for the kind of x,
     on evaluated operands *)
  Definition hgetK (x : Z) (o : val) : W U val :=
    let p := names x in
    match pn_kind p with
    | KMethod => hmethod (pn_store p) o (pn_meth p)
    | KGet | KGetSet => hget (pn_store p) o (Some (pn_getter p))
    | KField | KSet => hget (pn_store p) o None
    end.
  Definition hsetK (x : Z) (o v : val) : W U val :=
    let p := names x in
    match pn_kind p with
    | KSet | KGetSet => hset (pn_store p) o v (Some (pn_setter p))
    | KField | KMethod | KGet => hset (pn_store p) o v None
    end.

  Lemma wbind_ok {A B} (x : W U A) (k : A -> W U B) s a :
    x s = ([], s, Ok a) -> wbind U x k s = k a s.
  Proof. intro E. unfold wbind. rewrite E. destruct (k a s) as [[t2 s2] r]. reflexivity. Qed.
  Lemma wbind_throw {A B} (x : W U A) (k : A -> W U B) s t s1 v :
    x s = (t, s1, Throw v) -> wbind U x k s = (t, s1, Throw v).
  Proof. intro E. unfold wbind. rewrite E. reflexivity. Qed.

  Lemma wbind_cong_l {A B} (x y : W U A) (k : A -> W U B) s :
    x s = y s -> wbind U x k s = wbind U y k s.
  Proof. intro E. unfold wbind. rewrite E. reflexivity. Qed.

  Lemma callcall_call i o args s : callcall U w (fval fobj i) o args s = w_call w (fval fobj i) o args s.
  Proof.
    unfold callcall. destruct (Hcall (fval fobj i) s eq_refl) as [c E].
    rewrite (wbind_ok _ _ _ _ E). reflexivity.
  Qed.

  Lemma h_check_found st l s v :
    pfind (snd s) st l = Some v -> h_check U terr st (VObj l) s = ([], s, Ok tt).
  Proof. intro E. unfold h_check, wbind, p_has. rewrite E. reflexivity. Qed.
  Lemma h_check_missing st l s :
    pfind (snd s) st l = None -> h_check U terr st (VObj l) s = ([], s, Throw terr).
  Proof. intro E. unfold h_check, wbind, p_has. rewrite E. reflexivity. Qed.
  Lemma h_check_prim st o s :
    (forall l, o <> VObj l) -> h_check U terr st o s = ([], s, Throw terr).
  Proof. intro H. destruct o; try reflexivity. exfalso. exact (H l eq_refl). Qed.
  Lemma p_has_found st l s v :
    pfind (snd s) st l = Some v -> p_has U st (VObj l) s = ([], s, Ok true).
  Proof. intro E. unfold p_has. rewrite E. reflexivity. Qed.
  Lemma p_has_missing st l s :
    pfind (snd s) st l = None -> p_has U st (VObj l) s = ([], s, Ok false).
  Proof. intro E. unfold p_has. rewrite E. reflexivity. Qed.
  Lemma p_has_prim st o s :
    (forall l, o <> VObj l) -> p_has U st o s = ([], s, Ok false).
  Proof. intro H. destruct o; try reflexivity. exfalso. exact (H l eq_refl). Qed.

  Lemma hgetK_native x o s : hgetK x o s = nget x o s.
  Proof.
    unfold hgetK, n_get, h_get, h_method. pose proof (Hstore x) as Hs.
    (* o is null or undefined, a primitive (never a key), or an object with or without the entry *)
    destruct o as [| | b | z | z | l].
    1-2: destruct (pn_kind (names x)); reflexivity.
    1-3: cbn [nullish]; erewrite wbind_ok by (apply p_has_prim; intros ? ?; discriminate);
         destruct (pn_kind (names x)); reflexivity.
    cbn [nullish]. destruct (pfind (snd s) (pn_store (names x)) l) as [v |] eqn:E.
    - rewrite (wbind_ok _ _ _ _ (p_has_found _ _ _ _ E)).
      destruct (pn_kind (names x)); rewrite (wbind_ok _ _ _ _ (h_check_found _ _ _ _ E)), ?Hs;
        try reflexivity; apply callcall_call.
    - rewrite (wbind_ok _ _ _ _ (p_has_missing _ _ _ E)).
      destruct (pn_kind (names x)); apply (wbind_throw _ _ _ _ _ _ (h_check_missing _ _ _ E)).
  Qed.

  Lemma hsetK_native x o v s : hsetK x o v s = wbind U (nset x o v) (fun _ => wret U v) s.
  Proof.
    unfold hsetK, n_set, h_set. pose proof (Hstore x) as Hs.
    destruct o as [| | b | z | z | l].
    1-2: destruct (pn_kind (names x)); reflexivity.
    1-3: destruct (pn_kind (names x)); reflexivity.
    cbn [nullish]. destruct (pfind (snd s) (pn_store (names x)) l) as [v0 |] eqn:E.
    - symmetry. erewrite wbind_cong_l by (apply wbind_ok; apply (p_has_found _ _ _ _ E)). symmetry.
      destruct (pn_kind (names x)); rewrite (wbind_ok _ _ _ _ (h_check_found _ _ _ _ E)), ?Hs;
        try reflexivity.
      all: apply wbind_cong_l, wbind_cong_l, callcall_call.
    - symmetry. erewrite wbind_cong_l by (apply wbind_ok; apply (p_has_missing _ _ _ E)). symmetry.
      destruct (pn_kind (names x)); apply (wbind_throw _ _ _ _ _ _ (h_check_missing _ _ _ E)).
  Qed.

  Lemma hin_native x o s : hin (pn_store (names x)) o s = nin x o s.
  Proof. reflexivity. Qed.

  (* __privateAdd(obj, _x, v) = PrivateFieldAdd; __privateAdd(obj, _C_instances) =
     PrivateMethodOrAccessorAdd for the whole class *)
  Lemma hadd_native_field x o v s :
    pn_kind (names x) = KField -> hadd (pn_store (names x)) o v s = nadd (pn_store (names x)) o v s.
  Proof. intro Hk. unfold h_add, n_add. rewrite (Hstore x), Hk. reflexivity. Qed.
  Lemma hadd_native_brand st o v s :
    isset st = true -> hadd st o v s = nadd st o (VBool true) s.
  Proof. intro Hk. unfold h_add, n_add. rewrite Hk. reflexivity. Qed.

  Lemma lift_cong {A} (f g : W U A) m s : (forall s, f s = g s) -> lift f m s = lift g m s.
  Proof. intro H. unfold lift. rewrite H. reflexivity. Qed.

  Lemma peval_get t x m s :
    pev (lowerPrivateGet names t x) m s
    = bind (pev t) (fun r => bind (lift (nget x (valof r))) (fun v => ret (ov v))) m s.
  Proof.
    transitivity (bind (pev t) (fun r => bind (lift (hgetK x (valof r))) (fun v => ret (ov v))) m s).
    - unfold lowerPrivateGet, hgetK. destruct (pn_kind (names x)); reflexivity.
    - apply bind_cong. intros a m1 s1. apply bind_cong_l. intros m2 s2.
      apply lift_cong, hgetK_native.
  Qed.

  Lemma lift_wbind_ret {A} (f : W U A) (v : val) m s :
    bind (lift (wbind U f (fun _ => wret U v))) (fun z => ret (ov z)) m s
    = bind (lift f) (fun _ => ret (ov v)) m s.
  Proof.
    unfold bind, lift, wbind, wret, ret. destruct (f s) as [[t1 s1] [a | e]]; cbn; rewrite ?app_nil_r; reflexivity.
  Qed.

  Lemma peval_set t x v m s :
    pev (lowerPrivateSet names t x v) m s
    = bind (pev t) (fun r => bind (pev v) (fun rv =>
        bind (lift (nset x (valof r) (valof rv))) (fun _ => ret (ov (valof rv))))) m s.
  Proof.
    transitivity (bind (pev t) (fun r => bind (pev v) (fun rv =>
        bind (lift (hsetK x (valof r) (valof rv))) (fun z => ret (ov z)))) m s).
    - unfold lowerPrivateSet, hsetK. destruct (pn_kind (names x)); reflexivity.
    - apply bind_cong. intros a m1 s1. apply bind_cong. intros b m2 s2.
      rewrite <- lift_wbind_ret. apply bind_cong_l. intros m3 s3. apply lift_cong, hsetK_native.
  Qed.

  (* t.#x   =>  __privateGet(t, _x [, x_get])  /  __privateMethod(t, _C_instances, x_fn) *)
  Theorem private_get_sound F t x n m s :
    pev (fst (plower names F (PGet t x) n)) m s = nev (PGet t x) m s.
  Proof. cbn [plower fst neval]. rewrite peval_get. reflexivity. Qed.

  (* t.#x = v   =>  __privateSet(t, _x, v [, x_set]) *)
  Theorem private_set_sound F t x v n m s :
    pev (fst (plower names F (PSet t x v) n)) m s = nev (PSet t x v) m s.
  Proof. cbn [plower fst neval]. rewrite peval_set. reflexivity. Qed.

  (* #x in t   =>  __privateIn(_x, t) *)
  Theorem private_in_sound F t x n m s :
    pev (fst (plower names F (PIn x t) n)) m s = nev (PIn x t) m s.
  Proof. reflexivity. Qed.

  Lemma simM_both_throw {A B} (L : tpred) (Pre : tstore -> Prop) (Post : tstore -> A -> B -> Prop)
        (cl : M S A) (cn : M S B) v :
    (forall m s, cl m s = ([], m, s, Throw v)) -> (forall m s, cn m s = ([], m, s, Throw v)) ->
    simM L Pre Post cl cn.
  Proof. intros H1 H2 m m0 s Hs Hp. rewrite H1, H2. auto. Qed.

  (* [remp] for capture_mut: identifiers are captured too *)
  Definition rempm (t : expr) (n : Z) (v : val) (m : tstore) : Prop :=
    if is_const_value t then (forall m' s', ev t m' s' = ([], m', s', Ok (ov v))) else tget m n = v.

  Lemma rempm_stable (L : tpred) t n v : L n -> stable L (rempm t n v).
  Proof.
    intros Hn. unfold rempm. destruct (is_const_value t).
    - apply stable_const.
    - apply stable_tget, Hn.
  Qed.

  Lemma piece_first_mut (L : tpred) (Pre : tstore -> Prop) t n f a n1 :
    capture_mut t n = (f, a, n1) -> L n ->
    (forall k, L k -> ~ In k (tmps t)) -> stable L Pre ->
    (forall m v, Pre m -> Pre (tset m n v)) ->
    simM L Pre (fun m x y => valof x = valof y /\ rempm t n (valof y) m /\ Pre m) (ev f) (ev t).
  Proof.
    unfold capture_mut, rempm. intros Hc Hn Hd Hst Hset.
    destruct (is_const_value t) eqn:Hi.
    - injection Hc as <- <- <-.
      assert (exists v, forall m s, ev t m s = ([], m, s, Ok (ov v))) as [v Hv].
      { destruct t; try discriminate Hi; eexists; intros; reflexivity. }
      intros m m0 s Hs Hp. rewrite !Hv. repeat split; auto.
    - injection Hc as <- <- <-.
      intros m m0 s Hs Hp. cbn [eval]. unfold bind.
      pose proof (simM_fresh S w th L Pre t Hd Hst m m0 s Hs Hp) as Q.
      destruct (ev t m s) as [[[t1 m1] s1] r1], (ev t m0 s) as [[[t2 m2] s2] r2].
      destruct Q as (-> & -> & Hs1 & Hr).
      destruct r1 as [x | v], r2 as [y | v0]; try contradiction.
      + destruct Hr as [-> Hp1]. rewrite app_nil_r.
        repeat split; auto.
        * apply simL_tset; assumption.
        * cbn. apply tget_tset_same.
      + auto.
  Qed.

  Lemma piece_again_mut t n f a n1 v m s :
    capture_mut t n = (f, a, n1) -> rempm t n v m -> ev a m s = ([], m, s, Ok (ov v)).
  Proof.
    unfold capture_mut, rempm. destruct (is_const_value t); intros Hc H; injection Hc as <- <- <-.
    - apply H.
    - cbn. rewrite H. reflexivity.
  Qed.

  Lemma nget_method_nonnull x o s :
    pn_kind (names x) = KMethod ->
    match nget x o s with (_, _, Ok b) => nullish b = false | _ => True end.
  Proof.
    intro Hk. unfold n_get. rewrite Hk. destruct (nullish o); [exact I |].
    unfold wbind, p_has. destruct o; cbn; try exact I.
    destruct (pfind (snd s) (pn_store (names x)) l); cbn; exact I || reflexivity.
  Qed.

  (* reading "call" from, or calling, null/undefined is a TypeError *)
  Definition nullish_callee_throws : Prop :=
    forall f k t args s, nullish f = true ->
      w_get w f k s = ([], s, Throw terr) /\ w_call w f t args s = ([], s, Throw terr).

  Lemma binsem_lop op (a b : M S out) m s :
    binsem U w (lop_bin op) a b m s
    = bind a (fun r => if lop_short op (valof r) then ret (ov (valof r))
                       else bind b (fun r2 => ret (ov (valof r2)))) m s.
  Proof.
    destruct op; cbn [lop_bin binsem lop_short]; try reflexivity;
      apply bind_cong; intros r m1 s1; [destruct (nullish (valof r)) | destruct (truthy (valof r))]; reflexivity.
  Qed.

  (* t.#x(args)   =>  __privateGet(_n = t, _x).call(_n, args) *)
  Theorem private_call_sound F t x args n :
    (pn_kind (names x) = KMethod \/ (args = [] /\ nullish_callee_throws)) ->
    ~ In n (tmps t) -> ~ In n (flat_map tmps args) ->
    forall m s, observe (pev (fst (plower names F (PCall t x args) n)) m s)
              = observe (nev (PCall t x args) m s).
  Proof.
    intros Hk Hnt Hna. cbn [plower]. destruct (capture_mut t n) as [[f a] n1] eqn:Hc. cbn [fst].
    set (L := fun k : Z => k = n).
    apply (simM_observe S L veq); [intros ? ? ? H; exact H |].
    assert (Hdt : forall k, L k -> ~ In k (tmps t)) by (intros k ->; exact Hnt).
    assert (Hda : forall k, L k -> ~ In k (flat_map tmps args)) by (intros k ->; exact Hna).
    cbn [peval neval]. eapply simM_head_l; [intros ? ?; apply peval_get |]. cbn [peval].
    apply simM_assoc_l. eapply simM_bind.
    { apply (piece_first_mut L (fun _ => True) t n f a n1 Hc eq_refl Hdt (stable_true L)). auto. }
    intros x0 y0. apply simM_pure. intro E. rewrite E.
    apply simM_assoc_l. eapply simM_bind.
    { apply simM_post_right with (Q := fun b => pn_kind (names x) = KMethod -> nullish b = false).
      - apply simM_lift.
      - intros m0 s0. unfold lift. pose proof (nget_method_nonnull x (valof y0) s0) as Q.
        destruct (nget x (valof y0) s0) as [[t1 s1] [b | e]]; [| exact I]. intro Hm. exact (Q Hm). }
    intros fv fv0.
    apply simM_pure. intro Hq. apply simM_pure. intros ->.
    apply simM_ret_l. cbn [valof ov].
    destruct (nullish fv0) eqn:Hnf.
    - destruct Hk as [Hm | [-> Hw]]; [discriminate (Hq Hm) |].
      apply simM_both_throw with (v := terr); intros m0 s0; unfold bind, lift; cbn [eval_list ret].
      + rewrite (proj1 (Hw fv0 (VStr name_call) VUndef [] s0 Hnf)). reflexivity.
      + rewrite (proj2 (Hw fv0 (VStr name_call) (valof y0) [] s0 Hnf)). reflexivity.
    - apply (simM_left_getcall _ _ _ fv0 _ _ Hcall Hnf). intros _.
      eapply simM_left_pure.
      { intros m0 s0 [Hr _]. apply (piece_again_mut t n f a n1 _ m0 s0 Hc Hr). }
      cbn [valof ov].
      apply simM_both_evl; [exact Hda | |].
      { apply stable_and; [apply rempm_stable; reflexivity | apply stable_true]. }
      intro vs.
      apply simM_both_lift. intro u. apply simM_ret. reflexivity.
  Qed.

  Definition strict_op (op : binop) : Prop := op = BSub \/ op = BPow.

  Lemma peval_arith F op cur v m s :
    strict_op op ->
    pev (match op with
         | BPow => if f_exp F then HPow cur (PE v) else HBin BPow cur (PE v)
         | _ => HBin op cur (PE v)
         end) m s
    = bind (pev cur) (fun r => bind (ev v) (fun r2 =>
        bind (lift (w_binop w op (valof r) (valof r2))) (fun z => ret (ov z)))) m s.
  Proof. intros [-> | ->]; [reflexivity |]. destruct (f_exp F); reflexivity. Qed.

  (* t.#x -= v   =>  __privateSet(_n = t, _x, __privateGet(_n, _x) - v)
     t.#x **= v  =>  __privateSet(_n = t, _x, __pow(__privateGet(_n, _x), v)) *)
  Theorem private_arith_assign_sound F op t x v n :
    strict_op op -> cap_ok S w t ->
    ~ In n (tmps t) -> ~ In n (tmps v) ->
    forall m s, observe (pev (fst (plower names F (PArith op t x v) n)) m s)
              = observe (nev (PArith op t x v) m s).
  Proof.
    intros Hop Hok Hnt Hnv. cbn [plower]. destruct (capture t n) as [[f a] n1] eqn:Hc. cbn [fst].
    set (L := fun k : Z => k = n).
    apply (simM_observe S L veq); [intros ? ? ? H; exact H |].
    assert (Hdt : forall k, L k -> ~ In k (tmps t)) by (intros k ->; exact Hnt).
    assert (Hdv : forall k, L k -> ~ In k (tmps v)) by (intros k ->; exact Hnv).
    eapply simM_ext; [intros ? ?; apply peval_set | intros ? ?; reflexivity |].
    cbn [peval neval].
    eapply simM_bind.
    { apply (piece_first S w th L (fun _ => True) t n f a n1 Hc Hok eq_refl Hdt (stable_true L)). auto. }
    intros x0 y0. apply simM_pure. intro E. rewrite E.
    eapply simM_head_l; [intros ? ?; apply (peval_arith F op _ v), Hop |].
    apply simM_assoc_l. eapply simM_head_l; [intros ? ?; apply peval_get |]. cbn [peval].
    apply simM_assoc_l.
    eapply simM_left_pure.
    { intros m0 s0 [Hr _]. apply (piece_again S w th t n f a n1 _ m0 s0 Hc Hr). }
    cbn [valof ov].
    apply simM_assoc_l. apply simM_both_lift. intro lv. apply simM_ret_l. cbn [valof ov].
    apply simM_assoc_l. apply simM_both_ev; [exact Hdv | |].
    { apply stable_and; [apply remp_stable; reflexivity | apply stable_true]. }
    intro r.
    apply simM_assoc_l. apply simM_both_lift. intro z. apply simM_ret_l. cbn [valof ov].
    apply simM_both_lift. intro u. apply simM_ret. reflexivity.
  Qed.

  (* the store half of t.#x op= v: the object is read back from where the capture left it *)
  Lemma plog_store (L : tpred) (Pre : tstore -> Prop) t n f a n1 x v o :
    capture t n = (f, a, n1) -> (forall k, L k -> ~ In k (tmps v)) -> stable L Pre ->
    (forall m, Pre m -> remp S w th t n o m) ->
    simM L Pre veq
      (bind (pev (lowerPrivateSet names (PE a) x (PE v))) (fun r2 => ret (ov (valof r2))))
      (bind (ev v) (fun rv => bind (lift (nset x o (valof rv))) (fun _ => ret (ov (valof rv))))).
  Proof.
    intros Hc Hdv Hst Hrem.
    eapply simM_head_l; [intros ? ?; apply peval_set |]. cbn [peval].
    apply simM_assoc_l. eapply simM_left_pure.
    { intros m s Hp. apply (piece_again S w th t n f a n1 _ m s Hc (Hrem m Hp)). }
    cbn [valof ov].
    apply simM_assoc_l. apply simM_both_ev; [exact Hdv | exact Hst |]. intro r.
    apply simM_assoc_l. apply simM_both_lift. intro u. apply simM_ret_l. apply simM_ret. reflexivity.
  Qed.

  (* __privateGet(f, _x) op __privateSet(a, _x, v), the operator of the source left in place *)
  Lemma plog_binop (L : tpred) op t x v n f a n1 :
    capture t n = (f, a, n1) -> cap_ok S w t -> L n ->
    (forall k, L k -> ~ In k (tmps t)) -> (forall k, L k -> ~ In k (tmps v)) ->
    forall m s, observe (pev (HBin (lop_bin op) (lowerPrivateGet names (PE f) x)
                                   (lowerPrivateSet names (PE a) x (PE v))) m s)
              = observe (nev (PLog op t x v) m s).
  Proof.
    intros Hc Hok Ln Hdt Hdv.
    apply (simM_observe S L veq); [intros ? ? ? H; exact H |].
    cbn [peval neval]. eapply simM_ext; [intros; apply binsem_lop | intros; reflexivity |].
    eapply simM_head_l; [intros ? ?; apply peval_get |]. cbn [peval]. apply simM_assoc_l. eapply simM_bind.
    { apply (piece_first S w th L (fun _ => True) t n f a n1 Hc Hok Ln Hdt (stable_true L)). auto. }
    intros x0 y0. apply simM_pure. intro E. rewrite E.
    apply simM_assoc_l. apply simM_both_lift. intro lv. apply simM_ret_l. cbn [valof ov].
    destruct (lop_short op lv); [apply simM_ret; reflexivity |].
    apply (plog_store L _ t n f a n1 x v (valof y0) Hc Hdv).
    - apply stable_and; [apply remp_stable; exact Ln | apply stable_true].
    - intros m0 [H _]. exact H.
  Qed.

  (* t.#x ||= v  =>  __privateGet(_n = t, _x) || __privateSet(_n, _x, v)     (&&=, ??= alike)
     t.#x ??= v  =>  (_k = __privateGet(_n = t, _x)) != null ? _k : __privateSet(_n, _x, v)
                     when ?? itself has to be lowered *)
  Theorem private_logical_assign_sound F op t x v n :
    cap_ok S w t ->
    (forall k, n <= k < n + 2 -> ~ In k (tmps t) /\ ~ In k (tmps v)) ->
    forall m s, observe (pev (fst (plower names F (PLog op t x v) n)) m s)
              = observe (nev (PLog op t x v) m s).
  Proof.
    intros Hok Hfr. cbn [plower]. destruct (capture t n) as [[f a] n1] eqn:Hc.
    set (L := fun k : Z => n <= k < n + 2).
    assert (Hdt : forall k, L k -> ~ In k (tmps t)) by (intros k Hk; apply (Hfr k Hk)).
    assert (Hdv : forall k, L k -> ~ In k (tmps v)) by (intros k Hk; apply (Hfr k Hk)).
    pose proof (capture_next t n f a n1 Hc) as Hn1.
    assert (Ln : L n) by (unfold L; lia).
    assert (Ln1 : L n1) by (unfold L; destruct (is_inline_value t); lia).
    pose proof (plog_binop L op t x v n f a n1 Hc Hok Ln Hdt Hdv) as Hbin.
    destruct op; try exact Hbin.
    destruct (f_nullish F); [| exact Hbin].
    cbn [fst].
    apply (simM_observe S L veq); [intros ? ? ? H; exact H |].
    cbn [peval neval lop_short].
    apply simM_assoc_l. apply simM_assoc_l. eapply simM_head_l; [intros ? ?; apply peval_get |]. cbn [peval].
    apply simM_assoc_l. eapply simM_bind.
    { apply (piece_first S w th L (fun _ => True) t n f a n1 Hc Hok Ln Hdt (stable_true L)). auto. }
    intros x0 y0. apply simM_pure. intro E. rewrite E.
    apply simM_assoc_l. apply simM_both_lift. intro lv0. apply simM_ret_l. cbn [valof ov].
    eapply simM_left_write with (Pre' := fun m0 => tget m0 n1 = lv0 /\ remp S w th t n (valof y0) m0).
    { exact Ln1. }
    { intros m0 [Hr _]. split; [apply tget_tset_same |].
      apply remp_tset'; [| exact Hr]. intro Hi. rewrite Hi in Hn1. lia. }
    apply simM_ret_l. cbn [valof ov truthy].
    destruct (nullish lv0); cbn [negb].
    - apply (plog_store L _ t n f a n1 x v (valof y0) Hc Hdv).
      + apply stable_and; [apply stable_tget; exact Ln1 | apply remp_stable; exact Ln].
      + intros m0 [_ H]. exact H.
    - eapply simM_left_pure.
      { intros m0 s0 [Ht _]. cbn [eval]. rewrite Ht. reflexivity. }
      apply simM_ret. intros; reflexivity.
  Qed.

  Definition pform_ok (f : pform) (n : Z) : Prop :=
    match f with
    | PGet _ _ | PSet _ _ _ | PIn _ _ | PTarget _ _ => True
    | PCall t x args =>
        (pn_kind (names x) = KMethod \/ (args = [] /\ nullish_callee_throws)) /\
        ~ In n (tmps t) /\ ~ In n (flat_map tmps args)
    | PArith op t x v => strict_op op /\ cap_ok S w t /\ ~ In n (tmps t) /\ ~ In n (tmps v)
    | PLog _ t x v => cap_ok S w t /\ (forall k, n <= k < n + 2 -> ~ In k (tmps t) /\ ~ In k (tmps v))
    end.

  Theorem plower_sound F f n :
    pform_ok f n ->
    forall m s, observe (pev (fst (plower names F f n)) m s) = observe (nev f m s).
  Proof.
    destruct f as [t x | t x v | x t | t x args | op t x v | op t x v | t x]; cbn [pform_ok].
    - intros _ m s. rewrite private_get_sound. reflexivity.
    - intros _ m s. rewrite private_set_sound. reflexivity.
    - intros _ m s. rewrite private_in_sound. reflexivity.
    - intros (H1 & H2 & H3). apply private_call_sound; assumption.
    - intros (H1 & H2 & H3 & H4). apply private_arith_assign_sound; assumption.
    - intros (H1 & H2). apply private_logical_assign_sound; assumption.
    - intros _ m s. cbn [plower]. destruct (pn_kind (names x)); reflexivity.
  Qed.

  (* Instance initialisation: the constructor prologue esbuild emits
         __privateAdd(this, _C_instances); __privateAdd(this, _x, init); ...
     against InitializeInstanceElements (brand first, then the fields in order,
     each initialiser evaluated right before its PrivateFieldAdd) *)
  Inductive pinit := IBrand (st : Z) | IField (x : Z) (init : expr).

  Definition pinit_ok (i : pinit) : Prop :=
    match i with
    | IBrand st => isset st = true
    | IField x _ => pn_kind (names x) = KField
    end.

  Fixpoint ninit (l : list pinit) : M S unit :=
    match l with
    | [] => ret tt
    | IBrand st :: r => bind (lift (nadd st th (VBool true))) (fun _ => ninit r)
    | IField x e :: r => bind (ev e) (fun v =>
        bind (lift (nadd (pn_store (names x)) th (valof v))) (fun _ => ninit r))
    end.

  Fixpoint hinit (l : list pinit) : M S unit :=
    match l with
    | [] => ret tt
    | IBrand st :: r => bind (ev EThis) (fun o => bind (lift (hadd st (valof o) VUndef)) (fun _ => hinit r))
    | IField x e :: r => bind (ev EThis) (fun o => bind (ev e) (fun v =>
        bind (lift (hadd (pn_store (names x)) (valof o) (valof v))) (fun _ => hinit r)))
    end.

  Theorem private_add_sound l :
    Forall pinit_ok l -> forall m s, hinit l m s = ninit l m s.
  Proof.
    induction 1 as [| i r Hi Hr IH]; intros m s; [reflexivity |].
    destruct i as [st | x e]; cbn [hinit ninit pinit_ok] in *.
    - cbn [eval]. rewrite bind_ret_l. cbn [valof ov].
      etransitivity; [apply bind_cong; intros; apply IH |].
      apply bind_cong_l. intros m1 s1. apply lift_cong. intro s2. apply hadd_native_brand, Hi.
    - cbn [eval]. rewrite bind_ret_l. cbn [valof ov].
      apply bind_cong. intros v m1 s1.
      etransitivity; [apply bind_cong; intros; apply IH |].
      apply bind_cong_l. intros m2 s2. apply lift_cong. intro s3. apply hadd_native_field, Hi.
  Qed.

  (* t.#x as an assignment target: [t.#x = d] = ..., for (t.#x of ...)
     =>  __privateWrapper(t, _x [, x_set])._ : the reference is evaluated (t runs),
     anything may happen in between (default value, other elements, the iterator),
     then the store is PrivateSet *)
  Notation ptg := (ptarget w th terr fobj isset).
  Notation ntg := (ntarget w th terr names fobj).

  Lemma hset_put x o v s :
    wbind U (hsetK x o v) (fun _ => wret U tt) s = nset x o v s.
  Proof.
    rewrite (wbind_cong_l _ _ _ _ (hsetK_native x o v s)).
    unfold wbind, wret. destruct (nset x o v s) as [[t1 s1] [[] | e]]; cbn; rewrite ?app_nil_r; reflexivity.
  Qed.

  Lemma ptarget_lower F t x n m s :
    ptg (fst (plower names F (PTarget t x) n)) m s
    = bind (ev t) (fun r => ret (fun v => wbind U (hsetK x (valof r) v) (fun _ => wret U tt))) m s.
  Proof. cbn [plower fst]. unfold hsetK. destruct (pn_kind (names x)); reflexivity. Qed.

  Theorem private_target_sound F t x n (mid : M S unit) v m s :
    bind (ptg (fst (plower names F (PTarget t x) n))) (fun k => bind mid (fun _ => lift (k v))) m s
    = bind (ntg (PTarget t x)) (fun k => bind mid (fun _ => lift (k v))) m s.
  Proof.
    rewrite (bind_cong_l _ _ _ m s (ptarget_lower F t x n)). cbn [ntarget].
    rewrite !bind_assoc. apply bind_cong. intros r m1 s1. rewrite !bind_ret_l.
    apply bind_cong. intros [] m2 s2. apply lift_cong. intro s3. apply hset_put.
  Qed.
End PrivProofs.

(* A concrete world for the refutation witnesses and the non-vacuity examples:
   user state = the object variable 0 points to; TypeError = VStr 99
     variable 0      the object (VObj state);  variable 3: a function;
     variable 7      constant binding of object 1
     name 1          field #f, storage 10            (object 1 has #f = undefined)
     name 2          accessor pair #p, brand 11, getter function 200, setter 201
     name 4          method #m, brand 11, function 202
     calling 200     makes variable 0 point to object 2 and returns null (event 8)
     calling 201     event 9 with this and the value
     other calls     event 4;  "call" of a non-nullish value: pure;
     get or call on null/undefined: TypeError *)
Definition pterr : val := VStr 99.
Definition pwit_world : world (Z * pst) := mkWorld
  (fun x s => if x =? 0 then ([], s, Ok (VObj (fst s)))
              else if x =? 7 then ([], s, Ok (VObj 1))
              else ([], s, Ok (VObj 100)))
  (fun x v s => ([(5, [VNum x; v])], s, Ok tt))
  (fun b k s => if nullish b then ([], s, Throw pterr)
                else match k with
                     | VStr 0 => ([], s, Ok (VObj 77))
                     | _ => ([(2, [b; k])], s, Ok (VObj 50))
                     end)
  (fun b k v s => ([(3, [b; k; v])], s, Ok tt))
  (fun b k s => ([(6, [b; k])], s, Ok (VBool true)))
  (fun f t args s =>
     if nullish f then ([], s, Throw pterr)
     else match f with
          | VObj 200 => ([(8, [t])], (2, snd s), Ok VNull)
          | VObj 201 => ([(9, t :: args)], s, Ok VUndef)
          | _ => ([(4, f :: t :: args)], s, Ok (VNum 7))
          end)
  (fun op a b s => ([(7, [a; b])], s, Ok (VNum 8))).

Definition pwit_names (x : Z) : pname :=
  if x =? 2 then mkPname KGetSet 11 0 20 21
  else if x =? 4 then mkPname KMethod 11 22 0 0
  else mkPname KField 10 0 0 0.
Definition pwit_fobj (i : Z) : Z := 180 + i.
Definition pwit_isset (st : Z) : bool := st =? 11.
Definition pwit_state : Z * pst := (1, [(10, 1, VUndef); (11, 1, VBool true); (11, 2, VBool true)]).

Definition pwit_lowered (f : pform) :=
  observe (peval pwit_world VUndef pterr pwit_fobj pwit_isset (fst (plower pwit_names all_features f 0)) [] pwit_state).
Definition pwit_native (f : pform) :=
  observe (neval pwit_world VUndef pterr pwit_names pwit_fobj f [] pwit_state).

(* F13  o.#f(g())  with #f undefined *)
Definition f13_src := PCall (EId 0) 1 [ECall (EId 3) [] OcNone].
(* F2c  o.#p ??= 5  where the getter of #p reassigns o *)
Definition f2c_src := PLog LNullish (EId 0) 2 (ENum 5).

Lemma refuted_F13 : pwit_lowered f13_src <> pwit_native f13_src.
Proof. vm_compute. intro H. discriminate H. Qed.
Lemma refuted_F2c : pwit_lowered f2c_src <> pwit_native f2c_src.
Proof. vm_compute. intro H. discriminate H. Qed.

Lemma pwit_call_intact : call_intact (Z * pst) pwit_world.
Proof.
  intros fv s Hn. cbn. rewrite Hn. exists (VObj 77). reflexivity.
Qed.
Lemma pwit_store : forall x, pwit_isset (pn_store (pwit_names x)) =
  match pn_kind (pwit_names x) with KField => false | _ => true end.
Proof.
  intro x. unfold pwit_names. destruct (x =? 2); [reflexivity |]. destruct (x =? 4); reflexivity.
Qed.
Lemma pwit_nullish_throws : nullish_callee_throws Z pwit_world pterr.
Proof. intros f k t args s Hn. cbn. rewrite Hn. split; reflexivity. Qed.
