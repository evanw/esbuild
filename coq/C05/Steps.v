(* Per-step equivalence theorems in full generality: every operand may be
   captured in a temporary or be one of the expressions esbuild duplicates
   instead (literals, this, identifiers); identifiers must then be constant
   bindings (the refutation witnesses F1-F3 are exactly the non-constant ones). *)
From V Require Import Common.Base C05.Syntax C05.Sem C05.Lower C05.Frame C05.SimLogic.

Section Steps.
  Variable S : Type.
  Variable w : world S.
  Variable th : val.
  Notation ev := (eval w th).
  Notation simM := (simM S).

  (* x is a constant binding: reading it never has an effect and always gives
     the same outcome (a value, or e.g. a ReferenceError) *)
  Definition const_var (x : Z) : Prop := exists r, forall s, w_getvar w x s = ([], s, r).

  Definition dupable (t : expr) : Prop :=
    match t with
    | ENull | EUndef | EThis | EBool _ | ENum _ | EStr _ => True
    | EId x => const_var x
    | _ => False
    end.

  (* t is either captured in a temporary or may be evaluated twice *)
  Definition cap_ok (t : expr) : Prop := is_inline_value t = false \/ dupable t.

  Lemma dup_const t : is_inline_value t = true -> dupable t ->
    exists c : res val, forall m s,
      ev t m s = ([], m, s, match c with Ok v => Ok (ov v) | Throw x => Throw x end).
  Proof.
    destruct t; cbn; intros Hi Hd; try discriminate Hi; try contradiction;
      try solve [eexists (Ok _); intros; reflexivity].
    destruct Hd as [r Hr]. exists r. intros m s. unfold bind, lift, ret. rewrite Hr.
    destruct r; reflexivity.
  Qed.

  (* what the store (or the constancy of t) remembers about the value of t *)
  Definition remp (t : expr) (n : Z) (v : val) (m : tstore) : Prop :=
    if is_inline_value t then (forall m' s', ev t m' s' = ([], m', s', Ok (ov v))) else tget m n = v.

  Lemma remp_stable (L : tpred) t n v : L n -> stable L (remp t n v).
  Proof.
    intros Hn. unfold remp. destruct (is_inline_value t).
    - apply stable_const.
    - apply stable_tget, Hn.
  Qed.

  Lemma remp_tset' t n v m k x : (is_inline_value t = false -> k <> n) -> remp t n v m -> remp t n v (tset m k x).
  Proof.
    unfold remp. destruct (is_inline_value t); intros Hk H; [exact H |].
    rewrite tget_tset_other by (apply Hk; reflexivity). exact H.
  Qed.

  Lemma remp_tset t n v m k x : k <> n -> remp t n v m -> remp t n v (tset m k x).
  Proof. intro Hk. apply remp_tset'. intros _. exact Hk. Qed.

  Lemma piece_first (L : tpred) (Pre : tstore -> Prop) t n f a n1 :
    capture t n = (f, a, n1) -> cap_ok t -> L n ->
    (forall k, L k -> ~ In k (tmps t)) -> stable L Pre ->
    (forall m v, Pre m -> Pre (tset m n v)) ->
    simM L Pre (fun m x y => valof x = valof y /\ remp t n (valof y) m /\ Pre m) (ev f) (ev t).
  Proof.
    unfold capture, remp. intros Hc Hok Hn Hd Hst Hset.
    destruct (is_inline_value t) eqn:Hi.
    - injection Hc as <- <- <-.
      destruct Hok as [Hok | Hdup]; [congruence |].
      destruct (dup_const t Hi Hdup) as [c Hc].
      intros m m0 s Hs Hp. rewrite !Hc.
      split; [reflexivity |]. split; [reflexivity |]. split; [exact Hs |].
      destruct c as [v | x]; [| reflexivity].
      split; [reflexivity |]. split; [| exact Hp]. intros m' s'. apply Hc.
    - injection Hc as <- <- <-.
      intros m m0 s Hs Hp. cbn [eval]. unfold bind.
      pose proof (simM_fresh S w th L Pre t Hd Hst m m0 s Hs Hp) as Q.
      destruct (ev t m s) as [[[t1 m1] s1] r1], (ev t m0 s) as [[[t2 m2] s2] r2].
      destruct Q as (-> & -> & Hs1 & Hr).
      destruct r1 as [x | v], r2 as [y | v0]; try contradiction.
      + destruct Hr as [-> Hp1]. rewrite app_nil_r.
        repeat split; auto.
        * apply simL_tset; assumption.
        * cbn. apply tget_tset_same.
      + auto.
  Qed.

  Lemma piece_again t n f a n1 v m s :
    capture t n = (f, a, n1) -> remp t n v m -> ev a m s = ([], m, s, Ok (ov v)).
  Proof.
    unfold capture, remp. destruct (is_inline_value t); intros Hc H; injection Hc as <- <- <-.
    - apply H.
    - cbn. rewrite H. reflexivity.
  Qed.

  Lemma simM_pure {A B} (L : tpred) (P : Prop) (Pre : tstore -> Prop) (Post : tstore -> A -> B -> Prop) cl cn :
    (P -> simM L Pre Post cl cn) -> simM L (fun m => P /\ Pre m) Post cl cn.
  Proof. intros H m m0 s Hs [p Hp]. apply (H p); assumption. Qed.

  Definition veq (m : tstore) (a b : out) : Prop := valof a = valof b.

  Lemma veq_observe (L : tpred) cl cn :
    simM L (fun _ => True) veq cl cn -> forall m s, observe (cl m s) = observe (cn m s).
  Proof. apply simM_observe. intros m a b H. exact H. Qed.

  Theorem lowerNullish_general a b n :
    cap_ok a -> ~ In n (tmps a) -> ~ In n (tmps b) ->
    forall m s, observe (ev (fst (lowerNullishCoalescing a b n)) m s) = observe (ev (EBin BNullish a b) m s).
  Proof.
    intros Hok Hna Hnb. unfold lowerNullishCoalescing.
    destruct (capture a n) as [[f ag] n1] eqn:Hc. cbn [fst].
    set (L := fun k : Z => k = n).
    apply (veq_observe L).
    assert (Hda : forall k, L k -> ~ In k (tmps a)) by (intros k ->; exact Hna).
    assert (Hdb : forall k, L k -> ~ In k (tmps b)) by (intros k ->; exact Hnb).
    cbn [eval].
    apply simM_assoc_l. eapply simM_bind.
    - apply (piece_first L (fun _ => True) a n f ag n1 Hc Hok eq_refl Hda (stable_true L)). auto.
    - intros x y. apply simM_ret_l. apply simM_pure. intro E. cbn [valof ov]. rewrite E.
      destruct (nullish (valof y)); cbn [xorb truthy].
      + eapply simM_bind.
        * apply simM_fresh; [exact Hdb |].
          apply stable_and; [apply remp_stable; reflexivity | apply stable_true].
        * intros r r0. apply simM_ret. intros m0 [-> _]. reflexivity.
      + eapply simM_left_pure.
        * intros m0 s0 [Hr _]. apply (piece_again a n f ag n1 _ m0 s0 Hc Hr).
        * cbn beta. apply simM_ret. intros; reflexivity.
  Qed.

  (* The three short-circuit operators with their assignment forms.  With
     left value v, [rhs_runs bop v] says whether the right operand is evaluated
     (and, in the assignment form, stored): the one thing the three differ in. *)
  Definition pairop (bop : binop) (aop : asgop) : Prop :=
    (bop = BOr /\ aop = AOr) \/ (bop = BAnd /\ aop = AAnd) \/ (bop = BNullish /\ aop = ANullish).

  Definition rhs_runs (bop : binop) (v : val) : bool :=
    match bop with BOr => negb (truthy v) | BAnd => truthy v | _ => nullish v end.

  Lemma eval_short bop aop a b : pairop bop aop -> forall m s,
    ev (EBin bop a b) m s =
    bind (ev a) (fun r => if rhs_runs bop (valof r) then bind (ev b) (fun r2 => ret (ov (valof r2)))
                          else ret (ov (valof r))) m s.
  Proof.
    intros [[-> ->] | [[-> ->] | [-> ->]]] m s; cbn [eval rhs_runs]; try reflexivity.
    unfold bind. destruct (ev a m s) as [[[t1 m1] s1] [r | x]]; [| reflexivity].
    destruct (truthy (valof r)); reflexivity.
  Qed.

  Lemma opasg_short bop aop lval (e : M S out) (st : val -> M S unit) : pairop bop aop ->
    opasg S w aop lval e st =
    if rhs_runs bop lval then bind e (fun r => bind (st (valof r)) (fun _ => ret (ov (valof r))))
    else ret (ov lval).
  Proof.
    intros [[-> ->] | [[-> ->] | [-> ->]]]; cbn [opasg rhs_runs]; try reflexivity.
    destruct (truthy lval); reflexivity.
  Qed.

  (* the temporaries n .. n+c-1 *)
  Definition Ln (n : Z) (c : Z) : tpred := fun k => n <= k < n + c.

  Lemma capture_next t n f a n1 : capture t n = (f, a, n1) ->
    n1 = (if is_inline_value t then n else n + 1).
  Proof. unfold capture. destruct (is_inline_value t); intro H; injection H as <- <- <-; reflexivity. Qed.

  Lemma capture_window t n f a n1 : capture t n = (f, a, n1) ->
    Ln n 2 n /\ Ln n 2 n1 /\ forall y m x, remp t n y m -> remp t n y (tset m n1 x).
  Proof.
    intros Hc. pose proof (capture_next t n f a n1 Hc) as Hn1. unfold Ln.
    split; [lia |]. split; [destruct (is_inline_value t); lia |].
    intros y m x. apply remp_tset'. intro Hi. rewrite Hi in Hn1. lia.
  Qed.

  Definition below (n : Z) (e : expr) : Prop := forall j, In j (tmps e) -> j < n.

  Definition valid_target (tgt : expr) : Prop :=
    match tgt with
    | EId _ => True
    | EDot t _ OcNone => cap_ok t
    | EIndex t k OcNone => cap_ok t /\ cap_ok k
    | _ => False
    end.

  Lemma below_not n e j : below n e -> n <= j -> ~ In j (tmps e).
  Proof. intros H Hj Hin. specialize (H j Hin). lia. Qed.

  Lemma below_index n t k o : below n (EIndex t k o) -> below n t /\ below n k.
  Proof. intro H. split; intros j Hj; apply H; cbn; apply in_app_iff; auto. Qed.

  Lemma capture_tmps t n f a n1 : capture t n = (f, a, n1) -> below n t ->
    below n1 f /\ below n1 a /\ n <= n1 <= n + 1.
  Proof.
    unfold capture. destruct (is_inline_value t); intros H Hb; injection H as <- <- <-.
    - repeat split; auto; lia.
    - repeat split; try lia.
      + intros j Hj. cbn in Hj. destruct Hj as [<- | Hj]; [lia | specialize (Hb j Hj); lia].
      + intros j Hj. cbn in Hj. destruct Hj as [<- | []]. lia.
  Qed.

  (* A compound assignment to a target T (an identifier or a member access)
     is lowered to an expression over two references to it: A, evaluated first,
     captures object and key; B reads the captures.  [loc] is what a target
     denotes once object and key are evaluated, in this order: how it is read
     and written.  ToPropertyKey happens inside the world's get and set, so
     both forms apply it to the same key value as the native assignment does.
     The two forms of every lowering below agree because A evaluates to the
     location of T and leaves the store remembering it [refs_sim], and B then
     denotes the same location without effect [again_with_loc].  An identifier
     is read once and written once by both forms: no capture, no side
     condition. *)
  Record loc := mkLoc {
    l_get : S -> list event * S * res val;
    l_set : val -> S -> list event * S * res unit }.
  Definition loc_var (x : Z) : loc := mkLoc (w_getvar w x) (w_setvar w x).
  Definition loc_prop (b k : val) : loc := mkLoc (w_get w b k) (w_set w b k).

  Definition with_loc {B} (T : expr) (k : loc -> M S B) : M S B :=
    match T with
    | EDot t name _ => bind (ev t) (fun r => k (loc_prop (valof r) (VStr name)))
    | EIndex t key _ => bind (ev t) (fun r => bind (ev key) (fun kr => k (loc_prop (valof r) (valof kr))))
    | EId x => k (loc_var x)
    | _ => bind (ev T) (fun _ => k (loc_var 0))      (* not a target *)
    end.

  Lemma opasg_loc op T v : valid_target T ->
    ev (EOpAsg op T v) =
    with_loc T (fun l => bind (lift (l_get l)) (fun lval => opasg S w op lval (ev v) (fun x => lift (l_set l x)))).
  Proof. intro H. destruct T; try contradiction; try reflexivity; destruct o; try contradiction; reflexivity. Qed.

  (* the two references lowerAssignmentOperator hands to its callback [lao_refs],
     and how many temporaries they may take *)
  Definition refs (T : expr) (n : Z) : expr * expr * Z :=
    match T with
    | EDot t name OcNone =>
        let '(f, a, n1) := capture t n in (EDot f name OcNone, EDot a name OcNone, n1)
    | EIndex t k OcNone =>
        let '(tf, ta, n1) := capture t n in
        let '(kf, ka, n2) := capture k n1 in (EIndex tf kf OcNone, EIndex ta ka OcNone, n2)
    | _ => (T, T, n)
    end.

  Definition width (T : expr) : Z := match T with EDot _ _ _ => 1 | EIndex _ _ _ => 2 | _ => 0 end.

  Lemma refs_ind (P : expr -> Z -> expr -> expr -> Z -> Prop) :
    (forall x n, P (EId x) n (EId x) (EId x) n) ->
    (forall t name n f a n1, capture t n = (f, a, n1) -> cap_ok t ->
       P (EDot t name OcNone) n (EDot f name OcNone) (EDot a name OcNone) n1) ->
    (forall t k n f a n1 kf ka n2, capture t n = (f, a, n1) -> capture k n1 = (kf, ka, n2) -> cap_ok t -> cap_ok k ->
       P (EIndex t k OcNone) n (EIndex f kf OcNone) (EIndex a ka OcNone) n2) ->
    forall T n A B n', refs T n = (A, B, n') -> valid_target T -> P T n A B n'.
  Proof.
    intros Hid Hdot Hidx T n A B n' Hr H.
    destruct T; try contradiction; [| destruct o; try contradiction; cbn [refs] in Hr ..].
    - injection Hr as <- <- <-. apply Hid.
    - destruct (capture T n) as [[f a] n1] eqn:Hc. injection Hr as <- <- <-. apply Hdot; assumption.
    - destruct (capture T1 n) as [[f a] n1] eqn:Hc. destruct (capture T2 n1) as [[kf ka] n2] eqn:Hck.
      injection Hr as <- <- <-. destruct H. apply (Hidx T1 T2 n f a n1 kf ka n2 Hc Hck); assumption.
  Qed.

  (* an identifier or a member access outside optional chains (tgt_shape of
     Visit.v, which the source fragments are stated with, is the same predicate) *)
  Definition is_ref (R : expr) : Prop :=
    match R with EId _ | EDot _ _ OcNone | EIndex _ _ OcNone => True | _ => False end.

  Lemma valid_is_ref T : valid_target T -> is_ref T.
  Proof. destruct T; try contradiction; try (intros _; exact I); destruct o; try contradiction; intros _; exact I. Qed.

  Lemma lao_refs T cb n : is_ref T ->
    lowerAssignmentOperator T cb n = let '(A, B, n') := refs T n in cb A B n'.
  Proof.
    intro H. destruct T; try contradiction; try reflexivity; destruct o; try contradiction;
      cbn [lowerAssignmentOperator refs].
    - destruct (capture T n) as [[f a] n1]. reflexivity.
    - destruct (capture T1 n) as [[f a] n1]. destruct (capture T2 n1) as [[kf ka] n2]. reflexivity.
  Qed.

  Lemma refs_is_ref T n A B n' : refs T n = (A, B, n') -> valid_target T -> is_ref A /\ is_ref B.
  Proof. revert T n A B n'. refine (refs_ind _ _ _ _); intros; split; exact I. Qed.

  Lemma assign_loc R v : is_ref R ->
    ev (EAssign R v) =
    with_loc R (fun l => bind (ev v) (fun r => bind (lift (l_set l (valof r))) (fun _ => ret (ov (valof r))))).
  Proof. intro H. destruct R; try contradiction; try reflexivity; destruct o; try contradiction; reflexivity. Qed.

  Lemma read_loc {X} R (K : val -> M S X) m s : is_ref R ->
    bind (ev R) (fun r => K (valof r)) m s = with_loc R (fun l => bind (lift (l_get l)) K) m s.
  Proof.
    intro H. destruct R; try contradiction; [| destruct o; try contradiction ..]; cbn [eval with_loc access].
    - rewrite bind_assoc. apply bind_cong. intros. apply bind_ret_l.
    - rewrite bind_assoc. apply bind_cong. intros. rewrite bind_assoc. apply bind_cong. intros. apply bind_ret_l.
    - rewrite bind_assoc. apply bind_cong. intros. rewrite bind_assoc. apply bind_cong. intros.
      rewrite bind_assoc. apply bind_cong. intros. apply bind_ret_l.
  Qed.

  (* In store m the later reference to T denotes l and reading it has no effect:
     the store (or the constancy of an operand) remembers object and key. *)
  Definition again (T : expr) (n : Z) (l : loc) (m : tstore) : Prop :=
    match T with
    | EDot t name _ => exists b, l = loc_prop b (VStr name) /\ remp t n b m
    | EIndex t k _ =>
        exists b kv, l = loc_prop b kv /\ remp t n b m /\ remp k (if is_inline_value t then n else n + 1) kv m
    | EId x => l = loc_var x
    | _ => True
    end.

  Lemma again_stable T n l : stable (Ln n (width T)) (again T n l).
  Proof.
    destruct T; try (intros m m' _ H; exact H); intros m m' Hm.
    - assert (H0 : Ln n 1 n) by (unfold Ln; lia).
      intros (b & E & Hb). exists b. split; [exact E |]. exact (remp_stable _ T n b H0 m m' Hm Hb).
    - assert (H0 : Ln n 2 n) by (unfold Ln; lia).
      intros (b & kv & E & Hb & Hk). exists b, kv. split; [exact E |].
      split; [exact (remp_stable _ T1 n b H0 m m' Hm Hb) |].
      refine (remp_stable _ T2 _ kv _ m m' Hm Hk). unfold Ln. cbn [width]. destruct (is_inline_value T1); lia.
  Qed.

  Lemma refs_sim {X Y} T n A B n' (Post : tstore -> X -> Y -> Prop) (kl : loc -> M S X) (kn : loc -> M S Y) :
    refs T n = (A, B, n') -> valid_target T ->
    (forall j, Ln n (width T) j -> ~ In j (tmps T)) ->
    (forall l, simM (Ln n (width T)) (again T n l) Post (kl l) (kn l)) ->
    simM (Ln n (width T)) (fun _ => True) Post (with_loc A kl) (with_loc T kn).
  Proof.
    revert T n A B n'. refine (refs_ind _ _ _ _).
    - intros x n _ Hk. cbn [with_loc].
      eapply simM_conseq; [| | apply Hk]; [intros m _; reflexivity | auto].
    - intros t name n f a n1 Hc Hok Hfr Hk. cbn [with_loc]. set (L := Ln n (width (EDot t name OcNone))) in *.
      assert (HLn : L n) by (unfold L, Ln; cbn [width]; lia).
      eapply simM_bind.
      { apply (piece_first L (fun _ => True) t n f a n1 Hc Hok HLn Hfr (stable_true L)). auto. }
      intros x y. apply simM_pure. intro E. rewrite E.
      eapply simM_conseq; [| | apply Hk]; [| auto].
      intros m [Hm _]. exists (valof y). auto.
    - intros t k n f a n1 kf ka n2 Hc Hck Hok Hokk Hfr Hk. cbn [with_loc]. cbn [tmps] in Hfr.
      set (L := Ln n (width (EIndex t k OcNone))) in *.
      destruct (capture_window t n f a n1 Hc) as (HLn & HLn1 & Hkeep).
      assert (Hd1 : forall j, L j -> ~ In j (tmps t)) by (intros j Hj Hi; apply (Hfr j Hj), in_app_iff; auto).
      assert (Hd2 : forall j, L j -> ~ In j (tmps k)) by (intros j Hj Hi; apply (Hfr j Hj), in_app_iff; auto).
      eapply simM_bind.
      { apply (piece_first L (fun _ => True) t n f a n1 Hc Hok HLn Hd1 (stable_true L)). auto. }
      intros x y. apply simM_pure. intro E. rewrite E.
      eapply simM_bind.
      { apply (piece_first L _ k n1 kf ka n2 Hck Hokk HLn1 Hd2).
        - apply stable_and; [apply remp_stable; exact HLn | apply stable_true].
        - intros m0 v0 [Hm _]. split; [apply Hkeep, Hm | exact I]. }
      intros x2 y2. apply simM_pure. intro E2. rewrite E2.
      eapply simM_conseq; [| | apply Hk]; [| auto].
      intros m (Hm2 & Hm1 & _). exists (valof y), (valof y2).
      rewrite <- (capture_next t n f a n1 Hc). auto.
  Qed.

  Lemma again_with_loc {X} T n A B n' l m (k : loc -> M S X) s :
    refs T n = (A, B, n') -> valid_target T -> again T n l m -> with_loc B k m s = k l m s.
  Proof.
    revert T n A B n'. refine (refs_ind _ _ _ _).
    - intros x n Ha. cbn [again] in Ha. rewrite Ha. reflexivity.
    - intros t name n f a n1 Hc _ (b & -> & Hb). cbn [with_loc].
      apply (bind_pure S (ev a) (ov b) (fun r => k (loc_prop (valof r) (VStr name)))).
      apply (piece_again t n f a n1 b m s Hc Hb).
    - intros t k0 n f a n1 kf ka n2 Hc Hck _ _ (b & kv & -> & Hb & Hkv). cbn [with_loc].
      rewrite <- (capture_next t n f a n1 Hc) in Hkv.
      rewrite (bind_pure S _ _ _ m s (piece_again t n f a n1 b m s Hc Hb)). cbn [valof ov].
      apply (bind_pure S (ev ka) (ov kv) (fun kr => k (loc_prop b (valof kr)))).
      apply (piece_again k0 n1 kf ka n2 kv m s Hck Hkv).
  Qed.

  Theorem logasg_general bop aop T v n A B n' :
    pairop bop aop -> refs T n = (A, B, n') -> valid_target T ->
    (forall j, n <= j < n + width T -> ~ In j (tmps T) /\ ~ In j (tmps v)) ->
    forall m s, observe (ev (EBin bop A (EAssign B v)) m s) = observe (ev (EOpAsg aop T v) m s).
  Proof.
    intros Hop Hr Hvt Hfr. destruct (refs_is_ref T n A B n' Hr Hvt) as [HA HB].
    apply (veq_observe (Ln n (width T))).
    eapply simM_ext.
    { intros m s. rewrite (eval_short bop aop _ _ Hop).
      apply (read_loc A (fun lv => if rhs_runs bop lv then bind (ev (EAssign B v)) (fun r2 => ret (ov (valof r2)))
                                   else ret (ov lv)) m s HA). }
    { intros m s. rewrite (opasg_loc aop T v Hvt). reflexivity. }
    apply (refs_sim T n A B n' _ _ _ Hr Hvt); [intros j Hj; apply (Hfr j Hj) |]. intro l.
    eapply simM_bind; [apply simM_lift |].
    intros lv lv0. apply simM_pure. intros ->. rewrite (opasg_short bop aop _ _ _ Hop).
    destruct (rhs_runs bop lv0); [| apply simM_ret; intros; reflexivity].
    eapply simM_ext_pre.
    { intros m s Hm. apply bind_cong_at. rewrite (assign_loc B v HB).
      apply (again_with_loc T n A B n' l m _ s Hr Hvt Hm). }
    apply simM_assoc_l. eapply simM_bind.
    { apply simM_fresh; [intros j Hj; apply (Hfr j Hj) | apply again_stable]. }
    intros r r0. apply simM_pure. intros ->.
    apply simM_assoc_l. eapply simM_bind; [apply simM_lift |].
    intros u u0. cbn beta. apply simM_ret_l. apply simM_ret. intros; reflexivity.
  Qed.

  Theorem powasg_general T v n A B n' :
    refs T n = (A, B, n') -> valid_target T ->
    (forall j, n <= j < n + width T -> ~ In j (tmps T) /\ ~ In j (tmps v)) ->
    forall m s, observe (ev (EAssign A (EPowCall B v)) m s) = observe (ev (EOpAsg APow T v) m s).
  Proof.
    intros Hr Hvt Hfr. destruct (refs_is_ref T n A B n' Hr Hvt) as [HA HB].
    apply (veq_observe (Ln n (width T))).
    rewrite (assign_loc A _ HA), (opasg_loc APow T v Hvt).
    apply (refs_sim T n A B n' _ _ _ Hr Hvt); [intros j Hj; apply (Hfr j Hj) |]. intro l.
    cbn [eval opasg]. apply simM_assoc_l.
    eapply simM_ext_pre.
    { intros m s Hm.
      rewrite (read_loc B (fun bv => bind (bind (ev v) (fun r2 => bind (lift (w_binop w BPow bv (valof r2)))
                                                                  (fun p => ret (ov p))))
                                          (fun r => bind (lift (l_set l (valof r))) (fun _ => ret (ov (valof r)))))
                 m s HB).
      apply (again_with_loc T n A B n' l m _ s Hr Hvt Hm). }
    eapply simM_bind; [apply simM_lift |].
    intros lv lv0. apply simM_pure. intros ->.
    repeat apply simM_assoc_l. eapply simM_bind.
    { apply simM_fresh; [intros j Hj; apply (Hfr j Hj) | apply again_stable]. }
    intros r r0. apply simM_pure. intros ->.
    repeat apply simM_assoc_l. eapply simM_bind; [apply simM_lift |].
    intros p p0. apply simM_pure. intros ->. apply simM_ret_l. cbn [valof ov].
    eapply simM_bind; [apply simM_lift |].
    intros u u0. apply simM_ret. intros; reflexivity.
  Qed.

  Lemma refs_below T n A B n' : refs T n = (A, B, n') -> valid_target T -> below n T ->
    below n' A /\ below n' B /\ n <= n'.
  Proof.
    revert T n A B n'. refine (refs_ind _ _ _ _).
    - intros x n Hb. repeat split; [exact Hb | exact Hb | lia].
    - intros t name n f a n1 Hc _ Hb.
      destruct (capture_tmps t n f a n1 Hc Hb) as (Hf & Ha & Hn). repeat split; [exact Hf | exact Ha | lia].
    - intros t k n f a n1 kf ka n2 Hc Hck _ _ Hb.
      destruct (below_index n t k OcNone Hb) as [Hb1 Hb2].
      destruct (capture_tmps t n f a n1 Hc Hb1) as (Hf & Ha & Hn).
      destruct (capture_tmps k n1 kf ka n2 Hck) as (Hkf & Hka & Hn2); [intros j Hj; specialize (Hb2 j Hj); lia |].
      repeat split; [| | lia]; intros j Hj; cbn in Hj; apply in_app_iff in Hj; destruct Hj as [Hj | Hj].
      + specialize (Hf j Hj). lia.
      + exact (Hkf j Hj).
      + specialize (Ha j Hj). lia.
      + exact (Hka j Hj).
  Qed.

  (* the first reference to an identifier is the identifier itself: evaluated twice where A is *)
  Lemma refs_first_cap T n A B n' : refs T n = (A, B, n') -> valid_target T ->
    (forall x, T = EId x -> const_var x) -> cap_ok A.
  Proof.
    revert T n A B n'. refine (refs_ind _ _ _ _).
    - intros x n Hx. right. exact (Hx x eq_refl).
    - intros. left. reflexivity.
    - intros. left. reflexivity.
  Qed.

  Theorem lowerLogicalAsg_general F bop aop tgt v n r :
    f_logasg F = true -> (bop = BOr /\ aop = AOr) \/ (bop = BAnd /\ aop = AAnd) ->
    valid_target tgt -> below n tgt -> below n v ->
    lowerLogicalAsg F bop tgt v n = Some r ->
    forall m s, observe (ev (fst r) m s) = observe (ev (EOpAsg aop tgt v) m s).
  Proof.
    intros HF Hop Hvt Hbt Hbv. unfold lowerLogicalAsg. rewrite HF. intro E; injection E as <-.
    assert (Hp : pairop bop aop) by (destruct Hop as [H | H]; [left | right; left]; exact H).
    rewrite (lao_refs tgt _ n (valid_is_ref tgt Hvt)). destruct (refs tgt n) as [[A B] n'] eqn:Hr. cbn [fst].
    apply (logasg_general bop aop tgt v n A B n' Hp Hr Hvt).
    intros j Hj. split; [apply (below_not n tgt j Hbt) | apply (below_not n v j Hbv)]; lia.
  Qed.

  Theorem lowerExpAsg_general tgt v n :
    valid_target tgt -> below n tgt -> below n v ->
    forall m s, observe (ev (fst (lowerExpAsg tgt v n)) m s) = observe (ev (EOpAsg APow tgt v) m s).
  Proof.
    intros Hvt Hbt Hbv. unfold lowerExpAsg.
    rewrite (lao_refs tgt _ n (valid_is_ref tgt Hvt)). destruct (refs tgt n) as [[A B] n'] eqn:Hr. cbn [fst].
    apply (powasg_general tgt v n A B n' Hr Hvt).
    intros j Hj. split; [apply (below_not n tgt j Hbt) | apply (below_not n v j Hbv)]; lia.
  Qed.

  (* a ??= v; when ?? itself is lowered the identifier target "x != null ? x : x = v"
     reads x twice, so x must be a constant binding *)
  Theorem lowerNullishAsg_general F tgt v n r :
    f_logasg F = true ->
    valid_target tgt -> below n tgt -> below n v ->
    (f_nullish F = true -> forall x, tgt = EId x -> const_var x) ->
    lowerNullishAsg F tgt v n = Some r ->
    forall m s, observe (ev (fst r) m s) = observe (ev (EOpAsg ANullish tgt v) m s).
  Proof.
    intros HF Hvt Hbt Hbv Hcx. unfold lowerNullishAsg. rewrite HF. intro E; injection E as <-.
    assert (Hp : pairop BNullish ANullish) by (right; right; split; reflexivity).
    rewrite (lao_refs tgt _ n (valid_is_ref tgt Hvt)). destruct (refs tgt n) as [[A B] n'] eqn:Hr.
    destruct (refs_below tgt n A B n' Hr Hvt Hbt) as (HbA & HbB & Hn').
    assert (Hfin : forall m s, observe (ev (EBin BNullish A (EAssign B v)) m s)
                             = observe (ev (EOpAsg ANullish tgt v) m s)).
    { apply (logasg_general BNullish ANullish tgt v n A B n' Hp Hr Hvt).
      intros j Hj. split; [apply (below_not n tgt j Hbt) | apply (below_not n v j Hbv)]; lia. }
    destruct (f_nullish F) eqn:HN; cbn [fst]; [| exact Hfin].
    intros m s. rewrite lowerNullish_general; [apply Hfin | | |].
    - apply (refs_first_cap tgt n A B n' Hr Hvt). intros x Ex. exact (Hcx eq_refl x Ex).
    - apply (below_not n' A n' HbA). lia.
    - cbn [tmps]. rewrite in_app_iff. intros [H | H].
      + apply (below_not n' B n' HbB) in H; [exact H | lia].
      + apply (below_not n v n' Hbv) in H; [exact H | lia].
  Qed.
End Steps.
