(* Non-vacuity: the hypotheses of the theorems are met by concrete,
   non-trivial instances, and the conclusions are visibly non-trivial. *)
From V Require Import Common.Base C05.Syntax C05.Sem C05.Lower C05.Frame C05.LowerProofs C05.SimLogic C05.Steps C05.Compose C05.Visit C05.Chain C05.Chain2 C05.Above C05.Visit2 C05.Witness C05.Private C05.PrivateProofs.

(* f() ?? g() : the left operand is captured in a temporary *)
Definition ex_a := ECall (EId 3) [] OcNone.
Definition ex_b := ECall (EId 4) [ENum 1] OcNone.
Example ex_nullish_lowered :
  fst (lowerNullishCoalescing ex_a ex_b 0) = EIf (EEqNull true (EAssign (ETmp 0) ex_a)) (ETmp 0) ex_b.
Proof. reflexivity. Qed.
Example ex_nullish_fresh : ~ In 0 (tmps ex_b).
Proof. cbn. tauto. Qed.
Example ex_nullish_no_identifier : forall x, ex_a = EId x -> pure_var Z wit_world x.
Proof. intros x H; discriminate H. Qed.
(* both sides really run and emit events *)
Example ex_nullish_runs :
  wit_run (fst (lowerNullishCoalescing ex_a ex_b 0)) = ([(4, [VObj 100; VUndef])], 1, Ok (VNum 7))
  /\ wit_run (EBin BNullish ex_a ex_b) = ([(4, [VObj 100; VUndef])], 1, Ok (VNum 7)).
Proof. split; vm_compute; reflexivity. Qed.
(* an identifier operand whose read is pure in the witness world (variable 3) *)
Example ex_pure_var : pure_var Z wit_world 3.
Proof. intro s. eexists. reflexivity. Qed.
(* ... and one whose read is not (variable 9, the accessor-backed global of F1) *)
Example ex_impure_var : ~ pure_var Z wit_world 9.
Proof. intro H. destruct (H 0) as [r Hr]. discriminate Hr. Qed.

(* the model lowers a nested chain with this-passing exactly like esbuild:
   a?.b?.()  =>  (_a = a == null ? void 0 : a.b) == null ? void 0 : _a.call(a) *)
Example ex_chain :
  lower all_features (ECall (EDot (EId 0) 1 OcStart) [] OcStart)
  = EIf (EEqNull false (EAssign (ETmp 0) (EIf (EEqNull false (EId 0)) EUndef (EDot (EId 0) 1 OcNone))))
        EUndef (ECallThis (ETmp 0) (EId 0) []).
Proof. reflexivity. Qed.

(* framing is about a real temporary *)
Example ex_framed_tmp : tmps (fst (lowerNullishCoalescing ex_a ex_b 0)) = [0; 0].
Proof. reflexivity. Qed.

(* hypotheses of the assignment / chain theorems are met by f().p1 op= g(1) and f().p1?.(g(1)) *)
Example ex_not_inline : is_inline_value ex_a = false.
Proof. reflexivity. Qed.
Example ex_logasg_some :
  lowerLogicalAsg all_features BOr (EDot ex_a 1 OcNone) ex_b 0
  = Some (EBin BOr (EDot (EAssign (ETmp 0) ex_a) 1 OcNone) (EAssign (EDot (ETmp 0) 1 OcNone) ex_b), 1).
Proof. reflexivity. Qed.
Example ex_nullasg_some :
  lowerNullishAsg all_features (EDot ex_a 1 OcNone) ex_b 0
  = Some (EIf (EEqNull true (EAssign (ETmp 1) (EDot (EAssign (ETmp 0) ex_a) 1 OcNone))) (ETmp 1)
              (EAssign (EDot (ETmp 0) 1 OcNone) ex_b), 2).
Proof. reflexivity. Qed.
Example ex_fresh2 : ~ In 0 (tmps ex_b) /\ ~ In (0 + 1) (tmps ex_b).
Proof. cbn. tauto. Qed.
Example ex_call_intact : call_intact Z wit_world.
Proof. intros fv s H. unfold wit_world; cbn. rewrite H. eexists; reflexivity. Qed.
Example ex_args_fresh : forall k, In k [0; 0 + 1] -> ~ In k (flat_map tmps [ex_b]).
Proof. cbn. tauto. Qed.
Example ex_optcall_lowered :
  fst (fst (lowerOptionalChain all_features (ECall (EDot ex_a 1 OcNone) [ex_b] OcStart) (mkIn false false) out0 0))
  = EIf (EEqNull false (EAssign (ETmp 1) (EDot (EAssign (ETmp 0) ex_a) 1 OcNone))) EUndef
        (ECallThis (ETmp 1) (ETmp 0) [ex_b]).
Proof. reflexivity. Qed.
Example ex_optcall_runs :
  wit_run (ECall (EDot ex_a 1 OcNone) [ex_b] OcStart)
  = ([(4, [VObj 100; VUndef]); (2, [VNum 7; VStr 1]); (4, [VObj 100; VUndef; VNum 1]); (4, [VObj 50; VNum 7; VNum 7])], 1, Ok (VNum 7)).
Proof. vm_compute. reflexivity. Qed.

Example ex_index_some :
  lowerLogicalAsg all_features BAnd (EIndex ex_a ex_b OcNone) (ENum 3) 0
  = Some (EBin BAnd (EIndex (EAssign (ETmp 0) ex_a) (EAssign (ETmp 1) ex_b) OcNone)
                    (EAssign (EIndex (ETmp 0) (ETmp 1) OcNone) (ENum 3)), 2).
Proof. reflexivity. Qed.

(* hypotheses of the general per-step theorems: v3[g(1)] ||= 3 with the constant
   identifier v3 (uncaptured) and an effectful key (captured) *)
Example ex_const_var : const_var Z wit_world 3.
Proof. exists (Ok (VObj 100)). intro s. reflexivity. Qed.
Example ex_not_const_var : ~ const_var Z wit_world 9.
Proof. intros [r H]. specialize (H 0). discriminate H. Qed.
Example ex_valid_target : valid_target Z wit_world (EIndex (EId 3) ex_b OcNone).
Proof. split; [right; exact ex_const_var | left; reflexivity]. Qed.
Example ex_below : below 0 (EIndex (EId 3) ex_b OcNone) /\ below 0 (ENum 3).
Proof. split; intros j H; cbn in H; contradiction. Qed.
Example ex_index_uncaptured :
  lowerLogicalAsg all_features BOr (EIndex (EId 3) ex_b OcNone) (ENum 3) 0
  = Some (EBin BOr (EIndex (EId 3) (EAssign (ETmp 0) ex_b) OcNone)
                   (EAssign (EIndex (EId 3) (ETmp 0) OcNone) (ENum 3)), 1).
Proof. reflexivity. Qed.
Example ex_cap_ok_this : cap_ok Z wit_world EThis /\ cap_ok Z wit_world ex_a.
Proof. split; [right; exact I | left; reflexivity]. Qed.

(* whole-visitor theorem: v3[g(1)] ||= (f() ?? 2 ** 3), everything lowered *)
Definition ex_big := EOpAsg AOr (EIndex (EId 3) ex_b OcNone) (EBin BNullish ex_a (EBin BPow (ENum 2) (ENum 3))).
Example ex_src : src all_features (fun x => x = 3) ex_big.
Proof. cbn. repeat split; auto; try (intros; contradiction); unfold all_const; cbn; intros; intuition congruence. Qed.
Example ex_C_const : forall x, x = 3 -> const_var Z wit_world x.
Proof. intros x ->. exact ex_const_var. Qed.
Example ex_world_arith : binop_nonnull Z wit_world /\ del_nonnull Z wit_world.
Proof. split; intros; intro; intros; cbn; reflexivity. Qed.
Example ex_big_lowered :
  lower all_features ex_big
  = EBin BOr (EIndex (EId 3) (EAssign (ETmp 1) ex_b) OcNone)
             (EAssign (EIndex (EId 3) (ETmp 1) OcNone)
                      (EIf (EEqNull true (EAssign (ETmp 0) ex_a)) (ETmp 0) (EPowCall (ENum 2) (ENum 3)))).
Proof. reflexivity. Qed.

(* chains of arbitrary length: f()?.p1.p2(g(1))[v3]  and  f().p1?.(g(1)).p2 *)
Definition ex_chain1 :=
  EIndex (ECall (EDot (EDot ex_a 1 OcStart) 2 OcCont) [ex_b] OcCont) (EId 3) OcCont.
Example ex_chain1_frag : frag ex_chain1.
Proof. exact I. Qed.
Example ex_chain1_flatten :
  flatten ex_chain1 = Some (ex_a, [LDot 1; LDot 2; LCall [ex_b]; LIndex (EId 3)], false).
Proof. reflexivity. Qed.
Example ex_chain1_hyps :
  no_delete [LDot 1; LDot 2; LCall [ex_b]; LIndex (EId 3)] /\ ex_a <> ENull /\ ex_a <> EUndef /\
  ~ In 0 (tmps ex_a) /\ links_fresh (L1 0) [LDot 1; LDot 2; LCall [ex_b]; LIndex (EId 3)].
Proof.
  repeat split; try discriminate.
  - repeat constructor; discriminate.
  - cbn. tauto.
  - intros l Hl k Hk. cbn in Hl. intuition subst; cbn; tauto.
Qed.
Example ex_chain1_lowered :
  fst (fst (lowerOptionalChain all_features ex_chain1 (mkIn false false) out0 0))
  = EIf (EEqNull false (EAssign (ETmp 0) ex_a)) EUndef
        (EIndex (ECall (EDot (EDot (ETmp 0) 1 OcNone) 2 OcNone) [ex_b] OcNone) (EId 3) OcNone).
Proof. reflexivity. Qed.

Definition ex_chain2 := EDot (ECall (EDot ex_a 1 OcNone) [ex_b] OcStart) 2 OcCont.
Example ex_chain2_flatten :
  frag ex_chain2 /\ flatten ex_chain2 = Some (EDot ex_a 1 OcNone, [LCall [ex_b]; LDot 2], true).
Proof. split; [exact I | reflexivity]. Qed.
Example ex_chain2_lowered :
  fst (fst (lowerOptionalChain all_features ex_chain2 (mkIn false false) out0 0))
  = EIf (EEqNull false (EAssign (ETmp 1) (EDot (EAssign (ETmp 0) ex_a) 1 OcNone))) EUndef
        (EDot (ECallThis (ETmp 1) (ETmp 0) [ex_b]) 2 OcNone).
Proof. reflexivity. Qed.
Example ex_chain2_fresh : links_fresh (L2 0) [LCall [ex_b]; LDot 2] /\ (forall k, L2 0 k -> ~ In k (tmps ex_a)).
Proof. split; [intros l Hl k Hk; cbn in Hl; intuition subst; cbn; tauto | intros k _; cbn; tauto]. Qed.

(* delete f()?.p1.p2 *)
Example ex_delete_flatten :
  flatten (EDot (EDot ex_a 1 OcStart) 2 OcCont) = Some (ex_a, [LDot 1] ++ [LDot 2], false).
Proof. reflexivity. Qed.

(* this passing: v3?.p1?.(g(1))  =>  (_a = v3 == null ? void 0 : v3.p1) == null ? void 0 : _a.call(v3, g(1)) *)
Definition ex_P := EDot (EId 3) 1 OcStart.
Definition ex_eo := ECall ex_P [ex_b] OcStart.
Example ex_nested_model :
  lower all_features ex_eo
  = EIf (EEqNull false (EAssign (ETmp 0) (EIf (EEqNull false (EId 3)) EUndef (EDot (EId 3) 1 OcNone))))
        EUndef (ECallThis (ETmp 0) (EId 3) [ex_b]).
Proof. reflexivity. Qed.
Example ex_nested_hyps :
  capture (EId 3) 0 = (EId 3, EId 3, 0) /\ frag ex_P /\ flatten ex_P = Some (EId 3, [LDot 1], false) /\
  frag ex_eo /\ flatten ex_eo = Some (ex_P, [LCall [ex_b]], true) /\
  cap_ok Z wit_world (EId 3) /\ call_intact Z wit_world.
Proof. repeat split; try reflexivity; try exact I; [right; exact ex_const_var | exact ex_call_intact]. Qed.
(* a?.b.c?.(x) : the callee chain has two links, this is the captured value of a?.b *)
Example ex_nested2_model :
  lower all_features (ECall (EDot (EDot ex_a 1 OcStart) 2 OcCont) [ENum 1] OcStart)
  = EIf (EEqNull false (EAssign (ETmp 2)
          (EIf (EEqNull false (EAssign (ETmp 0) ex_a)) EUndef
               (EDot (EAssign (ETmp 1) (EDot (ETmp 0) 1 OcNone)) 2 OcNone))))
        EUndef (ECallThis (ETmp 2) (ETmp 1) [ENum 1]).
Proof. reflexivity. Qed.

(* whole-visitor theorem with chains:
   delete (v3.p1?.(f() ?? 2).p2)  and  v3?.p1[g(1)] ||= f()?.p2 *)
Definition ex_c1 := EDelete (EDot (ECall (EDot (EId 3) 1 OcNone) [EBin BNullish ex_a (ENum 2)] OcStart) 2 OcCont).
Definition ex_c2 := EOpAsg AOr (EIndex (EDot (EId 3) 1 OcNone) ex_b OcNone) (EDot ex_a 2 OcStart).
Example ex_src2_c1 : src2 all_features (fun x => x = 3) ex_c1.
Proof. cbn. repeat split; auto; try (intros; discriminate); unfold Visit.all_const; cbn; intros; intuition congruence. Qed.
Example ex_src2_c2 : src2 all_features (fun x => x = 3) ex_c2.
Proof. cbn. repeat split; auto; try (intros; discriminate); unfold Visit.all_const; cbn; intros; intuition congruence. Qed.
Example ex_c1_lowered :
  lower all_features ex_c1
  = EIf (EEqNull false (EAssign (ETmp 1) (EDot (EId 3) 1 OcNone))) (EBool true)
        (EDelete (EDot (ECallThis (ETmp 1) (EId 3)
                          [EIf (EEqNull true (EAssign (ETmp 0) ex_a)) (ETmp 0) (ENum 2)]) 2 OcNone)).
Proof. reflexivity. Qed.

(* private names: c.#p ??= 5 with c a constant binding of an object that carries the brand:
   the model's output, the hypotheses of private_logical_assign_equiv, and the
   (non-trivial) common behaviour: getter called on object 1, then the setter *)
Definition ex_priv_log := PLog LNullish (EId 7) 2 (ENum 5).
Example ex_priv_log_lowered :
  fst (plower pwit_names all_features ex_priv_log 0)
  = HIf (HNeNull (HTmpSet 0 (HGet (PE (EId 7)) 11 (Some 20)))) (PE (ETmp 0))
        (HSet (PE (EId 7)) 11 (PE (ENum 5)) (Some 21)).
Proof. reflexivity. Qed.
Example ex_priv_log_hyps : pform_ok Z pwit_world pterr pwit_names ex_priv_log 0.
Proof.
  cbn. split.
  - right. exists (Ok (VObj 1)). intro s. reflexivity.
  - intros k _. cbn. tauto.
Qed.
Example ex_priv_log_sound : pwit_lowered ex_priv_log = pwit_native ex_priv_log.
Proof.
  unfold pwit_lowered, pwit_native.
  apply (plower_sound Z pwit_world VUndef pterr pwit_names pwit_fobj pwit_isset pwit_call_intact pwit_store
           all_features ex_priv_log 0 ex_priv_log_hyps).
Qed.
Example ex_priv_log_trace :
  fst (fst (pwit_native ex_priv_log)) = [(8, [VObj 1]); (9, [VObj 1; VNum 5])].
Proof. reflexivity. Qed.

(* g().#m(g()) : method call through a captured target *)
Definition ex_priv_call := PCall (ECall (EId 3) [] OcNone) 4 [ECall (EId 3) [] OcNone].
Example ex_priv_call_lowered :
  fst (plower pwit_names all_features ex_priv_call 0)
  = HCallCall (HMethod (PE (EAssign (ETmp 0) (ECall (EId 3) [] OcNone))) 11 22) (PE (ETmp 0)) [ECall (EId 3) [] OcNone].
Proof. reflexivity. Qed.
Example ex_priv_call_hyps : pform_ok Z pwit_world pterr pwit_names ex_priv_call 0.
Proof. cbn. split; [left; reflexivity | split; tauto]. Qed.
(* the target evaluates to a number here: both sides throw the TypeError after the target's call event *)
Example ex_priv_call_sound : pwit_lowered ex_priv_call = pwit_native ex_priv_call.
Proof.
  apply (plower_sound Z pwit_world VUndef pterr pwit_names pwit_fobj pwit_isset pwit_call_intact pwit_store
           all_features ex_priv_call 0 ex_priv_call_hyps).
Qed.
(* c.#m(g()) on the object that has the brand: the method is called with this = object 1 *)
Example ex_priv_call_trace :
  pwit_native (PCall (EId 7) 4 [ECall (EId 3) [] OcNone])
  = ([(4, [VObj 100; VUndef]); (4, [VObj 202; VObj 1; VNum 7])], pwit_state, Ok (VNum 7)).
Proof. reflexivity. Qed.

(* c.#f -= g()  on a field *)
Example ex_priv_arith_hyps : pform_ok Z pwit_world pterr pwit_names (PArith BSub (EId 7) 1 (ECall (EId 3) [] OcNone)) 0.
Proof.
  cbn. split; [left; reflexivity |]. split; [right; exists (Ok (VObj 1)); intro s; reflexivity |]. tauto.
Qed.
Example ex_priv_arith_trace :
  fst (fst (pwit_lowered (PArith BSub (EId 7) 1 (ECall (EId 3) [] OcNone))))
  = [(4, [VObj 100; VUndef]); (7, [VUndef; VNum 7])].
Proof. reflexivity. Qed.

(* constructor prologue: brand, then two fields *)
Example ex_priv_init_hyps :
  Forall (pinit_ok pwit_names pwit_isset) [IBrand 11; IField 1 (ENum 3); IField 5 (ECall (EId 3) [] OcNone)].
Proof. repeat constructor. Qed.

(* [c.#p = d] = ... / for (c.#p of ...): the target goes through the wrapper with the setter *)
Example ex_priv_target_lowered :
  fst (plower pwit_names all_features (PTarget (EId 7) 2) 0) = HWrapper (PE (EId 7)) 11 (Some 21)
  /\ fst (plower pwit_names all_features (PTarget (EId 7) 1) 0) = HWrapper (PE (EId 7)) 10 None.
Proof. split; reflexivity. Qed.
(* the store through it calls the setter on object 1 (event 9), after whatever ran in between (event 4) *)
Example ex_priv_target_trace :
  fst (fst (fst (bind (ptarget pwit_world VUndef pterr pwit_fobj pwit_isset (fst (plower pwit_names all_features (PTarget (EId 7) 2) 0)))
                      (fun k => bind (bind (eval pwit_world VUndef (ECall (EId 3) [] OcNone)) (fun _ => ret tt))
                                     (fun _ => lift (k (VNum 5)))) [] pwit_state)))
  = [(4, [VObj 100; VUndef]); (9, [VObj 1; VNum 5])].
Proof. reflexivity. Qed.
