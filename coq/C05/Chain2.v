(* A single, compositional account of lowerOptionalChain: how the lowered start
   remembers the value (and the this value) the links need [StartPost], how the
   expression built by apply_links evaluates for every list of links, every way
   the first call gets its this value, with or without the capture for the
   parent's this (storeThisArgForParentOptionalChain) and under delete
   [root_sound, loc_none, loc_some].  The chain shapes that Properties.v states
   one by one are instances, observed from outside [PostR_observe]. *)
From V Require Import Common.Base C05.Syntax C05.Sem C05.Lower C05.Frame C05.LowerProofs C05.SimLogic C05.Steps C05.Chain.

Section Chain2.
  Variable S : Type.
  Variable w : world S.
  Variable th : val.
  Notation ev := (eval w th).
  Notation evl := (eval_list S w th).
  Notation simM := (simM S).
  Notation run := (Chain.run S w th).
  Notation run1 := (Chain.run1 S w th).
  Notation run1d := (Chain.run1d S w th).

  Notation T0 := (fun _ : tstore => True).

  (* expression t reads value b in store m, without any effect *)
  Definition rd (t : expr) (b : val) (m : tstore) : Prop :=
    forall s, ev t m s = ([], m, s, Ok (ov b)).

  (* a reader that survives what the rest of the lowering does: evaluation of
     fresh sub-expressions and writes to later temporaries *)
  Definition robust (L : tpred) (bound : Z) (t : expr) : Prop :=
    (forall b, stable L (rd t b)) /\
    (forall b m k v, bound <= k -> rd t b m -> rd t b (tset m k v)).

  Lemma robust_mono (L : tpred) bound bound' t : bound <= bound' -> robust L bound t -> robust L bound' t.
  Proof. intros Hb [H1 H2]. split; [exact H1 |]. intros b m k v Hk. apply H2. lia. Qed.

  Lemma rd_tmp_intro k v m : tget m k = v -> rd (ETmp k) v m.
  Proof. intros E s. cbn. rewrite E. reflexivity. Qed.

  Lemma rd_tmp_elim k v m (s : S) : rd (ETmp k) v m -> tget m k = v.
  Proof. intro Hr. specialize (Hr s). cbn in Hr. injection Hr as E. exact E. Qed.

  Lemma robust_tmp (L : tpred) bound k : L k -> k < bound -> robust L bound (ETmp k).
  Proof.
    intros Hk Hb. split.
    - intros b m m' H Hr s. apply rd_tmp_intro. rewrite (H k Hk). apply (rd_tmp_elim k b m s Hr).
    - intros b m k' v Hk' Hr s. apply rd_tmp_intro. rewrite tget_tset_other by lia. apply (rd_tmp_elim k b m s Hr).
  Qed.

  Lemma robust_const (L : tpred) bound t :
    is_inline_value t = true -> dupable S w t -> robust L bound t.
  Proof.
    intros Hi Hd. destruct (dup_const S w th t Hi Hd) as [c Hc]. split.
    - intros b m m' _ Hr s. specialize (Hr s). rewrite Hc in *. congruence.
    - intros b m k v _ Hr s. specialize (Hr s). rewrite Hc in *. congruence.
  Qed.

  Lemma capture_robust_next (L : tpred) bound t n f a n1 :
    capture t n = (f, a, n1) -> cap_ok S w t -> L n -> n1 <= bound -> robust L bound a.
  Proof.
    unfold capture. destruct (is_inline_value t) eqn:Hi; intros Hc Hok Hn Hb; injection Hc as <- <- <-.
    - destruct Hok as [Hok | Hd]; [congruence |]. apply robust_const; assumption.
    - apply robust_tmp; [assumption | lia].
  Qed.

  Lemma capture_robust (L : tpred) bound t n f a n1 :
    capture t n = (f, a, n1) -> cap_ok S w t -> L n -> n < bound -> robust L bound a.
  Proof.
    intros Hc Hok Hn Hb. apply (capture_robust_next L bound t n f a n1 Hc Hok Hn).
    rewrite (capture_next t n f a n1 Hc). destruct (is_inline_value t); lia.
  Qed.

  Lemma remp_rd t n f a n1 v m : capture t n = (f, a, n1) -> remp S w th t n v m -> rd a v m.
  Proof. intros Hc Hr s. apply (piece_again S w th t n f a n1 v m s Hc Hr). Qed.

  Lemma simM_rd (L : tpred) (Pre : tstore -> Prop) t v :
    (forall m, Pre m -> rd t v m) ->
    simM L Pre (fun m a b => a = b /\ Pre m) (ev t) (ret (ov v)).
  Proof.
    intros H m m0 s Hs Hp. rewrite (H m Hp s). cbn. repeat split; auto.
  Qed.

  (* f.call(t, args) against the first link LCall args of the native chain:
     reading "call" from the callee is the only additional step *)
  Lemma head_call_this (L : tpred) (Pre : tstore -> Prop) again t args r :
    (forall m, Pre m -> rd again (valof r) m /\ rd t (baseof r) m) -> stable L Pre ->
    call_intact S w -> nullish (valof r) = false ->
    (forall k, L k -> ~ In k (flat_map tmps args)) ->
    simM L Pre (fun m a b => a = b /\ Pre m) (ev (ECallThis again t args)) (run1 (LCall args) r).
  Proof.
    intros Hrd Hst Hci Hnn Hla. rewrite ev_callthis. cbn [Chain.run1].
    eapply simM_left_pure; [intros m s Hp; apply (proj1 (Hrd m Hp)) |].
    cbn [valof ov].
    apply (simM_left_getcall _ _ _ (valof r) _ _ Hci Hnn). intros _.
    eapply simM_left_pure; [intros m s Hp; apply (proj2 (Hrd m Hp)) |].
    cbn [valof ov].
    apply simM_both_evl; [exact Hla | exact Hst |]. intro vs.
    apply simM_both_lift. intro q. apply simM_ret. auto.
  Qed.

  Lemma tail_plain (L : tpred) (Pre : tstore -> Prop) h (cH : M S out) lt :
    simM L Pre (fun m a b => a = b /\ Pre m) (ev h) cH ->
    links_fresh L lt -> no_delete lt -> stable L Pre ->
    simM L Pre (fun m a b => a = b /\ Pre m) (ev (fold_links lt h)) (bind cH (run lt)).
  Proof.
    intros Hh Hlf Hnd Hst.
    eapply simM_ext; [intros m s; apply (ev_fold S w th lt Hnd h m s) | intros; reflexivity |].
    eapply simM_bind; [exact Hh |]. intros a b. apply simM_pure. intros ->.
    apply run_fresh; assumption.
  Qed.

  Lemma tail_delete (L : tpred) (Pre : tstore -> Prop) h (cH : M S out) pre l :
    simM L Pre (fun m a b => a = b /\ Pre m) (ev h) cH ->
    links_fresh L (pre ++ [l]) -> no_delete pre -> member_link l -> stable L Pre ->
    simM L Pre (fun m a b => a = b /\ Pre m) (ev (EDelete (link_expr l (fold_links pre h))))
         (bind cH (fun c => bind (run pre c) (run1d l))).
  Proof.
    intros Hh Hlf Hnd Hm Hst.
    apply links_fresh_app in Hlf as [Hlfp Hlfl]. apply links_fresh_cons in Hlfl as [Hlfl _].
    eapply simM_ext;
      [ intros m s; rewrite (ev_delete_link S w th l (fold_links pre h) m s Hm);
        apply (bind_cong_l _ _ _ m s (ev_fold S w th pre Hnd h))
      | intros; reflexivity |].
    apply simM_assoc_l.
    eapply simM_bind; [exact Hh |]. intros a b. apply simM_pure. intros ->.
    eapply simM_bind; [apply run_fresh; assumption |]. intros a2 b2. apply simM_pure. intros ->.
    apply run1d_fresh; assumption.
  Qed.

  (* the last (member) link when the object it is read from is captured for the
     parent's this *)
  Lemma tail_store_cap (L : tpred) (Pre : tstore -> Prop) h (cH : M S out) pre lm n3 :
    simM L Pre (fun m a b => a = b /\ Pre m) (ev h) cH ->
    member_link lm -> links_fresh L (pre ++ [lm]) -> no_delete pre -> stable L Pre ->
    L n3 -> (forall m v, Pre m -> Pre (tset m n3 v)) ->
    simM L Pre (fun m a b => a = b /\ rd (ETmp n3) (baseof b) m /\ Pre m)
         (ev (link_expr lm (EAssign (ETmp n3) (fold_links pre h))))
         (bind cH (fun c => bind (run pre c) (run1 lm))).
  Proof.
    intros Hh Hm Hlf Hnd Hst Ln3 Hset.
    apply links_fresh_app in Hlf as [Hlfp Hlfl]. apply links_fresh_cons in Hlfl as [Hlfl _].
    assert (Hlow : forall m0 s0,
              ev (link_expr lm (EAssign (ETmp n3) (fold_links pre h))) m0 s0
              = bind (bind (bind (ev h) (run pre))
                           (fun r m1 s1 => ([], tset m1 n3 (valof r), s1, Ok (ov (valof r)))))
                     (run1 lm) m0 s0).
    { intros m0 s0. rewrite (ev_link_expr S w th lm _ m0 s0 (member_not_delete lm Hm)).
      apply bind_cong_l. intros m1 s1. cbn [eval]. apply bind_cong_l. intros m2 s2. apply (ev_fold S w th pre Hnd h). }
    eapply simM_ext; [intros m0 s0; apply Hlow | intros; reflexivity |].
    repeat apply simM_assoc_l.
    eapply simM_bind; [exact Hh |]. intros a b. apply simM_pure. intros ->.
    repeat apply simM_assoc_l.
    eapply simM_bind; [apply run_fresh; assumption |]. intros c c0. apply simM_pure. intros ->.
    eapply (simM_left_write S L _ (fun m0 => tget m0 n3 = valof c0 /\ Pre m0)); [exact Ln3 | |].
    { intros m0 Hp. split; [apply tget_tset_same | apply Hset, Hp]. }
    eapply simM_conseq;
      [| | apply (run1_member_sim S w th L (fun m0 => tget m0 n3 = valof c0 /\ Pre m0) lm (ov (valof c0)) c0 Hm eq_refl Hlfl)].
    - auto.
    - intros m x y (-> & Hb & Ht & Hp). split; [reflexivity |]. split; [| exact Hp].
      rewrite Hb. apply rd_tmp_intro, Ht.
    - apply stable_and; [apply stable_tget; exact Ln3 | exact Hst].
  Qed.

  (* the same when the object is an expression esbuild does not capture (a temporary or a constant) *)
  Lemma tail_store_inl (L : tpred) (Pre : tstore -> Prop) h v lm :
    (forall m, Pre m -> rd h v m) -> member_link lm ->
    (forall k, L k -> ~ In k (link_tmps lm)) -> stable L Pre ->
    simM L Pre (fun m a b => a = b /\ rd h (baseof b) m /\ Pre m)
         (ev (link_expr lm h)) (run1 lm (ov v)).
  Proof.
    intros Hrd Hm Hlfl Hst.
    eapply simM_ext;
      [ intros m0 s0; apply (ev_link_expr S w th lm h m0 s0 (member_not_delete lm Hm)) | intros; reflexivity |].
    eapply simM_left_pure; [intros m s Hp; apply (Hrd m Hp) |].
    eapply simM_conseq; [| | apply (run1_member_sim S w th L Pre lm (ov v) (ov v) Hm eq_refl Hlfl Hst)]; [auto |].
    intros m x y (-> & Hb & Hp). split; [reflexivity |]. split; [| exact Hp]. rewrite Hb. apply Hrd, Hp.
  Qed.

  (* first == null ? whenU : result  against  start, nullish test, body *)
  Lemma wrap_if (L : tpred) (StartPost : tstore -> out -> out -> Prop)
        (Post : tstore -> out -> out -> Prop) first whenU result (uv : val) (short : out) (cS : M S out)
        (body : out -> M S out) :
    simM L T0 StartPost (ev first) cS ->
    (forall m a r, StartPost m a r -> valof a = valof r) ->
    (forall m s, ev whenU m s = ([], m, s, Ok (ov uv))) ->
    (forall m, Post m (ov uv) short) ->
    (forall a r, nullish (valof r) = false ->
       simM L (fun m => StartPost m a r) (fun m x y => Post m (ov (valof x)) y) (ev result) (body r)) ->
    simM L T0 Post (ev (EIf (EEqNull false first) whenU result))
         (bind cS (fun r => if nullish (valof r) then ret short else body r)).
  Proof.
    intros Hs Hv Hu Hsh Hb. cbn [eval].
    repeat apply simM_assoc_l. eapply simM_bind; [exact Hs |].
    intros a r. apply simM_ret_l. cbn [valof ov xorb].
    intros m m0 s Hsm Hp. pose proof (Hv m a r Hp) as E. rewrite E.
    destruct (nullish (valof r)) eqn:Hn; cbn [truthy].
    - unfold bind. rewrite Hu. cbn. repeat split; auto.
    - specialize (Hb a r Hn m m0 s Hsm Hp). unfold bind.
      destruct (ev result m s) as [[[t1 m1] s1] r1], (body r m0 s) as [[[t2 m2] s2] r2].
      destruct Hb as (-> & -> & Hs' & Hr). destruct r1 as [x | v], r2 as [y | v0]; try contradiction;
        cbn; rewrite ?app_nil_r; repeat split; auto.
  Qed.

  (* what apply_links builds above the head h: the links as they are, the same
     with the object of the last member access captured for the parent's this
     (storeThisArgForParentOptionalChain), or the links under delete *)
  Inductive tmode := TPlain | TStore | TDelete.

  Definition tail_expr (md : tmode) (lt : list link) (h : expr) (n3 : Z) : expr * option expr * Z :=
    match md with
    | TPlain => (fold_links lt h, None, n3)
    | TDelete => (EDelete (fold_links lt h), None, n3)
    | TStore => let '(f2, a2, n4) := capture (fold_links (removelast lt) h) n3 in
                (link_expr (last lt LDelete) f2, Some a2, n4)
    end.

  Definition tail_run (md : tmode) (lt : list link) (c : out) : M S out :=
    match md with
    | TDelete => bind (run (removelast lt) c) (run1d (last lt LDelete))
    | _ => run lt c
    end.

  Lemma tail_run_cons md l rest r m s : (md = TDelete -> rest <> []) ->
    tail_run md (l :: rest) r m s = bind (run1 l r) (tail_run md rest) m s.
  Proof.
    intro Hne. destruct md; try reflexivity.
    destruct rest as [| x xs]; [contradiction (Hne eq_refl eq_refl) |].
    cbn [tail_run removelast last Chain.run]. apply bind_assoc.
  Qed.

  Lemma apply_links_none ls again store n3 : ls <> [] ->
    (store = true -> member_link (last ls LDelete)) ->
    apply_links ls again None true store n3 = tail_expr (if store then TStore else TPlain) ls again n3.
  Proof.
    intros Hne Hm. destruct store.
    - destruct (exists_last Hne) as (pre & lm & ->). rewrite last_last in Hm.
      rewrite (apply_links_store pre lm (Hm eq_refl) again true n3).
      cbn [tail_expr]. rewrite removelast_last, last_last. reflexivity.
    - apply apply_links_plain, Hne.
  Qed.

  Lemma apply_links_some args rest again t store n3 :
    (store = true -> rest <> [] /\ member_link (last rest LDelete)) ->
    apply_links (LCall args :: rest) again (Some t) true store n3
    = tail_expr (if store then TStore else TPlain) rest (ECallThis again t args) n3.
  Proof.
    intro Hm. destruct store.
    - destruct (Hm eq_refl) as [Hne Hml]. cbn [apply_links].
      destruct rest as [| l2 rest2]; [contradiction |]. cbn [andb].
      rewrite apply_links_noinner.
      destruct (exists_last Hne) as (pre & lm & E). rewrite E in *. rewrite last_last in Hml.
      rewrite (apply_links_store pre lm Hml (ECallThis again t args) false n3).
      cbn [tail_expr]. rewrite removelast_last, last_last. reflexivity.
    - apply apply_links_this.
  Qed.

  Lemma apply_links_none_delete ls again n3 :
    apply_links (ls ++ [LDelete]) again None true false n3 = tail_expr TDelete ls again n3.
  Proof.
    rewrite apply_links_plain by (destruct ls; discriminate).
    cbn [tail_expr]. rewrite fold_links_app. reflexivity.
  Qed.

  Lemma apply_links_some_delete args rest again t n3 :
    apply_links ((LCall args :: rest) ++ [LDelete]) again (Some t) true false n3
    = tail_expr TDelete rest (ECallThis again t args) n3.
  Proof. cbn [app]. rewrite apply_links_this. cbn [tail_expr]. rewrite fold_links_app. reflexivity. Qed.

  (* tail_expr against tail_run, in each mode.  With TStore the object of the last
     member access is captured in n3, so n3 must be in flight and Pre must survive
     the write; an object that is not captured (no links below the last one, and a
     head h that esbuild duplicates) has to be a reader *)
  Lemma tail_sound md lt h (cH : M S out) n3 res pth n4 (L : tpred) (Pre : tstore -> Prop) :
    tail_expr md lt h n3 = (res, pth, n4) ->
    simM L Pre (fun m a b => a = b /\ Pre m) (ev h) cH ->
    links_fresh L lt -> no_delete lt -> stable L Pre ->
    (md = TStore -> forall m v, Pre m -> Pre (tset m n3 v)) ->
    (md = TStore -> exists pre lm, lt = pre ++ [lm] /\ member_link lm /\ L n3 /\
                      (is_inline_value (fold_links pre h) = true ->
                       exists v, (forall m s, cH m s = ret (ov v) m s) /\ forall m, Pre m -> rd h v m)) ->
    (md = TDelete -> exists pre l, lt = pre ++ [l] /\ member_link l) ->
    simM L Pre (fun m a b => valof a = valof b /\ (md = TStore -> exists t, pth = Some t /\ rd t (baseof b) m))
         (ev res) (bind cH (tail_run md lt)).
  Proof.
    intros Ete Hh Hlf Hnd Hst Hset Hstore Hdel. destruct md; cbn [tail_expr tail_run] in *.
    - injection Ete as <- <- <-.
      eapply simM_conseq; [| | apply (tail_plain L Pre h cH lt Hh Hlf Hnd Hst)]; cbn; auto.
      intros m a b [-> _]. split; [reflexivity | discriminate].
    - destruct (Hstore eq_refl) as (pre & lm & -> & Hm & Ln3 & Hinl). specialize (Hset eq_refl).
      rewrite removelast_last, last_last in Ete.
      apply Forall_app in Hnd as [Hndp _].
      unfold capture in Ete. destruct (is_inline_value (fold_links pre h)) eqn:Hi; injection Ete as <- <- <-.
      + destruct (Hinl eq_refl) as (v & HcH & Hrd).
        assert (Hpre : pre = []).
        { destruct pre as [| p0 ps]; [reflexivity |].
          rewrite (fold_not_inline (p0 :: ps) h ltac:(discriminate)) in Hi. discriminate Hi. }
        subst pre. cbn [fold_links fold_left app] in *.
        eapply simM_ext;
          [ intros; reflexivity
          | intros m s; rewrite (bind_cong_l _ _ _ m s HcH), bind_ret_l; cbn [Chain.run]; apply bind_ret_r |].
        eapply simM_conseq; [| | apply (tail_store_inl L Pre h v lm Hrd Hm)]; cbn; auto.
        * intros m a b (-> & Hr & _). split; [reflexivity |]. intros _. exists h. auto.
        * apply Hlf. left. reflexivity.
      + eapply simM_ext;
          [ intros; reflexivity
          | intros m s; apply bind_cong; intros c m1 s1; apply run_app |].
        eapply simM_conseq; [| | apply (tail_store_cap L Pre h cH pre lm n3 Hh Hm Hlf Hndp Hst Ln3 Hset)]; cbn; auto.
        intros m a b (-> & Hr & _). split; [reflexivity |]. intros _. exists (ETmp n3). auto.
    - destruct (Hdel eq_refl) as (pre & l & -> & Hm). unfold tail_run.
      rewrite removelast_last, last_last. rewrite fold_links_app in Ete. injection Ete as <- <- <-.
      apply Forall_app in Hnd as [Hndp _].
      eapply simM_conseq; [| | apply (tail_delete L Pre h cH pre l Hh Hlf Hndp Hm Hst)]; cbn; auto.
      intros m a b [-> _]. split; [reflexivity | discriminate].
  Qed.

  (* what the lowered start leaves behind for the links: [again] reads the start
     value, and the call at the head finds its this through thisA or needs none *)
  Definition StartPost (ls : list link) (again : expr) (thisA : option expr) (m : tstore) (a r : out) : Prop :=
    valof a = valof r /\ rd again (valof r) m /\
    (nullish (valof r) = false ->
     match thisA with
     | Some t => rd t (baseof r) m
     | None => head_call ls = true -> baseof r = VUndef
     end).

  (* with TStore the returned thisArg reads the object of the last member access *)
  Definition PostR (md : tmode) (pth : option expr) (m : tstore) (a b : out) : Prop :=
    valof a = valof b /\ (md = TStore -> b <> OShort -> exists t, pth = Some t /\ rd t (baseof b) m).

  Lemma StartPost_stable (L : tpred) bound ls again thisA a r :
    robust L bound again -> (forall t, thisA = Some t -> robust L bound t) ->
    stable L (fun m => StartPost ls again thisA m a r) /\
    (forall m k v, bound <= k -> StartPost ls again thisA m a r -> StartPost ls again thisA (tset m k v) a r).
  Proof.
    intros [Ha1 Ha2] Ht. split.
    - intros m m' H (E & Hr & Hth). split; [exact E |]. split; [apply (Ha1 _ m m' H Hr) |].
      intro Hn. specialize (Hth Hn). destruct thisA as [t |]; [| exact Hth].
      destruct (Ht t eq_refl) as [Ht1 _]. apply (Ht1 _ m m' H Hth).
    - intros m k v Hk (E & Hr & Hth). split; [exact E |]. split; [apply (Ha2 _ m k v Hk Hr) |].
      intro Hn. specialize (Hth Hn). destruct thisA as [t |]; [| exact Hth].
      destruct (Ht t eq_refl) as [_ Ht2]. apply (Ht2 _ m k v Hk Hth).
  Qed.

  (* first == null ? whenU : (the links lt above the head h)  against  start,
     nullish test, NAT.  The head is [again] itself, or again.call(t, args) when
     the chain starts with a call that has an explicit this; cH r is what the head
     amounts to natively once the start has yielded r *)
  Theorem root_sound (L : tpred) ls first again thisA (cS : M S out) md lt h (cH : out -> M S out)
          (NAT : out -> M S out) n3 res pth n4 whenU uv short :
    tail_expr md lt h n3 = (res, pth, n4) ->
    simM L T0 (StartPost ls again thisA) (ev first) cS ->
    robust L n3 again -> (forall t, thisA = Some t -> robust L n3 t) ->
    (forall m s, ev whenU m s = ([], m, s, Ok (ov uv))) -> valof short = uv -> (md = TStore -> short = OShort) ->
    (forall a r, nullish (valof r) = false ->
       simM L (fun m => StartPost ls again thisA m a r)
              (fun m x y => x = y /\ StartPost ls again thisA m a r) (ev h) (cH r)) ->
    (forall a r m0, nullish (valof r) = false -> StartPost ls again thisA m0 a r ->
       forall m s, NAT r m s = bind (cH r) (tail_run md lt) m s) ->
    links_fresh L lt -> no_delete lt ->
    (forall a r, md = TStore -> exists pre lm, lt = pre ++ [lm] /\ member_link lm /\ L n3 /\
                      (is_inline_value (fold_links pre h) = true ->
                       exists v, (forall m s, cH r m s = ret (ov v) m s) /\
                                 forall m, StartPost ls again thisA m a r -> rd h v m)) ->
    (md = TDelete -> exists pre l, lt = pre ++ [l] /\ member_link l) ->
    simM L T0 (PostR md pth) (ev (EIf (EEqNull false first) whenU res))
         (bind cS (fun r => if nullish (valof r) then ret short else NAT r)).
  Proof.
    intros Ete Hs Hra Hrt Hu Hsh Hshs Hh Hnat Hlf Hnd Hstore Hdel.
    apply (wrap_if L (StartPost ls again thisA) (PostR md pth) first whenU res uv short cS NAT Hs).
    - intros m a r (E & _). exact E.
    - exact Hu.
    - intro m. split; [cbn; symmetry; exact Hsh |]. intros Hm Hne. exfalso. apply Hne, Hshs, Hm.
    - intros a r Hn.
      destruct (StartPost_stable L n3 ls again thisA a r Hra Hrt) as [Hst Hset].
      intros m m0 s Hsm Hp.
      pose proof (Hnat a r m Hn Hp) as Hn'.
      pose proof (tail_sound md lt h (cH r) n3 res pth n4 L (fun m => StartPost ls again thisA m a r)
                             Ete (Hh a r Hn) Hlf Hnd Hst (fun _ mx v => Hset mx n3 v (Z.le_refl n3))
                             (Hstore a r) Hdel m m0 s Hsm Hp) as T.
      rewrite Hn'.
      destruct (ev res m s) as [[[t1 mm1] s1] r1],
               (bind (cH r) (tail_run md lt) m0 s) as [[[t2 mm2] s2] r2].
      destruct T as (-> & -> & Hs' & Hr). repeat split; auto.
      destruct r1 as [x | v], r2 as [y | v0]; try contradiction; [| exact Hr].
      destruct Hr as [Ev Hpt]. split; [cbn; exact Ev |]. intros Hm _. apply Hpt, Hm.
  Qed.

  Lemma nonnull_not_short r : nullish (valof r) = false -> r <> OShort.
  Proof. intros H E. subst r. discriminate H. Qed.

  (* step 3 alone: the start is captured (or duplicated) as it is; this is not needed or undefined *)
  Lemma start_plain (L : tpred) ls start n first again n3 :
    capture start n = (first, again, n3) -> cap_ok S w start -> L n ->
    (forall k, L k -> ~ In k (tmps start)) ->
    (head_call ls = true -> forall m s, match ev start m s with (_, _, _, Ok o) => baseof o = VUndef | _ => True end) ->
    simM L T0 (StartPost ls again None) (ev first) (ev start).
  Proof.
    intros Hc Hok Ln Hd Hnb.
    eapply simM_conseq with (Pre := T0)
      (Post := fun m a r => (head_call ls = true -> baseof r = VUndef) /\
                            valof a = valof r /\ remp S w th start n (valof r) m /\ True); [auto | |].
    - intros m a r (Hb & E & Hr & _). split; [exact E |]. split; [apply (remp_rd start n first again n3 _ m Hc Hr) |].
      intros _. exact Hb.
    - apply simM_post_right with (Q := fun o => head_call ls = true -> baseof o = VUndef).
      + apply (piece_first S w th L T0 start n first again n3 Hc Hok Ln Hd (stable_true L)). auto.
      + intros m s. pose proof (fun Hh => Hnb Hh m s) as Q.
        destruct (ev start m s) as [[[? ?] ?] [?|?]]; [exact Q | exact I].
  Qed.

  (* steps 2 and 3 for a member access of tg as the callee of the call that starts the
     chain: the object is captured (or duplicated), the member is read from it and stored *)
  Lemma start_access (L : tpred) ls tg lm n f a n1 :
    member_link lm -> capture tg n = (f, a, n1) -> cap_ok S w tg -> L n -> L n1 ->
    (forall k, L k -> ~ In k (tmps tg)) -> (forall k, L k -> ~ In k (link_tmps lm)) ->
    simM L T0 (StartPost ls (ETmp n1) (Some a))
         (ev (EAssign (ETmp n1) (link_expr lm f))) (ev (link_expr lm tg)).
  Proof.
    intros Hm Hc Hok Ln Ln1 Hd Hdl.
    pose proof (capture_next tg n f a n1 Hc) as Hn1.
    pose proof (member_not_delete lm Hm) as Hnd.
    cbn [eval].
    eapply simM_ext;
      [ intros m s; apply (bind_cong_l _ _ _ m s (fun m0 s0 => ev_link_expr S w th lm f m0 s0 Hnd))
      | intros m s; rewrite (ev_link_expr S w th lm tg m s Hnd);
        apply bind_cong; intros y m1 s1; symmetry; apply bind_ret_r |].
    apply simM_assoc_l. eapply simM_bind.
    - apply (piece_first S w th L T0 tg n f a n1 Hc Hok Ln Hd (stable_true L)). auto.
    - intros x y. apply simM_pure. intro E.
      eapply simM_bind.
      + apply (run1_member_sim S w th L _ lm x y Hm E Hdl).
        apply stable_and; [apply remp_stable; exact Ln | apply stable_true].
      + intros r r0 m m0 s Hs (-> & Hb & Hr & _). cbn. repeat split; auto.
        * apply simL_tset; assumption.
        * apply rd_tmp_intro, tget_tset_same.
        * intros _. rewrite Hb.
          apply (remp_rd tg n f a n1 _ _ Hc). apply remp_tset'; [| exact Hr]. intro Hi. rewrite Hi in Hn1. lia.
  Qed.

  Lemma start_member (L : tpred) ls tg name n f a n1 :
    capture tg n = (f, a, n1) -> cap_ok S w tg -> L n -> L n1 ->
    (forall k, L k -> ~ In k (tmps tg)) ->
    simM L T0 (StartPost ls (ETmp n1) (Some a))
         (ev (EAssign (ETmp n1) (EDot f name OcNone))) (ev (EDot tg name OcNone)).
  Proof.
    intros Hc Hok Ln Ln1 Hd. apply (start_access L ls tg (LDot name) n f a n1 I Hc Hok Ln Ln1 Hd).
    intros k _ [].
  Qed.

  Lemma start_index (L : tpred) ls tg key n f a n1 :
    capture tg n = (f, a, n1) -> cap_ok S w tg -> L n -> L n1 ->
    (forall k, L k -> ~ In k (tmps tg)) -> (forall k, L k -> ~ In k (tmps key)) ->
    simM L T0 (StartPost ls (ETmp n1) (Some a))
         (ev (EAssign (ETmp n1) (EIndex f key OcNone))) (ev (EIndex tg key OcNone)).
  Proof. intros Hc Hok Ln Ln1 Hd Hdk. apply (start_access L ls tg (LIndex key) n f a n1 I Hc Hok Ln Ln1 Hd Hdk). Qed.

  (* the callee is an optional chain that was lowered first and left its this in t *)
  Lemma start_producer (L : tpred) ls lowP P' t n2 :
    simM L T0 (PostR TStore (Some t)) (ev lowP) (ev P') ->
    robust L n2 t -> L n2 ->
    simM L T0 (StartPost ls (ETmp n2) (Some t)) (ev (EAssign (ETmp n2) lowP)) (ev P').
  Proof.
    intros Hp [_ Hset] Ln2. cbn [eval].
    intros m m0 s Hs Hpre. specialize (Hp m m0 s Hs Hpre). unfold bind.
    destruct (ev lowP m s) as [[[t1 m1] s1] r1], (ev P' m0 s) as [[[t2 m2] s2] r2].
    destruct Hp as (-> & -> & Hs' & Hr).
    destruct r1 as [x | v], r2 as [y | v0]; try contradiction; [| auto].
    destruct Hr as [E Hth]. cbn. rewrite app_nil_r. repeat split; auto.
    - apply simL_tset; assumption.
    - rewrite E. apply rd_tmp_intro, tget_tset_same.
    - intro Hn. destruct (Hth eq_refl (nonnull_not_short y Hn)) as (t' & Et & Hrd).
      injection Et as <-. apply Hset; [lia | exact Hrd].
  Qed.

  (* step 2 of lowerOptionalChain: where the call at the head takes its this from *)
  Definition step2 (swc : bool) (childThis : option expr) (start : expr) (n : Z) : expr * option expr * Z :=
    if swc then
      match childThis with
      | Some t => (start, Some t, n)
      | None =>
          match start with
          | EDot tg name _ => let '(f, a, n1) := capture tg n in (EDot f name OcNone, Some a, n1)
          | EIndex tg k _ => let '(f, a, n1) := capture tg n in (EIndex f k OcNone, Some a, n1)
          | _ => (start, None, n)
          end
      end
    else (start, None, n).

  Lemma loc_unfold F e0 i childOut n start links swc start2 thisA n2 first again n3 :
    flatten e0 = Some (start, links, swc) -> start <> ENull -> start <> EUndef -> f_optchain F = true ->
    step2 swc (thisArg childOut) start n = (start2, thisA, n2) ->
    capture start2 n2 = (first, again, n3) ->
    lowerOptionalChain F e0 i childOut n =
      (let '(result, pth, n4) := apply_links links again thisA true (storeThis i && ends_with_access e0) n3 in
       (EIf (EEqNull false first) (if is_delete e0 then EBool true else EUndef) result, mkOut pth false, n4)).
  Proof.
    intros Hfl Hn1 Hn2 HF H2 Hc. unfold lowerOptionalChain. rewrite Hfl, (start_match start _ _ Hn1 Hn2), HF.
    cbn [negb]. unfold step2 in H2. rewrite H2, Hc. reflexivity.
  Qed.

  Definition mode_of (isdel store : bool) : tmode := if isdel then TDelete else if store then TStore else TPlain.

  (* native continuation after the start, for a chain (run) or a delete of a chain *)
  Definition nat_run (md : tmode) (ls : list link) (r : out) : M S out := tail_run md ls r.

  Lemma run_nobase ls r : ls <> [] -> (head_call ls = true -> baseof r = VUndef) -> nullish (valof r) = false ->
    forall m s, run ls r m s = run ls (ov (valof r)) m s.
  Proof.
    intros Hne Hb Hn m s. destruct (head_call ls) eqn:Hh.
    - destruct r; [| discriminate Hn]. cbn in Hb. rewrite (Hb eq_refl). reflexivity.
    - apply run_base; [exact Hne | exact Hh | reflexivity].
  Qed.

  Lemma tail_run_nobase md ls r : ls <> [] -> (md = TDelete -> exists pre l, ls = pre ++ [l] /\ member_link l) ->
    (head_call ls = true -> baseof r = VUndef) -> nullish (valof r) = false ->
    forall m s, tail_run md ls r m s = bind (ret (ov (valof r))) (tail_run md ls) m s.
  Proof.
    intros Hne Hd Hb Hn m s. rewrite bind_ret_l.
    destruct (head_call ls) eqn:Hh.
    - destruct r; [| discriminate Hn]. cbn in Hb. rewrite (Hb eq_refl). reflexivity.
    - destruct md; cbn [tail_run]; try (apply run_base; [exact Hne | exact Hh | reflexivity]).
      destruct (Hd eq_refl) as (pre & l & -> & Hm). rewrite removelast_last, last_last.
      apply rund_base; [exact Hh | exact Hm | reflexivity].
  Qed.

  Lemma root_none (L : tpred) ls first again n3 res pth n4 (cS : M S out) (isdel : bool) md :
    tail_expr md ls again n3 = (res, pth, n4) ->
    simM L T0 (StartPost ls again None) (ev first) cS -> robust L n3 again ->
    ls <> [] -> links_fresh L ls -> no_delete ls ->
    (md = TStore -> isdel = false /\ L n3 /\ member_link (last ls LDelete)) ->
    (md = TDelete -> exists pre l, ls = pre ++ [l] /\ member_link l) ->
    simM L T0 (PostR md pth) (ev (EIf (EEqNull false first) (if isdel then EBool true else EUndef) res))
         (bind cS (fun r => if nullish (valof r) then ret (if isdel then ov (VBool true) else OShort) else tail_run md ls r)).
  Proof.
    intros Ete Hs Hra Hne Hlf Hnd Hmst Hmdel.
    apply (root_sound L ls first again None cS md ls again (fun r => ret (ov (valof r))) (tail_run md ls) n3 res pth n4
                      (if isdel then EBool true else EUndef) (if isdel then VBool true else VUndef)
                      (if isdel then ov (VBool true) else OShort) Ete); auto.
    - intros t Ht. discriminate Ht.
    - intros m s. destruct isdel; reflexivity.
    - destruct isdel; reflexivity.
    - intro Hm. destruct (Hmst Hm) as [-> _]. reflexivity.
    - intros a r Hn. apply simM_rd. intros m (_ & Hr & _). exact Hr.
    - intros a r m0 Hn (_ & _ & Hb) m s. apply tail_run_nobase; auto.
    - intros a r Hm. destruct (Hmst Hm) as (_ & Ln3 & Hml).
      destruct (exists_last Hne) as (pre & lm & E). exists pre, lm. rewrite E in *.
      rewrite last_last in Hml. repeat split; auto.
      intros Hi. exists (valof r). split; [reflexivity |]. intros m (_ & Hr & _). exact Hr.
  Qed.

  (* the call at the start does not get an explicit this (thisA = None) *)
  Theorem loc_none (L : tpred) F e0 i childOut n start ls swc first again n3 (cS : M S out) (isdel : bool) :
    flatten e0 = Some (start, (if isdel then ls ++ [LDelete] else ls), swc) ->
    is_delete e0 = isdel -> (isdel = true -> ends_with_access e0 = false) ->
    start <> ENull -> start <> EUndef -> f_optchain F = true ->
    step2 swc (thisArg childOut) start n = (start, None, n) ->
    capture start n = (first, again, n3) ->
    simM L T0 (StartPost ls again None) (ev first) cS -> robust L n3 again ->
    ls <> [] -> links_fresh L ls -> no_delete ls ->
    let store := storeThis i && ends_with_access e0 in
    let md := mode_of isdel store in
    (md = TStore -> L n3) ->
    (md = TStore -> member_link (last ls LDelete)) ->
    (md = TDelete -> exists pre l, ls = pre ++ [l] /\ member_link l) ->
    simM L T0 (PostR md (thisArg (snd (fst (lowerOptionalChain F e0 i childOut n)))))
         (ev (fst (fst (lowerOptionalChain F e0 i childOut n))))
         (bind cS (fun r => if nullish (valof r) then ret (if isdel then ov (VBool true) else OShort) else tail_run md ls r)).
  Proof.
    intros Hfl Hisd Hdacc Hn1 Hn2 HF H2 Hc Hs Hra Hne Hlf Hnd store md Ln3 Hmst Hmdel.
    rewrite (loc_unfold F e0 i childOut n start _ swc start None n first again n3 Hfl Hn1 Hn2 HF H2 Hc).
    fold store. rewrite Hisd.
    assert (Hres : apply_links (if isdel then ls ++ [LDelete] else ls) again None true store n3 = tail_expr md ls again n3).
    { unfold md, mode_of. destruct isdel.
      - assert (store = false) as -> by (unfold store; rewrite (Hdacc eq_refl); apply andb_false_r).
        apply apply_links_none_delete.
      - apply apply_links_none; [exact Hne |]. intro Hst. apply Hmst. unfold md, mode_of. rewrite Hst. reflexivity. }
    rewrite Hres.
    destruct (tail_expr md ls again n3) as [[res pth] n4] eqn:Ete. cbn [fst snd thisArg].
    apply (root_none L ls first again n3 res pth n4 cS isdel md Ete); auto.
    intro Hm. split; [| auto]. unfold md, mode_of in Hm. destruct isdel; [discriminate Hm | reflexivity].
  Qed.

  (* the call at the start is made with an explicit this (captured object, or the
     this left by a lowered callee chain) *)
  Theorem loc_some (L : tpred) F e0 i childOut n start args rest swc start2 t n2 first again n3
          (cS : M S out) (isdel : bool) :
    flatten e0 = Some (start, (if isdel then (LCall args :: rest) ++ [LDelete] else LCall args :: rest), swc) ->
    is_delete e0 = isdel -> (isdel = true -> ends_with_access e0 = false) ->
    start <> ENull -> start <> EUndef -> f_optchain F = true ->
    step2 swc (thisArg childOut) start n = (start2, Some t, n2) ->
    capture start2 n2 = (first, again, n3) ->
    simM L T0 (StartPost (LCall args :: rest) again (Some t)) (ev first) cS ->
    robust L n3 again -> robust L n3 t -> call_intact S w ->
    links_fresh L (LCall args :: rest) -> no_delete rest ->
    let store := storeThis i && ends_with_access e0 in
    let md := mode_of isdel store in
    (md = TStore -> L n3) ->
    (md = TStore -> rest <> [] /\ member_link (last rest LDelete)) ->
    (md = TDelete -> exists pre l, rest = pre ++ [l] /\ member_link l) ->
    simM L T0 (PostR md (thisArg (snd (fst (lowerOptionalChain F e0 i childOut n)))))
         (ev (fst (fst (lowerOptionalChain F e0 i childOut n))))
         (bind cS (fun r => if nullish (valof r) then ret (if isdel then ov (VBool true) else OShort)
                            else tail_run md (LCall args :: rest) r)).
  Proof.
    intros Hfl Hisd Hdacc Hn1 Hn2 HF H2 Hc Hs Hra Hrt Hci Hlf Hnd store md Ln3 Hmst Hmdel.
    rewrite (loc_unfold F e0 i childOut n start _ swc start2 (Some t) n2 first again n3 Hfl Hn1 Hn2 HF H2 Hc).
    fold store. rewrite Hisd.
    set (H := ECallThis again t args).
    assert (Hres : apply_links (if isdel then (LCall args :: rest) ++ [LDelete] else LCall args :: rest)
                               again (Some t) true store n3 = tail_expr md rest H n3).
    { unfold md, mode_of. destruct isdel.
      - assert (store = false) as -> by (unfold store; rewrite (Hdacc eq_refl); apply andb_false_r).
        apply apply_links_some_delete.
      - apply apply_links_some. intro Hst. apply Hmst. unfold md, mode_of. rewrite Hst. reflexivity. }
    rewrite Hres.
    destruct (tail_expr md rest H n3) as [[res pth] n4] eqn:Ete. cbn [fst snd thisArg].
    apply links_fresh_cons in Hlf as [Hla Hlr]. cbn [link_tmps] in Hla.
    assert (Hrt' : forall t', Some t = Some t' -> robust L n3 t') by (intros t' Ht; injection Ht as <-; exact Hrt).
    apply (root_sound L (LCall args :: rest) first again (Some t) cS md rest H
                      (fun r => run1 (LCall args) r) (tail_run md (LCall args :: rest)) n3 res pth n4
                      (if isdel then EBool true else EUndef) (if isdel then VBool true else VUndef)
                      (if isdel then ov (VBool true) else OShort) Ete); auto.
    - intros m s. destruct isdel; reflexivity.
    - destruct isdel; reflexivity.
    - unfold md, mode_of. destruct isdel; [discriminate | reflexivity].
    - intros a r Hn. unfold H.
      destruct (StartPost_stable L n3 (LCall args :: rest) again (Some t) a r Hra Hrt') as [Hst _].
      apply head_call_this; auto.
      intros m (_ & Hr & Hth). split; [exact Hr | apply Hth, Hn].
    - intros a r m0 Hn _ m s. apply tail_run_cons.
      intro Emd. destruct (Hmdel Emd) as (pre & l & -> & _). destruct pre; discriminate.
    - intros a r Hm. destruct (Hmst Hm) as [Hner Hml].
      destruct (exists_last Hner) as (pre & lm & E). exists pre, lm. rewrite E in *.
      rewrite last_last in Hml. repeat split; auto.
      intros Hi. rewrite (fold_keeps_not_inline pre H eq_refl) in Hi. discriminate Hi.
  Qed.

  Theorem loc_sound_none (L : tpred) F e0 i childOut n start ls swc first again n3 (cS : M S out) (isdel : bool) :
    flatten e0 = Some (start, (if isdel then ls ++ [LDelete] else ls), swc) ->
    is_delete e0 = isdel -> (isdel = true -> ends_with_access e0 = false) ->
    start <> ENull -> start <> EUndef -> f_optchain F = true ->
    step2 swc (thisArg childOut) start n = (start, None, n) ->
    capture start n = (first, again, n3) ->
    simM L T0 (StartPost ls again None) (ev first) cS -> robust L n3 again ->
    ls <> [] -> links_fresh L ls -> no_delete ls -> L n3 ->
    let store := storeThis i && ends_with_access e0 in
    let md := mode_of isdel store in
    (md = TStore -> member_link (last ls LDelete)) ->
    (md = TDelete -> exists pre l, ls = pre ++ [l] /\ member_link l) ->
    simM L T0 (PostR md (thisArg (snd (fst (lowerOptionalChain F e0 i childOut n)))))
         (ev (fst (fst (lowerOptionalChain F e0 i childOut n))))
         (bind cS (fun r => if nullish (valof r) then ret (if isdel then ov (VBool true) else OShort) else tail_run md ls r)).
  Proof. intros. apply (loc_none L F e0 i childOut n start ls swc first again n3); auto. Qed.

  Theorem loc_sound_some (L : tpred) F e0 i childOut n start args rest swc start2 t n2 first again n3
          (cS : M S out) (isdel : bool) :
    flatten e0 = Some (start, (if isdel then (LCall args :: rest) ++ [LDelete] else LCall args :: rest), swc) ->
    is_delete e0 = isdel -> (isdel = true -> ends_with_access e0 = false) ->
    start <> ENull -> start <> EUndef -> f_optchain F = true ->
    step2 swc (thisArg childOut) start n = (start2, Some t, n2) ->
    capture start2 n2 = (first, again, n3) ->
    simM L T0 (StartPost (LCall args :: rest) again (Some t)) (ev first) cS ->
    robust L n3 again -> robust L n3 t -> call_intact S w ->
    links_fresh L (LCall args :: rest) -> no_delete rest -> L n3 ->
    let store := storeThis i && ends_with_access e0 in
    let md := mode_of isdel store in
    (md = TStore -> rest <> [] /\ member_link (last rest LDelete)) ->
    (md = TDelete -> exists pre l, rest = pre ++ [l] /\ member_link l) ->
    simM L T0 (PostR md (thisArg (snd (fst (lowerOptionalChain F e0 i childOut n)))))
         (ev (fst (fst (lowerOptionalChain F e0 i childOut n))))
         (bind cS (fun r => if nullish (valof r) then ret (if isdel then ov (VBool true) else OShort)
                            else tail_run md (LCall args :: rest) r)).
  Proof. intros. apply (loc_some L F e0 i childOut n start args rest swc start2 t n2 first again n3); auto. Qed.

  Lemma PostR_observe (L : tpred) md pth cl cn e :
    (forall m s, ev e m s = cn m s) -> simM L T0 (PostR md pth) cl cn ->
    forall m s, observe (cl m s) = observe (ev e m s).
  Proof.
    intros E H. apply (simM_observe S L (PostR md pth)); [intros m a b [Hv _]; exact Hv |].
    eapply simM_ext; [intros; reflexivity | exact E | exact H].
  Qed.

  (* chains of any length whose first call, if there is one, gets no explicit this:
     they do not start with a call, or the callee is not a member access and
     yields no base object *)
  Theorem chain_no_this F e' i n start ls swc :
    frag e' -> flatten e' = Some (start, ls, swc) ->
    f_optchain F = true -> storeThis i = false ->
    start <> ENull -> start <> EUndef ->
    (swc = true -> ends_with_access start = false /\
       forall m s, match ev start m s with (_, _, _, Ok o) => baseof o = VUndef | _ => True end) ->
    cap_ok S w start -> ~ In n (tmps start) -> links_fresh (L1 n) ls ->
    forall m s, observe (ev (fst (fst (lowerOptionalChain F e' i out0 n))) m s) = observe (ev e' m s).
  Proof.
    intros Hfr Hfl HF Hst Hn1 Hn2 Hswc Hok Hfresh Hlf.
    pose proof (frag_no_delete e' Hfr start ls swc Hfl) as Hnd.
    destruct (native_chain S w th e' Hfr start ls swc Hfl) as [Hne Hnat].
    pose proof (flatten_head e' Hfr start ls swc Hfl) as Hh.
    destruct (capture start n) as [[first again] n3] eqn:Hc.
    pose proof (loc_none (L1 n) F e' i out0 n start ls swc first again n3 (ev start) false) as T.
    cbn zeta in T. rewrite Hst in T. cbn [andb mode_of] in T.
    eapply PostR_observe; [exact Hnat |]. apply T; try assumption; try discriminate; try reflexivity.
    - apply (frag_not_delete e' Hfr).
    - destruct swc; [| reflexivity]. destruct (Hswc eq_refl) as [Hna _].
      cbn [step2 thisArg out0]. destruct start; try reflexivity; discriminate Hna.
    - apply (start_plain (L1 n) ls start n first again n3 Hc Hok eq_refl); [intros k ->; exact Hfresh |].
      intro Hhc. apply Hswc. rewrite Hh. exact Hhc.
    - apply (capture_robust_next (L1 n) n3 start n first again n3 Hc Hok eq_refl). lia.
  Qed.

  (* a?.b.c(d)[k] ... *)
  Theorem chain_plain F e' i n start ls :
    frag e' -> flatten e' = Some (start, ls, false) -> no_delete ls ->
    f_optchain F = true -> storeThis i = false ->
    start <> ENull -> start <> EUndef -> cap_ok S w start ->
    ~ In n (tmps start) -> links_fresh (L1 n) ls ->
    forall m s, observe (ev (fst (fst (lowerOptionalChain F e' i out0 n))) m s) = observe (ev e' m s).
  Proof. intros Hfr Hfl _. intros. apply (chain_no_this F e' i n start ls false); auto. discriminate. Qed.

  (* tg.name?.(args) link ... and tg[key]?.(args) link ... : the call at the start
     of the chain gets this = tg *)
  Theorem chain_call_access F e' i n tg lm args rest :
    member_link lm ->
    frag e' -> flatten e' = Some (link_expr lm tg, LCall args :: rest, true) ->
    f_optchain F = true -> storeThis i = false ->
    cap_ok S w tg -> call_intact S w ->
    (forall k, L2 n k -> ~ In k (tmps tg)) -> (forall k, L2 n k -> ~ In k (link_tmps lm)) ->
    links_fresh (L2 n) (LCall args :: rest) ->
    forall m s, observe (ev (fst (fst (lowerOptionalChain F e' i out0 n))) m s) = observe (ev e' m s).
  Proof.
    intros Hm Hfr Hfl HF Hst Hok Hci Hdt Hdl Hlf.
    pose proof (Forall_inv_tail (frag_no_delete e' Hfr _ _ _ Hfl)) as Hnd.
    destruct (native_chain S w th e' Hfr _ _ _ Hfl) as [_ Hnat].
    destruct (capture tg n) as [[f a] n1] eqn:Hc.
    pose proof (capture_next tg n f a n1 Hc) as Hn1.
    assert (Ln : L2 n n) by (unfold L2; lia).
    assert (Ln1 : L2 n n1) by (unfold L2; destruct (is_inline_value tg); lia).
    pose proof (loc_some (L2 n) F e' i out0 n (link_expr lm tg) args rest true
                  (link_expr lm f) a n1 (EAssign (ETmp n1) (link_expr lm f)) (ETmp n1) (n1 + 1)
                  (ev (link_expr lm tg)) false) as T.
    cbn zeta in T. rewrite Hst in T. cbn [andb mode_of] in T.
    eapply PostR_observe; [exact Hnat |]. apply T; try assumption; try discriminate; try reflexivity.
    - apply (frag_not_delete e' Hfr).
    - destruct lm; discriminate.
    - destruct lm; discriminate.
    - cbn [step2 thisArg out0]. destruct lm; try contradiction; cbn [link_expr]; rewrite Hc; reflexivity.
    - destruct lm; try contradiction; reflexivity.
    - apply (start_access (L2 n) _ tg lm n f a n1 Hm Hc Hok Ln Ln1 Hdt Hdl).
    - apply robust_tmp; [exact Ln1 | lia].
    - apply (capture_robust_next (L2 n) (n1 + 1) tg n f a n1 Hc Hok Ln). lia.
  Qed.

  Theorem chain_call_member F e' i n tg name args rest :
    frag e' -> flatten e' = Some (EDot tg name OcNone, LCall args :: rest, true) -> no_delete rest ->
    f_optchain F = true -> storeThis i = false ->
    cap_ok S w tg -> call_intact S w ->
    (forall k, L2 n k -> ~ In k (tmps tg)) -> links_fresh (L2 n) (LCall args :: rest) ->
    forall m s, observe (ev (fst (fst (lowerOptionalChain F e' i out0 n))) m s) = observe (ev e' m s).
  Proof.
    intros Hfr Hfl _ HF Hst Hok Hci Hdt Hlf.
    apply (chain_call_access F e' i n tg (LDot name) args rest I); auto.
  Qed.

  Theorem chain_call_index F e' i n tg key args rest :
    frag e' -> flatten e' = Some (EIndex tg key OcNone, LCall args :: rest, true) -> no_delete rest ->
    f_optchain F = true -> storeThis i = false ->
    cap_ok S w tg -> call_intact S w ->
    (forall k, L2 n k -> ~ In k (tmps tg)) -> (forall k, L2 n k -> ~ In k (tmps key)) ->
    links_fresh (L2 n) (LCall args :: rest) ->
    forall m s, observe (ev (fst (fst (lowerOptionalChain F e' i out0 n))) m s) = observe (ev e' m s).
  Proof.
    intros Hfr Hfl _ HF Hst Hok Hci Hdt Hdk Hlf.
    apply (chain_call_access F e' i n tg (LIndex key) args rest I); auto.
  Qed.

  (* start?.(args) link link ... where start is not a member access: this is undefined *)
  Theorem chain_call_plain F e' i n start args rest :
    frag e' -> flatten e' = Some (start, LCall args :: rest, true) -> no_delete rest ->
    f_optchain F = true -> storeThis i = false ->
    start <> ENull -> start <> EUndef -> ends_with_access start = false ->
    (forall m s, match ev start m s with (_, _, _, Ok o) => baseof o = VUndef | _ => True end) ->
    cap_ok S w start -> ~ In n (tmps start) -> links_fresh (L1 n) (LCall args :: rest) ->
    forall m s, observe (ev (fst (fst (lowerOptionalChain F e' i out0 n))) m s) = observe (ev e' m s).
  Proof.
    intros Hfr Hfl _. intros. apply (chain_no_this F e' i n start (LCall args :: rest) true); auto.
  Qed.

  (* delete a?.b.c[k] ... : chains of any length under delete (not starting with a call) *)
  Theorem chain_delete_plain F d i n :
    frag d -> ends_with_access d = true ->
    forall start ls0 l,
    flatten d = Some (start, ls0 ++ [l], false) -> no_delete (ls0 ++ [l]) ->
    f_optchain F = true ->
    start <> ENull -> start <> EUndef -> cap_ok S w start ->
    ~ In n (tmps start) -> links_fresh (L1 n) (ls0 ++ [l]) ->
    forall m s, observe (ev (fst (fst (lowerOptionalChain F (EDelete d) i out0 n))) m s)
              = observe (ev (EDelete d) m s).
  Proof.
    intros Hfr Ha start ls0 l Hfl Hnd HF Hn1 Hn2 Hok Hfresh Hlf.
    destruct (native_delete S w th d Hfr Ha) as (st & ls1 & l1 & c1 & E1 & Hm & Hhd & Hnat).
    rewrite Hfl in E1. injection E1 as <- Els <-. apply app_inj_tail in Els. destruct Els as [<- <-].
    destruct (capture start n) as [[first again] n3] eqn:Hc.
    pose proof (loc_none (L1 n) F (EDelete d) i out0 n start (ls0 ++ [l]) false first again n3 (ev start) true) as T.
    cbn zeta in T. cbn [mode_of] in T.
    eapply PostR_observe; [| apply T; try assumption; try discriminate; try reflexivity].
    - intros m s. rewrite Hnat. cbn [tail_run]. rewrite removelast_last, last_last. reflexivity.
    - cbn [flatten]. rewrite Hfl. reflexivity.
    - apply (start_plain (L1 n) _ start n first again n3 Hc Hok eq_refl); [intros k ->; exact Hfresh |].
      intro Hh. rewrite <- Hhd in Hh. discriminate Hh.
    - apply (capture_robust_next (L1 n) n3 start n first again n3 Hc Hok eq_refl). lia.
    - destruct ls0; discriminate.
    - eauto.
  Qed.

  Lemma tail_store_single lm again n3 : is_inline_value again = true ->
    tail_expr TStore [lm] again n3 = (link_expr lm again, Some again, n3).
  Proof. intro Hi. cbn [tail_expr removelast last fold_links fold_left]. unfold capture. rewrite Hi. reflexivity. Qed.

  Lemma tail_store_chain pre lm again n3 : pre <> [] ->
    tail_expr TStore (pre ++ [lm]) again n3
    = (link_expr lm (EAssign (ETmp n3) (fold_links pre again)), Some (ETmp n3), n3 + 1).
  Proof.
    intro Hne. cbn [tail_expr]. rewrite removelast_last, last_last. unfold capture.
    rewrite (fold_not_inline pre again Hne). reflexivity.
  Qed.

  (* what lowerOptionalChain returns for the callee P of an optional call (storeThis set) *)
  Lemma producer F P hcp n start ls first again n3 :
    frag P -> flatten P = Some (start, ls, false) -> member_link (last ls LDelete) -> ends_with_access P = true ->
    f_optchain F = true -> start <> ENull -> start <> EUndef ->
    capture start n = (first, again, n3) ->
    lowerOptionalChain F P (mkIn hcp true) out0 n
    = (let '(res, pth, n4) := tail_expr TStore ls again n3 in
       (EIf (EEqNull false first) EUndef res, mkOut pth false, n4)).
  Proof.
    intros Hfr Hfl Hm Ha HF Hn1 Hn2 Hc.
    destruct (frag_flatten P Hfr) as (? & ? & ? & E & Hne). rewrite Hfl in E. injection E as <- <- <-.
    rewrite (loc_unfold F P (mkIn hcp true) out0 n start ls false start None n first again n3 Hfl Hn1 Hn2 HF eq_refl Hc).
    cbn [storeThis]. rewrite Ha, (frag_not_delete P Hfr). cbn [andb].
    rewrite (apply_links_none ls again true n3 Hne (fun _ => Hm)). reflexivity.
  Qed.

  Lemma capture_again_inline t n f a n1 : capture t n = (f, a, n1) -> is_inline_value a = true.
  Proof.
    unfold capture. destruct (is_inline_value t) eqn:Hi; intro H; injection H as <- <- <-; [exact Hi | reflexivity].
  Qed.

  Lemma producer_single F P hcp n start lm first again n3 :
    frag P -> flatten P = Some (start, [lm], false) -> member_link lm -> ends_with_access P = true ->
    f_optchain F = true -> start <> ENull -> start <> EUndef ->
    capture start n = (first, again, n3) ->
    lowerOptionalChain F P (mkIn hcp true) out0 n
    = (EIf (EEqNull false first) EUndef (link_expr lm again), mkOut (Some again) false, n3).
  Proof.
    intros Hfr Hfl Hm Ha HF Hn1 Hn2 Hc. rewrite (producer F P hcp n start [lm] first again n3); auto.
    rewrite (tail_store_single lm again n3 (capture_again_inline start n first again n3 Hc)). reflexivity.
  Qed.

  Lemma producer_general F P hcp n start pre lm first again n3 :
    frag P -> flatten P = Some (start, pre ++ [lm], false) -> member_link lm -> ends_with_access P = true ->
    pre <> [] ->
    f_optchain F = true -> start <> ENull -> start <> EUndef ->
    capture start n = (first, again, n3) ->
    lowerOptionalChain F P (mkIn hcp true) out0 n
    = (EIf (EEqNull false first) EUndef (link_expr lm (EAssign (ETmp n3) (fold_links pre again))),
       mkOut (Some (ETmp n3)) false, n3 + 1).
  Proof.
    intros Hfr Hfl Hm Ha Hne HF Hn1 Hn2 Hc. rewrite (producer F P hcp n start (pre ++ [lm]) first again n3); auto.
    - rewrite (tail_store_chain pre lm again n3 Hne). reflexivity.
    - rewrite last_last. exact Hm.
  Qed.

  (* This passing: an optional call whose callee P is an optional chain.
     P = start?.links ends in a member access and is lowered first, with the
     capture of the object that member is read from (the expression resP, which
     leaves the object readable through t); the call then receives t as this. *)
  Theorem chain_call_over F eo eo' i n start lsP args rest first again n3 resP t n2 :
    capture start n = (first, again, n3) ->
    forall P, frag P -> flatten P = Some (start, lsP, false) ->
    member_link (last lsP LDelete) ->
    tail_expr TStore lsP again n3 = (resP, Some t, n2) -> robust (L3 n) n2 t -> L3 n n2 ->
    frag eo -> flatten eo = Some (P, LCall args :: rest, true) ->
    frag eo' -> flatten eo' = Some (EIf (EEqNull false first) EUndef resP, LCall args :: rest, true) ->
    f_optchain F = true -> storeThis i = false ->
    cap_ok S w start -> call_intact S w ->
    (forall k, L3 n k -> ~ In k (tmps start)) -> links_fresh (L3 n) lsP ->
    links_fresh (L3 n) (LCall args :: rest) ->
    forall m s, observe (ev (fst (fst (lowerOptionalChain F eo' i (mkOut (Some t) false) n2))) m s)
              = observe (ev eo m s).
  Proof.
    intros Hc P HfP HflP Hml Hte Hrt Ln2 Hfo Hflo Hfo' Hflo' HF Hst Hok Hci Hds Hlfp Hlf.
    pose proof (frag_no_delete P HfP _ _ _ HflP) as Hndp.
    pose proof (Forall_inv_tail (frag_no_delete eo Hfo _ _ _ Hflo)) as Hnd.
    destruct (native_chain S w th eo Hfo _ _ _ Hflo) as [_ Hnat].
    destruct (native_chain S w th P HfP _ _ _ HflP) as [Hne HnatP].
    pose proof (capture_next start n first again n3 Hc) as Hn3.
    set (L := L3 n).
    assert (Ln : L n) by (unfold L, L3; lia).
    assert (Ln3 : L n3) by (unfold L, L3; destruct (is_inline_value start); lia).
    set (lowP := EIf (EEqNull false first) EUndef resP) in *.
    assert (HP : simM L T0 (PostR TStore (Some t)) (ev lowP) (ev P)).
    { pose proof (root_none L lsP first again n3 resP (Some t) n2 (ev start) false TStore Hte) as T.
      eapply simM_ext; [intros; reflexivity | exact HnatP |]. apply T; try assumption; try discriminate; try reflexivity.
      - apply (start_plain L lsP start n first again n3 Hc Hok Ln Hds).
        intro Hh. rewrite <- (flatten_head P HfP start lsP false HflP) in Hh. discriminate Hh.
      - apply (capture_robust_next L n3 start n first again n3 Hc Hok Ln). lia.
      - auto. }
    pose proof (loc_some L F eo' i (mkOut (Some t) false) n2 lowP args rest true lowP t n2
                  (EAssign (ETmp n2) lowP) (ETmp n2) (n2 + 1) (ev P) false) as T.
    cbn zeta in T. rewrite Hst in T. cbn [andb mode_of] in T.
    eapply PostR_observe; [exact Hnat |]. apply T; try assumption; try discriminate; try reflexivity.
    - apply (frag_not_delete eo' Hfo').
    - apply (start_producer L _ lowP P t n2 HP Hrt Ln2).
    - apply robust_tmp; [exact Ln2 | lia].
    - apply (robust_mono L n2 (n2 + 1) t); [lia | exact Hrt].
  Qed.

  (* (start?.lm)?.(args) link ... , i.e.  a?.b?.(x).c *)
  Theorem chain_call_over_member F eo eo' i n start lm args rest first again n3 :
    member_link lm ->
    capture start n = (first, again, n3) ->
    forall P, frag P -> flatten P = Some (start, [lm], false) ->
    frag eo -> flatten eo = Some (P, LCall args :: rest, true) ->
    frag eo' ->
    flatten eo' = Some (EIf (EEqNull false first) EUndef (link_expr lm again), LCall args :: rest, true) ->
    no_delete rest -> f_optchain F = true -> storeThis i = false ->
    cap_ok S w start -> call_intact S w ->
    (forall k, L3 n k -> ~ In k (tmps start)) ->
    (forall k, L3 n k -> ~ In k (link_tmps lm)) ->
    links_fresh (L3 n) (LCall args :: rest) ->
    forall m s, observe (ev (fst (fst (lowerOptionalChain F eo' i (mkOut (Some again) false) n3))) m s)
              = observe (ev eo m s).
  Proof.
    intros Hm Hc P HfP HflP Hfo Hflo Hfo' Hflo' _ HF Hst Hok Hci Hds Hdl Hlf.
    pose proof (capture_next start n first again n3 Hc) as Hn3.
    assert (Ln : L3 n n) by (unfold L3; lia).
    apply (chain_call_over F eo eo' i n start [lm] args rest first again n3 (link_expr lm again) again n3 Hc P);
      auto.
    - apply tail_store_single, (capture_again_inline start n first again n3 Hc).
    - apply (capture_robust_next (L3 n) n3 start n first again n3 Hc Hok Ln). lia.
    - unfold L3. destruct (is_inline_value start); lia.
    - intros l [<- | []]. exact Hdl.
  Qed.

  (* (start?.l1...lk.lm)?.(args) link ... , e.g.  a?.b.c?.(x) : this = the value of a?.b *)
  Theorem chain_call_over_chain F eo eo' i n start pre lm args rest first again n3 :
    member_link lm -> pre <> [] -> no_delete pre ->
    capture start n = (first, again, n3) ->
    forall P, frag P -> flatten P = Some (start, pre ++ [lm], false) ->
    frag eo -> flatten eo = Some (P, LCall args :: rest, true) ->
    frag eo' ->
    flatten eo' = Some (EIf (EEqNull false first) EUndef (link_expr lm (EAssign (ETmp n3) (fold_links pre again))),
                        LCall args :: rest, true) ->
    no_delete rest -> f_optchain F = true -> storeThis i = false ->
    cap_ok S w start -> call_intact S w ->
    (forall k, L3 n k -> ~ In k (tmps start)) ->
    links_fresh (L3 n) (pre ++ [lm]) ->
    links_fresh (L3 n) (LCall args :: rest) ->
    forall m s, observe (ev (fst (fst (lowerOptionalChain F eo' i (mkOut (Some (ETmp n3)) false) (n3 + 1)))) m s)
              = observe (ev eo m s).
  Proof.
    intros Hm Hne _ Hc P HfP HflP Hfo Hflo Hfo' Hflo' _ HF Hst Hok Hci Hds Hlfp Hlf.
    pose proof (capture_next start n first again n3 Hc) as Hn3.
    assert (Ln3 : L3 n n3 /\ L3 n (n3 + 1)) by (unfold L3; destruct (is_inline_value start); lia).
    apply (chain_call_over F eo eo' i n start (pre ++ [lm]) args rest first again n3
             (link_expr lm (EAssign (ETmp n3) (fold_links pre again))) (ETmp n3) (n3 + 1) Hc P); auto; try tauto.
    - rewrite last_last. exact Hm.
    - apply tail_store_chain, Hne.
    - apply robust_tmp; [tauto | lia].
  Qed.
End Chain2.
