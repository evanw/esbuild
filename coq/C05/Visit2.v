(* The whole-visitor theorem, by one induction over the expression tree
   [visit_gen] with one lemma per kind of node: each node composes the
   congruences (Compose.v), the per-step theorems (Steps.v) and, where an
   optional chain is lowered, the chain theorems (Chain2.v).  A chain fragment
   (a node whose parent is an OcCont link or a delete) is carried through the
   induction unlowered but with lowered pieces, exactly as visitExprInOut
   does; the root of the chain applies lowerOptionalChain.  Only that step
   needs call_intact, so the theorem for expressions without optional-chain
   links [visit_sound] is the same induction without that hypothesis. *)
From V Require Import Common.Base C05.Syntax C05.Sem C05.Lower C05.Frame C05.LowerProofs C05.SimLogic
     C05.Steps C05.Compose C05.Above C05.Visit C05.Chain C05.Chain2.

Section Visit2.
  Variable S : Type.
  Variable w : world S.
  Variable th : val.
  Notation ev := (eval w th).
  Notation evl := (eval_list S w th).
  Notation simM := (simM S).
  Notation Rv := (Rv S w th).
  Notation Rb := (Rb S w th).
  Notation Rx := (Rx S w th).

  Definition is_chain_link (e : expr) : bool :=
    match e with
    | EDot _ _ o | EIndex _ _ o | ECall _ _ o => negb (oc_eqb o OcNone)
    | _ => false
    end.

  Definition Lge (n : Z) : tpred := fun k => n <= k.

  Lemma below_fresh n e : below n e -> forall k, Lge n k -> ~ In k (tmps e).
  Proof. intros H k Hk Hin. specialize (H k Hin). unfold Lge in Hk. lia. Qed.

  Lemma flatten_below e c start ls swc : below c e -> flatten e = Some (start, ls, swc) ->
    below c start /\ links_fresh (Lge c) ls.
  Proof.
    intros Hb E. destruct (flatten_tall (fun j => j < c) e start ls swc E) as [Hs Hl]; [apply tall_below, Hb |].
    split; [apply tall_below, Hs |]. intros l Hin k Hk Hk'.
    assert (Hlt : Forall (fun j => j < c) (link_tmps l)).
    { unfold ltall in Hl. rewrite Forall_forall in Hl. specialize (Hl l Hin). destruct l; exact Hl. }
    rewrite Forall_forall in Hlt. specialize (Hlt k Hk'). unfold Lge in Hk. lia.
  Qed.

  Lemma loc_below F e0 i co n lo o n' :
    lowerOptionalChain F e0 i co n = (lo, o, n') -> below n e0 -> thisArg co = None -> n <= n' /\ below n' lo.
  Proof.
    intros E Hb Hco.
    assert (H : forall P, tall P e0 -> vtall P n (lo, o, n')).
    { intros P Ht. rewrite <- E. apply loc_tall. split; [lia |]. intros _.
      split; [exact Ht | intros t Et; rewrite Hco in Et; discriminate Et]. }
    destruct (H (fun _ => True)) as [Hn _]; [apply Forall_forall; auto |]. split; [exact Hn |].
    destruct (H (fun j => j < n')) as [_ Hl]; [apply tall_below; eapply below_mono; eassumption |].
    destruct Hl as [Hl _]; [intros j Hj; lia |]. apply tall_below, Hl.
  Qed.


  Hypothesis Hbin : binop_nonnull S w.
  Hypothesis Hdel : del_nonnull S w.
  Variable F : feat.
  Variable C : Z -> Prop.
  Hypothesis HC : forall x, C x -> const_var S w x.
  Notation all_const := (all_const C).
  Notation sub_inv := (sub_inv S w th).

  Definition is_nullish_bin (e : expr) : bool := match e with EBin BNullish _ _ => true | _ => false end.

  Fixpoint src2 (e : expr) : Prop :=
    let fix all (l : list expr) : Prop :=
      match l with [] => True | x :: r => src2 x /\ all r end in
    match e with
    | ENull | EUndef | EThis | EBool _ | ENum _ | EStr _ | EId _ => True
    | EDot t _ o => src2 t /\ (o = OcCont -> is_chain_link t = true) /\
        (f_optchain F = true -> o = OcStart -> all_const (head_ids t))
    | EIndex t k o => src2 t /\ src2 k /\ (o = OcCont -> is_chain_link t = true) /\
        (f_optchain F = true -> o = OcStart -> all_const (head_ids t))
    | ECall f args o => src2 f /\ all args /\ (o = OcCont -> is_chain_link f = true) /\
        (* a call on a chain that ends in a member access needs the this value of the
           inner chain: parenthesised (refuted, F4) or optional (not composed yet) *)
        (o <> OcCont -> is_chain_access f = false) /\
        (o = OcStart -> is_nullish_bin f = false) /\
        (f_optchain F = true -> o = OcStart ->
         match f with
         | EDot tg _ _ | EIndex tg _ _ => all_const (head_ids tg)
         | _ => all_const (head_ids f)
         end)
    | EDelete d => ends_with_access d = true /\ src2 d
    | EAssign tgt v => tgt_shape tgt /\ src2 tgt /\ src2 v
    | EBin op a b => src2 a /\ src2 b /\
        (op = BNullish -> f_nullish F = true -> all_const (head_ids a))
    | EOpAsg op tgt v => tgt_shape tgt /\ src2 tgt /\ src2 v /\
        (op_lowered F op = true ->
         match tgt with
         | EDot t _ _ => all_const (head_ids t)
         | EIndex t k _ => all_const (head_ids t) /\ all_const (head_ids k)
         | EId x => op = ANullish -> f_nullish F = true -> C x
         | _ => True
         end)
    | _ => False
    end.

  Fixpoint srcs2 (l : list expr) : Prop := match l with [] => True | x :: r => src2 x /\ srcs2 r end.

  Definition ok_in (i : xin) (e : expr) : Prop := storeThis i = true -> is_chain_access e = false.

  Definition nonacc (e e' : expr) : Prop :=
    ends_with_access e = false -> is_nullish_bin e = false -> ends_with_access e' = false.

  Definition inv2 (e e' : expr) (n n' : Z) : Prop :=
    n <= n' /\ below n' e' /\ Rv e' e /\
    (ends_with_access e = true -> is_chain_link e = false -> Rx e' e /\ ends_with_access e' = true) /\
    (forall k, e' <> ETmp k) /\ (forall x, e' = EId x -> In x (head_ids e)).

  Definition startfacts (swc : bool) (start' : expr) : Prop :=
    if swc then
      (exists tg name, start' = EDot tg name OcNone /\ cap_ok S w tg) \/
      (exists tg k, start' = EIndex tg k OcNone /\ cap_ok S w tg) \/
      (ends_with_access start' = false /\ cap_ok S w start')
    else cap_ok S w start'.

  Definition chainfacts (e' : expr) : Prop :=
    f_optchain F = true ->
    exists start' ls' swc, flatten e' = Some (start', ls', swc) /\ no_delete ls' /\ startfacts swc start'.

  Definition fsub (e e' : expr) : Prop :=
    match e with
    | EDot t name o => exists t', e' = EDot t' name o /\ R S w th (plink pv o) t' t
    | EIndex t k o => exists t' k', e' = EIndex t' k' o /\ R S w th (plink pv o) t' t /\ Rv k' k
    | _ => True
    end.

  Definition fragc (e e' : expr) (o : xout) (n n' : Z) : Prop :=
    n <= n' /\ below n' e' /\ frag e' /\ Rx e' e /\ childChain o = true /\ thisArg o = None /\ chainfacts e' /\ fsub e e' /\
    ends_with_access e' = ends_with_access e.

  (* What the induction carries for a visited node.  A link whose parent
     continues the chain is still a fragment of that chain, with visited pieces
     [fragc].  Every other node stands for its source [inv2], hands no this
     value and no open chain to its parent; the lemmas named ...A build or read
     this second form. *)
  Definition concl2 (i : xin) (e : expr) (r : expr * xout * Z) (n : Z) : Prop :=
    match r with (e', o, n') =>
      if hasChainParent i && is_chain_link e then fragc e e' o n n'
      else inv2 e e' n n' /\ (is_chain_link e = false -> sub_inv e e') /\
           childChain o = false /\ thisArg o = None /\ nonacc e e'
    end.

  Lemma chainfacts_start node t' l :
    Above.unlink node = Some (t', l, OcStart) -> l <> LDelete ->
    (f_optchain F = true -> startfacts (match l with LCall _ => true | _ => false end) t') ->
    chainfacts node.
  Proof.
    intros Hu Hl Hsf HF. exists t', [l], (match l with LCall _ => true | _ => false end).
    rewrite Above.flatten_unlink, Hu. split; [reflexivity |].
    split; [repeat constructor; exact Hl | exact (Hsf HF)].
  Qed.

  Lemma chainfacts_cont node t' l :
    Above.unlink node = Some (t', l, OcCont) -> l <> LDelete -> chainfacts t' -> chainfacts node.
  Proof.
    intros Hu Hl Hcf HF. destruct (Hcf HF) as (st & ls & swc & Hfl & Hnd & Hsf).
    exists st, (ls ++ [l]), swc. rewrite Above.flatten_unlink, Hu, Hfl. split; [reflexivity |].
    split; [apply Forall_app; split; [exact Hnd | repeat constructor; exact Hl] | exact Hsf].
  Qed.

  (* Steps 2-5 of lowerOptionalChain simulate the native chain, or the delete
     of one, whichever of its four forms the start has [startfacts]; the parent
     does not ask for the this value (md is not TStore). *)
  Lemma root_sim (isdel : bool) e0 i out n1 start ls swc :
    call_intact S w ->
    flatten e0 = Some (start, (if isdel then ls ++ [LDelete] else ls), swc) ->
    is_delete e0 = isdel -> (isdel = true -> ends_with_access e0 = false) ->
    start <> ENull -> start <> EUndef -> f_optchain F = true -> thisArg out = None ->
    below n1 start -> links_fresh (Lge n1) ls -> no_delete ls -> startfacts swc start ->
    ls <> [] -> swc = head_call ls ->
    let md := mode_of isdel (storeThis i && ends_with_access e0) in
    md <> TStore -> (md = TDelete -> exists pre l, ls = pre ++ [l] /\ member_link l) ->
    simM (Lge n1) (fun _ => True) (PostR S w th md (thisArg (snd (fst (lowerOptionalChain F e0 i out n1)))))
         (ev (fst (fst (lowerOptionalChain F e0 i out n1))))
         (bind (ev start) (fun r => if nullish (valof r) then ret (if isdel then ov (VBool true) else OShort)
                                    else tail_run S w th md ls r)).
  Proof.
    intros Hci Hfl Hisd Hdacc Hn1 Hn2 HF Hto Hbs Hlf Hnd Hsf Hne Hhd md Hmd Hmdel.
    set (L := Lge n1) in *.
    assert (Ln1 : L n1) by (unfold L, Lge; lia).
    destruct swc; cbn [startfacts] in Hsf.
    - (* the chain starts with a call *)
      destruct ls as [| l0 rest]; [contradiction |].
      destruct l0; cbn [head_call] in Hhd; try discriminate Hhd.
      assert (Hndr : no_delete rest) by (inversion Hnd; assumption).
      assert (Hdelr : md = TDelete -> exists pre l, rest = pre ++ [l] /\ member_link l).
      { intro Hm. destruct (Hmdel Hm) as (pre & l & E & Hl). destruct pre as [| p pre'].
        - injection E as <- _. contradiction.
        - injection E as _ ->. exists pre', l. split; [reflexivity | exact Hl]. }
      destruct Hsf as [(tg & name & -> & Hok) | [(tg & key & -> & Hok) | (Hna & Hok)]].
      + (* tg.name?.( *)
        cbn in Hbs.
        destruct (capture tg n1) as [[f a] n2] eqn:Hc.
        destruct (capture_tmps tg n1 f a n2 Hc Hbs) as (_ & _ & Hn2b).
        assert (Ln2 : L n2) by (unfold L, Lge; lia).
        apply (loc_sound_some S w th L F e0 i out n1 (EDot tg name OcNone) args rest true
                 (EDot f name OcNone) a n2 (EAssign (ETmp n2) (EDot f name OcNone)) (ETmp n2) (n2 + 1)
                 (ev (EDot tg name OcNone)) isdel); auto; try discriminate.
        * cbn [step2]. rewrite Hto, Hc. reflexivity.
        * apply (start_member S w th L (LCall args :: rest) tg name n1 f a n2 Hc Hok Ln1 Ln2 (below_fresh n1 tg Hbs)).
        * apply robust_tmp; [exact Ln2 | lia].
        * apply (capture_robust_next S w th L (n2 + 1) tg n1 f a n2 Hc Hok Ln1). lia.
        * unfold L, Lge. lia.
        * intro Hm. contradiction.
      + (* tg[key]?.( *)
        assert (Hb1 : below n1 tg) by (intros j Hj; apply Hbs; cbn; apply in_app_iff; auto).
        assert (Hb2 : below n1 key) by (intros j Hj; apply Hbs; cbn; apply in_app_iff; auto).
        destruct (capture tg n1) as [[f a] n2] eqn:Hc.
        destruct (capture_tmps tg n1 f a n2 Hc Hb1) as (_ & _ & Hn2b).
        assert (Ln2 : L n2) by (unfold L, Lge; lia).
        apply (loc_sound_some S w th L F e0 i out n1 (EIndex tg key OcNone) args rest true
                 (EIndex f key OcNone) a n2 (EAssign (ETmp n2) (EIndex f key OcNone)) (ETmp n2) (n2 + 1)
                 (ev (EIndex tg key OcNone)) isdel); auto; try discriminate.
        * cbn [step2]. rewrite Hto, Hc. reflexivity.
        * apply (start_index S w th L (LCall args :: rest) tg key n1 f a n2 Hc Hok Ln1 Ln2 (below_fresh n1 tg Hb1) (below_fresh n1 key Hb2)).
        * apply robust_tmp; [exact Ln2 | lia].
        * apply (capture_robust_next S w th L (n2 + 1) tg n1 f a n2 Hc Hok Ln1). lia.
        * unfold L, Lge. lia.
        * intro Hm. contradiction.
      + (* start?.( with a start that is not a member access *)
        destruct (capture start n1) as [[first again] n3] eqn:Hc.
        destruct (capture_tmps start n1 first again n3 Hc Hbs) as (_ & _ & Hn3b).
        apply (loc_sound_none S w th L F e0 i out n1 start (LCall args :: rest) true first again n3
                 (ev start) isdel); auto; try discriminate.
        * cbn [step2]. rewrite Hto. destruct start; try reflexivity; discriminate Hna.
        * apply (start_plain S w th L (LCall args :: rest) start n1 first again n3 Hc Hok Ln1 (below_fresh n1 start Hbs)).
          intros _ m0 s0. apply (nonaccess_base S w th start Hna m0 s0).
        * apply (capture_robust_next S w th L n3 start n1 first again n3 Hc Hok Ln1). lia.
        * unfold L, Lge. lia.
        * intro Hm. contradiction.
    - (* the chain starts with a member access *)
      destruct (capture start n1) as [[first again] n3] eqn:Hc.
      destruct (capture_tmps start n1 first again n3 Hc Hbs) as (_ & _ & Hn3b).
      apply (loc_sound_none S w th L F e0 i out n1 start ls false first again n3 (ev start) isdel);
        auto; try discriminate.
      * apply (start_plain S w th L ls start n1 first again n3 Hc Hsf Ln1 (below_fresh n1 start Hbs)).
        intro Hh. rewrite <- Hhd in Hh. discriminate Hh.
      * apply (capture_robust_next S w th L n3 start n1 first again n3 Hc Hsf Ln1). lia.
      * unfold L, Lge. lia.
      * intro Hm. contradiction.
  Qed.

  Lemma start_dec (start : expr) : (start = ENull \/ start = EUndef) \/ (start <> ENull /\ start <> EUndef).
  Proof. destruct start; try (right; split; discriminate); left; auto. Qed.

  Lemma root_obs e' i out n1 :
    call_intact S w -> below n1 e' -> frag e' -> thisArg out = None -> chainfacts e' ->
    (storeThis i = true -> ends_with_access e' = false) ->
    forall m s, observe (ev (fst (fst (lowerOptionalChain F e' i out n1))) m s) = observe (ev e' m s).
  Proof.
    intros Hci Hb Hfr Hto Hcf Hsti.
    destruct (frag_flatten e' Hfr) as (start & ls & swc & Hfl & Hne).
    destruct (flatten_below e' n1 start ls swc Hb Hfl) as [Hbs Hbl].
    destruct (native_chain S w th e' Hfr start ls swc Hfl) as [_ Hnat].
    destruct (start_dec start) as [Hdead | [Hn1 Hn2]].
    { apply (chain_dead S w th F e' i out n1 start ls swc Hfr Hfl Hdead). }
    destruct (f_optchain F) eqn:HF.
    2: { intros m s. unfold lowerOptionalChain. rewrite Hfl, (start_match start _ _ Hn1 Hn2), HF. reflexivity. }
    destruct (Hcf HF) as (start' & ls' & swc' & Hfl' & Hnd & Hsf).
    rewrite Hfl in Hfl'. injection Hfl' as <- <- <-.
    assert (Hmd : mode_of false (storeThis i && ends_with_access e') = TPlain).
    { destruct (storeThis i) eqn:Es; [rewrite (Hsti eq_refl) |]; reflexivity. }
    pose proof (root_sim false e' i out n1 start ls swc Hci Hfl (frag_not_delete e' Hfr) ltac:(discriminate)
                  Hn1 Hn2 HF Hto Hbs Hbl Hnd Hsf Hne (flatten_head e' Hfr start ls swc Hfl)) as T.
    cbn zeta in T. rewrite Hmd in T.
    apply (simM_observe S (Lge n1) (PostR S w th TPlain (thisArg (snd (fst (lowerOptionalChain F e' i out n1)))))).
    { intros m0 a0 b0 [H _]. exact H. }
    eapply simM_ext; [intros; reflexivity | intros m0 s0; apply Hnat |].
    apply T; discriminate.
  Qed.

  Lemma root_del_obs e' i out n1 :
    call_intact S w -> below n1 e' -> frag e' -> ends_with_access e' = true -> thisArg out = None -> chainfacts e' ->
    forall m s, observe (ev (fst (fst (lowerOptionalChain F (EDelete e') i out n1))) m s) = observe (ev (EDelete e') m s).
  Proof.
    intros Hci Hb Hfr Hacc Hto Hcf.
    destruct (native_delete S w th e' Hfr Hacc) as (start & pre & lm & swc & Hfl & Hmem & Hhd & Hnat).
    set (ls := pre ++ [lm]) in *.
    destruct (flatten_below e' n1 start ls swc Hb Hfl) as [Hbs Hbl].
    assert (HflD : flatten (EDelete e') = Some (start, ls ++ [LDelete], swc)) by (cbn [flatten]; rewrite Hfl; reflexivity).
    destruct (start_dec start) as [Hdead | [Hn1 Hn2]].
    { intros m s. rewrite Hnat. unfold lowerOptionalChain. rewrite HflD. cbn [is_delete].
      destruct Hdead as [-> | ->]; reflexivity. }
    destruct (f_optchain F) eqn:HF.
    2: { intros m s. unfold lowerOptionalChain. rewrite HflD, (start_match start _ _ Hn1 Hn2), HF. reflexivity. }
    destruct (Hcf HF) as (start' & ls' & swc' & Hfl' & Hnd & Hsf).
    rewrite Hfl in Hfl'. injection Hfl' as <- <- <-.
    assert (Hlsne : ls <> []) by (unfold ls; destruct pre; discriminate).
    pose proof (root_sim true (EDelete e') i out n1 start ls swc Hci HflD eq_refl ltac:(reflexivity)
                  Hn1 Hn2 HF Hto Hbs Hbl Hnd Hsf Hlsne Hhd) as T.
    cbn zeta in T. change (mode_of true _) with TDelete in T.
    apply (simM_observe S (Lge n1) (PostR S w th TDelete (thisArg (snd (fst (lowerOptionalChain F (EDelete e') i out n1)))))).
    { intros m0 a0 b0 [H _]. exact H. }
    eapply simM_ext; [intros; reflexivity | | apply T; [discriminate | intros _; exists pre, lm; split; [reflexivity | exact Hmem]]].
    intros m0 s0. rewrite Hnat. unfold tail_run, ls. rewrite removelast_last, last_last. reflexivity.
  Qed.

  Lemma inv2_inv e e' n n' : is_chain_link e = false -> inv2 e e' n n' -> inv S w th e e' n n'.
  Proof.
    intros Hc (H1 & H2 & H3 & H4 & H5 & H6). split; [exact H1 |]. split; [exact H2 |]. split; [exact H3 |].
    split; [intro Ha; apply (H4 Ha Hc) |]. split; assumption.
  Qed.

  Lemma mkA i e e' o n n' :
    hasChainParent i && is_chain_link e = false ->
    inv2 e e' n n' -> (is_chain_link e = false -> sub_inv e e') -> childChain o = false -> thisArg o = None ->
    nonacc e e' -> concl2 i e (e', o, n') n.
  Proof.
    intros Hm H1 H2 H3 H4 H5. unfold concl2. rewrite Hm.
    split; [exact H1 |]. split; [exact H2 |]. split; [exact H3 |]. split; [exact H4 | exact H5].
  Qed.

  Lemma mk_inv2 e e' n n' :
    n <= n' -> below n' e' -> Rv e' e -> (ends_with_access e = false \/ is_chain_link e = true) ->
    (forall k, e' <> ETmp k) -> (forall x, e' = EId x -> In x (head_ids e)) -> inv2 e e' n n'.
  Proof.
    intros H1 H2 H3 H4 H5 H6. split; [exact H1 |]. split; [exact H2 |]. split; [exact H3 |].
    split; [intros Ha Hc; destruct H4; congruence |]. split; assumption.
  Qed.

  Lemma root_concl i e e0 oc n n1 :
    hasChainParent i && is_chain_link e = false ->
    (ends_with_access e = false \/ is_chain_link e = true) -> (is_chain_link e = false -> forall x, sub_inv e x) ->
    n <= n1 -> below n1 e0 -> thisArg oc = None -> storeThis i && ends_with_access e0 = false ->
    Rv e0 e -> (forall k, e0 <> ETmp k) -> (forall x, e0 <> EId x) ->
    (ends_with_access e = false -> ends_with_access e0 = false) ->
    (forall m s, observe (ev (fst (fst (lowerOptionalChain F e0 i oc n1))) m s) = observe (ev e0 m s)) ->
    concl2 i e (lowerOptionalChain F e0 i oc n1) n.
  Proof.
    intros Hm Hacc Hsub Hn Hb Hto Hst Hr Hk Hx Hna Hobs.
    pose proof (loc_child F e0 i oc n1) as Hcc. pose proof (loc_this_none F e0 i oc n1 Hst) as Hth.
    pose proof (loc_shape F e0 i oc n1) as Hsh.
    destruct (lowerOptionalChain F e0 i oc n1) as [[lo o2] n'] eqn:El. cbn [fst snd] in *.
    destruct (loc_below F e0 i oc n1 lo o2 n' El Hb Hto) as [Hn' Hbl].
    apply mkA; [exact Hm | | intro H; apply Hsub, H | exact Hcc | exact Hth |].
    - apply mk_inv2; [lia | exact Hbl | eapply obs_then_R; [exact Hobs | exact Hr] | exact Hacc | |].
      + intros k Hk'. destruct Hsh as [-> | [-> | [-> | (c & a & b & ->)]]]; try discriminate Hk'. exact (Hk k Hk').
      + intros x Hx'. exfalso.
        destruct Hsh as [-> | [-> | [-> | (c & a & b & ->)]]]; try discriminate Hx'. exact (Hx x Hx').
    - intros Hna' _. destruct Hsh as [-> | [-> | [-> | (c & a & b & ->)]]]; try reflexivity. exact (Hna Hna').
  Qed.

  Lemma not_link_none o : negb (oc_eqb o OcNone) = false -> o = OcNone.
  Proof. destruct o; [reflexivity | discriminate | discriminate]. Qed.

  Lemma link_not_access e : is_chain_link e = true -> is_chain_access e = false -> ends_with_access e = false.
  Proof. destruct e; cbn; intros Hl Ha; try reflexivity; congruence. Qed.

  Lemma keep_this_none i o : thisArg o = None -> keep_this i o = None.
  Proof. intro H. unfold keep_this. rewrite H. destruct (hasChainParent i); reflexivity. Qed.

  (* a chain node with lowered pieces: either it stays a fragment (its parent
     continues the chain) or it is the root and lowerOptionalChain is applied *)
  Lemma finish_frag i e e' oc n n1 :
    call_intact S w -> is_chain_link e = true -> ok_in i e ->
    ends_with_access e' = ends_with_access e ->
    n <= n1 -> below n1 e' -> frag e' -> Rx e' e -> thisArg oc = None -> chainfacts e' -> fsub e e' ->
    concl2 i e (if true && negb (hasChainParent i) then lowerOptionalChain F e' i oc n1
                else (e', mkOut (keep_this i oc) true, n1)) n.
  Proof.
    intros Hci Hcl Hoki Hea Hn Hb Hfr Hrx Hto Hcf Hfs.
    assert (Hsti : storeThis i = true -> ends_with_access e' = false).
    { intro Hs. rewrite Hea. apply (link_not_access e Hcl), Hoki, Hs. }
    destruct (hasChainParent i) eqn:Hcp; cbn [andb negb].
    - unfold concl2. rewrite Hcp, Hcl. cbn [andb]. repeat split; auto. apply keep_this_none, Hto.
    - apply root_concl; [rewrite Hcp; reflexivity | right; exact Hcl | intro H; congruence | exact Hn | exact Hb
                         | exact Hto | | apply Rx_Rv, Hrx | intros k ->; destruct Hfr | intros x ->; destruct Hfr
                         | congruence | apply root_obs; assumption].
      destruct (storeThis i) eqn:Es; [rewrite (Hsti eq_refl) |]; reflexivity.
  Qed.

  (* what the chain cases need beyond the others: nothing where there is no chain *)
  Definition ci_or (e : expr) : Prop := call_intact S w \/ src F C e.

  Lemma ci_sub e e' : ci_or e -> (src F C e -> src F C e') -> ci_or e'.
  Proof. intros [Hc | Hs] H; [left; exact Hc | right; exact (H Hs)]. Qed.

  Lemma src_not_link e : src F C e -> is_chain_link e = false.
  Proof. destruct e; cbn; auto; intros [-> _]; reflexivity. Qed.

  Lemma ci_link e : ci_or e -> is_chain_link e = true -> call_intact S w.
  Proof. intros [Hc | Hs] Hl; [exact Hc |]. rewrite (src_not_link e Hs) in Hl. discriminate Hl. Qed.

  Lemma A_of i e r n : hasChainParent i && is_chain_link e = false -> concl2 i e r n ->
    match r with (e', o, n') =>
      inv2 e e' n n' /\ (is_chain_link e = false -> sub_inv e e') /\ childChain o = false /\ thisArg o = None /\ nonacc e e'
    end.
  Proof. intros Hm H. destruct r as [[e' o] n']. unfold concl2 in H. rewrite Hm in H. exact H. Qed.

  Lemma F_of i e r n : hasChainParent i && is_chain_link e = true -> concl2 i e r n ->
    match r with (e', o, n') => fragc e e' o n n' end.
  Proof. intros Hm H. destruct r as [[e' o] n']. unfold concl2 in H. rewrite Hm in H. exact H. Qed.

  Ltac nostore := let H := fresh in intro H; discriminate H.

  (* the visitor is sound at e, whatever its parent asks for *)
  Definition vsound (e : expr) : Prop :=
    src2 e -> ci_or e -> forall i c, ok_in i e -> concl2 i e (visit F i e c) c.

  Lemma vsound_whole i e c : vsound e -> src2 e -> ci_or e -> ok_in i e ->
    hasChainParent i && is_chain_link e = false ->
    match visit F i e c with (e', o, n') =>
      inv2 e e' c n' /\ (is_chain_link e = false -> sub_inv e e') /\
      childChain o = false /\ thisArg o = None /\ nonacc e e'
    end.
  Proof. intros H Hs Hor Hok Hm. apply (A_of i e _ c Hm), H; assumption. Qed.

  Lemma vsound_operand e c : vsound e -> src2 e -> ci_or e ->
    match visit F (mkIn false false) e c with (e', o, n') =>
      inv2 e e' c n' /\ (is_chain_link e = false -> sub_inv e e') /\
      childChain o = false /\ thisArg o = None /\ nonacc e e'
    end.
  Proof. intros H Hs Hor. apply vsound_whole; [exact H | exact Hs | exact Hor | nostore | reflexivity]. Qed.

  Lemma vsound_link e c : vsound e -> src2 e -> ci_or e -> is_chain_link e = true ->
    match visit F (mkIn true false) e c with (e', o, n') => fragc e e' o c n' end.
  Proof. intros H Hs Hor Hl. apply (F_of (mkIn true false) e _ c Hl), H; [exact Hs | exact Hor | nostore]. Qed.

  Lemma vlist_sound2 args :
    Forall vsound args -> srcs2 args -> call_intact S w \/ srcs F C args -> forall n,
      match vlist F args n with
      | (args', n2) => n <= n2 /\ (forall j, In j (flat_map tmps args') -> j < n2) /\ Forall2 Rv args' args
      end.
  Proof.
    induction 1 as [| x l Hx Hl IH]; intros Hs Hor n; cbn [vlist].
    - split; [lia |]. split; [intros j [] | constructor].
    - destruct Hs as [Hsx Hsl].
      assert (Hox : ci_or x) by (destruct Hor as [Hc | [Hx' _]]; [left | right]; assumption).
      assert (Hol : call_intact S w \/ srcs F C l) by (destruct Hor as [Hc | [_ Hl']]; [left | right]; assumption).
      pose proof (vsound_operand x n Hx Hsx Hox) as Hx'.
      destruct (visit F (mkIn false false) x n) as [[x' ox] n1].
      destruct Hx' as ((Hn & Hb & Hr & _) & _).
      specialize (IH Hsl Hol n1). destruct (vlist F l n1) as [l' n2].
      destruct IH as (Hn2 & Hbl & Hrl).
      split; [lia |]. split; [| constructor; assumption].
      intros j Hj. cbn in Hj. apply in_app_iff in Hj. destruct Hj as [Hj | Hj];
        [specialize (Hb j Hj); lia | apply Hbl, Hj].
  Qed.

  Lemma src2_srcs args :
    (fix all (l : list expr) : Prop := match l with [] => True | x :: r => src2 x /\ all r end) args = srcs2 args.
  Proof. induction args; cbn; congruence. Qed.

  Lemma leafA i e n : tmps e = [] -> ends_with_access e = false -> is_chain_link e = false ->
    (forall k, e <> ETmp k) -> (forall x, e = EId x -> In x (head_ids e)) ->
    (match e with EId _ | EDot _ _ _ | EIndex _ _ _ => False | _ => True end) ->
    concl2 i e (e, out0, n) n.
  Proof.
    intros Ht Ha Hc Hk Hx Hsh. apply mkA; [rewrite Hc; apply andb_false_r | | | reflexivity | reflexivity |].
    - apply mk_inv2; auto; [lia | intros j Hj; rewrite Ht in Hj; contradiction | apply Rx_Rv, R_refl, Ht].
    - intros _. destruct e; try exact I; contradiction.
    - intros _ _. exact Ha.
  Qed.

  Lemma tgt_shape_nochain t : tgt_shape t -> is_chain_link t = false.
  Proof. destruct t; cbn; intro H; try contradiction; try reflexivity; destruct o; try contradiction; reflexivity. Qed.

  Lemma plainA i e e' n n' :
    is_chain_link e = false -> ends_with_access e = false -> sub_inv e e' -> nonacc e e' ->
    n <= n' -> below n' e' -> Rv e' e -> (forall k, e' <> ETmp k) -> (forall x, e' = EId x -> In x (head_ids e)) ->
    concl2 i e (e', out0, n') n.
  Proof.
    intros Hc Ha Hs Hna Hn Hb Hr Hk Hx.
    apply mkA; [rewrite Hc; apply andb_false_r | | intros _; exact Hs | reflexivity | reflexivity | exact Hna].
    apply mk_inv2; auto.
  Qed.

  Lemma lt_app n1 n2 (l1 l2 : list Z) : n1 <= n2 ->
    (forall j, In j l1 -> j < n1) -> (forall j, In j l2 -> j < n2) -> forall j, In j (l1 ++ l2) -> j < n2.
  Proof.
    intros Hn H1 H2 j Hj. apply in_app_iff in Hj. destruct Hj as [Hj | Hj]; [specialize (H1 j Hj); lia | exact (H2 j Hj)].
  Qed.

  Lemma access_not_chain e : is_chain_access e = false -> ends_with_access e = true -> is_chain_link e = false.
  Proof. destruct e; cbn; intros Hc Ha; try discriminate Ha; exact Hc. Qed.

  Lemma visit_dot e name o : vsound e -> vsound (EDot e name o).
  Proof.
    intros IHe Hs Hor i c Hoki. cbn [src2] in Hs.
    destruct Hs as (Hst & Hcont & Hconst). cbn [visit].
    pose proof (ci_sub _ e Hor (fun H => proj2 H)) as Hor1.
    destruct o; cbn [oc_eqb orb andb].
    - (* plain member access *)
      pose proof (vsound_operand e c IHe Hst Hor1) as IH.
      destruct (visit F (mkIn false false) e c) as [[t' ot] n1].
      destruct IH as ((Hn & Hb & Hr & _ & Hk & Hx) & _ & _ & Hth & _).
      apply mkA; [apply andb_false_r | | | reflexivity | apply keep_this_none, Hth | intros H; discriminate H].
      + split; [exact Hn |]. split; [exact Hb |]. split; [apply Rx_Rv, (cong_dot_oc S w th OcNone), Hr |].
        split; [intros _ _; split; [apply (cong_dot_oc S w th OcNone), Hr | reflexivity] |]. split; intros; discriminate.
      + intros _. exists t'. repeat split; auto.
    - (* a?.name *)
      pose proof (vsound_operand e c IHe Hst Hor1) as IH.
      destruct (visit F (mkIn false false) e c) as [[t' ot] n1].
      destruct IH as ((Hn & Hb & Hr & _ & Hk & Hx) & _ & _ & Hth & _).
      apply finish_frag; [exact (ci_link _ Hor eq_refl) | reflexivity | exact Hoki | reflexivity | exact Hn
                         | exact Hb | exact I | apply cong_dot_oc, Hr | exact Hth | | ].
      + apply (chainfacts_start (EDot t' name OcStart) t' (LDot name) eq_refl); [discriminate |]. intro HF.
        apply (shape_cap_ok S w C HC e t'); [split; assumption | apply Hconst; auto].
      + exists t'. split; [reflexivity | exact Hr].
    - (* ... .name continuing a chain *)
      pose proof (vsound_link e c IHe Hst Hor1 (Hcont eq_refl)) as IH.
      destruct (visit F (mkIn true false) e c) as [[t' ot] n1].
      destruct IH as (Hn & Hb & Hfr & Hrx & Hcc & Hth & Hcf & _ & _).
      rewrite Hcc.
      apply finish_frag; [exact (ci_link _ Hor eq_refl) | reflexivity | exact Hoki | reflexivity | exact Hn
                         | exact Hb | exact Hfr | apply cong_dot_oc, Hrx | exact Hth | | ].
      + apply (chainfacts_cont (EDot t' name OcCont) t' (LDot name) eq_refl); [discriminate | exact Hcf].
      + exists t'. split; [reflexivity | exact Hrx].
  Qed.

  Lemma visit_index e1 e2 o : vsound e1 -> vsound e2 -> vsound (EIndex e1 e2 o).
  Proof.
    intros IHe1 IHe2 Hs Hor i c Hoki. cbn [src2] in Hs.
    destruct Hs as (Hst & Hsk & Hcont & Hconst). cbn [visit].
    pose proof (ci_sub _ e1 Hor (fun H => proj1 (proj2 H))) as Hor1.
    pose proof (ci_sub _ e2 Hor (fun H => proj2 (proj2 H))) as Hor2.
    destruct o; cbn [oc_eqb orb andb].
    - pose proof (vsound_operand e1 c IHe1 Hst Hor1) as IH1.
      destruct (visit F (mkIn false false) e1 c) as [[t' ot] n1].
      destruct IH1 as ((Hn & Hb & Hr & _ & Hk & Hx) & _ & _ & Hth & _).
      pose proof (vsound_operand e2 n1 IHe2 Hsk Hor2) as IH2.
      destruct (visit F (mkIn false false) e2 n1) as [[k' ok] n2].
      destruct IH2 as ((Hn2 & Hb2 & Hr2 & _ & Hk2 & Hx2) & _).
      apply mkA; [apply andb_false_r | | | reflexivity | apply keep_this_none, Hth | intros H; discriminate H].
      + split; [lia |]. split; [exact (lt_app n1 n2 _ _ Hn2 Hb Hb2) |].
        split; [apply Rx_Rv, (cong_index_oc S w th OcNone); assumption |].
        split; [intros _ _; split; [apply (cong_index_oc S w th OcNone); assumption | reflexivity] |]. split; intros; discriminate.
      + intros _. exists t', k'. repeat split; auto.
    - pose proof (vsound_operand e1 c IHe1 Hst Hor1) as IH1.
      destruct (visit F (mkIn false false) e1 c) as [[t' ot] n1].
      destruct IH1 as ((Hn & Hb & Hr & _ & Hk & Hx) & _ & _ & Hth & _).
      pose proof (vsound_operand e2 n1 IHe2 Hsk Hor2) as IH2.
      destruct (visit F (mkIn false false) e2 n1) as [[k' ok] n2].
      destruct IH2 as ((Hn2 & Hb2 & Hr2 & _ & Hk2 & Hx2) & _).
      apply finish_frag; [exact (ci_link _ Hor eq_refl) | reflexivity | exact Hoki | reflexivity | lia
                         | exact (lt_app n1 n2 _ _ Hn2 Hb Hb2) | exact I | apply cong_index_oc; assumption
                         | exact Hth | | ].
      + apply (chainfacts_start (EIndex t' k' OcStart) t' (LIndex k') eq_refl); [discriminate |]. intro HF.
        apply (shape_cap_ok S w C HC e1 t'); [split; assumption | apply Hconst; auto].
      + exists t', k'. split; [reflexivity |]. split; [exact Hr | exact Hr2].
    - pose proof (vsound_link e1 c IHe1 Hst Hor1 (Hcont eq_refl)) as IH1.
      destruct (visit F (mkIn true false) e1 c) as [[t' ot] n1].
      destruct IH1 as (Hn & Hb & Hfr & Hrx & Hcc & Hth & Hcf & _ & _).
      pose proof (vsound_operand e2 n1 IHe2 Hsk Hor2) as IH2.
      destruct (visit F (mkIn false false) e2 n1) as [[k' ok] n2].
      destruct IH2 as ((Hn2 & Hb2 & Hr2 & _ & Hk2 & Hx2) & _).
      rewrite Hcc.
      apply finish_frag; [exact (ci_link _ Hor eq_refl) | reflexivity | exact Hoki | reflexivity | lia
                         | exact (lt_app n1 n2 _ _ Hn2 Hb Hb2) | exact Hfr | apply cong_index_oc; assumption
                         | exact Hth | | ].
      + apply (chainfacts_cont (EIndex t' k' OcCont) t' (LIndex k') eq_refl); [discriminate | exact Hcf].
      + exists t', k'. split; [reflexivity |]. split; [exact Hrx | exact Hr2].
  Qed.

  Lemma visit_call e args o : vsound e -> Forall vsound args -> vsound (ECall e args o).
  Proof.
    intros IHe H Hs Hor i c Hoki. cbn [src2] in Hs.
    destruct Hs as (Hsf & Hsa & Hcont & Hnca & Hnb & Hconst). rewrite src2_srcs in Hsa.
    pose proof (ci_sub _ e Hor (fun H => proj1 (proj2 H))) as Hor1.
    assert (Hora : call_intact S w \/ srcs F C args)
      by (destruct Hor as [Hc | (_ & _ & Ha)]; [left; exact Hc | right; rewrite <- src_srcs; exact Ha]).
    cbn [visit]. fold (vlist F args).
    destruct o; cbn [oc_eqb orb andb].
    - (* plain call *)
      rewrite (Hnca ltac:(discriminate)).
      pose proof (vsound_operand e c IHe Hsf Hor1) as IH.
      destruct (visit F (mkIn false false) e c) as [[f' of] n1].
      destruct IH as ((Hn & Hb & Hr & Hacc & Hk & Hx) & _ & _ & Hth & Hna).
      pose proof (vlist_sound2 args H Hsa Hora n1) as Hl.
      destruct (vlist F args n1) as [args' n2]. destruct Hl as (Hn2 & Hbl & Hrl).
      set (f'' := if negb (ends_with_access e) && ends_with_access f' && true
                  then EBin BComma (ENum 0) f' else f').
      assert (Hf'' : Rb f'' e /\ below n1 f'').
      { unfold f''. destruct (ends_with_access e) eqn:Ea.
        - cbn. destruct (Hacc eq_refl (access_not_chain e (Hnca ltac:(discriminate)) Ea)) as [Hrx _]. split; [apply Rx_Rb, Hrx | exact Hb].
        - cbn [negb andb]. destruct (ends_with_access f') eqn:Ea'; cbn [andb].
          + split; [| intros j Hj; cbn in Hj; apply Hb, Hj].
            apply Rv_nonaccess_Rb; [reflexivity | exact Ea | apply cong_comma0, Hr].
          + split; [| exact Hb]. apply Rv_nonaccess_Rb; assumption. }
      destruct Hf'' as [Hrb Hbf]. fold f''.
      apply mkA; [apply andb_false_r | | intros _; exact I | reflexivity
                  | apply keep_this_none, Hth | intros _ _; reflexivity].
      apply mk_inv2; [lia | exact (lt_app n1 n2 _ _ Hn2 Hbf Hbl) | apply Rx_Rv, (cong_call_oc S w th OcNone); assumption | left; reflexivity
                      | intros; discriminate | intros; discriminate].
    - (* f?.(args) *)
      pose proof (vsound_whole (mkIn false true) e c IHe Hsf Hor1 ltac:(intros _; apply Hnca; discriminate) eq_refl) as IH.
      destruct (visit F (mkIn false true) e c) as [[f' of] n1].
      destruct IH as ((Hn & Hb & Hr & Hacc & Hk & Hx) & Hsub & _ & Hth & Hna).
      pose proof (vlist_sound2 args H Hsa Hora n1) as Hl.
      destruct (vlist F args n1) as [args' n2]. destruct Hl as (Hn2 & Hbl & Hrl).
      pose proof (access_not_chain e (Hnca ltac:(discriminate))) as Hcl.
      assert (Hw' : (if negb (ends_with_access e) && ends_with_access f' && negb (f_optchain F)
                     then EBin BComma (ENum 0) f' else f') = f').
      { destruct (ends_with_access e) eqn:Ea; [reflexivity |]. rewrite (Hna Ea (Hnb eq_refl)). reflexivity. }
      rewrite Hw'.
      assert (Hrb : Rb f' e).
      { destruct (ends_with_access e) eqn:Ea.
        - destruct (Hacc eq_refl (Hcl eq_refl)) as [Hrx _]. apply Rx_Rb, Hrx.
        - apply Rv_nonaccess_Rb; [apply (Hna Ea (Hnb eq_refl)) | exact Ea | exact Hr]. }
      apply finish_frag; [exact (ci_link _ Hor eq_refl) | reflexivity | exact Hoki | reflexivity | lia | exact (lt_app n1 n2 _ _ Hn2 Hb Hbl) | exact I
                          | apply cong_call_oc; assumption | exact Hth | | exact I].
      apply (chainfacts_start (ECall f' args' OcStart) f' (LCall args') eq_refl); [discriminate |]. intro HF.
      cbn [startfacts]. specialize (Hconst HF eq_refl).
      destruct e;
        try (right; right; split; [apply (Hna eq_refl (Hnb eq_refl)) | eapply shape_cap_ok; [exact HC | split; [exact Hk | exact Hx] | exact Hconst]]).
      + specialize (Hsub (Hcl eq_refl)). cbn [sub_inv] in Hsub. destruct Hsub as (t' & -> & Hrt & Hsh).
        pose proof (not_link_none o (Hcl eq_refl)) as ->.
        left. exists t', name. split; [reflexivity |]. apply (shape_cap_ok S w C HC e t' Hsh Hconst).
      + specialize (Hsub (Hcl eq_refl)). cbn [sub_inv] in Hsub. destruct Hsub as (t' & k' & -> & Hrt & Hrk & Hsh1 & Hsh2).
        pose proof (not_link_none o (Hcl eq_refl)) as ->.
        right. left. exists t', k'. split; [reflexivity |]. apply (shape_cap_ok S w C HC e1 t' Hsh1 Hconst).
    - (* ...(args) continuing a chain *)
      pose proof (vsound_link e c IHe Hsf Hor1 (Hcont eq_refl)) as IH.
      destruct (visit F (mkIn true false) e c) as [[f' of] n1].
      destruct IH as (Hn & Hb & Hfr & Hrx & Hcc & Hth & Hcf & _ & Hea).
      pose proof (vlist_sound2 args H Hsa Hora n1) as Hl.
      destruct (vlist F args n1) as [args' n2]. destruct Hl as (Hn2 & Hbl & Hrl).
      assert (Hw' : (if negb (ends_with_access e) && ends_with_access f' && negb (f_optchain F)
                     then EBin BComma (ENum 0) f' else f') = f').
      { rewrite Hea. destruct (ends_with_access e); reflexivity. }
      rewrite Hw'. rewrite Hcc.
      apply finish_frag; [exact (ci_link _ Hor eq_refl) | reflexivity | exact Hoki | reflexivity | lia | exact (lt_app n1 n2 _ _ Hn2 Hb Hbl) | exact Hfr
                          | apply cong_call_oc; assumption | exact Hth | | exact I].
      apply (chainfacts_cont (ECall f' args' OcCont) f' (LCall args') eq_refl); [discriminate | exact Hcf].
  Qed.

  Lemma visit_delete e : vsound e -> vsound (EDelete e).
  Proof.
    intros IHe Hs Hor i c Hoki. cbn [src2] in Hs.
    destruct Hs as [Hacc Hsd]. cbn [visit].
    pose proof (ci_sub _ e Hor (fun H => proj2 H)) as Hor1.
    destruct (is_chain_link e) eqn:Hcl.
    - (* delete of a chain *)
      pose proof (vsound_link e c IHe Hsd Hor1 Hcl) as IH.
      destruct (visit F (mkIn true false) e c) as [[d' od] n1].
      destruct IH as (Hn & Hb & Hfr & Hrx & Hcc & Hth & Hcf & Hfs & Hea).
      rewrite Hcc.
      assert (Hrd : Rx (EDelete d') (EDelete e)).
      { destruct e; cbn in Hacc; try discriminate Hacc; cbn [fsub] in Hfs.
        - destruct Hfs as (t' & -> & H1). apply cong_delete_dot_oc, H1.
        - destruct Hfs as (t' & k' & -> & H1 & H2). apply cong_delete_index_oc; assumption. }
      apply root_concl; [apply andb_false_r | left; reflexivity | intros _ x; exact I | exact Hn | exact Hb | exact Hth
                         | apply andb_false_r | apply Rx_Rv, Hrd | intros; discriminate | intros; discriminate
                         | intros _; reflexivity |].
      apply root_del_obs; [exact (ci_link e Hor1 Hcl) | exact Hb | exact Hfr | rewrite Hea; exact Hacc | exact Hth | exact Hcf].
    - (* delete of a plain member access *)
      pose proof (vsound_whole (mkIn true false) e c IHe Hsd Hor1 ltac:(nostore) Hcl) as IH.
      destruct (visit F (mkIn true false) e c) as [[d' od] n1].
      destruct IH as ((Hn & Hb & Hr & _ & Hk & Hx) & Hsub & Hcc & _).
      rewrite Hcc. specialize (Hsub Hcl).
      apply mkA; [apply andb_false_r | | intros _; exact I | reflexivity | reflexivity | intros _ _; reflexivity].
      destruct e; cbn in Hacc; try discriminate Hacc; cbn [src2] in Hsd; cbn [sub_inv] in Hsub; cbn in Hcl.
      + pose proof (not_link_none o Hcl) as ->.
        destruct Hsub as (t' & -> & Hrt & _).
        apply mk_inv2; [exact Hn | exact Hb | apply Rx_Rv, (cong_delete_dot_oc S w th OcNone), Hrt
                       | left; reflexivity | intros; discriminate | intros; discriminate].
      + pose proof (not_link_none o Hcl) as ->.
        destruct Hsub as (t' & k' & -> & Hrt & Hrk & _).
        apply mk_inv2; [exact Hn | exact Hb | apply Rx_Rv, (cong_delete_index_oc S w th OcNone); assumption
                       | left; reflexivity | intros; discriminate | intros; discriminate].
  Qed.

  Lemma visit_assign e1 e2 : vsound e1 -> vsound e2 -> vsound (EAssign e1 e2).
  Proof.
    intros IHe1 IHe2 Hs Hor i c Hoki. cbn [src2] in Hs.
    destruct Hs as (Hsh & Hst & Hsv). cbn [visit].
    pose proof (ci_sub _ e1 Hor (fun H => proj1 (proj2 H))) as Hor1.
    pose proof (ci_sub _ e2 Hor (fun H => proj2 (proj2 H))) as Hor2.
    pose proof (vsound_operand e1 c IHe1 Hst Hor1) as IH1.
    destruct (visit F (mkIn false false) e1 c) as [[t' ot] n1].
    destruct IH1 as (Hinv1 & Hsub1 & _).
    pose proof (vsound_operand e2 n1 IHe2 Hsv Hor2) as IH2.
    destruct (visit F (mkIn false false) e2 n1) as [[v' ov'] n2].
    destruct IH2 as ((Hn2 & Hb2 & Hr2 & _) & _).
    pose proof (tgt_shape_nochain e1 Hsh) as Hnc.
    destruct (tgt_facts S w th C HC e1 t' Hsh (Hsub1 Hnc)) as (_ & _ & Hasg & _).
    destruct Hinv1 as (Hn1 & Hb1 & _).
    apply plainA; [reflexivity | reflexivity | exact I | intros _ _; reflexivity | lia | exact (lt_app n1 n2 _ _ Hn2 Hb1 Hb2)
                   | apply Rx_Rv, Hasg, Hr2 | intros; discriminate | intros; discriminate].
  Qed.

  Lemma visit_bin op e1 e2 : vsound e1 -> vsound e2 -> vsound (EBin op e1 e2).
  Proof.
    intros IHe1 IHe2 Hs Hor i c Hoki. cbn [src2] in Hs.
    destruct Hs as (Hsa & Hsb & Hcst). cbn [visit].
    pose proof (ci_sub _ e1 Hor (fun H => proj1 H)) as Hor1.
    pose proof (ci_sub _ e2 Hor (fun H => proj1 (proj2 H))) as Hor2.
    pose proof (vsound_operand e1 c IHe1 Hsa Hor1) as IH1.
    destruct (visit F (mkIn false false) e1 c) as [[a' oa] n1].
    destruct IH1 as ((Hn1 & Hb1 & Hr1 & _ & Hk1 & Hx1) & _ & _ & _ & Hna1).
    pose proof (vsound_operand e2 n1 IHe2 Hsb Hor2) as IH2.
    destruct (visit F (mkIn false false) e2 n1) as [[b' ob] n2].
    destruct IH2 as ((Hn2 & Hb2 & Hr2 & _ & Hk2 & Hx2) & _).
    pose proof (below_mono n1 n2 a' Hn2 Hb1) as Hb1'.
    assert (Hkeep : forall op', Rv (EBin op' a' b') (EBin op' e1 e2)) by (intro; apply Rx_Rv, cong_bin; assumption).
    assert (Hbk : forall op', below n2 (EBin op' a' b')) by (intro; exact (lt_app n1 n2 _ _ Hn2 Hb1 Hb2)).
    assert (Hstd : forall op', op' <> BNullish ->
              concl2 i (EBin op' e1 e2) (EBin op' a' b', out0, n2) c).
    { intros op' Hop. apply plainA; [reflexivity | reflexivity | exact I | intros _ _; reflexivity | lia | apply Hbk | apply Hkeep
                                    | intros; discriminate | intros; discriminate]. }
    destruct op; try (apply Hstd; discriminate).
    - (* ?? *)
      assert (HA : forall e' n', n2 <= n' -> below n' e' -> Rv e' (EBin BNullish e1 e2) ->
                (forall k, e' <> ETmp k) -> (forall x, e' = EId x -> In x (head_ids e1 ++ head_ids e2)) ->
                concl2 i (EBin BNullish e1 e2) (e', out0, n') c).
      { intros e' n' Hn' Hb' Hr' Hk' Hx'.
        apply plainA; [reflexivity | reflexivity | exact I | intros _ H; discriminate H | lia
                       | exact Hb' | exact Hr' | exact Hk' | exact Hx']. }
      assert (Hlow : f_nullish F = true ->
                concl2 i (EBin BNullish e1 e2)
                  (let '(r, n3) := lowerNullishCoalescing a' b' n2 in (r, out0, n3)) c).
      { intro HN. destruct (lowerNullishCoalescing a' b' n2) as [r n3] eqn:El.
        destruct (below_step n2 n3 a' b' r (fun P => lowerNullish_tall P a' b' n2 r n3 El) Hb1' Hb2) as [Hn3 Hb3].
        pose proof (lowerNullish_compound a' b' n2) as Hc. rewrite El in Hc.
        destruct (compound_facts r Hc) as (Hs1 & Hs2 & _).
        apply HA; [exact Hn3 | exact Hb3 | | exact Hs1 | intros x Hx; exfalso; apply (Hs2 x Hx)].
        eapply obs_then_R; [| apply Hkeep].
        replace r with (fst (lowerNullishCoalescing a' b' n2)) by (rewrite El; reflexivity).
        apply lowerNullish_general.
        - apply (shape_cap_ok S w C HC e1 a'); [split; assumption | apply Hcst; auto].
        - intro Hj. specialize (Hb1' _ Hj). lia.
        - intro Hj. specialize (Hb2 _ Hj). lia. }
      assert (Hkeepc : concl2 i (EBin BNullish e1 e2) (EBin BNullish a' b', out0, n2) c).
      { apply HA; [lia | apply Hbk | apply Hkeep | intros; discriminate | intros; discriminate]. }
      destruct (to_null_or_undef a') as [[[|] se] |] eqn:Etnu; [destruct se | |].
      + (* a' is null or undefined and has no effect: folded to b' *)
        apply HA; [lia | exact Hb2 | | exact Hk2 | intros x Hx; apply in_app_iff; right; apply Hx2, Hx].
        eapply fold_null; [exact Hr1 | apply tnu_null_pure, Etnu | exact Hr2].
      + destruct (f_nullish F) eqn:HN; [apply Hlow; reflexivity | exact Hkeepc].
      + (* a' is never null or undefined: folded to a' *)
        apply HA; [lia | exact Hb1' | | exact Hk1 | intros x Hx; apply in_app_iff; left; apply Hx1, Hx].
        apply fold_nonnull; [exact Hr1 | apply (tnu_nonnull S w th Hbin Hdel a' _ Etnu)].
      + destruct (f_nullish F) eqn:HN; [apply Hlow; reflexivity | exact Hkeepc].
    - (* ** *)
      destruct (f_exp F); [| apply Hstd; discriminate].
      apply plainA; [reflexivity | reflexivity | exact I | intros _ _; reflexivity | lia | exact (Hbk BPow) | apply Rx_Rv, cong_pow; assumption
                     | intros; discriminate | intros; discriminate].
  Qed.

  Lemma visit_opasg op e1 e2 : vsound e1 -> vsound e2 -> vsound (EOpAsg op e1 e2).
  Proof.
    intros IHe1 IHe2 Hs Hor i c Hoki. cbn [src2] in Hs.
    destruct Hs as (Hsh & Hst & Hsv & Hcst). cbn [visit].
    pose proof (ci_sub _ e1 Hor (fun H => proj1 (proj2 H))) as Hor1.
    pose proof (ci_sub _ e2 Hor (fun H => proj1 (proj2 (proj2 H)))) as Hor2.
    pose proof (vsound_operand e1 c IHe1 Hst Hor1) as IH1.
    destruct (visit F (mkIn false false) e1 c) as [[t' ot] n1].
    destruct IH1 as (Hinv1 & Hsub1 & _).
    pose proof (vsound_operand e2 n1 IHe2 Hsv Hor2) as IH2.
    destruct (visit F (mkIn false false) e2 n1) as [[v' ov'] n2].
    destruct IH2 as ((Hn2 & Hb2 & Hr2 & _) & _).
    pose proof (tgt_shape_nochain e1 Hsh) as Hnc. specialize (Hsub1 Hnc).
    destruct (tgt_facts S w th C HC e1 t' Hsh Hsub1) as (Hsh' & Hop & _ & Hvalid).
    destruct Hinv1 as (Hn1 & Hb1 & _).
    pose proof (below_mono n1 n2 t' Hn2 Hb1) as Hb1'.
    assert (Hvt : op_lowered F op = true -> valid_target S w t').
    { intro Hl. apply Hvalid. specialize (Hcst Hl). destruct e1; auto. }
    assert (Hkeep : concl2 i (EOpAsg op e1 e2) (EOpAsg op t' v', out0, n2) c).
    { apply plainA; [reflexivity | reflexivity | exact I | intros _ _; reflexivity | lia | exact (lt_app n2 n2 _ _ (Z.le_refl n2) Hb1' Hb2)
                     | apply Rx_Rv, Hop, Hr2 | intros; discriminate | intros; discriminate]. }
    assert (Hlow : forall r n3,
              (forall P, n2 <= n3 /\ (span P n2 n3 -> tall P v' -> tall P t' -> tall P r)) -> compound r ->
              (forall m s, observe (ev r m s) = observe (ev (EOpAsg op t' v') m s)) ->
              concl2 i (EOpAsg op e1 e2) (r, out0, n3) c).
    { intros r n3 Hstep Hc Hobs. destruct (below_step n2 n3 v' t' r Hstep Hb2 Hb1') as [Hn3 Hb3].
      destruct (compound_facts r Hc) as (Hna1 & Hna2 & Hnacc).
      apply plainA; [reflexivity | reflexivity | exact I | intros _ _; exact Hnacc | lia | exact Hb3 | | exact Hna1
                     | intros x Hx; exfalso; apply (Hna2 x Hx)].
      eapply obs_then_R; [exact Hobs | apply Rx_Rv, Hop, Hr2]. }
    destruct op.
    - (* ??= *)
      destruct (lowerNullishAsg F t' v' n2) as [[r n3] |] eqn:El; [| exact Hkeep].
      pose proof (lowerNullishAsg_on F t' v' n2 _ El) as HF.
      apply Hlow; [intro P; apply (lowerNullishAsg_tall P F t' v' n2 r n3 El)
                   | apply (lowerNullishAsg_compound F t' v' n2 (r, n3) Hsh' El) |].
      apply (lowerNullishAsg_general S w th F t' v' n2 (r, n3) HF (Hvt HF) Hb1' Hb2); [| exact El].
      intros HN x Ex. specialize (Hcst HF).
      destruct e1; cbn [sub_inv] in Hsub1; try contradiction.
      + rewrite Hsub1 in Ex. injection Ex as <-. apply HC, Hcst; auto.
      + destruct Hsub1 as (? & E & _). rewrite E in Ex. discriminate Ex.
      + destruct Hsub1 as (? & ? & E & _). rewrite E in Ex. discriminate Ex.
    - (* ||= *)
      destruct (lowerLogicalAsg F BOr t' v' n2) as [[r n3] |] eqn:El; [| exact Hkeep].
      pose proof (lowerLogicalAsg_on F _ t' v' n2 _ El) as HF.
      apply Hlow; [intro P; apply (lowerLogicalAsg_tall P F BOr t' v' n2 r n3 El)
                   | apply (lowerLogicalAsg_compound F BOr t' v' n2 (r, n3) Hsh' El) |].
      apply (lowerLogicalAsg_general S w th F BOr AOr t' v' n2 (r, n3) HF (or_introl (conj eq_refl eq_refl)) (Hvt HF) Hb1' Hb2 El).
    - (* &&= *)
      destruct (lowerLogicalAsg F BAnd t' v' n2) as [[r n3] |] eqn:El; [| exact Hkeep].
      pose proof (lowerLogicalAsg_on F _ t' v' n2 _ El) as HF.
      apply Hlow; [intro P; apply (lowerLogicalAsg_tall P F BAnd t' v' n2 r n3 El)
                   | apply (lowerLogicalAsg_compound F BAnd t' v' n2 (r, n3) Hsh' El) |].
      apply (lowerLogicalAsg_general S w th F BAnd AAnd t' v' n2 (r, n3) HF (or_intror (conj eq_refl eq_refl)) (Hvt HF) Hb1' Hb2 El).
    - (* **= *)
      destruct (f_exp F) eqn:HE; [| exact Hkeep].
      destruct (lowerExpAsg t' v' n2) as [r n3] eqn:El.
      pose proof (lowerExpAsg_compound t' v' n2 Hsh') as Hse. rewrite El in Hse.
      apply Hlow; [intro P; apply (lowerExpAsg_tall P t' v' n2 r n3 El) | exact Hse |].
      pose proof (lowerExpAsg_general S w th t' v' n2 (Hvt HE) Hb1' Hb2) as Hg. rewrite El in Hg. exact Hg.
    - exact Hkeep.
  Qed.

  Theorem visit_gen : forall e, vsound e.
  Proof.
    induction e using expr_ind'; try (intros Hs; exact (False_ind _ Hs)).
    1-6: (intros _ _ i c _; cbn [visit]; apply leafA; try reflexivity; try (intros; discriminate); exact I).
    - (* EId *)
      intros _ _ i c _. cbn [visit].
      apply mkA; [apply andb_false_r | | | reflexivity | reflexivity | intros _ _; reflexivity].
      + apply mk_inv2; [lia | intros j [] | apply Rx_Rv, R_refl; reflexivity | left; reflexivity | intros; discriminate |].
        intros y Hy. injection Hy as ->. left. reflexivity.
      + intros _. reflexivity.
    - apply visit_dot, IHe.
    - apply visit_index; assumption.
    - apply visit_call; assumption.
    - apply visit_delete, IHe.
    - apply visit_assign; assumption.
    - apply visit_bin; assumption.
    - apply visit_opasg; assumption.
  Qed.

  Lemma src_src2 : forall e, src F C e -> src2 e.
  Proof.
    induction e using expr_ind'; cbn [src src2]; try tauto.
    - intros [-> Ht]. split; [auto |]. split; intros; discriminate.
    - intros (-> & Ht & Hk). split; [auto |]. split; [auto |]. split; intros; discriminate.
    - rewrite src_srcs, src2_srcs. intros (-> & Hf & Ha).
      split; [auto |]. split; [| split; [discriminate |]].
      + induction H as [| x l Hx _ IH]; [exact I |]. destruct Ha as [Hax Hal]. split; auto.
      + split; [intros _; exact (src_not_chain F C e Hf) |]. split; intros; discriminate.
  Qed.

  Theorem visit_sound e : src F C e -> forall i c, concl S w th e (visit F i e c) c.
  Proof.
    intros Hs i c. pose proof (src_not_link e Hs) as Hl.
    pose proof (vsound_whole i e c (visit_gen e) (src_src2 e Hs) (or_intror Hs) (fun _ => src_not_chain F C e Hs)
                  ltac:(rewrite Hl; apply andb_false_r)) as H.
    destruct (visit F i e c) as [[e' o] n']. destruct H as (Hi & Hsub & Hcc & _).
    split; [exact (inv2_inv e e' c n' Hl Hi) |]. split; [exact (Hsub Hl) | exact Hcc].
  Qed.

  Corollary lower_sound e : src F C e ->
    forall m s, observe (ev (lower F e) m s) = observe (ev e m s).
  Proof.
    intros Hs. unfold lower. pose proof (visit_sound e Hs (mkIn false false) 0) as H.
    destruct (visit F (mkIn false false) e 0) as [[e' o] n']. cbn [fst].
    destruct H as ((_ & _ & Hr & _) & _).
    exact (Rv_observe S w th e' e Hr).
  Qed.
End Visit2.

Section Chains.
  Variable S : Type.
  Variable w : world S.
  Variable th : val.
  Hypothesis Hbin : binop_nonnull S w.
  Hypothesis Hdel : del_nonnull S w.
  Hypothesis Hci : call_intact S w.
  Variable F : feat.
  Variable C : Z -> Prop.
  Hypothesis HC : forall x, C x -> const_var S w x.

  Theorem visit_sound2 e : src2 F C e ->
    forall i c, ok_in i e -> concl2 S w th F i e (visit F i e c) c.
  Proof. intro Hs. exact (visit_gen S w th Hbin Hdel F C HC e Hs (or_introl Hci)). Qed.

  Corollary lower_sound2 e : src2 F C e ->
    forall m s, observe (eval w th (lower F e) m s) = observe (eval w th e m s).
  Proof.
    intros Hs. unfold lower.
    pose proof (A_of S w th F (mkIn false false) e _ 0 eq_refl
                  (visit_sound2 e Hs (mkIn false false) 0 ltac:(intro H; discriminate H))) as H.
    destruct (visit F (mkIn false false) e 0) as [[e' o] n']. cbn [fst].
    destruct H as ((_ & _ & Hr & _) & _).
    exact (Rv_observe S w th e' e Hr).
  Qed.
End Chains.
