(* A small relational program logic for the evaluator: [simM L Pre Post cl cn]
   relates a "lowered" computation cl, running in a temporary store m, with a
   "native" computation cn running in a store m0 that agrees with m outside
   the set L of temporaries in flight.  Both emit the same events, reach the
   same user state, throw the same value or return results related by Post;
   Pre/Post speak about the lowered store (what the temporaries remember). *)
From V Require Import Common.Base C05.Syntax C05.Sem C05.Lower C05.Frame.

Section SimLogic.
  Variable S : Type.
  Variable w : world S.
  Variable th : val.
  Notation ev := (eval w th).
  Notation evl := (eval_list S w th).

  Definition tpred := Z -> Prop.
  Definition simL (L : tpred) (m m0 : tstore) : Prop := forall k, ~ L k -> tget m k = tget m0 k.

  Definition simM {A B} (L : tpred) (Pre : tstore -> Prop) (Post : tstore -> A -> B -> Prop)
             (cl : M S A) (cn : M S B) : Prop :=
    forall m m0 s, simL L m m0 -> Pre m ->
      match cl m s, cn m0 s with
      | (t, m', s', r), (t0, m0', s0', r0) =>
          t = t0 /\ s' = s0' /\ simL L m' m0' /\
          match r, r0 with
          | Ok a, Ok b => Post m' a b
          | Throw v, Throw v0 => v = v0
          | _, _ => False
          end
      end.

  (* Pre only depends on the temporaries in L *)
  Definition stable (L : tpred) (Pre : tstore -> Prop) : Prop :=
    forall m m', (forall k, L k -> tget m' k = tget m k) -> Pre m -> Pre m'.

  Lemma simL_refl (L : tpred) m : simL L m m.
  Proof. intros k _; reflexivity. Qed.

  Lemma simL_tset (L : tpred) m m0 n v : L n -> simL L m m0 -> simL L (tset m n v) m0.
  Proof. intros Hn Hs k Hk. rewrite tget_tset_other; [apply Hs, Hk | intro; subst; contradiction]. Qed.

  Lemma simM_ret {A B} (L : tpred) (Pre : tstore -> Prop) (Post : tstore -> A -> B -> Prop) a b :
    (forall m, Pre m -> Post m a b) -> simM L Pre Post (ret a) (ret b).
  Proof. intros H m m0 s Hs Hp. cbn. auto. Qed.

  Lemma simM_bind {A A0 B B0} (L : tpred) (Pre : tstore -> Prop) (Mid : tstore -> A -> A0 -> Prop) (Post : tstore -> B -> B0 -> Prop)
        (c : M S A) (c0 : M S A0) (k : A -> M S B) (k0 : A0 -> M S B0) :
    simM L Pre Mid c c0 ->
    (forall a a0, simM L (fun m => Mid m a a0) Post (k a) (k0 a0)) ->
    simM L Pre Post (bind c k) (bind c0 k0).
  Proof.
    intros Hc Hk m m0 s Hs Hp. unfold bind. specialize (Hc m m0 s Hs Hp).
    destruct (c m s) as [[[t1 m1] s1] r1], (c0 m0 s) as [[[t2 m2] s2] r2].
    destruct Hc as (-> & -> & Hs1 & Hr).
    destruct r1 as [a | v], r2 as [a0 | v0]; try contradiction.
    - specialize (Hk a a0 m1 m2 s2 Hs1 Hr).
      destruct (k a m1 s2) as [[[u1 n1] q1] x1], (k0 a0 m2 s2) as [[[u2 n2] q2] x2].
      destruct Hk as (-> & -> & Hs2 & Hx). auto.
    - subst. auto.
  Qed.

  Lemma simM_conseq {A B} (L : tpred) (Pre Pre' : tstore -> Prop) (Post Post' : tstore -> A -> B -> Prop) cl cn :
    (forall m, Pre' m -> Pre m) -> (forall m a b, Post m a b -> Post' m a b) ->
    simM L Pre Post cl cn -> simM L Pre' Post' cl cn.
  Proof.
    intros H1 H2 H m m0 s Hs Hp. specialize (H m m0 s Hs (H1 m Hp)).
    destruct (cl m s) as [[[t1 m1] s1] r1], (cn m0 s) as [[[t2 m2] s2] r2].
    destruct H as (-> & -> & Hs1 & Hr). repeat split; auto.
    destruct r1, r2; auto.
  Qed.

  Lemma simM_ext {A B} (L : tpred) (Pre : tstore -> Prop) (Post : tstore -> A -> B -> Prop) cl cl' cn cn' :
    (forall m s, cl' m s = cl m s) -> (forall m s, cn' m s = cn m s) ->
    simM L Pre Post cl cn -> simM L Pre Post cl' cn'.
  Proof. intros E1 E2 H m m0 s Hs Hp. rewrite E1, E2. apply H; assumption. Qed.

  Lemma simM_ext_pre {A B} (L : tpred) (Pre : tstore -> Prop) (Post : tstore -> A -> B -> Prop) cl cl' cn :
    (forall m s, Pre m -> cl' m s = cl m s) -> simM L Pre Post cl cn -> simM L Pre Post cl' cn.
  Proof. intros E H m m0 s Hs Hp. rewrite (E m s Hp). apply H; assumption. Qed.

  Lemma simM_lift {A} (L : tpred) (Pre : tstore -> Prop) (f : S -> list event * S * res A) :
    simM L Pre (fun m a b => a = b /\ Pre m) (lift f) (lift f).
  Proof.
    intros m m0 s Hs Hp. unfold lift. destruct (f s) as [[t s'] r].
    repeat split; auto. destruct r; auto.
  Qed.

  Lemma simM_framed {A} (L : tpred) (Pre : tstore -> Prop) (T : list Z) (c : M S A) :
    framed S T c -> (forall k, L k -> ~ In k T) -> stable L Pre ->
    simM L Pre (fun m a b => a = b /\ Pre m) c c.
  Proof.
    intros [F G] Hd Hst m m0 s Hs Hp.
    assert (Ha : agree T m m0).
    { intros k Hk. apply Hs. intro HL. exact (Hd k HL Hk). }
    specialize (F m m0 s Ha). pose proof (G m s) as G1. pose proof (G m0 s) as G2.
    destruct (c m s) as [[[t1 m1] s1] r1], (c m0 s) as [[[t2 m2] s2] r2].
    destruct F as (-> & -> & -> & Ha').
    assert (Hp1 : Pre m1).
    { apply (Hst m m1); [| exact Hp]. intros k Hk. apply G1, Hd, Hk. }
    repeat split; auto.
    - intros k Hk. destruct (in_dec Z.eq_dec k T) as [Hb | Hb].
      + apply Ha', Hb.
      + rewrite (G1 k Hb), (G2 k Hb). apply Hs, Hk.
    - destruct r2; auto.
  Qed.

  Lemma simM_fresh (L : tpred) (Pre : tstore -> Prop) e :
    (forall k, L k -> ~ In k (tmps e)) -> stable L Pre ->
    simM L Pre (fun m a b => a = b /\ Pre m) (ev e) (ev e).
  Proof. apply simM_framed, eval_framed. Qed.

  Lemma simM_fresh_list (L : tpred) (Pre : tstore -> Prop) args :
    (forall k, L k -> ~ In k (flat_map tmps args)) -> stable L Pre ->
    simM L Pre (fun m a b => a = b /\ Pre m) (evl args) (evl args).
  Proof.
    apply simM_framed, framed_eval_list, Forall_forall. intros e _. apply eval_framed.
  Qed.

  (* steps taken by the lowered side only *)
  Lemma simM_left_pure {A B C} (L : tpred) (Pre : tstore -> Prop) (Post : tstore -> A -> B -> Prop) (c : M S C) (a : C) k cn :
    (forall m s, Pre m -> c m s = ([], m, s, Ok a)) ->
    simM L Pre Post (k a) cn -> simM L Pre Post (bind c k) cn.
  Proof.
    intros Hc H m m0 s Hs Hp. unfold bind. rewrite (Hc m s Hp).
    specialize (H m m0 s Hs Hp).
    destruct (k a m s) as [[[t1 m1] s1] r1], (cn m0 s) as [[[t2 m2] s2] r2]. exact H.
  Qed.

  Lemma simM_left_write {A B} (L : tpred) (Pre Pre' : tstore -> Prop) (Post : tstore -> A -> B -> Prop) n v k cn :
    L n -> (forall m, Pre m -> Pre' (tset m n v)) ->
    simM L Pre' Post (k (ov v)) cn ->
    simM L Pre Post (bind (fun m s => ([], tset m n v, s, Ok (ov v)) : list event * tstore * S * res out) k) cn.
  Proof.
    intros Hn Hpp H m m0 s Hs Hp. unfold bind.
    specialize (H (tset m n v) m0 s (simL_tset _ _ _ _ _ Hn Hs) (Hpp m Hp)).
    destruct (k (ov v) (tset m n v) s) as [[[t1 m1] s1] r1], (cn m0 s) as [[[t2 m2] s2] r2]. exact H.
  Qed.

  (* pointwise monad laws *)
  Lemma bind_assoc {A B C} (c : M S A) (k : A -> M S B) (h : B -> M S C) m s :
    bind (bind c k) h m s = bind c (fun a => bind (k a) h) m s.
  Proof.
    unfold bind. destruct (c m s) as [[[t1 m1] s1] [a | v]]; [| reflexivity].
    destruct (k a m1 s1) as [[[t2 m2] s2] [b | v]]; [| reflexivity].
    destruct (h b m2 s2) as [[[t3 m3] s3] r]. rewrite app_assoc. reflexivity.
  Qed.

  Lemma bind_ret_l {A B} (a : A) (k : A -> M S B) m s : bind (ret a) k m s = k a m s.
  Proof. unfold bind, ret. destruct (k a m s) as [[[t2 m2] s2] r]. reflexivity. Qed.

  Lemma bind_cong {A B} (c : M S A) (k k' : A -> M S B) m s :
    (forall a m s, k a m s = k' a m s) -> bind c k m s = bind c k' m s.
  Proof. intro H. unfold bind. destruct (c m s) as [[[t1 m1] s1] [a | v]]; [rewrite H |]; reflexivity. Qed.

  Lemma bind_cong_at {A B} (c c' : M S A) (k : A -> M S B) m s : c m s = c' m s -> bind c k m s = bind c' k m s.
  Proof. intro H. unfold bind. rewrite H. reflexivity. Qed.

  Lemma bind_pure {A B} (c : M S A) (a : A) (k : A -> M S B) m s :
    c m s = ([], m, s, Ok a) -> bind c k m s = k a m s.
  Proof. intro H. unfold bind. rewrite H. destruct (k a m s) as [[[t2 m2] s2] r]. reflexivity. Qed.

  Lemma simM_assoc_l {A B C D} (L : tpred) (Pre : tstore -> Prop) (Post : tstore -> C -> D -> Prop)
        (c : M S A) (k : A -> M S B) (h : B -> M S C) cn :
    simM L Pre Post (bind c (fun a => bind (k a) h)) cn -> simM L Pre Post (bind (bind c k) h) cn.
  Proof. apply simM_ext; intros; [apply bind_assoc | reflexivity]. Qed.

  Lemma simM_assoc_r {A B C D} (L : tpred) (Pre : tstore -> Prop) (Post : tstore -> D -> C -> Prop)
        (c : M S A) (k : A -> M S B) (h : B -> M S C) cl :
    simM L Pre Post cl (bind c (fun a => bind (k a) h)) -> simM L Pre Post cl (bind (bind c k) h).
  Proof. apply simM_ext; intros; [reflexivity | apply bind_assoc]. Qed.

  Lemma simM_ret_l {A B C} (L : tpred) (Pre : tstore -> Prop) (Post : tstore -> B -> C -> Prop) (a : A) (k : A -> M S B) cn :
    simM L Pre Post (k a) cn -> simM L Pre Post (bind (ret a) k) cn.
  Proof. apply simM_ext; intros; [apply bind_ret_l | reflexivity]. Qed.

  Lemma simM_ret_r {A B C} (L : tpred) (Pre : tstore -> Prop) (Post : tstore -> C -> B -> Prop) (a : A) (k : A -> M S B) cl :
    simM L Pre Post cl (k a) -> simM L Pre Post cl (bind (ret a) k).
  Proof. apply simM_ext; intros; [reflexivity | apply bind_ret_l]. Qed.

  (* from the logic back to observations *)
  Lemma simM_observe (L : tpred) (Post : tstore -> out -> out -> Prop) cl cn :
    (forall m a b, Post m a b -> valof a = valof b) ->
    simM L (fun _ => True) Post cl cn ->
    forall m s, observe (cl m s) = observe (cn m s).
  Proof.
    intros HP H m s. specialize (H m m s (simL_refl L m) I).
    destruct (cl m s) as [[[t1 m1] s1] r1], (cn m s) as [[[t2 m2] s2] r2].
    destruct H as (-> & -> & _ & Hr). cbn.
    destruct r1, r2; try contradiction; [rewrite (HP _ _ _ Hr) | subst]; reflexivity.
  Qed.

  Lemma stable_true (L : tpred) : stable L (fun _ => True).
  Proof. intros m m' _ _. exact I. Qed.

  Lemma stable_and (L : tpred) P Q : stable L P -> stable L Q -> stable L (fun m => P m /\ Q m).
  Proof. intros HP HQ m m' H [p q]. split; [eapply HP | eapply HQ]; eauto. Qed.

  Lemma stable_tget (L : tpred) n v : L n -> stable L (fun m => tget m n = v).
  Proof. intros Hn m m' H E. rewrite (H n Hn). exact E. Qed.

  Lemma stable_const (L : tpred) (P : Prop) : stable L (fun _ => P).
  Proof. intros m m' _ p. exact p. Qed.
End SimLogic.
