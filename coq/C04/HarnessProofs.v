(* The executable cover check used on every dumped graph implies the
   hypothesis [deps_cover_uses] of the dangling-reference theorem. *)
From V Require Import Common.Base C04.Parts C04.Mark C04.ReachSpec C04.MarkProofs C04.Build C04.Harness.

Lemma parts_from_mapi s ps : forall i0, parts_from s i0 ps = mapi_from (fun i p => (s, i, p)) i0 ps.
Proof. induction ps as [|p r IH]; intro i0; simpl; [|rewrite IH]; reflexivity. Qed.

Lemma files_from_mapi fs : forall s0,
  files_from s0 fs =
  concat (mapi_from (fun s f => match f_repr f with RJS => parts_from s 0 (f_parts f) | _ => [] end) s0 fs).
Proof. induction fs as [|f r IH]; intro s0; simpl; [|rewrite IH]; reflexivity. Qed.

Lemma all_parts_In g s i p : get_part g s i = Some p -> In (s, i, p) (all_parts g).
Proof.
  intro P. apply get_part_inv in P as (f & F & R & Hn).
  unfold all_parts. rewrite files_from_mapi. apply in_concat. exists (parts_from s 0 (f_parts f)). split.
  - apply In_mapi_from. exists s, f. split; [exact F | simpl; rewrite R; reflexivity].
  - rewrite parts_from_mapi. apply In_mapi_from. exists i, p. auto.
Qed.

Lemma sym_eqb_eq a b : sym_eqb a b = true <-> a = b.
Proof.
  destruct a, b. unfold sym_eqb; simpl. rewrite andb_true_iff, !Nat.eqb_eq.
  split; [intros []; congruence | intro H; inversion H; auto].
Qed.

Lemma dep_eqb_eq a b : dep_eqb a b = true <-> a = b.
Proof. exact (sym_eqb_eq a b). Qed.

Lemma declares_b_In u q : declares_b u q = true <-> In u (p_declares q).
Proof. exact (mem_In sym_eqb sym_eqb_eq u (p_declares q)). Qed.

Lemma deps_cover_uses_b_sound g : deps_cover_uses_b g = true -> deps_cover_uses g.
Proof.
  unfold deps_cover_uses_b. intros H s i p u t j P U [q [Q D]].
  rewrite forallb_forall in H. specialize (H _ (all_parts_In g s i p P)). simpl in H.
  rewrite forallb_forall in H. specialize (H u U).
  rewrite forallb_forall in H. specialize (H _ (all_parts_In g t j q Q)). simpl in H.
  assert (E : existsb (sym_eqb u) (p_declares q) = true) by exact (proj2 (declares_b_In u q) D).
  rewrite E in H. simpl in H. apply orb_true_iff in H as [H|H].
  - apply dep_eqb_eq in H. injection H as -> ->. left; auto.
  - right. exact (proj1 (mem_In dep_eqb dep_eqb_eq (t, j) (p_deps p)) H).
Qed.
