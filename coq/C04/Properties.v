(* C04 property theorems. Only statements closed by [exact lemma], each
   followed by Print Assumptions. *)
From V Require Import Common.Base C04.Parts C04.Mark C04.ReachSpec C04.MarkProofs
  C04.Harness C04.HarnessProofs C04.Examples.

(* The traversal of markFileLiveForTreeShaking / markPartLiveForTreeShaking
   terminates on every graph and marks exactly the least set that contains the
   entry points and is closed under the specification's edges: an item is
   omitted iff it is unreachable. *)
Theorem mark_is_reachability : forall g,
  exists L, mark g (default_fuel g) = Some L /\
    (forall x, In x L <-> live g x) /\
    (forall S, closed g S -> forall x, In x L -> S x).
Proof. exact mark_total_reach. Qed.
Print Assumptions mark_is_reachability.

(* any fuel: a result, if produced, is the live set *)
Theorem mark_result_is_live_set : forall g fuel L,
  mark g fuel = Some L -> forall x, In x L <-> live g x.
Proof. exact mark_live. Qed.
Print Assumptions mark_result_is_live_set.

(* A live part's dependencies are live: with dependency lists that cover the
   declaring parts of the symbols a part uses (checked on every dumped graph by
   Harness.deps_cover_uses_b, proved sound below), no live part refers to a
   binding whose declaring part, or whose file, was removed. *)
Theorem live_closed_under_deps : forall g s i p u t j,
  deps_cover_uses g ->
  live g (IPart s i) -> get_part g s i = Some p -> In u (p_uses p) -> declares g t j u ->
  live g (IPart t j) /\ live g (IFile t).
Proof. exact no_dangling. Qed.
Print Assumptions live_closed_under_deps.

Theorem cover_check_sound : forall g, deps_cover_uses_b g = true -> deps_cover_uses g.
Proof. exact deps_cover_uses_b_sound. Qed.
Print Assumptions cover_check_sound.

(* Every part of a live file that is not marked was classified removable and
   is not pinned by an import kept for its side effects (and, when tree shaking
   is off in an entry point, is a generated part). *)
Theorem dead_parts_pure : forall g s f i p,
  live g (IFile s) -> get_file g s = Some f -> f_repr f = RJS -> nth_error (f_parts f) i = Some p ->
  ~ live g (IPart s i) ->
  removable g p /\ (g_tree_shaking g = false -> f_entry f = true -> p_force_ts p = true).
Proof. exact dead_part_removable. Qed.
Print Assumptions dead_parts_pure.

(* Annotations (sideEffects:false on files, purity annotations making parts
   removable) never make anything live ... *)
Theorem annotations_only_shrink_live : forall g g', annot_le g g' -> forall x, live g' x -> live g x.
Proof. exact annot_shrinks. Qed.
Print Assumptions annotations_only_shrink_live.

(* ... and whatever additionally disappears hangs, in the unannotated graph, on
   an item whose own status an annotation changed AND which is itself dead in
   the annotated graph: only annotated items, and what they alone kept alive,
   may additionally disappear. *)
Theorem annotations_only_widen : forall g g', annot_le g g' -> forall x,
  live g x -> ~ live g' x ->
  exists a, changed g g' a /\ live g a /\ ~ live g' a /\ path g a x.
Proof. exact annot_widens_sharp. Qed.
Print Assumptions annotations_only_widen.

Theorem live_decidable : forall g x, live g x \/ ~ live g x.
Proof. exact live_dec. Qed.
Print Assumptions live_decidable.

(* Tree shaking off keeps every non-generated part of a live entry point. *)
Theorem treeshake_off_keeps_entry_parts : forall g s f i p,
  g_tree_shaking g = false -> live g (IFile s) -> get_file g s = Some f -> f_repr f = RJS ->
  f_entry f = true -> nth_error (f_parts f) i = Some p -> p_force_ts p = false ->
  live g (IPart s i).
Proof. exact ts_off_entry_parts. Qed.
Print Assumptions treeshake_off_keeps_entry_parts.

(* "Tree shaking off keeps everything" is FALSE of the faithful model: a pure
   unused part of an imported (non entry) file is still dropped. The witness is
   replayed on the real bundler by the harness (kind "ts-off-drops-pure-part"):
   the dropped part is removable, so behaviour is unaffected. *)
Theorem treeshake_off_keeps_everything_refuted :
  exists g s i p,
    g_tree_shaking g = false /\ live g (IFile s) /\ get_part g s i = Some p /\
    p_force_ts p = false /\ ~ live g (IPart s i).
Proof. exact ts_off_keeps_everything_refuted_witness. Qed.
Print Assumptions treeshake_off_keeps_everything_refuted.

From V Require Import C04.Purity C04.PuritySem C04.PurityProofs C04.PurityMain.

(* The classifier is sound for the FULL modelled AST - expressions, object and
   class members, class expressions/declarations (heritage, computed keys,
   static fields, static blocks), statements (declarations with array
   destructuring and defaults, try/finally, export default, return) - in the
   probe-trace semantics of PuritySem.v, for EVERY world: all user code (calls,
   getters and Proxy-like property reads, ToPrimitive/toString/valueOf,
   iteration, class heritage checks, everything outside the fragment) sits
   behind oracles that may emit any trace and may throw; the world has no other
   state, so "empty trace" is "world unchanged".
   A node WITHOUT purity annotations or parser-set purity flags ([plain]) that
   the classifier calls removable evaluates with an EMPTY trace and WITHOUT
   throwing. Visible hypotheses = esbuild's documented concessions:
     - declared identifiers are not read in their temporal dead zone;
     - import bindings are initialised;
     - a class heritage is a constructor whose "prototype" read runs no user code.
   Built-ins are intact (array-literal iteration and ToString of primitives run
   no user code: part of the semantics). Forms the semantics treats as opaque
   (all rejected by the classifier): decorators, parameter decorators, static
   fields with assign semantics, object / nested array patterns, destructuring
   of a non-literal, `using` of a non-nullish value, `await using`, catch
   clauses (run only after a throw), every expression or statement kind the
   classifier does not list. *)
Theorem can_be_removed_pure :
  forall (is_unbound : nat -> bool) (env glob imp : nat -> option value) (this_val : value)
         (o_toprim : nat -> outcome) (o_iter : value -> outcome) (o_get : value -> Z -> outcome)
         (o_opaque : node -> outcome) (o_annotated : node -> list value -> outcome)
         (rel_prim : binop -> value -> value -> bool) (loose_prim : value -> value -> bool)
         (o_heritage : value -> outcome) (default_runs : node -> nat -> bool),
    (forall r, is_unbound r = false -> env r <> None) ->
    (forall r, imp r <> None) ->
    (forall v, exists w, o_heritage v = ([], Ok w)) ->
    forall e, plain e = true -> can_remove is_unbound e = true ->
    exists v, eval is_unbound env glob imp this_val o_toprim o_iter o_get o_opaque o_annotated rel_prim loose_prim o_heritage default_runs e = ([], Ok v).
Proof. exact removable_silent_plain. Qed.
Print Assumptions can_be_removed_pure.

(* the same for statement lists: StmtsCanBeRemovedIfUnused(stmts, flags) *)
Theorem stmts_can_be_removed_pure :
  forall (is_unbound : nat -> bool) (env glob imp : nat -> option value) (this_val : value)
         (o_toprim : nat -> outcome) (o_iter : value -> outcome) (o_get : value -> Z -> outcome)
         (o_opaque : node -> outcome) (o_annotated : node -> list value -> outcome)
         (rel_prim : binop -> value -> value -> bool) (loose_prim : value -> value -> bool)
         (o_heritage : value -> outcome) (default_runs : node -> nat -> bool),
    (forall r, is_unbound r = false -> env r <> None) ->
    (forall r, imp r <> None) ->
    (forall v, exists w, o_heritage v = ([], Ok w)) ->
    forall keep_export_clauses return_ok l,
      forallb plain l = true -> stmts_can_remove is_unbound keep_export_clauses return_ok l = true ->
      exists v, exec_stmts is_unbound env glob imp this_val o_toprim o_iter o_get o_opaque o_annotated rel_prim loose_prim o_heritage default_runs l = ([], Ok v).
Proof. exact removable_stmts_silent_plain. Qed.
Print Assumptions stmts_can_be_removed_pure.

(* With annotations and parser-set flags: the same conclusions when every
   flagged node keeps its promise ([flags_ok]: a flagged global / property read
   is silent, an annotated call/new/template/expression really has no side
   effects, a statement marked as lowering residue of a removable class is
   silent, no identifier sits inside `with`). *)
Theorem can_be_removed_pure_annotated :
  forall (is_unbound : nat -> bool) (env glob imp : nat -> option value) (this_val : value)
         (o_toprim : nat -> outcome) (o_iter : value -> outcome) (o_get : value -> Z -> outcome)
         (o_opaque : node -> outcome) (o_annotated : node -> list value -> outcome)
         (rel_prim : binop -> value -> value -> bool) (loose_prim : value -> value -> bool)
         (o_heritage : value -> outcome) (default_runs : node -> nat -> bool),
    (forall r, is_unbound r = false -> env r <> None) ->
    (forall r, imp r <> None) ->
    (forall v, exists w, o_heritage v = ([], Ok w)) ->
    forall e,
      flags_ok is_unbound env glob imp this_val o_toprim o_iter o_get o_opaque o_annotated rel_prim loose_prim o_heritage default_runs e ->
      can_remove is_unbound e = true ->
      exists v, eval is_unbound env glob imp this_val o_toprim o_iter o_get o_opaque o_annotated rel_prim loose_prim o_heritage default_runs e = ([], Ok v).
Proof. exact removable_silent. Qed.
Print Assumptions can_be_removed_pure_annotated.

Theorem stmts_can_be_removed_pure_annotated :
  forall (is_unbound : nat -> bool) (env glob imp : nat -> option value) (this_val : value)
         (o_toprim : nat -> outcome) (o_iter : value -> outcome) (o_get : value -> Z -> outcome)
         (o_opaque : node -> outcome) (o_annotated : node -> list value -> outcome)
         (rel_prim : binop -> value -> value -> bool) (loose_prim : value -> value -> bool)
         (o_heritage : value -> outcome) (default_runs : node -> nat -> bool),
    (forall r, is_unbound r = false -> env r <> None) ->
    (forall r, imp r <> None) ->
    (forall v, exists w, o_heritage v = ([], Ok w)) ->
    forall keep_export_clauses return_ok l,
      all_ok (flags_ok is_unbound env glob imp this_val o_toprim o_iter o_get o_opaque o_annotated rel_prim loose_prim o_heritage default_runs) l ->
      stmts_can_remove is_unbound keep_export_clauses return_ok l = true ->
      exists v, exec_stmts is_unbound env glob imp this_val o_toprim o_iter o_get o_opaque o_annotated rel_prim loose_prim o_heritage default_runs l = ([], Ok v).
Proof. exact removable_stmts_silent. Qed.
Print Assumptions stmts_can_be_removed_pure_annotated.

(* The typeof guards recognised by isSideEffectFreeUnboundIdentifierRef are
   sound: if the guard evaluated to the truth value of the branch, reading the
   guarded unbound identifier does not throw. *)
Theorem typeof_guard_sound :
  forall (is_unbound : nat -> bool) (env glob imp : nat -> option value) (this_val : value)
         (o_toprim : nat -> outcome) (o_iter : value -> outcome) (o_get : value -> Z -> outcome)
         (o_opaque : node -> outcome) (o_annotated : node -> list value -> outcome)
         (rel_prim : binop -> value -> value -> bool) (loose_prim : value -> value -> bool)
         (o_heritage : value -> outcome) (default_runs : node -> nat -> bool)
         value guard is_yes gv,
    guard_ok is_unbound value guard is_yes = true ->
    flags_ok is_unbound env glob imp this_val o_toprim o_iter o_get o_opaque o_annotated rel_prim loose_prim o_heritage default_runs value ->
    flags_ok is_unbound env glob imp this_val o_toprim o_iter o_get o_opaque o_annotated rel_prim loose_prim o_heritage default_runs guard ->
    eval is_unbound env glob imp this_val o_toprim o_iter o_get o_opaque o_annotated rel_prim loose_prim o_heritage default_runs guard = ([], Ok gv) ->
    truthy gv = is_yes ->
    exists v, eval is_unbound env glob imp this_val o_toprim o_iter o_get o_opaque o_annotated rel_prim loose_prim o_heritage default_runs value = ([], Ok v).
Proof. exact guard_sound. Qed.
Print Assumptions typeof_guard_sound.

From V Require Import C04.Build C04.BuildProofs.

(* For EVERY program (any files, any top-level statements, tree shaking on or
   off, any entry points): in the graph built by splitting the statements into
   parts and linking symbol uses to declaring parts, every symbol a live part
   refers to is declared by live parts only - or by no part at all (unbound /
   external). With dead_parts_pure this is what lets "every removed part is
   removable" compose to the whole program: no kept code mentions removed code. *)
Theorem live_parts_define_all_used_symbols : forall ts ign entries prog s i p u t j,
  let g := link ts ign entries prog in
  live g (IPart s i) -> get_part g s i = Some p -> In u (p_uses p) -> declares g t j u ->
  live g (IPart t j) /\ live g (IFile t).
Proof. exact live_parts_define_uses. Qed.
Print Assumptions live_parts_define_all_used_symbols.

(* the edges added by the linker's "for ref in SymbolUses: for part in
   TopLevelSymbolToParts(ref)" loops discharge the hypothesis of
   live_closed_under_deps, for every graph *)
Theorem linked_deps_cover_uses : forall g, deps_cover_uses (add_deps g).
Proof. exact add_deps_covers. Qed.
Print Assumptions linked_deps_cover_uses.

(* toAST's TopLevelSymbolToParts lists exactly the parts that declare the symbol *)
Theorem top_level_symbol_to_parts_exact : forall ps u j,
  In j (top_level_symbol_to_parts ps u) <-> exists q, nth_error ps j = Some q /\ declares_b u q = true.
Proof. exact top_level_symbol_to_parts_spec. Qed.
Print Assumptions top_level_symbol_to_parts_exact.

(* splitting loses nothing: with tree shaking on every declarator becomes a part
   with exactly its declared symbols, uses and removability flag; with tree
   shaking off the single part contains them and is removable only if all are *)
Theorem part_construction_keeps_every_declarator : forall stmts d,
  In d (flat_map stmt_decls stmts) ->
  (exists q, In q (build_parts true stmts) /\ p_declares q = td_declares d /\ p_uses q = td_uses d /\ p_can_remove q = td_can_remove d)
  /\ (exists q, In q (build_parts false stmts) /\
        (forall u, In u (td_declares d) -> In u (p_declares q)) /\ (forall u, In u (td_uses d) -> In u (p_uses q)) /\
        (p_can_remove q = true -> td_can_remove d = true)).
Proof. exact build_parts_keeps_decls. Qed.
Print Assumptions part_construction_keeps_every_declarator.

From V Require Import C04.Scope C04.ScopeProofs.

(* recordUsage through the scope chain records exactly the identifier
   occurrences that no enclosing function binds: the references that resolve
   to the module scope (or to an unbound global) *)
Theorem scope_analysis_records_module_references : forall e b y, In y (fv b e) <-> refers b e y.
Proof. exact fv_refers. Qed.
Print Assumptions scope_analysis_records_module_references.

Theorem analysis_uses_are_statement_references : forall D st y,
  In (zs y) (flat_map td_uses (stmt_decls (analyze D st))) <-> stmt_refers st y.
Proof. exact analyze_uses_spec. Qed.
Print Assumptions analysis_uses_are_statement_references.

Theorem analysis_declares_are_statement_names : forall D st x,
  In (zs x) (flat_map td_declares (stmt_decls (analyze D st))) <-> In x (stmt_names st).
Proof. exact analyze_declares_spec. Qed.
Print Assumptions analysis_declares_are_statement_names.

(* WHOLE PROGRAM. For every program of the statement language of Scope.v (any
   files, tree shaking on or off, any entry points), through scope analysis,
   the classifier, part construction, dependency linking and marking: removing
   the parts the linker marks dead leaves a program in which every identifier
   reference of the kept code still resolves to a retained declaration - or was
   unbound to begin with (no statement of the program declares that name). *)
Theorem removing_dead_parts_keeps_references_resolved : forall ts ign entries prog s i p x,
  let g := link_program ts ign entries prog in
  live g (IPart s i) -> get_part g s i = Some p -> In (zs x) (p_uses p) ->
  (~ In x (program_names prog))
  \/ ((exists t j, declares g t j (zs x)) /\
      forall t j, declares g t j (zs x) -> live g (IPart t j) /\ live g (IFile t)).
Proof. exact references_resolve. Qed.
Print Assumptions removing_dead_parts_keeps_references_resolved.

(* Re-export chains (model): after linking the import bindings (linker step 6:
   ImportsToBind x LocalPartsWithUses), a live part that uses an import keeps
   alive every `export {x} from` / `export *` statement the resolution passed
   through (importData.ReExports) and every part declaring the imported symbol
   in the file it resolves to. *)
Theorem import_bindings_keep_chain_live : forall g bs b i p d,
  let g' := add_bindings g bs in
  In b bs -> In i (b_users b) ->
  live g' (IPart (b_file b) i) -> get_part g' (b_file b) i = Some p ->
  In d (binding_deps g b) -> live g' (IPart (fst d) (snd d)).
Proof. exact import_bindings_closed. Qed.
Print Assumptions import_bindings_keep_chain_live.

(* ... and the same for the REAL Dependencies of every dumped graph that passes
   the check run by the harness (Harness.graph_ok evaluates bindings_ok on the
   ImportsToBind table copied by the hook) *)
Theorem dumped_bindings_keep_chain_live : forall g bs b i d,
  bindings_ok g bs = true -> In b bs -> In i (b_users b) ->
  live g (IPart (b_file b) i) -> In d (binding_deps g b) -> live g (IPart (fst d) (snd d)).
Proof. exact bindings_ok_closed. Qed.
Print Assumptions dumped_bindings_keep_chain_live.

(* Runtime helpers and wrappers: GenerateSymbolImportAndUse records the helper
   (__toESM, __commonJS, __esm, ...), the wrapper symbol of a wrapped file or its
   exports object as a symbol USE of the part, so the part of the runtime / of
   the wrapped file (its wrapper part) that declares the symbol stays live with
   the user; on dumps this is part of deps_cover_uses_b. *)
Theorem generated_uses_keep_declaring_parts_live : forall g s i p u t j,
  deps_cover_uses g -> live g (IPart s i) -> get_part g s i = Some p -> In u (p_uses p) ->
  declares g t j u -> live g (IPart t j).
Proof. exact generated_uses_closed. Qed.
Print Assumptions generated_uses_keep_declaring_parts_live.
