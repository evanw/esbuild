(* Non-vacuity: concrete graphs meeting the hypotheses of each theorem, and
   the witness of the refuted "tree shaking off keeps everything". *)
From V Require Import Common.Base C04.Parts C04.Mark C04.ReachSpec C04.MarkProofs C04.Harness C04.HarnessProofs.
Local Open Scope nat_scope.

(* file 0: entry, "import './1'" (part 0, removable flag set but pinned by the
   import), an unused pure declaration (part 1), a statement with an effect
   (part 2) that uses a symbol declared by part 3, part 3 removable;
   file 1: has side effects, one impure part and one pure unused part *)
Definition ex_g (ts : bool) : graph :=
  mkGraph ts false [0]
    [ mkFile RJS true true None []
        [ mkPart true false [mkImp true true 1 false] [] [] [];
          mkPart true false [] [] [(0, 7)] [];
          mkPart false false [] [(0, 3)] [] [(0, 9)];
          mkPart true false [] [] [(0, 9)] [] ];
      mkFile RJS true false None []
        [ mkPart false false [] [] [] [];
          mkPart true false [] [] [(1, 1)] [] ] ].

Example ex_mark :
  mark (ex_g true) (default_fuel (ex_g true)) =
  Some [IPart 0 3; IPart 0 2; IPart 0 0; IPart 1 0; IFile 1; IFile 0].
Proof. vm_compute. reflexivity. Qed.

(* the removed parts: the unused pure declarations 0/1 and 1/1 *)
Example ex_dead : forall L, mark (ex_g true) (default_fuel (ex_g true)) = Some L ->
  is_live L (IPart 0 1) = false /\ is_live L (IPart 1 1) = false /\ is_live L (IPart 0 3) = true.
Proof. intros L H. rewrite ex_mark in H. inversion H; subst. vm_compute. auto. Qed.

(* tree shaking off: every part of the entry point is kept, but the pure unused
   part 1/1 of the imported file is still dropped: "keeps everything" is false *)
Example ex_mark_off :
  mark (ex_g false) (default_fuel (ex_g false)) =
  Some [IPart 0 3; IPart 0 2; IPart 0 1; IPart 0 0; IPart 1 0; IFile 1; IFile 0].
Proof. vm_compute. reflexivity. Qed.

Lemma ts_off_keeps_everything_refuted_witness :
  exists g s i p,
    g_tree_shaking g = false /\ live g (IFile s) /\ get_part g s i = Some p /\
    p_force_ts p = false /\ ~ live g (IPart s i).
Proof.
  exists (ex_g false), 1, 1, (mkPart true false [] [] [(1, 1)] []).
  split; [reflexivity|]. split.
  - apply (is_live_iff _ _ _ _ ex_mark_off). reflexivity.
  - split; [reflexivity|]. split; [reflexivity|].
    intro L. apply (is_live_iff _ _ _ _ ex_mark_off) in L. discriminate L.
Qed.

(* annotations: file 1 marked sideEffects:false and part 0/2 annotated pure *)
Definition ex_g_annot : graph :=
  mkGraph true false [0]
    [ mkFile RJS true true None []
        [ mkPart true false [mkImp true true 1 false] [] [] [];
          mkPart true false [] [] [(0, 7)] [];
          mkPart true false [] [(0, 3)] [] [(0, 9)];
          mkPart true false [] [] [(0, 9)] [] ];
      mkFile RJS false false None []
        [ mkPart false false [] [] [] [];
          mkPart true false [] [] [(1, 1)] [] ] ].

Example ex_annot_le : annot_le (ex_g true) ex_g_annot.
Proof.
  unfold annot_le, ex_g, ex_g_annot; simpl. repeat split; auto.
  repeat constructor; simpl; auto; try discriminate.
Qed.

Example ex_annot_mark : mark ex_g_annot (default_fuel ex_g_annot) = Some [IFile 0].
Proof. vm_compute. reflexivity. Qed.

Example ex_cover : deps_cover_uses (ex_g true).
Proof. apply deps_cover_uses_b_sound. vm_compute. reflexivity. Qed.

(* purity: the hypotheses are satisfiable and the semantics is not trivially silent *)
From V Require Import C04.Purity C04.PuritySem C04.PurityMain.
Local Open Scope Z_scope.

Definition ex_unbound (r : nat) : bool := Nat.eqb r 7.          (* identifier 7 is an unbound global *)
Definition ex_env (r : nat) : option value := Some (VNum 1).      (* every declared identifier is initialised *)
Definition ex_glob (r : nat) : option value := None.              (* ... and global 7 does not exist *)
Definition ex_imp (r : nat) : option value := Some VUndef.
Definition ex_noisy_toprim (id : nat) : outcome := ([42], Ok (VNum 0)).   (* user valueOf: emits probe 42 *)
Definition ex_eval := eval ex_unbound ex_env ex_glob ex_imp VUndef ex_noisy_toprim
  (fun _ => ([43], Throw)) (fun _ _ => ([44], Ok VUndef)) (fun _ => ([45], Throw)) (fun _ _ => ([46], Throw))
  (fun _ _ _ => true) (fun _ _ => true) (fun _ => ([], Ok VUndef)) (fun _ _ => true).

(* typeof x7 !== "undefined" && x7   -- removable, and silent although x7 does not exist *)
Definition ex_guarded : node :=
  EBinary BAnd (EBinary BStrictNe (EUnary UTypeof (EIdent 7 false false) true) (EStr undefined_str))
               (EIdent 7 false false).
Example ex_guarded_removable : can_remove ex_unbound ex_guarded = true /\ plain ex_guarded = true.
Proof. vm_compute. auto. Qed.
Example ex_guarded_silent : ex_eval ex_guarded = ([], Ok (VBool false)).
Proof. vm_compute. reflexivity. Qed.

(* the wrong polarity  typeof x7 === "undefined" && x7  is NOT removable, and it throws *)
Definition ex_wrong : node :=
  EBinary BAnd (EBinary BStrictEq (EUnary UTypeof (EIdent 7 false false) true) (EStr undefined_str))
               (EIdent 7 false false).
Example ex_wrong_kept : can_remove ex_unbound ex_wrong = false /\ ex_eval ex_wrong = ([], Throw).
Proof. vm_compute. auto. Qed.

(* `${ {valueOf..} }` and  obj < 1 : not removable, and the semantics shows the probe *)
Example ex_template_kept :
  can_remove ex_unbound (ETemplate None false [EObject []]) = false /\
  ex_eval (ETemplate None false [EObject []]) = ([42], Ok (VStr [])).
Proof. vm_compute. auto. Qed.
Example ex_lt_kept :
  can_remove ex_unbound (EBinary BLt (EObject []) (ENum 1)) = false /\
  ex_eval (EBinary BLt (EObject []) (ENum 1)) = ([42], Ok (VBool true)).
Proof. vm_compute. auto. Qed.
(* [1, `a${2}`, x3 === null, -5n < 6n] : removable and silent *)
Example ex_pure_literal :
  let e := EArray [ENum 1; ETemplate None false [ENum 2]; EBinary BStrictEq (EIdent 3 false false) ENull;
                   EBinary BLt (EUnary UNeg (EBigInt 5) false) (EBigInt 6)] in
  can_remove ex_unbound e = true /\ plain e = true /\ ex_eval e = ([], Ok (VObj 0)).
Proof. vm_compute. auto. Qed.

(* class C { static ["k"] = `a${1}`; static { var [a = 1 === 2, b] = [x3]; } }  and
   var [p = null ?? 1] = [void 0]; try { class D extends x3 {} } finally { }
   are removable and run silently (the destructuring defaults DO run in this world);
   a static block with an impure default is kept, and the semantics shows why *)
Definition ex_class : node :=
  CClass false None
    [PProp KField true true false false (EStr [107]) None (Some (ETemplate None false [ENum 1])) [];
     PProp KStaticBlock false false false false ENull None None
       [SLocal LVar [DDecl (BArray [BItem BIdent (Some (EBinary BStrictEq (ENum 1) (ENum 2))); BItem BIdent None])
                           (Some (EArray [EIdent 3 false false]))]]] true.
Example ex_class_removable : can_remove ex_unbound ex_class = true /\ plain ex_class = true.
Proof. vm_compute. auto. Qed.
Example ex_class_silent : ex_eval ex_class = ([], Ok (VObj 0)).
Proof. vm_compute. reflexivity. Qed.
Definition ex_stmts : list node :=
  [SLocal LVar [DDecl (BArray [BItem BIdent (Some (EBinary BNullish ENull (ENum 1)))]) (Some (EArray [EUnary UVoid (ENum 0) false]))];
   STry [SClass (CClass false (Some (EIdent 3 false false)) [] true)] true []].
Example ex_stmts_removable :
  stmts_can_remove ex_unbound false false ex_stmts = true /\ forallb plain ex_stmts = true /\
  exec_stmts ex_unbound ex_env ex_glob ex_imp VUndef ex_noisy_toprim
    (fun _ => ([43], Throw)) (fun _ _ => ([44], Ok VUndef)) (fun _ => ([45], Throw)) (fun _ _ => ([46], Throw))
    (fun _ _ _ => true) (fun _ _ => true) (fun _ => ([], Ok VUndef)) (fun _ _ => true) ex_stmts = ([], Ok VUndef).
Proof. vm_compute. auto. Qed.
Example ex_static_block_kept :
  let c := CClass false None [PProp KStaticBlock false false false false ENull None None
             [SLocal LVar [DDecl (BArray [BItem BIdent (Some (EUnary UPos (EObject []) false))]) (Some (EArray [EUndefined]))]]] true in
  can_remove ex_unbound c = false /\ ex_eval c = ([45], Throw).
Proof. vm_compute. auto. Qed.

(* Build.v: a two-file program.
   file 0 (entry):  import {..} from "./1";  const a = b;  f(a);  const unused = 1;
   file 1:          export const b = 2, c = g();   function dead() { return c }
   symbols: a=(0,1) b=(0,2) c=(0,3) f=(0,4) g=(0,5) unused=(0,6) dead=(0,7) *)
From V Require Import C04.Build C04.BuildProofs C04.HarnessBuild.
Local Open Scope nat_scope.
Definition ex_prog : list tfile :=
  [ mkTFile true true
      [ TImportLike (mkTDecl [] [] true) (mkImp true true 1 false);
        TLocal [mkTDecl [(0,1)] [(0,2)] true];
        TOther (mkTDecl [] [(0,4); (0,1)] false);
        TLocal [mkTDecl [(0,6)] [] true] ];
    mkTFile true false
      [ TLocal [mkTDecl [(0,2)] [] true; mkTDecl [(0,3)] [(0,5)] false];
        TOther (mkTDecl [(0,7)] [(0,3)] true) ] ].
Definition ex_linked := link true false [0] ex_prog.
(* parts of file 0: 0 ns-export, 1 import, 2 "a", 3 "f(a)", 4 "unused";
   file 1: 0 ns-export, 1 "b", 2 "c = g()", 3 "dead".  f(a) keeps a, a keeps b in file 1;
   c = g() is impure and stays; "unused" and "dead" go *)
Example ex_linked_live :
  mark ex_linked (default_fuel ex_linked) =
  Some [IPart 1 1; IPart 0 2; IPart 0 3; IPart 0 1; IPart 1 2; IFile 1; IFile 0].
Proof. vm_compute. reflexivity. Qed.
Example ex_parts_check :
  HarnessBuild.parts_ok (true, [(3%Z, [([1%Z], [2%Z], true)]); (0%Z, [([3%Z], [1%Z], true); ([2%Z], [], false)])],
                               [(true, [], [], 0%Z); (true, [1%Z], [1%Z; 2%Z], 0%Z); (true, [3%Z], [1%Z], 0%Z); (false, [2%Z], [], 0%Z)]) = true.
Proof. vm_compute. reflexivity. Qed.

(* Scope.v: shadowing and closures.
   file 0 (entry):  import {t2} ; var t1 = function (t3) { t3; t2 };   t1(function () { var t2; t2 });   function t4() { t5 }
   file 1:          let t2 = 1;   var t3 = t9();   class t5 { m(t2) { t3 } }
   t1's closure uses t2 (import) but NOT t3 (parameter); the call statement uses t1 only
   (its t2 is a local); dead: t4 and therefore t5 *)
From V Require Import C04.Scope C04.ScopeProofs.
Definition ex_sprog : list sfile :=
  [ mkSFile true true
      [ SSImport [];
        SSLocal [(PId 1, Some (XFun [3] [] [] [XId 3; XId 2]))];
        SSExpr (XCall (XId 1) [XFun [] [] [2] [XId 2]]);
        SSFunction 4 [] [] [] [XId 5] ];
    mkSFile true false
      [ SSLocal [(PId 2, Some XLit)];
        SSLocal [(PId 3, Some (XCall (XId 9) []))];
        SSClass 5 None [XFun [2] [] [] [XId 3]] ] ].
Example ex_fv_shadow : fv [] (XFun [3] [] [] [XId 3; XId 2]) = [2] /\ fv [] (XCall (XId 1) [XFun [] [] [2] [XId 2]]) = [1].
Proof. vm_compute. auto. Qed.
Definition ex_slinked := link_program true false [0] ex_sprog.
Example ex_slinked_live :
  mark ex_slinked (default_fuel ex_slinked) =
  Some [IPart 1 2; IFile 1; IPart 1 1; IPart 0 2; IPart 0 3; IPart 0 1; IFile 0].
Proof. vm_compute. reflexivity. Qed.

(* re-export chain: file 0 uses x imported from file 1, which re-exports it
   from file 2 (`export {x} from "./2"`, part 1/1); the binding makes part 0/1
   depend on the re-export statement 1/1 and on the declaration 2/1 *)
Definition ex_chain_base : graph :=
  mkGraph true false [0]
    [ mkFile RJS true true None [] [ns_export_part; mkPart false false [] [] [] [(0, 1)]];
      mkFile RJS false false None [] [ns_export_part; mkPart true false [mkImp true true 2 false] [] [] []];
      mkFile RJS false false None [] [ns_export_part; mkPart true false [] [] [(0, 1)] []] ].
Definition ex_chain_bindings := [mkBinding 0 [1] 2 (0, 1) [(1, 1)]].
Definition ex_chain := add_bindings ex_chain_base ex_chain_bindings.
Example ex_chain_live :
  mark ex_chain (default_fuel ex_chain) = Some [IFile 2; IPart 2 1; IFile 1; IPart 1 1; IPart 0 1; IFile 0]
  /\ bindings_ok ex_chain ex_chain_bindings = true /\ bindings_ok ex_chain_base ex_chain_bindings = false.
Proof. vm_compute. auto. Qed.

(* the wider forms: a default value sees the parameter but not the body's var;
   a catch binding and a for-let binder are not module references; computed keys
   of an object pattern and class fields / static blocks are *)
Example ex_fv_wide :
  fv [] (XFun [3] [XId 3; XId 4] [4] [XId 4]) = [4]
  /\ fv [] (XClass None [XField true (Some (XId 6)) (Some (XId 7)); XStaticBlock [8] [XId 8; XId 9]]) = [6; 7; 9]
  /\ td_uses (match analyze (fun _ => true) (SSTry (XId 1) (Some (Some 2, [XId 2; XId 3]))) with TOther d => d | _ => mkTDecl [] [] true end) = [zs 1; zs 3]
  /\ td_uses (match analyze (fun _ => true) (SSCompound 1 [] [5] [XId 5; XId 6] []) with TOther d => d | _ => mkTDecl [] [] true end) = [zs 6]
  /\ td_uses (match analyze (fun _ => true) (SSLocal [(PObj [(Some (XId 1), 2, Some (XId 3))], Some XLit)]) with TLocal [d] => d | _ => mkTDecl [] [] true end) = [zs 1; zs 3].
Proof. vm_compute. repeat split. Qed.
