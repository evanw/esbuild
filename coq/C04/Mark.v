(* C04 model, part 2: the marking algorithm.
   Mirrors internal/linker/linker.go
     treeShakingAndCodeSplitting   (first loop: every entry point is marked)
     markFileLiveForTreeShaking    (IsLive guard; CSS stub; per part: the loop over
                                    ImportRecordIndices computing the local
                                    canBeRemovedIfUnused; the keep condition
                                    "!canBeRemovedIfUnused || (!ForceTreeShaking &&
                                     !TreeShaking && IsEntryPoint())"; CSS @import)
     markPartLiveForTreeShaking    (IsLive guard; the file; every dependency)
   The Go code is a recursive depth-first traversal that sets IsLive flags; the
   model is the same traversal with an explicit stack ([succ] lists the calls
   made by one activation, in program order) and fuel. The result is the list
   of marked items. Executable definitions only. *)
From V Require Import Common.Base C04.Parts.

Section DFS.
  Context {node : Type}.
  Variable eqb : node -> node -> bool.
  Variable succ : node -> list node.

  Definition mem (x : node) (l : list node) : bool := existsb (eqb x) l.

  Fixpoint dfs (fuel : nat) (visited stack : list node) : option (list node) :=
    match stack with
    | [] => Some visited
    | x :: rest =>
      match fuel with
      | O => None
      | S k => if mem x visited then dfs k visited rest
               else dfs k (x :: visited) (succ x ++ rest)
      end
    end.
End DFS.

(* the loop over part.ImportRecordIndices: files marked for their side effects,
   and the final value of the local variable canBeRemovedIfUnused *)
Fixpoint scan_imports (g : graph) (imps : list import_rec) (can : bool) : list nat * bool :=
  match imps with
  | [] => ([], can)
  | r :: rest =>
    if negb (ir_stmt r) then scan_imports g rest can
    else if ir_valid r then
      if negb (has_effects g (ir_target r)) then scan_imports g rest can
      else let '(fs, c) := scan_imports g rest false in (ir_target r :: fs, c)
    else if ir_ext_pure r then scan_imports g rest can
    else scan_imports g rest false
  end.

Definition part_succ (g : graph) (s : nat) (entry : bool) (i : nat) (p : part) : list item :=
  let '(fs, can) := scan_imports g (p_imports p) (p_can_remove p) in
  map IFile fs ++
  (if negb can || (negb (p_force_ts p) && negb (g_tree_shaking g) && entry)
   then [IPart s i] else []).

Fixpoint parts_succ (g : graph) (s : nat) (entry : bool) (i : nat) (ps : list part) : list item :=
  match ps with
  | [] => []
  | p :: r => part_succ g s entry i p ++ parts_succ g s entry (S i) r
  end.

Definition succ (g : graph) (x : item) : list item :=
  match x with
  | IFile s =>
    match get_file g s with
    | None => []
    | Some f =>
      match f_repr f with
      | RJS => (match f_css f with Some c => [IFile c] | None => [] end)
               ++ parts_succ g s (f_entry f) 0 (f_parts f)
      | RCSS => map IFile (f_css_imports f)
      | RNone => []
      end
    end
  | IPart s i =>
    match get_part g s i with
    | None => []
    | Some p => IFile s :: map (fun d => IPart (fst d) (snd d)) (p_deps p)
    end
  end.

Definition roots (g : graph) : list item := map IFile (g_entries g).

Definition mark (g : graph) (fuel : nat) : option (list item) :=
  dfs item_eqb (succ g) fuel [] (roots g).

(* a fuel that always suffices (MarkProofs.mark_fuel_ok): the stack
   length plus, for every item that can ever be pushed, one plus its out-degree *)
Fixpoint enum_parts (s i : nat) (ps : list part) : list item :=
  match ps with
  | [] => []
  | _ :: r => IPart s i :: enum_parts s (S i) r
  end.

Fixpoint enum_files (s : nat) (fs : list file) : list item :=
  match fs with
  | [] => []
  | f :: r => IFile s :: enum_parts s 0 (f_parts f) ++ enum_files (S s) r
  end.

Definition item_eq_dec (a b : item) : {a = b} + {a <> b}.
Proof. decide equality; apply Nat.eq_dec. Defined.

Definition universe (g : graph) : list item :=
  let base := roots g ++ enum_files 0 (g_files g) in
  nodup item_eq_dec (base ++ flat_map (succ g) base).

Fixpoint out_weight (g : graph) (U : list item) : nat :=
  match U with
  | [] => O
  | u :: r => (S (length (succ g u)) + out_weight g r)%nat
  end.

Definition default_fuel (g : graph) : nat :=
  (length (roots g) + out_weight g (universe g))%nat.

Definition is_live (L : list item) (x : item) : bool := mem item_eqb x L.
