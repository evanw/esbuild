(* C04: the scope analysis of Scope.v records exactly the references that
   resolve to the module scope, and composed with part construction, linking
   and marking: removing the dead parts leaves every reference resolved. *)
From V Require Import Common.Base C04.Parts C04.Mark C04.ReachSpec C04.MarkProofs C04.Harness C04.HarnessProofs
  C04.Purity C04.Build C04.BuildProofs C04.Scope.

Arguments zs : simpl never.

(* specification: x occurs in e as a reference that no enclosing function
   of e (and none of [b]) binds *)
Inductive refers : list nat -> sexpr -> nat -> Prop :=
| r_id b x : ~ In x b -> refers b (XId x) x
| r_typeof b x : ~ In x b -> refers b (XTypeof x) x
| r_assign_target b x v : ~ In x b -> refers b (XAssign x v) x
| r_assign_value b x v y : refers b v y -> refers b (XAssign x v) y
| r_call_f b f args y : refers b f y -> refers b (XCall f args) y
| r_call_arg b f args a y : In a args -> refers b a y -> refers b (XCall f args) y
| r_arr b items a y : In a items -> refers b a y -> refers b (XArr items) y
(* a default value sees the parameters but not the body's vars *)
| r_fun_default b ps ds ls body a y : In a ds -> refers (ps ++ b) a y -> refers b (XFun ps ds ls body) y
| r_fun_body b ps ds ls body a y : In a body -> refers (ps ++ ls ++ b) a y -> refers b (XFun ps ds ls body) y
| r_class_ext b ext ms y : refers b ext y -> refers b (XClass (Some ext) ms) y
| r_class_m b ext ms a y : In a ms -> refers b a y -> refers b (XClass ext ms) y
| r_field_key b st k init y : refers b k y -> refers b (XField st (Some k) init) y
| r_field_init b st key v y : refers b v y -> refers b (XField st key (Some v)) y
| r_static b ls body a y : In a body -> refers (ls ++ b) a y -> refers b (XStaticBlock ls body) y.

Section SInd.
  Variable P : sexpr -> Prop.
  Hypothesis HLit : P XLit.
  Hypothesis HId : forall x, P (XId x).
  Hypothesis HTy : forall x, P (XTypeof x).
  Hypothesis HAs : forall x v, P v -> P (XAssign x v).
  Hypothesis HCall : forall f args, P f -> Forall P args -> P (XCall f args).
  Hypothesis HArr : forall items, Forall P items -> P (XArr items).
  Hypothesis HFun : forall ps ds ls body, Forall P ds -> Forall P body -> P (XFun ps ds ls body).
  Definition opt_holds (o : option sexpr) : Prop := match o with Some x => P x | None => True end.
  Hypothesis HClass : forall ext ms, opt_holds ext -> Forall P ms -> P (XClass ext ms).
  Hypothesis HField : forall st key init, opt_holds key -> opt_holds init -> P (XField st key init).
  Hypothesis HStatic : forall ls body, Forall P body -> P (XStaticBlock ls body).

  Fixpoint sexpr_ind' (e : sexpr) : P e :=
    let all := fix go (l : list sexpr) : Forall P l :=
      match l with [] => Forall_nil P | x :: r => Forall_cons x (sexpr_ind' x) (go r) end in
    let opt := fun (o : option sexpr) =>
      match o return opt_holds o with Some x => sexpr_ind' x | None => I end in
    match e with
    | XLit => HLit
    | XId x => HId x
    | XTypeof x => HTy x
    | XAssign x v => HAs x v (sexpr_ind' v)
    | XCall f args => HCall f args (sexpr_ind' f) (all args)
    | XArr items => HArr items (all items)
    | XFun ps ds ls body => HFun ps ds ls body (all ds) (all body)
    | XClass ext ms => HClass ext ms (opt ext) (all ms)
    | XField st key init => HField st key init (opt key) (opt init)
    | XStaticBlock ls body => HStatic ls body (all body)
    end.
End SInd.

Lemma nmem_In x l : nmem x l = true <-> In x l.
Proof. exact (nat_mem_In x l). Qed.

Lemma one_ref b x y : In y (if nmem x b then [] else [x]) <-> (y = x /\ ~ In x b).
Proof.
  destruct (nmem x b) eqn:M; simpl.
  - split; [intros [] | intros [_ N]; apply N; apply nmem_In; exact M].
  - split.
    + intros [<-|[]]. split; [reflexivity|]. intro I. apply nmem_In in I. congruence.
    + intros [-> _]. left; reflexivity.
Qed.

Lemma flat_map_refers (l : list sexpr) :
  Forall (fun e => forall b y, In y (fv b e) <-> refers b e y) l ->
  forall b y, In y (flat_map (fv b) l) <-> exists a, In a l /\ refers b a y.
Proof.
  intros H b y. rewrite in_flat_map. rewrite Forall_forall in H.
  split; intros [a [Ia R]]; exists a; split; auto; apply (H a Ia); exact R.
Qed.

(* recordUsage computes exactly the references that reach the module scope *)
Lemma fv_refers : forall e b y, In y (fv b e) <-> refers b e y.
Proof.
  induction e using sexpr_ind'; intros b y; simpl.
  - split; [intros [] | intro R; inversion R].
  - rewrite one_ref. split; [intros [-> N]; constructor; exact N | intro R; inversion R; subst; auto].
  - rewrite one_ref. split; [intros [-> N]; constructor; exact N | intro R; inversion R; subst; auto].
  - rewrite in_app_iff, one_ref, IHe. split.
    + intros [[-> N]|R]; [apply r_assign_target; exact N | apply r_assign_value; exact R].
    + intro R. inversion R; subst; auto.
  - rewrite in_app_iff, IHe, (flat_map_refers args H). split.
    + intros [R|[a [Ia R]]]; [apply r_call_f; exact R | eapply r_call_arg; eauto].
    + intro R. inversion R; subst; [left; assumption | right; eauto].
  - rewrite (flat_map_refers items H). split.
    + intros [a [Ia R]]. eapply r_arr; eauto.
    + intro R. inversion R; subst. eauto.
  - rewrite in_app_iff, (flat_map_refers ds H), (flat_map_refers body H0). split.
    + intros [[a [Ia R]]|[a [Ia R]]]; [eapply r_fun_default; eauto | eapply r_fun_body; eauto].
    + intro R. inversion R; subst; [left; eauto | right; eauto].
  - rewrite in_app_iff, (flat_map_refers ms H0). split.
    + intros [R|[a [Ia R]]]; [|eapply r_class_m; eauto].
      destruct ext as [x|]; [|destruct R]. apply r_class_ext. apply H. exact R.
    + intro R. inversion R; subst; [left; apply H; assumption | right; eauto].
  - rewrite in_app_iff. split.
    + intros [R|R].
      * destruct key as [k|]; [|destruct R]. apply r_field_key. apply H. exact R.
      * destruct init as [v|]; [|destruct R]. apply r_field_init. apply H0. exact R.
    + intro R. inversion R; subst; [left; apply H; assumption | right; apply H0; assumption].
  - rewrite (flat_map_refers body H). split.
    + intros [a [Ia R]]. eapply r_static; eauto.
    + intro R. inversion R; subst. eauto.
Qed.

Definition catch_binders (c : option nat) : list nat := match c with Some x => [x] | None => [] end.

Inductive stmt_refers : sstmt -> nat -> Prop :=
| sr_local_init decls p e y : In (p, Some e) decls -> refers [] e y -> stmt_refers (SSLocal decls) y
| sr_local_default decls items o x d y :
    In (PArr items, o) decls -> In (x, Some d) items -> refers [] d y -> stmt_refers (SSLocal decls) y
| sr_local_key decls props o k x od y :
    In (PObj props, o) decls -> In (Some k, x, od) props -> refers [] k y -> stmt_refers (SSLocal decls) y
| sr_local_pdefault decls props o ok x d y :
    In (PObj props, o) decls -> In (ok, x, Some d) props -> refers [] d y -> stmt_refers (SSLocal decls) y
| sr_function name ps ds ls body y : refers [] (XFun ps ds ls body) y -> stmt_refers (SSFunction name ps ds ls body) y
| sr_class name ext ms y : refers [] (XClass ext ms) y -> stmt_refers (SSClass name ext ms) y
| sr_expr e y : refers [] e y -> stmt_refers (SSExpr e) y
| sr_if e y : refers [] e y -> stmt_refers (SSIf e) y
| sr_try e c y : refers [] e y -> stmt_refers (SSTry e c) y
| sr_catch e c handler a y : In a handler -> refers (catch_binders c) a y -> stmt_refers (SSTry e (Some (c, handler))) y
| sr_block x e y : refers [] e y -> stmt_refers (SSBlockVar x e) y
| sr_outer k outer bs inner hs a y : In a outer -> refers [] a y -> stmt_refers (SSCompound k outer bs inner hs) y
| sr_inner k outer bs inner hs a y : In a inner -> refers bs a y -> stmt_refers (SSCompound k outer bs inner hs) y.

Lemma zs_inj x y : zs x = zs y -> x = y.
Proof. unfold zs. intro H. inversion H. reflexivity. Qed.

Lemma In_map_zs x l : In (zs x) (map zs l) <-> In x l.
Proof.
  rewrite in_map_iff. split; [intros [y [E H]]; apply zs_inj in E; subst; exact H | intro H; exists x; auto].
Qed.

Lemma fv_opt_refers o y : In y (fv_opt o) <-> exists e, o = Some e /\ refers [] e y.
Proof.
  destruct o as [e|]; simpl.
  - rewrite fv_refers. split; [intro R; exists e; auto | intros [e' [E R]]; inversion E; subst; exact R].
  - split; [intros [] | intros [e [E _]]; discriminate].
Qed.

Lemma flat_map_fv_refers b l y : In y (flat_map (fv b) l) <-> exists a, In a l /\ refers b a y.
Proof.
  apply flat_map_refers, Forall_forall. intros e _. apply fv_refers.
Qed.

Lemma analyze_uses_spec D st y :
  In (zs y) (flat_map td_uses (stmt_decls (analyze D st))) <-> stmt_refers st y.
Proof.
  destruct st as [decls|name ps ds ls body|name ext ms|e|e|e c|x e|k outer bs inner hs|names|]; simpl; rewrite ?app_nil_r.
  (* a function or class declaration uses what the function or class expression refers to *)
  2: replace (flat_map (fv ps) ds ++ flat_map (fv (ps ++ ls)) body) with (fv [] (XFun ps ds ls body))
       by (simpl; rewrite !app_nil_r; reflexivity).
  3: change ((match ext with Some x => fv [] x | None => [] end) ++ flat_map (fv []) ms) with (fv [] (XClass ext ms)).
  (* the statements built from one expression *)
  2-5, 7: rewrite In_map_zs, fv_refers; split; [intro R; constructor; exact R | intro R; inversion R; assumption].
  - rewrite in_flat_map. split.
    + intros [d [Hd Hy]]. apply in_map_iff in Hd as [[p o] [<- Hin]]. simpl in Hy.
      apply In_map_zs in Hy. apply in_app_or in Hy as [Hy|Hy].
      * destruct p as [x|items|props]; [destruct Hy| |]; simpl in Hy.
        -- apply in_flat_map in Hy as [[x od] [Hit Hy]]. simpl in Hy.
           apply fv_opt_refers in Hy as [d [-> R]]. eapply sr_local_default; eauto.
        -- apply in_flat_map in Hy as [[[ok x] od] [Hit Hy]]. simpl in Hy. apply in_app_or in Hy as [Hy|Hy].
           ++ apply fv_opt_refers in Hy as [k [-> R]]. eapply sr_local_key; eauto.
           ++ apply fv_opt_refers in Hy as [d [-> R]]. eapply sr_local_pdefault; eauto.
      * apply fv_opt_refers in Hy as [e [-> R]]. eapply sr_local_init; eauto.
    + (* a use of one declarator is a use of the statement *)
      assert (K : forall p o, In (p, o) decls -> In y (pat_uses p ++ fv_opt o) ->
                  exists d, In d (stmt_decls (analyze D (SSLocal decls))) /\ In (zs y) (td_uses d)).
      { intros p o Hin Hy. eexists. split; [apply in_map_iff; exists (p, o); split; [reflexivity | exact Hin]|].
        simpl. apply In_map_zs. exact Hy. }
      intro R. inversion R; subst; eapply K; try eassumption; apply in_or_app.
      * right. apply fv_refers. assumption.
      * left. apply in_flat_map. exists (x, Some d). split; [assumption|]. simpl. apply fv_refers. assumption.
      * left. apply in_flat_map. exists (Some k, x, od). split; [assumption|]. simpl. apply in_or_app. left. apply fv_refers. assumption.
      * left. apply in_flat_map. exists (ok, x, Some d). split; [assumption|]. simpl. apply in_or_app. right. apply fv_refers. assumption.
  - rewrite In_map_zs, in_app_iff, fv_refers. split.
    + intros [R|R]; [apply sr_try; exact R|].
      destruct c as [[c handler]|]; [|destruct R].
      apply flat_map_fv_refers in R as [a [Ia R]]. eapply sr_catch; eauto.
    + intro R. inversion R; subst; [left; assumption|].
      right. apply flat_map_fv_refers. exists a. split; assumption.
  - rewrite In_map_zs, in_app_iff, !flat_map_fv_refers. split.
    + intros [[a [Ia R]]|[a [Ia R]]]; [eapply sr_outer; eauto | eapply sr_inner; eauto].
    + intro R. inversion R; subst; [left; eauto | right; eauto].
  - split; [intros [] | intro R; inversion R].
  - split; [intros [] | intro R; inversion R].
Qed.

Lemma analyze_declares_spec D st x :
  In (zs x) (flat_map td_declares (stmt_decls (analyze D st))) <-> In x (stmt_names st).
Proof.
  destruct st as [decls|name ps ds ls body|name ext ms|e|e|e c|x0 e|k outer bs inner hs|names|];
    cbn [analyze stmt_decls decl_of flat_map td_declares stmt_names]; rewrite ?app_nil_r.
  (* one declarator, whose names are the statement's *)
  2-10: apply In_map_zs.
  rewrite !in_flat_map. split.
  - intros [d [Hd Hx]]. apply in_map_iff in Hd as [po [<- Hin]]. apply In_map_zs in Hx. exists po. auto.
  - intros [po [Hin Hx]]. eexists. split; [apply in_map_iff; exists po; split; [reflexivity | exact Hin]|].
    apply In_map_zs. exact Hx.
Qed.

Lemma get_part_link ts ign entries prog t j q :
  nth_error prog t = Some q ->
  forall p, nth_error (build_parts ts (tf_stmts q)) j = Some p ->
  exists p', get_part (link ts ign entries prog) t j = Some p' /\ p_declares p' = p_declares p /\ p_uses p' = p_uses p.
Proof.
  intros Hq p Hp. unfold link. rewrite get_part_add_deps.
  unfold get_part, get_file. simpl g_files. rewrite nth_error_map, Hq. simpl. rewrite Hp. simpl.
  eexists. split; [reflexivity | split; reflexivity].
Qed.

Lemma named_is_declared ts ign entries prog x :
  In x (program_names prog) -> exists t j, declares (link_program ts ign entries prog) t j (zs x).
Proof.
  unfold program_names. intro H. apply in_flat_map in H as [f [Hf Hx]]. apply in_flat_map in Hx as [st [Hst Hx]].
  apply In_nth_error in Hf as [t Ht].
  set (D := fun x => nmem x (flat_map (fun f => flat_map stmt_names (sf_stmts f)) prog)).
  assert (Hd : exists d, In d (flat_map stmt_decls (map (analyze D) (sf_stmts f))) /\ In (zs x) (td_declares d)).
  { apply (analyze_declares_spec D st x) in Hx. apply in_flat_map in Hx as [d [Hd Hx]].
    exists d. split; [|exact Hx]. apply in_flat_map. exists (analyze D st). split; [apply in_map; exact Hst | exact Hd]. }
  destruct Hd as [d [Hd Hx']].
  destruct (build_parts_keeps_decls (map (analyze D) (sf_stmts f)) d Hd) as [[q1 [I1 [E1 _]]] [q2 [I2 [E2 _]]]].
  assert (Hq : exists q, In q (build_parts ts (map (analyze D) (sf_stmts f))) /\ In (zs x) (p_declares q)).
  { destruct ts; [exists q1; split; [exact I1 | rewrite E1; exact Hx'] | exists q2; split; [exact I2 | apply E2; exact Hx']]. }
  destruct Hq as [q [Iq Dq]]. apply In_nth_error in Iq as [j Hj].
  exists t, j. unfold link_program. fold D.
  destruct (get_part_link ts ign entries (map (analyze_file D) prog) t j (analyze_file D f)
              ltac:(rewrite nth_error_map, Ht; reflexivity) q Hj) as [p' [G [Ed _]]].
  exists p'. split; [exact G | rewrite Ed; exact Dq].
Qed.

(* Removing the parts the linker marks dead leaves a program in which every
   identifier reference of the kept code still resolves to a retained
   declaration, or was unbound to begin with. *)
Lemma references_resolve ts ign entries prog s i p x :
  let g := link_program ts ign entries prog in
  live g (IPart s i) -> get_part g s i = Some p -> In (zs x) (p_uses p) ->
  (~ In x (program_names prog))
  \/ ((exists t j, declares g t j (zs x)) /\
      forall t j, declares g t j (zs x) -> live g (IPart t j) /\ live g (IFile t)).
Proof.
  intros g L P U.
  destruct (nmem x (program_names prog)) eqn:M.
  - right. split; [apply named_is_declared; apply nmem_In; exact M|].
    intros t j Dc. unfold g, link_program in *. eapply live_parts_define_uses; eauto.
  - left. intro I. apply nmem_In in I. congruence.
Qed.
