(* C04: an expression the classifier calls removable evaluates with an empty
   probe trace and without throwing (under the hypotheses esbuild documents).
   Here: what the theorem is stated with ([depth], [type_ok], [flags_ok], [good]),
   the comparison operators, and the typeof guards; the theorem is in PurityMain.v. *)
From V Require Import Common.Base C04.Purity C04.PuritySem.

Definition dlist (d : node -> nat) (l : list node) : nat := fold_right (fun x a => Nat.max (d x) a) O l.
Definition dopt (d : node -> nat) (o : option node) : nat := match o with Some x => d x | None => O end.

Fixpoint depth (e : node) : nat :=
  match e with
  | EDot t _ _ _ => S (depth t)
  | EIndex t i _ => S (Nat.max (depth t) (depth i))
  | EIf c y n => S (Nat.max (depth c) (Nat.max (depth y) (depth n)))
  | EArray l | EObject l => S (dlist depth l)
  | ESpread x => S (depth x)
  | ECall t a _ | ENew t a _ => S (Nat.max (depth t) (dlist depth a))
  | EUnary _ x _ => S (depth x)
  | EBinary _ l r => S (Nat.max (depth l) (depth r))
  | ETemplate tag _ parts => S (Nat.max (dopt depth tag) (dlist depth parts))
  | EClass c => S (depth c)
  | EAnnotation x _ | EInlinedEnum x => S (depth x)
  | PProp _ _ _ _ _ key value init block =>
    S (Nat.max (depth key) (Nat.max (dopt depth value) (Nat.max (dopt depth init) (dlist depth block))))
  | CClass _ ext props _ => S (Nat.max (dopt depth ext) (dlist depth props))
  | SClass c | SExportDefaultClass c | SExportDefaultExpr c => S (depth c)
  | SReturn v => S (dopt depth v)
  | SExpr x _ => S (depth x)
  | SLocal _ decls => S (dlist depth decls)
  | STry b _ f => S (Nat.max (dlist depth b) (dlist depth f))
  | DDecl b v => S (Nat.max (depth b) (dopt depth v))
  | BArray items => S (dlist depth items)
  | BItem b d => S (Nat.max (depth b) (dopt depth d))
  | _ => O
  end.

Lemma dlist_in d x l : In x l -> (d x <= dlist d l)%nat.
Proof. induction l as [|y r IH]; simpl; intros H; [destruct H|]. destruct H as [->|H]; [lia | specialize (IH H); lia]. Qed.

Definition all_ok (P : node -> Prop) (l : list node) : Prop := fold_right (fun x a => P x /\ a) True l.
Lemma all_ok_in P l x : all_ok P l -> In x l -> P x.
Proof. induction l as [|y r IH]; simpl; intros H I; [destruct I|]. destruct H as [H1 H2]. destruct I as [->|I]; auto. Qed.

Definition type_ok (T : ptype) (v : value) : Prop :=
  match T with
  | TUnknown => True
  | TMixed => type_of v <> TUnknown
  | _ => type_of v = T
  end.

Lemma type_ok_prim T v : T <> TUnknown -> type_ok T v -> type_of v <> TUnknown.
Proof. destruct T; simpl; intros N H; try congruence; rewrite H; discriminate. Qed.

Lemma merged_ok_l a b v : type_ok a v -> type_ok (merged a b) v.
Proof.
  destruct a; simpl; auto; destruct b; simpl; auto; intro H; try rewrite H; try discriminate; auto.
Qed.
Lemma merged_ok_r a b v : type_ok b v -> type_ok (merged a b) v.
Proof.
  destruct a; simpl; auto; destruct b; simpl; auto; intro H; try rewrite H; try discriminate; auto.
Qed.

(* for the many constructors a classifier's catch-all rejects ([discriminate]
   is slow to find that it does not apply to the others) *)
Lemma rejected (P : Prop) : false = true -> P.
Proof. discriminate. Qed.

(* a match that only asks whether a node is a string literal *)
Definition str_of (e : node) : option (list Z) := match e with EStr t => Some t | _ => None end.
Lemma match_str {T} e (A : list Z -> T) (B : T) :
  match e with EStr t => A t | _ => B end = match str_of e with Some t => A t | None => B end.
Proof. destruct e; reflexivity. Qed.
Lemma str_of_inv e : e = match str_of e with Some t => EStr t | None => e end.
Proof. destruct e; reflexivity. Qed.

Section Proofs.
  Variable is_unbound : nat -> bool.
  Variable env glob imp : nat -> option value.
  Variable this_val : value.
  Variable o_toprim : nat -> outcome.
  Variable o_iter : value -> outcome.
  Variable o_get : value -> Z -> outcome.
  Variable o_opaque : node -> outcome.
  Variable o_annotated : node -> list value -> outcome.
  Variable rel_prim : binop -> value -> value -> bool.
  Variable loose_prim : value -> value -> bool.
  Variable o_heritage : value -> outcome.
  Variable default_runs : node -> nat -> bool.

  (* esbuild's documented concessions, as hypotheses *)
  Hypothesis no_tdz : forall r, is_unbound r = false -> env r <> None.
  Hypothesis imports_initialised : forall r, imp r <> None.

  Notation ev := (eval is_unbound env glob imp this_val o_toprim o_iter o_get o_opaque o_annotated rel_prim loose_prim o_heritage default_runs).
  Notation ev_items := (eval_items_with o_iter ev).
  Notation ev_props := (eval_props_with o_toprim o_opaque ev).
  Notation ev_parts := (eval_parts_with o_toprim ev).
  Notation cr := (can_remove is_unbound).

  Definition good (e : node) : Prop := exists v, ev e = ([], Ok v) /\ type_ok (kpt e) v.

  (* what the parser's flags and the user's annotations promise, node by node:
     - a flagged identifier / property read (known-safe global, symbol instance)
       evaluates silently; no identifier is inside a `with` statement;
     - an annotated call/new/template/expression really is free of side effects *)
  Definition opt_ok (P : node -> Prop) (o : option node) : Prop :=
    match o with Some x => P x | None => True end.

  Fixpoint flags_ok (e : node) : Prop :=
    match e with
    | EIdent r c kw => kw = false /\ (c = true -> is_unbound r = true -> glob r <> None)
    | EDot t _ c s => (c = true -> good e) /\ (s = true -> exists id, ev e = ([], Ok (VSym id)))
    | EIndex _ _ s => s = true -> exists id, ev e = ([], Ok (VSym id))
    | EIf c y n => flags_ok c /\ flags_ok y /\ flags_ok n
    | EArray l | EObject l => all_ok flags_ok l
    | ESpread x => flags_ok x
    | PProp _ _ _ _ _ key value init block =>
      flags_ok key /\ opt_ok flags_ok value /\ opt_ok flags_ok init /\ all_ok flags_ok block
    | ECall _ args p | ENew _ args p =>
      all_ok flags_ok args /\ (p = true -> forall vs, exists v, o_annotated e vs = ([], Ok v))
    | EUnary _ x _ => flags_ok x
    | EBinary _ l r => flags_ok l /\ flags_ok r
    | ETemplate tag p parts =>
      all_ok flags_ok parts /\ (tag <> None -> p = true -> forall vs, exists v, o_annotated e vs = ([], Ok v))
    | EClass c => flags_ok c
    | CClass _ ext props _ => opt_ok flags_ok ext /\ all_ok flags_ok props
    | SClass c | SExportDefaultClass c | SExportDefaultExpr c => flags_ok c
    | SReturn v => opt_ok flags_ok v
    (* IsFromClassOrFnThatCanBeRemovedIfUnused: lowering residue the parser vouches for *)
    | SExpr x from => if from then exists v, ev x = ([], Ok v) else flags_ok x
    | SLocal _ decls => all_ok flags_ok decls
    | STry b _ f => all_ok flags_ok b /\ all_ok flags_ok f
    | DDecl b v => flags_ok b /\ opt_ok flags_ok v
    | BArray items => all_ok flags_ok items
    | BItem b d => flags_ok b /\ opt_ok flags_ok d
    | EAnnotation x flag =>
      if flag then exists v, o_annotated e [] = ([], Ok v) /\ type_ok (kpt e) v else flags_ok x
    | EInlinedEnum x => flags_ok x
    | _ => True
    end.

  Lemma bind_ret v k : bind ([], Ok v) k = k v.
  Proof. unfold bind. destruct (k v). reflexivity. Qed.

  Lemma good_silent e : good e -> silent (ev e).
  Proof. intros [v [H _]]. exists v. exact H. Qed.

  (* the typeof guards: if the guard evaluated to the branch's truth value,
     reading the guarded unbound identifier cannot throw *)
  Lemma typeof_matches_inv id ty : typeof_matches id ty = true ->
    exists a b, ty = EUnary UTypeof (EIdent id a b) true.
  Proof.
    destruct ty; simpl; try discriminate. destruct op; try discriminate.
    destruct ty; try discriminate. destruct typeof_ident; try discriminate.
    intro H. apply Nat.eqb_eq in H. subst. eauto.
  Qed.

  Lemma ev_typeof_unbound id a : is_unbound id = true ->
    ev (EUnary UTypeof (EIdent id a false) true) =
    ([], Ok (VStr (match glob id with Some x => typeof_str x | None => undefined_str end))).
  Proof. intro U. simpl. rewrite U. simpl. destruct (glob id); reflexivity. Qed.

  Lemma typeof_str_undefined x : zlist_eqb (typeof_str x) undefined_str = true -> x = VUndef.
  Proof. destruct x; vm_compute; intro H; try discriminate; reflexivity. Qed.

  Lemma undefined_not_lt_u : str_ltb undefined_str u_str = false /\ str_ltb u_str undefined_str = true.
  Proof. vm_compute. auto. Qed.

  Lemma typeof_lt_u x : str_ltb (typeof_str x) u_str = true \/ x = VUndef.
  Proof. destruct x; vm_compute; auto. Qed.

  Lemma typeof_gt_u x : str_ltb u_str (typeof_str x) = false \/ x = VUndef.
  Proof. destruct x; vm_compute; auto. Qed.

  Lemma read_defined id : is_unbound id = true -> glob id <> None ->
    exists v, ev (EIdent id false false) = ([], Ok v).
  Proof.
    intros U G. simpl. unfold read_ident. rewrite U. destruct (glob id) as [v|]; [exists v; reflexivity | congruence].
  Qed.

  Lemma zlist_eqb_sym a b : zlist_eqb a b = zlist_eqb b a.
  Proof.
    destruct (zlist_eqb a b) eqn:E; symmetry.
    - apply zlist_eqb_eq in E. subst. apply zlist_eqb_eq. reflexivity.
    - destruct (zlist_eqb b a) eqn:E2; [|reflexivity]. apply zlist_eqb_eq in E2. subst.
      assert (zlist_eqb a a = true) by (apply zlist_eqb_eq; reflexivity). congruence.
  Qed.

  Definition tystr (id : nat) : list Z :=
    match glob id with Some x => typeof_str x | None => undefined_str end.

  Lemma ev_ty id a : is_unbound id = true ->
    ev (EUnary UTypeof (EIdent id a false) true) = ([], Ok (VStr (tystr id))).
  Proof. exact (ev_typeof_unbound id a). Qed.

  Lemma rel_str op x y :
    relational o_toprim rel_prim op (VStr x) (VStr y) =
    ([], Ok (VBool (match op with
                    | BLt => str_ltb x y | BGt => str_ltb y x
                    | BLe => negb (str_ltb y x) | _ => negb (str_ltb x y) end))).
  Proof. reflexivity. Qed.

  Lemma loose_str x y : loose_eq o_toprim loose_prim (VStr x) (VStr y) = ([], Ok (VBool (zlist_eqb x y))).
  Proof. reflexivity. Qed.

  (* the comparison operators: both operands are always evaluated *)
  Definition eager (op : binop) : bool :=
    match op with BStrictEq | BStrictNe | BLooseEq | BLooseNe | BLt | BGt | BLe | BGe => true | _ => false end.
  Definition compare (op : binop) (a b : value) : outcome :=
    match op with
    | BStrictEq => ret (VBool (value_eqb a b))
    | BStrictNe => ret (VBool (negb (value_eqb a b)))
    | BLooseEq => loose_eq o_toprim loose_prim a b
    | BLooseNe => bind (loose_eq o_toprim loose_prim a b) (fun x => ret (VBool (negb (truthy x))))
    | _ => relational o_toprim rel_prim op a b
    end.
  Lemma ev_eager op l r : eager op = true ->
    ev (EBinary op l r) = bind (ev l) (fun a => bind (ev r) (fun b => compare op a b)).
  Proof. destruct op; try discriminate; reflexivity. Qed.

  Definition compare_str (op : binop) (x y : list Z) : bool :=
    match op with
    | BStrictEq | BLooseEq => zlist_eqb x y
    | BStrictNe | BLooseNe => negb (zlist_eqb x y)
    | BLt => str_ltb x y
    | BGt => str_ltb y x
    | BLe => negb (str_ltb y x)
    | _ => negb (str_ltb x y)
    end.
  Lemma compare_strings op x y : eager op = true ->
    compare op (VStr x) (VStr y) = ([], Ok (VBool (compare_str op x y))).
  Proof. destruct op; try discriminate; reflexivity. Qed.

  (* isSideEffectFreeUnboundIdentifierRef on a binary guard, with its case
     analysis on the operands (which side the string is on) made explicit:
     the operator and the string must fit the branch ... *)
  Definition polarity (op : binop) (flipped is_yes : bool) (text : list Z) : bool :=
    match op with
    | BStrictEq | BStrictNe | BLooseEq | BLooseNe =>
      Bool.eqb (Bool.eqb (zlist_eqb text undefined_str) is_yes)
               (match op with BStrictNe | BLooseNe => true | _ => false end)
    | BLt | BGt | BLe | BGe =>
      if zlist_eqb text u_str
      then Bool.eqb (if flipped then negb is_yes else is_yes) (match op with BLt | BLe => true | _ => false end)
      else false
    | _ => false
    end.

  Lemma guard_ok_binary id c kw op l r is_yes :
    guard_ok is_unbound (EIdent id c kw) (EBinary op l r) is_yes =
    is_unbound id &&
    (let flipped := match str_of l with Some _ => true | None => false end in
     let ty := if flipped then r else l in
     is_typeof_ident ty && typeof_matches id ty &&
     match str_of (if flipped then l else r) with Some t => polarity op flipped is_yes t | None => false end).
  Proof.
    assert (A : forall c x : bool, (if c then x else false) = x && c) by (intros [] []; reflexivity).
    unfold guard_ok. destruct (is_unbound id); [|reflexivity]. rewrite !match_str.
    destruct (str_of l) as [t|] eqn:Sl; cbv beta iota zeta; rewrite !match_str, ?Sl; cbv beta iota.
    - (* the string is on the left *)
      destruct op; cbn [polarity]; rewrite ?andb_false_r; try reflexivity.
      all: destruct (is_typeof_ident r); [cbn [andb]|reflexivity].
      (* equalities *)
      1-4: apply A.
      (* orderings *)
      all: destruct (zlist_eqb t u_str); [apply A | symmetry; apply andb_false_r].
    - destruct (str_of r) as [t|].
      + destruct op; cbn [polarity]; rewrite ?andb_false_r; try reflexivity.
        all: destruct (is_typeof_ident l); [cbn [andb]|reflexivity].
        1-4: apply A.
        all: destruct (zlist_eqb t u_str); [apply A | symmetry; apply andb_false_r].
      + (* no string on either side *)
        rewrite andb_false_r. destruct op; try reflexivity.
        all: destruct (is_typeof_ident l); reflexivity.
  Qed.

  (* ... and then the guard cannot have come out as the branch needs when the
     identifier does not exist, that is when typeof gave "undefined" *)
  Lemma polarity_sound op flipped is_yes t : polarity op flipped is_yes t = true ->
    eager op = true /\
    compare_str op (if flipped then t else undefined_str) (if flipped then undefined_str else t) <> is_yes.
  Proof.
    pose proof undefined_not_lt_u as [L1 L2].
    destruct op; try discriminate; intro P; (split; [reflexivity|]); cbn [polarity compare_str] in *.
    (* equalities: the operator is negated exactly when the text "undefined" stands for the yes branch *)
    1-4: destruct flipped; rewrite ?(zlist_eqb_sym undefined_str);
         destruct (zlist_eqb t undefined_str), is_yes; discriminate.
    (* orderings: the text is "u", and "undefined" sorts after "u" *)
    all: destruct (zlist_eqb t u_str) eqn:T; [apply zlist_eqb_eq in T; subst t | discriminate P].
    all: destruct flipped, is_yes; rewrite ?L1, ?L2; discriminate.
  Qed.

  Lemma guard_sound value guard is_yes gv :
    guard_ok is_unbound value guard is_yes = true -> flags_ok value -> flags_ok guard ->
    ev guard = ([], Ok gv) -> truthy gv = is_yes -> exists v, ev value = ([], Ok v).
  Proof.
    intros G FV FG EG TR.
    destruct value; try exact (rejected _ G). destruct FV as [-> _].
    destruct (is_unbound ref) eqn:U; [|unfold guard_ok in G; rewrite U in G; discriminate G].
    destruct (glob ref) eqn:GN; [apply read_defined; [exact U | congruence]|]. exfalso.
    assert (TU : tystr ref = undefined_str) by (unfold tystr; rewrite GN; reflexivity).
    destruct guard; try (unfold guard_ok in G; rewrite U in G; discriminate G).
    rewrite guard_ok_binary, U, andb_true_l in G. cbv zeta in G. destruct FG as [F1 F2].
    apply andb_true_iff in G as [G P]. apply andb_true_iff in G as [_ M].
    apply typeof_matches_inv in M as (a & b & M).
    set (fl := match str_of guard1 with Some _ => true | None => false end) in *.
    destruct (str_of (if fl then guard1 else guard2)) as [t|] eqn:St; [|discriminate P].
    apply polarity_sound in P as [Eg N]. apply N.
    (* the two operands as values: "undefined" and the string of the guard *)
    assert (E1 : ev (if fl then guard2 else guard1) = ([], Ok (VStr undefined_str))).
    { assert (FT : flags_ok (if fl then guard2 else guard1)) by (destruct fl; assumption).
      rewrite M in FT |- *. destruct FT as [-> _]. rewrite <- TU. apply ev_ty. exact U. }
    assert (E2 : ev (if fl then guard1 else guard2) = ([], Ok (VStr t))).
    { rewrite (str_of_inv (if fl then guard1 else guard2)), St. reflexivity. }
    rewrite (ev_eager op guard1 guard2 Eg) in EG. rewrite <- TR.
    destruct fl; rewrite E1, E2, !bind_ret, compare_strings in EG by exact Eg; injection EG as <-; reflexivity.
  Qed.
End Proofs.
