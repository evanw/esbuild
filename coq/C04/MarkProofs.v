(* C04 lemmas about the marking algorithm: the explicit-stack traversal computes
   exactly the least set closed under the specification's edges. *)
From V Require Import Common.Base C04.Parts C04.Mark C04.ReachSpec C04.Build.

Lemma item_eqb_eq a b : item_eqb a b = true <-> a = b.
Proof.
  destruct a as [s|s i], b as [t|t j]; simpl; split; intro H; try discriminate.
  - apply Nat.eqb_eq in H. congruence.
  - inversion H. apply Nat.eqb_refl.
  - apply andb_true_iff in H as [H1 H2]. apply Nat.eqb_eq in H1, H2. congruence.
  - inversion H. rewrite !Nat.eqb_refl. reflexivity.
Qed.

Lemma nth_error_mapi_from {A B} (f : nat -> A -> B) : forall l i0 k,
  nth_error (mapi_from f i0 l) k = option_map (f (i0 + k)%nat) (nth_error l k).
Proof.
  induction l as [|x r IH]; intros i0 k; [destruct k; reflexivity|].
  destruct k as [|k]; simpl; [rewrite Nat.add_0_r; reflexivity|].
  rewrite IH. replace (S i0 + k)%nat with (i0 + S k)%nat by lia. reflexivity.
Qed.

Lemma In_mapi_from {A B} (f : nat -> A -> B) l i0 y :
  In y (mapi_from f i0 l) <-> exists k x, nth_error l k = Some x /\ y = f (i0 + k)%nat x.
Proof.
  split.
  - intro H. apply In_nth_error in H as [k H]. rewrite nth_error_mapi_from in H.
    destruct (nth_error l k) as [x|] eqn:E; [|discriminate H]. injection H as <-. eauto.
  - intros (k & x & Hn & ->). apply nth_error_In with k. rewrite nth_error_mapi_from, Hn. reflexivity.
Qed.

Lemma Forall2_nth {A B} (R : A -> B -> Prop) l l' : Forall2 R l l' -> forall k,
  (forall a, nth_error l k = Some a -> exists b, nth_error l' k = Some b /\ R a b) /\
  (forall b, nth_error l' k = Some b -> exists a, nth_error l k = Some a /\ R a b).
Proof.
  induction 1 as [|a0 b0 l l' Hab _ IH]; intros [|k]; simpl; try (split; discriminate).
  - split; intros x E; injection E as <-; eauto.
  - apply IH.
Qed.

(* any explicit-stack traversal of this shape computes reachability *)
Section DFSProofs.
  Context {node : Type}.
  Variable eqb : node -> node -> bool.
  Variable succ : node -> list node.
  Hypothesis eqb_eq : forall a b, eqb a b = true <-> a = b.

  Lemma mem_In x l : mem eqb x l = true <-> In x l.
  Proof.
    unfold mem. rewrite existsb_exists. split.
    - intros [y [Hy He]]. apply eqb_eq in He. subst. exact Hy.
    - intro H. exists x. split; [exact H | apply eqb_eq; reflexivity].
  Qed.

  Inductive reach (roots : list node) : node -> Prop :=
  | reach_root r : In r roots -> reach roots r
  | reach_step x y : reach roots x -> In y (succ x) -> reach roots y.

  (* what the traversal maintains: whatever is marked or pending is reachable,
     every root is marked or pending, and so is every successor of a marked node *)
  Definition dfs_inv (roots visited stack : list node) : Prop :=
    (forall x, In x visited \/ In x stack -> reach roots x) /\
    (forall r, In r roots -> In r visited \/ In r stack) /\
    (forall x y, In x visited -> In y (succ x) -> In y visited \/ In y stack).

  Lemma inv_start roots : dfs_inv roots [] roots.
  Proof.
    split; [|split].
    - intros x [[]|Hx]. apply reach_root; exact Hx.
    - intros r Hr. right; exact Hr.
    - intros x y [].
  Qed.

  Lemma inv_skip roots visited x rest :
    In x visited -> dfs_inv roots visited (x :: rest) -> dfs_inv roots visited rest.
  Proof.
    intros M (Hs & Hr & Hc). split; [|split].
    - intros z Hz. apply Hs. simpl. tauto.
    - intros r Hin. destruct (Hr r Hin) as [A|[<-|A]]; auto.
    - intros a b Ha Hb. destruct (Hc a b Ha Hb) as [A|[<-|A]]; auto.
  Qed.

  Lemma inv_visit roots visited x rest :
    dfs_inv roots visited (x :: rest) -> dfs_inv roots (x :: visited) (succ x ++ rest).
  Proof.
    intros (Hs & Hr & Hc).
    assert (Rx : reach roots x) by (apply Hs; simpl; auto).
    split; [|split].
    - intros z [[<-|Hz]|Hz]; [exact Rx | apply Hs; auto |].
      apply in_app_or in Hz as [Hz|Hz]; [exact (reach_step roots x z Rx Hz) | apply Hs; simpl; auto].
    - intros r Hin. rewrite in_app_iff. destruct (Hr r Hin) as [A|[A|A]]; simpl; auto.
    - intros a b [<-|Ha] Hb; rewrite in_app_iff; [auto|].
      destruct (Hc a b Ha Hb) as [A|[A|A]]; simpl; auto.
  Qed.

  Lemma inv_done roots visited : dfs_inv roots visited [] -> forall x, In x visited <-> reach roots x.
  Proof.
    intros (Hs & Hr & Hc) x. split; [intro Hx; apply Hs; left; exact Hx|].
    induction 1 as [r Hin | a b _ IH Hb].
    - destruct (Hr r Hin) as [A|[]]. exact A.
    - destruct (Hc a b IH Hb) as [A|[]]. exact A.
  Qed.

  Lemma dfs_sound roots : forall fuel visited stack L,
    dfs eqb succ fuel visited stack = Some L -> dfs_inv roots visited stack ->
    forall x, In x L <-> reach roots x.
  Proof.
    induction fuel as [|k IH]; intros visited [|x rest] L H I; simpl in H; try discriminate H.
    1, 2: injection H as <-; exact (inv_done roots visited I).
    destruct (mem eqb x visited) eqn:M; apply (IH _ _ _ H).
    - apply mem_In in M. exact (inv_skip roots visited x rest M I).
    - exact (inv_visit roots visited x rest I).
  Qed.

  Theorem dfs_reach roots fuel L :
    dfs eqb succ fuel [] roots = Some L -> forall x, In x L <-> reach roots x.
  Proof. intro H. exact (dfs_sound roots fuel [] roots L H (inv_start roots)). Qed.

  (* termination: the fuel needed is bounded by the stack length plus, for every
     not yet visited node of a finite universe, one plus its out-degree *)
  Fixpoint weight (U visited : list node) : nat :=
    match U with
    | [] => O
    | u :: r => ((if mem eqb u visited then O else S (length (succ u))) + weight r visited)%nat
    end.

  Lemma mem_cons_other u x visited : u <> x -> mem eqb u (x :: visited) = mem eqb u visited.
  Proof.
    intro N. simpl. destruct (eqb u x) eqn:E; [|reflexivity]. apply eqb_eq in E. contradiction.
  Qed.

  Lemma weight_other U x visited : ~ In x U -> weight U (x :: visited) = weight U visited.
  Proof.
    induction U as [|u r IH]; intro N; [reflexivity|]. cbn [weight].
    rewrite mem_cons_other by (intros ->; apply N; left; reflexivity).
    rewrite IH by (intro A; apply N; right; exact A). reflexivity.
  Qed.

  (* marking a node pays for pushing its successors *)
  Lemma weight_visit U : forall visited x,
    NoDup U -> In x U -> mem eqb x visited = false ->
    (weight U (x :: visited) + S (length (succ x)) = weight U visited)%nat.
  Proof.
    induction U as [|u r IH]; intros visited x ND Hin M; [destruct Hin|].
    inversion ND as [|? ? Hnotin ND']; subst. cbn [weight].
    destruct Hin as [->|Hin].
    - rewrite (proj2 (mem_In x (x :: visited)) (or_introl eq_refl)), M, (weight_other r x visited Hnotin). lia.
    - rewrite mem_cons_other by (intros ->; exact (Hnotin Hin)).
      specialize (IH visited x ND' Hin M). lia.
  Qed.

  Lemma dfs_terminates U : NoDup U ->
    (forall x y, In x U -> In y (succ x) -> In y U) ->
    forall fuel visited stack,
      (forall x, In x stack -> In x U) ->
      (length stack + weight U visited <= fuel)%nat ->
      dfs eqb succ fuel visited stack <> None.
  Proof.
    intros ND HU. induction fuel as [|k IH]; intros visited stack Hst Hle.
    - destruct stack; simpl in *; [discriminate | lia].
    - destruct stack as [|x rest]; simpl; [discriminate|].
      destruct (mem eqb x visited) eqn:M.
      + apply IH; [intros z Hz; apply Hst; right; exact Hz | simpl in Hle; lia].
      + apply IH.
        * intros z Hz. apply in_app_or in Hz as [Hz|Hz].
          -- exact (HU x z (Hst x (or_introl eq_refl)) Hz).
          -- apply Hst. right; exact Hz.
        * pose proof (weight_visit U visited x ND (Hst x (or_introl eq_refl)) M) as W.
          rewrite app_length. simpl in Hle. lia.
  Qed.
End DFSProofs.

(* the import loop, split into its two results: the files it marks and whether
   some record pins the part *)
Definition follows (g : graph) (r : import_rec) : bool :=
  ir_stmt r && ir_valid r && has_effects g (ir_target r).
Definition pins (g : graph) (r : import_rec) : bool :=
  ir_stmt r && ((ir_valid r && has_effects g (ir_target r)) || (negb (ir_valid r) && negb (ir_ext_pure r))).

Fixpoint scan_files (g : graph) (imps : list import_rec) : list nat :=
  match imps with
  | [] => []
  | r :: rest => if follows g r then ir_target r :: scan_files g rest else scan_files g rest
  end.

Definition removable_b (g : graph) (p : part) : bool :=
  p_can_remove p && forallb (fun r => negb (pins g r)) (p_imports p).

Lemma scan_split g imps : forall can,
  scan_imports g imps can = (scan_files g imps, can && forallb (fun r => negb (pins g r)) imps).
Proof.
  induction imps as [|r rest IH]; intro can; simpl.
  - rewrite andb_true_r. reflexivity.
  - unfold follows, pins.
    destruct (ir_stmt r); simpl; [|apply IH].
    destruct (ir_valid r); simpl.
    + destruct (has_effects g (ir_target r)); simpl; [|apply IH].
      rewrite (IH false). simpl. rewrite andb_false_r. reflexivity.
    + destruct (ir_ext_pure r); simpl; [apply IH|].
      rewrite (IH false). simpl. rewrite andb_false_r. reflexivity.
Qed.

Lemma scan_false g imps : snd (scan_imports g imps false) = false.
Proof. rewrite scan_split. reflexivity. Qed.

Lemma follows_iff g r : follows g r = true <-> followed_import g r.
Proof.
  unfold follows, followed_import. rewrite !andb_true_iff. tauto.
Qed.

Lemma pins_iff g r : pins g r = true <-> pinning_import g r.
Proof.
  unfold pins, pinning_import.
  rewrite andb_true_iff, orb_true_iff, !andb_true_iff, !negb_true_iff. tauto.
Qed.

Lemma scan_files_filter g imps : scan_files g imps = map ir_target (filter (follows g) imps).
Proof.
  induction imps as [|r rest IH]; simpl; [reflexivity|]. destruct (follows g r); simpl; rewrite IH; reflexivity.
Qed.

Lemma scan_files_In g imps t :
  In t (scan_files g imps) <-> exists r, In r imps /\ followed_import g r /\ ir_target r = t.
Proof.
  rewrite scan_files_filter, in_map_iff.
  split; intros [r H]; exists r; rewrite filter_In, follows_iff in *; tauto.
Qed.

Lemma removable_iff g p : removable_b g p = true <-> removable g p.
Proof.
  unfold removable_b, removable. rewrite andb_true_iff, forallb_forall.
  split; intros [H1 H2]; split; try exact H1; intros r Hin.
  - intro P. apply pins_iff in P. specialize (H2 r Hin). rewrite P in H2. discriminate.
  - destruct (pins g r) eqn:P; [|reflexivity]. exfalso. apply (H2 r Hin). apply pins_iff; exact P.
Qed.

Lemma removable_dec g p : removable g p \/ ~ removable g p.
Proof.
  destruct (removable_b g p) eqn:E; [left; apply removable_iff; exact E|].
  right. intro R. apply removable_iff in R. congruence.
Qed.

Definition must_keep_b (g : graph) (entry : bool) (p : part) : bool :=
  negb (removable_b g p) || (negb (p_force_ts p) && negb (g_tree_shaking g) && entry).

Lemma must_keep_iff g f p : must_keep_b g (f_entry f) p = true <-> must_keep g f p.
Proof.
  unfold must_keep_b, must_keep.
  rewrite orb_true_iff, !andb_true_iff, !negb_true_iff. split.
  - intros [H|[[H1 H2] H3]]; [left | right; auto].
    intro R. apply removable_iff in R. congruence.
  - intros [H|[H1 [H2 H3]]]; [left | right; auto].
    destruct (removable_b g p) eqn:E; [|reflexivity]. exfalso. apply H. apply removable_iff; exact E.
Qed.

Lemma must_keep_dec g f p : must_keep g f p \/ ~ must_keep g f p.
Proof.
  destruct (must_keep_b g (f_entry f) p) eqn:E; [left; apply must_keep_iff; exact E|].
  right. intro R. apply must_keep_iff in R. congruence.
Qed.

Lemma part_succ_eq g s e i p :
  part_succ g s e i p =
  map IFile (scan_files g (p_imports p)) ++ (if must_keep_b g e p then [IPart s i] else []).
Proof.
  unfold part_succ, must_keep_b, removable_b. rewrite scan_split. reflexivity.
Qed.

Lemma parts_succ_mapi g s e ps : forall i0,
  parts_succ g s e i0 ps = concat (mapi_from (part_succ g s e) i0 ps).
Proof. induction ps as [|p r IH]; intro i0; simpl; [|rewrite IH]; reflexivity. Qed.

Lemma parts_succ_In g s e ps y :
  In y (parts_succ g s e 0 ps) <-> exists k p, nth_error ps k = Some p /\ In y (part_succ g s e k p).
Proof.
  rewrite parts_succ_mapi, in_concat. split.
  - intros (l & Hl & Hy). apply In_mapi_from in Hl as (k & p & Hn & ->). exists k, p. exact (conj Hn Hy).
  - intros (k & p & Hn & Hy). exists (part_succ g s e k p). split; [|exact Hy].
    apply In_mapi_from. exists k, p. auto.
Qed.

Lemma get_part_inv g s i p :
  get_part g s i = Some p <->
  exists f, get_file g s = Some f /\ f_repr f = RJS /\ nth_error (f_parts f) i = Some p.
Proof.
  unfold get_part. split.
  - destruct (get_file g s) as [f|]; [|discriminate]. destruct (f_repr f) eqn:R; try discriminate.
    intro H. exists f. auto.
  - intros [f [-> [-> H]]]. exact H.
Qed.

(* one call-list of the traversal = one step of the specification *)
Lemma succ_edge g x y : In y (succ g x) <-> edge g x y.
Proof.
  split.
  - destruct x as [s|s i]; simpl.
    + destruct (get_file g s) as [f|] eqn:F; [|intros []].
      destruct (f_repr f) eqn:R; [intros [] | |].
      * rewrite in_app_iff. intros [H|H].
        -- destruct (f_css f) as [c|] eqn:C; [|destruct H]. destruct H as [<-|[]].
           eapply e_css_stub; eauto.
        -- apply parts_succ_In in H as [k [p [Hn Hy]]].
           rewrite part_succ_eq, in_app_iff in Hy. destruct Hy as [Hy|Hy].
           ++ apply in_map_iff in Hy as [t [<- Ht]]. apply scan_files_In in Ht as [r [Hin [Hf <-]]].
              eapply e_import; eauto.
           ++ destruct (must_keep_b g (f_entry f) p) eqn:K; [|destruct Hy]. destruct Hy as [<-|[]].
              eapply e_keep; eauto. apply must_keep_iff; exact K.
      * intro H. apply in_map_iff in H as [t [<- Ht]]. eapply e_css_import; eauto.
    + destruct (get_part g s i) as [p|] eqn:P; [|intros []].
      intros [<-|H]; [eapply e_part_file; eauto|].
      apply in_map_iff in H as [[t j] [<- Hd]]. simpl. eapply e_dep; eauto.
  - intro E. destruct E as [s f c F R C | s f t F R Hin | s f i p r F R Hn Hin Hf | s f i p F R Hn K | s i p P | s i p t j P Hd]; simpl.
    + rewrite F, R, C. left; reflexivity.
    + rewrite F, R. apply in_map. exact Hin.
    + rewrite F, R. apply in_or_app. right. apply parts_succ_In. exists i, p. split; [exact Hn|].
      rewrite part_succ_eq. apply in_or_app. left. apply in_map. apply scan_files_In. exists r. auto.
    + rewrite F, R. apply in_or_app. right. apply parts_succ_In. exists i, p. split; [exact Hn|].
      rewrite part_succ_eq. apply in_or_app. right. apply must_keep_iff in K. rewrite K. left; reflexivity.
    + rewrite P. left; reflexivity.
    + rewrite P. right. apply in_map_iff. exists (t, j). split; [reflexivity | exact Hd].
Qed.

Lemma reach_live g x : reach (succ g) (roots g) x <-> live g x.
Proof.
  split; induction 1.
  - unfold roots in H. apply in_map_iff in H as [s [<- Hs]]. apply live_entry; exact Hs.
  - eapply live_edge; [eassumption | apply succ_edge; assumption].
  - apply reach_root. unfold roots. apply in_map. exact H.
  - eapply reach_step; [eassumption | apply succ_edge; assumption].
Qed.

Lemma mark_live g fuel L : mark g fuel = Some L -> forall x, In x L <-> live g x.
Proof.
  intros H x. unfold mark in H.
  rewrite (dfs_reach item_eqb (succ g) item_eqb_eq (roots g) fuel L H x). apply reach_live.
Qed.

Lemma is_live_iff g fuel L x : mark g fuel = Some L -> (is_live L x = true <-> live g x).
Proof.
  intro H. unfold is_live. rewrite (mem_In item_eqb item_eqb_eq). apply (mark_live g fuel L H).
Qed.

Lemma live_least g (S : item -> Prop) : closed g S -> forall x, live g x -> S x.
Proof.
  intros [Hr Hc] x H. induction H; [apply Hr; assumption | eapply Hc; eassumption].
Qed.

Lemma live_closed g : closed g (live g).
Proof. split; [apply live_entry | intros x y; apply live_edge]. Qed.

(* the default fuel always suffices: [universe] is closed under [succ] *)
Lemma enum_parts_mapi s ps : forall i0, enum_parts s i0 ps = mapi_from (fun i _ => IPart s i) i0 ps.
Proof. induction ps as [|p r IH]; intro i0; simpl; [|rewrite IH]; reflexivity. Qed.

Lemma enum_files_mapi fs : forall s0,
  enum_files s0 fs = concat (mapi_from (fun s f => IFile s :: enum_parts s 0 (f_parts f)) s0 fs).
Proof. induction fs as [|f r IH]; intro s0; simpl; [|rewrite IH]; reflexivity. Qed.

Lemma enum_files_In g s f : get_file g s = Some f ->
  In (IFile s) (enum_files 0 (g_files g)) /\
  (forall i p, nth_error (f_parts f) i = Some p -> In (IPart s i) (enum_files 0 (g_files g))).
Proof.
  intro F. rewrite enum_files_mapi.
  assert (H : In (IFile s :: enum_parts s 0 (f_parts f))
                 (mapi_from (fun s f => IFile s :: enum_parts s 0 (f_parts f)) 0 (g_files g)))
    by (apply In_mapi_from; exists s, f; split; [exact F | reflexivity]).
  split; [|intros i p Hp]; apply in_concat; eexists; (split; [exact H|]).
  - left; reflexivity.
  - right. rewrite enum_parts_mapi. apply In_mapi_from. exists i, p. auto.
Qed.

Lemma succ_nonempty_enum g x y : In y (succ g x) -> In x (enum_files 0 (g_files g)).
Proof.
  destruct x as [s|s i]; simpl.
  - destruct (get_file g s) as [f|] eqn:F; [|intros []]. intros _.
    apply (enum_files_In g s f F).
  - destruct (get_part g s i) as [p|] eqn:P; [|intros []]. intros _.
    apply get_part_inv in P as [f [F [R Hn]]].
    apply (proj2 (enum_files_In g s f F) i p Hn).
Qed.

Lemma weight_nil_out g U : weight item_eqb (succ g) U [] = out_weight g U.
Proof. induction U as [|u r IH]; simpl; [reflexivity | rewrite IH; reflexivity]. Qed.

Lemma mark_fuel_ok g : mark g (default_fuel g) <> None.
Proof.
  unfold mark, default_fuel.
  apply (dfs_terminates item_eqb (succ g) item_eqb_eq (universe g)).
  - apply NoDup_nodup.
  - intros x y Hx Hy. unfold universe in *. apply nodup_In. apply nodup_In in Hx.
    apply in_or_app. right. apply in_flat_map. exists x. split; [|exact Hy].
    apply in_app_or in Hx as [Hx|Hx]; [exact Hx|].
    apply in_or_app. right. eapply succ_nonempty_enum. exact Hy.
  - intros x Hx. unfold universe. apply nodup_In. apply in_or_app. left. apply in_or_app. left. exact Hx.
  - rewrite weight_nil_out. lia.
Qed.

Lemma live_dep g s i p t j :
  live g (IPart s i) -> get_part g s i = Some p -> In (t, j) (p_deps p) -> live g (IPart t j).
Proof. intros L P D. eapply live_edge; [exact L | eapply e_dep; eauto]. Qed.

Lemma live_part_file g s i p : live g (IPart s i) -> get_part g s i = Some p -> live g (IFile s).
Proof. intros L P. eapply live_edge; [exact L | eapply e_part_file; eauto]. Qed.

Lemma no_dangling g s i p u t j :
  deps_cover_uses g ->
  live g (IPart s i) -> get_part g s i = Some p -> In u (p_uses p) -> declares g t j u ->
  live g (IPart t j) /\ live g (IFile t).
Proof.
  intros C L P U D. destruct (C s i p u t j P U D) as [[-> ->]|Hd].
  - split; [exact L | eapply live_part_file; eauto].
  - assert (L2 : live g (IPart t j)) by (eapply live_dep; eauto).
    split; [exact L2|]. destruct D as [q [Q _]]. eapply live_part_file; eauto.
Qed.

Lemma dead_part_removable g s f i p :
  live g (IFile s) -> get_file g s = Some f -> f_repr f = RJS -> nth_error (f_parts f) i = Some p ->
  ~ live g (IPart s i) ->
  removable g p /\ (g_tree_shaking g = false -> f_entry f = true -> p_force_ts p = true).
Proof.
  intros L F R Hn D.
  assert (NK : ~ must_keep g f p).
  { intro K. apply D. eapply live_edge; [exact L | eapply e_keep; eauto]. }
  split.
  - destruct (removable_dec g p) as [A|A]; [exact A|]. exfalso. apply NK. left; exact A.
  - intros T E. destruct (p_force_ts p) eqn:FT; [reflexivity|]. exfalso. apply NK. right. auto.
Qed.

Lemma ts_off_entry_parts g s f i p :
  g_tree_shaking g = false -> live g (IFile s) -> get_file g s = Some f -> f_repr f = RJS ->
  f_entry f = true -> nth_error (f_parts f) i = Some p -> p_force_ts p = false ->
  live g (IPart s i).
Proof.
  intros T L F R E Hn FT. eapply live_edge; [exact L | eapply e_keep; eauto]. right. auto.
Qed.

Lemma mark_total_reach g :
  exists L, mark g (default_fuel g) = Some L /\
    (forall x, In x L <-> live g x) /\
    (forall S, closed g S -> forall x, In x L -> S x).
Proof.
  destruct (mark g (default_fuel g)) as [L|] eqn:H.
  - exists L. split; [reflexivity|]. split; [apply (mark_live g _ L H)|].
    intros S C x Hx. apply (live_least g S C). apply (mark_live g _ L H). exact Hx.
  - exfalso. apply (mark_fuel_ok g H).
Qed.

Lemma live_dec g x : live g x \/ ~ live g x.
Proof.
  destruct (mark_total_reach g) as (L & H & _).
  destruct (is_live L x) eqn:M.
  - left. apply (is_live_iff g _ L x H). exact M.
  - right. intro Lx. apply (is_live_iff g _ L x H) in Lx. congruence.
Qed.

Lemma live_mono g g' :
  (forall s, In s (g_entries g') -> In s (g_entries g)) -> (forall x y, edge g' x y -> edge g x y) ->
  forall x, live g' x -> live g x.
Proof.
  intros En Ed x. induction 1 as [s Hs | a b _ IH E].
  - apply live_entry, En, Hs.
  - exact (live_edge g a b IH (Ed a b E)).
Qed.

(* [C]: the items at which an edge of [g] may be missing from [g'] *)
Lemma live_cut g g' (C : item -> Prop) :
  (forall s, In s (g_entries g) -> In s (g_entries g')) -> (forall x y, edge g x y -> edge g' x y \/ C y) ->
  forall x, live g x -> ~ live g' x ->
  exists a, C a /\ live g a /\ ~ live g' a /\ path g a x.
Proof.
  intros En Ed x L. induction L as [s Hs | y x Ly IH E]; intro N.
  - destruct N. apply live_entry, En, Hs.
  - destruct (live_dec g' y) as [L'|NL'].
    + (* the predecessor survives: the edge itself was cut, so x is the item of C *)
      destruct (Ed y x E) as [E'|Cx]; [destruct N; exact (live_edge g' y x L' E')|].
      exists x. exact (conj Cx (conj (live_edge g y x Ly E) (conj N (path_refl g x)))).
    + destruct (IH NL') as (a & Ca & La & Na & Pa).
      exists a. exact (conj Ca (conj La (conj Na (path_step g a y x Pa E)))).
Qed.

(* annotations: g' is g with more purity annotations (some files lose their
   side-effects flag, some parts become removable); nothing else changes *)
Definition part_le (p p' : part) : Prop :=
  p_force_ts p = p_force_ts p' /\ p_imports p = p_imports p' /\ p_deps p = p_deps p' /\
  (p_can_remove p = true -> p_can_remove p' = true).

Definition file_le (f f' : file) : Prop :=
  f_repr f = f_repr f' /\ f_entry f = f_entry f' /\ f_css f = f_css f' /\
  f_css_imports f = f_css_imports f' /\ (f_effects f' = true -> f_effects f = true) /\
  Forall2 part_le (f_parts f) (f_parts f').

Definition annot_le (g g' : graph) : Prop :=
  g_tree_shaking g = g_tree_shaking g' /\ g_ignore_dce g = g_ignore_dce g' /\
  g_entries g = g_entries g' /\ Forall2 file_le (g_files g) (g_files g').

Section Annot.
  Variables g g' : graph.
  Hypothesis LE : annot_le g g'.

  Lemma file_fwd s f : get_file g s = Some f -> exists f', get_file g' s = Some f' /\ file_le f f'.
  Proof. destruct LE as (_ & _ & _ & H). exact (proj1 (Forall2_nth _ _ _ H s) f). Qed.

  Lemma file_bwd s f' : get_file g' s = Some f' -> exists f, get_file g s = Some f /\ file_le f f'.
  Proof. destruct LE as (_ & _ & _ & H). exact (proj2 (Forall2_nth _ _ _ H s) f'). Qed.

  Lemma js_part_fwd s f i p :
    get_file g s = Some f -> f_repr f = RJS -> nth_error (f_parts f) i = Some p ->
    exists f' p', get_file g' s = Some f' /\ f_repr f' = RJS /\ nth_error (f_parts f') i = Some p' /\
                  file_le f f' /\ part_le p p'.
  Proof.
    intros F R Hn. destruct (file_fwd s f F) as (f' & F' & FL).
    pose proof FL as (E & _ & _ & _ & _ & H).
    destruct (proj1 (Forall2_nth _ _ _ H i) p Hn) as (p' & Hn' & PL).
    exists f', p'. rewrite <- E. exact (conj F' (conj R (conj Hn' (conj FL PL)))).
  Qed.

  Lemma js_part_bwd s f' i p' :
    get_file g' s = Some f' -> f_repr f' = RJS -> nth_error (f_parts f') i = Some p' ->
    exists f p, get_file g s = Some f /\ f_repr f = RJS /\ nth_error (f_parts f) i = Some p /\
                file_le f f' /\ part_le p p'.
  Proof.
    intros F R Hn. destruct (file_bwd s f' F) as (f & F0 & FL).
    pose proof FL as (E & _ & _ & _ & _ & H).
    destruct (proj2 (Forall2_nth _ _ _ H i) p' Hn) as (p & Hn0 & PL).
    exists f, p. rewrite E. exact (conj F0 (conj R (conj Hn0 (conj FL PL)))).
  Qed.

  Lemma get_part_fwd s i p : get_part g s i = Some p ->
    exists p', get_part g' s i = Some p' /\ part_le p p'.
  Proof.
    intro P. apply get_part_inv in P as (f & F & R & Hn).
    destruct (js_part_fwd s f i p F R Hn) as (f' & p' & F' & R' & Hn' & _ & PL).
    exists p'. split; [|exact PL]. apply get_part_inv. exists f'. auto.
  Qed.

  Lemma get_part_bwd s i p' : get_part g' s i = Some p' ->
    exists p, get_part g s i = Some p /\ part_le p p'.
  Proof.
    intro P. apply get_part_inv in P as (f' & F & R & Hn).
    destruct (js_part_bwd s f' i p' F R Hn) as (f & p & F0 & R0 & Hn0 & _ & PL).
    exists p. split; [|exact PL]. apply get_part_inv. exists f. auto.
  Qed.

  Lemma effects_mono t : has_effects g' t = true -> has_effects g t = true.
  Proof.
    unfold has_effects. destruct (get_file g t) as [f|] eqn:F; [|reflexivity].
    destruct (file_fwd t f F) as (f' & -> & _ & _ & _ & _ & H & _).
    destruct LE as (_ & -> & _). rewrite !orb_true_iff. intros [A|A]; auto.
  Qed.

  Lemma followed_mono r : followed_import g' r -> followed_import g r.
  Proof. intros (A & B & C). exact (conj A (conj B (effects_mono _ C))). Qed.

  Lemma pinning_mono r : pinning_import g' r -> pinning_import g r.
  Proof.
    intros [A [[B C]|B]]; split; auto. left. split; auto. apply effects_mono; exact C.
  Qed.

  Lemma removable_mono p p' : part_le p p' -> removable g p -> removable g' p'.
  Proof.
    intros [_ [I [_ C]]] [R1 R2]. split; [auto|]. intros r Hin P. rewrite <- I in Hin.
    apply (R2 r Hin). apply pinning_mono; exact P.
  Qed.

  Lemma must_keep_mono f f' p p' : file_le f f' -> part_le p p' -> must_keep g' f' p' -> must_keep g f p.
  Proof.
    intros FL PL [K|[A [B C]]].
    - left. intro R. apply K. eapply removable_mono; eauto.
    - right. destruct PL as [E _]. destruct FL as [_ [E2 _]]. destruct LE as [T _].
      rewrite E, T, E2. auto.
  Qed.

  Lemma edge_mono x y : edge g' x y -> edge g x y.
  Proof.
    intro E. destruct E as [s f' c F R C | s f' t F R Hin | s f' i p' r F R Hn Hin Hf | s f' i p' F R Hn K | s i p' P | s i p' t j P Hd].
    - destruct (file_bwd s f' F) as (f & F0 & E1 & _ & E3 & _).
      apply (e_css_stub g s f c F0); congruence.
    - destruct (file_bwd s f' F) as (f & F0 & E1 & _ & _ & E4 & _).
      apply (e_css_import g s f t F0); congruence.
    - destruct (js_part_bwd s f' i p' F R Hn) as (f & p & F0 & R0 & Hn0 & _ & _ & I & _).
      apply (e_import g s f i p r F0 R0 Hn0); [rewrite I; exact Hin | exact (followed_mono r Hf)].
    - destruct (js_part_bwd s f' i p' F R Hn) as (f & p & F0 & R0 & Hn0 & FL & PL).
      exact (e_keep g s f i p F0 R0 Hn0 (must_keep_mono f f' p p' FL PL K)).
    - destruct (get_part_bwd s i p' P) as (p & P0 & _). exact (e_part_file g s i p P0).
    - destruct (get_part_bwd s i p' P) as (p & P0 & _ & _ & D & _).
      apply (e_dep g s i p t j P0). rewrite D. exact Hd.
  Qed.

  Lemma annot_shrinks x : live g' x -> live g x.
  Proof.
    apply live_mono; [|exact edge_mono]. destruct LE as (_ & _ & -> & _). auto.
  Qed.

  (* the items whose own status an annotation changed: a file that is no
     longer imported for its side effects, a part that became removable *)
  Inductive changed : item -> Prop :=
  | ch_file t : has_effects g t = true -> has_effects g' t = false -> changed (IFile t)
  | ch_part s f f' i p p' :
      get_file g s = Some f -> get_file g' s = Some f' ->
      nth_error (f_parts f) i = Some p -> nth_error (f_parts f') i = Some p' ->
      ~ removable g p -> removable g' p' -> changed (IPart s i).

  Lemma path_trans_edge a x y : path g a x -> edge g x y -> path g a y.
  Proof. intros; eapply path_step; eauto. Qed.

  Lemma edge_cut x y : edge g x y -> edge g' x y \/ changed y.
  Proof.
    intro E. destruct E as [s f c F R C | s f t F R Hin | s f i p r F R Hn Hin Hf | s f i p F R Hn K | s i p P | s i p t j P Hd].
    - left. destruct (file_fwd s f F) as (f' & F' & E1 & _ & E3 & _).
      apply (e_css_stub g' s f' c F'); congruence.
    - left. destruct (file_fwd s f F) as (f' & F' & E1 & _ & _ & E4 & _).
      apply (e_css_import g' s f' t F'); congruence.
    - (* followed in g: still followed, or its target lost its side effects *)
      destruct (js_part_fwd s f i p F R Hn) as (f' & p' & F' & R' & Hn' & _ & _ & I & _).
      destruct Hf as (A & B & C).
      destruct (has_effects g' (ir_target r)) eqn:H'; [left | right; exact (ch_file _ C H')].
      apply (e_import g' s f' i p' r F' R' Hn'); [rewrite <- I; exact Hin | exact (conj A (conj B H'))].
    - (* kept in g: still kept, or the part became removable *)
      destruct (js_part_fwd s f i p F R Hn) as (f' & p' & F' & R' & Hn' & FL & PL).
      destruct (must_keep_dec g' f' p') as [K'|NK']; [left; exact (e_keep g' s f' i p' F' R' Hn' K') | right].
      destruct K as [K|(A & B & C)].
      + apply (ch_part s f f' i p p' F F' Hn Hn' K).
        destruct (removable_dec g' p') as [Rm|Rm]; [exact Rm|]. destruct NK'. left; exact Rm.
      + destruct NK'. right. destruct PL as [<- _]. destruct FL as (_ & <- & _). destruct LE as [<- _]. auto.
    - left. destruct (get_part_fwd s i p P) as (p' & P' & _). exact (e_part_file g' s i p' P').
    - left. destruct (get_part_fwd s i p P) as (p' & P' & _ & _ & D & _).
      apply (e_dep g' s i p' t j P'). rewrite <- D. exact Hd.
  Qed.
End Annot.

(* the sharp form: the witness is itself dead in the annotated graph, i.e. what
   additionally disappears hangs on an item that an annotation REMOVED *)
Lemma annot_widens_sharp g g' : annot_le g g' -> forall x,
  live g x -> ~ live g' x ->
  exists a, changed g g' a /\ live g a /\ ~ live g' a /\ path g a x.
Proof.
  intro LE. apply live_cut; [|exact (edge_cut g g' LE)]. destruct LE as (_ & _ & -> & _). auto.
Qed.

Lemma annot_widens_neg g g' : annot_le g g' -> forall x,
  live g x -> ~ live g' x -> exists a, changed g g' a /\ live g a /\ path g a x.
Proof.
  intros LE x L N. destruct (annot_widens_sharp g g' LE x L N) as [a [C [La [_ P]]]]. exists a. auto.
Qed.
