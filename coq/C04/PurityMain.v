(* C04: main purity theorem. By induction on [depth] (the tree type is nested
   through lists and options): one step lemma for expressions and classes, one
   for statements, each over the lists a node carries. *)
From V Require Import Common.Base C04.Purity C04.PuritySem C04.PurityProofs.

Section Main.
  Variable is_unbound : nat -> bool.
  Variable env glob imp : nat -> option value.
  Variable this_val : value.
  Variable o_toprim : nat -> outcome.
  Variable o_iter : value -> outcome.
  Variable o_get : value -> Z -> outcome.
  Variable o_opaque : node -> outcome.
  Variable o_annotated : node -> list value -> outcome.
  Variable rel_prim : binop -> value -> value -> bool.
  Variable loose_prim : value -> value -> bool.
  Variable o_heritage : value -> outcome.
  Variable default_runs : node -> nat -> bool.
  Hypothesis no_tdz : forall r, is_unbound r = false -> env r <> None.
  Hypothesis imports_initialised : forall r, imp r <> None.

  Notation ev := (eval is_unbound env glob imp this_val o_toprim o_iter o_get o_opaque o_annotated rel_prim loose_prim o_heritage default_runs).
  Notation ev_items := (eval_items_with o_iter ev).
  Notation ev_props := (eval_props_with o_toprim o_opaque ev).
  Notation ev_parts := (eval_parts_with o_toprim ev).
  Notation ev_members := (eval_members_with o_toprim o_opaque ev).
  Notation ev_elems := (eval_elems_with o_opaque default_runs ev).
  Notation ev_decls := (eval_decls_with o_opaque default_runs ev).
  Notation cr := (can_remove is_unbound).
  Notation compare := (compare o_toprim rel_prim loose_prim).
  Notation so := (stmt_ok0 is_unbound).
  Notation good := (good is_unbound env glob imp this_val o_toprim o_iter o_get o_opaque o_annotated rel_prim loose_prim o_heritage default_runs).
  Notation flags_ok := (flags_ok is_unbound env glob imp this_val o_toprim o_iter o_get o_opaque o_annotated rel_prim loose_prim o_heritage default_runs).

  Definition IHn (n : nat) : Prop :=
    forall c, (depth c < n)%nat -> flags_ok c -> cr c = true -> good c.

  Definition IHs (n : nat) : Prop :=
    forall c, (depth c < n)%nat -> flags_ok c -> so c = true -> exists v, ev c = ([], Ok v).

  (* how [eval] unfolds on the forms the classifier accepts *)
  Lemma ev_if c y n : ev (EIf c y n) = bind (ev c) (fun v => if truthy v then ev y else ev n).
  Proof. reflexivity. Qed.
  Lemma ev_array items :
    ev (EArray items) = match ev_items items with (t, Some _) => (t, Ok (VObj 0)) | (t, None) => (t, Throw) end.
  Proof. reflexivity. Qed.
  Lemma ev_not e f : ev (EUnary UNot e f) = bind (ev e) (fun x => ret (VBool (negb (truthy x)))).
  Proof. reflexivity. Qed.
  Lemma ev_void e f : ev (EUnary UVoid e f) = bind (ev e) (fun _ => ret VUndef).
  Proof. reflexivity. Qed.
  Lemma ev_comma l r : ev (EBinary BComma l r) = bind (ev l) (fun _ => ev r).
  Proof. reflexivity. Qed.
  Lemma ev_nullish l r : ev (EBinary BNullish l r) = bind (ev l) (fun a => if nullish a then ev r else ret a).
  Proof. reflexivity. Qed.
  Lemma ev_or l r : ev (EBinary BOr l r) = bind (ev l) (fun a => if truthy a then ret a else ev r).
  Proof. reflexivity. Qed.
  Lemma ev_and l r : ev (EBinary BAnd l r) = bind (ev l) (fun a => if truthy a then ev r else ret a).
  Proof. reflexivity. Qed.
  Lemma ev_class d ext props ud :
    ev (CClass d ext props ud) =
    if d then o_opaque (CClass d ext props ud)
    else bind (match ext with Some x => bind (ev x) o_heritage | None => ret VUndef end)
              (fun _ => ev_members (CClass d ext props ud) ud props).
  Proof. reflexivity. Qed.
  Lemma ev_try block hf fin :
    ev (STry block hf fin) =
    match eval_seq_with ev block with
    | (t, Ok _) => let '(t2, r2) := (if hf then eval_seq_with ev fin else ret VUndef) in (t ++ t2, r2)
    | (t, Throw) => let '(t2, r2) := o_opaque (STry block hf fin) in (t ++ t2, r2)
    end.
  Proof. reflexivity. Qed.
  Lemma ev_local k decls : k <> LAwaitUsing -> ev (SLocal k decls) = ev_decls (SLocal k decls) k decls.
  Proof. destruct k; congruence || reflexivity. Qed.

  (* and how the classifier does. Rewrite with these (or [cbn]): [simpl] leaves
     the mutual fixpoint alone, and [apply ... in] against a folded call unfolds it
     into the new hypotheses, body and all, which [Qed] then checks again and again *)
  Lemma cr_if c y n :
    cr (EIf c y n) = cr c && ((guard_ok is_unbound y c true || cr y) && (guard_ok is_unbound n c false || cr n)).
  Proof. reflexivity. Qed.
  Lemma cr_comma l r : cr (EBinary BComma l r) = cr l && cr r.
  Proof. reflexivity. Qed.
  Lemma cr_nullish l r : cr (EBinary BNullish l r) = cr l && cr r.
  Proof. reflexivity. Qed.
  Lemma cr_or l r : cr (EBinary BOr l r) = cr l && (guard_ok is_unbound r l false || cr r).
  Proof. reflexivity. Qed.
  Lemma cr_and l r : cr (EBinary BAnd l r) = cr l && (guard_ok is_unbound r l true || cr r).
  Proof. reflexivity. Qed.
  Lemma so_expr e from : so (SExpr e from) = cr e || from.
  Proof. reflexivity. Qed.
  Lemma so_try block hf fin : so (STry block hf fin) = forallb so block && (negb hf || forallb so fin).
  Proof. reflexivity. Qed.

  (* what the classifier asks of the operand types of a comparison *)
  Definition operands_ok (op : binop) (A B : ptype) : bool :=
    match op with
    | BStrictEq | BStrictNe => true
    | BLooseEq | BLooseNe => ptype_eqb A B && known_not_mixed A
    | _ => match A with TString | TNumber | TBigInt => ptype_eqb B A | _ => false end
    end.

  Lemma cr_eager op l r : eager op = true ->
    cr (EBinary op l r) = operands_ok op (kpt l) (kpt r) && cr l && cr r.
  Proof. destruct op; try discriminate; intros _; try reflexivity; cbn; destruct (kpt l); reflexivity. Qed.
  Lemma kpt_eager op l r : eager op = true -> kpt (EBinary op l r) = TBoolean.
  Proof. destruct op; try discriminate; reflexivity. Qed.

  Lemma prim_of_type v : type_of v <> TUnknown -> to_prim o_toprim v = ret v.
  Proof. destruct v; simpl; intro H; try reflexivity; congruence. Qed.

  Lemma to_string_prim v : type_of v <> TUnknown -> to_string o_toprim v = ret (VStr []).
  Proof. destruct v; simpl; intro H; try reflexivity; congruence. Qed.

  Lemma known_type T v : known_not_mixed T = true -> type_ok T v -> type_of v = T.
  Proof. destruct T; simpl; try discriminate; auto. Qed.

  Lemma ptype_eqb_eq a b : ptype_eqb a b = true -> a = b.
  Proof. destruct a, b; simpl; try discriminate; reflexivity. Qed.

  Lemma loose_same_type a b : type_of a = type_of b -> type_of a <> TUnknown ->
    loose_eq o_toprim loose_prim a b = ret (VBool (value_eqb a b)).
  Proof.
    intros E N. unfold loose_eq. rewrite <- E. destruct (type_of a); try reflexivity. congruence.
  Qed.

  Lemma relational_same_type op a b :
    match type_of a with TString | TNumber | TBigInt => type_of b = type_of a | _ => False end ->
    exists r, relational o_toprim rel_prim op a b = ([], Ok (VBool r)).
  Proof.
    destruct a; simpl; try contradiction; destruct b; try discriminate; intros _; eexists; reflexivity.
  Qed.

  Lemma compare_ok op A B a b : eager op = true -> operands_ok op A B = true ->
    type_ok A a -> type_ok B b -> exists r, compare op a b = ([], Ok (VBool r)).
  Proof.
    intros G T Ta Tb.
    assert (L : (op = BLooseEq \/ op = BLooseNe) -> loose_eq o_toprim loose_prim a b = ret (VBool (value_eqb a b))).
    { intros O. assert (T' : ptype_eqb A B && known_not_mixed A = true) by (destruct O; subst op; exact T).
      apply andb_true_iff in T' as [T1 T2]. apply ptype_eqb_eq in T1. subst B.
      pose proof (known_type A a T2 Ta) as Ha. pose proof (known_type A b T2 Tb) as Hb.
      apply loose_same_type; [congruence|]. rewrite Ha. intros ->. discriminate T2. }
    destruct op; try discriminate G; simpl compare.
    (* strict equalities never convert *)
    1-2: eexists; reflexivity.
    (* loose equalities: both operands of one known type *)
    1-2: rewrite L by auto; eexists; reflexivity.
    (* orderings: both strings, both numbers or both bigints *)
    all: apply relational_same_type; simpl in T.
    all: destruct A; try discriminate T; apply ptype_eqb_eq in T; subst B; simpl in Ta, Tb; rewrite Ta; exact Tb.
  Qed.

  Lemma dlist_cons d x (r : list node) : dlist d (x :: r) = Nat.max (d x) (dlist d r).
  Proof. reflexivity. Qed.

  Lemma list_members n (pred : node -> bool) (R : node -> Prop) :
    (forall x, (depth x < n)%nat -> flags_ok x -> pred x = true -> R x) ->
    forall l, (dlist depth l < n)%nat -> all_ok flags_ok l -> forallb pred l = true -> Forall R l.
  Proof.
    intros H. induction l as [|x r IHl]; intros D F C; [constructor|].
    rewrite dlist_cons in D. apply Nat.max_lub_lt_iff in D as [D1 D2].
    destruct F as [F1 F2]. apply andb_true_iff in C as [C1 C2].
    constructor; [exact (H x D1 F1 C1) | exact (IHl D2 F2 C2)].
  Qed.

  Lemma absorb {A} (go : list node -> A) l : Forall (fun x => forall r, go (x :: r) = go r) l -> go l = go [].
  Proof. induction 1 as [|x r H _ IHr]; [reflexivity | rewrite H; exact IHr]. Qed.

  Lemma bind_ret2 v k : bind (ret v) k = k v.
  Proof. apply bind_ret. Qed.

  Lemma bind_undef o k w : o = ([], Ok VUndef) -> k VUndef = w -> bind o k = w.
  Proof. intros -> <-. apply bind_ret. Qed.

  (* array elements and call arguments *)
  Definition item_pred (item : node) : bool :=
    match item with ESpread ((EArray _) as arr) => cr arr | _ => cr item end.
  Definition ev_item (x : node) : outcome :=
    match x with
    | ESpread ((EArray _) as arr) => ev arr
    | ESpread y => bind (ev y) o_iter
    | _ => ev x
    end.

  Lemma item_ok n (IH : IHn n) x : (depth x < n)%nat -> flags_ok x -> item_pred x = true ->
    exists v, ev_item x = ([], Ok v).
  Proof.
    intros D F C.
    assert (G : forall y, (depth y < n)%nat -> flags_ok y -> cr y = true -> exists v, ev y = ([], Ok v)).
    { intros y Dy Fy Cy. apply good_silent, IH; assumption. }
    unfold ev_item, item_pred in *. destruct x; try exact (G _ D F C).
    destruct x; try exact (rejected _ C). exact (G (EArray items) (Nat.lt_succ_l _ _ D) F C).
  Qed.

  Lemma items_ok n (IH : IHn n) l :
    (dlist depth l < n)%nat -> all_ok flags_ok l -> forallb item_pred l = true ->
    exists vs, ev_items l = ([], Some vs).
  Proof.
    intros D F C. pose proof (list_members n item_pred _ (item_ok n IH) l D F C) as H. clear D F C.
    induction H as [|x r [v E] _ [vs Er]].
    - exists []. reflexivity.
    - exists (v :: vs).
      cbn [eval_items_with]. fold (ev_item x). rewrite E, Er. reflexivity.
  Qed.

  Lemma items_weaken (f : node -> bool) l : (forall x, f x = true -> cr x = true) ->
    forallb f l = true -> forallb item_pred l = true.
  Proof.
    intros W. induction l as [|x r IH]; simpl; intro H; [reflexivity|].
    apply andb_true_iff in H as [H1 H2]. rewrite (IH H2), andb_true_r.
    apply W in H1. destruct x; try exact H1. discriminate H1.
  Qed.

  (* a call, [new] or tagged template the user annotated as pure *)
  Lemma annotated_ok e l : (forall vs, exists v, o_annotated e vs = ([], Ok v)) ->
    (exists vs, ev_items l = ([], Some vs)) ->
    exists v, match ev_items l with
              | (t, Some vs) => let '(t2, r) := o_annotated e vs in (t ++ t2, r)
              | (t, None) => (t, Throw)
              end = ([], Ok v).
  Proof. intros A [vs E]. destruct (A vs) as [v Hv]. exists v. rewrite E, Hv. reflexivity. Qed.

  Lemma part_ok n (IH : IHn n) x : (depth x < n)%nat -> flags_ok x ->
    cr x && negb (ptype_eqb (kpt x) TUnknown) = true -> forall r, ev_parts (x :: r) = ev_parts r.
  Proof.
    intros D F C r. apply andb_true_iff in C as [C1 C2]. destruct (IH x D F C1) as [v [E T]].
    assert (N : type_of v <> TUnknown).
    { eapply type_ok_prim; [|exact T]. intro K. rewrite K in C2. discriminate C2. }
    change (ev_parts (x :: r)) with (bind (ev x) (fun v => bind (to_string o_toprim v) (fun _ => ev_parts r))).
    rewrite E, bind_ret, (to_string_prim v N). apply bind_ret2.
  Qed.

  (* property keys: not computed, a primitive literal, or a symbol the parser vouches for *)
  Definition key_pred (computed : bool) (key : node) : bool :=
    negb (computed && negb (is_primitive_literal key) && negb (is_symbol_instance key)).

  Lemma prim_lit_kpt k : is_primitive_literal k = true -> kpt k <> TUnknown.
  Proof. induction k; intro H; try exact (rejected _ H); try discriminate; auto. Qed.

  Lemma prim_lit_good k : is_primitive_literal k = true -> flags_ok k ->
    exists v, ev k = ([], Ok v) /\ type_of v <> TUnknown.
  Proof.
    induction k; intros H F; try exact (rejected _ H);
      try (eexists; split; [reflexivity | discriminate]).
    - (* EAnnotation *) destruct flag; [|apply IHk; assumption].
      destruct F as [v [E T]]. exists v. split; [exact E|].
      eapply type_ok_prim; [|exact T]. apply (prim_lit_kpt k H).
    - (* EInlinedEnum *) apply IHk; assumption.
  Qed.

  Lemma key_ok computed key : flags_ok key -> key_pred computed key = true ->
    exists v, (if computed then bind (ev key) (to_key o_toprim) else ret VUndef) = ([], Ok v).
  Proof.
    intros F C. destruct computed; [|eexists; reflexivity]. unfold key_pred in C. simpl in C.
    apply negb_true_iff, andb_false_iff in C as [C|C]; apply negb_false_iff in C.
    - destruct (prim_lit_good key C F) as [v [E T]]. exists v.
      rewrite E, bind_ret. apply prim_of_type. exact T.
    - assert (S : exists id, ev key = ([], Ok (VSym id))).
      { destruct key; try discriminate C; simpl in C; subst; apply F; reflexivity. }
      destruct S as [id E]. exists (VSym id). rewrite E. apply bind_ret.
  Qed.

  Lemma opt_eval_ok n (IH : IHn n) o : (dopt depth o < n)%nat -> opt_ok flags_ok o -> opt_all cr o = true ->
    exists v, opt_eval ev o = ([], Ok v).
  Proof.
    destruct o as [x|]; simpl; intros D F C; [|eexists; reflexivity].
    apply good_silent, IH; assumption.
  Qed.

  (* object literal properties *)
  Definition prop_pred (p : node) : bool :=
    match p with
    | PProp k computed _ _ _ key value _ _ =>
      match k with
      | KSpread => false
      | _ => key_pred computed key && opt_all cr value
      end
    | _ => false
    end.

  Lemma key_value_ok n (IH : IHn n) computed key value rest :
    (dopt depth value < n)%nat -> flags_ok key -> opt_ok flags_ok value ->
    key_pred computed key && opt_all cr value = true ->
    bind (if computed then bind (ev key) (to_key o_toprim) else ret VUndef)
         (fun _ => bind (opt_eval ev value) (fun _ => rest)) = rest.
  Proof.
    intros DV FK FV C. apply andb_true_iff in C as [CK CV].
    destruct (key_ok computed key FK CK) as [vk EK].
    destruct (opt_eval_ok n IH value DV FV CV) as [vv EV].
    rewrite EK, bind_ret, EV. apply bind_ret.
  Qed.

  Lemma prop_ok n (IH : IHn n) whole x : (depth x < n)%nat -> flags_ok x -> prop_pred x = true ->
    forall r, ev_props whole (x :: r) = ev_props whole r.
  Proof.
    intros D F C r. destruct x; try exact (rejected _ C). destruct F as (FK & FV & _).
    simpl in D. apply Nat.lt_succ_l in D. rewrite !Nat.max_lub_lt_iff in D. destruct D as (_ & DV & _).
    (* every kind but a spread takes the same branch, on both sides *)
    destruct k; try discriminate C; exact (key_value_ok n IH computed x value _ DV FK FV C).
  Qed.

  Lemma guard_kpt value g b : guard_ok is_unbound value g b = true -> kpt value = TUnknown.
  Proof. intro G. destruct value; try exact (rejected _ G). reflexivity. Qed.

  (* the right operand of && / ||, a branch of ?: : removable as it stands, or an
     unbound identifier the condition has just found to be defined *)
  Lemma branch_ok n (IH : IHn n) x g b vg : (depth x < n)%nat -> flags_ok x -> flags_ok g ->
    ev g = ([], Ok vg) -> truthy vg = b -> guard_ok is_unbound x g b || cr x = true -> good x.
  Proof.
    intros D Fx Fg Eg T C. destruct (guard_ok is_unbound x g b) eqn:G; [|exact (IH x D Fx C)].
    assert (S : exists v, ev x = ([], Ok v)) by (eapply guard_sound; eassumption).
    destruct S as [v E]. exists v. split; [exact E|]. rewrite (guard_kpt _ _ _ G). exact I.
  Qed.

  Lemma read_ok ref c : (c = true -> is_unbound ref = true -> glob ref <> None) ->
    c || negb (is_unbound ref) = true -> exists v, read_ident is_unbound env glob ref = ([], Ok v).
  Proof.
    intros G C. unfold read_ident. destruct (is_unbound ref) eqn:U.
    - rewrite orb_false_r in C. destruct (glob ref) as [v|] eqn:E; [exists v; reflexivity | destruct (G C eq_refl eq_refl)].
    - destruct (env ref) as [v|] eqn:E; [exists v; reflexivity | destruct (no_tdz ref U E)].
  Qed.

  (* typeof never throws on an unbound identifier the parser flagged; otherwise
     its operand is read. Both sides are first brought to a [match] on the
     operand, so that no case has to unfold [eval] or the classifier. *)
  Lemma typeof_ok n (IH : IHn n) x flag : (depth x < n)%nat -> flags_ok x ->
    cr (EUnary UTypeof x flag) = true -> exists s, ev (EUnary UTypeof x flag) = ([], Ok (VStr s)).
  Proof.
    intros D F C.
    assert (G : forall y, (exists v, ev y = ([], Ok v)) ->
                exists s, bind (ev y) (fun w => ret (VStr (typeof_str w))) = ([], Ok (VStr s))).
    { intros y [v E]. rewrite E, bind_ret. eexists. reflexivity. }
    assert (H : forall y, (depth y < n)%nat -> flags_ok y -> cr y = true ->
                exists s, bind (ev y) (fun w => ret (VStr (typeof_str w))) = ([], Ok (VStr s))).
    { intros y Dy Fy Cy. apply G, good_silent, IH; assumption. }
    cbn [can_remove] in C. cbn [eval].
    destruct x; try exact (H _ D F C).
    destruct F as [-> F]. pose proof (read_ok ref can_remove F) as R.
    destruct flag; simpl andb; [|apply G; exact (R C)].
    destruct (is_unbound ref); [destruct (glob ref); eexists; reflexivity | apply G; exact (R (orb_true_r _))].
  Qed.

  Lemma nullish_type A B a b : type_ok A a -> type_ok B b ->
    type_ok (match A with
             | TNull | TUndefined => B
             | TUnknown => TUnknown
             | TMixed => match B with TUnknown => TUnknown | _ => TMixed end
             | _ => A
             end) (if nullish a then b else a).
  Proof.
    intros Ta Tb. destruct A; simpl in Ta; try exact I;
      try (destruct a; try discriminate Ta; first [exact Tb | exact Ta]).
    assert (NB : B <> TUnknown -> type_of b <> TUnknown) by (intro N; exact (type_ok_prim B b N Tb)).
    destruct B; try exact I; simpl; (destruct (nullish a); [apply NB; discriminate | exact Ta]).
  Qed.

  (* esbuild's documented concession: a class heritage is a constructor whose
     "prototype" read runs no user code *)
  Hypothesis heritage_ok : forall v, exists w, o_heritage v = ([], Ok w).

  Lemma seq_ok n (IH : IHs n) l :
    (dlist depth l < n)%nat -> all_ok flags_ok l -> forallb so l = true ->
    eval_seq_with ev l = ([], Ok VUndef).
  Proof.
    intros D F C. apply (absorb (eval_seq_with ev)), (list_members n so _) with (4 := C); [|exact D | exact F].
    intros x Dx Fx Cx r. destruct (IH x Dx Fx Cx) as [v E].
    change (eval_seq_with ev (x :: r)) with (bind (ev x) (fun _ => eval_seq_with ev r)).
    rewrite E. apply bind_ret.
  Qed.

  (* class members *)
  Definition member_pred (use_define : bool) (p : node) : bool :=
    match p with
    | PProp k computed static dec argdec key value init block =>
      match k with
      | KStaticBlock => forallb so block
      | _ =>
        negb dec
        && key_pred computed key
        && negb (match k with KMethod => argdec | _ => false end)
        && (if static then opt_all cr value && opt_all cr init
                            && negb (match k with KField => negb use_define | _ => false end)
            else true)
      end
    | _ => false
    end.

  Lemma cr_class d ext props ud :
    cr (CClass d ext props ud) = negb d && opt_all cr ext && forallb (member_pred ud) props.
  Proof. reflexivity. Qed.

  (* a member other than a static block: decorators make it opaque; otherwise its
     key and, if static, its value and initialiser are evaluated.
     [am]: a method with parameter decorators, [af]: a field with assign semantics *)
  Lemma ordinary_member_ok n (IH : IHn n) whole (am af computed static dec : bool) key value init rest :
    (dopt depth value < n)%nat -> (dopt depth init < n)%nat ->
    flags_ok key -> opt_ok flags_ok value -> opt_ok flags_ok init ->
    negb dec && key_pred computed key && negb am
      && (if static then opt_all cr value && opt_all cr init && negb af else true) = true ->
    (if dec || am then o_opaque whole
     else bind (if computed then bind (ev key) (to_key o_toprim) else ret VUndef) (fun _ =>
          bind (if static
                then if af then o_opaque whole else bind (opt_eval ev value) (fun _ => opt_eval ev init)
                else ret VUndef) (fun _ => rest))) = rest.
  Proof.
    intros DV DI FK FV FI C.
    apply andb_true_iff in C as [C CS]. apply andb_true_iff in C as [C CA]. apply andb_true_iff in C as [CD CK].
    apply negb_true_iff in CD, CA. rewrite CD, CA. cbn [orb].
    destruct (key_ok computed key FK CK) as [vk EK]. rewrite EK, bind_ret.
    destruct static; [|apply bind_ret2].
    apply andb_true_iff in CS as [CS CU]. apply andb_true_iff in CS as [CV CI].
    apply negb_true_iff in CU. rewrite CU.
    destruct (opt_eval_ok n IH value DV FV CV) as [v1 E1].
    destruct (opt_eval_ok n IH init DI FI CI) as [v2 E2].
    rewrite E1, bind_ret, E2. apply bind_ret.
  Qed.

  Lemma member_ok n (IH : IHn n) (IS : IHs n) whole ud x :
    (depth x < n)%nat -> flags_ok x -> member_pred ud x = true ->
    forall r, ev_members whole ud (x :: r) = ev_members whole ud r.
  Proof.
    intros D F C r. destruct x; try exact (rejected _ C). destruct F as (FK & FV & FI & FB).
    simpl in D. apply Nat.lt_succ_l in D. rewrite !Nat.max_lub_lt_iff in D. destruct D as (_ & DV & DI & DB).
    pose proof (ordinary_member_ok n IH whole
                  (match k with KMethod => arg_decorated | _ => false end)
                  (match k with KField => negb ud | _ => false end)
                  computed static decorated x value init (ev_members whole ud r) DV DI FK FV FI) as O.
    (* every kind but a static block takes that branch, on both sides *)
    destruct k; try exact (O C).
    cbn [eval_members_with]. rewrite (seq_ok n IS block DB FB C). apply bind_ret.
  Qed.

  (* comparisons evaluate both operands; [,] [??] [||] [&&] evaluate the right one
     only after the left one, which may have guarded it *)
  Lemma binary_ok n (IH : IHn n) op l r : (depth l < n)%nat -> (depth r < n)%nat ->
    flags_ok l -> flags_ok r -> cr (EBinary op l r) = true -> good (EBinary op l r).
  Proof.
    intros Dl Dr F1 F2 C. unfold PurityProofs.good. destruct (eager op) eqn:G.
    - rewrite (cr_eager op l r G) in C. apply andb_true_iff in C as [C C2]. apply andb_true_iff in C as [CT C1].
      destruct (IH l Dl F1 C1) as [a [Ea Ta]]. destruct (IH r Dr F2 C2) as [b [Eb Tb]].
      destruct (compare_ok op _ _ a b G CT Ta Tb) as [c Ec]. exists (VBool c).
      rewrite ev_eager by exact G. rewrite Ea, bind_ret, Eb, bind_ret, (kpt_eager op l r G).
      split; [exact Ec | reflexivity].
    - destruct op; try discriminate G; try exact (rejected _ C);
        rewrite ?cr_comma, ?cr_nullish, ?cr_or, ?cr_and in C; apply andb_true_iff in C as [C1 C2];
        destruct (IH l Dl F1 C1) as [a [Ea Ta]].
      + (* , *) destruct (IH r Dr F2 C2) as [b [Eb Tb]].
        exists b. split; [|exact Tb]. rewrite ev_comma, Ea, bind_ret. exact Eb.
      + (* ?? *) destruct (IH r Dr F2 C2) as [b [Eb Tb]].
        exists (if nullish a then b else a).
        split; [|exact (nullish_type _ _ a b Ta Tb)].
        rewrite ev_nullish, Ea, bind_ret. destruct (nullish a); [exact Eb | reflexivity].
      + (* || *) rewrite ev_or, Ea, bind_ret. cbn [kpt]. destruct (truthy a) eqn:T.
        * exists a. split; [reflexivity | apply merged_ok_l; exact Ta].
        * destruct (branch_ok n IH r l false a Dr F2 F1 Ea T C2) as [b [Eb Tb]].
          exists b. split; [exact Eb | apply merged_ok_r; exact Tb].
      + (* && *) rewrite ev_and, Ea, bind_ret. cbn [kpt]. destruct (truthy a) eqn:T.
        * destruct (branch_ok n IH r l true a Dr F2 F1 Ea T C2) as [b [Eb Tb]].
          exists b. split; [exact Eb | apply merged_ok_r; exact Tb].
        * exists a. split; [reflexivity | apply merged_ok_l; exact Ta].
  Qed.

  Lemma class_ok n (IH : IHn n) (IS : IHs n) d ext props ud :
    (dopt depth ext < n)%nat -> (dlist depth props < n)%nat -> opt_ok flags_ok ext -> all_ok flags_ok props ->
    cr (CClass d ext props ud) = true -> good (CClass d ext props ud).
  Proof.
    intros DE DP FE FP C. rewrite cr_class in C.
    apply andb_true_iff in C as [C CP]. apply andb_true_iff in C as [CD CE].
    apply negb_true_iff in CD. subst d.
    exists (VObj 0). split; [|exact I]. rewrite ev_class.
    assert (EE : exists v, (match ext with Some x => bind (ev x) o_heritage | None => ret VUndef end) = ([], Ok v)).
    { destruct ext as [x|]; [|eexists; reflexivity].
      destruct (IH x DE FE CE) as [v [E _]]. destruct (heritage_ok v) as [w W].
      exists w. rewrite E, bind_ret. exact W. }
    destruct EE as [v EE]. rewrite EE, bind_ret.
    apply (absorb (ev_members _ _)), (list_members n (member_pred ud) _ (member_ok n IH IS _ ud));
      [exact DP | exact FP | exact CP].
  Qed.

  Lemma expr_step n (IH : IHn n) (IS : IHs n) e : (depth e < S n)%nat -> flags_ok e -> cr e = true -> good e.
  Proof.
    intros D F C. unfold PurityProofs.good.
    destruct e; try exact (rejected _ C);
      try (eexists; split; [reflexivity | first [exact I | reflexivity]]; fail);
      (* the bound on the depth, split into one bound per child ([lia] at every use is dear) *)
      simpl in D; try (apply Nat.succ_lt_mono in D; rewrite ?Nat.max_lub_lt_iff in D).
    - (* EIdent *)
      destruct F as [-> F]. destruct (read_ok ref can_remove F C) as [v E]. exists v. split; [exact E | exact I].
    - (* EImportIdent *)
      destruct (imp ref) as [v|] eqn:E; [|destruct (imports_initialised ref E)].
      exists v. split; [|exact I]. simpl. rewrite E. reflexivity.
    - (* EDot *) exact (proj1 F C).
    - (* EIf *)
      destruct F as (F1 & F2 & F3). rewrite cr_if in C.
      apply andb_true_iff in C as [C1 C]. apply andb_true_iff in C as [C2 C3].
      destruct (IH e1 ltac:(apply D) F1 C1) as [vc [Ec _]].
      rewrite ev_if, Ec, bind_ret. cbn [kpt]. destruct (truthy vc) eqn:T.
      + destruct (branch_ok n IH e2 e1 true vc ltac:(apply D) F2 F1 Ec T C2) as [v [E Ty]].
        exists v. split; [exact E | apply merged_ok_l; exact Ty].
      + destruct (branch_ok n IH e3 e1 false vc ltac:(apply D) F3 F1 Ec T C3) as [v [E Ty]].
        exists v. split; [exact E | apply merged_ok_r; exact Ty].
    - (* EArray *)
      (* [cbn] refolds the classifier inside the element test, which is then [item_pred]
         word for word; left to unification, comparing the two 60-way matches is dear *)
      cbn in C. destruct (items_ok n IH items ltac:(apply D) F C) as [vs E].
      exists (VObj 0). split; [|exact I]. rewrite ev_array, E. reflexivity.
    - (* EObject *)
      exists (VObj 0). split; [|exact I].
      change (ev (EObject props)) with (ev_props (EObject props) props).
      apply (absorb (ev_props _)), (list_members n prop_pred _ (prop_ok n IH _)); [apply D | exact F | exact C].
    - (* ECall *)
      destruct pure; [|discriminate C]. destruct F as [F1 F2].
      destruct (annotated_ok (ECall e args true) args (F2 eq_refl)) as [v E].
      { apply (items_ok n IH); [apply D | exact F1 | exact (items_weaken cr args (fun _ H => H) C)]. }
      exists v. split; [exact E | exact I].
    - (* ENew *)
      destruct pure; [|discriminate C]. destruct F as [F1 F2].
      destruct (annotated_ok (ENew e args true) args (F2 eq_refl)) as [v E].
      { apply (items_ok n IH); [apply D | exact F1 | exact (items_weaken cr args (fun _ H => H) C)]. }
      exists v. split; [exact E | exact I].
    - (* EUnary *)
      simpl in F. destruct op; try discriminate C.
      + (* - on a bigint literal *) destruct e; try exact (rejected _ C). eexists. split; reflexivity.
      + (* ! *) destruct (IH e ltac:(apply D) F C) as [v [E _]].
        exists (VBool (negb (truthy v))). split; [|reflexivity]. rewrite ev_not, E. apply bind_ret.
      + (* void *) destruct (IH e ltac:(apply D) F C) as [v [E _]].
        exists VUndef. split; [|reflexivity]. rewrite ev_void, E. apply bind_ret.
      + (* typeof *) destruct (typeof_ok n IH e typeof_ident ltac:(apply D) F C) as [s E].
        exists (VStr s). split; [exact E | reflexivity].
    - (* EBinary *)
      destruct F as [F1 F2]. exact (binary_ok n IH op e1 e2 (proj1 D) (proj2 D) F1 F2 C).
    - (* ETemplate *)
      destruct F as [F1 F2]. destruct tag as [t|].
      + (* tagged: only when annotated *)
        destruct pure; [|discriminate C].
        destruct (annotated_ok (ETemplate (Some t) true parts) parts (F2 ltac:(discriminate) eq_refl)) as [v E].
        { apply (items_ok n IH); [apply D | exact F1 |].
          exact (items_weaken (fun p => cr p && negb (ptype_eqb (kpt p) TUnknown)) parts
                               (fun x H => proj1 (andb_prop _ _ H)) C). }
        exists v. split; [exact E | exact I].
      + exists (VStr []). split; [|reflexivity].
        change (ev (ETemplate None pure parts)) with (ev_parts parts).
        apply (absorb ev_parts), (list_members n _ _ (part_ok n IH)); [apply D | exact F1 | destruct pure; exact C].
    - (* EClass *)
      destruct (IH e ltac:(apply D) F C) as [v [E _]]. exists v. split; [exact E | exact I].
    - (* EAnnotation *) cbn in C. subst flag. exact F.
    - (* EInlinedEnum *) exact (IH e ltac:(apply D) F C).
    - (* CClass *)
      destruct F as [FE FP].
      exact (class_ok n IH IS decorated ext props use_define (proj1 D) (proj2 D) FE FP C).
  Qed.

  Definition elem_pred (it : node) : bool :=
    match it with
    | BItem ib def => opt_all cr def && match ib with BIdent | BMissing => true | _ => false end
    | _ => false
    end.

  Lemma elem_ok n (IH : IHn n) x : (depth x < n)%nat -> flags_ok x -> elem_pred x = true ->
    forall whole i r, ev_elems whole i (x :: r) = ev_elems whole (S i) r.
  Proof.
    intros D F C whole i r. destruct x; try exact (rejected _ C). simpl in D, C.
    apply Nat.lt_succ_l, Nat.max_lub_lt_iff in D.
    apply andb_true_iff in C as [CD CB]. destruct F as [_ FD].
    assert (ED : exists v, (match default with
                            | Some d => if default_runs whole i then ev d else ret VUndef
                            | None => ret VUndef end) = ([], Ok v)).
    { destruct (opt_eval_ok n IH default ltac:(apply D) FD CD) as [v E].
      destruct default as [d|]; [|eexists; reflexivity].
      destruct (default_runs whole i); [exists v; exact E | eexists; reflexivity]. }
    destruct ED as [v ED]. cbn [eval_elems_with]. rewrite ED, bind_ret.
    destruct x; try exact (rejected _ CB); reflexivity.
  Qed.

  Lemma elems_ok n (IH : IHn n) whole l :
    (dlist depth l < n)%nat -> all_ok flags_ok l -> forallb elem_pred l = true ->
    forall i, ev_elems whole i l = ([], Ok VUndef).
  Proof.
    intros D F C. pose proof (list_members n elem_pred _ (elem_ok n IH) l D F C) as H. clear D F C.
    induction H as [|x r H _ IHr]; intro i; [reflexivity | rewrite H; apply IHr].
  Qed.

  Definition decl_pred (k : lkind) (d : node) : bool :=
    match d with
    | DDecl b value =>
      (match b with
       | BIdent => true
       | BArray items =>
         match value with
         | Some (EArray _) => forallb elem_pred items
         | _ => false
         end
       | _ => false
       end)
      && match value with
         | None => true
         | Some v => cr v
                     && (match k with
                         | LUsing => match kpt v with TNull | TUndefined => true | _ => false end
                         | _ => true end)
         end
    | _ => false
    end.

  Lemma decl_ok n (IH : IHn n) whole k x : (depth x < n)%nat -> flags_ok x -> decl_pred k x = true ->
    forall r, ev_decls whole k (x :: r) = ev_decls whole k r.
  Proof.
    intros D F C r. destruct x; try exact (rejected _ C). simpl in D, C.
    apply Nat.lt_succ_l, Nat.max_lub_lt_iff in D as [DB DV].
    apply andb_true_iff in C as [CB CV]. destruct F as [FB FV].
    (* the initialiser; a [using] declaration must see null or undefined *)
    assert (EV : exists v, opt_eval ev value = ([], Ok v) /\
                 (match k, value with LUsing, Some _ => nullish v = true | _, _ => True end)).
    { destruct value as [x0|]; [|exists VUndef; split; [reflexivity | destruct k; exact I]].
      apply andb_true_iff in CV as [CV CU].
      destruct (IH x0 DV FV CV) as [v [E T]]. exists v. split; [exact E|].
      destruct k; try exact I.
      destruct (kpt x0); try discriminate CU; simpl in T; destruct v; try discriminate T; reflexivity. }
    destruct EV as [v [EV NU]].
    cbn [eval_decls_with]. rewrite EV, bind_ret.
    apply bind_undef; [|apply bind_undef; [|reflexivity]].
    - (* the pattern: an identifier, or an array pattern over an array literal *)
      destruct x; try exact (rejected _ CB); [reflexivity|].
      destruct value as [x0|]; [|discriminate CB]. destruct x0; try discriminate CB.
      apply (elems_ok n IH); [exact (Nat.lt_succ_l _ _ DB) | exact FB | exact CB].
    - (* [using]: the value is nullish, so nothing is disposed *)
      destruct k; try reflexivity. destruct value; [|reflexivity]. rewrite NU. reflexivity.
  Qed.

  Lemma discard_ok n (IH : IHn n) c : (depth c < n)%nat -> flags_ok c -> cr c = true ->
    exists v, bind (ev c) (fun _ => ret VUndef) = ([], Ok v).
  Proof. intros D F C. destruct (IH c D F C) as [v [E _]]. exists VUndef. rewrite E. apply bind_ret. Qed.

  Lemma stmt_step n (IH : IHn n) (IS : IHs n) e :
    (depth e < S n)%nat -> flags_ok e -> so e = true -> exists v, ev e = ([], Ok v).
  Proof.
    intros D F C.
    destruct e; try exact (rejected _ C); try (eexists; reflexivity);
      simpl in D; apply Nat.succ_lt_mono in D; rewrite ?Nat.max_lub_lt_iff in D.
    - (* SClass *) exact (discard_ok n IH e ltac:(apply D) F C).
    - (* SExpr *)
      destruct from_removable.
      + destruct F as [v E]. exists VUndef.
        change (bind (ev e) (fun _ => ret VUndef) = ([], Ok VUndef)). rewrite E. apply bind_ret.
      + rewrite so_expr, orb_false_r in C. exact (discard_ok n IH e ltac:(apply D) F C).
    - (* SLocal *)
      assert (NK : k <> LAwaitUsing) by (intros ->; discriminate C).
      exists VUndef. rewrite (ev_local k decls NK).
      apply (absorb (ev_decls _ k)), (list_members n (decl_pred k) _ (decl_ok n IH _ k));
        [apply D | exact F | destruct k; congruence || exact C].
    - (* STry *)
      destruct F as [FB FF]. rewrite so_try in C. apply andb_true_iff in C as [CB CF].
      exists VUndef. rewrite ev_try, (seq_ok n IS block ltac:(apply D) FB CB).
      destruct has_finally; [|reflexivity].
      rewrite (seq_ok n IS fin ltac:(apply D) FF CF). reflexivity.
    - (* SExportDefaultExpr *) exact (discard_ok n IH e ltac:(apply D) F C).
    - (* SExportDefaultClass *) exact (discard_ok n IH e ltac:(apply D) F C).
  Qed.

  Lemma both : forall n, IHn n /\ IHs n.
  Proof.
    induction n as [|n [A B]]; [split; intros c D; lia|].
    split; intros c D F C; [apply (expr_step n A B c D F C) | apply (stmt_step n A B c D F C)].
  Qed.

  Theorem removable_good : forall n e, (depth e < n)%nat -> flags_ok e -> cr e = true -> good e.
  Proof. intros n. exact (proj1 (both n)). Qed.

  (* StmtsCanBeRemovedIfUnused(stmts, flags) = true: executing the statements
     logs nothing and does not throw *)
  Theorem removable_stmts_silent keep ret l :
    all_ok flags_ok l -> stmts_can_remove is_unbound keep ret l = true ->
    exists v, exec_stmts is_unbound env glob imp this_val o_toprim o_iter o_get o_opaque o_annotated rel_prim loose_prim o_heritage default_runs l = ([], Ok v).
  Proof.
    unfold exec_stmts, stmts_can_remove. induction l as [|x r IHl]; intros F C; [eexists; reflexivity|].
    simpl in F, C. apply andb_true_iff in C as [C1 C2]. destruct F as [F1 F2].
    destruct (IHl F2 C2) as [w W].
    assert (E : exists v, ev x = ([], Ok v)).
    { destruct (both (S (depth x))) as [A B].
      unfold stmt_ok in C1. destruct x; try exact (B _ (Nat.lt_succ_diag_r _) F1 C1).
      - (* SExportClause *) eexists; reflexivity.
      - (* SReturn *) apply andb_true_iff in C1 as [_ C1]. destruct v as [x|]; [|eexists; reflexivity].
        simpl in C1, F1. destruct (A x ltac:(simpl; lia) F1 C1) as [u [E _]]. exists u. exact E. }
    destruct E as [v E]. exists w.
    change (eval_seq_with ev (x :: r)) with (bind (ev x) (fun _ => eval_seq_with ev r)).
    rewrite E, bind_ret. exact W.
  Qed.

  (* expressions without any purity annotation or parser-set purity flag *)
  Fixpoint plain (e : node) : bool :=
    match e with
    | EIdent _ c kw => negb c && negb kw
    | EDot t _ c s => negb c && negb s && plain t
    | EIndex t i s => negb s && plain t && plain i
    | EIf c y n => plain c && plain y && plain n
    | EArray l | EObject l => forallb plain l
    | ESpread x => plain x
    | PProp _ _ _ _ _ key value init block =>
      plain key && match value with Some v => plain v | None => true end
      && match init with Some v => plain v | None => true end && forallb plain block
    | ECall _ args p | ENew _ args p => negb p && forallb plain args
    | EUnary _ x _ => plain x
    | EBinary _ l r => plain l && plain r
    | ETemplate tag p parts => negb p && forallb plain parts
    | EClass c => plain c
    | CClass _ ext props _ => match ext with Some v => plain v | None => true end && forallb plain props
    | EAnnotation x flag => negb flag && plain x
    | EInlinedEnum x => plain x
    | SClass c | SExportDefaultClass c | SExportDefaultExpr c => plain c
    | SReturn v => match v with Some x => plain x | None => true end
    | SExpr x from => negb from && plain x
    | SLocal _ decls => forallb plain decls
    | STry b _ f => forallb plain b && forallb plain f
    | DDecl b v => plain b && match v with Some x => plain x | None => true end
    | BArray items => forallb plain items
    | BItem b d => plain b && match d with Some x => plain x | None => true end
    | _ => true
    end.

  Lemma plain_list n (IH : forall c, (depth c < n)%nat -> plain c = true -> flags_ok c) l :
    (dlist depth l < n)%nat -> forallb plain l = true -> all_ok flags_ok l.
  Proof.
    induction l as [|x r IHl]; intros D P; [exact I|].
    rewrite dlist_cons in D. apply Nat.max_lub_lt_iff in D as [D1 D2].
    simpl in P. apply andb_true_iff in P as [P1 P2]. split; [exact (IH x D1 P1) | exact (IHl D2 P2)].
  Qed.

  Lemma plain_flags : forall n e, (depth e < n)%nat -> plain e = true -> flags_ok e.
  Proof.
    induction n as [|n IH]; intros e D P; [lia|].
    assert (L : forall l, (dlist depth l < n)%nat -> forallb plain l = true -> all_ok flags_ok l)
      by (intro l; apply plain_list; exact IH).
    assert (O : forall o, (dopt depth o < n)%nat ->
                match o with Some v => plain v | None => true end = true -> opt_ok flags_ok o)
      by (intros [v|] Dv Pv; [exact (IH v Dv Pv) | exact I]).
    (* [D] is split into one bound per child here: [lia] at every use is dear *)
    destruct e; try exact I; simpl in D, P; apply Nat.succ_lt_mono in D; rewrite ?Nat.max_lub_lt_iff in D.
    (* [plain] as a conjunction: the node's own flags are off, the children are plain *)
    all: rewrite ?andb_true_iff, ?negb_true_iff in P; decompose [and] P; subst.
    (* a promise about a flag that is off is void; the rest are the children's *)
    all: simpl; repeat split; intros; try discriminate; try reflexivity.
    all: first [apply IH | apply L | apply O]; [apply D | assumption].
  Qed.

  Theorem removable_silent e : flags_ok e -> cr e = true -> exists v, ev e = ([], Ok v).
  Proof.
    intros F C. apply good_silent, (removable_good (S (depth e))); [apply Nat.lt_succ_diag_r | exact F | exact C].
  Qed.

  Theorem removable_silent_plain e : plain e = true -> cr e = true -> exists v, ev e = ([], Ok v).
  Proof.
    intros P C. apply removable_silent; [|exact C]. apply (plain_flags (S (depth e))); [apply Nat.lt_succ_diag_r | exact P].
  Qed.

  Theorem removable_stmts_silent_plain keep ret l :
    forallb plain l = true -> stmts_can_remove is_unbound keep ret l = true ->
    exists v, exec_stmts is_unbound env glob imp this_val o_toprim o_iter o_get o_opaque o_annotated rel_prim loose_prim o_heritage default_runs l = ([], Ok v).
  Proof.
    intros P C. apply (removable_stmts_silent keep ret); [|exact C].
    apply (plain_list (S (dlist depth l))); [|apply Nat.lt_succ_diag_r | exact P].
    intros c D Pc. apply (plain_flags (S (dlist depth l))); assumption.
  Qed.
End Main.
