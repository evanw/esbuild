(* C04: the dependency lists the linker builds from symbol uses cover the
   declaring parts, for every program: "dead parts are removable" composes. *)
From V Require Import Common.Base C04.Parts C04.Mark C04.ReachSpec C04.MarkProofs C04.Harness C04.HarnessProofs C04.Build.

Lemma get_file_add_deps g s :
  get_file (add_deps g) s =
  option_map (fun f => mkFile (f_repr f) (f_effects f) (f_entry f) (f_css f) (f_css_imports f)
                              (map (add_deps_part g) (f_parts f))) (get_file g s).
Proof. unfold get_file, add_deps. simpl. apply nth_error_map. Qed.

Lemma get_part_add_deps g s i :
  get_part (add_deps g) s i = option_map (add_deps_part g) (get_part g s i).
Proof.
  unfold get_part. rewrite get_file_add_deps. destruct (get_file g s) as [f|]; simpl; [|reflexivity].
  destruct (f_repr f); try reflexivity. apply nth_error_map.
Qed.

Lemma symbol_deps_In g p u t j q :
  In u (p_uses p) -> In (t, j, q) (all_parts g) -> declares_b u q = true -> In (t, j) (symbol_deps g p).
Proof.
  intros U A D. unfold symbol_deps. apply in_flat_map. exists u. split; [exact U|].
  apply in_map_iff. exists (t, j, q). split; [reflexivity|]. apply filter_In. split; [exact A | exact D].
Qed.

Lemma add_deps_covers g : deps_cover_uses (add_deps g).
Proof.
  intros s i p u t j P U [q [Q D]]. right.
  rewrite get_part_add_deps in P, Q.
  destruct (get_part g s i) as [p0|] eqn:P0; [|discriminate P]. simpl in P. inversion P; subst p. clear P.
  destruct (get_part g t j) as [q0|] eqn:Q0; [|discriminate Q]. simpl in Q. inversion Q; subst q. clear Q.
  simpl in U, D |- *. apply in_or_app. right.
  apply (symbol_deps_In g p0 u t j q0 U (all_parts_In g t j q0 Q0)). apply declares_b_In. exact D.
Qed.

Lemma live_parts_define_uses ts ign entries prog s i p u t j :
  let g := link ts ign entries prog in
  live g (IPart s i) -> get_part g s i = Some p -> In u (p_uses p) -> declares g t j u ->
  live g (IPart t j) /\ live g (IFile t).
Proof.
  intros g L P U D. apply (no_dangling g s i p u t j); try assumption. apply add_deps_covers.
Qed.

Lemma symbol_to_parts_mapi u ps : forall i0,
  symbol_to_parts_from u i0 ps = concat (mapi_from (fun i q => if declares_b u q then [i] else []) i0 ps).
Proof.
  induction ps as [|q r IH]; intro i0; simpl; [reflexivity|].
  rewrite IH. destruct (declares_b u q); reflexivity.
Qed.

Lemma top_level_symbol_to_parts_spec ps u j :
  In j (top_level_symbol_to_parts ps u) <-> exists q, nth_error ps j = Some q /\ declares_b u q = true.
Proof.
  unfold top_level_symbol_to_parts. rewrite symbol_to_parts_mapi, in_concat. split.
  - intros (l & Hl & Hj). apply In_mapi_from in Hl as (k & q & Hn & ->). simpl in Hj.
    destruct (declares_b u q) eqn:D; [|destruct Hj]. destruct Hj as [<-|[]]. eauto.
  - intros (q & Hn & D). exists [j]. split; [|left; reflexivity].
    apply In_mapi_from. exists j, q. simpl. rewrite D. auto.
Qed.

Lemma split_decls stmts d : forall b p a, split stmts = (b, p, a) ->
  In d (flat_map stmt_decls stmts) -> exists imps, In (part_of imps d) (b ++ p ++ a).
Proof.
  induction stmts as [|s r IH]; intros b p a E Hd; [destruct Hd|].
  simpl in E, Hd. destruct (split r) as [[b0 p0] a0]. apply in_app_or in Hd as [Hd|Hd].
  - destruct s as [ds|d0 imp|d0|d0]; injection E as <- <- <-; simpl in Hd.
    + exists []. rewrite !in_app_iff. right; left; left. apply in_map. exact Hd.
    + destruct Hd as [<-|[]]. exists [imp]. left; reflexivity.
    + destruct Hd as [<-|[]]. exists []. rewrite !in_app_iff. simpl. auto.
    + destruct Hd as [<-|[]]. exists []. rewrite !in_app_iff. simpl. auto.
  - destruct (IH b0 p0 a0 eq_refl Hd) as [imps H]. exists imps. rewrite !in_app_iff in H.
    destruct s; injection E as <- <- <-; rewrite !in_app_iff; simpl; tauto.
Qed.

Lemma build_parts_keeps_decls stmts d :
  In d (flat_map stmt_decls stmts) ->
  (exists q, In q (build_parts true stmts) /\ p_declares q = td_declares d /\ p_uses q = td_uses d /\ p_can_remove q = td_can_remove d)
  /\ (exists q, In q (build_parts false stmts) /\
        (forall u, In u (td_declares d) -> In u (p_declares q)) /\ (forall u, In u (td_uses d) -> In u (p_uses q)) /\
        (p_can_remove q = true -> td_can_remove d = true)).
Proof.
  intro H. split.
  - unfold build_parts. destruct (split stmts) as [[b p] a] eqn:S.
    destruct (split_decls stmts d b p a S H) as [imps Hq].
    exists (part_of imps d). split; [right; exact Hq | auto].
  - unfold build_parts, single_part. destruct stmts as [|s r]; [destruct H|].
    eexists. split; [right; left; reflexivity|]. cbn [p_declares p_uses p_can_remove].
    split; [|split].
    + intros u Hu. apply in_flat_map. exists d. auto.
    + intros u Hu. apply in_flat_map. exists d. auto.
    + intro F. rewrite forallb_forall in F. apply F. exact H.
Qed.

Definition with_extra (g : graph) (bs : list binding) (s i : nat) (p : part) : part :=
  mkPart (p_can_remove p) (p_force_ts p) (p_imports p) (p_deps p ++ user_extra g bs s i) (p_declares p) (p_uses p).

Lemma get_part_add_bindings g bs s i :
  get_part (add_bindings g bs) s i = option_map (with_extra g bs s i) (get_part g s i).
Proof.
  unfold get_part, get_file, add_bindings. simpl g_files. rewrite nth_error_mapi_from. simpl.
  destruct (nth_error (g_files g) s) as [f|]; simpl; [|reflexivity].
  destruct (f_repr f); try reflexivity. rewrite nth_error_mapi_from. reflexivity.
Qed.

Lemma nat_mem_In x l : nat_mem x l = true <-> In x l.
Proof. exact (mem_In Nat.eqb Nat.eqb_eq x l). Qed.

(* model side: after linking the import bindings, a live part that uses an
   import keeps alive every re-export statement on the resolution chain and
   every part declaring the imported symbol in the file it resolves to *)
Lemma import_bindings_closed g bs b i p d :
  let g' := add_bindings g bs in
  In b bs -> In i (b_users b) ->
  live g' (IPart (b_file b) i) -> get_part g' (b_file b) i = Some p ->
  In d (binding_deps g b) -> live g' (IPart (fst d) (snd d)).
Proof.
  intros g' Hb Hi L P Hd. unfold g' in *. rewrite get_part_add_bindings in P.
  destruct (get_part g (b_file b) i) as [p0|] eqn:P0; [|discriminate P]. simpl in P. inversion P; subst p.
  eapply live_dep; [exact L | rewrite get_part_add_bindings, P0; reflexivity |].
  destruct d as [t j]. simpl. apply in_or_app. right. unfold user_extra. apply in_flat_map.
  exists b. split; [exact Hb|]. rewrite Nat.eqb_refl. simpl.
  apply nat_mem_In in Hi. rewrite Hi. exact Hd.
Qed.

Lemma pair_mem_In d l : pair_mem d l = true -> In d l.
Proof. exact (proj1 (mem_In dep_eqb dep_eqb_eq d l)). Qed.

(* dump side: the check run on every dumped graph implies the same closure for
   the real Dependencies *)
Lemma bindings_ok_closed g bs b i d :
  bindings_ok g bs = true -> In b bs -> In i (b_users b) ->
  live g (IPart (b_file b) i) -> In d (binding_deps g b) -> live g (IPart (fst d) (snd d)).
Proof.
  unfold bindings_ok. intros H Hb Hi L Hd.
  rewrite forallb_forall in H. specialize (H b Hb). rewrite forallb_forall in H. specialize (H i Hi).
  destruct (get_part g (b_file b) i) as [p|] eqn:P; [|discriminate H].
  rewrite forallb_forall in H. specialize (H d Hd). apply pair_mem_In in H.
  destruct d as [t j]. eapply live_dep; eauto.
Qed.

(* generated uses (GenerateSymbolImportAndUse: runtime helpers such as __toESM,
   __commonJS, wrapper and exports symbols of wrapped files) are symbol uses: the
   part of the runtime / of the wrapped file that declares the symbol stays live *)
Lemma generated_uses_closed g s i p u t j :
  deps_cover_uses g -> live g (IPart s i) -> get_part g s i = Some p -> In u (p_uses p) ->
  declares g t j u -> live g (IPart t j).
Proof. intros C L P U D. apply (no_dangling g s i p u t j C L P U D). Qed.
