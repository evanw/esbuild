(* C02: the wrap flags computed by the model satisfy wrap_consistent, so the evaluation-order theorem
   applies to every graph classified by the model without a hypothesis about wrapping. *)
From V Require Import Common.Base C02.Graph C02.Wrap C02.WrapProofs C02.WrapMinProofs
                      C02.EvalOrder C02.EvalOrderProofs C02.WrapGraph.

Lemma kind_targets_In k m t :
  In t (kind_targets k m) <-> exists r, In r (m_records m) /\ r_target r = Some t /\ r_kind r = k.
Proof.
  unfold kind_targets. rewrite in_flat_map. split.
  - intros [r [Hr Ht]]. exists r. split; [exact Hr|].
    destruct (r_target r) as [t0|]; [|destruct Ht].
    destruct (ikind_eqb (r_kind r) k) eqn:E; [|destruct Ht].
    destruct Ht as [<-|[]]. split; [reflexivity|]. destruct (r_kind r), k; try discriminate; reflexivity.
  - intros [r [Hr [Ht Hk]]]. exists r. split; [exact Hr|]. rewrite Ht, Hk.
    destruct k; cbn; auto.
Qed.

Lemma kind_targets_all k m t : In t (kind_targets k m) -> In t (all_targets m).
Proof.
  rewrite kind_targets_In. intros [r [Hr [Ht _]]]. unfold all_targets. rewrite in_flat_map.
  exists r. split; [exact Hr|]. rewrite Ht. left. reflexivity.
Qed.

Lemma gete_egraph_of g order st t : (t < length g)%nat -> gete (egraph_of g order st) t = emod_of g order st t.
Proof.
  intros Hl. unfold gete, egraph_of.
  rewrite (nth_indep _ _ (emod_of g order st 0%nat)) by (rewrite map_length, seq_length; exact Hl).
  rewrite map_nth, seq_nth by exact Hl. reflexivity.
Qed.

Section Consistent.
  Variable g : graph.
  Variable order : list nat.
  Variable keep_esm fmt : bool.
  Variable st : cstate.
  Hypothesis Hscan : scan_steps12 fmt keep_esm g order = Some st.
  Hypothesis Hok : targets_ok g order = true.

  Lemma target_facts p t : In p order -> In t (all_targets (getm g p)) ->
    t <> 0%nat /\ (t < length g)%nat /\ In t order.
  Proof.
    intros Hp Ht. unfold targets_ok in Hok. apply andb_true_iff in Hok as [_ Hall].
    rewrite forallb_forall in Hall. specialize (Hall p Hp).
    rewrite forallb_forall in Hall. specialize (Hall t Ht).
    apply andb_true_iff in Hall as [Hab Hc]. apply andb_true_iff in Hab as [Ha Hb].
    split; [intro Hc0; subst; discriminate|]. split; [apply Nat.ltb_lt; exact Hb|apply memn_In; exact Hc].
  Qed.

  Lemma wrapped_flag t : t <> 0%nat -> (t < length g)%nat -> In t order -> wrapped st t ->
    e_wrapped (gete (egraph_of g order st) t) = true.
  Proof.
    intros H0 Hl Ho Hw. rewrite gete_egraph_of by exact Hl. unfold emod_of.
    destruct (Nat.eqb_spec t 0); [contradiction|]. apply memn_In in Ho. rewrite Ho. cbn.
    unfold wrapped, wrap_of in Hw. destruct (snd (cget st t)); [contradiction|reflexivity|reflexivity].
  Qed.

  Lemma consistent_of_scan : wrap_consistent (egraph_of g order st) = true.
  Proof.
    unfold wrap_consistent. apply forallb_forall. intros m Hm.
    unfold egraph_of in Hm. apply in_map_iff in Hm as [i [<- Hi]]. apply in_seq in Hi as [_ Hi]. cbn in Hi.
    unfold emod_of at 1 2 3 4. destruct (Nat.eqb i 0 || negb (memn i order)) eqn:Eb; [reflexivity|].
    apply orb_false_iff in Eb as [E0 Em]. apply Nat.eqb_neq in E0.
    apply negb_false_iff in Em. apply memn_In in Em. cbn [e_requires e_dyn e_static e_wrapped].
    apply andb_true_iff. split.
    - apply forallb_forall. intros t Ht. apply in_app_or in Ht.
      assert (Hk : exists r, In r (m_records (getm g i)) /\ r_target r = Some t /\ (r_kind r = KRequire \/ r_kind r = KDynamic)).
      { destruct Ht as [Ht|Ht]; apply kind_targets_In in Ht as [r [Hr [Hrt Hrk]]]; exists r; auto. }
      assert (Hall : In t (all_targets (getm g i))) by (destruct Ht as [Ht|Ht]; eapply kind_targets_all; eauto).
      destruct (target_facts i t Em Hall) as [Ht0 [Htl Hto]].
      apply wrapped_flag; auto.
      destruct Hk as [r [Hr [Hrt Hrk]]].
      apply (wrap_required_all g order keep_esm fmt st Hscan t Htl). exists i, r. auto.
    - destruct (wkind_eqb (snd (cget st i)) WNone) eqn:Ew; [reflexivity|]. cbn.
      apply forallb_forall. intros t Ht. apply kind_targets_all in Ht.
      destruct (target_facts i t Em Ht) as [Ht0 [Htl Hto]].
      apply wrapped_flag; auto.
      apply (wrap_closed_all g keep_esm fmt order st Hscan i Em E0 Hi); auto.
      unfold wrapped, wrap_of. intro Hc. rewrite Hc in Ew. discriminate.
  Qed.

  Lemma runtime_no_targets t : ~ In t (all_targets (getm g 0)).
  Proof.
    unfold targets_ok in Hok. apply andb_true_iff in Hok as [H0 _].
    destruct (all_targets (getm g 0)); [intros []|discriminate].
  Qed.

  Lemma wrap_exact_all s : In s order -> s <> 0%nat -> (s < length g)%nat ->
    (m_entry (getm g s) = false \/ fmt = true) ->
    (wrapped st s <->
     kind_of st s = ECJS \/ req_dyn g order s \/
     exists p, In p order /\ p <> 0%nat /\ (p < length g)%nat /\ wrapped st p /\ In s (all_targets (getm g p))).
  Proof.
    intros Hs H0 Hl Hf. split.
    - intros Hw.
      destruct (wrap_minimal_Q g order (fun p => In p order)
                  (fun p t Hp Ht => proj2 (proj2 (target_facts p t Hp Ht))) (fun p Hp => Hp)
                  keep_esm fmt st Hscan s Hw) as [Ha|[Hb|[p [Hp [Hwp Hsp]]]]];
        [left; exact Ha|right; left; exact Hb|].
      right. right. exists p. split; [exact Hp|]. split.
      + intro Hc. subst p. exact (runtime_no_targets s Hsp).
      + split; [|split; assumption]. rewrite <- (length_scan g keep_esm fmt order st Hscan).
        apply wrapped_in_range. exact Hwp.
    - intros [Ha|[Hb|[p [Hp [Hp0 [Hpl [Hwp Hsp]]]]]]].
      + eapply wrap_cjs_all; eauto.
      + eapply wrap_required_all; eauto.
      + eapply wrap_closed_all; eauto.
  Qed.

  Lemma classified_order_is_native entry :
    bundle_trace (egraph_of g order st) entry = native_trace (egraph_of g order st) entry.
  Proof. apply bundle_is_native. exact consistent_of_scan. Qed.
End Consistent.
