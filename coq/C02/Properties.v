(* C02 property theorems: the index of what is proved.  Each statement is closed by a lemma of a
   ...Proofs file, with at most a few lines of glue, and followed by Print Assumptions. *)
From V Require Import Common.Base C02.Graph C02.Order C02.SpecESM C02.Wrap C02.Resolve C02.ResolveSpec
  C02.DataUrl C02.SpecDataUrl C02.OrderProofs C02.OrderEsmProofs C02.ResolveProofs C02.WrapProofs C02.DataUrlProofs C02.ClassifyProofs C02.Emit C02.EmitProofs C02.ResolveChainProofs C02.ScanEsmProofs C02.ResolveDen C02.SpecDenProofs C02.StarHitsProofs C02.StarDenProofs C02.LinkDenProofs C02.ResolveStarsProofs C02.EvalOrder C02.EvalOrderProofs C02.WrapMinProofs C02.WrapGraph C02.WrapExactProofs C02.Interop C02.InteropProofs C02.ResolveCycleProofs.
From Coq Require Import Permutation.

(* every file of the chunk is emitted at most once ("every module body runs at most once") *)
Theorem order_nodup : forall g keys l, bundle_order g keys = Some l -> NoDup l.
Proof. intros g keys l H. exact (proj1 (visit_all_spec _ _ _ _ _ H)). Qed.
Print Assumptions order_nodup.

(* the emitted files are exactly the files of the chunk that are reachable
   from the runtime file or a file of the chunk along followed import records *)
Theorem order_complete : forall g keys l, bundle_order g keys = Some l ->
  forall x, In x l <->
    (in_chunk g x = true /\ exists r, In r (0%nat :: chunk_sorted keys) /\ reach (followed g) r x).
Proof. intros g keys l H. exact (proj2 (visit_all_spec _ _ _ _ _ H)). Qed.
Print Assumptions order_complete.

(* findReachableFiles: every file reachable from the runtime file or an entry point, exactly once *)
Theorem reachable_files_exact : forall g entries l, reach_order g entries = Some l ->
  NoDup l /\ forall x, In x l <-> exists r, In r (0%nat :: entries) /\ reach (reach_succs g) r x.
Proof.
  intros g entries l H. destruct (visit_all_spec _ _ _ _ _ H) as [Hn Hi]. split; [exact Hn|].
  intros x. rewrite Hi. split; [intros [_ Hr]; exact Hr|intros Hr; split; [reflexivity|exact Hr]].
Qed.
Print Assumptions reachable_files_exact.

(* single entry, static ES module graph: the order of module bodies in the
   bundle is the ECMA-262 InnerModuleEvaluation order (the runtime file,
   index 0, is not a module of the user's graph) *)
Theorem order_is_esm : forall g keys e rest l,
  (forall s t, In t (stmt_targets (getm g s)) -> t <> 0%nat /\ (t < length g)%nat) ->
  stmt_targets (getm g 0) = [] ->
  (forall s, followed g s = stmt_targets (getm g s)) ->
  (forall s, s <> 0%nat -> (s < length g)%nat -> in_chunk g s = true) ->
  e <> 0%nat -> (e < length g)%nat ->
  chunk_sorted keys = e :: rest ->
  (forall x, In x rest -> reach (followed g) e x) ->
  bundle_order g keys = Some l ->
  spec_eval_order g e = Some (filter nz l).
Proof. exact order_is_esm_all. Qed.
Print Assumptions order_is_esm.

(* "the linker binds every import of a static ES module graph to the binding
   ECMA-262 ResolveExport denotes" is false of the faithful model *)
Theorem resolve_is_spec_refuted : ~ resolve_is_spec_statement.
Proof. exact statement_refuted. Qed.
Print Assumptions resolve_is_spec_refuted.

(* witness A, one binding under two export names along two export-star paths: upstream commit
   a7bd0a8 takes the name location out of the all-results-equal test, and the linker gives
   ResolveExport's binding *)
Theorem resolve_alias_two_names_agrees :
  all_esm witness_alias = true /\ single_alias witness_alias = false /\
  link_verdict witness_alias (seq 0 6) 1 (imp 1 1 0) = Some (VFound 5 0) /\
  spec_verdict witness_alias 1 (imp 1 1 0) = Some (VFound 5 0).
Proof. exact alias_witness_agrees. Qed.
Print Assumptions resolve_alias_two_names_agrees.

(* witness B: a re-export running back into the file that star-exports it *)
Theorem resolve_is_spec_refuted_cycle :
  all_esm witness_cycle = true /\ single_alias witness_cycle = true /\
  link_verdict witness_cycle (seq 0 5) 1 (imp 1 1 0) = Some VAmbiguous /\
  spec_verdict witness_cycle 1 (imp 1 1 0) = Some (VFound 3 0).
Proof. exact refuted_cycle. Qed.
Print Assumptions resolve_is_spec_refuted_cycle.

(* witness C: a named import from an ES module that has no export statement is accepted
   (binding undefined, warning only); ECMA-262: the import does not resolve (SyntaxError) *)
Theorem resolve_is_spec_refuted_exportless :
  all_esm witness_exportless = true /\ single_alias witness_exportless = true /\
  indirect_acyclic witness_exportless = true /\ named_targets_export witness_exportless = false /\
  link_verdict witness_exportless (seq 0 4) 1 (imp 1 3 0) = Some VOther /\
  spec_verdict witness_exportless 1 (imp 1 3 0) = Some VNull.
Proof. exact refuted_exportless. Qed.
Print Assumptions resolve_is_spec_refuted_exportless.

(* partial, bounded-exhaustive (finite domains, by computation): outside the
   refuted re-export-cycle shape the linker's verdict (found binding / not found /
   ambiguous) equals ResolveExport's for every import of
   all 18000 graphs of three files over one export name (each name absent, local or
   re-exported from any file; export stars to any subset of the files in either order for two
   of the files).  Unlike resolve_is_spec_partial below this domain contains CYCLES of export
   stars (only cycles through an indirect export are excluded: 3856 of the 18000 graphs meet
   [indirect_acyclic], Examples.ex_domain1_in_scope). *)
Theorem resolve_is_spec_partial_bounded3 : forall fs, In fs domain1 ->
  let g := graph_of [1; 2; 3]%nat [1] fs in
  indirect_acyclic g = true ->
  forall ni, In ni (m_imports (getm g (S (length fs)))) -> agrees g (seq 0 (length g)) (S (length fs)) ni = true.
Proof. exact (bounded_domain _ _ _ domain1_ok). Qed.
Print Assumptions resolve_is_spec_partial_bounded3.

(* after scanImportsAndExports steps 1-2 wrapping is closed under imports:
   every file imported (by any import record) by a wrapped file is wrapped;
   the runtime file (index 0) is never wrapped *)
Theorem wrap_closed : forall g keep_esm fmt order st,
  scan_steps12 fmt keep_esm g order = Some st ->
  forall s, In s order -> s <> 0%nat -> (s < length g)%nat -> wrapped st s ->
  forall t, In t (all_targets (getm g s)) -> t <> 0%nat -> (t < length g)%nat -> wrapped st t.
Proof. exact wrap_closed_all. Qed.
Print Assumptions wrap_closed.

(* the percent-escaped data URL written for a file (dataurl loader) denotes,
   under the WHATWG URL parser and data: URL processor, exactly the file's
   bytes: every MIME type of printable characters and every byte string the
   encoder accepts (valid UTF-8) *)
Theorem dataurl_roundtrip : forall mime text url,
  mime_ok mime -> Forall byte_ok text -> encode_percent mime text = Some url ->
  whatwg_data_url_body url = Some (mime, false, text).
Proof. exact percent_roundtrip_all. Qed.
Print Assumptions dataurl_roundtrip.

(* step 1 of scanImportsAndExports mutates the exports kind and wrap of the
   IMPORTED file while it iterates over the files: the resulting assignment is
   the same for every visiting order *)
Theorem classify_confluent : forall fmt g order1 order2,
  Permutation order1 order2 -> classify fmt g order1 = classify fmt g order2.
Proof. exact classify_confluent_all. Qed.
Print Assumptions classify_confluent.

(* entry-point exports, ES-module entry with an export statement: a requirer of the cjs
   bundle and the global name of the iife bundle see exactly the same names, for every
   export table and every sequence of export stars evaluated at run time *)
Theorem exports_cjs_eq_iife : forall names_of aliases dyn,
  exported_names names_of FCjs true aliases dyn = exported_names names_of (FIife true) true aliases dyn.
Proof. intros. rewrite cjs_names, iife_names. reflexivity. Qed.
Print Assumptions exports_cjs_eq_iife.

(* ... and these contain every statically exported name and every name (except "default")
   that an export star provides at run time (the third argument of __reExport) *)
Theorem exports_cjs_complete : forall names_of aliases dyn k,
  (In k aliases \/ exists d, In d dyn /\ In k (names_of d) /\ k <> 0) ->
  In k (exported_names names_of FCjs true aliases dyn).
Proof.
  intros names_of aliases dyn k H. rewrite cjs_names. destruct H as [H|[d [Hd [Hk H0]]]].
  - apply final_exports_static. exact H.
  - eapply final_exports_dynamic; eauto.
Qed.
Print Assumptions exports_cjs_complete.

(* full statement: "the exported names are the same in the three formats for every entry
   export table".  False of the faithful model when an export star is evaluated at run time:
   an ES module cannot declare names that only exist at run time *)
Theorem exports_three_formats_same_refuted : exists names_of aliases dyn,
  exported_names names_of FEsm true aliases dyn <> exported_names names_of FCjs true aliases dyn.
Proof. exists (fun _ => [7]), [1], [0%nat]. vm_compute. discriminate. Qed.
Print Assumptions exports_three_formats_same_refuted.

(* partial: without run-time export stars the three formats export exactly the table *)
Theorem exports_three_formats_same_partial : forall names_of aliases,
  NoDup aliases ->
  exported_names names_of FEsm true aliases [] = aliases /\
  exported_names names_of FCjs true aliases [] = aliases /\
  exported_names names_of (FIife true) true aliases [] = aliases.
Proof.
  intros names_of aliases Hn. rewrite esm_names, cjs_names, iife_names, (final_exports_nil _ _ Hn). auto.
Qed.
Print Assumptions exports_three_formats_same_partial.

(* Unbounded, for graphs WITHOUT export stars: for every finite graph of ES modules (any size,
   any depth of "export {a as b} from" / re-exported imports / "export * as ns") that meets the
   boolean side condition [chain_scope g rk] - no export star, plain import records, every
   named import targets a file with an export statement (excludes refuted shape C), and the rank
   certificate [rk] decreases along every indirect export (excludes refuted shape B) - the
   linker's verdict for an import (classification steps 1-2, ResolvedExports, import matching:
   binding found / no matching export) is the one ECMA-262 ResolveExport gives.  [esm_graph]:
   every file is an ES module whose records are import statements resolved inside the graph.
   Graphs WITH export stars: resolve_is_spec_partial below, under star_scope. *)
Theorem resolve_is_spec_partial_starfree : forall g rk order s ni v1 v2,
  esm_graph g = true -> chain_scope g rk = true ->
  import_of g (s, ni_ref ni) = Some ni ->
  link_verdict g order s ni = Some v1 -> spec_verdict g s ni = Some v2 -> v1 = v2.
Proof. exact starfree_link_agree. Qed.
Print Assumptions resolve_is_spec_partial_starfree.

(* chunkOrderArray sort: with one entry point at distance 0 and every other file of the chunk
   at a positive distance, the sorted list starts with the entry point *)
Theorem entry_sorts_first : forall keys e t0,
  In (0, t0, e) keys -> (forall k, In k keys -> k = (0, t0, e) \/ 0 < kdist k) ->
  exists rest, chunk_sorted keys = e :: rest.
Proof. exact entry_sorts_first_all. Qed.
Print Assumptions entry_sorts_first.

(* order_is_esm stated on the sort's input (distances) instead of its result *)
Theorem order_is_esm_by_distance : forall g keys e t0 l,
  (forall s t, In t (stmt_targets (getm g s)) -> t <> 0%nat /\ (t < length g)%nat) ->
  stmt_targets (getm g 0) = [] ->
  (forall s, followed g s = stmt_targets (getm g s)) ->
  (forall s, s <> 0%nat -> (s < length g)%nat -> in_chunk g s = true) ->
  e <> 0%nat -> (e < length g)%nat ->
  In (0, t0, e) keys -> (forall k, In k keys -> k = (0, t0, e) \/ 0 < kdist k) ->
  (forall k, In k keys -> reach (followed g) e (snd k)) ->
  bundle_order g keys = Some l ->
  spec_eval_order g e = Some (filter nz l).
Proof. exact order_is_esm_keys. Qed.
Print Assumptions order_is_esm_by_distance.

(* ECMA-262 ResolveExport with its shared, mutated resolve set: on every graph whose re-export
   relation (export stars and indirect exports) is acyclic - rank certificate [rk] - the result
   is the set-free denotation: no candidate -> null, one candidate binding -> that binding,
   two different candidates -> ambiguous.  In particular returning null for a (module, name)
   pair that an earlier branch already visited never changes the answer. *)
Theorem resolve_set_revisit_harmless : forall g rk m name R,
  ranked_all g rk = true ->
  spec_resolve_export g m name = Some R -> R = classify_cands (den g rk m name).
Proof.
  intros g rk m name R Hr H. unfold spec_resolve_export in H.
  destruct (spec_resolve (resolve_fuel g) g m name []) as [[R0 rs']|] eqn:E; [|discriminate].
  inversion H; subst. exact (spec_resolve_is_den g rk Hr _ _ _ _ _ E).
Qed.
Print Assumptions resolve_set_revisit_harmless.

(* addExportsForExportStar, per export alias, on every ranked graph: ResolvedExports[a] of a file
   that does not export [a] itself is the fold (first hit = the export, later hits from another
   file = PotentiallyAmbiguousExportStarRefs) of the list of hits of the star traversal, and the
   hits denote exactly the candidate bindings of the set-free denotation - the same list
   ECMA-262 ResolveExport classifies (resolve_set_revisit_harmless).  That matchImportWithExport's
   all-results-equal test over these hits amounts to classify_cands is LinkDenProofs.mloop_den,
   which resolve_is_spec_partial below rests on. *)
Theorem resolved_exports_star_characterisation : forall g rk kinds o a,
  ranked_all g rk = true ->
  (forall i, ekind_eqb (kinds i) ECJS = false) ->
  (forall i, aliases_unique (getm g i)) ->
  m_lazy (getm g o) = false -> a <> 0 -> find_export a (m_exports (getm g o)) = None ->
  ed_lookup a (resolved_of g kinds o) = fold_hits a None (hits g (S (length g)) a o []) /\
  flat_map (hit_cands g rk) (hits g (S (length g)) a o []) = den g rk o a.
Proof.
  intros g rk kinds o a Hr Hk Hu Hl Ha Hf. split.
  - rewrite (resolved_look g rk Hr kinds Hk Hu o a Hl), Hf. reflexivity.
  - exact (star_hits_den g rk Hr kinds Hk Hu o a Ha Hf).
Qed.
Print Assumptions resolved_exports_star_characterisation.

(* the interop flag of __toESM is decided by the importing file alone: node mode iff the
   importer is ESM-typed, for import statements and for import() alike *)
Theorem to_esm_node_mode_iff_esm_typed_importer : forall typed form,
  to_esm_node_mode typed form = true <-> typed = true.
Proof. exact node_mode_iff. Qed.
Print Assumptions to_esm_node_mode_iff_esm_typed_importer.

(* hence from an ESM-typed importer the default export of a CommonJS file is module.exports,
   as in node, with or without the __esModule marker and for every import form *)
Theorem esm_typed_default_is_module_exports : forall form marker,
  to_esm_default (to_esm_node_mode true form) marker = native_default.
Proof. exact typed_default_native. Qed.
Print Assumptions esm_typed_default_is_module_exports.

(* full statement "default is module.exports for every importer": false of the faithful model
   (deliberate Babel interop for importers that are not ESM-typed; known finding C02-G) *)
Theorem default_is_module_exports_refuted : exists typed form marker,
  to_esm_default (to_esm_node_mode typed form) marker <> native_default.
Proof. exists false, IFDynamic, true. exact (untyped_marker_default IFDynamic). Qed.
Print Assumptions default_is_module_exports_refuted.

(* resolve_is_spec_partial: for ALL finite graphs in the boolean scope [star_scope g rk] - ES modules
   with plain import records; named imports target files with an export statement (excludes
   refuted shape C); a rank certificate [rk] for the re-export relation of export stars and
   indirect exports (excludes refuted shape B, the re-export cycle, and with it cycles of export
   stars); distinct export aliases per file; every indirect export entry resolves - the verdict
   of the linker (scanImportsAndExports steps 1-2, ResolvedExports with export stars, shadowing and
   potentially ambiguous refs, matchImportWithExport with its all-results-equal test) for an
   import is the one ECMA-262 ResolveExport gives: the same binding, "no matching export", or
   "ambiguous".  Unbounded in the number of files, names, star levels and diamonds.
   Not covered: graphs with cycles of export stars (bounded domain above), CommonJS files. *)
Theorem resolve_is_spec_partial : forall g rk order s ni v1 v2,
  star_scope g rk = true ->
  import_of g (s, ni_ref ni) = Some ni ->
  link_verdict g order s ni = Some v1 -> spec_verdict g s ni = Some v2 -> v1 = v2.
Proof. intros g rk order s ni v1 v2 Hs. exact (stars_link_agree g rk Hs order s ni v1 v2). Qed.
Print Assumptions resolve_is_spec_partial.

(* mixed ESM / CommonJS graphs with lazy wrappers: for every graph whose wrap assignment is
   consistent (every required or dynamically imported file is wrapped, and every file imported by
   a wrapped file is wrapped - wrap_closed) the sequence of module-body start/end events of the
   bundle (non-wrapped files in place, wrapped files at the first call of their __esm / __commonJS
   wrapper, import() served in request order) equals native loading (InnerModuleEvaluation for ES
   modules, require() as call-time evaluation with a module cache, import() in request order) *)
Theorem mixed_order_is_native : forall g entry,
  wrap_consistent g = true -> bundle_trace g entry = native_trace g entry.
Proof. intros g entry H. exact (bundle_is_native g H entry). Qed.
Print Assumptions mixed_order_is_native.

(* EncodeStringAsShortestDataURL (dataurl loader, CSS url()): whichever of the two forms is chosen -
   percent-escaped or base64 - the URL denotes exactly the file's bytes under the WHATWG processor.
   The base64 codec itself is trusted: it appears as section variables with its round trip and its
   output alphabet as hypotheses *)
Theorem dataurl_shortest_roundtrip : forall (b64enc : bytes -> bytes) (b64dec : bytes -> option bytes),
  (forall t, Forall byte_ok t -> b64dec (b64enc t) = Some t) ->
  (forall t, Forall byte_ok t -> Forall b64_char (b64enc t)) ->
  forall mime text, mime_ok mime -> Forall byte_ok text ->
  data_url_value b64dec (encode_shortest b64enc mime text) = Some text.
Proof. exact shortest_roundtrip_all. Qed.
Print Assumptions dataurl_shortest_roundtrip.

(* wrap minimality, the converse of wrap_closed: after scanImportsAndExports steps 1-2 a file is
   wrapped only if its exports kind is CommonJS, or it is the target of a require() / import() record
   of a reachable file, or it is imported by a wrapped file *)
Theorem wrap_minimal : forall g order keep_esm fmt st,
  scan_steps12 fmt keep_esm g order = Some st ->
  forall s, wrapped st s ->
    kind_of st s = ECJS \/ req_dyn g order s \/ exists p, wrapped st p /\ In s (all_targets (getm g p)).
Proof. exact wrap_minimal_all. Qed.
Print Assumptions wrap_minimal.

(* both directions together: for a reachable file of the graph other than the runtime and other
   than an entry point of a cjs-format build (whose CommonJS body is the bundle's top level),
   being wrapped is exactly: CommonJS, or required / dynamically imported by a reachable file, or
   imported by a reachable wrapped file.  [targets_ok]: the reachable files import only reachable
   files of the graph and never the runtime (checked on every real case) *)
Theorem wrap_exact : forall g order keep_esm fmt st,
  scan_steps12 fmt keep_esm g order = Some st -> targets_ok g order = true ->
  forall s, In s order -> s <> 0%nat -> (s < length g)%nat ->
    (m_entry (getm g s) = false \/ fmt = true) ->
    (wrapped st s <->
     kind_of st s = ECJS \/ req_dyn g order s \/
     exists p, In p order /\ p <> 0%nat /\ (p < length g)%nat /\ wrapped st p /\ In s (all_targets (getm g p))).
Proof. exact wrap_exact_all. Qed.
Print Assumptions wrap_exact.

(* mixed_order_is_native without its hypothesis, for the graphs classified by the model: the wrap
   flags computed by steps 1-2 are consistent, so the bundle's evaluation order is the native one *)
Theorem wrap_consistent_of_classified : forall g order keep_esm fmt st,
  scan_steps12 fmt keep_esm g order = Some st -> targets_ok g order = true ->
  wrap_consistent (egraph_of g order st) = true.
Proof. exact consistent_of_scan. Qed.
Print Assumptions wrap_consistent_of_classified.

Theorem classified_mixed_order_is_native : forall g order keep_esm fmt st,
  scan_steps12 fmt keep_esm g order = Some st -> targets_ok g order = true ->
  forall entry, bundle_trace (egraph_of g order st) entry = native_trace (egraph_of g order st) entry.
Proof. exact classified_order_is_native. Qed.
Print Assumptions classified_mixed_order_is_native.

(* the CommonJS side of binding resolution.  matchImportWithExport on an import whose record
   targets a file with exports kind CommonJS answers with a namespace alias: the identifier becomes
   the property access ns.alias on the import record's namespace symbol, no error is reported *)
Theorem cjs_import_is_namespace_alias : forall g kinds resolved keep_esm t ni n,
  import_of g t = Some ni -> ni_ns ni = Some n ->
  advance g kinds resolved t ni = ICommonJS ->
  match_import g kinds resolved keep_esm t
  = Some (mkRes MNamespace (ni_alias ni) (Some (fst t, n)) 0 0 0, []).
Proof. exact cjs_import_namespace_alias. Qed.
Print Assumptions cjs_import_is_namespace_alias.

(* the value of that property access on __toESM(require_x(), isNodeMode) is the value node gives
   the import - "default" is module.exports, any other name the own key of module.exports - for every
   interop shape of [interop_domain]: an ESM-typed importer (node mode), or a target without the
   __esModule marker, or a name other than "default" *)
Theorem interop_value_is_native_partial : forall typed form c name,
  interop_domain typed c name = true -> bundle_get typed form c name = native_get c name.
Proof. exact bundle_get_native. Qed.
Print Assumptions interop_value_is_native_partial.

(* the two together, from the graph to the value: for an import (default, named, or a property of
   a namespace import) from a file classified CommonJS that uses exports / module *)
Theorem cjs_import_value_is_native_partial : forall g kinds resolved keep_esm t ni n r o res ev typed form c,
  import_of g t = Some ni -> ni_ns ni = Some n ->
  record_of (getm g (fst t)) (ni_record ni) = Some r -> r_target r = Some o ->
  kinds o = ECJS -> (m_uses_exports (getm g o) = true \/ m_uses_module (getm g o) = true) ->
  match_import g kinds resolved keep_esm t = Some (res, ev) ->
  interop_domain typed c (ni_alias ni) = true ->
  ev = [] /\ mr_kind res = MNamespace /\ mr_ns res = Some (fst t, n) /\
  import_value res typed form c = Some (native_get c (ni_alias ni)).
Proof. exact cjs_import_value_all. Qed.
Print Assumptions cjs_import_value_is_native_partial.

(* without the domain the statement is false of the faithful model: "default" of a CommonJS file
   carrying the __esModule marker, imported with import() by a file that is not ESM-typed, is
   exports.default in the bundle and module.exports in node (known finding C02-G, replayed on the
   real bundler on every run) *)
Theorem interop_value_is_native_refuted : exists typed form c name,
  bundle_get typed form c name <> native_get c name.
Proof. exact bundle_get_refuted_ex. Qed.
Print Assumptions interop_value_is_native_refuted.

(* export-star cycles beyond the three-file domain, still by computation: for every import of all
   65536 graphs of four files over one export name (absent or local in each file; three of the
   files star-export any subset of the four files, so the domain contains every cycle of export
   stars of length one, two and three with chords and with diamonds onto the cycle) the linker's
   verdict equals ResolveExport's.  A proof for cycles of export stars of arbitrary length remains
   open: resolve_is_spec_partial needs the rank certificate a cycle does not have *)
Theorem resolve_is_spec_partial_bounded4 : forall fs, In fs domain3 ->
  let g := graph_of [1; 2; 3; 4]%nat [1] fs in
  forall ni, In ni (m_imports (getm g (S (length fs)))) -> agrees g (seq 0 (length g)) (S (length fs)) ni = true.
Proof. exact bounded4_all. Qed.
Print Assumptions resolve_is_spec_partial_bounded4.
