(* Wrap minimality: after scanImportsAndExports steps 1-2 a file is wrapped only if it is
   CommonJS, is the target of a require() / import() record, or is imported by a wrapped file. *)
From V Require Import Common.Base C02.Graph C02.OptFold C02.Wrap C02.WrapProofs C02.ClassifyProofs.

Definition kind_of (st : cstate) (x : nat) : ekind := fst (cget st x).

Section Min.
  Variable g : graph.
  Variable order : list nat.
  (* the importing wrapped file of the third reason satisfies Q; Q is closed under imports *)
  Variable Q : nat -> Prop.
  Hypothesis HQ : forall p t, Q p -> In t (all_targets (getm g p)) -> Q t.
  Hypothesis HQo : forall p, In p order -> Q p.

  Definition req_dyn (s : nat) : Prop :=
    exists p r, In p order /\ In r (m_records (getm g p)) /\ r_target r = Some s /\
                (r_kind r = KRequire \/ r_kind r = KDynamic).

  Definition Reason (st : cstate) (s : nat) : Prop :=
    kind_of st s = ECJS \/ req_dyn s \/ exists p, Q p /\ wrapped st p /\ In s (all_targets (getm g p)).
  Definition Inv (st : cstate) : Prop := forall s, wrapped st s -> Reason st s.
  Definition Ext (st st' : cstate) : Prop :=
    length st' = length st /\ (forall x, wrapped st x -> wrapped st' x) /\
    (forall x, kind_of st x = ECJS -> kind_of st' x = ECJS) /\
    (forall x, kind_of st' x = ECJS -> kind_of st x = ECJS \/ wrapped st' x).

  Lemma Ext_refl st : Ext st st.
  Proof. repeat split; auto. Qed.
  Lemma Ext_trans a b c : Ext a b -> Ext b c -> Ext a c.
  Proof.
    intros [L1 [W1 [K1 J1]]] [L2 [W2 [K2 J2]]]. repeat split; [congruence|auto|auto|].
    intros x Hx. destruct (J2 x Hx) as [Hb|Hw]; [|right; exact Hw].
    destruct (J1 x Hb) as [Ha|Hw]; [left; exact Ha|right; auto].
  Qed.
  Lemma Reason_mono st st' s : Ext st st' -> Reason st s -> Reason st' s.
  Proof.
    intros [_ [W [K _]]] [H|[H|[p [Hq [Hp Hs]]]]]; [left; auto|right; left; exact H|right; right; exists p; auto].
  Qed.

  (* a state change that keeps Ext and only wraps cells with a reason keeps the invariant *)
  Lemma Inv_step st st' :
    Inv st -> Ext st st' -> (forall x, wrapped st' x -> wrapped st x \/ Reason st' x) -> Inv st'.
  Proof.
    intros Hi He Hn x Hx. destruct (Hn x Hx) as [Ho|Hr]; [|exact Hr]. eapply Reason_mono; eauto.
  Qed.

  Lemma Inv_set st t k w :
    Inv st -> w <> WNone -> (kind_of st t = ECJS -> k = ECJS) -> (k = ECJS \/ Reason st t) ->
    Inv (cset st t (k, w)) /\ Ext st (cset st t (k, w)).
  Proof.
    intros Hi Hw Hk Hr. assert (V := cset_view st t (k, w)).
    assert (He : Ext st (cset st t (k, w))).
    { unfold Ext, wrapped, wrap_of, kind_of. split; [apply length_cset|].
      repeat split; intros x; destruct (V x) as [[-> [_ E]]|[_ E]]; rewrite E; auto. }
    split; [|exact He]. apply (Inv_step st _ Hi He). intros x.
    unfold wrapped at 1, wrap_of. destruct (V x) as [[-> [_ E]]|[_ E]]; rewrite E; [intros _; right|auto].
    destruct Hr as [->|Hr]; [left; unfold kind_of; rewrite E; reflexivity|eapply Reason_mono; eauto].
  Qed.

  Lemma init_inv : Inv (init_state g).
  Proof. intros s Hs. exfalso. apply Hs. unfold wrap_of. rewrite cget_init_state. reflexivity. Qed.

  Lemma apply_op_inv st o : (snd o = FReq -> req_dyn (fst o)) -> Inv st -> Inv (apply_op st o) /\ Ext st (apply_op st o).
  Proof.
    destruct o as [t o]. unfold apply_op. cbn [fst snd]. intros Hok Hi.
    destruct (cget st t) as [k w] eqn:Ec.
    assert (Hk : kind_of st t = k) by (unfold kind_of; rewrite Ec; reflexivity).
    assert (Hsame : Inv (cset st t (k, w)) /\ Ext st (cset st t (k, w))).
    { rewrite <- Ec, cset_cget_id. split; [exact Hi|apply Ext_refl]. }
    destruct o as [fires| |cond|]; cbn [cellf].
    - destruct (fires && ekind_eqb k ENone); [apply Inv_set; auto; discriminate|exact Hsame].
    - assert (Hrd : Reason st t) by (right; left; auto).
      destruct (ekind_eqb k EESM); apply Inv_set; auto; try discriminate. congruence.
    - destruct (ekind_eqb k ECJS && cond) eqn:E; [|exact Hsame]. apply andb_true_iff in E as [E _].
      destruct k; try discriminate. apply Inv_set; auto. discriminate.
    - exact Hsame.
  Qed.

  Lemma ops_req fmt t : In (t, FReq) (flat_map (ops_of_file fmt g) order) -> req_dyn t.
  Proof.
    intros Ho. apply in_flat_map in Ho as [p [Hp Ho]]. unfold ops_of_file in Ho.
    apply in_app_or in Ho as [Ho|[Ho|[]]]; [|discriminate Ho].
    apply in_map_iff in Ho as [r [Ho Hr]]. unfold op_of_record in Ho.
    destruct (r_target r) as [t'|] eqn:Et; [|discriminate Ho]. inversion Ho; subst t'.
    exists p, r. repeat split; auto. destruct (r_kind r); try discriminate; auto.
  Qed.

  Lemma classify_inv fmt : Inv (classify fmt g order) /\ Ext (init_state g) (classify fmt g order).
  Proof.
    rewrite classify_ops. apply (fold_left_inv apply_op (fun st => Inv st /\ Ext (init_state g) st)).
    - intros st [t o] Ho [Hi He]. destruct (apply_op_inv st (t, o)) as [Hi' He']; [|exact Hi|].
      + cbn [fst snd]. intros ->. exact (ops_req fmt t Ho).
      + split; [exact Hi'|eapply Ext_trans; eauto].
    - split; [apply init_inv|apply Ext_refl].
  Qed.

  Lemma apply_op_keeps st o x :
    (wrapped st x -> wrapped (apply_op st o) x) /\ (kind_of st x = ECJS -> kind_of (apply_op st o) x = ECJS).
  Proof.
    destruct o as [t o]. unfold apply_op, wrapped, wrap_of, kind_of. cbn [fst snd].
    destruct (cset_view st t (cellf o (cget st t)) x) as [[-> [_ E]]|[_ E]]; rewrite E; [|auto].
    destruct (cget st t) as [k w]. destruct o as [[|]| |[|]|], k; cbn; split; auto; try discriminate.
  Qed.

  Lemma classify_required fmt t : req_dyn t -> (t < length g)%nat -> wrapped (classify fmt g order) t.
  Proof.
    intros [p [r [Hp [Hr [Ht Hk]]]]] Hl. rewrite classify_ops.
    apply (fold_left_establish apply_op (fun st => length st = length g) (fun st => wrapped st t) _ (t, FReq)).
    - apply in_flat_map. exists p. split; [exact Hp|]. unfold ops_of_file. apply in_or_app. left.
      apply in_map_iff. exists r. split; [|exact Hr]. unfold op_of_record. rewrite Ht.
      destruct Hk as [-> | ->]; reflexivity.
    - intros st o L. unfold apply_op. rewrite length_cset. exact L.
    - intros st o. apply apply_op_keeps.
    - intros st L. unfold apply_op, wrapped, wrap_of. cbn [fst snd]. rewrite cget_cset_same by (rewrite L; exact Hl).
      destruct (cget st t) as [k w]. cbn [cellf]. destruct (ekind_eqb k EESM); discriminate.
    - unfold init_state. apply map_length.
  Qed.

  Lemma classify_cjs fmt s : In s order -> (s < length g)%nat -> (m_entry (getm g s) = false \/ fmt = true) ->
    m_kind (getm g s) = ECJS -> wrapped (classify fmt g order) s.
  Proof.
    intros Hs Hl Hf Hk. rewrite classify_ops.
    apply (fold_left_establish apply_op (fun st => length st = length g /\ kind_of st s = ECJS) (fun st => wrapped st s)
             _ (s, FSelf (negb (m_entry (getm g s)) || fmt))).
    - apply in_flat_map. exists s. split; [exact Hs|]. unfold ops_of_file. apply in_or_app. right. left. reflexivity.
    - intros st o [L K]. split; [unfold apply_op; rewrite length_cset; exact L|apply apply_op_keeps; exact K].
    - intros st o. apply apply_op_keeps.
    - intros st [L K]. unfold apply_op, wrapped, wrap_of, kind_of in *. cbn [fst snd]. rewrite cget_cset_same by (rewrite L; exact Hl).
      destruct (cget st s) as [k w]. cbn [fst] in K. subst k. cbn [cellf ekind_eqb andb].
      replace (negb (m_entry (getm g s)) || fmt) with true; [discriminate|].
      destruct Hf as [-> | ->]; [reflexivity|apply eq_sym, orb_true_r].
    - split; [unfold init_state; apply map_length|]. unfold kind_of. rewrite cget_init_state. exact Hk.
  Qed.

  (* step 2: a call of recursivelyWrapDependencies on s is justified when s is wrapped already,
     is CommonJS, or is imported by a wrapped file *)
  Definition Pre (st : cstate) (s : nat) : Prop :=
    Q s /\ (wrapped st s \/ kind_of st s = ECJS \/ exists p, Q p /\ wrapped st p /\ In s (all_targets (getm g p))).

  Lemma wrap_deps_inv f : forall s ws ws',
    wrap_deps f g s ws = Some ws' -> length (fst ws) = length g -> Inv (fst ws) -> Pre (fst ws) s ->
    Inv (fst ws') /\ Ext (fst ws) (fst ws').
  Proof.
    induction f as [|f IH]; intros s [st did] ws' H Hlen Hi [Hqs Hpre]; [discriminate|]. cbn [fst] in *.
    assert (Hid : Inv st /\ Ext st st) by (split; [exact Hi|apply Ext_refl]).
    cbn [wrap_deps] in H. destruct (memn s did); [inversion H; subst; exact Hid|].
    destruct (Nat.eqb s 0); [inversion H; subst; exact Hid|].
    destruct (cget st s) as [k w] eqn:Ec.
    destruct (wrap_cell st s k w Ec) as [L1 [K1 W1]].
    set (st1 := if wkind_eqb w WNone then cset st s (k, if ekind_eqb k ECJS then WCJS else WESM) else st) in *.
    assert (He1 : Ext st st1).
    { unfold Ext, kind_of. split; [exact L1|]. split; [intros x Hx; apply W1; left; exact Hx|].
      split; intros x; rewrite K1; auto. }
    assert (Hi1 : Inv st1).
    { apply (Inv_step st _ Hi He1). intros x Hx. apply W1 in Hx as [Hx|[-> _]]; [left; exact Hx|right].
      destruct Hpre as [Hp|[Hp|[p [Hq [Hp Hs]]]]].
      - eapply Reason_mono; [exact He1|apply Hi; exact Hp].
      - left. apply He1. exact Hp.
      - right. right. exists p. split; [exact Hq|]. split; [apply He1; exact Hp|exact Hs]. }
    (* the loop over the import records of s, all imported by the now wrapped s *)
    assert (Hloop : Inv (fst ws') /\ Ext st1 (fst ws')).
    { apply (ofoldl_inv (wrap_deps f g) (fun w => Inv (fst w) /\ Ext st1 (fst w)) _ _ _ H); [split; [exact Hi1|apply Ext_refl]|].
      intros t w1 w2 Ht [Hi0 He0] E.
      assert (Hs : (s < length st)%nat).
      { destruct (Nat.lt_ge_cases s (length st)) as [Hl|Hg]; [exact Hl|].
        rewrite getm_out in Ht by (rewrite <- Hlen; exact Hg). destruct Ht. }
      assert (Hpre_t : Pre (fst w1) t).
      { split; [apply (HQ s); assumption|]. right. right. exists s. split; [exact Hqs|]. split; [|exact Ht].
        apply He0. apply W1. right. auto. }
      destruct (IH t w1 w2 E) as [Hi2 He2]; [destruct He0 as [L0 _]; congruence|exact Hi0|exact Hpre_t|].
      split; [exact Hi2|eapply Ext_trans; eauto]. }
    destruct Hloop as [Hi' He']. split; [exact Hi'|eapply Ext_trans; eauto].
  Qed.

  Lemma KEq_Ext st st' : KEq st st' -> Ext st st'.
  Proof.
    intros [L [W K]]. split; [exact L|]. split; [|split].
    - intros x Hx. unfold wrapped. rewrite W. exact Hx.
    - intros x Hx. apply K. exact Hx.
    - intros x Hx. left. apply K. exact Hx.
  Qed.
  Lemma KEq_Inv st st' : KEq st st' -> Inv st -> Inv st'.
  Proof.
    intros HK Hi x Hx. eapply Reason_mono; [apply KEq_Ext; exact HK|]. apply Hi.
    destruct HK as [_ [W _]]. unfold wrapped in *. rewrite <- W. exact Hx.
  Qed.

  Variable keep_esm : bool.
  Let fuel := S (length g).

  Definition Good (st0 : cstate) (ws : wstate) : Prop :=
    length (fst ws) = length g /\ Inv (fst ws) /\ Ext st0 (fst ws).

  Lemma wrap_deps_good st0 s ws ws' :
    Good st0 ws -> Pre (fst ws) s -> wrap_deps fuel g s ws = Some ws' -> Good st0 ws'.
  Proof.
    intros [Hlen [Hi He]] Hpre E. destruct (wrap_deps_inv _ _ _ _ E Hlen Hi Hpre) as [Hi1 He1].
    split; [destruct He1 as [L1 _]; congruence|]. split; [exact Hi1|eapply Ext_trans; eauto].
  Qed.

  Lemma wrap_file_good st0 ws s ws' : Q s ->
    wrap_file fuel keep_esm g (Some ws) s = Some ws' -> Good st0 ws -> Good st0 ws'.
  Proof.
    intros Hqs H HG. apply (wrap_file_rule (Good st0) _ _ _ _ _ _ H).
    - intros _. exact HG.
    - intros ws1 Hw. apply wrap_deps_good; [exact HG|]. split; [exact Hqs|left; exact Hw].
    - intros st st' did HK [Hlen [Hi He]]. unfold Good. cbn [fst] in *.
      split; [rewrite (proj1 HK); exact Hlen|]. split; [eapply KEq_Inv; eauto|].
      eapply Ext_trans; [exact He|apply KEq_Ext; exact HK].
    - intros t w w' Ht Hk HGw. apply wrap_deps_good; [exact HGw|]. split; [apply (HQ s); assumption|right; left; exact Hk].
  Qed.

  Lemma scan_facts fmt st :
    scan_steps12 fmt keep_esm g order = Some st ->
    Inv st /\ Ext (init_state g) st /\ Ext (classify fmt g order) st.
  Proof.
    unfold scan_steps12. fold fuel. intros H.
    destruct (fold_left (wrap_file fuel keep_esm g) order (Some (classify fmt g order, []))) as [[st' did]|] eqn:E; [|discriminate].
    inversion H; subst st'; clear H. destruct (classify_inv fmt) as [Hi1 He1].
    assert (HG : Good (classify fmt g order) (st, did)).
    { apply (ofoldl_inv (fun s w => wrap_file fuel keep_esm g (Some w) s) (Good (classify fmt g order)) _ _ _ E).
      - split; [apply length_classify|]. split; [exact Hi1|apply Ext_refl].
      - intros s w1 w2 Hs HG1 E1. eapply wrap_file_good; eauto. }
    destruct HG as [_ [Hi2 He2]]. cbn [fst] in *.
    split; [exact Hi2|]. split; [eapply Ext_trans; eauto|exact He2].
  Qed.

  Theorem wrap_minimal_Q fmt st :
    scan_steps12 fmt keep_esm g order = Some st ->
    forall s, wrapped st s ->
      kind_of st s = ECJS \/ req_dyn s \/ exists p, Q p /\ wrapped st p /\ In s (all_targets (getm g p)).
  Proof. intros H. exact (proj1 (scan_facts fmt st H)). Qed.

  (* the other direction, for the files of the graph: targets of require()/import() are wrapped,
     CommonJS files are wrapped (an entry point of a cjs-format build excepted) *)
  Theorem wrap_required_Q fmt st :
    scan_steps12 fmt keep_esm g order = Some st ->
    forall s, (s < length g)%nat -> req_dyn s -> wrapped st s.
  Proof.
    intros H s Hl Hr. destruct (scan_facts fmt st H) as [_ [_ [_ [W _]]]].
    apply W, classify_required; assumption.
  Qed.

  Theorem wrap_cjs_Q fmt st :
    scan_steps12 fmt keep_esm g order = Some st ->
    forall s, In s order -> (s < length g)%nat -> (m_entry (getm g s) = false \/ fmt = true) ->
      kind_of st s = ECJS -> wrapped st s.
  Proof.
    intros H s Hs Hl Hf Hk.
    destruct (scan_facts fmt st H) as [_ [[_ [_ [_ J]]] [_ [W _]]]].
    destruct (J s Hk) as [H0|Hw]; [|exact Hw].
    apply W, classify_cjs; auto. unfold kind_of in H0. rewrite cget_init_state in H0. exact H0.
  Qed.
End Min.

(* the instance without a side condition *)
Theorem wrap_minimal_all g order keep_esm fmt st :
  scan_steps12 fmt keep_esm g order = Some st ->
  forall s, wrapped st s ->
    kind_of st s = ECJS \/ req_dyn g order s \/ exists p, wrapped st p /\ In s (all_targets (getm g p)).
Proof.
  intros H s Hs.
  destruct (wrap_minimal_Q g order (fun _ => True) (fun _ _ _ _ => I) (fun _ _ => I) keep_esm fmt st H s Hs)
    as [Ha|[Hb|[p [_ Hp]]]]; [left; exact Ha|right; left; exact Hb|right; right; exists p; exact Hp].
Qed.

Theorem wrap_required_all g order keep_esm fmt st :
  scan_steps12 fmt keep_esm g order = Some st ->
  forall s, (s < length g)%nat -> req_dyn g order s -> wrapped st s.
Proof. exact (wrap_required_Q g order (fun _ => True) (fun _ _ _ _ => I) (fun _ _ => I) keep_esm fmt st). Qed.

Theorem wrap_cjs_all g order keep_esm fmt st :
  scan_steps12 fmt keep_esm g order = Some st ->
  forall s, In s order -> (s < length g)%nat -> (m_entry (getm g s) = false \/ fmt = true) ->
    kind_of st s = ECJS -> wrapped st s.
Proof. exact (wrap_cjs_Q g order (fun _ => True) (fun _ _ _ _ => I) (fun _ _ => I) keep_esm fmt st). Qed.
