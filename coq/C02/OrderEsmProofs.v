(* The bundle order of a static ES module graph is the ECMA-262 evaluation
   order: simulation between Order.visit and SpecESM.inner_eval. *)
From V Require Import Common.Base C02.Graph C02.OptFold C02.Order C02.SpecESM C02.OrderProofs.

Definition nz (x : nat) : bool := negb (Nat.eqb x 0).

Definition st_of (l : list (nat * mstatus)) (y : nat) : mstatus :=
  match assoc y l with Some s => s | None => Linked end.

Lemma status_of_st_of e y : status_of e y = st_of (e_status e) y.
Proof. reflexivity. Qed.

Lemma st_of_cons x v l y : st_of ((x, v) :: l) y = if Nat.eqb y x then v else st_of l y.
Proof. unfold st_of. cbn [assoc]. destruct (Nat.eqb y x); reflexivity. Qed.

Lemma pop_until_status m : forall stack st stk' st',
  (forall x, In x stack -> st_of st x <> Linked) ->
  pop_until m stack st = (stk', st') ->
  (forall y, st_of st' y <> Linked <-> st_of st y <> Linked) /\ incl stk' stack.
Proof.
  induction stack as [|x r IH]; intros st stk' st' Hs H; cbn [pop_until] in H.
  - inversion H; subst. split; [tauto|apply incl_refl].
  - assert (Hstep : forall y, st_of ((x, Evaluated) :: st) y <> Linked <-> st_of st y <> Linked).
    { intros y. rewrite st_of_cons. destruct (Nat.eqb y x) eqn:E.
      - apply Nat.eqb_eq in E; subst. split; [intros _; apply Hs; left; reflexivity|intros _; discriminate].
      - tauto. }
    destruct (Nat.eqb x m).
    + inversion H; subst. split; [exact Hstep|apply incl_tl, incl_refl].
    + apply IH in H.
      * destruct H as [Ha Hb]. split; [intros y; rewrite Ha; apply Hstep|apply incl_tl; exact Hb].
      * intros z Hz. apply Hstep. apply Hs. right. exact Hz.
Qed.

Section Sim.
  Variable g : graph.
  Variable emit : nat -> bool.
  Let succs := fun s => stmt_targets (getm g s).
  Let n := length g.
  Hypothesis Hsuccs : forall s t, In t (succs s) -> t <> 0%nat /\ (t < n)%nat.
  Hypothesis Hemit : forall s, s <> 0%nat -> (s < n)%nat -> emit s = true.

  (* the simulation: visited = status other than linked, output without the runtime file = log of
     ExecuteModule calls; [[DFSIndex]] and [[DFSAncestorIndex]] only decide when statuses turn from
     evaluating to evaluated, which the relation does not see *)
  Definition R (st : dstate) (es : estate * nat) : Prop :=
    (forall m, m <> 0%nat -> (memn m (fst st) = true <-> status_of (fst es) m <> Linked)) /\
    filter nz (snd st) = e_log (fst es) /\
    (forall x, In x (e_stack (fst es)) -> status_of (fst es) x <> Linked).

  Definition agree (a : option dstate) (b : option (estate * nat)) : Prop :=
    match a, b with
    | Some st, Some es => R st es
    | None, None => True
    | _, _ => False
    end.

  (* the loop body of step 11 *)
  Definition spec_step (f : nat) (m : nat) (acc : option (estate * nat)) (req : nat) : option (estate * nat) :=
    match acc with
    | None => None
    | Some (e', idx') =>
      match inner_eval f g req (e', idx') with
      | None => None
      | Some (e'', idx'') =>
        match status_of e'' req with
        | Evaluating => Some (set_anc e'' m (Nat.min (anc_of e'' m) (anc_of e'' req)), idx'')
        | _ => Some (e'', idx'')
        end
      end
    end.

  Lemma spec_fold_none f m l : fold_left (spec_step f m) l None = None.
  Proof. induction l; cbn; auto. Qed.

  Lemma R_set_anc st e idx m a : R st (e, idx) -> R st (set_anc e m a, idx).
  Proof. intros H. exact H. Qed.

  Lemma dedup_seen_fold f m
    (IH : forall s st es, s <> 0%nat -> (s < n)%nat -> R st es ->
            agree (visit succs emit (S f) s st) (inner_eval (S f) g s es)) :
    forall l seen st es,
      R st es ->
      (forall x, In x seen -> memn x (fst st) = true) ->
      (forall x, In x l -> x <> 0%nat /\ (x < n)%nat) ->
      agree (vfold (visit succs emit (S f)) l (Some st))
            (fold_left (spec_step (S f) m) (dedup l seen) (Some es)).
  Proof.
    induction l as [|x l IHl]; intros seen st es HR Hseen Hl.
    - cbn. exact HR.
    - rewrite vfold_cons. cbn [dedup]. destruct (memn x seen) eqn:Ex.
      + rewrite visit_visited by (apply Hseen; apply memn_In; exact Ex).
        apply IHl; auto. intros y Hy. apply Hl. right. exact Hy.
      + cbn [fold_left]. destruct es as [e idx]. cbn [spec_step].
        destruct (Hl x (or_introl eq_refl)) as [Hx0 Hxn].
        pose proof (IH x st (e, idx) Hx0 Hxn HR) as Hag.
        destruct (visit succs emit (S f) x st) as [st1|] eqn:Ev;
          destruct (inner_eval (S f) g x (e, idx)) as [[e1 idx1]|] eqn:Ei; cbn in Hag; try contradiction.
        * (* lowering the ancestor index does not touch what R reads *)
          assert (Hes : exists es', match status_of e1 x with
                                    | Evaluating => Some (set_anc e1 m (Nat.min (anc_of e1 m) (anc_of e1 x)), idx1)
                                    | _ => Some (e1, idx1) end = Some es' /\ R st1 es')
            by (destruct (status_of e1 x); eexists; (split; [reflexivity|exact Hag])).
          destruct Hes as [es' [-> HR1]].
          destruct (visit_Inv succs emit _ _ _ _ Ev) as [[Hincl _] Hin].
          apply IHl; auto.
          -- intros y [<-|Hy]; [apply memn_In; exact Hin|].
             apply memn_In. apply Hincl. apply memn_In. apply Hseen. exact Hy.
          -- intros y Hy. apply Hl. right. exact Hy.
        * rewrite vfold_none, spec_fold_none. exact I.
  Qed.

  Lemma dedup_nonempty x l : dedup (x :: l) [] <> [].
  Proof. cbn. discriminate. Qed.

  Lemma sim : forall fuel s st es, s <> 0%nat -> (s < n)%nat -> R st es ->
    agree (visit succs emit fuel s st) (inner_eval fuel g s es).
  Proof.
    induction fuel as [|f IH]; intros s st [e idx] Hs0 Hsn HR; [exact I|].
    cbn [visit inner_eval].
    destruct HR as [Hvis [Hlog Hstack]]. cbn [fst snd] in *.
    destruct (memn s (fst st)) eqn:Em.
    - assert (Hnl : status_of e s <> Linked) by (apply Hvis; auto).
      destruct (status_of e s); [congruence| |];
        (unfold agree, R; cbn [fst snd]; split; [exact Hvis|split; [exact Hlog|exact Hstack]]).
    - assert (Hl : status_of e s = Linked).
      { destruct (status_of e s) eqn:Es; auto; exfalso;
          assert (memn s (fst st) = true) by (apply Hvis; [auto|rewrite Es; discriminate]); congruence. }
      rewrite Hl.
      set (e1 := mkE ((s, Evaluating) :: e_status e) ((s, (idx, idx)) :: e_dfs e) (s :: e_stack e) (e_log e)).
      assert (HR1 : R (s :: fst st, snd st) (e1, S idx)).
      { split; [|split].
        - intros m Hm. cbn [fst]. rewrite status_of_st_of. unfold e1. cbn [e_status memn].
          rewrite st_of_cons. rewrite (Nat.eqb_sym m s). destruct (Nat.eqb s m) eqn:E; cbn [orb].
          + split; [discriminate|reflexivity].
          + rewrite Nat.eqb_sym in E. rewrite <- status_of_st_of. apply Hvis. exact Hm.
        - exact Hlog.
        - intros x Hx. cbn [fst] in *. rewrite status_of_st_of. unfold e1 in *. cbn [e_status e_stack] in *.
          rewrite st_of_cons. destruct (Nat.eqb x s) eqn:E; [discriminate|].
          destruct Hx as [->|Hx]; [rewrite Nat.eqb_refl in E; discriminate|]. apply Hstack. exact Hx. }
      fold (spec_step f s).
      change (fold_left (spec_step f s) (requested g s) (Some (e1, S idx)))
        with (fold_left (spec_step f s) (dedup (succs s) []) (Some (e1, S idx))).
      assert (Hag : agree (vfold (visit succs emit f) (succs s) (Some (s :: fst st, snd st)))
                          (fold_left (spec_step f s) (dedup (succs s) []) (Some (e1, S idx)))).
      { destruct f as [|f'].
        - destruct (succs s) as [|x l] eqn:El; [exact HR1|].
          rewrite vfold_cons. cbn [visit]. rewrite vfold_none.
          cbn [dedup memn fold_left spec_step inner_eval]. rewrite spec_fold_none. exact I.
        - apply dedup_seen_fold;
            [exact IH | exact HR1 | intros x [] | intros x Hx; apply (Hsuccs s); exact Hx]. }
      destruct (vfold (visit succs emit f) (succs s) (Some (s :: fst st, snd st))) as [st1|];
        destruct (fold_left (spec_step f s) (dedup (succs s) []) (Some (e1, S idx))) as [[e2 idx2]|];
        cbn in Hag; try contradiction; [|exact I].
      destruct Hag as [Hvis2 [Hlog2 Hstack2]]. cbn [fst snd] in *.
      rewrite (Hemit s Hs0 Hsn).
      set (e3 := mkE (e_status e2) (e_dfs e2) (e_stack e2) (e_log e2 ++ [s])).
      assert (HR3 : R (fst st1, snd st1 ++ [s]) (e3, idx2)).
      { split; [exact Hvis2|split; [|exact Hstack2]]. cbn [fst snd e3 e_log].
        rewrite filter_app, Hlog2. cbn [filter]. unfold nz at 1.
        destruct (Nat.eqb s 0) eqn:E; [apply Nat.eqb_eq in E; contradiction|reflexivity]. }
      destruct (Nat.eqb (anc_of e3 s) (dfs_of e3 s)); [|exact HR3].
      destruct (pop_until s (e_stack e3) (e_status e3)) as [stk sts] eqn:Ep.
      destruct HR3 as [Hv3 [Hl3 Hs3]]. cbn [fst snd] in *.
      destruct (pop_until_status s _ _ _ _ Hs3 Ep) as [Hiff Hinc].
      split; [|split]; cbn [fst snd e_log e_status e_stack].
      + intros m Hm. rewrite status_of_st_of. cbn [e_status]. rewrite Hiff. apply Hv3. exact Hm.
      + exact Hl3.
      + intros x Hx. rewrite status_of_st_of. cbn [e_status]. rewrite Hiff. apply Hs3. apply Hinc. exact Hx.
  Qed.
End Sim.

Lemma vfold_ext v v' l : (forall s st, v s st = v' s st) -> forall acc, vfold v l acc = vfold v' l acc.
Proof. intros H. apply ofoldl_ext. intros s _. apply H. Qed.

Lemma visit_ext succs succs' emit fuel :
  (forall s, succs s = succs' s) ->
  forall s st, visit succs emit fuel s st = visit succs' emit fuel s st.
Proof.
  intros H. induction fuel as [|f IH]; intros s st; [reflexivity|].
  cbn [visit]. rewrite H. rewrite (vfold_ext _ _ _ IH). reflexivity.
Qed.

Lemma reach_ext succs succs' : (forall s, succs s = succs' s) -> forall a b, reach succs a b -> reach succs' a b.
Proof.
  intros H a b Hp. induction Hp as [x|x y z Hy Hp IH]; [constructor|].
  eapply reach_step; [|exact IH]. rewrite <- H. exact Hy.
Qed.

Lemma vfold_visited succs emit f : forall l st,
  (forall x, In x l -> In x (fst st)) -> vfold (visit succs emit (S f)) l (Some st) = Some st.
Proof.
  induction l as [|x l IH]; intros st H; [reflexivity|].
  rewrite vfold_cons, visit_visited by (apply memn_In; apply H; left; reflexivity).
  apply IH. intros y Hy. apply H. right. exact Hy.
Qed.

Lemma order_is_esm_all g keys e rest l :
  let n := length g in
  (forall s t, In t (stmt_targets (getm g s)) -> t <> 0%nat /\ (t < n)%nat) ->
  stmt_targets (getm g 0) = [] ->
  (forall s, followed g s = stmt_targets (getm g s)) ->
  (forall s, s <> 0%nat -> (s < n)%nat -> in_chunk g s = true) ->
  e <> 0%nat -> (e < n)%nat ->
  chunk_sorted keys = e :: rest ->
  (forall x, In x rest -> reach (followed g) e x) ->
  bundle_order g keys = Some l ->
  spec_eval_order g e = Some (filter nz l).
Proof.
  intros n Hwf H0 Hfol Hlive He0 Hen Hsorted Hrest Hb.
  unfold bundle_order, visit_all in Hb. rewrite Hsorted in Hb.
  set (succs := fun s => stmt_targets (getm g s)) in *.
  rewrite (vfold_ext _ (visit succs (in_chunk g) (S (length g)))) in Hb
    by (intros s st; apply visit_ext; exact Hfol).
  rewrite vfold_cons in Hb.
  assert (Hv0 : visit succs (in_chunk g) (S (length g)) 0 ([], []) =
                Some ([0%nat], if in_chunk g 0 then [0%nat] else [])).
  { cbn [visit memn fst snd]. assert (Hs0 : succs 0%nat = []) by exact H0. rewrite Hs0. cbn. reflexivity. }
  rewrite Hv0 in Hb. rewrite vfold_cons in Hb.
  set (st0 := ([0%nat], if in_chunk g 0 then [0%nat] else [])) in *.
  assert (HR0 : R st0 (mkE [] [] [] [], 0%nat)).
  { split; [|split].
    - intros m Hm. cbn. destruct m; [contradiction|]. cbn. split; [discriminate|intros H; exfalso; apply H; reflexivity].
    - cbn. destruct (in_chunk g 0); reflexivity.
    - intros x []. }
  pose proof (sim g (in_chunk g) Hwf Hlive (S (length g)) e st0 _ He0 Hen HR0) as Hag.
  fold succs in Hag.
  destruct (visit succs (in_chunk g) (S (length g)) e st0) as [st1|] eqn:Ev.
  2:{ rewrite vfold_none in Hb. discriminate. }
  unfold spec_eval_order. fold n in Hag |- *.
  destruct (inner_eval (S n) g e (mkE [] [] [] [], 0%nat)) as [[e1 i1]|]; cbn in Hag; [|contradiction].
  destruct Hag as [_ [Hlog _]]. cbn [fst snd] in Hlog.
  (* the remaining roots were already visited *)
  destruct (visit_Inv succs (in_chunk g) _ _ _ _ Ev) as [[Hincl [nw [_ [_ [_ D1]]]]] Hin].
  assert (Hclosed : forall y, In y (fst st1) -> incl (succs y) (fst st1)).
  { intros y Hy. destruct (in_dec Nat.eq_dec y (fst st0)) as [Hy0|Hy0].
    - cbn in Hy0. destruct Hy0 as [<-|[]]. unfold succs. rewrite H0. intros z [].
    - apply (D1 y Hy Hy0). }
  rewrite vfold_visited in Hb.
  - inversion Hb; subst. rewrite Hlog. reflexivity.
  - intros x Hx. apply (reach_closed succs (fst st1) Hclosed e x); [|exact Hin].
    apply (reach_ext (followed g) succs Hfol), Hrest, Hx.
Qed.

(* the same with the sort's precondition instead of its result: the entry point is the only
   file at distance 0 and every file of the chunk is reachable from it *)
Lemma order_is_esm_keys g keys e t0 l :
  (forall s t, In t (stmt_targets (getm g s)) -> t <> 0%nat /\ (t < length g)%nat) ->
  stmt_targets (getm g 0) = [] ->
  (forall s, followed g s = stmt_targets (getm g s)) ->
  (forall s, s <> 0%nat -> (s < length g)%nat -> in_chunk g s = true) ->
  e <> 0%nat -> (e < length g)%nat ->
  In (0, t0, e) keys -> (forall k, In k keys -> k = (0, t0, e) \/ 0 < kdist k) ->
  (forall k, In k keys -> reach (followed g) e (snd k)) ->
  bundle_order g keys = Some l ->
  spec_eval_order g e = Some (filter nz l).
Proof.
  intros Hwf H0 Hfol Hlive He0 Hen Hin Hall Hreach Hb.
  destruct (entry_sorts_first_all keys e t0 Hin Hall) as [rest Hs].
  eapply order_is_esm_all; eauto.
  intros x Hx.
  assert (Hx2 : In x (chunk_sorted keys)) by (rewrite Hs; right; exact Hx).
  unfold chunk_sorted in Hx2. apply in_map_iff in Hx2 as [k [Hk Hks]]. subst x.
  apply Hreach. apply sort_keys_In. exact Hks.
Qed.
