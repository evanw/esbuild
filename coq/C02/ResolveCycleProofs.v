(* C02: export resolution on graphs with CYCLES of export stars of length up to three, by
   computation over a finite domain (the unbounded theorem resolve_is_spec_partial needs a rank
   certificate, which a cycle of export stars does not have). *)
From V Require Import Common.Base C02.Graph C02.Resolve C02.SpecESM C02.ResolveSpec C02.ScanEsmProofs C02.ResolveProofs.

(* star-only options: a name is absent or a local binding *)
Definition file_variants_loc (self : nat) (names : list Z) (star_sets : list (list nat)) : list module :=
  flat_map (fun opts => map (mk_file self opts) star_sets) (opt_lists names [XNone; XLoc]).

(* domain 3: four files, one name, absent or local in each file; files 1, 2 and 3 star-export any
   subset of {1,2,3,4} (self loops, 2-cycles, 3-cycles, chords, diamonds onto the cycle), file 4
   star-exports nothing *)
Definition stars4 : list (list nat) := sublists [1; 2; 3; 4]%nat.
Definition domain3 : list (list module) :=
  products [file_variants_loc 1 [1] stars4; file_variants_loc 2 [1] stars4;
            file_variants_loc 3 [1] stars4; file_variants_loc 4 [1] [[]]].

Lemma domain3_size : Z.of_nat (length domain3) = 65536.
Proof. vm_compute. reflexivity. Qed.
(* Every graph of the domain is a graph of ES modules on which steps 1-2 of scanImportsAndExports
   change nothing: read off the 98 file variants once, not off each of the 65536 graphs. *)

(* an ES module all of whose records are import statements to the files 1..n *)
Definition esm_to (n : nat) (m : module) : bool :=
  ekind_eqb (m_kind m) EESM
  && forallb (fun r => ikind_eqb (r_kind r) KStmt
                       && match r_target r with Some t => Nat.leb 1 t && Nat.leb t n | None => false end) (m_records m).

Lemma graph_inert fs m : forallb (esm_to (length fs)) (fs ++ [m]) = true ->
  scan_inert (empty_module :: fs ++ [m]) = true.
Proof.
  intros H. rewrite forallb_forall in H. unfold scan_inert. apply forallb_forall. intros x [<-|Hx]; [reflexivity|].
  destruct (proj1 (andb_true_iff _ _) (H x Hx)) as [Hk Hr]. rewrite Hk. cbn [orb andb].
  rewrite forallb_forall in Hr. apply forallb_forall. intros r Hrin.
  destruct (proj1 (andb_true_iff _ _) (Hr r Hrin)) as [-> Ht]. cbn [andb].
  destruct (r_target r) as [t|]; [|discriminate]. apply andb_true_iff in Ht as [H1 Hn].
  apply Nat.leb_le in H1, Hn. destruct t as [|t]; [lia|].
  cbn [length]. rewrite app_length. cbn [length].
  replace (Nat.ltb (S t) (S (length fs + 1))) with true by (symmetry; apply Nat.ltb_lt; lia).
  unfold getm. cbn [nth andb]. rewrite app_nth1 by lia.
  exact (proj1 (proj1 (andb_true_iff _ _) (H _ (in_or_app _ _ _ (or_introl (@nth_In _ t fs empty_module ltac:(lia))))))).
Qed.

Lemma in_products vs fs : In fs (products vs) -> Forall2 (fun m v => In m v) fs vs.
Proof.
  revert fs. induction vs as [|v vs IH]; intros fs H; cbn [products] in H.
  - destruct H as [<-|[]]. constructor.
  - apply in_flat_map in H as [m [Hm H]]. apply in_map_iff in H as [fs' [<- H]]. constructor; [exact Hm | exact (IH _ H)].
Qed.

Lemma Forall2_same_length {A B} (R : A -> B -> Prop) l l' : Forall2 R l l' -> length l = length l'.
Proof. induction 1; cbn [length]; congruence. Qed.

Lemma domain3_inert fs : In fs domain3 -> scan_inert (graph_of [1; 2; 3; 4]%nat [1] fs) = true.
Proof.
  intros H. apply in_products in H.
  assert (V : forallb (forallb (esm_to 4)) [file_variants_loc 1 [1] stars4; file_variants_loc 2 [1] stars4;
                                            file_variants_loc 3 [1] stars4; file_variants_loc 4 [1] [[]]] = true)
    by (vm_compute; reflexivity).
  assert (L : length fs = 4%nat) by exact (Forall2_same_length _ _ _ H).
  unfold graph_of. apply graph_inert. rewrite L, forallb_app. apply andb_true_iff. split; [|vm_compute; reflexivity].
  rewrite forallb_forall in V. apply forallb_forall. intros m Hm.
  clear L. induction H as [|x v fs vs Hx _ IH]; [destruct Hm|].
  destruct Hm as [<-|Hm].
  - specialize (V v (or_introl eq_refl)). rewrite forallb_forall in V. exact (V _ Hx).
  - apply IH; [|exact Hm]. intros y Hy. apply V. right. exact Hy.
Qed.

(* no exclusion at all in this domain: without indirect exports the refuted re-export-cycle shape
   cannot occur *)
Lemma domain3_ok :
  forallb (fun fs => let g := graph_of [1; 2; 3; 4]%nat [1] fs in
                     forallb (agrees_unscanned g (S (length fs))) (m_imports (getm g (S (length fs))))) domain3 = true.
Proof. vm_compute. reflexivity. Qed.

Lemma bounded4_all fs : In fs domain3 ->
  let g := graph_of [1; 2; 3; 4]%nat [1] fs in
  forall ni, In ni (m_imports (getm g (S (length fs)))) -> agrees g (seq 0 (length g)) (S (length fs)) ni = true.
Proof.
  intros Hin g ni Hni. assert (H := domain3_ok). rewrite forallb_forall in H. specialize (H fs Hin).
  change (forallb (agrees_unscanned g (S (length fs))) (m_imports (getm g (S (length fs)))) = true) in H.
  rewrite forallb_forall in H. exact (agrees_unscanned_sound g _ ni (domain3_inert fs Hin) (H ni Hni)).
Qed.
