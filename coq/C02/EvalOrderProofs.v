(* The bundle's evaluation order of a mixed ESM / CommonJS graph with lazy wrappers equals native
   loading, given what the linker guarantees about wrapping (wrap_consistent). *)
From V Require Import Common.Base C02.Graph C02.OptFold C02.EvalOrder.

Lemma ofold_ext f1 f2 l : (forall t, In t l -> forall st, f1 t st = f2 t st) -> forall st, ofold f1 l st = ofold f2 l st.
Proof. intros H st. exact (ofoldl_ext f1 f2 l H (Some st)). Qed.

Lemma body_events_ext g s i1 i2 st : (forall x, i1 x = i2 x) -> body_events g s i1 st = body_events g s i2 st.
Proof. intros H. unfold body_events. rewrite H. reflexivity. Qed.

Section Mixed.
  Variable g : egraph.
  Hypothesis Hc : wrap_consistent g = true.

  Lemma consistent s :
    (forall t, In t (e_requires (gete g s) ++ e_dyn (gete g s)) -> e_wrapped (gete g t) = true) /\
    (e_wrapped (gete g s) = true -> forall t, In t (e_static (gete g s)) -> e_wrapped (gete g t) = true).
  Proof.
    (* outside the graph [gete] is the empty module, which passes the test *)
    pose proof (nth_forallb _ g empty_emod s Hc eq_refl) as H. fold (gete g s) in H. cbn beta in H.
    apply andb_true_iff in H as [H1 H2]. split.
    - intros t Ht. rewrite forallb_forall in H1. apply H1. exact Ht.
    - intros Hw t Ht. rewrite Hw in H2. cbn [negb orb] in H2. rewrite forallb_forall in H2. apply H2. exact Ht.
  Qed.

  Lemma run_is_load f : forall iw s st, (iw = true -> e_wrapped (gete g s) = true) -> b_run f g iw s st = n_load f g s st.
  Proof.
    induction f as [|f IH]; intros iw s st Hw; [reflexivity|]. cbn [b_run n_load].
    assert (H0 : iw && negb (e_wrapped (gete g s)) = false).
    { destruct iw; [rewrite Hw by reflexivity|]; reflexivity. }
    rewrite H0. destruct (memn s (xs_started st)); [reflexivity|].
    destruct (consistent s) as [Hreq Hst].
    rewrite (ofold_ext (b_run f g (e_wrapped (gete g s))) (n_load f g) (e_static (gete g s))).
    - destruct (ofold (n_load f g) (e_static (gete g s)) _) as [st1|]; [|reflexivity].
      apply body_events_ext. intros x. apply ofold_ext. intros t Ht st'. apply IH. intros _.
      apply Hreq. apply in_or_app. left. exact Ht.
    - intros t Ht st'. apply IH. intros Hwr. apply Hst; assumption.
  Qed.

  Definition q_ok (st : xstate) : Prop := forall t, In t (xs_queue st) -> e_wrapped (gete g t) = true.

  Lemma ofold_q_ok (f : nat -> xstate -> option xstate) l :
    (forall t st st', f t st = Some st' -> q_ok st -> q_ok st') ->
    forall st st', ofold f l st = Some st' -> q_ok st -> q_ok st'.
  Proof.
    intros Hf st st' H Hq. apply (ofoldl_inv f q_ok l st st' H Hq). intros t a1 a2 _ Hq1 E. eapply Hf; eauto.
  Qed.

  Lemma load_q_ok f : forall s st st', n_load f g s st = Some st' -> q_ok st -> q_ok st'.
  Proof.
    induction f as [|f IH]; intros s st st' H Hq; [discriminate|]. cbn [n_load] in H.
    destruct (memn s (xs_started st)); [inversion H; subst; exact Hq|].
    destruct (ofold (n_load f g) (e_static (gete g s)) _) as [st1|] eqn:E1; [|discriminate].
    assert (Hq1 : q_ok st1) by (eapply (ofold_q_ok (n_load f g)); eauto).
    unfold body_events in H.
    destruct (ofold (n_load f g) (e_requires (gete g s)) _) as [st2|] eqn:E2; [|discriminate].
    inversion H; subst st'. clear H.
    assert (Hq2 : q_ok st2).
    { eapply (ofold_q_ok (n_load f g)); eauto. intros t Ht. apply Hq1. destruct (e_silent (gete g s)); exact Ht. }
    intros t Ht. cbn [xs_queue] in Ht. apply in_app_or in Ht as [Ht|Ht]; [apply Hq2; exact Ht|].
    destruct (consistent s) as [Hreq _]. apply Hreq. apply in_or_app. right. exact Ht.
  Qed.

  Lemma drain_same fl k : forall st, q_ok st ->
    drain k (b_run fl g true) st = drain k (n_load fl g) st.
  Proof.
    induction k as [|k IH]; intros st Hq; [reflexivity|]. cbn [drain].
    destruct (xs_queue st) as [|t rest] eqn:Eq; [reflexivity|].
    rewrite run_is_load by (intros _; apply Hq; rewrite Eq; left; reflexivity).
    destruct (n_load fl g t _) as [st'|] eqn:E; [|reflexivity].
    apply IH. eapply load_q_ok; eauto. intros t0 Ht0. apply Hq. rewrite Eq. right. exact Ht0.
  Qed.

  Lemma bundle_is_native entry : bundle_trace g entry = native_trace g entry.
  Proof.
    unfold bundle_trace, native_trace. rewrite run_is_load by discriminate.
    destruct (n_load (efuel g) g entry _) as [st|] eqn:E; [|reflexivity].
    rewrite drain_same; [reflexivity|]. eapply load_q_ok; eauto. intros t [].
  Qed.
End Mixed.
