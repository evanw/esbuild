(* Unbounded equivalence of the linker's import matching with ECMA-262
   ResolveExport for graphs WITHOUT export stars: named exports, indirect
   exports (export {a as b} from, re-exported imports, export * as ns) of any
   depth, graphs of any size. *)
From V Require Import Common.Base C02.Graph C02.OptFold C02.SpecESM C02.Wrap C02.Resolve C02.ResolveSpec.

Lemma getm_forallb (f : module -> bool) g i :
  forallb f g = true -> f empty_module = true -> f (getm g i) = true.
Proof. apply nth_forallb. Qed.

Lemma find_import_imp ref l : find_import ref l = find_imp ref l.
Proof. induction l as [|i l IH]; cbn; [reflexivity|]. rewrite IH. reflexivity. Qed.

Lemma pair_eqb_eq a b : pair_eqb a b = true <-> a = b.
Proof.
  destruct a as [a1 a2], b as [b1 b2]. unfold pair_eqb. cbn [fst snd].
  rewrite andb_true_iff, !Nat.eqb_eq. split; [intros [-> ->]; reflexivity|intros H; inversion H; auto].
Qed.

Lemma existsb_pair t cyc : existsb (pair_eqb t) cyc = true -> In t cyc.
Proof.
  rewrite existsb_exists. intros [x [Hx He]]. apply pair_eqb_eq in He. subst. exact Hx.
Qed.

Lemma lookup_map_exports a o l :
  ed_lookup a (map (fun p : Z * nat => mkEd (fst p) o (snd p) []) l)
  = option_map (fun r => mkEd a o r []) (find_export a l).
Proof.
  induction l as [|[b r] l IH]; cbn [map ed_lookup find_export ed_alias fst snd]; [reflexivity|].
  destruct (b =? a) eqn:E; [apply Z.eqb_eq in E; subst; reflexivity|exact IH].
Qed.

Lemma find_imp_In ref l ni : find_imp ref l = Some ni -> In ni l /\ ni_ref ni = ref.
Proof.
  induction l as [|i l IH]; cbn; [discriminate|].
  destruct (Nat.eqb (ni_ref i) ref) eqn:E.
  - intros H; inversion H; subst. split; [left; reflexivity|apply Nat.eqb_eq; exact E].
  - intros H. destruct (IH H). split; [right|]; assumption.
Qed.

Lemma import_of_In g t ni : import_of g t = Some ni -> In ni (m_imports (getm g (fst t))) /\ ni_ref ni = snd t.
Proof. unfold import_of. rewrite find_import_imp. apply find_imp_In. Qed.

Lemma find_export_In name l ref : find_export name l = Some ref -> In (name, ref) l.
Proof.
  induction l as [|[b r] l IH]; cbn; [discriminate|].
  destruct (b =? name) eqn:E; [|right; auto].
  intros H. inversion H; subst. apply Z.eqb_eq in E. subst. left. reflexivity.
Qed.

Lemma import_target_record m ni t : import_target m ni = Some t ->
  exists rc, nth_error (m_records m) (ni_record ni) = Some rc /\ r_target rc = Some t.
Proof. unfold import_target. destruct (nth_error (m_records m) (ni_record ni)) as [rc|]; [eauto|discriminate]. Qed.

Lemma entry_of_local m ref r : entry_of m ref = XLocal r -> r = ref.
Proof.
  unfold entry_of. destruct (find_imp ref (m_imports m)) as [ni|]; [|intros H; inversion H; reflexivity].
  destruct (nth_error (m_records m) (ni_record ni)) as [rc|]; [|discriminate].
  destruct (r_target rc); [|discriminate]. destruct (ni_is_star ni); discriminate.
Qed.

Lemma entry_of_not_import m ref : find_imp ref (m_imports m) = None -> entry_of m ref = XLocal ref.
Proof. intros H. unfold entry_of. rewrite H. reflexivity. Qed.

Lemma entry_of_import m ref ni t :
  find_imp ref (m_imports m) = Some ni -> import_target m ni = Some t ->
  entry_of m ref = if ni_is_star ni then XIndirectAll t else XIndirect t (ni_alias ni).
Proof.
  intros Hi Ht. destruct (import_target_record m ni t Ht) as [rc [Hrc Htr]].
  unfold entry_of. rewrite Hi, Hrc, Htr. reflexivity.
Qed.

Lemma plain_facts g o : plain_modules g = true ->
  m_lazy (getm g o) = false /\ m_is_ts (getm g o) = false /\
  (forall ni, In ni (m_imports (getm g o)) -> ni_generated ni = false) /\
  (forall ni, In ni (m_imports (getm g o)) -> exists t, import_target (getm g o) ni = Some t /\ (t < length g)%nat) /\
  (forall ni, In ni (m_imports (getm g o)) -> ni_ref ni <> m_exports_ref (getm g o)).
Proof.
  intros H. pose proof (getm_forallb _ g o H eq_refl) as Ho. cbn beta in Ho.
  repeat (apply andb_true_iff in Ho as [Ho ?]).
  repeat split.
  - destruct (m_lazy (getm g o)); [discriminate|reflexivity].
  - destruct (m_is_ts (getm g o)); [discriminate|reflexivity].
  - intros ni Hin. rewrite forallb_forall in H2. specialize (H2 ni Hin). destruct (ni_generated ni); [discriminate|reflexivity].
  - intros ni Hin. rewrite forallb_forall in H1. specialize (H1 ni Hin).
    destruct (import_target (getm g o) ni) as [t|]; [|discriminate]. exists t. split; [reflexivity|apply Nat.ltb_lt; exact H1].
  - intros ni Hin Heq. apply negb_true_iff in H0.
    assert (existsb (fun ni0 => Nat.eqb (ni_ref ni0) (m_exports_ref (getm g o))) (m_imports (getm g o)) = true).
    { apply existsb_exists. exists ni. split; [exact Hin|apply Nat.eqb_eq; exact Heq]. }
    congruence.
Qed.

Lemma named_kw g o ni t : named_targets_export g = true ->
  In ni (m_imports (getm g o)) -> ni_is_star ni = false -> import_target (getm g o) ni = Some t ->
  ni_alias ni = 0 \/ m_export_kw (getm g t) = true.
Proof.
  intros H Hin Hs Ht.
  pose proof (getm_forallb _ g o H eq_refl) as Ho. cbn beta in Ho.
  rewrite forallb_forall in Ho. specialize (Ho ni Hin). rewrite Hs in Ho. cbn [orb] in Ho.
  destruct (ni_alias ni =? 0) eqn:E; [left; lia|right].
  cbn [orb] in Ho. destruct (import_target_record _ ni t Ht) as [rc [Hrc Htr]].
  rewrite Hrc, Htr in Ho. exact Ho.
Qed.

Lemma is_import_exports_ref g u : plain_modules g = true -> is_import g (u, m_exports_ref (getm g u)) = false.
Proof.
  intros Hp. unfold is_import. destruct (import_of g (u, m_exports_ref (getm g u))) as [n2|] eqn:E; [|reflexivity].
  apply import_of_In in E as [Hin Hr]. destruct (plain_facts g u Hp) as [_ [_ [_ [_ Hx]]]].
  exfalso. exact (Hx n2 Hin Hr).
Qed.

Lemma import_target_lt g t ni o : plain_modules g = true ->
  import_of g t = Some ni -> import_target (getm g (fst t)) ni = Some o -> (o < length g)%nat.
Proof.
  intros Hp Hi Ht. destruct (import_of_In _ _ _ Hi) as [Hin _].
  destruct (plain_facts g (fst t) Hp) as [_ [_ [_ [Htg _]]]]. destruct (Htg ni Hin) as [o' [Ho' Hlt]].
  rewrite Ht in Ho'. inversion Ho'; subst o'. exact Hlt.
Qed.

Lemma advance_esm g kinds resolved t ni o :
  plain_modules g = true -> named_targets_export g = true -> kinds o = EESM ->
  import_of g t = Some ni -> import_target (getm g (fst t)) ni = Some o ->
  advance g kinds resolved t ni =
  if ni_is_star ni then IFound o (m_exports_ref (getm g o)) 0 [] else
  match ed_lookup (ni_alias ni) (resolved o) with
  | Some e => IFound (ed_src e) (ed_ref e) (ed_alias e + 1) (ed_ambs e)
  | None => INoMatch o
  end.
Proof.
  intros Hp Hn Hk Hi Ht. destruct (import_of_In _ _ _ Hi) as [Hin _].
  destruct (plain_facts g (fst t) Hp) as [_ [Hts _]].
  destruct (import_target_record _ ni o Ht) as [rc [Hrc Htr]].
  unfold advance, record_of. rewrite Hrc, Htr, Hk, Hts. cbn [ekind_eqb andb]. destruct (ni_is_star ni) eqn:Hs; [reflexivity|]. cbn [negb andb].
  replace (negb (m_lazy (getm g o)) && negb (m_export_kw (getm g o)) && negb (ni_alias ni =? 0)
           && negb (m_uses_exports (getm g o)) && negb (m_uses_module (getm g o))) with false; [reflexivity|].
  destruct (named_kw g _ _ _ Hn Hin Hs Ht) as [H0|H0]; rewrite H0; cbn; rewrite ?andb_false_r; reflexivity.
Qed.

(* one iteration on a namespace import: import * as ns / export * as ns *)
Lemma star_step g kinds resolved f t ni u cyc res X ev :
  plain_modules g = true -> named_targets_export g = true -> kinds u = EESM ->
  import_of g t = Some ni -> ni_is_star ni = true -> import_target (getm g (fst t)) ni = Some u ->
  existsb (pair_eqb t) cyc = false ->
  mloop g kinds resolved true (S f) t cyc res X ev
  = Some (finish (mkRes MNormal (-1) None u (m_exports_ref (getm g u)) 0) X ev).
Proof.
  intros Hp Hn Hk Hi Hs Ht Hc. cbn [mloop]. rewrite Hc, Hi, (advance_esm g kinds resolved t ni u Hp Hn Hk Hi Ht), Hs.
  cbn [fold_left]. rewrite (is_import_exports_ref g u Hp). reflexivity.
Qed.

(* the body of the loop over the potentially ambiguous refs inside matchImportWithExport *)
Definition amb_step (g : graph) (kinds : nat -> ekind) (resolved : nat -> list edata)
    (f : nat) (cyc' : list tracker) (loc : Z) (acc : option (list mres * list event)) (a : nat * nat)
  : option (list mres * list event) :=
  match acc with
  | None => None
  | Some (ambs, ev) =>
    if is_import g a then
      match mloop g kinds resolved true f a cyc' res0 [] ev with
      | None => None
      | Some (ar, ev') => Some (ambs ++ [ar], ev')
      end
    else Some (ambs ++ [mkRes MNormal (-1) None (fst a) (snd a) loc], ev)
  end.

Lemma named_step g kinds resolved f t ni o cyc res X ev :
  plain_modules g = true -> named_targets_export g = true -> kinds o = EESM ->
  import_of g t = Some ni -> ni_is_star ni = false -> import_target (getm g (fst t)) ni = Some o ->
  existsb (pair_eqb t) cyc = false ->
  mloop g kinds resolved true (S f) t cyc res X ev =
  match ed_lookup (ni_alias ni) (resolved o) with
  | None => Some (finish res X (ev ++ [(fst t, 3, ni_alias ni)]))
  | Some e =>
    match fold_left (amb_step g kinds resolved f (cyc ++ [t]) (ed_alias e + 1)) (ed_ambs e) (Some (X, ev)) with
    | None => None
    | Some (X', ev') =>
      let res' := mkRes MNormal (-1) None (ed_src e) (ed_ref e) (ed_alias e + 1) in
      if is_import g (ed_src e, ed_ref e)
      then mloop g kinds resolved true f (ed_src e, ed_ref e) (cyc ++ [t]) res' X' ev'
      else Some (finish res' X' ev')
    end
  end.
Proof.
  intros Hp Hn Hk Hi Hs Ht Hc. destruct (import_of_In _ _ _ Hi) as [Hin _].
  destruct (plain_facts g (fst t) Hp) as [_ [_ [Hgen _]]].
  cbn [mloop]. rewrite Hc, Hi, (advance_esm g kinds resolved t ni o Hp Hn Hk Hi Ht), Hs.
  destruct (ed_lookup (ni_alias ni) (resolved o)) as [e|]; [reflexivity|].
  rewrite (Hgen ni Hin). reflexivity.
Qed.

Lemma import_agree g kinds s ref ni r ev R :
  plain_modules g = true -> named_targets_export g = true -> (forall i, (i < length g)%nat -> kinds i = EESM) ->
  import_of g (s, ref) = Some ni ->
  match_import g kinds (resolved_of g kinds) true (s, ref) = Some (r, ev) ->
  spec_import g s ni = Some R ->
  (forall o rs', ni_is_star ni = false -> import_target (getm g s) ni = Some o ->
     spec_resolve (resolve_fuel g) g o (ni_alias ni) [] = Some (R, rs') ->
     mres_verdict r ev = resolution_verdict g R) ->
  mres_verdict r ev = resolution_verdict g R.
Proof.
  intros Hplain Hnamed Hkinds Hi Hm Hsp Hnamed_case.
  destruct (import_of_In _ _ _ Hi) as [Hin _]. cbn [fst] in Hin.
  destruct (plain_facts g s Hplain) as [_ [_ [_ [Htg _]]]]. destruct (Htg ni Hin) as [o [Ho Holt]].
  destruct (import_target_record _ ni o Ho) as [rc [Hrc Htr]].
  unfold spec_import in Hsp. rewrite Hrc, Htr in Hsp. destruct (ni_is_star ni) eqn:Es.
  - inversion Hsp; subst R. unfold match_import in Hm.
    rewrite (star_step g kinds _ _ (s, ref) ni o [] _ _ _ Hplain Hnamed (Hkinds o Holt) Hi Es Ho eq_refl) in Hm.
    inversion Hm; subst. reflexivity.
  - unfold spec_resolve_export in Hsp.
    destruct (spec_resolve (resolve_fuel g) g o (ni_alias ni) []) as [[R0 rs']|] eqn:E; [|discriminate].
    inversion Hsp; subst R0. eapply Hnamed_case; eauto.
Qed.

(* What the proofs know of the cycle detector: it holds trackers of named imports whose targets
   have rank at least [b].  The loop only moves to targets of smaller rank, so neither the next
   tracker nor a namespace import is ever found in it. *)
Definition cyc_ge (g : graph) (rk : list nat) (cyc : list tracker) (b : nat) : Prop :=
  forall c, In c cyc -> exists nc oc, import_of g c = Some nc /\ ni_is_star nc = false /\
    import_target (getm g (fst c)) nc = Some oc /\ (rank_of rk oc >= b)%nat.

Lemma cyc_ge_mono g rk cyc b b' : (b' <= b)%nat -> cyc_ge g rk cyc b -> cyc_ge g rk cyc b'.
Proof. intros Hb H c Hc. destruct (H c Hc) as [nc [oc [H1 [H2 [H3 H4]]]]]. exists nc, oc. repeat split; auto. lia. Qed.

Lemma cyc_ge_snoc g rk cyc t ni o :
  import_of g t = Some ni -> ni_is_star ni = false -> import_target (getm g (fst t)) ni = Some o ->
  cyc_ge g rk cyc (S (rank_of rk o)) -> cyc_ge g rk (cyc ++ [t]) (rank_of rk o).
Proof.
  intros Hi Hs Ht Hcyc c Hc. apply in_app_or in Hc as [Hc|[<-|[]]].
  - apply (cyc_ge_mono g rk cyc (S (rank_of rk o))); [lia|exact Hcyc|exact Hc].
  - exists ni, o. repeat split; auto.
Qed.

Lemma not_in_cyc g rk t ni o cyc :
  import_of g t = Some ni -> import_target (getm g (fst t)) ni = Some o -> cyc_ge g rk cyc (S (rank_of rk o)) ->
  existsb (pair_eqb t) cyc = false.
Proof.
  intros Hi Ht Hc. destruct (existsb (pair_eqb t) cyc) eqn:E; [|reflexivity]. apply existsb_pair in E.
  destruct (Hc t E) as [nc [oc [H1 [_ [H3 H4]]]]]. rewrite Hi in H1. inversion H1; subst nc.
  rewrite Ht in H3. inversion H3; subst. lia.
Qed.

Lemma star_not_in_cyc g rk t ni cyc b :
  import_of g t = Some ni -> ni_is_star ni = true -> cyc_ge g rk cyc b -> existsb (pair_eqb t) cyc = false.
Proof.
  intros Hi Hs Hc. destruct (existsb (pair_eqb t) cyc) eqn:E; [|reflexivity]. apply existsb_pair in E.
  destruct (Hc t E) as [nc [oc [H1 [H2 _]]]]. rewrite Hi in H1. inversion H1; subst nc. congruence.
Qed.

Definition bref (g : graph) (m : nat) (b : binding) : nat :=
  match b with BName r => r | BNamespace => m_exports_ref (getm g m) end.

Definition has_nomatch (ev : list event) : bool := existsb (fun e => snd (fst e) =? 3) ev.

Section Chain.
  Variable g : graph.
  Variable rk : list nat.
  Variable kinds : nat -> ekind.
  Hypothesis Hscope : chain_scope g rk = true.
  Hypothesis Hkinds : forall i, (i < length g)%nat -> kinds i = EESM.
  Let resolved := resolved_of g kinds.

  Lemma scope_parts :
    star_free g = true /\ plain_modules g = true /\ named_targets_export g = true /\ ranked_indirect g rk = true.
  Proof. unfold chain_scope in Hscope. repeat (apply andb_true_iff in Hscope as [Hscope ?]). auto. Qed.

  Lemma stars_nil o : m_stars (getm g o) = [].
  Proof.
    destruct scope_parts as [H _].
    pose proof (getm_forallb _ g o H eq_refl) as Ho. cbn beta in Ho. destruct (m_stars (getm g o)); [reflexivity|discriminate].
  Qed.

  Lemma exports_in_range o a ref : find_export a (m_exports (getm g o)) = Some ref -> (o < length g)%nat.
  Proof.
    intros H. destruct (Nat.lt_ge_cases o (length g)) as [Hl|Hg]; [exact Hl|].
    rewrite getm_out in H by exact Hg. discriminate.
  Qed.

  Lemma plain o :
    m_lazy (getm g o) = false /\ m_is_ts (getm g o) = false /\
    (forall ni, In ni (m_imports (getm g o)) -> ni_generated ni = false) /\
    (forall ni, In ni (m_imports (getm g o)) -> exists t, import_target (getm g o) ni = Some t /\ (t < length g)%nat) /\
    (forall ni, In ni (m_imports (getm g o)) -> ni_ref ni <> m_exports_ref (getm g o)).
  Proof. apply plain_facts, scope_parts. Qed.

  Lemma resolved_plain o :
    resolved o = map (fun p : Z * nat => mkEd (fst p) o (snd p) []) (m_exports (getm g o)).
  Proof.
    unfold resolved, resolved_of, resolved_exports. rewrite stars_nil. unfold resolved0.
    destruct (plain o) as [Hl _]. rewrite Hl. cbn [andb]. rewrite app_nil_r. reflexivity.
  Qed.

  Lemma indirect_rank o a ref ni2 u :
    find_export a (m_exports (getm g o)) = Some ref -> find_imp ref (m_imports (getm g o)) = Some ni2 ->
    ni_is_star ni2 = false -> import_target (getm g o) ni2 = Some u ->
    (rank_of rk u < rank_of rk o)%nat.
  Proof.
    intros Hf Hi Hs Ht. destruct scope_parts as [_ [_ [_ H]]].
    unfold ranked_indirect in H. rewrite forallb_forall in H.
    specialize (H o). rewrite in_seq in H. specialize (H (conj (Nat.le_0_l o) (exports_in_range _ _ _ Hf))).
    rewrite forallb_forall in H. apply Nat.ltb_lt. apply H.
    unfold indirect_edges. apply in_flat_map.
    exists (a, ref). split; [apply find_export_In; exact Hf|]. cbn [snd]. rewrite Hi, Hs, Ht. left. reflexivity.
  Qed.

  Definition concl (res : mres) (ev : list event) (r : mres) (ev' : list event) (R : resolution) : Prop :=
    match R with
    | RNull => (mr_kind r = MNormal \/ r = res) /\ has_nomatch ev' = true
    | RBinding m b => (exists L, r = mkRes MNormal (-1) None m (bref g m b) L) /\ ev' = ev
    | RAmbiguous => False
    end.

  (* [cyc_ge g rk cyc (S (rank_of rk o))], written out *)
  Definition cyc_ok (cyc : list tracker) (o : nat) : Prop :=
    forall c, In c cyc -> exists nc oc, import_of g c = Some nc /\ ni_is_star nc = false /\
      import_target (getm g (fst c)) nc = Some oc /\ (rank_of rk oc > rank_of rk o)%nat.

  Lemma chain f1 : forall t ni o cyc res ev r ev' f2 rs R rs',
    import_of g t = Some ni -> ni_is_star ni = false -> import_target (getm g (fst t)) ni = Some o ->
    cyc_ok cyc o ->
    mloop g kinds resolved true f1 t cyc res [] ev = Some (r, ev') ->
    (forall p, In p rs -> (rank_of rk (fst p) > rank_of rk o)%nat) ->
    spec_resolve f2 g o (ni_alias ni) rs = Some (R, rs') ->
    concl res ev r ev' R.
  Proof.
    induction f1 as [|f1 IH]; intros t ni o cyc res ev r ev' f2 rs R rs' Hi Hs Ht Hcyc Hm Hrs Hsp; [discriminate|].
    destruct f2 as [|f2]; [discriminate|].
    (* the cycle detector does not fire, now or on a namespace import one step further *)
    pose proof (not_in_cyc g rk t ni o cyc Hi Ht Hcyc) as Hc.
    pose proof (cyc_ge_snoc g rk cyc t ni o Hi Hs Ht Hcyc) as Hcyc'.
    (* the resolve set does not fire *)
    assert (Hr : rs_mem o (ni_alias ni) rs = false).
    { destruct (rs_mem o (ni_alias ni) rs) eqn:E; [|reflexivity]. unfold rs_mem in E.
      apply existsb_exists in E as [p [Hp He]]. apply andb_true_iff in He as [He _]. apply Nat.eqb_eq in He.
      specialize (Hrs p Hp). rewrite <- He in Hrs. lia. }
    destruct scope_parts as [_ [Hplain [Hnamed _]]].
    pose proof (import_target_lt g t ni o Hplain Hi Ht) as Holt.
    rewrite (named_step g kinds resolved f1 t ni o cyc res [] ev Hplain Hnamed (Hkinds o Holt) Hi Hs Ht Hc) in Hm.
    cbn [spec_resolve] in Hsp. rewrite Hr in Hsp.
    rewrite resolved_plain, lookup_map_exports in Hm.
    destruct (find_export (ni_alias ni) (m_exports (getm g o))) as [ref'|] eqn:Ef; cbn [option_map] in Hm.
    - (* the imported file exports the name *)
      cbn [ed_src ed_ref ed_alias ed_ambs fold_left] in Hm.
      unfold is_import, import_of in Hm. cbn [fst snd] in Hm. rewrite find_import_imp in Hm.
      destruct (find_imp ref' (m_imports (getm g o))) as [ni2|] eqn:E2.
      + (* an indirect export *)
        assert (Hi2 : import_of g (o, ref') = Some ni2).
        { unfold import_of. cbn [fst snd]. rewrite find_import_imp. exact E2. }
        destruct (find_imp_In _ _ _ E2) as [Hin2 _].
        destruct (plain o) as [_ [_ [_ [Htg _]]]]. destruct (Htg ni2 Hin2) as [u [Hu Hult]].
        rewrite (entry_of_import _ _ _ _ E2 Hu) in Hsp.
        destruct (ni_is_star ni2) eqn:Es2.
        * (* export * as ns *)
          inversion Hsp; subst R rs'. destruct f1 as [|f1']; [discriminate|].
          rewrite (star_step g kinds resolved f1' (o, ref') ni2 u _ _ _ _ Hplain Hnamed (Hkinds u Hult) Hi2 Es2 Hu
                     (star_not_in_cyc g rk (o, ref') ni2 _ _ Hi2 Es2 Hcyc')) in Hm.
          inversion Hm; subst. split; [eexists; reflexivity|reflexivity].
        * (* export {n as a} from u *)
          assert (Hrank : (rank_of rk u < rank_of rk o)%nat).
          { eapply indirect_rank; eauto. }
          assert (Hconcl : concl (mkRes MNormal (-1) None o ref' (ni_alias ni + 1)) ev r ev' R).
          { eapply (IH (o, ref') ni2 u (cyc ++ [t])); eauto.
            - apply (cyc_ge_mono g rk _ (rank_of rk o)); [lia|exact Hcyc'].
            - intros p Hp. apply in_app_or in Hp as [Hp|[<-|[]]]; [specialize (Hrs p Hp); lia|cbn [fst]; lia]. }
          destruct R as [| |m b]; cbn [concl] in *.
          -- destruct Hconcl as [[Hk|Hk] He]; (split; [left|exact He]); [exact Hk|rewrite Hk; reflexivity].
          -- exact Hconcl.
          -- exact Hconcl.
      + (* a local binding *)
        rewrite (entry_of_not_import _ _ E2) in Hsp. inversion Hsp; subst R rs'. unfold finish in Hm. cbn [existsb] in Hm. inversion Hm; subst.
        split; [eexists; reflexivity|reflexivity].
    - (* no export of that name *)
      unfold finish in Hm. cbn [existsb] in Hm. inversion Hm; subst r ev'.
      assert (HR : R = RNull).
      { destruct (ni_alias ni =? 0); [inversion Hsp; reflexivity|].
        unfold star_targets in Hsp. rewrite stars_nil in Hsp. cbn [flat_map] in Hsp. inversion Hsp; reflexivity. }
      subst R. split; [right; reflexivity|].
      unfold has_nomatch. rewrite existsb_app. cbn. rewrite orb_true_r. reflexivity.
  Qed.

  Lemma starfree_agree s ref ni r ev R :
    import_of g (s, ref) = Some ni ->
    match_import g kinds resolved true (s, ref) = Some (r, ev) ->
    spec_import g s ni = Some R ->
    mres_verdict r ev = resolution_verdict g R.
  Proof.
    intros Hi Hm Hsp. destruct scope_parts as [_ [Hplain [Hnamed _]]].
    apply (import_agree g kinds s ref ni r ev R Hplain Hnamed Hkinds Hi Hm Hsp). intros o rs' Es Ho E.
    assert (Hc : concl res0 [] r ev R).
    { eapply (chain _ (s, ref) ni o []); eauto.
      - intros c [].
      - intros p []. }
    destruct R as [| |m b]; cbn [concl] in Hc.
    - destruct Hc as [[Hk|Hk] He]; unfold mres_verdict, has_nomatch in *.
      + rewrite Hk, He. reflexivity.
      + subst r. cbn [mr_kind res0]. rewrite He. reflexivity.
    - contradiction.
    - destruct Hc as [[L ->] ->]. unfold mres_verdict. cbn. destruct b; reflexivity.
  Qed.
End Chain.
