(* The percent-escaped data URL body written by
   EncodeStringAsPercentEscapedDataURL decodes, under the WHATWG processing
   (opaque-path percent-encoding followed by percent-decoding), to the text. *)
From V Require Import Common.Base C02.DataUrl C02.SpecDataUrl.

Definition byte_ok (b : Z) : Prop := 0 <= b < 256.

Lemma hex_same d : spec_hex d = hex_digit d.
Proof. reflexivity. Qed.

Lemma hex_val_digit d : 0 <= d < 16 -> hex_val (hex_digit d) = Some d.
Proof.
  intros H.
  assert (E : d = 0 \/ d = 1 \/ d = 2 \/ d = 3 \/ d = 4 \/ d = 5 \/ d = 6 \/ d = 7 \/ d = 8 \/ d = 9 \/
              d = 10 \/ d = 11 \/ d = 12 \/ d = 13 \/ d = 14 \/ d = 15) by lia.
  repeat (destruct E as [->|E]; [reflexivity|]). subst. reflexivity.
Qed.

Lemma hex_digit_not_pct d : 0 <= d < 16 -> hex_digit d <> 37 /\ 32 <= hex_digit d <= 126.
Proof. intros H. unfold hex_digit. destruct (d <? 10) eqn:E; lia. Qed.

Lemma nibbles c : byte_ok c -> 0 <= c / 16 < 16 /\ 0 <= c mod 16 < 16.
Proof. unfold byte_ok. lia. Qed.

Lemma Forall_skipn {A} (P : A -> Prop) l : Forall P l -> forall n, Forall P (skipn n l).
Proof. induction 1; intros [|n]; cbn; auto. Qed.

Lemma Forall_firstn {A} (P : A -> Prop) l : Forall P l -> forall n, Forall P (firstn n l).
Proof. induction 1; intros [|n]; cbn; auto. Qed.

Definition hex2 (X : bytes) : bool :=
  match X with h1 :: h2 :: _ => is_hex h1 && is_hex h2 | _ => false end.

Lemma is_hex_val c : is_hex c = true <-> exists v, hex_val c = Some v.
Proof.
  unfold is_hex, hex_val.
  destruct ((48 <=? c) && (c <=? 57)) eqn:A; [split; [eauto|reflexivity]|].
  destruct ((65 <=? c) && (c <=? 70)) eqn:B.
  - rewrite orb_true_r. split; [eauto|reflexivity].
  - destruct ((97 <=? c) && (c <=? 102)) eqn:C; cbn.
    + split; [eauto|reflexivity].
    + split; [discriminate|intros [v Hv]; discriminate].
Qed.

Lemma decode_escape c X : byte_ok c -> percent_decode (escape c ++ X) = c :: percent_decode X.
Proof.
  intros H. destruct (nibbles c H). unfold escape. cbn [app percent_decode]. rewrite Z.eqb_refl.
  rewrite !hex_val_digit by assumption. f_equal. unfold byte_ok in H. lia.
Qed.

Lemma decode_plain c X : c <> 37 -> percent_decode (c :: X) = c :: percent_decode X.
Proof. intros H. cbn [percent_decode]. destruct (c =? 37) eqn:E; [lia|reflexivity]. Qed.

Lemma decode_pct_literal X : hex2 X = false -> percent_decode (37 :: X) = 37 :: percent_decode X.
Proof.
  intros H. cbn [percent_decode]. replace (37 =? 37) with true by reflexivity.
  destruct X as [|h1 [|h2 r]]; try reflexivity.
  cbn [hex2] in H.
  destruct (hex_val h1) as [a|] eqn:E1; [|reflexivity].
  destruct (hex_val h2) as [b|] eqn:E2; [|reflexivity].
  assert (is_hex h1 = true) by (apply is_hex_val; eauto).
  assert (is_hex h2 = true) by (apply is_hex_val; eauto).
  rewrite H0, H1 in H. discriminate.
Qed.

Lemma c0_escape c o : byte_ok c -> c0_encode (escape c ++ o) = escape c ++ c0_encode o.
Proof.
  intros H. destruct (nibbles c H) as [Hd Hm]. unfold escape, c0_encode. cbn [app flat_map].
  destruct (hex_digit_not_pct _ Hd) as [_ A]. destruct (hex_digit_not_pct _ Hm) as [_ B].
  replace ((hex_digit (c / 16) <? 32) || (126 <? hex_digit (c / 16))) with false by lia.
  replace ((hex_digit (c mod 16) <? 32) || (126 <? hex_digit (c mod 16))) with false by lia.
  reflexivity.
Qed.

Lemma c0_cons c o :
  c0_encode (c :: o) = (if (c <? 32) || (126 <? c) then escape c else [c]) ++ c0_encode o.
Proof. unfold c0_encode, escape. cbn [flat_map]. destruct ((c <? 32) || (126 <? c)); reflexivity. Qed.

Lemma c0_high m o : Forall (fun b => 128 <= b) m -> c0_encode (m ++ o) = flat_map escape m ++ c0_encode o.
Proof.
  induction m as [|b m IH]; intros H; [reflexivity|].
  inversion H; subst. cbn [app flat_map]. rewrite c0_cons, IH by assumption.
  replace ((b <? 32) || (126 <? b)) with true by lia. rewrite app_assoc. reflexivity.
Qed.

Lemma decode_escaped_run m X : Forall byte_ok m -> percent_decode (flat_map escape m ++ X) = m ++ percent_decode X.
Proof.
  induction m as [|b m IH]; intros H; [reflexivity|].
  inversion H; subst. cbn [flat_map]. rewrite <- app_assoc, decode_escape, IH by assumption. reflexivity.
Qed.

Lemma drw_cases c rest w :
  decode_rune_width (c :: rest) = Some w ->
  (w = 1%nat /\ c < 128) \/
  ((2 <= w)%nat /\ (w <= length (c :: rest))%nat /\ Forall (fun b => 128 <= b) (firstn w (c :: rest))).
Proof.
  unfold decode_rune_width, is_cont.
  destruct (c <? 128) eqn:E0; [intros H; inversion H; left; split; [reflexivity|lia]|].
  destruct ((194 <=? c) && (c <=? 223)) eqn:E1.
  { destruct rest as [|b1 r]; [discriminate|].
    destruct ((128 <=? b1) && (b1 <=? 191)) eqn:C1; [|discriminate].
    intros H; inversion H; subst. right. split; [lia|]. split; [cbn; lia|].
    cbn [firstn]. repeat constructor; lia. }
  destruct ((224 <=? c) && (c <=? 239)) eqn:E2.
  { destruct rest as [|b1 [|b2 r]]; try discriminate.
    destruct (((if c =? 224 then 160 else 128) <=? b1) && (b1 <=? (if c =? 237 then 159 else 191)) &&
              ((128 <=? b2) && (b2 <=? 191))) eqn:C; [|discriminate].
    intros H; inversion H; subst. right. split; [lia|]. split; [cbn; lia|].
    cbn [firstn]. destruct (c =? 224), (c =? 237); repeat constructor; lia. }
  destruct ((240 <=? c) && (c <=? 244)) eqn:E3; [|discriminate].
  destruct rest as [|b1 [|b2 [|b3 r]]]; try discriminate.
  destruct (((if c =? 240 then 144 else 128) <=? b1) && (b1 <=? (if c =? 244 then 143 else 191)) &&
            ((128 <=? b2) && (b2 <=? 191)) && ((128 <=? b3) && (b3 <=? 191))) eqn:C; [|discriminate].
  intros H; inversion H; subst. right. split; [lia|]. split; [cbn; lia|].
  cbn [firstn]. destruct (c =? 240), (c =? 244); repeat constructor; lia.
Qed.

(* one step of the encoder loop *)
Lemma pbody_step fuel c rest i n ts out :
  pbody (S fuel) (c :: rest) i n ts = Some out ->
  exists w out', pbody fuel (skipn w (c :: rest)) (i + Z.of_nat w) n ts = Some out' /\
    ((w = 1%nat /\ c < 128 /\ out = if must_escape c rest i n ts then escape c ++ out' else c :: out') \/
     ((2 <= w)%nat /\ (w <= length (c :: rest))%nat /\ Forall (fun b => 128 <= b) (firstn w (c :: rest)) /\
      out = firstn w (c :: rest) ++ out')).
Proof.
  cbn [pbody]. destruct (decode_rune_width (c :: rest)) as [w|] eqn:Ew; [|discriminate].
  destruct (pbody fuel (skipn w (c :: rest)) (i + Z.of_nat w) n ts) as [out'|] eqn:Er; [|discriminate].
  intros H. exists w, out'. split; [exact Er|].
  destruct (drw_cases _ _ _ Ew) as [[-> Hc]|[Hw [Hl Hf]]].
  - cbn [Nat.eqb andb] in H. left. destruct (must_escape c rest i n ts); inversion H; auto.
  - destruct w as [|[|w]]; try lia. cbn [Nat.eqb andb] in H.
    destruct (ts <=? i); [discriminate|]. inversion H; subst. right. auto.
Qed.

(* Induction over a successful run of the encoder loop.  The text is consumed one valid rune at a
   time: an ASCII byte is escaped or copied, a wider rune (all its bytes above 127) is copied. *)
Lemma pbody_run_ind n ts (P : bytes -> Z -> bytes -> Prop) :
  (forall i, P [] i []) ->
  (forall f c rest i out', c < 128 -> pbody f rest (i + 1) n ts = Some out' -> P rest (i + 1) out' ->
     P (c :: rest) i (if must_escape c rest i n ts then escape c ++ out' else c :: out')) ->
  (forall w c rest i out', (2 <= w)%nat -> (w <= length (c :: rest))%nat ->
     Forall (fun b => 128 <= b) (firstn w (c :: rest)) ->
     P (skipn w (c :: rest)) (i + Z.of_nat w) out' -> P (c :: rest) i (firstn w (c :: rest) ++ out')) ->
  forall fuel l i out, pbody fuel l i n ts = Some out -> P l i out.
Proof.
  intros Hnil Hone Hwide. induction fuel as [|f IH]; intros l i out H; [discriminate|].
  destruct l as [|c rest]; [cbn in H; inversion H; apply Hnil|].
  destruct (pbody_step _ _ _ _ _ _ _ H) as [w [out' [Hr Hcase]]].
  destruct Hcase as [[-> [Hlt ->]]|[Hw [Hl [Hf ->]]]].
  - exact (Hone f c rest i out' Hlt Hr (IH _ _ _ Hr)).
  - apply Hwide; auto.
Qed.

Lemma head_raw fuel l i n ts out h T :
  pbody fuel l i n ts = Some out -> Forall byte_ok l -> c0_encode out = h :: T -> h <> 37 ->
  exists f rest out', l = h :: rest /\ pbody f rest (i + 1) n ts = Some out' /\ T = c0_encode out'.
Proof.
  intros H Hok Hh Hne.
  destruct fuel as [|f]; [discriminate|].
  destruct l as [|c rest]; [cbn in H; inversion H; subst; discriminate|].
  pose proof (Forall_inv Hok) as Hc.
  destruct (pbody_step _ _ _ _ _ _ _ H) as [w [out' [Hr Hcase]]].
  destruct Hcase as [[-> [Hlt ->]]|[Hw [Hl [Hf ->]]]].
  - destruct (must_escape c rest i n ts).
    + rewrite c0_escape in Hh by assumption. inversion Hh. congruence.
    + rewrite c0_cons in Hh. destruct ((c <? 32) || (126 <? c)); inversion Hh; [congruence|].
      exists f, rest, out'. auto.
  - destruct w as [|w]; [lia|]. cbn [firstn] in Hh, Hf. inversion Hf; subst.
    cbn [app] in Hh. rewrite c0_cons in Hh. replace ((c <? 32) || (126 <? c)) with true in Hh by lia.
    inversion Hh. congruence.
Qed.

(* if the re-encoded output starts with two hex digits, they are two raw text bytes *)
Lemma head_hex fuel l i n ts out :
  pbody fuel l i n ts = Some out -> Forall byte_ok l ->
  hex2 (c0_encode out) = true ->
  (2 <= length l)%nat /\ is_hex (nth 0 l 0) = true /\ is_hex (nth 1 l 0) = true.
Proof.
  intros H Hok Hh.
  destruct (c0_encode out) as [|h1 [|h2 T]] eqn:E; try discriminate.
  cbn [hex2] in Hh. apply andb_true_iff in Hh as [H1 H2].
  destruct (head_raw _ _ _ _ _ _ _ _ H Hok E) as [f [rest [out' [-> [Hr ET]]]]]; [intros ->; discriminate|].
  destruct (head_raw _ _ _ _ _ _ _ _ Hr (Forall_inv_tail Hok) (eq_sym ET)) as [f2 [rest2 [out2 [-> _]]]]; [intros ->; discriminate|].
  split; [cbn; lia|]. split; assumption.
Qed.

Lemma body_decode fuel l i n ts out :
  pbody fuel l i n ts = Some out -> i + Z.of_nat (length l) = n -> Forall byte_ok l ->
  percent_decode (c0_encode out) = l.
Proof.
  revert fuel l i out.
  apply (pbody_run_ind n ts (fun l i out =>
           i + Z.of_nat (length l) = n -> Forall byte_ok l -> percent_decode (c0_encode out) = l)).
  - reflexivity.
  - intros f c rest i out' Hlt Hr IH Hn Hok.
    pose proof (Forall_inv Hok) as Hc. pose proof (Forall_inv_tail Hok) as Hrest.
    assert (Hrec : percent_decode (c0_encode out') = rest) by (apply IH; [cbn [length] in Hn; lia|exact Hrest]).
    destruct (must_escape c rest i n ts) eqn:Hm.
    + rewrite c0_escape, decode_escape by assumption. f_equal. exact Hrec.
    + rewrite c0_cons. destruct ((c <? 32) || (126 <? c)) eqn:Er.
      * rewrite decode_escape by assumption. f_equal. exact Hrec.
      * cbn [app]. destruct (Z.eq_dec c 37) as [->|Hne].
        -- (* a literal '%' stays only when no two hex digits follow it *)
           rewrite decode_pct_literal; [f_equal; exact Hrec|].
           destruct (hex2 (c0_encode out')) eqn:Eh; [|reflexivity]. exfalso.
           destruct (head_hex _ _ _ _ _ _ Hr Hrest Eh) as [Hlen [Ha Hb]].
           unfold must_escape in Hm. rewrite Ha, Hb in Hm. cbn [length] in Hn.
           assert (Hlt2 : (i + 2 <? n) = true) by lia.
           rewrite Hlt2, Z.eqb_refl in Hm. cbn [andb] in Hm. rewrite orb_true_r in Hm. discriminate.
        -- rewrite decode_plain by assumption. f_equal. exact Hrec.
  - intros w c rest i out' Hw Hl Hf IH Hn Hok.
    rewrite c0_high by assumption. rewrite decode_escaped_run by (apply Forall_firstn; exact Hok).
    rewrite IH; [apply firstn_skipn|rewrite skipn_length; lia|apply Forall_skipn; exact Hok].
Qed.

(* the escaped body, once the URL parser has percent-encoded what it must and
   the data: URL processor has percent-decoded, is the text: every byte string
   the encoder accepts *)
Lemma percent_body_roundtrip text body :
  Forall byte_ok text -> percent_body text = Some body -> percent_decode (c0_encode body) = text.
Proof.
  intros Hok H. unfold percent_body in H. eapply body_decode; eauto.
Qed.

(* a byte the URL parser neither removes (tab, newline) nor takes for the start of the fragment *)
Definition clean (b : Z) : Prop := b <> 9 /\ b <> 10 /\ b <> 13 /\ b <> 35.

Lemma hex_digit_clean d : 0 <= d < 16 -> clean (hex_digit d) /\ 32 < hex_digit d.
Proof. intros H. unfold clean, hex_digit. destruct (d <? 10) eqn:E; lia. Qed.

Lemma body_clean fuel l i n ts out : pbody fuel l i n ts = Some out -> Forall byte_ok l -> Forall clean out.
Proof.
  revert fuel l i out. apply (pbody_run_ind n ts (fun l _ out => Forall byte_ok l -> Forall clean out)).
  - constructor.
  - intros f c rest i out' Hlt _ IH Hok.
    pose proof (Forall_inv Hok) as Hc. specialize (IH (Forall_inv_tail Hok)).
    destruct (must_escape c rest i n ts) eqn:Hm.
    + destruct (nibbles c Hc) as [Hhi Hlo]. unfold escape. cbn [app].
      constructor; [unfold clean; lia|]. constructor; [apply hex_digit_clean; exact Hhi|].
      constructor; [apply hex_digit_clean; exact Hlo|exact IH].
    + constructor; [|exact IH]. unfold must_escape in Hm. unfold clean.
      repeat (apply orb_false_iff in Hm as [Hm ?]). lia.
  - intros w c rest i out' _ _ Hf IH Hok. apply Forall_app. split; [|apply IH, Forall_skipn, Hok].
    eapply Forall_impl; [|exact Hf]. intros b Hb. unfold clean. cbn in Hb. lia.
Qed.

Lemma trailing_len_nonneg l : 0 <= trailing_len l.
Proof. induction l as [|c r IH]; cbn [trailing_len]; [lia|]. destruct ((32 <? c) || (c =? 9) || (c =? 10) || (c =? 13)); lia. Qed.

Lemma last_char_raw pre c :
  must_escape c [] (Z.of_nat (length pre)) (Z.of_nat (length (pre ++ [c]))) (trailing_start (pre ++ [c])) = false ->
  32 < c.
Proof.
  unfold must_escape, trailing_start. rewrite rev_app_distr. cbn [rev app trailing_len].
  rewrite app_length. cbn [length]. intros H.
  repeat (apply orb_false_iff in H as [H ?]).
  pose proof (trailing_len_nonneg (rev pre)).
  destruct ((32 <? c) || (c =? 9) || (c =? 10) || (c =? 13)) eqn:E; [|lia].
  lia.
Qed.

Lemma last_app_nonempty {A} (a b : list A) d : b <> [] -> last (a ++ b) d = last b d.
Proof.
  intros Hb. induction a as [|x a IH]; [reflexivity|].
  cbn [app]. assert (Hne : a ++ b <> []) by (destruct a; [exact Hb|discriminate]).
  rewrite <- IH. destruct (a ++ b); [contradiction|reflexivity].
Qed.

Lemma pbody_nonempty fuel c rest i n ts out : pbody fuel (c :: rest) i n ts = Some out -> out <> [].
Proof.
  destruct fuel; [discriminate|]. intros H.
  destruct (pbody_step _ _ _ _ _ _ _ H) as [w [out' [Hr Hcase]]].
  destruct Hcase as [[-> [Hlt ->]]|[Hw [Hl [Hf ->]]]].
  - destruct (must_escape c rest i n ts); discriminate.
  - destruct w; [lia|]. discriminate.
Qed.

(* [pre] is the part of the text already consumed *)
Lemma body_last text fuel l i out :
  pbody fuel l i (Z.of_nat (length text)) (trailing_start text) = Some out ->
  forall pre, pre ++ l = text -> i = Z.of_nat (length pre) -> Forall byte_ok l -> out <> [] -> 32 < last out 0.
Proof.
  revert fuel l i out.
  apply (pbody_run_ind _ _ (fun l i out => forall pre, pre ++ l = text -> i = Z.of_nat (length pre) ->
                                            Forall byte_ok l -> out <> [] -> 32 < last out 0)).
  - intros i pre _ _ _ Hne. contradiction.
  - intros f c rest i out' Hlt Hr IH pre Hpre Hi Hok _.
    pose proof (Forall_inv Hok) as Hc.
    assert (Hrec : out' <> [] -> 32 < last out' 0).
    { apply (IH (pre ++ [c])); [rewrite <- app_assoc; exact Hpre| |exact (Forall_inv_tail Hok)].
      rewrite app_length. cbn [length]. lia. }
    destruct (must_escape c rest i _ _) eqn:Hm.
    + destruct out' as [|o out'].
      * unfold escape. cbn. apply hex_digit_clean, nibbles, Hc.
      * rewrite last_app_nonempty by discriminate. apply Hrec. discriminate.
    + destruct out' as [|o out'].
      * destruct rest as [|c2 rest2]; [|exfalso; eapply pbody_nonempty; eauto].
        cbn [last]. subst text i. eapply last_char_raw. exact Hm.
      * change (c :: o :: out') with ([c] ++ o :: out'). rewrite last_app_nonempty by discriminate.
        apply Hrec. discriminate.
  - intros w c rest i out' Hw Hl Hf IH pre Hpre Hi Hok _.
    destruct out' as [|o out'].
    + rewrite app_nil_r.
      assert (Hne2 : firstn w (c :: rest) <> []) by (destruct w; [lia|discriminate]).
      destruct (exists_last Hne2) as [l' [x Hx]]. rewrite Hx in *.
      rewrite last_last. apply Forall_app in Hf as [_ Hf]. inversion Hf; subst. lia.
    + rewrite last_app_nonempty by discriminate.
      apply (IH (pre ++ firstn w (c :: rest))); [rewrite <- app_assoc, firstn_skipn; exact Hpre|
                                                 |apply Forall_skipn; exact Hok|discriminate].
      rewrite app_length, firstn_length. lia.
Qed.

Definition mime_ok (mime : bytes) : Prop :=
  Forall (fun b => 32 < b <= 126 /\ b <> 44 /\ b <> 35 /\ b <> 37) mime /\ ends_with_base64 mime = None.

(* a character of the part before the comma that the URL parser leaves alone *)
Definition head_ok (b : Z) : Prop := 32 < b <= 126 /\ b <> 44 /\ b <> 35 /\ b <> 37.

Lemma drop_leading_id l : 32 < hd 0 l -> drop_leading l = l.
Proof.
  destruct l as [|c l]; [reflexivity|]. cbn. intros H. unfold c0_or_space.
  replace (c <=? 32) with false by lia. reflexivity.
Qed.

Lemma strip_id l : 32 < hd 0 l -> 32 < last l 0 -> strip_c0_space l = l.
Proof.
  intros Hh Hl. unfold strip_c0_space. rewrite (drop_leading_id l Hh).
  rewrite drop_leading_id; [apply rev_involutive|].
  destruct l as [|c l]; [cbn in Hh; lia|].
  destruct (@exists_last _ (c :: l) ltac:(discriminate)) as [m [x E]]. rewrite E in *.
  rewrite last_last in Hl. rewrite rev_app_distr. exact Hl.
Qed.

Lemma filter_id {A} (f : A -> bool) l : Forall (fun x => f x = true) l -> filter f l = l.
Proof. induction 1 as [|x l Hx Hl IH]; cbn; [reflexivity|]. rewrite Hx, IH. reflexivity. Qed.

Lemma cut_fragment_id l : Forall clean l -> cut_fragment l = l.
Proof.
  induction 1 as [|x l Hx Hl IH]; cbn; [reflexivity|]. unfold clean in Hx.
  replace (x =? 35) with false by lia. rewrite IH. reflexivity.
Qed.

Lemma c0_encode_app a b : c0_encode (a ++ b) = c0_encode a ++ c0_encode b.
Proof. unfold c0_encode. apply flat_map_app. Qed.

Lemma c0_encode_printable l : Forall (fun b => 32 <= b <= 126) l -> c0_encode l = l.
Proof.
  induction 1 as [|x l Hx Hl IH]; [reflexivity|].
  rewrite c0_cons, IH. replace ((x <? 32) || (126 <? x)) with false by lia. reflexivity.
Qed.

Lemma split_comma_app a b : Forall (fun x => x <> 44) a -> split_comma (a ++ 44 :: b) = Some (a, b).
Proof.
  induction 1 as [|x a Hx Ha IH]; cbn.
  - reflexivity.
  - replace (x =? 44) with false by lia. rewrite IH. reflexivity.
Qed.

Lemma data_url_parse head body :
  Forall head_ok head -> Forall clean body -> (body <> [] -> 32 < last body 0) ->
  whatwg_data_url_body (data_prefix ++ head ++ [44] ++ body) =
  match ends_with_base64 head with
  | Some m => Some (m, true, percent_decode (c0_encode body))
  | None => Some (head, false, percent_decode (c0_encode body))
  end.
Proof.
  intros Hh Hb Hlast. unfold whatwg_data_url_body. change ([44] ++ body) with (44 :: body).
  assert (Hrest : Forall clean (head ++ 44 :: body)).
  { apply Forall_app. split; [|constructor; [unfold clean; lia|exact Hb]].
    eapply Forall_impl; [|exact Hh]. unfold head_ok, clean. intros b Hbb. lia. }
  rewrite strip_id.
  2:{ cbn. lia. }
  2:{ rewrite (app_assoc data_prefix), last_app_nonempty by discriminate.
      destruct body; [cbn; lia|apply Hlast; discriminate]. }
  unfold remove_tab_newline. rewrite filter_id.
  2:{ apply Forall_app. split; [repeat constructor|].
      eapply Forall_impl; [|exact Hrest]. unfold clean, tab_or_newline. intros b Hbb. lia. }
  unfold data_prefix. cbn [app starts_with]. rewrite !Z.eqb_refl.
  rewrite (cut_fragment_id _ Hrest), c0_encode_app, c0_encode_printable.
  2:{ eapply Forall_impl; [|exact Hh]. unfold head_ok. intros b Hbb. lia. }
  rewrite c0_cons. change ((44 <? 32) || (126 <? 44)) with false. cbn [app].
  rewrite split_comma_app; [reflexivity|].
  eapply Forall_impl; [|exact Hh]. unfold head_ok. intros b Hbb. lia.
Qed.

Lemma percent_roundtrip_all mime text url :
  mime_ok mime -> Forall byte_ok text -> encode_percent mime text = Some url ->
  whatwg_data_url_body url = Some (mime, false, text).
Proof.
  intros [Hm Hb64] Hok He. unfold encode_percent in He.
  destruct (percent_body text) as [body|] eqn:Eb; [|discriminate].
  replace url with (data_prefix ++ mime ++ [44] ++ body) by congruence.
  rewrite data_url_parse, Hb64, (percent_body_roundtrip _ _ Hok Eb); [reflexivity|exact Hm| |].
  - exact (body_clean _ _ _ _ _ _ Eb Hok).
  - exact (body_last text _ text 0 body Eb [] eq_refl eq_refl Hok).
Qed.

(* the base64 branch of EncodeStringAsShortestDataURL; the codec itself is trusted *)
Definition b64_char (c : Z) : Prop :=
  (65 <= c <= 90) \/ (97 <= c <= 122) \/ (48 <= c <= 57) \/ c = 43 \/ c = 47 \/ c = 61.

Lemma percent_decode_no_pct l : Forall (fun c => c <> 37) l -> percent_decode l = l.
Proof.
  induction 1 as [|c l Hc Hl IH]; [reflexivity|]. cbn [percent_decode].
  replace (c =? 37) with false by lia. rewrite IH. reflexivity.
Qed.

Lemma starts_with_app p l : starts_with p (p ++ l) = Some l.
Proof. induction p as [|a p IH]; cbn; [reflexivity|]. rewrite Z.eqb_refl. exact IH. Qed.

Lemma ends_with_base64_app mime : ends_with_base64 (mime ++ base64_suffix) = Some mime.
Proof.
  unfold ends_with_base64. rewrite rev_app_distr, starts_with_app, rev_involutive. reflexivity.
Qed.

Section Base64.
  Variable b64enc : bytes -> bytes.
  Variable b64dec : bytes -> option bytes.
  Hypothesis b64_roundtrip : forall t, Forall byte_ok t -> b64dec (b64enc t) = Some t.
  Hypothesis b64_alphabet : forall t, Forall byte_ok t -> Forall b64_char (b64enc t).

  (* the bytes a data: URL denotes *)
  Definition data_url_value (url : bytes) : option bytes :=
    match whatwg_data_url_body url with
    | Some (_, true, body) => b64dec body
    | Some (_, false, body) => Some body
    | None => None
    end.

  Lemma base64_url_value mime text :
    mime_ok mime -> Forall byte_ok text ->
    data_url_value (data_prefix ++ mime ++ base64_marker ++ [44] ++ b64enc text) = Some text.
  Proof.
    intros [Hm _] Hbytes. unfold data_url_value.
    assert (Hb : Forall head_ok (b64enc text)).
    { eapply Forall_impl; [|exact (b64_alphabet text Hbytes)]. unfold b64_char, head_ok. intros b Hbc. lia. }
    rewrite (app_assoc mime), data_url_parse.
    - change base64_marker with base64_suffix. rewrite ends_with_base64_app, c0_encode_printable, percent_decode_no_pct.
      + apply b64_roundtrip. exact Hbytes.
      + eapply Forall_impl; [|exact Hb]. unfold head_ok. intros b Hbb. lia.
      + eapply Forall_impl; [|exact Hb]. unfold head_ok. intros b Hbb. lia.
    - apply Forall_app. split; [exact Hm|repeat constructor; lia].
    - eapply Forall_impl; [|exact Hb]. unfold head_ok, clean. intros b Hbb. lia.
    - intros Hne. destruct (exists_last Hne) as [l [x E]]. rewrite E in *. rewrite last_last.
      apply Forall_app in Hb as [_ Hb]. inversion Hb; subst. unfold head_ok in *. lia.
  Qed.

  (* EncodeStringAsShortestDataURL: whichever form is chosen denotes the text *)
  Lemma shortest_roundtrip_all mime text :
    mime_ok mime -> Forall byte_ok text -> data_url_value (encode_shortest b64enc mime text) = Some text.
  Proof.
    intros Hm Hok. unfold encode_shortest.
    destruct (encode_percent mime text) as [p|] eqn:Ep.
    - destruct (Nat.ltb (length p) (length (data_prefix ++ mime ++ base64_marker ++ [44] ++ b64enc text))).
      + unfold data_url_value. rewrite (percent_roundtrip_all _ _ _ Hm Hok Ep). reflexivity.
      + apply base64_url_value; assumption.
    - apply base64_url_value; assumption.
  Qed.
End Base64.
