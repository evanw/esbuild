(* matchImportWithExport over export-star hits: the all-results-equal test amounts to
   classifying the candidate denotation.  Together with SpecDenProofs and StarDenProofs this
   gives the unbounded equivalence with ECMA-262 ResolveExport on ranked graphs. *)
From V Require Import Common.Base C02.Graph C02.OptFold C02.SpecESM C02.Wrap C02.Resolve C02.ResolveSpec C02.ResolveDen
  C02.SpecDenProofs C02.StarHitsProofs C02.StarDenProofs C02.ResolveChainProofs.

Definition amb0 : mres := mkRes MAmbiguous (-1) None 0 0 0.
(* the all-results-equal test at the end of matchImportWithExport *)
Definition check (A : list mres) (r : mres) : mres := if existsb (fun a => negb (mres_eqb a r)) A then amb0 else r.

Lemma finish_check res A ev : finish res A ev = (check A res, ev).
Proof. unfold finish, check. destruct (existsb (fun a => negb (mres_eqb a res)) A); reflexivity. Qed.

Definition normal_of (g : graph) (y : cand) (L : Z) : mres :=
  mkRes MNormal (-1) None (fst y) (bref g (fst y) (snd y)) L.

(* a result summarises a list of candidates: ambiguous when two of them differ, otherwise the
   one binding they all are *)
Definition Elem (g : graph) (r : mres) (C : list cand) : Prop :=
  (r = amb0 /\ exists y1 y2, In y1 C /\ In y2 C /\ y1 <> y2) \/
  (exists y L, r = normal_of g y L /\ In y C /\ forall y', In y' C -> y' = y).

(* The state of the loop over the candidates C: [rp] is the result the main chain has reached,
   [N] the results of the potentially ambiguous refs traced so far; each summarises a part of C
   and together they account for every candidate.  [check N rp] then summarises C (Sum_check). *)
Definition Sum (g : graph) (C : list cand) (rp : mres) (N : list mres) : Prop :=
  (exists y L, rp = normal_of g y L /\ In y C) /\
  (forall r, In r N -> exists C', incl C' C /\ Elem g r C') /\
  (forall y, In y C -> (exists L, rp = normal_of g y L) \/ exists r C', In r N /\ In y C' /\ incl C' C /\ Elem g r C').

Lemma Elem_single g y L : Elem g (normal_of g y L) [y].
Proof. right. exists y, L. split; [reflexivity|]. split; [left; reflexivity|]. intros y' [<-|[]]. reflexivity. Qed.

Lemma Sum_single g y L : Sum g [y] (normal_of g y L) [].
Proof.
  split; [exists y, L; split; [reflexivity|left; reflexivity]|]. split; [intros r []|].
  intros y' [<-|[]]. left. exists L. reflexivity.
Qed.

Lemma Sum_assemble {H} g C C1 (F : H -> list cand) (arefs : list H) N1 rp N2 :
  (forall y, In y C <-> In y (C1 ++ flat_map F arefs)) ->
  (forall r, In r N1 -> exists h, In h arefs /\ Elem g r (F h)) ->
  (forall h, In h arefs -> exists r, In r N1 /\ Elem g r (F h)) ->
  Sum g C1 rp N2 -> Sum g C rp (N1 ++ N2).
Proof.
  intros Hiff HA HB [[y0 [L0 [Hrp Hy0]]] [HN Hcov]].
  assert (HD : incl C1 C) by (intros y Hy; apply Hiff, in_or_app; left; exact Hy).
  assert (HDa : forall h, In h arefs -> incl (F h) C).
  { intros h Hh y Hy. apply Hiff, in_or_app. right. apply in_flat_map. exists h. split; assumption. }
  split; [exists y0, L0; split; [exact Hrp|apply HD; exact Hy0]|]. split.
  - intros r0 Hr0. apply in_app_or in Hr0 as [Hr0|Hr0].
    + destruct (HA r0 Hr0) as [h [Hh He]]. exists (F h). split; [apply HDa; exact Hh|exact He].
    + destruct (HN r0 Hr0) as [C' [Hinc He]]. exists C'. split; [eapply incl_tran; eauto|exact He].
  - intros y Hy. apply Hiff in Hy. apply in_app_or in Hy as [Hy|Hy].
    + destruct (Hcov y Hy) as [Hl|[r0 [C' [Hr0 [HyC [Hinc He]]]]]]; [left; exact Hl|right].
      exists r0, C'. split; [apply in_or_app; right; exact Hr0|]. split; [exact HyC|]. split; [eapply incl_tran; eauto|exact He].
    + apply in_flat_map in Hy as [h [Hh Hyh]]. destruct (HB h Hh) as [r0 [Hr0 He]]. right.
      exists r0, (F h). split; [apply in_or_app; left; exact Hr0|]. split; [exact Hyh|]. split; [apply HDa; exact Hh|exact He].
Qed.

Section Inj.
  Variable g : graph.

  (* The candidates that occur when no export entry names the exports object itself.  Then
     [normal_of] is injective (normal_eqb): a namespace candidate is reported under the exports
     ref, which no BName candidate of the same file has. *)
  Definition cand_ok (y : cand) : Prop :=
    match snd y with BName r => r <> m_exports_ref (getm g (fst y)) | BNamespace => True end.

  Lemma normal_eqb y y' L L' : cand_ok y -> cand_ok y' ->
    mres_eqb (normal_of g y L) (normal_of g y' L') = true -> y = y'.
  Proof.
    destruct y as [m b], y' as [m' b']. unfold cand_ok, normal_of, mres_eqb. cbn [fst snd mr_kind mr_alias mr_ns mr_src mr_ref mkind_eqb option_eqb].
    intros H1 H2 H. repeat (apply andb_true_iff in H as [H ?]).
    apply Nat.eqb_eq in H3. apply Nat.eqb_eq in H0. subst m'.
    destruct b as [r|], b' as [r'|]; cbn [bref] in *; try congruence.
  Qed.

  Lemma normal_eqb_refl y L L' : mres_eqb (normal_of g y L) (normal_of g y L') = true.
  Proof. unfold normal_of, mres_eqb. cbn. rewrite !Nat.eqb_refl. reflexivity. Qed.

  Lemma amb0_not_normal y L : mres_eqb amb0 (normal_of g y L) = false.
  Proof. reflexivity. Qed.
  Lemma normal_not_amb0 y L : mres_eqb (normal_of g y L) amb0 = false.
  Proof. reflexivity. Qed.

  Lemma Sum_check C rp N : (forall y, In y C -> cand_ok y) -> Sum g C rp N -> Elem g (check N rp) C.
  Proof.
    intros Hok [[y0 [L0 [Hrp Hy0]]] [HN Hcov]]. unfold check.
    destruct (existsb (fun a => negb (mres_eqb a rp)) N) eqn:E.
    - left. split; [reflexivity|]. apply existsb_exists in E as [r [Hr Hne]]. apply negb_true_iff in Hne.
      destruct (HN r Hr) as [C' [Hinc [[-> [y1 [y2 [H1 [H2 H12]]]]]|[y [L [-> [Hy Hall]]]]]]].
      + exists y1, y2. auto.
      + exists y, y0. split; [apply Hinc; exact Hy|]. split; [exact Hy0|].
        intro Heq. subst y. rewrite Hrp, normal_eqb_refl in Hne. discriminate.
    - right. exists y0, L0. split; [exact Hrp|]. split; [exact Hy0|].
      intros y' Hy'. destruct (Hcov y' Hy') as [[L Hrp']|[r [C' [Hr [Hy'C [Hinc He]]]]]].
      + rewrite Hrp in Hrp'. apply (normal_eqb y' y0 L L0); auto. rewrite Hrp'. apply normal_eqb_refl.
      + assert (Heq : mres_eqb r rp = true).
        { destruct (mres_eqb r rp) eqn:E2; [reflexivity|]. exfalso.
          assert (existsb (fun a => negb (mres_eqb a rp)) N = true) by (apply existsb_exists; exists r; rewrite E2; auto). congruence. }
        destruct He as [[-> _]|[y [L [-> [Hy Hall]]]]].
        * rewrite Hrp, amb0_not_normal in Heq. discriminate.
        * rewrite Hrp in Heq. rewrite (Hall y' Hy'C). apply (normal_eqb y y0 L L0); auto.
  Qed.

  Lemma Elem_classify r C : Elem g r C ->
    (r = amb0 /\ classify_cands C = RAmbiguous) \/ (exists y L, r = normal_of g y L /\ classify_cands C = RBinding (fst y) (snd y)).
  Proof.
    intros [[-> [y1 [y2 [H1 [H2 H12]]]]]|[y [L [-> [Hy Hall]]]]].
    - left. split; [reflexivity|exact (classify_two C y1 y2 H1 H2 H12)].
    - right. exists y, L. split; [reflexivity|exact (classify_all_eq C y Hy Hall)].
  Qed.
End Inj.

Section Link.
  Variable g : graph.
  Variable rk : list nat.
  Variable kinds : nat -> ekind.
  Hypothesis Hrk : ranked_all g rk = true.
  Hypothesis HkindsE : forall i, (i < length g)%nat -> kinds i = EESM.
  Hypothesis HkindsC : forall i, ekind_eqb (kinds i) ECJS = false.
  Hypothesis Hplain : plain_modules g = true.
  Hypothesis Hnamed : named_targets_export g = true.
  Hypothesis Hunique : forall i, aliases_unique (getm g i).
  Hypothesis Hnoref : forall m p, In p (m_exports (getm g m)) -> snd p <> m_exports_ref (getm g m).
  Hypothesis Hlink : forall m a ref u n,
    find_export a (m_exports (getm g m)) = Some ref -> entry_of (getm g m) ref = XIndirect u n -> den g rk u n <> [].
  Let rank := rank_of rk.
  Let resolved := resolved_of g kinds.
  Notation D := (den g rk).
  Notation HC := (hit_cands g rk).

  (* every candidate of the denotation is well formed *)
  Lemma cands_ok : forall k m name y, In y (cands k g m name) -> cand_ok g y.
  Proof.
    induction k as [|k IH]; intros m name y Hy; [contradiction|]. cbn [cands] in Hy.
    destruct (find_export name (m_exports (getm g m))) as [ref|] eqn:Ef.
    - destruct (entry_of (getm g m) ref) as [r|t n|t|] eqn:Ee.
      + destruct Hy as [<-|[]]. apply entry_of_local in Ee. subst r.
        apply (Hnoref m (name, ref)). apply find_export_In. exact Ef.
      + eapply IH; eauto.
      + destruct Hy as [<-|[]]. exact I.
      + contradiction.
    - destruct (name =? 0); [contradiction|]. apply in_flat_map in Hy as [t [_ Hy]]. eapply IH; eauto.
  Qed.

  Lemma den_ok m name y : In y (D m name) -> cand_ok g y.
  Proof. apply cands_ok. Qed.

  (* hits: the hit of a file is its export entry for the alias; files of hits have smaller rank *)
  Lemma hits_facts a : forall f s stack h, In h (hits g f a s stack) ->
    find_export a (m_exports (getm g (fst h))) = Some (snd h) /\ (rank (fst h) < rank s)%nat.
  Proof.
    induction f as [|f IH]; intros s stack h Hh; [contradiction|]. rewrite hits_unfold in Hh.
    destruct (memn s stack); [contradiction|].
    apply in_flat_map in Hh as [t [Ht Hh]]. pose proof (star_edge g rk Hrk s t Ht) as Hrt.
    apply in_app_or in Hh as [Hh|Hh].
    - unfold own_hit in Hh. destruct ((a =? 0) || shadowed g a (stack ++ [s])); [contradiction|].
      destruct (find_export a (m_exports (getm g t))) as [ref|] eqn:Ef; [|contradiction].
      destruct Hh as [<-|[]]. cbn [fst snd]. split; [exact Ef|exact Hrt].
    - destruct (IH _ _ _ Hh) as [H1 H2]. split; [exact H1|]. unfold rank in *. lia.
  Qed.

  (* shape of a successful lookup in ResolvedExports *)
  Lemma lookup_shape o a e :
    ed_lookup a (resolved o) = Some e ->
    exists h1 arefs, e = mkEd a (fst h1) (snd h1) arefs /\
      find_export a (m_exports (getm g (fst h1))) = Some (snd h1) /\
      (fst h1 = o \/ (rank (fst h1) < rank o)%nat) /\
      (forall h, In h arefs -> find_export a (m_exports (getm g (fst h))) = Some (snd h) /\ (rank (fst h) < rank o)%nat) /\
      (forall y, In y (D o a) <-> In y (HC h1 ++ flat_map HC arefs)).
  Proof.
    intros Hl. unfold resolved in Hl. destruct (plain_facts g o Hplain) as [Hlazy _].
    rewrite (resolved_look g rk Hrk kinds HkindsC Hunique o a Hlazy) in Hl.
    destruct (find_export a (m_exports (getm g o))) as [ref|] eqn:Ef.
    - (* the file's own export: the one hit, with the candidates of its entry *)
      inversion Hl; subst e. exists (o, ref), []. cbn [fst snd flat_map].
      split; [reflexivity|]. split; [exact Ef|]. split; [left; reflexivity|]. split; [intros h []|].
      intros y. rewrite app_nil_r, (den_unfold g rk Hrk o a), Ef. reflexivity.
    - destruct (Z.eq_dec a 0) as [->|Ha].
      { rewrite (hits_default g) in Hl. discriminate. }
      pose proof (star_hits_den g rk Hrk kinds HkindsC Hunique o a Ha Ef) as Hden.
      rewrite fold_hits_none in Hl.
      destruct (hits g (S (length g)) a o []) as [|h1 rest] eqn:Eh; [discriminate|]. inversion Hl; subst e.
      assert (Hfacts : forall h, In h (h1 :: rest) -> find_export a (m_exports (getm g (fst h))) = Some (snd h) /\ (rank (fst h) < rank o)%nat).
      { intros h Hh. apply (hits_facts a (S (length g)) o [] h). rewrite Eh. exact Hh. }
      exists h1, (filter (fun h => negb (Nat.eqb (fst h1) (fst h))) rest).
      split; [reflexivity|]. split; [apply Hfacts; left; reflexivity|].
      split; [right; apply Hfacts; left; reflexivity|].
      split. { intros h Hh. apply filter_In in Hh as [Hh _]. apply Hfacts. right. exact Hh. }
      intros y. rewrite <- Hden. cbn [flat_map]. split; intros Hy.
      + apply in_app_or in Hy as [Hy|Hy]; [apply in_or_app; left; exact Hy|].
        apply in_flat_map in Hy as [h [Hh Hy]].
        destruct (Nat.eqb (fst h1) (fst h)) eqn:E.
        * (* same file as the first hit: the same hit *)
          apply Nat.eqb_eq in E. apply in_or_app. left.
          destruct (Hfacts h (or_intror Hh)) as [F1 _]. destruct (Hfacts h1 (or_introl eq_refl)) as [F2 _].
          rewrite <- E in F1. rewrite F1 in F2. inversion F2 as [F3].
          assert (h = h1) by (destruct h, h1; cbn [fst snd] in *; subst; reflexivity). subst h. exact Hy.
        * apply in_or_app. right. apply in_flat_map. exists h. split; [|exact Hy].
          apply filter_In. split; [exact Hh|rewrite E; reflexivity].
      + apply in_app_or in Hy as [Hy|Hy]; [apply in_or_app; left; exact Hy|].
        apply in_flat_map in Hy as [h [Hh Hy]]. apply filter_In in Hh as [Hh _].
        apply in_or_app. right. apply in_flat_map. exists h. split; assumption.
  Qed.

  Lemma lookup_none o a : ed_lookup a (resolved o) = None -> D o a = [].
  Proof.
    intros Hl. unfold resolved in Hl. destruct (plain_facts g o Hplain) as [Hlazy _].
    rewrite (resolved_look g rk Hrk kinds HkindsC Hunique o a Hlazy) in Hl.
    destruct (find_export a (m_exports (getm g o))) as [ref|] eqn:Ef; [discriminate|].
    destruct (Z.eq_dec a 0) as [->|Ha].
    { rewrite (den_unfold g rk Hrk o 0), Ef. reflexivity. }
    pose proof (star_hits_den g rk Hrk kinds HkindsC Hunique o a Ha Ef) as Hden.
    rewrite fold_hits_none in Hl. destruct (hits g (S (length g)) a o []) as [|h1 rest]; [|discriminate].
    symmetry. exact Hden.
  Qed.

  (* one iteration on a namespace import, with any accumulated ambiguous results *)
  Lemma star_step_gen f t ni u cyc res X ev :
    import_of g t = Some ni -> ni_is_star ni = true -> import_target (getm g (fst t)) ni = Some u ->
    (u < length g)%nat -> existsb (pair_eqb t) cyc = false ->
    mloop g kinds resolved true (S f) t cyc res X ev
    = Some (check X (normal_of g (u, BNamespace) 0), ev).
  Proof.
    intros Hi Hs Ht Hu Hc. rewrite (star_step g kinds resolved f t ni u cyc res X ev Hplain Hnamed (HkindsE u Hu) Hi Hs Ht Hc).
    rewrite finish_check. reflexivity.
  Qed.

  Lemma amb_fold_none f cyc' loc l : fold_left (amb_step g kinds resolved f cyc' loc) l None = None.
  Proof. induction l; cbn; auto. Qed.

  (* What a run of the tracker loop from a named import establishes (a the import's alias, o its
     target, X the ambiguous results accumulated before).  Without candidates: the incoming result
     and a "no matching export" event.  With candidates: no event, and the result is the
     all-results-equal test over a summary of the candidates D o a. *)
  Definition mloop_post (o : nat) (a : Z) (res : mres) (X : list mres) (ev : list event) (r : mres) (ev' : list event) : Prop :=
    (D o a = [] /\ r = check X res /\ has_nomatch ev' = true) \/
    (D o a <> [] /\ ev' = ev /\ exists rp N, r = check (X ++ N) rp /\ Sum g (D o a) rp N).

  Definition mloop_stmt (f : nat) : Prop :=
    forall t ni o cyc res X ev r ev',
      import_of g t = Some ni -> ni_is_star ni = false -> import_target (getm g (fst t)) ni = Some o ->
      cyc_ge g rk cyc (S (rank o)) ->
      mloop g kinds resolved true f t cyc res X ev = Some (r, ev') ->
      mloop_post o (ni_alias ni) res X ev r ev'.

  (* the value of a hit as seen by following it *)
  Lemma hit_entry a h :
    find_export a (m_exports (getm g (fst h))) = Some (snd h) ->
    (is_import g h = false /\ HC h = [(fst h, BName (snd h))]) \/
    (exists nj u, import_of g h = Some nj /\ import_target (getm g (fst h)) nj = Some u /\ (u < length g)%nat /\
        ((ni_is_star nj = true /\ HC h = [(u, BNamespace)]) \/
         (ni_is_star nj = false /\ HC h = D u (ni_alias nj) /\ D u (ni_alias nj) <> [] /\ (rank u < rank (fst h))%nat))).
  Proof.
    intros Hf. unfold is_import, hit_cands, entry_cands. destruct h as [tj refj]. cbn [fst snd] in *.
    unfold import_of. cbn [fst snd]. rewrite find_import_imp.
    destruct (find_imp refj (m_imports (getm g tj))) as [nj|] eqn:Ei.
    - right. destruct (find_imp_In _ _ _ Ei) as [Hin _].
      destruct (plain_facts g tj Hplain) as [_ [_ [_ [Htg _]]]]. destruct (Htg nj Hin) as [u [Hu Hult]].
      exists nj, u. split; [reflexivity|]. split; [exact Hu|]. split; [exact Hult|].
      pose proof (entry_of_import _ _ _ _ Ei Hu) as He. rewrite He.
      destruct (ni_is_star nj) eqn:Es; [left; auto|right].
      split; [reflexivity|]. split; [reflexivity|].
      split; [eapply Hlink; eauto|]. eapply (indirect_edge g rk Hrk); eauto.
    - left. rewrite (entry_of_not_import _ _ Ei). auto.
  Qed.

  Lemma hit_cands_nonempty a h : find_export a (m_exports (getm g (fst h))) = Some (snd h) -> HC h <> [].
  Proof.
    intros Hf. destruct (hit_entry a h Hf) as [[_ ->]|[nj [u [_ [_ [_ [[_ ->]|[_ [-> [Hn _]]]]]]]]]].
    - discriminate.
    - discriminate.
    - exact Hn.
  Qed.

  Lemma hit_cands_ok a h y :
    find_export a (m_exports (getm g (fst h))) = Some (snd h) -> In y (HC h) -> cand_ok g y.
  Proof.
    intros Hf. unfold hit_cands, entry_cands. destruct (entry_of (getm g (fst h)) (snd h)) as [r|u n|u|] eqn:Ee; intros Hy.
    - destruct Hy as [<-|[]]. apply entry_of_local in Ee. subst r.
      apply (Hnoref (fst h) (a, snd h)). apply find_export_In. exact Hf.
    - eapply den_ok; eauto.
    - destruct Hy as [<-|[]]. exact I.
    - contradiction.
  Qed.

  Lemma amb_fold f (IHf : mloop_stmt f) a o cyc' loc :
    cyc_ge g rk cyc' (rank o) -> forall arefs Y ev0 Y' ev1,
    (forall h, In h arefs -> find_export a (m_exports (getm g (fst h))) = Some (snd h) /\ (rank (fst h) < rank o)%nat) ->
    fold_left (amb_step g kinds resolved f cyc' loc) arefs (Some (Y, ev0)) = Some (Y', ev1) ->
    ev1 = ev0 /\ exists N1, Y' = Y ++ N1 /\
      (forall r, In r N1 -> exists h, In h arefs /\ Elem g r (HC h)) /\
      (forall h, In h arefs -> exists r, In r N1 /\ Elem g r (HC h)).
  Proof.
    intros Hcyc. induction arefs as [|h arefs IH]; intros Y ev0 Y' ev1 Hfacts Hfold.
    - cbn in Hfold. inversion Hfold; subst. split; [reflexivity|]. exists []. rewrite app_nil_r.
      repeat split; intros; contradiction.
    - cbn [fold_left] in Hfold.
      destruct (Hfacts h (or_introl eq_refl)) as [Hf Hr].
      assert (Hone : exists ar, amb_step g kinds resolved f cyc' loc (Some (Y, ev0)) h = Some (Y ++ [ar], ev0) /\ Elem g ar (HC h)).
      { destruct (amb_step g kinds resolved f cyc' loc (Some (Y, ev0)) h) as [[Y1 e1]|] eqn:Es; [|rewrite amb_fold_none in Hfold; discriminate].
        unfold amb_step in Es.
        destruct (hit_entry a h Hf) as [[Hni Hc]|[nj [u [Hi [Hu [Hult Hcase]]]]]].
        - rewrite Hni in Es. inversion Es; subst. eexists. split; [reflexivity|].
          rewrite Hc. exact (Elem_single g (fst h, BName (snd h)) loc).
        - assert (His : is_import g h = true) by (unfold is_import; rewrite Hi; reflexivity).
          rewrite His in Es.
          destruct (mloop g kinds resolved true f h cyc' res0 [] ev0) as [[ar e']|] eqn:Em; [|discriminate].
          inversion Es; subst Y1 e1. destruct Hcase as [[Hs Hc]|[Hs [Hc [Hne Hru]]]].
          + destruct f as [|f']; [discriminate|].
            rewrite (star_step_gen f' h nj u cyc' res0 [] ev0 Hi Hs Hu Hult (star_not_in_cyc g rk h nj cyc' _ Hi Hs Hcyc)) in Em.
            inversion Em; subst. eexists. split; [reflexivity|]. change (check [] ?r) with r.
            rewrite Hc. exact (Elem_single g (u, BNamespace) 0).
          + assert (Hcg : cyc_ge g rk cyc' (S (rank u))) by (eapply cyc_ge_mono; [|exact Hcyc]; lia).
            destruct (IHf h nj u cyc' res0 [] ev0 ar e' Hi Hs Hu Hcg Em) as [[Hnil _]|[_ [He [rp [N [Har HS]]]]]]; [contradiction|].
            subst e'. eexists. split; [reflexivity|]. rewrite Hc. subst ar. cbn [app].
            apply Sum_check; [intros y Hy; eapply den_ok; eauto|exact HS]. }
      destruct Hone as [ar [Hs1 He1]]. rewrite Hs1 in Hfold.
      destruct (IH (Y ++ [ar]) ev0 Y' ev1 (fun h0 Hh0 => Hfacts h0 (or_intror Hh0)) Hfold) as [Hev [N1 [HY [HA HB]]]].
      split; [exact Hev|]. exists (ar :: N1). split; [rewrite HY, <- app_assoc; reflexivity|]. split.
      + intros r [<-|Hr1]; [exists h; split; [left; reflexivity|exact He1]|].
        destruct (HA r Hr1) as [h0 [Hh0 He0]]. exists h0. split; [right; exact Hh0|exact He0].
      + intros h0 [<-|Hh0]; [exists ar; split; [left; reflexivity|exact He1]|].
        destruct (HB h0 Hh0) as [r [Hr1 He0]]. exists r. split; [right; exact Hr1|exact He0].
  Qed.

  Lemma mloop_den : forall f, mloop_stmt f.
  Proof.
    induction f as [|f IHf]; intros t ni o cyc res X ev r ev' Hi Hs Ht Hcyc Hm; [discriminate|].
    set (a := ni_alias ni) in *.
    pose proof (import_target_lt g t ni o Hplain Hi Ht) as Holt.
    assert (Hcyc' : cyc_ge g rk (cyc ++ [t]) (rank o)) by exact (cyc_ge_snoc g rk cyc t ni o Hi Hs Ht Hcyc).
    rewrite (named_step g kinds resolved f t ni o cyc res X ev Hplain Hnamed (HkindsE o Holt) Hi Hs Ht
               (not_in_cyc g rk t ni o cyc Hi Ht Hcyc)) in Hm.
    fold a in Hm.
    destruct (ed_lookup a (resolved o)) as [e|] eqn:El.
    - (* found in ResolvedExports *)
      destruct (lookup_shape o a e El) as [h1 [arefs [-> [Hf1 [Hr1 [Hfacts Hiff]]]]]].
      cbn [ed_src ed_ref ed_alias ed_ambs] in Hm.
      destruct (fold_left _ arefs (Some (X, ev))) as [[Y' ev1]|] eqn:Efold; [|discriminate].
      destruct (amb_fold f IHf a o (cyc ++ [t]) (a + 1) Hcyc' arefs X ev Y' ev1 Hfacts Efold) as [-> [N1 [-> [HA HB]]]].
      assert (HD : forall y, In y (HC h1) -> In y (D o a)) by (intros y Hy; apply Hiff; apply in_or_app; left; exact Hy).
      pose proof (fun rp N2 => Sum_assemble g (D o a) (HC h1) HC arefs N1 rp N2 Hiff HA HB) as Hasm.
      assert (Hne : D o a <> []).
      { pose proof (hit_cands_nonempty a h1 Hf1) as Hn1. destruct (HC h1) as [|c l]; [contradiction|].
        intro Hnil. pose proof (HD c (or_introl eq_refl)) as Hc. rewrite Hnil in Hc. exact Hc. }
      right. split; [exact Hne|].
      assert (Ht1 : (fst h1, snd h1) = h1) by (destruct h1; reflexivity). rewrite Ht1 in Hm.
      destruct (hit_entry a h1 Hf1) as [[Hni Hc]|[nj [u [Hi1 [Hu [Hult Hcase]]]]]].
      + (* a local binding *)
        rewrite Hni in Hm. rewrite finish_check in Hm. inversion Hm; subst r ev'. split; [reflexivity|].
        exists (normal_of g (fst h1, BName (snd h1)) (a + 1)), N1. split; [reflexivity|].
        rewrite <- (app_nil_r N1). apply Hasm. rewrite Hc. apply Sum_single.
      + assert (His : is_import g h1 = true) by (unfold is_import; rewrite Hi1; reflexivity).
        rewrite His in Hm. destruct Hcase as [[Hst Hc]|[Hst [Hc [Hnn Hru]]]].
        * (* export * as ns *)
          destruct f as [|f']; [discriminate|].
          rewrite (star_step_gen f' h1 nj u (cyc ++ [t]) _ (X ++ N1) ev Hi1 Hst Hu Hult
                     (star_not_in_cyc g rk h1 nj (cyc ++ [t]) _ Hi1 Hst Hcyc')) in Hm.
          inversion Hm; subst r ev'. split; [reflexivity|].
          exists (normal_of g (u, BNamespace) 0), N1. split; [reflexivity|].
          rewrite <- (app_nil_r N1). apply Hasm. rewrite Hc. apply Sum_single.
        * (* an indirect export: the loop continues *)
          assert (Hcg : cyc_ge g rk (cyc ++ [t]) (S (rank u))).
          { eapply cyc_ge_mono; [|exact Hcyc']. destruct Hr1 as [Heq|Hlt]; [rewrite Heq in Hru; lia|lia]. }
          destruct (IHf h1 nj u (cyc ++ [t]) _ (X ++ N1) ev r ev' Hi1 Hst Hu Hcg Hm) as [[Hnil _]|[_ [He [rp [N2 [Hr HS]]]]]]; [contradiction|].
          split; [exact He|]. exists rp, (N1 ++ N2). split; [rewrite Hr, app_assoc; reflexivity|].
          apply Hasm. rewrite Hc. exact HS.
    - (* no matching export *)
      rewrite finish_check in Hm. inversion Hm; subst r ev'.
      left. split; [apply lookup_none; exact El|]. split; [reflexivity|].
      unfold has_nomatch. rewrite existsb_app. cbn. rewrite orb_true_r. reflexivity.
  Qed.
End Link.
