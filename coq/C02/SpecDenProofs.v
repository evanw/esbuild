(* ECMA-262 ResolveExport (with its shared resolve set) computes, on graphs whose re-export
   relation is acyclic, the set-free denotation: revisiting a (module, name) pair is harmless. *)
From V Require Import Common.Base C02.Graph C02.SpecESM C02.Wrap C02.Resolve C02.ResolveSpec C02.ResolveDen
  C02.ResolveChainProofs.

Lemma binding_eqb_eq a b : binding_eqb a b = true <-> a = b.
Proof.
  destruct a, b; cbn; split; intros H; try discriminate; try reflexivity.
  - apply Nat.eqb_eq in H. subst. reflexivity.
  - inversion H. apply Nat.eqb_refl.
Qed.

Lemma cand_eqb_eq a b : cand_eqb a b = true <-> a = b.
Proof.
  destruct a as [a1 a2], b as [b1 b2]. unfold cand_eqb. cbn [fst snd].
  rewrite andb_true_iff, Nat.eqb_eq, binding_eqb_eq. split; [intros [-> ->]; reflexivity|intros H; inversion H; auto].
Qed.

Lemma classify_all_eq C y : In y C -> (forall z, In z C -> z = y) -> classify_cands C = RBinding (fst y) (snd y).
Proof.
  intros Hy Hall. destruct C as [|c l]; [contradiction|]. cbn [classify_cands].
  rewrite (Hall c (or_introl eq_refl)). replace (forallb (cand_eqb y) l) with true; [reflexivity|].
  symmetry. apply forallb_forall. intros z Hz. apply cand_eqb_eq. symmetry. apply Hall. right. exact Hz.
Qed.

Lemma classify_two C y1 y2 : In y1 C -> In y2 C -> y1 <> y2 -> classify_cands C = RAmbiguous.
Proof.
  intros H1 H2 Hne. destruct C as [|c l]; [contradiction|]. cbn [classify_cands].
  destruct (forallb (cand_eqb c) l) eqn:E; [|reflexivity]. exfalso. rewrite forallb_forall in E.
  assert (Ha : forall z, In z (c :: l) -> z = c).
  { intros z [<-|Hz]; [reflexivity|]. symmetry. apply cand_eqb_eq, E, Hz. }
  apply Hne. rewrite (Ha y1 H1), (Ha y2 H2). reflexivity.
Qed.

Section SpecDen.
  Variable g : graph.
  Variable rk : list nat.
  Hypothesis Hrk : ranked_all g rk = true.
  Let rank := rank_of rk.

  Lemma ranked_mod s : (s < length g)%nat ->
    (rank s < length g)%nat /\ forall t, In t (reexport_targets (getm g s)) -> (rank t < rank s)%nat.
  Proof.
    intros Hs. unfold ranked_all in Hrk. rewrite forallb_forall in Hrk.
    specialize (Hrk s). rewrite in_seq in Hrk. specialize (Hrk ltac:(lia)).
    apply andb_true_iff in Hrk as [H1 H2]. split; [apply Nat.ltb_lt; exact H1|].
    intros t Ht. rewrite forallb_forall in H2. apply Nat.ltb_lt. apply H2. exact Ht.
  Qed.

  Lemma in_range_of_targets s t : In t (reexport_targets (getm g s)) -> (s < length g)%nat.
  Proof.
    intros H. destruct (Nat.lt_ge_cases s (length g)) as [Hl|Hg]; [exact Hl|].
    rewrite getm_out in H by exact Hg. contradiction.
  Qed.

  Lemma star_edge s t : In t (star_targets (getm g s)) -> (rank t < rank s)%nat.
  Proof.
    intros H. assert (Hin : In t (reexport_targets (getm g s))) by (unfold reexport_targets; apply in_or_app; left; exact H).
    apply (ranked_mod s (in_range_of_targets _ _ Hin)). exact Hin.
  Qed.

  Lemma indirect_edge s name ref t n :
    find_export name (m_exports (getm g s)) = Some ref -> entry_of (getm g s) ref = XIndirect t n ->
    (rank t < rank s)%nat.
  Proof.
    intros Hf He.
    assert (Hin : In t (reexport_targets (getm g s))).
    { unfold reexport_targets. apply in_or_app. right. apply in_flat_map. exists (name, ref).
      split; [apply find_export_In; exact Hf|]. cbn [snd]. rewrite He. left. reflexivity. }
    apply (ranked_mod s (in_range_of_targets _ _ Hin)). exact Hin.
  Qed.

  Lemma cands_fuel : forall k k' m name, (rank m < k)%nat -> (rank m < k')%nat -> cands k g m name = cands k' g m name.
  Proof.
    induction k as [|k IH]; intros k' m name H1 H2; [lia|]. destruct k' as [|k']; [lia|].
    cbn [cands]. destruct (find_export name (m_exports (getm g m))) as [ref|] eqn:Ef.
    - destruct (entry_of (getm g m) ref) as [r|t n|t|] eqn:Ee; try reflexivity.
      pose proof (indirect_edge _ _ _ _ _ Ef Ee). apply IH; lia.
    - destruct (name =? 0); [reflexivity|].
      rewrite !flat_map_concat_map. f_equal. apply map_ext_in. intros t Ht.
      pose proof (star_edge m t Ht). apply IH; lia.
  Qed.

  Notation D := (den g rk).

  Lemma den_unfold m name :
    D m name =
    match find_export name (m_exports (getm g m)) with
    | Some ref =>
      match entry_of (getm g m) ref with
      | XLocal r => [(m, BName r)]
      | XIndirectAll t => [(t, BNamespace)]
      | XIndirect t n => D t n
      | XBroken => []
      end
    | None => if name =? 0 then [] else flat_map (fun t => D t name) (star_targets (getm g m))
    end.
  Proof.
    unfold den at 1. fold rank. cbn [cands].
    destruct (find_export name (m_exports (getm g m))) as [ref|] eqn:Ef.
    - destruct (entry_of (getm g m) ref) as [r|t n|t|] eqn:Ee; try reflexivity.
      pose proof (indirect_edge _ _ _ _ _ Ef Ee). unfold den. fold rank. apply cands_fuel; lia.
    - destruct (name =? 0); [reflexivity|].
      rewrite !flat_map_concat_map. f_equal. apply map_ext_in. intros t Ht.
      pose proof (star_edge m t Ht). unfold den. fold rank. apply cands_fuel; lia.
  Qed.

  Definition setR (R : resolution) : list cand := match R with RBinding m b => [(m, b)] | _ => [] end.
  (* the candidates of the pairs in the resolve set whose module has rank at most b: what a call may
     miss because ResolveExport answers null on a pair it has seen *)
  Definition CK (rs : list (nat * Z)) (b : nat) : list cand :=
    flat_map (fun p => D (fst p) (snd p)) (filter (fun p => Nat.leb (rank (fst p)) b) rs).

  Lemma CK_In rs b p x : In p rs -> (rank (fst p) <= b)%nat -> In x (D (fst p) (snd p)) -> In x (CK rs b).
  Proof.
    intros Hp Hr Hx. unfold CK. apply in_flat_map. exists p. split; [|exact Hx].
    apply filter_In. split; [exact Hp|apply Nat.leb_le; exact Hr].
  Qed.

  Lemma CK_elim rs b x : In x (CK rs b) -> exists p, In p rs /\ (rank (fst p) <= b)%nat /\ In x (D (fst p) (snd p)).
  Proof.
    unfold CK. intros H. apply in_flat_map in H as [p [Hp Hx]]. apply filter_In in Hp as [Hp Hr].
    exists p. repeat split; auto. apply Nat.leb_le. exact Hr.
  Qed.

  (* What a call establishes.  R is null or a binding that accounts for the candidates Dm, up to
     those of the pairs already in the resolve set rs (of rank at most b); so does every pair the
     call adds to the set.  An ambiguous R comes with two different candidates. *)
  Definition covered (Dm : list cand) (b : nat) (rs : list (nat * Z)) (R : resolution) (rs' : list (nat * Z)) : Prop :=
    incl (setR R) Dm /\ incl Dm (setR R ++ CK rs b) /\
    (forall p, In p rs' -> In p rs \/ ((rank (fst p) <= b)%nat /\ incl (D (fst p) (snd p)) (setR R ++ CK rs b))).

  Definition post (m : nat) (name : Z) (rs : list (nat * Z)) (R : resolution) (rs' : list (nat * Z)) : Prop :=
    incl rs rs' /\
    match R with
    | RAmbiguous => exists x y, x <> y /\ In x (D m name ++ CK rs (rank m)) /\ In y (D m name ++ CK rs (rank m))
    | _ => covered (D m name) (rank m) rs R rs'
    end.

  (* the loop over the star export entries (step 9), as a named function *)
  Fixpoint stars_loop (f : nat) (name : Z) (l : list nat) (star_res : resolution) (rs : list (nat * Z))
    : option (resolution * list (nat * Z)) :=
    match l with
    | [] => Some (star_res, rs)
    | t :: rest =>
      match spec_resolve f g t name rs with
      | None => None
      | Some (RAmbiguous, rs') => Some (RAmbiguous, rs')
      | Some (RNull, rs') => stars_loop f name rest star_res rs'
      | Some (RBinding rm rb, rs') =>
        match star_res with
        | RBinding sm sb =>
          if Nat.eqb rm sm && binding_eqb rb sb then stars_loop f name rest star_res rs'
          else Some (RAmbiguous, rs')
        | _ => stars_loop f name rest (RBinding rm rb) rs'
        end
      end
    end.

  Lemma spec_resolve_unfold f m name rs :
    spec_resolve (S f) g m name rs =
    if rs_mem m name rs then Some (RNull, rs) else
    let rs1 := rs ++ [(m, name)] in
    match find_export name (m_exports (getm g m)) with
    | Some ref =>
      match entry_of (getm g m) ref with
      | XLocal r => Some (RBinding m (BName r), rs1)
      | XIndirectAll t => Some (RBinding t BNamespace, rs1)
      | XIndirect t n => spec_resolve f g t n rs1
      | XBroken => Some (RNull, rs1)
      end
    | None => if name =? 0 then Some (RNull, rs1) else stars_loop f name (star_targets (getm g m)) RNull rs1
    end.
  Proof.
    cbn [spec_resolve]. destruct (rs_mem m name rs); [reflexivity|].
    destruct (find_export name (m_exports (getm g m))); [reflexivity|].
    destruct (name =? 0); [reflexivity|].
    generalize (star_targets (getm g m)) RNull (rs ++ [(m, name)]).
    induction l as [|t rest IH]; intros sr rs0; [reflexivity|].
    cbn [stars_loop]. destruct (spec_resolve f g t name rs0) as [[[| |rm rb] rs']|]; try reflexivity.
    - apply IH.
    - destruct sr; try apply IH. destruct (Nat.eqb rm m0 && binding_eqb rb b); [apply IH|reflexivity].
  Qed.

  Lemma CK_child rs rsi m name t sr :
    (rank t < rank m)%nat ->
    (forall p, In p rsi -> p = (m, name) \/ In p rs \/
               ((rank (fst p) < rank m)%nat /\ incl (D (fst p) (snd p)) (setR sr ++ CK rs (rank m)))) ->
    incl (CK rsi (rank t)) (setR sr ++ CK rs (rank m)).
  Proof.
    intros Ht Hinv x Hx. apply CK_elim in Hx as [p [Hp [Hr Hxp]]].
    destruct (Hinv p Hp) as [->|[Hin|[_ Hc]]].
    - cbn [fst] in Hr. lia.
    - apply in_or_app. right. eapply CK_In; eauto. lia.
    - apply Hc. exact Hxp.
  Qed.

  Lemma covers_mono sr sr' X rs b : incl (setR sr) (setR sr') -> incl X (setR sr ++ CK rs b) -> incl X (setR sr' ++ CK rs b).
  Proof. intros H1 H2 x Hx. apply H2 in Hx. apply in_app_or in Hx as [Hx|Hx]; apply in_or_app; [left; apply H1|right]; exact Hx. Qed.

  Section Loop.
    Variable f : nat.
    Hypothesis IH : forall m name rs R rs', spec_resolve f g m name rs = Some (R, rs') -> post m name rs R rs'.
    Variables (m : nat) (name : Z) (rs : list (nat * Z)).
    Let B := rank m.
    Let Dm := D m name.

    Definition rs_inv (sr : resolution) (rsi : list (nat * Z)) : Prop :=
      forall p, In p rsi -> p = (m, name) \/ In p rs \/
                ((rank (fst p) < rank m)%nat /\ incl (D (fst p) (snd p)) (setR sr ++ CK rs B)).

    Lemma rs_inv_mono sr sr' rsi : incl (setR sr) (setR sr') -> rs_inv sr rsi -> rs_inv sr' rsi.
    Proof.
      intros H Hi p Hp. destruct (Hi p Hp) as [H1|[H1|[H1 H2]]]; auto. right. right. split; [exact H1|].
      apply (covers_mono sr sr' _ rs B H H2).
    Qed.

    (* what the loop over the star export entries l establishes, started with resolve set rsi and
       with the candidates acc of the entries before l accounted for *)
    Definition loop_concl (l : list nat) (rsi : list (nat * Z)) (acc : list cand) (R : resolution) (rs' : list (nat * Z)) : Prop :=
      incl rsi rs' /\
      match R with
      | RAmbiguous => exists x y, x <> y /\ In x (Dm ++ CK rs B) /\ In y (Dm ++ CK rs B)
      | _ => incl (setR R) Dm /\ incl (acc ++ flat_map (fun t => D t name) l) (setR R ++ CK rs B) /\ rs_inv R rs'
      end.

    Lemma loop_post : forall l sr rsi acc R rs',
      (forall t, In t l -> In t (star_targets (getm g m))) ->
      (forall t, In t l -> incl (D t name) Dm) ->
      stars_loop f name l sr rsi = Some (R, rs') ->
      sr <> RAmbiguous -> incl (setR sr) Dm -> incl acc (setR sr ++ CK rs B) -> rs_inv sr rsi ->
      loop_concl l rsi acc R rs'.
    Proof.
      unfold loop_concl.
      induction l as [|t rest IHl]; intros sr rsi acc R rs' Hl HlD Hloop Hsr HsrD Hacc Hinv.
      - cbn [stars_loop] in Hloop. inversion Hloop; subst. split; [apply incl_refl|].
        destruct R; try contradiction; (split; [exact HsrD|split; [cbn [flat_map]; rewrite app_nil_r; exact Hacc|exact Hinv]]).
      - cbn [stars_loop] in Hloop.
        destruct (spec_resolve f g t name rsi) as [[Rt rst]|] eqn:Et; [|discriminate].
        pose proof (IH _ _ _ _ _ Et) as [Hi1 Hpost].
        assert (Hrt : (rank t < rank m)%nat) by (apply star_edge; apply Hl; left; reflexivity).
        pose proof (CK_child rs rsi m name t sr Hrt Hinv) as HKC.
        assert (HDt : incl (D t name) Dm) by (apply HlD; left; reflexivity).
        assert (Hlift : forall sr' X, incl (setR sr) (setR sr') -> incl (setR Rt) (setR sr') ->
                   incl X (setR Rt ++ CK rsi (rank t)) -> incl X (setR sr' ++ CK rs B)).
        { intros sr' X Hm1 Hm2 HX x Hx. apply HX in Hx. apply in_app_or in Hx as [Hx|Hx].
          - apply in_or_app. left. apply Hm2. exact Hx.
          - apply (covers_mono sr sr' _ rs B Hm1 HKC). exact Hx. }
        assert (Hrest1 : forall t0, In t0 rest -> In t0 (star_targets (getm g m))) by (intros; apply Hl; right; assumption).
        assert (Hrest2 : forall t0, In t0 rest -> incl (D t0 name) Dm) by (intros; apply HlD; right; assumption).
        assert (Hcont : forall sr', Rt <> RAmbiguous -> sr' <> RAmbiguous -> incl (setR sr') Dm ->
                   incl (setR sr) (setR sr') -> incl (setR Rt) (setR sr') ->
                   stars_loop f name rest sr' rst = Some (R, rs') -> loop_concl (t :: rest) rsi acc R rs').
        { intros sr' HnaR Hna HD' Hm1 Hm2 Hl'.
          destruct (IHl sr' rst (acc ++ D t name) R rs' Hrest1 Hrest2 Hl' Hna HD') as [Hi Hres].
          - (* D t name is covered since the call's result is *)
            intros x Hx. apply in_app_or in Hx as [Hx|Hx].
            + apply (covers_mono sr sr' acc rs B Hm1 Hacc). exact Hx.
            + assert (Hc : incl (D t name) (setR Rt ++ CK rsi (rank t))) by (destruct Rt; try contradiction; apply Hpost).
              apply (Hlift sr' _ Hm1 Hm2 Hc). exact Hx.
          - (* the resolve-set invariant after the call *)
            intros p Hp.
            assert (Hc : In p rsi \/ ((rank (fst p) <= rank t)%nat /\ incl (D (fst p) (snd p)) (setR Rt ++ CK rsi (rank t)))).
            { destruct Rt; try contradiction; destruct Hpost as [_ [_ H3]]; apply H3; exact Hp. }
            destruct Hc as [Hc|[Hr Hc]].
            + apply (rs_inv_mono sr sr' rsi Hm1 Hinv). exact Hc.
            + right. right. split; [lia|]. apply (Hlift sr' _ Hm1 Hm2 Hc).
          - split; [eapply incl_tran; eauto|]. cbn [flat_map]. rewrite app_assoc. exact Hres. }
        unfold loop_concl in Hcont.
        destruct Rt as [| |rm rb].
        + (* null *)
          apply (Hcont sr); [discriminate|exact Hsr|exact HsrD|apply incl_refl|intros x []|exact Hloop].
        + (* ambiguous below *)
          inversion Hloop; subst R rs'. split; [exact Hi1|].
          destruct Hpost as [x [y [Hxy [Hx Hy]]]]. exists x, y. split; [exact Hxy|].
          assert (Hmv : forall z, In z (D t name ++ CK rsi (rank t)) -> In z (Dm ++ CK rs B)).
          { intros z Hz. apply in_app_or in Hz as [Hz|Hz]; [apply in_or_app; left; apply HDt; exact Hz|].
            apply HKC in Hz. apply in_app_or in Hz as [Hz|Hz]; apply in_or_app; [left; apply HsrD|right]; exact Hz. }
          split; apply Hmv; assumption.
        + (* a binding *)
          assert (Hy : In (rm, rb) Dm).
          { destruct Hpost as [H1 _]. apply HDt. apply H1. left. reflexivity. }
          destruct sr as [| |sm sb]; try contradiction.
          * apply (Hcont (RBinding rm rb)); [discriminate|discriminate| |intros x []|apply incl_refl|exact Hloop].
            intros x [<-|[]]. exact Hy.
          * destruct (Nat.eqb rm sm && binding_eqb rb sb) eqn:Eq.
            -- apply andb_true_iff in Eq as [E1 E2]. apply Nat.eqb_eq in E1. apply binding_eqb_eq in E2. subst rm rb.
               apply (Hcont (RBinding sm sb)); [discriminate|exact Hsr|exact HsrD|apply incl_refl|apply incl_refl|exact Hloop].
            -- inversion Hloop; subst R rs'. split; [exact Hi1|].
               exists (sm, sb), (rm, rb). split.
               ++ intros Heq. inversion Heq; subst. rewrite Nat.eqb_refl in Eq. cbn [andb] in Eq.
                  assert (binding_eqb rb rb = true) by (apply binding_eqb_eq; reflexivity). congruence.
               ++ split; apply in_or_app; left; [apply HsrD; left; reflexivity|exact Hy].
    Qed.

    Lemma stars_post R rs' :
      Dm = flat_map (fun t => D t name) (star_targets (getm g m)) ->
      stars_loop f name (star_targets (getm g m)) RNull (rs ++ [(m, name)]) = Some (R, rs') ->
      post m name rs R rs'.
    Proof.
      intros Hd H.
      destruct (loop_post (star_targets (getm g m)) RNull (rs ++ [(m, name)]) [] R rs') as [Hi Hres]; auto.
      - intros t Ht x Hx. rewrite Hd. apply in_flat_map. exists t. split; assumption.
      - discriminate.
      - intros x [].
      - intros x [].
      - intros p Hp. apply in_app_or in Hp as [Hp|[<-|[]]]; [right; left; exact Hp|left; reflexivity].
      - split; [eapply incl_tran; [apply incl_appl, incl_refl|exact Hi]|].
        assert (Hfin : forall Rf, rs_inv Rf rs' -> incl Dm (setR Rf ++ CK rs B) ->
                  (forall p, In p rs' -> In p rs \/ ((rank (fst p) <= rank m)%nat /\
                               incl (D (fst p) (snd p)) (setR Rf ++ CK rs B)))).
        { intros Rf Hinv Hcov p Hp. destruct (Hinv p Hp) as [Heq|[Ho|[Hr Hc]]].
          - subst p. right. cbn [fst snd]. split; [lia|exact Hcov].
          - left. exact Ho.
          - right. split; [lia|exact Hc]. }
        destruct R as [| |rm rb].
        + destruct Hres as [H1 [H2 H3]]. cbn [app] in H2. rewrite <- Hd in H2.
          split; [exact H1|]. split; [exact H2|apply Hfin; assumption].
        + exact Hres.
        + destruct Hres as [H1 [H2 H3]]. cbn [app] in H2. rewrite <- Hd in H2.
          split; [exact H1|]. split; [exact H2|apply Hfin; assumption].
    Qed.
  End Loop.

  Lemma rs_mem_In m name rs : rs_mem m name rs = true -> In (m, name) rs.
  Proof.
    unfold rs_mem. rewrite existsb_exists. intros [[a b] [Hp He]]. cbn [fst snd] in He.
    apply andb_true_iff in He as [E1 E2]. apply Nat.eqb_eq in E1. apply Z.eqb_eq in E2. subst. exact Hp.
  Qed.

  Lemma post_leaf m name rs R0 :
    D m name = setR R0 -> R0 <> RAmbiguous -> post m name rs R0 (rs ++ [(m, name)]).
  Proof.
    intros HD Hna. split; [apply incl_appl, incl_refl|].
    assert (Hb : covered (D m name) (rank m) rs R0 (rs ++ [(m, name)])).
    { rewrite HD. split; [apply incl_refl|]. split; [apply incl_appl, incl_refl|].
      intros p Hp. apply in_app_or in Hp as [Hp|[<-|[]]]; [left; exact Hp|right]. cbn [fst snd]. split; [lia|].
      rewrite HD. apply incl_appl, incl_refl. }
    destruct R0; try contradiction; exact Hb.
  Qed.

  Lemma post_indirect m name t n rs R rs' :
    (rank t < rank m)%nat -> D m name = D t n ->
    post t n (rs ++ [(m, name)]) R rs' -> post m name rs R rs'.
  Proof.
    intros Hrt Hd [Hi1 Hp].
    assert (HK : incl (CK (rs ++ [(m, name)]) (rank t)) (CK rs (rank m))).
    { intros x Hx. apply CK_elim in Hx as [p [Hpin [Hr Hxp]]].
      apply in_app_or in Hpin as [Hpin|[<-|[]]]; [eapply CK_In; eauto; lia|cbn [fst] in Hr; lia]. }
    assert (HKa : forall X S0, incl X (S0 ++ CK (rs ++ [(m, name)]) (rank t)) -> incl X (S0 ++ CK rs (rank m))).
    { intros X S0 HX x Hx. apply HX in Hx. apply in_app_or in Hx as [Hx|Hx]; apply in_or_app; [left|right; apply HK]; exact Hx. }
    split; [eapply incl_tran; [apply incl_appl, incl_refl|exact Hi1]|].
    rewrite Hd.
    assert (Hb : forall R0, covered (D t n) (rank t) (rs ++ [(m, name)]) R0 rs' -> covered (D t n) (rank m) rs R0 rs').
    { intros R0 [H1 [H2 H3]]. split; [exact H1|]. split; [apply HKa; exact H2|].
      intros p Hpin. destruct (H3 p Hpin) as [Ho|[Hr Hc]].
      - apply in_app_or in Ho as [Ho|[<-|[]]]; [left; exact Ho|right]. cbn [fst snd]. split; [lia|]. rewrite Hd. apply HKa. exact H2.
      - right. split; [lia|]. apply HKa. exact Hc. }
    destruct R as [| |rm rb].
    - apply (Hb RNull). exact Hp.
    - destruct Hp as [x [y [Hxy [Hx Hy]]]]. exists x, y. split; [exact Hxy|].
      split; [apply (HKa [x] (D t n)); [intros z [<-|[]]; exact Hx|left; reflexivity]
             |apply (HKa [y] (D t n)); [intros z [<-|[]]; exact Hy|left; reflexivity]].
    - apply (Hb (RBinding rm rb)). exact Hp.
  Qed.

  Lemma spec_post f : forall m name rs R rs', spec_resolve f g m name rs = Some (R, rs') -> post m name rs R rs'.
  Proof.
    induction f as [|f IH]; intros m name rs R rs' H; [discriminate|].
    rewrite spec_resolve_unfold in H.
    destruct (rs_mem m name rs) eqn:Emem.
    { inversion H; subst R rs'. apply rs_mem_In in Emem.
      split; [apply incl_refl|]. split; [intros x []|]. split; [|auto].
      intros x Hx. cbn [setR app]. eapply (CK_In rs (rank m) (m, name)); eauto. }
    cbn zeta in H. pose proof (den_unfold m name) as Hd.
    destruct (find_export name (m_exports (getm g m))) as [ref|] eqn:Ef.
    - destruct (entry_of (getm g m) ref) as [r|t n|t|] eqn:Ee.
      + inversion H; subst R rs'. apply post_leaf; [exact Hd|discriminate].
      + exact (post_indirect m name t n rs R rs' (indirect_edge _ _ _ _ _ Ef Ee) Hd (IH _ _ _ _ _ H)).
      + inversion H; subst R rs'. apply post_leaf; [exact Hd|discriminate].
      + inversion H; subst R rs'. apply post_leaf; [exact Hd|discriminate].
    - destruct (name =? 0) eqn:E0.
      + inversion H; subst R rs'. apply post_leaf; [exact Hd|discriminate].
      + exact (stars_post f IH m name rs R rs' Hd H).
  Qed.

  (* ResolveExport(exportName) with an empty resolve set computes the denotation *)
  Lemma spec_resolve_is_den f m name R rs' :
    spec_resolve f g m name [] = Some (R, rs') -> R = classify_cands (D m name).
  Proof.
    intros H. destruct (spec_post _ _ _ _ _ _ H) as [_ Hp].
    assert (HK : forall X S0, incl X (S0 ++ CK [] (rank m)) -> incl X S0).
    { intros X S0 HX x Hx. apply HX in Hx. apply in_app_or in Hx as [Hx|[]]. exact Hx. }
    destruct R as [| |rm rb].
    - destruct Hp as [_ [H2 _]]. apply HK in H2. destruct (D m name) as [|c l]; [reflexivity|]. destruct (H2 c (or_introl eq_refl)).
    - destruct Hp as [x [y [Hxy [Hx Hy]]]].
      apply in_app_or in Hx as [Hx|[]]. apply in_app_or in Hy as [Hy|[]].
      symmetry. exact (classify_two _ x y Hx Hy Hxy).
    - destruct Hp as [H1 [H2 _]]. apply HK in H2. cbn [setR] in *.
      symmetry. apply (classify_all_eq _ (rm, rb)); [apply H1; left; reflexivity|].
      intros z Hz. destruct (H2 z Hz) as [<-|[]]. reflexivity.
  Qed.
End SpecDen.
