(* The hits that addExportsForExportStar collects for an alias denote exactly the candidate
   bindings of the set-free denotation, and ResolvedExports is their fold. *)
From V Require Import Common.Base C02.Graph C02.OptFold C02.SpecESM C02.Wrap C02.Resolve C02.ResolveSpec C02.ResolveDen
  C02.SpecDenProofs C02.StarHitsProofs C02.ResolveChainProofs.

Section StarDen.
  Variable g : graph.
  Variable rk : list nat.
  Hypothesis Hrk : ranked_all g rk = true.
  Let rank := rank_of rk.
  Variable kinds : nat -> ekind.
  Hypothesis Hkinds : forall i, ekind_eqb (kinds i) ECJS = false.
  Hypothesis Hunique : forall i, aliases_unique (getm g i).
  Notation D := (den g rk).

  Definition entry_cands (t ref : nat) : list cand :=
    match entry_of (getm g t) ref with
    | XLocal r => [(t, BName r)]
    | XIndirectAll u => [(u, BNamespace)]
    | XIndirect u n => D u n
    | XBroken => []
    end.
  Definition hit_cands (h : hit) : list cand := entry_cands (fst h) (snd h).

  Lemma has_export_find m a : has_export m a = match find_export a (m_exports m) with Some _ => true | None => false end.
  Proof.
    unfold has_export. induction (m_exports m) as [|[b r] l IH]; cbn [existsb find_export fst]; [reflexivity|].
    destruct (b =? a); [reflexivity|exact IH].
  Qed.

  Lemma shadowed_snoc a stack s :
    shadowed g a (stack ++ [s]) =
    shadowed g a stack || match find_export a (m_exports (getm g s)) with Some _ => true | None => false end.
  Proof. unfold shadowed. rewrite existsb_app. cbn [existsb]. rewrite orb_false_r, has_export_find. reflexivity. Qed.

  Lemma hits_shadowed a : forall f s stack, shadowed g a (stack ++ [s]) = true -> hits g f a s stack = [].
  Proof.
    induction f as [|f IH]; intros s stack Hsh; [reflexivity|]. rewrite hits_unfold.
    destruct (memn s stack); [reflexivity|]. apply flat_map_nil. intros t _.
    unfold own_hit. rewrite Hsh, orb_true_r. apply IH. rewrite shadowed_snoc, Hsh. reflexivity.
  Qed.

  (* the traversal stack of addExportsForExportStar on a ranked graph: every file on it ranks above
     the current one, so the cycle guard never fires *)
  Definition above (stack : list nat) (s : nat) : Prop := forall q, In q stack -> (rank q > rank s)%nat.

  Lemma above_push stack s t : above stack s -> (rank t < rank s)%nat -> above (stack ++ [s]) t.
  Proof. intros Hst Hr q Hq. apply in_app_or in Hq as [Hq|[<-|[]]]; [specialize (Hst q Hq); lia|lia]. Qed.

  Lemma above_not_in stack s : above stack s -> memn s stack = false.
  Proof. intros Hst. destruct (memn s stack) eqn:E; [|reflexivity]. apply memn_In in E. specialize (Hst s E). lia. Qed.

  Lemma hits_den a : a <> 0 -> forall f s stack,
    (rank s < f)%nat -> shadowed g a (stack ++ [s]) = false -> above stack s ->
    flat_map hit_cands (hits g f a s stack) = flat_map (fun t => D t a) (star_targets (getm g s)).
  Proof.
    intros Ha. induction f as [|f IH]; intros s stack Hf Hsh Hst; [lia|].
    rewrite hits_unfold.
    rewrite (above_not_in stack s Hst), flat_map_flat_map. apply flat_map_ext_in. intros t Ht.
    pose proof (star_edge g rk Hrk s t Ht) as Hrt. unfold rank in *.
    rewrite flat_map_app, (den_unfold g rk Hrk t a).
    unfold own_hit. replace (a =? 0) with false by lia. rewrite Hsh. cbn [orb].
    destruct (find_export a (m_exports (getm g t))) as [ref|] eqn:Ef.
    - rewrite hits_shadowed.
      + cbn [flat_map]. rewrite !app_nil_r. reflexivity.
      + rewrite shadowed_snoc, Ef. apply orb_true_r.
    - cbn [flat_map app]. apply IH.
      + lia.
      + rewrite shadowed_snoc, Hsh, Ef. reflexivity.
      + apply above_push; [exact Hst|exact Hrt].
  Qed.

  Lemma add_stars_some : forall f res s stack,
    (rank s < f)%nat -> above stack s ->
    exists res', add_stars f g kinds res s stack = Some res'.
  Proof.
    induction f as [|f IH]; intros res s stack Hf Hst; [lia|].
    rewrite add_stars_unfold. destruct (memn s stack); [eauto|].
    apply ofoldl_some. intros t r Ht. rewrite Hkinds.
    pose proof (star_edge g rk Hrk s t Ht) as Hrt. unfold rank in *. apply IH.
    - lia.
    - apply above_push; [exact Hst|exact Hrt].
  Qed.

  (* ResolvedExports[alias] of file o *)
  Lemma resolved_look o a :
    m_lazy (getm g o) = false ->
    ed_lookup a (resolved_of g kinds o) =
    match find_export a (m_exports (getm g o)) with
    | Some ref => Some (mkEd a o ref [])
    | None => fold_hits a None (hits g (S (length g)) a o [])
    end.
  Proof.
    intros Hlazy. unfold resolved_of, resolved_exports.
    assert (H0 : ed_lookup a (resolved0 g kinds o) = option_map (fun r => mkEd a o r []) (find_export a (m_exports (getm g o)))).
    { unfold resolved0. rewrite Hlazy. cbn [andb]. rewrite app_nil_r. apply lookup_map_exports. }
    destruct (m_stars (getm g o)) as [|i0 l0] eqn:Es.
    - rewrite H0. cbn [hits]. rewrite Es. cbn [flat_map memn]. destruct (find_export a (m_exports (getm g o))); reflexivity.
    - destruct (Nat.lt_ge_cases o (length g)) as [Ho|Ho].
      2:{ rewrite getm_out in Es by exact Ho. discriminate. }
      destruct (ranked_mod g rk Hrk o Ho) as [Hr _].
      destruct (add_stars_some (S (length g)) (resolved0 g kinds o) o []) as [res' E].
      + unfold rank in *. lia.
      + intros q [].
      + rewrite E. rewrite (add_stars_look g kinds Hkinds Hunique a _ _ _ _ _ E), H0.
        destruct (find_export a (m_exports (getm g o))) as [ref|] eqn:Ef; cbn [option_map]; [|reflexivity].
        rewrite hits_shadowed; [reflexivity|]. rewrite shadowed_snoc, Ef. reflexivity.
  Qed.

  (* the hits recorded for a star-provided alias denote exactly the candidates of the denotation *)
  Lemma star_hits_den o a :
    a <> 0 -> find_export a (m_exports (getm g o)) = None ->
    flat_map hit_cands (hits g (S (length g)) a o []) = D o a.
  Proof.
    intros Ha Hf. rewrite (den_unfold g rk Hrk o a), Hf. replace (a =? 0) with false by lia.
    destruct (Nat.lt_ge_cases o (length g)) as [Ho|Ho].
    - destruct (ranked_mod g rk Hrk o Ho) as [Hr _]. apply hits_den.
      + exact Ha.
      + unfold rank. apply Nat.lt_lt_succ_r. exact Hr.
      + rewrite shadowed_snoc, Hf. reflexivity.
      + intros q [].
    - cbn [hits memn]. rewrite getm_out by exact Ho. reflexivity.
  Qed.
End StarDen.
