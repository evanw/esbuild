(* Non-vacuity: concrete graphs meeting the hypotheses of the C02 theorems. *)
From V Require Import Common.Base C02.Graph C02.Order C02.SpecESM C02.Wrap C02.Resolve C02.ResolveSpec
  C02.DataUrl C02.SpecDataUrl C02.OrderProofs C02.OrderEsmProofs C02.ResolveProofs C02.WrapProofs C02.DataUrlProofs C02.Emit C02.EmitProofs C02.ResolveChainProofs C02.ResolveDen C02.SpecDenProofs C02.StarHitsProofs C02.StarDenProofs C02.LinkDenProofs C02.ResolveStarsProofs C02.EvalOrder C02.EvalOrderProofs C02.WrapMinProofs C02.WrapGraph C02.WrapExactProofs C02.Interop C02.InteropProofs C02.ResolveCycleProofs.

(* diamond with a back edge: 1 -> 2,3 ; 2 -> 4 ; 3 -> 4 ; 4 -> 1 (cycle); file 0 is the runtime *)
Definition ex_graph : graph :=
  [ mkMod [] [] [] [] [] EESM false false false true false false 0 true [];
    esm_mod [rec_to 2; rec_to 3; rec_to 2] [] [] [] true;
    esm_mod [rec_to 4] [] [] [] false;
    esm_mod [rec_to 4] [] [] [] false;
    esm_mod [rec_to 1] [] [] [] false ].
Definition ex_keys : list okey := [(1, 3, 2%nat); (0, 4, 1%nat); (2, 1, 4%nat); (1, 2, 3%nat)].

Example ex_bundle_order : bundle_order ex_graph ex_keys = Some [0; 4; 2; 3; 1]%nat.
Proof. vm_compute. reflexivity. Qed.
Example ex_spec_order : spec_eval_order ex_graph 1 = Some [4; 2; 3; 1]%nat.
Proof. vm_compute. reflexivity. Qed.
Example ex_sorted : chunk_sorted ex_keys = [1; 3; 2; 4]%nat.
Proof. vm_compute. reflexivity. Qed.
Example ex_reach_order : reach_order ex_graph [1%nat] = Some [0; 4; 2; 3; 1]%nat.
Proof. vm_compute. reflexivity. Qed.

(* the hypotheses of order_is_esm hold for ex_graph *)
Example ex_follow : forall s, followed ex_graph s = stmt_targets (getm ex_graph s).
Proof. intros s. do 5 (destruct s as [|s]; [vm_compute; reflexivity|]). destruct s; reflexivity. Qed.
Example ex_wf : forall s t, In t (stmt_targets (getm ex_graph s)) -> t <> 0%nat /\ (t < length ex_graph)%nat.
Proof.
  intros s t. do 5 (destruct s as [|s]; [cbn; intros H; repeat (destruct H as [<-|H]; [split; [discriminate|lia]|]); contradiction|]).
  destruct s; cbn; contradiction.
Qed.
Example ex_live : forall s, s <> 0%nat -> (s < length ex_graph)%nat -> in_chunk ex_graph s = true.
Proof. intros s H0 Hl. cbn in Hl. do 5 (destruct s as [|s]; [try contradiction; reflexivity|]). lia. Qed.

(* export resolution: found / ambiguous / not found / star shadowing, both sides *)
Definition ex_star : graph :=
  [ empty_module;
    esm_mod [rec_to 2; rec_to 2; rec_to 2] [imp 1 1 0; imp 2 2 1; imp 3 3 2] [] [] true;   (* import {x,y,z} from 2 *)
    esm_mod [rec_to 3; rec_to 4] [] [(3, 0%nat)] [0; 1]%nat false;    (* export z (local); export * from 3, 4 *)
    esm_mod [] [] [(1, 0%nat); (2, 1%nat); (3, 2%nat)] [] false;      (* x y z *)
    esm_mod [] [] [(1, 0%nat)] [] false ].                           (* x *)
Example ex_star_verdicts :
  map (link_verdict ex_star (seq 0 5) 1) (m_imports (getm ex_star 1))
  = [Some VAmbiguous; Some (VFound 3 1); Some (VFound 2 0)]
  /\ map (spec_verdict ex_star 1) (m_imports (getm ex_star 1))
  = [Some VAmbiguous; Some (VFound 3 1); Some (VFound 2 0)].
Proof. vm_compute. split; reflexivity. Qed.

(* how many graphs of the bounded domains satisfy the hypotheses of the partial theorems *)
Example ex_domain1_in_scope :
  Z.of_nat (length (filter (fun fs => let g := graph_of [1;2;3]%nat [1] fs in indirect_acyclic g) domain1)) = 3856.
Proof. vm_compute. reflexivity. Qed.

(* wrapping: 1 requires 2 (ES module), 2 imports 3, 3 imports 4: all of 2,3,4 end up wrapped *)
Definition ex_wrap : graph :=
  [ empty_module;
    mkMod [mkRec (Some 2%nat) KRequire false false] [] [] [] [] ECJS false true false false false true 9 true [];
    esm_mod [rec_to 3] [] [] [] false;
    esm_mod [rec_to 4] [] [] [] false;
    esm_mod [] [] [] [] false ].
Example ex_wrap_result :
  option_map (map snd) (scan_steps12 true true ex_wrap [0; 4; 3; 2; 1]%nat)
  = Some [WNone; WCJS; WESM; WESM; WESM].
Proof. vm_compute. reflexivity. Qed.

(* data URLs: tab, '#', a literal "%41" (escaped), "%4" at the end (not escaped), trailing spaces, 2- and 4-byte characters *)
Definition ex_mime : bytes := [116; 101; 120; 116; 47; 112; 108; 97; 105; 110].   (* text/plain *)
Definition ex_text : bytes := [97; 9; 35; 37; 52; 49; 32; 195; 169; 240; 159; 152; 128; 37; 52; 32; 32].
Example ex_mime_ok : mime_ok ex_mime.
Proof. split; [repeat constructor; lia|reflexivity]. Qed.
Example ex_text_ok : Forall byte_ok ex_text.
Proof. repeat constructor; lia. Qed.
Example ex_encode : encode_percent ex_mime ex_text =
  Some ([100; 97; 116; 97; 58] ++ ex_mime ++ [44; 97; 37; 48; 57; 37; 50; 51; 37; 50; 53; 52; 49; 32; 195; 169; 240; 159; 152; 128; 37; 52; 37; 50; 48; 37; 50; 48]).
Proof. vm_compute. reflexivity. Qed.
Example ex_invalid_utf8 : encode_percent ex_mime [97; 255] = None.
Proof. vm_compute. reflexivity. Qed.

(* classification: the two visiting orders give the same non-trivial assignment *)
Example ex_classify_orders :
  classify true ex_wrap [0; 1; 2; 3; 4]%nat = classify true ex_wrap [4; 3; 2; 1; 0]%nat
  /\ map snd (classify true ex_wrap [0; 1; 2; 3; 4]%nat) = [WNone; WCJS; WESM; WNone; WNone].
Proof. vm_compute. split; reflexivity. Qed.

(* entry exports: table {own, fromMid}, one run-time export star providing {default, fromLeaf, own} *)
Example ex_emit :
  let names_of := fun _ : nat => [0; 5; 1] in
  exported_names names_of FCjs true [1; 2] [0%nat] = [1; 2; 5] /\
  exported_names names_of (FIife true) true [1; 2] [0%nat] = [1; 2; 5] /\
  exported_names names_of FEsm true [1; 2] [0%nat] = [1; 2] /\
  entry_stmts FCjs true [1; 2] [0%nat] = [XExport [1; 2]; XAssignModuleExports; XReExport 0 true].
Proof. vm_compute. repeat split. Qed.

(* star-free chain: e imports {x, ns, q} from a; a re-exports x from b as x, b re-exports y from c as x,
   c defines y; a also has "export * as ns from c" and nothing named q *)
Definition ex_chain : graph :=
  [ esm_mod [] [] [] [] false;
    esm_mod [rec_to 2; rec_to 2; rec_to 2] [imp 1 1 0; imp 2 5 1; imp 3 6 2] [] [] true;
    esm_mod [rec_to 3; rec_to 4] [imp 7 1 0; mkImp 8 0 true 1 None false true] [(1, 7%nat); (5, 8%nat)] [] false;
    esm_mod [rec_to 4] [imp 7 2 0] [(1, 7%nat)] [] false;
    esm_mod [] [] [(2, 0%nat)] [] false ].
Definition ex_chain_rank : list nat := [0; 9; 3; 2; 1]%nat.
Example ex_chain_scope : chain_scope ex_chain ex_chain_rank = true /\ esm_graph ex_chain = true.
Proof. vm_compute. split; reflexivity. Qed.
Example ex_chain_verdicts :
  map (link_verdict ex_chain (seq 0 5) 1) (m_imports (getm ex_chain 1))
  = [Some (VFound 4 0); Some (VFound 4 99); Some VNull]
  /\ map (spec_verdict ex_chain 1) (m_imports (getm ex_chain 1))
  = [Some (VFound 4 0); Some (VFound 4 99); Some VNull].
Proof. vm_compute. split; reflexivity. Qed.

(* entry_sorts_first: the keys of ex_graph meet the hypotheses *)
Example ex_keys_entry : In (0, 4, 1%nat) ex_keys /\ (forall k, In k ex_keys -> k = (0, 4, 1%nat) \/ 0 < kdist k).
Proof.
  split; [right; left; reflexivity|].
  intros k [<-|[<-|[<-|[<-|[]]]]]; cbn; auto; right; lia.
Qed.

(* ranked graph with a diamond of export stars (the second visit of file 4 hits the resolve set)
   and a conflict: 1 stars 2 and 3; 2 and 3 star 4; 4 defines x; 3 also defines y, 2 re-exports 4's x as y *)
Definition ex_den : graph :=
  [ esm_mod [] [] [] [] false;
    esm_mod [rec_to 2; rec_to 3] [] [] [0; 1]%nat true;
    esm_mod [rec_to 4; rec_to 4] [imp 7 1 1] [(2, 7%nat)] [0%nat] false;
    esm_mod [rec_to 4] [] [(2, 0%nat)] [0%nat] false;
    esm_mod [] [] [(1, 0%nat)] [] false ].
Definition ex_den_rank : list nat := [0; 3; 2; 2; 1]%nat.
Example ex_den_ranked : ranked_all ex_den ex_den_rank = true.
Proof. vm_compute. reflexivity. Qed.
Example ex_den_values :
  spec_resolve_export ex_den 1 1 = Some (RBinding 4 (BName 0)) /\
  classify_cands (den ex_den ex_den_rank 1 1) = RBinding 4 (BName 0) /\
  den ex_den ex_den_rank 1 1 = [(4%nat, BName 0); (4%nat, BName 0)] /\
  spec_resolve_export ex_den 1 2 = Some RAmbiguous /\
  classify_cands (den ex_den ex_den_rank 1 2) = RAmbiguous.
Proof. vm_compute. repeat split. Qed.

(* the hits of ex_den: file 1 and alias y (2): file 2 (indirect, ref 7) then file 3 (local, ref 0) *)
Example ex_den_hits :
  hits ex_den 6 2 1 [] = [(2%nat, 7%nat); (3%nat, 0%nat)] /\
  option_map (fun e => (ed_src e, ed_ref e, ed_ambs e)) (ed_lookup 2 (resolved_of ex_den (fun _ => EESM) 1))
    = Some (2%nat, 7%nat, [(3%nat, 0%nat)]) /\
  (forall i, aliases_unique (getm ex_den i)).
Proof.
  split; [vm_compute; reflexivity|]. split; [vm_compute; reflexivity|].
  intros i. apply nodupz_NoDup.
  exact (getm_forallb (fun m => nodupz (map fst (m_exports m))) ex_den i eq_refl eq_refl).
Qed.

Example ex_toesm : to_esm_default (to_esm_node_mode true IFDynamic) true = ModuleExports
  /\ to_esm_default (to_esm_node_mode false IFDynamic) true = ExportsDefault
  /\ to_esm_default (to_esm_node_mode false IFDynamic) false = ModuleExports.
Proof. repeat split. Qed.

(* resolve_is_spec_partial: ex_den plus an importer of x, y and a missing name z from file 1
   (diamond of export stars, a conflict, an indirect export below a star) is in scope *)
Definition ex_stars : graph :=
  ex_den ++ [esm_mod [rec_to 1; rec_to 1; rec_to 1] [imp 20 1 0; imp 21 2 1; imp 22 3 2] [] [] false].
Definition ex_stars_rank : list nat := [0; 3; 2; 2; 1; 4]%nat.
Example ex_stars_scope : star_scope ex_stars ex_stars_rank = true.
Proof. vm_compute. reflexivity. Qed.
Example ex_stars_verdicts :
  map (link_verdict ex_stars (seq 0 6) 5) (m_imports (getm ex_stars 5))
  = [Some (VFound 4 0); Some VAmbiguous; Some VNull]
  /\ map (spec_verdict ex_stars 5) (m_imports (getm ex_stars 5))
  = [Some (VFound 4 0); Some VAmbiguous; Some VNull].
Proof. vm_compute. split; reflexivity. Qed.

(* mixed graph: ES entry 0 imports CommonJS 1 then ES module 2 and requests import(3);
   1 requires CommonJS 4, which requires 1 again (a cycle); 3 (ES, wrapped because it is
   dynamically imported) imports the wrapped ES module 5 *)
Definition ex_mixed : egraph :=
  [ mkEmod true false [1; 2]%nat [] [3%nat] false;
    mkEmod false false [] [4%nat] [] true;
    mkEmod true false [] [] [] false;
    mkEmod true false [5%nat] [] [] true;
    mkEmod false false [] [1%nat] [] true;
    mkEmod true false [] [] [] true ].
Example ex_mixed_consistent : wrap_consistent ex_mixed = true.
Proof. vm_compute. reflexivity. Qed.
Example ex_mixed_trace :
  native_trace ex_mixed 0 = Some [EvStart 1; EvStart 4; EvEnd 4; EvEnd 1; EvStart 2; EvEnd 2; EvStart 0; EvEnd 0; EvStart 5; EvEnd 5; EvStart 3; EvEnd 3]
  /\ bundle_trace ex_mixed 0 = native_trace ex_mixed 0.
Proof. vm_compute. split; reflexivity. Qed.
(* without closure the bundle model really differs: wrapped 3 importing a non-wrapped file *)
Example ex_mixed_needs_closure :
  let g := [mkEmod true false [] [] [1%nat] false; mkEmod true false [2%nat] [] [] true; mkEmod true false [] [] [] false] in
  wrap_consistent g = false /\ bundle_trace g 0 <> native_trace g 0.
Proof. vm_compute. split; [reflexivity|discriminate]. Qed.

(* dataurl_shortest_roundtrip: its codec hypotheses are satisfiable (a two-letters-per-byte codec) *)
Definition toy_enc (t : bytes) : bytes := flat_map (fun b => [65 + b / 16; 65 + b mod 16]) t.
Fixpoint toy_dec (fuel : nat) (l : bytes) : option bytes :=
  match fuel, l with
  | _, [] => Some []
  | S f, a :: b :: r => option_map (cons ((a - 65) * 16 + (b - 65))) (toy_dec f r)
  | _, _ => None
  end.
Example toy_codec_ok :
  (forall t, Forall byte_ok t -> toy_dec (S (length (toy_enc t))) (toy_enc t) = Some t) /\
  (forall t, Forall byte_ok t -> Forall b64_char (toy_enc t)).
Proof.
  split.
  - intros t Ht.
    assert (H : forall f, (length (toy_enc t) < f)%nat -> toy_dec f (toy_enc t) = Some t).
    { induction Ht as [|b t Hb Ht IH]; intros f Hf; [destruct f; reflexivity|].
      cbn [toy_enc flat_map app] in *. destruct f as [|f]; [cbn in Hf; lia|]. cbn [toy_dec].
      fold (toy_enc t) in *. cbn [length] in Hf. rewrite IH by lia. cbn [option_map]. f_equal. f_equal.
      unfold byte_ok in Hb. replace (65 + b / 16 - 65) with (b / 16) by lia. replace (65 + b mod 16 - 65) with (b mod 16) by lia.
      rewrite Z.mul_comm. symmetry. apply Z.div_mod. lia. }
    apply H. lia.
  - intros t Ht. induction Ht as [|b t Hb Ht IH]; [constructor|]. cbn [toy_enc flat_map app].
    destruct (nibbles b Hb). constructor; [unfold b64_char; lia|]. constructor; [unfold b64_char; lia|exact IH].
Qed.

(* wrap_minimal / wrap_exact / classified_mixed_order_is_native on ex_wrap: the side condition holds,
   file 2 is wrapped because it is required, 3 and 4 because a wrapped file imports them; the derived
   evaluation-order graph carries the model's wrap flags and its two traces coincide *)
Definition ex_wrap_order : list nat := [0; 4; 3; 2; 1]%nat.
Example ex_wrap_targets_ok : targets_ok ex_wrap ex_wrap_order = true.
Proof. vm_compute. reflexivity. Qed.
Example ex_wrap_reasons :
  req_dyn ex_wrap ex_wrap_order 2 /\ In 3%nat (all_targets (getm ex_wrap 2)) /\ In 4%nat (all_targets (getm ex_wrap 3)).
Proof.
  split; [|split; cbn; auto].
  exists 1%nat, (mkRec (Some 2%nat) KRequire false false). cbn. auto 10.
Qed.
Example ex_wrap_egraph :
  option_map (fun st => map e_wrapped (egraph_of ex_wrap ex_wrap_order st)) (scan_steps12 true true ex_wrap ex_wrap_order)
  = Some [false; true; true; true; true]
  /\ option_map (fun st => bundle_trace (egraph_of ex_wrap ex_wrap_order st) 1) (scan_steps12 true true ex_wrap ex_wrap_order)
     = Some (Some [EvStart 1; EvStart 4; EvEnd 4; EvStart 3; EvEnd 3; EvStart 2; EvEnd 2; EvEnd 1]).
Proof. vm_compute. split; reflexivity. Qed.

(* imports from a CommonJS file: file 1 (ESM-typed) has `import d, {x} from "./2"`, file 2 is
   CommonJS and uses exports.  Both imports become namespace aliases on the record's namespace symbol
   (ref 7); their values are module.exports and the own key x, as in node; the Babel-interop witness
   (C02-G) lies outside interop_domain *)
Definition ex_interop : graph :=
  [ empty_module;
    mkMod [mkRec (Some 2%nat) KStmt false true] [] [mkImp 5 0 false 0 (Some 7%nat) false false; mkImp 6 1 false 0 (Some 7%nat) false false]
          [] [] EESM false false false false false true 9 true [];
    mkMod [] [] [] [] [] ECJS false true false false false false 9 true [] ].
Definition ex_interop_kinds (i : nat) : ekind := match i with 2%nat => ECJS | _ => EESM end.
Example ex_interop_match :
  match_import ex_interop ex_interop_kinds (fun _ => []) true (1%nat, 5%nat)
  = Some (mkRes MNamespace 0 (Some (1%nat, 7%nat)) 0 0 0, [])
  /\ match_import ex_interop ex_interop_kinds (fun _ => []) true (1%nat, 6%nat)
  = Some (mkRes MNamespace 1 (Some (1%nat, 7%nat)) 0 0 0, []).
Proof. vm_compute. split; reflexivity. Qed.
Example ex_interop_values :
  let c := mkCjs true [1; 0] in
  interop_domain true c 0 = true /\ bundle_get true (IFStatement true) c 0 = VModuleExports
  /\ bundle_get true (IFStatement false) c 1 = VKey 1 /\ bundle_get true IFDynamic c 2 = VUndefined
  /\ interop_domain false c 0 = false /\ bundle_get false IFDynamic c 0 = VKey 0.
Proof. vm_compute. repeat split; reflexivity. Qed.

(* a member of domain3 (resolve_is_spec_partial_bounded4): the 3-cycle of export stars 1 -> 2 -> 3 -> 1,
   file 3 also star-exports 4; x is local in 2 and in 4.  Asked for x, files 1 and 2 answer with 2's
   binding (a local export shadows the stars), file 3 is ambiguous (2's through the cycle, 4's directly),
   in the linker and in ResolveExport alike *)
Definition ex_cycle3 : list module :=
  [ mk_file 1 [(1, XNone)] [2%nat]; mk_file 2 [(1, XLoc)] [3%nat]; mk_file 3 [(1, XNone)] [1; 4]%nat; mk_file 4 [(1, XLoc)] [] ].
Example ex_cycle3_verdicts :
  let g := graph_of [1; 2; 3; 4]%nat [1] ex_cycle3 in
  map (fun ni => (link_verdict g (seq 0 (length g)) 5 ni, spec_verdict g 5 ni)) (m_imports (getm g 5))
  = [(Some (VFound 2 1), Some (VFound 2 1)); (Some (VFound 2 1), Some (VFound 2 1));
     (Some VAmbiguous, Some VAmbiguous); (Some (VFound 4 1), Some (VFound 4 1))].
Proof. vm_compute. reflexivity. Qed.
