(* C02 model: the linker's view of a module graph.

   Mirrors the data read by internal/linker/linker.go (scanImportsAndExports,
   addExportsForExportStar, matchImportWithExport, advanceImportTracker,
   recursivelyWrapDependencies, findImportedPartsInJSOrder) and by
   internal/bundler/bundler.go findReachableFiles:
   js_ast.AST.ImportRecords / NamedImports / NamedExports /
   ExportStarImportRecords / ExportsKind / Parts[i].ImportRecordIndices,
   graph.LinkerFile.IsLive / DistanceFromEntryPoint, StableSourceIndices.
   Export aliases are numbered (0 = "default"); symbol refs are the inner
   index of the ref in its file. *)
From V Require Import Common.Base.

Inductive ikind := KStmt | KRequire | KDynamic | KOther.
Inductive ekind := ENone | ECJS | EESM | EDyn.   (* ExportsNone / CommonJS / ESM / ESMWithDynamicFallback *)
Inductive wkind := WNone | WCJS | WESM.

Record irecord := mkRec {
  r_target : option nat;      (* SourceIndex, None = external/invalid *)
  r_kind : ikind;
  r_star : bool;              (* ast.ContainsImportStar *)
  r_default : bool            (* ast.ContainsDefaultAlias *)
}.

Record nimport := mkImp {
  ni_ref : nat;
  ni_alias : Z;
  ni_is_star : bool;          (* AliasIsStar *)
  ni_record : nat;            (* ImportRecordIndex *)
  ni_ns : option nat;         (* NamespaceRef (inner index), None = InvalidRef *)
  ni_generated : bool;        (* ImportItemStatus == ImportItemGenerated *)
  ni_exported : bool
}.

Record module := mkMod {
  m_records : list irecord;
  m_parts : list (list nat * bool);   (* ImportRecordIndices of each part, part.IsLive *)
  m_imports : list nimport;           (* NamedImports, sorted by ref *)
  m_exports : list (Z * nat);         (* NamedExports: alias -> ref *)
  m_stars : list nat;                 (* ExportStarImportRecords *)
  m_kind : ekind;
  m_lazy : bool;                      (* HasLazyExport *)
  m_uses_exports : bool;
  m_uses_module : bool;
  m_export_kw : bool;                 (* ExportKeyword.Len > 0 *)
  m_is_ts : bool;
  m_entry : bool;                     (* IsEntryPoint *)
  m_exports_ref : nat;
  m_live : bool;                      (* LinkerFile.IsLive (tree shaking result) *)
  m_lazy_exports : list (Z * nat)     (* exports generateCodeForLazyExport creates for a lazy (JSON/text/...) file
                                         when it is not CommonJS: alias -> generated ref *)
}.

Definition graph := list module.

Definition empty_module : module :=
  mkMod [] [] [] [] [] ENone false false false false false false 0 false [].

Definition getm (g : graph) (i : nat) : module := nth i g empty_module.

Lemma getm_out g i : (length g <= i)%nat -> getm g i = empty_module.
Proof. apply nth_overflow. Qed.

Definition ikind_eqb (a b : ikind) : bool :=
  match a, b with KStmt, KStmt | KRequire, KRequire | KDynamic, KDynamic | KOther, KOther => true | _, _ => false end.
Definition ekind_eqb (a b : ekind) : bool :=
  match a, b with ENone, ENone | ECJS, ECJS | EESM, EESM | EDyn, EDyn => true | _, _ => false end.
Definition wkind_eqb (a b : wkind) : bool :=
  match a, b with WNone, WNone | WCJS, WCJS | WESM, WESM => true | _, _ => false end.

Fixpoint memn (x : nat) (l : list nat) : bool :=
  match l with [] => false | y :: r => Nat.eqb x y || memn x r end.

Lemma memn_In x l : memn x l = true <-> In x l.
Proof.
  induction l as [|y r IH]; simpl.
  - split; [discriminate | tauto].
  - rewrite orb_true_iff, IH, Nat.eqb_eq. split; intros [H|H]; auto.
Qed.

Definition record_of (m : module) (i : nat) : option irecord := nth_error (m_records m) i.

(* targets of all import records that resolved to a file, in record order *)
Definition all_targets (m : module) : list nat :=
  flat_map (fun r => match r_target r with Some t => [t] | None => [] end) (m_records m).

(* requested modules of an ES module in source order = targets of its
   import/export-from statements *)
Definition stmt_targets (m : module) : list nat :=
  flat_map (fun r => match r_target r, r_kind r with Some t, KStmt => [t] | _, _ => [] end) (m_records m).
