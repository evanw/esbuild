(* scanImportsAndExports step 1 is confluent: the exports-kind / wrap
   assignment it computes does not depend on the order in which the files are
   visited (the loop mutates the IMPORTED file while iterating).  The loop is
   rewritten as a list of operations on single cells (classify_ops). *)
From Coq Require Import Permutation.
From V Require Import Common.Base C02.Graph C02.Wrap C02.WrapProofs.

(* what one step of the loop does to the cell of one file: an import statement that needs the
   namespace or default of a file without exports kind, a require() / import(), the file's own
   wrap decision *)
Inductive cellop := FStmt (fires : bool) | FReq | FSelf (cond : bool) | FId.

Definition cellf (o : cellop) (c : ekind * wkind) : ekind * wkind :=
  let '(k, w) := c in
  match o with
  | FStmt fires => if fires && ekind_eqb k ENone then (ECJS, WCJS) else c
  | FReq => if ekind_eqb k EESM then (k, WESM) else (ECJS, WCJS)
  | FSelf cond => if ekind_eqb k ECJS && cond then (k, WCJS) else c
  | FId => c
  end.

Definition apply_op (st : cstate) (o : nat * cellop) : cstate := cset st (fst o) (cellf (snd o) (cget st (fst o))).

Lemma cellf_comm a b c : cellf a (cellf b c) = cellf b (cellf a c).
Proof.
  destruct c as [k w].
  destruct a as [fa| |ca|], b as [fb| |cb|]; try destruct fa; try destruct fb; try destruct ca; try destruct cb;
    destruct k, w; reflexivity.
Qed.

Lemma cset_cget_id st i : cset st i (cget st i) = st.
Proof.
  revert i. induction st as [|a st IH]; intros [|i]; cbn; auto.
  unfold cget in *. cbn. f_equal. apply IH.
Qed.

Lemma cset_cset_same st i v v' : cset (cset st i v) i v' = cset st i v'.
Proof. revert i. induction st as [|a st IH]; intros [|i]; cbn; auto. f_equal. apply IH. Qed.

Lemma cset_cset_other st i j v v' : i <> j -> cset (cset st i v) j v' = cset (cset st j v') i v.
Proof.
  revert i j. induction st as [|a st IH]; intros [|i] [|j] H; cbn; auto; try congruence.
  f_equal. apply IH. congruence.
Qed.

Lemma apply_op_comm st a b : apply_op (apply_op st a) b = apply_op (apply_op st b) a.
Proof.
  destruct a as [i fa], b as [j fb]. unfold apply_op. cbn [fst snd].
  destruct (Nat.eq_dec i j) as [->|Hne].
  - destruct (Nat.lt_ge_cases j (length st)) as [Hlt|Hge].
    + rewrite !cget_cset_same by exact Hlt. rewrite !cset_cset_same. f_equal. apply cellf_comm.
    + rewrite !cset_out by (rewrite ?length_cset; exact Hge). reflexivity.
  - rewrite (cget_cset_other _ i j) by exact Hne.
    rewrite (cget_cset_other _ j i) by congruence.
    apply cset_cset_other. exact Hne.
Qed.

Lemma fold_perm {A B} (step : A -> B -> A) :
  (forall st a b, step (step st a) b = step (step st b) a) ->
  forall l1 l2, Permutation l1 l2 -> forall st, fold_left step l1 st = fold_left step l2 st.
Proof.
  intros Hc l1 l2 Hp. induction Hp as [|x l1 l2 Hp IH|x y l|l1 l2 l3 H1 IH1 H2 IH2]; intros st; cbn.
  - reflexivity.
  - apply IH.
  - rewrite Hc. reflexivity.
  - rewrite IH1. apply IH2.
Qed.

Section Ops.
  Variable fmt : bool.
  Variable g : graph.

  Definition op_of_record (r : irecord) : nat * cellop :=
    match r_target r with
    | None => (0%nat, FId)
    | Some t =>
      (t, match r_kind r with
          | KStmt => FStmt ((r_star r || r_default r) && negb (m_lazy (getm g t)))
          | KRequire | KDynamic => FReq
          | KOther => FId
          end)
    end.

  Definition ops_of_file (s : nat) : list (nat * cellop) :=
    map op_of_record (m_records (getm g s)) ++ [(s, FSelf (negb (m_entry (getm g s)) || fmt))].

  Lemma classify_record_op st r : classify_record g st r = apply_op st (op_of_record r).
  Proof.
    unfold classify_record, op_of_record, apply_op. destruct (r_target r) as [t|]; cbn [fst snd].
    - destruct (cget st t) as [k w] eqn:Ec. destruct (r_kind r); cbn [cellf].
      + destruct (r_star r || r_default r), (ekind_eqb k ENone), (m_lazy (getm g t)); cbn [andb negb];
          try reflexivity; rewrite <- Ec; symmetry; apply cset_cget_id.
      + destruct (ekind_eqb k EESM); reflexivity.
      + destruct (ekind_eqb k EESM); reflexivity.
      + rewrite <- Ec. symmetry. apply cset_cget_id.
    - destruct (cget st 0) as [k w] eqn:Ec. cbn [cellf]. rewrite <- Ec. symmetry. apply cset_cget_id.
  Qed.

  Lemma classify_file_ops st s : classify_file fmt g st s = fold_left apply_op (ops_of_file s) st.
  Proof.
    unfold classify_file, ops_of_file. rewrite fold_left_app. cbn [fold_left].
    assert (H : forall rs st0, fold_left (classify_record g) rs st0 = fold_left apply_op (map op_of_record rs) st0).
    { induction rs as [|r rs IH]; intros st0; [reflexivity|]. cbn [fold_left map]. rewrite classify_record_op. apply IH. }
    rewrite H. set (st1 := fold_left apply_op (map op_of_record (m_records (getm g s))) st).
    unfold apply_op. cbn [fst snd]. destruct (cget st1 s) as [k w] eqn:Ec. cbn [cellf].
    destruct (ekind_eqb k ECJS && (negb (m_entry (getm g s)) || fmt)); [reflexivity|].
    rewrite <- Ec. symmetry. apply cset_cget_id.
  Qed.

  Lemma classify_ops order : classify fmt g order = fold_left apply_op (flat_map ops_of_file order) (init_state g).
  Proof.
    unfold classify. generalize (init_state g). induction order as [|s order IH]; intros st; [reflexivity|].
    cbn [fold_left flat_map]. rewrite fold_left_app, IH, classify_file_ops. reflexivity.
  Qed.

  Lemma classify_confluent_all order1 order2 :
    Permutation order1 order2 -> classify fmt g order1 = classify fmt g order2.
  Proof.
    intros Hp. rewrite !classify_ops. apply fold_perm; [apply apply_op_comm|].
    apply Permutation_flat_map. exact Hp.
  Qed.
End Ops.
