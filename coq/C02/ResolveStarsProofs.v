(* resolve_is_spec_partial: for every finite graph in the boolean scope [star_scope] the linker's
   import verdict (classification, ResolvedExports, import matching) is ECMA-262 ResolveExport's. *)
From V Require Import Common.Base C02.Graph C02.SpecESM C02.Wrap C02.Resolve C02.ResolveSpec C02.ResolveDen
  C02.SpecDenProofs C02.StarHitsProofs C02.StarDenProofs C02.ResolveChainProofs C02.LinkDenProofs C02.ScanEsmProofs.

Fixpoint nodupz (l : list Z) : bool :=
  match l with [] => true | x :: r => negb (existsb (Z.eqb x) r) && nodupz r end.

Lemma nodupz_NoDup l : nodupz l = true -> NoDup l.
Proof.
  induction l as [|x r IH]; intros H; [constructor|]. cbn in H. apply andb_true_iff in H as [H1 H2].
  constructor; [|apply IH; exact H2]. intro Hin. apply negb_true_iff in H1.
  assert (existsb (Z.eqb x) r = true) by (apply existsb_exists; exists x; split; [exact Hin|apply Z.eqb_refl]). congruence.
Qed.

Definition unique_aliases_b (g : graph) : bool := forallb (fun m => nodupz (map fst (m_exports m))) g.
Definition exports_ref_free (g : graph) : bool :=
  forallb (fun m => forallb (fun p => negb (Nat.eqb (snd p) (m_exports_ref m))) (m_exports m)) g.
(* every indirect export entry resolves (InitializeEnvironment would otherwise throw) *)
Definition indirect_link (g : graph) (rk : list nat) : bool :=
  forallb (fun s => forallb (fun p => match entry_of (getm g s) (snd p) with
                                      | XIndirect u n => match den g rk u n with [] => false | _ => true end
                                      | _ => true end) (m_exports (getm g s)))
          (seq 0 (length g)).

(* scope of resolve_is_spec_partial: plain ES modules; named imports target files with an export
   statement (excludes refuted shape C); rank certificate for export stars and indirect exports
   (excludes refuted shape B, the re-export cycle); distinct export aliases per file; the
   exports object is not an export; every indirect export resolves *)
Definition star_scope (g : graph) (rk : list nat) : bool :=
  esm_graph g && plain_modules g && named_targets_export g && ranked_all g rk
  && unique_aliases_b g && exports_ref_free g && indirect_link g rk.

Section Final.
  Variable g : graph.
  Variable rk : list nat.
  Hypothesis Hscope : star_scope g rk = true.

  Lemma scope_split :
    esm_graph g = true /\ plain_modules g = true /\ named_targets_export g = true /\ ranked_all g rk = true /\
    unique_aliases_b g = true /\ exports_ref_free g = true /\ indirect_link g rk = true.
  Proof. unfold star_scope in Hscope. repeat (apply andb_true_iff in Hscope as [Hscope ?]). repeat split; assumption. Qed.

  Lemma scope_unique : forall i, aliases_unique (getm g i).
  Proof.
    intros i. destruct scope_split as [_ [_ [_ [_ [H _]]]]]. unfold unique_aliases_b in H.
    pose proof (getm_forallb _ g i H eq_refl) as Hi. cbn beta in Hi. apply nodupz_NoDup. exact Hi.
  Qed.

  Lemma scope_noref : forall m p, In p (m_exports (getm g m)) -> snd p <> m_exports_ref (getm g m).
  Proof.
    intros m p Hp. destruct scope_split as [_ [_ [_ [_ [_ [H _]]]]]]. unfold exports_ref_free in H.
    pose proof (getm_forallb _ g m H eq_refl) as Hm. cbn beta in Hm. rewrite forallb_forall in Hm.
    specialize (Hm p Hp). apply negb_true_iff in Hm. apply Nat.eqb_neq. exact Hm.
  Qed.

  Lemma scope_link : forall m a ref u n,
    find_export a (m_exports (getm g m)) = Some ref -> entry_of (getm g m) ref = XIndirect u n -> den g rk u n <> [].
  Proof.
    intros m a ref u n Hf He. destruct scope_split as [_ [_ [_ [_ [_ [_ H]]]]]]. unfold indirect_link in H.
    assert (Hm : (m < length g)%nat).
    { exact (exports_in_range g _ _ _ Hf). }
    rewrite forallb_forall in H. specialize (H m). rewrite in_seq in H. specialize (H ltac:(lia)).
    rewrite forallb_forall in H. specialize (H (a, ref) (find_export_In _ _ _ Hf)). cbn [snd] in H. rewrite He in H.
    destruct (den g rk u n); [discriminate|discriminate].
  Qed.

  Lemma stars_agree kinds s ref ni r ev R :
    (forall i, (i < length g)%nat -> kinds i = EESM) -> (forall i, ekind_eqb (kinds i) ECJS = false) ->
    import_of g (s, ref) = Some ni ->
    match_import g kinds (resolved_of g kinds) true (s, ref) = Some (r, ev) ->
    spec_import g s ni = Some R ->
    mres_verdict r ev = resolution_verdict g R.
  Proof.
    intros HkE HkC Hi Hm Hsp.
    destruct scope_split as [_ [Hplain [Hnamed [Hrk _]]]].
    apply (import_agree g kinds s ref ni r ev R Hplain Hnamed HkE Hi Hm Hsp). intros o rs' Es Ho E.
    rewrite (spec_resolve_is_den g rk Hrk _ _ _ _ _ E). unfold match_import in Hm.
    assert (Hcyc : cyc_ge g rk [] (S (rank_of rk o))) by (intros c []).
    pose proof (mloop_den g rk kinds Hrk HkE HkC Hplain Hnamed scope_unique scope_noref scope_link _ (s, ref) ni o [] res0 [] [] r ev Hi Es Ho Hcyc Hm) as Hp.
    destruct Hp as [[Hnil [Hr He]]|[Hne [He [rp [N [Hr HS]]]]]].
    - rewrite Hnil. subst r. cbn [classify_cands resolution_verdict]. unfold mres_verdict, check. cbn [existsb mr_kind res0].
      unfold has_nomatch in He. rewrite He. reflexivity.
    - subst ev. cbn [app] in Hr. subst r.
      assert (Hok : forall y, In y (den g rk o (ni_alias ni)) -> cand_ok g y) by (intros y Hy; eapply (den_ok g rk scope_noref); eauto).
      pose proof (Sum_check g _ _ _ Hok HS) as Hel.
      destruct (Elem_classify g _ _ Hel) as [[-> ->]|[y [L [-> ->]]]].
      + reflexivity.
      + unfold mres_verdict, normal_of. cbn. destruct y as [m b]. destruct b; reflexivity.
  Qed.

  Lemma stars_link_agree order s ni v1 v2 :
    import_of g (s, ni_ref ni) = Some ni ->
    link_verdict g order s ni = Some v1 -> spec_verdict g s ni = Some v2 -> v1 = v2.
  Proof.
    intros Hi. destruct scope_split as [Hesm _]. apply (link_agree_esm g order s ni v1 v2 Hesm).
    intros kinds r ev R HkE HkC Hm Hsp. exact (stars_agree kinds s (ni_ref ni) ni r ev R HkE HkC Hi Hm Hsp).
  Qed.
End Final.
