(* Lemmas about the depth-first orders of Order.v: every file reachable from
   the roots is emitted exactly once, nothing else is. *)
From V Require Import Common.Base C02.Graph C02.OptFold C02.Order.

Lemma NoDup_app_intro {A} (l1 l2 : list A) :
  NoDup l1 -> NoDup l2 -> (forall x, In x l1 -> In x l2 -> False) -> NoDup (l1 ++ l2).
Proof.
  induction l1 as [|a l1 IH]; intros H1 H2 Hd; cbn; [exact H2|].
  inversion H1; subst. constructor.
  - intro Hin. apply in_app_or in Hin as [Hin|Hin]; [contradiction|]. eapply Hd; [left; reflexivity|exact Hin].
  - apply IH; auto. intros x Hx1 Hx2. eapply Hd; [right; exact Hx1|exact Hx2].
Qed.

Section DFSProofs.
  Variable succs : nat -> list nat.
  Variable emit : nat -> bool.

  Inductive reach : nat -> nat -> Prop :=
  | reach_refl x : reach x x
  | reach_step x y z : In y (succs x) -> reach y z -> reach x z.

  Lemma reach_closed (S : list nat) :
    (forall y, In y S -> incl (succs y) S) -> forall a b, reach a b -> In a S -> In b S.
  Proof.
    intros Hc a b Hp. induction Hp as [x|x y z Hy Hp IH]; intros Hx; [exact Hx|].
    apply IH. apply (Hc x Hx). exact Hy.
  Qed.

  Lemma visit_visited fuel s st :
    memn s (fst st) = true -> visit succs emit (S fuel) s st = Some st.
  Proof. intros H. cbn [visit]. rewrite H. reflexivity. Qed.

  (* what visiting srcs does: the output grows by [new], without repetition, the emitting files
     among the newly visited; every newly visited file has all its successors visited and is
     reachable from srcs *)
  Definition Inv (srcs : list nat) (st st' : dstate) : Prop :=
    incl (fst st) (fst st') /\
    exists new, snd st' = snd st ++ new /\ NoDup new /\
      (forall x, In x new -> ~ In x (fst st) /\ In x (fst st') /\ emit x = true) /\
      (forall x, In x (fst st') -> ~ In x (fst st) ->
         incl (succs x) (fst st') /\ (emit x = true -> In x new) /\ exists r, In r srcs /\ reach r x).

  Lemma Inv_refl srcs st : Inv srcs st st.
  Proof.
    split; [apply incl_refl|]. exists []. rewrite app_nil_r.
    repeat split; try constructor; intros; try contradiction.
  Qed.

  Lemma Inv_trans A B st st1 st2 : Inv A st st1 -> Inv B st1 st2 -> Inv (A ++ B) st st2.
  Proof.
    intros [I1 [n1 [E1 [N1 [C1 D1]]]]] [I2 [n2 [E2 [N2 [C2 D2]]]]].
    split; [eapply incl_tran; eauto|].
    exists (n1 ++ n2). split; [rewrite E2, E1, app_assoc; reflexivity|].
    split.
    { apply NoDup_app_intro; auto. intros x Hx1 Hx2.
      destruct (C1 x Hx1) as [_ [Hin _]]. destruct (C2 x Hx2) as [Hnot _]. contradiction. }
    split.
    - intros x Hx. apply in_app_or in Hx as [Hx|Hx].
      + destruct (C1 x Hx) as [Ha [Hb Hc]]. auto.
      + destruct (C2 x Hx) as [Ha [Hb Hc]]. split; [|auto]. intro Hin. apply Ha. apply I1. exact Hin.
    - intros x Hx Hnot.
      destruct (in_dec Nat.eq_dec x (fst st1)) as [Hin|Hnin].
      + destruct (D1 x Hin Hnot) as [Ha [Hb [r [Hr Hp]]]].
        split; [eapply incl_tran; eauto|]. split; [intro He; apply in_or_app; left; auto|].
        exists r. split; [apply in_or_app; left; auto|auto].
      + destruct (D2 x Hx Hnin) as [Ha [Hb [r [Hr Hp]]]].
        split; [auto|]. split; [intro He; apply in_or_app; right; auto|].
        exists r. split; [apply in_or_app; right; auto|auto].
  Qed.

  Lemma vfold_none v l : vfold v l None = None.
  Proof. apply ofoldl_none. Qed.

  Lemma vfold_cons v x l st : vfold v (x :: l) (Some st) = vfold v l (v x st).
  Proof. reflexivity. Qed.

  Lemma vfold_Inv (v : nat -> dstate -> option dstate) :
    (forall s st st', v s st = Some st' -> Inv [s] st st' /\ In s (fst st')) ->
    forall l st st', vfold v l (Some st) = Some st' ->
      Inv l st st' /\ (forall t, In t l -> In t (fst st')).
  Proof.
    intros Hv l st st' H.
    apply (ofoldl_ind v (fun pre st1 => Inv pre st st1 /\ forall t, In t pre -> In t (fst st1)) l st st' H).
    - split; [apply Inv_refl|intros t []].
    - intros pre x st1 st2 _ [I1 Hpre] E. destruct (Hv _ _ _ E) as [I2 Hx].
      split; [eapply Inv_trans; eauto|].
      intros t Ht. apply in_app_or in Ht as [Ht|[<-|[]]]; [apply (proj1 I2), Hpre, Ht|exact Hx].
  Qed.

  Lemma visit_Inv fuel : forall s st st',
    visit succs emit fuel s st = Some st' -> Inv [s] st st' /\ In s (fst st').
  Proof.
    induction fuel as [|f IH]; intros s st st' H; [discriminate|].
    cbn [visit] in H. destruct (memn s (fst st)) eqn:Em.
    - inversion H; subst. split; [apply Inv_refl|]. apply memn_In. exact Em.
    - destruct (vfold (visit succs emit f) (succs s) (Some (s :: fst st, snd st))) as [st1|] eqn:Ef; [|discriminate].
      inversion H; subst; clear H.
      destruct (vfold_Inv _ IH _ _ _ Ef) as [[I1 [n1 [E1 [N1 [C1 D1]]]]] Hall].
      cbn [fst snd] in *.
      assert (Hs : ~ In s (fst st)). { intro Hin. apply memn_In in Hin. congruence. }
      assert (Hs1 : In s (fst st1)). { apply I1. left. reflexivity. }
      split; [|exact Hs1].
      split. { intros x Hx. apply I1. right. exact Hx. }
      exists (n1 ++ if emit s then [s] else []).
      split. { rewrite E1. destruct (emit s); [rewrite app_assoc|rewrite app_nil_r]; reflexivity. }
      split.
      { apply NoDup_app_intro; auto.
        - destruct (emit s); constructor; [intros []|constructor].
        - intros x Hx1 Hx2. destruct (emit s); [|contradiction]. destruct Hx2 as [<-|[]].
          destruct (C1 _ Hx1) as [Hn _]. apply Hn. left. reflexivity. }
      split.
      + intros x Hx. apply in_app_or in Hx as [Hx|Hx].
        * destruct (C1 x Hx) as [Ha [Hb Hc]]. split; [|auto]. intro Hin. apply Ha. right. exact Hin.
        * destruct (emit s) eqn:Ee; [|contradiction]. destruct Hx as [<-|[]]. auto.
      + intros x Hx Hnot. destruct (Nat.eq_dec x s) as [->|Hne].
        * split; [intros t Ht; apply Hall; exact Ht|].
          split. { intro He. apply in_or_app. right. rewrite He. left. reflexivity. }
          exists s. split; [left; reflexivity|constructor].
        * assert (Hn2 : ~ In x (s :: fst st)). { intros [Heq|Hin]; [congruence|contradiction]. }
          destruct (D1 x Hx Hn2) as [Ha [Hb [r [Hr Hp]]]].
          split; [exact Ha|]. split. { intro He. apply in_or_app. left. auto. }
          exists s. split; [left; reflexivity|]. eapply reach_step; eauto.
  Qed.

  (* every emitted file is emitted once; the emitted files are exactly the
     emitting files reachable from a root *)
  Lemma visit_all_spec fuel roots out :
    visit_all succs emit fuel roots = Some out ->
    NoDup out /\
    forall x, In x out <-> (emit x = true /\ exists r, In r roots /\ reach r x).
  Proof.
    unfold visit_all. intros H.
    destruct (vfold (visit succs emit fuel) roots (Some ([], []))) as [st|] eqn:E; [|discriminate].
    inversion H; subst; clear H.
    destruct (vfold_Inv _ (visit_Inv fuel) _ _ _ E) as [[I1 [n [E1 [N1 [C1 D1]]]]] Hall].
    cbn [fst snd app] in *. rewrite E1.
    split; [exact N1|].
    pose proof (reach_closed (fst st) (fun y Hy => proj1 (D1 y Hy (fun f => f)))) as Hclosed.
    intros x. split.
    - intros Hx. destruct (C1 x Hx) as [_ [Hin He]]. split; [exact He|].
      destruct (D1 x Hin (fun f => f)) as [_ [_ Hr]]. exact Hr.
    - intros [He [r [Hr Hp]]].
      assert (Hin : In x (fst st)). { eapply Hclosed; eauto. }
      destruct (D1 x Hin (fun f => f)) as [_ [Hn _]]. auto.
  Qed.
End DFSProofs.

Lemma insert_key_In k l x : In x (insert_key k l) -> x = k \/ In x l.
Proof.
  induction l as [|h r IH]; cbn [insert_key]; intros H.
  - destruct H as [<-|[]]. left. reflexivity.
  - destruct (key_less h k).
    + destruct H as [<-|H]; [right; left; reflexivity|]. destruct (IH H) as [->|Hr]; [left; reflexivity|right; right; exact Hr].
    + destruct H as [<-|H]; [left; reflexivity|right; exact H].
Qed.

Lemma sort_keys_In l x : In x (sort_keys l) -> In x l.
Proof.
  induction l as [|k l IH]; cbn [sort_keys fold_right]; intros H; [exact H|].
  apply insert_key_In in H as [->|H]; [left; reflexivity|right; apply IH; exact H].
Qed.

Definition kdist (k : okey) : Z := fst (fst k).

Lemma insert_key_nonempty k l : insert_key k l <> [].
Proof. destruct l as [|h r]; cbn; [|destruct (key_less h k)]; discriminate. Qed.

Lemma sort_head_min l : forall h r, sort_keys l = h :: r -> forall k, In k l -> kdist h <= kdist k.
Proof.
  induction l as [|k0 l IH]; intros h r Hs k Hk; [contradiction|].
  cbn [sort_keys fold_right] in Hs. fold (sort_keys l) in Hs, IH.
  destruct (sort_keys l) as [|[[dh th] ih] r'] eqn:Es.
  - destruct l; [|cbn in Es; apply insert_key_nonempty in Es; contradiction].
    inversion Hs; subst. destruct Hk as [<-|[]]. lia.
  - specialize (IH _ _ eq_refl). destruct k0 as [[dk tk] ik]. cbn [insert_key key_less] in Hs.
    destruct ((dh <? dk) || ((dh =? dk) && (th <? tk))) eqn:E; inversion Hs; subst;
      (destruct Hk as [<-|Hk]; [|specialize (IH k Hk)]); unfold kdist in *; cbn [fst] in *; lia.
Qed.

(* with a single entry point (distance 0, every other file of the chunk at a positive distance)
   the sorted list starts with the entry point *)
Lemma entry_sorts_first_all keys e t0 :
  In (0, t0, e) keys -> (forall k, In k keys -> k = (0, t0, e) \/ 0 < kdist k) ->
  exists rest, chunk_sorted keys = e :: rest.
Proof.
  intros Hin Hall. unfold chunk_sorted.
  destruct (sort_keys keys) as [|h r] eqn:Es.
  - destruct keys; [contradiction|cbn in Es; apply insert_key_nonempty in Es; contradiction].
  - pose proof (sort_head_min _ _ _ Es _ Hin) as Hle.
    destruct (Hall h (sort_keys_In _ _ ltac:(rewrite Es; left; reflexivity))) as [->|Hpos];
      [eexists; reflexivity|cbn in Hle; lia].
Qed.
