(* On a graph of ES modules whose records are import statements resolved inside the graph,
   scanImportsAndExports steps 1-2 leave every exports kind and wrap as they were. *)
From V Require Import Common.Base C02.Graph C02.OptFold C02.Wrap C02.WrapProofs C02.SpecESM C02.Resolve C02.ResolveSpec C02.ResolveChainProofs.

(* What the argument needs of a graph: every file is an ES module or, like the runtime file of
   the bounded domains, has no exports kind at all; every record is an import statement that
   resolved to an ES module of the graph. *)
Definition scan_inert (g : graph) : bool :=
  forallb (fun m => (ekind_eqb (m_kind m) EESM || ekind_eqb (m_kind m) ENone)
                    && forallb (fun r => ikind_eqb (r_kind r) KStmt
                                         && match r_target r with
                                            | Some t => Nat.ltb t (length g) && ekind_eqb (m_kind (getm g t)) EESM
                                            | None => false
                                            end) (m_records m)) g.

Lemma esm_graph_inert g : esm_graph g = true -> scan_inert g = true.
Proof.
  unfold esm_graph, scan_inert. intros H. rewrite forallb_forall in H. apply forallb_forall. intros m Hm.
  destruct (proj1 (andb_true_iff _ _) (H m Hm)) as [Hk Hr]. rewrite Hk. cbn [orb andb].
  rewrite forallb_forall in Hr. apply forallb_forall. intros r Hrin.
  destruct (proj1 (andb_true_iff _ _) (Hr r Hrin)) as [Hk1 Ht]. rewrite Hk1. cbn [andb].
  destruct (r_target r) as [t|]; [|discriminate]. rewrite Ht. cbn [andb].
  apply Nat.ltb_lt in Ht. exact (proj1 (proj1 (andb_true_iff _ _) (H _ (nth_In g empty_module Ht)))).
Qed.

Lemma filter_length_le {A} (f : A -> bool) l : (length (filter f l) <= length l)%nat.
Proof. induction l as [|x l IH]; cbn [filter]; [|destruct (f x)]; cbn [length]; lia. Qed.

Lemma not_in_le vis vis' l : incl vis vis' ->
  (length (filter (fun i => negb (memn i vis')) l) <= length (filter (fun i => negb (memn i vis)) l))%nat.
Proof.
  intros Hi. induction l as [|x l IH]; [apply Nat.le_refl|].
  cbn [filter]. destruct (memn x vis) eqn:E.
  - apply memn_In, Hi, memn_In in E. rewrite E. exact IH.
  - cbn [negb]. destruct (memn x vis'); cbn [negb length]; lia.
Qed.

Lemma not_in_lt s vis l : In s l -> memn s vis = false ->
  (length (filter (fun i => negb (memn i (s :: vis))) l) < length (filter (fun i => negb (memn i vis)) l))%nat.
Proof.
  intros Hin Hm. induction l as [|x l IH]; [destruct Hin|].
  pose proof (not_in_le vis (s :: vis) l (incl_tl s (incl_refl vis))) as Hle.
  cbn [filter]. destruct (Nat.eq_dec x s) as [->|Hx].
  - replace (memn s (s :: vis)) with true by (cbn [memn]; rewrite Nat.eqb_refl; reflexivity).
    rewrite Hm. cbn [negb length]. lia.
  - replace (memn x (s :: vis)) with (memn x vis) by (cbn [memn]; rewrite (proj2 (Nat.eqb_neq x s) Hx); reflexivity).
    destruct Hin as [->|Hin]; [contradiction|].
    specialize (IH Hin). destruct (memn x vis); cbn [negb length]; lia.
Qed.

Section ScanInert.
  Variable g : graph.
  Hypothesis Hinert : scan_inert g = true.

  (* outside the graph [getm] is the empty module, no kind and no records, which passes the test:
     so what scan_inert tests holds of [getm g i] for every i *)
  Lemma inert_kind i : m_kind (getm g i) = EESM \/ m_kind (getm g i) = ENone.
  Proof.
    pose proof (getm_forallb _ g i Hinert eq_refl) as H. cbn beta in H. apply andb_true_iff in H as [Hk _].
    destruct (m_kind (getm g i)); try discriminate; auto.
  Qed.

  Lemma inert_record i r : In r (m_records (getm g i)) ->
    r_kind r = KStmt /\ exists t, r_target r = Some t /\ (t < length g)%nat /\ m_kind (getm g t) = EESM.
  Proof.
    intros Hr. pose proof (getm_forallb _ g i Hinert eq_refl) as H. cbn beta in H. apply andb_true_iff in H as [_ Hrs].
    rewrite forallb_forall in Hrs. specialize (Hrs r Hr). apply andb_true_iff in Hrs as [Hk Ht].
    split; [destruct (r_kind r); try discriminate; reflexivity|].
    destruct (r_target r) as [t|]; [|discriminate]. apply andb_true_iff in Ht as [Hlt Hkt].
    exists t. repeat split; [apply Nat.ltb_lt; exact Hlt | destruct (m_kind (getm g t)); try discriminate; reflexivity].
  Qed.

  Lemma init_cell i : exists k, cget (init_state g) i = (k, WNone) /\ (k = EESM \/ k = ENone).
  Proof. rewrite cget_init_state. eexists. split; [reflexivity | apply inert_kind]. Qed.

  Lemma classify_record_id i r : In r (m_records (getm g i)) -> classify_record g (init_state g) r = init_state g.
  Proof.
    intros Hr. destruct (inert_record i r Hr) as [Hk [t [Ht [_ Hkt]]]].
    unfold classify_record. rewrite Ht, cget_init_state, Hkt, Hk. cbn. rewrite andb_false_r. reflexivity.
  Qed.

  Lemma classify_id fmt order : classify fmt g order = init_state g.
  Proof.
    apply fold_left_id. intros s _. unfold classify_file.
    rewrite fold_left_id by (intros r Hr; eapply classify_record_id; eauto).
    destruct (init_cell s) as [k [E [->| ->]]]; rewrite E; reflexivity.
  Qed.

  (* the files of the graph that hasDynamicExportsDueToExportStar has not visited yet: every call
     below the first visits one more, which is why S (length g) is fuel enough *)
  Definition unvisited (vis : list nat) : list nat := filter (fun i => negb (memn i vis)) (seq 0 (length g)).

  Lemma unvisited_incl vis vis' : incl vis vis' -> (length (unvisited vis') <= length (unvisited vis))%nat.
  Proof. apply not_in_le. Qed.

  Lemma unvisited_cons s vis : (s < length g)%nat -> memn s vis = false ->
    (length (unvisited (s :: vis)) < length (unvisited vis))%nat.
  Proof. intros Hs. apply not_in_lt, in_seq. lia. Qed.

  Lemma dyn_star_inert keep fuel : forall s vis, (length (unvisited vis) < fuel)%nat ->
    exists vis', dyn_star fuel keep g s (init_state g) vis = Some (false, init_state g, vis') /\ incl vis vis'.
  Proof.
    induction fuel as [|f IH]; intros s vis Hf; [lia|].
    cbn [dyn_star]. destruct (init_cell s) as [k [E Hk]]. rewrite E.
    replace (ekind_eqb k ECJS || ekind_eqb k EDyn) with false by (destruct Hk; subst; reflexivity).
    destruct (memn s vis) eqn:Hm; [exists vis; split; [reflexivity | apply incl_refl]|].
    assert (Hstep : forall stars vis0, (length (unvisited vis0) < f)%nat ->
              exists vis', dyn_loop (dyn_star f keep g) keep (getm g s) s stars (init_state g) vis0
                           = Some (false, init_state g, vis') /\ incl vis0 vis').
    { induction stars as [|i rest IHl]; intros vis0 H0; cbn [dyn_loop].
      - exists vis0. split; [reflexivity | apply incl_refl].
      - unfold record_of. destruct (nth_error (m_records (getm g s)) i) as [rc|] eqn:En; [|exact (IHl vis0 H0)].
        destruct (inert_record s rc (nth_error_In _ _ En)) as [_ [t [Ht _]]]. rewrite Ht.
        destruct (Nat.eqb t s); [exact (IHl vis0 H0)|].
        destruct (IH t vis0 H0) as [vis1 [-> H1]].
        pose proof (unvisited_incl _ _ H1). destruct (IHl vis1 ltac:(lia)) as [vis2 [-> H2]].
        exists vis2. split; [reflexivity | eapply incl_tran; eassumption]. }
    destruct (Nat.lt_ge_cases s (length g)) as [Hs|Hs].
    - pose proof (unvisited_cons s vis Hs Hm). destruct (Hstep (m_stars (getm g s)) (s :: vis) ltac:(lia)) as [vis' [-> H']].
      exists vis'. split; [reflexivity | intros x Hx; apply H'; right; exact Hx].
    - unfold getm at 2. rewrite nth_overflow by exact Hs. cbn [m_stars empty_module dyn_loop].
      exists (s :: vis). split; [reflexivity | intros x Hx; right; exact Hx].
  Qed.

  Lemma wrap_file_inert keep did s :
    wrap_file (S (length g)) keep g (Some (init_state g, did)) s = Some (init_state g, did).
  Proof.
    unfold wrap_file. cbn [fst snd].
    destruct (init_cell s) as [k [E _]]. rewrite E. cbn [snd wkind_eqb].
    assert (H2 : match m_stars (getm g s) with
                 | [] => Some (init_state g)
                 | _ :: _ => match dyn_star (S (length g)) keep g s (init_state g) [] with
                             | Some (_, st', _) => Some st' | None => None end
                 end = Some (init_state g)).
    { destruct (m_stars (getm g s)); [reflexivity|].
      destruct (dyn_star_inert keep (S (length g)) s []) as [vis' [-> _]]; [|reflexivity].
      unfold unvisited. rewrite <- (seq_length (length g) 0) at 2. apply Nat.lt_succ_r, filter_length_le. }
    rewrite H2. apply fold_left_id. intros t _. cbn [fst].
    destruct (init_cell t) as [k' [E' [->| ->]]]; rewrite E'; reflexivity.
  Qed.

  Lemma scan_inert_id fmt keep order : scan_steps12 fmt keep g order = Some (init_state g).
  Proof.
    unfold scan_steps12. rewrite classify_id.
    rewrite (fold_left_id (wrap_file (S (length g)) keep g) order (Some (init_state g, []))); [reflexivity|].
    intros s _. apply wrap_file_inert.
  Qed.
End ScanInert.

Lemma link_verdict_inert g order s ni : scan_inert g = true ->
  link_verdict g order s ni =
  let kinds := fun i => fst (cget (init_state g) i) in
  match match_import g kinds (resolved_of g kinds) true (s, ni_ref ni) with
  | Some (r, ev) => Some (mres_verdict r ev)
  | None => None
  end.
Proof. intros H. unfold link_verdict. rewrite (scan_inert_id g H). reflexivity. Qed.

Lemma link_agree_esm g order s ni v1 v2 :
  esm_graph g = true ->
  (forall kinds r ev R,
     (forall i, (i < length g)%nat -> kinds i = EESM) -> (forall i, ekind_eqb (kinds i) ECJS = false) ->
     match_import g kinds (resolved_of g kinds) true (s, ni_ref ni) = Some (r, ev) ->
     spec_import g s ni = Some R -> mres_verdict r ev = resolution_verdict g R) ->
  link_verdict g order s ni = Some v1 -> spec_verdict g s ni = Some v2 -> v1 = v2.
Proof.
  intros He Hmatch Hl Hsp. pose proof (esm_graph_inert g He) as Hi.
  rewrite (link_verdict_inert g order s ni Hi) in Hl. cbv zeta in Hl.
  destruct (match_import g _ _ true (s, ni_ref ni)) as [[r ev]|] eqn:Em; [|discriminate].
  unfold spec_verdict in Hsp. destruct (spec_import g s ni) as [R|] eqn:ER; [|discriminate].
  inversion Hl; subst v1. inversion Hsp; subst v2.
  apply (Hmatch (fun i => fst (cget (init_state g) i)) r ev R); [| |exact Em|reflexivity].
  - intros i Hlt. rewrite cget_init_state. unfold esm_graph in He. rewrite forallb_forall in He.
    specialize (He _ (nth_In g empty_module Hlt)). apply andb_true_iff in He as [Hk _].
    fold (getm g i) in Hk. destruct (m_kind (getm g i)); try discriminate. reflexivity.
  - intros i. destruct (init_cell g Hi i) as [k [E [->| ->]]]; rewrite E; reflexivity.
Qed.

Lemma starfree_link_agree g rk order s ni v1 v2 :
  esm_graph g = true -> chain_scope g rk = true ->
  import_of g (s, ni_ref ni) = Some ni ->
  link_verdict g order s ni = Some v1 -> spec_verdict g s ni = Some v2 -> v1 = v2.
Proof.
  intros He Hs Hi. apply (link_agree_esm g order s ni v1 v2 He). intros kinds r ev R HkE _ Hm Hsp.
  exact (starfree_agree g rk kinds Hs HkE s (ni_ref ni) ni r ev R Hi Hm Hsp).
Qed.
