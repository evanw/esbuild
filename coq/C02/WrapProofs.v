(* Wrapping is closed under imports: after scanImportsAndExports steps 1-2,
   every file imported by a wrapped file is wrapped (runtime file excepted). *)
From V Require Import Common.Base C02.Graph C02.OptFold C02.Wrap.

Definition wrap_of (st : cstate) (x : nat) : wkind := snd (cget st x).
Definition wrapped (st : cstate) (x : nat) : Prop := wrap_of st x <> WNone.

Lemma length_cset st i v : length (cset st i v) = length st.
Proof. revert i. induction st as [|a st IH]; intros [|i]; cbn; auto. Qed.

Lemma cget_cset st i v j :
  cget (cset st i v) j = if Nat.eqb i j && Nat.ltb i (length st) then v else cget st j.
Proof.
  revert i j. induction st as [|a st IH]; intros i j.
  - cbn. rewrite andb_false_r. reflexivity.
  - destruct i, j; try reflexivity. exact (IH i j).
Qed.

Lemma cset_view st i v j :
  (j = i /\ (i < length st)%nat /\ cget (cset st i v) j = v) \/
  ((j <> i \/ (length st <= i)%nat) /\ cget (cset st i v) j = cget st j).
Proof.
  rewrite cget_cset. destruct (Nat.eqb_spec i j) as [<-|Hne]; [|right; auto].
  destruct (Nat.ltb_spec i (length st)); [left|right]; auto.
Qed.

Lemma cget_cset_same st i v : (i < length st)%nat -> cget (cset st i v) i = v.
Proof. intros H. rewrite cget_cset, Nat.eqb_refl. apply Nat.ltb_lt in H. rewrite H. reflexivity. Qed.

Lemma cget_cset_other st i j v : i <> j -> cget (cset st i v) j = cget st j.
Proof. intros H. rewrite cget_cset. apply Nat.eqb_neq in H. rewrite H. reflexivity. Qed.

Lemma cset_out st i v : (length st <= i)%nat -> cset st i v = st.
Proof. revert i. induction st as [|a st IH]; intros [|i] H; cbn in *; auto; try lia. f_equal. apply IH. lia. Qed.

Lemma wkind_eqb_none w : wkind_eqb w WNone = true <-> w = WNone.
Proof. destruct w; cbn; split; intros; congruence. Qed.

Lemma cget_init_state g i : cget (init_state g) i = (m_kind (getm g i), WNone).
Proof. exact (map_nth (fun m => (m_kind m, WNone)) g empty_module i). Qed.

Lemma wrapped_in_range st x : wrapped st x -> (x < length st)%nat.
Proof.
  intros H. destruct (Nat.lt_ge_cases x (length st)) as [Hl|Hg]; [exact Hl|].
  exfalso. apply H. unfold wrap_of, cget. rewrite nth_overflow by exact Hg. reflexivity.
Qed.

Lemma wrap_cell st s k w :
  cget st s = (k, w) ->
  let st1 := if wkind_eqb w WNone then cset st s (k, if ekind_eqb k ECJS then WCJS else WESM) else st in
  length st1 = length st /\ (forall x, fst (cget st1 x) = fst (cget st x)) /\
  (forall x, wrapped st1 x <-> wrapped st x \/ (x = s /\ (s < length st)%nat)).
Proof.
  intros Ec. cbv zeta. destruct (wkind_eqb w WNone) eqn:Ew.
  - split; [apply length_cset|].
    split; intros x; unfold wrapped, wrap_of; rewrite cget_cset;
      destruct (Nat.eqb_spec s x) as [<-|Hne]; destruct (Nat.ltb_spec s (length st)) as [Hl|Hg]; cbn [andb fst snd];
      try reflexivity.
    + rewrite Ec. reflexivity.
    + split; [auto|intros _; destruct (ekind_eqb k ECJS); discriminate].
    + split; [auto|intros [H|[_ H]]; [exact H|lia]].
    + split; [auto|intros [H|[H _]]; [exact H|congruence]].
    + split; [auto|intros [H|[H _]]; [exact H|congruence]].
  - split; [reflexivity|]. split; [reflexivity|]. intros x. split; [auto|intros [H|[-> _]]; [exact H|]].
    unfold wrapped, wrap_of. rewrite Ec. intros Hw. cbn in Hw. subst w. discriminate.
Qed.

Section WrapDeps.
  Variable g : graph.

  (* what a call of recursivelyWrapDependencies does: no cell is lost or unwrapped, a newly wrapped
     file is newly marked, and a newly marked file (the runtime excepted) is wrapped with all its
     imports marked *)
  Definition WInv (ws ws' : wstate) : Prop :=
    length (fst ws') = length (fst ws) /\
    incl (snd ws) (snd ws') /\
    (forall x, wrapped (fst ws) x -> wrapped (fst ws') x) /\
    (forall x, wrapped (fst ws') x -> wrapped (fst ws) x \/ In x (snd ws')) /\
    (forall x, In x (snd ws') -> ~ In x (snd ws) -> x <> 0%nat -> (x < length (fst ws))%nat ->
       wrapped (fst ws') x /\ incl (all_targets (getm g x)) (snd ws')).

  Lemma WInv_refl ws : WInv ws ws.
  Proof. repeat split; auto using incl_refl; intros; contradiction. Qed.

  Lemma WInv_trans a b c : WInv a b -> WInv b c -> WInv a c.
  Proof.
    intros [L1 [I1 [M1 [N1 D1]]]] [L2 [I2 [M2 [N2 D2]]]].
    split; [congruence|]. split; [eapply incl_tran; eauto|]. split; [auto|]. split.
    - intros x Hx. destruct (N2 x Hx) as [Hb|Hd]; [|right; exact Hd].
      destruct (N1 x Hb) as [Ha|Hd]; [left; exact Ha|right; apply I2; exact Hd].
    - intros x Hx Hnot H0 Hlen.
      destruct (in_dec Nat.eq_dec x (snd b)) as [Hin|Hnin].
      + destruct (D1 x Hin Hnot H0 Hlen) as [Hw Ht]. split; [apply M2; exact Hw|eapply incl_tran; eauto].
      + apply D2; auto. rewrite L1. exact Hlen.
  Qed.

  Lemma wrap_deps_WInv fuel : forall s ws ws',
    wrap_deps fuel g s ws = Some ws' -> WInv ws ws' /\ In s (snd ws').
  Proof.
    induction fuel as [|f IH]; intros s [st did] ws' H; [discriminate|].
    cbn [wrap_deps] in H. destruct (memn s did) eqn:Em.
    { inversion H; subst. split; [apply WInv_refl|]. apply memn_In. exact Em. }
    assert (Hnd : ~ In s did) by (intro Hi; apply memn_In in Hi; congruence).
    destruct (Nat.eqb s 0) eqn:E0.
    { inversion H; subst. apply Nat.eqb_eq in E0. subst s. split; [|left; reflexivity].
      split; [reflexivity|]. split; [apply incl_tl, incl_refl|]. split; [auto|]. split; [auto|].
      cbn [fst snd]. intros x [<-|Hx] Hn Hx0 _; [congruence|contradiction]. }
    apply Nat.eqb_neq in E0.
    destruct (cget st s) as [k w] eqn:Ec.
    destruct (wrap_cell st s k w Ec) as [L1 [_ W1]].
    set (st1 := if wkind_eqb w WNone then cset st s (k, if ekind_eqb k ECJS then WCJS else WESM) else st) in *.
    assert (Hloop : WInv (st1, s :: did) ws' /\ incl (all_targets (getm g s)) (snd ws')).
    { apply (ofoldl_ind (wrap_deps f g) (fun pre w => WInv (st1, s :: did) w /\ incl pre (snd w)) _ _ _ H).
      - split; [apply WInv_refl|intros y []].
      - intros pre t w1 w2 _ [I1 Hpre] E. destruct (IH _ _ _ E) as [I2 Ht].
        split; [eapply WInv_trans; eauto|].
        intros y Hy. apply in_app_or in Hy as [Hy|[<-|[]]]; [apply (proj1 (proj2 I2)), Hpre, Hy|exact Ht]. }
    destruct Hloop as [[L2 [I2 [M2 [N2 D2]]]] Hall]. cbn [fst snd] in *.
    split; [|apply I2; left; reflexivity]. unfold WInv. cbn [fst snd].
    split; [congruence|]. split; [intros x Hx; apply I2; right; exact Hx|].
    split; [intros x Hx; apply M2, W1; left; exact Hx|]. split.
    - intros x Hx. destruct (N2 x Hx) as [Hb|Hd]; [|right; exact Hd].
      apply W1 in Hb as [Ha|[-> _]]; [left; exact Ha|right; apply I2; left; reflexivity].
    - intros x Hx Hnot Hx0 Hlen. destruct (Nat.eq_dec x s) as [->|Hne].
      + split; [apply M2, W1; right; auto|exact Hall].
      + apply D2; auto; [intros [Heq|Hin]; [congruence|contradiction]|rewrite L1; exact Hlen].
  Qed.
End WrapDeps.

(* hasDynamicExportsDueToExportStar only turns exports kinds into ESMWithDynamicFallback:
   the wraps and which files are CommonJS stay *)
Definition KEq (st st' : cstate) : Prop :=
  length st' = length st /\ (forall x, wrap_of st' x = wrap_of st x) /\
  (forall x, fst (cget st' x) = ECJS <-> fst (cget st x) = ECJS).

Lemma KEq_refl st : KEq st st.
Proof. repeat split; auto. Qed.

Lemma KEq_trans a b c : KEq a b -> KEq b c -> KEq a c.
Proof.
  intros [L1 [W1 K1]] [L2 [W2 K2]]. split; [congruence|]. split; intros x; [rewrite W2; apply W1|rewrite K2; apply K1].
Qed.

Lemma KEq_dyn st s : fst (cget st s) <> ECJS -> KEq st (cset st s (EDyn, snd (cget st s))).
Proof.
  intros Hk. split; [apply length_cset|].
  split; intros x; unfold wrap_of; rewrite cget_cset;
    destruct (Nat.eqb_spec s x) as [<-|Hne]; destruct (Nat.ltb_spec s (length st)); cbn [andb fst snd];
    try reflexivity.
  split; [discriminate|contradiction].
Qed.

Lemma dyn_loop_keq rec keep_esm m s :
  (forall t st vis b st' vis', rec t st vis = Some (b, st', vis') -> KEq st st') ->
  forall stars st vis b st' vis', fst (cget st s) <> ECJS ->
    dyn_loop rec keep_esm m s stars st vis = Some (b, st', vis') -> KEq st st'.
Proof.
  intros Hrec. induction stars as [|i rest IH]; intros st vis b st' vis' Hk H; cbn [dyn_loop] in H.
  - inversion H; subst. apply KEq_refl.
  - destruct (record_of m i) as [r|]; [|eapply IH; eauto].
    destruct (r_target r) as [t|].
    + destruct (Nat.eqb t s); [eapply IH; eauto|].
      destruct (rec t st vis) as [[[b1 st1] vis1]|] eqn:Er; [|discriminate].
      pose proof (Hrec _ _ _ _ _ _ Er) as H1.
      assert (Hk1 : fst (cget st1 s) <> ECJS). { intro Hc. apply Hk. apply H1. exact Hc. }
      eapply KEq_trans; [exact H1|]. destruct b1.
      * inversion H; subst. apply KEq_dyn. exact Hk1.
      * eapply IH; eauto.
    + destruct (negb (m_entry m) || negb keep_esm).
      * inversion H; subst. apply KEq_dyn. exact Hk.
      * eapply IH; eauto.
Qed.

Lemma dyn_star_keq keep_esm g fuel : forall s st vis b st' vis',
  dyn_star fuel keep_esm g s st vis = Some (b, st', vis') -> KEq st st'.
Proof.
  induction fuel as [|f IH]; intros s st vis b st' vis' H; [discriminate|].
  cbn [dyn_star] in H. destruct (cget st s) as [k w] eqn:Ec.
  destruct (ekind_eqb k ECJS || ekind_eqb k EDyn) eqn:Ek; [inversion H; subst; apply KEq_refl|].
  destruct (memn s vis); [inversion H; subst; apply KEq_refl|].
  eapply dyn_loop_keq; [exact IH| |exact H].
  rewrite Ec. cbn. intro Hc. subst k. discriminate.
Qed.

Lemma length_classify_record g st r : length (classify_record g st r) = length st.
Proof.
  unfold classify_record. destruct (r_target r) as [t|]; [|reflexivity].
  destruct (cget st t) as [k w]. destruct (r_kind r); try reflexivity.
  - destruct ((r_star r || r_default r) && ekind_eqb k ENone && negb (m_lazy (getm g t))); [apply length_cset|reflexivity].
  - destruct (ekind_eqb k EESM); apply length_cset.
  - destruct (ekind_eqb k EESM); apply length_cset.
Qed.

Lemma length_classify fmt g order : length (classify fmt g order) = length g.
Proof.
  apply (fold_left_inv _ (fun st => length st = length g)); [|apply map_length].
  intros st s _ L. unfold classify_file.
  set (st1 := fold_left (classify_record g) (m_records (getm g s)) st).
  assert (L1 : length st1 = length g).
  { apply (fold_left_inv _ (fun st => length st = length g)); [|exact L].
    intros st0 r _ L0. rewrite length_classify_record. exact L0. }
  destruct (cget st1 s) as [k w].
  destruct (ekind_eqb k ECJS && (negb (m_entry (getm g s)) || fmt)); [rewrite length_cset|]; exact L1.
Qed.

(* The control structure of one iteration of the step-2 loop: the file's own
   recursivelyWrapDependencies call when it is wrapped, hasDynamicExportsDueToExportStar,
   then the call for every imported CommonJS file. *)
Lemma wrap_file_rule (Q : wstate -> Prop) fuel keep_esm g s ws ws' :
  wrap_file fuel keep_esm g (Some ws) s = Some ws' ->
  (~ wrapped (fst ws) s -> Q ws) ->
  (forall ws1, wrapped (fst ws) s -> wrap_deps fuel g s ws = Some ws1 -> Q ws1) ->
  (forall st st' did, KEq st st' -> Q (st, did) -> Q (st', did)) ->
  (forall t w w', In t (all_targets (getm g s)) -> fst (cget (fst w) t) = ECJS -> Q w ->
     wrap_deps fuel g t w = Some w' -> Q w') ->
  Q ws'.
Proof.
  intros H Hskip Hcall Hkeq Hcond. unfold wrap_file in H.
  assert (H1 : exists ws1,
             (if wkind_eqb (snd (cget (fst ws) s)) WNone then Some ws else wrap_deps fuel g s ws) = Some ws1 /\ Q ws1).
  { destruct (wkind_eqb (snd (cget (fst ws) s)) WNone) eqn:Ew.
    - exists ws. split; [reflexivity|]. apply Hskip. intro Hw. apply Hw. apply wkind_eqb_none. exact Ew.
    - destruct (wrap_deps fuel g s ws) as [ws1|] eqn:E; [|discriminate].
      exists ws1. split; [reflexivity|]. apply Hcall; [|reflexivity].
      intro Hc. unfold wrap_of in Hc. rewrite Hc in Ew. discriminate. }
  destruct H1 as [[st1 did1] [E1 HQ1]]. rewrite E1 in H.
  set (r2 := match m_stars (getm g s) with
             | [] => Some st1
             | _ :: _ => match dyn_star fuel keep_esm g s st1 [] with Some (_, st', _) => Some st' | None => None end
             end) in *.
  destruct r2 as [st2|] eqn:E2; [|discriminate].
  assert (HK : KEq st1 st2).
  { unfold r2 in E2. destruct (m_stars (getm g s)); [inversion E2; subst; apply KEq_refl|].
    destruct (dyn_star fuel keep_esm g s st1 []) as [[[b st'] vis']|] eqn:Ed; [|discriminate].
    inversion E2; subst. eapply dyn_star_keq; eauto. }
  apply (ofoldl_inv (fun t w => if ekind_eqb (fst (cget (fst w) t)) ECJS then wrap_deps fuel g t w else Some w) Q _ _ _ H).
  - apply (Hkeq st1); assumption.
  - intros t w w' Ht Hw E. destruct (ekind_eqb (fst (cget (fst w) t)) ECJS) eqn:Ek; [|inversion E; subst; exact Hw].
    eapply Hcond; eauto. destruct (fst (cget (fst w) t)); try discriminate; reflexivity.
Qed.

Section Closed.
  Variable g : graph.
  Variable keep_esm : bool.
  Let fuel := S (length g).

  (* invariant of the step-2 loop: the DidWrapDependencies set is wrapped and
     closed under imports; [seen] are the files the loop has processed *)
  Definition closed_inv (n : nat) (seen : list nat) (ws : wstate) : Prop :=
    length (fst ws) = n /\
    (forall x, In x (snd ws) -> x <> 0%nat -> (x < n)%nat ->
       wrapped (fst ws) x /\ incl (all_targets (getm g x)) (snd ws)) /\
    (forall x, In x seen -> wrapped (fst ws) x -> In x (snd ws)).

  Lemma closed_inv_WInv n seen ws ws' : closed_inv n seen ws -> WInv g ws ws' -> closed_inv n seen ws'.
  Proof.
    intros [L [C S]] [L2 [I2 [M2 [N2 D2]]]]. split; [congruence|]. split.
    - intros x Hx H0 Hlen. destruct (in_dec Nat.eq_dec x (snd ws)) as [Hin|Hnin].
      + destruct (C x Hin H0 Hlen) as [Hw Ht]. split; [apply M2; exact Hw|eapply incl_tran; eauto].
      + apply D2; auto. rewrite L. exact Hlen.
    - intros x Hx Hw. destruct (N2 x Hw) as [Hb|Hd]; [apply I2, S; auto|exact Hd].
  Qed.

  Lemma closed_inv_KEq n seen st st' did : KEq st st' -> closed_inv n seen (st, did) -> closed_inv n seen (st', did).
  Proof.
    intros [L' [W _]] [L [C S]]. unfold closed_inv, wrapped in *. cbn [fst snd] in *.
    split; [congruence|]. split; intros x; rewrite W; auto.
  Qed.

  Lemma wrap_file_closed_inv n seen ws s ws' :
    closed_inv n seen ws -> wrap_file fuel keep_esm g (Some ws) s = Some ws' -> closed_inv n (seen ++ [s]) ws'.
  Proof.
    intros HG H.
    assert (Hadd : forall w, closed_inv n seen w -> (wrapped (fst w) s -> In s (snd w)) -> closed_inv n (seen ++ [s]) w).
    { intros w [L [C S]] Hs. split; [exact L|]. split; [exact C|].
      intros x Hx. apply in_app_or in Hx as [Hx|[<-|[]]]; auto. }
    apply (wrap_file_rule (closed_inv n (seen ++ [s])) _ _ _ _ _ _ H).
    - intros Hn. apply Hadd; [exact HG|contradiction].
    - intros ws1 _ E. destruct (wrap_deps_WInv g _ _ _ _ E) as [HW Hin]. apply Hadd; [eapply closed_inv_WInv; eauto|auto].
    - intros st st' did. apply closed_inv_KEq.
    - intros t w w' _ _ HGw E. eapply closed_inv_WInv; [exact HGw|]. eapply wrap_deps_WInv; eauto.
  Qed.

  Lemma scan_closed_inv fmt order st :
    scan_steps12 fmt keep_esm g order = Some st -> exists did, closed_inv (length g) order (st, did).
  Proof.
    unfold scan_steps12. fold fuel. intros H.
    destruct (fold_left (wrap_file fuel keep_esm g) order (Some (classify fmt g order, []))) as [[st' did]|] eqn:E; [|discriminate].
    inversion H; subst st'. exists did.
    apply (ofoldl_ind (fun s w => wrap_file fuel keep_esm g (Some w) s) (closed_inv (length g)) _ _ _ E).
    - split; [apply length_classify|]. split; intros x [].
    - intros pre s w1 w2 _ HG1 E1. eapply wrap_file_closed_inv; eauto.
  Qed.

  Lemma length_scan fmt order st : scan_steps12 fmt keep_esm g order = Some st -> length st = length g.
  Proof. intros H. destruct (scan_closed_inv _ _ _ H) as [did [L _]]. exact L. Qed.

  Lemma wrap_closed_all fmt order st :
    scan_steps12 fmt keep_esm g order = Some st ->
    forall s, In s order -> s <> 0%nat -> (s < length g)%nat -> wrapped st s ->
    forall t, In t (all_targets (getm g s)) -> t <> 0%nat -> (t < length g)%nat -> wrapped st t.
  Proof.
    intros H s Hs Hs0 Hsl Hw t Ht Ht0 Htl.
    destruct (scan_closed_inv _ _ _ H) as [did [L [C S]]]. cbn [fst snd] in *.
    destruct (C s (S s Hs Hw) Hs0 Hsl) as [_ Hts].
    destruct (C t (Hts t Ht) Ht0 Htl) as [Hwt _]. exact Hwt.
  Qed.
End Closed.
