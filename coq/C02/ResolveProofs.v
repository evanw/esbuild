(* Export resolution: the linker's matching versus ECMA-262 ResolveExport.
   The full statement "for every static ES module graph the linker binds an
   import to the binding ResolveExport denotes" is FALSE of the faithful
   model: witnesses B and C below (both replayed on the real code by the harness).
   What is proved here instead is the equivalence on a bounded-exhaustive
   domain, outside the refuted re-export-cycle shape. *)
From V Require Import Common.Base C02.Graph C02.SpecESM C02.Wrap C02.Resolve C02.ResolveSpec C02.ScanEsmProofs.

Definition resolve_is_spec_statement : Prop :=
  forall g s ni, all_esm g = true -> In ni (m_imports (getm g s)) ->
    agrees g (seq 0 (length g)) s ni = true.

Lemma refuted_by (g : graph) (s : nat) (ni : nimport) :
  all_esm g = true -> In ni (m_imports (getm g s)) -> agrees g (seq 0 (length g)) s ni = false ->
  ~ resolve_is_spec_statement.
Proof. intros Ha Hi Hf H. rewrite (H g s ni Ha Hi) in Hf. discriminate. Qed.

(* witness A (one binding exported under two names, re-exported to one name along two
   export-star paths): upstream commit a7bd0a8 takes the name location out of the
   all-results-equal test, and the linker agrees with ResolveExport on it *)
Lemma alias_witness_agrees :
  all_esm witness_alias = true /\ single_alias witness_alias = false /\
  link_verdict witness_alias (seq 0 6) 1 (imp 1 1 0) = Some (VFound 5 0) /\
  spec_verdict witness_alias 1 (imp 1 1 0) = Some (VFound 5 0).
Proof. vm_compute. repeat split. Qed.

(* witness B: a re-export that runs back into the file that star-exports it *)
Lemma refuted_cycle :
  all_esm witness_cycle = true /\ single_alias witness_cycle = true /\
  link_verdict witness_cycle (seq 0 5) 1 (imp 1 1 0) = Some VAmbiguous /\
  spec_verdict witness_cycle 1 (imp 1 1 0) = Some (VFound 3 0).
Proof. vm_compute. repeat split. Qed.

(* witness C: named import from an ES module without any export statement *)
Lemma refuted_exportless :
  all_esm witness_exportless = true /\ single_alias witness_exportless = true /\
  indirect_acyclic witness_exportless = true /\ named_targets_export witness_exportless = false /\
  link_verdict witness_exportless (seq 0 4) 1 (imp 1 3 0) = Some VOther /\
  spec_verdict witness_exportless 1 (imp 1 3 0) = Some VNull.
Proof. vm_compute. repeat split. Qed.

Lemma statement_refuted : ~ resolve_is_spec_statement.
Proof.
  apply (refuted_by witness_cycle 1 (imp 1 1 0)); vm_compute; auto.
Qed.

Definition graph_of (files : list nat) (names : list Z) (fs : list module) : graph :=
  empty_module :: fs ++ [importer files names].

(* [agrees] for every import of file [s] at once, on a graph of ES modules.  Steps 1-2 of
   scanImportsAndExports change nothing there (ScanEsmProofs.scan_inert_id), so they are not run:
   [agrees] runs them once for each import, and they are most of what a graph of the bounded
   domains costs to evaluate. *)
Definition agrees_unscanned (g : graph) (s : nat) (ni : nimport) : bool :=
  let kinds := fun i => fst (cget (init_state g) i) in
  match match_import g kinds (resolved_of g kinds) true (s, ni_ref ni), spec_verdict g s ni with
  | Some (r, ev), Some b => verdict_eqb (mres_verdict r ev) b
  | _, _ => false
  end.

Definition imports_agree (g : graph) (s : nat) : bool :=
  scan_inert g && forallb (agrees_unscanned g s) (m_imports (getm g s)).

Lemma agrees_unscanned_sound g s ni : scan_inert g = true ->
  agrees_unscanned g s ni = true -> agrees g (seq 0 (length g)) s ni = true.
Proof.
  unfold agrees, link_verdict, agrees_unscanned. intros Hi H. rewrite (scan_inert_id g Hi).
  destruct (match_import _ _ _ _ _) as [[r ev]|]; [exact H | discriminate].
Qed.

Lemma imports_agree_sound g s : imports_agree g s = true ->
  forall ni, In ni (m_imports (getm g s)) -> agrees g (seq 0 (length g)) s ni = true.
Proof.
  unfold imports_agree. intros [Hi H]%andb_true_iff ni Hni. rewrite forallb_forall in H.
  exact (agrees_unscanned_sound g s ni Hi (H ni Hni)).
Qed.

Lemma bounded_domain (files : list nat) (names : list Z) (dom : list (list module)) :
  forallb (fun fs => let g := graph_of files names fs in
                     negb (indirect_acyclic g) || imports_agree g (S (length fs))) dom = true ->
  forall fs, In fs dom ->
    let g := graph_of files names fs in
    indirect_acyclic g = true ->
    forall ni, In ni (m_imports (getm g (S (length fs)))) -> agrees g (seq 0 (length g)) (S (length fs)) ni = true.
Proof.
  intros Hall fs Hin g Hi. rewrite forallb_forall in Hall. specialize (Hall fs Hin).
  change (negb (indirect_acyclic g) || imports_agree g (S (length fs)) = true) in Hall. rewrite Hi in Hall. exact (imports_agree_sound g _ Hall).
Qed.

Lemma domain1_ok :
  forallb (fun fs => let g := graph_of [1; 2; 3]%nat [1] fs in
                     negb (indirect_acyclic g) || imports_agree g (S (length fs))) domain1 = true.
Proof. vm_compute. reflexivity. Qed.

Lemma domains_size : Z.of_nat (length domain1) = 18000.
Proof. vm_compute. reflexivity. Qed.
