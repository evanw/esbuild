(* Per-alias characterisation of addExportsForExportStar: what ResolvedExports records for one
   export alias is the fold of the list of "hits" (star-exported files that export the alias,
   in traversal order, not shadowed by a file on the stack). *)
From V Require Import Common.Base C02.Graph C02.OptFold C02.SpecESM C02.Wrap C02.Resolve C02.ResolveSpec C02.ResolveDen.

Definition hit := (nat * nat)%type.    (* file, ref of its export entry *)

Definition apply_hit (a : Z) (cur : option edata) (h : hit) : option edata :=
  match cur with
  | None => Some (mkEd a (fst h) (snd h) [])
  | Some e => if negb (Nat.eqb (ed_src e) (fst h))
              then Some (mkEd a (ed_src e) (ed_ref e) (ed_ambs e ++ [h]))
              else Some e
  end.
Definition fold_hits (a : Z) (cur : option edata) (l : list hit) : option edata := fold_left (apply_hit a) l cur.

Lemma fold_hits_some a s r : forall rest A,
  fold_hits a (Some (mkEd a s r A)) rest = Some (mkEd a s r (A ++ filter (fun h => negb (Nat.eqb s (fst h))) rest)).
Proof.
  induction rest as [|h rest IH]; intros A; [cbn; rewrite app_nil_r; reflexivity|].
  unfold fold_hits in *. cbn [fold_left apply_hit ed_src ed_ref ed_ambs filter].
  destruct (negb (Nat.eqb s (fst h))).
  - rewrite IH. rewrite <- app_assoc. reflexivity.
  - apply IH.
Qed.

Lemma fold_hits_none a l :
  fold_hits a None l =
  match l with
  | [] => None
  | h1 :: rest => Some (mkEd a (fst h1) (snd h1) (filter (fun h => negb (Nat.eqb (fst h1) (fst h))) rest))
  end.
Proof. destruct l as [|h1 rest]; [reflexivity|]. exact (fold_hits_some a (fst h1) (snd h1) rest []). Qed.

Section Hits.
  Variable g : graph.

  Definition shadowed (a : Z) (stack : list nat) : bool := existsb (fun q => has_export (getm g q) a) stack.

  Definition own_hit (a : Z) (stack' : list nat) (t : nat) : list hit :=
    if (a =? 0) || shadowed a stack' then [] else
    match find_export a (m_exports (getm g t)) with Some ref => [(t, ref)] | None => [] end.

  Fixpoint hits (f : nat) (a : Z) (s : nat) (stack : list nat) : list hit :=
    match f with
    | O => []
    | S f' =>
      if memn s stack then [] else
      let stack' := stack ++ [s] in
      flat_map (fun i =>
        match record_of (getm g s) i with
        | None => []
        | Some r => match r_target r with
                    | None => []
                    | Some t => own_hit a stack' t ++ hits f' a t stack'
                    end
        end) (m_stars (getm g s))
    end.

  Lemma hits_unfold f a s stack :
    hits (S f) a s stack =
    if memn s stack then [] else
    flat_map (fun t => own_hit a (stack ++ [s]) t ++ hits f a t (stack ++ [s])) (star_targets (getm g s)).
  Proof.
    cbn [hits]. destruct (memn s stack); [reflexivity|]. unfold star_targets, record_of.
    induction (m_stars (getm g s)) as [|i l IH]; [reflexivity|]. cbn [flat_map]. rewrite flat_map_app, IH. f_equal.
    destruct (nth_error (m_records (getm g s)) i) as [r|]; [|reflexivity].
    destruct (r_target r); [cbn; rewrite app_nil_r|]; reflexivity.
  Qed.

  (* "default" is never provided by a star *)
  Lemma hits_default : forall f s stack, hits f 0 s stack = [].
  Proof.
    induction f as [|f IH]; intros s stack; [reflexivity|]. rewrite hits_unfold.
    destruct (memn s stack); [reflexivity|]. apply flat_map_nil. intros t _. apply IH.
  Qed.

  Lemma add_stars_unfold f kinds res s stack :
    add_stars (S f) g kinds res s stack =
    if memn s stack then Some res else
    ofoldl (fun t res => if ekind_eqb (kinds t) ECJS then Some res else
                         add_stars f g kinds (fold_left (add_one g (stack ++ [s]) t) (m_exports (getm g t)) res) t (stack ++ [s]))
           (star_targets (getm g s)) (Some res).
  Proof.
    cbn [add_stars]. destruct (memn s stack); [reflexivity|]. unfold star_targets, record_of.
    generalize (Some res). induction (m_stars (getm g s)) as [|i l IH]; intros acc; [reflexivity|].
    cbn [fold_left flat_map]. rewrite ofoldl_app, IH. f_equal.
    destruct acc as [r0|]; [|rewrite ofoldl_none; reflexivity].
    destruct (nth_error (m_records (getm g s)) i) as [r|]; [|reflexivity].
    destruct (r_target r); reflexivity.
  Qed.

  Lemma lookup_app a res e :
    ed_lookup a (res ++ [e]) = match ed_lookup a res with Some x => Some x | None => if ed_alias e =? a then Some e else None end.
  Proof. induction res as [|x res IH]; cbn [app ed_lookup]; [reflexivity|]. destruct (ed_alias x =? a); [reflexivity|exact IH]. Qed.

  Lemma lookup_update_same a e' res :
    ed_alias e' = a -> ed_lookup a (ed_update a e' res) = match ed_lookup a res with Some _ => Some e' | None => None end.
  Proof.
    intros He. induction res as [|x res IH]; cbn [ed_update ed_lookup]; [reflexivity|].
    destruct (ed_alias x =? a) eqn:E; cbn [ed_lookup].
    - rewrite He, Z.eqb_refl. reflexivity.
    - rewrite E. exact IH.
  Qed.

  Lemma lookup_update_other a b e' res :
    ed_alias e' = a -> a <> b -> ed_lookup b (ed_update a e' res) = ed_lookup b res.
  Proof.
    intros He Hab. induction res as [|x res IH]; cbn [ed_update ed_lookup]; [reflexivity|].
    destruct (ed_alias x =? a) eqn:E; cbn [ed_lookup].
    - apply Z.eqb_eq in E. rewrite He. replace (a =? b) with false by lia. replace (ed_alias x =? b) with false by lia. reflexivity.
    - destruct (ed_alias x =? b); [reflexivity|exact IH].
  Qed.

  Lemma existsb_has_export_shadowed a stack : existsb (fun q => has_export (getm g q) a) stack = shadowed a stack.
  Proof. reflexivity. Qed.

  (* one NamedExports entry of the star-exported file *)
  Lemma look_add_one_other a stack t res p :
    fst p <> a -> ed_lookup a (add_one g stack t res p) = ed_lookup a res.
  Proof.
    destruct p as [b ref]. cbn [fst]. intros Hb. unfold add_one.
    destruct (b =? 0); [reflexivity|].
    destruct (existsb (fun q => has_export (getm g q) b) stack); [reflexivity|].
    destruct (ed_lookup b res) as [e|] eqn:El.
    - destruct (negb (Nat.eqb (ed_src e) t)); [|reflexivity].
      apply lookup_update_other; [reflexivity|exact Hb].
    - rewrite lookup_app. destruct (ed_lookup a res); [reflexivity|]. cbn [ed_alias].
      replace (b =? a) with false by lia. reflexivity.
  Qed.

  Lemma look_add_one_same a stack t res ref :
    ed_lookup a (add_one g stack t res (a, ref)) =
    if (a =? 0) || shadowed a stack then ed_lookup a res else apply_hit a (ed_lookup a res) (t, ref).
  Proof.
    unfold add_one. destruct (a =? 0); [reflexivity|]. cbn [orb]. fold (shadowed a stack).
    destruct (shadowed a stack); [reflexivity|].
    destruct (ed_lookup a res) as [e|] eqn:El; cbn [apply_hit fst snd].
    - destruct (negb (Nat.eqb (ed_src e) t)); [|exact El].
      rewrite lookup_update_same by reflexivity. rewrite El. reflexivity.
    - rewrite lookup_app, El. cbn [ed_alias]. rewrite Z.eqb_refl. reflexivity.
  Qed.

  Definition aliases_unique (m : module) : Prop := NoDup (map fst (m_exports m)).

  (* the whole NamedExports list of the star-exported file t *)
  Lemma look_fold_add_one a stack t : forall exps res,
    NoDup (map fst exps) ->
    ed_lookup a (fold_left (add_one g stack t) exps res) =
    match find_export a exps with
    | Some ref => if (a =? 0) || shadowed a stack then ed_lookup a res else apply_hit a (ed_lookup a res) (t, ref)
    | None => ed_lookup a res
    end.
  Proof.
    induction exps as [|[b ref] exps IH]; intros res Hnd; cbn [fold_left find_export]; [reflexivity|].
    inversion Hnd as [|? ? Hnotin Hnd']; subst. rewrite IH by exact Hnd'.
    destruct (b =? a) eqn:E.
    - apply Z.eqb_eq in E. subst b.
      assert (Hn : find_export a exps = None).
      { clear -Hnotin. induction exps as [|[c r] exps IH]; [reflexivity|]. cbn [find_export].
        destruct (c =? a) eqn:E; [apply Z.eqb_eq in E; subst; exfalso; apply Hnotin; left; reflexivity|].
        apply IH. intro H. apply Hnotin. right. exact H. }
      rewrite Hn. apply look_add_one_same.
    - rewrite look_add_one_other by (cbn [fst]; lia). reflexivity.
  Qed.

  Lemma fold_hits_app a cur l1 l2 : fold_hits a cur (l1 ++ l2) = fold_hits a (fold_hits a cur l1) l2.
  Proof. unfold fold_hits. apply fold_left_app. Qed.

  Lemma own_hit_fold a stack' t cur :
    fold_hits a cur (own_hit a stack' t) =
    match find_export a (m_exports (getm g t)) with
    | Some ref => if (a =? 0) || shadowed a stack' then cur else apply_hit a cur (t, ref)
    | None => cur
    end.
  Proof.
    unfold own_hit. destruct ((a =? 0) || shadowed a stack'); [destruct (find_export a (m_exports (getm g t))); reflexivity|].
    destruct (find_export a (m_exports (getm g t))); reflexivity.
  Qed.

  Variable kinds : nat -> ekind.
  Hypothesis Hkinds : forall i, ekind_eqb (kinds i) ECJS = false.
  Hypothesis Hunique : forall i, aliases_unique (getm g i).

  Lemma add_stars_look a : forall f res s stack res',
    add_stars f g kinds res s stack = Some res' ->
    ed_lookup a res' = fold_hits a (ed_lookup a res) (hits f a s stack).
  Proof.
    induction f as [|f IH]; intros res s stack res' H; [discriminate|].
    rewrite add_stars_unfold in H. rewrite hits_unfold. destruct (memn s stack); [inversion H; reflexivity|].
    apply (ofoldl_ind _ (fun pre r => ed_lookup a r = fold_hits a (ed_lookup a res)
             (flat_map (fun t => own_hit a (stack ++ [s]) t ++ hits f a t (stack ++ [s])) pre)) _ _ _ H); [reflexivity|].
    intros pre t r1 r2 _ Hpre E. rewrite Hkinds in E.
    rewrite flat_map_app, fold_hits_app, <- Hpre. cbn [flat_map]. rewrite app_nil_r, fold_hits_app.
    rewrite (IH _ _ _ _ E), look_fold_add_one by apply Hunique. rewrite own_hit_fold. reflexivity.
  Qed.
End Hits.
