(* The entry point's exported names in the three output formats. *)
From V Require Import Common.Base C02.Emit.

(* the names the run-time export stars add to a name set *)
Definition reexported (names_of : nat -> list Z) (dyn : list nat) (e : list Z) : list Z :=
  fold_left (fun acc s => copy_props acc (names_of s)) dyn e.

Definition final_exports (names_of : nat -> list Z) (aliases : list Z) (dyn : list nat) : list Z :=
  reexported names_of dyn (copy_all aliases []).

Lemma fold_reexport names_of second : forall dyn e m r c,
  fold_left (xstep names_of) (map (fun s => XReExport s second) dyn) (mkX e m r c)
  = mkX (reexported names_of dyn e) (if second then option_map (reexported names_of dyn) m else m) r c.
Proof.
  induction dyn as [|s dyn IH]; intros e m r c; cbn [map fold_left xstep x_exports x_module x_returned x_clause].
  - destruct second, m; reflexivity.
  - rewrite IH. destruct second, m; reflexivity.
Qed.

Lemma copy_all_nil_nil : copy_all [] [] = [].
Proof. reflexivity. Qed.

(* a requirer of the cjs bundle sees the statically exported names and every name re-exported at run time *)
Lemma cjs_names names_of aliases dyn :
  exported_names names_of FCjs true aliases dyn = final_exports names_of aliases dyn.
Proof.
  unfold exported_names, run_entry, entry_stmts, force_exports, is_cjs, final_exports.
  cbn [andb]. rewrite app_nil_r.
  destruct aliases as [|a l]; cbn [app fold_left xstep x_exports x_module x_returned x_clause];
    rewrite fold_reexport; reflexivity.
Qed.

Lemma iife_names names_of aliases dyn :
  exported_names names_of (FIife true) true aliases dyn = final_exports names_of aliases dyn.
Proof.
  unfold exported_names, run_entry, entry_stmts, force_exports, is_cjs, final_exports.
  cbn [andb].
  destruct aliases as [|a l]; cbn [app fold_left xstep x_exports x_module x_returned x_clause];
    rewrite fold_left_app, fold_reexport; reflexivity.
Qed.

Lemma esm_names names_of aliases dyn :
  exported_names names_of FEsm true aliases dyn = aliases.
Proof.
  unfold exported_names, run_entry, entry_stmts, force_exports, is_cjs.
  cbn [andb].
  destruct aliases as [|a l]; cbn [app fold_left xstep x_exports x_module x_returned x_clause].
  - rewrite app_nil_r, fold_reexport. reflexivity.
  - rewrite fold_left_app, fold_reexport. reflexivity.
Qed.

Lemma memz_In a l : memz a l = true <-> In a l.
Proof.
  unfold memz. rewrite existsb_exists. split.
  - intros [x [Hx He]]. apply Z.eqb_eq in He. subst. exact Hx.
  - intros H. exists a. split; [exact H|apply Z.eqb_refl].
Qed.

Lemma copy_all_nodup : forall ns acc, (forall x, In x ns -> ~ In x acc) -> NoDup ns -> copy_all ns acc = acc ++ ns.
Proof.
  unfold copy_all. induction ns as [|k ns IH]; intros acc Hd Hn; cbn [fold_left]; [rewrite app_nil_r; reflexivity|].
  inversion Hn; subst.
  destruct (memz k acc) eqn:E.
  - apply memz_In in E. exfalso. apply (Hd k); [left; reflexivity|exact E].
  - rewrite IH; auto.
    + rewrite <- app_assoc. reflexivity.
    + intros x Hx Hin. apply in_app_or in Hin as [Hin|[<-|[]]]; [apply (Hd x); [right; exact Hx|exact Hin]|contradiction].
Qed.

Lemma copy_props_incl to from : incl to (copy_props to from).
Proof.
  unfold copy_props. revert to. induction from as [|k from IH]; intros to; cbn [fold_left]; [apply incl_refl|].
  destruct ((k =? 0) || memz k to); [apply IH|].
  eapply incl_tran; [|apply IH]. apply incl_appl, incl_refl.
Qed.

Lemma copy_props_has to from k : In k from -> k <> 0 -> In k (copy_props to from).
Proof.
  unfold copy_props. revert to. induction from as [|j from IH]; intros to Hin Hk; [contradiction|].
  cbn [fold_left]. destruct Hin as [->|Hin].
  - replace (k =? 0) with false by lia. cbn [orb]. destruct (memz k to) eqn:E.
    + apply memz_In in E. apply (copy_props_incl to from). exact E.
    + apply (copy_props_incl (to ++ [k]) from). apply in_or_app. right. left. reflexivity.
  - apply IH; assumption.
Qed.

Lemma reexported_incl names_of dyn e : incl e (reexported names_of dyn e).
Proof.
  revert e. induction dyn as [|s dyn IH]; intros e; [apply incl_refl|].
  eapply incl_tran; [apply copy_props_incl|apply IH].
Qed.

Lemma final_exports_dynamic names_of aliases : forall dyn d k,
  In d dyn -> In k (names_of d) -> k <> 0 -> In k (final_exports names_of aliases dyn).
Proof.
  unfold final_exports. intros dyn. generalize (copy_all aliases []).
  induction dyn as [|s dyn IH]; intros e d k Hd Hk Hk0; [contradiction|].
  destruct Hd as [->|Hd]; [|eapply IH; eauto].
  apply (reexported_incl names_of dyn). apply copy_props_has; assumption.
Qed.

Lemma copy_all_has k : forall ns acc, In k ns \/ In k acc -> In k (copy_all ns acc).
Proof.
  unfold copy_all. induction ns as [|j ns IH]; intros acc [H|H]; cbn [fold_left]; try contradiction; auto.
  - destruct H as [->|H]; [|apply IH; left; exact H].
    destruct (memz k acc) eqn:E; apply IH; right.
    + apply memz_In. exact E.
    + apply in_or_app. right. left. reflexivity.
  - apply IH. right. destruct (memz j acc); [exact H|apply in_or_app; left; exact H].
Qed.

Lemma final_exports_static names_of aliases dyn k : In k aliases -> In k (final_exports names_of aliases dyn).
Proof. intros Hk. apply reexported_incl, copy_all_has. left. exact Hk. Qed.

Lemma final_exports_nil names_of aliases : NoDup aliases -> final_exports names_of aliases [] = aliases.
Proof. intros Hn. apply (copy_all_nodup aliases []); [intros x _ []|exact Hn]. Qed.

Lemma node_mode_iff typed form : to_esm_node_mode typed form = true <-> typed = true.
Proof. unfold to_esm_node_mode. tauto. Qed.

Lemma typed_default_native form marker : to_esm_default (to_esm_node_mode true form) marker = native_default.
Proof. reflexivity. Qed.

Lemma untyped_marker_default form : to_esm_default (to_esm_node_mode false form) true <> native_default.
Proof. cbn. discriminate. Qed.
