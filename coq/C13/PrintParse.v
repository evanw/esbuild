(* Tree level: the tokens of a printed expression tree are parsed back by the
   specification parser to the tree itself (up to [norm]). *)
From V Require Import Common.Base C13.KwSpec C13.Token C13.LexSpec C13.LexProofs C13.Toks C13.TokenProofs
  C13.ParseSpec C13.ParseMono.
From Coq Require Import String.

Definition PEx (ni : bool) (L : Z) (ts : list tok) (res : expr * list tok) : Prop := exists n, parse_expr n ni L ts = Some res.
Definition PSx (ni : bool) (L : Z) (left : expr) (ll : Z) (ts : list tok) (res : expr * list tok) : Prop :=
  exists n, parse_suffix n ni L left ll ts = Some res.
Definition PAx (ts : list tok) (res : expr * list tok) : Prop := exists n, parse_args n ts = Some res.

Lemma tok_eqb_eq a b : tok_eqb a b = true -> a = b.
Proof.
  destruct a, b; simpl; intro H; try discriminate.
  - apply zlist_eqb_eq in H. congruence.
  - apply zlist_eqb_eq in H. congruence.
  - apply andb_true_iff in H as [H1 H2]. apply zlist_eqb_eq in H1. apply zlist_eqb_eq in H2. congruence.
  - apply zlist_eqb_eq in H. congruence.
Qed.

Lemma E_atom ni L t r a res :
  is_new t = false -> prefix_op t = None -> atom_of t = Some a -> PSx ni L a S_Member r res -> PEx ni L (t :: r) res.
Proof. intros H0 H1 H2 [n Hn]. exists (S n). rewrite parse_expr_S. unfold expr_step. rewrite H0, H1, H2. exact Hn. Qed.

Lemma E_new_args ni L t r c p r'' a r3 res :
  is_new t = true -> PEx false S_Call r (c, p :: r'') -> is_open p = true -> PAx r'' (a, r3) ->
  PSx ni L (ENew c a) S_Member r3 res -> PEx ni L (t :: r) res.
Proof.
  intros H0 [n1 Hn1] H1 [n2 Hn2] [n3 Hn3]. exists (S (n1 + n2 + n3)). rewrite parse_expr_S. unfold expr_step.
  rewrite H0. rewrite (parse_expr_mono n1 (n1 + n2 + n3) _ _ _ _ ltac:(lia) Hn1). rewrite H1.
  rewrite (parse_args_mono n2 (n1 + n2 + n3) _ _ ltac:(lia) Hn2).
  exact (parse_suffix_mono n3 (n1 + n2 + n3) _ _ _ _ _ _ ltac:(lia) Hn3).
Qed.
Lemma E_new_bare ni L t r c r' res :
  is_new t = true -> PEx false S_Call r (c, r') -> (match r' with p :: _ => is_open p = false | [] => True end) ->
  PSx ni L (ENew c ANil) S_New r' res -> PEx ni L (t :: r) res.
Proof.
  intros H0 [n1 Hn1] H1 [n2 Hn2]. exists (S (Nat.max n1 n2)). rewrite parse_expr_S. unfold expr_step.
  rewrite H0. rewrite (parse_expr_mono n1 _ _ _ _ _ (Nat.le_max_l _ _) Hn1).
  pose proof (parse_suffix_mono n2 _ _ _ _ _ _ _ (Nat.le_max_r n1 n2) Hn2) as Hs.
  destruct r' as [|p r'']; [exact Hs|]. rewrite H1. exact Hs.
Qed.

Lemma E_prefix ni L t r o v r' res :
  is_new t = false -> prefix_op t = Some o -> pre_max o <? L = false ->
  PEx (pre_in o ni) (pre_arg o) r (v, r') -> negb (is_update o) || is_target v = true ->
  PSx ni L (EUn o v) (spec_level o) r' res -> PEx ni L (t :: r) res.
Proof.
  intros H0 H1 H1b [n1 Hn1] H2 [n2 Hn2]. exists (S (Nat.max n1 n2)). rewrite parse_expr_S. unfold expr_step. rewrite H0, H1, H1b.
  rewrite (parse_expr_mono n1 (Nat.max n1 n2) _ _ _ _ (Nat.le_max_l _ _) Hn1). rewrite H2.
  exact (parse_suffix_mono n2 _ _ _ _ _ _ _ (Nat.le_max_r _ _) Hn2).
Qed.

Lemma E_paren ni L t r e c r'' res :
  is_new t = false -> prefix_op t = None -> atom_of t = None -> is_open t = true ->
  PEx false 0 r (e, c :: r'') -> is_close c = true -> PSx ni L e S_Member r'' res -> PEx ni L (t :: r) res.
Proof.
  intros H0 H1 H2 H3 [n1 Hn1] H4 [n2 Hn2]. exists (S (Nat.max n1 n2)). rewrite parse_expr_S. unfold expr_step.
  rewrite H0, H1, H2, H3. rewrite (parse_expr_mono n1 (Nat.max n1 n2) _ _ _ _ (Nat.le_max_l _ _) Hn1). rewrite H4.
  exact (parse_suffix_mono n2 _ _ _ _ _ _ _ (Nat.le_max_r _ _) Hn2).
Qed.

Lemma S_nil ni L left ll : PSx ni L left ll [] (left, []).
Proof. exists 1%nat. reflexivity. Qed.

Lemma S_dot ni L left ll t s r res :
  is_dot t = true -> S_Call <=? ll = true -> PSx ni L (EDot left s) S_Member r res -> PSx ni L left ll (t :: TId s :: r) res.
Proof. intros H1 H2 [n Hn]. exists (S n). rewrite parse_suffix_S. unfold suffix_step. rewrite H1, H2. exact Hn. Qed.

Definition plain_tok (t : tok) : Prop := is_dot t = false /\ is_lbrack t = false /\ is_open t = false /\ is_quest t = false.

Lemma S_post ni L left ll t o r res :
  plain_tok t -> postfix_op t = Some o -> S_Update <=? L = false ->
  (S_Member <=? ll) && is_target left = true -> PSx ni L (EUn o left) S_Update r res -> PSx ni L left ll (t :: r) res.
Proof. intros (H1 & H1b & H1o & H1c) H2 H3 H4 [n Hn]. exists (S n). rewrite parse_suffix_S. unfold suffix_step. rewrite H1, H1b, H1o, H1c, H2, H3, H4. exact Hn. Qed.

Lemma S_call ni L left ll t r a r' res :
  is_dot t = false -> is_lbrack t = false -> is_open t = true -> S_Call <=? L = false -> S_Call <=? ll = true ->
  PAx r (a, r') -> PSx ni L (ECall left a) S_Call r' res -> PSx ni L left ll (t :: r) res.
Proof.
  intros H1 H2 H3 H4 H5 [n1 Hn1] [n2 Hn2]. exists (S (Nat.max n1 n2)). rewrite parse_suffix_S. unfold suffix_step.
  rewrite H1, H2, H3, H4, H5. rewrite (parse_args_mono n1 (Nat.max n1 n2) _ _ (Nat.le_max_l _ _) Hn1).
  exact (parse_suffix_mono n2 _ _ _ _ _ _ _ (Nat.le_max_r _ _) Hn2).
Qed.

Lemma A_nil t r : is_close t = true -> PAx (t :: r) (ANil, r).
Proof. intro H. exists 1%nat. rewrite parse_args_S. unfold args_step. rewrite H. reflexivity. Qed.
Lemma close_not_expr n ni L t r : is_close t = true -> parse_expr n ni L (t :: r) = None.
Proof.
  intro H. apply tok_eqb_eq in H. subst t. destruct n; [reflexivity|]. rewrite parse_expr_S. reflexivity.
Qed.
Lemma A_last ts e c r' : PEx false 3 ts (e, c :: r') -> is_close c = true -> PAx ts (ACons e ANil, r').
Proof.
  intros [n Hn] H1. exists (S n). rewrite parse_args_S. unfold args_step.
  destruct ts as [|t r]; [destruct n; discriminate|].
  destruct (is_close t) eqn:Ec; [rewrite (close_not_expr n false 3 t r Ec) in Hn; discriminate|].
  rewrite Hn, H1. reflexivity.
Qed.
Lemma A_more ts e c r' rest r'' :
  PEx false 3 ts (e, c :: r') -> is_close c = false -> is_comma c = true -> PAx r' (rest, r'') -> PAx ts (ACons e rest, r'').
Proof.
  intros [n1 Hn1] H1 H2 [n2 Hn2]. exists (S (Nat.max n1 n2)). rewrite parse_args_S. unfold args_step.
  destruct ts as [|t r]; [destruct n1; discriminate|].
  destruct (is_close t) eqn:Ec; [rewrite (close_not_expr n1 false 3 t r Ec) in Hn1; discriminate|].
  rewrite (parse_expr_mono n1 (Nat.max n1 n2) _ _ _ _ (Nat.le_max_l _ _) Hn1). rewrite H1, H2.
  rewrite (parse_args_mono n2 (Nat.max n1 n2) _ _ (Nat.le_max_r _ _) Hn2). reflexivity.
Qed.

Lemma S_index ni L left ll t r i c r' res :
  is_dot t = false -> is_lbrack t = true -> S_Call <=? ll = true ->
  PEx false 0 r (i, c :: r') -> is_rbrack c = true -> PSx ni L (EIndex left i) S_Member r' res -> PSx ni L left ll (t :: r) res.
Proof.
  intros H1 H2 H3 [n1 Hn1] H4 [n2 Hn2]. exists (S (Nat.max n1 n2)). rewrite parse_suffix_S. unfold suffix_step.
  rewrite H1, H2, H3. rewrite (parse_expr_mono n1 (Nat.max n1 n2) _ _ _ _ (Nat.le_max_l _ _) Hn1). rewrite H4.
  exact (parse_suffix_mono n2 _ _ _ _ _ _ _ (Nat.le_max_r _ _) Hn2).
Qed.

Lemma S_cond ni L left ll t r y c r' no r'' res :
  is_dot t = false -> is_lbrack t = false -> is_open t = false -> is_quest t = true -> S_Cond <=? L = false -> S_Cond <? ll = true ->
  PEx false 3 r (y, c :: r') -> is_colon c = true -> PEx ni 3 r' (no, r'') ->
  PSx ni L (ECond left y no) S_Cond r'' res -> PSx ni L left ll (t :: r) res.
Proof.
  intros H1 H2 H2o H3 H4 H5 [n1 Hn1] H6 [n2 Hn2] [n3 Hn3].
  exists (S (n1 + n2 + n3)). rewrite parse_suffix_S. unfold suffix_step.
  rewrite H1, H2, H2o, H3, H4, H5.
  rewrite (parse_expr_mono n1 (n1 + n2 + n3) _ _ _ _ ltac:(lia) Hn1). rewrite H6.
  rewrite (parse_expr_mono n2 (n1 + n2 + n3) _ _ _ _ ltac:(lia) Hn2).
  exact (parse_suffix_mono n3 (n1 + n2 + n3) _ _ _ _ _ _ ltac:(lia) Hn3).
Qed.

Lemma S_bin ni L left ll t o r rt r' res :
  plain_tok t -> postfix_op t = None -> binary_op t = Some o -> spec_level o <=? L = false ->
  ni && op_eqb o BIn = false ->
  left_ok o ll left = true -> PEx ni (right_level o) r (rt, r') -> PSx ni L (EBin o left rt) (spec_level o) r' res ->
  PSx ni L left ll (t :: r) res.
Proof.
  intros (H1 & H1b & H1o & H1c) H2 H3 H4 Hin H5 [n1 Hn1] [n2 Hn2]. exists (S (Nat.max n1 n2)). rewrite parse_suffix_S. unfold suffix_step.
  rewrite H1, H1b, H1o, H1c, H2, H3, Hin, H4, H5. rewrite (parse_expr_mono n1 (Nat.max n1 n2) _ _ _ _ (Nat.le_max_l _ _) Hn1).
  exact (parse_suffix_mono n2 _ _ _ _ _ _ _ (Nat.le_max_r _ _) Hn2).
Qed.

(* the loop stops in front of a token it may not take *)
Definition head_stop (M : Z) (rest : list tok) : bool :=
  match rest with
  | [] => true
  | t :: _ => negb (is_dot t) && negb (is_lbrack t) && (if is_open t then S_Call <=? M else true)
              && (if is_quest t then S_Cond <=? M else true)
              && (match postfix_op t with Some _ => S_Update <=? M | None => true end)
              && (match binary_op t with Some o => spec_level o <=? M | None => true end)
  end.
Lemma S_stop ni L left ll rest : head_stop L rest = true -> PSx ni L left ll rest (left, rest).
Proof.
  intro H. exists 1%nat. rewrite parse_suffix_S. unfold suffix_step. destruct rest as [|t r]; [reflexivity|].
  simpl in H. apply andb_true_iff in H as [H H3]. apply andb_true_iff in H as [H H2]. apply andb_true_iff in H as [H Hq].
  apply andb_true_iff in H as [H Ho].
  apply andb_true_iff in H as [H1 Hb]. apply negb_true_iff in H1. apply negb_true_iff in Hb. rewrite H1, Hb.
  destruct (is_open t); [rewrite Ho; reflexivity|].
  destruct (is_quest t); [rewrite Hq; reflexivity|].
  destruct (postfix_op t); [rewrite H2; reflexivity|]. destruct (binary_op t); [rewrite H3, orb_true_r; reflexivity | reflexivity].
Qed.

Lemma spec_level_is_op_level o : spec_level o = op_level o.
Proof. destruct o; reflexivity. Qed.

Lemma bin_tok o : op_kind o = KBin ->
  plain_tok (op_tok o) /\ postfix_op (op_tok o) = None /\ binary_op (op_tok o) = Some o /\ toks_of (IOp o) = [op_tok o].
Proof. destruct o; intro H; try discriminate H; vm_compute; repeat split; reflexivity. Qed.
Lemma post_tok o : op_kind o = KPost ->
  plain_tok (op_tok o) /\ postfix_op (op_tok o) = Some o /\ toks_of (IOp o) = [op_tok o].
Proof. destruct o; intro H; try discriminate H; vm_compute; repeat split; reflexivity. Qed.
Lemma pre_tok o : op_kind o = KPre -> is_new (op_tok o) = false /\ prefix_op (op_tok o) = Some o /\ toks_of (IOp o) = [op_tok o].
Proof. destruct o; intro H; try discriminate H; vm_compute; repeat split; reflexivity. Qed.

Lemma find_op_sound k t o : find_op k t = Some o -> op_tok o = t.
Proof.
  unfold find_op. intro H. apply find_some in H as [_ H]. apply andb_true_iff in H as [_ H].
  apply tok_eqb_eq. exact H.
Qed.

Lemma op_tok_shape o : (op_is_keyword o = true /\ op_tok o = TId (op_text o)) \/ (op_is_keyword o = false /\ op_tok o = TP (op_text o)).
Proof. unfold op_tok. destruct (op_is_keyword o); [left | right]; split; reflexivity. Qed.

Lemma find_op_word k s : regex_after_word s = false -> find_op k (TId s) = None.
Proof.
  intro Hs. destruct (find_op k (TId s)) as [o|] eqn:E; [|reflexivity]. exfalso.
  apply find_op_sound in E. destruct (op_tok_shape o) as [[Hk Ht]|[Hk Ht]]; rewrite Ht in E; [|discriminate].
  inversion E; subst. destruct (kw_op_facts o Hk) as (_ & _ & R). congruence.
Qed.
Lemma find_op_num k s : find_op k (TNum s) = None.
Proof.
  destruct (find_op k (TNum s)) as [o|] eqn:E; [|reflexivity]. exfalso.
  apply find_op_sound in E. destruct (op_tok_shape o) as [[_ Ht]|[_ Ht]]; rewrite Ht in E; discriminate.
Qed.
Lemma find_op_re k b f : find_op k (TRe b f) = None.
Proof.
  destruct (find_op k (TRe b f)) as [o|] eqn:E; [|reflexivity]. exfalso.
  apply find_op_sound in E. destruct (op_tok_shape o) as [[_ Ht]|[_ Ht]]; rewrite Ht in E; discriminate.
Qed.

Lemma is_new_word s : regex_after_word s = false -> is_new (TId s) = false.
Proof.
  intro H. destruct (is_new (TId s)) eqn:E; [|reflexivity]. unfold is_new in E. apply tok_eqb_eq in E. inversion E; subst. discriminate.
Qed.
Lemma open_tok : is_new (TP [40]) = false /\ prefix_op (TP [40]) = None /\ atom_of (TP [40]) = None /\ is_open (TP [40]) = true.
Proof. repeat split; reflexivity. Qed.
Lemma dot_tok : is_dot (TP [46]) = true.
Proof. reflexivity. Qed.

Section WithMode.
Variable mw : bool.
Local Notation print_items := (Token.print_items mw).

(* lvl: the level from which on printExpr parenthesises the node *)
Definition lvl (e : expr) : Z :=
  match e with
  | EUn o _ | EBin o _ _ => op_level o
  | ECond _ _ _ => LConditional
  | ECall _ _ => LNew
  | ENew _ _ => LCall
  | _ => LMember
  end.
Definition compound (e : expr) : bool :=
  match e with EUn _ _ | EBin _ _ _ | ECond _ _ _ | ECall _ _ | ENew _ _ => true | _ => false end.
(* fp: the forbidIn flag the node is printed with *)
Definition wrapped (fp : bool) (P : Z) (e : expr) : bool := compound e && ((P >=? lvl e) || (is_in e && fp)).
Definition new_parens (P : Z) (a : expr) : bool := negb mw || has_args a || (P >=? LPostfix).
(* grammar stratum of the unparenthesised printed form *)
Definition strat (P : Z) (e : expr) : Z :=
  match e with
  | EUn o _ | EBin o _ _ => op_level o
  | ECond _ _ _ => LConditional
  | ECall _ _ => S_Call
  | ENew _ a => if new_parens P a then S_Member else S_New
  | _ => S_Member
  end.
Definition ll_of (fp : bool) (P : Z) (e : expr) : Z := if wrapped fp P e then S_Member else strat P e.

Definition left_lvl (o : op) (l : expr) : Z :=
  if op_eqb o BPow && (match l with EUn u _ => negb (op_eqb u UPreDec || op_eqb u UPreInc || op_eqb u UPostDec || op_eqb u UPostInc) | ENum _ => true | _ => false end)
  then LCall
  else if op_eqb o BNullish && is_or_and l then LPrefix
  else if is_right_assoc o then op_level o else op_level o - 1.
Definition right_lvl (o : op) (r : expr) : Z :=
  if op_eqb o BNullish && is_or_and r then LPrefix
  else if is_left_assoc o then op_level o else op_level o - 1.

(* the unparenthesised item list, printed with the inner flags fb (forbidIn) and sb (statement start):
   the outer flags, or false inside parentheses; only "new" looks at the level (to decide about "()") *)
Definition body (fb sb : bool) (P : Z) (e : expr) : list item :=
  match e with
  | ENew f a => [INew] ++ print_items false false LNew f ++ (if new_parens P a then [ICallOpen] ++ print_items false false LComma a ++ [IClose] else [])
  | EUn o v => match op_kind o with KPost => print_items false sb (LPostfix - 1) v ++ [IOp o] | _ => [IOp o] ++ print_items (op_eqb o UYield && fb) false (op_level o - 1) v end
  | EBin o l r => print_items fb sb (left_lvl o l) l ++ [IOp o] ++ print_items fb false (right_lvl o r) r
  | ECond c y n => print_items fb sb LConditional c ++ [IQuest] ++ print_items false false LYield y ++ [IColon] ++ print_items fb false LYield n
  | ECall f a => print_items false sb LPostfix f ++ [ICallOpen] ++ print_items false false LComma a ++ [IClose]
  | _ => print_items fb sb P e
  end.

Lemma op_level_pos o : 1 <= op_level o <= 19.
Proof. destruct o; vm_compute; split; discriminate. Qed.

Lemma print_items_split fp ss P e :
  print_items fp ss P e = if wrapped fp P e then [IOpen] ++ body false false P e ++ [IClose] else body fp ss P e.
Proof.
  unfold wrapped, body. destruct e as [s|s|b f|t s|o v|o l r|c0 y0 n0|t0 i0|f0 a0|f0 a0| |x0 r0]; try reflexivity;
    simpl compound; simpl lvl; simpl is_in; cbn [Token.print_items]; cbv zeta; unfold paren, left_lvl, right_lvl, new_parens.
  - rewrite orb_false_r. destruct (P >=? op_level o); simpl negb; rewrite ?andb_false_r, ?andb_true_r; reflexivity.
  - destruct (P >=? op_level o); destruct fp; destruct (op_eqb o BIn); simpl; rewrite ?andb_false_r, ?andb_true_r; reflexivity.
  - rewrite orb_false_r. destruct (P >=? LConditional); destruct fp; simpl; rewrite ?andb_false_r, ?andb_true_r; reflexivity.
  - rewrite orb_false_r. destruct (P >=? LNew); simpl; rewrite ?andb_false_r, ?andb_true_r; reflexivity.
  - rewrite orb_false_r. destruct (P >=? LCall); reflexivity.
Qed.

Lemma body_cond fb sb P c y n : body fb sb P (ECond c y n) =
  print_items fb sb LConditional c ++ [IQuest] ++ print_items false false LYield y ++ [IColon] ++ print_items fb false LYield n.
Proof. reflexivity. Qed.
Lemma body_call fb sb P f a : body fb sb P (ECall f a) = print_items false sb LPostfix f ++ [ICallOpen] ++ print_items false false LComma a ++ [IClose].
Proof. reflexivity. Qed.
Lemma body_bin fb sb P o l r : body fb sb P (EBin o l r) = print_items fb sb (left_lvl o l) l ++ [IOp o] ++ print_items fb false (right_lvl o r) r.
Proof. reflexivity. Qed.
Lemma body_un fb sb P o v : body fb sb P (EUn o v) =
  match op_kind o with KPost => print_items false sb (LPostfix - 1) v ++ [IOp o] | _ => [IOp o] ++ print_items (op_eqb o UYield && fb) false (op_level o - 1) v end.
Proof. reflexivity. Qed.

Lemma toks_app a b : toks (a ++ b) = toks a ++ toks b.
Proof. unfold toks. apply flat_map_app. Qed.

Definition not_comma (e : expr) : Prop := match e with EBin BComma _ _ => False | _ => True end.
Fixpoint wf (e : expr) : Prop :=
  match e with
  | EId s => word_ok s
  | ENum s => num_shape s
  | ERe b f => re_shape b f
  | EDot t s => wf t /\ id_shape s /\ regex_after_word s = false
  | EUn o v => wf v /\ op_kind o <> KBin /\ (is_update o = true -> is_target v = true)
  | EBin o l r => wf l /\ wf r /\ op_kind o = KBin /\ (is_assign o = true -> is_target l = true)
  | ECond c y n => wf c /\ wf y /\ wf n
  | EIndex t i => wf t /\ wf i
  | ECall f a => wf f /\ wfa a
  | ENew f a => wf f /\ wfa a
  | ANil | ACons _ _ => False
  end
with wfa (a : expr) : Prop :=
  match a with
  | ANil => True
  | ACons x r => wf x /\ wfa r
  | _ => False
  end.

Lemma norm_bin_shape o l r : exists a b, norm (EBin o l r) = EBin o a b.
Proof.
  simpl. destruct (op_eqb o BComma) eqn:E; [|eauto].
  apply op_eqb_eq in E. subst o.
  destruct (norm r) as [| | | | |o2 ? ?| | | | | |]; simpl; eauto.
  destruct o2; simpl; eauto.
Qed.
Lemma is_target_norm e : is_target (norm e) = is_target e.
Proof.
  destruct e as [s|s|b f|t s|o v|o l r|c0 y0 n0|t0 i0|f0 a0|f0 a0| |x0 r0]; try reflexivity.
  destruct (norm_bin_shape o l r) as (a & b & ->). reflexivity.
Qed.

Definition lpl (o : op) : Z := if is_right_assoc o then op_level o else op_level o - 1.

Lemma left_lvl_ge o l : lpl o <= left_lvl o l.
Proof.
  unfold lpl, left_lvl. pose proof (op_level_pos o).
  destruct (op_eqb o BPow && _); [unfold LCall; destruct (is_right_assoc o); lia|].
  destruct (op_eqb o BNullish && is_or_and l) eqn:E; [|lia].
  apply andb_true_iff in E as [E _]. destruct o; try discriminate.
Qed.
Lemma right_lvl_ge o r : op_kind o = KBin -> op_level o - 1 <= right_lvl o r.
Proof.
  intro Hk. unfold right_lvl. destruct (op_eqb o BNullish && is_or_and r) eqn:E; [|destruct (is_left_assoc o); lia].
  apply andb_true_iff in E as [E _]. destruct o; try discriminate.
Qed.

(* after an unparenthesised binary expression of operator o, any operator the context can
   continue with stops the parse of o's right operand *)
Definition chk_stop (o o' : op) : bool :=
  match op_kind o, op_kind o' with
  | KBin, KBin => implb (lpl o' <? op_level o) (spec_level o' <=? right_level o)
  | _, _ => true
  end.
Lemma chk_stop_all : forall_ops (fun o => forall_ops (chk_stop o)) = true.
Proof. vm_compute. reflexivity. Qed.
Lemma stop_level o o' P : op_kind o = KBin -> op_kind o' = KBin -> lpl o' <= P -> P < op_level o ->
  spec_level o' <=? right_level o = true.
Proof.
  intros Hk Hk' H1 H2. pose proof (forall_ops_sound _ (forall_ops_sound _ chk_stop_all o) o') as C.
  unfold chk_stop in C. rewrite Hk, Hk' in C.
  replace (lpl o' <? op_level o) with true in C by (symmetry; apply Z.ltb_lt; lia). exact C.
Qed.

Lemma left_ok_eq o ll left :
  left_ok o ll left =
  if is_assign o then (S_Member <=? ll) && is_target left
  else if op_eqb o BPow then (S_Update <=? ll) || (match left with EUn u _ => op_eqb u UPreInc || op_eqb u UPreDec | _ => false end)
  else if op_eqb o BNullish then (ll =? 6) || (9 <=? ll)
  else spec_level o <=? ll.
Proof. destruct o; reflexivity. Qed.

Lemma assoc_facts o : op_kind o = KBin ->
  is_right_assoc o = is_assign o || op_eqb o BPow.
Proof. destruct o; intro H; try discriminate; reflexivity. Qed.

Lemma lvl_atom e : compound e = false -> lvl e = S_Member.
Proof. destruct e; simpl; intro H; try discriminate; reflexivity. Qed.
Lemma lvl_le e : lvl e <= S_Member.
Proof. destruct e; simpl; unfold S_Member, LMember, LConditional, LNew, LCall; try lia; pose proof (op_level_pos o); lia. Qed.

Lemma wrapped_level fp P e : compound e = true -> lvl e <= P -> wrapped fp P e = true.
Proof. intros Hc H. unfold wrapped. rewrite Hc, Z.geb_leb. apply Z.leb_le in H. rewrite H. reflexivity. Qed.
Lemma wrapped_or_below fp P e (X : Prop) : compound e = true -> (P < lvl e -> X) -> wrapped fp P e = true \/ X.
Proof.
  intros Hc H. destruct (Z_le_gt_dec (lvl e) P) as [E|E]; [left; apply wrapped_level; assumption|].
  right. apply H. lia.
Qed.
Lemma unwrapped_level fp P e : compound e = true -> wrapped fp P e = false -> P < lvl e /\ (is_in e && fp = false).
Proof.
  intros Hc W. unfold wrapped in W. rewrite Hc in W. simpl in W. apply orb_false_iff in W as [W1 W2].
  rewrite Z.geb_leb in W1. apply Z.leb_gt in W1. split; assumption.
Qed.

Lemma unw_strat fp P e : wrapped fp P e = false -> P < S_Member -> P < strat P e.
Proof.
  intros W HP. destruct (compound e) eqn:Hc; [|destruct e; try discriminate; exact HP].
  destruct (unwrapped_level fp P e Hc W) as [W1 _]. clear W. rename W1 into W.
  destruct e; simpl in *; try exact HP; try discriminate;
    try (unfold LConditional, LNew, LCall, S_Call in *; lia).
  unfold new_parens.
  destruct (negb mw || has_args e2 || (P >=? LPostfix)) eqn:E; [exact HP|].
  apply orb_false_iff in E as [_ E]. rewrite Z.geb_leb in E. apply Z.leb_gt in E. unfold S_New, LPostfix in *. lia.
Qed.
Lemma ll_of_ge fp P e : P < S_Member -> P < ll_of fp P e.
Proof. intro HP. unfold ll_of. destruct (wrapped fp P e) eqn:W; [exact HP | apply (unw_strat fp); assumption]. Qed.

Lemma left_ok_print fp o l :
  wf l -> op_kind o = KBin -> (is_assign o = true -> is_target l = true) ->
  left_ok o (ll_of fp (left_lvl o l) l) (norm l) = true.
Proof.
  intros Hwf Hk Ht. rewrite left_ok_eq. destruct (is_assign o) eqn:Ea.
  - specialize (Ht eq_refl). rewrite is_target_norm, Ht.
    destruct l; try discriminate; reflexivity.
  - destruct (op_eqb o BPow) eqn:Ep.
    + apply op_eqb_eq in Ep. subst o.
      destruct l as [s|s|b f|t s|u v|o2 a b|c0 y0 n0|t0 i0|f0 a0|f0 a0| |x0 r0]; try reflexivity; try (destruct Hwf; fail).
      * destruct u; reflexivity.
      * unfold left_lvl, ll_of, wrapped. simpl.
        replace (LExponentiation >=? op_level o2) with true; [reflexivity|].
        symmetry. rewrite Z.geb_leb. apply Z.leb_le. destruct Hwf as (_ & _ & Hk2 & _).
        destruct o2; try discriminate; vm_compute; discriminate.
      * unfold left_lvl, ll_of, wrapped, strat. simpl. destruct (new_parens _ a0); reflexivity.
    + destruct (op_eqb o BNullish) eqn:En.
      * apply op_eqb_eq in En. subst o.
        destruct l as [s|s|b f|t s|u v|o2 a b|c0 y0 n0|t0 i0|f0 a0|f0 a0| |x0 r0]; try reflexivity; try (destruct Hwf; fail).
        -- destruct Hwf as (_ & Hku & _). destruct u; try (exfalso; apply Hku; reflexivity); reflexivity.
        -- destruct o2; try reflexivity; destruct fp; reflexivity.
        -- unfold left_lvl, ll_of, wrapped, strat. simpl. destruct (new_parens _ a0); reflexivity.
      * unfold left_lvl. rewrite Ep, En. simpl andb. cbv iota.
        rewrite (assoc_facts o Hk), Ea, Ep. simpl orb. cbv iota.
        rewrite spec_level_is_op_level. pose proof (op_level_pos o) as Hp.
        apply Z.leb_le. pose proof (ll_of_ge fp (op_level o - 1) l). unfold S_Member in *. lia.
Qed.

(* below which loop level an unparenthesised unary expression may stand: an UpdateExpression/UnaryExpression
   anywhere below the update level, a YieldExpression only where an AssignmentExpression is expected *)
Definition un_lim (o : op) : Z := if op_eqb o UYield then 4 else S_Update.
Definition lv_ok (fp : bool) (L P : Z) (e : expr) : Prop :=
  match e with
  | EBin o _ _ => wrapped fp P e = true \/ L < op_level o
  | ECond _ _ _ => wrapped fp P e = true \/ (L < LConditional /\ P <= LYield)
  | ECall _ _ => wrapped fp P e = true \/ L < S_Call
  | EUn o _ => wrapped fp P e = true \/ L < un_lim o
  | _ => True
  end.

(* a unary node: yield is parenthesised from LAssign on, the others may stand anywhere below the update level *)
Lemma un_lv_ok fp L P u w : LAssign <= P \/ L < LAssign -> L < S_Update -> lv_ok fp L P (EUn u w).
Proof.
  intros HP HL. simpl. unfold un_lim. destruct (op_eqb u UYield) eqn:Ey; [|right; exact HL].
  apply op_eqb_eq in Ey. subst u.
  destruct HP as [HP|HP]; [left; apply wrapped_level; [reflexivity | exact HP] | right; exact HP].
Qed.

Lemma right_level_eq o : right_level o = if is_assign o then 3 else if op_eqb o BPow then 16 else if op_eqb o BNullish then 8 else spec_level o.
Proof. destruct o; reflexivity. Qed.

Lemma right_ok_print fp o r :
  op_kind o = KBin -> (o = BComma -> not_comma r) -> lv_ok fp (right_level o) (right_lvl o r) r.
Proof.
  intros Hk Hc. destruct r as [s|s|b f|t s|u v|o2 a b|c0 y0 n0|t0 i0|f0 a0|f0 a0| |x0 r0]; try exact I.
  - unfold lv_ok, un_lim. destruct (op_eqb u UYield) eqn:Ey.
    + apply op_eqb_eq in Ey. subst u.
      destruct o; try discriminate; first [left; reflexivity | right; reflexivity].
    + right. destruct o; try discriminate; reflexivity.
  - unfold lv_ok, wrapped. simpl compound. simpl lvl. simpl andb.
    destruct (op_eqb o BNullish) eqn:En.
    + apply op_eqb_eq in En. subst o.
      destruct o2; vm_compute; auto.
    + destruct (op_eqb o BComma) eqn:Ecm.
      * apply op_eqb_eq in Ecm. subst o.
        specialize (Hc eq_refl). destruct o2; try (destruct Hc); vm_compute; auto.
      * unfold right_lvl. rewrite En. simpl andb. cbv iota.
        assert (Hle : right_level o <= (if is_left_assoc o then op_level o else op_level o - 1)).
        { destruct o; try discriminate; vm_compute; discriminate. }
        destruct ((if is_left_assoc o then op_level o else op_level o - 1) >=? op_level o2) eqn:E; [left; reflexivity|].
        right. rewrite Z.geb_leb in E. apply Z.leb_gt in E. lia.
  - unfold lv_ok. destruct o; try discriminate; first [left; reflexivity | right; split; [reflexivity | discriminate]].
  - right. destruct o; try discriminate; reflexivity.
Qed.

(* what may follow the tokens of an expression printed at level P *)
Definition fol (P : Z) (rest : list tok) : bool :=
  match rest with
  | [] => true
  | t :: _ =>
      if is_dot t || is_lbrack t || is_open t then LPostfix <=? P
      else if is_quest t then LConditional <=? P
      else match postfix_op t with
           | Some _ => LPrefix <=? P
           | None => match binary_op t with Some o => lpl o <=? P | None => true end
           end
  end.

Lemma fol_weaken P P' rest : P <= P' -> fol P rest = true -> fol P' rest = true.
Proof.
  intros Hle H. destruct rest as [|t r]; [reflexivity|]. simpl in *.
  destruct (is_dot t || is_lbrack t || is_open t); [apply Z.leb_le in H; apply Z.leb_le; lia|].
  destruct (is_quest t); [apply Z.leb_le in H; apply Z.leb_le; lia|].
  destruct (postfix_op t); [apply Z.leb_le in H; apply Z.leb_le; lia|].
  destruct (binary_op t); [apply Z.leb_le in H; apply Z.leb_le; lia | reflexivity].
Qed.

Lemma binary_op_kind t o : binary_op t = Some o -> op_kind o = KBin.
Proof.
  unfold binary_op, find_op. intro H. apply find_some in H as [_ H]. apply andb_true_iff in H as [H _].
  destruct (op_kind o); try discriminate; reflexivity.
Qed.

(* below level 18 nothing but a binary operator of bounded level can follow, and it stops an operand parse *)
Lemma fol_stop P M rest :
  fol P rest = true -> P < LPrefix -> P <= M ->
  (forall o, op_kind o = KBin -> lpl o <= P -> spec_level o <=? M = true) ->
  head_stop M rest = true.
Proof.
  intros H HP HPM HM. destruct rest as [|t r]; [reflexivity|]. simpl in *.
  destruct (is_dot t); [apply Z.leb_le in H; unfold LPostfix, LPrefix in *; lia|].
  destruct (is_lbrack t); [apply Z.leb_le in H; unfold LPostfix, LPrefix in *; lia|]. simpl.
  destruct (is_open t); [apply Z.leb_le in H; unfold LPostfix, LPrefix in *; lia|]. simpl.
  destruct (is_quest t) eqn:Eq.
  { apply Z.leb_le in H. replace (S_Cond <=? M) with true by (symmetry; apply Z.leb_le; unfold S_Cond, LConditional in *; lia).
    apply tok_eqb_eq in Eq. subst t. reflexivity. }
  destruct (postfix_op t); [apply Z.leb_le in H; lia|]. simpl.
  destruct (binary_op t) as [o|] eqn:Eb; [|reflexivity].
  apply HM; [eapply binary_op_kind; eauto | apply Z.leb_le in H; exact H].
Qed.

End WithMode.
