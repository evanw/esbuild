(* C13 property theorems. Only statements closed by [exact lemma] and Print Assumptions. *)
From V Require Import Common.Base C13.KwSpec C13.KwProofs gen.KeywordsGen.
From V Require Import C13.Token C13.LexSpec C13.Toks C13.TokenProofs C13.RenderLex.
From V Require Import C13.ParseSpec C13.PrintParse C13.PrintParse2 C13.PrintNorm C13.PrintChain C13.ParseFuel C13.RoundTrip.

(* the keyword table of the lexer (regenerated from the source by T6) is exactly the
   ECMA-262 reserved-word list minus the two contextually reserved words await/yield *)
Theorem keywords_eq_ecma262 :
  forall w, In w (map fst gen_keywords) <-> (In w ecma_reserved_words /\ ~ In w ecma_contextually_reserved).
Proof. exact keywords_eq_ecma262_all. Qed.
Print Assumptions keywords_eq_ecma262.

(* the strict-mode reserved words are exactly implements interface let package private protected public static yield *)
Theorem strict_reserved_eq_ecma262 : forall w, In w gen_strict_reserved <-> In w ecma_strict_reserved.
Proof. exact strict_eq_ecma262_all. Qed.
Print Assumptions strict_reserved_eq_ecma262.

(* no word is listed twice or in both tables *)
Theorem keyword_tables_nodup : NoDup (map fst gen_keywords ++ gen_strict_reserved).
Proof. exact tables_nodup_all. Qed.
Print Assumptions keyword_tables_nodup.

(* every keyword is mapped to the token constant of its own name *)
Theorem keyword_tokens_consistent : forall e, In e gen_keywords -> fst e = snd e.
Proof. exact keyword_tokens_consistent_all. Qed.
Print Assumptions keyword_tokens_consistent.

(* render_lex: for every grammatical operator/operand chain (identifiers, numeric literals of the
   shapes 12, 1.5, 15e-8, 0xff, .5 with the space-before-dot rule for plain integers, regular
   expressions, the 53 unary/binary/postfix operators of js_ast.OpTable and the keyword operators
   await and yield, member access, index access, conditional, calls and new, parentheses), in both
   whitespace modes, the text produced by the printer's gluing rules is read back by the ECMA-262
   maximal-munch lexer as exactly the emitted tokens: no two tokens fuse and no comment opener
   (//, /*, <!--, -->) appears at a token boundary *)
Theorem render_lex : forall mw items,
  Forall item_ok items -> chain None items = true ->
  lex (render mw st0 items) = Some (toks items).
Proof. exact render_lex_all. Qed.
Print Assumptions render_lex.

Theorem render_creates_no_comment : forall mw items,
  Forall item_ok items -> chain None items = true -> lex (render mw st0 items) <> None.
Proof. exact render_no_comment_all. Qed.
Print Assumptions render_creates_no_comment.

(* the binding levels of js_ast.OpTable (tied to the source by the correspondence run) are the
   strata of the ECMA-262 expression grammar as written down independently in ParseSpec.v *)
Theorem op_levels_match_grammar : forall o, spec_level o = op_level o.
Proof. exact spec_level_is_op_level. Qed.
Print Assumptions op_levels_match_grammar.

(* tree level, tokens: for every well-formed expression tree of the fragment (identifiers,
   numeric literals, regexps, member access a.b and index access a[b], the conditional c ? y : n,
   calls f(x, y) and new f(x, y) with argument lists of any length, all 11 unary/update and 42
   binary/assignment/comma operators, await and yield with an operand), in both whitespace modes (minification omits the empty
   "()" of a new-expression where the grammar allows it),
   the tokens of what printExpr prints (parentheses chosen by level, the "**" and "??" operand
   rules, the isNewTarget rule: a call inside the callee of "new" is parenthesised, at any depth of
   member access, and a new-expression keeps its "()" when it is itself a member/call target)
   under either value of the forbidIn flag fi of a for-loop head (an "in" operator is parenthesised wherever the grammar
   parameter [~In] reaches: operands of unparenthesised binary operators, test and last branch of an
   unparenthesised conditional; the parser runs with the matching parameter)
   are parsed by the independent ECMA-262 precedence-climbing parser back to the tree,
   up to norm (left-nesting of comma chains, which the printer prints without parentheses) *)
Theorem print_parse_tokens : forall mw fi ss e, wf e ->
  exists n, forall m, (n <= m)%nat -> parse_fuel m fi (toks (print_items mw fi ss LLowest e)) = Some (norm e).
Proof. exact parse_print_items_all. Qed.
Print Assumptions print_parse_tokens.

(* norm is invisible to the printer (so it only re-associates what is printed identically) and idempotent *)
Theorem norm_prints_the_same : forall mw e fi ss P, print_items mw fi ss P (norm e) = print_items mw fi ss P e.
Proof. exact print_norm. Qed.
Print Assumptions norm_prints_the_same.
Theorem norm_idempotent : forall e, norm (norm e) = norm e.
Proof. exact norm_idem. Qed.
Print Assumptions norm_idempotent.

(* every printed well-formed tree is a grammatical chain of well-formed items, so render_lex applies:
   the text of a printed tree lexes to the tokens of its items, in both whitespace modes *)
Theorem print_lex : forall mw fi ss e, wf e -> lexok e ->
  lex (print_expr mw fi ss e) = Some (toks (print_items mw fi ss LLowest e)).
Proof. exact print_lex_all. Qed.
Print Assumptions print_lex.

(* if some fuel parses a token list, the concrete fuel of [parse] (2 * tokens + 2) does too *)
Theorem parse_fuel_sufficient : forall n ni ts e, parse_fuel n ni ts = Some e -> parse ni ts = Some e.
Proof. exact parse_fuel_enough. Qed.
Print Assumptions parse_fuel_sufficient.

(* print_parse_roundtrip: the printed text of every well-formed expression tree of the fragment,
   in either whitespace mode, is read back (ECMA-262 lexer, then ECMA-262 expression parser) as the
   same tree up to norm.  [lexok] is the one lexical side condition of render_lex: the operand of a
   prefix ++/-- does not start with a regular expression (the specification lexer chooses the
   division goal after ++/--; "++/re/.x" is valid JavaScript outside the fragment). *)
Theorem print_parse_roundtrip : forall mw fi ss e, wf e -> lexok e -> parse_text fi (print_expr mw fi ss e) = Some (norm e).
Proof. exact print_parse_roundtrip_concrete. Qed.
Print Assumptions print_parse_roundtrip.

(* print_fixed_point: printing what was read back reproduces the text exactly, in both modes *)
Theorem print_fixed_point : forall mw fi ss e e', wf e -> lexok e ->
  parse_text fi (print_expr mw fi ss e) = Some e' -> forall mw' fi' ss', print_expr mw' fi' ss' e' = print_expr mw' fi' ss' e.
Proof. exact print_fixed_point_concrete. Qed.
Print Assumptions print_fixed_point.

(* print_stmt_roundtrip: statement start.  ss is the printer's "p.stmtStart == len(p.js)", handed down the
   leftmost operands as long as nothing is printed in front of them; an index access on the identifier "let"
   in that position is printed "(let)[...]" (fix ac301ad; the witnesses of finding C13-D7 are instances).
   The text printed for an expression statement is read back AS A STATEMENT (14.5: an ExpressionStatement
   must not start with the two tokens "let" "[") as the same tree. *)
Theorem print_stmt_roundtrip : forall mw e, wf e -> lexok e -> parse_stmt_text (print_expr mw false true e) = Some (norm e).
Proof. exact print_stmt_roundtrip_all. Qed.
Print Assumptions print_stmt_roundtrip.

(* the head of a for loop has the same restriction (14.7.4), and since fix 177d11f (finding C13-D10) the printer
   applies the same guard there: the initialiser of a for loop, printed with forbidIn, is read back as the first
   expression of a for head, with [~In], as the same tree *)
Theorem print_for_head_roundtrip : forall mw e, wf e -> lexok e ->
  parse_for_head_text (print_expr mw true true e) = Some (norm e).
Proof. exact print_for_head_roundtrip_guarded. Qed.
Print Assumptions print_for_head_roundtrip.
