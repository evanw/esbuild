From V Require Import Common.Base C13.KwSpec C13.Token C13.LexSpec C13.LexProofs C13.Toks C13.TokenProofs C13.RenderLex C13.ParseSpec C13.PrintParse C13.PrintParse2 C13.PrintNorm C13.PrintChain C13.ParseFuel C13.RoundTrip C13.Harness gen.KeywordsGen.
From Coq Require Import String.
(* non-vacuity / sanity: concrete values *)
Example kw_count : (List.length gen_keywords = 36)%nat /\ (List.length gen_strict_reserved = 9)%nat /\ (List.length ecma_reserved_words = 38)%nat.
Proof. vm_compute. repeat split. Qed.
Example render_ex :
  render true st0 [IId (zs "a"); IOp BAdd; IOp UPos; IId (zs "b"); IOp BLt; IOp UNot; IOp UPreDec; IId (zs "b");
                   IOp BDiv; IRe (zs "x") (zs "g"); IOp BIn; INum (zs "1"); IDot (zs "c"); IOp UPostDec; IOp BGt; IId (zs "a")]
  = zs "a+ +b<! --b/ /x/g in 1 .c-- >a".
Proof. vm_compute. reflexivity. Qed.
Example print_ex :
  print_expr false false true (EBin BAdd (EId (zs "a")) (EBin BMul (EUn UPos (EId (zs "b"))) (EBin BSub (EId (zs "a")) (EUn UNeg (ENum (zs "1"))))))
  = zs "a + +b * (a - -1)".
Proof. vm_compute. reflexivity. Qed.

(* the hypotheses of render_lex are satisfiable by a chain that exercises every gluing rule *)
Definition ex_chain : list item :=
  [IId (zs "a"); IOp BAdd; IOp UPos; IId (zs "b"); IOp BLt; IOp UNot; IOp UPreDec; IId (zs "b");
   IOp BDiv; IRe (zs "x") (zs "g"); IOp BIn; INum (zs "1"); IDot (zs "c"); IOp UPostDec; IOp BGt; IOpen; IOp UTypeof; IId (zs "of"); IClose].
Example ex_chain_ok : Forall item_ok ex_chain /\ chain None ex_chain = true.
Proof.
  split; [|vm_compute; reflexivity].
  unfold ex_chain. repeat constructor; try discriminate; try (vm_compute; congruence); vm_compute; reflexivity.
Qed.
Example ex_chain_lex : lex (render true st0 ex_chain) = Some (toks ex_chain).
Proof. apply RenderLex.render_lex_all; apply ex_chain_ok. Qed.

(* identifiers ending in a \u{...} escape (fix 6d63f64): the hypotheses of render_lex hold and
   the word that follows is separated *)
Definition ex_esc_chain : list item :=
  [IId (zs "a\u{10000}"); IOp BIn; IId (zs "x"); IOp BInstanceof; IOp UTypeof; IId (zs "b\u{1F600}"); IOp UPostInc; IOp BAdd; IId (zs "c")].
Example ex_esc_render : render true st0 ex_esc_chain = zs "a\u{10000} in x instanceof typeof b\u{1F600}+++c".
Proof. vm_compute. reflexivity. Qed.
Lemma ex_esc_word pre hex : id_shape pre -> hex <> [] -> forallb hexd hex = true ->
  regex_after_word (pre ++ esc_seq hex) = false -> item_ok (IId (pre ++ esc_seq hex)).
Proof. intros H1 H2 H3 H4. split; [right; exists pre, hex; split; [reflexivity | split; [exact H1 | split; [exact H2 | exact H3]]] | exact H4]. Qed.
Lemma ex_plain_word s : id_shape s -> regex_after_word s = false -> item_ok (IId s).
Proof. intros H1 H2. split; [left; exact H1 | exact H2]. Qed.
Example ex_esc_ok : Forall item_ok ex_esc_chain /\ chain None ex_esc_chain = true.
Proof.
  split; [|vm_compute; reflexivity].
  unfold ex_esc_chain.
  constructor; [apply (ex_esc_word (zs "a") (zs "10000")); repeat split; try discriminate; vm_compute; reflexivity|].
  constructor; [exact I|].
  constructor; [apply ex_plain_word; repeat split; try discriminate; vm_compute; reflexivity|].
  constructor; [exact I|]. constructor; [exact I|].
  constructor; [apply (ex_esc_word (zs "b") (zs "1F600")); repeat split; try discriminate; vm_compute; reflexivity|].
  constructor; [exact I|]. constructor; [exact I|].
  constructor; [apply ex_plain_word; repeat split; try discriminate; vm_compute; reflexivity|].
  constructor.
Qed.
Example ex_esc_lex : lex (render true st0 ex_esc_chain) = Some (toks ex_esc_chain).
Proof. apply RenderLex.render_lex_all; apply ex_esc_ok. Qed.

Lemma letter_free c : regex_after_word [c] = false.
Proof.
  unfold regex_after_word. destruct (mem [c] ecma_reserved_words) eqn:E; [|reflexivity]. apply mem_In in E.
  assert (F : forallb (fun w => (2 <=? List.length w)%nat) ecma_reserved_words = true) by (vm_compute; reflexivity).
  rewrite forallb_forall in F. apply F in E. discriminate E.
Qed.

(* tree level: a well-formed tree with a right-nested comma, "**" with a unary base, "??" next to "||" *)
Definition ex_tree : expr :=
  EBin BComma (EBin BAssign (EDot (EId (zs "a")) (zs "b")) (EBin BPow (EUn UNeg (EId (zs "c"))) (ENum (zs "2"))))
              (EBin BComma (EBin BNullish (EBin BLogOr (EId (zs "d")) (EId (zs "e"))) (EUn UPostInc (EId (zs "f"))))
                           (EUn UTypeof (ERe (zs "x") (zs "g")))).
Example ex_tree_wf : wf ex_tree.
Proof.
  unfold ex_tree. cbn [wf wfa lexok]. unfold word_ok, word_shape, id_shape, num_shape, re_shape.
  repeat apply conj;
    try (match goal with |- regex_after_word (zs (String _ EmptyString)) = false => apply letter_free end);
    try (vm_compute; reflexivity);
    try discriminate;
    try (left; repeat split; try discriminate; vm_compute; reflexivity);
    try (intro; reflexivity);
    try (intro; discriminate).
Qed.
Example ex_tree_print : print_expr true false true ex_tree = zs "a.b=(-c)**2,(d||e)??f++,typeof/x/g".
Proof. vm_compute. reflexivity. Qed.
Example ex_tree_parse : parse_text false (print_expr true false true ex_tree) = Some (norm ex_tree) /\ norm ex_tree <> ex_tree.
Proof. split; [vm_compute; reflexivity | vm_compute; discriminate]. Qed.
Example ex_tree_lexok : lexok ex_tree /\ lexok (EUn UPreInc (EDot (EBin BAdd (ENum (zs "1")) (EId (zs "a"))) (zs "b"))).
Proof. simpl. repeat split; try (intro; reflexivity); try (intro; discriminate). Qed.
Example ex_tree_roundtrip : parse_text false (print_expr false false true ex_tree) = Some (norm ex_tree).
Proof. apply print_parse_roundtrip_concrete; [apply ex_tree_wf | apply ex_tree_lexok]. Qed.
Example ex_tree_fixed : print_expr true false true (norm ex_tree) = print_expr true false true ex_tree.
Proof. apply (print_fixed_point_concrete false false true ex_tree); [apply ex_tree_wf | apply ex_tree_lexok | apply ex_tree_roundtrip]. Qed.

(* conditional and index access: nested conditionals, assignment in a branch, comma in a branch and in an index *)
Definition ex_tree2 : expr :=
  ECond (EBin BNullish (EId (zs "a")) (EIndex (EId (zs "b")) (EBin BComma (EId (zs "c")) (EId (zs "d")))))
        (EBin BAssign (EIndex (EDot (EId (zs "e")) (zs "f")) (ENum (zs "0"))) (ECond (EId (zs "g")) (EId (zs "h")) (EId (zs "i"))))
        (EBin BAdd (ECond (EId (zs "j")) (EBin BComma (EId (zs "k")) (EId (zs "l"))) (EId (zs "m"))) (EUn UPostInc (EIndex (EId (zs "n")) (EId (zs "o"))))).
Example ex_tree2_print : print_expr true false true ex_tree2 = zs "a??b[c,d]?e.f[0]=g?h:i:(j?(k,l):m)+n[o]++".
Proof. vm_compute. reflexivity. Qed.
Example ex_tree2_wf : wf ex_tree2 /\ lexok ex_tree2.
Proof.
  unfold ex_tree2. cbn [wf wfa lexok]. unfold word_ok, word_shape, id_shape, num_shape.
  repeat apply conj;
    try (match goal with |- regex_after_word (zs (String _ EmptyString)) = false => apply letter_free end);
    try (vm_compute; reflexivity);
    try discriminate;
    try (left; repeat split; try discriminate; vm_compute; reflexivity);
    try (intro; reflexivity);
    try (intro; discriminate).
Qed.
Example ex_tree2_roundtrip : parse_text false (print_expr true false true ex_tree2) = Some (norm ex_tree2).
Proof. apply print_parse_roundtrip_concrete; apply ex_tree2_wf. Qed.

(* calls and new: a call inside the callee of "new" (directly, under a member access, as the base of an
   index), "new" as a member target keeps its parentheses, the empty "()" is dropped only when minifying
   and only where the grammar allows it, argument lists hold assignments and conditionals but a comma
   operator argument is parenthesised *)
Definition ex_tree3 : expr :=
  ECall (EDot (ENew (EDot (ECall (EId (zs "a")) ANil) (zs "b")) ANil) (zs "c"))
        (ACons (ENew (ENew (EId (zs "d")) ANil) ANil)
        (ACons (EBin BComma (EId (zs "e")) (EId (zs "f")))
        (ACons (EBin BAssign (EId (zs "g")) (ENew (EIndex (EId (zs "h")) (ECall (EId (zs "i")) (ACons (ENum (zs "1")) ANil))) (ACons (EId (zs "j")) ANil)))
        (ACons (EUn UPostInc (EDot (ENew (EId (zs "k")) ANil) (zs "l"))) ANil)))).
Example ex_tree3_print_min : print_expr true false true ex_tree3 = zs "new(a()).b().c(new new d(),(e,f),g=new h[i(1)](j),new k().l++)".
Proof. vm_compute. reflexivity. Qed.
Example ex_tree3_print : print_expr false false true ex_tree3 = zs "new (a()).b().c(new new d()(), (e, f), g = new h[i(1)](j), new k().l++)".
Proof. vm_compute. reflexivity. Qed.
Example ex_tree3_wf : wf ex_tree3 /\ lexok ex_tree3.
Proof.
  unfold ex_tree3. cbn [wf wfa lexok]. unfold word_ok, word_shape, id_shape, num_shape.
  repeat apply conj;
    try (match goal with |- regex_after_word (zs (String _ EmptyString)) = false => apply letter_free end);
    try (vm_compute; reflexivity);
    try discriminate;
    try (left; repeat split; try discriminate; vm_compute; reflexivity);
    try (intro; reflexivity);
    try (intro; discriminate).
Qed.
Example ex_tree3_roundtrip : forall mw, parse_text false (print_expr mw false true ex_tree3) = Some (norm ex_tree3).
Proof. intro mw. apply print_parse_roundtrip_concrete; apply ex_tree3_wf. Qed.
Example ex_tree3_fixed : forall mw, print_expr mw false true (norm ex_tree3) = print_expr mw false true ex_tree3.
Proof. intro mw. apply (print_fixed_point_concrete true false true ex_tree3 _ (proj1 ex_tree3_wf) (proj2 ex_tree3_wf) (ex_tree3_roundtrip true)). Qed.

(* numeric literal texts: only a plain integer needs the space before "." *)
Definition ex_tree4 : expr :=
  EBin BSub (EBin BAdd (EDot (ENum (zs "1.5")) (zs "a")) (EBin BMul (EDot (ENum (zs "1e21")) (zs "b")) (EDot (ENum (zs "0xff")) (zs "c"))))
            (EBin BPow (EDot (ENum (zs "2")) (zs "d")) (EIndex (ENum (zs "5e-7")) (ENum (zs "12")))).
Example ex_tree4_print : print_expr true false true ex_tree4 = zs "1.5.a+1e21.b*0xff.c-2 .d**5e-7[12]".
Proof. vm_compute. reflexivity. Qed.
Example ex_tree4_wf : wf ex_tree4 /\ lexok ex_tree4.
Proof.
  unfold ex_tree4. cbn [wf wfa lexok]. unfold word_ok, word_shape, id_shape.
  repeat apply conj;
    try (match goal with |- regex_after_word (zs (String _ EmptyString)) = false => apply letter_free end);
    try discriminate;
    try (vm_compute; reflexivity).
  - right. left. exists (zs "1"), (zs "5"). repeat split; discriminate.
  - right. right. left. exists (zs "1"), [], (zs "21"). repeat split; try discriminate. left. reflexivity.
  - right. right. right. left. exists (zs "ff"). repeat split; discriminate.
  - left. repeat split; discriminate.
  - right. right. left. exists (zs "5"), [45], (zs "7"). repeat split; try discriminate. right. reflexivity.
  - left. repeat split; discriminate.
Qed.
Example ex_tree4_roundtrip : forall mw, parse_text false (print_expr mw false true ex_tree4) = Some (norm ex_tree4).
Proof. intro mw. apply print_parse_roundtrip_concrete; apply ex_tree4_wf. Qed.

(* forbidIn (the head of a for loop): "in" is parenthesised where the grammar parameter [~In] reaches, and only there *)
Definition ex_tree5 : expr :=
  EBin BComma
    (EBin BAssign (EId (zs "a")) (EBin BIn (EId (zs "b")) (EId (zs "c"))))
    (ECond (EBin BIn (EId (zs "d")) (EId (zs "e")))
           (EBin BIn (EId (zs "f")) (EId (zs "g")))
           (EBin BLogOr (EUn UNot (EBin BIn (EId (zs "h")) (EId (zs "i"))))
                        (ECall (EId (zs "j")) (ACons (EBin BIn (EId (zs "k")) (EIndex (EId (zs "l")) (EBin BIn (EId (zs "m")) (EId (zs "n"))))) ANil)))).
Example ex_tree5_print_fi : print_expr true true false ex_tree5 = zs "a=(b in c),(d in e)?f in g:!(h in i)||j(k in l[m in n])".
Proof. vm_compute. reflexivity. Qed.
Example ex_tree5_print : print_expr true false true ex_tree5 = zs "a=b in c,d in e?f in g:!(h in i)||j(k in l[m in n])".
Proof. vm_compute. reflexivity. Qed.
Example ex_tree5_wf : wf ex_tree5 /\ lexok ex_tree5.
Proof.
  unfold ex_tree5. cbn [wf wfa lexok]. unfold word_ok, word_shape, id_shape.
  repeat apply conj;
    try (match goal with |- regex_after_word (zs (String _ EmptyString)) = false => apply letter_free end);
    try (vm_compute; reflexivity);
    try discriminate;
    try (left; repeat split; try discriminate; vm_compute; reflexivity);
    try (intro; reflexivity);
    try (intro; discriminate).
Qed.
Example ex_tree5_roundtrip : forall mw fi, parse_text fi (print_expr mw fi false ex_tree5) = Some (norm ex_tree5).
Proof. intros mw fi. apply print_parse_roundtrip_concrete; apply ex_tree5_wf. Qed.
(* the flag matters: without the parentheses the [~In] parser does not read the text back *)
Example ex_tree5_flag_needed : parse_text true (print_expr true false true ex_tree5) = None.
Proof. vm_compute. reflexivity. Qed.

(* statement start (fix ac301ad, finding C13-D7): an expression statement must not begin with "let [" *)
Definition ex_let : expr :=
  EBin BAssign (EIndex (EId (zs "let")) (EId (zs "x")))
               (EBin BAdd (EUn UPostInc (EDot (EIndex (EId (zs "let")) (EIndex (EId (zs "let")) (EId (zs "y")))) (zs "z")))
                          (ECall (EIndex (EId (zs "let")) (ENum (zs "0"))) ANil)).
Example ex_let_stmt : print_expr true false true ex_let = zs "(let)[x]=let[let[y]].z+++let[0]()".
Proof. vm_compute. reflexivity. Qed.
Example ex_let_for_init : print_expr true true false ex_let = zs "let[x]=let[let[y]].z+++let[0]()".
Proof. vm_compute. reflexivity. Qed.
Example ex_let_wf : wf ex_let /\ lexok ex_let.
Proof.
  unfold ex_let. cbn [wf wfa lexok]. unfold word_ok, word_shape, id_shape, num_shape.
  repeat apply conj;
    try (match goal with |- regex_after_word (zs (String _ EmptyString)) = false => apply letter_free end);
    try (vm_compute; reflexivity);
    try discriminate;
    try (left; repeat split; try discriminate; vm_compute; reflexivity);
    try (intro; reflexivity);
    try (intro; discriminate).
Qed.
Example ex_let_roundtrip : forall mw, parse_stmt_text (print_expr mw false true ex_let) = Some (norm ex_let).
Proof. intro mw. apply print_stmt_roundtrip_all; apply ex_let_wf. Qed.
(* the guard is needed: without the parentheses the text is not an expression statement *)
Example ex_let_guard_needed : parse_stmt_text (print_expr true false false ex_let) = None.
Proof. vm_compute. reflexivity. Qed.
(* the witnesses of C13-D7 *)
Example d7_witnesses :
  print_expr true false true (EIndex (EId (zs "let")) (EId (zs "x"))) = zs "(let)[x]" /\
  print_expr true false true (EUn UPostInc (EDot (EIndex (EId (zs "let")) (EId (zs "x"))) (zs "y"))) = zs "(let)[x].y++" /\
  print_expr true false true (ECall (EIndex (EId (zs "let")) (EId (zs "x"))) ANil) = zs "(let)[x]()" /\
  print_expr true false true (EBin BAssign (EId (zs "a")) (EIndex (EId (zs "let")) (EId (zs "x")))) = zs "a=let[x]".
Proof. vm_compute. repeat split. Qed.

(* finding C13-D10 (repaired by 177d11f): the head of a for loop; without the guard the text "let[x]" would be a
   lexical declaration, not the expression that was printed *)
Example for_head_let :
  print_expr true true true (EIndex (EId (zs "let")) (EId (zs "x"))) = zs "(let)[x]" /\
  parse_for_head_text (print_expr true true true (EIndex (EId (zs "let")) (EId (zs "x")))) = Some (EIndex (EId (zs "let")) (EId (zs "x"))) /\
  parse_for_head_text (print_expr true true false (EIndex (EId (zs "let")) (EId (zs "x")))) = None.
Proof. vm_compute. repeat split. Qed.

(* await and yield (with operand) as keyword prefix operators: await binds like typeof, yield like an assignment;
   the operand of yield inherits forbidIn, a parenthesised yield does not *)
Definition ex_tree6 : expr :=
  EUn UYield (EBin BAssign (EId (zs "a"))
    (ECond (EUn UAwait (EBin BIn (EId (zs "b")) (EId (zs "c"))))
           (EBin BPow (EUn UAwait (EId (zs "d"))) (EUn UYield (EId (zs "e"))))
           (EBin BAdd (EUn UYield (EBin BIn (EId (zs "f")) (EId (zs "g")))) (EUn UAwait (EUn UNot (ERe (zs "x") (zs ""))))))).
Example ex_tree6_print : print_expr true false true ex_tree6 = zs "yield a=await(b in c)?(await d)**(yield e):(yield f in g)+await!/x/".
Proof. vm_compute. reflexivity. Qed.
Example ex_tree6_print_fi : print_expr true true false (EUn UYield (EBin BIn (EId (zs "f")) (EId (zs "g")))) = zs "yield(f in g)".
Proof. vm_compute. reflexivity. Qed.
Example ex_tree6_wf : wf ex_tree6 /\ lexok ex_tree6.
Proof.
  unfold ex_tree6. cbn [wf wfa lexok]. unfold word_ok, word_shape, id_shape, re_shape.
  repeat apply conj;
    try (match goal with |- regex_after_word (zs (String _ EmptyString)) = false => apply letter_free end);
    try (vm_compute; reflexivity);
    try discriminate;
    try (left; repeat split; try discriminate; vm_compute; reflexivity);
    try (intro; reflexivity);
    try (intro; discriminate).
Qed.
Example ex_tree6_roundtrip : forall mw fi ss, parse_text fi (print_expr mw fi ss ex_tree6) = Some (norm ex_tree6).
Proof. intros mw fi ss. apply print_parse_roundtrip_concrete; apply ex_tree6_wf. Qed.

(* the lexical side condition only excludes a regular expression directly behind a prefix ++/-- *)
Example lexok_wide : lexok (EUn UPreInc (EDot (ENew (EId (zs "a")) ANil) (zs "b"))) /\ lexok (EUn UPreDec (EIndex (ENum (zs "1")) (EId (zs "x"))))
  /\ ~ lexok (EUn UPreInc (EDot (ERe (zs "x") (zs "")) (zs "y"))).
Proof. simpl. repeat split; try (intro; reflexivity). intros [_ H]. specialize (H eq_refl). discriminate. Qed.
Example lexok_wide_print : print_expr true false true (EUn UPreInc (EDot (ENew (EId (zs "a")) ANil) (zs "b"))) = zs "++new a().b"
  /\ print_expr true false true (EUn UPreDec (EIndex (ENum (zs "1")) (EId (zs "x")))) = zs "--1[x]".
Proof. vm_compute. split; reflexivity. Qed.

(* a number text with a leading dot (minify-whitespace prints 0.5 as .5): "?" followed by ".5" lexes as "?" and ".5",
   never as the optional-chaining punctuator "?." *)
Definition ex_dot5 : expr :=
  ECond (EId (zs "a")) (ENum (zs ".5")) (EBin BAdd (EDot (ENum (zs ".25")) (zs "x")) (EBin BIn (EId (zs "b")) (ENum (zs ".5")))).
Example ex_dot5_print : print_expr true false true ex_dot5 = zs "a?.5:.25.x+(b in .5)".
Proof. vm_compute. reflexivity. Qed.
Example ex_dot5_wf : wf ex_dot5 /\ lexok ex_dot5.
Proof.
  unfold ex_dot5. cbn [wf wfa lexok]. unfold word_ok, word_shape, id_shape.
  repeat apply conj;
    try (match goal with |- regex_after_word (zs (String _ EmptyString)) = false => apply letter_free end);
    try (vm_compute; reflexivity);
    try discriminate;
    try (left; repeat split; try discriminate; vm_compute; reflexivity).
  - right. right. right. right. exists (zs "5"). repeat split; discriminate.
  - right. right. right. right. exists (zs "25"). repeat split; discriminate.
  - right. right. right. right. exists (zs "5"). repeat split; discriminate.
Qed.
Example ex_dot5_roundtrip : forall mw, parse_stmt_text (print_expr mw false true ex_dot5) = Some (norm ex_dot5).
Proof. intro mw. apply print_stmt_roundtrip_all; apply ex_dot5_wf. Qed.
