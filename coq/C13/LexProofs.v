(* Lemmas about the specification lexer (LexSpec.v): when one token's text
   followed by an arbitrary remainder is read back as exactly that token. *)
From V Require Import Common.Base C13.KwSpec C13.LexSpec.
From Coq Require Import String.

Definition hdz (l : list Z) : Z := match l with c :: _ => c | [] => -1 end.

Lemma hdz_app a b : a <> [] -> hdz (a ++ b) = hdz a.
Proof. destruct a; [congruence | reflexivity]. Qed.

Lemma span_app' (f : Z -> bool) a rest :
  forallb f a = true -> (forall c r, rest = c :: r -> f c = false) -> span f (a ++ rest) = (a, rest).
Proof.
  intros Ha Hr. induction a as [|x a IH]; simpl in *.
  - destruct rest as [|c r]; [reflexivity|]. simpl. rewrite (Hr c r eq_refl). reflexivity.
  - apply andb_true_iff in Ha as [Hx Ha]. rewrite Hx, (IH Ha). reflexivity.
Qed.

Lemma span_app (f : Z -> bool) a rest :
  forallb f a = true -> f (hdz rest) = false -> (rest = [] \/ rest <> []) ->
  (forall c r, rest = c :: r -> f c = false) ->
  span f (a ++ rest) = (a, rest).
Proof. intros Ha _ _. apply span_app'. exact Ha. Qed.

Definition nohead (f : Z -> bool) (rest : list Z) : Prop := forall c r, rest = c :: r -> f c = false.
Lemma nohead_of_hdz (f : Z -> bool) R : f (hdz R) = false -> nohead f R.
Proof. intros H c r E. subst R. exact H. Qed.
Lemma nohead_sub (f g : Z -> bool) R : (forall c, g c = true -> f c = true) -> nohead f R -> nohead g R.
Proof.
  intros Hgf HR c r E. specialize (HR c r E). destruct (g c) eqn:G; [|reflexivity].
  rewrite (Hgf c G) in HR. discriminate HR.
Qed.

(* which character can extend p inside an entry of the table T *)
Definition next_chars_tbl (p : list Z) (T : list (list Z)) : list Z :=
  flat_map (fun w => if prefix_b p w then match skipn (List.length p) w with c :: _ => [c] | [] => [] end else []) T.

Lemma prefix_b_app p q : prefix_b p (p ++ q) = true.
Proof. induction p as [|a p IH]; simpl; [reflexivity|]. rewrite Z.eqb_refl, IH. reflexivity. Qed.

Lemma skipn_app_len {A} (p q : list A) : skipn (List.length p) (p ++ q) = q.
Proof. induction p; simpl; auto. Qed.

Lemma firstn_app_len {A} (p q : list A) : firstn (List.length p) (p ++ q) = p.
Proof. induction p; simpl; [reflexivity|]. f_equal. assumption. Qed.

Lemma eq_next T p c q : mem (p ++ c :: q) T = true -> In c (next_chars_tbl p T).
Proof.
  intro H. apply mem_In in H. unfold next_chars_tbl. apply in_flat_map.
  exists (p ++ c :: q). split; [exact H|]. rewrite prefix_b_app, skipn_app_len. left. reflexivity.
Qed.

(* w is a prefix of p ++ c :: q: either w is already a prefix of p, or p ++ [c] is a prefix of w *)
Lemma prefix_split w : forall p c q,
  prefix_b w (p ++ c :: q) = true ->
  prefix_b w p = true \/ (prefix_b p w = true /\ exists t, skipn (List.length p) w = c :: t).
Proof.
  induction w as [|a w IH]; intros p c q H.
  - left. destruct p; reflexivity.
  - destruct p as [|x p]; simpl in *.
    + apply andb_true_iff in H as [H1 H2]. apply Z.eqb_eq in H1. subst. right. split; [reflexivity|]. eexists. reflexivity.
    + apply andb_true_iff in H as [H1 H2]. destruct (IH p c q H2) as [Hl | [Hp [t Ht]]].
      * left. rewrite H1, Hl. reflexivity.
      * right. apply Z.eqb_eq in H1. subst. split; [simpl; rewrite Z.eqb_refl, Hp; reflexivity | exists t; exact Ht].
Qed.

Lemma pfx_next T p c q :
  existsb (fun w => prefix_b w (p ++ c :: q)) T = true ->
  existsb (fun w => prefix_b w p) T = true \/ In c (next_chars_tbl p T).
Proof.
  intro H. apply existsb_exists in H as [w [Hin Hw]].
  destruct (prefix_split w p c q Hw) as [Hl | [Hp [t Ht]]].
  - left. apply existsb_exists. exists w. split; assumption.
  - right. unfold next_chars_tbl. apply in_flat_map. exists w. split; [exact Hin|].
    rewrite Hp, Ht. left. reflexivity.
Qed.

Definition memz (c : Z) (l : list Z) : bool := existsb (Z.eqb c) l.
Lemma memz_In c l : memz c l = true <-> In c l.
Proof.
  unfold memz. rewrite existsb_exists. split.
  - intros [x [Hin He]]. apply Z.eqb_eq in He. subst. exact Hin.
  - intro Hin. exists c. split; [exact Hin | apply Z.eqb_refl].
Qed.
Lemma memz_false c l : memz c l = false -> ~ In c l.
Proof. intros H Hin. apply memz_In in Hin. congruence. Qed.

Definition next_chars (p : list Z) : list Z := next_chars_tbl p puncts.

Lemma try_len_longer k p R :
  (List.length p < k)%nat -> ~ In (hdz R) (next_chars p) -> try_len k (p ++ R) = None.
Proof.
  intros Hk Hn. unfold try_len.
  destruct ((k <=? List.length (p ++ R))%nat) eqn:E1; [|reflexivity].
  destruct (is_punct (firstn k (p ++ R))) eqn:E2; [|reflexivity].
  exfalso. apply Nat.leb_le in E1. rewrite app_length in E1.
  rewrite firstn_app in E2. rewrite (firstn_all2 p) in E2 by lia.
  destruct R as [|c R1]; [simpl in E1; lia|].
  destruct (k - List.length p)%nat as [|m] eqn:Em; [lia|].
  simpl in E2. apply eq_next in E2. apply Hn. exact E2.
Qed.

Lemma try_len_exact p R : is_punct p = true -> try_len (List.length p) (p ++ R) = Some (p, R).
Proof.
  intro Hp. unfold try_len. rewrite app_length.
  replace ((List.length p <=? List.length p + List.length R)%nat) with true by (symmetry; apply Nat.leb_le; lia).
  rewrite firstn_app_len, skipn_app_len, Hp. reflexivity.
Qed.

Lemma lex_punct_app p R :
  is_punct p = true -> (1 <= List.length p <= 4)%nat -> ~ In (hdz R) (next_chars p) ->
  lex_punct (p ++ R) = Some (p, R).
Proof.
  intros Hp Hl Hn. unfold lex_punct.
  destruct (List.length p) as [|[|[|[|[|n]]]]] eqn:El; try lia.
  - rewrite (try_len_longer 4), (try_len_longer 3), (try_len_longer 2) by (try lia; assumption).
    rewrite <- El. apply try_len_exact. exact Hp.
  - rewrite (try_len_longer 4), (try_len_longer 3) by (try lia; assumption).
    rewrite <- El, try_len_exact by exact Hp. reflexivity.
  - rewrite (try_len_longer 4) by (try lia; assumption).
    rewrite <- El, try_len_exact by exact Hp. reflexivity.
  - rewrite <- El, try_len_exact by exact Hp. reflexivity.
Qed.

Definition opener_next (ls : bool) (p : list Z) : list Z := next_chars_tbl p (openers ls).

Lemma comment_start_app ls p R :
  existsb (fun w => prefix_b w p) (openers ls) = false ->
  ~ In (hdz R) (opener_next ls p) ->
  p <> [] ->
  comment_start ls (p ++ R) = false.
Proof.
  intros H1 H2 Hne. unfold comment_start.
  destruct R as [|c q].
  - rewrite app_nil_r. exact H1.
  - destruct (existsb (fun w => prefix_b w (p ++ c :: q)) (openers ls)) eqn:E; [|reflexivity].
    exfalso. apply pfx_next in E as [E | E]; [congruence | apply H2; exact E].
Qed.

Definition id_shape (s : list Z) : Prop :=
  s <> [] /\ id_start (hdz s) = true /\ forallb id_part s = true.

Lemma prefix_hd a w c s : prefix_b (a :: w) (c :: s) = true -> a = c.
Proof. simpl. intro H. apply andb_true_iff in H as [H _]. apply Z.eqb_eq in H. exact H. Qed.

Lemma openers_heads ls w : In w (openers ls) -> exists t, w = 47 :: t \/ w = 60 :: t \/ w = 45 :: t.
Proof.
  intro H. assert (H' : In w (openers true)).
  { unfold openers in *. apply in_app_or in H. apply in_or_app. destruct H as [H|H]; [left; exact H|].
    destruct ls; [right; exact H | destruct H]. }
  clear H. vm_compute in H'.
  repeat (destruct H' as [H'|H']; [subst w; eexists; eauto|]). destruct H'.
Qed.

Lemma comment_start_hd ls c s :
  c <> 47 -> c <> 60 -> c <> 45 -> comment_start ls (c :: s) = false.
Proof.
  intros H1 H2 H3. unfold comment_start.
  destruct (existsb (fun w => prefix_b w (c :: s)) (openers ls)) eqn:E; [|reflexivity].
  exfalso. apply existsb_exists in E as [w [Hin Hw]].
  destruct (openers_heads ls w Hin) as [t [Ht|[Ht|Ht]]]; subst w; apply prefix_hd in Hw; congruence.
Qed.

Lemma id_start_facts c : id_start c = true -> c <> 47 /\ c <> 60 /\ c <> 45 /\ digit c = false /\ c <> 46 /\ c <> 32.
Proof. unfold id_start, digit. intro H. lia. Qed.

Lemma span_id_plain a : forall n R,
  forallb id_part a = true -> nohead id_part R -> nohead (fun c => c =? 92) R ->
  (n > List.length a)%nat -> span_id n (a ++ R) = Some (a, R).
Proof.
  induction a as [|x a IH]; intros n R Ha HR H92 Hn; (destruct n as [|n]; [simpl in Hn; lia|]).
  - simpl. destruct R as [|c r]; [reflexivity|].
    rewrite (HR c r eq_refl), (H92 c r eq_refl). reflexivity.
  - simpl in Ha. apply andb_true_iff in Ha as [Hx Ha]. simpl app. cbn [span_id]. rewrite Hx.
    rewrite (IH n R Ha HR H92) by (simpl in Hn; lia). reflexivity.
Qed.

Definition esc_seq (hex : list Z) : list Z := [92; 117; 123] ++ hex ++ [125].
Definition esc_id_shape (s : list Z) : Prop :=
  exists pre hex, s = pre ++ esc_seq hex /\ id_shape pre /\ hex <> [] /\ forallb hexd hex = true.
Definition word_shape (s : list Z) : Prop := id_shape s \/ esc_id_shape s.

Lemma lex_escape_braces hex R :
  hex <> [] -> forallb hexd hex = true ->
  lex_escape (117 :: 123 :: hex ++ 125 :: R) = Some ([117; 123] ++ hex ++ [125], R).
Proof.
  intros Hne Hh. unfold lex_escape. change (117 =? 117) with true. change (123 =? 123) with true. cbv iota.
  rewrite (span_app' hexd hex (125 :: R) Hh (nohead_of_hdz hexd (125 :: R) eq_refl)). destruct hex as [|h0 hex']; [congruence|].
  change (125 =? 125) with true. reflexivity.
Qed.

Lemma span_id_esc pre hex : forall n R,
  forallb id_part pre = true -> hex <> [] -> forallb hexd hex = true ->
  nohead id_part R -> nohead (fun c => c =? 92) R ->
  (n > List.length pre + 2)%nat ->
  span_id n (pre ++ esc_seq hex ++ R) = Some (pre ++ esc_seq hex, R).
Proof.
  induction pre as [|x pre IH]; intros n R Hp Hne Hh HR H92 Hn; (destruct n as [|n]; [lia|]).
  - unfold esc_seq. simpl app. cbn [span_id]. change (id_part 92) with false. change (92 =? 92) with true. cbv iota.
    replace (117 :: 123 :: (hex ++ [125]) ++ R) with (117 :: 123 :: hex ++ 125 :: R) by (rewrite <- app_assoc; reflexivity).
    rewrite (lex_escape_braces hex R Hne Hh).
    pose proof (span_id_plain [] n R eq_refl HR H92) as Hp0. simpl app in Hp0. rewrite Hp0 by (simpl in *; lia).
    rewrite app_nil_r. reflexivity.
  - simpl in Hp. apply andb_true_iff in Hp as [Hx Hp].
    change ((x :: pre) ++ esc_seq hex ++ R) with (x :: (pre ++ esc_seq hex ++ R)). cbn [span_id]. rewrite Hx.
    rewrite (IH n R Hp Hne Hh HR H92) by (simpl in Hn; lia). reflexivity.
Qed.

Lemma word_shape_hd s : word_shape s -> s <> [] /\ id_start (hdz s) = true.
Proof.
  intros [[Hne [Hs _]] | (pre & hex & E & [Hne [Hs _]] & _)].
  - split; assumption.
  - subst s. split; [destruct pre; [congruence | discriminate] | rewrite hdz_app by exact Hne; exact Hs].
Qed.

Lemma lex1_word cx s R :
  word_shape s -> nohead id_part R -> nohead (fun c => c =? 92) R -> lex1 cx (s ++ R) = Some (TId s, R).
Proof.
  intros Hw HR H92. destruct (word_shape_hd s Hw) as [Hne Hs].
  assert (Hspan : span_id (S (List.length (s ++ R))) (s ++ R) = Some (s, R)).
  { destruct Hw as [[_ [_ Hall]] | (pre & hex & E & [_ [_ Hall]] & Hhne & Hh)].
    - apply span_id_plain; try assumption. rewrite app_length. lia.
    - subst s. rewrite <- app_assoc. apply span_id_esc; try assumption.
      rewrite !app_length. unfold esc_seq. simpl. lia. }
  destruct s as [|c s']; [congruence|]. simpl in Hs.
  destruct (id_start_facts c Hs) as (A & B & C & D & E & F).
  unfold lex1. change ((c :: s') ++ R) with (c :: (s' ++ R)) in *.
  rewrite comment_start_hd by assumption. rewrite Hs. simpl orb. cbv iota.
  rewrite Hspan. reflexivity.
Qed.

Lemma lex1_id cx s R :
  id_shape s -> nohead id_part R -> nohead (fun c => c =? 92) R -> lex1 cx (s ++ R) = Some (TId s, R).
Proof. intro H. apply lex1_word. left. exact H. Qed.

(* the texts printNonNegativeFloat produces: digits, digits.digits, digits e [-] digits, 0x hexdigits,
   and .digits (minify-whitespace strips the zero of "0.5") *)
Definition int_shape (s : list Z) : Prop := s <> [] /\ forallb digit s = true.
Definition num_shape (s : list Z) : Prop :=
  int_shape s
  \/ (exists ip fp, s = ip ++ 46 :: fp /\ int_shape ip /\ int_shape fp)
  \/ (exists m sg ds, s = m ++ 101 :: sg ++ ds /\ int_shape m /\ (sg = [] \/ sg = [45]) /\ int_shape ds)
  \/ (exists h, s = 48 :: 120 :: h /\ h <> [] /\ forallb hexd h = true)
  \/ (exists fp, s = 46 :: fp /\ int_shape fp).
(* printNonNegativeFloat: needSpaceBeforeDot is set unless the text contains ".", "e" or "x" *)
Definition dex (c : Z) : bool := (c =? 46) || (c =? 101) || (c =? 120).
Definition plain_int (s : list Z) : bool := negb (existsb dex s).

Lemma existsb_app {A} (f : A -> bool) a b : existsb f (a ++ b) = existsb f a || existsb f b.
Proof. induction a as [|x a IH]; [reflexivity|]. simpl. rewrite IH. apply orb_assoc. Qed.
Lemma digits_no_dex s : forallb digit s = true -> existsb dex s = false.
Proof.
  induction s as [|c s IH]; [reflexivity|]. simpl. intro H. apply andb_true_iff in H as [Hc Hs].
  rewrite (IH Hs), orb_false_r. unfold dex, digit in *. lia.
Qed.
Lemma plain_int_spec s : num_shape s -> plain_int s = true -> int_shape s.
Proof.
  unfold plain_int. intros [H|[(ip & fp & E & _)|[(m & sg & ds & E & _)|[(h & E & _)|(fp & E & _)]]]] Hp; [exact H| | | |]; subst s; exfalso.
  - rewrite existsb_app in Hp. simpl in Hp. rewrite orb_true_r in Hp. discriminate.
  - rewrite existsb_app in Hp. simpl in Hp. rewrite orb_true_r in Hp. discriminate.
  - simpl in Hp. discriminate.
  - simpl in Hp. discriminate.
Qed.
Lemma int_plain s : int_shape s -> plain_int s = true.
Proof. intros [_ H]. unfold plain_int. rewrite (digits_no_dex s H). reflexivity. Qed.

Lemma int_hd s : int_shape s -> exists c s', s = c :: s' /\ digit c = true.
Proof. intros [Hne H]. destruct s as [|c s']; [congruence|]. exists c, s'. split; [reflexivity|]. simpl in H. apply andb_true_iff in H. tauto. Qed.

Lemma num_hd s : num_shape s -> exists c s', s = c :: s' /\ (digit c = true \/ c = 46).
Proof.
  intros [H|[(ip & fp & E & Hi & _)|[(m & sg & ds & E & Hi & _)|[(h & E & _)|(fp & E & _)]]]].
  - destruct (int_hd s H) as (c & s' & E & Hc). exists c, s'. auto.
  - destruct (int_hd ip Hi) as (c & ip' & E' & Hc). subst. exists c, (ip' ++ 46 :: fp). split; [reflexivity | left; exact Hc].
  - destruct (int_hd m Hi) as (c & m' & E' & Hc). subst. exists c, (m' ++ 101 :: sg ++ ds). split; [reflexivity | left; exact Hc].
  - subst. exists 48, (120 :: h). split; [reflexivity | left; reflexivity].
  - subst. exists 46, fp. split; [reflexivity | right; reflexivity].
Qed.
Lemma last_indep {A} (l : list A) d d' : l <> [] -> last l d = last l d'.
Proof. induction l as [|x l IH]; [congruence|]. intros _. destruct l; [reflexivity|]. apply IH. discriminate. Qed.
Lemma last_app_ne {A} (a b : list A) d : b <> [] -> last (a ++ b) d = last b d.
Proof.
  intro H. induction a as [|x a IH]; [reflexivity|]. simpl app.
  assert (Hne : a ++ b <> []) by (destruct a; [exact H | discriminate]).
  destruct (a ++ b) as [|y l] eqn:E; [congruence|]. exact IH.
Qed.
Lemma forallb_last (f : Z -> bool) s d : s <> [] -> forallb f s = true -> f (last s d) = true.
Proof.
  intros Hne H. apply (@exists_last _ s) in Hne as [l' [a E]]. subst s. rewrite last_last.
  rewrite forallb_app in H. apply andb_true_iff in H as [_ H]. simpl in H. rewrite andb_true_r in H. exact H.
Qed.
Lemma last_app_all (f : Z -> bool) pre t d : t <> [] -> forallb f t = true -> f (last (pre ++ t) d) = true.
Proof. intros Hne H. rewrite last_app_ne by exact Hne. apply forallb_last; assumption. Qed.
Lemma hexd_id_part c : hexd c = true -> id_part c = true.
Proof. unfold hexd, id_part, id_start, digit. lia. Qed.
Lemma digit_id_part c : digit c = true -> id_part c = true.
Proof. unfold id_part. intro H. rewrite H. apply orb_true_r. Qed.
Lemma num_last_idpart s : num_shape s -> id_part (last s 0) = true.
Proof.
  intros [[Hne H]|[(ip & fp & E & _ & [Hne H])|[(m & sg & ds & E & _ & _ & [Hne H])|[(h & E & Hne & H)|(fp & E & [Hne H])]]]].
  - apply digit_id_part. apply forallb_last; assumption.
  - subst. apply digit_id_part. change (ip ++ 46 :: fp) with (ip ++ [46] ++ fp). rewrite app_assoc. apply last_app_all; assumption.
  - subst. apply digit_id_part. change (m ++ 101 :: sg ++ ds) with (m ++ (101 :: sg) ++ ds). rewrite app_assoc. apply last_app_all; assumption.
  - subst. apply hexd_id_part. apply (last_app_all hexd [48; 120]); assumption.
  - subst. apply digit_id_part. apply (last_app_all digit [46]); assumption.
Qed.

Lemma num_dot_inv s' : num_shape (46 :: s') -> exists d s'', s' = d :: s'' /\ digit d = true.
Proof.
  intros [H|[(ip & fp & E & Hi & _)|[(m & sg & ds & E & Hi & _)|[(h & E & _)|(fp & E & Hf)]]]].
  - destruct (int_hd _ H) as (c & r & E & Hc). inversion E; subst. discriminate.
  - destruct (int_hd _ Hi) as (c & r & E' & Hc). subst ip. inversion E; subst. discriminate.
  - destruct (int_hd _ Hi) as (c & r & E' & Hc). subst m. inversion E; subst. discriminate.
  - discriminate.
  - inversion E; subst. apply int_hd. exact Hf.
Qed.

(* the decimal branch of lex1: integer part, optional fraction, optional exponent, then no identifier character *)
Definition frac (ip r1 : list Z) : list Z * list Z :=
  match r1 with
  | d :: r1' => if d =? 46 then let '(fp, r2) := span digit r1' in (ip ++ [46] ++ fp, r2) else (ip, r1)
  | [] => (ip, r1)
  end.
Definition lex_decimal (s : list Z) : option (tok * list Z) :=
  let '(ip, r1) := span digit s in
  let '(mant, r2) := frac ip r1 in
  let '(ex, r3) := exp_part r2 in
  match r3 with
  | d :: _ => if id_part d then None else Some (TNum (mant ++ ex), r3)
  | [] => Some (TNum (mant ++ ex), r3)
  end.

Lemma lex1_decimal_eq cx c s1 :
  digit c = true \/ c = 46 ->
  (c =? 48) && (match s1 with x :: _ => (x =? 120) || (x =? 88) | [] => false end) = false ->
  digit c || ((c =? 46) && (match s1 with d :: _ => digit d | [] => false end)) = true ->
  lex1 cx (c :: s1) = lex_decimal (c :: s1).
Proof.
  intros Hc Hx Hd. unfold lex1.
  rewrite comment_start_hd by (unfold digit in Hc; lia).
  replace (id_start c || (c =? 92)) with false by (unfold id_start, digit in Hc |- *; lia).
  rewrite Hx, Hd. reflexivity.
Qed.

Lemma no_id_follows {A} (x : A) R :
  nohead id_part R -> match R with d :: _ => if id_part d then None else Some x | [] => Some x end = Some x.
Proof. intro HR. destruct R as [|d r]; [reflexivity|]. rewrite (HR d r eq_refl). reflexivity. Qed.

Lemma frac_none ip r1 : nohead (fun c => c =? 46) r1 -> frac ip r1 = (ip, r1).
Proof. intro H. destruct r1 as [|d r]; [reflexivity|]. unfold frac. rewrite (H d r eq_refl). reflexivity. Qed.
Lemma frac_some ip fp rest :
  forallb digit fp = true -> nohead digit rest -> frac ip (46 :: fp ++ rest) = (ip ++ 46 :: fp, rest).
Proof. intros Hf Hr. unfold frac. change (46 =? 46) with true. cbv iota. rewrite (span_app' digit fp rest Hf Hr). reflexivity. Qed.

Lemma exp_part_none R : nohead id_part R -> exp_part R = ([], R).
Proof.
  intro HR. destruct R as [|e r]; [reflexivity|]. specialize (HR e r eq_refl). unfold exp_part.
  replace ((e =? 101) || (e =? 69)) with false; [reflexivity|]. unfold id_part, id_start in HR. lia.
Qed.
Lemma exp_part_some sg ds R :
  sg = [] \/ sg = [45] -> int_shape ds -> nohead digit R -> exp_part (101 :: sg ++ ds ++ R) = (101 :: sg ++ ds, R).
Proof.
  intros Hsg [Hne Hd] HR. unfold exp_part. change ((101 =? 101) || (101 =? 69)) with true. cbv iota.
  destruct ds as [|d0 ds']; [congruence|].
  assert (Hd0 : digit d0 = true) by (simpl in Hd; apply andb_true_iff in Hd; tauto).
  destruct Hsg as [Esg|Esg]; subst sg; simpl app; cbv iota.
  - replace ((d0 =? 43) || (d0 =? 45)) with false by (unfold digit in Hd0; lia).
    change (d0 :: ds' ++ R) with ((d0 :: ds') ++ R). cbv beta iota. rewrite (span_app' digit _ _ Hd HR). reflexivity.
  - change ((45 =? 43) || (45 =? 45)) with true. cbv beta iota.
    change (d0 :: ds' ++ R) with ((d0 :: ds') ++ R). rewrite (span_app' digit _ _ Hd HR). reflexivity.
Qed.

Lemma lex_decimal_app ip rest mant r2 ex R lit :
  forallb digit ip = true -> nohead digit rest -> frac ip rest = (mant, r2) -> exp_part r2 = (ex, R) ->
  nohead id_part R -> mant ++ ex = lit ->
  lex_decimal (ip ++ rest) = Some (TNum lit, R).
Proof.
  intros Hip Hrest Hfr Hex HR <-. unfold lex_decimal.
  rewrite (span_app' digit ip rest Hip Hrest), Hfr, Hex. apply no_id_follows. exact HR.
Qed.

(* after a first digit the second character of an integer part is a digit too: never the "x" of a hex literal *)
Lemma lex1_digits cx ip rest :
  int_shape ip -> hdz rest <> 120 -> hdz rest <> 88 -> lex1 cx (ip ++ rest) = lex_decimal (ip ++ rest).
Proof.
  intros [Hne Hip] H120 H88. destruct ip as [|c ip']; [congruence|].
  simpl in Hip. apply andb_true_iff in Hip as [Hc Hip'].
  apply lex1_decimal_eq; [left; exact Hc | | rewrite Hc; reflexivity].
  destruct (c =? 48); [|reflexivity]. destruct ip' as [|x ip'']; simpl.
  - destruct rest as [|x r]; [reflexivity|]. simpl in H120, H88. lia.
  - simpl in Hip'. apply andb_true_iff in Hip' as [Hx _]. unfold digit in Hx. lia.
Qed.

Lemma lex1_hex cx h R :
  h <> [] -> forallb hexd h = true -> nohead id_part R -> lex1 cx (48 :: 120 :: h ++ R) = Some (TNum (48 :: 120 :: h), R).
Proof.
  intros Hne Hh HR. unfold lex1. rewrite comment_start_hd by lia.
  change (id_start 48 || (48 =? 92)) with false. change ((48 =? 48) && ((120 =? 120) || (120 =? 88))) with true. cbv iota.
  rewrite (span_app' hexd h R Hh (nohead_sub id_part hexd R hexd_id_part HR)).
  destruct h as [|h0 h']; [congruence|]. apply no_id_follows. exact HR.
Qed.

Lemma lex1_num cx s R :
  num_shape s -> nohead id_part R -> (plain_int s = true -> nohead (fun c => c =? 46) R) -> lex1 cx (s ++ R) = Some (TNum s, R).
Proof.
  intros Hshape HR Hdot.
  pose proof (nohead_sub id_part digit R digit_id_part HR) as HRd.
  destruct Hshape as [H|[(ip & fp & E & Hi & [_ Hf])|[(m & sg & ds & E & Hi & Hsg & Hd)|[(h & E & Hne & Hh)|(fp & E & [Hne Hf])]]]].
  - (* digits *)
    assert (Hx : hdz R <> 120 /\ hdz R <> 88).
    { destruct R as [|x r]; [simpl; lia|]. specialize (HR x r eq_refl). unfold id_part, id_start in HR. simpl. lia. }
    rewrite lex1_digits by tauto.
    apply (lex_decimal_app s R s R [] R); [apply H | exact HRd | | apply exp_part_none; exact HR | exact HR | apply app_nil_r].
    apply frac_none, Hdot, int_plain, H.
  - (* digits.digits *)
    subst s. rewrite <- app_assoc. rewrite lex1_digits by (try exact Hi; simpl; lia).
    apply (lex_decimal_app ip _ (ip ++ 46 :: fp) R [] R); [apply Hi | apply nohead_of_hdz; reflexivity | | apply exp_part_none; exact HR | exact HR | apply app_nil_r].
    apply frac_some; assumption.
  - (* digits e [-] digits *)
    subst s. rewrite <- app_assoc. rewrite lex1_digits by (try exact Hi; simpl; lia).
    change ((101 :: sg ++ ds) ++ R) with (101 :: (sg ++ ds) ++ R). rewrite <- app_assoc.
    apply (lex_decimal_app m _ m (101 :: sg ++ ds ++ R) (101 :: sg ++ ds) R); [apply Hi | apply nohead_of_hdz; reflexivity | | | exact HR | reflexivity].
    + apply frac_none, nohead_of_hdz. reflexivity.
    + apply exp_part_some; assumption.
  - (* 0x hexdigits *)
    subst s. apply lex1_hex; assumption.
  - (* .digits *)
    subst s. destruct fp as [|d0 fp']; [congruence|].
    assert (Hd0 : digit d0 = true) by (simpl in Hf; apply andb_true_iff in Hf; tauto).
    change ((46 :: d0 :: fp') ++ R) with (46 :: d0 :: fp' ++ R).
    rewrite lex1_decimal_eq; [|right; reflexivity|reflexivity|simpl; exact Hd0].
    apply (lex_decimal_app [] (46 :: (d0 :: fp') ++ R) (46 :: d0 :: fp') R [] R); [reflexivity | apply nohead_of_hdz; reflexivity | | apply exp_part_none; exact HR | exact HR | apply app_nil_r].
    apply (frac_some [] (d0 :: fp')); assumption.
Qed.

Definition re_shape (b f : list Z) : Prop :=
  b <> [] /\ forallb re_char_ok b = true /\ hdz b <> 42 /\ forallb id_part f = true.

Lemma re_char_ok_facts c : re_char_ok c = true -> c <> 47.
Proof. unfold re_char_ok. intro H. lia. Qed.

Lemma lex1_re cx b f R :
  regex_ok cx = true -> re_shape b f -> nohead id_part R ->
  lex1 cx (47 :: b ++ 47 :: f ++ R) = Some (TRe b f, R).
Proof.
  intros Hg (Hne & Hb & Hstar & Hf) HR.
  assert (Hcs : comment_start (line_start cx) ([47] ++ (b ++ 47 :: f ++ R)) = false).
  { apply comment_start_app.
    - destruct (line_start cx); vm_compute; reflexivity.
    - rewrite hdz_app by exact Hne.
      assert (Hh : re_char_ok (hdz b) = true).
      { destruct b as [|x b']; [congruence|]. simpl in Hb. apply andb_true_iff in Hb. simpl. tauto. }
      apply re_char_ok_facts in Hh.
      assert (E : forall ls, opener_next ls [47] = [47; 42]) by (intros [|]; vm_compute; reflexivity).
      rewrite E. simpl. intros [X|[X|[]]]; congruence.
    - discriminate. }
  simpl app in Hcs. unfold lex1. rewrite Hcs.
  change (id_start 47) with false. change (47 =? 92) with false. change (digit 47) with false. change (47 =? 46) with false.
  change (47 =? 47) with true. rewrite Hg. cbv beta iota. simpl orb. simpl andb. cbv iota.
  rewrite (span_app' re_char_ok b (47 :: f ++ R) Hb (nohead_of_hdz re_char_ok (47 :: f ++ R) eq_refl)).
  destruct b as [|x b']; [congruence|].
  change (47 =? 47) with true. cbv iota.
  rewrite (span_app' id_part _ _ Hf HR). reflexivity.
Qed.

(* what lex1 tests before it reaches its punctuator branch, for every entry of the table *)
Definition punct_facts (p : list Z) : bool :=
  (1 <=? List.length p)%nat && (List.length p <=? 4)%nat
  && negb (id_start (hdz p)) && negb (hdz p =? 92) && negb (digit (hdz p))
  && (negb (hdz p =? 46) || zlist_eqb p [46] || zlist_eqb p [46; 46; 46])
  && negb (existsb (fun w => prefix_b w p) (openers true)).

Lemma all_punct_facts : forallb punct_facts puncts = true.
Proof. vm_compute. reflexivity. Qed.

Lemma punct_facts_of p : is_punct p = true ->
  (1 <= List.length p <= 4)%nat /\ id_start (hdz p) = false /\ (hdz p =? 92) = false /\ digit (hdz p) = false
  /\ (negb (hdz p =? 46) || zlist_eqb p [46] || zlist_eqb p [46; 46; 46] = true)
  /\ existsb (fun w => prefix_b w p) (openers true) = false.
Proof.
  intro H. apply mem_In in H. pose proof all_punct_facts as A. rewrite forallb_forall in A. specialize (A p H).
  unfold punct_facts in A. rewrite !andb_true_iff, !negb_true_iff, !Nat.leb_le in A. tauto.
Qed.

Lemma openers_sub ls p :
  existsb (fun w => prefix_b w p) (openers true) = false -> existsb (fun w => prefix_b w p) (openers ls) = false.
Proof.
  intro H. destruct ls; [exact H|].
  unfold openers in *. rewrite existsb_app in H. apply orb_false_iff in H as [H _].
  rewrite app_nil_r. exact H.
Qed.

Lemma lex1_punct cx p R :
  is_punct p = true -> zlist_eqb p (zs "?.") = false ->
  comment_start (line_start cx) (p ++ R) = false ->
  ~ In (hdz R) (next_chars p) ->
  (hdz p = 47 -> regex_ok cx = false) ->
  (p = [46] -> digit (hdz R) = false) ->
  lex1 cx (p ++ R) = Some (TP p, R).
Proof.
  intros Hp Hq Hcs Hn Hre Hdot.
  destruct (punct_facts_of p Hp) as (Hlen & Hids & H92 & Hdig & H46 & _).
  destruct p as [|c0 p']; [simpl in Hlen; lia|].
  simpl hdz in *.
  assert (Hlp : lex_punct ((c0 :: p') ++ R) = Some (c0 :: p', R)) by (apply lex_punct_app; [exact Hp | lia | exact Hn]).
  unfold lex1. change ((c0 :: p') ++ R) with (c0 :: (p' ++ R)) in *.
  rewrite Hcs, Hids, H92, Hdig. simpl orb.
  replace (c0 =? 48) with false by (symmetry; unfold digit in Hdig; lia). simpl andb. cbv iota.
  assert (Hd : (c0 =? 46) && match p' ++ R with d :: _ => digit d | [] => false end = false).
  { destruct (c0 =? 46) eqn:E46; [|reflexivity]. simpl.
    simpl in H46. apply orb_true_iff in H46 as [HA|HA].
    - apply zlist_eqb_eq in HA. inversion HA; subst. simpl. specialize (Hdot eq_refl).
      destruct R; [reflexivity | exact Hdot].
    - apply zlist_eqb_eq in HA. inversion HA; subst. reflexivity. }
  rewrite Hd.
  assert (Hr : (c0 =? 47) && regex_ok cx = false).
  { destruct (c0 =? 47) eqn:E47; [|reflexivity]. apply Z.eqb_eq in E47. rewrite (Hre E47). reflexivity. }
  rewrite Hr. unfold lex_punct'. rewrite Hlp. rewrite Hq. reflexivity.
Qed.

(* 12.8: "?." followed by a decimal digit is the punctuator "?" (then a number that starts with ".") *)
Lemma lex1_quest_dot cx d R : digit d = true -> lex1 cx (63 :: 46 :: d :: R) = Some (TP [63], 46 :: d :: R).
Proof.
  intro Hd.
  assert (Hlp : lex_punct ([63; 46] ++ d :: R) = Some ([63; 46], d :: R)).
  { apply lex_punct_app; [reflexivity | simpl; lia|]. simpl hdz. vm_compute. intros []. }
  unfold lex1.
  assert (Hcs : comment_start (line_start cx) (63 :: 46 :: d :: R) = false) by (destruct (line_start cx); reflexivity).
  rewrite Hcs. change (id_start 63) with false. change (63 =? 92) with false. change (63 =? 48) with false.
  change (digit 63) with false. change (63 =? 46) with false. change (63 =? 47) with false. simpl orb. simpl andb. cbv iota.
  unfold lex_punct'. change (63 :: 46 :: d :: R) with ([63; 46] ++ d :: R). rewrite Hlp.
  change (zlist_eqb [63; 46] (zs "?.")) with true. rewrite Hd. reflexivity.
Qed.

(* how a punctuator's follow conditions are established from the next character alone *)
Definition hazard_chars (ls : bool) (p : list Z) : list Z := next_chars p ++ opener_next ls p.

Lemma punct_follow_char cx p R :
  is_punct p = true -> zlist_eqb p (zs "?.") = false ->
  memz (hdz R) (hazard_chars (line_start cx) p) = false ->
  (hdz p = 47 -> regex_ok cx = false) ->
  (p = [46] -> digit (hdz R) = false) ->
  lex1 cx (p ++ R) = Some (TP p, R).
Proof.
  intros Hp Hq Hm Hre Hdot. apply memz_false in Hm. unfold hazard_chars in Hm.
  destruct (punct_facts_of p Hp) as (Hlen & _ & _ & _ & _ & Hop).
  apply lex1_punct; try assumption.
  - apply comment_start_app.
    + apply openers_sub. exact Hop.
    + intro Hin. apply Hm. apply in_or_app. right. exact Hin.
    + intro E. subst p. simpl in Hlen. lia.
  - intro Hin. apply Hm. apply in_or_app. left. exact Hin.
Qed.

(* the tables inside are concrete: unfolding them by accident is expensive *)
Arguments hazard_chars : simpl never.

(* no punctuator is continued by an identifier character, a blank, "(" or the end of the text *)
Definition inert (c : Z) : bool := id_part c || (c =? 32) || (c =? 40) || (c =? -1).
Lemma punct_hazards_inert :
  forallb (fun p => forallb (fun ls => forallb (fun h => negb (inert h)) (hazard_chars ls p)) [true; false]) puncts = true.
Proof. vm_compute. reflexivity. Qed.
Lemma punct_hazard ls p c : is_punct p = true -> inert c = true -> memz c (hazard_chars ls p) = false.
Proof.
  intros Hp Hc. apply mem_In in Hp. pose proof punct_hazards_inert as A.
  rewrite forallb_forall in A. specialize (A p Hp).
  assert (Hls : In ls [true; false]) by (destruct ls; simpl; auto).
  rewrite forallb_forall in A. specialize (A ls Hls). rewrite forallb_forall in A.
  destruct (memz c (hazard_chars ls p)) eqn:E; [|reflexivity].
  apply memz_In in E. specialize (A c E). rewrite Hc in A. discriminate A.
Qed.

Lemma skip_ws_sp s : skip_ws (32 :: s) = skip_ws s.
Proof. reflexivity. Qed.
Lemma skip_ws_nonsp c s : c <> 32 -> skip_ws (c :: s) = c :: s.
Proof. intro H. simpl. apply Z.eqb_neq in H. rewrite H. reflexivity. Qed.
