(* Main theorem: the text rendered by the printer model for any grammatical
   operator/operand chain is read back by the specification lexer as exactly
   the emitted tokens. *)
From V Require Import Common.Base C13.KwSpec C13.Token C13.LexSpec C13.LexProofs C13.Toks C13.TokenProofs.
From Coq Require Import String.

Lemma skip_ws_spaces w s : Forall (fun c => c = 32) w -> skip_ws (w ++ s) = skip_ws s.
Proof. induction 1 as [|c w Hc Hw IH]; [reflexivity|]. subst c. simpl. exact IH. Qed.
Lemma skip_ws_sp_b b s : skip_ws (sp b ++ s) = skip_ws s.
Proof. destruct b; [apply skip_ws_sp | reflexivity]. Qed.
Lemma skip_ws_hd s : hdz s <> 32 -> skip_ws s = s.
Proof. destruct s as [|c s']; [reflexivity | apply skip_ws_nonsp]. Qed.

Lemma lex_all_step n cx s s' t R :
  skip_ws s = s' -> s' <> [] -> lex1 cx s' = Some (t, R) ->
  lex_all (S n) cx s = match lex_all n (ctx_after t) R with Some ts => Some (t :: ts) | None => None end.
Proof. intros H1 H2 H3. destruct s' as [|c0 s0]; [congruence|]. cbn [lex_all]. rewrite H1. rewrite H3. reflexivity. Qed.

Lemma sp_spaces b : Forall (fun c => c = 32) (sp b).
Proof. destruct b; simpl; repeat constructor. Qed.

(* the goal symbol chosen from the previous token is the right one *)
Lemma goal_op o : is_post (IOp o) = false -> is_update_pre (IOp o) = false ->
  regex_ok (ctx_after (last_tok (IOp o))) = true.
Proof. destruct o; intros H1 H2; try discriminate H1; try discriminate H2; vm_compute; reflexivity. Qed.

Lemma goal_regex prev b f r :
  chain prev (IRe b f :: r) = true -> regex_ok (ctx_of prev) = true.
Proof.
  simpl. intro H. apply andb_true_iff in H as [H _]. destruct prev as [a|]; [|reflexivity].
  unfold adj in H. destruct (ends_operand a) eqn:Ee; [discriminate|].
  apply andb_true_iff in H as [_ H]. destruct (is_update_pre a) eqn:Eu; [discriminate|].
  destruct a as [s|s|b' f'|o|s| | | | | | | |]; try discriminate; try reflexivity.
  apply goal_op; assumption.
Qed.

Lemma ends_div a : item_ok a -> ends_operand a = true -> regex_ok (ctx_after (last_tok a)) = false.
Proof.
  destruct a as [s|s|b f|o|s| | | | | | | |]; simpl; intros Hi He; try reflexivity; try discriminate.
  - destruct Hi as [_ H]. exact H.
  - destruct o; try discriminate; reflexivity.
  - destruct Hi as [_ H]. exact H.
Qed.

Lemma goal_div prev i r :
  prev_ok prev -> wordlike i = false -> hdz (text i) = 47 -> chain prev (i :: r) = true ->
  regex_ok (ctx_of prev) = false.
Proof.
  intros Hp Ew H47 H. destruct i as [s|s|b f|o|s| | | | | | | |]; try discriminate Ew; try discriminate H47.
  simpl in H. apply andb_true_iff in H as [H _].
  assert (Hk : op_kind o = KBin) by (destruct o; try discriminate; reflexivity).
  destruct prev as [a|]; [|simpl in H; rewrite Hk in H; discriminate].
  unfold adj in H. destruct (ends_operand a) eqn:Ee.
  - apply ends_div; [exact Hp | exact Ee].
  - destruct a; simpl in H; rewrite ?Hk in H; discriminate.
Qed.

Lemma hd_neg_ops o : op_kind o = KPre -> hdz (op_text o) = 45 -> o = UNeg \/ o = UPreDec.
Proof. destruct o; simpl; intros; try discriminate; auto. Qed.

Lemma starts_hd45 k : item_ok k -> starts_operand k = true -> hdz (text k) = 45 -> k = IOp UNeg \/ k = IOp UPreDec.
Proof.
  intros Hk Hs H45. destruct k as [s|s|b f|o|s| | | | | | | |]; try discriminate.
  - destruct Hk as [Hw _]. destruct (word_shape_hd s Hw) as [_ Hs']. simpl in H45. rewrite H45 in Hs'. discriminate.
  - destruct (num_last s Hk) as [_ [Hd|Hd]]; simpl in H45; rewrite H45 in Hd; discriminate.
  - simpl in Hs. destruct (op_kind o) eqn:Ek; try discriminate.
    destruct (hd_neg_ops o Ek H45); subst; auto.
Qed.

Lemma render_hd mw st k r :
  item_ok k -> hdz (render mw st (k :: r)) = if pre_sp mw st k then 32 else hdz (text k).
Proof.
  intro Hk. rewrite render_cons. destruct (pre_sp mw st k); [reflexivity|]. simpl.
  apply hdz_app. apply text_ok. exact Hk.
Qed.

Lemma minus_next mw st p k r R :
  op_kind p = KPre -> item_ok k -> chain (Some (IOp p)) (k :: r) = true -> render mw st (k :: r) = 45 :: R ->
  pre_sp mw st k = false /\ (k = IOp UNeg \/ k = IOp UPreDec) /\ chain (Some k) r = true.
Proof.
  intros Hp Hk Hc E. cbn [chain] in Hc. apply andb_true_iff in Hc as [Hadj Hc].
  assert (Hso : starts_operand k = true).
  { unfold adj in Hadj. change (ends_operand (IOp p)) with (is_post (IOp p)) in Hadj. simpl is_post in Hadj. rewrite Hp in Hadj.
    apply andb_true_iff in Hadj as [H _]. rewrite orb_false_r in H. exact H. }
  pose proof (render_hd mw st k r Hk) as Hh. rewrite E in Hh. simpl in Hh.
  destruct (pre_sp mw st k); [discriminate|].
  split; [reflexivity|]. split; [exact (starts_hd45 k Hk Hso (eq_sym Hh)) | exact Hc].
Qed.

Lemma lt_not_safe mw st r' R3 :
  Forall item_ok r' -> chain (Some (IOp UNot)) r' = true ->
  lastc st = 60 -> pre_sp mw st (IOp UNot) = false ->
  render mw (after mw st (IOp UNot)) r' = 45 :: 45 :: R3 -> False.
Proof.
  intros Hr Hc H60 Hpre E.
  set (st2 := after mw st (IOp UNot)) in *.
  assert (Hl2 : last2 st2 = 60) by (unfold st2; rewrite after_last2_not by exact Hpre; exact H60).
  destruct (after_lastc_mk mw st (IOp UNot) (op_text_nonempty UNot)) as [_ Hmk2].
  change (post_sp mw (IOp UNot)) with false in Hmk2. simpl in Hmk2. fold st2 in Hmk2.
  destruct r' as [|k r'']; [discriminate|].
  inversion Hr as [|? ? Hk Hr'']; subst.
  destruct (minus_next mw st2 UNot k r'' _ eq_refl Hk Hc E) as (Epk & [Ek|Ek] & Hc'); subst k.
  - (* "-" : look at the next item; the rule for "-" "-" always prints a space *)
    rewrite render_cons, Epk in E. change (post_sp mw (IOp UNeg)) with false in E. simpl in E.
    inversion E as [E']. clear E.
    set (st3 := after mw st2 (IOp UNeg)) in *.
    destruct (after_lastc_mk mw st2 (IOp UNeg) (op_text_nonempty UNeg)) as [_ Hmk3].
    change (post_sp mw (IOp UNeg)) with false in Hmk3. simpl in Hmk3. fold st3 in Hmk3.
    destruct r'' as [|l r3]; [discriminate|].
    inversion Hr'' as [|? ? Hl Hr3]; subst.
    destruct (minus_next mw st3 UNeg l r3 _ eq_refl Hl Hc' E') as (Epl & [El|El] & _); subst l;
      unfold pre_sp, glue_hazard in Epl;
      simpl in Epl;
      unfold op_hazard in Epl;
      rewrite Hmk3 in Epl;
      simpl in Epl;
      discriminate.
  - (* "--" directly: the printer's "<!--" rule fires *)
    unfold pre_sp, glue_hazard in Epk. simpl in Epk. unfold op_hazard in Epk. rewrite Hmk2 in Epk.
    unfold space_rule in Epk. rewrite Hl2 in Epk. simpl in Epk. discriminate.
Qed.

Lemma prefix_cons a w c s : prefix_b (a :: w) (c :: s) = true -> a = c /\ prefix_b w s = true.
Proof. simpl. intro H. apply andb_true_iff in H as [H1 H2]. apply Z.eqb_eq in H1. tauto. Qed.

Lemma comment_lt_bang R2 :
  comment_start false (60 :: 33 :: R2) = true -> exists R3, R2 = 45 :: 45 :: R3.
Proof.
  unfold comment_start. intro H. apply existsb_exists in H as [w [Hin Hw]].
  vm_compute in Hin. destruct Hin as [E|[E|[E|[]]]]; subst w.
  - apply prefix_hd in Hw. discriminate.
  - apply prefix_hd in Hw. discriminate.
  - apply prefix_cons in Hw as [_ Hw]. apply prefix_cons in Hw as [_ Hw].
    destruct R2 as [|a R2']; [discriminate|]. apply prefix_cons in Hw as [Ha Hw].
    destruct R2' as [|b R3]; [discriminate|]. apply prefix_cons in Hw as [Hb _].
    subst. exists R3. reflexivity.
Qed.

Definition single (i : item) : Prop := match i with IDot _ => False | _ => True end.

Lemma single_toks i : single i -> toks_of i = [last_tok i].
Proof. destruct i; unfold last_tok; simpl; intro H; try reflexivity; [destruct (op_is_keyword o); reflexivity | destruct H]. Qed.

Lemma hz_dot ls : hazard_chars ls [46] = [46].
Proof. destruct ls; vm_compute; reflexivity. Qed.

(* "." in front of an identifier is the punctuator: only a second "." or a digit would continue it *)
Lemma lex1_dot cx R : id_start (hdz R) = true -> lex1 cx (46 :: R) = Some (TP [46], R).
Proof.
  intro Hst. apply id_start_facts in Hst as (_ & _ & _ & Hd & H46 & _).
  apply (punct_follow_char cx [46]); try reflexivity.
  - rewrite hz_dot. simpl. apply orb_false_iff. split; [apply Z.eqb_neq; exact H46 | reflexivity].
  - discriminate.
  - intros _. exact Hd.
Qed.

Lemma need_word ls i R : wordlike i = true -> need ls i (hdz R) = true ->
  nohead id_part R /\ nohead (fun c => c =? 92) R /\ (natural_mark i = MNum -> nohead (fun c => c =? 46) R).
Proof.
  intros Ew N. unfold need in N. rewrite Ew in N. apply andb_true_iff in N as [N N46]. apply andb_true_iff in N as [N N92].
  apply negb_true_iff in N, N92, N46. repeat split; try (apply nohead_of_hdz; assumption).
  intro Hm. rewrite Hm in N46. apply nohead_of_hdz. exact N46.
Qed.

Lemma item_lex mw prev st i r :
  prev_ok prev -> item_ok i -> Forall item_ok r -> chain prev (i :: r) = true ->
  let R := sp (post_sp mw i) ++ render mw (after mw st i) r in
  match i with
  | IDot s => lex1 (ctx_of prev) (46 :: s ++ R) = Some (TP [46], s ++ R)
              /\ lex1 (ctx_after (TP [46])) (s ++ R) = Some (TId s, R)
  | _ => lex1 (ctx_of prev) (text i ++ R) = Some (last_tok i, R)
  end.
Proof.
  intros Hp Hi Hr Hc R.
  pose proof (need_holds mw prev st i r Hi Hr Hc) as N.
  rewrite <- (hdz_rest mw _ _ r Hr) in N. fold R in N.
  destruct N as [N|[(X & Ep & r' & Er & Epre)|(X & Ep & s' & r' & Er & Epre)]].
  - destruct (wordlike i) eqn:Ew.
    + destruct (need_word _ _ _ Ew N) as (Nid & N92 & N46).
      destruct i as [s|s|b f|o|s| | | | | | | |]; try discriminate Ew.
      * apply lex1_word; [apply Hi | exact Nid | exact N92].
      * apply lex1_num; [exact Hi | exact Nid |]. intro Hpl. apply N46.
        change (no_dex s = true) in Hpl. simpl. rewrite Hpl. reflexivity.
      * change (text (IRe b f) ++ R) with (47 :: (b ++ 47 :: f) ++ R). rewrite <- app_assoc. change ((47 :: f) ++ R) with (47 :: f ++ R).
        apply lex1_re; [eapply goal_regex; exact Hc | exact Hi | exact Nid].
      * simpl in Ew. unfold last_tok. simpl toks_of. rewrite Ew. simpl last.
        apply lex1_id; [apply (kw_op_facts o Ew) | exact Nid | exact N92].
      * destruct Hi as [Hs _]. pose proof Hs as (Hne & Hst & _). split; [|apply lex1_id; assumption].
        apply lex1_dot. rewrite hdz_app by exact Hne. exact Hst.
      * apply lex1_id; [repeat split; try discriminate; reflexivity | exact Nid | exact N92].
    + (* a punctuator: none of its hazard characters follows *)
      destruct (punct_item i Ew) as (Hpu & Hq & H46).
      assert (L : lex1 (ctx_of prev) (text i ++ R) = Some (TP (text i), R)).
      { unfold need in N. rewrite Ew in N. apply negb_true_iff in N. apply punct_follow_char; try assumption.
        - intro H47. apply (goal_div prev i r); assumption.
        - intro E. rewrite E in H46. contradiction H46. reflexivity. }
      destruct i as [s|s|b f|o|s| | | | | | | |]; try discriminate Ew; try exact L.
      simpl in Ew. unfold last_tok. simpl toks_of. rewrite Ew. exact L.
  - (* "<" followed by "!" *)
    subst i r. change (text (IOp BLt)) with [60]. change (last_tok (IOp BLt)) with (TP [60]).
    assert (Hprev : exists a, prev = Some a).
    { destruct prev as [a|]; [eexists; reflexivity|]. simpl in Hc. discriminate. }
    destruct Hprev as [a Ea]. subst prev.
    assert (Hls : line_start (ctx_of (Some a)) = false) by apply ctx_after_ls.
    set (R2 := render mw (after mw (after mw st (IOp BLt)) (IOp UNot)) r').
    assert (ER : R = 33 :: R2).
    { unfold R. rewrite Ep. rewrite render_cons, Epre. reflexivity. }
    rewrite ER. apply lex1_punct; try reflexivity.
    + rewrite Hls. change ([60] ++ 33 :: R2) with (60 :: 33 :: R2).
      destruct (comment_start false (60 :: 33 :: R2)) eqn:Ecs; [|reflexivity]. exfalso.
      apply comment_lt_bang in Ecs as [R3 E3].
      inversion Hr as [|? ? Hnot Hr']; subst.
      simpl in Hc. apply andb_true_iff in Hc as [_ Hc].
      refine (lt_not_safe mw (after mw st (IOp BLt)) r' R3 Hr' Hc _ Epre E3).
      destruct (after_lastc_mk mw st (IOp BLt) (op_text_nonempty BLt)) as [Hlc _]. rewrite Ep in Hlc. exact Hlc.
    + apply memz_false. vm_compute. reflexivity.
    + discriminate.
  - (* "?" directly followed by a number that starts with ".": "?." before a digit is "?" *)
    subst i r. inversion Hr as [|? ? Hnum Hr']; subst.
    destruct (num_dot_inv s' Hnum) as (d & s'' & Es & Hd). subst s'.
    assert (ER : exists R2, R = 46 :: d :: R2).
    { unfold R. rewrite Ep. change (sp false) with (@nil Z). rewrite app_nil_l, render_cons, Epre. change (sp false) with (@nil Z). simpl text. simpl app. eexists. reflexivity. }
    destruct ER as [R2 ER]. rewrite ER. simpl text. apply lex1_quest_dot. exact Hd.
Qed.

Lemma text_len_pos i : item_ok i -> (List.length (text i) >= 1)%nat.
Proof. intro H. destruct (text_ok i H) as [Hne _]. destruct (text i); [congruence | simpl; lia]. Qed.

Theorem render_lex_gen mw : forall items prev st w n,
  prev_ok prev -> Forall item_ok items -> chain prev items = true ->
  Forall (fun c => c = 32) w ->
  (n > List.length (w ++ render mw st items))%nat ->
  lex_all n (ctx_of prev) (w ++ render mw st items) = Some (toks items).
Proof.
  induction items as [|i r IH]; intros prev st w n Hp Hall Hc Hw Hn.
  - simpl. rewrite app_nil_r in *. destruct n; [lia|]. cbn [lex_all].
    rewrite <- (app_nil_r w), skip_ws_spaces by exact Hw. reflexivity.
  - inversion Hall as [|? ? Hi Hr]; subst.
    pose proof (item_lex mw prev st i r Hp Hi Hr Hc) as L. cbv zeta in L.
    rewrite render_cons in *.
    set (R := sp (post_sp mw i) ++ render mw (after mw st i) r) in *.
    destruct (text_ok i Hi) as [Hne H32].
    assert (Hskip : skip_ws (w ++ sp (pre_sp mw st i) ++ text i ++ R) = text i ++ R).
    { rewrite skip_ws_spaces by exact Hw. rewrite skip_ws_sp_b. apply skip_ws_hd. rewrite hdz_app by exact Hne. exact H32. }
    assert (Hne2 : text i ++ R <> []) by (destruct (text i); [congruence | discriminate]).
    assert (Hc' : chain (Some i) r = true) by (simpl in Hc; apply andb_true_iff in Hc; tauto).
    assert (Hp' : prev_ok (Some i)) by exact Hi.
    pose proof (text_len_pos i Hi) as Hlen.
    rewrite !app_length in Hn. fold R in Hn.
    destruct n as [|n]; [lia|].
    assert (Hsingle : single i -> lex_all (S n) (ctx_of prev) (w ++ sp (pre_sp mw st i) ++ text i ++ R) = Some (toks (i :: r))).
    { intro Hs. assert (L1 : lex1 (ctx_of prev) (text i ++ R) = Some (last_tok i, R)) by (destruct i; try exact L; destruct Hs).
      rewrite (lex_all_step n _ _ _ _ _ Hskip Hne2 L1).
      change (ctx_after (last_tok i)) with (ctx_of (Some i)). unfold R.
      rewrite (IH (Some i) (after mw st i) (sp (post_sp mw i)) n Hp' Hr Hc' (sp_spaces _)).
      - simpl toks. rewrite (single_toks i Hs). reflexivity.
      - fold R. lia. }
    destruct i as [s|s|b f|o|s| | | | | | | |]; try (apply Hsingle; exact I).
    (* IDot: two tokens *)
    destruct L as [L1 L2]. simpl text in *.
    rewrite (lex_all_step n _ _ _ _ _ Hskip Hne2 L1).
    destruct Hi as [Hs Hwd]. pose proof Hs as (Hsne & Hst & _).
    assert (Hskip2 : skip_ws (s ++ R) = s ++ R).
    { apply skip_ws_hd. rewrite hdz_app by exact Hsne. apply id_start_facts in Hst. tauto. }
    assert (Hne3 : s ++ R <> []) by (destruct s; [congruence | discriminate]).
    assert (Hsl : (List.length s >= 1)%nat) by (destruct s; [congruence | simpl; lia]).
    simpl List.length in Hn.
    destruct n as [|n]; [lia|].
    rewrite (lex_all_step n _ _ _ _ _ Hskip2 Hne3 L2).
    change (ctx_after (TId s)) with (ctx_of (Some (IDot s))). unfold R.
    rewrite (IH (Some (IDot s)) (after mw st (IDot s)) (sp (post_sp mw (IDot s))) n Hp' Hr Hc' (sp_spaces _)).
    + reflexivity.
    + fold R. lia.
Qed.

Theorem render_lex_all mw items :
  Forall item_ok items -> chain None items = true ->
  lex (render mw st0 items) = Some (toks items).
Proof.
  intros Hall Hc. unfold lex.
  apply (render_lex_gen mw items None st0 [] (S (List.length (render mw st0 items)))); try assumption.
  - exact I.
  - constructor.
  - simpl. lia.
Qed.

Corollary render_no_comment_all mw items :
  Forall item_ok items -> chain None items = true -> lex (render mw st0 items) <> None.
Proof. intros H1 H2. rewrite (render_lex_all mw items H1 H2). discriminate. Qed.
