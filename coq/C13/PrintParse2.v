(* The main induction: printed tokens parse back to the (normalised) tree. *)
From V Require Import Common.Base C13.KwSpec C13.Token C13.LexSpec C13.LexProofs C13.Toks C13.TokenProofs
  C13.ParseSpec C13.ParseMono C13.PrintParse.
From Coq Require Import String.

(* comma-normal trees: no comma directly in the right operand of a comma (on these norm is the identity) *)
Fixpoint cnf (e : expr) : Prop :=
  match e with
  | EDot t _ => cnf t
  | EUn _ v => cnf v
  | EBin o l r => cnf l /\ cnf r /\ (o = BComma -> not_comma r)
  | ECond c y n => cnf c /\ cnf y /\ cnf n
  | EIndex t i => cnf t /\ cnf i
  | ECall f a | ENew f a => cnf f /\ cnf a
  | ACons x r => cnf x /\ cnf r
  | _ => True
  end.

Lemma not_comma_norm r : not_comma r -> not_comma (norm r).
Proof.
  destruct r as [s|s|b f|t s|u v|o a b|c0 y0 n0|t0 i0|f0 a0|f0 a0| |x0 r0]; simpl; auto.
  destruct (op_eqb o BComma) eqn:E; [destruct o; try discriminate; intros []|].
  intros _. destruct o; try discriminate; exact I.
Qed.
Lemma comma_app_plain l r : not_comma r -> comma_app l r = EBin BComma l r.
Proof. destruct r as [s|s|b f|t s|u v|o a b|c0 y0 n0|t0 i0|f0 a0|f0 a0| |x0 r0]; simpl; auto. destruct o; auto. intros []. Qed.
Lemma comma_app_ind (Q : expr -> expr -> Prop) a :
  (forall b, not_comma b -> Q b (EBin BComma a b)) ->
  (forall b1 b2, Q b1 (comma_app a b1) -> Q (EBin BComma b1 b2) (EBin BComma (comma_app a b1) b2)) ->
  forall b, Q b (comma_app a b).
Proof.
  intros Hplain Hstep.
  induction b as [s|s|b0 f|t IHt s|u v IHv|o b1 IH1 b2 IH2|c0 IHc0 y0 IHy0 n0 IHn0|t0 IHt0 i0 IHi0|f0 IHf0 a0 IHa0|f0 IHf0 a0 IHa0| |x0 IHx0 r0 IHr0];
    try (apply Hplain; exact I).
  destruct o; try (apply Hplain; exact I).
  apply Hstep. exact IH1.
Qed.
Lemma norm_bin o l r : (o = BComma -> not_comma r) -> norm (EBin o l r) = EBin o (norm l) (norm r).
Proof.
  intro H. simpl. destruct (op_eqb o BComma) eqn:E; [|reflexivity].
  apply op_eqb_eq in E. subst o.
  apply comma_app_plain. apply not_comma_norm. auto.
Qed.

Lemma pre_level o : op_kind o = KPre -> op_eqb o UYield = false -> op_level o = S_Unary /\ pre_max o = 19 /\ pre_arg o = S_Unary /\ spec_level o = S_Unary.
Proof. destruct o; intros H Hy; try discriminate; repeat split; reflexivity. Qed.
Lemma post_level o : op_kind o = KPost -> op_level o = S_Update /\ is_update o = true.
Proof. destruct o; intro H; try discriminate; split; reflexivity. Qed.
Lemma bin_level o : op_kind o = KBin -> op_level o <= 17 /\ right_level o <= 17 /\ 0 <= lpl o.
Proof. destruct o; intro H; try discriminate H; vm_compute; repeat split; discriminate. Qed.
Lemma fol_bin o P r : op_kind o = KBin -> fol P (op_tok o :: r) = (lpl o <=? P).
Proof. destruct o; intro H; try discriminate; reflexivity. Qed.
Lemma fol_post o P r : op_kind o = KPost -> fol P (op_tok o :: r) = (LPrefix <=? P).
Proof. destruct o; intro H; try discriminate; reflexivity. Qed.
Lemma low_ops_stop o : op_kind o = KBin -> lpl o <= LYield -> spec_level o <=? 3 = true.
Proof. destruct o; intro H; try discriminate; vm_compute; intro H2; try reflexivity; exfalso; apply H2; reflexivity. Qed.

Section WithMode.
Variable mw : bool.
Local Notation print_items := (Token.print_items mw).
Local Notation ll_of := (PrintParse.ll_of mw).
Local Notation strat := (PrintParse.strat mw).
Local Notation body := (PrintParse.body mw).
Local Notation new_parens := (PrintParse.new_parens mw).

(* the parser may run with "no in" (ni) on a print made with the forbidIn flag (fp), or on any print
   at a level at which an "in" expression is parenthesised anyway *)
Definition flag_ok (ni fp : bool) (P : Z) : Prop := ni = true -> fp = true \/ LCompare <= P.
Lemma flag_ok_mono ni fp P P' : flag_ok ni fp P -> P <= P' -> flag_ok ni fp P'.
Proof. intros H Hle Hn. destruct (H Hn) as [E|E]; [left; exact E | right; lia]. Qed.
Lemma flag_ok_off fp P : flag_ok false fp P.
Proof. intro H. discriminate. Qed.
Lemma flag_ok_high ni fp P : LCompare <= P -> flag_ok ni fp P.
Proof. intros H _. right. exact H. Qed.
Lemma flag_ok_low ni fp P P' : flag_ok ni fp P -> P < LCompare -> flag_ok ni fp P'.
Proof. intros H HP Hn. destruct (H Hn) as [E|E]; [left; exact E | lia]. Qed.

(* What the induction on e proves.  The tokens of e, printed at level P and followed by rest, are read
   by parse_expr at loop level L as follows: e comes back as norm e, of stratum ll_of fp P e, and the
   suffix loop goes on from there, so that whatever the loop makes of norm e in front of rest (res) is
   the result of the whole parse.  Side conditions: the loop does not stop inside e (lv_ok); rest starts
   with nothing against which the printer would have had to parenthesise e (fol); the loop level is
   below the call level, except while parsing the callee of "new" (printed at LNew, parsed with
   strength S_Call). *)
Definition Gen (e : expr) : Prop :=
  forall fp ss ni P L rest res, flag_ok ni fp P -> 0 <= P -> (L < S_Call \/ P = LNew) -> L <= S_Call -> lv_ok fp L P e -> fol P rest = true ->
    PSx ni L (norm e) (ll_of fp P e) rest res -> PEx ni L (toks (print_items fp ss P e) ++ rest) res.
(* the same for the unparenthesised body of a compound node printed below its own level; Pb is the
   level that decides about the "()" of a new-expression *)
Definition Unw (e : expr) : Prop :=
  forall fb sb ni Pb P L rest res, flag_ok ni fb P -> is_in e && fb = false ->
    0 <= P -> P < lvl e -> (forall f a, e = ENew f a -> P = Pb \/ LPostfix <= Pb) ->
    (L < S_Call \/ P = LNew) -> L <= S_Call -> lv_ok fb L P e -> fol P rest = true ->
    PSx ni L (norm e) (strat Pb e) rest res -> PEx ni L (toks (body fb sb Pb e) ++ rest) res.
(* an argument list up to its closing parenthesis *)
Definition GenArgs (a : expr) : Prop :=
  forall rest, PAx (toks (print_items false false LComma a) ++ TP [41] :: rest) (norm a, rest).

Lemma unw_not_wrapped fb P e : compound e = true -> P < lvl e -> is_in e && fb = false -> wrapped fb P e = false.
Proof.
  intros Hc HP Hin. unfold wrapped. rewrite Hc, Hin, orb_false_r. simpl. rewrite Z.geb_leb. apply Z.leb_gt. exact HP.
Qed.

(* in Unw the node is not parenthesised, so [lv_ok] gives its second alternative *)
Lemma unw_right fb P e (X : Prop) :
  compound e = true -> P < lvl e -> is_in e && fb = false -> wrapped fb P e = true \/ X -> X.
Proof. intros Hc HP Hin [W|W]; [|exact W]. rewrite (unw_not_wrapped fb P e Hc HP Hin) in W. discriminate. Qed.

Lemma compound_lvl e : compound e = true -> 1 <= lvl e <= LCall.
Proof.
  destruct e; simpl; intro H; try discriminate; try (pose proof (op_level_pos o)); unfold LConditional, LNew, LCall; lia.
Qed.

Lemma lv_ok_low fp e : lv_ok fp 0 0 e /\ lv_ok fp 3 LYield e /\ lv_ok fp 3 LComma e.
Proof.
  destruct e as [| | | |u w|o2 a b2|c0 y0 n0| |f0 a0| | |]; simpl; auto; repeat split;
    try (right; unfold un_lim, S_Update, S_Call; destruct (op_eqb u UYield); lia);
    try (right; unfold S_Update, S_Call; lia).
  - right. pose proof (op_level_pos o2). lia.
  - apply wrapped_or_below; [reflexivity|]. simpl. unfold LYield. lia.
  - apply wrapped_or_below; [reflexivity|]. simpl. unfold LComma.
    assert (op_level o2 <> 2 /\ op_level o2 <> 3) by (destruct o2; vm_compute; split; discriminate). lia.
  - right. unfold LConditional, LYield. lia.
  - right. unfold LConditional, LYield. lia.
  - right. unfold LConditional, LYield, LComma. lia.
Qed.

Lemma gen_of_unw e : compound e = true -> Unw e -> Gen e.
Proof.
  intros Hc U fp ss ni P L rest res Hfl HP HL HL2 Hlv Hf Hs.
  rewrite print_items_split. unfold PrintParse.ll_of in Hs. destruct (wrapped fp P e) eqn:W.
  - rewrite !toks_app, <- !app_assoc. change (toks [IOpen]) with [TP [40]]. change (toks [IClose]) with [TP [41]].
    simpl app.
    destruct open_tok as (O0 & O1 & O2 & O3).
    apply (E_paren ni L (TP [40]) _ (norm e) (TP [41]) rest res O0 O1 O2 O3); [|reflexivity|exact Hs].
    pose proof (compound_lvl e Hc) as Hl.
    apply (U false false false P 0 0); try lia.
    + apply flag_ok_off.
    + intros f a E. subst e. right. unfold wrapped in W. simpl in W. rewrite orb_false_r in W. rewrite Z.geb_leb in W. apply Z.leb_le in W.
      unfold LPostfix, LCall in *. lia.
    + left. unfold S_Call. lia.
    + unfold S_Call. lia.
    + apply lv_ok_low.
    + reflexivity.
    + apply S_stop. reflexivity.
  - destruct (unwrapped_level fp P e Hc W) as [W1 W2].
    apply (U fp ss ni P P L); try assumption. intros f a _. left. reflexivity.
Qed.

Lemma target_shape v : is_target v = true -> compound v = false.
Proof. destruct v; intro H; try discriminate H; reflexivity. Qed.

(* what a member access / call is applied to: printed at LPostfix, or at LNew under the isNewTarget flag *)
Lemma targetT fp L T t : (T = LPostfix /\ L < S_Call) \/ T = LNew -> lv_ok fp L T t /\ S_Call <=? ll_of fp T t = true.
Proof.
  intro HT. split.
  - destruct t as [| | | |u w|o2 a b2|c0 y0 n0| |f0 a0| | |]; simpl; auto.
    + left. apply wrapped_level; [reflexivity|]. simpl. pose proof (op_level_pos u).
      destruct HT as [[E _]|E]; subst T; unfold LPostfix, LNew; lia.
    + left. apply wrapped_level; [reflexivity|]. simpl. pose proof (op_level_pos o2).
      destruct HT as [[E _]|E]; subst T; unfold LPostfix, LNew; lia.
    + left. destruct HT as [[E _]|E]; subst T; reflexivity.
    + destruct HT as [[E HL]|E]; subst T; [right; exact HL | left; reflexivity].
  - apply Z.leb_le. assert (HT19 : 19 <= T <= 20) by (destruct HT as [[E _]|E]; subst T; unfold LPostfix, LNew; lia).
    unfold PrintParse.ll_of. destruct (wrapped fp T t) eqn:W; [unfold S_Call, S_Member; lia|].
    destruct (compound t) eqn:Hct; [|destruct t; try discriminate; simpl; unfold S_Member, S_Call; lia].
    destruct (unwrapped_level fp T t Hct W) as [W1 _]. clear W. rename W1 into W.
    destruct t as [| | | |u w|o2 a b2|c0 y0 n0| |f0 a0|f0 a0| |]; simpl in *; unfold S_Member, S_Call in *; try lia; try discriminate.
    + pose proof (op_level_pos u). lia.
    + pose proof (op_level_pos o2). lia.
    + unfold LConditional in W. lia.
    + unfold PrintParse.new_parens. replace (T >=? LPostfix) with true by (symmetry; rewrite Z.geb_leb; apply Z.leb_le; unfold LPostfix; lia).
      rewrite orb_true_r. unfold S_Member. lia.
Qed.

Lemma tgt_level_cases P L : (L < S_Call \/ P = LNew) ->
  (tgt_level P = LPostfix /\ L < S_Call) \/ tgt_level P = LNew.
Proof.
  intros HL. unfold tgt_level. destruct (P =? LNew) eqn:E; [right; reflexivity|].
  left. split; [reflexivity|]. apply Z.eqb_neq in E. destruct HL as [HL|HL]; [exact HL | contradiction].
Qed.

Lemma gen_target t ss ni P L rest res :
  Gen t -> (L < S_Call \/ P = LNew) -> L <= S_Call -> fol LPostfix rest = true ->
  (S_Call <=? ll_of false (tgt_level P) t = true -> PSx ni L (norm t) (ll_of false (tgt_level P) t) rest res) ->
  PEx ni L (toks (print_items false ss (tgt_level P) t) ++ rest) res.
Proof.
  intros G HL HL2 Hf Hs.
  destruct (targetT false L (tgt_level P) t (tgt_level_cases P L HL)) as [Hlt Hll].
  assert (HT : LPostfix <= tgt_level P) by (unfold tgt_level; destruct (P =? LNew); unfold LNew, LPostfix; lia).
  apply (G false ss ni (tgt_level P) L); try assumption.
  - apply flag_ok_high. unfold LPostfix, LCompare in *. lia.
  - unfold LPostfix in HT. lia.
  - destruct (tgt_level_cases P L HL) as [[_ H]|H]; [left | right]; exact H.
  - apply (fol_weaken LPostfix); assumption.
  - apply Hs. exact Hll.
Qed.

Lemma operand17 fp L t : wf t -> L < S_Update -> lv_ok fp L (LPrefix - 1) t.
Proof.
  intros Hw HL. destruct t as [| | | |u w|o2 a b2|c0 y0 n0| |f0 a0| | |]; simpl; auto.
  - apply un_lv_ok; [left; unfold LAssign, LPrefix; lia | exact HL].
  - left. apply wrapped_level; [reflexivity|]. simpl.
    destruct Hw as (_ & _ & Hk & _). destruct (bin_level o2 Hk) as (Hle & _). unfold LPrefix. lia.
  - right. unfold S_Update, S_Call in *. lia.
Qed.

(* below level 19 the token after an expression is none of . [ ( *)
Lemma fol_no_member P rest : fol P rest = true -> P < LPostfix ->
  head_stop S_Call rest = true /\ (match rest with p :: _ => is_open p = false | [] => True end).
Proof.
  intros H HP. destruct rest as [|t r]; [split; [reflexivity | exact I]|]. simpl in *.
  destruct (is_dot t); [apply Z.leb_le in H; lia|].
  destruct (is_lbrack t); [apply Z.leb_le in H; lia|].
  destruct (is_open t); [apply Z.leb_le in H; lia|]. simpl. split; [|reflexivity].
  apply andb_true_iff. split; [apply andb_true_iff; split|].
  - destruct (is_quest t); reflexivity.
  - destruct (postfix_op t); reflexivity.
  - destruct (binary_op t) eqn:Eb; [|reflexivity]. apply Z.leb_le. rewrite spec_level_is_op_level.
    pose proof (op_level_pos o). unfold S_Call. lia.
Qed.

(* a sub-expression between delimiters (a middle branch, an index, an argument): printed without
   the flags at one of the three low levels, parsed from scratch up to the delimiter *)
Lemma gen_closed e P L rest :
  Gen e -> (P = 0 /\ L = 0) \/ (P = LYield /\ L = 3) \/ (P = LComma /\ L = 3) ->
  fol P rest = true -> head_stop L rest = true ->
  PEx false L (toks (print_items false false P e) ++ rest) (norm e, rest).
Proof.
  intros G HPL Hf Hst. destruct (lv_ok_low false e) as (L0 & L1 & L2).
  assert (HP : 0 <= P /\ L < S_Call) by (unfold LYield, LComma, S_Call in *; lia).
  apply (G false false false P L); try tauto.
  - apply flag_ok_off.
  - unfold S_Call in *. lia.
  - destruct HPL as [[-> ->]|[[-> ->]|[-> ->]]]; assumption.
  - apply S_stop. exact Hst.
Qed.

Lemma gen_dot t s : Gen t -> Gen (EDot t s).
Proof.
  intros G fp ss ni P L rest res Hfl HP HL HL2 Hlv Hf Hs.
  cbn [Token.print_items]. rewrite toks_app, <- app_assoc. change (toks [IDot s]) with [TP [46]; TId s]. simpl app.
  apply gen_target; [exact G | exact HL | exact HL2 | reflexivity|].
  intro Hll. apply S_dot; [reflexivity | exact Hll | exact Hs].
Qed.

Lemma unw_un o v :
  wf v -> op_kind o <> KBin -> (is_update o = true -> is_target v = true) -> Gen v -> Unw (EUn o v).
Proof.
  intros Hwv Hku Hupd G fb sb ni Pb P L rest res Hfl Hin HP HPl _ HL HL2 Hlv Hf Hs.
  rewrite body_un. simpl lvl in *. simpl norm in Hs. simpl PrintParse.strat in Hs.
  pose proof (unw_right fb P (EUn o v) _ eq_refl HPl Hin Hlv) as HLlim.
  destruct (op_kind o) eqn:Ek.
  - (* prefix *)
    destruct (pre_tok o Ek) as (T0 & T1 & T2).
    rewrite toks_app, <- app_assoc. change (toks [IOp o]) with (toks_of (IOp o) ++ []). rewrite T2. simpl app.
    destruct (op_eqb o UYield) eqn:Ey.
    + (* yield: an AssignmentExpression whose operand is an AssignmentExpression with the same [In] *)
      apply op_eqb_eq in Ey. subst o.
      unfold un_lim in HLlim. simpl in HLlim. change (op_level UYield) with 4 in *.
      assert (Hfl3 : flag_ok ni fb LYield) by (apply (flag_ok_low ni fb P); [exact Hfl | unfold LCompare; lia]).
      apply (E_prefix ni L (op_tok UYield) _ UYield (norm v) rest res T0 T1); [change (pre_max UYield) with 3; apply Z.ltb_ge; lia| |reflexivity|exact Hs].
      change (pre_in UYield ni) with ni. change (pre_arg UYield) with 3. change (op_eqb UYield UYield && fb) with fb. change (4 - 1) with LYield.
      destruct (lv_ok_low fb v) as (_ & Lv & _).
      apply (G fb false ni LYield 3); try assumption; try (unfold LYield, S_Call; lia).
      * apply (fol_weaken P); [unfold LYield; lia | exact Hf].
      * apply S_stop. apply (fol_stop P); [exact Hf | unfold LPrefix; lia | lia|].
        intros o' Hk' Hl'. apply low_ops_stop; [exact Hk' | unfold LYield; lia].
    + destruct (pre_level o Ek Ey) as (E1 & E2 & E3 & E4).
      unfold un_lim in HLlim. rewrite Ey in HLlim. rewrite E1 in *.
      apply (E_prefix ni L (op_tok o) _ o (norm v) rest res T0 T1); [rewrite E2; apply Z.ltb_ge; unfold S_Update in *; lia| | |rewrite E4; exact Hs].
      * unfold pre_in. rewrite Ey, E3. simpl andb.
        apply (G false false false (LPrefix - 1) S_Unary); try (unfold LPrefix, S_Unary, S_Update, S_Call; lia).
        -- apply flag_ok_off.
        -- apply operand17; [exact Hwv | unfold S_Unary, S_Update; lia].
        -- apply (fol_weaken P); [unfold LPrefix, S_Unary in *; lia | exact Hf].
        -- apply S_stop. apply (fol_stop P); [exact Hf | unfold LPrefix, S_Unary in *; lia | unfold S_Unary in *; lia|].
           intros o' Hk' _. apply Z.leb_le. rewrite spec_level_is_op_level. destruct (bin_level o' Hk'). unfold S_Unary. lia.
      * destruct (is_update o) eqn:Eu; [|reflexivity]. simpl. rewrite is_target_norm. auto.
  - (* postfix *)
    destruct (post_tok o Ek) as (T1 & T2 & T3). destruct (post_level o Ek) as [El Eu]. rewrite El in *.
    assert (HL19 : L < S_Update) by (unfold un_lim in HLlim; destruct o; try discriminate; exact HLlim).
    specialize (Hupd Eu). pose proof (target_shape v Hupd) as Hcv.
    rewrite toks_app, <- app_assoc. change (toks [IOp o]) with (toks_of (IOp o) ++ []). rewrite T3. simpl app.
    apply (G false sb ni (LPostfix - 1) L); try assumption.
    + apply flag_ok_high. unfold LPostfix, LCompare. lia.
    + unfold LPostfix. lia.
    + left. unfold S_Update, S_Call in *. lia.
    + destruct v; try discriminate Hupd; exact I.
    + rewrite (fol_post o _ _ Ek). reflexivity.
    + apply (S_post ni L (norm v) _ (op_tok o) o rest res T1 T2); [apply Z.leb_gt; exact HL19| |exact Hs].
      rewrite is_target_norm, Hupd. unfold PrintParse.ll_of, wrapped. rewrite Hcv. simpl.
      destruct v; try discriminate; reflexivity.
  - congruence.
Qed.

Lemma left_lv_print fb o l L :
  op_kind o = KBin -> (is_assign o = true -> is_target l = true) -> L < op_level o -> lv_ok fb L (left_lvl o l) l.
Proof.
  intros Hk Hta HLo. pose proof (left_lvl_ge o l) as Hll. destruct (bin_level o Hk) as (B1 & _).
  assert (Hlp : op_level o - 1 <= left_lvl o l) by (unfold lpl in Hll; destruct (is_right_assoc o); lia).
  destruct l as [| | | |u w|o2 a b2|c0 y0 n0| |f0 a0| | |]; simpl; auto.
  - apply un_lv_ok; unfold LAssign, S_Update; lia.
  - apply wrapped_or_below; [reflexivity|]. simpl. lia.
  - (* a conditional as left operand: parenthesised except under a comma *)
    apply wrapped_or_below; [reflexivity|]. simpl lvl. intro E.
    destruct (is_assign o) eqn:Ea; [specialize (Hta eq_refl); discriminate|].
    assert (Hlow : (left_lvl o (ECond c0 y0 n0) = 0 /\ op_level o = 1) \/ LConditional <= left_lvl o (ECond c0 y0 n0)).
    { clear -Hk Ea. destruct o; try discriminate; vm_compute; auto; right; discriminate. }
    unfold LConditional, LYield in *. destruct Hlow as [[Hlow Hl1]|Hlow]; lia.
  - right. unfold S_Call. lia.
Qed.

Lemma unw_bin o l r :
  wf l -> op_kind o = KBin -> (is_assign o = true -> is_target l = true) -> (o = BComma -> not_comma r) ->
  Gen l -> Gen r -> Unw (EBin o l r).
Proof.
  intros Hwl Hk Hta Hcm Gl Gr fb sb ni Pb P L rest res Hfl Hin HP HPl _ HL HL2 Hlv Hf Hs.
  rewrite body_bin. simpl lvl in *. rewrite (norm_bin o l r Hcm) in Hs. simpl PrintParse.strat in Hs.
  destruct (bin_tok o Hk) as (T1 & T2 & T3 & T4). destruct (bin_level o Hk) as (B1 & B2 & B3).
  pose proof (unw_right fb P (EBin o l r) _ eq_refl HPl Hin Hlv) as HLo.
  assert (Hni : ni && op_eqb o BIn = false).
  { destruct ni; [|reflexivity]. simpl. destruct (Hfl eq_refl) as [E|E].
    - subst fb. simpl in Hin. rewrite andb_true_r in Hin. exact Hin.
    - destruct (op_eqb o BIn) eqn:Eo; [|reflexivity]. apply op_eqb_eq in Eo. subst o.
      exfalso. change (op_level BIn) with 13 in HPl. unfold LCompare in E. lia. }
  assert (HLc : L < S_Call) by (unfold S_Call; lia).
  rewrite !toks_app, <- !app_assoc. change (toks [IOp o]) with (toks_of (IOp o) ++ []). rewrite T4. simpl app.
  pose proof (left_lvl_ge o l) as Hll. pose proof (right_lvl_ge o r Hk) as Hrl.
  apply (Gl fb sb ni (left_lvl o l) L); try assumption; try lia.
  - apply (flag_ok_mono ni fb P); [exact Hfl | unfold lpl in Hll; destruct (is_right_assoc o); lia].
  - apply left_lv_print; assumption.
  - rewrite (fol_bin o _ _ Hk). apply Z.leb_le. exact Hll.
  - apply (S_bin ni L (norm l) _ (op_tok o) o _ (norm r) rest res T1 T2 T3).
    + rewrite spec_level_is_op_level. apply Z.leb_gt. exact HLo.
    + exact Hni.
    + apply left_ok_print; assumption.
    + apply (Gr fb false ni (right_lvl o r) (right_level o)); try (unfold S_Call; lia).
      * apply (flag_ok_mono ni fb P); [exact Hfl | lia].
      * apply right_ok_print; assumption.
      * apply (fol_weaken P); [lia | exact Hf].
      * apply S_stop. apply (fol_stop P); [exact Hf | unfold LPrefix; lia | |].
        -- assert (Hrg : op_level o - 1 <= right_level o) by (clear -Hk; destruct o; try discriminate; vm_compute; discriminate). lia.
        -- intros o' Hk' Hl'. apply (stop_level o o' P); assumption.
    + rewrite spec_level_is_op_level. exact Hs.
Qed.

Lemma test_lv_print fb c L : L < LConditional -> lv_ok fb L LConditional c.
Proof.
  intro HL5. destruct c as [| | | |u w|o2 a b2|c0 y0 n0| |f0 a0| | |]; simpl; auto.
  - apply un_lv_ok; unfold LAssign, S_Update, LConditional in *; lia.
  - apply wrapped_or_below; [reflexivity|]. simpl. lia.
  - right. unfold S_Call, LConditional in *. lia.
Qed.

Lemma unw_cond c y n : Gen c -> Gen y -> Gen n -> Unw (ECond c y n).
Proof.
  intros Gc Gy Gn fb sb ni Pb P L rest res Hfl Hin HP HPl _ HL HL2 Hlv Hf Hs.
  rewrite body_cond. simpl lvl in *. simpl norm in Hs. simpl PrintParse.strat in Hs.
  destruct (unw_right fb P (ECond c y n) _ eq_refl HPl Hin Hlv) as [HL5 HP3].
  assert (HLc : L < S_Call) by (unfold S_Call, LConditional in *; lia).
  rewrite !toks_app, <- !app_assoc. change (toks [IQuest]) with [TP [63]]. change (toks [IColon]) with [TP [58]]. simpl app.
  assert (Hfl3 : flag_ok ni fb LYield) by (apply (flag_ok_low ni fb P); [exact Hfl | unfold LCompare, LConditional in *; lia]).
  apply (Gc fb sb ni LConditional L); try assumption.
  - unfold LConditional. lia.
  - left. exact HLc.
  - apply test_lv_print. exact HL5.
  - reflexivity.
  - destruct (lv_ok_low fb n) as (_ & Ln & _).
    apply (S_cond ni L (norm c) _ (TP [63]) _ (norm y) (TP [58]) (toks (print_items fb false LYield n) ++ rest) (norm n) rest res);
      try reflexivity.
    + apply Z.leb_gt. unfold S_Cond, LConditional in *. lia.
    + apply Z.ltb_lt. pose proof (ll_of_ge mw fb LConditional c). unfold S_Cond, S_Member, LConditional in *. lia.
    + apply gen_closed; [exact Gy | tauto | reflexivity | reflexivity].
    + apply (Gn fb false ni LYield 3); try assumption; try (unfold LYield, S_Call; lia).
      * apply (fol_weaken P); [exact HP3 | exact Hf].
      * apply S_stop. apply (fol_stop P); [exact Hf | unfold LPrefix, LYield in *; lia | unfold LYield in *; lia|].
        intros o' Hk' Hl'. apply low_ops_stop; [exact Hk' | lia].
    + exact Hs.
Qed.

Lemma gen_index t i : wf t -> Gen t -> Gen i -> Gen (EIndex t i).
Proof.
  intros Hwt Gt Gi fp ss ni P L rest res Hfl HP HL HL2 Hlv Hf Hs.
  cbn [Token.print_items].
  assert (Hidx : forall lft llv, S_Call <=? llv = true -> lft = norm t ->
            PSx ni L lft llv (TP [91] :: toks (print_items false false LLowest i) ++ TP [93] :: rest) res).
  { intros lft llv Hllv El. subst lft.
    apply (S_index ni L (norm t) _ (TP [91]) _ (norm i) (TP [93]) rest res); try reflexivity; try assumption.
    apply gen_closed; [exact Gi | tauto | reflexivity | reflexivity]. }
  destruct (ss && is_let t) eqn:Elet.
  - (* "(let)[i]" at the start of a statement *)
    apply andb_true_iff in Elet as [_ Elet]. destruct t as [s| | | | | | | | | | |]; try discriminate.
    destruct Hwt as [_ Hr].
    unfold paren. cbn [Token.print_items]. rewrite !toks_app, <- !app_assoc.
    change (toks [IOpen]) with [TP [40]]. change (toks [IClose]) with [TP [41]]. change (toks [IId s]) with [TId s].
    change (toks [ILBrack]) with [TP [91]]. change (toks [IRBrack]) with [TP [93]]. simpl app.
    destruct open_tok as (O0 & O1 & O2 & O3).
    eapply (E_paren ni L (TP [40]) _ (EId s) (TP [41]) _ res O0 O1 O2 O3); [|reflexivity|].
    + apply (E_atom false 0 (TId s) _ (EId s)); [apply is_new_word; exact Hr | apply find_op_word; exact Hr | simpl; rewrite Hr; reflexivity|].
      apply S_stop. reflexivity.
    + apply (Hidx (EId s) S_Member); reflexivity.
  - unfold paren. rewrite !toks_app, <- !app_assoc. change (toks [ILBrack]) with [TP [91]]. change (toks [IRBrack]) with [TP [93]]. simpl app.
    apply gen_target; [exact Gt | exact HL | exact HL2 | reflexivity|].
    intro Hll. apply Hidx; [exact Hll | reflexivity].
Qed.

Lemma unw_call f a : Gen f -> GenArgs a -> Unw (ECall f a).
Proof.
  intros Gf Ga fb sb ni Pb P L rest res Hfl Hin HP HPl _ HL HL2 Hlv Hf Hs.
  rewrite body_call. simpl lvl in *. simpl norm in Hs. simpl PrintParse.strat in Hs.
  pose proof (unw_right fb P (ECall f a) _ eq_refl HPl Hin Hlv) as HLc.
  rewrite !toks_app, <- !app_assoc. change (toks [ICallOpen]) with [TP [40]]. change (toks [IClose]) with [TP [41]]. simpl app.
  apply (gen_target f sb ni 0 L); [exact Gf | left; exact HLc | exact HL2 | reflexivity|].
  intro Hll. apply (S_call ni L (norm f) _ (TP [40]) _ (norm a) rest res); try reflexivity.
  - apply Z.leb_gt. exact HLc.
  - exact Hll.
  - apply Ga.
  - exact Hs.
Qed.

Lemma unw_new f a : wfa a -> Gen f -> GenArgs a -> Unw (ENew f a).
Proof.
  intros Hwa Gf Ga fb sb ni Pb P L rest res Hfl Hin HP HPl HPb HL HL2 Hlv Hf Hs.
  specialize (HPb f a eq_refl).
  unfold PrintParse.body. simpl norm in Hs. simpl PrintParse.strat in Hs.
  rewrite !toks_app, <- !app_assoc. change (toks [INew]) with [TId [110; 101; 119]]. simpl app.
  destruct (targetT false S_Call LNew f (or_intror eq_refl)) as [Hlt _].
  destruct (PrintParse.new_parens mw Pb a) eqn:Enp.
  - (* with an argument list *)
    change (toks (ICallOpen :: print_items false false LComma a ++ [IClose])) with (TP [40] :: toks (print_items false false LComma a ++ [IClose])).
    rewrite toks_app. change (toks [IClose]) with [TP [41]]. simpl app. rewrite <- app_assoc. simpl app.
    apply (E_new_args ni L (TId [110; 101; 119]) _ (norm f) (TP [40]) (toks (print_items false false LComma a) ++ TP [41] :: rest) (norm a) rest res); try reflexivity.
    + apply (Gf false false false LNew S_Call); try assumption; try (unfold LNew, S_Call; lia).
      * apply flag_ok_off.
      * reflexivity.
      * apply S_stop. reflexivity.
    + apply Ga.
    + exact Hs.
  - (* "new f" without parentheses: minified, no arguments, below LPostfix *)
    unfold PrintParse.new_parens in Enp. apply orb_false_iff in Enp as [Enp Ep19]. apply orb_false_iff in Enp as [_ Eha].
    rewrite Z.geb_leb in Ep19. apply Z.leb_gt in Ep19.
    assert (a = ANil) by (destruct a; try (destruct Hwa; fail); [reflexivity | discriminate]). subst a.
    assert (HPP : P = Pb) by (destruct HPb as [E|E]; [exact E | lia]). subst Pb.
    simpl app. destruct (fol_no_member P rest Hf Ep19) as [Hst Hno].
    apply (E_new_bare ni L (TId [110; 101; 119]) _ (norm f) rest res); try reflexivity.
    + apply (Gf false false false LNew S_Call); try assumption; try (unfold LNew, S_Call; lia).
      * apply flag_ok_off.
      * apply (fol_weaken P); [unfold LNew, LPostfix in *; lia | exact Hf].
      * apply S_stop. exact Hst.
    + exact Hno.
    + exact Hs.
Qed.

Lemma args_cons x r : wfa r -> Gen x -> GenArgs r -> GenArgs (ACons x r).
Proof.
  intros Hwr Gx Gr rest. cbn [Token.print_items]. simpl norm.
  destruct r as [| | | | | | | | | | |x2 r2]; try (destruct Hwr; fail).
  - (* last argument *)
    rewrite app_nil_r.
    apply (A_last _ (norm x) (TP [41]) rest); [|reflexivity].
    apply gen_closed; [exact Gx | tauto | reflexivity | reflexivity].
  - rewrite !toks_app, <- !app_assoc. change (toks [IOp BComma]) with [TP [44]]. simpl app.
    apply (A_more _ (norm x) (TP [44]) (toks (print_items false false LComma (ACons x2 r2)) ++ TP [41] :: rest) (norm (ACons x2 r2)) rest); [|reflexivity | reflexivity|].
    + apply gen_closed; [exact Gx | tauto | reflexivity | reflexivity].
    + apply Gr.
Qed.

Definition Both (e : expr) : Prop := (wf e -> cnf e -> Gen e) /\ (wfa e -> cnf e -> GenArgs e).

Theorem print_parse_both : forall e, Both e.
Proof.
  induction e as [s|s|b f|t IHt s|o v IHv|o l IHl r IHr|c IHc y IHy n IHn|t IHt i IHi|f IHf a IHa|f IHf a IHa| |x IHx r IHr];
    (split; [intros Hwf Hcn; try (destruct Hwf; fail) | intros Hwa Hcn; try (destruct Hwa; fail)]).
  - intros fp ss ni P L rest res Hfl HP HL HL2 Hlv Hf Hs. simpl in *. destruct Hwf as [_ Hr].
    apply (E_atom ni L (TId s) rest (EId s)); [apply is_new_word; exact Hr | apply find_op_word; exact Hr | simpl; rewrite Hr; reflexivity | exact Hs].
  - intros fp ss ni P L rest res Hfl HP HL HL2 Hlv Hf Hs. simpl in *.
    apply (E_atom ni L (TNum s) rest (ENum s)); [reflexivity | apply find_op_num | reflexivity | exact Hs].
  - intros fp ss ni P L rest res Hfl HP HL HL2 Hlv Hf Hs. simpl in *.
    apply (E_atom ni L (TRe b f) rest (ERe b f)); [reflexivity | apply find_op_re | reflexivity | exact Hs].
  - destruct Hwf as (Hwt & _). apply gen_dot, IHt; assumption.
  - destruct Hwf as (Hwv & Hku & Hupd). apply gen_of_unw; [reflexivity|]. apply unw_un; try assumption. apply IHv; assumption.
  - destruct Hwf as (Hwl & Hwr & Hk & Hta). destruct Hcn as (Hcl & Hcr & Hcm).
    apply gen_of_unw; [reflexivity|]. apply unw_bin; try assumption; [apply IHl | apply IHr]; assumption.
  - destruct Hwf as (Hwc & Hwy & Hwn). destruct Hcn as (Hcc & Hcy & Hcn).
    apply gen_of_unw; [reflexivity|]. apply unw_cond; [apply IHc | apply IHy | apply IHn]; assumption.
  - destruct Hwf as (Hwt & Hwi). destruct Hcn as (Hct & Hci).
    apply gen_index; [exact Hwt | apply IHt | apply IHi]; assumption.
  - destruct Hwf as (Hwf' & Hwa). destruct Hcn as (Hcf & Hca).
    apply gen_of_unw; [reflexivity|]. apply unw_call; [apply IHf | apply IHa]; assumption.
  - destruct Hwf as (Hwf' & Hwa). destruct Hcn as (Hcf & Hca).
    apply gen_of_unw; [reflexivity|]. apply unw_new; [exact Hwa | apply IHf | apply IHa]; assumption.
  - intro rest. simpl. apply A_nil. reflexivity.
  - destruct Hwa as (Hwx & Hwr). destruct Hcn as (Hcx & Hcr).
    apply args_cons; [exact Hwr | apply IHx | apply IHr]; assumption.
Qed.

Theorem print_parse_gen : forall e, wf e -> cnf e -> Gen e.
Proof. intros e. apply (proj1 (print_parse_both e)). Qed.

Lemma parse_fuel_mono n m ni ts e : (n <= m)%nat -> parse_fuel n ni ts = Some e -> parse_fuel m ni ts = Some e.
Proof.
  unfold parse_fuel. intros Hle H. destruct (parse_expr n ni 0 ts) as [[e' [|c r]]|] eqn:E; try discriminate.
  rewrite (parse_expr_mono n m _ _ _ _ Hle E). exact H.
Qed.

Theorem parse_print_items_cnf fi ss e :
  wf e -> cnf e -> exists n, forall m, (n <= m)%nat -> parse_fuel m fi (toks (print_items fi ss LLowest e)) = Some (norm e).
Proof.
  intros Hwf Hcn.
  destruct (print_parse_gen e Hwf Hcn fi ss fi LLowest 0 [] (norm e, [])) as [n Hn].
  - intro H. left. exact H.
  - unfold LLowest. lia.
  - left. unfold S_Call. lia.
  - unfold S_Call. lia.
  - apply lv_ok_low.
  - reflexivity.
  - apply S_nil.
  - exists n. intros m Hm. rewrite app_nil_r in Hn. unfold parse_fuel.
    rewrite (parse_expr_mono n m _ _ _ _ Hm Hn). reflexivity.
Qed.

End WithMode.
