(* The items of a printed well-formed tree form a grammatical chain of well-formed
   items: render_lex applies to every printed tree. *)
From V Require Import Common.Base C13.KwSpec C13.Token C13.LexSpec C13.LexProofs C13.Toks C13.TokenProofs
  C13.ParseSpec C13.PrintParse.
From Coq Require Import String.

(* lexical side condition of render_lex: a prefix "++"/"--" is not directly followed by a
   regular expression (the specification lexer chooses the division goal after "++"/"--") *)
Fixpoint lead (e : expr) : bool :=
  match e with
  | EId _ => true
  | EDot t _ | EIndex t _ | ECall t _ => lead t
  | ERe _ _ | ANil | ACons _ _ => false
  | _ => true
  end.
Fixpoint lexok (e : expr) : Prop :=
  match e with
  | EDot t _ => lexok t
  | EUn o v => lexok v /\ (is_update_pre (IOp o) = true -> lead v = true)
  | EBin _ l r => lexok l /\ lexok r
  | ECond c y n => lexok c /\ lexok y /\ lexok n
  | EIndex t i | ECall t i | ENew t i | ACons t i => lexok t /\ lexok i
  | _ => True
  end.

Lemma Forall_app_intro {A} (P : A -> Prop) l1 l2 : Forall P l1 -> Forall P l2 -> Forall P (l1 ++ l2).
Proof. intros H1 H2. apply Forall_app. split; assumption. Qed.

Section WithMode.
Variable mw : bool.
Local Notation print_items := (Token.print_items mw).
Local Notation body := (PrintParse.body mw).

Definition Good (l : list item) : Prop :=
  exists f tl, l = f :: tl /\ starts_operand f = true /\ chain (Some f) tl = true /\ ends_operand (last l f) = true.

Lemma last_cons_default {A} (x : A) l d d' : l <> [] -> last (x :: l) d = last l d'.
Proof. intro H. change (x :: l) with ([x] ++ l). rewrite last_app_ne by exact H. apply last_indep. exact H. Qed.

Lemma chain_app prev a : forall b,
  chain prev (a ++ b) = chain prev a && chain (match a with [] => prev | x :: _ => Some (last a x) end) b.
Proof.
  revert prev. induction a as [|x a IH]; intros prev b; [reflexivity|].
  simpl app. cbn [chain]. rewrite IH. rewrite andb_assoc. f_equal.
  destruct a as [|y a']; [reflexivity|]. f_equal. f_equal. change (last (x :: y :: a') x) with (last (y :: a') x). apply last_indep. discriminate.
Qed.

Lemma G_atom i : starts_operand i = true -> ends_operand i = true -> Good [i].
Proof. intros H1 H2. exists i, []. repeat split; auto. Qed.

Lemma G_paren a : Good a -> Good ([IOpen] ++ a ++ [IClose]).
Proof.
  intros (f & tl & E & Hs & Hc & He). subst a. exists IOpen, ((f :: tl) ++ [IClose]). repeat split.
  - rewrite chain_app. cbn [chain]. rewrite Hc.
    assert (A1 : adj IOpen f = true) by (unfold adj; simpl; rewrite Hs; reflexivity).
    assert (A2 : adj (last (f :: tl) f) IClose = true) by (unfold adj; rewrite He; reflexivity).
    rewrite A1, A2. reflexivity.
  - simpl app. rewrite (last_cons_default IOpen _ IOpen IOpen) by (destruct tl; discriminate).
    change (f :: tl ++ [IClose]) with ((f :: tl) ++ [IClose]). rewrite last_app_ne by discriminate. reflexivity.
Qed.

Lemma G_bin a b o : Good a -> Good b -> op_kind o = KBin -> Good (a ++ [IOp o] ++ b).
Proof.
  intros (fa & ta & Ea & Hsa & Hca & Hea) (fb & tb & Eb & Hsb & Hcb & Heb) Hk. subst a b.
  exists fa, (ta ++ [IOp o] ++ fb :: tb). repeat split; auto.
  - rewrite chain_app, Hca. simpl andb. simpl app. cbn [chain].
    assert (Hpost : is_post (IOp o) = false) by (simpl; rewrite Hk; reflexivity).
    assert (Hup : is_update_pre (IOp o) = false) by (destruct o; try discriminate; reflexivity).
    assert (A1 : forall z, ends_operand z = true -> adj z (IOp o) = true) by (intros z Hz; unfold adj; rewrite Hz, Hk; reflexivity).
    assert (A2 : adj (IOp o) fb = true).
    { unfold adj. change (ends_operand (IOp o)) with (is_post (IOp o)). rewrite Hpost, Hsb, Hup. reflexivity. }
    destruct ta as [|x ta']; cbn [chain]; rewrite A2, Hcb.
    + rewrite (A1 fa Hea). reflexivity.
    + rewrite A1; [reflexivity|]. rewrite <- Hea. rewrite (last_cons_default fa (x :: ta') fa x) by discriminate. reflexivity.
  - change ((fa :: ta) ++ [IOp o] ++ fb :: tb) with ((fa :: ta) ++ ([IOp o] ++ fb :: tb)).
    rewrite last_app_ne by discriminate. simpl app.
    rewrite (last_cons_default (IOp o) (fb :: tb) fa fb) by discriminate. exact Heb.
Qed.

(* a separator that takes an operand on both sides ("?", ":", "[") *)
Lemma G_infix a b x : Good a -> Good b ->
  ends_operand x = false -> is_update_pre x = false -> adj (last a IOpen) x = true -> Good (a ++ [x] ++ b).
Proof.
  intros (fa & ta & Ea & Hsa & Hca & Hea) (fb & tb & Eb & Hsb & Hcb & Heb) Hx Hu Hadj. subst a b.
  exists fa, (ta ++ [x] ++ fb :: tb). repeat split; auto.
  - rewrite chain_app, Hca. simpl andb. simpl app.
    rewrite (last_indep (fa :: ta) IOpen fa) in Hadj by discriminate.
    assert (A2 : adj x fb = true) by (unfold adj; rewrite Hx, Hsb, Hu; reflexivity).
    destruct ta as [|y ta']; cbn [chain]; rewrite A2, Hcb.
    + simpl in Hadj. rewrite Hadj. reflexivity.
    + rewrite (last_cons_default fa (y :: ta') fa y) in Hadj by discriminate. rewrite Hadj. reflexivity.
  - change ((fa :: ta) ++ [x] ++ fb :: tb) with ((fa :: ta) ++ ([x] ++ fb :: tb)).
    rewrite last_app_ne by discriminate. simpl app.
    rewrite (last_cons_default x (fb :: tb) fa fb) by discriminate. exact Heb.
Qed.
Lemma G_snoc a x : Good a -> ends_operand x = true -> adj (last a IOpen) x = true -> Good (a ++ [x]).
Proof.
  intros (f & tl & E & Hs & Hc & He) Hx Hadj. subst a. exists f, (tl ++ [x]). repeat split; auto.
  - rewrite chain_app, Hc. simpl andb. cbn [chain]. rewrite andb_true_r.
    rewrite (last_indep (f :: tl) IOpen f) in Hadj by discriminate.
    destruct tl as [|y tl']; [exact Hadj|]. rewrite <- Hadj.
    rewrite (last_cons_default f (y :: tl') f y) by discriminate. reflexivity.
  - rewrite last_app_ne by discriminate. exact Hx.
Qed.
Lemma good_last_ends a : Good a -> ends_operand (last a IOpen) = true.
Proof. intros (f & tl & E & _ & _ & He). subst a. rewrite (last_indep (f :: tl) IOpen f) by discriminate. exact He. Qed.

(* what may stand directly behind a prefix "++" or "--" *)
Definition simple_head (l : list item) : Prop := match l with IId _ :: _ | IOpen :: _ | INum _ :: _ | INew :: _ => True | _ => False end.
Lemma simple_head_app a b : simple_head a -> simple_head (a ++ b).
Proof. destruct a as [|x a']; [intros [] | intro H; exact H]. Qed.

Lemma G_pre a o : Good a -> op_kind o = KPre -> (is_update_pre (IOp o) = true -> simple_head a) -> Good (IOp o :: a).
Proof.
  intros (f & tl & E & Hs & Hc & He) Hk Hl. subst a. exists (IOp o), (f :: tl). repeat split.
  - simpl. rewrite Hk. reflexivity.
  - cbn [chain]. rewrite Hc, andb_true_r. unfold adj. change (ends_operand (IOp o)) with (is_post (IOp o)).
    replace (is_post (IOp o)) with false by (simpl; rewrite Hk; reflexivity). rewrite Hs. cbv iota. rewrite andb_true_l.
    destruct (is_update_pre (IOp o)) eqn:Eu; [|reflexivity]. specialize (Hl eq_refl). destruct f; try destruct Hl; reflexivity.
  - rewrite (last_cons_default (IOp o) (f :: tl) (IOp o) f) by discriminate. exact He.
Qed.

Lemma good_nonempty l : Good l -> l <> [].
Proof. intros (f & tl & E & _). subst. discriminate. Qed.

Lemma hd_app_ne {A} (a b : list A) d : a <> [] -> hd d (a ++ b) = hd d a.
Proof. destruct a; [congruence | reflexivity]. Qed.

(* a prefix item that is not an operator of the table: the keyword "new" *)
Lemma G_new a : Good a -> Good (INew :: a).
Proof.
  intros (f & tl & E & Hs & Hc & He). subst a. exists INew, (f :: tl). repeat split.
  - cbn [chain]. rewrite Hc, andb_true_r. unfold adj. simpl. rewrite Hs. reflexivity.
  - rewrite (last_cons_default INew (f :: tl) INew f) by discriminate. exact He.
Qed.
(* an empty argument list "()" after a callee *)
Lemma G_call0 a : Good a -> is_post (last a IOpen) = false -> Good (a ++ [ICallOpen; IClose]).
Proof.
  intros (f & tl & E & Hs & Hc & He) Hl. subst a. exists f, (tl ++ [ICallOpen; IClose]). repeat split; auto.
  - rewrite chain_app, Hc. simpl andb. cbn [chain].
    rewrite (last_indep (f :: tl) IOpen f) in Hl by discriminate.
    assert (A : adj (last (f :: tl) f) ICallOpen = true) by (unfold adj; rewrite He, Hl; reflexivity).
    assert (A2 : adj ICallOpen IClose = true) by reflexivity.
    rewrite andb_true_r. destruct tl as [|x tl']; [exact A|].
    rewrite <- A. rewrite (last_cons_default f (x :: tl') f x) by discriminate. reflexivity.
  - rewrite last_app_ne by discriminate. reflexivity.
Qed.

Lemma tgt_level_TT P : tgt_level P = LPostfix \/ tgt_level P = LNew.
Proof. unfold tgt_level. destruct (P =? LNew); auto. Qed.

Lemma lastT fp ss T t : T = LPostfix \/ T = LNew -> wf t -> is_post (last (print_items fp ss T t) IOpen) = false.
Proof.
  intros HT Hw. assert (HT19 : 19 <= T) by (destruct HT; subst T; unfold LPostfix, LNew; lia).
  rewrite print_items_split. destruct (wrapped fp T t) eqn:W.
  - rewrite app_assoc, last_app_ne by discriminate. reflexivity.
  - assert (W' : compound t = true -> T < lvl t) by (intro Hc; apply (unwrapped_level fp T t Hc W)).
    destruct t as [| | |t0 s0|u w|o2 a b2|c0 y0 n0|t0 i0|f0 a0|f0 a0| |]; try reflexivity; try (destruct Hw; fail); simpl in W'.
    + unfold PrintParse.body. cbn [Token.print_items]. rewrite last_app_ne by discriminate. reflexivity.
    + specialize (W' eq_refl). pose proof (op_level_pos u). lia.
    + specialize (W' eq_refl). pose proof (op_level_pos o2). lia.
    + specialize (W' eq_refl). unfold LConditional in W'. lia.
    + unfold PrintParse.body. cbn [Token.print_items]. rewrite !app_assoc, last_app_ne by discriminate. reflexivity.
    + rewrite body_call. rewrite !app_assoc, last_app_ne by discriminate. reflexivity.
    + unfold PrintParse.body, new_parens.
      replace (T >=? LPostfix) with true by (symmetry; rewrite Z.geb_leb; apply Z.leb_le; unfold LPostfix; lia).
      rewrite orb_true_r. rewrite !app_assoc, last_app_ne by discriminate. reflexivity.
Qed.

(* leftmost item of a member/call chain whose base leads with an identifier or "(" *)
Lemma lead_head : forall t T, T = LPostfix \/ T = LNew -> lead t = true -> simple_head (print_items false false T t).
Proof.
  induction t as [s0| | |t0 IH0 s0|u w IHw|o2 a IHa b2 IHb|c0 IHc0 y0 IHy0 n0 IHn0|t0 IH0 i0 IHi0|f0 IHf0 a0 IHa0|f0 IHf0 a0 IHa0| |x0 IHx0 r0 IHr0];
    intros T HT Hl; try discriminate; try exact I.
  - cbn [Token.print_items]. apply simple_head_app, IH0; [apply tgt_level_TT | exact Hl].
  - rewrite print_items_split. replace (wrapped false T (EUn u w)) with true; [exact I|].
    symmetry. apply wrapped_level; [reflexivity|]. simpl. pose proof (op_level_pos u). destruct HT; subst T; unfold LPostfix, LNew; lia.
  - rewrite print_items_split. replace (wrapped false T (EBin o2 a b2)) with true; [exact I|].
    symmetry. apply wrapped_level; [reflexivity|]. simpl. pose proof (op_level_pos o2). destruct HT; subst T; unfold LPostfix, LNew; lia.
  - destruct HT; subst T; exact I.
  - cbn [Token.print_items]. apply simple_head_app, IH0; [apply tgt_level_TT | exact Hl].
  - rewrite print_items_split. destruct (wrapped false T (ECall f0 a0)); [exact I|]. rewrite body_call.
    apply simple_head_app, IHf0; [left; reflexivity | exact Hl].
  - rewrite print_items_split. destruct (wrapped false T (ENew f0 a0)); exact I.
Qed.

Lemma target_head v P : is_target v = true -> lead v = true -> simple_head (print_items false false P v).
Proof.
  destruct v as [s| | |t s| | | |t i| | | |]; try discriminate; intros _ Hl; cbn [Token.print_items].
  - exact I.
  - apply simple_head_app, lead_head; [apply tgt_level_TT | exact Hl].
  - apply simple_head_app, lead_head; [apply tgt_level_TT | exact Hl].
Qed.

Lemma ender_adj x : (x = IClose \/ x = IRBrack \/ x = IQuest \/ x = IColon) -> forall z, ends_operand z = true -> adj z x = true.
Proof. intros Hx z Hz. unfold adj. rewrite Hz. destruct Hx as [E|[E|[E|E]]]; subst x; reflexivity. Qed.

Lemma G_bracket a b op cl :
  Good a -> Good b -> is_post (last a IOpen) = false ->
  (op = ILBrack /\ cl = IRBrack) \/ (op = ICallOpen /\ cl = IClose) ->
  Good (a ++ [op] ++ b ++ [cl]).
Proof.
  intros Ga Gb La Hoc.
  assert (Hcl : cl = IClose \/ cl = IRBrack \/ cl = IQuest \/ cl = IColon) by (destruct Hoc as [[_ ->]|[_ ->]]; auto).
  apply G_infix; [exact Ga | | | |].
  - apply G_snoc; [exact Gb | destruct Hoc as [[_ ->]|[_ ->]]; reflexivity | apply ender_adj; [exact Hcl | apply good_last_ends; exact Gb]].
  - destruct Hoc as [[-> _]|[-> _]]; reflexivity.
  - destruct Hoc as [[-> _]|[-> _]]; reflexivity.
  - unfold adj. rewrite (good_last_ends _ Ga), La. destruct Hoc as [[-> _]|[-> _]]; reflexivity.
Qed.
Lemma G_call a l : Good a -> is_post (last a IOpen) = false -> l = [] \/ Good l -> Good (a ++ [ICallOpen] ++ l ++ [IClose]).
Proof.
  intros Ga La [->|Gl]; [apply G_call0; assumption|].
  apply G_bracket; [exact Ga | exact Gl | exact La | right; split; reflexivity].
Qed.

Lemma paren_ok w l : Forall item_ok l -> Forall item_ok (paren w l).
Proof.
  intro H. unfold paren. destruct w; [|exact H].
  apply Forall_app_intro; [repeat constructor|].
  apply Forall_app_intro; [exact H | repeat constructor].
Qed.

Local Hint Resolve Forall_app_intro Forall_cons Forall_nil paren_ok or_introl or_intror : items.
Local Hint Extern 1 (item_ok _) => exact I : items.

Lemma print_items_ok : forall e, wf e \/ wfa e -> forall fp ss P, Forall item_ok (print_items fp ss P e).
Proof.
  induction e as [s|s|b f|t IHt s|o v IHv|o l IHl r IHr|c IHc y IHy n IHn|t IHt i IHi|f IHf a IHa|f IHf a IHa| |x IHx r IHr];
    intros [Hw|Hw] fp ss P; try (destruct Hw; fail); cbn [Token.print_items]; cbv zeta.
  - constructor; [exact Hw | constructor].
  - constructor; [exact Hw | constructor].
  - constructor; [exact Hw | constructor].
  - destruct Hw as (Ht & Hs). apply Forall_app_intro; [auto with items|]. constructor; [exact Hs | constructor].
  - destruct Hw as (Hv & _). destruct (op_kind o); auto 8 with items.
  - destruct Hw as (Hl & Hr & _). auto 8 with items.
  - destruct Hw as (Hc & Hy & Hn). auto 12 with items.
  - destruct Hw as (Ht & Hi). auto 10 with items.
  - destruct Hw as (Hf & Ha). auto 10 with items.
  - destruct Hw as (Hf & Ha). destruct (negb mw || has_args a || (P >=? LPostfix)); auto 12 with items.
  - constructor.
  - destruct Hw as (Hx & Hr). apply Forall_app_intro; [auto with items|]. destruct r; auto 8 with items.
Qed.

Definition GoodE (e : expr) : Prop := forall fp ss P, Good (print_items fp ss P e).
Definition GoodA (a : expr) : Prop := a = ANil \/ Good (print_items false false LComma a).

Lemma paren_good fp ss P e : (forall fb sb, Good (body fb sb P e)) -> Good (print_items fp ss P e).
Proof.
  intros HB. rewrite print_items_split. destruct (wrapped fp P e); [apply G_paren|]; apply HB.
Qed.

Theorem print_items_good_both : forall e, (wf e -> lexok e -> GoodE e) /\ (wfa e -> lexok e -> GoodA e).
Proof.
  induction e as [s|s|b f|t IHt s|o v IHv|o l IHl r IHr|c IHc y IHy n IHn|t IHt i IHi|f IHf a IHa|f IHf a IHa| |x IHx r IHr];
    (split; [intros Hwf Hlx; try (destruct Hwf; fail) | intros Hwa Hlx; try (destruct Hwa; fail)]).
  - intros fp ss P. apply G_atom; reflexivity.
  - intros fp ss P. apply G_atom; reflexivity.
  - intros fp ss P. apply G_atom; reflexivity.
  - (* member access *)
    intros fp ss P. destruct Hwf as (Hwt & _). simpl in Hlx. pose proof (proj1 IHt Hwt Hlx false ss (tgt_level P)) as Gt.
    cbn [Token.print_items]. apply G_snoc; [exact Gt | reflexivity|]. unfold adj.
    rewrite (good_last_ends _ Gt), (lastT false ss _ t (tgt_level_TT P) Hwt). reflexivity.
  - (* unary *)
    intros fp ss P. apply paren_good. intros fb sb. destruct Hwf as (Hwv & Hku & Hupd). destruct Hlx as (Hlv & Hlead).
    rewrite body_un. destruct (op_kind o) eqn:Ek.
    + apply G_pre; [apply (proj1 IHv Hwv Hlv) | exact Ek|]. intro Hu.
      assert (Ho : o = UPreDec \/ o = UPreInc) by (destruct o; try discriminate; auto).
      assert (Eo : print_items (op_eqb o UYield && fb) false (op_level o - 1) v = print_items false false (LPrefix - 1) v)
        by (destruct Ho; subst o; reflexivity).
      rewrite Eo. apply target_head; [apply Hupd; destruct Ho; subst o; reflexivity | exact (Hlead Hu)].
    + pose proof (proj1 IHv Hwv Hlv false sb (LPostfix - 1)) as Gv.
      apply G_snoc; [exact Gv | simpl; rewrite Ek; reflexivity|]. unfold adj. rewrite (good_last_ends _ Gv), Ek.
      assert (Hio : is_update o = true) by (destruct o; try discriminate; reflexivity).
      specialize (Hupd Hio). destruct v; try discriminate; [reflexivity| |]; cbn [Token.print_items].
      * rewrite last_app_ne by discriminate. reflexivity.
      * rewrite !app_assoc, last_app_ne by discriminate. reflexivity.
    + congruence.
  - (* binary *)
    intros fp ss P. apply paren_good. intros fb sb. destruct Hwf as (Hwl & Hwr & Hk & _). destruct Hlx as (Hll & Hlr).
    rewrite body_bin. apply G_bin; [apply (proj1 IHl Hwl Hll) | apply (proj1 IHr Hwr Hlr) | exact Hk].
  - (* conditional *)
    intros fp ss P. apply paren_good. intros fb sb. destruct Hwf as (Hwc & Hwy & Hwn). destruct Hlx as (Hlc & Hly & Hln).
    rewrite body_cond.
    pose proof (proj1 IHc Hwc Hlc fb sb LConditional) as Gc.
    pose proof (proj1 IHy Hwy Hly false false LYield) as Gy.
    pose proof (proj1 IHn Hwn Hln fb false LYield) as Gn.
    apply G_infix; [exact Gc | | reflexivity | reflexivity | apply ender_adj; [auto | apply good_last_ends; exact Gc]].
    apply G_infix; [exact Gy | exact Gn | reflexivity | reflexivity | apply ender_adj; [auto | apply good_last_ends; exact Gy]].
  - (* index access *)
    intros fp ss P. destruct Hwf as (Hwt & Hwi). destruct Hlx as (Hlt & Hli).
    pose proof (proj1 IHt Hwt Hlt false ss (tgt_level P)) as Gt.
    pose proof (proj1 IHi Hwi Hli false false LLowest) as Gi.
    cbn [Token.print_items].
    assert (GP : Good (paren (ss && is_let t) (print_items false ss (tgt_level P) t))
                 /\ is_post (last (paren (ss && is_let t) (print_items false ss (tgt_level P) t)) IOpen) = false).
    { unfold paren. destruct (ss && is_let t).
      - split; [apply G_paren; exact Gt|]. rewrite app_assoc, last_app_ne by discriminate. reflexivity.
      - split; [exact Gt|]. apply lastT; [apply tgt_level_TT | exact Hwt]. }
    destruct GP as (GP & LP).
    apply G_bracket; [exact GP | exact Gi | exact LP | left; split; reflexivity].
  - (* call *)
    intros fp ss P. apply paren_good. intros fb sb. destruct Hwf as (Hwf' & Hwa). destruct Hlx as (Hlf & Hla).
    rewrite body_call. apply G_call.
    + apply (proj1 IHf Hwf' Hlf).
    + apply lastT; [left; reflexivity | exact Hwf'].
    + destruct (proj2 IHa Hwa Hla) as [->|Ga]; [left; reflexivity | right; exact Ga].
  - (* new *)
    intros fp ss P. apply paren_good. intros fb sb. destruct Hwf as (Hwf' & Hwa). destruct Hlx as (Hlf & Hla).
    unfold PrintParse.body. pose proof (proj1 IHf Hwf' Hlf false false LNew) as Gf.
    assert (GN : Good (INew :: print_items false false LNew f)) by (apply G_new; exact Gf).
    destruct (new_parens mw P a); [|rewrite app_nil_r; exact GN].
    apply (G_call (INew :: print_items false false LNew f)).
    + exact GN.
    + rewrite (last_cons_default INew _ IOpen IOpen) by (apply good_nonempty; exact Gf).
      apply lastT; [right; reflexivity | exact Hwf'].
    + destruct (proj2 IHa Hwa Hla) as [->|Ga]; [left; reflexivity | right; exact Ga].
  - (* no arguments *)
    left. reflexivity.
  - (* argument list *)
    destruct Hwa as (Hwx & Hwr). destruct Hlx as (Hlx1 & Hlr).
    pose proof (proj1 IHx Hwx Hlx1 false false LComma) as Gx. pose proof (proj2 IHr Hwr Hlr) as Gr.
    unfold GoodA in *. right. cbn [Token.print_items].
    destruct r as [| | | | | | | | | | |x2 r2]; try (destruct Hwr; fail).
    + rewrite app_nil_r. exact Gx.
    + destruct Gr as [Er|Gr]; [discriminate|]. apply G_bin; [exact Gx | exact Gr | reflexivity].
Qed.

Theorem print_items_good : forall e, wf e -> lexok e -> forall fp ss P, Good (print_items fp ss P e).
Proof. intros e Hw Hl. apply (proj1 (print_items_good_both e) Hw Hl). Qed.

Lemma good_chain l : Good l -> chain None l = true.
Proof. intros (f & tl & E & Hs & Hc & _). subst. cbn [chain]. rewrite Hs, Hc. reflexivity. Qed.

End WithMode.
