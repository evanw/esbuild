(* Printer side: what each emission appends and the state it leaves; then, for a
   grammatical chain of well-formed items, that the character following an item's
   text is one the specification lexer cannot take as a continuation of it ([need_holds]). *)
From V Require Import Common.Base C13.KwSpec C13.Token C13.LexSpec C13.LexProofs C13.Toks.
From Coq Require Import String.

(* model and specification use the same ASCII character classes *)
Lemma id_part_same c : is_id_part c = id_part c. Proof. reflexivity. Qed.

Definition text (i : item) : list Z :=
  match i with
  | IId s => s | INum s => s
  | IRe b f => [47] ++ b ++ [47] ++ f
  | IOp o => op_text o
  | IDot s => 46 :: s
  | IOpen => [40] | IClose => [41]
  | IQuest => [63] | IColon => [58] | ILBrack => [91] | IRBrack => [93]
  | INew => [110; 101; 119] | ICallOpen => [40]
  end.
Definition sp (b : bool) : list Z := if b then [32] else [].

Definition id_hazard (st : pst) : bool :=
  is_id_part (lastc st) || (match mk st with MRe => true | _ => false end) || esc st.
Definition op_hazard (st : pst) (o : op) : bool :=
  match mk st with MOp prev => space_rule prev o st | _ => false end.

(* the space rule an operator is printed under: a keyword operator is a word *)
Definition glue_hazard (st : pst) (o : op) : bool := if op_is_keyword o then id_hazard st else op_hazard st o.
Definition pre_sp (mw : bool) (st : pst) (i : item) : bool :=
  match i with
  | IId _ | INum _ => id_hazard st
  | IRe b _ => (lastc st =? 47) || ((lastc st =? 60) && starts_script b)
  | IOp o =>
      match op_kind o with
      | KBin => if op_eqb o BComma || mw then glue_hazard st o else true
      | _ => glue_hazard st o
      end
  | IDot _ => match mk st with MNum => true | _ => false end
  | INew => id_hazard st
  | IQuest | IColon => negb mw
  | _ => false
  end.
Definition post_sp (mw : bool) (i : item) : bool :=
  match i with
  | IOp o => match op_kind o with KBin => negb mw | _ => op_is_keyword o && negb mw end
  | IQuest | IColon | INew => negb mw
  | _ => false
  end.
Definition after (mw : bool) (st : pst) (i : item) : pst := fst (emit mw i st).

Lemma seq_snd (a b : act) st : snd ((a ;; b) st) = snd (a st) ++ snd (b (fst (a st))).
Proof. unfold seq. destruct (a st) as [s1 o1]. simpl. destruct (b s1). reflexivity. Qed.
Lemma seq_fst (a b : act) st : fst ((a ;; b) st) = fst (b (fst (a st))).
Proof. unfold seq. destruct (a st) as [s1 o1]. simpl. destruct (b s1). reflexivity. Qed.
Lemma seq_assoc (a b c : act) st : (a ;; b ;; c) st = (a ;; (b ;; c)) st.
Proof.
  unfold seq. destruct (a st) as [s1 o1]. destruct (b s1) as [s2 o2]. destruct (c s2) as [s3 o3].
  rewrite app_assoc. reflexivity.
Qed.
Lemma seq_nop_r (a : act) st : (a ;; nop) st = a st.
Proof. unfold seq, nop. destruct (a st) as [s1 o1]. rewrite app_nil_r. reflexivity. Qed.
Lemma seq_skip (a b : act) st : a st = (st, []) -> (a ;; b) st = b st.
Proof. intro H. unfold seq. rewrite H. destruct (b st). reflexivity. Qed.
Lemma seq_ext (a a' b b' : act) st : a st = a' st -> b (fst (a st)) = b' (fst (a st)) -> (a ;; b) st = (a' ;; b') st.
Proof. unfold seq. intros <- Hb. destruct (a st) as [s1 o1]. simpl in Hb. rewrite Hb. reflexivity. Qed.

Lemma pr_snd t st : snd (pr t st) = t.
Proof. destruct t; reflexivity. Qed.
Lemma pr_fst t st : t <> [] -> fst (pr t st) = mkPst (last t 0) (last (removelast t) (lastc st)) MNone (ends_esc t).
Proof. destruct t; [congruence | reflexivity]. Qed.

Lemma ps_eq mw : printSpace mw = pr (sp (negb mw)).
Proof. destruct mw; reflexivity. Qed.
Lemma psbi_eq st : printSpaceBeforeIdentifier st = pr (sp (id_hazard st)) st.
Proof. unfold printSpaceBeforeIdentifier, id_hazard. destruct (is_id_part (lastc st) || _ || esc st); reflexivity. Qed.
Lemma psbo_eq o st : printSpaceBeforeOperator o st = pr (sp (op_hazard st o)) st.
Proof. unfold printSpaceBeforeOperator, op_hazard. destruct (mk st); try reflexivity. destruct (space_rule _ _ _); reflexivity. Qed.
Lemma psbi_fst st : fst (printSpaceBeforeIdentifier st) = if id_hazard st then mkPst 32 (lastc st) MNone false else st.
Proof. rewrite psbi_eq. destruct (id_hazard st); reflexivity. Qed.

Lemma op_text_nonempty o : op_text o <> [].
Proof. destruct o; discriminate. Qed.

(* normal form of an emission: an optional space, the item's text with its mark, an optional space *)
Definition core (i : item) : act :=
  match i with
  | INum s => pr s ;; (if no_dex s then set_mark MNum else nop)
  | IRe b f => pr (text i) ;; set_mark MRe
  | IOp o => if op_is_keyword o then pr (op_text o) else pr (op_text o) ;; set_mark (MOp o)
  | IDot s => pr [46] ;; pr s
  | _ => pr (text i)
  end.
Definition glue (pre post : bool) (c : act) : act := pr (sp pre) ;; c ;; pr (sp post).

Lemma op_body o st :
  (if op_is_keyword o then printSpaceBeforeIdentifier ;; pr (op_text o)
   else printSpaceBeforeOperator o ;; pr (op_text o) ;; set_mark (MOp o)) st
  = (pr (sp (glue_hazard st o)) ;; core (IOp o)) st.
Proof.
  unfold core, glue_hazard. destruct (op_is_keyword o).
  - apply seq_ext; [apply psbi_eq | reflexivity].
  - rewrite seq_assoc. apply seq_ext; [apply psbo_eq | reflexivity].
Qed.

Lemma op_unary mw o st :
  (if op_is_keyword o then printSpaceBeforeIdentifier ;; pr (op_text o) ;; pr (sp (negb mw))
   else printSpaceBeforeOperator o ;; pr (op_text o) ;; set_mark (MOp o)) st
  = glue (glue_hazard st o) (op_is_keyword o && negb mw) (core (IOp o)) st.
Proof.
  unfold glue, core, glue_hazard. destruct (op_is_keyword o); simpl andb.
  - rewrite !seq_assoc. apply seq_ext; [apply psbi_eq | reflexivity].
  - rewrite seq_nop_r, seq_assoc. apply seq_ext; [apply psbo_eq | reflexivity].
Qed.

Lemma emit_glue mw i st : emit mw i st = glue (pre_sp mw st i) (post_sp mw i) (core i) st.
Proof.
  destruct i as [s|s|b f|o|s| | | | | | | |]; unfold emit, glue, pre_sp, post_sp; try reflexivity.
  - rewrite seq_nop_r. apply seq_ext; [apply psbi_eq | reflexivity].
  - rewrite seq_nop_r. unfold core. rewrite seq_assoc. apply seq_ext; [apply psbi_eq | reflexivity].
  - rewrite seq_nop_r. unfold core. rewrite seq_assoc. apply seq_ext; [|reflexivity].
    destruct ((lastc st =? 47) || _); reflexivity.
  - rewrite !ps_eq. destruct (op_kind o); [apply op_unary | apply op_unary |].
    destruct (op_eqb o BComma || mw) eqn:E.
    + (* no space of its own in front: the operator's rule decides *)
      replace (if op_eqb o BComma then nop else pr (sp (negb mw))) with nop
        by (destruct (op_eqb o BComma), mw; try reflexivity; discriminate E).
      rewrite seq_assoc, seq_skip by reflexivity. apply seq_ext; [apply op_body | reflexivity].
    + (* a space in front: after it neither rule asks for a second one *)
      apply orb_false_iff in E as [-> ->]. unfold core.
      apply seq_ext; [|reflexivity]. apply seq_ext; [reflexivity|].
      destruct (op_is_keyword o).
      * apply seq_skip. reflexivity.
      * apply seq_ext; [|reflexivity]. apply seq_skip. reflexivity.
  - rewrite seq_nop_r. unfold core. rewrite seq_assoc. apply seq_ext; [|reflexivity]. destruct (mk st); reflexivity.
  - rewrite ps_eq. reflexivity.
  - rewrite ps_eq. reflexivity.
  - rewrite ps_eq, !seq_assoc. apply seq_ext; [apply psbi_eq | reflexivity].
Qed.

Lemma core_snd i st : snd (core i st) = text i.
Proof.
  destruct i as [s|s|b f|o|s| | | | | | | |]; unfold core; try apply pr_snd.
  - rewrite seq_snd, pr_snd. destruct (no_dex s); apply app_nil_r.
  - rewrite seq_snd, pr_snd. apply app_nil_r.
  - destruct (op_is_keyword o); [apply pr_snd|]. rewrite seq_snd, pr_snd. apply app_nil_r.
  - rewrite seq_snd, !pr_snd. reflexivity.
Qed.

Definition natural_mark (i : item) : mark :=
  match i with
  | INum s => if no_dex s then MNum else MNone
  | IRe _ _ => MRe
  | IOp o => if op_is_keyword o then MNone else MOp o
  | _ => MNone
  end.

Lemma core_lastc_mk i st : text i <> [] ->
  lastc (fst (core i st)) = last (text i) 0 /\ mk (fst (core i st)) = natural_mark i.
Proof.
  destruct i as [s|s|b f|o|s| | | | | | | |]; unfold core, natural_mark; intro Hne; try (split; reflexivity).
  - rewrite pr_fst by exact Hne. split; reflexivity.
  - rewrite seq_fst, pr_fst by exact Hne. destruct (no_dex s); split; reflexivity.
  - destruct (op_is_keyword o); rewrite ?seq_fst, pr_fst by apply op_text_nonempty; split; reflexivity.
  - rewrite seq_fst. destruct s as [|c s']; [split; reflexivity|].
    rewrite (pr_fst (c :: s')) by discriminate. split; [|reflexivity]. destruct s'; reflexivity.
Qed.

Lemma emit_out mw i st : snd (emit mw i st) = sp (pre_sp mw st i) ++ text i ++ sp (post_sp mw i).
Proof. rewrite emit_glue. unfold glue. rewrite !seq_snd, !pr_snd, core_snd. symmetry. apply app_assoc. Qed.

Lemma after_glue mw st i :
  after mw st i = fst (pr (sp (post_sp mw i)) (fst (core i (fst (pr (sp (pre_sp mw st i)) st))))).
Proof. unfold after. rewrite emit_glue. unfold glue. rewrite !seq_fst. reflexivity. Qed.

Lemma after_lastc_mk mw st i :
  text i <> [] ->
  lastc (after mw st i) = (if post_sp mw i then 32 else last (text i) 0) /\
  mk (after mw st i) = (if post_sp mw i then MNone else natural_mark i).
Proof.
  intro Hne. rewrite after_glue. destruct (post_sp mw i); [split; reflexivity|]. apply core_lastc_mk. exact Hne.
Qed.

Lemma after_last2_not mw st :
  pre_sp mw st (IOp UNot) = false -> last2 (after mw st (IOp UNot)) = lastc st.
Proof. intro H. rewrite after_glue, H. reflexivity. Qed.

Lemma after_esc_id mw st s : s <> [] -> esc (after mw st (IId s)) = ends_esc s.
Proof. intro Hne. rewrite after_glue. simpl. rewrite pr_fst by exact Hne. reflexivity. Qed.

Lemma render_cons mw st i r :
  render mw st (i :: r) = sp (pre_sp mw st i) ++ text i ++ sp (post_sp mw i) ++ render mw (after mw st i) r.
Proof.
  simpl. unfold after. pose proof (emit_out mw i st) as H.
  destruct (emit mw i st) as [st' o]. simpl in *. rewrite H. rewrite <- !app_assoc. reflexivity.
Qed.

(* identifiers: ASCII, or ASCII followed by one "\u{HEX}" escape (an astral character under the
   ASCII-only charset); never a word after which a regular expression could start *)
Definition word_ok (s : list Z) : Prop := word_shape s /\ regex_after_word s = false.
Definition item_ok (i : item) : Prop :=
  match i with
  | IId s => word_ok s
  | IDot s => id_shape s /\ regex_after_word s = false
  | INum s => num_shape s
  | IRe b f => re_shape b f
  | _ => True
  end.

Definition is_post (i : item) : bool :=
  match i with IOp o => match op_kind o with KPost => true | _ => false end | _ => false end.
Definition ends_operand (i : item) : bool :=
  match i with IId _ | INum _ | IRe _ _ | IDot _ | IClose | IRBrack => true | IOp _ => is_post i | _ => false end.
Definition starts_operand (i : item) : bool :=
  match i with
  | IId _ | INum _ | IRe _ _ | IOpen | INew => true
  | IOp o => match op_kind o with KPre => true | _ => false end
  | _ => false
  end.
Definition is_update_pre (i : item) : bool :=
  match i with IOp UPreDec | IOp UPreInc => true | _ => false end.
(* which item may follow which in an expression of the fragment *)
Definition adj (a b : item) : bool :=
  if ends_operand a then
    match b with
    | IOp o => match op_kind o with
               | KBin => true
               | KPost => match a with IId _ | IDot _ | IClose | IRBrack => true | _ => false end
               | KPre => false
               end
    | IDot _ | ILBrack | ICallOpen => negb (is_post a)
    | IClose | IRBrack | IQuest | IColon => true
    | _ => false
    end
  else (starts_operand b || (match a, b with ICallOpen, IClose => true | _, _ => false end))
       && (if is_update_pre a then match b with IId _ | IOpen | INum _ | INew => true | _ => false end else true).

Fixpoint chain (prev : option item) (l : list item) : bool :=
  match l with
  | [] => true
  | i :: r => (match prev with None => starts_operand i | Some p => adj p i end) && chain (Some i) r
  end.

Definition last_tok (i : item) : tok := last (toks_of i) (TP []).
Definition ctx_of (prev : option item) : ctx :=
  match prev with None => ctx0 | Some i => ctx_after (last_tok i) end.
Definition prev_ok (prev : option item) : Prop :=
  match prev with None => True | Some i => item_ok i end.

Lemma op_eqb_eq a b : op_eqb a b = true -> a = b.
Proof. destruct a; destruct b; intro H; try discriminate H; reflexivity. Qed.

Lemma all_ops_complete o : In o all_ops.
Proof. apply (nth_error_In all_ops (Z.to_nat (op_code o))). destruct o; reflexivity. Qed.

Lemma bool_in (b : bool) : In b [true; false].
Proof. destruct b; simpl; auto. Qed.

Definition forall_ops (f : op -> bool) : bool := forallb f all_ops.
Lemma forall_ops_sound f : forall_ops f = true -> forall o, f o = true.
Proof. intros H o. unfold forall_ops in H. rewrite forallb_forall in H. apply H. apply all_ops_complete. Qed.

Lemma kw_op_facts o : op_is_keyword o = true ->
  id_part (last (op_text o) 0) = true /\ id_shape (op_text o) /\ regex_after_word (op_text o) = true.
Proof. destruct o; intro H; try discriminate H; vm_compute; repeat split; discriminate. Qed.

Lemma punct_op_facts o : op_is_keyword o = false ->
  is_punct (op_text o) = true /\ zlist_eqb (op_text o) (zs "?.") = false /\ id_part (hdz (op_text o)) = false
  /\ hdz (op_text o) <> 46 /\ hdz (op_text o) <> 32 /\ hdz (op_text o) <> 92.
Proof. destruct o; intro H; try discriminate H; vm_compute; repeat split; discriminate. Qed.

Lemma prefix_punct_ops o : op_kind o = KPre -> op_is_keyword o = false -> In o [UPos; UNeg; UCpl; UNot; UPreDec; UPreInc].
Proof. destruct o; intros Hk Hw; try discriminate Hk; try discriminate Hw; simpl; tauto. Qed.

(* "." continues no operator of the table (only "?", which is not one of them, and "." itself);
   "/" continues only "/" itself, and there the printer separates a regular expression *)
Definition chk_hazards (o : op) : bool :=
  forallb (fun ls => let H := hazard_chars ls (op_text o) in
                     negb (memz 46 H) && ((last (op_text o) 0 =? 47) || negb (memz 47 H))) [true; false].
Lemma chk_hazards_all : forall_ops chk_hazards = true.
Proof. vm_compute. reflexivity. Qed.
Lemma op_hazards ls o :
  memz 46 (hazard_chars ls (op_text o)) = false /\
  (memz 47 (hazard_chars ls (op_text o)) = true -> last (op_text o) 0 = 47).
Proof.
  pose proof (forall_ops_sound _ chk_hazards_all o) as C. unfold chk_hazards in C.
  rewrite forallb_forall in C. specialize (C ls (bool_in ls)). cbv zeta in C.
  apply andb_true_iff in C as [C1 C2]. apply negb_true_iff in C1. split; [exact C1|].
  intro H. rewrite H, orb_false_r in C2. apply Z.eqb_eq. exact C2.
Qed.

(* postfix operators have no hazards when they are not the first token *)
Lemma post_hazards o : op_kind o = KPost -> hazard_chars false (op_text o) = [].
Proof. destruct o; try discriminate; intros _; vm_compute; reflexivity. Qed.

(* the punctuators that nothing continues *)
Definition closed (i : item) : Prop :=
  match i with IOpen | IClose | IColon | ILBrack | IRBrack | ICallOpen => True | _ => False end.
Lemma closed_hazards ls i : closed i -> hazard_chars ls (text i) = [].
Proof. destruct ls; destruct i; intros []; vm_compute; reflexivity. Qed.
Lemma quest_hazards ls : hazard_chars ls [63] = [63; 46; 63].
Proof. destruct ls; vm_compute; reflexivity. Qed.

(* Operator followed by a prefix operator: when the printer's rule asks for no space,
   the first character of the second is no hazard for the first, with the one
   exception "<" "!" (the HTML comment opener "<!--" needs two more characters).
   Of the state the rule reads only "last2 = 60", in a clause that asks for a space:
   the check is made on st0, where that clause is off.  (In [chk_opop] the two hazard
   lists of an operator are bound once, not computed for every pair.) *)
Lemma space_rule_st0 p n st : space_rule p n st = false -> space_rule p n st0 = false.
Proof.
  unfold space_rule. simpl last2. change (-1 =? 60) with false. rewrite andb_false_r, orb_false_r.
  intro H. apply orb_false_iff in H as [H _]. exact H.
Qed.

Definition chk_opop (o : op) : bool :=
  if negb (op_is_keyword o) && negb (is_post (IOp o)) && negb (is_update_pre (IOp o))
  then let Ht := hazard_chars true (op_text o) in let Hf := hazard_chars false (op_text o) in
       forallb (fun o' => space_rule o o' st0 || (op_eqb o BLt && op_eqb o' UNot)
                          || (negb (memz (hdz (op_text o')) Ht) && negb (memz (hdz (op_text o')) Hf)))
               [UPos; UNeg; UCpl; UNot; UPreDec; UPreInc]
  else true.
Lemma chk_opop_all : forall_ops chk_opop = true.
Proof. vm_compute. reflexivity. Qed.

Lemma opop_use ls st o o' :
  op_is_keyword o = false -> is_post (IOp o) = false -> is_update_pre (IOp o) = false ->
  op_is_keyword o' = false -> op_kind o' = KPre -> space_rule o o' st = false ->
  (o = BLt /\ o' = UNot) \/ memz (hdz (op_text o')) (hazard_chars ls (op_text o)) = false.
Proof.
  intros Hw Hp Hu Hw' Hk' Hs. pose proof (forall_ops_sound _ chk_opop_all o) as C.
  unfold chk_opop in C. rewrite Hw, Hp, Hu in C. simpl negb in C. simpl andb in C. cbv iota zeta in C.
  rewrite forallb_forall in C. specialize (C o' (prefix_punct_ops o' Hk' Hw')).
  rewrite (space_rule_st0 _ _ _ Hs) in C. apply orb_true_iff in C as [C|C].
  - left. apply andb_true_iff in C as [C1 C2]. split; [destruct o | destruct o']; try discriminate; reflexivity.
  - right. apply andb_true_iff in C as [C1 C2]. destruct ls; apply negb_true_iff; assumption.
Qed.

Lemma ctx_after_ls t : line_start (ctx_after t) = false.
Proof. destruct t; reflexivity. Qed.

Lemma take_while_span f s : take_while f s = span f s.
Proof. induction s as [|c r IH]; [reflexivity|]. simpl. rewrite IH. reflexivity. Qed.

Lemma ends_esc_seq pre hex : hex <> [] -> forallb hexd hex = true -> ends_esc (pre ++ esc_seq hex) = true.
Proof.
  intros Hne Hh. unfold ends_esc, esc_seq.
  rewrite !rev_app_distr. simpl rev. rewrite <- !app_assoc. simpl app.
  change (125 =? 125) with true. cbv iota.
  rewrite take_while_span, (span_app' is_hex (rev hex) (123 :: 117 :: 92 :: rev pre)).
  - destruct (rev hex) eqn:Er; [|reflexivity].
    apply (f_equal (@List.length Z)) in Er. rewrite rev_length in Er. destruct hex; [congruence | discriminate].
  - rewrite forallb_forall in *. intros c Hin. apply in_rev in Hin. apply (Hh c Hin).
  - apply nohead_of_hdz. reflexivity.
Qed.

Lemma word_last s : id_shape s -> is_id_part (last s 0) = true /\ id_part (hdz s) = true.
Proof.
  intros [Hne [Hs Hall]]. split; [rewrite id_part_same; apply forallb_last; assumption|].
  unfold id_part. rewrite Hs. reflexivity.
Qed.
Lemma word_last_gen s : word_shape s -> (is_id_part (last s 0) = true \/ ends_esc s = true) /\ id_part (hdz s) = true.
Proof.
  intros [H | (pre & hex & E & Hp & Hhne & Hh)].
  - destruct (word_last s H) as [Hl Hd]. split; [left; exact Hl | exact Hd].
  - subst s. split; [right; apply ends_esc_seq; assumption|].
    destruct Hp as [Hne Hp]. rewrite hdz_app by exact Hne. apply (word_last pre). split; assumption.
Qed.
Lemma num_last s : num_shape s -> is_id_part (last s 0) = true /\ (id_part (hdz s) = true \/ hdz s = 46).
Proof.
  intro H. split; [rewrite id_part_same; apply num_last_idpart; exact H|].
  destruct (num_hd s H) as (c & s' & E & [Hc|Hc]); subst s; simpl; [left; apply digit_id_part; exact Hc | right; exact Hc].
Qed.

Lemma text_ok i : item_ok i -> text i <> [] /\ hdz (text i) <> 32.
Proof.
  destruct i as [s|s|b f|o|s| | | | | | | |]; simpl; intro H; try (split; [discriminate | simpl; lia]).
  - destruct H as [Hw _]. destruct (word_shape_hd s Hw) as [Hne Hs]. split; [exact Hne|]. apply id_start_facts in Hs. tauto.
  - destruct (num_hd s H) as (c & s' & E & Hc). subst s. split; [discriminate|]. simpl. unfold digit in Hc. lia.
  - split; [apply op_text_nonempty|]. destruct (op_is_keyword o) eqn:Ew.
    + destruct (kw_op_facts o Ew) as (_ & (_ & Hs & _) & _). apply id_start_facts in Hs. tauto.
    + apply (punct_op_facts o Ew).
Qed.

(* the character that follows an item's text in the rendering *)
Definition next_hd (mw : bool) (st' : pst) (post : bool) (r : list item) : Z :=
  if post then 32 else
  match r with [] => -1 | j :: _ => if pre_sp mw st' j then 32 else hdz (text j) end.

Lemma hdz_rest mw st' post r :
  Forall item_ok r -> hdz (sp post ++ render mw st' r) = next_hd mw st' post r.
Proof.
  intro Hr. unfold next_hd. destruct post; [reflexivity|]. simpl.
  destruct r as [|j r']; [reflexivity|].
  rewrite render_cons. destruct (pre_sp mw st' j); [reflexivity|]. simpl.
  inversion Hr; subst. destruct (text_ok j H1) as [Hne _]. apply hdz_app. exact Hne.
Qed.

(* items that the printer's space rules treat like an identifier at their end; the others are punctuators *)
Definition wordlike (i : item) : bool :=
  match i with IId _ | INum _ | IRe _ _ | IDot _ | INew => true | IOp o => op_is_keyword o | _ => false end.

Lemma punct_item i : wordlike i = false ->
  is_punct (text i) = true /\ zlist_eqb (text i) (zs "?.") = false /\ hdz (text i) <> 46.
Proof.
  destruct i as [s|s|b f|o|s| | | | | | | |]; intro Ew; try discriminate Ew;
    [destruct (punct_op_facts o Ew) as (A & B & _ & C & _); auto | ..].
  all: vm_compute; repeat split; discriminate.
Qed.

(* what the character after an item must not be: after a word, an identifier character or the start
   of an escape (after a plain integer, also a "."); after a punctuator, a character that continues it *)
Definition need (ls : bool) (i : item) (c : Z) : bool :=
  if wordlike i
  then negb (id_part c) && negb (c =? 92) && negb (match natural_mark i with MNum => c =? 46 | _ => false end)
  else negb (memz c (hazard_chars ls (text i))).

Lemma need_trivial ls i c : c = 32 \/ c = -1 -> need ls i c = true.
Proof.
  intro Hc. unfold need. destruct (wordlike i) eqn:Ew.
  - destruct (natural_mark i); destruct Hc; subst c; reflexivity.
  - rewrite punct_hazard; [reflexivity | apply punct_item; exact Ew | destruct Hc; subst c; reflexivity].
Qed.

Lemma after_word mw st i : item_ok i -> wordlike i = true -> post_sp mw i = false -> id_hazard (after mw st i) = true.
Proof.
  intros Hi Hw Ep. destruct (text_ok i Hi) as [Hne _].
  destruct (after_lastc_mk mw st i Hne) as [Hlc Hmk]. rewrite Ep in Hlc, Hmk.
  unfold id_hazard. rewrite Hlc, Hmk.
  destruct i as [s|s|b f|o|s| | | | | | | |]; try discriminate Hw; simpl text; simpl natural_mark.
  - destruct Hi as [Hs _]. destruct (word_last_gen s Hs) as [[Hl|Hl] _]; [rewrite Hl; reflexivity|].
    rewrite after_esc_id, Hl by exact Hne. apply orb_true_r.
  - destruct (num_last s Hi) as [Hl _]. rewrite Hl. reflexivity.
  - rewrite orb_true_r. reflexivity.
  - destruct (kw_op_facts o Hw) as [Hl _]. rewrite id_part_same, Hl. reflexivity.
  - destruct Hi as [Hs _]. destruct (word_last s Hs) as [Hl _]. destruct Hs as [Hne' _].
    rewrite (last_app_ne [46] s), Hl by exact Hne'. reflexivity.
  - reflexivity.
Qed.

Lemma no_space_no_word mw st j : item_ok j -> id_hazard st = true -> pre_sp mw st j = false ->
  id_part (hdz (text j)) = false /\ hdz (text j) <> 92 /\ (mk st = MNum -> hdz (text j) <> 46).
Proof.
  intros Hj Hh Hp. destruct j as [s|s|b f|o|s| | | | | | | |]; unfold pre_sp in Hp; rewrite ?Hh in Hp; try discriminate Hp;
    try (repeat split; [discriminate | intros _; discriminate]).
  - destruct (op_is_keyword o) eqn:Ew.
    + (* a keyword operator is a word: a space is printed *)
      assert (Hg : glue_hazard st o = true) by (unfold glue_hazard; rewrite Ew; exact Hh).
      rewrite Hg in Hp. destruct (op_kind o); try discriminate Hp.
      destruct (op_eqb o BComma || mw); discriminate Hp.
    + destruct (punct_op_facts o Ew) as (_ & _ & A & B & _ & C). auto.
  - repeat split; [discriminate|]. intro Hm. rewrite Hm in Hp. discriminate Hp.
Qed.

Lemma operand_head j : item_ok j -> starts_operand j = true ->
  id_part (hdz (text j)) = true \/ (exists s, j = INum (46 :: s)) \/ (exists b f, j = IRe b f) \/ j = IOpen
  \/ (exists o, j = IOp o /\ op_kind o = KPre /\ op_is_keyword o = false).
Proof.
  intros Hj Hs. destruct j as [s|s|b f|o|s| | | | | | | |]; try discriminate Hs.
  - left. destruct Hj as [Hw _]. apply (word_last_gen s Hw).
  - destruct (num_hd s Hj) as (c & s' & E & [Hc|Hc]); subst s; [left; apply digit_id_part; exact Hc|].
    subst c. right. left. exists s'. reflexivity.
  - right. right. left. exists b, f. reflexivity.
  - simpl in Hs. destruct (op_kind o) eqn:Ek; try discriminate Hs. destruct (op_is_keyword o) eqn:Ew.
    + left. destruct (kw_op_facts o Ew) as (_ & (_ & H & _) & _). unfold id_part. simpl text. rewrite H. reflexivity.
    + do 4 right. exists o. auto.
  - do 3 right. left. reflexivity.
  - left. reflexivity.
Qed.

(* the two places where one character of look-ahead is not enough: "<" "!" (the comment opener "<!--" needs two
   more characters) and "?" followed by a number that starts with "." ("?." followed by a digit is "?") *)
Definition special (mw : bool) (st : pst) (i : item) (r : list item) : Prop :=
  (i = IOp BLt /\ post_sp mw i = false /\ exists r', r = IOp UNot :: r' /\ pre_sp mw (after mw st i) (IOp UNot) = false)
  \/ (i = IQuest /\ post_sp mw i = false /\ exists s' r', r = INum (46 :: s') :: r' /\ pre_sp mw (after mw st i) (INum (46 :: s')) = false).

Lemma need_holds mw prev st i r :
  item_ok i -> Forall item_ok r -> chain prev (i :: r) = true ->
  need (line_start (ctx_of prev)) i (next_hd mw (after mw st i) (post_sp mw i) r) = true \/ special mw st i r.
Proof.
  intros Hi Hr Hc. set (ls := line_start (ctx_of prev)).
  unfold next_hd. destruct (post_sp mw i) eqn:Ep; [left; apply need_trivial; tauto|].
  destruct r as [|j r']; [left; apply need_trivial; tauto|].
  destruct (pre_sp mw (after mw st i) j) eqn:Epre; [left; apply need_trivial; tauto|].
  cbn [chain] in Hc. apply andb_true_iff in Hc as [Hprev Hc]. apply andb_true_iff in Hc as [Hadj _].
  assert (Hj : item_ok j) by (inversion Hr; assumption).
  destruct (text_ok i Hi) as [Hne _].
  destruct (after_lastc_mk mw st i Hne) as [Hlc Hmk]. rewrite Ep in Hlc, Hmk.
  unfold need. destruct (wordlike i) eqn:Ew.
  - (* a word: the printer's identifier rule (and number rule) has looked at j *)
    left. destruct (no_space_no_word mw _ j Hj (after_word mw st i Hi Ew Ep) Epre) as (A & B & C).
    apply Z.eqb_neq in B. rewrite A, B, Hmk in *. destruct (natural_mark i); try reflexivity.
    specialize (C eq_refl). apply Z.eqb_neq in C. rewrite C. reflexivity.
  - destruct i as [s|s|b f|o|s| | | | | | | |]; try discriminate Ew;
      try (left; rewrite closed_hazards by exact I; reflexivity).
    + (* a punctuator operator *)
      simpl in Ew. simpl text. destruct (punct_op_facts o Ew) as (Hpu & _).
      destruct (is_post (IOp o)) eqn:Epost.
      * (* postfix: never the first token *)
        left. assert (Hls : ls = false).
        { unfold ls. destruct prev as [a|]; [apply ctx_after_ls|]. simpl in Hprev, Epost. destruct (op_kind o); discriminate. }
        rewrite Hls, post_hazards; [reflexivity|]. simpl in Epost. destruct (op_kind o); try discriminate Epost. reflexivity.
      * unfold adj in Hadj. change (ends_operand (IOp o)) with (is_post (IOp o)) in Hadj. rewrite Epost, orb_false_r in Hadj.
        apply andb_true_iff in Hadj as [Hso Hupd].
        destruct (operand_head j Hj Hso) as [H|[(s' & E)|[(b' & f' & E)|[E|(o' & E & Hk' & Hw')]]]]; try subst j.
        -- left. rewrite punct_hazard; [reflexivity | exact Hpu | unfold inert; rewrite H; reflexivity].
        -- left. simpl text. simpl hdz. rewrite (proj1 (op_hazards ls o)). reflexivity.
        -- (* a regular expression: the printer has looked at the last character *)
           left. simpl text. simpl hdz. unfold pre_sp in Epre. apply orb_false_iff in Epre as [E47 _]. rewrite Hlc in E47.
           destruct (memz 47 (hazard_chars ls (op_text o))) eqn:M; [|reflexivity].
           apply (op_hazards ls o) in M. simpl text in E47. rewrite M in E47. discriminate E47.
        -- left. rewrite punct_hazard; [reflexivity | exact Hpu | reflexivity].
        -- (* a prefix punctuator: the printer's operator rule has looked at it *)
           destruct (is_update_pre (IOp o)) eqn:Eu; [discriminate Hupd|].
           pose proof Epre as Hsr. unfold pre_sp, glue_hazard, op_hazard in Hsr. rewrite Hk', Hw', Hmk in Hsr. simpl natural_mark in Hsr. rewrite Ew in Hsr.
           destruct (opop_use ls _ o o' Ew Epost Eu Hw' Hk' Hsr) as [[E1 E2]|E].
           ++ right. left. subst o o'. split; [reflexivity|]. split; [exact Ep|]. exists r'. split; [reflexivity | exact Epre].
           ++ left. simpl text. rewrite E. reflexivity.
    + (* "?" is continued by "?" and "."; of the operand starts only a number has one of them *)
      unfold adj in Hadj. simpl in Hadj. rewrite orb_false_r, andb_true_r in Hadj.
      simpl text. rewrite quest_hazards.
      destruct (operand_head j Hj Hadj) as [H|[(s' & E)|[(b' & f' & E)|[E|(o' & E & Hk' & Hw')]]]]; try subst j.
      * left. apply negb_true_iff. destruct (memz (hdz (text j)) [63; 46; 63]) eqn:M; [|reflexivity].
        apply memz_In in M. simpl in M. unfold id_part, id_start, digit in H. lia.
      * right. right. split; [reflexivity|]. split; [exact Ep|]. exists s', r'. split; [reflexivity | exact Epre].
      * left. reflexivity.
      * left. reflexivity.
      * left. destruct (prefix_punct_ops o' Hk' Hw') as [E|[E|[E|[E|[E|[E|[]]]]]]]; rewrite <- E; reflexivity.
Qed.
