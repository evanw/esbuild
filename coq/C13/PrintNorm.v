(* norm (comma re-association) does not change what is printed; hence the round trip
   holds for every well-formed tree, with norm on the right-hand side. *)
From V Require Import Common.Base C13.KwSpec C13.Token C13.LexSpec C13.LexProofs C13.Toks C13.TokenProofs
  C13.ParseSpec C13.ParseMono C13.PrintParse C13.PrintParse2.
From Coq Require Import String.

Section WithMode.
Variable mw : bool.
Local Notation print_items := (Token.print_items mw).

Lemma print_comma_unfold fi ss P l r :
  print_items fi ss P (EBin BComma l r) =
  paren (P >=? LComma) (print_items (fi && negb (P >=? LComma)) (ss && negb (P >=? LComma)) 0 l ++ [IOp BComma] ++ print_items (fi && negb (P >=? LComma)) false 0 r).
Proof. cbn [Token.print_items]. cbv zeta. change (op_eqb BComma BIn && fi) with false. rewrite orb_false_r. reflexivity. Qed.

Lemma print0_comma fi ss a b :
  print_items fi ss 0 (EBin BComma a b) = print_items fi ss 0 a ++ [IOp BComma] ++ print_items fi false 0 b.
Proof. rewrite print_comma_unfold. change (0 >=? LComma) with false. simpl negb. rewrite !andb_true_r. reflexivity. Qed.

Lemma print0_comma_app fi ss a : forall b,
  print_items fi ss 0 (comma_app a b) = print_items fi ss 0 a ++ [IOp BComma] ++ print_items fi false 0 b.
Proof.
  apply (comma_app_ind (fun b c => print_items fi ss 0 c = print_items fi ss 0 a ++ [IOp BComma] ++ print_items fi false 0 b)).
  - intros b _. apply print0_comma.
  - intros b1 b2 IH. rewrite !print0_comma, IH, <- !app_assoc. reflexivity.
Qed.

Lemma shape_norm_or_and e : is_or_and (norm e) = is_or_and e.
Proof.
  destruct e as [s|s|b f|t s|u v|o l r|c0 y0 n0|t0 i0|f0 a0|f0 a0| |x0 r0]; try reflexivity.
  destruct (norm_bin_shape o l r) as (a & b & ->). reflexivity.
Qed.
Lemma is_let_norm e : is_let (norm e) = is_let e.
Proof.
  destruct e as [s|s|b f|t s|u v|o l r|c0 y0 n0|t0 i0|f0 a0|f0 a0| |x0 r0]; try reflexivity.
  destruct (norm_bin_shape o l r) as (a & b & ->). reflexivity.
Qed.
Lemma has_args_norm e : has_args (norm e) = has_args e.
Proof.
  destruct e as [s|s|b f|t s|u v|o l r|c0 y0 n0|t0 i0|f0 a0|f0 a0| |x0 r0]; try reflexivity.
  destruct (norm_bin_shape o l r) as (a & b & ->). reflexivity.
Qed.

Lemma print_norm : forall e fi ss P, print_items fi ss P (norm e) = print_items fi ss P e.
Proof.
  induction e as [s|s|b f|t IHt s|u v IHv|o l IHl r IHr|c0 IHc0 y0 IHy0 n0 IHn0|t0 IHt0 i0 IHi0|f0 IHf0 a0 IHa0|f0 IHf0 a0 IHa0| |x0 IHx0 r0 IHr0]; intros fi ss P; try reflexivity.
  - simpl. rewrite IHt. reflexivity.
  - simpl. rewrite !IHv. reflexivity.
  - simpl norm. destruct (op_eqb o BComma) eqn:E.
    + apply op_eqb_eq in E. subst o.
      (* the wrapping decision only looks at the operator, which is a comma on both sides *)
      destruct (norm_bin_shape BComma l r) as (x & y & Hxy).
      change (norm (EBin BComma l r)) with (comma_app (norm l) (norm r)) in Hxy.
      rewrite Hxy, !print_comma_unfold, <- !print0_comma.
      rewrite <- Hxy, print0_comma_app, IHl, IHr, print0_comma. reflexivity.
    + cbn [print_items]. cbv zeta. rewrite !IHl, !IHr, !shape_norm_or_and.
      assert (Hs : match norm l with EUn u _ => negb (op_eqb u UPreDec || op_eqb u UPreInc || op_eqb u UPostDec || op_eqb u UPostInc) | ENum _ => true | _ => false end
                 = match l with EUn u _ => negb (op_eqb u UPreDec || op_eqb u UPreInc || op_eqb u UPostDec || op_eqb u UPostInc) | ENum _ => true | _ => false end).
      { destruct l as [| | | | |o2 a b2| | | | | |]; try reflexivity.
        destruct (norm_bin_shape o2 a b2) as (a' & b' & ->). reflexivity. }
      rewrite Hs. reflexivity.
  - cbn [norm Token.print_items]. rewrite !IHc0, !IHy0, !IHn0. reflexivity.
  - cbn [norm Token.print_items]. rewrite !IHt0, !IHi0, is_let_norm. reflexivity.
  - cbn [norm Token.print_items]. rewrite !IHf0, !IHa0. reflexivity.
  - cbn [norm Token.print_items]. rewrite !IHf0, !IHa0, has_args_norm. reflexivity.
  - cbn [norm Token.print_items]. rewrite !IHx0.
    destruct r0 as [| | | | |o9 l9 r9| | | | | |x9 r9]; try reflexivity.
    + destruct (norm_bin_shape o9 l9 r9) as (a & b & ->). reflexivity.
    + change (norm (ACons x9 r9)) with (ACons (norm x9) (norm r9)). cbv iota. rewrite <- IHr0. reflexivity.
Qed.

Lemma wf_comma_plain a b : wf a -> wf b -> wf (EBin BComma a b).
Proof. intros Ha Hb. simpl. repeat split; auto. discriminate. Qed.
Lemma wf_comma_app a : wf a -> forall b, wf b -> wf (comma_app a b).
Proof.
  intro Ha. apply (comma_app_ind (fun b c => wf b -> wf c)).
  - intros b _ Hb. apply wf_comma_plain; assumption.
  - intros b1 b2 IH (H1 & H2 & _). apply wf_comma_plain; auto.
Qed.
Lemma wf_norm_both : forall e, (wf e -> wf (norm e)) /\ (wfa e -> wfa (norm e)).
Proof.
  induction e as [s|s|b f|t IHt s|u v IHv|o l IHl r IHr|c0 IHc0 y0 IHy0 n0 IHn0|t0 IHt0 i0 IHi0|f0 IHf0 a0 IHa0|f0 IHf0 a0 IHa0| |x0 IHx0 r0 IHr0];
    (split; intro H; try exact H; try (destruct H; fail)).
  - destruct H as (H1 & H2 & H3). simpl. split; [apply IHt; exact H1 | auto].
  - destruct H as (H1 & H2 & H3). simpl. repeat split; [apply IHv; exact H1 | exact H2 |]. rewrite is_target_norm. exact H3.
  - destruct H as (H1 & H2 & H3 & H4). simpl. destruct (op_eqb o BComma) eqn:E.
    + apply wf_comma_app; [apply IHl; exact H1 | apply IHr; exact H2].
    + simpl. repeat split; [apply IHl; exact H1 | apply IHr; exact H2 | exact H3 |]. rewrite is_target_norm. exact H4.
  - destruct H as (H1 & H2 & H3). simpl. repeat split; [apply IHc0 | apply IHy0 | apply IHn0]; assumption.
  - destruct H as (H1 & H2). simpl. split; [apply IHt0 | apply IHi0]; assumption.
  - destruct H as (H1 & H2). simpl. split; [apply IHf0 | apply IHa0]; assumption.
  - destruct H as (H1 & H2). simpl. split; [apply IHf0 | apply IHa0]; assumption.
  - destruct H as (H1 & H2). simpl. split; [apply IHx0 | apply IHr0]; assumption.
Qed.
Lemma wf_norm e : wf e -> wf (norm e).
Proof. apply (proj1 (wf_norm_both e)). Qed.

Lemma cnf_comma_plain a b : cnf a -> cnf b -> not_comma b -> cnf (EBin BComma a b).
Proof. intros Ha Hb Hn. simpl. auto. Qed.
Lemma cnf_comma_app a : cnf a -> forall b, cnf b -> cnf (comma_app a b).
Proof.
  intro Ha. apply (comma_app_ind (fun b c => cnf b -> cnf c)).
  - intros b Hn Hb. apply cnf_comma_plain; assumption.
  - intros b1 b2 IH (H1 & H2 & H3). apply cnf_comma_plain; auto.
Qed.
Lemma cnf_norm : forall e, cnf (norm e).
Proof.
  induction e as [s|s|b f|t IHt s|u v IHv|o l IHl r IHr|c0 IHc0 y0 IHy0 n0 IHn0|t0 IHt0 i0 IHi0|f0 IHf0 a0 IHa0|f0 IHf0 a0 IHa0| |x0 IHx0 r0 IHr0]; simpl; auto.
  destruct (op_eqb o BComma) eqn:E.
  - apply cnf_comma_app; auto.
  - simpl. repeat split; auto. intro H. subst o. discriminate.
Qed.
Lemma norm_cnf_id : forall e, cnf e -> norm e = e.
Proof.
  induction e as [s|s|b f|t IHt s|u v IHv|o l IHl r IHr|c0 IHc0 y0 IHy0 n0 IHn0|t0 IHt0 i0 IHi0|f0 IHf0 a0 IHa0|f0 IHf0 a0 IHa0| |x0 IHx0 r0 IHr0]; intro H; simpl in *; try reflexivity.
  - rewrite IHt; auto.
  - rewrite IHv; auto.
  - destruct H as (H1 & H2 & H3). rewrite IHl, IHr by assumption.
    destruct (op_eqb o BComma) eqn:E; [|reflexivity].
    apply op_eqb_eq in E. subst o.
    apply comma_app_plain. auto.
  - destruct H as (H1 & H2 & H3). rewrite IHc0, IHy0, IHn0 by assumption. reflexivity.
  - destruct H as (H1 & H2). rewrite IHt0, IHi0 by assumption. reflexivity.
  - destruct H as (H1 & H2). rewrite IHf0, IHa0 by assumption. reflexivity.
  - destruct H as (H1 & H2). rewrite IHf0, IHa0 by assumption. reflexivity.
  - destruct H as (H1 & H2). rewrite IHx0, IHr0 by assumption. reflexivity.
Qed.
Lemma norm_idem e : norm (norm e) = norm e.
Proof. apply norm_cnf_id. apply cnf_norm. Qed.

Theorem parse_print_items_all fi ss e :
  wf e -> exists n, forall m, (n <= m)%nat -> parse_fuel m fi (toks (print_items fi ss LLowest e)) = Some (norm e).
Proof.
  intro Hwf. destruct (parse_print_items_cnf mw fi ss (norm e) (wf_norm e Hwf) (cnf_norm e)) as [n Hn].
  exists n. intros m Hm. specialize (Hn m Hm). rewrite print_norm, norm_idem in Hn. exact Hn.
Qed.

End WithMode.
