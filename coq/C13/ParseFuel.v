(* Fuel sufficiency: the nesting depth of a successful parse is at most the number of tokens
   plus one, so the concrete fuel used by [parse] is enough whenever any fuel is. *)
From V Require Import Common.Base C13.KwSpec C13.Token C13.LexSpec C13.Toks C13.ParseSpec C13.ParseMono.

(* fuel 2k+1 for expressions/suffixes and 2k+2 for argument lists of at most k tokens *)
Lemma fuel_enough : forall k,
  (forall ts, (List.length ts <= k)%nat -> forall n ni L res, parse_expr n ni L ts = Some res -> parse_expr (2 * k + 1) ni L ts = Some res) /\
  (forall ts, (List.length ts <= k)%nat -> forall n ni L left ll res, parse_suffix n ni L left ll ts = Some res -> parse_suffix (2 * k + 1) ni L left ll ts = Some res) /\
  (forall ts, (List.length ts <= k)%nat -> forall n res, parse_args n ts = Some res -> parse_args (2 * k + 2) ts = Some res).
Proof.
  induction k as [|k (IHe & IHs & IHa)].
  - repeat split; intros ts Hl n; (destruct ts as [|t0 ts0]; [|simpl in Hl; lia]).
    + intros ni L res H. destruct n as [|n]; [discriminate|]. rewrite parse_expr_S in H. discriminate.
    + intros ni L left ll res H. destruct n as [|n]; [discriminate|]. rewrite parse_suffix_S in H. exact H.
    + intros res H. destruct n as [|n]; [discriminate|]. rewrite parse_args_S in H. discriminate.
  - assert (Ee : forall ts, (List.length ts <= S k)%nat -> forall n ni L res, parse_expr n ni L ts = Some res -> parse_expr (2 * S k + 1) ni L ts = Some res).
    { intros ts Hl n ni L res H. destruct n as [|n]; [discriminate|].
      replace (2 * S k + 1)%nat with (S (2 * k + 2)) by lia. rewrite parse_expr_S in H |- *.
      destruct (parse_short n) as (Se & _ & Sa).
      eapply (expr_step_transfer (parse_expr n) _ (parse_suffix n) _ (parse_args n)); [exact Se | exact Sa | | | | exact H].
      - intros ni' L' ts' r Hlt Hr. apply (parse_expr_mono (2 * k + 1)); [lia|]. eapply IHe; [lia | exact Hr].
      - intros ni' L' l' ll' ts' r Hlt Hr. apply (parse_suffix_mono (2 * k + 1)); [lia|]. eapply IHs; [lia | exact Hr].
      - intros ts' r Hlt Hr. eapply IHa; [lia | exact Hr]. }
    repeat split.
    + exact Ee.
    + intros ts Hl n ni L left ll res H. destruct n as [|n]; [discriminate|].
      replace (2 * S k + 1)%nat with (S (2 * k + 2)) by lia. rewrite parse_suffix_S in H |- *.
      destruct (parse_short n) as (Se & _ & Sa).
      eapply (suffix_step_transfer (parse_expr n) _ (parse_suffix n) _ (parse_args n)); [exact Se | exact Sa | | | | exact H].
      * intros ni' L' ts' r Hlt Hr. apply (parse_expr_mono (2 * k + 1)); [lia|]. eapply IHe; [lia | exact Hr].
      * intros ni' L' l' ll' ts' r Hlt Hr. apply (parse_suffix_mono (2 * k + 1)); [lia|]. eapply IHs; [lia | exact Hr].
      * intros ts' r Hlt Hr. eapply IHa; [lia | exact Hr].
    + intros ts Hl n res H. destruct n as [|n]; [discriminate|].
      replace (2 * S k + 2)%nat with (S (2 * S k + 1)) by lia. rewrite parse_args_S in H |- *.
      destruct (parse_short n) as (Se & _ & Sa).
      eapply (args_step_transfer (parse_expr n) _ (parse_args n)); [exact Se | | | exact H].
      * intros ni' L' r Hr. eapply Ee; [exact Hl | exact Hr].
      * intros ts' r Hlt Hr. apply (parse_args_mono (2 * k + 2)); [lia|]. eapply IHa; [lia | exact Hr].
Qed.

Theorem parse_fuel_enough n ni ts e : parse_fuel n ni ts = Some e -> parse ni ts = Some e.
Proof.
  unfold parse, parse_fuel. intro H.
  destruct (parse_expr n ni 0 ts) as [[e' [|c r]]|] eqn:E; try discriminate.
  pose proof (proj1 (fuel_enough (List.length ts)) ts (Nat.le_refl _) n ni 0 _ E) as E1.
  rewrite (parse_expr_mono (2 * List.length ts + 1) (2 * List.length ts + 2) _ _ _ _ ltac:(lia) E1). exact H.
Qed.
