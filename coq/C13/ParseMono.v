(* The fuelled specification parser: one-step unfolding; a successful parse consumes input;
   a step transfers to sub-parsers that agree on shorter inputs; hence monotonicity in the
   fuel (more fuel never changes a successful result). *)
From V Require Import Common.Base C13.KwSpec C13.Token C13.LexSpec C13.Toks C13.ParseSpec.

Definition PE := bool -> Z -> list tok -> option (expr * list tok).
Definition PS := bool -> Z -> expr -> Z -> list tok -> option (expr * list tok).
Definition PA := list tok -> option (expr * list tok).

Definition expr_step (pe : PE) (ps : PS) (pa : PA) (ni : bool) (L : Z) (ts : list tok) : option (expr * list tok) :=
  match ts with
  | [] => None
  | t :: r =>
    if is_new t then
      match pe false S_Call r with
      | Some (c, r') =>
          match r' with
          | p :: r'' =>
              if is_open p then
                match pa r'' with
                | Some (a, r3) => ps ni L (ENew c a) S_Member r3
                | None => None
                end
              else ps ni L (ENew c ANil) S_New r'
          | [] => ps ni L (ENew c ANil) S_New r'
          end
      | None => None
      end
    else match prefix_op t with
    | Some o =>
        if pre_max o <? L then None
        else match pe (pre_in o ni) (pre_arg o) r with
        | Some (v, r') => if negb (is_update o) || is_target v then ps ni L (EUn o v) (spec_level o) r' else None
        | None => None
        end
    | None =>
        match atom_of t with
        | Some a => ps ni L a S_Member r
        | None =>
            if is_open t then
              match pe false 0 r with
              | Some (e, c :: r'') => if is_close c then ps ni L e S_Member r'' else None
              | _ => None
              end
            else None
        end
    end
  end.

Definition suffix_step (pe : PE) (ps : PS) (pa : PA) (ni : bool) (L : Z) (left : expr) (ll : Z) (ts : list tok) : option (expr * list tok) :=
  match ts with
  | [] => Some (left, [])
  | t :: r =>
    if is_dot t then
      match r with
      | TId s :: r' => if S_Call <=? ll then ps ni L (EDot left s) S_Member r' else None
      | _ => None
      end
    else if is_lbrack t then
      if S_Call <=? ll then
        match pe false 0 r with
        | Some (i, c :: r') => if is_rbrack c then ps ni L (EIndex left i) S_Member r' else None
        | _ => None
        end
      else None
    else if is_open t then
      if S_Call <=? L then Some (left, ts)
      else if S_Call <=? ll then
        match pa r with
        | Some (a, r') => ps ni L (ECall left a) S_Call r'
        | None => None
        end
      else None
    else if is_quest t then
      if S_Cond <=? L then Some (left, ts)
      else if S_Cond <? ll then
        match pe false 3 r with
        | Some (y, c :: r') =>
            if is_colon c then
              match pe ni 3 r' with
              | Some (no, r'') => ps ni L (ECond left y no) S_Cond r''
              | None => None
              end
            else None
        | _ => None
        end
      else None
    else match postfix_op t with
    | Some o =>
        if S_Update <=? L then Some (left, ts)
        else if (S_Member <=? ll) && is_target left then ps ni L (EUn o left) S_Update r else None
    | None =>
        match binary_op t with
        | Some o =>
            if (ni && op_eqb o BIn) || (spec_level o <=? L) then Some (left, ts)
            else if left_ok o ll left then
              match pe ni (right_level o) r with
              | Some (rt, r') => ps ni L (EBin o left rt) (spec_level o) r'
              | None => None
              end
            else None
        | None => Some (left, ts)
        end
    end
  end.

Definition args_step (pe : PE) (pa : PA) (ts : list tok) : option (expr * list tok) :=
  match ts with
  | [] => None
  | t :: r =>
    if is_close t then Some (ANil, r)
    else match pe false 3 ts with
         | Some (e, c :: r') =>
             if is_close c then Some (ACons e ANil, r')
             else if is_comma c then
               match pa r' with
               | Some (rest, r'') => Some (ACons e rest, r'')
               | None => None
               end
             else None
         | _ => None
         end
  end.

Lemma parse_expr_S n ni L ts : parse_expr (S n) ni L ts = expr_step (parse_expr n) (parse_suffix n) (parse_args n) ni L ts.
Proof. reflexivity. Qed.
Lemma parse_suffix_S n ni L left ll ts :
  parse_suffix (S n) ni L left ll ts = suffix_step (parse_expr n) (parse_suffix n) (parse_args n) ni L left ll ts.
Proof. reflexivity. Qed.
Lemma parse_args_S n ts : parse_args (S n) ts = args_step (parse_expr n) (parse_args n) ts.
Proof. reflexivity. Qed.

Definition pe_short (pe : PE) : Prop := forall ni L ts e r, pe ni L ts = Some (e, r) -> (List.length r < List.length ts)%nat.
Definition ps_short (ps : PS) : Prop := forall ni L left ll ts e r, ps ni L left ll ts = Some (e, r) -> (List.length r <= List.length ts)%nat.
Definition pa_short (pa : PA) : Prop := forall ts e r, pa ts = Some (e, r) -> (List.length r < List.length ts)%nat.

Lemma expr_step_short pe ps pa : pe_short pe -> ps_short ps -> pa_short pa -> pe_short (expr_step pe ps pa).
Proof.
  intros He Hs Ha ni L ts e r H. unfold expr_step in H. destruct ts as [|t r0]; [discriminate|]. simpl.
  destruct (is_new t).
  { destruct (pe false S_Call r0) as [[c r']|] eqn:E; [|discriminate]. apply He in E.
    destruct r' as [|p r'']; [apply Hs in H; simpl in *; lia|].
    destruct (is_open p); [|apply Hs in H; simpl in *; lia].
    destruct (pa r'') as [[a r3]|] eqn:E2; [|discriminate]. apply Ha in E2. apply Hs in H. simpl in *. lia. }
  destruct (prefix_op t).
  - destruct (pre_max o <? L); [discriminate|].
    destruct (pe (pre_in o ni) (pre_arg o) r0) as [[v r']|] eqn:E; [|discriminate]. apply He in E.
    destruct (negb (is_update o) || is_target v); [|discriminate]. apply Hs in H. lia.
  - destruct (atom_of t); [apply Hs in H; lia|].
    destruct (is_open t); [|discriminate].
    destruct (pe false 0 r0) as [[e0 [|c r'']]|] eqn:E; try discriminate. apply He in E. simpl in E.
    destruct (is_close c); [|discriminate]. apply Hs in H. lia.
Qed.

Lemma suffix_step_short pe ps pa : pe_short pe -> ps_short ps -> pa_short pa -> ps_short (suffix_step pe ps pa).
Proof.
  intros He Hs Ha ni L left ll ts e r H. unfold suffix_step in H. destruct ts as [|t r0]; [inversion H; subst; simpl; lia|].
  destruct (is_dot t).
  - destruct r0 as [|[s| | |] r']; try discriminate.
    destruct (S_Call <=? ll); [|discriminate]. apply Hs in H. simpl. lia.
  - destruct (is_lbrack t).
    { destruct (S_Call <=? ll); [|discriminate].
      destruct (pe false 0 r0) as [[i [|c r']]|] eqn:E; try discriminate. apply He in E. simpl in E.
      destruct (is_rbrack c); [|discriminate]. apply Hs in H. simpl. lia. }
    destruct (is_open t).
    { destruct (S_Call <=? L); [inversion H; subst; lia|]. destruct (S_Call <=? ll); [|discriminate].
      destruct (pa r0) as [[a r']|] eqn:E; [|discriminate]. apply Ha in E. apply Hs in H. simpl. lia. }
    destruct (is_quest t).
    { destruct (S_Cond <=? L); [inversion H; subst; lia|]. destruct (S_Cond <? ll); [|discriminate].
      destruct (pe false 3 r0) as [[y [|c r']]|] eqn:E; try discriminate. apply He in E. simpl in E.
      destruct (is_colon c); [|discriminate].
      destruct (pe ni 3 r') as [[no r'']|] eqn:E2; [|discriminate]. apply He in E2. apply Hs in H. simpl. lia. }
    destruct (postfix_op t).
    + destruct (S_Update <=? L); [inversion H; subst; lia|].
      destruct ((S_Member <=? ll) && is_target left); [|discriminate]. apply Hs in H. simpl. lia.
    + destruct (binary_op t); [|inversion H; subst; lia].
      destruct ((ni && op_eqb o BIn) || (spec_level o <=? L)); [inversion H; subst; lia|].
      destruct (left_ok o ll left); [|discriminate].
      destruct (pe ni (right_level o) r0) as [[rt r']|] eqn:E; [|discriminate]. apply He in E.
      apply Hs in H. simpl. lia.
Qed.

Lemma args_step_short pe pa : pe_short pe -> pa_short pa -> pa_short (args_step pe pa).
Proof.
  intros He Ha ts e r H. unfold args_step in H. destruct ts as [|t r0]; [discriminate|].
  destruct (is_close t); [inversion H; subst; simpl; lia|].
  destruct (pe false 3 (t :: r0)) as [[e0 [|c r']]|] eqn:E; try discriminate. apply He in E. simpl in E.
  destruct (is_close c); [inversion H; subst; simpl; lia|]. destruct (is_comma c); [|discriminate].
  destruct (pa r') as [[rest r'']|] eqn:E2; [|discriminate]. apply Ha in E2. inversion H; subst. simpl. lia.
Qed.

Lemma parse_short n : pe_short (parse_expr n) /\ ps_short (parse_suffix n) /\ pa_short (parse_args n).
Proof.
  induction n as [|n (IHe & IHs & IHa)].
  - repeat split; [intros ni L ts e r H | intros ni L left ll ts e r H | intros ts e r H]; discriminate.
  - repeat split.
    + intros ni L ts e r H. rewrite parse_expr_S in H. eapply expr_step_short; eauto.
    + intros ni L left ll ts e r H. rewrite parse_suffix_S in H. eapply suffix_step_short; eauto.
    + intros ts e r H. rewrite parse_args_S in H. eapply args_step_short; eauto.
Qed.

(* transfer of a successful step to other sub-parsers that agree on strictly shorter inputs *)
Definition agree_e (pe pe' : PE) (k : nat) : Prop :=
  forall ni' L' ts' r, (List.length ts' < k)%nat -> pe ni' L' ts' = Some r -> pe' ni' L' ts' = Some r.
Definition agree_s (ps ps' : PS) (k : nat) : Prop :=
  forall ni' L' l' ll' ts' r, (List.length ts' < k)%nat -> ps ni' L' l' ll' ts' = Some r -> ps' ni' L' l' ll' ts' = Some r.
Definition agree_a (pa pa' : PA) (k : nat) : Prop :=
  forall ts' r, (List.length ts' < k)%nat -> pa ts' = Some r -> pa' ts' = Some r.

Lemma expr_step_transfer pe pe' ps ps' pa pa' ni L ts res :
  pe_short pe -> pa_short pa ->
  agree_e pe pe' (List.length ts) -> agree_s ps ps' (List.length ts) -> agree_a pa pa' (List.length ts) ->
  expr_step pe ps pa ni L ts = Some res -> expr_step pe' ps' pa' ni L ts = Some res.
Proof.
  intros Hsh Hsa He Hs Ha H. unfold expr_step in *. destruct ts as [|t r0]; [discriminate|].
  unfold agree_e, agree_s, agree_a in *. simpl in He, Hs, Ha.
  destruct (is_new t).
  { destruct (pe false S_Call r0) as [[c r']|] eqn:E; [|discriminate]. pose proof (Hsh _ _ _ _ _ E) as Hl.
    rewrite (He _ _ _ _ (Nat.lt_succ_diag_r _) E).
    destruct r' as [|p r'']; [apply Hs; [simpl; lia | exact H]|].
    destruct (is_open p); [|apply Hs; [simpl in *; lia | exact H]].
    destruct (pa r'') as [[a r3]|] eqn:E2; [|discriminate]. pose proof (Hsa _ _ _ E2) as Hl2. simpl in Hl.
    rewrite (Ha r'' _ ltac:(lia) E2). apply Hs; [lia | exact H]. }
  destruct (prefix_op t).
  - destruct (pre_max o <? L); [discriminate|].
    destruct (pe (pre_in o ni) (pre_arg o) r0) as [[v r']|] eqn:E; [|discriminate]. pose proof (Hsh _ _ _ _ _ E) as Hl.
    rewrite (He _ _ _ _ (Nat.lt_succ_diag_r _) E).
    destruct (negb (is_update o) || is_target v); [|discriminate]. apply Hs; [lia | exact H].
  - destruct (atom_of t); [apply Hs; [lia | exact H]|].
    destruct (is_open t); [|discriminate].
    destruct (pe false 0 r0) as [[e [|c r'']]|] eqn:E; try discriminate. pose proof (Hsh _ _ _ _ _ E) as Hl. simpl in Hl.
    rewrite (He _ _ _ _ (Nat.lt_succ_diag_r _) E).
    destruct (is_close c); [|discriminate]. apply Hs; [lia | exact H].
Qed.

Lemma suffix_step_transfer pe pe' ps ps' pa pa' ni L left ll ts res :
  pe_short pe -> pa_short pa ->
  agree_e pe pe' (List.length ts) -> agree_s ps ps' (List.length ts) -> agree_a pa pa' (List.length ts) ->
  suffix_step pe ps pa ni L left ll ts = Some res -> suffix_step pe' ps' pa' ni L left ll ts = Some res.
Proof.
  intros Hsh Hsa He Hs Ha H. unfold suffix_step in *. destruct ts as [|t r0]; [exact H|].
  unfold agree_e, agree_s, agree_a in *. simpl in He, Hs, Ha.
  destruct (is_dot t).
  - destruct r0 as [|[s| | |] r']; try discriminate.
    destruct (S_Call <=? ll); [|discriminate]. apply Hs; [simpl; lia | exact H].
  - destruct (is_lbrack t).
    { destruct (S_Call <=? ll); [|discriminate].
      destruct (pe false 0 r0) as [[i [|c r']]|] eqn:E; try discriminate. pose proof (Hsh _ _ _ _ _ E) as Hl. simpl in Hl.
      rewrite (He _ _ _ _ (Nat.lt_succ_diag_r _) E).
      destruct (is_rbrack c); [|discriminate]. apply Hs; [lia | exact H]. }
    destruct (is_open t).
    { destruct (S_Call <=? L); [exact H|]. destruct (S_Call <=? ll); [|discriminate].
      destruct (pa r0) as [[a r']|] eqn:E; [|discriminate]. pose proof (Hsa _ _ _ E) as Hl.
      rewrite (Ha _ _ (Nat.lt_succ_diag_r _) E). apply Hs; [lia | exact H]. }
    destruct (is_quest t).
    { destruct (S_Cond <=? L); [exact H|]. destruct (S_Cond <? ll); [|discriminate].
      destruct (pe false 3 r0) as [[y [|c r']]|] eqn:E; try discriminate. pose proof (Hsh _ _ _ _ _ E) as Hl. simpl in Hl.
      rewrite (He _ _ _ _ (Nat.lt_succ_diag_r _) E).
      destruct (is_colon c); [|discriminate].
      destruct (pe ni 3 r') as [[no r'']|] eqn:E2; [|discriminate]. pose proof (Hsh _ _ _ _ _ E2) as Hl2.
      rewrite (He ni 3 r' _ ltac:(lia) E2). apply Hs; [lia | exact H]. }
    destruct (postfix_op t).
    + destruct (S_Update <=? L); [exact H|].
      destruct ((S_Member <=? ll) && is_target left); [|discriminate]. apply Hs; [lia | exact H].
    + destruct (binary_op t); [|exact H].
      destruct ((ni && op_eqb o BIn) || (spec_level o <=? L)); [exact H|].
      destruct (left_ok o ll left); [|discriminate].
      destruct (pe ni (right_level o) r0) as [[rt r']|] eqn:E; [|discriminate]. pose proof (Hsh _ _ _ _ _ E) as Hl.
      rewrite (He _ _ _ _ (Nat.lt_succ_diag_r _) E). apply Hs; [lia | exact H].
Qed.

(* the argument parser calls the expression parser on its whole input: it gets one more unit of fuel *)
Lemma args_step_transfer pe pe' pa pa' ts res :
  pe_short pe ->
  (forall ni' L' r, pe ni' L' ts = Some r -> pe' ni' L' ts = Some r) -> agree_a pa pa' (List.length ts) ->
  args_step pe pa ts = Some res -> args_step pe' pa' ts = Some res.
Proof.
  intros Hsh He Ha H. unfold args_step in *. destruct ts as [|t r0]; [discriminate|].
  destruct (is_close t); [exact H|].
  destruct (pe false 3 (t :: r0)) as [[e [|c r']]|] eqn:E; try discriminate. pose proof (Hsh _ _ _ _ _ E) as Hl. simpl in Hl.
  rewrite (He _ _ _ E).
  destruct (is_close c); [exact H|]. destruct (is_comma c); [|discriminate].
  destruct (pa r') as [[rest r'']|] eqn:E2; [|discriminate].
  rewrite (Ha r' _ ltac:(simpl; lia) E2). exact H.
Qed.

Lemma parse_mono_S n :
  (forall ni L ts r, parse_expr n ni L ts = Some r -> parse_expr (S n) ni L ts = Some r) /\
  (forall ni L left ll ts r, parse_suffix n ni L left ll ts = Some r -> parse_suffix (S n) ni L left ll ts = Some r) /\
  (forall ts r, parse_args n ts = Some r -> parse_args (S n) ts = Some r).
Proof.
  induction n as [|n (IHe & IHs & IHa)].
  - repeat split; [intros ni L ts r H | intros ni L left ll ts r H | intros ts r H]; discriminate.
  - destruct (parse_short n) as (Se & _ & Sa). repeat split.
    + intros ni L ts r H. rewrite parse_expr_S in *.
      eapply expr_step_transfer; [exact Se | exact Sa | | | | exact H].
      * intros ni' L' ts' r' _. apply IHe.
      * intros ni' L' l' ll' ts' r' _. apply IHs.
      * intros ts' r' _. apply IHa.
    + intros ni L left ll ts r H. rewrite parse_suffix_S in *.
      eapply suffix_step_transfer; [exact Se | exact Sa | | | | exact H].
      * intros ni' L' ts' r' _. apply IHe.
      * intros ni' L' l' ll' ts' r' _. apply IHs.
      * intros ts' r' _. apply IHa.
    + intros ts r H. rewrite parse_args_S in *.
      eapply args_step_transfer; [exact Se | | | exact H].
      * intros ni' L' r'. apply IHe.
      * intros ts' r' _. apply IHa.
Qed.

Lemma parse_expr_mono n m ni L ts r : (n <= m)%nat -> parse_expr n ni L ts = Some r -> parse_expr m ni L ts = Some r.
Proof. induction 1 as [|m Hle IH]; [auto|]. intro H0. apply (proj1 (parse_mono_S m)). auto. Qed.
Lemma parse_suffix_mono n m ni L left ll ts r :
  (n <= m)%nat -> parse_suffix n ni L left ll ts = Some r -> parse_suffix m ni L left ll ts = Some r.
Proof. induction 1 as [|m Hle IH]; [auto|]. intro H0. apply (proj1 (proj2 (parse_mono_S m))). auto. Qed.
Lemma parse_args_mono n m ts r : (n <= m)%nat -> parse_args n ts = Some r -> parse_args m ts = Some r.
Proof. induction 1 as [|m Hle IH]; [auto|]. intro H0. apply (proj2 (proj2 (parse_mono_S m))). auto. Qed.
