(* C08: the scan model terminates and parses exactly the reachable files.
   For every schedule: the number of results received is the number of visited
   files minus the pending ones (so no run is longer than the number of files),
   a pending result can always be received (no deadlock), every run can be
   completed, and a complete run has visited exactly the files reachable from
   the roots through import records.  Together with ScannerProofs this makes
   the outcome of the scan phase unique up to the renaming of source indices. *)
From V Require Import Common.Base C08.Dfs C08.DfsProofs C08.Scanner C08.ScannerProofs.

Section Reach.
  Variable imports : Z -> list Z.
  Variable roots : list Z.

  Inductive reach : Z -> Prop :=
  | reach_root r : In r roots -> reach r
  | reach_step f c : reach f -> In c (imports f) -> reach c.

  Lemma maybeParseAll_pres (Q : scan -> Prop) (P : Z -> Prop) :
    (forall st f, Q st -> P f -> Q (fst (maybeParse st f))) ->
    forall fs st, Q st -> (forall f, In f fs -> P f) -> Q (fst (maybeParseAll st fs)).
  Proof.
    intros Hstep. induction fs as [|f r IH]; intros st HQ HP; cbn [maybeParseAll fst]; [exact HQ|].
    destruct (maybeParse st f) as [st1 i] eqn:E1.
    assert (HQ1 : Q st1).
    { change st1 with (fst (st1, i)). rewrite <- E1. apply Hstep; [exact HQ | apply HP; now left]. }
    specialize (IH st1 HQ1 (fun g Hg => HP g (or_intror Hg))).
    destruct (maybeParseAll st1 r) as [st2 is]. exact IH.
  Qed.

  (* receives = visited - pending; next index = number of visited files *)
  Definition counted (n : nat) (st : scan) : Prop :=
    sc_next st = Z.of_nat (length (sc_vis st)) /\ (length (sc_pend st) + n = length (sc_vis st))%nat.

  Lemma maybeParse_counted n st f : counted n st -> counted n (fst (maybeParse st f)).
  Proof.
    unfold counted, maybeParse. intros [H1 H2]. destruct (lookupz f (sc_vis st)); cbn [fst]; [now split|].
    cbn [sc_next sc_vis sc_pend length]. rewrite app_length. cbn [length]. split; lia.
  Qed.

  Lemma remove1_length f l : memz f l = true -> S (length (remove1 f l)) = length l.
  Proof.
    induction l as [|x r IH]; cbn [memz remove1 length]; [discriminate|].
    destruct (f =? x) eqn:E; cbn [orb]; [reflexivity|]. intro H. cbn [length]. now rewrite IH.
  Qed.

  Lemma recv_counted n st f st' : counted n st -> recv imports st f = Some st' -> counted (S n) st'.
  Proof.
    intros HC. unfold recv. destruct (memz f (sc_pend st)) eqn:Em; [|discriminate].
    destruct (lookupz f (sc_vis st)) as [fi|]; [|discriminate].
    set (st0 := mkScan (sc_vis st) (sc_next st) (remove1 f (sc_pend st)) (sc_recs st)).
    assert (H0 : counted (S n) st0).
    { destruct HC as [H1 H2]. split; cbn [st0 sc_next sc_vis sc_pend]; [exact H1|].
      pose proof (remove1_length f _ Em). lia. }
    pose proof (maybeParseAll_pres (counted (S n)) (fun _ => True)
                  (fun s g HQ _ => maybeParse_counted (S n) s g HQ) (imports f) st0 H0 (fun _ _ => I)) as H.
    destruct (maybeParseAll st0 (imports f)) as [st1 is]. cbn [fst] in H.
    intro E; inversion E; subst. exact H.
  Qed.

  Lemma init_counted : counted 0 (fst (scan_init roots)).
  Proof.
    unfold scan_init.
    apply (maybeParseAll_pres (counted 0) (fun _ => True) (fun s g HQ _ => maybeParse_counted 0 s g HQ)); [|auto].
    split; reflexivity.
  Qed.

  Lemma run_counted sched n st st' : counted n st -> run_scan imports st sched = Some st' ->
    counted (n + length sched) st'.
  Proof. exact (run_pres imports counted recv_counted sched n st st'). Qed.

  Definition vis_reach (st : scan) : Prop := forall f i, lookupz f (sc_vis st) = Some i -> reach f.

  Lemma maybeParse_vis_reach st f : vis_reach st -> reach f -> vis_reach (fst (maybeParse st f)).
  Proof.
    unfold vis_reach, maybeParse. intros HV HR. destruct (lookupz f (sc_vis st)) eqn:E; cbn [fst]; [exact HV|].
    intros g j. cbn [sc_vis lookupz]. destruct (g =? f) eqn:Eg; [apply Z.eqb_eq in Eg; now subst | apply HV].
  Qed.

  Lemma recv_vis_reach st f st' : vis_reach st -> recv imports st f = Some st' -> vis_reach st'.
  Proof.
    intros HV. unfold recv. destruct (memz f (sc_pend st)); [|discriminate].
    destruct (lookupz f (sc_vis st)) as [fi|] eqn:El; [|discriminate].
    set (st0 := mkScan (sc_vis st) (sc_next st) (remove1 f (sc_pend st)) (sc_recs st)).
    assert (H0 : vis_reach st0) by exact HV.
    pose proof (maybeParseAll_pres vis_reach reach maybeParse_vis_reach (imports f) st0 H0
                  (fun c Hc => reach_step f c (HV f fi El) Hc)) as H.
    destruct (maybeParseAll st0 (imports f)) as [st1 is]. cbn [fst] in H.
    intro E; inversion E; subst. exact H.
  Qed.

  Lemma init_vis_reach : vis_reach (fst (scan_init roots)).
  Proof.
    unfold scan_init. apply (maybeParseAll_pres vis_reach reach maybeParse_vis_reach).
    - intros f i H; discriminate.
    - intros f Hf. now apply reach_root.
  Qed.

  Lemma run_vis_reach sched st st' : vis_reach st -> run_scan imports st sched = Some st' -> vis_reach st'.
  Proof. exact (run_pres imports (fun _ => vis_reach) (fun _ => recv_vis_reach) sched 0%nat st st'). Qed.

  Theorem visited_iff_reach sched st :
    run_scan imports (fst (scan_init roots)) sched = Some st -> scan_complete st = true ->
    forall f, visited st f <-> reach f.
  Proof.
    intros Hrun Hdone f. split.
    - intros [i Hi]. exact (run_vis_reach sched _ st init_vis_reach Hrun f i Hi).
    - destruct (init_inv imports roots) as [_ Hroots]. cbn zeta in Hroots.
      destruct (scan_inv imports roots sched st Hrun) as [HI Hext].
      destruct (forall2_roots _ st roots _ Hroots Hext) as [Hvis _].
      induction 1 as [r Hr|g c _ IH Hc]; [now apply Hvis|].
      eapply visited_closed; eauto.
  Qed.

  Lemma recv_enabled st f : ScanInv imports st -> In f (sc_pend st) -> exists st', recv imports st f = Some st'.
  Proof.
    intros [HI _] Hin. unfold recv. rewrite (memz_in f _ Hin).
    destruct (inv_pend imports st HI f Hin) as [i Hi]. rewrite Hi.
    destruct (maybeParseAll _ (imports f)) as [st1 is]. eauto.
  Qed.

  (* termination: files live in a finite universe *)
  Variable universe : list Z.
  Hypothesis roots_in : forall r, In r roots -> In r universe.
  Hypothesis imports_in : forall f c, In f universe -> In c (imports f) -> In c universe.

  Lemma reach_in_universe f : reach f -> In f universe.
  Proof. induction 1; eauto. Qed.

  Lemma vis_bound st : Core imports st -> vis_reach st -> (length (sc_vis st) <= length universe)%nat.
  Proof.
    intros HI HV. apply (visited_count imports st universe HI). intros f [i Hi].
    exact (reach_in_universe f (HV f i Hi)).
  Qed.

  Theorem run_scan_bounded sched st :
    run_scan imports (fst (scan_init roots)) sched = Some st ->
    (length sched + length (sc_pend st) = length (sc_vis st))%nat /\ (length sched <= length universe)%nat.
  Proof.
    intro Hrun. pose proof (run_counted sched 0 _ st init_counted Hrun) as [_ HC]. cbn [Nat.add] in HC.
    destruct (scan_inv imports roots sched st Hrun) as [[HI _] _].
    pose proof (vis_bound st HI (run_vis_reach sched _ st init_vis_reach Hrun)). split; lia.
  Qed.

  (* greedy: receive the oldest pending result *)
  Fixpoint drain (fuel : nat) (st : scan) : option (list Z * scan) :=
    match sc_pend st with
    | [] => Some ([], st)
    | f :: _ => match fuel with
                | O => None
                | S k => match recv imports st f with
                         | Some st' => match drain k st' with Some (s, st'') => Some (f :: s, st'') | None => None end
                         | None => None
                         end
                end
    end.

  Lemma drain_run : forall fuel st s st', drain fuel st = Some (s, st') ->
    run_scan imports st s = Some st' /\ scan_complete st' = true.
  Proof.
    induction fuel as [|k IH]; intros st s st'; cbn [drain]; destruct (sc_pend st) as [|f r] eqn:Ep.
    - intro H; inversion H; subst. split; [reflexivity | unfold scan_complete; now rewrite Ep].
    - discriminate.
    - intro H; inversion H; subst. split; [reflexivity | unfold scan_complete; now rewrite Ep].
    - destruct (recv imports st f) as [st1|] eqn:E; [|discriminate].
      destruct (drain k st1) as [[s1 st2]|] eqn:Ed; [|discriminate]. intro H; inversion H; subst.
      destruct (IH st1 s1 st' Ed) as [H1 H2]. split; [cbn [run_scan]; now rewrite E | exact H2].
  Qed.

  Lemma drain_succeeds : forall fuel n st, ScanInv imports st -> vis_reach st -> counted n st ->
    (length universe < n + fuel)%nat -> exists s st', drain fuel st = Some (s, st').
  Proof.
    induction fuel as [|k IH]; intros n st HI HV HC Hf; cbn [drain].
    all: destruct (sc_pend st) as [|f r] eqn:Ep; eauto.
    - (* out of fuel with a result pending: more receives than files *)
      exfalso. destruct HC as [_ HC]. rewrite Ep in HC. cbn [length] in HC.
      pose proof (vis_bound st (proj1 HI) HV). lia.
    - assert (Hin : In f (sc_pend st)) by (rewrite Ep; now left).
      destruct (recv_enabled st f HI Hin) as [st1 E]. rewrite E.
      destruct (recv_inv imports st f st1 HI E) as [HI1 _].
      destruct (IH (S n) st1 HI1 (recv_vis_reach st f st1 HV E) (recv_counted n st f st1 HC E))
        as (s & st2 & Hd); [lia|].
      rewrite Hd. eauto.
  Qed.

  Theorem run_scan_can_complete sched st :
    run_scan imports (fst (scan_init roots)) sched = Some st ->
    exists more st', run_scan imports st more = Some st' /\ scan_complete st' = true.
  Proof.
    intro Hrun. destruct (scan_inv imports roots sched st Hrun) as [HI _].
    pose proof (run_counted sched 0 _ st init_counted Hrun) as HC. cbn [Nat.add] in HC.
    destruct (drain_succeeds (S (length universe)) (length sched) st HI
                (run_vis_reach sched _ st init_vis_reach Hrun) HC) as (s & st' & Hd); [lia|].
    exists s, st'. exact (drain_run _ _ _ _ Hd).
  Qed.
End Reach.

Theorem scan_two_schedules imports roots sched1 sched2 st1 st2 :
  run_scan imports (fst (scan_init roots)) sched1 = Some st1 -> scan_complete st1 = true ->
  run_scan imports (fst (scan_init roots)) sched2 = Some st2 -> scan_complete st2 = true ->
  (forall f, visited st1 f <-> visited st2 f) /\
  sc_next st1 = sc_next st2 /\
  (forall f, visited st1 f ->
     graph_of_scan st1 (index_of_file st1 f) = map (index_of_file st1) (imports f) /\
     graph_of_scan st2 (index_of_file st2 f) = map (index_of_file st2) (imports f)) /\
  (forall f g, index_of_file st1 f = index_of_file st1 g -> f = g) /\
  (forall f g, index_of_file st2 f = index_of_file st2 g -> f = g).
Proof.
  intros R1 D1 R2 D2.
  pose proof (visited_iff_reach imports roots sched1 st1 R1 D1) as V1.
  pose proof (visited_iff_reach imports roots sched2 st2 R2 D2) as V2.
  assert (Hsame : forall f, visited st1 f <-> visited st2 f) by (intro f; rewrite V1, V2; tauto).
  destruct (scan_inv imports roots sched1 st1 R1) as [HI1 _].
  destruct (scan_inv imports roots sched2 st2 R2) as [HI2 _].
  split; [exact Hsame|]. split.
  - (* same number of files: both visited maps list the reachable files without repetition *)
    pose proof (run_counted imports sched1 0 _ st1 (init_counted imports roots) R1) as [N1 _].
    pose proof (run_counted imports sched2 0 _ st2 (init_counted imports roots) R2) as [N2 _].
    rewrite N1, N2. f_equal.
    assert (Hle : forall a b, Core imports a -> (forall f, visited a f -> visited b f) ->
                  (length (sc_vis a) <= length (sc_vis b))%nat).
    { intros a b Ca Hab. rewrite <- (map_length fst (sc_vis b)). apply (visited_count imports a _ Ca).
      intros f Hf. destruct (Hab f Hf) as [j Hj]. apply lookupz_in in Hj. exact (in_map fst _ (f, j) Hj). }
    apply Nat.le_antisymm; apply Hle;
      try apply HI1; try apply HI2;
      intro f; apply Hsame.
  - split; [|split].
    + intros f Hf. split; apply graph_of_scan_spec; auto. now apply Hsame.
    + exact (index_of_file_inj imports st1 (proj1 HI1)).
    + exact (index_of_file_inj imports st2 (proj1 HI2)).
Qed.
