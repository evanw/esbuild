(* C08: a consumer that orders things by (stable source index, inner index)
   gets the same FILE-level order for every schedule of the scanner; a consumer
   that uses the raw arrival-order source index as sort key does not.  The
   hypothesis "every order-sensitive consumer goes through StableSourceIndices"
   is tied to the source by the translator inventory V.gen.SortKeysGen. *)
From V Require Import Common.Base C08.SortPerm C08.Comparators C08.Dfs C08.DfsProofs C08.Scanner C08.ScannerProofs.

(* graph.CloneLinkerGraph: stableSourceIndices[sourceIndex] = position in the reachable-file order *)
Definition stable_of (order : option (list Z)) (i : Z) : Z :=
  match order with
  | Some o => match index_of i o with Some p => p | None => -1 end
  | None => -1
  end.

(* an item = (file, inner index); how the linker sees it in a given run *)
Definition as_stable_ref (st : scan) (order : option (list Z)) (it : Z * Z) : stableRef :=
  let i := index_of_file st (fst it) in mkSR (stable_of order i) (mkRef i (snd it)).
(* the seeded defect: the raw arrival-order index used where the stable index belongs *)
Definition as_raw_ref (st : scan) (it : Z * Z) : stableRef :=
  let i := index_of_file st (fst it) in mkSR i (mkRef i (snd it)).

Definition linker_order (st : scan) (fuel : nat) (roots : list Z) : option (list Z) :=
  reach_order fuel (graph_of_scan st) (snd (scan_init roots)).

Lemma linker_order_spec imports roots sched st fuel :
  run_scan imports (fst (scan_init roots)) sched = Some st -> scan_complete st = true ->
  linker_order st fuel roots = option_map (map (index_of_file st)) (reach_order fuel imports roots).
Proof.
  intros Hrun Hdone. unfold linker_order.
  now destruct (scan_stable_order imports roots sched st fuel Hrun Hdone) as [-> ->].
Qed.

Section TwoSchedules.
  Variable imports : Z -> list Z.
  Variables (roots sched1 sched2 : list Z) (st1 st2 : scan) (fuel : nat).
  Hypothesis run1 : run_scan imports (fst (scan_init roots)) sched1 = Some st1.
  Hypothesis run2 : run_scan imports (fst (scan_init roots)) sched2 = Some st2.
  Hypothesis done1 : scan_complete st1 = true.
  Hypothesis done2 : scan_complete st2 = true.

  Lemma stable_of_file st sched : run_scan imports (fst (scan_init roots)) sched = Some st -> scan_complete st = true ->
    forall f, stable_of (linker_order st fuel roots) (index_of_file st f) = stable_of (reach_order fuel imports roots) f.
  Proof.
    intros Hrun Hdone f. rewrite (linker_order_spec imports roots sched st fuel Hrun Hdone).
    destruct (reach_order fuel imports roots) as [o|]; cbn [option_map stable_of]; [|reflexivity].
    destruct (scan_inv imports roots sched st Hrun) as [[HI _] _].
    now rewrite (index_of_map (index_of_file st) (index_of_file_inj imports st HI)).
  Qed.

  (* both runs order any items identically, as files *)
  Lemma stable_sort_two_schedules items :
    isort (fun a b => stableRef_less (as_stable_ref st1 (linker_order st1 fuel roots) a) (as_stable_ref st1 (linker_order st1 fuel roots) b)) items
    = isort (fun a b => stableRef_less (as_stable_ref st2 (linker_order st2 fuel roots) a) (as_stable_ref st2 (linker_order st2 fuel roots) b)) items.
  Proof.
    apply isort_ext. intros a b. unfold as_stable_ref, stableRef_less. cbn [sr_stable sr_ref r_inner].
    now rewrite !(stable_of_file st1 sched1 run1 done1), !(stable_of_file st2 sched2 run2 done2).
  Qed.
End TwoSchedules.

(* with the raw index as key the order depends on the schedule: files 1 and 2
   are imported by the entry points 10 and 20; whichever result arrives first
   decides which of them gets the smaller source index *)
Definition ex_imports (f : Z) : list Z := if f =? 10 then [1] else if f =? 20 then [2] else [].
Definition ex_roots : list Z := [0; 10; 20].
Definition ex_sched1 : list Z := [0; 10; 20; 1; 2].
Definition ex_sched2 : list Z := [0; 20; 10; 2; 1].
Definition ex_items : list (Z * Z) := [(1, 0); (2, 0)].

Lemma raw_index_sort_schedule_dependent :
  exists st1 st2,
    run_scan ex_imports (fst (scan_init ex_roots)) ex_sched1 = Some st1 /\ scan_complete st1 = true /\
    run_scan ex_imports (fst (scan_init ex_roots)) ex_sched2 = Some st2 /\ scan_complete st2 = true /\
    isort (fun a b => stableRef_less (as_raw_ref st1 a) (as_raw_ref st1 b)) ex_items
    <> isort (fun a b => stableRef_less (as_raw_ref st2 a) (as_raw_ref st2 b)) ex_items.
Proof.
  do 2 eexists. split; [vm_compute; reflexivity|]. split; [reflexivity|].
  split; [vm_compute; reflexivity|]. split; [reflexivity|]. vm_compute. discriminate.
Qed.

(* the same for the order of files inside a chunk (findImportedPartsInJSOrder):
   chunkOrder{sourceIndex, distance, tieBreaker = StableSourceIndices[sourceIndex]};
   the distance from the entry point is a property of the file *)
Definition as_chunk_order (st : scan) (order : option (list Z)) (dist : Z -> Z) (f : Z) : chunkOrder :=
  let i := index_of_file st f in mkCO i (dist f) (stable_of order i).

Lemma chunk_order_two_schedules imports roots sched1 sched2 st1 st2 fuel (dist : Z -> Z) :
  run_scan imports (fst (scan_init roots)) sched1 = Some st1 ->
  run_scan imports (fst (scan_init roots)) sched2 = Some st2 ->
  scan_complete st1 = true -> scan_complete st2 = true ->
  forall files,
    isort (fun a b => chunkOrder_less (as_chunk_order st1 (linker_order st1 fuel roots) dist a) (as_chunk_order st1 (linker_order st1 fuel roots) dist b)) files
    = isort (fun a b => chunkOrder_less (as_chunk_order st2 (linker_order st2 fuel roots) dist a) (as_chunk_order st2 (linker_order st2 fuel roots) dist b)) files.
Proof.
  intros R1 R2 D1 D2 files. apply isort_ext. intros a b. unfold as_chunk_order, chunkOrder_less. cbn [co_dist co_tie].
  now rewrite !(stable_of_file imports roots fuel st1 sched1 R1 D1), !(stable_of_file imports roots fuel st2 sched2 R2 D2).
Qed.
