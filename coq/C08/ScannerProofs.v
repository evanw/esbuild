(* C08: whatever the order in which parse results arrive, the source indices
   the scanner hands out are an injective renaming of the files, the module
   graph in indices is the file-level graph renamed, and therefore the stable
   (DFS) order computed from it is the file-level DFS order renamed: the list
   of FILES in stable order does not depend on the schedule. *)
From V Require Import Common.Base C08.SortPerm C08.Dfs C08.DfsProofs C08.Scanner.

Lemma lookupz_in f i l : lookupz f l = Some i -> In (f, i) l.
Proof.
  induction l as [|[k v] r IH]; cbn [lookupz]; [discriminate|].
  destruct (f =? k) eqn:E; intro H.
  - apply Z.eqb_eq in E. inversion H; subst. now left.
  - right; auto.
Qed.
Lemma lookupz_none f l : lookupz f l = None -> ~ In f (map fst l).
Proof.
  induction l as [|[k v] r IH]; cbn [lookupz map fst]; [auto|].
  destruct (f =? k) eqn:E; [discriminate|]. intros H [H1|H1].
  - apply Z.eqb_neq in E. congruence.
  - exact (IH H H1).
Qed.
Lemma in_lookupz f i l : NoDup (map fst l) -> In (f, i) l -> lookupz f l = Some i.
Proof.
  induction l as [|[k v] r IH]; cbn [lookupz map fst]; intros ND HI; [contradiction|].
  inversion ND as [|? ? Hn ND']; subst. destruct HI as [E|HI].
  - inversion E; subst. now rewrite Z.eqb_refl.
  - destruct (f =? k) eqn:E; [|auto]. apply Z.eqb_eq in E; subst. exfalso. apply Hn.
    change k with (fst (k, i)). now apply in_map.
Qed.

Lemma assocl_in i l is : assocl i l = Some is -> In (i, is) l.
Proof.
  induction l as [|[k v] r IH]; cbn [assocl]; [discriminate|].
  destruct (i =? k) eqn:E; intro H; [apply Z.eqb_eq in E; inversion H; subst; now left | right; auto].
Qed.
Lemma in_assocl i is l : In (i, is) l -> exists is', assocl i l = Some is'.
Proof.
  induction l as [|[k v] r IH]; cbn [assocl]; [contradiction|]. intros [E|H].
  - inversion E; subst. rewrite Z.eqb_refl. eauto.
  - destruct (i =? k); eauto.
Qed.

Lemma memz_in f l : In f l -> memz f l = true.
Proof.
  induction l as [|x r IH]; cbn [memz]; [contradiction|].
  intros [->|H].
  - now rewrite Z.eqb_refl.
  - rewrite IH by exact H. apply orb_true_r.
Qed.

Lemma remove1_other f g l : In g l -> g <> f -> In g (remove1 f l).
Proof.
  induction l as [|x r IH]; cbn [remove1]; [auto|]. intros [E|H] Hn.
  - subst. destruct (f =? g) eqn:E; [apply Z.eqb_eq in E; congruence | now left].
  - destruct (f =? x); [exact H | right; auto].
Qed.
Lemma remove1_sub f g l : In g (remove1 f l) -> In g l.
Proof.
  induction l as [|x r IH]; cbn [remove1]; [auto|]. destruct (f =? x); [now right|].
  intros [E|H]; [now left | right; auto].
Qed.

Lemma neg_code_neg f : neg_code f < 0.
Proof. unfold neg_code. destruct (f <? 0); lia. Qed.
Lemma neg_code_inj f g : neg_code f = neg_code g -> f = g.
Proof. unfold neg_code. destruct (f <? 0) eqn:E1, (g <? 0) eqn:E2; lia. Qed.

Section Scan.
  Variable imports : Z -> list Z.

  Definition visited (st : scan) (f : Z) : Prop := exists i, lookupz f (sc_vis st) = Some i.
  Definition children_ok (st : scan) (f : Z) (is : list Z) : Prop :=
    Forall2 (fun c ci => lookupz c (sc_vis st) = Some ci) (imports f) is.

  (* coverage: every visited file is pending or has been received, except
     possibly the file [x] whose result is being processed right now *)
  Definition cover (x : option Z) (st : scan) : Prop :=
    forall f i, lookupz f (sc_vis st) = Some i ->
      Some f = x \/ In f (sc_pend st) \/ exists is, In (i, is) (sc_recs st).

  Record Core (st : scan) : Prop := {
    inv_next : 0 <= sc_next st;
    inv_nodup_f : NoDup (map fst (sc_vis st));
    inv_nodup_i : NoDup (map snd (sc_vis st));
    inv_range : forall f i, In (f, i) (sc_vis st) -> 0 <= i < sc_next st;
    inv_pend : forall f, In f (sc_pend st) -> visited st f;
    inv_recs : forall i is, In (i, is) (sc_recs st) ->
                  exists f, lookupz f (sc_vis st) = Some i /\ children_ok st f is
  }.
  Definition ScanInv (st : scan) : Prop := Core st /\ cover None st.

  Definition ext (st st' : scan) : Prop :=
    forall f i, lookupz f (sc_vis st) = Some i -> lookupz f (sc_vis st') = Some i.


  Lemma children_ok_ext st st' f is : ext st st' -> children_ok st f is -> children_ok st' f is.
  Proof. unfold children_ok. intros HE H. induction H; constructor; auto. Qed.

  Lemma ext_refl st : ext st st. Proof. intros f i H; exact H. Qed.
  Lemma ext_trans a b c : ext a b -> ext b c -> ext a c.
  Proof. intros H1 H2 f i H. apply H2, H1, H. Qed.

  Lemma maybeParse_spec x st f : Core st -> cover x st ->
    let st' := fst (maybeParse st f) in let i := snd (maybeParse st f) in
    Core st' /\ cover x st' /\ ext st st' /\ lookupz f (sc_vis st') = Some i /\ sc_recs st' = sc_recs st.
  Proof.
    intros HI HC. unfold maybeParse. destruct (lookupz f (sc_vis st)) as [i|] eqn:E; cbn [fst snd].
    - exact (conj HI (conj HC (conj (ext_refl st) (conj E eq_refl)))).
    - assert (Hext : ext st (mkScan ((f, sc_next st) :: sc_vis st) (sc_next st + 1) (sc_pend st ++ [f]) (sc_recs st))).
      { intros g j Hg. cbn [sc_vis lookupz]. destruct (g =? f) eqn:Eg; [|exact Hg].
        apply Z.eqb_eq in Eg; subst. congruence. }
      destruct HI as [Hn Hf Hi Hr Hp Hrec].
      split; [|split].
      + split; cbn [sc_vis sc_next sc_pend sc_recs map fst snd].
        * lia.
        * constructor; [now apply lookupz_none | exact Hf].
        * constructor; [|exact Hi]. intro Hin. apply in_map_iff in Hin as [[g j] [Ej Hin]]. cbn in Ej; subst j.
          apply Hr in Hin. lia.
        * intros g j [Eq|Hin]; [inversion Eq; subst; lia | apply Hr in Hin; lia].
        * intros g Hg. apply in_app_or in Hg as [Hg|[Hg|[]]].
          -- destruct (Hp g Hg) as [j Hj]. exists j. now apply Hext.
          -- subst g. exists (sc_next st). cbn [sc_vis lookupz]. now rewrite Z.eqb_refl.
        * intros j is Hin. destruct (Hrec j is Hin) as (g & Hg & Hch). exists g. split; [now apply Hext|].
          eapply children_ok_ext; [exact Hext | exact Hch].
      + intros g j Hg. cbn [sc_vis sc_pend sc_recs lookupz] in *. destruct (g =? f) eqn:Eg.
        * apply Z.eqb_eq in Eg; subst. right. left. apply in_or_app. right. now left.
        * destruct (HC g j Hg) as [H|[H|H]].
          -- now left.
          -- right. left. apply in_or_app. now left.
          -- right. now right.
      + repeat split; auto. cbn [sc_vis lookupz]. now rewrite Z.eqb_refl.
  Qed.

  Lemma maybeParseAll_spec x : forall fs st, Core st -> cover x st ->
    let st' := fst (maybeParseAll st fs) in let is := snd (maybeParseAll st fs) in
    Core st' /\ cover x st' /\ ext st st' /\
    Forall2 (fun c ci => lookupz c (sc_vis st') = Some ci) fs is /\ sc_recs st' = sc_recs st.
  Proof.
    induction fs as [|f r IH]; intros st HI HC; cbn [maybeParseAll].
    - exact (conj HI (conj HC (conj (ext_refl st) (conj (Forall2_nil _) eq_refl)))).
    - destruct (maybeParse st f) as [st1 i] eqn:E1.
      pose proof (maybeParse_spec x st f HI HC) as H1. rewrite E1 in H1. cbn [fst snd] in H1.
      destruct H1 as (HI1 & HC1 & Hx1 & Hl1 & Hr1).
      destruct (maybeParseAll st1 r) as [st2 is] eqn:E2.
      pose proof (IH st1 HI1 HC1) as H2. rewrite E2 in H2. cbn [fst snd] in H2.
      destruct H2 as (HI2 & HC2 & Hx2 & Hl2 & Hr2). cbn [fst snd].
      split; [exact HI2|]. split; [exact HC2|]. split; [eapply ext_trans; eauto|].
      split; [constructor; [now apply Hx2 | exact Hl2] | congruence].
  Qed.


  Lemma recv_inv st f st' : ScanInv st -> recv imports st f = Some st' -> ScanInv st' /\ ext st st'.
  Proof.
    intros [HI HC]. unfold recv. destruct (memz f (sc_pend st)) eqn:Em; [|discriminate].
    destruct (lookupz f (sc_vis st)) as [fi|] eqn:El; [|discriminate].
    set (st0 := mkScan (sc_vis st) (sc_next st) (remove1 f (sc_pend st)) (sc_recs st)).
    assert (HI0 : Core st0).
    { destruct HI as [Hn Hf Hi Hr Hp Hrec]. split; cbn [st0 sc_vis sc_next sc_pend sc_recs]; auto.
      intros g Hg. apply Hp. eapply remove1_sub; eauto. }
    assert (HC0 : cover (Some f) st0).
    { intros g j Hg. cbn [st0 sc_vis sc_pend sc_recs] in *.
      destruct (Z.eq_dec g f) as [->|Hne]; [now left|].
      destruct (HC g j Hg) as [H|[H|H]].
      - discriminate.
      - right. left. now apply remove1_other.
      - right. now right. }
    pose proof (maybeParseAll_spec (Some f) (imports f) st0 HI0 HC0) as H.
    destruct (maybeParseAll st0 (imports f)) as [st1 is] eqn:E. cbn [fst snd] in H.
    destruct H as (HI1 & HC1 & Hx1 & Hl1 & Hr1).
    intro H; inversion H; subst st'; clear H.
    assert (Hext : ext st (mkScan (sc_vis st1) (sc_next st1) (sc_pend st1) ((fi, is) :: sc_recs st1))).
    { intros g j Hg. cbn [sc_vis]. apply Hx1. exact Hg. }
    split; [|exact Hext]. split.
    - destruct HI1 as [Hn Hf Hi Hr Hp Hrec]. split; cbn [sc_vis sc_next sc_pend sc_recs]; auto.
      intros j js [Eq|Hin].
      + inversion Eq; subst. exists f. split; [apply Hx1; exact El | exact Hl1].
      + exact (Hrec j js Hin).
    - intros g j Hg. cbn [sc_vis sc_pend sc_recs] in *. destruct (HC1 g j Hg) as [H|[H|[js H]]].
      + (* g is the file just received: its record is the new one *)
        inversion H; subst g. right. right. exists is. left.
        assert (j = fi) by (pose proof (Hx1 f fi El) as H2; cbn [st0 sc_vis] in H2; congruence).
        now subst.
      + right. now left.
      + right. right. exists js. now right.
  Qed.

  (* n counts the receives *)
  Lemma run_pres (Q : nat -> scan -> Prop) :
    (forall n st f st', Q n st -> recv imports st f = Some st' -> Q (S n) st') ->
    forall sched n st st', Q n st -> run_scan imports st sched = Some st' -> Q (n + length sched)%nat st'.
  Proof.
    intro Hstep. induction sched as [|f r IH]; intros n st st' HQ H; cbn [run_scan length] in *.
    - inversion H; subst. now rewrite Nat.add_0_r.
    - destruct (recv imports st f) as [st1|] eqn:E; [|discriminate].
      rewrite Nat.add_succ_r. exact (IH (S n) st1 st' (Hstep n st f st1 HQ E) H).
  Qed.

  Lemma run_inv sched st st' : ScanInv st -> run_scan imports st sched = Some st' -> ScanInv st' /\ ext st st'.
  Proof.
    intros HI Hrun.
    refine (run_pres (fun _ s => ScanInv s /\ ext st s) _ sched 0%nat st st' (conj HI (ext_refl st)) Hrun).
    intros _ s f s' [HIs Hx] E. destruct (recv_inv s f s' HIs E). split; eauto using ext_trans.
  Qed.

  Lemma init_inv roots : let st := fst (scan_init roots) in
    ScanInv st /\ Forall2 (fun c ci => lookupz c (sc_vis st) = Some ci) roots (snd (scan_init roots)).
  Proof.
    unfold scan_init.
    assert (HI : Core (mkScan [] 0 [] [])).
    { split; cbn; try lia; try constructor; intros; try contradiction. }
    assert (HC : cover None (mkScan [] 0 [] [])) by (intros f i H; discriminate).
    pose proof (maybeParseAll_spec None roots _ HI HC) as H. cbn zeta in H.
    destruct H as (H1 & H2 & _ & H4 & _). split; [split; assumption | exact H4].
  Qed.

  Lemma scan_inv roots sched st :
    run_scan imports (fst (scan_init roots)) sched = Some st -> ScanInv st /\ ext (fst (scan_init roots)) st.
  Proof. apply run_inv, init_inv. Qed.


  Lemma index_of_file_inj st : Core st -> forall f g, index_of_file st f = index_of_file st g -> f = g.
  Proof.
    intros HI f g. unfold index_of_file.
    destruct (lookupz f (sc_vis st)) as [i|] eqn:Ef, (lookupz g (sc_vis st)) as [j|] eqn:Eg; intro H.
    - subst j. apply lookupz_in in Ef, Eg.
      exact (f_equal fst (nodup_map_inj snd _ (inv_nodup_i st HI) _ _ Ef Eg eq_refl)).
    - apply lookupz_in in Ef. apply (inv_range st HI) in Ef. pose proof (neg_code_neg g). lia.
    - apply lookupz_in in Eg. apply (inv_range st HI) in Eg. pose proof (neg_code_neg f). lia.
    - now apply neg_code_inj.
  Qed.

  Lemma visited_count st l : Core st -> (forall f, visited st f -> In f l) ->
    (length (sc_vis st) <= length l)%nat.
  Proof.
    intros HI Hl. rewrite <- (map_length fst). apply NoDup_incl_length; [apply (inv_nodup_f st HI)|].
    intros f Hf. apply in_map_iff in Hf as [[g i] [<- Hin]]. apply Hl. exists i.
    apply in_lookupz; [apply (inv_nodup_f st HI) | exact Hin].
  Qed.

  Lemma children_map st f is : children_ok st f is -> is = map (index_of_file st) (imports f).
  Proof.
    unfold children_ok. induction 1 as [|c ci cs cis Hc _ IH]; cbn [map]; [reflexivity|].
    unfold index_of_file at 1. rewrite Hc. now rewrite IH.
  Qed.


  Lemma rec_of_file st : Core st -> forall f i is,
    lookupz f (sc_vis st) = Some i -> In (i, is) (sc_recs st) -> children_ok st f is.
  Proof.
    intros HI f i is Hf Hin. destruct (inv_recs st HI i is Hin) as (g & Hg & Hch).
    replace f with g; [exact Hch|]. apply (index_of_file_inj st HI). unfold index_of_file. now rewrite Hg, Hf.
  Qed.

  Lemma complete_received st : ScanInv st -> scan_complete st = true ->
    forall f i, lookupz f (sc_vis st) = Some i -> exists is, In (i, is) (sc_recs st).
  Proof.
    intros [_ HC] Hdone f i Hf. unfold scan_complete in Hdone. destruct (sc_pend st) eqn:Ep; [|discriminate].
    destruct (HC f i Hf) as [H|[H|H]]; [discriminate | rewrite Ep in H; contradiction | exact H].
  Qed.

  Lemma graph_of_scan_spec st : ScanInv st -> scan_complete st = true ->
    forall f, visited st f -> graph_of_scan st (index_of_file st f) = map (index_of_file st) (imports f).
  Proof.
    intros HI Hdone f [i Hf]. unfold graph_of_scan. unfold index_of_file at 1. rewrite Hf.
    destruct (complete_received st HI Hdone f i Hf) as [is H].
    destruct (in_assocl _ _ _ H) as [is' His']. rewrite His'. apply assocl_in in His'.
    exact (children_map st f is' (rec_of_file st (proj1 HI) f i is' Hf His')).
  Qed.

  Lemma visited_closed st : ScanInv st -> scan_complete st = true ->
    forall f c, visited st f -> In c (imports f) -> visited st c.
  Proof.
    intros HI Hdone f c [i Hf] Hc. destruct (complete_received st HI Hdone f i Hf) as [is H].
    pose proof (rec_of_file st (proj1 HI) f i is Hf H) as Hch.
    unfold children_ok in Hch. clear -Hch Hc. induction Hch as [|x xi xs xis Hx _ IH]; [contradiction|].
    destruct Hc as [->|Hc]; [now exists xi | auto].
  Qed.

  Lemma forall2_roots (vis0 : list (Z * Z)) st xs is :
    Forall2 (fun c ci => lookupz c vis0 = Some ci) xs is ->
    (forall f i, lookupz f vis0 = Some i -> lookupz f (sc_vis st) = Some i) ->
    (forall r, In r xs -> visited st r) /\ is = map (index_of_file st) xs.
  Proof.
    intros H Hext. induction H as [|x xi xs xis Hx _ [IH1 IH2]].
    - split; [intros r []| reflexivity].
    - split.
      + intros r [->|Hr]; [exists xi; now apply Hext | auto].
      + cbn [map]. unfold index_of_file at 1. rewrite (Hext x xi Hx). now rewrite IH2.
  Qed.

  Theorem scan_stable_order roots sched st fuel :
    run_scan imports (fst (scan_init roots)) sched = Some st -> scan_complete st = true ->
    snd (scan_init roots) = map (index_of_file st) roots /\
    reach_order fuel (graph_of_scan st) (map (index_of_file st) roots)
    = option_map (map (index_of_file st)) (reach_order fuel imports roots).
  Proof.
    intros Hrun Hdone. destruct (init_inv roots) as [_ Hroots]. cbn zeta in Hroots.
    destruct (scan_inv roots sched st Hrun) as [HI Hext].
    destruct (forall2_roots _ st roots _ Hroots Hext) as [Hvis Hmap].
    split; [exact Hmap|].
    apply (reach_order_equiv_on (index_of_file st) (index_of_file_inj st (proj1 HI)) imports (graph_of_scan st) (visited st)).
    - apply visited_closed; assumption.
    - apply graph_of_scan_spec; assumption.
    - exact Hvis.
  Qed.
End Scan.

Lemma run_scan_index_inj imports roots sched st :
  run_scan imports (fst (scan_init roots)) sched = Some st ->
  forall f g, index_of_file st f = index_of_file st g -> f = g.
Proof.
  intro Hrun. destruct (scan_inv imports roots sched st Hrun) as [[HI _] _].
  exact (index_of_file_inj imports st HI).
Qed.

Lemma run_scan_graph_renamed imports roots sched st :
  run_scan imports (fst (scan_init roots)) sched = Some st -> scan_complete st = true ->
  forall f i, lookupz f (sc_vis st) = Some i ->
    graph_of_scan st i = map (index_of_file st) (imports f).
Proof.
  intros Hrun Hdone f i Hf. destruct (scan_inv imports roots sched st Hrun) as [HI _].
  pose proof (graph_of_scan_spec imports st HI Hdone f (ex_intro _ i Hf)) as H.
  unfold index_of_file at 1 in H. now rewrite Hf in H.
Qed.

(* the allocation can be read backwards: the file of a source index *)
Definition decode_neg (i : Z) : Z := let n := - i - 1 in if Z.odd n then - (n / 2) else n / 2.
Fixpoint file_of_vis (i : Z) (l : list (Z * Z)) : option Z :=
  match l with [] => None | (f, j) :: r => if i =? j then Some f else file_of_vis i r end.
Definition file_of_index (st : scan) (i : Z) : Z :=
  if i <? 0 then decode_neg i else match file_of_vis i (sc_vis st) with Some f => f | None => -1 end.

Lemma decode_neg_code f : decode_neg (neg_code f) = f.
Proof.
  unfold decode_neg, neg_code. destruct (f <? 0) eqn:E.
  - replace (- (- (2 * Z.abs f + 1) - 1) - 1) with (1 + 2 * Z.abs f) by lia.
    rewrite Z.odd_add_mul_2. cbn [Z.odd]. replace ((1 + 2 * Z.abs f) / 2) with (Z.abs f) by lia. lia.
  - replace (- (- (2 * Z.abs f + 0) - 1) - 1) with (0 + 2 * Z.abs f) by lia.
    rewrite Z.odd_add_mul_2. cbn [Z.odd]. replace ((0 + 2 * Z.abs f) / 2) with (Z.abs f) by lia. lia.
Qed.

Lemma in_file_of_vis f i l : NoDup (map snd l) -> In (f, i) l -> file_of_vis i l = Some f.
Proof.
  induction l as [|[g j] r IH]; cbn [file_of_vis map snd]; intros ND HI; [contradiction|].
  inversion ND as [|? ? Hn ND']; subst. destruct HI as [E|HI].
  - inversion E; subst. now rewrite Z.eqb_refl.
  - destruct (i =? j) eqn:Eij; [|auto]. apply Z.eqb_eq in Eij; subst. exfalso. apply Hn.
    change j with (snd (f, j)). now apply in_map.
Qed.

Lemma file_of_index_spec imports st : Core imports st -> forall f, file_of_index st (index_of_file st f) = f.
Proof.
  intros HI f. unfold file_of_index, index_of_file. destruct (lookupz f (sc_vis st)) as [i|] eqn:E.
  - apply lookupz_in in E. pose proof (inv_range imports st HI f i E) as Hr.
    destruct (i <? 0) eqn:Ei; [lia|].
    now rewrite (in_file_of_vis f i _ (inv_nodup_i imports st HI) E).
  - pose proof (neg_code_neg f). destruct (neg_code f <? 0) eqn:En; [apply decode_neg_code | lia].
Qed.
