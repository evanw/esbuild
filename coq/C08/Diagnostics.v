(* C08: what makes the final, sorted message list independent of the schedule.
   The log is sort.Stable(SortableMsgs) of the messages in arrival order; the
   model sort [isort msg_less] is that stable sort (model_sort_stable).  If
   (1) the same messages are produced (as a multiset), (2) the messages WITHOUT
   a location arrive in the same relative order (they are all tied, so only
   their arrival order orders them: this is what fixes 49aea50, 0b86dd3 and
   5174f6d establish by logging them from one thread / merging per-goroutine
   logs in index order), and (3) two messages WITH a location and the same
   (file, line, column, kind, text) are identical (same notes: this is what
   finding C08-G4 violates for importer-located errors only in the sense that
   the location itself, i.e. the message set (1), changes), then the final
   list is the same. *)
From V Require Import Common.Base C08.SortPerm C08.Comparators C08.CmpTheory C08.ComparatorProofs.
From Coq Require Import Permutation.

Definition locless (m : msg) : bool := match m_loc m with None => true | Some _ => false end.

Lemma perm_filter {A} (p : A -> bool) l l' : Permutation l l' -> Permutation (filter p l) (filter p l').
Proof.
  induction 1 as [|x l l' HP IH|x y l|l l' l'' H1 IH1 H2 IH2]; cbn [filter].
  - constructor.
  - destruct (p x); [now constructor | exact IH].
  - destruct (p x), (p y); try reflexivity. apply perm_swap.
  - eapply Permutation_trans; eauto.
Qed.

Lemma tied_locless k x : locless k = true -> tied msg_less k x = locless x.
Proof.
  unfold locless, tied, msg_less. destruct (m_loc k); [discriminate|]. intros _.
  destruct (m_loc x); reflexivity.
Qed.

Lemma tied_msg_key k x : tied msg_less k x = true -> msg_key k = msg_key x.
Proof.
  unfold tied. intro H. apply andb_true_iff in H as [H1 H2]. apply negb_true_iff in H1, H2.
  exact (proj2 msg_order k x H1 H2).
Qed.

Lemma locless_key m : locless m = true <-> msg_key m = None.
Proof. unfold locless, msg_key. destruct (m_loc m); split; (discriminate || reflexivity). Qed.

Lemma key_none_locless m : msg_key m = None -> locless m = true.
Proof. apply locless_key. Qed.

Lemma msgs_schedule_independent l l' :
  Permutation l l' ->
  filter locless l = filter locless l' ->
  (forall a b, In a l -> In b l -> locless a = false -> msg_key a = msg_key b -> a = b) ->
  isort msg_less l = isort msg_less l'.
Proof.
  intros HP HL HK. apply (isort_tie_classes_invariant msg_less (proj1 msg_order)); [exact HP|].
  intro k. destruct (locless k) eqn:Ek.
  - rewrite (filter_ext _ _ (fun x => tied_locless k x Ek) l), (filter_ext _ _ (fun x => tied_locless k x Ek) l'). exact HL.
  - apply perm_all_equal; [now apply perm_filter|].
    intros x y Ix Iy. apply filter_In in Ix as [Ix Tx]. apply filter_In in Iy as [Iy Ty].
    apply tied_msg_key in Tx. apply tied_msg_key in Ty.
    apply HK; auto; [|congruence].
    (* x is tied with the located k, so it carries k's key and is located too *)
    destruct (locless x) eqn:Ex; [|reflexivity].
    apply locless_key in Ex. rewrite <- Tx in Ex. apply locless_key in Ex. congruence.
Qed.

(* hypothesis (2) cannot be dropped: two location-less messages in two arrival orders *)
Lemma msgs_schedule_dependent_witness :
  exists l l', Permutation l l' /\
    (forall a b, In a l -> In b l -> locless a = false -> msg_key a = msg_key b -> a = b) /\
    isort msg_less l <> isort msg_less l'.
Proof.
  exists [mkMsg None 0 [97]; mkMsg None 0 [98]], [mkMsg None 0 [98]; mkMsg None 0 [97]].
  split; [apply perm_swap|]. split.
  - intros a b [E|[E|[]]] _ H; subst; discriminate.
  - vm_compute. discriminate.
Qed.
