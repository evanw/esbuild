(* C08: the reachable-file order (and hence every stable source index) is
   equivariant under any injective renaming of the arrival-order indices. *)
From V Require Import Common.Base C08.Dfs.

(* The renamed graph g' has to be known only on a set S of files that contains
   the roots and is closed under imports (the files the scanner has visited):
   the DFS never leaves S. *)
Section Equivariance.
  Variable rho : Z -> Z.
  Hypothesis rho_inj : forall x y, rho x = rho y -> x = y.

  Lemma eqb_rho n x : (rho n =? rho x) = (n =? x).
  Proof.
    destruct (Z.eqb_spec n x) as [->|H]; [apply Z.eqb_refl|].
    apply Z.eqb_neq. intro E. exact (H (rho_inj _ _ E)).
  Qed.

  Lemma memz_map n l : memz (rho n) (map rho l) = memz n l.
  Proof. induction l as [|x r IH]; cbn [memz map]; [reflexivity|]. now rewrite IH, eqb_rho. Qed.

  Lemma index_of_map n l : index_of (rho n) (map rho l) = index_of n l.
  Proof. induction l as [|x r IH]; cbn [index_of map]; [reflexivity|]. now rewrite IH, eqb_rho. Qed.

  Definition map_st (st : dstate) : dstate :=
    match st with
    | Some (vis, ord) => Some (map rho vis, map rho ord)
    | None => None
    end.

  Variables g g' : Z -> list Z.
  Variable S : Z -> Prop.
  Hypothesis S_closed : forall n c, S n -> In c (g n) -> S c.
  Hypothesis g'_spec : forall n, S n -> g' (rho n) = map rho (g n).

  Lemma fold_visit_equiv_on fuel
    (IH : forall n st, S n -> visit fuel g' (rho n) (map_st st) = map_st (visit fuel g n st)) :
    forall cs st, (forall c, In c cs -> S c) ->
      fold_left (fun s c => visit fuel g' c s) (map rho cs) (map_st st)
      = map_st (fold_left (fun s c => visit fuel g c s) cs st).
  Proof.
    induction cs as [|c cs IHc]; intros st HS; cbn [fold_left map]; [reflexivity|].
    rewrite IH by (apply HS; now left). apply IHc. intros; apply HS; now right.
  Qed.

  Lemma visit_equiv_on : forall fuel n st, S n ->
    visit fuel g' (rho n) (map_st st) = map_st (visit fuel g n st).
  Proof.
    induction fuel as [|f IH]; intros n [[vis ord]|] HS; cbn [visit map_st]; try reflexivity.
    - rewrite memz_map. now destruct (memz n vis).
    - rewrite memz_map. destruct (memz n vis); cbn [map_st]; [reflexivity|].
      rewrite g'_spec by exact HS.
      change (Some (rho n :: map rho vis, map rho ord)) with (map_st (Some (n :: vis, ord))).
      rewrite (fold_visit_equiv_on f IH) by (intros c Hc; eapply S_closed; eauto).
      now destruct (fold_left (fun s c => visit f g c s) (g n) (Some (n :: vis, ord))) as [[v o]|].
  Qed.

  Lemma reach_order_equiv_on fuel roots : (forall r, In r roots -> S r) ->
    reach_order fuel g' (map rho roots) = option_map (map rho) (reach_order fuel g roots).
  Proof.
    intro HR. unfold reach_order.
    change (Some ([], [])) with (map_st (Some ([], []))) at 1.
    rewrite (fold_visit_equiv_on fuel (visit_equiv_on fuel)) by exact HR.
    destruct (fold_left (fun s c => visit fuel g c s) roots (Some ([], []))) as [[v o]|];
      cbn [map_st option_map]; [|reflexivity].
    now rewrite map_rev.
  Qed.
End Equivariance.

Lemma reach_order_equiv (rho : Z -> Z) (rho_inj : forall x y, rho x = rho y -> x = y)
  g g' (g'_spec : forall n, g' (rho n) = map rho (g n)) fuel roots :
  reach_order fuel g' (map rho roots) = option_map (map rho) (reach_order fuel g roots).
Proof. apply (reach_order_equiv_on rho rho_inj g g' (fun _ => True)); auto. Qed.

Lemma stable_index_equiv (rho : Z -> Z) (rho_inj : forall x y, rho x = rho y -> x = y)
  g g' (g'_spec : forall n, g' (rho n) = map rho (g n)) fuel roots o o' n :
  reach_order fuel g roots = Some o ->
  reach_order fuel g' (map rho roots) = Some o' ->
  index_of (rho n) o' = index_of n o.
Proof.
  intros H1 H2. rewrite (reach_order_equiv rho rho_inj g g' g'_spec), H1 in H2.
  injection H2 as <-. now apply index_of_map.
Qed.
