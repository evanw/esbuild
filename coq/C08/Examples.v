(* C08 non-vacuity: concrete values meeting the hypotheses of the theorems. *)
From V Require Import Common.Base C08.SortPerm C08.Comparators C08.CmpTheory C08.ComparatorProofs
  C08.Dfs C08.Serializer gen.MapSitesGen C08.MapSites C08.MapSitesProofs C08.Diagnostics C08.Scanner C08.ScannerProofs
  C08.Consumers gen.SortKeysGen C08.CollectSort C08.ScannerReach C08.SiteModels C08.ComposeHash C08.ComposeMetafile.
From V Require C18.Pieces C18.Hash C18.Ingredients.
From Coq Require Import Permutation Sorted.

(* sorting refs that arrived in two different orders gives one result *)
Definition refsA := [mkSR 2 (mkRef 7 1); mkSR 0 (mkRef 3 5); mkSR 2 (mkRef 7 0); mkSR 1 (mkRef 9 2)].
Definition refsB := [mkSR 1 (mkRef 9 2); mkSR 2 (mkRef 7 0); mkSR 0 (mkRef 3 5); mkSR 2 (mkRef 7 1)].
Example ex_sort_same : isort stableRef_less refsA = isort stableRef_less refsB.
Proof. vm_compute. reflexivity. Qed.
Example ex_sort_value : isort stableRef_less refsA
  = [mkSR 0 (mkRef 3 5); mkSR 1 (mkRef 9 2); mkSR 2 (mkRef 7 0); mkSR 2 (mkRef 7 1)].
Proof. vm_compute. reflexivity. Qed.
(* the domain hypothesis of stableRefArray_total_on_domain is satisfiable *)
Definition ex_stable_of (src : Z) : Z := if src =? 3 then 0 else if src =? 9 then 1 else if src =? 7 then 2 else src + 100.
Example ex_domain : forall a, In a refsA -> sr_stable a = ex_stable_of (r_src (sr_ref a)).
Proof. intros a [H|[H|[H|[H|[]]]]]; subst; reflexivity. Qed.
Example ex_perm : Permutation refsA refsB.
Proof. exact (Permutation_rev refsA). Qed.

(* a tie without the domain condition: the unstable source index differs, the key does not *)
Example ex_tie_outside_domain :
  stableRef_less (mkSR 1 (mkRef 4 0)) (mkSR 1 (mkRef 5 0)) = false /\
  stableRef_less (mkSR 1 (mkRef 5 0)) (mkSR 1 (mkRef 4 0)) = false.
Proof. split; reflexivity. Qed.

(* symbol counts: descending count, then stable index, then inner index *)
Example ex_symcount : isort symCount_less [mkSC 1 (mkRef 5 0) 3; mkSC 0 (mkRef 2 4) 3; mkSC 2 (mkRef 6 1) 9]
  = [mkSC 2 (mkRef 6 1) 9; mkSC 0 (mkRef 2 4) 3; mkSC 1 (mkRef 5 0) 3].
Proof. vm_compute. reflexivity. Qed.

(* messages: located ones are ordered by file, line, column, kind, text; two
   location-less ones keep their arrival order in either arrival order *)
Definition mA := mkMsg None 0 [97].
Definition mB := mkMsg None 0 [98].
Definition mC := mkMsg (Some (mkLoc [47;120] [120] 3 0)) 1 [99].
Example ex_msgs_1 : isort msg_less [mC; mA; mB] = [mA; mB; mC]. Proof. vm_compute. reflexivity. Qed.
Example ex_msgs_2 : isort msg_less [mB; mC; mA] = [mB; mA; mC]. Proof. vm_compute. reflexivity. Qed.

(* expansion keys, as in Node's PATTERN_KEY_COMPARE *)
Example ex_ek : isort expansionKeys_less [[46;47;42]; [46;47;97;47]; [46;47;97;42;98]; [46;47;97;42]]
  = [[46;47;97;47]; [46;47;97;42;98]; [46;47;97;42]; [46;47;42]].
Proof. vm_compute. reflexivity. Qed.

(* DFS: files 0 (runtime), 1 -> 2,3 ; 3 -> 2 ; entry 1; and the same graph
   after renaming the arrival indices 1<->3 *)
Definition filesA := [mkFile (-1) []; mkFile (-1) [(2, -1); (3, -1)]; mkFile (-1) []; mkFile (-1) [(2, -1)]].
Definition rho13 (n : Z) : Z := if n =? 1 then 3 else if n =? 3 then 1 else n.
Definition filesB := [mkFile (-1) []; mkFile (-1) [(2, -1)]; mkFile (-1) []; mkFile (-1) [(2, -1); (1, -1)]].
Example ex_dfs_A : findReachableFiles filesA [1] = Some [0; 2; 3; 1]. Proof. vm_compute. reflexivity. Qed.
Example ex_dfs_B : findReachableFiles filesB [3] = Some (map rho13 [0; 2; 3; 1]). Proof. vm_compute. reflexivity. Qed.
Example ex_rho_inj : forall x y, rho13 x = rho13 y -> x = y.
Proof.
  intros x y. unfold rho13.
  destruct (Z.eqb_spec x 1), (Z.eqb_spec x 3), (Z.eqb_spec y 1), (Z.eqb_spec y 3); lia.
Qed.
Example ex_graph_renamed : forall n, In n [0; 1; 2; 3] -> graph_of filesB (rho13 n) = map rho13 (graph_of filesA n).
Proof. intros n [H|[H|[H|[H|[]]]]]; subst; reflexivity. Qed.

(* serializer: a complete interleaved run of 3 workers *)
Definition ex_trace := [EvEnter 0; EvWork 0; EvLeave 0; EvEnter 1; EvWork 1; EvLeave 1; EvEnter 2; EvWork 2; EvLeave 2].
Example ex_ser : match srun 3 sinit ex_trace with Some s => all_left 3 s && list_eqb Nat.eqb (slog s) [0; 1; 2]%nat | None => false end = true.
Proof. vm_compute. reflexivity. Qed.
(* worker 1 cannot enter before worker 0 left *)
Example ex_ser_blocked : srun 3 sinit [EvEnter 0; EvEnter 1] = None. Proof. vm_compute. reflexivity. Qed.

(* the inventory is not empty and contains sites of every class *)
Example ex_sites_count : length map_sites = 63%nat. Proof. vm_compute. reflexivity. Qed.
Example ex_sites_sorted : existsb (fun s => match class_of s with Some (SortedAfter _) => true | _ => false end) map_sites = true.
Proof. vm_compute. reflexivity. Qed.
Example ex_no_stale : stale_entries = []. Proof. exact no_stale_entries. Qed.

(* diagnostics: a location-less message and two located ones, arriving in two orders *)
Definition dA := mkMsg None 0 [110].
Definition dB := mkMsg (Some (mkLoc [47;97] [97] 2 0)) 1 [119].
Definition dC := mkMsg (Some (mkLoc [47;97] [97] 1 5)) 0 [101].
Example ex_diag_perm : Permutation [dA; dB; dC] [dC; dA; dB].
Proof. apply Permutation_sym. apply (Permutation_cons_append [dA; dB] dC). Qed.
Example ex_diag_locless : filter locless [dA; dB; dC] = filter locless [dC; dA; dB]. Proof. reflexivity. Qed.
Example ex_diag_keys : forall a b, In a [dA; dB; dC] -> In b [dA; dB; dC] -> locless a = false -> msg_key a = msg_key b -> a = b.
Proof. intros a b [<-|[<-|[<-|[]]]] [<-|[<-|[<-|[]]]] H1 H2; try reflexivity; try discriminate. Qed.
Example ex_diag_result : isort msg_less [dA; dB; dC] = [dA; dC; dB] /\ isort msg_less [dC; dA; dB] = [dA; dC; dB].
Proof. split; vm_compute; reflexivity. Qed.

(* scanner: entry points 10 -> 1 and 20 -> 2 (runtime 0); in schedule 1 file 1
   gets index 3 and file 2 index 4, in schedule 2 the other way round; the
   stable order, read back as files, is the same *)
Example ex_scan_runs :
  match run_scan ex_imports (fst (scan_init ex_roots)) ex_sched1, run_scan ex_imports (fst (scan_init ex_roots)) ex_sched2 with
  | Some s1, Some s2 =>
      scan_complete s1 && scan_complete s2
      && (index_of_file s1 1 =? 3) && (index_of_file s1 2 =? 4) && (index_of_file s2 1 =? 4) && (index_of_file s2 2 =? 3)
      && option_eqb zlist_eqb (linker_order s1 5 ex_roots) (Some [0; 3; 1; 4; 2])
      && option_eqb zlist_eqb (linker_order s2 5 ex_roots) (Some [0; 4; 1; 3; 2])
      && option_eqb zlist_eqb (reach_order 5 ex_imports ex_roots) (Some [0; 1; 10; 2; 20])
  | _, _ => false
  end = true.
Proof. vm_compute. reflexivity. Qed.
(* a result cannot be received twice, nor before the file was discovered *)
Example ex_scan_blocked : run_scan ex_imports (fst (scan_init ex_roots)) [1] = None /\
                          run_scan ex_imports (fst (scan_init ex_roots)) [10; 10] = None.
Proof. split; vm_compute; reflexivity. Qed.

(* collect-then-sort with the model sort as sorter *)
Example ex_collect_is_sort : IsSort str_ltb (isort str_ltb).
Proof. exact (isort_is_sort str_ltb str_sw). Qed.
Example ex_collect : collect_then_sort (isort str_ltb) [] (fun k : list Z => k) [[98]; [97; 97]; [97]]
                   = collect_then_sort (isort str_ltb) [] (fun k : list Z => k) [[97]; [98]; [97; 97]].
Proof. vm_compute. reflexivity. Qed.
Example ex_regular_count : length regular_collect_sort_sites = 21%nat. Proof. vm_compute. reflexivity. Qed.
Example ex_key_inits_count : length stable_key_inits = 6%nat /\ length sorted_append_exprs = 26%nat. Proof. split; vm_compute; reflexivity. Qed.

Definition ex_universe : list Z := [0; 10; 20; 1; 2].
Example ex_universe_roots : forall r, In r ex_roots -> In r ex_universe.
Proof. intros r [<-|[<-|[<-|[]]]]; cbn; auto. Qed.
Example ex_universe_closed : forall f c, In f ex_universe -> In c (ex_imports f) -> In c ex_universe.
Proof.
  intros f c Hf Hc. unfold ex_universe in *. cbn [In] in Hf.
  destruct Hf as [<-|[<-|[<-|[<-|[<-|[]]]]]]; cbn in Hc; cbn [In]; lia.
Qed.
Example ex_reach : reach ex_imports ex_roots 2.
Proof. apply (reach_step _ _ 20 2); [apply reach_root; cbn; auto | cbn; auto]. Qed.
Example ex_counts : match run_scan ex_imports (fst (scan_init ex_roots)) [0; 20] with
                    | Some st => (length (sc_vis st) =? 4)%nat && (length (sc_pend st) =? 2)%nat | None => false end = true.
Proof. vm_compute. reflexivity. Qed.

(* the shaped and irregular inventories are not empty *)
Example ex_shaped_count : length shaped_fold_sites = 14%nat /\ length irregular_models = 5%nat /\ length unshaped_fold_sites = 16%nat.
Proof. vm_compute. auto. Qed.

(* two chunks that differ (the index carried by a chunk-reference piece) but agree on every hash ingredient *)
Definition hx_c1 : C18.Hash.chunk :=
  C18.Hash.mkChunk true [C18.Hash.mkPart [102;105;108;101] [47;97] [97] 0 2] [([97], 3); ([46;106;115], 0)]
    (Some [C18.Pieces.mkPiece [120] 0 2; C18.Pieces.mkPiece [121] 0 0]) [] [] [] [] [1%nat].
Definition hx_c2 : C18.Hash.chunk :=
  C18.Hash.mkChunk true [C18.Hash.mkPart [102;105;108;101] [47;97] [97] 0 2] [([97], 3); ([46;106;115], 0)]
    (Some [C18.Pieces.mkPiece [120] 7 2; C18.Pieces.mkPiece [121] 0 0]) [] [] [] [] [1%nat].
Definition hx_leaf : C18.Hash.chunk := C18.Hash.mkChunk false [] [([98], 3)] None [122] [] [] [] [].
Example ex_lists_agree : lists_agree [] (fun _ => []) [hx_c1; hx_leaf] [hx_c2; hx_leaf].
Proof. repeat constructor. Qed.
Example ex_chunks_differ : hx_c1 <> hx_c2. Proof. discriminate. Qed.
Example ex_names : names_of (fun b => b) [] (fun _ => []) [hx_c1; hx_leaf] <> None.
Proof. vm_compute. discriminate. Qed.

(* the allocation of each example run can be read backwards, so per-index
   descriptions that are descriptions of the file exist *)
Example ex_inverse :
  match run_scan ex_imports (fst (scan_init ex_roots)) ex_sched1 with
  | Some st => forallb (fun f => file_of_index st (index_of_file st f) =? f) [0; 10; 20; 1; 2; 77; -5]
  | None => false end = true.
Proof. vm_compute. reflexivity. Qed.
Example ex_keys_sorted : map (fun k : list Z => length k) (isort str_ltb [[98]; [97; 97]; [97]])
                       = map (fun k : list Z => length k) (isort str_ltb [[97]; [98]; [97; 97]]).
Proof. vm_compute. reflexivity. Qed.

(* the location filter really rejects an absolute/log-style path expression *)
From Coq Require Import String.
From V Require Import gen.HashPathsGen C08.HashPaths.
Example ex_location_free : location_free "file.InputFile.Source.PrettyPaths.Rel"%string = true
  /\ location_free "file.InputFile.Source.PrettyPaths.Select(c.options.LogPathStyle)"%string = false
  /\ location_free "file.InputFile.Source.PrettyPaths.Abs"%string = false.
Proof. repeat split; vm_compute; reflexivity. Qed.
Example ex_hash_defs : List.length hash_operand_definitions = 4%nat. Proof. vm_compute. reflexivity. Qed.
