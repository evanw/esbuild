(* C08: every comparator model equals the Less derived from a lexicographic
   total order on its key projection; hence strict weak order + total on keys. *)
From V Require Import Common.Base C08.SortPerm C08.Comparators C08.CmpTheory.

(* The ways a Go Less spells one lexicographic level on an integer field:
   ascending or descending, as a disjunction or as a chain of ifs. *)
Lemma asc_or x y r : (x <? y) || ((x =? y) && r) = lex3 (x ?= y) r.
Proof. unfold Z.ltb. rewrite Z.eqb_compare. destruct (x ?= y); reflexivity. Qed.
Lemma desc_or x y r : (x >? y) || ((x =? y) && r) = lex3 (y ?= x) r.
Proof. unfold Z.gtb. rewrite Z.eqb_compare, (Z.compare_antisym x y). destruct (x ?= y); reflexivity. Qed.
Lemma asc_if x y r : (if x <? y then true else if x >? y then false else r) = lex3 (x ?= y) r.
Proof. unfold Z.ltb, Z.gtb. destruct (x ?= y); reflexivity. Qed.
Lemma desc_if x y r : (if x >? y then true else if x <? y then false else r) = lex3 (y ?= x) r.
Proof. unfold Z.ltb, Z.gtb. rewrite (Z.compare_antisym x y). destruct (x ?= y); reflexivity. Qed.
Lemma desc_if2 x y r : (if x >? y then true else if y >? x then false else r) = lex3 (y ?= x) r.
Proof. unfold Z.gtb. rewrite (Z.compare_antisym x y). destruct (x ?= y); reflexivity. Qed.
Lemma asc_neq x y r : (if negb (x =? y) then x <? y else r) = lex3 (x ?= y) r.
Proof. unfold Z.ltb. rewrite Z.eqb_compare. destruct (x ?= y); reflexivity. Qed.

Definition zz_cmp := lex_cmp Z.compare Z.compare.
Lemma good_zz : GoodCmp zz_cmp. Proof. apply good_lex; apply good_Z. Qed.
Definition dz_cmp := lex_cmp (rev_cmp Z.compare) Z.compare.   (* first descending *)
Lemma good_dz : GoodCmp dz_cmp. Proof. apply good_lex; [apply good_rev|]; apply good_Z. Qed.

Definition stableRef_key (a : stableRef) : Z * Z := (sr_stable a, r_inner (sr_ref a)).
Lemma stableRef_spec a b : stableRef_less a b = lt_of zz_cmp (stableRef_key a) (stableRef_key b).
Proof. unfold stableRef_less, zz_cmp. now rewrite asc_or, lt_of_lex. Qed.

Definition chunkOrder_key (a : chunkOrder) : Z * Z := (co_dist a, co_tie a).
Lemma chunkOrder_spec a b : chunkOrder_less a b = lt_of zz_cmp (chunkOrder_key a) (chunkOrder_key b).
Proof. unfold chunkOrder_less, zz_cmp. now rewrite asc_or, lt_of_lex. Qed.

Lemma crossChunkImport_spec a b : crossChunkImport_less a b = lt_of Z.compare a b.
Proof. reflexivity. Qed.

Definition symCount_key (a : symCount) : Z * (Z * Z) := (sc_count a, (sc_stable a, r_inner (sc_ref a))).
Definition symCount_cmp := lex_cmp (rev_cmp Z.compare) zz_cmp.
Lemma good_symCount : GoodCmp symCount_cmp.
Proof. apply good_lex; [apply good_rev, good_Z | apply good_zz]. Qed.
Lemma symCount_spec a b : symCount_less a b = lt_of symCount_cmp (symCount_key a) (symCount_key b).
Proof. unfold symCount_less, symCount_cmp, zz_cmp. now rewrite desc_if, asc_if, !lt_of_lex. Qed.

Definition slotCount_key (a : slotCount) : Z * Z := (sl_count a, sl_slot a).
Lemma slotCount_spec a b : slotCount_less a b = lt_of dz_cmp (slotCount_key a) (slotCount_key b).
Proof. unfold slotCount_less, dz_cmp. now rewrite desc_or, lt_of_lex. Qed.

Definition charCount_key (a : charCount) : Z * Z := (cc_count a, cc_index a).
Lemma charCount_spec a b : charCount_less a b = lt_of dz_cmp (charCount_key a) (charCount_key b).
Proof. unfold charCount_less, dz_cmp. now rewrite desc_or, lt_of_lex. Qed.

Definition scopeMember_key (a : ref) : Z * Z := (r_inner a, r_src a).
Lemma scopeMember_spec a b : scopeMember_less a b = lt_of zz_cmp (scopeMember_key a) (scopeMember_key b).
Proof. unfold scopeMember_less, zz_cmp. now rewrite asc_or, lt_of_lex. Qed.

Lemma ccItem_spec a b : ccItem_less a b = lt_of str_cmp (cci_alias a) (cci_alias b).
Proof. reflexivity. Qed.

Definition metafile_key (a : mfEntry) : Z * list Z := (mf_size a, mf_name a).
Definition metafile_cmp := lex_cmp (rev_cmp Z.compare) str_cmp.
Lemma good_metafile : GoodCmp metafile_cmp.
Proof. apply good_lex; [apply good_rev, good_Z | apply good_str]. Qed.
Lemma metafile_spec a b : metafile_less a b = lt_of metafile_cmp (metafile_key a) (metafile_key b).
Proof. unfold metafile_less, metafile_cmp. now rewrite desc_or, lt_of_lex. Qed.

(* expansion keys: key = (baseLength desc, has-star first, length desc) *)
Definition ek_base (k : list Z) : Z := if index_byte k star >=? 0 then index_byte k star else zlen k.
Definition ek_nostar (k : list Z) : Z := if index_byte k star <? 0 then 1 else 0.
Definition ek_key (k : list Z) : Z * (Z * Z) := (ek_base k, (ek_nostar k, zlen k)).
Definition ek_cmp := lex_cmp (rev_cmp Z.compare) (lex_cmp Z.compare (rev_cmp Z.compare)).
Lemma good_ek : GoodCmp ek_cmp.
Proof. apply good_lex; [apply good_rev, good_Z | apply good_lex; [apply good_Z | apply good_rev, good_Z]]. Qed.
Lemma expansionKeys_spec a b : expansionKeys_less a b = lt_of ek_cmp (ek_key a) (ek_key b).
Proof.
  unfold expansionKeys_less, ek_cmp; cbv zeta. rewrite !desc_if2, !lt_of_lex.
  unfold ek_key, ek_base, ek_nostar, rev_cmp, lt_of, Z.geb, Z.ltb; cbn [fst snd].
  generalize (index_byte a star) (index_byte b star) (zlen a) (zlen b). intros sa sb la lb.
  (* The code looks at the stars only after the base lengths, the key order
     before the lengths.  Once it is known which key has a star (the sign of
     its star index) both sides compare the same base lengths, and differ at
     most in how they spell the last level, the comparison of the lengths. *)
  destruct (sa ?= 0), (sb ?= 0); cbn.
  all: destruct (lb ?= la); reflexivity.
Qed.

Definition msg_key (m : msg) : option (list Z * (list Z * (Z * (Z * (Z * list Z))))) :=
  match m_loc m with
  | None => None
  | Some l => Some (l_abs l, (l_rel l, (l_line l, (l_col l, (m_kind m, m_text m)))))
  end.
Definition msg_cmp :=
  opt_cmp (lex_cmp str_cmp (lex_cmp str_cmp (lex_cmp Z.compare (lex_cmp Z.compare (lex_cmp Z.compare str_cmp))))).
Lemma good_msg : GoodCmp msg_cmp.
Proof. apply good_opt. repeat (apply good_lex; try apply good_str; try apply good_Z). Qed.
Lemma msg_spec a b : msg_less a b = lt_of msg_cmp (msg_key a) (msg_key b).
Proof.
  unfold msg_less, msg_cmp, msg_key.
  destruct (m_loc a) as [la|], (m_loc b) as [lb|]; try reflexivity.
  rewrite lt_of_opt_some, !lt_of_lex, !asc_neq; cbn [fst snd].
  unfold file_eqb, str_ltb, lt_of. rewrite !str_eqb_cmp.
  destruct (str_cmp (l_abs la) (l_abs lb)); try reflexivity.
  destruct (str_cmp (l_rel la) (l_rel lb)); reflexivity.
Qed.

Definition TiedKeys {A K} (less : A -> A -> bool) (key : A -> K) : Prop :=
  forall a b, less a b = false -> less b a = false -> key a = key b.

Lemma via_key_order {A K} (key : A -> K) cmp (G : GoodCmp cmp) less :
  (forall a b, less a b = lt_of cmp (key a) (key b)) -> StrictWeak less /\ TiedKeys less key.
Proof. intro S. exact (conj (via_key_strict_weak _ _ G _ S) (via_key_tied_keys _ _ G _ S)). Qed.

Lemma stableRef_order : StrictWeak stableRef_less /\ TiedKeys stableRef_less stableRef_key.
Proof. exact (via_key_order _ _ good_zz _ stableRef_spec). Qed.
Lemma chunkOrder_order : StrictWeak chunkOrder_less /\ TiedKeys chunkOrder_less chunkOrder_key.
Proof. exact (via_key_order _ _ good_zz _ chunkOrder_spec). Qed.
Lemma crossChunkImport_order : StrictWeak crossChunkImport_less /\ TiedKeys crossChunkImport_less (fun x => x).
Proof. exact (via_key_order _ _ good_Z _ crossChunkImport_spec). Qed.
Lemma ccItem_order : StrictWeak ccItem_less /\ TiedKeys ccItem_less cci_alias.
Proof. exact (via_key_order _ _ good_str _ ccItem_spec). Qed.
Lemma symCount_order : StrictWeak symCount_less /\ TiedKeys symCount_less symCount_key.
Proof. exact (via_key_order _ _ good_symCount _ symCount_spec). Qed.
Lemma slotCount_order : StrictWeak slotCount_less /\ TiedKeys slotCount_less slotCount_key.
Proof. exact (via_key_order _ _ good_dz _ slotCount_spec). Qed.
Lemma charCount_order : StrictWeak charCount_less /\ TiedKeys charCount_less charCount_key.
Proof. exact (via_key_order _ _ good_dz _ charCount_spec). Qed.
Lemma scopeMember_order : StrictWeak scopeMember_less /\ TiedKeys scopeMember_less scopeMember_key.
Proof. exact (via_key_order _ _ good_zz _ scopeMember_spec). Qed.
Lemma metafile_order : StrictWeak metafile_less /\ TiedKeys metafile_less metafile_key.
Proof. exact (via_key_order _ _ good_metafile _ metafile_spec). Qed.
Lemma expansionKeys_order : StrictWeak expansionKeys_less /\ TiedKeys expansionKeys_less ek_key.
Proof. exact (via_key_order _ _ good_ek _ expansionKeys_spec). Qed.
Lemma msg_order : StrictWeak msg_less /\ TiedKeys msg_less msg_key.
Proof. exact (via_key_order _ _ good_msg _ msg_spec). Qed.

(* refs whose StableSourceIndex comes from an injective table (StableSourceIndices
   is the position in the DFS order, a permutation of the reachable files) *)
Lemma stableRef_total_on_domain (stable_of : Z -> Z) l :
  (forall x y, stable_of x = stable_of y -> x = y) ->
  (forall a, In a l -> sr_stable a = stable_of (r_src (sr_ref a))) ->
  TotalOn stableRef_less l.
Proof.
  intros Hinj Hdom. apply (via_key_total_on _ _ good_zz _ stableRef_spec).
  intros [sa [ra ia]] [sb [rb ib]] Ia Ib [= -> ->]. apply Hdom in Ia, Ib. cbn in Ia, Ib.
  rewrite (Hinj ra rb) by congruence. reflexivity.
Qed.

(* tieBreaker = stable index of the file *)
Lemma chunkOrder_total_on_domain (stable_of : Z -> Z) l :
  (forall x y, stable_of x = stable_of y -> x = y) ->
  (forall a, In a l -> co_tie a = stable_of (co_src a)) ->
  TotalOn chunkOrder_less l.
Proof.
  intros Hinj Hdom. apply (via_key_total_on _ _ good_zz _ chunkOrder_spec).
  intros [sa da ta] [sb db tb] Ia Ib [= -> ->]. apply Hdom in Ia, Ib. cbn in Ia, Ib.
  rewrite (Hinj sa sb) by congruence. reflexivity.
Qed.

Lemma symCount_total_on_domain (stable_of : Z -> Z) l :
  (forall x y, stable_of x = stable_of y -> x = y) ->
  (forall a, In a l -> sc_stable a = stable_of (r_src (sc_ref a))) ->
  TotalOn symCount_less l.
Proof.
  intros Hinj Hdom. apply (via_key_total_on _ _ good_symCount _ symCount_spec).
  intros [sa [ra ia] ca] [sb [rb ib] cb] Ia Ib [= -> -> ->]. apply Hdom in Ia, Ib. cbn in Ia, Ib.
  rewrite (Hinj ra rb) by congruence. reflexivity.
Qed.

(* keys that are the whole element: total without any domain condition *)
Lemma slotCount_total l : TotalOn slotCount_less l.
Proof. apply (via_key_total_on _ _ good_dz _ slotCount_spec). now intros [] [] _ _ [= -> ->]. Qed.
Lemma charCount_total l : TotalOn charCount_less l.
Proof. apply (via_key_total_on _ _ good_dz _ charCount_spec). now intros [] [] _ _ [= -> ->]. Qed.
Lemma scopeMember_total l : TotalOn scopeMember_less l.
Proof. apply (via_key_total_on _ _ good_zz _ scopeMember_spec). now intros [] [] _ _ [= -> ->]. Qed.
Lemma metafile_total l : TotalOn metafile_less l.
Proof. apply (via_key_total_on _ _ good_metafile _ metafile_spec). now intros [] [] _ _ [= -> ->]. Qed.
Lemma crossChunkImport_total l : TotalOn crossChunkImport_less l.
Proof. apply (via_key_total_on _ _ good_Z _ crossChunkImport_spec). auto. Qed.
(* export aliases of one chunk are pairwise distinct (they are the keys the
   importing chunk uses), hence injective on the imported items *)
Lemma ccItem_total_on_domain l :
  (forall a b, In a l -> In b l -> cci_alias a = cci_alias b -> a = b) -> TotalOn ccItem_less l.
Proof. apply (via_key_total_on _ _ good_str _ ccItem_spec). Qed.

(* msg_key injective on l: the located messages differ in (file, line, column,
   kind, text), and at most one message has no location *)
Lemma msg_total_on_injective_keys l :
  (forall a b, In a l -> In b l -> msg_key a = msg_key b -> a = b) -> TotalOn msg_less l.
Proof. apply (via_key_total_on _ _ good_msg _ msg_spec). Qed.

(* ... but ALL messages without a location are tied, whatever their kind and text *)
Lemma msg_locationless_tied a b :
  m_loc a = None -> m_loc b = None -> msg_less a b = false /\ msg_less b a = false.
Proof. intros Ha Hb. unfold msg_less. rewrite Ha, Hb. auto. Qed.

Lemma msg_total_refuted_witness :
  exists a b, a <> b /\ msg_less a b = false /\ msg_less b a = false.
Proof.
  exists (mkMsg None 0 [97]), (mkMsg None 0 [98]). split; [discriminate | split; reflexivity].
Qed.

(* "./a*" style keys: same base length, same length => tied although distinct;
   harmless because parseImportsExportsMap uses sort.Stable on the file order *)
Lemma expansionKeys_total_refuted_witness :
  exists a b, a <> b /\ expansionKeys_less a b = false /\ expansionKeys_less b a = false.
Proof. exists [97; 42], [98; 42]. split; [discriminate | split; reflexivity]. Qed.
