(* C08: order-insensitivity lemmas.  Pure list theory (no esbuild model here):
   - any two sorted permutations of permutation-equal inputs coincide when the
     comparator is a strict weak order that is total on the elements at hand
     (this is why Go's unstable sort.Sort gives a canonical result exactly
     when the sort keys are injective);
   - the same for the key projection when the comparator only looks at keys;
   - commutative accumulations and per-key independent map writes do not
     depend on the iteration order.
   Also [isort], the model sort used by the correspondence checkers. *)
From V Require Import Common.Base.
From Coq Require Import Permutation Sorted.

Section Sorting.
  Context {A : Type}.
  Variable ltb : A -> A -> bool.

  (* strict weak order, the contract of sort.Interface.Less *)
  Record StrictWeak : Prop := {
    sw_irrefl : forall x, ltb x x = false;
    sw_trans : forall x y z, ltb x y = true -> ltb y z = true -> ltb x z = true;
    (* incomparability is transitive, in its "negative transitivity" form *)
    sw_negtrans : forall x y z, ltb x y = false -> ltb y z = false -> ltb x z = false
  }.

  Definition TotalOn (l : list A) : Prop :=
    forall x y, In x l -> In y l -> ltb x y = false -> ltb y x = false -> x = y.

  (* what sort.Sort / sort.Stable guarantee about their result: no later
     element is Less than its predecessor *)
  Definition ge_rel (x y : A) : Prop := ltb y x = false.
  Definition SortedBy (l : list A) : Prop := Sorted ge_rel l.

  Lemma sorted_strongly (SW : StrictWeak) l : SortedBy l -> StronglySorted ge_rel l.
  Proof.
    intro H. apply Sorted_StronglySorted; [|exact H].
    intros x y z Hxy Hyz. unfold ge_rel in *. exact (sw_negtrans SW z y x Hyz Hxy).
  Qed.

  Lemma sorted_heads_tied (SW : StrictWeak) x s y s' :
    StronglySorted ge_rel (x :: s) -> StronglySorted ge_rel (y :: s') ->
    Permutation (x :: s) (y :: s') -> ltb x y = false /\ ltb y x = false.
  Proof.
    intros Hs Hs' HP. apply StronglySorted_inv in Hs as [_ Hx], Hs' as [_ Hy].
    rewrite Forall_forall in Hx, Hy. split.
    - destruct (Permutation_in x HP (or_introl eq_refl)) as [<-|Ix]; [apply (sw_irrefl SW) | exact (Hy x Ix)].
    - destruct (Permutation_in y (Permutation_sym HP) (or_introl eq_refl)) as [<-|Iy];
        [apply (sw_irrefl SW) | exact (Hx y Iy)].
  Qed.

  Lemma sorted_perm_unique_aux (SW : StrictWeak) :
    forall s s', StronglySorted ge_rel s -> StronglySorted ge_rel s' ->
      Permutation s s' -> TotalOn s -> s = s'.
  Proof.
    induction s as [|x s IH]; intros s' Hs Hs' HP HT.
    - apply Permutation_nil in HP. now subst.
    - destruct s' as [|y s']; [apply Permutation_sym, Permutation_nil in HP; discriminate|].
      destruct (sorted_heads_tied SW x s y s' Hs Hs' HP) as [Hxy Hyx].
      assert (x = y) as <-.
      { apply HT; auto; [now left | exact (Permutation_in y (Permutation_sym HP) (or_introl eq_refl))]. }
      apply StronglySorted_inv in Hs as [Hs _], Hs' as [Hs' _]. f_equal. apply IH; auto.
      + eapply Permutation_cons_inv; exact HP.
      + intros a b Ia Ib. apply HT; now right.
  Qed.

  Lemma sorted_perm_unique (SW : StrictWeak) :
    forall l l' s s', Permutation l l' -> TotalOn l ->
      Permutation l s -> SortedBy s -> Permutation l' s' -> SortedBy s' -> s = s'.
  Proof.
    intros l l' s s' HP HT Hls Hs Hls' Hs'.
    apply (sorted_perm_unique_aux SW); try (apply sorted_strongly; assumption).
    - eapply Permutation_trans; [apply Permutation_sym; exact Hls|].
      eapply Permutation_trans; [exact HP | exact Hls'].
    - intros x y Ix Iy. apply HT; eapply Permutation_in; try (apply Permutation_sym; exact Hls); assumption.
  Qed.

  Definition IsSort (sort : list A -> list A) : Prop :=
    forall l, Permutation l (sort l) /\ SortedBy (sort l).

  Lemma sort_fun_perm_invariant (SW : StrictWeak) (sort1 sort2 : list A -> list A) :
    IsSort sort1 -> IsSort sort2 ->
    forall l l', Permutation l l' -> TotalOn l -> sort1 l = sort2 l'.
  Proof.
    intros H1 H2 l l' HP HT. destruct (H1 l) as [P1 S1]. destruct (H2 l') as [P2 S2].
    exact (sorted_perm_unique SW l l' _ _ HP HT P1 S1 P2 S2).
  Qed.

  (* model sort: stable insertion sort (x stays in front of later ties) *)
  Fixpoint insert (x : A) (l : list A) : list A :=
    match l with
    | [] => [x]
    | y :: r => if ltb y x then y :: insert x r else x :: l
    end.
  Fixpoint isort (l : list A) : list A :=
    match l with [] => [] | x :: r => insert x (isort r) end.

  Lemma insert_perm x l : Permutation (x :: l) (insert x l).
  Proof.
    induction l as [|y r IH]; cbn [insert]; [reflexivity|].
    destruct (ltb y x); [|reflexivity].
    eapply Permutation_trans; [apply perm_swap|]. now apply perm_skip.
  Qed.
  Lemma isort_perm l : Permutation l (isort l).
  Proof.
    induction l as [|x r IH]; cbn [isort]; [constructor|].
    eapply Permutation_trans; [apply perm_skip; exact IH | apply insert_perm].
  Qed.

  Lemma insert_sorted (SW : StrictWeak) x l : SortedBy l -> SortedBy (insert x l).
  Proof.
    unfold SortedBy. induction l as [|y r IH]; intro H; cbn [insert].
    - repeat constructor.
    - destruct (ltb y x) eqn:E.
      + inversion H as [|? ? Hr Hh]; subst. constructor; [now apply IH|].
        assert (Exy : ltb x y = false).
        { destruct (ltb x y) eqn:E2; [|reflexivity].
          pose proof (sw_trans SW x y x E2 E) as C. rewrite (sw_irrefl SW) in C. discriminate. }
        destruct r as [|z r]; cbn [insert].
        * constructor. exact Exy.
        * destruct (ltb z x); constructor; [|exact Exy]. inversion Hh; subst. assumption.
      + constructor; [exact H|]. constructor. exact E.
  Qed.
  Lemma isort_sorted (SW : StrictWeak) l : SortedBy (isort l).
  Proof. induction l as [|x r IH]; cbn [isort]; [constructor | now apply insert_sorted]. Qed.

  Lemma isort_is_sort (SW : StrictWeak) : IsSort isort.
  Proof. intro l; split; [apply isort_perm | now apply isort_sorted]. Qed.

  (* whatever algorithm sort.Sort uses, its result is the model's *)
  Lemma any_sort_eq_isort (SW : StrictWeak) l s :
    TotalOn l -> Permutation l s -> SortedBy s -> s = isort l.
  Proof.
    intros HT HP Hs.
    eapply (sorted_perm_unique SW l l); eauto using isort_perm, isort_sorted.
  Qed.

  Definition tied (k x : A) : bool := negb (ltb k x) && negb (ltb x k).

  Lemma insert_filter_tied (SW : StrictWeak) k x l :
    filter (tied k) (insert x l) = (if tied k x then [x] else []) ++ filter (tied k) l.
  Proof.
    induction l as [|y r IH]; cbn [insert filter app].
    - destruct (tied k x); reflexivity.
    - destruct (ltb y x) eqn:E; cbn [filter].
      + rewrite IH. destruct (tied k y) eqn:Ty; [|reflexivity].
        destruct (tied k x) eqn:Tx; [|reflexivity]. exfalso.
        (* y ~ k ~ x would make y and x incomparable *)
        unfold tied in Ty, Tx. apply andb_true_iff in Ty as [Ty1 Ty2]. apply andb_true_iff in Tx as [Tx1 Tx2].
        apply negb_true_iff in Ty1, Ty2, Tx1, Tx2.
        pose proof (sw_negtrans SW y k x Ty2 Tx1) as C. congruence.
      + destruct (tied k x); reflexivity.
  Qed.

  Lemma isort_stable (SW : StrictWeak) k l : filter (tied k) (isort l) = filter (tied k) l.
  Proof.
    induction l as [|x r IH]; cbn [isort filter]; [reflexivity|].
    rewrite (insert_filter_tied SW), IH. destruct (tied k x); reflexivity.
  Qed.

  (* two sorted permutations that agree on every tie class are equal: the
     result of a STABLE sort is determined by the multiset of elements and the
     arrival order inside each tie class *)
  Lemma sorted_classes_unique (SW : StrictWeak) :
    forall s s', SortedBy s -> SortedBy s' -> Permutation s s' ->
      (forall k, filter (tied k) s = filter (tied k) s') -> s = s'.
  Proof.
    intros s s' Hs Hs'. apply (sorted_strongly SW) in Hs. apply (sorted_strongly SW) in Hs'.
    revert s' Hs'. induction s as [|x s IH]; intros s' Hs' HP HF.
    - apply Permutation_nil in HP. now subst.
    - destruct s' as [|y s']; [apply Permutation_sym, Permutation_nil in HP; discriminate|].
      destruct (sorted_heads_tied SW x s y s' Hs Hs' HP) as [Hxy Hyx].
      (* x leads its own tie class in s, and y, tied with x, leads it in s' *)
      assert (x = y) as <-.
      { assert (Txx : tied x x = true) by (unfold tied; now rewrite (sw_irrefl SW)).
        assert (Txy : tied x y = true) by (unfold tied; now rewrite Hxy, Hyx).
        pose proof (HF x) as H. cbn [filter] in H. rewrite Txx, Txy in H. now inversion H. }
      apply StronglySorted_inv in Hs as [Hs _], Hs' as [Hs' _]. f_equal. apply IH; auto.
      + eapply Permutation_cons_inv; exact HP.
      + intro k. pose proof (HF k) as H. cbn [filter] in H. destruct (tied k x); [now inversion H | exact H].
  Qed.

  Lemma isort_tie_classes_invariant (SW : StrictWeak) l l' :
    Permutation l l' -> (forall k, filter (tied k) l = filter (tied k) l') -> isort l = isort l'.
  Proof.
    intros HP HF. apply (sorted_classes_unique SW); try apply (isort_sorted SW).
    - eapply Permutation_trans; [apply Permutation_sym, isort_perm|].
      eapply Permutation_trans; [exact HP | apply isort_perm].
    - intro k. now rewrite !(isort_stable SW).
  Qed.
End Sorting.

Lemma isort_ext {A} (l1 l2 : A -> A -> bool) : (forall a b, l1 a b = l2 a b) -> forall l, isort l1 l = isort l2 l.
Proof.
  intros HE. assert (HI : forall x l, insert l1 x l = insert l2 x l).
  { intros x l. induction l as [|y r IH]; cbn [insert]; [reflexivity|]. rewrite HE, IH. reflexivity. }
  induction l as [|x r IH]; cbn [isort]; [reflexivity|]. now rewrite IH, HI.
Qed.

(* comparator that looks at a key only: the KEY sequence of the result is
   canonical even if elements with equal keys exist (sort.Stable on messages) *)
Section Keyed.
  Context {A K : Type}.
  Variable key : A -> K.
  Variable kltb : K -> K -> bool.
  Definition on_key (x y : A) : bool := kltb (key x) (key y).

  Lemma sorted_map_key l : SortedBy on_key l -> SortedBy kltb (map key l).
  Proof.
    unfold SortedBy. induction 1 as [|x l Hs IH Hh]; cbn [map]; constructor; auto.
    destruct Hh; cbn [map]; constructor. exact H.
  Qed.

  Lemma sort_keys_invariant (SW : StrictWeak kltb) :
    forall l l' s s', Permutation l l' -> TotalOn kltb (map key l) ->
      Permutation l s -> SortedBy on_key s -> Permutation l' s' -> SortedBy on_key s' ->
      map key s = map key s'.
  Proof.
    intros l l' s s' HP HT Hls Hs Hls' Hs'.
    eapply (sorted_perm_unique kltb SW (map key l) (map key l'));
      eauto using Permutation_map, sorted_map_key.
  Qed.

  Lemma on_key_strict_weak : StrictWeak kltb -> StrictWeak on_key.
  Proof.
    intros [I T N]. split; unfold on_key; intros; eauto.
  Qed.

  Lemma on_key_total_on l :
    TotalOn kltb (map key l) ->
    (forall x y, In x l -> In y l -> key x = key y -> x = y) -> TotalOn on_key l.
  Proof.
    intros HT Hinj x y Ix Iy H1 H2. apply Hinj; auto.
    apply HT; auto using in_map.
  Qed.
End Keyed.

(* Iteration-order independence of accumulations.  The step only has to
   commute up to an observation R (e.g. set equality of accumulated lists),
   and only for the pairs C of elements at hand. *)
Section FoldsUpTo.
  Context {A B : Type}.
  Variable f : B -> A -> B.
  Variable R : B -> B -> Prop.
  Hypothesis R_refl : forall b, R b b.
  Hypothesis R_trans : forall a b c, R a b -> R b c -> R a c.
  Hypothesis f_resp : forall b b' x, R b b' -> R (f b x) (f b' x).

  Lemma fold_resp l : forall b b', R b b' -> R (fold_left f l b) (fold_left f l b').
  Proof. induction l as [|x l IH]; intros b b' H; cbn [fold_left]; auto. Qed.

  Variable C : A -> A -> Prop.
  Hypothesis f_comm : forall b x y, C x y -> R (f (f b x) y) (f (f b y) x).

  Lemma fold_comm_invariant_on : forall l l', Permutation l l' ->
    (forall x y, In x l -> In y l -> C x y) -> forall b, R (fold_left f l b) (fold_left f l' b).
  Proof.
    induction 1 as [|x l l' HP IH|x y l|l l' l'' H1 IH1 H2 IH2]; intros HC b; cbn [fold_left].
    - apply R_refl.
    - apply IH. intros; apply HC; now right.
    - apply fold_resp, f_comm, HC; cbn; auto.
    - eapply R_trans; [apply IH1, HC | apply IH2].
      intros x y Ix Iy. apply HC; eapply Permutation_in; try apply Permutation_sym; eassumption.
  Qed.
End FoldsUpTo.

Lemma fold_comm_invariant_upto {A B} (f : B -> A -> B) (R : B -> B -> Prop) :
  (forall b, R b b) -> (forall a b c, R a b -> R b c -> R a c) ->
  (forall b b' x, R b b' -> R (f b x) (f b' x)) -> (forall b x y, R (f (f b x) y) (f (f b y) x)) ->
  forall l l', Permutation l l' -> forall b, R (fold_left f l b) (fold_left f l' b).
Proof.
  intros Hr Ht Hf Hc l l' HP. apply (fold_comm_invariant_on f R Hr Ht Hf (fun _ _ => True)); auto.
Qed.

Lemma fold_comm_invariant_eq {A B} (f : B -> A -> B) :
  (forall b x y, f (f b x) y = f (f b y) x) ->
  forall l l', Permutation l l' -> forall b, fold_left f l b = fold_left f l' b.
Proof. intro Hc. apply (fold_comm_invariant_upto f eq); auto; congruence. Qed.

Lemma nodup_map_inj {A B} (p : A -> B) l : NoDup (map p l) ->
  forall x y, In x l -> In y l -> p x = p y -> x = y.
Proof.
  induction l as [|z l IH]; cbn [map]; intros ND x y Ix Iy E; [contradiction|].
  apply NoDup_cons_iff in ND as [Hz ND].
  destruct Ix as [<-|Ix], Iy as [<-|Iy]; auto.
  - destruct Hz. rewrite E. now apply in_map.
  - destruct Hz. rewrite <- E. now apply in_map.
Qed.

(* Writes into a map, "for k, v := range m { out[k] = g(k, v) }".  Maps are
   functions, compared pointwise.  Two writes commute unless they put
   different values under one key, so a list of writes that never does that
   (distinct keys, or one value for all) can be replayed in any order. *)
Section Writes.
  Context {K V : Type} (keqb : K -> K -> bool) (w : (K -> option V) -> K * V -> K -> option V).
  Hypothesis keqb_eq : forall a b, keqb a b = true <-> a = b.
  Hypothesis w_spec : forall m kv k, w m kv k = if keqb k (fst kv) then Some (snd kv) else m k.

  Lemma writes_invariant l l' : Permutation l l' ->
    (forall x y, In x l -> In y l -> fst x = fst y -> snd x = snd y) ->
    forall m k, fold_left w l m k = fold_left w l' m k.
  Proof.
    intros HP HC m.
    apply (fold_comm_invariant_on w (fun m m' => forall k, m k = m' k)) with (C := fun x y => fst x = fst y -> snd x = snd y);
      auto; try congruence.
    - intros b b' x H k. now rewrite !w_spec, H.
    - intros b x y Hxy k. rewrite !w_spec.
      destruct (keqb k (fst y)) eqn:Ey, (keqb k (fst x)) eqn:Ex; try reflexivity.
      apply keqb_eq in Ey, Ex. rewrite Hxy; congruence.
  Qed.

  Lemma writes_invariant_nodup l l' : NoDup (map fst l) -> Permutation l l' ->
    forall m k, fold_left w l m k = fold_left w l' m k.
  Proof.
    intros ND HP. apply (writes_invariant l l' HP).
    intros x y Ix Iy E. now rewrite (nodup_map_inj fst l ND x y Ix Iy E).
  Qed.
End Writes.

Section MapWrites.
  Context {V : Type}.
  Definition upd (m : Z -> option V) (kv : Z * V) : Z -> option V :=
    fun k => if k =? fst kv then Some (snd kv) else m k.

  Lemma map_writes_invariant l l' : NoDup (map fst l) -> Permutation l l' ->
    forall m k, fold_left upd l m k = fold_left upd l' m k.
  Proof. exact (writes_invariant_nodup Z.eqb upd Z.eqb_eq (fun _ _ _ => eq_refl) l l'). Qed.
End MapWrites.

(* a list whose elements are all equal is determined by its length *)
Lemma perm_all_equal {A} (a b : list A) :
  Permutation a b -> (forall x y, In x a -> In y a -> x = y) -> a = b.
Proof.
  induction 1 as [|x l l' HP IH|x y l|l l' l'' H1 IH1 H2 IH2]; intro HE.
  - reflexivity.
  - f_equal. apply IH. intros; apply HE; now right.
  - assert (x = y) by (apply HE; [right; now left | now left]). now subst.
  - pose proof (IH1 HE) as E. subst l'. apply IH2. exact HE.
Qed.
