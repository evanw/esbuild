(* C08 x C18: output names are functions of schedule-independent ingredients.
   C18 models generateIsolatedHash as the encoding of an explicit ingredient
   list (isolated_stream_is_its_ingredients) and the final hash of a chunk as
   H over the items of the chunks reachable through crossChunkImports; the
   final name substitutes that hash into the path template.  Here: if two
   builds (two schedules) produce chunk lists that agree, chunk by chunk, on
   the ingredient list, the path template, the cross-chunk import indices and
   the asset references, then every final hash stream, hence every final
   name, is the same.
   Which ingredients the C08 theorems already cover:
     tags 1,2 (namespace, pretty path of each part's file)  file identity: intrinsic, no source index inside
     tags 3,4 + ORDER of parts   partsInChunkInOrder = findImportedPartsInJSOrder: chunkOrderArray
                                 (distance, StableSourceIndices) -> chunkOrderArray_order/_total_on_domain,
                                 scan_stable_order_schedule_independent, no_raw_source_index_sort_keys
     tag 5 template parts        entry name / "chunk": intrinsic
     c_imports (and chunk ORDER) computeChunks sort.Strings keys (regular_sites_order_independent),
                                 crossChunkImportArray_order, sortedCrossChunkImports
     tags 7,8 piece data         printed code with unique keys cut out: renaming by StableSymbolCountArray /
                                 stableRefArray sorts is covered; the printers themselves are exercised only
     tags 9-11 source map        exercised only (glue) *)
From V Require Import Common.Base C18.Pieces C18.Hash C18.HashProofs C18.Ingredients.

Section SameNames.
  Variable H : bytes -> bytes.
  Variable public : bytes.
  Variable asset_rel : Z -> bytes.

  (* what the final-hash computation reads of a chunk *)
  Definition hash_view_eq (a b : chunk) : Prop :=
    iso_ingredients public a = iso_ingredients public b /\
    c_template a = c_template b /\ c_imports a = c_imports b /\
    assets_stream asset_rel a = assets_stream asset_rel b.

  Definition lists_agree (cs1 cs2 : list chunk) : Prop := Forall2 hash_view_eq cs1 cs2.

  Lemma iso_hash_eq a b : hash_view_eq a b -> iso_hash H public a = iso_hash H public b.
  Proof.
    intros (Hi & _). unfold iso_hash. now rewrite !isolated_stream_is_ingredients, Hi.
  Qed.
  Lemma item_eq a b : hash_view_eq a b -> item H public asset_rel a = item H public asset_rel b.
  Proof. intros Hv. unfold item. destruct Hv as (Hi & Ht & Hm & Ha). rewrite Ha. f_equal. apply iso_hash_eq. repeat split; auto. Qed.

  Lemma agree_nth cs1 cs2 : lists_agree cs1 cs2 -> forall i,
    match nth_error cs1 i, nth_error cs2 i with
    | Some a, Some b => hash_view_eq a b
    | None, None => True
    | _, _ => False
    end.
  Proof.
    induction 1 as [|a b l1 l2 Hab _ IH]; intros [|i]; cbn [nth_error]; auto. apply IH.
  Qed.
  Lemma agree_length cs1 cs2 : lists_agree cs1 cs2 -> length cs1 = length cs2.
  Proof. induction 1; cbn [length]; congruence. Qed.

  Lemma lists_agree_templates l1 l2 : lists_agree l1 l2 -> map c_template l1 = map c_template l2.
  Proof. induction 1 as [|a b r1 r2 (_ & Ht & _) _ IH]; cbn [map]; congruence. Qed.

  Lemma names_map_agree l1 l2 : lists_agree l1 l2 -> forall ss : list (option bytes),
    map (fun cs' : chunk * option bytes => final_name (c_template (fst cs')) (option_map H (snd cs'))) (combine l1 ss)
    = map (fun cs' : chunk * option bytes => final_name (c_template (fst cs')) (option_map H (snd cs'))) (combine l2 ss).
  Proof.
    induction 1 as [|a b r1 r2 (_ & Ht & _) _ IH]; intros [|s ss]; cbn [combine map fst snd]; try reflexivity.
    rewrite Ht, IH. reflexivity.
  Qed.

  Variables cs1 cs2 : list chunk.
  Hypothesis AG : lists_agree cs1 cs2.

  Lemma visit_all_ext (r1 r2 : list Z -> nat -> option (list Z * list nat)) :
    (forall vis j, r1 vis j = r2 vis j) -> forall l vis, visit_all r1 l vis = visit_all r2 l vis.
  Proof.
    intros HE. induction l as [|j r IH]; intro vis; cbn [visit_all]; [reflexivity|].
    rewrite HE. destruct (r2 vis j) as [[v1 o1]|]; [|reflexivity]. now rewrite IH.
  Qed.

  Lemma dfs_agree : forall fuel vis key i, dfs cs1 fuel vis key i = dfs cs2 fuel vis key i.
  Proof.
    induction fuel as [|f IH]; intros vis key i; cbn [dfs]; [reflexivity|].
    pose proof (agree_nth cs1 cs2 AG i) as Hn.
    destruct (nth_error vis i) as [stamp|]; [|reflexivity].
    destruct (nth_error cs1 i) as [a|], (nth_error cs2 i) as [b|]; try contradiction; [|reflexivity].
    destruct (stamp =? key); [reflexivity|].
    destruct Hn as (_ & _ & Hm & _). rewrite Hm.
    rewrite (visit_all_ext (fun v j => dfs cs1 f v key j) (fun v j => dfs cs2 f v key j)) by (intros; apply IH).
    reflexivity.
  Qed.

  Lemma stream_of_order_agree o :
    stream_of_order H public asset_rel cs1 o = stream_of_order H public asset_rel cs2 o.
  Proof.
    unfold stream_of_order. f_equal. apply map_ext. intro i.
    pose proof (agree_nth cs1 cs2 AG i) as Hn.
    destruct (nth_error cs1 i) as [a|], (nth_error cs2 i) as [b|]; try contradiction; [now apply item_eq | reflexivity].
  Qed.

  Lemma final_loop_agree : forall idxs vis,
    final_loop H public asset_rel cs1 idxs vis = final_loop H public asset_rel cs2 idxs vis.
  Proof.
    induction idxs as [|i r IH]; intro vis; cbn [final_loop]; [reflexivity|].
    pose proof (agree_nth cs1 cs2 AG i) as Hn.
    destruct (nth_error cs1 i) as [a|], (nth_error cs2 i) as [b|]; try contradiction; [|reflexivity].
    destruct Hn as (_ & Ht & _ & _). rewrite Ht, (agree_length _ _ AG), dfs_agree.
    destruct (has_hash (c_template b)).
    - destruct (dfs cs2 (S (length cs2)) vis (stamp_of i) i) as [[v o]|]; [|reflexivity].
      rewrite IH, stream_of_order_agree. reflexivity.
    - now rewrite IH.
  Qed.

  (* the streams hashed into the final hashes agree for every chunk *)
  Lemma final_streams_agree :
    final_streams H public asset_rel cs1 = final_streams H public asset_rel cs2.
  Proof. unfold final_streams. rewrite (agree_length _ _ AG). apply final_loop_agree. Qed.

  (* hence the final names: template with the hash of that stream substituted *)
  Definition names_of (cs : list chunk) : option (list bytes) :=
    match final_streams H public asset_rel cs with
    | Some ss => Some (map (fun cs' : chunk * option bytes => final_name (c_template (fst cs')) (option_map H (snd cs')))
                           (combine cs ss))
    | None => None
    end.

  Lemma templates_agree : map c_template cs1 = map c_template cs2.
  Proof. exact (lists_agree_templates cs1 cs2 AG). Qed.

  Lemma names_agree : names_of cs1 = names_of cs2.
  Proof.
    unfold names_of. rewrite final_streams_agree.
    destruct (final_streams H public asset_rel cs2) as [ss|]; [|reflexivity]. f_equal.
    exact (names_map_agree cs1 cs2 AG ss).
  Qed.
End SameNames.
