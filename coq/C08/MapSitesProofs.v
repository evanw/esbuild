(* C08: obligations over the regenerated inventory.  The classification table
   lists the generated sites in the generator's order, so "every site has an
   entry" is a comparison of two lists, and whatever holds of every ROW of the
   table holds of whatever [class_of] returns: no obligation needs a lookup. *)
From Coq Require Import String List Bool Arith.
From V Require Import gen.MapSitesGen C08.MapSites.
Import ListNotations.

Lemma site_eqb_eq a b : site_eqb a b = true <-> a = b.
Proof.
  destruct a as [[[f1 g1] e1] n1], b as [[[f2 g2] e2] n2]. unfold site_eqb.
  rewrite !andb_true_iff, !String.eqb_eq, Nat.eqb_eq. split.
  - intros [[[-> ->] ->] ->]. reflexivity.
  - intro E. inversion E. auto.
Qed.

Lemma classify_some_in s c tbl : classify s tbl = Some c -> In (s, c) tbl.
Proof.
  induction tbl as [|[k c'] r IH]; cbn [classify]; [discriminate|].
  destruct (site_eqb s k) eqn:E; [|right; auto].
  apply site_eqb_eq in E. intro H. left. congruence.
Qed.

Lemma classify_key s tbl : In s (map fst tbl) -> exists c, classify s tbl = Some c.
Proof.
  induction tbl as [|[k c'] r IH]; cbn [classify map fst]; [contradiction|].
  intros [->|H]; [rewrite (proj2 (site_eqb_eq s s) eq_refl) | destruct (site_eqb s k)]; eauto.
Qed.

Lemma class_of_forall (G : site -> site_class -> bool) :
  forallb (fun kc => G (fst kc) (snd kc)) classification = true ->
  forall s c, class_of s = Some c -> G s c = true.
Proof.
  intros H s c Hc. rewrite forallb_forall in H. exact (H _ (classify_some_in _ _ _ Hc)).
Qed.

(* fails when T4 finds a site that has no row, or a row has lost its site *)
Lemma table_keys : map fst classification = map_sites.
Proof. reflexivity. Qed.

Lemma classified_forall : forall s, In s map_sites -> exists c, class_of s = Some c.
Proof. rewrite <- table_keys. intro s. apply classify_key. Qed.

Lemma keys_not_stale (tbl : list (site * site_class)) :
  filter (fun kc => negb (existsb (site_eqb (fst kc)) (map fst tbl))) tbl = [].
Proof.
  destruct (filter _ tbl) as [|kc r] eqn:E; [reflexivity|].
  assert (H : In kc (kc :: r)) by now left. rewrite <- E in H.
  apply filter_In in H as [Hin H]. apply negb_true_iff in H.
  rewrite (proj2 (existsb_exists _ _)) in H; [discriminate|].
  exists (fst kc). split; [now apply in_map | now apply site_eqb_eq].
Qed.

Lemma no_stale_entries : stale_entries = [].
Proof. unfold stale_entries. now rewrite <- table_keys, keys_not_stale. Qed.

Lemma no_unresolved : unresolved_range_sites = [].
Proof. reflexivity. Qed.

Lemma all_classified_true : all_classified = true.
Proof.
  unfold all_classified. rewrite no_unresolved, andb_true_r. apply forallb_forall. intros s Hs.
  unfold is_classified. now destruct (classified_forall s Hs) as [c ->].
Qed.

Lemma classes_ordered s c : class_of s = Some c -> class_ordered c = true.
Proof. apply (class_of_forall (fun _ => class_ordered)). reflexivity. Qed.

Lemma all_ordered_forall : forall s, In s map_sites -> site_ordered s = true.
Proof.
  intros s Hs. unfold site_ordered. destruct (classified_forall s Hs) as [c Hc].
  rewrite Hc. exact (classes_ordered s c Hc).
Qed.

Lemma ordered_except_known : forall s, In s map_sites -> in_known s = false -> site_ordered s = true.
Proof. intros s Hs _. exact (all_ordered_forall s Hs). Qed.

Lemma sorted_after_forall : forall s how, In s map_sites -> class_of s = Some (SortedAfter how) ->
  existsb (site_eqb s) sites_with_sort_after = true.
Proof.
  intros s how _.
  apply (class_of_forall (fun s c => match c with
                                     | SortedAfter _ => existsb (site_eqb s) sites_with_sort_after
                                     | _ => true
                                     end)).
  vm_compute. reflexivity.
Qed.
