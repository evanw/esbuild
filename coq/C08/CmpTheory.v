(* C08: three-way comparisons that are total orders, closed under lexicographic
   product, reversal, option and lists; the derived Less is a strict weak order
   that is total on keys.  Every comparator model is shown equal to such a
   derived Less on its key projection (ComparatorProofs.v). *)
From V Require Import Common.Base C08.SortPerm C08.Comparators.

Record GoodCmp {K : Type} (cmp : K -> K -> comparison) : Prop := {
  gc_eq : forall x y, cmp x y = Eq <-> x = y;
  gc_anti : forall x y, cmp y x = CompOpp (cmp x y);
  gc_trans : forall x y z, cmp x y = Lt -> cmp y z = Lt -> cmp x z = Lt
}.

Definition lt_of {K} (cmp : K -> K -> comparison) (x y : K) : bool := is_lt (cmp x y).

Section Derived.
  Context {K : Type} (cmp : K -> K -> comparison) (G : GoodCmp cmp).

  Lemma gc_refl x : cmp x x = Eq.
  Proof. now apply (gc_eq _ G). Qed.

  Lemma gc_gt_lt x y : cmp x y = Gt -> cmp y x = Lt.
  Proof. intro H. rewrite (gc_anti _ G x y), H. reflexivity. Qed.

  Lemma lt_of_strict_weak : StrictWeak (lt_of cmp).
  Proof.
    split; unfold lt_of.
    - intro x. now rewrite gc_refl.
    - intros x y z H1 H2. destruct (cmp x y) eqn:E1; try discriminate.
      destruct (cmp y z) eqn:E2; try discriminate.
      now rewrite (gc_trans _ G x y z E1 E2).
    - intros x y z H1 H2.
      destruct (cmp x y) eqn:E1; try discriminate.
      + apply (gc_eq _ G) in E1; subst. exact H2.
      + destruct (cmp y z) eqn:E2; try discriminate.
        * apply (gc_eq _ G) in E2; subst. now rewrite E1.
        * apply gc_gt_lt in E1. apply gc_gt_lt in E2.
          pose proof (gc_trans _ G z y x E2 E1) as E3.
          rewrite (gc_anti _ G z x), E3. reflexivity.
  Qed.

  Lemma lt_of_total x y : lt_of cmp x y = false -> lt_of cmp y x = false -> x = y.
  Proof.
    unfold lt_of. intros H1 H2. apply (gc_eq _ G).
    destruct (cmp x y) eqn:E; try discriminate; [reflexivity|].
    apply gc_gt_lt in E. rewrite E in H2. discriminate.
  Qed.

  Lemma lt_of_total_on l : TotalOn (lt_of cmp) l.
  Proof. intros x y _ _. apply lt_of_total. Qed.
End Derived.

Lemma good_Z : GoodCmp Z.compare.
Proof.
  split.
  - intros; apply Z.compare_eq_iff.
  - intros x y. apply Z.compare_antisym.
  - intros x y z. rewrite !Z.compare_lt_iff. lia.
Qed.

Definition rev_cmp {K} (c : K -> K -> comparison) (x y : K) : comparison := c y x.
Lemma good_rev {K} (c : K -> K -> comparison) : GoodCmp c -> GoodCmp (rev_cmp c).
Proof.
  intros G. split; unfold rev_cmp.
  - intros x y. rewrite (gc_eq _ G). split; congruence.
  - intros x y. apply (gc_anti _ G).
  - intros x y z H1 H2. exact (gc_trans _ G z y x H2 H1).
Qed.

Definition lex_cmp {K1 K2} (c1 : K1 -> K1 -> comparison) (c2 : K2 -> K2 -> comparison)
  (x y : K1 * K2) : comparison :=
  match c1 (fst x) (fst y) with Eq => c2 (snd x) (snd y) | o => o end.
(* one level of a lexicographic Less *)
Definition lex3 (c : comparison) (r : bool) : bool := match c with Lt => true | Eq => r | Gt => false end.
Lemma lt_of_lex {K1 K2} (c1 : K1 -> K1 -> comparison) (c2 : K2 -> K2 -> comparison) x y :
  lt_of (lex_cmp c1 c2) x y = lex3 (c1 (fst x) (fst y)) (lt_of c2 (snd x) (snd y)).
Proof. unfold lt_of, lex_cmp. destruct (c1 _ _); reflexivity. Qed.

Lemma good_lex {K1 K2} (c1 : K1 -> K1 -> comparison) (c2 : K2 -> K2 -> comparison) :
  GoodCmp c1 -> GoodCmp c2 -> GoodCmp (lex_cmp c1 c2).
Proof.
  intros G1 G2. split; unfold lex_cmp.
  - intros [a b] [a' b']; cbn [fst snd]. split.
    + destruct (c1 a a') eqn:E; try discriminate. intro H.
      apply (gc_eq _ G1) in E. apply (gc_eq _ G2) in H. congruence.
    + intro H; inversion H; subst. rewrite (gc_refl _ G1). now apply (gc_eq _ G2).
  - intros [a b] [a' b']; cbn [fst snd]. rewrite (gc_anti _ G1 a a').
    destruct (c1 a a'); cbn [CompOpp]; auto. apply (gc_anti _ G2).
  - intros [a b] [a' b'] [a'' b'']; cbn [fst snd]. intros H1 H2.
    destruct (c1 a a') eqn:E1; try discriminate.
    + apply (gc_eq _ G1) in E1; subst a'.
      destruct (c1 a a'') eqn:E2; try discriminate; auto.
      exact (gc_trans _ G2 _ _ _ H1 H2).
    + destruct (c1 a' a'') eqn:E2; try discriminate.
      * apply (gc_eq _ G1) in E2; subst a''. now rewrite E1.
      * now rewrite (gc_trans _ G1 _ _ _ E1 E2).
Qed.

Definition opt_cmp {K} (c : K -> K -> comparison) (x y : option K) : comparison :=
  match x, y with
  | None, None => Eq
  | None, Some _ => Lt
  | Some _, None => Gt
  | Some a, Some b => c a b
  end.
Lemma lt_of_opt_some {K} (c : K -> K -> comparison) x y : lt_of (opt_cmp c) (Some x) (Some y) = lt_of c x y.
Proof. reflexivity. Qed.
Lemma good_opt {K} (c : K -> K -> comparison) : GoodCmp c -> GoodCmp (opt_cmp c).
Proof.
  intros G. split.
  - intros [a|] [b|]; cbn [opt_cmp]; split; try discriminate; try reflexivity.
    + intro H. apply (gc_eq _ G) in H. congruence.
    + intro H; inversion H; subst. apply (gc_refl _ G).
  - intros [a|] [b|]; cbn [opt_cmp CompOpp]; auto. apply (gc_anti _ G).
  - intros [a|] [b|] [d|]; cbn [opt_cmp]; try discriminate; auto. apply (gc_trans _ G).
Qed.

Lemma str_cmp_eq a : forall b, str_cmp a b = Eq <-> a = b.
Proof.
  induction a as [|x a IH]; intros [|y b]; cbn [str_cmp]; split; try discriminate; try reflexivity.
  - destruct (x ?= y) eqn:E; try discriminate. apply Z.compare_eq_iff in E. intro H. apply IH in H. congruence.
  - intro H; inversion H; subst. rewrite Z.compare_refl. now apply IH.
Qed.
Lemma str_cmp_anti a : forall b, str_cmp b a = CompOpp (str_cmp a b).
Proof.
  induction a as [|x a IH]; intros [|y b]; cbn [str_cmp CompOpp]; auto.
  rewrite (Z.compare_antisym x y). destruct (x ?= y); cbn [CompOpp]; auto.
Qed.
Lemma str_cmp_trans a : forall b c, str_cmp a b = Lt -> str_cmp b c = Lt -> str_cmp a c = Lt.
Proof.
  induction a as [|x a IH]; intros [|y b] [|z c]; cbn [str_cmp]; try discriminate; auto.
  intros H1 H2.
  destruct (x ?= y) eqn:E1; try discriminate.
  - apply Z.compare_eq_iff in E1; subst y.
    destruct (x ?= z) eqn:E2; try discriminate; auto. eapply IH; eauto.
  - destruct (y ?= z) eqn:E2; try discriminate.
    + apply Z.compare_eq_iff in E2; subst z. now rewrite E1.
    + rewrite Z.compare_lt_iff in E1, E2. assert (E3 : (x ?= z) = Lt) by (apply Z.compare_lt_iff; lia).
      now rewrite E3.
Qed.
Lemma good_str : GoodCmp str_cmp.
Proof. split; [apply str_cmp_eq | intros; apply str_cmp_anti | apply str_cmp_trans]. Qed.

Lemma str_eqb_cmp a b : str_eqb a b = match str_cmp a b with Eq => true | _ => false end.
Proof.
  unfold str_eqb. destruct (zlist_eqb a b) eqn:E.
  - apply zlist_eqb_eq, str_cmp_eq in E. now rewrite E.
  - destruct (str_cmp a b) eqn:E2; auto. apply str_cmp_eq, zlist_eqb_eq in E2. congruence.
Qed.

(* Less that only looks at a key through a good comparison *)
Section ViaKey.
  Context {A K : Type} (key : A -> K) (cmp : K -> K -> comparison) (G : GoodCmp cmp).
  Variable less : A -> A -> bool.
  Hypothesis less_spec : forall a b, less a b = lt_of cmp (key a) (key b).

  Lemma via_key_strict_weak : StrictWeak less.
  Proof.
    pose proof (on_key_strict_weak key _ (lt_of_strict_weak cmp G)) as [I T N].
    split; intros *; rewrite ?less_spec; [apply I | apply T | apply N].
  Qed.
  Lemma via_key_tied_keys a b : less a b = false -> less b a = false -> key a = key b.
  Proof. rewrite !less_spec. apply (lt_of_total cmp G). Qed.
  Lemma via_key_total_on l :
    (forall x y, In x l -> In y l -> key x = key y -> x = y) -> TotalOn less l.
  Proof. intros Hinj x y Ix Iy H1 H2. apply Hinj; auto. now apply via_key_tied_keys. Qed.
End ViaKey.
