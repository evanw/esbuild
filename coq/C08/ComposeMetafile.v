(* C08 x C19: the metafile is rendered from two ordered lists (C19
   metafile_faithful: inputs in order, outputs in order, first result wins).
   Their ORDER is schedule-independent:
     inputs   bundler.generateMetadataJSON walks allReachableFiles = the stable
              (DFS) order; each entry describes one file (path, bytes, imports by
              path, format): a function of the file, not of its source index
     outputs  the results of the link: additional files in reachable-file order,
              then the chunks in the order computeChunks fixes by sort.Strings
              over the entry-bit keys (a regular collect-then-sort site)
   so two complete runs render byte-identical metafiles whenever the per-file
   and per-chunk descriptions are the same functions of file / chunk key.
   The order of the LOG is diagnostics_schedule_independent. *)
From V Require Import Common.Base C08.SortPerm C08.Comparators C08.CmpTheory C08.ComparatorProofs
  C08.Dfs C08.DfsProofs C08.Scanner C08.ScannerProofs C08.Consumers C08.CollectSort.
From V Require C19.Doc C19.DocProofs.
From Coq Require Import Permutation.
Open Scope list_scope.

Section MetafileOrder.
  Variable imports : Z -> list Z.
  Variables (roots sched1 sched2 : list Z) (st1 st2 : scan) (fuel : nat).
  Hypothesis run1 : run_scan imports (fst (scan_init roots)) sched1 = Some st1.
  Hypothesis run2 : run_scan imports (fst (scan_init roots)) sched2 = Some st2.
  Hypothesis done1 : scan_complete st1 = true.
  Hypothesis done2 : scan_complete st2 = true.

  (* any per-index description that is really a description D of the file *)
  Lemma per_file_lists_agree {A} (D : Z -> A) (d1 d2 : Z -> A) :
    (forall f, d1 (index_of_file st1 f) = D f) -> (forall f, d2 (index_of_file st2 f) = D f) ->
    option_map (map d1) (linker_order st1 fuel roots) = option_map (map d2) (linker_order st2 fuel roots).
  Proof.
    intros H1 H2.
    rewrite (linker_order_spec imports roots sched1 st1 fuel run1 done1),
            (linker_order_spec imports roots sched2 st2 fuel run2 done2).
    destruct (reach_order fuel imports roots) as [o|]; cbn [option_map]; [|reflexivity].
    f_equal. rewrite !map_map. apply map_ext. intro f. now rewrite H1, H2.
  Qed.

  (* chunks: the keys collected from a map in any order, sorted by sort.Strings *)
  Lemma per_key_lists_agree {A} (sort : list (list Z) -> list (list Z)) (C : list Z -> A) keys1 keys2 :
    IsSort str_ltb sort -> Permutation keys1 keys2 -> map C (sort keys1) = map C (sort keys2).
  Proof.
    intros HS HP. f_equal.
    exact (sort_fun_perm_invariant str_ltb str_sw sort sort HS HS keys1 keys2 HP (str_total keys1)).
  Qed.

  Lemma metafile_two_schedules mini ascii prefix nf nc pathOf
        (Din : Z -> C19.Doc.input) (din1 din2 : Z -> C19.Doc.input)
        (sort : list (list Z) -> list (list Z)) (Cout : list Z -> C19.Doc.chunk) keys1 keys2
        (extra : list (bytes * C19.Doc.chunk)) o1 o2 :
    (forall f, din1 (index_of_file st1 f) = Din f) -> (forall f, din2 (index_of_file st2 f) = Din f) ->
    linker_order st1 fuel roots = Some o1 -> linker_order st2 fuel roots = Some o2 ->
    IsSort str_ltb sort -> Permutation keys1 keys2 ->
    C19.Doc.metafile_of mini ascii prefix nf nc pathOf (map din1 o1)
        (C19.DocProofs.link_results pathOf extra (map Cout (sort keys1)))
    = C19.Doc.metafile_of mini ascii prefix nf nc pathOf (map din2 o2)
        (C19.DocProofs.link_results pathOf extra (map Cout (sort keys2))).
  Proof.
    intros H1 H2 E1 E2 HS HP.
    pose proof (per_file_lists_agree Din din1 din2 H1 H2) as Hin. rewrite E1, E2 in Hin. cbn [option_map] in Hin.
    inversion Hin as [Hin']. rewrite Hin', (per_key_lists_agree sort Cout keys1 keys2 HS HP). reflexivity.
  Qed.
End MetafileOrder.
