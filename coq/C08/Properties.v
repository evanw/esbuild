(* C08 property theorems. Only statements closed by [exact lemma] + Print Assumptions. *)
From Coq Require Import String.
From V Require Import Common.Base C08.SortPerm C08.Comparators C08.CmpTheory C08.ComparatorProofs
  C08.Dfs C08.DfsProofs C08.Serializer C08.SerializerProofs gen.MapSitesGen C08.MapSites C08.MapSitesProofs
  C08.Diagnostics C08.Scanner C08.ScannerProofs C08.Consumers gen.SortKeysGen C08.CollectSort
  C08.ScannerReach C08.SiteModels C08.ComposeHash C08.ComposeMetafile.
From V Require C18.Hash C18.Ingredients C19.Doc C19.DocProofs.
From V Require Import gen.HashInventoryGen gen.HashPathsGen C08.HashPaths.
From Coq Require Import Permutation Sorted.

(* Whatever algorithm sorts (sort.Sort is unstable): if Less is a strict weak
   order and no two distinct elements are tied, the result does not depend on
   the order in which the elements arrived (map iteration, goroutine arrival). *)
Theorem sort_perm_invariant :
  forall (A : Type) (ltb : A -> A -> bool), StrictWeak ltb ->
  forall l l' s s', Permutation l l' -> TotalOn ltb l ->
    Permutation l s -> SortedBy ltb s -> Permutation l' s' -> SortedBy ltb s' -> s = s'.
Proof. exact (@sorted_perm_unique). Qed.
Print Assumptions sort_perm_invariant.

(* the same for any two sorting functions (e.g. two versions of pdqsort) *)
Theorem sort_fun_invariant :
  forall (A : Type) (ltb : A -> A -> bool), StrictWeak ltb ->
  forall sort1 sort2, IsSort ltb sort1 -> IsSort ltb sort2 ->
  forall l l', Permutation l l' -> TotalOn ltb l -> sort1 l = sort2 l'.
Proof. exact (@sort_fun_perm_invariant). Qed.
Print Assumptions sort_fun_invariant.

(* the model sort used by the correspondence run is that canonical result *)
Theorem real_sort_equals_model_sort :
  forall (A : Type) (ltb : A -> A -> bool), StrictWeak ltb ->
  forall l s, TotalOn ltb l -> Permutation l s -> SortedBy ltb s -> s = isort ltb l.
Proof. exact (@any_sort_eq_isort). Qed.
Print Assumptions real_sort_equals_model_sort.

(* the model sort is stable (it is what sort.Stable must return): the elements
   tied with any k appear in their input order *)
Theorem model_sort_stable :
  forall (A : Type) (ltb : A -> A -> bool), StrictWeak ltb ->
  forall k l, filter (tied ltb k) (isort ltb l) = filter (tied ltb k) l.
Proof. exact (@isort_stable). Qed.
Print Assumptions model_sort_stable.

(* comparator that reads a key only (sort.Stable of messages): the KEY sequence
   of the result is canonical when distinct keys are never tied *)
Theorem sort_keys_perm_invariant :
  forall (A K : Type) (key : A -> K) (kltb : K -> K -> bool), StrictWeak kltb ->
  forall l l' s s', Permutation l l' -> TotalOn kltb (map key l) ->
    Permutation l s -> SortedBy (on_key key kltb) s -> Permutation l' s' -> SortedBy (on_key key kltb) s' ->
    map key s = map key s'.
Proof. exact (@sort_keys_invariant). Qed.
Print Assumptions sort_keys_perm_invariant.

(* accumulating with a commutative step does not depend on the iteration order *)
Theorem fold_comm_invariant :
  forall (A B : Type) (f : B -> A -> B), (forall b x y, f (f b x) y = f (f b y) x) ->
  forall l l', Permutation l l' -> forall b, fold_left f l b = fold_left f l' b.
Proof. exact (@fold_comm_invariant_eq). Qed.
Print Assumptions fold_comm_invariant.

(* ... also when commutativity only holds up to an observation (lists used as sets) *)
Theorem fold_comm_invariant_up_to :
  forall (A B : Type) (f : B -> A -> B) (R : B -> B -> Prop),
  (forall b, R b b) -> (forall a b c, R a b -> R b c -> R a c) ->
  (forall b b' x, R b b' -> R (f b x) (f b' x)) -> (forall b x y, R (f (f b x) y) (f (f b y) x)) ->
  forall l l', Permutation l l' -> forall b, R (fold_left f l b) (fold_left f l' b).
Proof. exact (@fold_comm_invariant_upto). Qed.
Print Assumptions fold_comm_invariant_up_to.

(* "for k, v := range m { out[k] = v' }": the resulting map does not depend on the order *)
Theorem map_writes_order_invariant :
  forall (V : Type) (l l' : list (Z * V)), NoDup (map fst l) -> Permutation l l' ->
  forall m k, fold_left upd l m k = fold_left upd l' m k.
Proof. exact (@map_writes_invariant). Qed.
Print Assumptions map_writes_order_invariant.

(* each Less is a strict weak order, and two elements are tied only if their
   sort keys coincide; then totality on the domain that is actually sorted *)

Theorem stableRefArray_order : StrictWeak stableRef_less /\ TiedKeys stableRef_less stableRef_key.
Proof. exact stableRef_order. Qed.
Print Assumptions stableRefArray_order.
Theorem stableRefArray_total_on_domain :
  forall (stable_of : Z -> Z) l, (forall x y, stable_of x = stable_of y -> x = y) ->
  (forall a, In a l -> sr_stable a = stable_of (r_src (sr_ref a))) -> TotalOn stableRef_less l.
Proof. exact stableRef_total_on_domain. Qed.
Print Assumptions stableRefArray_total_on_domain.

Theorem chunkOrderArray_order : StrictWeak chunkOrder_less /\ TiedKeys chunkOrder_less chunkOrder_key.
Proof. exact chunkOrder_order. Qed.
Print Assumptions chunkOrderArray_order.
Theorem chunkOrderArray_total_on_domain :
  forall (stable_of dist_of : Z -> Z) l, (forall x y, stable_of x = stable_of y -> x = y) ->
  (forall a, In a l -> co_tie a = stable_of (co_src a) /\ co_dist a = dist_of (co_src a)) ->
  TotalOn chunkOrder_less l.
Proof. exact (fun stable_of _ l Hinj Hdom => chunkOrder_total_on_domain stable_of l Hinj (fun a Ia => proj1 (Hdom a Ia))). Qed.
Print Assumptions chunkOrderArray_total_on_domain.

Theorem crossChunkImportArray_order :
  StrictWeak crossChunkImport_less /\ forall l, TotalOn crossChunkImport_less l.
Proof. exact (conj (proj1 crossChunkImport_order) crossChunkImport_total). Qed.
Print Assumptions crossChunkImportArray_order.

Theorem crossChunkImportItemArray_order : StrictWeak ccItem_less /\ TiedKeys ccItem_less cci_alias.
Proof. exact ccItem_order. Qed.
Print Assumptions crossChunkImportItemArray_order.
Theorem crossChunkImportItemArray_total_on_domain :
  forall l, (forall a b, In a l -> In b l -> cci_alias a = cci_alias b -> a = b) -> TotalOn ccItem_less l.
Proof. exact ccItem_total_on_domain. Qed.
Print Assumptions crossChunkImportItemArray_total_on_domain.

Theorem StableSymbolCountArray_order : StrictWeak symCount_less /\ TiedKeys symCount_less symCount_key.
Proof. exact symCount_order. Qed.
Print Assumptions StableSymbolCountArray_order.
Theorem StableSymbolCountArray_total_on_domain :
  forall (stable_of : Z -> Z) l, (forall x y, stable_of x = stable_of y -> x = y) ->
  (forall a, In a l -> sc_stable a = stable_of (r_src (sc_ref a))) -> TotalOn symCount_less l.
Proof. exact symCount_total_on_domain. Qed.
Print Assumptions StableSymbolCountArray_total_on_domain.

Theorem slotAndCountArray_order : StrictWeak slotCount_less /\ forall l, TotalOn slotCount_less l.
Proof. exact (conj (proj1 slotCount_order) slotCount_total). Qed.
Print Assumptions slotAndCountArray_order.

Theorem charAndCountArray_order : StrictWeak charCount_less /\ forall l, TotalOn charCount_less l.
Proof. exact (conj (proj1 charCount_order) charCount_total). Qed.
Print Assumptions charAndCountArray_order.

Theorem scopeMemberArray_order : StrictWeak scopeMember_less /\ forall l, TotalOn scopeMember_less l.
Proof. exact (conj (proj1 scopeMember_order) scopeMember_total). Qed.
Print Assumptions scopeMemberArray_order.

Theorem metafileArray_order : StrictWeak metafile_less /\ forall l, TotalOn metafile_less l.
Proof. exact (conj (proj1 metafile_order) metafile_total). Qed.
Print Assumptions metafileArray_order.

(* expansion keys: a strict weak order, tied exactly when (base length, has-star,
   length) coincide; NOT total on distinct keys -- harmless: sort.Stable over the
   order of the keys in package.json *)
Theorem expansionKeysArray_order : StrictWeak expansionKeys_less /\ TiedKeys expansionKeys_less ek_key.
Proof. exact expansionKeys_order. Qed.
Print Assumptions expansionKeysArray_order.
Theorem expansionKeysArray_total_refuted :
  exists a b, a <> b /\ expansionKeys_less a b = false /\ expansionKeys_less b a = false.
Proof. exact expansionKeys_total_refuted_witness. Qed.
Print Assumptions expansionKeysArray_total_refuted.

(* diagnostics: full statement "total on distinct messages" is FALSE of the code *)
Theorem SortableMsgs_order : StrictWeak msg_less /\ TiedKeys msg_less msg_key.
Proof. exact msg_order. Qed.
Print Assumptions SortableMsgs_order.
Theorem SortableMsgs_total_partial :
  forall l, (forall a b, In a l -> In b l -> msg_key a = msg_key b -> a = b) -> TotalOn msg_less l.
Proof. exact msg_total_on_injective_keys. Qed.
Print Assumptions SortableMsgs_total_partial.
Theorem SortableMsgs_total_refuted :
  exists a b, a <> b /\ msg_less a b = false /\ msg_less b a = false.
Proof. exact msg_total_refuted_witness. Qed.
Print Assumptions SortableMsgs_total_refuted.
Theorem SortableMsgs_locationless_all_tied :
  forall a b, m_loc a = None -> m_loc b = None -> msg_less a b = false /\ msg_less b a = false.
Proof. exact msg_locationless_tied. Qed.
Print Assumptions SortableMsgs_locationless_all_tied.

(* the reachable-file order is equivariant under any injective renaming of the
   arrival-order source indices (g' is the same graph with renamed indices) *)
Theorem dfs_equivariant :
  forall (rho : Z -> Z), (forall x y, rho x = rho y -> x = y) ->
  forall g g', (forall n, g' (rho n) = map rho (g n)) ->
  forall fuel roots, reach_order fuel g' (map rho roots) = option_map (map rho) (reach_order fuel g roots).
Proof. exact reach_order_equiv. Qed.
Print Assumptions dfs_equivariant.

(* hence the stable index of a file is independent of its arrival-order index *)
Theorem stable_index_invariant :
  forall (rho : Z -> Z), (forall x y, rho x = rho y -> x = y) ->
  forall g g', (forall n, g' (rho n) = map rho (g n)) ->
  forall fuel roots o o' n, reach_order fuel g roots = Some o -> reach_order fuel g' (map rho roots) = Some o' ->
    index_of (rho n) o' = index_of n o.
Proof. exact stable_index_equiv. Qed.
Print Assumptions stable_index_invariant.

(* helpers.Serializer: every complete run, whatever the interleaving and the number of workers,
   executes the critical sections exactly once each, in index order *)
Theorem serializer_order :
  forall n tr s, srun n sinit tr = Some s -> all_left n s = true -> slog s = seq 0 n.
Proof. exact serializer_order_all. Qed.
Print Assumptions serializer_order.

(* at every moment of every run the executed critical sections are 0,1,..,k-1 *)
Theorem serializer_prefix_order :
  forall n tr s, srun n sinit tr = Some s -> exists k, (k <= n)%nat /\ slog s = seq 0 k.
Proof. exact serializer_prefix. Qed.
Print Assumptions serializer_prefix_order.

Theorem serializer_mutual_exclusion :
  forall n tr s i j, srun n sinit tr = Some s -> inside (pc s i) -> inside (pc s j) -> i = j.
Proof. exact serializer_mutex_all. Qed.
Print Assumptions serializer_mutual_exclusion.

Theorem serializer_no_deadlock :
  forall n tr s, srun n sinit tr = Some s -> all_left n s = false -> exists e s', sstep n s e = Some s'.
Proof. exact serializer_progress_all. Qed.
Print Assumptions serializer_no_deadlock.

(* every `for range <map>` of the scanned packages (the inventory T4
   regenerates) is classified, and the translator resolved the operand type of
   every range statement *)
Theorem all_map_sites_classified :
  (forall s, In s map_sites -> exists c, class_of s = Some c) /\ unresolved_range_sites = nil.
Proof. exact (conj classified_forall no_unresolved). Qed.
Print Assumptions all_map_sites_classified.

(* every site has a class that is order-insensitive (sorted afterwards with a
   total comparator, commutative fold, per-key write, located diagnostics that
   are sorted, debug-level log only, dead code).  The seven option validators
   of finding C08-G2 were unordered before upstream commit 0b86dd3; the
   inventory is that of the repaired code. *)
Theorem all_map_sites_ordered : forall s, In s map_sites -> site_ordered s = true.
Proof. exact all_ordered_forall. Qed.
Print Assumptions all_map_sites_ordered.

(* every site classified "sorted afterwards" is followed by a sort.* call in
   its function, before the next map-range loop *)
Theorem sorted_after_sites_have_sort :
  forall s how, In s map_sites -> class_of s = Some (SortedAfter how) ->
  existsb (site_eqb s) sites_with_sort_after = true.
Proof. exact sorted_after_forall. Qed.
Print Assumptions sorted_after_sites_have_sort.

(* stable sorts: the result is determined by the multiset and by the arrival
   order inside each tie class *)
Theorem stable_sort_determined_by_tie_classes :
  forall (A : Type) (ltb : A -> A -> bool), StrictWeak ltb ->
  forall s s', SortedBy ltb s -> SortedBy ltb s' -> Permutation s s' ->
    (forall k, filter (tied ltb k) s = filter (tied ltb k) s') -> s = s'.
Proof. exact (@sorted_classes_unique). Qed.
Print Assumptions stable_sort_determined_by_tie_classes.

Theorem stable_sort_invariant :
  forall (A : Type) (ltb : A -> A -> bool), StrictWeak ltb ->
  forall l l', Permutation l l' -> (forall k, filter (tied ltb k) l = filter (tied ltb k) l') ->
    isort ltb l = isort ltb l'.
Proof. exact (@isort_tie_classes_invariant). Qed.
Print Assumptions stable_sort_invariant.

(* diagnostics: what makes the final message list schedule-independent:
   same messages, same relative order of the location-less ones, and located
   messages with equal (file, line, column, kind, text) identical *)
Theorem diagnostics_schedule_independent :
  forall l l', Permutation l l' ->
  filter locless l = filter locless l' ->
  (forall a b, In a l -> In b l -> locless a = false -> msg_key a = msg_key b -> a = b) ->
  isort msg_less l = isort msg_less l'.
Proof. exact msgs_schedule_independent. Qed.
Print Assumptions diagnostics_schedule_independent.
(* the middle hypothesis cannot be dropped (findings C08-G1/G2/G3 were its violations) *)
Theorem diagnostics_without_locationless_order_refuted :
  exists l l', Permutation l l' /\
    (forall a b, In a l -> In b l -> locless a = false -> msg_key a = msg_key b -> a = b) /\
    isort msg_less l <> isort msg_less l'.
Proof. exact msgs_schedule_dependent_witness. Qed.
Print Assumptions diagnostics_without_locationless_order_refuted.

(* DFS equivariance when the renamed graph is known only on a closed set of files *)
Theorem dfs_equivariant_on_closed_set :
  forall (rho : Z -> Z), (forall x y, rho x = rho y -> x = y) ->
  forall g g' (S : Z -> Prop), (forall n c, S n -> In c (g n) -> S c) ->
  (forall n, S n -> g' (rho n) = map rho (g n)) ->
  forall fuel roots, (forall r, In r roots -> S r) ->
  reach_order fuel g' (map rho roots) = option_map (map rho) (reach_order fuel g roots).
Proof. exact reach_order_equiv_on. Qed.
Print Assumptions dfs_equivariant_on_closed_set.

(* whatever the order in which parse results arrive, source indices are an injective renaming of files *)
Theorem scan_allocation_injective :
  forall imports roots sched st, run_scan imports (fst (scan_init roots)) sched = Some st ->
  forall f g, index_of_file st f = index_of_file st g -> f = g.
Proof. exact run_scan_index_inj. Qed.
Print Assumptions scan_allocation_injective.

(* ... and when all results have arrived, the import records hold the renamed file graph *)
Theorem scan_graph_is_renamed :
  forall imports roots sched st, run_scan imports (fst (scan_init roots)) sched = Some st -> scan_complete st = true ->
  forall f i, lookupz f (sc_vis st) = Some i -> graph_of_scan st i = map (index_of_file st) (imports f).
Proof. exact run_scan_graph_renamed. Qed.
Print Assumptions scan_graph_is_renamed.

(* hence, for EVERY schedule, the stable (DFS) order computed from the
   scanner's output is the file-level DFS order, renamed by that run *)
Theorem scan_stable_order_schedule_independent :
  forall imports roots sched st fuel,
  run_scan imports (fst (scan_init roots)) sched = Some st -> scan_complete st = true ->
  snd (scan_init roots) = map (index_of_file st) roots /\
  reach_order fuel (graph_of_scan st) (map (index_of_file st) roots)
  = option_map (map (index_of_file st)) (reach_order fuel imports roots).
Proof. exact scan_stable_order. Qed.
Print Assumptions scan_stable_order_schedule_independent.

(* a consumer ordering items by (StableSourceIndices[src], inner) sees the same
   FILE-level order in any two complete runs *)
Theorem linker_stable_sort_schedule_independent :
  forall imports roots sched1 sched2 st1 st2 fuel,
  run_scan imports (fst (scan_init roots)) sched1 = Some st1 ->
  run_scan imports (fst (scan_init roots)) sched2 = Some st2 ->
  scan_complete st1 = true -> scan_complete st2 = true ->
  forall items,
    isort (fun a b => stableRef_less (as_stable_ref st1 (linker_order st1 fuel roots) a) (as_stable_ref st1 (linker_order st1 fuel roots) b)) items
    = isort (fun a b => stableRef_less (as_stable_ref st2 (linker_order st2 fuel roots) a) (as_stable_ref st2 (linker_order st2 fuel roots) b)) items.
Proof. exact stable_sort_two_schedules. Qed.
Print Assumptions linker_stable_sort_schedule_independent.

(* with the raw arrival-order index as key (the seeded change in
   renameSymbolsInChunk) the full statement is false: two schedules, two orders *)
Theorem raw_source_index_sort_key_refuted :
  exists st1 st2,
    run_scan ex_imports (fst (scan_init ex_roots)) ex_sched1 = Some st1 /\ scan_complete st1 = true /\
    run_scan ex_imports (fst (scan_init ex_roots)) ex_sched2 = Some st2 /\ scan_complete st2 = true /\
    isort (fun a b => stableRef_less (as_raw_ref st1 a) (as_raw_ref st1 b)) ex_items
    <> isort (fun a b => stableRef_less (as_raw_ref st2 a) (as_raw_ref st2 b)) ex_items.
Proof. exact raw_index_sort_schedule_dependent. Qed.
Print Assumptions raw_source_index_sort_key_refuted.

(* the hypothesis "order-sensitive consumers use the stable index", tied to the
   source: every stableRef / StableSymbolCount / chunkOrder literal takes its key
   from StableSourceIndices, no comparator reads a raw source index, and nothing
   sorted with sort.Ints/sort.Strings is built from one (regenerated by T4) *)
Theorem no_raw_source_index_sort_keys :
  (forall f g fld e b, In (f, g, fld, e, b) stable_key_inits -> b = true) /\
  (forall u, In u less_raw_index_uses -> existsb (triple_eqb u) allowed_less_raw_uses = true) /\
  (forall f g srt e b, In (f, g, srt, e, b) sorted_append_exprs -> b = false).
Proof. exact (conj stable_key_inits_forall (conj less_raw_uses_allowed sorted_appends_forall)). Qed.
Print Assumptions no_raw_source_index_sort_keys.

(* every regular collect-then-sort site T4 finds: the statement of its sorter
   holds, and the site is classified "sorted afterwards" *)
Theorem regular_sites_order_independent :
  forall s k, In (s, k) regular_collect_sort_sites ->
  sorter_statement k /\ (exists how, class_of s = Some (SortedAfter how)).
Proof. exact regular_sites_forall. Qed.
Print Assumptions regular_sites_order_independent.

(* the sites classified "sorted afterwards" are exactly the regular ones plus five listed by name *)
Theorem sorted_after_sites_regular_or_listed : sorted_after_regular_or_listed = true.
Proof. exact sorted_after_regular_or_listed_true. Qed.
Print Assumptions sorted_after_sites_regular_or_listed.

(* a complete run has parsed exactly the files reachable from the roots *)
Theorem scan_visits_exactly_reachable :
  forall imports roots sched st,
  run_scan imports (fst (scan_init roots)) sched = Some st -> scan_complete st = true ->
  forall f, visited st f <-> reach imports roots f.
Proof. exact visited_iff_reach. Qed.
Print Assumptions scan_visits_exactly_reachable.

(* no run, under any schedule, receives more results than there are files *)
Theorem scan_run_bounded :
  forall imports roots universe, (forall r, In r roots -> In r universe) ->
  (forall f c, In f universe -> In c (imports f) -> In c universe) ->
  forall sched st, run_scan imports (fst (scan_init roots)) sched = Some st ->
  (length sched + length (sc_pend st) = length (sc_vis st))%nat /\ (length sched <= length universe)%nat.
Proof. exact run_scan_bounded. Qed.
Print Assumptions scan_run_bounded.

(* no deadlock: every run can be continued to a complete one *)
Theorem scan_can_complete :
  forall imports roots universe, (forall r, In r roots -> In r universe) ->
  (forall f c, In f universe -> In c (imports f) -> In c universe) ->
  forall sched st, run_scan imports (fst (scan_init roots)) sched = Some st ->
  exists more st', run_scan imports st more = Some st' /\ scan_complete st' = true.
Proof. exact run_scan_can_complete. Qed.
Print Assumptions scan_can_complete.

(* FULL schedule independence of the scan phase: two complete runs have the
   same outcome up to the renaming of source indices *)
Theorem scan_phase_schedule_independent :
  forall imports roots sched1 sched2 st1 st2,
  run_scan imports (fst (scan_init roots)) sched1 = Some st1 -> scan_complete st1 = true ->
  run_scan imports (fst (scan_init roots)) sched2 = Some st2 -> scan_complete st2 = true ->
  (forall f, visited st1 f <-> visited st2 f) /\
  sc_next st1 = sc_next st2 /\
  (forall f, visited st1 f ->
     graph_of_scan st1 (index_of_file st1 f) = map (index_of_file st1) (imports f) /\
     graph_of_scan st2 (index_of_file st2 f) = map (index_of_file st2) (imports f)) /\
  (forall f g, index_of_file st1 f = index_of_file st1 g -> f = g) /\
  (forall f g, index_of_file st2 f = index_of_file st2 g -> f = g).
Proof. exact scan_two_schedules. Qed.
Print Assumptions scan_phase_schedule_independent.

(* the five irregular sorted-afterwards sites: each has its own model and theorem *)
Theorem irregular_sites_order_independent :
  (forall s P, In (s, P) irregular_models -> P) /\
  list_eqb site_eqb (map fst irregular_models) irregular_sorted_after = true.
Proof. exact (conj irregular_models_hold irregular_models_cover). Qed.
Print Assumptions irregular_sites_order_independent.

(* the fold sites whose body T4 recognises as set-insert / per-key-write / flag-or / sum *)
Theorem shaped_fold_sites_order_independent :
  forall s k, In (s, k) shaped_fold_sites -> shape_statement k /\ fold_class s = true.
Proof. exact shaped_sites_forall. Qed.
Print Assumptions shaped_fold_sites_order_independent.

(* the order of files inside a chunk is the same, as files, in any two runs *)
Theorem chunk_file_order_schedule_independent :
  forall imports roots sched1 sched2 st1 st2 fuel (dist : Z -> Z),
  run_scan imports (fst (scan_init roots)) sched1 = Some st1 ->
  run_scan imports (fst (scan_init roots)) sched2 = Some st2 ->
  scan_complete st1 = true -> scan_complete st2 = true ->
  forall files,
    isort (fun a b => chunkOrder_less (as_chunk_order st1 (linker_order st1 fuel roots) dist a) (as_chunk_order st1 (linker_order st1 fuel roots) dist b)) files
    = isort (fun a b => chunkOrder_less (as_chunk_order st2 (linker_order st2 fuel roots) dist a) (as_chunk_order st2 (linker_order st2 fuel roots) dist b)) files.
Proof. exact chunk_order_two_schedules. Qed.
Print Assumptions chunk_file_order_schedule_independent.

(* if two builds agree chunk by chunk on the hash ingredients (C18), the path
   template, the cross-chunk import indices and the asset references, then the
   streams hashed into the final hashes agree ... *)
Theorem final_hash_streams_schedule_independent :
  forall (H : bytes -> bytes) public asset_rel cs1 cs2, lists_agree public asset_rel cs1 cs2 ->
  C18.Hash.final_streams H public asset_rel cs1 = C18.Hash.final_streams H public asset_rel cs2.
Proof. exact final_streams_agree. Qed.
Print Assumptions final_hash_streams_schedule_independent.
(* ... and so do all output names *)
Theorem final_names_schedule_independent :
  forall (H : bytes -> bytes) public asset_rel cs1 cs2, lists_agree public asset_rel cs1 cs2 ->
  names_of H public asset_rel cs1 = names_of H public asset_rel cs2.
Proof. exact names_agree. Qed.
Print Assumptions final_names_schedule_independent.

(* a list rendered per reachable file, in stable order, is the same in any two runs *)
Theorem metafile_inputs_order_schedule_independent :
  forall imports roots sched1 sched2 st1 st2 fuel,
  run_scan imports (fst (scan_init roots)) sched1 = Some st1 ->
  run_scan imports (fst (scan_init roots)) sched2 = Some st2 ->
  scan_complete st1 = true -> scan_complete st2 = true ->
  forall (A : Type) (D d1 d2 : Z -> A),
  (forall f, d1 (index_of_file st1 f) = D f) -> (forall f, d2 (index_of_file st2 f) = D f) ->
  option_map (map d1) (linker_order st1 fuel roots) = option_map (map d2) (linker_order st2 fuel roots).
Proof. exact (fun imports roots s1 s2 st1 st2 fuel r1 r2 d1 d2 A => per_file_lists_agree imports roots s1 s2 st1 st2 fuel r1 r2 d1 d2 (A:=A)). Qed.
Print Assumptions metafile_inputs_order_schedule_independent.

(* the bytes of the metafile (C19 metafile_of) are the same in any two runs *)
Theorem metafile_schedule_independent :
  forall imports roots sched1 sched2 st1 st2 fuel,
  run_scan imports (fst (scan_init roots)) sched1 = Some st1 ->
  run_scan imports (fst (scan_init roots)) sched2 = Some st2 ->
  scan_complete st1 = true -> scan_complete st2 = true ->
  forall mini ascii prefix nf nc pathOf (Din din1 din2 : Z -> C19.Doc.input)
         (sort : list (list Z) -> list (list Z)) (Cout : list Z -> C19.Doc.chunk) keys1 keys2
         (extra : list (bytes * C19.Doc.chunk)) o1 o2,
  (forall f, din1 (index_of_file st1 f) = Din f) -> (forall f, din2 (index_of_file st2 f) = Din f) ->
  linker_order st1 fuel roots = Some o1 -> linker_order st2 fuel roots = Some o2 ->
  IsSort str_ltb sort -> Permutation keys1 keys2 ->
  C19.Doc.metafile_of mini ascii prefix nf nc pathOf (map din1 o1)
      (C19.DocProofs.link_results pathOf extra (map Cout (sort keys1)))
  = C19.Doc.metafile_of mini ascii prefix nf nc pathOf (map din2 o2)
      (C19.DocProofs.link_results pathOf extra (map Cout (sort keys2))).
Proof. exact metafile_two_schedules. Qed.
Print Assumptions metafile_schedule_independent.

(* the paths that reach a chunk hash do not depend on the location of the
   project or on the log path style: over the regenerated inventories of
   generateIsolatedHash (writes: c18hashinv; definitions of the written local
   variables: t4mapsites), nothing mentions LogPathStyle / Select( / .Abs /
   AbsPath / Cwd / AbsWorkingDir, and the file path is PrettyPaths.Rel *)
Theorem hash_path_ingredients_are_relative :
  (forall k e g, In (k, e, g) iso_writes -> location_free e = true) /\
  (forall v e, In (v, e) hash_operand_definitions -> location_free e = true) /\
  In ("filePath", "file.InputFile.Source.PrettyPaths.Rel")%string hash_operand_definitions.
Proof. exact (conj hash_writes_location_free (conj hash_operands_location_free hash_file_path_is_relative)). Qed.
Print Assumptions hash_path_ingredients_are_relative.
