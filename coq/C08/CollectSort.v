(* C08: per-site statements for the map-range sites of the regular shape
       for k := range M { xs = append(xs, E(k)) } ; sort.X(xs)
   which the translator T4 recognises in the source (V.gen.MapSitesGen
   regular_collect_sort_sites).  Model of such a site: the slice after the
   loop is  pre ++ map E order  where [order] is the order in which Go happened
   to iterate the map (any permutation of its key set), and the site's result
   is sort.X of it.  Theorem per sorter: the result is a function of the key
   SET, not of the iteration order.  Also: the inventory of where sort keys
   come from (V.gen.SortKeysGen) contains no raw arrival-order source index. *)
From Coq Require Import String.
From V Require Import Common.Base C08.SortPerm C08.Comparators C08.CmpTheory C08.ComparatorProofs
  gen.MapSitesGen gen.SortKeysGen C08.MapSites C08.MapSitesProofs.
From Coq Require Import Permutation.
Open Scope list_scope.

Definition collect_then_sort {K A} (sort : list A -> list A) (pre : list A) (E : K -> A) (order : list K) : list A :=
  sort (pre ++ map E order).

Lemma collect_sort_invariant {K A} (ltb : A -> A -> bool) (SW : StrictWeak ltb)
  (sort : list A -> list A) (pre : list A) (E : K -> A) (order order' : list K) :
  IsSort ltb sort -> Permutation order order' -> TotalOn ltb (pre ++ map E order) ->
  collect_then_sort sort pre E order = collect_then_sort sort pre E order'.
Proof.
  intros HS HP HT. unfold collect_then_sort.
  apply (sort_fun_perm_invariant ltb SW sort sort HS HS); [|exact HT].
  apply Permutation_app_head. now apply Permutation_map.
Qed.

Definition int_ltb (a b : Z) : bool := Z.ltb a b.
Lemma int_ltb_spec a b : int_ltb a b = lt_of Z.compare a b.
Proof. exact (crossChunkImport_spec a b). Qed.
Lemma str_ltb_spec (a b : list Z) : str_ltb a b = lt_of str_cmp a b.
Proof. reflexivity. Qed.

Definition stmt_strings : Prop :=
  forall (K : Type) sort pre (E : K -> list Z) order order',
    IsSort str_ltb sort -> Permutation order order' ->
    collect_then_sort sort pre E order = collect_then_sort sort pre E order'.
Definition stmt_ints : Prop :=
  forall (K : Type) sort pre (E : K -> Z) order order',
    IsSort int_ltb sort -> Permutation order order' ->
    collect_then_sort sort pre E order = collect_then_sort sort pre E order'.
(* struct sorters: under the domain invariant of the comparator *)
Definition stmt_stableRef : Prop :=
  forall (K : Type) sort pre (E : K -> stableRef) order order' (stable_of : Z -> Z),
    IsSort stableRef_less sort -> Permutation order order' ->
    (forall x y, stable_of x = stable_of y -> x = y) ->
    (forall a, In a (pre ++ map E order) -> sr_stable a = stable_of (r_src (sr_ref a))) ->
    collect_then_sort sort pre E order = collect_then_sort sort pre E order'.
Definition stmt_symCount : Prop :=
  forall (K : Type) sort pre (E : K -> symCount) order order' (stable_of : Z -> Z),
    IsSort symCount_less sort -> Permutation order order' ->
    (forall x y, stable_of x = stable_of y -> x = y) ->
    (forall a, In a (pre ++ map E order) -> sc_stable a = stable_of (r_src (sc_ref a))) ->
    (forall a b, In a (pre ++ map E order) -> In b (pre ++ map E order) -> sc_ref a = sc_ref b -> sc_count a = sc_count b) ->
    collect_then_sort sort pre E order = collect_then_sort sort pre E order'.

Lemma str_sw : StrictWeak str_ltb.
Proof. exact (via_key_strict_weak (fun x => x) _ good_str _ str_ltb_spec). Qed.
Lemma str_total l : TotalOn str_ltb l.
Proof. apply (via_key_total_on (fun x => x) _ good_str _ str_ltb_spec). auto. Qed.

Lemma stmt_strings_holds : stmt_strings.
Proof.
  intros K sort pre E o o' HS HP.
  apply (collect_sort_invariant str_ltb str_sw); auto using str_total.
Qed.
(* int_ltb is crossChunkImport_less under another name *)
Lemma stmt_ints_holds : stmt_ints.
Proof.
  intros K sort pre E o o' HS HP.
  apply (collect_sort_invariant int_ltb (proj1 crossChunkImport_order)); auto using crossChunkImport_total.
Qed.
Lemma stmt_stableRef_holds : stmt_stableRef.
Proof.
  intros K sort pre E o o' st HS HP Hinj Hdom.
  apply (collect_sort_invariant stableRef_less (proj1 stableRef_order)); auto.
  now apply (stableRef_total_on_domain st).
Qed.
Lemma stmt_symCount_holds : stmt_symCount.
Proof.
  intros K sort pre E o o' st HS HP Hinj Hdom _.
  apply (collect_sort_invariant symCount_less (proj1 symCount_order)); auto.
  now apply (symCount_total_on_domain st).
Qed.

Open Scope string_scope.
Definition sorter_statement (k : string) : Prop :=
  if String.eqb k "sort.Strings" then stmt_strings
  else if String.eqb k "sort.Ints" then stmt_ints
  else if String.eqb k "sort.Sort:stableRefArray" then stmt_stableRef
  else if String.eqb k "sort.Sort:StableSymbolCountArray" then stmt_symCount
  else False.
Definition sorter_known (k : string) : bool :=
  String.eqb k "sort.Strings" || String.eqb k "sort.Ints" || String.eqb k "sort.Sort:stableRefArray"
  || String.eqb k "sort.Sort:StableSymbolCountArray".

Lemma sorter_known_statement k : sorter_known k = true -> sorter_statement k.
Proof.
  unfold sorter_known, sorter_statement. intro H.
  destruct (String.eqb k "sort.Strings"); [exact stmt_strings_holds|].
  destruct (String.eqb k "sort.Ints"); [exact stmt_ints_holds|].
  destruct (String.eqb k "sort.Sort:stableRefArray"); [exact stmt_stableRef_holds|].
  destruct (String.eqb k "sort.Sort:StableSymbolCountArray"); [exact stmt_symCount_holds | discriminate].
Qed.

(* every generated regular site: its sorter is one of the four, it is
   classified "sorted afterwards", and its result is a function of the key set *)
Lemma regular_sites_forall : forall s k, In (s, k) regular_collect_sort_sites ->
  sorter_statement k /\ (exists how, class_of s = Some (SortedAfter how)).
Proof.
  assert (H : forallb (fun r => sorter_known (snd r) &&
                               match class_of (fst r) with Some (SortedAfter _) => true | _ => false end)
                      regular_collect_sort_sites = true) by (vm_compute; reflexivity).
  rewrite forallb_forall in H. intros s k Hin. apply H in Hin. cbn [fst snd] in Hin.
  apply andb_true_iff in Hin as [H1 H2].
  split; [now apply sorter_known_statement|].
  destruct (class_of s) as [[how| | | | | | |]|]; try discriminate. now exists how.
Qed.

(* the SortedAfter sites that do NOT have the regular shape stay listed by name *)
Definition irregular_sorted_after : list site := [
  (L, "(*linkerContext).findImportedPartsInJSOrder", "chunk.filesWithPartsInChunk", 0%nat);
  (L, "(*linkerContext).generateChunkJS", "chunkRepr.exportsToOtherChunks", 0%nat);
  (L, "(*linkerContext).renameSymbolsInChunk", "chunk.chunkRepr.(*chunkReprJS).importsFromOtherChunks", 0%nat);
  (L, "(*linkerContext).sortedCrossChunkImports", "importsFromOtherChunks", 0%nat);
  (A, "validateFeatures", "constraints", 0%nat)
].
Definition sorted_after_regular_or_listed : bool :=
  forallb (fun s => match class_of s with
                    | Some (SortedAfter _) => existsb (fun r => site_eqb s (fst r)) regular_collect_sort_sites
                                              || existsb (site_eqb s) irregular_sorted_after
                    | _ => true
                    end) map_sites.
Lemma sorted_after_regular_or_listed_true : sorted_after_regular_or_listed = true.
Proof.
  apply forallb_forall. intros s _. destruct (class_of s) as [c|] eqn:Hc; [|reflexivity].
  apply (class_of_forall (fun s c => match c with
                                     | SortedAfter _ => existsb (fun r => site_eqb s (fst r)) regular_collect_sort_sites
                                                        || existsb (site_eqb s) irregular_sorted_after
                                     | _ => true
                                     end)); [|exact Hc].
  vm_compute. reflexivity.
Qed.

(* allow-list of raw source index uses inside comparators: none in the scanned packages *)
Definition allowed_less_raw_uses : list (string * string * string) := [].
Definition triple_eqb (a b : string * string * string) : bool :=
  let '(a1, a2, a3) := a in let '(b1, b2, b3) := b in String.eqb a1 b1 && String.eqb a2 b2 && String.eqb a3 b3.

Lemma stable_key_inits_forall : forall f g fld e b, In (f, g, fld, e, b) stable_key_inits -> b = true.
Proof.
  assert (H : forallb (fun k => snd k) stable_key_inits = true) by (vm_compute; reflexivity).
  rewrite forallb_forall in H. intros f g fld e b Hin. exact (H _ Hin).
Qed.
Lemma sorted_appends_forall : forall f g srt e b, In (f, g, srt, e, b) sorted_append_exprs -> b = false.
Proof.
  assert (H : forallb (fun a => negb (snd a)) sorted_append_exprs = true) by (vm_compute; reflexivity).
  rewrite forallb_forall in H. intros f g srt e b Hin. apply H in Hin. now apply negb_true_iff in Hin.
Qed.
Lemma less_raw_uses_allowed : forall u, In u less_raw_index_uses -> existsb (triple_eqb u) allowed_less_raw_uses = true.
Proof. apply forallb_forall. vm_compute. reflexivity. Qed.
