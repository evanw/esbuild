(* C08: models and theorems for the map-range sites that do not have the
   regular "append key; sort" shape.
   (1) the five irregular sorted-afterwards sites, each with its own model:
       the slice handed to sort.X is  pre ++ flat_map E order ++ post  where
       [order] is the map iteration order; the result is a function of the
       entry SET;
   (2) generic statements for the four fold shapes T4 recognises in the
       source: "set insert"  m[E(k)] = c, "per-key write"  dst[k] = E(k,v),
       "flag or"  acc |= F(k)  and "sum"  acc += N(k). *)
From Coq Require Import String.
From V Require Import Common.Base C08.SortPerm C08.Comparators C08.CmpTheory C08.ComparatorProofs
  gen.MapSitesGen C08.MapSites C08.CollectSort.
From Coq Require Import Permutation.
Open Scope list_scope.

Definition collect_flat_then_sort {K A} (sort : list A -> list A) (pre post : list A) (E : K -> list A) (order : list K) : list A :=
  sort (pre ++ flat_map E order ++ post).

Lemma collect_flat_invariant {K A} (ltb : A -> A -> bool) (SW : StrictWeak ltb)
  (sort : list A -> list A) pre post (E : K -> list A) order order' :
  IsSort ltb sort -> Permutation order order' -> TotalOn ltb (pre ++ flat_map E order ++ post) ->
  collect_flat_then_sort sort pre post E order = collect_flat_then_sort sort pre post E order'.
Proof.
  intros HS HP HT. unfold collect_flat_then_sort.
  apply (sort_fun_perm_invariant ltb SW sort sort HS HS); [|exact HT].
  apply Permutation_app_head, Permutation_app_tail. now apply Permutation_flat_map.
Qed.

(* linker.findImportedPartsInJSOrder: one chunkOrder per file of the chunk, sort.Sort(chunkOrderArray) *)
Definition model_findImportedParts : Prop :=
  forall sort (E : Z -> chunkOrder) order order' (stable_of dist_of : Z -> Z),
    IsSort chunkOrder_less sort -> Permutation order order' ->
    (forall x y, stable_of x = stable_of y -> x = y) ->
    (forall a, In a (map E order) -> co_tie a = stable_of (co_src a) /\ co_dist a = dist_of (co_src a)) ->
    collect_flat_then_sort sort [] [] (fun k => [E k]) order = collect_flat_then_sort sort [] [] (fun k => [E k]) order'.
(* linker.generateChunkJS: aliases = the VALUES of exportsToOtherChunks, sort.Strings *)
Definition model_generateChunkJS_exports : Prop :=
  forall (K : Type) sort pre (alias_of : K -> list Z) order order',
    IsSort str_ltb sort -> Permutation order order' ->
    collect_flat_then_sort sort pre [] (fun e => [alias_of e]) order = collect_flat_then_sort sort pre [] (fun e => [alias_of e]) order'.
(* linker.renameSymbolsInChunk: nested loop, one stableRef per imported item of every other chunk, sort.Sort(stableRefArray) *)
Definition model_renameSymbolsInChunk : Prop :=
  forall (K : Type) sort (items_of : K -> list stableRef) order order' (stable_of : Z -> Z),
    IsSort stableRef_less sort -> Permutation order order' ->
    (forall x y, stable_of x = stable_of y -> x = y) ->
    (forall a, In a (flat_map items_of order) -> sr_stable a = stable_of (r_src (sr_ref a))) ->
    collect_flat_then_sort sort [] [] items_of order = collect_flat_then_sort sort [] [] items_of order'.
(* linker.sortedCrossChunkImports: one record per other chunk (the map key), carrying that
   chunk's already sorted items; sort.Sort(crossChunkImportArray) compares the keys only *)
Definition by_key {A} (a b : Z * A) : bool := crossChunkImport_less (fst a) (fst b).
Definition model_sortedCrossChunkImports : Prop :=
  forall (A : Type) sort (items_of : Z -> A) order order',
    IsSort (@by_key A) sort -> Permutation order order' -> NoDup order ->
    collect_flat_then_sort sort [] [] (fun k => [(k, items_of k)]) order
    = collect_flat_then_sort sort [] [] (fun k => [(k, items_of k)]) order'.
(* api.validateFeatures: one string per engine constraint, then possibly "esnext", sort.Strings *)
Definition model_validateFeatures : Prop :=
  forall (K : Type) sort post (text_of : K -> list Z) order order',
    IsSort str_ltb sort -> Permutation order order' ->
    collect_flat_then_sort sort [] post (fun e => [text_of e]) order = collect_flat_then_sort sort [] post (fun e => [text_of e]) order'.

Lemma flat_singleton {K A} (E : K -> A) l : flat_map (fun k => [E k]) l = map E l.
Proof. induction l; cbn [flat_map map app]; congruence. Qed.

Lemma model_findImportedParts_holds : model_findImportedParts.
Proof.
  intros sort E o o' st di HS HP Hinj Hdom.
  apply (collect_flat_invariant chunkOrder_less (proj1 chunkOrder_order)); auto.
  cbn [app]. rewrite app_nil_r, flat_singleton.
  apply (chunkOrder_total_on_domain st); [exact Hinj|]. intros a Ia. exact (proj1 (Hdom a Ia)).
Qed.
Lemma model_generateChunkJS_exports_holds : model_generateChunkJS_exports.
Proof. intros K sort pre al o o' HS HP. apply (collect_flat_invariant str_ltb str_sw); auto using str_total. Qed.
Lemma model_renameSymbolsInChunk_holds : model_renameSymbolsInChunk.
Proof.
  intros K sort it o o' st HS HP Hinj Hdom.
  apply (collect_flat_invariant stableRef_less (proj1 stableRef_order)); auto.
  cbn [app]. rewrite app_nil_r. now apply (stableRef_total_on_domain st).
Qed.
Lemma by_key_spec {A} (a b : Z * A) : by_key a b = lt_of Z.compare (fst a) (fst b).
Proof. unfold by_key. apply crossChunkImport_spec. Qed.
Lemma model_sortedCrossChunkImports_holds : model_sortedCrossChunkImports.
Proof.
  intros A sort it o o' HS HP ND.
  apply (collect_flat_invariant (@by_key A) (via_key_strict_weak fst _ good_Z _ by_key_spec)); auto.
  cbn [app]. rewrite app_nil_r, flat_singleton.
  apply (via_key_total_on fst _ good_Z _ by_key_spec).
  intros [k1 v1] [k2 v2] I1 I2 Hk. cbn [fst] in Hk. subst k2.
  apply in_map_iff in I1 as (x1 & E1 & _). apply in_map_iff in I2 as (x2 & E2 & _).
  inversion E1; inversion E2; subst. reflexivity.
Qed.
Lemma model_validateFeatures_holds : model_validateFeatures.
Proof. intros K sort post tx o o' HS HP. apply (collect_flat_invariant str_ltb str_sw); auto using str_total. Qed.

Definition irregular_models : list (site * Prop) := [
  ((L, "(*linkerContext).findImportedPartsInJSOrder", "chunk.filesWithPartsInChunk", 0%nat)%string, model_findImportedParts);
  ((L, "(*linkerContext).generateChunkJS", "chunkRepr.exportsToOtherChunks", 0%nat)%string, model_generateChunkJS_exports);
  ((L, "(*linkerContext).renameSymbolsInChunk", "chunk.chunkRepr.(*chunkReprJS).importsFromOtherChunks", 0%nat)%string, model_renameSymbolsInChunk);
  ((L, "(*linkerContext).sortedCrossChunkImports", "importsFromOtherChunks", 0%nat)%string, model_sortedCrossChunkImports);
  ((A, "validateFeatures", "constraints", 0%nat)%string, model_validateFeatures)
].

Lemma irregular_models_hold : forall s P, In (s, P) irregular_models -> P.
Proof.
  assert (H : Forall (fun sp : site * Prop => snd sp) irregular_models).
  { unfold irregular_models. repeat apply Forall_cons; [..|apply Forall_nil].
    - exact model_findImportedParts_holds.
    - exact model_generateChunkJS_exports_holds.
    - exact model_renameSymbolsInChunk_holds.
    - exact model_sortedCrossChunkImports_holds.
    - exact model_validateFeatures_holds. }
  intros s P Hin. exact (proj1 (Forall_forall _ _) H (s, P) Hin).
Qed.

Lemma irregular_models_cover : list_eqb site_eqb (map fst irregular_models) irregular_sorted_after = true.
Proof. vm_compute. reflexivity. Qed.

Section KeyedMaps.
  Context {K V : Type} (keqb : K -> K -> bool).
  Hypothesis keqb_eq : forall a b, keqb a b = true <-> a = b.

  Definition updk (m : K -> option V) (kv : K * V) : K -> option V :=
    fun k => if keqb k (fst kv) then Some (snd kv) else m k.

  Lemma updk_spec (m : K -> option V) kv k : updk m kv k = if keqb k (fst kv) then Some (snd kv) else m k.
  Proof. reflexivity. Qed.

  (* set insert  m[E(k)] = c : the resulting map is order-independent, even when E is not injective *)
  Lemma set_insert_invariant (c : V) (l l' : list K) : Permutation l l' ->
    forall m x, fold_left updk (map (fun k => (k, c)) l) m x = fold_left updk (map (fun k => (k, c)) l') m x.
  Proof.
    intro HP. apply (writes_invariant keqb updk keqb_eq updk_spec); [now apply Permutation_map|].
    intros x y Ix Iy _. apply in_map_iff in Ix as (? & <- & _), Iy as (? & <- & _). reflexivity.
  Qed.

  (* per-key write  dst[k] = E(k, v)  over the distinct keys of a map *)
  Lemma per_key_write_invariant (l l' : list (K * V)) : NoDup (map fst l) -> Permutation l l' ->
    forall m k, fold_left updk l m k = fold_left updk l' m k.
  Proof. exact (writes_invariant_nodup keqb updk keqb_eq updk_spec l l'). Qed.
End KeyedMaps.

Definition stmt_set_insert : Prop :=
  forall (K V : Type) (keqb : K -> K -> bool), (forall a b, keqb a b = true <-> a = b) ->
  forall (c : V) l l', Permutation l l' ->
  forall m x, fold_left (updk keqb) (map (fun k => (k, c)) l) m x = fold_left (updk keqb) (map (fun k => (k, c)) l') m x.
Definition stmt_per_key_write : Prop :=
  forall (K V : Type) (keqb : K -> K -> bool), (forall a b, keqb a b = true <-> a = b) ->
  forall (l l' : list (K * V)), NoDup (map fst l) -> Permutation l l' ->
  forall m k, fold_left (updk keqb) l m k = fold_left (updk keqb) l' m k.
Definition stmt_flag_or : Prop :=
  forall (K : Type) (flag_of : K -> Z) l l', Permutation l l' ->
  forall acc, fold_left (fun a k => Z.lor a (flag_of k)) l acc = fold_left (fun a k => Z.lor a (flag_of k)) l' acc.

Definition stmt_sum : Prop :=
  forall (K : Type) (amount_of : K -> Z) l l', Permutation l l' ->
  forall acc, fold_left (fun a k => a + amount_of k) l acc = fold_left (fun a k => a + amount_of k) l' acc.
Lemma stmt_sum_holds : stmt_sum.
Proof. intros K am l l' HP acc. apply fold_comm_invariant_eq; [|exact HP]. intros b x y. lia. Qed.

Lemma stmt_set_insert_holds : stmt_set_insert.
Proof. intros K V keqb He c l l' HP m x. now apply set_insert_invariant. Qed.
Lemma stmt_per_key_write_holds : stmt_per_key_write.
Proof. intros K V keqb He l l' ND HP m k. now apply per_key_write_invariant. Qed.
Lemma stmt_flag_or_holds : stmt_flag_or.
Proof.
  intros K fl l l' HP acc. apply fold_comm_invariant_eq; [|exact HP].
  intros b x y. now rewrite <- !Z.lor_assoc, (Z.lor_comm (fl x)).
Qed.

Open Scope string_scope.
Definition shape_statement (k : string) : Prop :=
  if String.eqb k "set-insert" then stmt_set_insert
  else if String.eqb k "per-key-write" then stmt_per_key_write
  else if String.eqb k "flag-or" then stmt_flag_or
  else if String.eqb k "sum" then stmt_sum else False.
Definition shape_known (k : string) : bool :=
  String.eqb k "set-insert" || String.eqb k "per-key-write" || String.eqb k "flag-or" || String.eqb k "sum".
Lemma shape_known_statement k : shape_known k = true -> shape_statement k.
Proof.
  unfold shape_known, shape_statement. intro H.
  destruct (String.eqb k "set-insert"); [exact stmt_set_insert_holds|].
  destruct (String.eqb k "per-key-write"); [exact stmt_per_key_write_holds|].
  destruct (String.eqb k "flag-or"); [exact stmt_flag_or_holds|].
  destruct (String.eqb k "sum"); [exact stmt_sum_holds | discriminate].
Qed.

Definition fold_class (s : site) : bool :=
  match class_of s with Some (CommutativeFold _) | Some (PerKeyWrite _) => true | _ => false end.
Lemma shaped_sites_forall : forall s k, In (s, k) shaped_fold_sites -> shape_statement k /\ fold_class s = true.
Proof.
  assert (H : forallb (fun r => shape_known (snd r) && fold_class (fst r)) shaped_fold_sites = true)
    by (vm_compute; reflexivity).
  rewrite forallb_forall in H. intros s k Hin. apply H in Hin. cbn [fst snd] in Hin.
  apply andb_true_iff in Hin as [H1 H2]. split; [now apply shape_known_statement | exact H2].
Qed.

(* the commutative-fold / per-key sites that have none of the four shapes stay named *)
Definition unshaped_fold_sites : list site :=
  filter (fun s => fold_class s && negb (existsb (fun r => site_eqb s (fst r)) shaped_fold_sites)) map_sites.
