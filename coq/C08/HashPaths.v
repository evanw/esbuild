(* C08: the paths that reach a chunk hash are location-independent.
   Two regenerated inventories of linker.generateIsolatedHash:
     V.gen.HashInventoryGen (translator c18hashinv, C18): every write into the hasher;
     V.gen.HashPathsGen     (translator t4mapsites): every assignment to a local
                            variable that such a write reads.
   Obligation: no written expression and no definition of a written variable
   mentions the log path style, an absolute path or the working directory
   (LogPathStyle, Select(, .Abs, AbsPath, Cwd, AbsWorkingDir): the only file path in the hash is PrettyPaths.Rel (or
   the key path text of a non-file namespace). *)
From Coq Require Import String List Bool Ascii.
From V Require Import gen.HashInventoryGen gen.HashPathsGen.
Import ListNotations.
Open Scope string_scope.

Fixpoint has_prefix (p s : string) : bool :=
  match p, s with
  | EmptyString, _ => true
  | String a p', String b s' => Ascii.eqb a b && has_prefix p' s'
  | _, EmptyString => false
  end.
Fixpoint contains (p s : string) : bool :=
  has_prefix p s || match s with EmptyString => false | String _ s' => contains p s' end.

Definition forbidden : list string := ["LogPathStyle"; "Select("; ".Abs"; "AbsPath"; "Cwd"; "AbsWorkingDir"].
Definition location_free (e : string) : bool := forallb (fun w => negb (contains w e)) forbidden.

Lemma hash_writes_location_free : forall k e g, In (k, e, g) iso_writes -> location_free e = true.
Proof.
  assert (H : forallb (fun w => location_free (snd (fst w))) iso_writes = true) by (vm_compute; reflexivity).
  rewrite forallb_forall in H. intros k e g Hin. exact (H _ Hin).
Qed.
Lemma hash_operands_location_free : forall v e, In (v, e) hash_operand_definitions -> location_free e = true.
Proof.
  assert (H : forallb (fun d => location_free (snd d)) hash_operand_definitions = true) by (vm_compute; reflexivity).
  rewrite forallb_forall in H. intros v e Hin. exact (H _ Hin).
Qed.
Lemma hash_file_path_is_relative :
  In ("filePath", "file.InputFile.Source.PrettyPaths.Rel") hash_operand_definitions.
Proof. unfold hash_operand_definitions. cbn [In]. auto. Qed.
(* an empty inventory would make the first statement say nothing *)
Lemma hash_writes_counted : hash_write_count <> 0%nat.
Proof. discriminate. Qed.
