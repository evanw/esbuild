(* C08: every run of the Serializer LTS (any interleaving, any number of
   workers) executes the critical sections in index order, one at a time, and
   never deadlocks. *)
From V Require Import Common.Base C08.Serializer.
Local Open Scope nat_scope.

Lemma pc_eqb_eq a b : pc_eqb a b = true <-> a = b.
Proof. destruct a, b; cbn; split; (reflexivity || discriminate). Qed.

Definition tail_of (p : pcT) (k : nat) : list nat := match p with Worked => [k] | _ => [] end.

(* frontier k: workers below k have left, workers above k have not started *)
Definition SerInv (n : nat) (s : sstate) : Prop :=
  exists k, k <= n
    /\ (forall j, j < k -> pc s j = Left)
    /\ (forall j, j > k -> pc s j = Waiting)
    /\ (forall j, j >= n -> pc s j = Waiting)
    /\ pc s k <> Left
    /\ slog s = seq 0 k ++ tail_of (pc s k) k.

Lemma inv_init n : SerInv n sinit.
Proof. exists 0. cbn. repeat split; auto with arith; try discriminate; intros; lia. Qed.

Lemma upd_same f i v : upd_pc f i v i = v.
Proof. unfold upd_pc. now rewrite Nat.eqb_refl. Qed.
Lemma upd_other f i v j : j <> i -> upd_pc f i v j = f j.
Proof. unfold upd_pc. intro H. apply Nat.eqb_neq in H. now rewrite H. Qed.

(* a worker that is not Left/Waiting-beyond-frontier must be the frontier *)
Lemma frontier_unique (s : sstate) (k i : nat) :
  (forall j, j < k -> pc s j = Left) -> (forall j, j > k -> pc s j = Waiting) ->
  pc s i <> Left -> pc s i <> Waiting -> i = k.
Proof.
  intros HL HW H1 H2. destruct (Nat.lt_trichotomy i k) as [H|[H|H]]; auto.
  - exfalso. apply H1. now apply HL.
  - exfalso. apply H2. now apply HW.
Qed.

Lemma inv_step n s e s' : SerInv n s -> sstep n s e = Some s' -> SerInv n s'.
Proof.
  intros (k & Hkn & HL & HW & HN & Hk & Hlog) Hstep.
  destruct e as [i|i|i]; cbn [sstep] in Hstep.
  - (* Enter *)
    destruct (i <? n) eqn:Ein; cbn [andb] in Hstep; [|discriminate].
    destruct (pc_eqb (pc s i) Waiting) eqn:Ew; cbn [andb] in Hstep; [|discriminate].
    destruct ((i =? 0) || pc_eqb (pc s (i - 1)) Left) eqn:Ep; [|discriminate].
    inversion Hstep; subst s'; clear Hstep.
    apply pc_eqb_eq in Ew. apply Nat.ltb_lt in Ein.
    assert (Eik : i = k).
    { destruct (Nat.lt_trichotomy i k) as [H|[H|H]]; auto.
      - rewrite (HL i H) in Ew. discriminate.
      - apply orb_true_iff in Ep as [Ep|Ep].
        + apply Nat.eqb_eq in Ep. lia.
        + apply pc_eqb_eq in Ep. destruct (Nat.eq_dec (i - 1) k) as [E|E].
          * rewrite E in Ep. contradiction.
          * rewrite (HW (i - 1)) in Ep by lia. discriminate. }
    subst i. exists k. cbn [pc slog]. repeat split; auto.
    1-3: intros j Hj; rewrite upd_other by lia; auto.
    + rewrite upd_same. discriminate.
    + rewrite upd_same. rewrite Hlog, Ew. reflexivity.
  - (* Work *)
    destruct (i <? n) eqn:Ein; cbn [andb] in Hstep; [|discriminate].
    destruct (pc_eqb (pc s i) Entered) eqn:Ew; [|discriminate].
    inversion Hstep; subst s'; clear Hstep.
    apply pc_eqb_eq in Ew. apply Nat.ltb_lt in Ein.
    assert (Eik : i = k) by (eapply frontier_unique; eauto; rewrite Ew; discriminate).
    subst i. exists k. cbn [pc slog]. repeat split; auto.
    1-3: intros j Hj; rewrite upd_other by lia; auto.
    + rewrite upd_same. discriminate.
    + rewrite upd_same. rewrite Hlog, Ew. cbn [tail_of]. now rewrite app_nil_r.
  - (* Leave *)
    destruct (i <? n) eqn:Ein; cbn [andb] in Hstep; [|discriminate].
    destruct (pc_eqb (pc s i) Worked) eqn:Ew; [|discriminate].
    inversion Hstep; subst s'; clear Hstep.
    apply pc_eqb_eq in Ew. apply Nat.ltb_lt in Ein.
    assert (Eik : i = k) by (eapply frontier_unique; eauto; rewrite Ew; discriminate).
    subst i. exists (S k). cbn [pc slog]. repeat split; auto.
    + intros j Hj. destruct (Nat.eq_dec j k) as [E|E]; [subst; apply upd_same|].
      rewrite upd_other by lia. apply HL. lia.
    + intros j Hj. rewrite upd_other by lia. apply HW. lia.
    + intros j Hj. rewrite upd_other by lia. auto.
    + rewrite upd_other by lia. rewrite HW by lia. discriminate.
    + rewrite upd_other by lia. rewrite (HW (S k)) by lia. cbn [tail_of].
      rewrite Hlog, Ew. cbn [tail_of]. rewrite app_nil_r. now rewrite seq_S.
Qed.

Lemma inv_run n : forall tr s s', SerInv n s -> srun n s tr = Some s' -> SerInv n s'.
Proof.
  induction tr as [|e tr IH]; intros s s' HI Hr; cbn [srun] in Hr.
  - now inversion Hr; subst.
  - destruct (sstep n s e) as [s1|] eqn:E; [|discriminate].
    eapply IH; [eapply inv_step; eauto | exact Hr].
Qed.

Lemma all_left_spec n s : all_left n s = true <-> forall j, j < n -> pc s j = Left.
Proof.
  unfold all_left. rewrite forallb_forall. split.
  - intros H j Hj. apply pc_eqb_eq, H, in_seq. lia.
  - intros H j Hj. apply in_seq in Hj. apply pc_eqb_eq, H. lia.
Qed.

(* the log of critical sections of every reachable state is an initial
   segment 0,1,2,... : the critical sections ran in index order *)
Lemma serializer_prefix n tr s :
  srun n sinit tr = Some s -> exists k, k <= n /\ slog s = seq 0 k.
Proof.
  intro Hr. destruct (inv_run n tr _ _ (inv_init n) Hr) as (k & Hkn & HL & HW & HN & Hk & Hlog).
  destruct (pc s k) eqn:E; cbn [tail_of] in Hlog.
  - exists k. now rewrite app_nil_r in Hlog.
  - exists k. now rewrite app_nil_r in Hlog.
  - exists (S k). split.
    + destruct (Nat.eq_dec k n) as [->|]; [|lia]. rewrite HN in E by lia. discriminate.
    + now rewrite seq_S.
  - contradiction.
Qed.

(* complete runs: every worker entered and left => exactly 0..n-1 in order *)
Lemma serializer_order_all n tr s :
  srun n sinit tr = Some s -> all_left n s = true -> slog s = seq 0 n.
Proof.
  intros Hr Hall. destruct (inv_run n tr _ _ (inv_init n) Hr) as (k & Hkn & HL & HW & HN & Hk & Hlog).
  rewrite all_left_spec in Hall.
  assert (k = n). { destruct (Nat.eq_dec k n); auto. exfalso. apply Hk, Hall. lia. }
  subst k. rewrite Hlog, HN by lia. cbn [tail_of]. now rewrite app_nil_r.
Qed.

(* mutual exclusion: two workers are never inside together *)
Definition inside (p : pcT) : Prop := p = Entered \/ p = Worked.
Lemma serializer_mutex_all n tr s i j :
  srun n sinit tr = Some s -> inside (pc s i) -> inside (pc s j) -> i = j.
Proof.
  intros Hr Hi Hj. destruct (inv_run n tr _ _ (inv_init n) Hr) as (k & Hkn & HL & HW & HN & Hk & Hlog).
  assert (forall x, inside (pc s x) -> x = k).
  { intros x Hx. eapply frontier_unique; eauto; destruct Hx as [E|E]; rewrite E; discriminate. }
  rewrite (H i Hi), (H j Hj). reflexivity.
Qed.

(* no deadlock: unless everybody is done some step is enabled *)
Lemma serializer_progress_all n tr s :
  srun n sinit tr = Some s -> all_left n s = false -> exists e s', sstep n s e = Some s'.
Proof.
  intros Hr Hall. destruct (inv_run n tr _ _ (inv_init n) Hr) as (k & Hkn & HL & HW & HN & Hk & Hlog).
  assert (Hlt : k < n).
  { destruct (Nat.eq_dec k n) as [->|]; [|lia]. exfalso.
    assert (all_left n s = true) by (apply all_left_spec; auto). congruence. }
  apply Nat.ltb_lt in Hlt.
  destruct (pc s k) eqn:E.
  - exists (EvEnter k). cbn [sstep]. rewrite Hlt, E. cbn [pc_eqb andb].
    destruct k as [|k']; cbn [Nat.eqb orb]; [eauto|].
    replace (S k' - 1) with k' by lia. rewrite (HL k') by lia. cbn [pc_eqb]. eauto.
  - exists (EvWork k). cbn [sstep]. rewrite Hlt, E. cbn [pc_eqb andb]. eauto.
  - exists (EvLeave k). cbn [sstep]. rewrite Hlt, E. cbn [pc_eqb andb]. eauto.
  - contradiction.
Qed.
