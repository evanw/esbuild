(* Checkers evaluated by the correspondence run: each returns the indices of
   the cases on which the model and the implementation's observed output
   differ. *)
From V Require Import Common.Base C09.Cache C09.OptionFields C09.Watch.
From V Require Import gen.OptionFieldsGen.
Require Import Coq.Strings.String.
Open Scope string_scope.
Open Scope Z_scope.

Fixpoint mism_from {A} (f : A -> bool) (l : list A) (i : nat) : list nat :=
  match l with
  | [] => []
  | x :: r => if f x then mism_from f r (S i) else i :: mism_from f r (S i)
  end.
Definition mismatches {A} (f : A -> bool) (l : list A) : list nat := mism_from f l 0.

(* encodings used by the Go harness:
   ModKey answer: 0 :: k = (k, nil) ; [1] = modKeyUnusable ; [2; e] = error e
   ReadFile answer / result: [0; c] = contents c ; [1; e] = error e *)
Definition dec_mk (l : list Z) : mkres :=
  match l with
  | 0 :: k => MKOk k
  | [1] => MKUnusable
  | [_; e] => MKErr e
  | _ => MKErr (-1)
  end.
Definition dec_rd (l : list Z) : rdres :=
  match l with
  | [0; c] => RdOk c
  | [_; e] => RdErr e
  | _ => RdErr (-1)
  end.

(* one step: path, ModKey answer, ReadFile answer, observed result, observed "fs.ReadFile was called" *)
Definition fs_step := (Z * list Z * list Z * list Z * bool)%type.

Fixpoint fs_steps_ok (c : fscache) (l : list fs_step) : bool :=
  match l with
  | [] => true
  | (p, mk, rd, obs, called) :: r =>
      let '(res, c', cl) := FSCache_ReadFile c p (dec_mk mk) (dec_rd rd) in
      rdres_eqb res (dec_rd obs) && Bool.eqb cl called && fs_steps_ok c' r
  end.
(* a case is a whole history on a fresh FSCache *)
Definition check_fscache := mismatches (fs_steps_ok []).

(* SourceIndexCache.Get: (first free index, keys, observed indices) *)
Definition si_ok_case (c : Z * list Z * list Z) : bool :=
  let '(next, keys, obs) := c in zlist_eqb (run_si (mkSi [] next) keys) obs.
Definition check_si := mismatches si_ok_case.

(* option comparison of the real caches, one field toggled at a time:
   (cache: 0 js 1 css 2 json, flattened field name, observed "second lookup was a hit") *)
Definition table_of (c : Z) : list ofield :=
  if c =? 0 then js_option_fields else if c =? 1 then css_option_fields else json_option_fields.
Definition opteq_ok (c : Z * string * bool) : bool :=
  let '(cache, name, hit) := c in
  match predicted_hit (table_of cache) name with
  | Some h => Bool.eqb h hit
  | None => false
  end.
Definition check_opteq := mismatches opteq_ok.

(* every inventory field that OptionsFromConfig sets was toggled by the harness:
   one case per cache = (cache, names toggled); mismatch if some field is missing *)
Definition opteq_complete_ok (c : Z * list string) : bool :=
  let '(cache, names) := c in
  forallb (fun f => negb (of_set f) || str_in (of_name f) names) (table_of cache).
Definition check_opteq_complete := mismatches opteq_complete_ok.

(* ---- watch data of the real FS ----
   world entry: (path, listing or None, ReadFile answer, ModKey answer, isfile) *)
Definition wentry := (Z * option (list name) * list Z * list Z * bool)%type.
(* entry kinds of a world: (directory, entry name, kind, is a symlink, EvalSymlinks result or None) *)
Definition kentry := (Z * name * Z * bool * option Z)%type.
Definition mk_world_k (l : list wentry) (ks : list kentry) : wworld :=
  let find p := List.find (fun e : wentry => let '(q, _, _, _, _) := e in q =? p) l in
  let findk d n := List.find (fun e : kentry => let '(q, m, _, _, _) := e in (q =? d) && name_eqb m n) ks in
  mkWw (fun p => match find p with Some (_, d, _, _, _) => d | None => None end)
       (fun p => match find p with Some (_, _, r, _, _) => dec_rd r | None => RdErr 2 end)
       (fun p => match find p with Some (_, _, _, m, _) => dec_mk m | None => MKErr 2 end)
       (fun p => match find p with Some (_, _, _, _, b) => b | None => false end)
       (fun d n => match findk d n with Some (_, _, k, _, _) => k | None => 0 end)
       (fun d n => match findk d n with Some (_, _, _, b, _) => b | None => false end)
       (fun d n => match findk d n with Some (_, _, _, _, e) => e | None => None end).
Definition mk_world (l : list wentry) : wworld := mk_world_k l [].

(* op: (kind, path, name) kind 0 ReadDirectory 1 Get 2 SortedKeys 3 ReadFile 4 ModKey 5 Entry.Kind *)
Definition dec_obs (o : Z * Z * name) : obs :=
  let '(k, p, n) := o in
  if k =? 0 then OReadDir p else if k =? 1 then OGet p n else if k =? 2 then OSortedKeys p
  else if k =? 3 then OReadFile p else if k =? 4 then OModKey p else OKind p n.

(* observed record: (path, state code, key, contents, wasPresent sorted by key, allEntries or None,
   symlink targets sorted by name) *)
Definition wobs := (Z * Z * list Z * Z * list (name * bool) * option (list name) * list (name * option Z))%type.

Fixpoint insert_pb (x : name * bool) (l : list (name * bool)) : list (name * bool) :=
  match l with
  | [] => [x]
  | y :: r => if name_ltb (fst y) (fst x) then y :: insert_pb x r else x :: l
  end.
Definition sort_pb (l : list (name * bool)) := fold_right insert_pb [] l.
Definition pb_eqb (a b : list (name * bool)) : bool :=
  list_eqb (fun x y => name_eqb (fst x) (fst y) && Bool.eqb (snd x) (snd y)) a b.

Fixpoint insert_nl (x : name * option Z) (l : list (name * option Z)) : list (name * option Z) :=
  match l with
  | [] => [x]
  | y :: r => if name_ltb (fst y) (fst x) then y :: insert_nl x r else x :: l
  end.
Definition sort_nl (l : list (name * option Z)) := fold_right insert_nl [] l.
Definition nl_eqb (a b : list (name * option Z)) : bool :=
  list_eqb (fun x y => name_eqb (fst x) (fst y) && option_eqb Z.eqb (snd x) (snd y)) a b.

Definition wobs_ok (f : wfs) (o : wobs) : bool :=
  let '(p, st, key, c, pres, all, links) := o in
  match lookup p (wf_data f) with
  | None => false
  | Some r =>
      (wstate_code (wd_state r) =? st) && zlist_eqb (wd_key r) key && (wd_contents r =? c) &&
      match wd_acc r with
      | Some a => pb_eqb (sort_pb (present_map (ac_present a) [])) pres && option_eqb names_eqb (ac_all a) all
                  && nl_eqb (sort_nl (link_map (ac_links a) [])) links
      | None => match pres, all, links with [], None, [] => true | _, _, _ => false end
      end
  end.

Fixpoint insert_z (x : Z) (l : list Z) : list Z :=
  match l with [] => [x] | y :: r => if y <? x then y :: insert_z x r else x :: l end.
Definition sort_z (l : list Z) := fold_right insert_z [] l.

(* (world at build time with its entry kinds, log, observed records, world after the edit with its entry kinds,
   observed dirty paths (sorted)) *)
Definition watch_case := (list wentry * list kentry * list (Z * Z * name) * list wobs * list wentry * list kentry * list Z)%type.
Definition watch_ok (c : watch_case) : bool :=
  let '(w, ks, log, obsd, w2, ks2, dirty) := c in
  let f := record (mk_world_k w ks) (map dec_obs log) in
  Nat.eqb (List.length (newest (wf_data f) [])) (List.length obsd) &&
  forallb (wobs_ok f) obsd &&
  zlist_eqb (sort_z (dirty_paths (mk_world_k w2 ks2) (finalize (mk_world_k w ks) f))) dirty.
Definition check_watch := mismatches watch_ok.

(* ---- the resolver's cached JSON read: FSCache.ReadFile then JSONCache.Parse ----
   source = (path, contents id); JSON options = an integer compared with ==;
   the parsed value of contents id c is c itself (the harness writes {"v": c}) *)
From V Require Import C09.CacheSet.
Definition jsrc := (Z * Z)%type.
Definition jsrc_eqb (a b : jsrc) : bool := (fst a =? fst b) && (snd a =? snd b).
Definition jparse_id (s : jsrc) (o : Z) : Z := snd s.

(* one step: path, ModKey answer, ReadFile answer, JSON options, observed value (-1 = unreadable),
   observed "fs.ReadFile was called", observed "JSONCache returned a stored expression" *)
Definition json_step := (Z * list Z * list Z * Z * Z * bool * bool)%type.

Definition json_world (p : Z) (mk rd : list Z) : world :=
  mkWorld (fun q => if q =? p then dec_mk mk else MKErr 2) (fun q => if q =? p then dec_rd rd else RdErr 2).

Fixpoint json_steps_ok (c : cacheset jsrc Z Z Z Z Z Z) (l : list json_step) : bool :=
  match l with
  | [] => true
  | (p, mk, rd, opt, obs, called, hit) :: r =>
      (* the two caches step by step, as the resolver calls them *)
      let '(res, fc, cl) := FSCache_ReadFile (cs_fs c) p (dec_mk mk) (dec_rd rd) in
      let '(val, m, h) :=
        match res with
        | RdOk cts => let '(x, m, h) := memo_parse fst jsrc_eqb Z.eqb jparse_id (cs_json c) (p, cts) opt in (x, m, h)
        | RdErr _ => (-1, cs_json c, false)
        end in
      (* the same read as a program of the cache-set interface *)
      let '(val2, c2) :=
        run_cached3 jsrc Z Z Z Z Z Z Z fst jsrc_eqb Z.eqb Z.eqb Z.eqb jparse_id jparse_id jparse_id
          (json_world p mk rd) c
          (read_json (fun p c => (p, c)) p opt (fun x => Ret3 (match x with Some v => v | None => -1 end))) in
      (val =? obs) && Bool.eqb cl called && Bool.eqb h hit && (val2 =? obs) &&
      json_steps_ok c2 r
  end.
Definition check_jsonread := mismatches (json_steps_ok cs_empty).
