From V Require Import Common.Base C09.AstWrites.
From V Require Import gen.AstWritesGen.
Require Import Coq.Strings.String.
Open Scope string_scope.

Lemma shared_sites_exact : shared_sites ast_write_sites = ast_write_allowlist.
Proof. vm_compute. reflexivity. Qed.

Lemma cloned_levels_exact : cloned_levels = expected_cloned_levels.
Proof. vm_compute. reflexivity. Qed.

(* the inventory is not empty or degenerate: the clone-side classes are
   populated (34, 21 and 6 sites at the scanned commit; the bounds only have to
   stay below the counts) *)
Lemma inventory_populated :
  (20 <= count_class ClonedLevel ast_write_sites)%nat /\ (15 <= count_class OwnedField ast_write_sites)%nat /\
  (5 <= count_class OwnedSlice ast_write_sites)%nat.
Proof. vm_compute. repeat split; repeat constructor. Qed.

(* the re-created property list of the JSON default-export clone is what makes
   the rewrite of its properties a write on a clone *)
Lemma json_default_export_rewrite_is_on_a_clone :
  existsb (fun s => String.eqb (ws_lhs s) "objectClone.Properties[i].ValueOrNil" &&
                    negb (is_shared (ws_class s))) ast_write_sites = true.
Proof. vm_compute. reflexivity. Qed.

(* the CSS layer merge appends to a slice that may be a cached AST's layer list
   only after re-creating it: the inventory sees the re-creation *)
Lemma css_layer_merge_after_recreation :
  existsb (fun s => String.eqb (ws_lhs s)
     "wipOrder[prevIndex].layers = append(prev.layers, entry.layers...) {after a conditional re-creation of prev.layers}")
    ast_write_sites = true.
Proof. vm_compute. reflexivity. Qed.
