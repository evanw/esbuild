(* C09 property theorems. This file contains only statements closed by
   [exact lemma] and Print Assumptions. *)
From V Require Import Common.Base C09.Cache C09.CacheProofs C09.OptionFields C09.OptionFieldsProofs C09.Watch C09.WatchProofs.
From V Require Import C09.CacheSet C09.CacheSetProofs C09.AstWrites C09.AstWritesProofs.
From V Require Import gen.AstWritesGen.
From V Require Import gen.OptionFieldsGen.
Require Import Coq.Strings.String.
Open Scope string_scope.
Open Scope Z_scope.

(* JSCache/CSSCache/JSONCache: if the source comparison is equality and the
   option comparison is sound for the parser, then over EVERY history of calls
   the cache returns exactly what the parser would return. *)
Theorem memo_transparent :
  forall (src opts res : Type) (key_of : src -> Z) (src_eqb : src -> src -> bool)
         (opt_equal : opts -> opts -> bool) (parse : src -> opts -> res),
    (forall a b, src_eqb a b = true -> a = b) ->
    (forall s o o', opt_equal o o' = true -> parse s o = parse s o') ->
    forall calls, run_memo key_of src_eqb opt_equal parse [] calls
                  = map (fun c => parse (fst c) (snd c)) calls.
Proof. exact memo_transparent_all. Qed.
Print Assumptions memo_transparent.

(* FSCache.ReadFile over every access/edit history: provided a usable mod key
   that was seen before with successfully read contents still denotes those
   contents ("modification times advance normally"), every cached read returns
   what fs.ReadFile answers at that moment. *)
Theorem fscache_transparent :
  forall h, ModKeySoundH h -> run_fs [] h = map a_rd h.
Proof. exact fscache_transparent_all. Qed.
Print Assumptions fscache_transparent.

(* SourceIndexCache: over every key sequence, two different keys never get the
   same index (that a key keeps its index is CacheProofs.run_si_final; it is
   not part of this statement) *)
Theorem source_index_injective :
  forall keys c, si_ok c -> forall k1 k2 n1 n2 i,
    nth_error keys n1 = Some k1 -> nth_error keys n2 = Some k2 ->
    nth_error (run_si c keys) n1 = Some i -> nth_error (run_si c keys) n2 = Some i -> k1 = k2.
Proof. exact run_si_injective. Qed.
Print Assumptions source_index_injective.

(* The lifted statement: for every finite edit history (an arbitrary world
   before each step) and every build program written against the observation
   interface, rebuilding on the context's cache set returns what a fresh build
   of the current tree returns. *)
Theorem rebuild_eq_fresh :
  forall (src opts res R : Type) (key_of : src -> Z) (src_eqb : src -> src -> bool)
         (opt_equal : opts -> opts -> bool) (parse : src -> opts -> res),
    (forall a b, src_eqb a b = true -> a = b) ->
    (forall s o o', opt_equal o o' = true -> parse s o = parse s o') ->
    forall steps : list (world * build src opts res R),
      ModKeySound (map fst steps) ->
      rebuilds key_of src_eqb opt_equal parse ([], []) steps
      = map (fun wb => run_fresh parse (fst wb) (snd wb)) steps.
Proof. exact rebuild_eq_fresh_all. Qed.
Print Assumptions rebuild_eq_fresh.

(* option-field coverage over translator T3's regenerated inventory: every
   field of js_parser.Options that the parser package reads is compared
   by Options.Equal or is on the justified list (finding C of DESIGN section
   7-C is fixed in /repo; its witness is replayed by the harness stream
   c09/known and kept in corpus/C09-C-tsconfig-jsx.json) *)
Theorem equal_covers_all_fields : equal_covers js_irrelevant js_option_fields = true.
Proof. exact js_covers. Qed.
Print Assumptions equal_covers_all_fields.

(* the witness of finding C: Equal distinguishes options that differ in jsx.AutomaticRuntime *)
Theorem jsx_gap_closed : table_equal js_option_fields gap_o gap_o' = false.
Proof. exact gap_options_told_apart. Qed.
Print Assumptions jsx_gap_closed.

(* css_parser.Options and js_parser.JSONOptions are fully covered, and all
   three caches compare the source as well *)
Theorem css_equal_covers_all_fields : equal_covers [] css_option_fields = true.
Proof. exact css_covers. Qed.
Print Assumptions css_equal_covers_all_fields.

Theorem json_equal_covers_all_fields : equal_covers [] json_option_fields = true.
Proof. exact json_covers. Qed.
Print Assumptions json_equal_covers_all_fields.

Theorem all_caches_compare_source : caches_comparing_source = ["CSSCache"; "JSCache"; "JSONCache"]%string.
Proof. exact caches_compare_source. Qed.
Print Assumptions all_caches_compare_source.

(* why coverage matters: for ANY inventory and ANY parser that depends only on
   the fields marked read, a clean coverage check gives the soundness
   hypothesis of memo_transparent, hence transparency over every history *)
Theorem coverage_implies_memo_transparent :
  forall (S R : Type) (parse : S -> oassign -> R) (fs : list ofield) (irr : list string)
         (key_of : S -> Z) (src_eqb : S -> S -> bool),
    (forall a b, src_eqb a b = true -> a = b) ->
    equal_covers irr fs = true -> reads_only S R parse fs irr ->
    forall calls, run_memo key_of src_eqb (table_equal fs) parse [] calls
                  = map (fun c => parse (fst c) (snd c)) calls.
Proof. exact covered_table_memo_transparent. Qed.
Print Assumptions coverage_implies_memo_transparent.

(* Watch mode; the model follows the recorder of commits 0717f2b and dbd24f7.
   For EVERY log of observations (ReadDirectory, per-name lookups, full
   listings, ReadFile, ModKey, entry kind / symlink target) made on a file
   system w and every later file system w': if none of the watch predicates
   computed by WatchData() is dirty on w', then every observation of the log
   answers on w' what it answered on w - in particular the "looked for and not
   found" lookups (wasPresent = false, stateFileMissing, stateDirUnreadable) and
   what a symlink resolves to.
   Hypotheses, and why:
   - wf_path: the first observation of a directory path is its ReadDirectory;
     reads of that same path as a file may follow when it really is a listable
     directory (the shape of finding F, which the theorem covers).
     Excluded is the opposite mix - ReadDirectory after file observations, or
     file observations of a path whose ReadDirectory failed: the recorder keeps
     one record per path.  On the real code that mix is a regular file probed as
     a directory, for which the resolver reports "Cannot read directory: not a
     directory" and the build fails whatever the file contains.
   - kind_hyps / kind_companions: entry kinds agree with the file system (the
     kind of an entry is the kind of what it resolves to; a plain present entry
     resolves to itself; a symlink never resolves to its own path and what it
     resolves to has a kind) and the build used the entry the way the resolver
     does (it came from a Get; a file was then read, a directory then listed).
     Symlinks are covered (findings G and G2); the hypothesis about them
     is "a plain entry is not replaced by a symlink of the same name":
     with a usable mod key the inode in the key changes, with an unusable one
     only the contents are compared and nothing records that the entry was plain.
   - file_hyps, dir_coh: a path read only as a file is a readable regular file
     or absent in both worlds, an unchanged usable mod key means unchanged
     contents ("modification times advance normally"), a real mod key is not the
     zero value; a listable directory is not readable as a file and stat works on it.
   Not covered: the original-case spelling of a present entry. *)
Theorem watch_covers_observations :
  forall (child : path -> name -> path) w w' log,
    (forall o, In o log -> wf_path w log (obs_path o)) ->
    (forall o, In o log -> forallb is_file_op (proj (obs_path o) log) = true -> file_hyps w w' (obs_path o)) ->
    (forall p, dir_coh w p /\ dir_coh w' p) ->
    (forall d n, In (OKind d n) log ->
       kind_hyps child w d n /\ kind_hyps child w' d n /\ kind_companions child log w d n /\
       (ww_islink w d n = false -> ww_islink w' d n = false)) ->
    clean w' (finalize w (record w log)) = true ->
    all_same w w' log = true.
Proof. exact watch_covers_observations_all. Qed.
Print Assumptions watch_covers_observations.

(* The three counterexamples to the unrestricted statement on the recorder
   before commits 0717f2b and dbd24f7 (replayed on the real code by stream
   c09/known as must-pass cases) are detected by the recorded predicates:
   F - a listed directory that is also read as a file keeps its record; the
       log satisfies wf_path and the new entry is reported; *)
Theorem watch_finding_F_shape_covered :
  (forall o, In o f_log -> wf_path f_w f_log (obs_path o)) /\
  dirty_paths f_w' (finalize f_w (record f_w f_log)) = [1] /\ all_same f_w f_w' f_log = false.
Proof. exact (conj finding_F_shape_in_domain finding_F_shape_detected). Qed.
Print Assumptions watch_finding_F_shape_covered.

(* G - a re-pointed symlink makes the directory's record dirty (and an
       unchanged one leaves it clean); *)
Theorem watch_finding_G_shape_covered :
  dirty_paths (g_world 6) (finalize (g_world 5) (record (g_world 5) g_log)) = [1] /\
  clean (g_world 5) (finalize (g_world 5) (record (g_world 5) g_log)) = true.
Proof. exact finding_G_shape_detected. Qed.
Print Assumptions watch_finding_G_shape_covered.

(* G2 - so does the appearance of the missing target of a dangling symlink. *)
Theorem watch_finding_G2_shape_covered :
  dirty_paths (g2_world false) (finalize (g2_world true) (record (g2_world true) g2_log)) = [1] /\
  clean (g2_world true) (finalize (g2_world true) (record (g2_world true) g2_log)) = true.
Proof. exact finding_G2_shape_detected. Qed.
Print Assumptions watch_finding_G2_shape_covered.

(* The whole cache set, including the resolver's cached reads.
   For every edit history and every build program over the full interface
   (FSCache.ReadFile, JSCache, CSSCache, JSONCache - three parsers, three
   option comparisons), rebuilding on the context's cache set returns what a
   fresh build returns. *)
Theorem rebuild_eq_fresh_cacheset :
  forall (src jopts jres copts cres nopts nres R : Type) (key_of : src -> Z) (src_eqb : src -> src -> bool)
         (jequal : jopts -> jopts -> bool) (cequal : copts -> copts -> bool) (nequal : nopts -> nopts -> bool)
         (jparse : src -> jopts -> jres) (cparse : src -> copts -> cres) (nparse : src -> nopts -> nres),
    (forall a b, src_eqb a b = true -> a = b) ->
    (forall s o o', jequal o o' = true -> jparse s o = jparse s o') ->
    (forall s o o', cequal o o' = true -> cparse s o = cparse s o') ->
    (forall s o o', nequal o o' = true -> nparse s o = nparse s o') ->
    forall steps : list (world * build3 src jopts jres copts cres nopts nres R),
      ModKeySound (map fst steps) ->
      rebuilds3 src jopts jres copts cres nopts nres R key_of src_eqb jequal cequal nequal jparse cparse nparse cs_empty steps
      = map (fun wb => run_fresh3 src jopts jres copts cres nopts nres R jparse cparse nparse (fst wb) (snd wb)) steps.
Proof. exact rebuild_eq_fresh_cacheset_all. Qed.
Print Assumptions rebuild_eq_fresh_cacheset.

(* the resolver's package.json / tsconfig.json read (file cache keyed by path
   and mod key in front of the JSON cache keyed by path and compared on the
   source): on any cache state left by earlier builds it continues with the
   parsed value of the file's CURRENT contents, or with "unreadable" *)
Theorem resolver_json_read_transparent :
  forall (src jopts jres copts cres nopts nres R : Type) (key_of : src -> Z) (src_eqb : src -> src -> bool)
         (jequal : jopts -> jopts -> bool) (cequal : copts -> copts -> bool) (nequal : nopts -> nopts -> bool)
         (jparse : src -> jopts -> jres) (cparse : src -> copts -> cres) (nparse : src -> nopts -> nres),
    (forall a b, src_eqb a b = true -> a = b) ->
    (forall s o o', jequal o o' = true -> jparse s o = jparse s o') ->
    (forall s o o', cequal o o' = true -> cparse s o = cparse s o') ->
    (forall s o o', nequal o o' = true -> nparse s o = nparse s o') ->
    forall ws, ModKeySound ws ->
    forall (mk_src : path -> Z -> src) p o (k : option nres -> build3 src jopts jres copts cres nopts nres R) w c,
      In w ws -> cs_ok src jopts jres copts cres nopts nres jparse cparse nparse ws c ->
      fst (run_cached3 src jopts jres copts cres nopts nres R key_of src_eqb jequal cequal nequal jparse cparse nparse w c
             (read_json mk_src p o k))
      = run_fresh3 src jopts jres copts cres nopts nres R jparse cparse nparse w
          (k (match w_read w p with RdOk cts => Some (nparse (mk_src p cts) o) | RdErr _ => None end)).
Proof. exact resolver_json_read_transparent_all. Qed.
Print Assumptions resolver_json_read_transparent.

(* Cached ASTs are immutable: the linker and the bundler write on clones.
   Over translator T9's regenerated inventory of every write whose target is
   reached through AST-derived storage in internal/linker/linker.go and
   internal/bundler/bundler.go: the writes that land in storage the cached AST
   still references are EXACTLY the justified allow-list (AstWrites.v), and the
   levels the "cloned level" class relies on are the ones CloneLinkerGraph clones *)
Theorem linker_writes_only_on_clones : shared_sites ast_write_sites = ast_write_allowlist.
Proof. exact shared_sites_exact. Qed.
Print Assumptions linker_writes_only_on_clones.

Theorem cloned_levels_as_expected : cloned_levels = expected_cloned_levels.
Proof. exact cloned_levels_exact. Qed.
Print Assumptions cloned_levels_as_expected.

(* the rewrite of a JSON module's default-export object happens on a property
   list the function re-created (the obligation seeded change C09-2 violates) *)
Theorem json_default_export_rewrite_on_clone :
  existsb (fun s => String.eqb (ws_lhs s) "objectClone.Properties[i].ValueOrNil" &&
                    negb (is_shared (ws_class s))) ast_write_sites = true.
Proof. exact json_default_export_rewrite_is_on_a_clone. Qed.
Print Assumptions json_default_export_rewrite_on_clone.

(* the merge of adjacent "@layer" entries in findImportedFilesInCSSOrder appends
   to a layer list that may belong to a cached css_ast.AST only after the
   didClone re-creation (the obligation seeded change C08-3 violates) *)
Theorem css_layer_merge_on_clone :
  existsb (fun s => String.eqb (ws_lhs s)
     "wipOrder[prevIndex].layers = append(prev.layers, entry.layers...) {after a conditional re-creation of prev.layers}")
    ast_write_sites = true.
Proof. exact css_layer_merge_after_recreation. Qed.
Print Assumptions css_layer_merge_on_clone.
