(* C09 proofs over the generated option-field inventory. *)
From V Require Import Common.Base C09.Cache C09.CacheProofs C09.OptionFields.
From V Require Import gen.OptionFieldsGen.
Require Import Coq.Strings.String.
Open Scope string_scope.
Open Scope Z_scope.

Lemma str_in_In s l : str_in s l = true <-> In s l.
Proof.
  unfold str_in. rewrite existsb_exists. split.
  - intros (x & Hx & E). apply String.eqb_eq in E. now subst.
  - intro H. exists s. split; [exact H|apply String.eqb_refl].
Qed.

(* what a clean coverage check means, field by field *)
Lemma equal_covers_spec irr fs :
  equal_covers irr fs = true ->
  forall f, In f fs -> of_read f = true -> ~ In (of_name f) irr -> is_compared (of_cmp f) = true.
Proof.
  intros H f Hin Hr Hirr. apply (none_selected _ of_name) with (x := f) in H; [|exact Hin].
  rewrite Hr in H. destruct (is_compared (of_cmp f)); [reflexivity|].
  destruct (str_in (of_name f) irr) eqn:S; [|discriminate]. apply str_in_In in S. contradiction.
Qed.

Section Sound.
  Variables S R : Type.
  Variable parse : S -> oassign -> R.
  Variable fs : list ofield.
  Variable irr : list string.

  (* the parser's result depends only on the fields the parser package reads
     (minus the justified ones) *)
  Definition reads_only : Prop :=
    forall s o o',
      (forall f, In f fs -> of_read f = true -> ~ In (of_name f) irr -> o (of_name f) = o' (of_name f)) ->
      parse s o = parse s o'.

  (* coverage of the inventory makes the comparison sound for the parser: the
     hypothesis of memo_transparent *)
  Lemma coverage_gives_equal_sound :
    equal_covers irr fs = true -> reads_only ->
    forall s o o', table_equal fs o o' = true -> parse s o = parse s o'.
  Proof.
    intros Hc Hro s o o' He. apply Hro. intros f Hin Hr Hirr.
    pose proof (equal_covers_spec irr fs Hc f Hin Hr Hirr) as Hcmp.
    unfold table_equal in He. rewrite forallb_forall in He. specialize (He f Hin).
    rewrite Hcmp in He. simpl in He. now apply Z.eqb_eq.
  Qed.

  Lemma covered_table_memo_transparent (key_of : S -> Z) (src_eqb : S -> S -> bool) :
    (forall a b, src_eqb a b = true -> a = b) ->
    equal_covers irr fs = true -> reads_only ->
    forall calls, run_memo key_of src_eqb (table_equal fs) parse [] calls
                  = map (fun c => parse (fst c) (snd c)) calls.
  Proof.
    intros Hs Hc Hro calls. apply memo_transparent_all; [exact Hs|].
    intros s o o'. now apply coverage_gives_equal_sound.
  Qed.
End Sound.

Lemma css_covers : equal_covers [] css_option_fields = true.
Proof. vm_compute. reflexivity. Qed.

Lemma json_covers : equal_covers [] json_option_fields = true.
Proof. vm_compute. reflexivity. Qed.

Lemma caches_compare_source : caches_comparing_source = ["CSSCache"; "JSCache"; "JSONCache"].
Proof. vm_compute. reflexivity. Qed.

(* js_parser.Options: every field the parser reads is compared or justified *)
Lemma js_covers : equal_covers js_irrelevant js_option_fields = true.
Proof. vm_compute. reflexivity. Qed.

(* the witness of finding C *)
Definition gap_o : oassign := fun _ => 0.
Definition gap_o' : oassign := fun n => if String.eqb n "jsx.AutomaticRuntime" then 1 else 0.
Lemma gap_options_told_apart : table_equal js_option_fields gap_o gap_o' = false.
Proof. vm_compute. reflexivity. Qed.
