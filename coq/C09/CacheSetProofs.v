(* rebuild = fresh build for programs over the whole cache set, including the
   resolver's package.json / tsconfig.json reads. *)
From V Require Import Common.Base C09.Cache C09.CacheProofs C09.CacheSet.

Section CacheSetProofs.
  Variables src jopts jres copts cres nopts nres R : Type.
  Variable key_of : src -> Z.
  Variable src_eqb : src -> src -> bool.
  Variable jequal : jopts -> jopts -> bool.
  Variable cequal : copts -> copts -> bool.
  Variable nequal : nopts -> nopts -> bool.
  Variable jparse : src -> jopts -> jres.
  Variable cparse : src -> copts -> cres.
  Variable nparse : src -> nopts -> nres.
  Hypothesis src_eqb_sound : forall a b, src_eqb a b = true -> a = b.
  Hypothesis jequal_sound : forall s o o', jequal o o' = true -> jparse s o = jparse s o'.
  Hypothesis cequal_sound : forall s o o', cequal o o' = true -> cparse s o = cparse s o'.
  Hypothesis nequal_sound : forall s o o', nequal o o' = true -> nparse s o = nparse s o'.

  Notation B := (build3 src jopts jres copts cres nopts nres R).
  Notation CS := (cacheset src jopts jres copts cres nopts nres).

  Definition cs_ok (ws : list world) (c : CS) : Prop :=
    (forall p e, In (p, e) (cs_fs c) -> fe_usable e = true ->
       exists w, In w ws /\ w_modkey w p = MKOk (fe_key e) /\ w_read w p = RdOk (fe_contents e)) /\
    memo_ok src jopts jres jparse (cs_js c) /\
    memo_ok src copts cres cparse (cs_css c) /\
    memo_ok src nopts nres nparse (cs_json c).

  Lemma run_cached3_ok ws (Hs : ModKeySound ws) (b : B) :
    forall w c, In w ws -> cs_ok ws c ->
      fst (run_cached3 src jopts jres copts cres nopts nres R key_of src_eqb jequal cequal nequal jparse cparse nparse w c b)
        = run_fresh3 src jopts jres copts cres nopts nres R jparse cparse nparse w b /\
      cs_ok ws (snd (run_cached3 src jopts jres copts cres nopts nres R key_of src_eqb jequal cequal nequal jparse cparse nparse w c b)).
  Proof.
    induction b as [r | p k IH | s o k IH | s o k IH | s o k IH]; intros w c Hw (Hf & Hj & Hc & Hn);
      cbn [run_cached3 run_fresh3].
    - split; [reflexivity | repeat split; assumption].
    - destruct (FSCache_ReadFile_world ws Hs w (cs_fs c) p Hw Hf) as (fc & called & -> & Hf').
      apply IH; [exact Hw | repeat split; assumption].
    - destruct (memo_parse_ok src jopts jres key_of src_eqb jequal jparse src_eqb_sound jequal_sound (cs_js c) s o Hj)
        as (m & h & -> & Hj').
      apply IH; [exact Hw | repeat split; assumption].
    - destruct (memo_parse_ok src copts cres key_of src_eqb cequal cparse src_eqb_sound cequal_sound (cs_css c) s o Hc)
        as (m & h & -> & Hc').
      apply IH; [exact Hw | repeat split; assumption].
    - destruct (memo_parse_ok src nopts nres key_of src_eqb nequal nparse src_eqb_sound nequal_sound (cs_json c) s o Hn)
        as (m & h & -> & Hn').
      apply IH; [exact Hw | repeat split; assumption].
  Qed.

  Lemma rebuilds3_eq_fresh ws (Hs : ModKeySound ws) (steps : list (world * B)) :
    forall c, cs_ok ws c -> (forall w b, In (w, b) steps -> In w ws) ->
      rebuilds3 src jopts jres copts cres nopts nres R key_of src_eqb jequal cequal nequal jparse cparse nparse c steps
      = map (fun wb => run_fresh3 src jopts jres copts cres nopts nres R jparse cparse nparse (fst wb) (snd wb)) steps.
  Proof.
    induction steps as [|[w b] r IH]; intros c Hc Hin; [reflexivity|].
    cbn [rebuilds3 map fst snd].
    pose proof (run_cached3_ok ws Hs b w c (Hin w b (or_introl eq_refl)) Hc) as [H1 H2].
    destruct (run_cached3 src jopts jres copts cres nopts nres R key_of src_eqb jequal cequal nequal jparse cparse nparse w c b) as [x c']. simpl in H1, H2.
    rewrite H1. f_equal. apply IH; [exact H2|]. intros w0 b0 H. eapply Hin. right. exact H.
  Qed.

  Lemma rebuild_eq_fresh_cacheset_all (steps : list (world * B)) :
    ModKeySound (map fst steps) ->
    rebuilds3 src jopts jres copts cres nopts nres R key_of src_eqb jequal cequal nequal jparse cparse nparse cs_empty steps
    = map (fun wb => run_fresh3 src jopts jres copts cres nopts nres R jparse cparse nparse (fst wb) (snd wb)) steps.
  Proof.
    intro Hs. eapply rebuilds3_eq_fresh; [exact Hs| |].
    - repeat split; intros ? ? [].
    - intros w b H. apply (in_map fst) in H. exact H.
  Qed.

  Lemma resolver_json_read_transparent_all ws (Hs : ModKeySound ws) (mk_src : path -> Z -> src)
        (p : path) (o : nopts) (k : option nres -> B) w c :
    In w ws -> cs_ok ws c ->
    fst (run_cached3 src jopts jres copts cres nopts nres R key_of src_eqb jequal cequal nequal jparse cparse nparse w c
           (read_json mk_src p o k))
    = run_fresh3 src jopts jres copts cres nopts nres R jparse cparse nparse w
        (k (match w_read w p with RdOk cts => Some (nparse (mk_src p cts) o) | RdErr _ => None end)).
  Proof.
    intros Hw Hc.
    rewrite (proj1 (run_cached3_ok ws Hs (read_json mk_src p o k) w c Hw Hc)).
    unfold read_json. cbn [run_fresh3]. destruct (w_read w p); reflexivity.
  Qed.
End CacheSetProofs.
