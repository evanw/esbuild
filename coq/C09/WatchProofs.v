(* C09 proofs about the watch data (Watch.v): if every watch predicate of a
   build is clean on a later file system, every observation the build made
   answers the same there.

   The recorder keeps one record and one cached listing per path and an
   observation touches only those of its own path, so the run over a log
   splits into one run per path ([view], [vstep], [proj]).  A path is either a
   directory path or a file path ([wf_path]); each kind has an invariant of its
   view that holds after the run, and a lemma saying what a clean final record
   then guarantees on the later file system. *)
From V Require Import Common.Base C09.Cache C09.CacheProofs C09.Watch.

Definition vstate := (option wdata * option (option (list name)))%type.
Definition view (p : path) (f : wfs) : vstate := (lookup p (wf_data f), lookup p (wf_dirs f)).

Definition set_acc (r : option wdata) (g : accessed -> accessed) : option wdata :=
  match r with
  | Some r0 =>
      match wd_acc r0 with
      | Some a => Some (mkWd (Some (g a)) (wd_contents r0) (wd_key r0) (wd_state r0))
      | None => r
      end
  | None => r
  end.

Definition vstep (w : wworld) (p : path) (v : vstate) (o : obs) : vstate :=
  let '(r, d) := v in
  match o with
  | OReadDir _ =>
      match d with
      | Some _ => v
      | None =>
          let ans := ww_readdir w p in
          (Some (mkWd (Some (mkAcc [] None [])) 0 []
                   (match ans with Some _ => SDirHasAccessedEntries | None => SDirUnreadable end)), Some ans)
      end
  | OGet _ n =>
      match d with
      | Some (Some names) =>
          (set_acc r (fun a => mkAcc ((lower n, name_in (lower n) (map lower names)) :: ac_present a) (ac_all a) (ac_links a)), d)
      | _ => v
      end
  | OSortedKeys _ =>
      match d with
      | Some (Some names) => (set_acc r (fun a => mkAcc (ac_present a) (Some (sort_names names)) (ac_links a)), d)
      | _ => v
      end
  | OReadFile _ =>
      let ans := ww_read w p in
      let r0 := match r with Some r0 => r0 | None => wd_zero end in
      let st := match ans with
                | RdErr _ => match r with
                             | None => SFileMissing
                             | Some _ => match wd_state r0 with SDirHasAccessedEntries => SDirHasAccessedEntries | _ => SFileMissing end
                             end
                | RdOk _ => match r with
                            | None => SFileNeedModKey
                            | Some _ => match wd_state r0 with SDirUnreadable => SFileNeedModKey | s => s end
                            end
                end in
      (Some (mkWd (wd_acc r0) (match ans with RdOk c => c | RdErr _ => 0 end) (wd_key r0) st), d)
  | OModKey _ =>
      let ans := ww_modkey w p in
      match r with
      | None => (Some (mkWd None 0 (mk_key ans)
                         (match ans with MKUnusable => SFileUnusableModKey | MKErr _ => SFileMissing | MKOk _ => SFileHasModKey end)), d)
      | Some r0 => (Some (mkWd (wd_acc r0) (wd_contents r0) (mk_key ans)
                            (match wd_state r0 with SFileNeedModKey => SFileHasModKey | s => s end)), d)
      end
  | OKind _ n =>
      if ww_islink w p n
      then (set_acc r (fun a => mkAcc (ac_present a) (ac_all a) ((n, ww_eval w p n) :: ac_links a)), d)
      else v
  end.

Lemma view_upd_acc f d g p :
  view p (upd_acc f d g) = if d =? p then (set_acc (lookup p (wf_data f)) g, lookup p (wf_dirs f)) else view p f.
Proof.
  unfold view, upd_acc, set_acc. destruct (d =? p) eqn:E.
  - apply Z.eqb_eq in E. subst d.
    destruct (lookup p (wf_data f)) as [r|] eqn:R; [destruct (wd_acc r)|];
      cbn [wf_data wf_dirs]; rewrite ?lookup_cons_eq, ?R; reflexivity.
  - apply Z.eqb_neq in E.
    destruct (lookup d (wf_data f)) as [r|]; [destruct (wd_acc r)|];
      cbn [wf_data wf_dirs]; rewrite ?lookup_cons_ne by exact E; reflexivity.
Qed.

Lemma view_step w f o p :
  view p (step_obs w f o) = if obs_path o =? p then vstep w p (view p f) o else view p f.
Proof.
  destruct o as [d|d n|d|q|q|d n]; cbn [obs_path step_obs].
  - unfold op_readdir, view. destruct (d =? p) eqn:E.
    + apply Z.eqb_eq in E. subst d. cbn [vstep]. destruct (lookup p (wf_dirs f)) eqn:D; [now rewrite D|].
      cbn [wf_data wf_dirs]. now rewrite !lookup_cons_eq.
    + apply Z.eqb_neq in E. destruct (lookup d (wf_dirs f)); [reflexivity|].
      cbn [wf_data wf_dirs]. now rewrite !lookup_cons_ne.
  - unfold op_get. destruct (d =? p) eqn:E.
    + apply Z.eqb_eq in E. subst d. destruct (lookup p (wf_dirs f)) as [[names|]|] eqn:D;
        rewrite ?view_upd_acc, ?Z.eqb_refl; unfold view; cbn [vstep]; now rewrite D.
    + destruct (lookup d (wf_dirs f)) as [[names|]|]; rewrite ?view_upd_acc, ?E; reflexivity.
  - unfold op_sortedkeys. destruct (d =? p) eqn:E.
    + apply Z.eqb_eq in E. subst d. destruct (lookup p (wf_dirs f)) as [[names|]|] eqn:D;
        rewrite ?view_upd_acc, ?Z.eqb_refl; unfold view; cbn [vstep]; now rewrite D.
    + destruct (lookup d (wf_dirs f)) as [[names|]|]; rewrite ?view_upd_acc, ?E; reflexivity.
  - unfold op_readfile, view. destruct (q =? p) eqn:E.
    + apply Z.eqb_eq in E. subst q. cbn [vstep].
      destruct (lookup p (wf_data f)) as [r|]; cbn [wf_data wf_dirs negb]; rewrite lookup_cons_eq; reflexivity.
    + apply Z.eqb_neq in E. destruct (lookup q (wf_data f)); cbn [wf_data wf_dirs]; now rewrite lookup_cons_ne.
  - unfold op_modkey, view. destruct (q =? p) eqn:E.
    + apply Z.eqb_eq in E. subst q. cbn [vstep].
      destruct (lookup p (wf_data f)) as [r|]; cbn [wf_data wf_dirs]; rewrite lookup_cons_eq; reflexivity.
    + apply Z.eqb_neq in E. destruct (lookup q (wf_data f)); cbn [wf_data wf_dirs]; now rewrite lookup_cons_ne.
  - unfold op_kind. destruct (d =? p) eqn:E.
    + apply Z.eqb_eq in E. subst d. destruct (ww_islink w p n) eqn:L;
        rewrite ?view_upd_acc, ?Z.eqb_refl; unfold view; cbn [vstep]; now rewrite L.
    + destruct (ww_islink w d n); rewrite ?view_upd_acc, ?E; reflexivity.
Qed.

Definition proj (p : path) (log : list obs) : list obs := filter (fun o => obs_path o =? p) log.

Lemma view_fold w p log : forall f,
  view p (fold_left (step_obs w) log f) = fold_left (vstep w p) (proj p log) (view p f).
Proof.
  induction log as [|o log IH]; intro f; [reflexivity|].
  cbn [fold_left proj filter]. rewrite IH, view_step. fold (proj p log).
  destruct (obs_path o =? p); reflexivity.
Qed.

Lemma view_record w p log : view p (record w log) = fold_left (vstep w p) (proj p log) (None, None).
Proof. apply view_fold. Qed.

Lemma newest_complete {A} (l : list (Z * A)) : forall seen p a,
  lookup p l = Some a -> existsb (Z.eqb p) seen = false -> In (p, a) (newest l seen).
Proof.
  induction l as [|[q b] l IH]; intros seen p a L Hs; [discriminate|].
  simpl in L. cbn [newest]. destruct (q =? p) eqn:E.
  - apply Z.eqb_eq in E. subst q. inversion L; subst. rewrite Hs. now left.
  - destruct (existsb (Z.eqb q) seen) eqn:S.
    + now apply IH.
    + right. apply IH; [exact L|]. simpl. rewrite Hs. rewrite Z.eqb_sym in E. now rewrite E.
Qed.

Lemma clean_spec w w' f p r :
  clean w' (finalize w f) = true -> lookup p (wf_data f) = Some r ->
  dirty1 w' p (finalize1 w p r) = false.
Proof.
  intros Hc L. apply (none_selected _ fst _ Hc (p, finalize1 w p r)).
  apply (in_map (fun pr => (fst pr, finalize1 w (fst pr) (snd pr))) _ (p, r)).
  now apply newest_complete.
Qed.

Lemma name_eqb_eq a b : name_eqb a b = true <-> a = b.
Proof. apply zlist_eqb_eq. Qed.

Lemma name_in_In n l : name_in n l = true <-> In n l.
Proof.
  unfold name_in. rewrite existsb_exists. split.
  - intros (x & Hx & E). apply name_eqb_eq in E. now subst.
  - intro H. exists n. split; [exact H|now apply name_eqb_eq].
Qed.

Lemma names_eqb_eq a b : names_eqb a b = true <-> a = b.
Proof. apply list_eqb_eq. intros; apply zlist_eqb_eq. Qed.

Lemma insert_sorted_In x n l : In x (insert_sorted n l) <-> x = n \/ In x l.
Proof.
  induction l as [|y l IH]; simpl.
  - intuition congruence.
  - destruct (name_ltb y n); simpl; rewrite ?IH; intuition congruence.
Qed.

Lemma sort_names_In x l : In x (sort_names l) <-> In x l.
Proof.
  induction l as [|y l IH]; simpl; [tauto|].
  unfold sort_names in *. simpl. rewrite insert_sorted_In, IH. intuition congruence.
Qed.

Lemma same_sorted_same_members a b n :
  sort_names a = sort_names b -> name_in n (map lower a) = name_in n (map lower b).
Proof.
  intro E. apply eq_true_iff_eq. rewrite !name_in_In, !in_map_iff.
  assert (M : forall x, In x a <-> In x b)
    by (intro x; rewrite <- (sort_names_In x a), <- (sort_names_In x b), E; tauto).
  split; intros (x & Hx & Hin); exists x; (split; [exact Hx|now apply M]).
Qed.

(* wasPresent and symlinks as maps: [present_map] and [link_map] are the same
   function at two value types; what is proved about one holds of any m with
   their equation for a binding. *)
Section NewestPerName.
  Context {B : Type} (m : list (name * B) -> list name -> list (name * B)).
  Hypothesis m_cons : forall k b r seen,
    m ((k, b) :: r) seen = if name_in k seen then m r seen else (k, b) :: m r (k :: seen).

  Lemma per_name_complete l : forall seen k b,
    In (k, b) l -> name_in k seen = false -> exists b', In (k, b') (m l seen) /\ In (k, b') l.
  Proof.
    induction l as [|[k0 b0] l IH]; intros seen k b Hin Hs; [contradiction|].
    rewrite m_cons. destruct (name_eqb k k0) eqn:E.
    - apply name_eqb_eq in E. subst k0. rewrite Hs. exists b0. split; now left.
    - destruct Hin as [H|H]; [inversion H; subst; now rewrite (proj2 (name_eqb_eq k k) eq_refl) in E|].
      destruct (name_in k0 seen).
      + destruct (IH seen k b H Hs) as (b' & H1 & H2). exists b'. split; [exact H1|now right].
      + destruct (IH (k0 :: seen) k b H) as (b' & H1 & H2); [unfold name_in in *; simpl; now rewrite E|].
        exists b'. split; now right.
  Qed.

  Lemma per_name_checked f l k b :
    existsb f (m l []) = false -> In (k, b) l -> exists b', In (k, b') l /\ f (k, b') = false.
  Proof.
    intros Hf Hin. destruct (per_name_complete l [] k b Hin eq_refl) as (b' & Hm & Hl).
    exists b'. split; [exact Hl|]. destruct (f (k, b')) eqn:F; [|reflexivity].
    rewrite <- Hf. symmetry. apply existsb_exists. eauto.
  Qed.
End NewestPerName.

Definition present_map_checked := per_name_checked present_map (fun _ _ _ _ => eq_refl).
Definition link_map_checked := per_name_checked link_map (fun _ _ _ _ => eq_refl).

Lemma answer_eqb_refl a : answer_eqb a a = true.
Proof.
  destruct a as [b|[b|]|[l|]|[c|]|b|k [t|]]; simpl; rewrite ?Bool.eqb_reflx, ?Z.eqb_refl; try reflexivity.
  now apply names_eqb_eq.
Qed.

Lemma option_eqb_Z_eq (a b : option Z) : option_eqb Z.eqb a b = true -> a = b.
Proof. destruct a, b; simpl; intro H; try discriminate; [apply Z.eqb_eq in H; now subst|reflexivity]. Qed.

Definition is_dir_op (o : obs) : bool :=
  match o with OReadDir _ | OGet _ _ | OSortedKeys _ | OKind _ _ => true | _ => false end.

Definition is_kind_op (o : obs) : bool := match o with OKind _ _ => true | _ => false end.

Definition is_file_op (o : obs) : bool :=
  match o with OReadFile _ | OModKey _ => true | _ => false end.

(* a listable directory cannot be read as a file and is not a regular file, but stat succeeds on it *)
Definition dir_coh (w : wworld) (p : path) : Prop :=
  ww_readdir w p <> None ->
  (exists e, ww_read w p = RdErr e) /\ (forall e, ww_modkey w p <> MKErr e) /\ ww_isfile w p = false.

Lemma fold_inv {S O} (step : S -> O -> S) (ok : O -> Prop) (I : S -> list O -> Prop) :
  (forall s done o, ok o -> I s done -> I (step s o) (done ++ [o])) ->
  forall ops s done, (forall o, In o ops -> ok o) -> I s done -> I (fold_left step ops s) (done ++ ops).
Proof.
  intros Hstep. induction ops as [|o ops IH]; intros s done Hok Hi; [now rewrite app_nil_r|].
  cbn [fold_left]. replace (done ++ o :: ops) with ((done ++ [o]) ++ ops) by now rewrite <- app_assoc.
  apply IH; [intros o' H; apply Hok; now right|]. apply Hstep; [apply Hok; now left|exact Hi].
Qed.

Section Dir.
  Variables (w w' : wworld) (p : path).
  Hypothesis Hdc : dir_coh w p.
  Hypothesis Hdc' : dir_coh w' p.

  Definition dir_state (ans : option (list name)) : wstate :=
    match ans with Some _ => SDirHasAccessedEntries | None => SDirUnreadable end.

  (* which observations may follow the first ReadDirectory of the path: the
     directory observations, and - when the path really is a listable
     directory - also reads of the same path as a file (they fail and leave
     the directory record in place: commit 0717f2b, the repair of finding F) *)
  Definition dir_step_ok (o : obs) : Prop :=
    is_dir_op o = true \/ (is_file_op o = true /\ ww_readdir w p <> None).

  (* what w lists at p (nothing is ever recorded about an unreadable directory's entries) *)
  Definition listing : list name := match ww_readdir w p with Some l => l | None => [] end.

  (* every binding of the accessedEntries object is what w answers *)
  Definition acc_sound (a : accessed) : Prop :=
    Forall (fun kb => snd kb = name_in (fst kb) (map lower listing)) (ac_present a) /\
    (forall l, ac_all a = Some l -> l = sort_names listing) /\
    Forall (fun nl => snd nl = ww_eval w p (fst nl)) (ac_links a).

  (* the object only grows *)
  Definition acc_le (a a' : accessed) : Prop :=
    incl (ac_present a) (ac_present a') /\ (ac_all a <> None -> ac_all a' <> None) /\
    incl (ac_links a) (ac_links a').

  (* the trace an observation leaves in it *)
  Definition covers (a : accessed) (o : obs) : Prop :=
    match o with
    | OGet _ n => ww_readdir w p <> None -> exists b, In (lower n, b) (ac_present a)
    | OSortedKeys _ => ww_readdir w p <> None -> ac_all a <> None
    | OKind _ n => ww_islink w p n = true -> exists ev, In (n, ev) (ac_links a)
    | _ => True
    end.

  Lemma covers_mono a a' o : acc_le a a' -> covers a o -> covers a' o.
  Proof.
    intros (H1 & H2 & H3). destruct o; cbn; auto.
    - intros H X. destruct (H X) as (b & Hb). eauto.
    - intros H X. destruct (H X) as (b & Hb). eauto.
  Qed.

  (* invariant of the view of a directory path after its first ReadDirectory,
     relative to the observations processed so far *)
  Definition dir_inv (v : vstate) (done : list obs) : Prop :=
    exists r a,
      v = (Some r, Some (ww_readdir w p)) /\ wd_acc r = Some a /\ wd_state r = dir_state (ww_readdir w p) /\
      acc_sound a /\ forall o, In o done -> covers a o.

  (* what a step from accessed entries a has to leave: a directory record whose
     accessed entries a' extend a and cover o *)
  Definition dir_step_post (a : accessed) (o : obs) (v' : vstate) : Prop :=
    exists r' a', v' = (Some r', Some (ww_readdir w p)) /\
      wd_acc r' = Some a' /\ wd_state r' = dir_state (ww_readdir w p) /\
      acc_sound a' /\ acc_le a a' /\ covers a' o.

  Lemma dir_inv_step v done o :
    dir_step_ok o -> dir_inv v done -> dir_inv (vstep w p v o) (done ++ [o]).
  Proof using Hdc.
    intros Hd (r & a & -> & Hacc & Hst & Hso & Hcov).
    enough (dir_step_post a o (vstep w p (Some r, Some (ww_readdir w p)) o))
      as (r' & a' & E & Hacc' & Hst' & Hso' & Hle & Hnew).
    { exists r', a'. repeat (split; [assumption|]). intros o0 Hin.
      apply in_app_or in Hin as [Hin|[<-|[]]]; [eapply covers_mono; eauto | exact Hnew]. }
    assert (Hrefl : acc_le a a) by (repeat split; auto using incl_refl).
    assert (Hstay : covers a o -> dir_step_post a o (Some r, Some (ww_readdir w p))).
    { intro C. exists r, a. exact (conj eq_refl (conj Hacc (conj Hst (conj Hso (conj Hrefl C))))). }
    unfold dir_step_post in *.
    pose proof Hso as (S1 & S2 & S3).
    destruct o as [d|d n|d|q|q|d n]; cbn [vstep covers] in *.
    - (* ReadDirectory again: cached *)
      exact (Hstay I).
    - (* Get *)
      destruct (ww_readdir w p) as [names|] eqn:R; [|apply Hstay; now intros []].
      unfold set_acc. rewrite Hacc. do 2 eexists. split; [reflexivity|]. cbn [wd_acc wd_state].
      repeat split; cbn; auto using incl_tl, incl_refl; [|eexists; now left].
      constructor; [cbn; unfold listing; now rewrite R | exact S1].
    - (* SortedKeys *)
      destruct (ww_readdir w p) as [names|] eqn:R; [|apply Hstay; now intros []].
      unfold set_acc. rewrite Hacc. do 2 eexists. split; [reflexivity|]. cbn [wd_acc wd_state].
      repeat split; cbn; auto using incl_refl; try discriminate.
      intros l [= <-]. unfold listing. now rewrite R.
    - (* ReadFile on a listable directory: fails, the directory record stays *)
      destruct Hd as [Hd|[_ Hne]]; [discriminate|].
      destruct (Hdc Hne) as ((e & He) & _). rewrite He.
      destruct (ww_readdir w p) as [names|]; [|contradiction]. rewrite Hst.
      eexists. exists a. exact (conj eq_refl (conj Hacc (conj eq_refl (conj Hso (conj Hrefl I))))).
    - (* ModKey on a listable directory *)
      destruct Hd as [Hd|[_ Hne]]; [discriminate|].
      destruct (ww_readdir w p) as [names|]; [|contradiction]. rewrite Hst.
      eexists. exists a. exact (conj eq_refl (conj Hacc (conj eq_refl (conj Hso (conj Hrefl I))))).
    - (* Entry.Kind: a symlink's target is remembered *)
      destruct (ww_islink w p n) eqn:L; [|apply Hstay; discriminate].
      unfold set_acc. rewrite Hacc. do 2 eexists. split; [reflexivity|]. cbn [wd_acc wd_state].
      repeat split; cbn; auto using incl_tl, incl_refl. eexists. now left.
  Qed.

  Lemma dir_inv_start : dir_inv (vstep w p (None, None) (OReadDir p)) [OReadDir p].
  Proof.
    cbn [vstep]. do 2 eexists. split; [reflexivity|]. cbn.
    repeat split; try constructor; try discriminate. intros o [<-|[]]. exact I.
  Qed.

  Lemma dir_clean r a :
    wd_acc r = Some a -> wd_state r = dir_state (ww_readdir w p) -> acc_sound a ->
    dirty1 w' p (finalize1 w p r) = false ->
    match ww_readdir w p with
    | None => ww_readdir w' p = None
    | Some names =>
        exists names', ww_readdir w' p = Some names' /\
          (forall k b, In (k, b) (ac_present a) -> name_in k (map lower names') = name_in k (map lower names)) /\
          (ac_all a <> None -> sort_names names' = sort_names names) /\
          (forall n ev, In (n, ev) (ac_links a) -> ww_eval w' p n = ww_eval w p n)
    end.
  Proof using.
    intros Hacc Hst (S1 & S2 & S3) Hc. rewrite Forall_forall in S1, S3. unfold listing in *.
    unfold finalize1, dirty1 in Hc. rewrite Hst in Hc.
    destruct (ww_readdir w p) as [names|]; cbn [dir_state] in Hc; rewrite ?Hst, Hacc in Hc.
    all: destruct (ww_readdir w' p) as [names'|]; try discriminate.
    2: reflexivity.
    exists names'. split; [reflexivity|]. apply orb_false_iff in Hc as [Hp Hl].
    assert (Hall : forall l, ac_all a = Some l -> sort_names names' = sort_names names).
    { intros l A. rewrite A in Hp. apply negb_false_iff, names_eqb_eq in Hp. rewrite Hp. now apply S2. }
    repeat split.
    - intros k b Hin. destruct (ac_all a) as [l|] eqn:A; [apply same_sorted_same_members; eauto|].
      destruct (present_map_checked _ _ k b Hp Hin) as (b' & Hin' & Hb'). cbn [fst snd] in Hb'.
      apply negb_false_iff, Bool.eqb_prop in Hb'. rewrite <- Hb'. exact (S1 _ Hin').
    - destruct (ac_all a); [eauto|congruence].
    - intros n ev Hin. destruct (link_map_checked _ _ n ev Hl Hin) as (ev' & Hin' & Hev'). cbn [fst snd] in Hev'.
      apply negb_false_iff, option_eqb_Z_eq in Hev'. rewrite Hev'. exact (S3 _ Hin').
  Qed.

  (* the directory, per-name, listing and same-path file observations are covered by the record *)
  Lemma dir_covered v done r :
    dir_inv v done -> fst v = Some r -> dirty1 w' p (finalize1 w p r) = false ->
    forall o, In o done -> obs_path o = p -> dir_step_ok o -> is_kind_op o = false -> answer_of w o = answer_of w' o.
  Proof.
    intros (r0 & a & -> & Hacc & Hst & Hso & Hcov) [= <-] Hc o Hin Hpath Hd Hnk.
    pose proof (dir_clean r0 a Hacc Hst Hso Hc) as G. specialize (Hcov o Hin).
    destruct (ww_readdir w p) as [names|] eqn:R.
    - destruct G as (names' & R' & G1 & G2 & G3).
      assert (Hne : ww_readdir w p <> None) by congruence.
      assert (Hne' : ww_readdir w' p <> None) by congruence.
      destruct (Hdc Hne) as ((e & He) & Hm & _). destruct (Hdc' Hne') as ((e' & He') & Hm' & _).
      destruct o as [d|d n|d|q|q|d n]; try discriminate.
      all: cbn [obs_path] in Hpath; subst.
      all: cbn [answer_of covers] in *; rewrite ?R, ?R'.
      + reflexivity.
      + destruct (Hcov Hne) as (b & Hb). now rewrite (G1 _ _ Hb).
      + now rewrite (G2 (Hcov Hne)).
      + now rewrite He, He'.
      + destruct (ww_modkey w p) eqn:A1; destruct (ww_modkey w' p) eqn:A2; try reflexivity;
          solve [exfalso; eapply Hm; eauto | exfalso; eapply Hm'; eauto].
    - destruct Hd as [Hd|[_ Hne]]; [|contradiction].
      destruct o as [d|d n|d|q|q|d n]; try discriminate.
      all: cbn [obs_path] in Hpath; subst; cbn [answer_of]; now rewrite R, G.
  Qed.

  (* the recorder keeps symlink targets (commit dbd24f7, findings G/G2) *)
  Lemma dir_links_covered v done r :
    dir_inv v done -> fst v = Some r -> dirty1 w' p (finalize1 w p r) = false ->
    ww_readdir w p <> None ->
    forall n, In (OKind p n) done -> ww_islink w p n = true -> ww_eval w' p n = ww_eval w p n.
  Proof using.
    intros (r0 & a & -> & Hacc & Hst & Hso & Hcov) [= <-] Hc Hne n Hin L.
    pose proof (dir_clean r0 a Hacc Hst Hso Hc) as G.
    destruct (ww_readdir w p); [|contradiction]. destruct G as (names' & _ & _ & _ & G3).
    destruct (Hcov _ Hin L) as (ev & Hev). eapply G3; eauto.
  Qed.
End Dir.

(* a path observed as a file is, in a given world, either a readable regular
   file (stat and read succeed) or absent (both fail): no permission errors and
   no directory at that path *)
Definition coherent_at (w : wworld) (p : path) : Prop :=
  (ww_isfile w p = true -> (exists c, ww_read w p = RdOk c) /\ (forall e, ww_modkey w p <> MKErr e)) /\
  (ww_isfile w p = false -> (exists e, ww_read w p = RdErr e) /\ (exists e, ww_modkey w p = MKErr e)).

Lemma coherent_cases w p :
  coherent_at w p ->
  (exists e e', ww_read w p = RdErr e /\ ww_modkey w p = MKErr e' /\ ww_isfile w p = false) \/
  (exists c, ww_read w p = RdOk c /\ (forall e, ww_modkey w p <> MKErr e) /\ ww_isfile w p = true).
Proof.
  intros [Ht Hf]. destruct (ww_isfile w p).
  - right. destruct (Ht eq_refl) as ((c & Hc) & Hm). eauto.
  - left. destruct (Hf eq_refl) as ((e & He) & (e' & He')). eauto 6.
Qed.

Section File.
  Variables (w w' : wworld) (p : path).
  Hypothesis Hcoh : coherent_at w p.

  Definition seen_read (done : list obs) : Prop := exists q, In (OReadFile q) done.

  (* What a record in one of the three final states says about w.  With an
     unusable mod key the recorder can also end in stateFileHasModKey with the
     zero key (ReadFile, then ModKey), which no real key equals; and the
     contents it compares are those of the last ReadFile, if there was one. *)
  Definition file_spec (r : wdata) (done : list obs) : Prop :=
    match ww_modkey w p with
    | MKErr _ => wd_state r = SFileMissing
    | MKOk k => wd_state r = SFileHasModKey /\ wd_key r = k
    | MKUnusable =>
        (wd_state r = SFileHasModKey /\ wd_key r = []) \/
        (wd_state r = SFileUnusableModKey /\ (seen_read done -> ww_read w p = RdOk (wd_contents r)))
    end.

  (* invariant of the view of a file path: nothing yet, or a record waiting
     for its mod key that holds the contents, or a final one *)
  Definition file_inv (v : vstate) (done : list obs) : Prop :=
    snd v = None /\
    match fst v with
    | None => done = []
    | Some r => (wd_state r = SFileNeedModKey /\ ww_read w p = RdOk (wd_contents r)) \/ file_spec r done
    end.

  Lemma file_inv_step v done o :
    is_file_op o = true -> file_inv v done -> file_inv (vstep w p v o) (done ++ [o]).
  Proof.
    intros Hf [Hd Hi]. destruct v as [r d]. cbn [fst snd] in Hd, Hi. subst d.
    destruct o as [d|d n|d|q|q|d n]; try discriminate; cbn [vstep].
    - (* ReadFile *)
      split; [reflexivity|]. cbn [fst]. unfold file_spec in Hi |- *.
      destruct (coherent_cases w p Hcoh) as [(e & e' & Hr & Hm & _)|(c & Hr & Hm & _)]; rewrite Hr in Hi |- *.
      + right. rewrite Hm in Hi |- *. destruct r as [r0|]; [|reflexivity].
        destruct Hi as [[_ C]|S]; [discriminate|]. cbn. now rewrite S.
      + destruct r as [r0|]; [|left; auto]. cbn [wd_state wd_contents wd_key].
        destruct Hi as [[S _]|Hi]; [left; rewrite S; auto|right].
        destruct (ww_modkey w p) as [k| |e0]; [| |now destruct (Hm e0)].
        * destruct Hi as [S K]. rewrite S. auto.
        * destruct Hi as [[S K]|[S _]]; rewrite S; auto.
    - (* ModKey *)
      destruct r as [r0|].
      all: split; [reflexivity|].
      all: cbn [fst wd_state wd_key wd_contents]; right; unfold file_spec in Hi |- *.
      + destruct (ww_modkey w p) as [k| |e0] eqn:M; cbn [mk_key].
        * destruct Hi as [[S _]|[S K]]; rewrite S; auto.
        * destruct Hi as [[S _]|[[S K]|[S C]]]; rewrite S; auto.
          right. split; [reflexivity|]. intros (q0 & H). apply C.
          apply in_app_or in H as [H|[H|[]]]; [now exists q0|discriminate].
        * destruct Hi as [[_ C]|S]; [|now rewrite S].
          destruct (coherent_cases w p Hcoh) as [(e & e' & Hr & _)|(c & _ & Hm & _)]; [congruence|].
          rewrite M in Hm. now destruct (Hm e0).
      + (* first observation of the path: the contents field stays zero *)
        subst done. destruct (ww_modkey w p); cbn; auto.
        right. split; [reflexivity|]. intros (q0 & [H|[]]). discriminate.
  Qed.

  Hypothesis Hcoh' : coherent_at w' p.
  (* "modification times advance normally" between the two worlds *)
  Hypothesis Hsound : forall k, ww_modkey w p = MKOk k -> ww_modkey w' p = MKOk k -> ww_read w' p = ww_read w p.
  (* a real mod key is never the zero value *)
  Hypothesis Hkey' : forall k, ww_modkey w' p = MKOk k -> k <> [].

  Lemma file_covered v done r :
    file_inv v done -> fst v = Some r -> dirty1 w' p (finalize1 w p r) = false ->
    forall o, In o done -> obs_path o = p -> is_file_op o = true -> answer_of w o = answer_of w' o.
  Proof.
    intros [_ Hi] Hr Hc o Hin Hpath Hf. rewrite Hr in Hi.
    (* WatchData() resolves a record still waiting for its mod key into a final one *)
    assert (Hfin : file_spec (finalize1 w p r) done).
    { destruct Hi as [[S C]|Hi].
      - unfold finalize1, file_spec. rewrite S. destruct (ww_modkey w p); cbn; auto.
      - replace (finalize1 w p r) with r; [exact Hi|]. unfold finalize1, file_spec in *.
        destruct (wd_state r); try reflexivity. destruct (ww_modkey w p); intuition discriminate. }
    unfold file_spec in Hfin. unfold dirty1 in Hc.
    destruct (ww_modkey w p) as [k| |e0] eqn:M.
    - (* usable key: it is unchanged on w', hence so are the contents *)
      destruct Hfin as [S K]. rewrite S, K in Hc.
      destruct (ww_modkey w' p) as [k'| |] eqn:M'; try discriminate.
      apply negb_false_iff, zlist_eqb_eq in Hc. subst k'.
      destruct o as [d|d n|d|q|q|d n]; try discriminate.
      all: cbn [obs_path] in Hpath; subst q; cbn [answer_of].
      all: rewrite ?M, ?M', ?(Hsound k eq_refl eq_refl); reflexivity.
    - destruct Hfin as [[S K]|[S C]]; rewrite S in Hc.
      + (* the zero key equals no key of w' *)
        rewrite K in Hc. destruct (ww_modkey w' p) as [k'| |] eqn:M'; try discriminate.
        apply negb_false_iff, zlist_eqb_eq in Hc. now destruct (Hkey' k' eq_refl).
      + (* unusable key: the contents were compared *)
        destruct (ww_read w' p) as [c'|] eqn:R'; [|discriminate].
        apply negb_false_iff, Z.eqb_eq in Hc. subst c'.
        destruct (coherent_cases w' p Hcoh') as [(e & e' & Hr' & _)|(c' & _ & Hm' & _)]; [congruence|].
        destruct o as [d|d n|d|q|q|d n]; try discriminate; cbn [obs_path] in Hpath; subst q; cbn [answer_of].
        * rewrite R', C; [reflexivity|now exists p].
        * rewrite M. destruct (ww_modkey w' p) as [ | |e0]; try reflexivity. now destruct (Hm' e0).
    - (* absent on w, and stateFileMissing is clean only while it stays absent *)
      rewrite Hfin in Hc.
      destruct (coherent_cases w' p Hcoh') as [(e & e' & Hr' & Hm' & _)|(c' & _ & _ & Hi')]; [|congruence].
      destruct (coherent_cases w p Hcoh) as [(e1 & e1' & Hr1 & _)|(c & _ & Hm & _)]; [|rewrite M in Hm; now destruct (Hm e0)].
      destruct o as [d|d n|d|q|q|d n]; try discriminate.
      all: cbn [obs_path] in Hpath; subst q; cbn [answer_of].
      all: now rewrite ?M, ?Hm', ?Hr1, ?Hr'.
  Qed.
End File.

(* The kind of an entry is the kind of what it resolves to: the entry itself
   for a plain entry, the target for a symlink.  The recorder keeps the target
   of a symlink and re-checks it (commit dbd24f7, findings G/G2); the kind of
   the resolved path is determined by observations that are recorded, because of
   how the resolver uses an entry: it came from a Get on the directory, what
   was found to be a file is then read, what was found to be a directory is
   then listed. *)
Definition target (child : path -> name -> path) (w : wworld) (d : path) (n : name) : option Z :=
  if ww_islink w d n then ww_eval w d n else Some (child d n).

Definition kind_hyps (child : path -> name -> path) (w : wworld) (d : path) (n : name) : Prop :=
  (ww_kind w d n = 2 <-> exists t, target child w d n = Some t /\ ww_isfile w t = true) /\
  (ww_kind w d n = 1 <-> exists t, target child w d n = Some t /\ ww_readdir w t <> None) /\
  (ww_kind w d n = 0 \/ ww_kind w d n = 1 \/ ww_kind w d n = 2) /\
  (* a plain entry has a kind iff it is listed, and resolves to itself *)
  (ww_islink w d n = false ->
     (forall names, ww_readdir w d = Some names ->
        (ww_kind w d n <> 0 <-> name_in (lower n) (map lower names) = true)) /\
     (ww_readdir w d = None -> ww_kind w d n = 0) /\
     (ww_kind w d n <> 0 -> ww_eval w d n = Some (child d n)) /\
     (ww_kind w d n = 0 -> ww_eval w d n = None)) /\
  (* a symlink is an entry of a listable directory, never resolves to its own
     path, and what it resolves to has a kind *)
  (ww_islink w d n = true ->
     ww_readdir w d <> None /\ ww_eval w d n <> Some (child d n) /\
     (ww_eval w d n <> None -> ww_kind w d n <> 0)).

Definition kind_companions (child : path -> name -> path) (log : list obs) (w : wworld) (d : path) (n : name) : Prop :=
  In (OGet d n) log /\
  (ww_kind w d n = 2 -> exists t, target child w d n = Some t /\ In (OReadFile t) log) /\
  (ww_kind w d n = 1 -> exists t, target child w d n = Some t /\ In (OReadDir t) log).

Lemma kind_no_target child w d n : kind_hyps child w d n -> target child w d n = None -> ww_kind w d n = 0.
Proof.
  intros (F & D & T & _) Tg.
  destruct T as [T|[T|T]]; [exact T|apply D in T|apply F in T].
  all: destruct T as (t & E & _); congruence.
Qed.

(* How one path may be observed in a log.  Either its first observation is the
   ReadDirectory that yields the entries the later Get / SortedKeys / Kind
   calls use, followed by directory observations and - if the path really is a
   listable directory on w - also by reads of the same path as a file (the
   shape of finding F; the recorder of commit 0717f2b keeps the directory
   record); or it is observed only as a file.  Excluded: a ReadDirectory AFTER
   file observations of the same path, and file observations of a path whose
   ReadDirectory failed: the recorder keeps one record per path and the later
   observation replaces the earlier one.  (For a regular file that is also
   probed as a directory the resolver reports "Cannot read directory ...: not a
   directory" and the build fails whatever the file contains, so no successful
   build has that shape.) *)
Definition wf_path (w : wworld) (log : list obs) (p : path) : Prop :=
  (exists rest, proj p log = OReadDir p :: rest /\
     forall o, In o rest -> is_dir_op o = true \/ (is_file_op o = true /\ ww_readdir w p <> None)) \/
  forallb is_file_op (proj p log) = true.

Definition file_hyps (w w' : wworld) (p : path) : Prop :=
  coherent_at w p /\ coherent_at w' p /\
  (forall k, ww_modkey w p = MKOk k -> ww_modkey w' p = MKOk k -> ww_read w' p = ww_read w p) /\
  (forall k, ww_modkey w' p = MKOk k -> k <> []).

Lemma in_proj o log : In o log -> In o (proj (obs_path o) log).
Proof. intro H. apply filter_In. split; [exact H|apply Z.eqb_refl]. Qed.

Section All.
  Variables (child : path -> name -> path) (w w' : wworld) (log : list obs).
  Hypothesis Hwf : forall o, In o log -> wf_path w log (obs_path o).
  (* paths observed only as files *)
  Hypothesis Hfile : forall o, In o log -> forallb is_file_op (proj (obs_path o) log) = true -> file_hyps w w' (obs_path o).
  Hypothesis Hdir : forall p, dir_coh w p /\ dir_coh w' p.
  Hypothesis Hkind : forall d n, In (OKind d n) log ->
    kind_hyps child w d n /\ kind_hyps child w' d n /\ kind_companions child log w d n /\
    (* a plain entry is not replaced by a symlink of the same name (with a
       usable mod key the inode in the key would change; with an unusable one
       only the contents are compared) *)
    (ww_islink w d n = false -> ww_islink w' d n = false).
  Hypothesis Hclean : clean w' (finalize w (record w log)) = true.

  (* the state of a path whose first observation is ReadDirectory *)
  Lemma dir_path_inv p rest :
    proj p log = OReadDir p :: rest ->
    (forall o, In o rest -> is_dir_op o = true \/ (is_file_op o = true /\ ww_readdir w p <> None)) ->
    exists r, dir_inv w p (view p (record w log)) ([OReadDir p] ++ rest) /\
              fst (view p (record w log)) = Some r /\ dirty1 w' p (finalize1 w p r) = false.
  Proof.
    intros Hops Hrest.
    assert (Hinv : dir_inv w p (view p (record w log)) ([OReadDir p] ++ rest)).
    { rewrite view_record, Hops. cbn [fold_left].
      exact (fold_inv (vstep w p) _ _ (dir_inv_step w p (proj1 (Hdir p))) rest _ _ Hrest (dir_inv_start w p)). }
    pose proof Hinv as (r & a & Hv & _). exists r. split; [exact Hinv|]. rewrite Hv. split; [reflexivity|].
    apply (clean_spec w w' _ _ _ Hclean). now injection Hv.
  Qed.

  Lemma file_path_inv p :
    proj p log <> [] -> forallb is_file_op (proj p log) = true -> coherent_at w p ->
    exists r, file_inv w p (view p (record w log)) (proj p log) /\
              fst (view p (record w log)) = Some r /\ dirty1 w' p (finalize1 w p r) = false.
  Proof.
    intros Hne Hf C. rewrite forallb_forall in Hf.
    pose proof (fold_inv (vstep w p) _ _ (file_inv_step w p C) (proj p log) (None, None) [] Hf (conj eq_refl eq_refl)) as Hinv.
    rewrite <- view_record in Hinv. cbn [app] in Hinv.
    pose proof Hinv as [_ Hm]. destruct (fst (view p (record w log))) as [r|] eqn:Hr; [|contradiction].
    exists r. split; [exact Hinv|]. split; [reflexivity|]. exact (clean_spec w w' _ _ _ Hclean Hr).
  Qed.

  Lemma watch_covers_nonkind o :
    In o log -> is_kind_op o = false -> answer_of w o = answer_of w' o.
  Proof.
    intros Hin Hnk. pose proof (in_proj o log Hin) as Hproj.
    destruct (Hwf o Hin) as [(rest & Hops & Hrest)|Hf].
    - destruct (dir_path_inv _ rest Hops Hrest) as (r & Hinv & Hr & Hd). rewrite Hops in Hproj.
      apply (dir_covered w w' _ (proj1 (Hdir _)) (proj2 (Hdir _)) _ _ r Hinv Hr Hd o); auto.
      destruct Hproj as [<-|H]; [now left|now apply Hrest].
    - destruct (Hfile o Hin Hf) as (C1 & C2 & C3 & C4).
      destruct (file_path_inv (obs_path o)) as (r & Hinv & Hr & Hd); auto.
      { intro N. now rewrite N in Hproj. }
      apply (file_covered w w' _ C1 C2 C3 C4 _ _ r Hinv Hr Hd o); auto.
      rewrite forallb_forall in Hf. now apply Hf.
  Qed.

  Lemma watch_covers_links d n :
    In (OKind d n) log -> ww_islink w d n = true -> ww_readdir w d <> None -> ww_eval w' d n = ww_eval w d n.
  Proof.
    intros Hin L Hne. pose proof (in_proj _ log Hin) as Hproj. cbn [obs_path] in Hproj.
    destruct (Hwf _ Hin) as [(rest & Hops & Hrest)|Hf].
    - cbn [obs_path] in Hops, Hrest.
      destruct (dir_path_inv d rest Hops Hrest) as (r & Hinv & Hr & Hd). rewrite Hops in Hproj.
      exact (dir_links_covered w w' d _ _ r Hinv Hr Hd Hne n Hproj L).
    - cbn [obs_path] in Hf. rewrite forallb_forall in Hf. specialize (Hf _ Hproj). discriminate.
  Qed.

  Lemma isfile_kept t : In (OReadFile t) log -> ww_isfile w t = true -> ww_isfile w' t = true.
  Proof.
    intros Ht It. pose proof (watch_covers_nonkind _ Ht eq_refl) as G. cbn [answer_of] in G.
    assert (Hff : forallb is_file_op (proj t log) = true).
    { destruct (Hwf _ Ht) as [(rest & Hops & Hrest)|Hf]; [exfalso|exact Hf]. cbn [obs_path] in Hops, Hrest.
      pose proof (in_proj _ log Ht) as Hp. cbn [obs_path] in Hp. rewrite Hops in Hp.
      destruct Hp as [Hp|Hp]; [discriminate|].
      destruct (Hrest _ Hp) as [Hd|[_ Hne]]; [discriminate|].
      (* a listable directory is not a regular file *)
      destruct (proj1 (Hdir t) Hne) as (_ & _ & Hnf). congruence. }
    destruct (Hfile _ Ht Hff) as (C & C' & _). cbn [obs_path] in C, C'.
    destruct (coherent_cases _ _ C) as [(e & e' & _ & _ & F)|(c & Hc & _)]; [congruence|].
    destruct (coherent_cases _ _ C') as [(e & e' & He & _)|(c' & _ & _ & F')]; [|exact F'].
    rewrite Hc, He in G. discriminate.
  Qed.

  Lemma listable_kept t : In (OReadDir t) log -> ww_readdir w t <> None -> ww_readdir w' t <> None.
  Proof.
    intros Ht Nt. pose proof (watch_covers_nonkind _ Ht eq_refl) as G. cbn [answer_of] in G.
    destruct (ww_readdir w t); [|contradiction]. destruct (ww_readdir w' t); discriminate.
  Qed.

  (* An entry that resolves to the same t in both worlds keeps its kind: the
     build then read t as a file, or listed it, and that still works. *)
  Lemma kind_by_target d n t :
    In (OKind d n) log -> target child w d n = Some t -> target child w' d n = Some t ->
    ww_kind w d n <> 0 -> ww_kind w' d n = ww_kind w d n.
  Proof.
    intros Hin Tg Tg' NZ.
    destruct (Hkind d n Hin) as ((F1 & D1 & T1 & _) & (F2 & D2 & _) & (_ & CF & CD) & _).
    destruct T1 as [T1|[T1|T1]]; [contradiction| |]; rewrite T1.
    - destruct (CD T1) as (t0 & Tg0 & Hlog). apply D1 in T1 as (t1 & Tg1 & Hn1).
      rewrite Tg in Tg0, Tg1. injection Tg0 as <-. injection Tg1 as <-.
      apply D2. exists t. split; [exact Tg'|]. now apply listable_kept.
    - destruct (CF T1) as (t0 & Tg0 & Hlog). apply F1 in T1 as (t1 & Tg1 & Hi1).
      rewrite Tg in Tg0, Tg1. injection Tg0 as <-. injection Tg1 as <-.
      apply F2. exists t. split; [exact Tg'|]. now apply isfile_kept.
  Qed.

  Lemma watch_answers_same o : In o log -> answer_of w o = answer_of w' o.
  Proof.
    intro Hin. destruct (is_kind_op o) eqn:K; [|now apply watch_covers_nonkind].
    destruct o as [d|d n|d|q|q|d n]; try discriminate.
    destruct (Hkind d n Hin) as (H1 & H2 & Hco & Hstay).
    pose proof (fun t => kind_by_target d n t Hin) as KT.
    pose proof H1 as (_ & _ & _ & P1 & L1). pose proof H2 as (_ & _ & _ & P2 & _).
    unfold target in KT. cbn [answer_of]. destruct (ww_islink w d n) eqn:Lk.
    - (* a symlink on w: it resolves to the same thing on w' *)
      destruct (L1 eq_refl) as (Hne & Hself & Hres).
      pose proof (watch_covers_links d n Hin Lk Hne) as Hev.
      destruct (ww_eval w d n) as [t|] eqn:Ev.
      + (* to t: a plain entry resolves to itself or to nothing, so it still is a symlink *)
        assert (Lk' : ww_islink w' d n = true).
        { destruct (ww_islink w' d n) eqn:Lk'; [reflexivity|exfalso].
          destruct (P2 eq_refl) as (_ & _ & Pe & Pn).
          destruct (Z.eq_dec (ww_kind w' d n) 0) as [Z0|NZ].
          - rewrite (Pn Z0) in Hev. discriminate.
          - rewrite (Pe NZ) in Hev. apply Hself. now rewrite Hev. }
        rewrite Lk' in *. rewrite Hev. f_equal. symmetry. apply (KT t); auto. apply Hres. discriminate.
      + (* dangling: nothing has a kind, whatever the entry is on w' *)
        rewrite (kind_no_target child w d n H1), Hev by (unfold target; now rewrite Lk, Ev).
        assert (K0' : ww_kind w' d n = 0).
        { destruct (ww_islink w' d n) eqn:Lk'.
          - apply (kind_no_target child w' d n H2). unfold target. now rewrite Lk', Hev.
          - destruct (P2 eq_refl) as (_ & _ & Pe & _).
            destruct (Z.eq_dec (ww_kind w' d n) 0) as [Z0|NZ]; [exact Z0|]. rewrite (Pe NZ) in Hev. discriminate. }
        rewrite K0'. now destruct (ww_islink w' d n).
    - (* a plain entry on w stays plain *)
      rewrite (Hstay eq_refl) in *. f_equal.
      destruct (Z.eq_dec (ww_kind w d n) 0) as [K0|NZ]; [|symmetry; now apply (KT (child d n))].
      (* no kind means not listed, which the Get on the directory recorded *)
      destruct (P1 eq_refl) as (Pp1 & Pu1 & _). destruct (P2 eq_refl) as (Pp2 & Pu2 & _).
      pose proof (watch_covers_nonkind (OGet d n) (proj1 Hco) eq_refl) as G. cbn [answer_of] in G.
      rewrite K0. symmetry.
      destruct (ww_readdir w d) as [names|]; destruct (ww_readdir w' d) as [names'|]; try discriminate; [|now apply Pu2].
      injection G as G1.
      destruct (Z.eq_dec (ww_kind w' d n) 0) as [Z0|NZ]; [exact Z0|exfalso].
      apply (Pp2 names' eq_refl) in NZ. rewrite <- G1 in NZ. apply (Pp1 names eq_refl) in NZ. contradiction.
  Qed.

  Lemma watch_covers_observations_all : all_same w w' log = true.
  Proof. apply forallb_forall. intros o Hin. rewrite (watch_answers_same o Hin). apply answer_eqb_refl. Qed.
End All.

(* The shapes of findings F, G and G2: each refutes the unrestricted statement
   on the recorder before commits 0717f2b (F) and dbd24f7 (G, G2).  The model
   follows the repaired recorder, which reports each of these edits dirty; F's
   log satisfies wf_path (finding_F_shape_in_domain). *)
Definition f_bts : name := [98; 46; 116; 115].
Definition f_bjs : name := [98; 46; 106; 115].
Definition f_world (names : list name) (key : Z) : wworld :=
  mkWw (fun p => if p =? 1 then Some names else None) (fun _ => RdErr 21)
       (fun p => if p =? 1 then MKOk [1; key] else MKErr 2) (fun _ => false)
       (fun _ _ => 0) (fun _ _ => false) (fun _ _ => None).
Definition f_w : wworld := f_world [f_bjs] 1.
Definition f_w' : wworld := f_world [f_bjs; f_bts] 2.
(* the directory 1 is listed, "b.ts" is looked up and absent, then path 1 is read as a file (EISDIR) *)
Definition f_log : list obs := [OReadDir 1; OGet 1 f_bts; OModKey 1; OReadFile 1].

Lemma finding_F_shape_in_domain : forall o, In o f_log -> wf_path f_w f_log (obs_path o).
Proof.
  intros o H.
  assert (E : obs_path o = 1) by (simpl in H; intuition (subst; reflexivity)).
  rewrite E. left. exists [OGet 1 f_bts; OModKey 1; OReadFile 1]. split; [reflexivity|].
  assert (Hlist : ww_readdir f_w 1 <> None) by discriminate.
  intros o' [<-|[<-|[<-|[]]]].
  - left. reflexivity.
  - right. split; [reflexivity | exact Hlist].
  - right. split; [reflexivity | exact Hlist].
Qed.

Lemma finding_F_shape_detected :
  dirty_paths f_w' (finalize f_w (record f_w f_log)) = [1] /\ all_same f_w f_w' f_log = false.
Proof. split; vm_compute; reflexivity. Qed.

(* G: link.js in directory 1 is a symlink; on w it resolves to file 5, which the
   build reads; on w' it was re-pointed to file 6 *)
Definition g_link : name := [108; 105; 110; 107; 46; 106; 115].
Definition g_world (target : Z) : wworld :=
  mkWw (fun p => if p =? 1 then Some [g_link] else None)
       (fun p => if (p =? 5) || (p =? 6) then RdOk (p * 10) else RdErr 2)
       (fun p => if (p =? 5) || (p =? 6) then MKOk [p; 1] else MKErr 2)
       (fun p => (p =? 5) || (p =? 6))
       (fun d n => if (d =? 1) && name_eqb n g_link then 2 else 0)
       (fun d n => (d =? 1) && name_eqb n g_link)
       (fun d n => if (d =? 1) && name_eqb n g_link then Some target else None).
Definition g_log : list obs := [OReadDir 1; OGet 1 g_link; OKind 1 g_link; OModKey 5; OReadFile 5].

Lemma finding_G_shape_detected :
  dirty_paths (g_world 6) (finalize (g_world 5) (record (g_world 5) g_log)) = [1] /\
  clean (g_world 5) (finalize (g_world 5) (record (g_world 5) g_log)) = true.
Proof. split; vm_compute; reflexivity. Qed.

(* G2: the link is dangling on w (EvalSymlinks fails, kind 0) and the build stops there; on w' the target exists *)
Definition g2_world (dangling : bool) : wworld :=
  mkWw (fun p => if p =? 1 then Some [g_link] else None)
       (fun p => if (p =? 5) && negb dangling then RdOk 50 else RdErr 2)
       (fun p => if (p =? 5) && negb dangling then MKOk [5; 1] else MKErr 2)
       (fun p => (p =? 5) && negb dangling)
       (fun d n => if (d =? 1) && name_eqb n g_link && negb dangling then 2 else 0)
       (fun d n => (d =? 1) && name_eqb n g_link)
       (fun d n => if (d =? 1) && name_eqb n g_link && negb dangling then Some 5 else None).
Definition g2_log : list obs := [OReadDir 1; OGet 1 g_link; OKind 1 g_link].

Lemma finding_G2_shape_detected :
  dirty_paths (g2_world false) (finalize (g2_world true) (record (g2_world true) g2_log)) = [1] /\
  clean (g2_world true) (finalize (g2_world true) (record (g2_world true) g2_log)) = true.
Proof. split; vm_compute; reflexivity. Qed.
