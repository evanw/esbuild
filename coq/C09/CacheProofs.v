(* C09 proofs about the cache set (Cache.v): the memo tables are transparent
   over every access/edit history, and a rebuild on a context equals a fresh
   build, for every program written against the observation interface. *)
From V Require Import Common.Base C09.Cache.

Lemma lookup_In {A} (p : Z) (l : list (Z * A)) (a : A) :
  lookup p l = Some a -> In (p, a) l.
Proof.
  induction l as [|[q b] l IH]; simpl; intro H; [discriminate|].
  destruct (q =? p) eqn:E.
  - apply Z.eqb_eq in E. inversion H; subst. now left.
  - right. now apply IH.
Qed.

Lemma lookup_cons_eq {A} p (x : A) l : lookup p ((p, x) :: l) = Some x.
Proof. simpl. now rewrite Z.eqb_refl. Qed.

Lemma lookup_cons_ne {A} k k' (v : A) l : k' <> k -> lookup k ((k', v) :: l) = lookup k l.
Proof. intro H. simpl. now rewrite (proj2 (Z.eqb_neq k' k) H). Qed.

(* the shape of Watch.clean and OptionFields.equal_covers *)
Lemma none_selected {A B} (sel : A -> bool) (h : A -> B) l :
  match map h (filter sel l) with [] => true | _ => false end = true ->
  forall x, In x l -> sel x = false.
Proof.
  intros H x Hin. destruct (sel x) eqn:S; [|reflexivity].
  assert (Hx : In (h x) (map h (filter sel l))) by (apply in_map, filter_In; auto).
  destruct (map h (filter sel l)); [contradiction|discriminate].
Qed.

Section MemoProofs.
  Variables src opts res : Type.
  Variable key_of : src -> Z.
  Variable src_eqb : src -> src -> bool.
  Variable opt_equal : opts -> opts -> bool.
  Variable parse : src -> opts -> res.

  (* Go struct equality on logger.Source *)
  Hypothesis src_eqb_sound : forall a b, src_eqb a b = true -> a = b.
  (* "every option that can alter an AST takes part in the comparison" *)
  Hypothesis equal_sound : forall s o o', opt_equal o o' = true -> parse s o = parse s o'.

  Definition memo_ok (m : memo src opts res) : Prop :=
    forall k e, In (k, e) m -> me_res e = parse (me_src e) (me_opts e).

  Lemma memo_parse_ok m s o :
    memo_ok m ->
    exists m' h, memo_parse key_of src_eqb opt_equal parse m s o = (parse s o, m', h) /\ memo_ok m'.
  Proof.
    intro Hok. unfold memo_parse.
    assert (Hmiss : memo_ok ((key_of s, mkMentry s o (parse s o)) :: m))
      by (intros k e [H|H]; [inversion H; reflexivity | eapply Hok; eauto]).
    destruct (lookup (key_of s) m) as [e|] eqn:L; [|eauto].
    destruct (src_eqb (me_src e) s && opt_equal (me_opts e) o) eqn:C; [|eauto].
    apply andb_true_iff in C as [C1 C2]. apply src_eqb_sound in C1.
    apply lookup_In, Hok in L. exists m, true. split; [|exact Hok].
    rewrite L, C1, (equal_sound s _ _ C2). reflexivity.
  Qed.

  Lemma run_memo_transparent calls : forall m, memo_ok m ->
    run_memo key_of src_eqb opt_equal parse m calls = map (fun c => parse (fst c) (snd c)) calls.
  Proof.
    induction calls as [|[s o] r IH]; intros m Hok; [reflexivity|].
    cbn [run_memo]. destruct (memo_parse_ok m s o Hok) as (m' & h & -> & Hok').
    cbn [map fst snd]. f_equal. now apply IH.
  Qed.

  Lemma memo_transparent_all calls :
    run_memo key_of src_eqb opt_equal parse [] calls = map (fun c => parse (fst c) (snd c)) calls.
  Proof. apply run_memo_transparent. intros k e []. Qed.
End MemoProofs.

(* a memo table whose comparison is NOT sound returns a stale result: the
   generic shape of finding C *)
Lemma memo_stale {src opts res} (key_of : src -> Z) src_eqb (opt_equal : opts -> opts -> bool) (parse : src -> opts -> res) s o o' :
  src_eqb s s = true -> opt_equal o o' = true -> parse s o <> parse s o' ->
  run_memo key_of src_eqb opt_equal parse [] [(s, o); (s, o')] <> [parse s o; parse s o'].
Proof.
  intros Hs He Hne. cbn [run_memo].
  unfold memo_parse at 1. cbn [lookup].
  unfold memo_parse. cbn [lookup]. rewrite Z.eqb_refl.
  cbn [me_src me_opts me_res]. rewrite Hs, He. cbn.
  intro H. inversion H. contradiction.
Qed.

(* "mod-key changes when contents change" over one access history: whenever an
   earlier access of the same path saw the same usable key and read contents x
   successfully, this access reads x as well *)
Definition mk_sound_at (seen : list access) (a : access) : Prop :=
  forall b k x, In b seen -> a_path b = a_path a -> a_mk b = MKOk k -> a_mk a = MKOk k ->
                a_rd b = RdOk x -> a_rd a = RdOk x.

Fixpoint mk_sound_from (seen : list access) (h : list access) : Prop :=
  match h with
  | [] => True
  | a :: r => mk_sound_at seen a /\ mk_sound_from (a :: seen) r
  end.

Definition ModKeySoundH (h : list access) : Prop := mk_sound_from [] h.

(* Every usable entry was stored by a read that is vouched for: [V p k x] says
   that some read of path p saw the usable key k together with contents x.
   The access histories and the edit histories below differ only in V. *)
Definition fs_ok (V : path -> list Z -> Z -> Prop) (c : fscache) : Prop :=
  forall p e, In (p, e) c -> fe_usable e = true -> V p (fe_key e) (fe_contents e).

Lemma fs_hit_Some e mk x :
  fs_hit e mk = Some x ->
  exists en, e = Some en /\ fe_usable en = true /\ mk = MKOk (fe_key en) /\ x = fe_contents en.
Proof.
  unfold fs_hit. destruct e as [en|]; [|discriminate]. destruct mk as [k| |]; try discriminate.
  destruct (fe_usable en && zlist_eqb (fe_key en) k) eqn:C; [|discriminate].
  apply andb_true_iff in C as [C1 C2]. apply zlist_eqb_eq in C2. intro H; inversion H; subst.
  exists en. repeat split; auto.
Qed.

Lemma FSCache_ReadFile_ok V c p mk rd :
  fs_ok V c ->
  (forall k x, mk = MKOk k -> V p k x -> rd = RdOk x) ->
  (forall k x, mk = MKOk k -> rd = RdOk x -> V p k x) ->
  exists c' called, FSCache_ReadFile c p mk rd = (rd, c', called) /\ fs_ok V c'.
Proof.
  intros Hok Hsound Hnew. unfold FSCache_ReadFile.
  destruct (fs_hit (lookup p c) mk) as [x|] eqn:Hh.
  - apply fs_hit_Some in Hh as (en & L & Hu & -> & ->). apply lookup_In in L.
    rewrite (Hsound _ _ eq_refl (Hok _ _ L Hu)). eauto.
  - destruct rd as [x|e]; [|eauto]. do 2 eexists. split; [reflexivity|].
    intros q e [H|H] Hu; [|now apply Hok]. inversion H; subst; clear H. cbn in *.
    destruct mk; try discriminate. now apply Hnew.
Qed.

Definition vouched_in (seen : list access) (p : path) (k : list Z) (x : Z) : Prop :=
  exists b, In b seen /\ a_path b = p /\ a_mk b = MKOk k /\ a_rd b = RdOk x.

Lemma run_fs_transparent h : forall seen c,
  fs_ok (vouched_in seen) c -> mk_sound_from seen h -> run_fs c h = map a_rd h.
Proof.
  induction h as [|a r IH]; intros seen c Hok Hs; [reflexivity|].
  destruct Hs as [Hs1 Hs2]. cbn [run_fs map].
  destruct (FSCache_ReadFile_ok (vouched_in (a :: seen)) c (a_path a) (a_mk a) (a_rd a))
    as (c' & called & -> & Hok').
  - intros p e Hin Hu. destruct (Hok p e Hin Hu) as (b & Hb & R). exists b. split; [now right|exact R].
  - intros k x Hk (b & [<-|Hb] & Hp & Hbk & Hbr); [exact Hbr | eapply Hs1; eauto].
  - intros k x Hk Hr. exists a. split; [now left|auto].
  - f_equal. now apply (IH (a :: seen)).
Qed.

Lemma fscache_transparent_all h : ModKeySoundH h -> run_fs [] h = map a_rd h.
Proof. intro Hs. eapply run_fs_transparent; [|exact Hs]. intros p e []. Qed.

Definition si_ok (c : sicache) : Prop :=
  (forall k i, In (k, i) (si_entries c) -> i < si_next c) /\
  (forall k1 k2 i, lookup k1 (si_entries c) = Some i -> lookup k2 (si_entries c) = Some i -> k1 = k2).

Lemma SourceIndex_Get_ok c k :
  si_ok c ->
  let '(i, c') := SourceIndex_Get c k in
  si_ok c' /\ lookup k (si_entries c') = Some i /\
  (forall k0 i0, lookup k0 (si_entries c) = Some i0 -> lookup k0 (si_entries c') = Some i0).
Proof.
  intros [Hlt Hinj]. unfold SourceIndex_Get. destruct (lookup k (si_entries c)) as [i|] eqn:L.
  - repeat split; auto.
  - repeat split; cbn [si_entries si_next].
    + intros k0 i0 [H|H]; [inversion H; lia|]. apply Hlt in H. lia.
    + assert (Hfresh : forall k0, lookup k0 (si_entries c) <> Some (si_next c))
        by (intros k0 H; apply lookup_In, Hlt in H; lia).
      intros k1 k2 i. simpl.
      destruct (k =? k1) eqn:E1; destruct (k =? k2) eqn:E2; intros H1 H2.
      * apply Z.eqb_eq in E1, E2. congruence.
      * inversion H1; subst. now apply Hfresh in H2.
      * inversion H2; subst. now apply Hfresh in H1.
      * eapply Hinj; eauto.
    + apply lookup_cons_eq.
    + intros k0 i0 H. simpl. destruct (k =? k0) eqn:E; [|exact H]. apply Z.eqb_eq in E. subst. congruence.
Qed.

Lemma run_si_final keys : forall c, si_ok c ->
  exists cf, si_ok cf /\
    (forall k i, lookup k (si_entries c) = Some i -> lookup k (si_entries cf) = Some i) /\
    (forall n k i, nth_error keys n = Some k -> nth_error (run_si c keys) n = Some i -> lookup k (si_entries cf) = Some i).
Proof.
  induction keys as [|k r IH]; intros c Hc.
  - exists c. split; [exact Hc|]. split; [auto|]. intros [|n] k i H; discriminate.
  - pose proof (SourceIndex_Get_ok c k Hc) as H. cbn [run_si].
    destruct (SourceIndex_Get c k) as [i c']. destruct H as (Hc' & Hk & Hext).
    destruct (IH c' Hc') as (cf & Hcf & Hext' & Hres).
    exists cf. split; [exact Hcf|]. split; [auto|].
    intros [|n] k0 i0 H1 H2; simpl in *.
    + inversion H1; inversion H2; subst. now apply Hext'.
    + eapply Hres; eauto.
Qed.

Lemma run_si_injective keys : forall c, si_ok c ->
  forall k1 k2 n1 n2 i,
    nth_error keys n1 = Some k1 -> nth_error keys n2 = Some k2 ->
    nth_error (run_si c keys) n1 = Some i -> nth_error (run_si c keys) n2 = Some i -> k1 = k2.
Proof.
  intros c Hc k1 k2 n1 n2 i H1 H2 R1 R2.
  destruct (run_si_final keys c Hc) as (cf & [_ Hinj] & _ & Hres).
  eapply Hinj; eapply Hres; eauto.
Qed.

Section BuildProofs.
  Variables src opts res R : Type.
  Variable key_of : src -> Z.
  Variable src_eqb : src -> src -> bool.
  Variable opt_equal : opts -> opts -> bool.
  Variable parse : src -> opts -> res.
  Hypothesis src_eqb_sound : forall a b, src_eqb a b = true -> a = b.
  Hypothesis equal_sound : forall s o o', opt_equal o o' = true -> parse s o = parse s o'.

  (* "file modification times advancing normally": across all the worlds of
     the history, a usable mod key determines the (successfully read) contents *)
  Definition ModKeySound (ws : list world) : Prop :=
    forall w1 w2 p k x, In w1 ws -> In w2 ws ->
      w_modkey w1 p = MKOk k -> w_modkey w2 p = MKOk k -> w_read w1 p = RdOk x -> w_read w2 p = RdOk x.

  Definition vouched_by (ws : list world) (p : path) (k : list Z) (x : Z) : Prop :=
    exists w, In w ws /\ w_modkey w p = MKOk k /\ w_read w p = RdOk x.

  Lemma FSCache_ReadFile_world ws (Hs : ModKeySound ws) w c p :
    In w ws -> fs_ok (vouched_by ws) c ->
    exists c' called, FSCache_ReadFile c p (w_modkey w p) (w_read w p) = (w_read w p, c', called) /\
                      fs_ok (vouched_by ws) c'.
  Proof.
    intros Hw Hok. apply FSCache_ReadFile_ok; [exact Hok| |].
    - intros k x Hk (w0 & Hw0 & Hk0 & Hr0). eapply Hs; eauto.
    - intros k x Hk Hr. exists w. auto.
  Qed.

  Definition caches_ok (ws : list world) (c : caches src opts res) : Prop :=
    fs_ok (vouched_by ws) (fst c) /\ memo_ok src opts res parse (snd c).

  Lemma run_cached_ok ws (Hs : ModKeySound ws) (b : build src opts res R) :
    forall w c, In w ws -> caches_ok ws c ->
      fst (run_cached key_of src_eqb opt_equal parse w c b) = run_fresh parse w b /\
      caches_ok ws (snd (run_cached key_of src_eqb opt_equal parse w c b)).
  Proof.
    induction b as [r | p k IH | s o k IH]; intros w c Hw [Hf Hm]; cbn [run_cached run_fresh].
    - split; [reflexivity | split; assumption].
    - destruct (FSCache_ReadFile_world ws Hs w (fst c) p Hw Hf) as (fc & called & -> & Hf').
      apply IH; [exact Hw | split; assumption].
    - destruct (memo_parse_ok src opts res key_of src_eqb opt_equal parse src_eqb_sound equal_sound (snd c) s o Hm)
        as (m & h & -> & Hm').
      apply IH; [exact Hw | split; assumption].
  Qed.

  Lemma rebuilds_eq_fresh ws (Hs : ModKeySound ws) (steps : list (world * build src opts res R)) :
    forall c, caches_ok ws c -> (forall w b, In (w, b) steps -> In w ws) ->
      rebuilds key_of src_eqb opt_equal parse c steps = map (fun wb => run_fresh parse (fst wb) (snd wb)) steps.
  Proof.
    induction steps as [|[w b] r IH]; intros c Hc Hin; [reflexivity|].
    cbn [rebuilds map fst snd].
    pose proof (run_cached_ok ws Hs b w c (Hin w b (or_introl eq_refl)) Hc) as [H1 H2].
    destruct (run_cached key_of src_eqb opt_equal parse w c b) as [x c']. simpl in H1, H2.
    rewrite H1. f_equal. apply IH; [exact H2|]. intros w0 b0 H. eapply Hin. right. exact H.
  Qed.

  Lemma rebuild_eq_fresh_all (steps : list (world * build src opts res R)) :
    ModKeySound (map fst steps) ->
    rebuilds key_of src_eqb opt_equal parse ([], []) steps = map (fun wb => run_fresh parse (fst wb) (snd wb)) steps.
  Proof.
    intro Hs. eapply rebuilds_eq_fresh; [exact Hs| |].
    - split; [intros p e [] | intros k e []].
    - intros w b H. apply (in_map fst) in H. exact H.
  Qed.
End BuildProofs.
