(* C09 non-vacuity: concrete values meeting the hypotheses of each theorem. *)
From V Require Import Common.Base C09.Cache C09.CacheProofs C09.Watch C09.WatchProofs C09.CacheSet C09.CacheSetProofs.

(* a history with a hit (same usable key), a miss after an edit that changed
   the key, and an unusable key: the hypothesis holds and the hit is real *)
Definition ex_hist : list access :=
  [ mkAccess 1 (MKOk [7;10;100;5;420;0]) (RdOk 11);
    mkAccess 1 (MKOk [7;10;100;5;420;0]) (RdOk 11);
    mkAccess 1 (MKOk [7;10;100;6;420;0]) (RdOk 12);
    mkAccess 2 MKUnusable (RdOk 20);
    mkAccess 2 MKUnusable (RdOk 21);
    mkAccess 3 (MKErr 2) (RdErr 2) ].
Example ex_hist_sound : ModKeySoundH ex_hist.
Proof.
  unfold ModKeySoundH, ex_hist; simpl. repeat split.
  (* one goal per access; b ranges over the accesses before it *)
  all: intros b k x Hin Hp Hb Ha Hr; simpl in *.
  all: repeat (destruct Hin as [Hin|Hin]; [subst b; simpl in *; try discriminate; try congruence|]).
  all: try contradiction.
Qed.
Example ex_hist_obs : run_fs_obs [] ex_hist =
  [(RdOk 11, true); (RdOk 11, false); (RdOk 12, true); (RdOk 20, true); (RdOk 21, true); (RdErr 2, true)].
Proof. vm_compute. reflexivity. Qed.

(* the hypothesis of fscache_transparent is necessary: a same-key edit is served stale *)
Example ex_stale : run_fs [] [mkAccess 1 (MKOk [1]) (RdOk 5); mkAccess 1 (MKOk [1]) (RdOk 6)] = [RdOk 5; RdOk 5].
Proof. vm_compute. reflexivity. Qed.

(* memo: options = (a, b) where the parser reads only a and Equal compares only a *)
Definition ex_parse (s : Z) (o : Z * Z) : Z := s * 10 + fst o.
Definition ex_equal (o o' : Z * Z) : bool := fst o =? fst o'.
Example ex_equal_sound : forall s o o', ex_equal o o' = true -> ex_parse s o = ex_parse s o'.
Proof. intros s [a b] [a' b']; unfold ex_equal, ex_parse; simpl; intro H; apply Z.eqb_eq in H; now subst. Qed.
Example ex_memo_hits :
  run_memo_hits (fun s => s) Z.eqb ex_equal ex_parse [] [(1, (0, 0)); (1, (0, 5)); (1, (1, 5)); (2, (1, 5)); (1, (1, 5))]
  = [false; true; false; false; true].
Proof. vm_compute. reflexivity. Qed.

Example ex_si : run_si (mkSi [] 1) [10; 11; 10; 12; 11] = [1; 2; 1; 3; 2].
Proof. vm_compute. reflexivity. Qed.
Example ex_si_ok : si_ok (mkSi [] 1).
Proof. split; simpl; [intros k i []|intros k1 k2 i H; discriminate]. Qed.

(* a build program: read file 1; if readable parse it with options depending on file 2 *)
Definition ex_build : build Z (Z * Z) Z Z :=
  ReadFile 2 (fun cfg => ReadFile 1 (fun r =>
    match r with
    | RdOk c => Parse c (match cfg with RdOk j => (j, 0) | RdErr _ => (0, 0) end) (fun ast => Ret ast)
    | RdErr e => Ret (- e)
    end)).
Definition ex_w (c1 k1 c2 k2 : Z) : world :=
  mkWorld (fun p => if p =? 1 then MKOk [k1] else if p =? 2 then MKOk [k2] else MKErr 2)
          (fun p => if p =? 1 then RdOk c1 else if p =? 2 then RdOk c2 else RdErr 2).
Example ex_rebuilds :
  rebuilds (fun s => 1) Z.eqb ex_equal ex_parse ([], [])
    [(ex_w 5 1 0 1, ex_build); (ex_w 5 1 0 1, ex_build); (ex_w 6 2 0 1, ex_build); (ex_w 6 2 3 2, ex_build)]
  = [50; 50; 60; 63].
Proof. vm_compute. reflexivity. Qed.

(* watch: a log over a directory (1) and two files (2 present, 3 looked for and
   missing) that satisfies every hypothesis of watch_covers_observations with a
   world w' in which an unrelated entry was added: all predicates are clean *)
Definition ex_a : name := [97; 46; 106; 115].
Definition ex_b : name := [98; 46; 116; 115].
Definition ex_u : name := [117; 46; 109; 100].
Definition ex_ww (names : list name) : wworld :=
  mkWw (fun p => if p =? 1 then Some names else None)
       (fun p => if p =? 2 then RdOk 5 else RdErr 2)
       (fun p => if p =? 2 then MKOk [9; 9] else if p =? 1 then MKOk [1; 1] else MKErr 2)
       (fun p => p =? 2)
       (fun d n => if (d =? 1) && name_in n names then 2 else 0)
       (fun _ _ => false)
       (fun d n => if (d =? 1) && name_in n names then Some (if name_eqb n [97; 46; 106; 115] then 2 else 9) else None).
Definition ex_log : list obs := [OReadDir 1; OGet 1 ex_a; OGet 1 ex_b; OModKey 2; OReadFile 2; OModKey 3; OReadFile 3].
Example ex_watch_clean : clean (ex_ww [ex_a; ex_u]) (finalize (ex_ww [ex_a]) (record (ex_ww [ex_a]) ex_log)) = true.
Proof. vm_compute. reflexivity. Qed.
Example ex_watch_dirty_when_missing_file_appears :
  dirty_paths (ex_ww [ex_a; ex_b]) (finalize (ex_ww [ex_a]) (record (ex_ww [ex_a]) ex_log)) = [1].
Proof. vm_compute. reflexivity. Qed.
Example ex_watch_wf : forall o, In o ex_log -> wf_path (ex_ww [ex_a]) ex_log (obs_path o).
Proof.
  (* path 1 is listed and then only looked into; paths 2 and 3 are files *)
  assert (D : wf_path (ex_ww [ex_a]) ex_log 1).
  { left. exists [OGet 1 ex_a; OGet 1 ex_b]. split; [reflexivity|].
    intros o [<-|[<-|[]]]; left; reflexivity. }
  assert (F2 : wf_path (ex_ww [ex_a]) ex_log 2) by (right; reflexivity).
  assert (F3 : wf_path (ex_ww [ex_a]) ex_log 3) by (right; reflexivity).
  intros o [<-|[<-|[<-|[<-|[<-|[<-|[<-|[]]]]]]]]; assumption.
Qed.
Example ex_watch_file_hyps : forall p, p = 2 \/ p = 3 -> file_hyps (ex_ww [ex_a]) (ex_ww [ex_a; ex_u]) p.
Proof.
  intros p [H|H]; subst p; unfold file_hyps, coherent_at; cbn.
  all: repeat split; intros; try discriminate; try congruence; eauto.
Qed.
Example ex_watch_dir_coh : forall names p, dir_coh (ex_ww names) p.
Proof.
  intros names p H. unfold ex_ww in *. cbn in *. destruct (p =? 1) eqn:E; [|contradiction].
  apply Z.eqb_eq in E. subst p. cbn. split; [eexists; reflexivity|]. split; [intros e; discriminate|reflexivity].
Qed.

(* entry kinds: the build asks for the kind of a.js (a plain file, which it then
   reads); all kind hypotheses hold in both worlds and the theorem's conclusion
   is checked by computation *)
Definition ex_child (d : path) (n : name) : path := if name_eqb n ex_a then 2 else 9.
Definition ex_log_k : list obs := [OReadDir 1; OGet 1 ex_a; OKind 1 ex_a; OModKey 2; OReadFile 2].
(* a.js in directory 1 of [ex_ww names]: a listed plain entry of kind 2 that
   resolves to the regular file 2; one clause of kind_hyps per line group *)
Ltac kind_hyps_plain_file :=
  unfold kind_hyps;
  (* kind 2 iff the target is a regular file *)
  split; [vm_compute; split; [intros _; exists 2; split; reflexivity | reflexivity]|];
  (* kind 1 iff the target can be listed: neither holds *)
  split; [vm_compute; split;
            [ discriminate
            | let t := fresh in let E := fresh in let N := fresh in
              intros (t & E & N); inversion E; subst; vm_compute in N; exfalso; apply N; reflexivity ]|];
  (* the kind is 0, 1 or 2 *)
  split; [vm_compute; right; right; reflexivity|];
  split;
    [ (* the plain-entry clause *)
      intros _;
      split; [let n0 := fresh in let E := fresh in
              intros n0 E; vm_compute in E; inversion E; subst; vm_compute;
              split; intro; [reflexivity | discriminate]|];
      split; [let E := fresh in intro E; vm_compute in E; discriminate|];
      split; [ intros _; vm_compute; reflexivity
             | let E := fresh in intro E; vm_compute in E; discriminate ]
    | (* the symlink clause: a.js is not a symlink *)
      let E := fresh in intro E; vm_compute in E; discriminate ].
Example ex_kind_hyps : kind_hyps ex_child (ex_ww [ex_a]) 1 ex_a.
Proof. kind_hyps_plain_file. Qed.
Example ex_kind_hyps' : kind_hyps ex_child (ex_ww [ex_a; ex_u]) 1 ex_a.
Proof. kind_hyps_plain_file. Qed.
Example ex_kind_companions : kind_companions ex_child ex_log_k (ex_ww [ex_a]) 1 ex_a.
Proof.
  unfold kind_companions. split; [right; left; reflexivity|].
  split; [intros _; exists 2; split; [reflexivity | do 4 right; left; reflexivity] | intro H; vm_compute in H; discriminate].
Qed.
Example ex_kind_all_same :
  clean (ex_ww [ex_a; ex_u]) (finalize (ex_ww [ex_a]) (record (ex_ww [ex_a]) ex_log_k)) = true /\
  all_same (ex_ww [ex_a]) (ex_ww [ex_a; ex_u]) ex_log_k = true.
Proof. split; vm_compute; reflexivity. Qed.

(* a symlink entry: the world of finding G (link.js -> file 5)
   meets the symlink clause of kind_hyps, and on an unchanged world everything is clean *)
Example ex_kind_hyps_symlink : kind_hyps (fun _ _ => 99) (g_world 5) 1 g_link.
Proof.
  unfold kind_hyps.
  split; [vm_compute; split; [intros _; exists 5; split; reflexivity | reflexivity]|].
  split; [vm_compute; split; [discriminate | intros (t & E & N); inversion E; subst; vm_compute in N; exfalso; apply N; reflexivity]|].
  split; [vm_compute; right; right; reflexivity|].
  split; [intro E; vm_compute in E; discriminate|].
  intros _. split; [vm_compute; discriminate|]. split; [vm_compute; discriminate|]. intros _. vm_compute. discriminate.
Qed.
Example ex_symlink_clean_when_unchanged :
  clean (g_world 5) (finalize (g_world 5) (record (g_world 5) g_log)) = true /\ all_same (g_world 5) (g_world 5) g_log = true.
Proof. split; vm_compute; reflexivity. Qed.

(* the whole cache set: a build that reads package.json through the resolver's
   cached read, then parses a JS file with an option taken from it and a CSS file *)
Definition ex_b3 : build3 (Z * Z) Z Z Z Z Z Z Z :=
  read_json (fun p c => (p, c)) 2 0 (fun cfg =>
    ReadFile3 1 (fun r => match r with
      | RdOk c => ParseJS (1, c) (match cfg with Some j => j | None => 0 end) (fun a =>
                  ParseCSS (3, 7) 0 (fun s => Ret3 (a + s)))
      | RdErr e => Ret3 (- e) end)).
Definition ex_p3 (s : Z * Z) (o : Z) : Z := snd s * 10 + o.
Example ex_rebuilds3 :
  rebuilds3 (Z * Z) Z Z Z Z Z Z Z fst (fun a b => (fst a =? fst b) && (snd a =? snd b)) Z.eqb Z.eqb Z.eqb ex_p3 ex_p3 (fun s _ => snd s)
    cs_empty [(ex_w 5 1 2 1, ex_b3); (ex_w 5 1 2 1, ex_b3); (ex_w 6 2 2 1, ex_b3); (ex_w 6 2 3 2, ex_b3)]
  = [122; 122; 132; 133].
Proof. vm_compute. reflexivity. Qed.
