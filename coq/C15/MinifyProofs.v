(* AssignNamesByFrequency: the slots of one name space receive pairwise
   distinct names; default names are never reserved (also for JSX-capital
   slots), label names never keywords, JSX names never start in a-z.
   AllocateTopLevelSymbolSlots: top-level slots lie above every nested slot.
   ExportRenamer: aliases are pairwise distinct. *)
From V Require Import Common.Base C15.Names C15.NamesProofs C15.Renamer C15.Spec C15.NumberProofs.

Lemma Forall2_impl' {A B} (P Q : A -> B -> Prop) l m :
  (forall a b, P a b -> Q a b) -> Forall2 P l m -> Forall2 Q l m.
Proof. intros H F. induction F; constructor; auto. Qed.

Lemma Forall2_in_l' {A B} (P : A -> B -> Prop) l m a :
  Forall2 P l m -> In a l -> exists b, In b m /\ P a b.
Proof.
  intros F. induction F as [|x y l m Pxy F IH]; intros I; [destruct I|].
  destruct I as [<-|I]; [exists y; split; [left; reflexivity | exact Pxy]|].
  destruct (IH I) as (b & Ib & Pb). exists b. split; [right; exact Ib | exact Pb].
Qed.

Section Pick.
  Variable mf : minifier.
  Hypothesis NDh : NoDup (m_head mf).
  Hypothesis NDt : NoDup (m_tail mf).
  Hypothesis Hh : 1 <= zlen (m_head mf).
  Hypothesis Ht : 2 <= zlen (m_tail mf).
  Variable reserved : list name.

  Lemma skip_while_spec fuel cond : forall j nm' next',
    skip_while fuel mf cond (NumberToMinifiedName mf j) (j + 1) = Some (nm', next') ->
    exists j', j <= j' /\ nm' = NumberToMinifiedName mf j' /\ next' = j' + 1 /\ cond nm' = false.
  Proof.
    induction fuel as [|f IH]; intros j nm' next' S; simpl in S; [discriminate|].
    destruct (cond (NumberToMinifiedName mf j)) eqn:C.
    - apply IH in S as (j' & L & S). exists j'. split; [|exact S].
      exact (Z.le_trans _ _ _ (Z.le_succ_diag_r j) L).
    - injection S as <- <-. exists j. split; [apply Z.le_refl | auto].
  Qed.

  Definition prefix_of (nsr : ns) : name := match nsr with NsPrivate => [35] | _ => [] end.

  Definition name_ok (nsr : ns) (jsx : bool) (nm : name) : Prop :=
    (nsr = NsDefault -> ~ In nm reserved) /\
    (nsr = NsDefault -> jsx = true -> starts_lower nm = false) /\
    (nsr = NsLabel -> ~ In nm keywords).

  Lemma pick_name_spec fuel nsr jsx next nm next' :
    pick_name fuel mf reserved nsr jsx next = Some (nm, next') ->
    exists j, next <= j /\ nm = prefix_of nsr ++ NumberToMinifiedName mf j /\ next' = j + 1 /\ name_ok nsr jsx nm.
  Proof.
    unfold pick_name, name_ok. intros P. destruct nsr; cbn [prefix_of app].
    (* private names, mangled properties and pinned symbols take the next name as it comes *)
    3-5: injection P as <- <-; exists next.
    3-5: split; [apply Z.le_refl | split; [reflexivity | split; [reflexivity|]]].
    3-5: split; [|split]; intros; discriminate.
    - destruct (skip_while fuel mf (fun n => mem_name n reserved) _ (next + 1)) as [[nm1 next1]|] eqn:S1; [|discriminate].
      apply skip_while_spec in S1 as (j1 & L1 & -> & -> & C1).
      destruct jsx.
      + apply skip_while_spec in P as (j2 & L2 & -> & -> & C2).
        apply orb_false_iff in C2 as [C2a C2b].
        exists j2. split; [exact (Z.le_trans _ _ _ L1 L2) | split; [reflexivity | split; [reflexivity|]]].
        split; [|split]; intros; try discriminate; auto.
        apply mem_name_false. exact C2b.
      + injection P as <- <-. exists j1. split; [exact L1 | split; [reflexivity | split; [reflexivity|]]].
        split; [|split]; intros; try discriminate. apply mem_name_false. exact C1.
    - apply skip_while_spec in P as (j1 & L1 & -> & -> & C1).
      exists j1. split; [exact L1 | split; [reflexivity | split; [reflexivity|]]].
      split; [|split]; intros; try discriminate. apply mem_name_false. exact C1.
  Qed.

  Lemma prefixed_inj nsr i j : 0 <= i -> 0 <= j ->
    prefix_of nsr ++ NumberToMinifiedName mf i = prefix_of nsr ++ NumberToMinifiedName mf j -> i = j.
  Proof.
    intros Hi Hj E. apply app_inv_head in E. eapply minified_name_inj; eauto.
  Qed.

  Lemma assign_sorted_ok fuel nsr slots : forall sorted next asg,
    assign_sorted fuel mf reserved nsr slots sorted next = Some asg ->
    map fst asg = map fst sorted /\
    Forall2 (fun (p : Z * name) (s : Z * Z) =>
               exists j, next <= j /\ snd p = prefix_of nsr ++ NumberToMinifiedName mf j /\
                         name_ok nsr (sl_jsx (nth (Z.to_nat (fst s)) slots empty_slot)) (snd p)) asg sorted.
  Proof.
    induction sorted as [|[i c] rest IH]; intros next asg A; simpl in A.
    - injection A as <-. split; [reflexivity | constructor].
    - destruct (pick_name fuel mf reserved nsr _ next) as [[nm next']|] eqn:P; [|discriminate].
      destruct (assign_sorted fuel mf reserved nsr slots rest next') as [l|] eqn:R; [|discriminate].
      injection A as <-.
      apply pick_name_spec in P as (j & Lj & E & -> & OK).
      destruct (IH _ _ R) as (F & F2).
      split; [simpl; f_equal; exact F | constructor].
      + exists j. split; [exact Lj | split; [exact E | exact OK]].
      + eapply Forall2_impl'; [|exact F2]. intros p s (j2 & L2 & E2). exists j2. split; [|exact E2].
        exact (Z.le_trans _ _ _ (Z.le_le_succ_r _ _ Lj) L2).
  Qed.

  (* with an injective alphabet the names differ: a later name comes from a larger number *)
  Lemma assign_sorted_nodup fuel nsr slots : forall sorted next asg,
    assign_sorted fuel mf reserved nsr slots sorted next = Some asg ->
    0 <= next -> NoDup (map snd asg).
  Proof.
    induction sorted as [|[i c] rest IH]; intros next asg A N; simpl in A.
    - injection A as <-. constructor.
    - destruct (pick_name fuel mf reserved nsr _ next) as [[nm next']|] eqn:P; [|discriminate].
      destruct (assign_sorted fuel mf reserved nsr slots rest next') as [l|] eqn:R; [|discriminate].
      injection A as <-.
      apply pick_name_spec in P as (j & Lj & E & -> & _).
      pose proof (Z.le_trans _ _ _ N Lj) as Nj.
      simpl. constructor; [|exact (IH _ _ R (Z.le_le_succ_r _ _ Nj))].
      intros I. apply in_map_iff in I as ((i2 & nm2) & E2 & I2). simpl in E2. subst nm2.
      destruct (assign_sorted_ok _ _ _ _ _ _ R) as (_ & F2).
      destruct (Forall2_in_l' _ _ _ _ F2 I2) as (s & _ & j2 & L2 & Ej & _). simpl in Ej.
      rewrite E in Ej. apply prefixed_inj in Ej; [|exact Nj|].
      + subst j2. exact (Z.nle_succ_diag_l _ L2).
      + exact (Z.le_trans _ _ _ (Z.le_le_succ_r _ _ Nj) L2).
  Qed.

  Lemma assign_sorted_spec fuel nsr slots sorted next asg :
    assign_sorted fuel mf reserved nsr slots sorted next = Some asg ->
    0 <= next ->
    map fst asg = map fst sorted /\
    Forall2 (fun (p : Z * name) (s : Z * Z) =>
               exists j, next <= j /\ snd p = prefix_of nsr ++ NumberToMinifiedName mf j /\
                         name_ok nsr (sl_jsx (nth (Z.to_nat (fst s)) slots empty_slot)) (snd p)) asg sorted /\
    NoDup (map snd asg).
  Proof.
    intros A N. destruct (assign_sorted_ok _ _ _ _ _ _ A) as (F & F2).
    split; [exact F | split; [exact F2 | exact (assign_sorted_nodup _ _ _ _ _ _ A N)]].
  Qed.
End Pick.

Lemma upd_nth_length {A} (l : list A) i f : length (upd_nth l i f) = length l.
Proof. revert i. induction l as [|x r IH]; intros [|i]; simpl; auto. Qed.

Lemma ms_slots_set_same m n l : n <> NsPinned -> ms_slots (ms_set_slots m n l) n = l.
Proof. destruct n; simpl; auto. contradiction. Qed.
Lemma ms_slots_set_other m n n' l : n <> n' -> ms_slots (ms_set_slots m n l) n' = ms_slots m n'.
Proof. destruct n, n'; simpl; auto; contradiction. Qed.
Lemma ms_top_set m n l : ms_top (ms_set_slots m n l) = ms_top m.
Proof. destruct n; reflexivity. Qed.

Definition slen (m : mstate) (n : ns) : Z := Z.of_nat (length (ms_slots m n)).

Lemma ns_dec (a b : ns) : {a = b} + {a <> b}.
Proof. decide equality. Qed.

Lemma slen_upd m n i f k : n <> NsPinned -> slen (ms_set_slots m n (upd_nth (ms_slots m n) i f)) k = slen m k.
Proof.
  intros NP. unfold slen. destruct (ns_dec n k) as [<-|N].
  - rewrite ms_slots_set_same by exact NP. rewrite upd_nth_length. reflexivity.
  - rewrite ms_slots_set_other by exact N. reflexivity.
Qed.

Section Alloc.
  Variable st : symtab.
  Variable first : ns -> Z.
  Definition nsx (r : nat) : ns := sy_ns (getsym st r).

  Record TopInv (m : mstate) : Prop := {
    t_range : forall r i, lookup (ms_top m) r = Some i -> first (nsx r) <= i < slen m (nsx r);
    t_dist : forall r1 r2 i, r1 <> r2 -> nsx r1 = nsx r2 ->
               lookup (ms_top m) r1 = Some i -> lookup (ms_top m) r2 = Some i -> False;
    t_first : forall n, first n <= slen m n
  }.

  Lemma alloc_step m (e : ssc) :
    TopInv m -> nsx (snd (fst e)) <> NsPinned ->
    TopInv (AllocateTopLevelSymbolSlots st m [e]).
  Proof.
    intros I NP. destruct e as [[s r] count]. simpl in *. fold (nsx r).
    destruct (lookup (ms_top m) r) as [i|] eqn:L.
    - (* existing slot: only a count changes *)
      split.
      + intros x j. rewrite ms_top_set, slen_upd by exact NP. apply (t_range _ I).
      + intros r1 r2 j. rewrite ms_top_set. apply (t_dist _ I).
      + intros n. rewrite slen_upd by exact NP. apply (t_first _ I).
    - set (l' := ms_slots m (nsx r) ++ _).
      set (m' := ms_set_slots m (nsx r) l').
      assert (SLs : slen m' (nsx r) = slen m (nsx r) + 1).
      { unfold slen, m'. rewrite ms_slots_set_same by exact NP. unfold l'. rewrite app_length, Nat2Z.inj_add. reflexivity. }
      assert (SLo : forall n, n <> nsx r -> slen m' n = slen m n).
      { intros n N. unfold slen, m'. rewrite ms_slots_set_other by auto. reflexivity. }
      assert (SLle : forall n, slen m n <= slen m' n).
      { intros n. destruct (ns_dec n (nsx r)) as [->|N].
        - rewrite SLs. apply Z.le_succ_diag_r.
        - rewrite SLo by exact N. apply Z.le_refl. }
      assert (TT : ms_top m' = ms_top m) by (unfold m'; apply ms_top_set).
      assert (SLeq : forall n, slen (mkM (ms_default m') (ms_label m') (ms_private m') (ms_mangled m')
                                        ((r, Z.of_nat (length (ms_slots m (nsx r)))) :: ms_top m')) n = slen m' n).
      { intros n. destruct n; reflexivity. }
      split.
      + intros x j. cbn [ms_top]. rewrite SLeq. destruct (Nat.eq_dec x r) as [->|N].
        * rewrite lookup_cons_eq. intros X. injection X as <-. fold (slen m (nsx r)).
          rewrite SLs. split; [apply (t_first _ I) | apply Z.lt_succ_diag_r].
        * rewrite lookup_cons_neq by exact N. rewrite TT. intros X.
          destruct (t_range _ I x j X) as [A B]. split; [exact A | exact (Z.lt_le_trans _ _ _ B (SLle (nsx x)))].
      + intros r1 r2 j N S. cbn [ms_top]. rewrite TT.
        destruct (Nat.eq_dec r1 r) as [->|N1]; destruct (Nat.eq_dec r2 r) as [->|N2]; try congruence.
        * rewrite lookup_cons_eq, lookup_cons_neq by exact N2. intros X Y. injection X as <-.
          pose proof (proj2 (t_range _ I r2 _ Y)) as B. rewrite <- S in B. exact (Z.lt_irrefl _ B).
        * rewrite lookup_cons_eq, lookup_cons_neq by exact N1. intros X Y. injection Y as <-.
          pose proof (proj2 (t_range _ I r1 _ X)) as B. rewrite S in B. exact (Z.lt_irrefl _ B).
        * rewrite !lookup_cons_neq by assumption. apply (t_dist _ I); assumption.
      + intros n. rewrite SLeq. exact (Z.le_trans _ _ _ (t_first _ I n) (SLle n)).
  Qed.

  Lemma alloc_cons m e tops :
    AllocateTopLevelSymbolSlots st m (e :: tops) =
    AllocateTopLevelSymbolSlots st (AllocateTopLevelSymbolSlots st m [e]) tops.
  Proof. reflexivity. Qed.

  Lemma alloc_all tops : forall m,
    TopInv m -> Forall (fun e : ssc => nsx (snd (fst e)) <> NsPinned) tops ->
    TopInv (AllocateTopLevelSymbolSlots st m tops).
  Proof.
    induction tops as [|e rest IH]; intros m I F; [exact I|].
    rewrite alloc_cons. inversion F as [|? ? Fe Fr]; subst.
    apply IH; [apply alloc_step; assumption | exact Fr].
  Qed.
End Alloc.

Lemma cnt_get_nonneg c :
  0 <= c_default c -> 0 <= c_label c -> 0 <= c_private c -> 0 <= c_mangled c -> forall n, 0 <= cnt_get c n.
Proof. intros H0 H1 H2 H3 n. destruct n; simpl; lia. Qed.

Lemma slen_new c n : 0 <= cnt_get c n -> slen (NewMinifyRenamer c) n = cnt_get c n.
Proof. unfold slen. destruct n; simpl; rewrite ?repeat_length; lia. Qed.

Lemma TopInv_new st c m :
  (forall n, 0 <= cnt_get c n) -> ms_top m = [] -> (forall n, slen m n = slen (NewMinifyRenamer c) n) ->
  TopInv st (cnt_get c) m.
Proof.
  intros NN T L. split.
  - intros r i Lr. rewrite T in Lr. discriminate.
  - intros r1 r2 i _ _ Lr. rewrite T in Lr. discriminate.
  - intros n. rewrite L, slen_new by apply NN. lia.
Qed.

Lemma top_level_slots_above_nested_all st firstc tops :
  0 <= c_default firstc -> 0 <= c_label firstc -> 0 <= c_private firstc -> 0 <= c_mangled firstc ->
  Forall (fun e : ssc => sy_ns (getsym st (snd (fst e))) <> NsPinned) tops ->
  let m := AllocateTopLevelSymbolSlots st (NewMinifyRenamer firstc) tops in
  (forall r i, lookup (ms_top m) r = Some i -> cnt_get firstc (sy_ns (getsym st r)) <= i < slen m (sy_ns (getsym st r))) /\
  (forall r1 r2 i, r1 <> r2 -> sy_ns (getsym st r1) = sy_ns (getsym st r2) ->
     lookup (ms_top m) r1 = Some i -> lookup (ms_top m) r2 = Some i -> False).
Proof.
  intros H0 H1 H2 H3 F m.
  pose proof (TopInv_new st firstc (NewMinifyRenamer firstc) (cnt_get_nonneg firstc H0 H1 H2 H3) eq_refl (fun n => eq_refl)) as I0.
  pose proof (alloc_all st (cnt_get firstc) tops _ I0 F) as I.
  split; [apply (t_range _ _ _ I) | apply (t_dist _ _ _ I)].
Qed.

Lemma export_loop_fresh fuel used prefix : forall tries nm t,
  export_loop fuel used prefix tries = Some (nm, t) -> nm_has used nm = false.
Proof.
  induction fuel as [|f IH]; intros tries nm t E; simpl in E; [discriminate|].
  destruct (nm_has used (prefix ++ itoa (tries + 1))) eqn:H; [eapply IH; eauto|].
  injection E as <- _. exact H.
Qed.

Lemma NextRenamedName_spec fuel used n nm used' :
  NextRenamedName fuel used n = Some (nm, used') ->
  nm_has used nm = false /\ nm_has used' nm = true /\ (forall k, nm_has used k = true -> nm_has used' k = true).
Proof.
  unfold NextRenamedName. destruct (nm_get used n) as [tries|] eqn:G.
  - destruct (export_loop fuel used n tries) as [[nm1 t]|] eqn:L; [|discriminate].
    intros X. injection X as <- <-. apply export_loop_fresh in L.
    split; [exact L | split; [apply nm_has_set; auto | intros k Hk; apply nm_has_set; auto]].
  - intros X. injection X as <- <-.
    split; [unfold nm_has; rewrite G; reflexivity | split; [apply nm_has_set; auto | intros k Hk; apply nm_has_set; auto]].
Qed.

Lemma export_rename_all_spec fuel l : forall used out,
  export_rename_all fuel used l = Some out ->
  NoDup out /\ (forall nm, In nm out -> nm_has used nm = false) /\ length out = length l.
Proof.
  induction l as [|n rest IH]; intros used out E; simpl in E.
  - injection E as <-. split; [constructor | split; [intros nm [] | reflexivity]].
  - destruct (NextRenamedName fuel used n) as [[nm used']|] eqn:N; [|discriminate].
    destruct (export_rename_all fuel used' rest) as [o|] eqn:R; [|discriminate].
    injection E as <-. apply NextRenamedName_spec in N as (N1 & N2 & N3).
    destruct (IH _ _ R) as (ND & Fr & Len).
    split; [|split].
    + constructor; [|exact ND]. intros I. apply Fr in I. congruence.
    + intros k [<-|I]; [exact N1|]. apply Fr in I.
      destruct (nm_has used k) eqn:H; [apply N3 in H; congruence | reflexivity].
    + simpl. rewrite Len. reflexivity.
Qed.

Lemma NextMinifiedName_inj c1 c2 : 0 <= c1 -> 0 <= c2 ->
  fst (NextMinifiedName c1) = fst (NextMinifiedName c2) -> c1 = c2.
Proof.
  unfold NextMinifiedName. simpl. intros H1 H2 E.
  eapply (minified_name_inj default_minifier); eauto.
  - apply default_head_nodup.
  - apply default_tail_nodup.
  - vm_compute. discriminate.
  - vm_compute. discriminate.
Qed.
