(* Every numbered skeleton is well-formed in the sense the renamer theorems assume. *)
From V Require Import Common.Base C15.Names C15.NamesProofs C15.Renamer C15.Spec C15.NumberProofs C15.SlotsProofs C15.ScopeBuild C15.ScopeProg.

Lemma number_sk_unfold env fresh shared ch n :
  number_sk env (Sk fresh shared ch) n =
  let ids := seq n (length fresh) in
  let env' := combine (map fst fresh) ids ++ env in
  let '(cs, syms, n') := number_forest env' ch (n + length fresh)%nat in
  (Scope (ids ++ shared_ids env shared) [] None false cs, fresh_syms fresh n ++ syms, n').
Proof.
  simpl. set (env' := combine (map fst fresh) (seq n (length fresh)) ++ env).
  generalize (n + length fresh)%nat. intros m.
  assert (E : forall ch m,
     (fix go (ch : list sk) (n : nat) : list scope * list symbol * nat :=
        match ch with
        | [] => ([], [], n)
        | c :: r => let '(sc, s1, n1) := number_sk env' c n in
                    let '(scs, s2, n2) := go r n1 in (sc :: scs, s1 ++ s2, n2)
        end) ch m = number_forest env' ch m).
  { induction ch0 as [|c r IH]; intros m0; simpl; [reflexivity|].
    destruct (number_sk env' c m0) as [[sc s1] n1]. rewrite IH. reflexivity. }
  rewrite E. reflexivity.
Qed.

Lemma number_sk_inv env fresh shared ch n sc syms n' :
  number_sk env (Sk fresh shared ch) n = (sc, syms, n') ->
  exists cs sy,
    number_forest (combine (map fst fresh) (seq n (length fresh)) ++ env) ch (n + length fresh)%nat = (cs, sy, n') /\
    sc = Scope (seq n (length fresh) ++ shared_ids env shared) [] None false cs /\
    syms = fresh_syms fresh n ++ sy.
Proof.
  rewrite number_sk_unfold. cbv zeta.
  destruct (number_forest _ ch (n + length fresh)%nat) as [[cs sy] nn].
  intros B. injection B as <- <- <-. exists cs, sy. repeat split.
Qed.

Lemma number_forest_inv env c r n cs syms n' :
  number_forest env (c :: r) n = (cs, syms, n') ->
  exists sc s1 n1 scs s2,
    number_sk env c n = (sc, s1, n1) /\ number_forest env r n1 = (scs, s2, n') /\
    cs = sc :: scs /\ syms = s1 ++ s2.
Proof.
  simpl. destruct (number_sk env c n) as [[sc s1] n1]. destruct (number_forest env r n1) as [[scs s2] n2] eqn:F2.
  intros F. injection F as <- <- <-. exists sc, s1, n1, scs, s2. repeat split. exact F2.
Qed.

Section SkInd.
  Variables (P : sk -> Prop) (Q : list sk -> Prop).
  Hypothesis Hsk : forall f s ch, Q ch -> P (Sk f s ch).
  Hypothesis Hnil : Q [].
  Hypothesis Hcons : forall c r, P c -> Q r -> Q (c :: r).
  Fixpoint sk_ind2 (k : sk) : P k :=
    match k with
    | Sk f s ch =>
        Hsk f s ch ((fix go (cs : list sk) : Q cs :=
                       match cs with
                       | [] => Hnil
                       | c :: r => Hcons c r (sk_ind2 c) (go r)
                       end) ch)
    end.
  Lemma sk_forest_ind : (forall k, P k) /\ (forall ch, Q ch).
  Proof.
    split; [exact sk_ind2|].
    induction ch as [|c r IH]; [exact Hnil | exact (Hcons c r (sk_ind2 c) IH)].
  Qed.
End SkInd.

Lemma insert_nat_in x y l : In x (insert_nat y l) <-> x = y \/ In x l.
Proof.
  induction l as [|z r IH]; simpl; [intuition congruence|].
  destruct (Nat.leb y z); simpl; [|rewrite IH]; intuition congruence.
Qed.
Lemma sort_nat_in x l : In x (sort_nat l) <-> In x l.
Proof. induction l as [|y r IH]; simpl; [tauto | rewrite insert_nat_in, IH; intuition congruence]. Qed.

Lemma scope_decls_top sc r : In r (scope_decls sc) <-> In r (module_top sc).
Proof. destruct sc. unfold scope_decls, module_top. simpl. rewrite !in_app_iff, sort_nat_in. tauto. Qed.

Lemma wf_refs_ok refs : forall vis seen,
  (forall r, In r refs -> In r vis \/ ~ In r seen) ->
  wf_refs vis seen refs = Some (rev refs ++ vis, rev refs ++ seen).
Proof.
  induction refs as [|r rest IH]; intros vis seen H; cbn [wf_refs rev]; [reflexivity|].
  assert (C : mem_nat r seen && negb (mem_nat r vis) = false).
  { destruct (H r (or_introl eq_refl)) as [V|S].
    - apply mem_nat_In in V. rewrite V. apply andb_false_r.
    - destruct (mem_nat r seen) eqn:M; [apply mem_nat_In in M; contradiction | reflexivity]. }
  rewrite C. rewrite IH.
  - rewrite <- !app_assoc. reflexivity.
  - intros x Hx. destruct (Nat.eq_dec x r) as [->|N]; [left; left; reflexivity|].
    destruct (H x (or_intror Hx)) as [V|S]; [left; right; exact V | right; intros [E|I]; [congruence | contradiction]].
Qed.

Lemma shared_ids_in env shared i : In i (shared_ids env shared) -> exists x, env_get env x = Some i.
Proof.
  unfold shared_ids. intros H. apply in_flat_map in H as (x & _ & Hx).
  destruct (env_get env x) as [j|] eqn:E; [|destruct Hx]. destruct Hx as [<-|[]]. exists x. exact E.
Qed.

Lemma env_get_app_combine names ids env x i :
  env_get (combine names ids ++ env) x = Some i -> In i ids \/ env_get env x = Some i.
Proof.
  revert ids. induction names as [|k r IH]; intros [|j js] E; simpl in *; auto.
  destruct (name_eqb x k); [injection E as <-; left; left; reflexivity|].
  destruct (IH js E) as [I|I]; auto.
Qed.

Fixpoint nolabel (sc : scope) : bool :=
  match sc with
  | Scope _ _ l _ ch =>
      (match l with None => true | Some _ => false end) &&
      (fix go (cs : list scope) : bool := match cs with [] => true | c :: r => nolabel c && go r end) ch
  end.
Fixpoint nolabel_forest (cs : list scope) : bool :=
  match cs with [] => true | c :: r => nolabel c && nolabel_forest r end.
Lemma nolabel_unfold m g l e ch :
  nolabel (Scope m g l e ch) = (match l with None => true | Some _ => false end) && nolabel_forest ch.
Proof. reflexivity. Qed.

Section WF.
  Variable st : symtab.
  Hypothesis NoLinks : forall r, follow st r = r.

  Lemma map_follow_id l : map (follow st) l = l.
  Proof. induction l as [|r l IH]; simpl; [reflexivity | rewrite NoLinks, IH; reflexivity]. Qed.

  Lemma canon_is_decls sc : canon_decls st sc = scope_decls sc.
  Proof. apply map_follow_id. Qed.

  Definition env_ok (env : env_t) (vis : list nat) (n : nat) : Prop :=
    forall x i, env_get env x = Some i -> In i vis /\ (i < n)%nat.

  Lemma env_ok_le env vis n n' : env_ok env vis n -> (n <= n')%nat -> env_ok env vis n'.
  Proof. intros EO L x i G. destruct (EO x i G) as [V B]. split; [exact V | exact (Nat.lt_le_trans _ _ _ B L)]. Qed.

  Lemma number_wf :
    (forall k env n vis seen sc syms n',
       number_sk env k n = (sc, syms, n') ->
       env_ok env vis n -> (forall r, In r seen -> (r < n)%nat) ->
       exists seen', wf_scope st sc vis seen = Some seen' /\
                     (forall r, In r seen' -> (r < n')%nat) /\ (n <= n')%nat) /\
    (forall ch env n vis seen cs syms n',
       number_forest env ch n = (cs, syms, n') ->
       env_ok env vis n -> (forall r, In r seen -> (r < n)%nat) ->
       exists seen', wf_forest st cs vis seen = Some seen' /\
                     (forall r, In r seen' -> (r < n')%nat) /\ (n <= n')%nat).
  Proof.
    apply sk_forest_ind.
    - intros fresh shared ch IH env n vis seen sc syms n' B EO SO.
      apply number_sk_inv in B as (cs & sy & F & -> & ->).
      set (ids := seq n (length fresh)) in *.
      set (env' := combine (map fst fresh) ids ++ env) in *.
      rewrite wf_scope_unfold, canon_is_decls.
      set (mem := ids ++ shared_ids env shared).
      change (scope_decls (Scope mem [] None false cs)) with (sort_nat mem ++ []). rewrite app_nil_r.
      (* a member is new, hence not seen before, or a visible symbol numbered earlier *)
      assert (Mem : forall r, In r (sort_nat mem) ->
                (r < n + length fresh)%nat /\ (In r vis \/ ~ In r seen)).
      { intros r Hr. apply sort_nat_in, in_app_iff in Hr as [Hr|Hr].
        - apply in_seq in Hr as [Lo Hi]. split; [exact Hi | right].
          intros S. exact (Nat.lt_irrefl _ (Nat.lt_le_trans _ _ _ (SO r S) Lo)).
        - apply shared_ids_in in Hr as (x & Hx). destruct (EO x r Hx) as [V L].
          split; [apply Nat.lt_lt_add_r, L | left; exact V]. }
      rewrite wf_refs_ok by (intros r Hr; apply (Mem r Hr)).
      destruct (IH env' (n + length fresh)%nat (rev (sort_nat mem) ++ vis) (rev (sort_nat mem) ++ seen) cs sy n' F)
        as (sn' & W' & S' & L').
      + intros x i G. apply env_get_app_combine in G as [I|G].
        * split; [|apply in_seq in I as [_ Hi]; exact Hi].
          apply in_app_iff. left. rewrite <- in_rev. apply sort_nat_in, in_app_iff. left. exact I.
        * destruct (EO x i G) as [V L]. split; [apply in_app_iff; right; exact V | apply Nat.lt_lt_add_r, L].
      + intros r Hr. apply in_app_iff in Hr as [Hr|Hr].
        * rewrite <- in_rev in Hr. exact (proj1 (Mem r Hr)).
        * apply Nat.lt_lt_add_r, SO, Hr.
      + exists sn'. split; [exact W' | split; [exact S'|]].
        exact (Nat.le_trans _ _ _ (Nat.le_add_r _ _) L').
    - intros env n vis seen cs syms n' F _ SO. injection F as <- <- <-.
      exists seen. split; [reflexivity | split; [exact SO | apply Nat.le_refl]].
    - intros c r Hc Hr env n vis seen cs syms n' F EO SO.
      apply number_forest_inv in F as (sc1 & s1 & n1 & scs & s2 & B1 & F2 & -> & ->).
      destruct (Hc _ _ _ _ _ _ _ B1 EO SO) as (sn1 & W1 & S1 & L1).
      destruct (Hr _ _ _ _ _ _ _ F2 (env_ok_le _ _ _ _ EO L1) S1) as (sn2 & W2 & S2 & L2).
      exists sn2. simpl. rewrite W1. split; [exact W2 | split; [exact S2 | exact (Nat.le_trans _ _ _ L1 L2)]].
  Qed.

  (* without labels the slot flavour of the predicate coincides with the number flavour *)
  Lemma wf_slot_is_wf :
    (forall sc vis seen, nolabel sc = true -> wf_slot_scope st sc vis seen = wf_scope st sc vis seen) /\
    (forall cs vis seen, nolabel_forest cs = true -> wf_slot_forest st cs vis seen = wf_forest st cs vis seen).
  Proof.
    apply scope_forest_ind.
    - intros m g l e ch IH vis seen NL.
      rewrite nolabel_unfold in NL. apply andb_true_iff in NL as [NL1 NL2]. destruct l; [discriminate|].
      rewrite wf_slot_scope_unfold, wf_scope_unfold, canon_is_decls.
      destruct (wf_refs vis seen _) as [[v1 s1]|]; [apply IH, NL2 | reflexivity].
    - reflexivity.
    - intros c r Hc Hr vis seen NL. simpl in *. apply andb_true_iff in NL as [N1 N2].
      rewrite (Hc vis seen N1). destruct (wf_scope st c vis seen); [apply Hr, N2 | reflexivity].
  Qed.
End WF.

Lemma number_nolabel :
  (forall k env n sc syms n', number_sk env k n = (sc, syms, n') ->
     nolabel sc = true /\ Forall (fun s => sy_link s = None) syms) /\
  (forall ch env n cs syms n', number_forest env ch n = (cs, syms, n') ->
     nolabel_forest cs = true /\ Forall (fun s => sy_link s = None) syms).
Proof.
  apply sk_forest_ind.
  - intros fresh shared ch IH env n sc syms n' B.
    apply number_sk_inv in B as (cs & sy & F & -> & ->).
    rewrite nolabel_unfold. destruct (IH _ _ _ _ _ F) as [K1 K2].
    split; [exact K1|]. apply Forall_app. split; [|exact K2].
    unfold fresh_syms. apply Forall_forall. intros s Hs. apply in_map_iff in Hs as (p & <- & _). reflexivity.
  - intros env n cs syms n' F. injection F as <- <- <-. split; [reflexivity | constructor].
  - intros c r Hc Hr env n cs syms n' F.
    apply number_forest_inv in F as (sc1 & s1 & n1 & scs & s2 & B1 & F2 & -> & ->).
    destruct (Hc _ _ _ _ _ B1) as [A1 A2]. destruct (Hr _ _ _ _ _ F2) as [C1 C2].
    split; [simpl; rewrite A1, C1; reflexivity | apply Forall_app; split; assumption].
Qed.

Lemma follow_nolinks st : Forall (fun s => sy_link s = None) st -> forall r, follow st r = r.
Proof.
  intros F r. unfold follow. destruct (length st) as [|f]; [reflexivity|]. simpl.
  assert (L : sy_link (getsym st r) = None).
  { unfold getsym. destruct (nth_in_or_default r st dummy_sym) as [I|E].
    - rewrite Forall_forall in F. apply F. exact I.
    - rewrite E. reflexivity. }
  rewrite L. reflexivity.
Qed.

Lemma shared_ids_nil shared : shared_ids [] shared = [].
Proof. unfold shared_ids. induction shared as [|x r IH]; simpl; [reflexivity | exact IH]. Qed.

Lemma build_sk_wellformed_all k :
  let '(m, st) := build_sk k in
  wf_slots st m = true /\ wf_number st (module_top m) (sc_children m) = true.
Proof.
  unfold build_sk. destruct (number_sk [] k 0) as [[m st] n'] eqn:B.
  destruct (proj1 number_nolabel k _ _ _ _ _ B) as [NL NLk].
  pose proof (follow_nolinks st NLk) as NoLinks.
  destruct k as [fresh shared ch]. apply number_sk_inv in B as (cs & sy & F & -> & _).
  set (ids := seq 0 (length fresh)) in *.
  set (env' := combine (map fst fresh) ids ++ []) in *.
  rewrite shared_ids_nil, app_nil_r in *.
  rewrite nolabel_unfold in NL. simpl in NL.
  assert (Top : module_top (Scope ids [] None false cs) = ids) by (unfold module_top; simpl; apply app_nil_r).
  (* the children are well-formed below the top-level symbols, in whatever order these are listed *)
  assert (P : forall vis sn, (forall i, In i ids -> In i vis) -> (forall r, In r sn -> In r ids) ->
              exists s', wf_forest st cs vis sn = Some s').
  { intros vis sn Hv Hs. destruct (proj2 (number_wf st NoLinks) ch env' _ vis sn _ _ _ F) as (s' & W' & _).
    - intros x i G. apply env_get_app_combine in G as [I|G]; [|discriminate].
      split; [exact (Hv i I) | apply in_seq in I as [_ Hi]; exact Hi].
    - intros r Hr. apply Hs, in_seq in Hr as [_ Hi]. exact Hi.
    - exists s'. exact W'. }
  split.
  - unfold wf_slots. rewrite Top. simpl sc_children.
    rewrite (proj2 (wf_slot_is_wf st NoLinks) cs ids ids NL).
    destruct (P ids ids) as (s' & ->); auto.
  - unfold wf_number. rewrite Top. simpl sc_children.
    rewrite (map_follow_id st NoLinks), wf_refs_ok, !app_nil_r by (intros r _; right; intros []).
    destruct (P (rev ids) (rev ids)) as (s' & ->); [intros i; apply in_rev | intros r; apply in_rev | reflexivity].
Qed.

Lemma parse_forest_wellformed_all prog :
  let '(m, st) := parse_forest prog in
  wf_slots st m = true /\ wf_number st (module_top m) (sc_children m) = true.
Proof. unfold parse_forest. apply build_sk_wellformed_all. Qed.
