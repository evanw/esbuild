(* C15 property theorems. Only statements closed by [exact lemma] and Print Assumptions. *)
From V Require Import Common.Base C15.Names C15.Renamer C15.Spec
  C15.NamesProofs C15.NumberProofs C15.SlotsProofs C15.MinifyProofs C15.ComposeProofs C15.ResolveProofs C15.ScopeBuild C15.ScopeProg C15.ScopeBuildProofs C15.ScopeResolveProofs C15.MinifyResolveProofs C15.HoistedProofs.

(* NumberToMinifiedName is injective for every alphabet without repeated characters *)
Theorem minified_name_injective : forall m,
  NoDup (m_head m) -> NoDup (m_tail m) -> 1 <= zlen (m_head m) -> 2 <= zlen (m_tail m) ->
  forall i j, 0 <= i -> 0 <= j -> NumberToMinifiedName m i = NumberToMinifiedName m j -> i = j.
Proof. exact minified_name_inj. Qed.
Print Assumptions minified_name_injective.

(* ... in particular for every alphabet ShuffleByCharFreq can produce from the
   default one (regenerated from ast.go), whatever the frequency histogram *)
Theorem shuffled_minified_name_injective : forall freq i j, 0 <= i -> 0 <= j ->
  NumberToMinifiedName (ShuffleByCharFreq default_minifier freq) i =
  NumberToMinifiedName (ShuffleByCharFreq default_minifier freq) j -> i = j.
Proof. exact shuffled_minified_name_inj. Qed.
Print Assumptions shuffled_minified_name_injective.

(* NumberRenamer, every symbol table and every well-formed scope forest: two
   distinct symbols (after following links) that are visible in one scope
   (declared in it, in an ancestor, or at the top level) and that the renamer
   names (default and private name spaces) never get the same name: no
   capture, no introduced shadowing *)
Theorem number_renamer_no_shadow : forall fuel st reserved toplevel nested names,
  number_rename fuel st reserved toplevel nested = Some names ->
  wf_number st toplevel nested = true ->
  forall v, In v (vis_forest st nested (map (follow st) toplevel)) ->
  forall x1 x2, In (follow st x1) v -> In (follow st x2) v -> follow st x1 <> follow st x2 ->
    renameable (sy_ns (getsym st (follow st x1))) = true ->
    renameable (sy_ns (getsym st (follow st x2))) = true ->
    number_name_for st names x1 <> number_name_for st names x2.
Proof. exact number_renamer_no_shadow_all. Qed.
Print Assumptions number_renamer_no_shadow.

(* ... and no assigned name is a reserved name (keywords, free/global names,
   pinned names: whatever set the renamer was created with) *)
Theorem number_renamer_avoids_reserved : forall fuel st reserved toplevel nested names,
  number_rename fuel st reserved toplevel nested = Some names ->
  wf_number st toplevel nested = true ->
  forall r n, lookup names r = Some n -> ~ In n reserved.
Proof. exact number_renamer_avoids_reserved_all. Qed.
Print Assumptions number_renamer_avoids_reserved.

(* pinned symbols (unbound, must-not-be-renamed), labels and mangled
   properties keep their original names under the number renamer *)
Theorem number_renamer_pinned_unchanged : forall fuel st reserved toplevel nested names,
  number_rename fuel st reserved toplevel nested = Some names ->
  wf_number st toplevel nested = true ->
  forall x, renameable (sy_ns (getsym st (follow st x))) = false ->
    number_name_for st names x = sy_name (getsym st (follow st x)).
Proof. exact number_pinned_unchanged_all. Qed.
Print Assumptions number_renamer_pinned_unchanged.

(* AssignNestedScopeSlots, every well-formed module scope: symbols of one name
   space visible in one scope sit in different slots; every slot is below the
   returned slot count; top-level symbols get no nested slot *)
Theorem slots_distinct_on_chain : forall st msc sm total,
  AssignNestedScopeSlots st msc = (sm, total) ->
  wf_slots st msc = true ->
  (forall v, In v (slot_vis_forest (sc_children msc) (module_top msc)) ->
     forall r1 r2 k1 k2, In r1 v -> In r2 v -> r1 <> r2 ->
       sy_ns (getsym st r1) = sy_ns (getsym st r2) ->
       lookup sm r1 = Some k1 -> lookup sm r2 = Some k2 -> k1 <> k2) /\
  (forall r k, lookup sm r = Some k -> 0 <= k < cnt_get total (sy_ns (getsym st r))) /\
  (forall r, In r (module_top msc) -> lookup sm r = None).
Proof. exact slots_distinct_on_chain_all. Qed.
Print Assumptions slots_distinct_on_chain.

(* AllocateTopLevelSymbolSlots: a top-level slot lies at or above the first
   top-level slot (the maximum nested slot count), i.e. above every nested
   slot, and two distinct top-level symbols of a name space get distinct slots *)
Theorem top_level_slots_above_nested : forall st firstc tops,
  0 <= c_default firstc -> 0 <= c_label firstc -> 0 <= c_private firstc -> 0 <= c_mangled firstc ->
  Forall (fun e : ssc => sy_ns (getsym st (snd (fst e))) <> NsPinned) tops ->
  let m := AllocateTopLevelSymbolSlots st (NewMinifyRenamer firstc) tops in
  (forall r i, lookup (ms_top m) r = Some i -> cnt_get firstc (sy_ns (getsym st r)) <= i < slen m (sy_ns (getsym st r))) /\
  (forall r1 r2 i, r1 <> r2 -> sy_ns (getsym st r1) = sy_ns (getsym st r2) ->
     lookup (ms_top m) r1 = Some i -> lookup (ms_top m) r2 = Some i -> False).
Proof. exact top_level_slots_above_nested_all. Qed.
Print Assumptions top_level_slots_above_nested.

(* AssignNamesByFrequency (one name space, any sorted slot order, any start
   counter): the names handed out are pairwise distinct; a default-space name
   is never reserved - also for slots that need a capital letter for JSX (the
   loop fixed in a613a67) -, such a JSX name does not start in a-z, and a
   label name is never a keyword.  Fuel exhaustion (None) is excluded: the Go
   loops only terminate when the minifier eventually yields an admissible name *)
Theorem minify_names_distinct_and_admissible : forall mf,
  NoDup (m_head mf) -> NoDup (m_tail mf) -> 1 <= zlen (m_head mf) -> 2 <= zlen (m_tail mf) ->
  forall reserved fuel nsr slots sorted next asg,
  assign_sorted fuel mf reserved nsr slots sorted next = Some asg ->
  0 <= next ->
  map fst asg = map fst sorted /\
  Forall2 (fun (p : Z * name) (s : Z * Z) =>
             exists j, next <= j /\ snd p = prefix_of nsr ++ NumberToMinifiedName mf j /\
                       name_ok reserved nsr (sl_jsx (nth (Z.to_nat (fst s)) slots empty_slot)) (snd p)) asg sorted /\
  NoDup (map snd asg).
Proof. exact assign_sorted_spec. Qed.
Print Assumptions minify_names_distinct_and_admissible.

(* ExportRenamer.NextRenamedName: the aliases returned by any sequence of calls are pairwise distinct *)
Theorem export_renamer_injective : forall fuel l used out,
  export_rename_all fuel used l = Some out ->
  NoDup out /\ (forall nm, In nm out -> nm_has used nm = false) /\ length out = length l.
Proof. exact export_rename_all_spec. Qed.
Print Assumptions export_renamer_injective.

(* ExportRenamer.NextMinifiedName: distinct counters give distinct aliases *)
Theorem export_minified_injective : forall c1 c2, 0 <= c1 -> 0 <= c2 ->
  fst (NextMinifiedName c1) = fst (NextMinifiedName c2) -> c1 = c2.
Proof. exact NextMinifiedName_inj. Qed.
Print Assumptions export_minified_injective.


(* the names written back into the slots of one name space: distinct slot
   indices carry distinct names, and every name is admissible for its slot *)
Theorem minify_slot_names_distinct : forall mf,
  NoDup (m_head mf) -> NoDup (m_tail mf) -> 1 <= zlen (m_head mf) -> 2 <= zlen (m_tail mf) ->
  forall reserved fuel nsr slots out,
  names_for_ns fuel mf reserved nsr slots = Some out ->
  length out = length slots /\
  (forall i1 i2, 0 <= i1 < Z.of_nat (length slots) -> 0 <= i2 < Z.of_nat (length slots) -> i1 <> i2 ->
     slot_name out i1 <> slot_name out i2) /\
  (forall i, 0 <= i < Z.of_nat (length slots) ->
     name_ok reserved nsr (sl_jsx (nth (Z.to_nat i) slots empty_slot)) (slot_name out i)).
Proof. exact names_for_ns_spec. Qed.
Print Assumptions minify_slot_names_distinct.

(* MinifyRenamer on one chunk, the whole pipeline (accumulate over all files,
   per-file sort, AllocateTopLevelSymbolSlots, AssignNamesByFrequency): two
   distinct symbols of one name space never print the same name, unless both
   are nested symbols sharing a nested slot (which slots_distinct_on_chain
   excludes for symbols visible together).  In particular: two top-level
   symbols of the chunk - whatever files they come from and whatever their
   original names -, and a top-level and a nested symbol, always differ. *)
Theorem minify_chunk_names_distinct : forall mf,
  NoDup (m_head mf) -> NoDup (m_tail mf) -> 1 <= zlen (m_head mf) -> 2 <= zlen (m_tail mf) ->
  forall fuel st slots firstc stable reserved pre groups m3,
  minify_rename fuel st slots firstc stable reserved mf pre groups = Some m3 ->
  0 <= c_default firstc -> 0 <= c_label firstc -> 0 <= c_private firstc -> 0 <= c_mangled firstc ->
  (forall r k, lookup slots r = Some k -> 0 <= k < cnt_get firstc (sy_ns (getsym st r))) ->
  forall r1 r2 i1 i2, r1 <> r2 ->
    follow st r1 = r1 -> follow st r2 = r2 ->
    sy_ns (getsym st r1) = sy_ns (getsym st r2) -> sy_ns (getsym st r1) <> NsPinned ->
    slot_of slots m3 r1 = Some i1 -> slot_of slots m3 r2 = Some i2 ->
    (lookup slots r1 <> None -> lookup slots r2 <> None -> i1 <> i2) ->
    minify_name_for st slots m3 r1 <> minify_name_for st slots m3 r2.
Proof. exact minify_rename_chunk. Qed.
Print Assumptions minify_chunk_names_distinct.

(* NumberRenamer on one chunk: the top-level symbols of all files (AddTopLevelSymbol
   in any order, equal original names included) get pairwise distinct names *)
Theorem number_toplevel_distinct : forall fuel st reserved toplevel nested names,
  number_rename fuel st reserved toplevel nested = Some names ->
  wf_number st toplevel nested = true ->
  forall x1 x2, In x1 toplevel -> In x2 toplevel -> follow st x1 <> follow st x2 ->
    renameable (sy_ns (getsym st (follow st x1))) = true ->
    renameable (sy_ns (getsym st (follow st x2))) = true ->
    number_name_for st names x1 <> number_name_for st names x2.
Proof. exact number_toplevel_distinct_all. Qed.
Print Assumptions number_toplevel_distinct.

(* ComputeReservedNames (as fixed in 3eb6e21: the whole scope tree is walked)
   contains the name of every pinned symbol declared anywhere in the module
   scope trees: free names, must-not-be-renamed symbols, everything visible to a
   direct eval, names referenced inside `with`, `arguments` *)
Theorem reserved_covers_all_pinned : forall st mods msc r,
  In msc mods -> In r (tree_decls msc) -> sy_ns (getsym st r) = NsPinned ->
  In (sy_name (getsym st r)) (ComputeReservedNames st mods).
Proof. exact reserved_covers. Qed.
Print Assumptions reserved_covers_all_pinned.

(* a minified default name never equals the name of ANY pinned symbol of the
   module scope trees of the chunk, whenever the reserved set handed to the
   renamer includes ComputeReservedNames of those module scopes (the linker only
   adds names).  Holds since 3eb6e21: before that commit only direct-eval chains
   were walked and the statement failed for symbols pinned in other nested scopes *)
Theorem minify_avoids_pinned : forall mf,
  NoDup (m_head mf) -> NoDup (m_tail mf) -> 1 <= zlen (m_head mf) -> 2 <= zlen (m_tail mf) ->
  forall fuel st slots firstc stable reserved pre groups m3 mods,
  minify_rename fuel st slots firstc stable reserved mf pre groups = Some m3 ->
  incl (ComputeReservedNames st mods) reserved ->
  forall msc p, In msc mods -> In p (tree_decls msc) -> sy_ns (getsym st p) = NsPinned ->
  forall i, 0 <= i < Z.of_nat (length (ms_default m3)) ->
    slot_name (ms_default m3) i <> sy_name (getsym st p).
Proof. intros mf _ _ _ _ fuel st slots firstc stable reserved. apply minify_avoids_pinned_any. Qed.
Print Assumptions minify_avoids_pinned.

(* likewise no name assigned by the number renamer equals the name of any pinned
   symbol of the module scope trees (also only since 3eb6e21) *)
Theorem number_avoids_pinned : forall fuel st reserved toplevel nested names mods,
  number_rename fuel st reserved toplevel nested = Some names ->
  wf_number st toplevel nested = true ->
  incl (ComputeReservedNames st mods) reserved ->
  forall msc p, In msc mods -> In p (tree_decls msc) -> sy_ns (getsym st p) = NsPinned ->
  forall r n, lookup names r = Some n -> n <> sy_name (getsym st p).
Proof. exact number_avoids_pinned_all. Qed.
Print Assumptions number_avoids_pinned.

(* [resolve v nmf x]: the first symbol of the visibility list v (innermost
   declarations first) whose name under nmf is x - with the original names the
   parser's binding of a reference, with the new names what the engine does on
   the output.  If no other visible symbol carries the new name of s, a
   reference bound to s before still resolves to s after: no capture *)
Theorem resolution_preserved_on_chain : forall v orig nmf x s,
  resolve v orig x = Some s ->
  (forall t, In t v -> nmf t = nmf s -> t = s) ->
  resolve v nmf (nmf s) = Some s.
Proof. exact resolution_preserved_core. Qed.
Print Assumptions resolution_preserved_on_chain.

(* ... and the number renamer meets that hypothesis on every visibility set of
   every well-formed forest for every renamed symbol; for the symbols that keep
   their names the side condition is number_avoids_pinned (pinned symbols of the
   module scope trees; labels and mangled properties live in other name spaces) *)
Theorem resolution_preserved_number : forall fuel st reserved toplevel nested names,
  number_rename fuel st reserved toplevel nested = Some names ->
  wf_number st toplevel nested = true ->
  forall v, In v (vis_forest st nested (map (follow st) toplevel)) ->
  forall x s, resolve v (fun t => sy_name (getsym st t)) x = Some s ->
    renameable (sy_ns (getsym st s)) = true ->
    (forall p, In p v -> renameable (sy_ns (getsym st p)) = false ->
               sy_name (getsym st p) <> number_name_for st names s) ->
    (forall t, In t v -> follow st t = t) ->
    resolve v (number_name_for st names) (number_name_for st names s) = Some s.
Proof. exact resolution_preserved_number_all. Qed.
Print Assumptions resolution_preserved_number.

(* Whatever scope skeleton is numbered (fresh symbols per scope, names shared
   with an enclosing scope, children in source order), the resulting module
   scope and symbol table satisfy BOTH well-formedness predicates that the
   scope-tree theorems above assume (wf_slots for AssignNestedScopeSlots,
   wf_number for the NumberRenamer with the module scope's symbols as top level).
   With ScopeProg.skel_of_prog (tied to js_parser by correspondence) this turns
   the sampled check on parser forests into a theorem: parser_forest_wellformed *)
Theorem numbered_skeleton_wellformed : forall k,
  let '(m, st) := build_sk k in
  wf_slots st m = true /\ wf_number st (module_top m) (sc_children m) = true.
Proof. exact build_sk_wellformed_all. Qed.
Print Assumptions numbered_skeleton_wellformed.

(* the forest the model of js_parser's scope construction (ScopeProg.parse_forest:
   binding-form AST -> skeleton -> numbered forest; compared with the forest the
   real js_parser.Parse builds by check_scopebuild) produces for EVERY program of
   the binding-form AST is well-formed: the hypotheses wf_slots / wf_number of the
   renamer theorems are discharged for parser-built forests *)
Theorem parser_forest_wellformed : forall prog,
  let '(m, st) := parse_forest prog in
  wf_slots st m = true /\ wf_number st (module_top m) (sc_children m) = true.
Proof. exact parse_forest_wellformed_all. Qed.
Print Assumptions parser_forest_wellformed.

(* End to end on parser-built forests: PARTIAL form of resolution_preserved.
   Full statement wanted: "for every program and every renaming produced by the renamers on its forest, every
   reference resolves PER ECMA-262 (declaration instantiation written
   independently over the AST) to the same declaration before and after".
   Proved here, for EVERY program of the binding-form AST (strict code: var, let,
   function declarations also in blocks, blocks, try/catch with and without
   parameter incl. the catch-parameter/var merge, for-let, named and anonymous
   function expressions, arrows, parameters, arguments, free names; `with` bodies
   and direct eval with their static effect only, the pinning) and with NO
   well-formedness hypothesis left: the symbol the PARSER binds a reference to
   (lookup of the name in the environment of its scope, ScopeProg.parser_refs,
   tied to the real js_parser by check_scopebuild) is again what lookup finds
   when every name of that environment is replaced by the name the NumberRenamer
   assigned - in both ways the linker runs it: module scope symbols as top-level
   symbols, or the module scope as a nested scope (wrapped files).  Missing for
   the full statement: the agreement of parser environments with an independently
   written ECMA-262 resolver (exercised by the Node oracle only), the minifier
   instance (resolution_preserved_minify_partial below has it for lookup in the
   parser's environments), what `with` and direct eval bind at run time, and the
   forms outside the AST (sloppy-mode Annex B function-in-block, labels, classes,
   default-value scopes); the recorded findings live in these last two areas and
   have no model-level witness. *)
Theorem resolution_preserved_partial : forall prog fuel reserved names,
  let '(m, st) := parse_forest prog in
  number_rename fuel st reserved (module_top m) (sc_children m) = Some names ->
  incl (ComputeReservedNames st [m]) reserved ->
  Forall (ref_preserved st names) (parser_refs prog).
Proof. exact resolution_preserved_toplevel_all. Qed.
Print Assumptions resolution_preserved_partial.

Theorem resolution_preserved_wrapped_partial : forall prog fuel reserved names,
  let '(m, st) := parse_forest prog in
  number_rename fuel st reserved [] [m] = Some names ->
  incl (ComputeReservedNames st [m]) reserved ->
  Forall (ref_preserved st names) (parser_refs prog).
Proof. exact resolution_preserved_wrapped_all. Qed.
Print Assumptions resolution_preserved_wrapped_partial.

(* the linker's registration of hoisted import symbols (regenerated inventory):
   every symbol-holding field of the statements that are hoisted out of a
   CommonJS wrapper (import default name, namespace ref and items; export-star
   namespace ref; export-from namespace ref and items) is passed to
   AddTopLevelSymbol in linker.renameSymbolsInChunk: the symbols declared at the
   chunk's top level by hoisting are covered by number_toplevel_distinct *)
Theorem hoisted_import_symbols_registered : hoisted_all_registered = true.
Proof. exact hoisted_all_registered_true. Qed.
Print Assumptions hoisted_import_symbols_registered.

(* the MinifyRenamer instance of resolution_preserved_partial: for every program of
   the binding-form AST, with the nested slots AssignNestedScopeSlots computes on its
   forest and the whole minifier pipeline (any accumulation order, any alphabet
   without repeated characters), every reference still finds the symbol the parser
   bound it to under the minified names - provided every renamable declared symbol
   was counted (has a slot), which is what the linker does for live declarations *)
Theorem resolution_preserved_minify_partial : forall mf,
  NoDup (m_head mf) -> NoDup (m_tail mf) -> 1 <= zlen (m_head mf) -> 2 <= zlen (m_tail mf) ->
  forall prog fuel stable reserved pre groups,
  let '(m, st) := parse_forest prog in
  forall slots total m3,
  AssignNestedScopeSlots st m = (slots, total) ->
  minify_rename fuel st slots total stable reserved mf pre groups = Some m3 ->
  incl (ComputeReservedNames st [m]) reserved ->
  (forall r, In r (tree_decls m) -> sy_ns (getsym st r) <> NsPinned -> slot_of slots m3 r <> None) ->
  Forall (ref_preserved_minify st slots m3) (parser_refs prog).
Proof. exact resolution_preserved_minify_all. Qed.
Print Assumptions resolution_preserved_minify_partial.
