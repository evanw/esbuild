(* Nested-scope slots: symbols of one name space that are visible together
   never share a slot; every nested slot is below the returned slot count. *)
From V Require Import Common.Base C15.Names C15.NamesProofs C15.Renamer C15.Spec C15.NumberProofs.

Lemma slotsHelper_unfold st m g l e ch sm cnt :
  slotsHelper st (Scope m g l e ch) sm cnt =
  let '(sm1, c1) := fold_left (assign_slot st) (scope_decls (Scope m g l e ch)) (sm, cnt) in
  let '(sm2, c2) := match l with
                    | Some lb => ((lb, cnt_get c1 NsLabel) :: sm1, cnt_incr c1 NsLabel)
                    | None => (sm1, c1)
                    end in
  slotsForest st ch sm2 c2 c2.
Proof.
  simpl. destruct (fold_left (assign_slot st) _ (sm, cnt)) as [sm1 c1].
  destruct (match l with Some lb => _ | None => _ end) as [sm2 c2].
  generalize c2 at 2 4. revert sm2.
  induction ch as [|c r IH]; intros sm2 acc; simpl; [reflexivity|].
  destruct (slotsHelper st c sm2 c2) as [sm' cc]. apply IH.
Qed.

Lemma slot_vis_sets_unfold m g l e ch anc :
  slot_vis_sets (Scope m g l e ch) anc =
  (rev (slot_decls (Scope m g l e ch)) ++ anc) :: slot_vis_forest ch (rev (slot_decls (Scope m g l e ch)) ++ anc).
Proof.
  simpl. f_equal. generalize (rev (slot_decls (Scope m g l e ch)) ++ anc). intros v.
  induction ch as [|c r IH]; simpl; [reflexivity | rewrite IH; reflexivity].
Qed.

Lemma wf_slot_scope_unfold st m g l e ch vis seen :
  wf_slot_scope st (Scope m g l e ch) vis seen =
  match wf_refs vis seen (scope_decls (Scope m g l e ch)) with
  | None => None
  | Some (vis1, seen1) =>
      match (match l with
             | Some lb => if mem_nat lb seen1 || negb (ns_eqb (sy_ns (getsym st lb)) NsLabel)
                          then None else Some (lb :: vis1, lb :: seen1)
             | None => Some (vis1, seen1)
             end) with
      | None => None
      | Some (vis', seen') => wf_slot_forest st ch vis' seen'
      end
  end.
Proof.
  simpl. destruct (wf_refs vis seen _) as [[vis1 seen1]|]; [|reflexivity].
  destruct (match l with Some lb => _ | None => _ end) as [[vis' seen']|]; [|reflexivity].
  revert seen'. induction ch as [|c r IH]; intros seen'; simpl; [reflexivity|].
  destruct (wf_slot_scope st c vis' seen'); [apply IH | reflexivity].
Qed.

Definition cnt_le (a b : counts) : Prop := forall n, cnt_get a n <= cnt_get b n.
Lemma cnt_le_refl a : cnt_le a a.
Proof. intros n. apply Z.le_refl. Qed.
Lemma cnt_le_trans a b c : cnt_le a b -> cnt_le b c -> cnt_le a c.
Proof. intros H1 H2 n. exact (Z.le_trans _ _ _ (H1 n) (H2 n)). Qed.
Lemma cnt_incr_le c n : cnt_le c (cnt_incr c n).
Proof. intros k. destruct c, n, k; simpl; try apply Z.le_refl; apply Z.le_succ_diag_r. Qed.
Lemma cnt_incr_get c n : n <> NsPinned -> cnt_get (cnt_incr c n) n = cnt_get c n + 1.
Proof. intros H. destruct c, n; simpl; try reflexivity. contradiction. Qed.
Lemma cnt_max_l a b : cnt_le a (cnt_max a b).
Proof. intros n. destruct n; simpl; try apply Z.le_max_l. apply Z.le_refl. Qed.
Lemma cnt_max_r a b : cnt_le b (cnt_max a b).
Proof. intros n. destruct n; simpl; try apply Z.le_max_r. apply Z.le_refl. Qed.

Lemma ns_eqb_eq a b : ns_eqb a b = true <-> a = b.
Proof. destruct a, b; simpl; split; intros; try reflexivity; try discriminate. Qed.

Lemma wf_refs_seen refs : forall vis seen vis' seen', wf_refs vis seen refs = Some (vis', seen') ->
  forall r, In r seen -> In r seen'.
Proof.
  induction refs as [|x rest IH]; intros vis seen vis' seen' W r Hr; simpl in W.
  - injection W as <- <-. exact Hr.
  - destruct (mem_nat x seen && negb (mem_nat x vis)); [discriminate|].
    eapply IH; [exact W | right; exact Hr].
Qed.

Lemma assign_slot_unfold st sm cnt r :
  assign_slot st (sm, cnt) r =
  let n := sy_ns (getsym st r) in
  if ns_eqb n NsPinned then (sm, cnt)
  else match lookup sm r with
       | Some _ => (sm, cnt)
       | None => ((r, cnt_get cnt n) :: sm, cnt_incr cnt n)
       end.
Proof. unfold assign_slot. destruct (sy_ns (getsym st r)); reflexivity. Qed.

Section Slots.
  Variable st : symtab.
  Variable top : list nat.

  Definition nsr (r : nat) : ns := sy_ns (getsym st r).

  Record SGlob (sm : slotmap) : Prop := {
    sg_top : forall r, In r top -> lookup sm r <> None;
    sg_ns : forall r k, lookup sm r = Some k -> ~ In r top -> nsr r <> NsPinned
  }.

  Record SInv (vis seen : list nat) (sm : slotmap) (cnt : counts) : Prop := {
    s_lt : forall r k, In r vis -> ~ In r top -> lookup sm r = Some k -> k < cnt_get cnt (nsr r);
    s_seen : forall r k, lookup sm r = Some k -> In r seen;
    s_topseen : forall r, In r top -> In r seen /\ In r vis;
    s_dist : forall r1 r2 k1 k2, In r1 vis -> In r2 vis -> ~ In r1 top -> ~ In r2 top -> r1 <> r2 ->
               nsr r1 = nsr r2 -> lookup sm r1 = Some k1 -> lookup sm r2 = Some k2 -> k1 <> k2;
    s_none : forall r, In r vis -> lookup sm r = None -> nsr r = NsPinned;
    s_glob : SGlob sm
  }.

  Record SGood (v : list nat) (sm : slotmap) : Prop := {
    sgd_none : forall r, In r v -> lookup sm r = None -> nsr r = NsPinned;
    sgd_dist : forall r1 r2 k1 k2, In r1 v -> In r2 v -> ~ In r1 top -> ~ In r2 top -> r1 <> r2 ->
               nsr r1 = nsr r2 -> lookup sm r1 = Some k1 -> lookup sm r2 = Some k2 -> k1 <> k2
  }.

  (* top-level symbols have their entry from the start, the others without one are pinned *)
  Lemma extends_sback v a b r :
    SGood v a -> SGlob a -> extends a b -> SGlob b -> In r v -> lookup b r = lookup a r.
  Proof.
    intros G Ga E Gb Hr. destruct (lookup a r) as [k|] eqn:La; [exact (E r k La)|].
    destruct (lookup b r) as [k|] eqn:Lb; [exfalso | reflexivity].
    destruct (in_dec Nat.eq_dec r top) as [T|T].
    - exact (sg_top a Ga r T La).
    - exact (sg_ns b Gb r k Lb T (sgd_none v a G r Hr La)).
  Qed.

  Lemma SGood_mono v a b : SGood v a -> SGlob a -> extends a b -> SGlob b -> SGood v b.
  Proof.
    intros G Ga E Gb. split.
    - intros r Hr. rewrite (extends_sback v a b r G Ga E Gb Hr). apply (sgd_none v a G r Hr).
    - intros r1 r2 k1 k2 H1 H2.
      rewrite (extends_sback v a b r1 G Ga E Gb H1), (extends_sback v a b r2 G Ga E Gb H2).
      apply (sgd_dist v a G r1 r2 k1 k2 H1 H2).
  Qed.

  Lemma SInv_SGood vis seen sm cnt : SInv vis seen sm cnt -> SGood vis sm.
  Proof. intros I. split; [apply (s_none _ _ _ _ I) | apply (s_dist _ _ _ _ I)]. Qed.

  Lemma SInv_cnt vis seen sm c1 c2 : SInv vis seen sm c1 -> cnt_le c1 c2 -> SInv vis seen sm c2.
  Proof.
    intros I L. split; try apply I.
    intros r k Hr Nt Lk. exact (Z.lt_le_trans _ _ _ (s_lt _ _ _ _ I r k Hr Nt Lk) (L (nsr r))).
  Qed.

  (* every slot handed out in a step is below the resulting counter *)
  Definition newlt (sm sm' : slotmap) (c' : counts) : Prop :=
    forall r k, lookup sm' r = Some k -> ~ In r top -> lookup sm r = Some k \/ (0 <= k < cnt_get c' (nsr r)).

  Definition cnt_nonneg (c : counts) : Prop := forall n, 0 <= cnt_get c n.

  Lemma newlt_refl sm c : newlt sm sm c.
  Proof. intros r k L _. left. exact L. Qed.
  Lemma newlt_trans a b c cb cc : newlt a b cb -> newlt b c cc -> cnt_le cb cc -> newlt a c cc.
  Proof.
    intros H1 H2 L r k Lc Nt. destruct (H2 r k Lc Nt) as [Lb|B]; [|right; exact B].
    destruct (H1 r k Lb Nt) as [La|B]; [left; exact La | right].
    split; [exact (proj1 B) | exact (Z.lt_le_trans _ _ _ (proj2 B) (L (nsr r)))].
  Qed.
  Lemma nonneg_le c1 c2 : cnt_nonneg c1 -> cnt_le c1 c2 -> cnt_nonneg c2.
  Proof. intros N L n. exact (Z.le_trans _ _ _ (N n) (L n)). Qed.

  (* map and counters after some assignments *)
  Definition grows (sm : slotmap) (c : counts) (sm' : slotmap) (c' : counts) : Prop :=
    extends sm sm' /\ cnt_le c c' /\ newlt sm sm' c'.
  Lemma grows_refl sm c : grows sm c sm c.
  Proof. split; [apply extends_refl | split; [apply cnt_le_refl | apply newlt_refl]]. Qed.
  Lemma grows_trans a ca b cb c cc : grows a ca b cb -> grows b cb c cc -> grows a ca c cc.
  Proof.
    intros (E1 & L1 & N1) (E2 & L2 & N2).
    split; [exact (extends_trans a b c E1 E2) | split; [exact (cnt_le_trans ca cb cc L1 L2)|]].
    exact (newlt_trans a b c cb cc N1 N2 L2).
  Qed.

  Lemma SInv_keep vis seen sm cnt r :
    SInv vis seen sm cnt ->
    (forall k, lookup sm r = Some k -> In r vis) -> (lookup sm r = None -> nsr r = NsPinned) ->
    SInv (r :: vis) (r :: seen) sm cnt.
  Proof.
    intros I Hv Hn.
    assert (V : forall x k, In x (r :: vis) -> lookup sm x = Some k -> In x vis).
    { intros x k [<-|Hx] L; [exact (Hv k L) | exact Hx]. }
    split.
    - intros x k Hx Nt L. exact (s_lt _ _ _ _ I x k (V x k Hx L) Nt L).
    - intros x k L. right. exact (s_seen _ _ _ _ I x k L).
    - intros x Hx. destruct (s_topseen _ _ _ _ I x Hx). split; right; assumption.
    - intros r1 r2 k1 k2 H1 H2 T1 T2 N S L1 L2.
      exact (s_dist _ _ _ _ I r1 r2 k1 k2 (V _ _ H1 L1) (V _ _ H2 L2) T1 T2 N S L1 L2).
    - intros x [<-|Hx]; [exact Hn | exact (s_none _ _ _ _ I x Hx)].
    - apply (s_glob _ _ _ _ I).
  Qed.

  Lemma SInv_add vis seen sm cnt r :
    SInv vis seen sm cnt -> lookup sm r = None -> nsr r <> NsPinned ->
    SInv (r :: vis) (r :: seen) ((r, cnt_get cnt (nsr r)) :: sm) (cnt_incr cnt (nsr r)).
  Proof.
    intros I L0 NP.
    assert (Nt : ~ In r top) by (intros T; exact (sg_top _ (s_glob _ _ _ _ I) r T L0)).
    assert (Old : forall x k, In x (r :: vis) -> x <> r -> lookup ((r, cnt_get cnt (nsr r)) :: sm) x = Some k ->
              In x vis /\ lookup sm x = Some k).
    { intros x k Hx N Lx. rewrite lookup_cons_neq in Lx by exact N.
      destruct Hx as [Hx|Hx]; [congruence | auto]. }
    split.
    - intros x k Hx Ntx Lx. destruct (Nat.eq_dec x r) as [->|N].
      + rewrite lookup_cons_eq in Lx. injection Lx as <-. rewrite cnt_incr_get by exact NP. apply Z.lt_succ_diag_r.
      + destruct (Old x k Hx N Lx) as (Hv & Lo).
        exact (Z.lt_le_trans _ _ _ (s_lt _ _ _ _ I x k Hv Ntx Lo) (cnt_incr_le cnt (nsr r) (nsr x))).
    - intros x k Lx. destruct (Nat.eq_dec x r) as [->|N]; [left; reflexivity|].
      rewrite lookup_cons_neq in Lx by exact N. right. exact (s_seen _ _ _ _ I x k Lx).
    - intros x Hx. destruct (s_topseen _ _ _ _ I x Hx). split; right; assumption.
    - intros r1 r2 k1 k2 H1 H2 T1 T2 N S L1 L2.
      destruct (Nat.eq_dec r1 r) as [->|N1], (Nat.eq_dec r2 r) as [->|N2]; [congruence | | |].
      + (* the new slot is the counter of the name space, every slot handed out before is below it *)
        rewrite lookup_cons_eq in L1. injection L1 as <-. destruct (Old r2 k2 H2 N2 L2) as (V2 & O2).
        rewrite S. exact (Z.neq_sym _ _ (Z.lt_neq _ _ (s_lt _ _ _ _ I r2 k2 V2 T2 O2))).
      + rewrite lookup_cons_eq in L2. injection L2 as <-. destruct (Old r1 k1 H1 N1 L1) as (V1 & O1).
        rewrite <- S. exact (Z.lt_neq _ _ (s_lt _ _ _ _ I r1 k1 V1 T1 O1)).
      + destruct (Old r1 k1 H1 N1 L1) as (V1 & O1). destruct (Old r2 k2 H2 N2 L2) as (V2 & O2).
        exact (s_dist _ _ _ _ I r1 r2 k1 k2 V1 V2 T1 T2 N S O1 O2).
    - intros x Hx Lx. destruct (Nat.eq_dec x r) as [->|N]; [rewrite lookup_cons_eq in Lx; discriminate|].
      destruct Hx as [Hx|Hx]; [congruence|]. rewrite lookup_cons_neq in Lx by exact N.
      exact (s_none _ _ _ _ I x Hx Lx).
    - pose proof (s_glob _ _ _ _ I) as [G1 G2]. split.
      + intros x Hx. rewrite lookup_cons_neq by congruence. exact (G1 x Hx).
      + intros x k Lx Ntx. destruct (Nat.eq_dec x r) as [->|N]; [exact NP|].
        rewrite lookup_cons_neq in Lx by exact N. exact (G2 x k Lx Ntx).
  Qed.

  Lemma assign_slot_step vis seen sm cnt r sm' cnt' :
    SInv vis seen sm cnt -> cnt_nonneg cnt ->
    (mem_nat r seen && negb (mem_nat r vis) = false) ->
    assign_slot st (sm, cnt) r = (sm', cnt') ->
    SInv (r :: vis) (r :: seen) sm' cnt' /\ grows sm cnt sm' cnt'.
  Proof.
    intros I NN W A. rewrite assign_slot_unfold in A. cbv zeta in A. fold (nsr r) in A.
    assert (Hv : forall k, lookup sm r = Some k -> In r vis).
    { intros k L. apply (s_seen _ _ _ _ I) in L. apply mem_nat_In in L. rewrite L in W.
      apply negb_false_iff in W. apply mem_nat_In. exact W. }
    destruct (ns_eqb (nsr r) NsPinned) eqn:NS.
    { apply ns_eqb_eq in NS. injection A as <- <-.
      split; [apply SInv_keep; auto | apply grows_refl]. }
    assert (NP : nsr r <> NsPinned) by (intros E; apply ns_eqb_eq in E; congruence).
    destruct (lookup sm r) as [k0|] eqn:L0; injection A as <- <-.
    { split; [apply SInv_keep; [exact I | rewrite L0; exact Hv | congruence] | apply grows_refl]. }
    split; [apply SInv_add; assumption|].
    split; [apply extends_cons, L0 | split; [apply cnt_incr_le|]].
    intros x k Lx _. destruct (Nat.eq_dec x r) as [->|N].
    - rewrite lookup_cons_eq in Lx. injection Lx as <-. right.
      rewrite cnt_incr_get by exact NP. split; [apply NN | apply Z.lt_succ_diag_r].
    - rewrite lookup_cons_neq in Lx by exact N. left. exact Lx.
  Qed.

  (* the scope's label, if it has one, is a fresh symbol of the label name space:
     slotsHelper does to it what assign_slot would *)
  Lemma label_step l vis seen sm cnt vis2 seen2 sm2 c2 :
    SInv vis seen sm cnt -> cnt_nonneg cnt ->
    (match l with
     | Some lb => if mem_nat lb seen || negb (ns_eqb (sy_ns (getsym st lb)) NsLabel)
                  then None else Some (lb :: vis, lb :: seen)
     | None => Some (vis, seen)
     end) = Some (vis2, seen2) ->
    (match l with
     | Some lb => ((lb, cnt_get cnt NsLabel) :: sm, cnt_incr cnt NsLabel)
     | None => (sm, cnt)
     end) = (sm2, c2) ->
    SInv vis2 seen2 sm2 c2 /\ grows sm cnt sm2 c2 /\
    vis2 = (match l with Some lb => [lb] | None => [] end) ++ vis /\
    (forall r, In r seen -> In r seen2).
  Proof.
    intros I NN W A. destruct l as [lb|].
    - destruct (mem_nat lb seen || negb (ns_eqb (sy_ns (getsym st lb)) NsLabel)) eqn:C; [discriminate|].
      injection W as <- <-. injection A as <- <-.
      apply orb_false_iff in C as [C1 C2]. apply negb_false_iff, ns_eqb_eq in C2.
      assert (L0 : lookup sm lb = None).
      { destruct (lookup sm lb) as [k|] eqn:Lk; [|reflexivity].
        apply (s_seen _ _ _ _ I) in Lk. apply mem_nat_In in Lk. congruence. }
      destruct (assign_slot_step vis seen sm cnt lb ((lb, cnt_get cnt NsLabel) :: sm) (cnt_incr cnt NsLabel) I NN)
        as (I2 & G2).
      + rewrite C1. reflexivity.
      + rewrite assign_slot_unfold. cbv zeta. rewrite C2, L0. reflexivity.
      + split; [exact I2 | split; [exact G2 | split; [reflexivity | intros r Hr; right; exact Hr]]].
    - injection W as <- <-. injection A as <- <-.
      split; [exact I | split; [apply grows_refl | split; [reflexivity | auto]]].
  Qed.

  Lemma assign_slots_inv refs : forall vis seen sm cnt sm' cnt' vis' seen',
    SInv vis seen sm cnt -> cnt_nonneg cnt ->
    wf_refs vis seen refs = Some (vis', seen') ->
    fold_left (assign_slot st) refs (sm, cnt) = (sm', cnt') ->
    SInv vis' seen' sm' cnt' /\ grows sm cnt sm' cnt' /\ vis' = rev refs ++ vis.
  Proof.
    induction refs as [|r rest IH]; intros vis seen sm cnt sm' cnt' vis' seen' I NN W A;
      cbn [wf_refs fold_left rev] in *.
    - injection W as <- <-. injection A as <- <-. split; [exact I | split; [apply grows_refl | reflexivity]].
    - destruct (mem_nat r seen && negb (mem_nat r vis)) eqn:Wr; [discriminate|].
      destruct (assign_slot st (sm, cnt) r) as [sm1 c1] eqn:A1.
      destruct (assign_slot_step _ _ _ _ _ _ _ I NN Wr A1) as (I1 & G1).
      destruct (IH _ _ _ _ _ _ _ _ I1 (nonneg_le _ _ NN (proj1 (proj2 G1))) W A) as (I2 & G2 & V).
      split; [exact I2 | split; [exact (grows_trans _ _ _ _ _ _ G1 G2)|]].
      rewrite V, <- app_assoc. reflexivity.
  Qed.

  (* what a traversal that started with [sm] and [seen] leaves behind; cc bounds the new slots *)
  Definition SPost (sets : list (list nat)) (seen seen' : list nat) (sm sm' : slotmap) (cc : counts) : Prop :=
    extends sm sm' /\ SGlob sm' /\ (forall r k, lookup sm' r = Some k -> In r seen') /\
    (forall r, In r seen -> In r seen') /\
    Forall (fun v => SGood v sm') sets /\ newlt sm sm' cc.

  Lemma SPost_nil vis seen sm cnt cc : SInv vis seen sm cnt -> SPost [] seen seen sm sm cc.
  Proof.
    intros I. split; [apply extends_refl|]. split; [apply (s_glob _ _ _ _ I)|].
    split; [apply (s_seen _ _ _ _ I)|]. split; [auto|]. split; [constructor | apply newlt_refl].
  Qed.

  Lemma SPost_app s1 s2 sn sn1 sn2 a b c cb cc :
    SPost s1 sn sn1 a b cb -> SPost s2 sn1 sn2 b c cc -> cnt_le cb cc -> SPost (s1 ++ s2) sn sn2 a c cc.
  Proof.
    intros (E1 & G1 & _ & SS1 & F1 & N1) (E2 & G2 & S2 & SS2 & F2 & N2) L.
    split; [exact (extends_trans a b c E1 E2)|]. split; [exact G2|]. split; [exact S2|].
    split; [auto|]. split; [|exact (newlt_trans a b c cb cc N1 N2 L)].
    apply Forall_app. split; [|exact F2].
    eapply Forall_impl; [|exact F1]. intros w Gw. exact (SGood_mono w b c Gw G1 E2 G2).
  Qed.

  Lemma SInv_back vis seen seen' sm sm' cnt sets cc :
    SInv vis seen sm cnt -> SPost sets seen seen' sm sm' cc -> SInv vis seen' sm' cnt.
  Proof.
    intros I (E & G & S & SS & _).
    pose proof (SInv_SGood _ _ _ _ I) as Gd. pose proof (s_glob _ _ _ _ I) as Gs.
    split.
    - intros r k Hr Nt. rewrite (extends_sback vis sm sm' r Gd Gs E G Hr). apply (s_lt _ _ _ _ I r k Hr Nt).
    - exact S.
    - intros r Hr. destruct (s_topseen _ _ _ _ I r Hr). split; auto.
    - apply (SGood_mono vis sm sm' Gd Gs E G).
    - apply (SGood_mono vis sm sm' Gd Gs E G).
    - exact G.
  Qed.

  Lemma slots_inv :
    (forall sc vis seen sm cnt sm' cc seen',
       SInv vis seen sm cnt -> cnt_nonneg cnt ->
       wf_slot_scope st sc vis seen = Some seen' ->
       slotsHelper st sc sm cnt = (sm', cc) ->
       SPost (slot_vis_sets sc vis) seen seen' sm sm' cc /\ cnt_le cnt cc) /\
    (forall cs v sn sma start acc smb total sn',
       SInv v sn sma start -> cnt_nonneg start ->
       wf_slot_forest st cs v sn = Some sn' ->
       slotsForest st cs sma start acc = (smb, total) ->
       SPost (slot_vis_forest cs v) sn sn' sma smb total /\ cnt_le acc total).
  Proof.
    apply scope_forest_ind.
    - intros m g l e ch IH vis seen sm cnt sm' cc seen' I NN W A.
      rewrite wf_slot_scope_unfold in W. rewrite slotsHelper_unfold in A. rewrite slot_vis_sets_unfold.
      set (sc := Scope m g l e ch) in *.
      destruct (wf_refs vis seen (scope_decls sc)) as [[vis1 seen1]|] eqn:W1; [|discriminate].
      destruct (fold_left (assign_slot st) (scope_decls sc) (sm, cnt)) as [sm1 c1] eqn:A1.
      destruct (assign_slots_inv _ _ _ _ _ _ _ _ _ I NN W1 A1) as (I1 & G1 & V1).
      pose proof (wf_refs_seen _ _ _ _ _ W1) as SS1.
      pose proof (nonneg_le _ _ NN (proj1 (proj2 G1))) as NN1.
      destruct (match l with
                | Some lb => if mem_nat lb seen1 || _ then None else Some (lb :: vis1, lb :: seen1)
                | None => Some (vis1, seen1)
                end) as [[vis2 seen2]|] eqn:Wl; [|discriminate].
      destruct (match l with
                | Some lb => ((lb, cnt_get c1 NsLabel) :: sm1, cnt_incr c1 NsLabel)
                | None => (sm1, c1)
                end) as [sm2 c2] eqn:Al.
      destruct (label_step l _ _ _ _ _ _ _ _ I1 NN1 Wl Al) as (I2 & G2 & V2 & SS2).
      assert (V : rev (slot_decls sc) ++ vis = vis2).
      { rewrite V2, V1. unfold slot_decls. simpl sc_label.
        destruct l; [rewrite rev_app_distr | rewrite app_nil_r]; reflexivity. }
      rewrite V.
      destruct (grows_trans _ _ _ _ _ _ G1 G2) as (E12 & L12 & N12).
      destruct (IH _ _ _ _ _ _ _ _ I2 (nonneg_le _ _ NN L12) W A) as ((Ek & Gk & Sk & SSk & Fk & Nk) & Lk).
      split; [|exact (cnt_le_trans _ _ _ L12 Lk)].
      split; [exact (extends_trans _ _ _ E12 Ek)|]. split; [exact Gk|]. split; [exact Sk|].
      split; [auto|]. split.
      + constructor; [|exact Fk].
        exact (SGood_mono _ _ _ (SInv_SGood _ _ _ _ I2) (s_glob _ _ _ _ I2) Ek Gk).
      + exact (newlt_trans _ _ _ _ _ N12 Nk Lk).
    - intros v sn sma start acc smb total sn' I _ W A.
      injection W as <-. injection A as <- <-. split; [exact (SPost_nil _ _ _ _ _ I) | apply cnt_le_refl].
    - intros c r Hc Hr v sn sma start acc smb total sn' I NN W A. simpl in *.
      destruct (wf_slot_scope st c v sn) as [sn1|] eqn:Wc; [|discriminate].
      destruct (slotsHelper st c sma start) as [sm1 cc1] eqn:Ac.
      destruct (Hc _ _ _ _ _ _ _ I NN Wc Ac) as (Pc & _).
      destruct (Hr _ _ _ _ _ _ _ _ (SInv_back _ _ _ _ _ _ _ _ I Pc) NN W A) as (Pr & Lr).
      split; [|exact (cnt_le_trans _ _ _ (cnt_max_l acc cc1) Lr)].
      exact (SPost_app _ _ _ _ _ _ _ _ _ _ Pc Pr (cnt_le_trans _ _ _ (cnt_max_r acc cc1) Lr)).
  Qed.
End Slots.

Lemma lookup_top_map top r : In r top -> lookup (map (fun x => (x, 1)) top) r = Some 1.
Proof.
  induction top as [|x t IH]; simpl; [tauto|].
  intros [->|H]; [rewrite Nat.eqb_refl; reflexivity|].
  destruct (Nat.eqb r x); [reflexivity | apply IH; exact H].
Qed.
Lemma lookup_top_map_inv top r k : lookup (map (fun x => (x, 1)) top) r = Some k -> In r top.
Proof.
  induction top as [|x t IH]; simpl; [discriminate|].
  destruct (Nat.eqb r x) eqn:E; [apply Nat.eqb_eq in E; auto | auto].
Qed.

Lemma lookup_filter_top top (sm : slotmap) r :
  lookup (filter (fun p => negb (mem_nat (fst p) top)) sm) r =
  if mem_nat r top then None else lookup sm r.
Proof.
  induction sm as [|[x k] t IH]; simpl; [destruct (mem_nat r top); reflexivity|].
  destruct (mem_nat x top) eqn:Mx; simpl.
  - rewrite IH. destruct (Nat.eqb r x) eqn:E; [|reflexivity].
    apply Nat.eqb_eq in E. subst. rewrite Mx. reflexivity.
  - destruct (Nat.eqb r x) eqn:E; [|exact IH].
    apply Nat.eqb_eq in E. subst. rewrite Mx. reflexivity.
Qed.

Lemma SInv_init st top : SInv st top top top (map (fun r => (r, 1)) top) cnt_zero.
Proof.
  split.
  - intros r k _ Nt L. apply lookup_top_map_inv in L. contradiction.
  - intros r k L. exact (lookup_top_map_inv top r k L).
  - auto.
  - intros r1 r2 k1 k2 _ _ T1 _ _ _ L1 _. apply lookup_top_map_inv in L1. contradiction.
  - intros r Hr L. rewrite lookup_top_map in L by exact Hr. discriminate.
  - split.
    + intros r Hr. rewrite lookup_top_map by exact Hr. discriminate.
    + intros r k L Nt. apply lookup_top_map_inv in L. contradiction.
Qed.

Lemma assign_slots_spec st msc sm total :
  AssignNestedScopeSlots st msc = (sm, total) ->
  wf_slots st msc = true ->
  (forall v, In v (slot_vis_forest (sc_children msc) (module_top msc)) ->
     forall r1 r2 k1 k2, In r1 v -> In r2 v -> r1 <> r2 ->
       sy_ns (getsym st r1) = sy_ns (getsym st r2) ->
       lookup sm r1 = Some k1 -> lookup sm r2 = Some k2 -> k1 <> k2) /\
  (forall r k, lookup sm r = Some k -> 0 <= k < cnt_get total (sy_ns (getsym st r))) /\
  (forall r, In r (module_top msc) -> lookup sm r = None) /\
  cnt_le cnt_zero total.
Proof.
  unfold AssignNestedScopeSlots, wf_slots. intros A W. fold (module_top msc) in A. set (top := module_top msc) in *.
  destruct (slotsForest st (sc_children msc) (map (fun r => (r, 1)) top) cnt_zero cnt_zero) as [sm1 tot] eqn:F.
  injection A as <- <-.
  destruct (wf_slot_forest st (sc_children msc) top top) as [seen'|] eqn:Wf; [|discriminate].
  pose proof (SInv_init st top) as I0.
  assert (NN : cnt_nonneg cnt_zero) by (intros n; destruct n; apply Z.le_refl).
  destruct (proj2 (slots_inv st top) _ _ _ _ _ _ _ _ _ I0 NN Wf F) as ((E & G & S & SS & Fg & N) & L).
  assert (NotTop : forall r, mem_nat r top = false -> ~ In r top).
  { intros r M T. apply mem_nat_In in T. congruence. }
  split; [|split; [|split; [|exact L]]].
  - intros v Hv r1 r2 k1 k2 H1 H2 Nr Sn L1 L2.
    rewrite lookup_filter_top in L1, L2.
    destruct (mem_nat r1 top) eqn:M1; [discriminate|]. destruct (mem_nat r2 top) eqn:M2; [discriminate|].
    rewrite Forall_forall in Fg. destruct (Fg v Hv) as [_ Gd].
    apply (Gd r1 r2 k1 k2 H1 H2); auto.
  - intros r k Lr. rewrite lookup_filter_top in Lr. destruct (mem_nat r top) eqn:M; [discriminate|].
    destruct (N r k Lr (NotTop r M)) as [L0|B]; [|exact B].
    apply lookup_top_map_inv in L0. destruct (NotTop r M L0).
  - intros r Hr. rewrite lookup_filter_top. apply mem_nat_In in Hr. rewrite Hr. reflexivity.
Qed.

Lemma slots_distinct_on_chain_all st msc sm total :
  AssignNestedScopeSlots st msc = (sm, total) ->
  wf_slots st msc = true ->
  (forall v, In v (slot_vis_forest (sc_children msc) (module_top msc)) ->
     forall r1 r2 k1 k2, In r1 v -> In r2 v -> r1 <> r2 ->
       sy_ns (getsym st r1) = sy_ns (getsym st r2) ->
       lookup sm r1 = Some k1 -> lookup sm r2 = Some k2 -> k1 <> k2) /\
  (forall r k, lookup sm r = Some k -> 0 <= k < cnt_get total (sy_ns (getsym st r))) /\
  (forall r, In r (module_top msc) -> lookup sm r = None).
Proof.
  intros A W. destruct (assign_slots_spec st msc sm total A W) as (D & R & T & _). auto.
Qed.
