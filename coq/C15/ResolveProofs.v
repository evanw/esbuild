(* Resolution on a scope chain is preserved by a collision-free naming.

   [resolve v nmf x] is identifier resolution on the list [v] of symbols
   visible in a scope, innermost declarations first (the lists produced by
   Spec.vis_sets are in that order: the scope's own declarations, then its
   parent's, ..., then the top level): the first symbol whose name is x.  With
   the original names this is how the parser binds a reference (findSymbol
   walks the scope chain and looks the name up in each scope's members); with
   the new names it is what the JavaScript engine will do on the output.  *)
From V Require Import Common.Base C15.Names C15.NamesProofs C15.Renamer C15.Spec C15.NumberProofs.

Fixpoint resolve (v : list nat) (nmf : nat -> name) (x : name) : option nat :=
  match v with
  | [] => None
  | t :: r => if name_eqb (nmf t) x then Some t else resolve r nmf x
  end.

Lemma resolve_in v nmf x s : resolve v nmf x = Some s -> In s v.
Proof.
  induction v as [|t r IH]; [discriminate|]. simpl.
  destruct (name_eqb (nmf t) x); [intros R; injection R as ->; left; reflexivity | right; auto].
Qed.

(* the core: if no other visible symbol has the name of s, the name of s resolves to s *)
Lemma resolve_unique v nmf s :
  In s v -> (forall t, In t v -> nmf t = nmf s -> t = s) -> resolve v nmf (nmf s) = Some s.
Proof.
  induction v as [|t r IH]; intros I U; [destruct I|]. simpl.
  destruct (name_eqb (nmf t) (nmf s)) eqn:E.
  - apply name_eqb_eq in E. f_equal. apply U; [left; reflexivity | exact E].
  - apply name_eqb_neq in E. destruct I as [->|I]; [congruence|].
    apply IH; [exact I | intros u Hu; apply U; right; exact Hu].
Qed.

(* resolution preserved: a reference that the parser bound to s (by the original
   names) still resolves to s by the new names *)
Lemma resolution_preserved_core v orig nmf x s :
  resolve v orig x = Some s ->
  (forall t, In t v -> nmf t = nmf s -> t = s) ->
  resolve v nmf (nmf s) = Some s.
Proof.
  intros R U. apply resolve_unique; [exact (resolve_in v orig x s R) | exact U].
Qed.

(* instantiated for the number renamer: on every visibility set of a well-formed
   forest, a reference bound to a renamed symbol s still resolves to s, provided
   the symbols that keep their names (pinned, labels, ...) do not carry the new
   name of s - for pinned symbols of the module scope trees this is
   number_avoids_pinned (reserved names) *)
Lemma resolution_preserved_number_all fuel st reserved toplevel nested names :
  number_rename fuel st reserved toplevel nested = Some names ->
  wf_number st toplevel nested = true ->
  forall v, In v (vis_forest st nested (map (follow st) toplevel)) ->
  forall x s, resolve v (fun t => sy_name (getsym st t)) x = Some s ->
    renameable (sy_ns (getsym st s)) = true ->
    (forall p, In p v -> renameable (sy_ns (getsym st p)) = false ->
               sy_name (getsym st p) <> number_name_for st names s) ->
    (forall t, In t v -> follow st t = t) ->
    resolve v (number_name_for st names) (number_name_for st names s) = Some s.
Proof.
  intros A W v Hv x s R Rs Pin Canon.
  eapply resolution_preserved_core; [exact R|].
  intros t Ht E.
  destruct (Nat.eq_dec t s) as [->|N]; [reflexivity | exfalso].
  pose proof (resolve_in _ _ _ _ R) as Hs.
  destruct (renameable (sy_ns (getsym st t))) eqn:Rt.
  - pose proof (number_renamer_no_shadow_all fuel st reserved toplevel nested names A W v Hv t s) as D.
    rewrite (Canon t Ht), (Canon s Hs) in D. apply (D Ht Hs N Rt Rs). exact E.
  - apply (Pin t Ht Rt). rewrite <- E.
    pose proof (number_pinned_unchanged_all fuel st reserved toplevel nested names A W t) as P.
    rewrite (Canon t Ht) in P. rewrite P by exact Rt. reflexivity.
Qed.
