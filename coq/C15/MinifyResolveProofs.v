(* Resolution is preserved on parser-built forests also by the minifier pipeline. *)
From V Require Import Common.Base C15.Names C15.NamesProofs C15.Renamer C15.Spec C15.NumberProofs
  C15.SlotsProofs C15.MinifyProofs C15.ComposeProofs C15.ScopeBuild C15.ScopeProg C15.ScopeBuildProofs
  C15.ScopeResolveProofs.

Lemma vis_slot_equiv st (NoLinks : forall r, follow st r = r) :
  (forall sc a a', nolabel sc = true -> seteq a a' ->
     Forall2 seteq (vis_sets st sc a) (slot_vis_sets sc a')) /\
  (forall cs a a', nolabel_forest cs = true -> seteq a a' ->
     Forall2 seteq (vis_forest st cs a) (slot_vis_forest cs a')).
Proof.
  apply scope_forest_ind.
  - intros m g l e ch IH a a' NL S.
    rewrite nolabel_unfold in NL. apply andb_true_iff in NL as [NL1 NL2]. destruct l; [discriminate|].
    rewrite vis_sets_unfold, canon_is_decls, slot_vis_sets_unfold by exact NoLinks.
    assert (H : seteq (scope_decls (Scope m g None e ch) ++ a) (rev (slot_decls (Scope m g None e ch)) ++ a')).
    { intros r. unfold slot_decls. simpl sc_label. rewrite app_nil_r, !in_app_iff, <- in_rev, (S r). tauto. }
    constructor; [exact H | exact (IH _ _ NL2 H)].
  - constructor.
  - intros c r Hc Hr a a' NL S. simpl in *. apply andb_true_iff in NL as [N1 N2].
    apply Forall2_app; [apply Hc | apply Hr]; assumption.
Qed.

Lemma slots_distinct_on_vis st (NoLinks : forall r, follow st r = r) m slots total :
  nolabel m = true -> AssignNestedScopeSlots st m = (slots, total) -> wf_slots st m = true ->
  forall v, In v (vis_sets st m []) ->
  forall i j ki kj, In i v -> In j v -> i <> j -> sy_ns (getsym st i) = sy_ns (getsym st j) ->
    lookup slots i = Some ki -> lookup slots j = Some kj -> ki <> kj.
Proof.
  intros NL AS Ws v Hv i j ki kj Vi Vj N Sn Li Lj.
  destruct (assign_slots_spec st m slots total AS Ws) as (Dslots & _ & TopNone & _).
  destruct m as [mem gen lbl ev ch]. rewrite vis_sets_unfold, canon_is_decls in Hv by exact NoLinks.
  set (d := scope_decls (Scope mem gen lbl ev ch)) in *.
  assert (Dtop : seteq (d ++ []) (module_top (Scope mem gen lbl ev ch))).
  { intros r. rewrite app_nil_r. apply scope_decls_top. }
  destruct Hv as [<-|Hv].
  - (* the module scope's own symbols have no nested slot *)
    apply Dtop in Vi. rewrite (TopNone i Vi) in Li. discriminate.
  - rewrite nolabel_unfold in NL. apply andb_true_iff in NL as [_ NLf].
    destruct (Forall2_in_l' _ _ _ v (proj2 (vis_slot_equiv st NoLinks) ch _ _ NLf Dtop) Hv) as (v' & Hv' & Sv).
    apply (Dslots v' Hv' i j ki kj); auto; apply Sv; assumption.
Qed.

Lemma parse_forest_nolabel prog : let '(m, _) := parse_forest prog in nolabel m = true.
Proof.
  unfold parse_forest, build_sk. destruct (number_sk [] (skel_of_prog prog) 0) as [[m st] n'] eqn:B.
  apply (proj1 number_nolabel _ _ _ _ _ _ B).
Qed.

Definition ref_preserved_minify (st : symtab) (slots : slotmap) (m3 : mstate) (xE : name * env_t) : Prop :=
  forall s, env_get (snd xE) (fst xE) = Some s ->
    env_get (rename_env (minify_name_for st slots m3) (snd xE)) (minify_name_for st slots m3 s) = Some s.

Lemma resolution_preserved_minify_all mf :
  NoDup (m_head mf) -> NoDup (m_tail mf) -> 1 <= zlen (m_head mf) -> 2 <= zlen (m_tail mf) ->
  forall prog fuel stable reserved pre groups,
  let '(m, st) := parse_forest prog in
  forall slots total m3,
  AssignNestedScopeSlots st m = (slots, total) ->
  minify_rename fuel st slots total stable reserved mf pre groups = Some m3 ->
  incl (ComputeReservedNames st [m]) reserved ->
  (* every declared symbol that may be renamed was counted, i.e. has a slot *)
  (forall r, In r (tree_decls m) -> sy_ns (getsym st r) <> NsPinned -> slot_of slots m3 r <> None) ->
  Forall (ref_preserved_minify st slots m3) (parser_refs prog).
Proof.
  intros NDh NDt Hh Ht prog fuel stable reserved pre groups.
  pose proof (parser_refs_facts prog) as F. pose proof (parse_forest_wellformed_all prog) as W.
  pose proof (parse_forest_plain_ns prog) as PLN. pose proof (parse_forest_nolabel prog) as NL.
  destruct (parse_forest prog) as [m st]. destruct F as [NoLinks F]. destruct W as [Ws _].
  intros slots total m3 AS MR Incl Counted.
  destruct (assign_slots_spec st m slots total AS Ws) as (_ & Range & _ & Tot).
  assert (T0 : 0 <= c_default total) by apply (Tot NsDefault).
  assert (T1 : 0 <= c_label total) by apply (Tot NsLabel).
  assert (T2 : 0 <= c_private total) by apply (Tot NsPrivate).
  assert (T3 : 0 <= c_mangled total) by apply (Tot NsMangled).
  assert (Dflt : forall i, sy_ns (getsym st i) <> NsPinned -> sy_ns (getsym st i) = NsDefault).
  { intros i Np. destruct (PLN i) as [D|D]; [exact D | contradiction]. }
  assert (NameOf : forall i k, sy_ns (getsym st i) <> NsPinned -> slot_of slots m3 i = Some k ->
             minify_name_for st slots m3 i = slot_name (ms_default m3) k).
  { intros i k Np S. rewrite (minify_name_slot st slots m3 i k (NoLinks i) Np S), (Dflt i Np). reflexivity. }
  eapply Forall_impl; [|exact F]. intros [x E] (v & Hv & K & V) s G. simpl in *.
  assert (Tree : forall i, In i (map snd E) -> In i (tree_decls m)).
  { intros i H. destruct (vis_in_tree st NoLinks m [] v Hv i (V i H)) as [[]|T]. exact T. }
  apply (lookup_preserved_gen st (minify_name_for st slots m3) E x s K); [| | |exact G].
  - intros i _ Pi. unfold minify_name_for. rewrite NoLinks, Pi. reflexivity.
  - (* a minified name is not reserved, the name of a pinned symbol of the tree is *)
    intros i j Hi Hj Pi Pj.
    destruct (slot_of slots m3 i) as [k|] eqn:S; [|exfalso; exact (Counted i (Tree i Hi) Pi S)].
    rewrite (NameOf i k Pi S).
    destruct (minify_slot_facts mf NDh NDt Hh Ht fuel st slots total stable reserved pre groups m3 MR
                (cnt_get_nonneg total T0 T1 T2 T3) Range NsDefault ltac:(discriminate)) as (_ & SR & _).
    destruct (SR i k (Dflt i Pi) S) as [R _]. simpl in R.
    apply (minify_avoids_pinned_any fuel st slots total stable reserved mf pre groups m3 [m] MR Incl m j
             (or_introl eq_refl) (Tree j Hj) Pj k R).
  - intros i j Hi Hj N Pi Pj.
    destruct (slot_of slots m3 i) as [ki|] eqn:Si; [|exfalso; exact (Counted i (Tree i Hi) Pi Si)].
    destruct (slot_of slots m3 j) as [kj|] eqn:Sj; [|exfalso; exact (Counted j (Tree j Hj) Pj Sj)].
    apply (minify_rename_chunk mf NDh NDt Hh Ht fuel st slots total stable reserved pre groups m3 MR T0 T1 T2 T3 Range
             i j ki kj N (NoLinks i) (NoLinks j)); auto.
    + rewrite (Dflt i Pi), (Dflt j Pj). reflexivity.
    + (* both nested: visible together, hence different nested slots *)
      intros Li Lj. unfold slot_of in Si, Sj.
      destruct (lookup slots i) as [ki'|] eqn:Li'; [|congruence]. destruct (lookup slots j) as [kj'|] eqn:Lj'; [|congruence].
      injection Si as <-. injection Sj as <-.
      apply (slots_distinct_on_vis st NoLinks m slots total NL AS Ws v Hv i j ki' kj' (V i Hi) (V j Hj) N); auto.
      rewrite (Dflt i Pi), (Dflt j Pj). reflexivity.
Qed.
