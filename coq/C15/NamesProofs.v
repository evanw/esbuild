(* Lemmas about names: minified-name injectivity, shuffle is a permutation. *)
From V Require Import Common.Base C15.Names.
From Coq Require Import Permutation.

Lemma name_eqb_eq a b : name_eqb a b = true <-> a = b.
Proof. apply zlist_eqb_eq. Qed.

Lemma name_eqb_refl a : name_eqb a a = true.
Proof. apply name_eqb_eq. reflexivity. Qed.

Lemma name_eqb_neq a b : name_eqb a b = false <-> a <> b.
Proof.
  split.
  - intros H E. apply name_eqb_eq in E. congruence.
  - intros H. destruct (name_eqb a b) eqn:E; [apply name_eqb_eq in E; contradiction | reflexivity].
Qed.

Lemma mem_name_In n l : mem_name n l = true <-> In n l.
Proof.
  induction l as [|x r IH]; simpl.
  - split; [discriminate | tauto].
  - destruct (name_eqb n x) eqn:E.
    + apply name_eqb_eq in E. subst. tauto.
    + apply name_eqb_neq in E. rewrite IH. split; [tauto | intros [H|H]; [congruence | exact H]].
Qed.

Lemma mem_name_false n l : mem_name n l = false <-> ~ In n l.
Proof.
  rewrite <- mem_name_In. destruct (mem_name n l); split; intros; try congruence; try tauto.
Qed.

Lemma char_at_mod_inj l i j :
  NoDup l -> 0 < zlen l ->
  char_at l (i mod zlen l) = char_at l (j mod zlen l) -> i mod zlen l = j mod zlen l.
Proof.
  intros ND Hn. generalize (Z.mod_pos_bound i _ Hn) (Z.mod_pos_bound j _ Hn).
  generalize (i mod zlen l) (j mod zlen l). unfold char_at, zlen. intros a b Ha Hb E.
  apply Z2Nat.inj; [lia | lia |].
  apply (proj1 (NoDup_nth l 0) ND); [lia | lia | exact E].
Qed.

Lemma div_mod_inj a b n : 0 < n -> a / n = b / n -> a mod n = b mod n -> a = b.
Proof.
  intros Hn Hq Hm. apply Z.lt_neq, Z.neq_sym in Hn.
  rewrite (Z.div_mod a n Hn), (Z.div_mod b n Hn), Hq, Hm. reflexivity.
Qed.

Lemma min_tail_nil_iff f tail i : (Z.log2 i < Z.of_nat f) -> (min_tail f tail i = [] <-> i <= 0).
Proof.
  intros Hf. destruct f as [|f]; simpl.
  - assert (0 <= Z.log2 i) by apply Z.log2_nonneg. lia.
  - destruct (i <=? 0) eqn:E; split; intros; try lia; try reflexivity; try discriminate.
Qed.

(* fuel f suffices for i when i < 2^f: each round of min_tail divides by at least 2 *)
Lemma tail_fuel_enough i : i < 2 ^ Z.of_nat (tail_fuel i).
Proof.
  unfold tail_fuel. rewrite Nat2Z.inj_succ, Z2Nat.id by apply Z.log2_nonneg.
  destruct (Z.lt_ge_cases 0 i) as [P|P]; [apply Z.log2_spec, P|].
  apply (Z.le_lt_trans _ 0 _ P), Z.pow_pos_nonneg; [reflexivity | apply Z.le_le_succ_r, Z.log2_nonneg].
Qed.

Lemma fuel_step f i n : 2 <= n -> i < 2 ^ Z.of_nat (S f) -> (i - 1) / n < 2 ^ Z.of_nat f.
Proof.
  intros Hn Hi. rewrite Nat2Z.inj_succ, Z.pow_succ_r in Hi by lia.
  apply Z.div_lt_upper_bound; [lia|].
  assert (2 * 2 ^ Z.of_nat f <= n * 2 ^ Z.of_nat f) by (apply Z.mul_le_mono_nonneg_r; lia).
  lia.
Qed.

Lemma fuel_zero i : i < 2 ^ Z.of_nat 0 -> i <= 0.
Proof. change (2 ^ Z.of_nat 0) with 1. lia. Qed.

Lemma min_tail_nonpos tail i : i <= 0 -> forall f, min_tail f tail i = [].
Proof.
  intros Hi [|f]; simpl; [reflexivity|].
  destruct (Z.leb_spec i 0); [reflexivity | lia].
Qed.

Lemma min_tail_nil f tail i : i < 2 ^ Z.of_nat f -> min_tail f tail i = [] -> i <= 0.
Proof.
  destruct f as [|f]; [intros L _; exact (fuel_zero i L)|]. simpl. intros _ E.
  destruct (Z.leb_spec i 0); [assumption | discriminate].
Qed.

Lemma nonpos_eq i j : 0 <= i -> 0 <= j -> i <= 0 -> j <= 0 -> i = j.
Proof. lia. Qed.

Lemma min_tail_inj tail :
  NoDup tail -> 2 <= zlen tail ->
  forall f1 f2 i j, 0 <= i -> 0 <= j ->
    i < 2 ^ Z.of_nat f1 -> j < 2 ^ Z.of_nat f2 ->
    min_tail f1 tail i = min_tail f2 tail j -> i = j.
Proof.
  intros ND Hn. assert (Pn : 0 < zlen tail) by lia.
  induction f1 as [|f1 IH]; intros f2 i j Hi Hj Li Lj E.
  - symmetry in E. apply (min_tail_nil f2 tail j Lj) in E. exact (nonpos_eq i j Hi Hj (fuel_zero i Li) E).
  - destruct f2 as [|f2].
    + apply (min_tail_nil (S f1) tail i Li) in E. exact (nonpos_eq i j Hi Hj E (fuel_zero j Lj)).
    + simpl in E.
      destruct (Z.leb_spec i 0) as [Ai|Pi], (Z.leb_spec j 0) as [Aj|Pj]; try discriminate;
        [exact (nonpos_eq i j Hi Hj Ai Aj)|].
      assert (Qi : 0 <= i - 1) by lia.
      assert (Qj : 0 <= j - 1) by lia.
      injection E as Ec Er.
      apply Z.sub_cancel_r with (p := 1), (div_mod_inj _ _ (zlen tail) Pn).
      * apply (IH f2); [| | | | exact Er].
        1,2: apply Z.div_pos; assumption.
        all: apply fuel_step; assumption.
      * apply char_at_mod_inj; assumption.
Qed.

Lemma min_tail_fuel tail : 2 <= zlen tail ->
  forall f1 f2 i, i < 2 ^ Z.of_nat f1 -> i < 2 ^ Z.of_nat f2 ->
    min_tail f1 tail i = min_tail f2 tail i.
Proof.
  intros Hn. induction f1 as [|f1 IH]; intros f2 i L1 L2.
  - rewrite !min_tail_nonpos by apply fuel_zero, L1. reflexivity.
  - destruct f2 as [|f2]; [rewrite !min_tail_nonpos by apply fuel_zero, L2; reflexivity|].
    simpl. destruct (i <=? 0); [reflexivity|]. f_equal. apply IH; apply fuel_step; assumption.
Qed.

Lemma minified_name_inj m :
  NoDup (m_head m) -> NoDup (m_tail m) -> 1 <= zlen (m_head m) -> 2 <= zlen (m_tail m) ->
  forall i j, 0 <= i -> 0 <= j ->
    NumberToMinifiedName m i = NumberToMinifiedName m j -> i = j.
Proof.
  intros NDh NDt Hh Ht i j Hi Hj E. unfold NumberToMinifiedName in E.
  assert (Pn : 0 < zlen (m_head m)) by lia. injection E as Ec Er.
  apply (div_mod_inj _ _ (zlen (m_head m)) Pn).
  - apply (min_tail_inj (m_tail m) NDt Ht (tail_fuel (i / zlen (m_head m))) (tail_fuel (j / zlen (m_head m))));
      [| | | | exact Er].
    1,2: apply Z.div_pos; assumption.
    all: apply tail_fuel_enough.
  - apply char_at_mod_inj; assumption.
Qed.

Fixpoint nodup_b (l : list Z) : bool :=
  match l with
  | [] => true
  | x :: r => negb (existsb (Z.eqb x) r) && nodup_b r
  end.
Lemma nodup_b_sound l : nodup_b l = true -> NoDup l.
Proof.
  induction l as [|x r IH]; simpl; intros H; constructor.
  - apply andb_true_iff in H as [H _]. intros I.
    assert (existsb (Z.eqb x) r = true) by (apply existsb_exists; exists x; split; [exact I | apply Z.eqb_refl]).
    rewrite H0 in H. discriminate.
  - apply andb_true_iff in H as [_ H]. auto.
Qed.

Lemma default_head_nodup : NoDup (m_head default_minifier).
Proof. apply nodup_b_sound. vm_compute. reflexivity. Qed.
Lemma default_tail_nodup : NoDup (m_tail default_minifier).
Proof. apply nodup_b_sound. vm_compute. reflexivity. Qed.

Lemma insert_perm {A} (ins : A -> list A -> list A) :
  (forall x, ins x [] = [x]) ->
  (forall x y r, ins x (y :: r) = x :: y :: r \/ ins x (y :: r) = y :: ins x r) ->
  forall x l, Permutation (ins x l) (x :: l).
Proof.
  intros Hn Hc x l. induction l as [|y r IH]; [rewrite Hn; apply Permutation_refl|].
  destruct (Hc x y r) as [-> | ->]; [apply Permutation_refl|].
  eapply Permutation_trans; [apply perm_skip, IH | apply perm_swap].
Qed.
Lemma insertion_sort_perm {A} (ins : A -> list A -> list A) (sort : list A -> list A) :
  (forall x l, Permutation (ins x l) (x :: l)) ->
  sort [] = [] -> (forall x r, sort (x :: r) = ins x (sort r)) ->
  forall l, Permutation (sort l) l.
Proof.
  intros Hi Hn Hc l. induction l as [|x r IH]; [rewrite Hn; constructor|].
  rewrite Hc. eapply Permutation_trans; [apply Hi | apply perm_skip, IH].
Qed.

Lemma cc_sort_perm l : Permutation (cc_sort l) l.
Proof.
  apply (insertion_sort_perm cc_insert); try reflexivity.
  apply insert_perm; [reflexivity|]. intros x y r. simpl. destruct (cc_less y x); auto.
Qed.
Lemma cc_array_chars tail freq i : map (fun x => fst (fst x)) (cc_array tail freq i) = tail.
Proof. revert i. induction tail as [|c r IH]; intros i; simpl; [reflexivity | rewrite IH; reflexivity]. Qed.

Lemma shuffle_tail_perm src freq : Permutation (m_tail (ShuffleByCharFreq src freq)) (m_tail src).
Proof.
  unfold ShuffleByCharFreq. simpl.
  rewrite <- (cc_array_chars (m_tail src) freq 0) at 2.
  apply Permutation_map, cc_sort_perm.
Qed.

Lemma Permutation_filter {A} (f : A -> bool) l l' :
  Permutation l l' -> Permutation (filter f l) (filter f l').
Proof.
  induction 1 as [|x l l' _ IH|x y l|l l' l'' _ IH1 _ IH2]; simpl.
  - constructor.
  - destruct (f x); [apply perm_skip|]; exact IH.
  - destruct (f x), (f y); try apply perm_swap; apply Permutation_refl.
  - exact (Permutation_trans IH1 IH2).
Qed.

Lemma shuffle_head src freq :
  m_head (ShuffleByCharFreq src freq) = filter (fun c => negb (is_digit c)) (m_tail (ShuffleByCharFreq src freq)).
Proof. reflexivity. Qed.

Lemma shuffle_nodup src freq :
  NoDup (m_tail src) ->
  NoDup (m_head (ShuffleByCharFreq src freq)) /\ NoDup (m_tail (ShuffleByCharFreq src freq)).
Proof.
  intros ND.
  assert (T : NoDup (m_tail (ShuffleByCharFreq src freq))).
  { eapply Permutation_NoDup; [apply Permutation_sym, shuffle_tail_perm | exact ND]. }
  split; [rewrite shuffle_head; apply NoDup_filter|]; exact T.
Qed.

Lemma shuffle_lengths src freq :
  length (m_tail (ShuffleByCharFreq src freq)) = length (m_tail src) /\
  length (m_head (ShuffleByCharFreq src freq)) = length (filter (fun c => negb (is_digit c)) (m_tail src)).
Proof.
  split.
  - apply Permutation_length, shuffle_tail_perm.
  - rewrite shuffle_head. apply Permutation_length, Permutation_filter, shuffle_tail_perm.
Qed.

(* shuffling permutes the tail alphabet, and the head alphabet is the tail without
   the digits before and after *)
Lemma shuffled_name_inj src freq :
  NoDup (m_tail src) -> 2 <= zlen (m_tail src) ->
  1 <= zlen (filter (fun c => negb (is_digit c)) (m_tail src)) ->
  forall i j, 0 <= i -> 0 <= j ->
    NumberToMinifiedName (ShuffleByCharFreq src freq) i =
    NumberToMinifiedName (ShuffleByCharFreq src freq) j -> i = j.
Proof.
  intros ND Ht Hh.
  pose proof (shuffle_nodup src freq ND) as [NDh NDt].
  pose proof (shuffle_lengths src freq) as [Lt Lh].
  apply minified_name_inj; [exact NDh | exact NDt | |]; unfold zlen in *.
  - rewrite Lh. exact Hh.
  - rewrite Lt. exact Ht.
Qed.

Lemma shuffled_minified_name_inj freq i j :
  0 <= i -> 0 <= j ->
  NumberToMinifiedName (ShuffleByCharFreq default_minifier freq) i =
  NumberToMinifiedName (ShuffleByCharFreq default_minifier freq) j -> i = j.
Proof.
  apply (shuffled_name_inj default_minifier freq default_tail_nodup); vm_compute; discriminate.
Qed.
