(* The number renamer never gives two distinct symbols visible in one scope
   the same name, and never a reserved name: every scope forest, by induction. *)
From V Require Import Common.Base C15.Names C15.NamesProofs C15.Renamer C15.Spec.

(* induction over a scope tree and the forests of children at once (the generated
   principle has no hypothesis for the children, which sit in a list) *)
Section ScopeInd.
  Variables (P : scope -> Prop) (Q : list scope -> Prop).
  Hypothesis Hscope : forall m g l e ch, Q ch -> P (Scope m g l e ch).
  Hypothesis Hnil : Q [].
  Hypothesis Hcons : forall c r, P c -> Q r -> Q (c :: r).
  Fixpoint scope_ind2 (s : scope) : P s :=
    match s with
    | Scope m g l e ch =>
        Hscope m g l e ch
          ((fix go (cs : list scope) : Q cs :=
              match cs with
              | [] => Hnil
              | c :: r => Hcons c r (scope_ind2 c) (go r)
              end) ch)
    end.
  Lemma scope_forest_ind : (forall s, P s) /\ (forall cs, Q cs).
  Proof.
    split; [exact scope_ind2|].
    induction cs as [|c r IH]; [exact Hnil | exact (Hcons c r (scope_ind2 c) IH)].
  Qed.
End ScopeInd.

Lemma scope_ind' (P : scope -> Prop) :
  (forall m g l e ch, Forall P ch -> P (Scope m g l e ch)) -> forall s, P s.
Proof. intros H. apply (scope_ind2 P (Forall P) H); constructor; assumption. Qed.

Definition seteq (a b : list nat) : Prop := forall r, In r a <-> In r b.
Lemma seteq_refl a : seteq a a.
Proof. intros r. tauto. Qed.
Lemma seteq_rev_app l v w : seteq v w -> seteq (rev l ++ v) (l ++ w).
Proof. intros P r. rewrite !in_app_iff, <- in_rev, (P r). tauto. Qed.

(* the inner fixpoints are the forest functions *)
Lemma assignRec_unfold fuel st m g l e ch chain names :
  assignRec fuel st (Scope m g l e ch) chain names =
  match (if nonempty m || nonempty g then
           match assignNames fuel st [] chain names (scope_decls (Scope m g l e ch)) with
           | None => None
           | Some (s, names') => Some (s :: chain, names')
           end
         else Some (chain, names)) with
  | None => None
  | Some (chain', names') => assignForest fuel st ch chain' names'
  end.
Proof.
  simpl.
  destruct (if nonempty m || nonempty g then _ else _) as [[chain' names']|]; [|reflexivity].
  revert names'. induction ch as [|c r IH]; intros names'; simpl; [reflexivity|].
  destruct (assignRec fuel st c chain' names'); [apply IH | reflexivity].
Qed.

Lemma vis_sets_unfold st m g l e ch anc :
  vis_sets st (Scope m g l e ch) anc =
  (canon_decls st (Scope m g l e ch) ++ anc)
    :: vis_forest st ch (canon_decls st (Scope m g l e ch) ++ anc).
Proof.
  simpl. unfold canon_decls, scope_decls. simpl. f_equal.
  generalize (map (follow st) (sort_nat m ++ g) ++ anc). intros v.
  induction ch as [|c r IH]; simpl; [reflexivity | rewrite IH; reflexivity].
Qed.

Lemma wf_scope_unfold st m g l e ch vis seen :
  wf_scope st (Scope m g l e ch) vis seen =
  match wf_refs vis seen (canon_decls st (Scope m g l e ch)) with
  | None => None
  | Some (vis', seen') => wf_forest st ch vis' seen'
  end.
Proof.
  simpl. destruct (wf_refs vis seen _) as [[vis' seen']|]; [|reflexivity].
  revert seen'. induction ch as [|c r IH]; intros seen'; simpl; [reflexivity|].
  destruct (wf_scope st c vis' seen'); [apply IH | reflexivity].
Qed.

Lemma vis_forest_in st cs anc v :
  In v (vis_forest st cs anc) -> exists c, In c cs /\ In v (vis_sets st c anc).
Proof.
  induction cs as [|c r IH]; simpl; [intros []|]. rewrite in_app_iff. intros [H|H].
  - exists c. auto.
  - destruct (IH H) as (c' & Ic & Hc). exists c'. auto.
Qed.

Lemma tree_decls_unfold m g l e ch :
  tree_decls (Scope m g l e ch) = m ++ g ++ flat_map tree_decls ch.
Proof. reflexivity. Qed.

Definition usedc (chain : list nmap) (n : name) : Prop :=
  existsb (fun m => nm_has m n) chain = true.
Lemma usedc_cons s chain n : usedc (s :: chain) n <-> nm_has s n = true \/ usedc chain n.
Proof. unfold usedc. simpl. rewrite orb_true_iff. tauto. Qed.

Lemma nm_has_set m k v n : nm_has (nm_set m k v) n = true <-> n = k \/ nm_has m n = true.
Proof.
  unfold nm_has, nm_set. simpl. destruct (name_eqb n k) eqn:E.
  - apply name_eqb_eq in E. split; auto.
  - apply name_eqb_neq in E. split; [auto | intros [?|?]; [contradiction | assumption]].
Qed.

Lemma findNameUse_unused s ps n :
  findNameUse s ps n = NameUnused <-> nm_has s n = false /\ existsb (fun m => nm_has m n) ps = false.
Proof.
  unfold findNameUse. destruct (nm_has s n); [split; [discriminate | intros [? _]; discriminate]|].
  destruct (existsb _ ps); split; try discriminate; auto. intros [_ ?]; discriminate.
Qed.

Lemma find_loop_unused fuel s ps prefix tries nm t :
  find_loop fuel s ps prefix tries = Some (nm, t) -> findNameUse s ps nm = NameUnused.
Proof.
  revert tries. induction fuel as [|f IH]; intros tries; simpl; [discriminate|].
  destruct (findNameUse s ps (prefix ++ itoa (tries + 1))) eqn:E; try apply IH.
  intros X. injection X as <- _. exact E.
Qed.

Lemma findUnusedName_fresh fuel s ps n0 nsp nm s' :
  findUnusedName fuel s ps n0 nsp = Some (nm, s') ->
  nm_has s nm = false /\ existsb (fun m => nm_has m nm) ps = false /\
  nm_has s' nm = true /\ (forall k, nm_has s k = true -> nm_has s' k = true).
Proof.
  (* in every branch the result is an unused name, entered into a map that extends s *)
  assert (Done : forall s1, findNameUse s ps nm = NameUnused ->
            (forall k, nm_has s k = true -> nm_has s1 k = true) -> s' = nm_set s1 nm 1 ->
            nm_has s nm = false /\ existsb (fun m => nm_has m nm) ps = false /\
            nm_has s' nm = true /\ (forall k, nm_has s k = true -> nm_has s' k = true)).
  { intros s1 U M ->. apply findNameUse_unused in U as [U1 U2].
    repeat split; auto; [|intros k Hk]; apply nm_has_set; auto. }
  unfold findUnusedName. destruct (valid_name nsp n0) as [n|]; [|discriminate].
  destruct (findNameUse s ps n) eqn:U.
  - intros X. injection X as <- <-. apply (Done s); auto.
  - destruct (find_loop fuel s ps n 1) as [[nm1 t]|] eqn:L; [|discriminate].
    intros X. injection X as <- <-. apply find_loop_unused in L. apply (Done s); auto.
  - destruct (find_loop fuel s ps n _) as [[nm1 t]|] eqn:L; [|discriminate].
    intros X. injection X as <- <-. apply find_loop_unused in L. apply (Done (nm_set s n t)); auto.
    intros k Hk. apply nm_has_set. auto.
Qed.

Lemma mem_nat_In x l : mem_nat x l = true <-> In x l.
Proof.
  unfold mem_nat. rewrite existsb_exists. split.
  - intros [y [Hy E]]. apply Nat.eqb_eq in E. subst. exact Hy.
  - intros Hx. exists x. split; [exact Hx | apply Nat.eqb_refl].
Qed.

Lemma lookup_cons_eq {A} (m : list (nat * A)) r v : lookup ((r, v) :: m) r = Some v.
Proof. simpl. rewrite Nat.eqb_refl. reflexivity. Qed.
Lemma lookup_cons_neq {A} (m : list (nat * A)) r k v : r <> k -> lookup ((k, v) :: m) r = lookup m r.
Proof. intros N. simpl. destruct (Nat.eqb r k) eqn:E; [apply Nat.eqb_eq in E; contradiction | reflexivity]. Qed.

Definition extends {A} (a b : list (nat * A)) : Prop :=
  forall r n, lookup a r = Some n -> lookup b r = Some n.
Lemma extends_refl {A} (a : list (nat * A)) : extends a a.
Proof. intros r n H; exact H. Qed.
Lemma extends_trans {A} (a b c : list (nat * A)) : extends a b -> extends b c -> extends a c.
Proof. intros H1 H2 r n H. apply H2, H1, H. Qed.
Lemma extends_cons {A} (a : list (nat * A)) r v : lookup a r = None -> extends a ((r, v) :: a).
Proof. intros L x n Lx. rewrite lookup_cons_neq; [exact Lx | congruence]. Qed.

Section Number.
  Variable fuel : nat.
  Variable st : symtab.
  Variable reserved : list name.

  Definition rnb (r : nat) : bool := renameable (sy_ns (getsym st r)).

  (* facts about the name table that do not depend on the position in the tree *)
  Record Glob (names : names_t) : Prop := {
    g_ren : forall r n, lookup names r = Some n -> rnb r = true;
    g_res : forall r n, lookup names r = Some n -> ~ In n reserved
  }.

  (* what is finally claimed of one visibility set *)
  Record Good (v : list nat) (names : names_t) : Prop := {
    gd_none : forall r, In r v -> lookup names r = None -> rnb r = false;
    gd_dist : forall r1 r2 n1 n2, In r1 v -> In r2 v -> r1 <> r2 ->
               lookup names r1 = Some n1 -> lookup names r2 = Some n2 -> n1 <> n2
  }.

  Record Inv (vis seen : list nat) (chain : list nmap) (names : names_t) : Prop := {
    i_used : forall r n, In r vis -> lookup names r = Some n -> usedc chain n;
    i_seen : forall r n, lookup names r = Some n -> In r seen;
    i_good : Good vis names;
    i_res : forall k, In k reserved -> usedc chain k;
    i_glob : Glob names
  }.

  (* a symbol of a Good set without a name is not renameable, so it never gets one *)
  Lemma extends_back v a b r :
    Good v a -> extends a b -> Glob b -> In r v -> lookup b r = lookup a r.
  Proof.
    intros G E Gb Hr. destruct (lookup a r) as [n|] eqn:La; [exact (E r n La)|].
    destruct (lookup b r) as [n|] eqn:Lb; [|reflexivity].
    apply (g_ren b Gb) in Lb. apply (gd_none v a G) in La; [congruence | exact Hr].
  Qed.

  Lemma Good_mono v a b : Good v a -> extends a b -> Glob b -> Good v b.
  Proof.
    intros G E Gb. split.
    - intros r Hr. rewrite (extends_back v a b r G E Gb Hr). apply (gd_none v a G r Hr).
    - intros r1 r2 n1 n2 H1 H2.
      rewrite (extends_back v a b r1 G E Gb H1), (extends_back v a b r2 G E Gb H2).
      apply (gd_dist v a G r1 r2 n1 n2 H1 H2).
  Qed.

  Lemma Good_seteq v w names : seteq v w -> Good v names -> Good w names.
  Proof.
    intros P [Gn Gd]. split.
    - intros r Hr. apply Gn, P, Hr.
    - intros r1 r2 n1 n2 H1 H2. apply Gd; apply P; assumption.
  Qed.

  Lemma Inv_keep vis seen chain names r :
    Inv vis seen chain names ->
    (forall n, lookup names r = Some n -> In r vis) -> (lookup names r = None -> rnb r = false) ->
    Inv (r :: vis) (r :: seen) chain names.
  Proof.
    intros I Hv Hn.
    assert (V : forall x n, In x (r :: vis) -> lookup names x = Some n -> In x vis).
    { intros x n [<-|Hx] L; [exact (Hv n L) | exact Hx]. }
    split; try apply I.
    - intros x n Hx L. exact (i_used _ _ _ _ I x n (V x n Hx L) L).
    - intros x n L. right. exact (i_seen _ _ _ _ I x n L).
    - split.
      + intros x [<-|Hx]; [exact Hn | exact (gd_none _ _ (i_good _ _ _ _ I) x Hx)].
      + intros r1 r2 n1 n2 H1 H2 N L1 L2.
        exact (gd_dist _ _ (i_good _ _ _ _ I) r1 r2 n1 n2 (V _ _ H1 L1) (V _ _ H2 L2) N L1 L2).
  Qed.

  Lemma Inv_add vis seen s s' ps names r nm :
    Inv vis seen (s :: ps) names -> lookup names r = None -> rnb r = true ->
    ~ usedc (s :: ps) nm -> nm_has s' nm = true -> (forall k, nm_has s k = true -> nm_has s' k = true) ->
    Inv (r :: vis) (r :: seen) (s' :: ps) ((r, nm) :: names).
  Proof.
    intros I L R Fresh Has Mono.
    assert (Mono' : forall n, usedc (s :: ps) n -> usedc (s' :: ps) n).
    { intros n U. apply usedc_cons in U. apply usedc_cons. destruct U; auto. }
    (* the other visible symbols keep their entries, and these differ from nm *)
    assert (Old : forall x n, In x (r :: vis) -> x <> r -> lookup ((r, nm) :: names) x = Some n ->
              In x vis /\ lookup names x = Some n /\ n <> nm).
    { intros x n Hx N Lx. rewrite lookup_cons_neq in Lx by exact N.
      destruct Hx as [Hx|Hx]; [congruence|]. repeat split; auto.
      intros ->. exact (Fresh (i_used _ _ _ _ I x nm Hx Lx)). }
    split.
    - intros x n Hx Lx. destruct (Nat.eq_dec x r) as [->|N].
      + rewrite lookup_cons_eq in Lx. injection Lx as <-. apply usedc_cons. auto.
      + destruct (Old x n Hx N Lx) as (Hv & Lo & _). exact (Mono' n (i_used _ _ _ _ I x n Hv Lo)).
    - intros x n Lx. destruct (Nat.eq_dec x r) as [->|N]; [left; reflexivity|].
      rewrite lookup_cons_neq in Lx by exact N. right. exact (i_seen _ _ _ _ I x n Lx).
    - split.
      + intros x Hx Lx. destruct (Nat.eq_dec x r) as [->|N]; [rewrite lookup_cons_eq in Lx; discriminate|].
        rewrite lookup_cons_neq in Lx by exact N. destruct Hx as [Hx|Hx]; [congruence|].
        exact (gd_none _ _ (i_good _ _ _ _ I) x Hx Lx).
      + intros r1 r2 n1 n2 H1 H2 N L1 L2.
        destruct (Nat.eq_dec r1 r) as [->|N1], (Nat.eq_dec r2 r) as [->|N2]; [congruence | | |].
        * rewrite lookup_cons_eq in L1. injection L1 as <-.
          destruct (Old r2 n2 H2 N2 L2) as (_ & _ & D). congruence.
        * rewrite lookup_cons_eq in L2. injection L2 as <-.
          destruct (Old r1 n1 H1 N1 L1) as (_ & _ & D). exact D.
        * destruct (Old r1 n1 H1 N1 L1) as (V1 & O1 & _). destruct (Old r2 n2 H2 N2 L2) as (V2 & O2 & _).
          exact (gd_dist _ _ (i_good _ _ _ _ I) r1 r2 n1 n2 V1 V2 N O1 O2).
    - intros k Hk. exact (Mono' k (i_res _ _ _ _ I k Hk)).
    - split; intros x n Lx; (destruct (Nat.eq_dec x r) as [->|N]; [|rewrite lookup_cons_neq in Lx by exact N]).
      + exact R.
      + exact (g_ren _ (i_glob _ _ _ _ I) x n Lx).
      + rewrite lookup_cons_eq in Lx. injection Lx as <-.
        intros Hr. exact (Fresh (i_res _ _ _ _ I nm Hr)).
      + exact (g_res _ (i_glob _ _ _ _ I) x n Lx).
  Qed.

  Lemma assignName_step vis seen s ps names r0 s' names' :
    Inv vis seen (s :: ps) names ->
    (mem_nat (follow st r0) seen && negb (mem_nat (follow st r0) vis) = false) ->
    assignName fuel st s ps names r0 = Some (s', names') ->
    Inv (follow st r0 :: vis) (follow st r0 :: seen) (s' :: ps) names' /\ extends names names'.
  Proof.
    intros I W A. unfold assignName in A. set (r := follow st r0) in *.
    destruct (lookup names r) as [n0|] eqn:L.
    - (* already named: by well-formedness it is visible *)
      injection A as <- <-. split; [|apply extends_refl].
      apply Inv_keep; [exact I | intros _ _ | congruence].
      apply (i_seen _ _ _ _ I) in L. apply mem_nat_In in L. rewrite L in W.
      apply negb_false_iff in W. apply mem_nat_In. exact W.
    - fold (rnb r) in A. destruct (rnb r) eqn:R.
      + destruct (findUnusedName fuel s ps _ _) as [[nm sx]|] eqn:F; [|discriminate].
        injection A as <- <-. apply findUnusedName_fresh in F as (F1 & F2 & F3 & F4).
        split; [|apply extends_cons, L].
        apply (Inv_add vis seen s); auto.
        intros U. apply usedc_cons in U as [U|U]; [congruence | unfold usedc in U; congruence].
      + injection A as <- <-. split; [|apply extends_refl].
        apply Inv_keep; [exact I | congruence | auto].
  Qed.

  Lemma assignNames_inv refs : forall vis seen s ps names s' names' vis' seen',
    Inv vis seen (s :: ps) names ->
    wf_refs vis seen (map (follow st) refs) = Some (vis', seen') ->
    assignNames fuel st s ps names refs = Some (s', names') ->
    Inv vis' seen' (s' :: ps) names' /\ extends names names' /\
    vis' = rev (map (follow st) refs) ++ vis.
  Proof.
    induction refs as [|r0 rest IH]; intros vis seen s ps names s' names' vis' seen' I W A; simpl in *.
    - injection W as <- <-. injection A as <- <-. split; [exact I | split; [apply extends_refl | reflexivity]].
    - destruct (mem_nat (follow st r0) seen && negb (mem_nat (follow st r0) vis)) eqn:Wr; [discriminate|].
      destruct (assignName fuel st s ps names r0) as [[s1 names1]|] eqn:A1; [|discriminate].
      destruct (assignName_step _ _ _ _ _ _ _ _ I Wr A1) as (I1 & E1).
      destruct (IH _ _ _ _ _ _ _ _ _ I1 W A) as (I2 & E2 & V).
      split; [exact I2 | split; [eapply extends_trans; eauto|]].
      rewrite V. rewrite <- app_assoc. reflexivity.
  Qed.

  Lemma Inv_push vis seen chain names : Inv vis seen chain names -> Inv vis seen ([] :: chain) names.
  Proof. intros I. split; apply I. Qed.

  (* what a traversal that started with [names] leaves behind *)
  Definition Post (sets : list (list nat)) (seen' : list nat) (names names' : names_t) : Prop :=
    extends names names' /\ Glob names' /\
    (forall r n, lookup names' r = Some n -> In r seen') /\
    Forall (fun v => Good v names') sets.

  Lemma Post_nil vis seen chain names : Inv vis seen chain names -> Post [] seen names names.
  Proof.
    intros I. split; [apply extends_refl|]. split; [apply (i_glob _ _ _ _ I)|].
    split; [apply (i_seen _ _ _ _ I) | constructor].
  Qed.

  Lemma Post_app s1 s2 seen1 seen2 a b c : Post s1 seen1 a b -> Post s2 seen2 b c -> Post (s1 ++ s2) seen2 a c.
  Proof.
    intros (E1 & _ & _ & F1) (E2 & G2 & S2 & F2).
    split; [exact (extends_trans a b c E1 E2)|]. split; [exact G2|]. split; [exact S2|].
    apply Forall_app. split; [|exact F2].
    eapply Forall_impl; [|exact F1]. intros w Gw. exact (Good_mono w b c Gw E2 G2).
  Qed.

  Lemma Inv_back vis seen seen' chain names names' sets :
    Inv vis seen chain names -> Post sets seen' names names' -> Inv vis seen' chain names'.
  Proof.
    intros I (E & G & S & _). pose proof (i_good _ _ _ _ I) as Gd. split.
    - intros r n Hr. rewrite (extends_back vis names names' r Gd E G Hr). apply (i_used _ _ _ _ I r n Hr).
    - exact S.
    - exact (Good_mono vis names names' Gd E G).
    - apply (i_res _ _ _ _ I).
    - exact G.
  Qed.

  (* a scope or forest traversal, started where the invariant holds for a visible set [vis],
     makes every visibility set below Good; [vis0] is [vis] in the order Spec.vis_sets lists it *)
  Definition Preserves (wf : list nat -> list nat -> option (list nat))
             (run : list nmap -> names_t -> option names_t) (sets : list nat -> list (list nat)) : Prop :=
    forall vis vis0 seen chain names names' seen',
      seteq vis vis0 -> Inv vis seen chain names ->
      wf vis seen = Some seen' -> run chain names = Some names' ->
      Post (sets vis0) seen' names names'.

  (* the scope's own symbols: named in a new numberScope, unless there are none *)
  Lemma own_step sc vis vis0 seen chain names vis1 seen1 chain1 names1 :
    seteq vis vis0 -> Inv vis seen chain names ->
    wf_refs vis seen (canon_decls st sc) = Some (vis1, seen1) ->
    (if nonempty (sc_members sc) || nonempty (sc_generated sc) then
       match assignNames fuel st [] chain names (scope_decls sc) with
       | None => None
       | Some (s, names') => Some (s :: chain, names')
       end
     else Some (chain, names)) = Some (chain1, names1) ->
    Inv vis1 seen1 chain1 names1 /\ extends names names1 /\ seteq vis1 (canon_decls st sc ++ vis0).
  Proof.
    intros P I W1 S. destruct (nonempty (sc_members sc) || nonempty (sc_generated sc)) eqn:NE.
    - destruct (assignNames fuel st [] chain names (scope_decls sc)) as [[s1 n1]|] eqn:A1; [|discriminate].
      injection S as <- <-.
      destruct (assignNames_inv _ _ _ _ _ _ _ _ _ _ (Inv_push _ _ _ _ I) W1 A1) as (I1 & E1 & V).
      split; [exact I1 | split; [exact E1|]].
      rewrite V. apply seteq_rev_app, P.
    - injection S as <- <-.
      assert (D : canon_decls st sc = []).
      { destruct sc as [m g l e ch]. apply orb_false_iff in NE as [N1 N2].
        destruct m; [|discriminate]. destruct g; [|discriminate]. reflexivity. }
      rewrite D in *. injection W1 as <- <-.
      split; [exact I | split; [apply extends_refl | exact P]].
  Qed.

  Lemma assign_inv :
    (forall sc, Preserves (wf_scope st sc) (assignRec fuel st sc) (vis_sets st sc)) /\
    (forall cs, Preserves (wf_forest st cs) (assignForest fuel st cs) (vis_forest st cs)).
  Proof.
    apply scope_forest_ind.
    - intros m g l e ch IH vis vis0 seen chain names names' seen' P I W A.
      rewrite wf_scope_unfold in W. rewrite assignRec_unfold in A. rewrite vis_sets_unfold.
      set (sc := Scope m g l e ch) in *.
      destruct (wf_refs vis seen (canon_decls st sc)) as [[vis1 seen1]|] eqn:W1; [|discriminate].
      destruct (if nonempty m || nonempty g then _ else _) as [[chain1 names1]|] eqn:S1; [|discriminate].
      destruct (own_step sc _ _ _ _ _ _ _ _ _ P I W1 S1) as (I1 & E1 & P1).
      destruct (IH _ _ _ _ _ _ _ P1 I1 W A) as (Ek & Gk & Sk & Fk).
      split; [exact (extends_trans _ _ _ E1 Ek)|]. split; [exact Gk|]. split; [exact Sk|].
      constructor; [|exact Fk].
      exact (Good_mono _ _ _ (Good_seteq _ _ _ P1 (i_good _ _ _ _ I1)) Ek Gk).
    - intros vis vis0 seen chain names names' seen' _ I W A.
      injection W as <-. injection A as <-. exact (Post_nil _ _ _ _ I).
    - intros c r Hc Hr vis vis0 seen chain names names' seen' P I W A. simpl in *.
      destruct (wf_scope st c vis seen) as [seen1|] eqn:Wc; [|discriminate].
      destruct (assignRec fuel st c chain names) as [names1|] eqn:Ac; [|discriminate].
      pose proof (Hc _ _ _ _ _ _ _ P I Wc Ac) as Pc.
      exact (Post_app _ _ _ _ _ _ _ Pc (Hr _ _ _ _ _ _ _ P (Inv_back _ _ _ _ _ _ _ I Pc) W A)).
  Qed.

  Lemma root_has k : In k reserved -> nm_has (root_of reserved) k = true.
  Proof.
    unfold root_of. induction reserved as [|x r IH]; simpl; [tauto|].
    intros [->|H].
    - unfold nm_has. simpl. rewrite name_eqb_refl. reflexivity.
    - unfold nm_has in *. simpl. destruct (name_eqb k x); [reflexivity | apply IH; exact H].
  Qed.

  Lemma Inv_init : Inv [] [] [root_of reserved] [].
  Proof.
    split.
    - intros r n [].
    - intros r n L. discriminate L.
    - split; [intros r [] | intros r1 r2 n1 n2 []].
    - intros k Hk. unfold usedc. simpl. rewrite root_has by exact Hk. reflexivity.
    - split; intros r n L; discriminate L.
  Qed.

  (* [vis0]: the top level listed in any order *)
  Lemma number_rename_good toplevel nested names vis0 :
    number_rename fuel st reserved toplevel nested = Some names ->
    wf_number st toplevel nested = true ->
    seteq (map (follow st) toplevel) vis0 ->
    Glob names /\ Good vis0 names /\ Forall (fun v => Good v names) (vis_forest st nested vis0).
  Proof.
    unfold number_rename, wf_number. intros A W P.
    destruct (assignNames fuel st (root_of reserved) [] [] toplevel) as [[root names0]|] eqn:A0; [|discriminate].
    destruct (wf_refs [] [] (map (follow st) toplevel)) as [[vis seen]|] eqn:W0; [|discriminate].
    destruct (wf_forest st nested vis seen) as [seen'|] eqn:W1; [|discriminate].
    destruct (assignNames_inv _ _ _ _ _ _ _ _ _ _ Inv_init W0 A0) as (I0 & _ & V).
    assert (P0 : seteq vis vis0).
    { intros r. rewrite V, app_nil_r, <- in_rev. apply P. }
    destruct (proj2 assign_inv nested _ _ _ _ _ _ _ P0 I0 W1 A) as (E & G & _ & F).
    split; [exact G | split; [|exact F]].
    exact (Good_mono _ _ _ (Good_seteq _ _ _ P0 (i_good _ _ _ _ I0)) E G).
  Qed.

  Lemma Good_names v names x1 x2 :
    Good v names -> In (follow st x1) v -> In (follow st x2) v -> follow st x1 <> follow st x2 ->
    rnb (follow st x1) = true -> rnb (follow st x2) = true ->
    number_name_for st names x1 <> number_name_for st names x2.
  Proof.
    intros [Gn Gd] H1 H2 N R1 R2. unfold number_name_for.
    destruct (lookup names (follow st x1)) as [n1|] eqn:L1; [|apply Gn in L1; [congruence | exact H1]].
    destruct (lookup names (follow st x2)) as [n2|] eqn:L2; [|apply Gn in L2; [congruence | exact H2]].
    exact (Gd _ _ n1 n2 H1 H2 N L1 L2).
  Qed.
End Number.

Lemma number_renamer_no_shadow_all fuel st reserved toplevel nested names :
  number_rename fuel st reserved toplevel nested = Some names ->
  wf_number st toplevel nested = true ->
  forall v, In v (vis_forest st nested (map (follow st) toplevel)) ->
  forall x1 x2, In (follow st x1) v -> In (follow st x2) v -> follow st x1 <> follow st x2 ->
    renameable (sy_ns (getsym st (follow st x1))) = true ->
    renameable (sy_ns (getsym st (follow st x2))) = true ->
    number_name_for st names x1 <> number_name_for st names x2.
Proof.
  intros A W v Hv x1 x2.
  destruct (number_rename_good fuel st reserved toplevel nested names _ A W (seteq_refl _)) as (_ & _ & F).
  rewrite Forall_forall in F. exact (Good_names st v names x1 x2 (F v Hv)).
Qed.

(* the top-level symbols of all files of a chunk *)
Lemma number_toplevel_distinct_all fuel st reserved toplevel nested names :
  number_rename fuel st reserved toplevel nested = Some names ->
  wf_number st toplevel nested = true ->
  forall x1 x2, In x1 toplevel -> In x2 toplevel -> follow st x1 <> follow st x2 ->
    renameable (sy_ns (getsym st (follow st x1))) = true ->
    renameable (sy_ns (getsym st (follow st x2))) = true ->
    number_name_for st names x1 <> number_name_for st names x2.
Proof.
  intros A W x1 x2 H1 H2.
  destruct (number_rename_good fuel st reserved toplevel nested names _ A W (seteq_refl _)) as (_ & G & _).
  apply (Good_names st _ names x1 x2 G); apply in_map; assumption.
Qed.

Lemma number_renamer_avoids_reserved_all fuel st reserved toplevel nested names :
  number_rename fuel st reserved toplevel nested = Some names ->
  wf_number st toplevel nested = true ->
  forall r n, lookup names r = Some n -> ~ In n reserved.
Proof.
  intros A W. destruct (number_rename_good fuel st reserved toplevel nested names _ A W (seteq_refl _)) as [G _].
  apply (g_res _ _ _ G).
Qed.

Lemma number_pinned_unchanged_all fuel st reserved toplevel nested names :
  number_rename fuel st reserved toplevel nested = Some names ->
  wf_number st toplevel nested = true ->
  forall x, renameable (sy_ns (getsym st (follow st x))) = false ->
    number_name_for st names x = sy_name (getsym st (follow st x)).
Proof.
  intros A W x R. destruct (number_rename_good fuel st reserved toplevel nested names _ A W (seteq_refl _)) as [G _].
  unfold number_name_for. destruct (lookup names (follow st x)) as [n|] eqn:L; [|reflexivity].
  apply (g_ren _ _ _ G) in L. unfold rnb in L. congruence.
Qed.
