(* Resolution is preserved on parser-built forests: for every program of the
   binding-form AST, every reference the parser binds to a symbol s still finds s
   when every name in its environment is replaced by the name the number renamer
   assigned - with no well-formedness hypothesis left (parser_forest_wellformed). *)
From V Require Import Common.Base C15.Names C15.NamesProofs C15.Renamer C15.Spec C15.NumberProofs
  C15.SlotsProofs C15.MinifyProofs C15.ComposeProofs C15.ScopeBuild C15.ScopeProg C15.ScopeBuildProofs.

Section PskInd.
  Variables (P : psk -> Prop) (Q : list psk -> Prop).
  Hypothesis Hpsk : forall f s r ch, Q ch -> P (PSk f s r ch).
  Hypothesis Hnil : Q [].
  Hypothesis Hcons : forall c r, P c -> Q r -> Q (c :: r).
  Fixpoint psk_ind2 (k : psk) : P k :=
    match k with
    | PSk f s r ch =>
        Hpsk f s r ch ((fix go (cs : list psk) : Q cs :=
                          match cs with
                          | [] => Hnil
                          | c :: r => Hcons c r (psk_ind2 c) (go r)
                          end) ch)
    end.
  Lemma psk_forest_ind : (forall k, P k) /\ (forall ch, Q ch).
  Proof.
    split; [exact psk_ind2|].
    induction ch as [|c r IH]; [exact Hnil | exact (Hcons c r (psk_ind2 c) IH)].
  Qed.
End PskInd.

Lemma psk_size_unfold f s r ch : psk_size (PSk f s r ch) = (length f + forest_size ch)%nat.
Proof. reflexivity. Qed.

Fixpoint refs_forest (env : env_t) (cs : list psk) (n : nat) : list (name * env_t) :=
  match cs with
  | [] => []
  | c :: r => refs_of env c n ++ refs_forest env r (n + psk_size c)%nat
  end.
Lemma refs_of_unfold env f s refs ch n :
  refs_of env (PSk f s refs ch) n =
  let env' := combine (map fst f) (seq n (length f)) ++ env in
  map (fun x => (x, env')) refs ++ refs_forest env' ch (n + length f)%nat.
Proof.
  simpl. f_equal. generalize (n + length f)%nat as m.
  induction ch as [|c l IH]; intros m; simpl; [reflexivity | rewrite IH; reflexivity].
Qed.

Lemma erase_unfold f s r ch : erase (PSk f s r ch) = Sk f s (map erase ch).
Proof. reflexivity. Qed.

Lemma fresh_syms_length fresh n : length (fresh_syms fresh n) = length fresh.
Proof. unfold fresh_syms. rewrite map_length, combine_length, seq_length. apply Nat.min_id. Qed.

(* the counter advances by the number of symbols created *)
Lemma number_size :
  (forall k env n sc syms n', number_sk env (erase k) n = (sc, syms, n') ->
     n' = (n + psk_size k)%nat /\ length syms = psk_size k) /\
  (forall ch env n cs syms n', number_forest env (map erase ch) n = (cs, syms, n') ->
     n' = (n + forest_size ch)%nat /\ length syms = forest_size ch).
Proof.
  apply psk_forest_ind.
  - intros f s r ch IH env n sc syms n' B.
    apply number_sk_inv in B as (cs & sy & F & -> & ->). destruct (IH _ _ _ _ _ F) as [-> L].
    rewrite psk_size_unfold, app_length, fresh_syms_length, L. split; [symmetry; apply Nat.add_assoc | reflexivity].
  - intros env n cs syms n' F. injection F as <- <- <-. split; [apply plus_n_O | reflexivity].
  - intros c l Hc Hl env n cs syms n' F.
    apply number_forest_inv in F as (sc1 & s1 & n1 & scs & s2 & B1 & F2 & -> & ->).
    destruct (Hc _ _ _ _ _ B1) as [-> L1]. destruct (Hl _ _ _ _ _ F2) as [-> L2].
    simpl. rewrite app_length, L1, L2. split; [symmetry; apply Nat.add_assoc | reflexivity].
Qed.

Definition rename_env (nmf : nat -> name) (E : env_t) : env_t := map (fun p => (nmf (snd p), snd p)) E.

Lemma env_get_in (E : env_t) x s : env_get E x = Some s -> In (x, s) E.
Proof.
  induction E as [|[y i] r IH]; simpl; [discriminate|].
  destruct (name_eqb x y) eqn:Exy; [|right; auto].
  intros G. injection G as <-. apply name_eqb_eq in Exy. subst y. left. reflexivity.
Qed.

Lemma env_rename_lookup (orig nmf : nat -> name) (E : env_t) x s :
  (forall y i, In (y, i) E -> orig i = y) ->
  (forall i j, In i (map snd E) -> In j (map snd E) -> i <> j -> nmf i = nmf j ->
               nmf i = orig i /\ nmf j = orig j) ->
  env_get E x = Some s ->
  env_get (rename_env nmf E) (nmf s) = Some s.
Proof.
  induction E as [|[y i] r IH]; intros K Inj G; [discriminate|]. simpl in G |- *.
  destruct (name_eqb x y) eqn:Exy.
  - injection G as <-. rewrite name_eqb_refl. reflexivity.
  - apply name_eqb_neq in Exy.
    pose proof (env_get_in r x s G) as Hxs.
    assert (Os : orig s = x) by (apply K; right; exact Hxs).
    assert (Hs : In s (map snd r)) by exact (in_map snd r (x, s) Hxs).
    destruct (name_eqb (nmf s) (nmf i)) eqn:En.
    + exfalso. apply name_eqb_eq in En.
      assert (Ni : i <> s).
      { intros ->. apply Exy. rewrite <- Os. apply (K y s). left. reflexivity. }
      destruct (Inj i s) as [A B]; [left; reflexivity | right; exact Hs | exact Ni | symmetry; exact En|].
      apply Exy. rewrite <- Os, <- B, En, A. apply (K y i). left. reflexivity.
    + apply IH; [intros a b H; apply K; right; exact H | | exact G].
      intros a b Ha Hb. apply Inj; right; assumption.
Qed.

Section Align.
  Variable st : symtab.
  Hypothesis NoLinks : forall r, follow st r = r.

  (* the symbols [syms] sit in the table from position n on *)
  Definition table_at (n : nat) (syms : list symbol) : Prop :=
    forall j, (j < length syms)%nat -> getsym st (n + j) = nth j syms dummy_sym.

  Lemma table_at_app n a b : table_at n (a ++ b) -> table_at n a /\ table_at (n + length a) b.
  Proof.
    intros T. split; intros j Hj.
    - rewrite T by (rewrite app_length; apply Nat.lt_lt_add_r, Hj). apply app_nth1, Hj.
    - rewrite <- Nat.add_assoc, T by (rewrite app_length; apply Nat.add_lt_mono_l, Hj).
      apply app_nth2_plus.
  Qed.

  Lemma fresh_entries fresh : forall n y i,
    table_at n (fresh_syms fresh n) ->
    In (y, i) (combine (map fst fresh) (seq n (length fresh))) ->
    sy_name (getsym st i) = y.
  Proof.
    induction fresh as [|p r IH]; intros n y i H I; [destruct I|].
    change (fresh_syms (p :: r) n) with ([mkSym (fst p) (snd p) None false 0 (Z.of_nat n)] ++ fresh_syms r (S n)) in H.
    apply table_at_app in H as [H0 H]. simpl in I. destruct I as [E|I].
    - injection E as <- <-. specialize (H0 0%nat Nat.lt_0_1). rewrite Nat.add_0_r in H0.
      rewrite H0. reflexivity.
    - apply (IH (S n)); [|exact I]. simpl in H. rewrite Nat.add_1_r in H. exact H.
  Qed.

  (* an environment carries the table's names and binds symbols of [a] only *)
  Definition env_good (env : env_t) (a : list nat) : Prop :=
    (forall y i, In (y, i) env -> sy_name (getsym st i) = y) /\ incl (map snd env) a.

  (* the environment of a reference is good for one of the visibility sets *)
  Definition ref_good (sets : list (list nat)) (xE : name * env_t) : Prop :=
    exists v, In v sets /\ env_good (snd xE) v.

  Lemma ref_good_incl s1 s2 xE : incl s1 s2 -> ref_good s1 xE -> ref_good s2 xE.
  Proof. intros H (w & Hw & G). exists w. split; [exact (H w Hw) | exact G]. Qed.

  Lemma refs_aligned :
    (forall k env n a sc syms n',
       number_sk env (erase k) n = (sc, syms, n') -> env_good env a -> table_at n syms ->
       Forall (ref_good (vis_sets st sc a)) (refs_of env k n)) /\
    (forall ch env n a cs syms n',
       number_forest env (map erase ch) n = (cs, syms, n') -> env_good env a -> table_at n syms ->
       Forall (ref_good (vis_forest st cs a)) (refs_forest env ch n)).
  Proof.
    apply psk_forest_ind.
    - intros f s refs ch IH env n a sc syms n' B EG TB.
      apply number_sk_inv in B as (cs & sy & F & -> & ->).
      set (ids := seq n (length f)) in *.
      set (env' := combine (map fst f) ids ++ env) in *.
      apply table_at_app in TB as [TBf TBc]. rewrite fresh_syms_length in TBc.
      rewrite refs_of_unfold. cbv zeta. fold ids. fold env'.
      rewrite vis_sets_unfold, canon_is_decls by exact NoLinks.
      set (mem := ids ++ shared_ids env s).
      change (scope_decls (Scope mem [] None false cs)) with (sort_nat mem ++ []).
      set (v := (sort_nat mem ++ []) ++ a).
      assert (EG' : env_good env' v).
      { destruct EG as [EGn EGi]. split.
        - intros y i I. apply in_app_iff in I as [I|I]; [exact (fresh_entries f n y i TBf I) | exact (EGn y i I)].
        - unfold env'. rewrite map_app. apply incl_app; [|apply incl_appr, EGi].
          intros i I. apply in_map_iff in I as ([y i'] & <- & I). apply in_combine_r in I.
          apply in_app_iff. left. rewrite app_nil_r. apply sort_nat_in, in_app_iff. left. exact I. }
      apply Forall_app. split.
      + apply Forall_forall. intros [x E] I. apply in_map_iff in I as (x0 & Ex & _). injection Ex as <- <-.
        exists v. split; [left; reflexivity | exact EG'].
      + eapply Forall_impl; [|exact (IH _ _ _ _ _ _ F EG' TBc)].
        intros xE. apply ref_good_incl. intros w Hw. right. exact Hw.
    - constructor.
    - intros c l Hc Hl env n a cs syms n' F EG TB.
      apply number_forest_inv in F as (sc1 & s1 & n1 & scs & s2 & B1 & F2 & -> & ->). simpl.
      apply table_at_app in TB as [TB1 TB2].
      destruct (proj1 number_size c _ _ _ _ _ B1) as [-> L1]. rewrite L1 in TB2.
      apply Forall_app. split.
      + eapply Forall_impl; [|exact (Hc _ _ _ _ _ _ B1 EG TB1)].
        intros xE. apply ref_good_incl. intros w Hw. apply in_app_iff. left. exact Hw.
      + eapply Forall_impl; [|exact (Hl _ _ _ _ _ _ F2 EG TB2)].
        intros xE. apply ref_good_incl. intros w Hw. apply in_app_iff. right. exact Hw.
  Qed.
End Align.

Lemma vis_in_tree st (NoLinks : forall r, follow st r = r) sc : forall a v,
  In v (vis_sets st sc a) -> forall i, In i v -> In i a \/ In i (tree_decls sc).
Proof.
  induction sc as [m g l e ch IHch] using scope_ind'. intros a v Hv i Hi.
  rewrite vis_sets_unfold, canon_is_decls in Hv by exact NoLinks. rewrite tree_decls_unfold.
  set (w := scope_decls (Scope m g l e ch) ++ a) in *.
  assert (D : forall j, In j w -> In j a \/ In j (m ++ g ++ flat_map tree_decls ch)).
  { intros j. unfold w, scope_decls. simpl. rewrite !in_app_iff, sort_nat_in. tauto. }
  destruct Hv as [<-|Hv]; [exact (D i Hi)|].
  (* v belongs to a child c: by induction i is visible at this scope or declared below c *)
  apply vis_forest_in in Hv as (c & Ic & Hv). rewrite Forall_forall in IHch.
  destruct (IHch c Ic w v Hv i Hi) as [A|A]; [exact (D i A)|].
  right. rewrite !in_app_iff. right. right. apply in_flat_map. exists c. split; assumption.
Qed.

Lemma parser_refs_facts prog :
  let '(m, st) := parse_forest prog in
  (forall r, follow st r = r) /\
  Forall (ref_good st (vis_sets st m [])) (parser_refs prog).
Proof.
  unfold parse_forest, build_sk, skel_of_prog.
  destruct (number_sk [] (erase (closed_psk prog)) 0) as [[m st] n'] eqn:B.
  destruct (proj1 number_nolabel _ _ _ _ _ _ B) as [_ NLk].
  pose proof (follow_nolinks st NLk) as NoLinks. split; [exact NoLinks|].
  apply (proj1 (refs_aligned st NoLinks) (closed_psk prog) [] 0%nat [] m st n' B).
  - split; [intros y i [] | intros i []].
  - intros j _. reflexivity.
Qed.

Lemma lookup_preserved_gen (st : symtab) (nmf : nat -> name) (E : env_t) x s :
  (forall y i, In (y, i) E -> sy_name (getsym st i) = y) ->
  (forall i, In i (map snd E) -> sy_ns (getsym st i) = NsPinned -> nmf i = sy_name (getsym st i)) ->
  (forall i j, In i (map snd E) -> In j (map snd E) ->
     sy_ns (getsym st i) <> NsPinned -> sy_ns (getsym st j) = NsPinned -> nmf i <> sy_name (getsym st j)) ->
  (forall i j, In i (map snd E) -> In j (map snd E) -> i <> j ->
     sy_ns (getsym st i) <> NsPinned -> sy_ns (getsym st j) <> NsPinned -> nmf i <> nmf j) ->
  env_get E x = Some s ->
  env_get (rename_env nmf E) (nmf s) = Some s.
Proof.
  intros K Keep Avoid D G.
  apply (env_rename_lookup (fun i => sy_name (getsym st i)) nmf E x s K); [|exact G].
  intros i j Hi Hj N E'.
  destruct (ns_dec (sy_ns (getsym st i)) NsPinned) as [Pi|Pi];
    destruct (ns_dec (sy_ns (getsym st j)) NsPinned) as [Pj|Pj].
  - split; apply Keep; assumption.
  - exfalso. apply (Avoid j i Hj Hi Pj Pi). rewrite <- E'. apply Keep; assumption.
  - exfalso. apply (Avoid i j Hi Hj Pi Pj). rewrite E'. apply Keep; assumption.
  - exfalso. apply (D i j Hi Hj N Pi Pj E').
Qed.

(* symbols of parser forests are ordinary bindings or pinned *)
Definition ns_plain (n : ns) : Prop := n = NsDefault \/ n = NsPinned.
Definition fresh_plain (f : list (name * ns)) : Prop := Forall (fun p => ns_plain (snd p)) f.
Inductive psk_plain : psk -> Prop :=
| PP f s r ch : fresh_plain f -> Forall psk_plain ch -> psk_plain (PSk f s r ch).

Section StmtInd.
  Variable P : stmt -> Prop.
  Hypothesis Hvar : forall x, P (SVar x).
  Hypothesis Hlet : forall x, P (SLet x).
  Hypothesis Href : forall x, P (SRef x).
  Hypothesis Hblock : forall b, Forall P b -> P (SBlock b).
  Hypothesis Htry : forall b p c, Forall P b -> Forall P c -> P (STry b p c).
  Hypothesis Hfor : forall x b, Forall P b -> P (SForLet x b).
  Hypothesis Hfunc : forall f ps b, Forall P b -> P (SFunc f ps b).
  Hypothesis Hfexpr : forall self ps b, Forall P b -> P (SFuncExpr self ps b).
  Hypothesis Harrow : forall ps b, Forall P b -> P (SArrow ps b).
  Hypothesis Heval : P SEval.
  Hypothesis Hwith : forall b, Forall P b -> P (SWith b).
  Fixpoint stmt_ind' (s : stmt) : P s :=
    let go := fix go (l : list stmt) : Forall P l :=
                match l with [] => Forall_nil P | x :: r => Forall_cons x (stmt_ind' x) (go r) end in
    match s with
    | SVar x => Hvar x | SLet x => Hlet x | SRef x => Href x
    | SBlock b => Hblock b (go b)
    | STry b p c => Htry b p c (go b) (go c)
    | SForLet x b => Hfor x b (go b)
    | SFunc f ps b => Hfunc f ps b (go b)
    | SFuncExpr self ps b => Hfexpr self ps b (go b)
    | SArrow ps b => Harrow ps b (go b)
    | SEval => Heval
    | SWith b => Hwith b (go b)
    end.
End StmtInd.

Lemma dflt_plain l : fresh_plain (dflt l).
Proof. apply Forall_forall. intros p H. apply in_map_iff in H as (x & <- & _). left. reflexivity. Qed.
Lemma pinned_plain l : fresh_plain (map (fun x => (x, NsPinned)) l).
Proof. apply Forall_forall. intros p H. apply in_map_iff in H as (x & <- & _). right. reflexivity. Qed.
Lemma app_plain f g : fresh_plain f -> fresh_plain g -> fresh_plain (f ++ g).
Proof. intros F G. apply Forall_app. split; assumption. Qed.

(* the skeletons of ScopeProg are built from dflt lists, pinned lists and nesting only *)
Create HintDb plain.
#[local] Hint Constructors psk_plain Forall : plain.
#[local] Hint Resolve dflt_plain pinned_plain app_plain : plain.
#[local] Hint Resolve <- Forall_flat_map : plain.
#[local] Hint Extern 1 (fresh_plain []) => apply Forall_nil : plain.

Lemma block_plain b : Forall (fun s => Forall psk_plain (scopes_of s)) b -> psk_plain (block_with scopes_of b).
Proof. unfold block_with. auto with plain. Qed.
Lemma fn_plain self ps ha b : Forall (fun s => Forall psk_plain (scopes_of s)) b -> psk_plain (fn_with scopes_of self ps ha b).
Proof. unfold fn_with. auto 8 with plain. Qed.
#[local] Hint Resolve block_plain fn_plain : plain.

Lemma scopes_plain s : Forall psk_plain (scopes_of s).
Proof.
  revert s. apply stmt_ind'; cbn [scopes_of]; intros; auto 6 with plain.
  destruct p as [e|]; [destruct (mem_name e (flat_map var_names c))|]; auto 8 with plain.
Qed.

Fixpoint pin_forest (cs : list psk) : list psk * list travel :=
  match cs with
  | [] => ([], [])
  | c :: r => let '(c', t1) := pin_psk c in let '(r', t2) := pin_forest r in (c' :: r', t1 ++ t2)
  end.

Lemma pin_psk_unfold fresh shared refs ch :
  pin_psk (PSk fresh shared refs ch) =
  let '(ch', below) := pin_forest ch in
  let incoming := map (fun x => (x, false, false)) refs ++ below in
  let '(pinned, out) := step_records (mem_name with_marker shared) (map fst fresh) shared incoming in
  let all := has_eval (PSk fresh shared refs ch) in
  let hoisted := map (fun x => (x, false, false))
                     (filter (fun x => negb (name_eqb x with_marker || name_eqb x eval_marker)) shared) in
  (PSk (map (fun p => (fst p, if all || mem_name (fst p) pinned then NsPinned else snd p)) fresh) shared refs ch', out ++ hoisted).
Proof.
  cbn [pin_psk].
  assert (E : forall cs,
    (fix go (cs : list psk) : list psk * list travel :=
       match cs with
       | [] => ([], [])
       | c :: r => let '(c', t1) := pin_psk c in let '(r', t2) := go r in (c' :: r', t1 ++ t2)
       end) cs = pin_forest cs).
  { induction cs as [|c r IH]; simpl; [reflexivity|]. destruct (pin_psk c). rewrite IH. reflexivity. }
  rewrite E. reflexivity.
Qed.

Lemma pin_plain :
  (forall k, psk_plain k -> psk_plain (fst (pin_psk k))) /\
  (forall cs, Forall psk_plain cs -> Forall psk_plain (fst (pin_forest cs))).
Proof.
  apply psk_forest_ind.
  - intros f s r ch IH PL. inversion PL as [? ? ? ? Pf Pch]; subst.
    rewrite pin_psk_unfold. specialize (IH Pch).
    destruct (pin_forest ch) as [ch' below]. cbv zeta.
    destruct (step_records _ _ _ _) as [pinned out]. simpl in *.
    constructor; [|exact IH].
    apply Forall_forall. intros p Hp. apply in_map_iff in Hp as (q & <- & Hq). simpl.
    destruct (_ || _); [right; reflexivity|]. exact (proj1 (Forall_forall _ _) Pf q Hq).
  - intros _. constructor.
  - intros c l Hc Hl Pcl. inversion Pcl as [|? ? Pc Pl]; subst. simpl.
    specialize (Hc Pc). specialize (Hl Pl).
    destruct (pin_psk c) as [c' t1]. destruct (pin_forest l) as [r' t2]. constructor; assumption.
Qed.

Lemma closed_plain prog : psk_plain (closed_psk prog).
Proof.
  unfold closed_psk, module_psk. apply (proj1 pin_plain). constructor.
  - apply app_plain; [apply dflt_plain | apply pinned_plain].
  - apply Forall_flat_map. apply Forall_forall. intros s _. apply scopes_plain.
Qed.

Lemma number_plain :
  (forall k, psk_plain k -> forall env n sc syms n',
     number_sk env (erase k) n = (sc, syms, n') -> Forall (fun s => ns_plain (sy_ns s)) syms) /\
  (forall ch, Forall psk_plain ch -> forall env n cs syms n',
     number_forest env (map erase ch) n = (cs, syms, n') -> Forall (fun s => ns_plain (sy_ns s)) syms).
Proof.
  apply psk_forest_ind.
  - intros f s r ch IH PL env n sc syms n' B. inversion PL as [? ? ? ? Pf Pch]; subst.
    apply number_sk_inv in B as (cs & sy & F & -> & ->). apply Forall_app. split; [|exact (IH Pch _ _ _ _ _ F)].
    unfold fresh_syms. apply Forall_forall. intros x Hx. apply in_map_iff in Hx as ([p i] & <- & Hp).
    simpl. apply in_combine_l in Hp. exact (proj1 (Forall_forall _ _) Pf p Hp).
  - intros _ env n cs syms n' F. injection F as <- <- <-. constructor.
  - intros c l Hc Hl Pcl env n cs syms n' F. inversion Pcl as [|? ? Pc Pl]; subst.
    apply number_forest_inv in F as (sc1 & s1 & n1 & scs & s2 & B1 & F2 & -> & ->).
    apply Forall_app. split; [exact (Hc Pc _ _ _ _ _ B1) | exact (Hl Pl _ _ _ _ _ F2)].
Qed.

Lemma parse_forest_plain_ns prog i :
  let '(_, st) := parse_forest prog in ns_plain (sy_ns (getsym st i)).
Proof.
  unfold parse_forest, build_sk, skel_of_prog.
  destruct (number_sk [] (erase (closed_psk prog)) 0) as [[m st] n'] eqn:B.
  pose proof (proj1 number_plain _ (closed_plain prog) _ _ _ _ _ B) as F.
  unfold getsym. destruct (nth_in_or_default i st dummy_sym) as [I|E].
  - rewrite Forall_forall in F. apply F. exact I.
  - rewrite E. right. reflexivity.
Qed.

Lemma parse_forest_wf_wrapped prog :
  let '(m, st) := parse_forest prog in wf_number st [] [m] = true.
Proof.
  unfold parse_forest, build_sk.
  destruct (number_sk [] (skel_of_prog prog) 0) as [[m st] n'] eqn:B.
  destruct (proj1 number_nolabel _ _ _ _ _ _ B) as [_ NLk].
  pose proof (follow_nolinks st NLk) as NoLinks.
  destruct (proj1 (number_wf st NoLinks) _ [] 0%nat [] [] m st n' B) as (seen' & Wf & _).
  - intros x i G. discriminate.
  - intros r [].
  - unfold wf_number. simpl. rewrite Wf. reflexivity.
Qed.

Definition ref_preserved (st : symtab) (names : names_t) (xE : name * env_t) : Prop :=
  forall s, env_get (snd xE) (fst xE) = Some s ->
    env_get (rename_env (number_name_for st names) (snd xE)) (number_name_for st names s) = Some s.

Lemma good_table_preserves prog reserved names :
  let '(m, st) := parse_forest prog in
  Glob st reserved names -> Forall (fun v => Good st v names) (vis_sets st m []) ->
  incl (ComputeReservedNames st [m]) reserved ->
  Forall (ref_preserved st names) (parser_refs prog).
Proof.
  pose proof (parser_refs_facts prog) as F. pose proof (parse_forest_plain_ns prog) as PLN.
  destruct (parse_forest prog) as [m st]. destruct F as [NoLinks F]. intros G Gd Incl.
  assert (Nm : forall i, number_name_for st names i =
                         match lookup names i with Some n => n | None => sy_name (getsym st i) end).
  { intros i. unfold number_name_for. rewrite NoLinks. reflexivity. }
  assert (Ren : forall i, sy_ns (getsym st i) <> NsPinned -> rnb st i = true).
  { intros i Np. unfold rnb. destruct (PLN i) as [D|D]; [rewrite D; reflexivity | contradiction]. }
  rewrite Forall_forall in Gd.
  eapply Forall_impl; [|exact F]. intros [x E] (v & Hv & K & Vi) s Gs. simpl in *.
  apply (lookup_preserved_gen st (number_name_for st names) E x s K); [| | |exact Gs].
  - (* a pinned symbol is never entered into the table *)
    intros i _ Pi. rewrite Nm. destruct (lookup names i) as [n|] eqn:L; [|reflexivity].
    apply (g_ren _ _ _ G) in L. unfold rnb in L. rewrite Pi in L. discriminate.
  - (* a new name is not reserved, the name of a pinned symbol of the tree is *)
    intros i j Hi Hj Pi Pj. rewrite Nm. destruct (lookup names i) as [n|] eqn:L.
    + intros ->. apply (g_res _ _ _ G i _ L), Incl.
      apply (reserved_covers st [m] m j); [left; reflexivity | | exact Pj].
      destruct (vis_in_tree st NoLinks m [] v Hv j (Vi j Hj)) as [[]|T]. exact T.
    + apply (gd_none _ _ _ (Gd v Hv)) in L; [|exact (Vi i Hi)]. rewrite (Ren i Pi) in L. discriminate.
  - intros i j Hi Hj N Pi Pj.
    pose proof (Good_names st v names i j (Gd v Hv)) as D. rewrite !NoLinks in D.
    exact (D (Vi i Hi) (Vi j Hj) N (Ren i Pi) (Ren j Pj)).
Qed.

(* the module scope handled as a nested scope (CommonJS-wrapped files: nestedScopes = [ModuleScope]) *)
Lemma resolution_preserved_wrapped_all prog fuel reserved names :
  let '(m, st) := parse_forest prog in
  number_rename fuel st reserved [] [m] = Some names ->
  incl (ComputeReservedNames st [m]) reserved ->
  Forall (ref_preserved st names) (parser_refs prog).
Proof.
  pose proof (good_table_preserves prog reserved names) as R. pose proof (parse_forest_wf_wrapped prog) as W.
  destruct (parse_forest prog) as [m st]. intros A Incl.
  destruct (number_rename_good fuel st reserved [] [m] names [] A W (seteq_refl _)) as (G & _ & F).
  simpl in F. rewrite app_nil_r in F. exact (R G F Incl).
Qed.

(* the usual case: the module scope's symbols are the top-level symbols, its children the nested scopes *)
Lemma resolution_preserved_toplevel_all prog fuel reserved names :
  let '(m, st) := parse_forest prog in
  number_rename fuel st reserved (module_top m) (sc_children m) = Some names ->
  incl (ComputeReservedNames st [m]) reserved ->
  Forall (ref_preserved st names) (parser_refs prog).
Proof.
  pose proof (good_table_preserves prog reserved names) as R. pose proof (parse_forest_wellformed_all prog) as W.
  pose proof (parser_refs_facts prog) as F.
  destruct (parse_forest prog) as [[mem gen lbl ev ch] st]. destruct W as [_ W]. destruct F as [NoLinks _].
  intros A Incl.
  (* the module scope lists its members sorted, the renamer takes them as they come *)
  assert (P : seteq (map (follow st) (module_top (Scope mem gen lbl ev ch)))
                    (canon_decls st (Scope mem gen lbl ev ch) ++ [])).
  { intros r. rewrite app_nil_r, canon_is_decls, map_follow_id by exact NoLinks.
    symmetry. apply scope_decls_top. }
  destruct (number_rename_good fuel st reserved _ _ names _ A W P) as (G & G0 & F).
  apply (R G); [rewrite vis_sets_unfold; constructor; assumption | exact Incl].
Qed.
