(* Composition: slot -> name.  The names AssignNamesByFrequency stores in the
   slots of one name space are pairwise distinct per slot index, hence
   (i) symbols visible together in nested scopes, (ii) two top-level symbols of
   a chunk (all files merged), (iii) a top-level and a nested symbol, never
   share a minified name. *)
From V Require Import Common.Base C15.Names C15.NamesProofs C15.Renamer C15.Spec
  C15.NumberProofs C15.SlotsProofs C15.MinifyProofs.
From Coq Require Import Permutation.

Lemma sac_sort_perm l : Permutation (sac_sort l) l.
Proof.
  apply (insertion_sort_perm sac_insert); try reflexivity.
  apply insert_perm; [reflexivity|]. intros x y r. simpl. destruct (sac_less y x); auto.
Qed.

Lemma sac_array_fst_in l : forall k i, In i (map fst (sac_array l k)) <-> k <= i < k + Z.of_nat (length l).
Proof.
  induction l as [|s r IH]; intros k i; simpl; [lia|].
  rewrite IH. lia.
Qed.

Lemma zlookup_in asg i : In i (map fst asg) -> In (i, zlookup asg i) asg.
Proof.
  unfold zlookup. induction asg as [|[j n] r IH]; simpl; [tauto|].
  intros H. destruct (j =? i) eqn:E.
  - apply Z.eqb_eq in E. subst. left. reflexivity.
  - right. apply IH. destruct H as [H|H]; [apply Z.eqb_neq in E; contradiction | exact H].
Qed.

Lemma NoDup_snd_inj (asg : list (Z * name)) i1 i2 n :
  NoDup (map snd asg) -> In (i1, n) asg -> In (i2, n) asg -> i1 = i2.
Proof.
  induction asg as [|[j m] r IH]; simpl; intros ND H1 H2; [tauto|].
  inversion ND as [|? ? NI ND']; subst.
  destruct H1 as [H1|H1]; destruct H2 as [H2|H2].
  - congruence.
  - injection H1 as -> ->. exfalso. apply NI. apply in_map_iff. exists (i2, n). auto.
  - injection H2 as -> ->. exfalso. apply NI. apply in_map_iff. exists (i1, n). auto.
  - apply IH; auto.
Qed.

Lemma out_name asg (slots : list slot) : forall k n, (n < length slots)%nat ->
  sl_name (nth n (map (fun p => mkSlot (zlookup asg (fst p)) (sl_count (snd p)) (sl_jsx (snd p)))
                      (combine (map fst (sac_array slots k)) slots)) empty_slot) = zlookup asg (k + Z.of_nat n).
Proof.
  induction slots as [|x r IH]; intros k [|n] H; try destruct (Nat.nlt_0_r _ H).
  - simpl. rewrite Z.add_0_r. reflexivity.
  - rewrite Nat2Z.inj_succ, <- Z.add_succ_comm. apply (IH (k + 1)), Nat.succ_lt_mono, H.
Qed.

Lemma out_length asg (slots : list slot) k :
  length (map (fun p => mkSlot (zlookup asg (fst p)) (sl_count (snd p)) (sl_jsx (snd p)))
              (combine (map fst (sac_array slots k)) slots)) = length slots.
Proof.
  rewrite map_length, combine_length, map_length.
  assert (E : length (sac_array slots k) = length slots).
  { revert k. induction slots as [|x r IH]; intros k; simpl; [reflexivity | rewrite IH; reflexivity]. }
  rewrite E. apply Nat.min_id.
Qed.

Lemma Forall2_same_fst (P : Z * name -> Z * Z -> Prop) l m :
  Forall2 P l m -> map fst l = map fst m ->
  Forall (fun p => exists s, fst s = fst p /\ P p s) l.
Proof.
  induction 1 as [|p s l m Pps F IH]; intros E; [constructor|].
  simpl in E. injection E as E1 E2. constructor; [exists s; split; [symmetry; exact E1 | exact Pps] | apply IH; exact E2].
Qed.

Definition slot_name (l : list slot) (i : Z) : name := sl_name (nth (Z.to_nat i) l empty_slot).

Lemma names_for_ns_inv fuel mf reserved nsr slots out :
  names_for_ns fuel mf reserved nsr slots = Some out ->
  exists asg,
    assign_sorted fuel mf reserved nsr slots (sac_sort (sac_array slots 0)) 0 = Some asg /\
    length out = length slots /\
    forall i, 0 <= i < Z.of_nat (length slots) -> In (i, slot_name out i) asg.
Proof.
  unfold names_for_ns. intros H.
  destruct (assign_sorted fuel mf reserved nsr slots (sac_sort (sac_array slots 0)) 0) as [asg|] eqn:A; [|discriminate].
  injection H as <-. exists asg. split; [reflexivity | split; [apply out_length|]].
  intros i Hi. unfold slot_name. rewrite out_name.
  - rewrite Z2Nat.id by apply Hi. apply zlookup_in.
    rewrite (proj1 (assign_sorted_ok mf reserved fuel nsr slots _ _ _ A)).
    eapply Permutation_in; [apply Permutation_sym, Permutation_map, sac_sort_perm|].
    apply sac_array_fst_in. exact Hi.
  - apply Nat2Z.inj_lt. rewrite Z2Nat.id by apply Hi. apply Hi.
Qed.

Lemma names_for_ns_ok fuel mf reserved nsr slots out :
  names_for_ns fuel mf reserved nsr slots = Some out ->
  forall i, 0 <= i < Z.of_nat (length slots) ->
    name_ok reserved nsr (sl_jsx (nth (Z.to_nat i) slots empty_slot)) (slot_name out i).
Proof.
  intros H i Hi. destruct (names_for_ns_inv _ _ _ _ _ _ H) as (asg & A & _ & I).
  destruct (assign_sorted_ok mf reserved fuel nsr slots _ _ _ A) as (F & F2).
  pose proof (Forall2_same_fst _ _ _ F2 F) as FA. rewrite Forall_forall in FA.
  destruct (FA _ (I i Hi)) as (sx & Es & k & _ & _ & OK). simpl in Es. rewrite Es in OK. exact OK.
Qed.

Section Compose.
  Variable mf : minifier.
  Hypothesis NDh : NoDup (m_head mf).
  Hypothesis NDt : NoDup (m_tail mf).
  Hypothesis Hh : 1 <= zlen (m_head mf).
  Hypothesis Ht : 2 <= zlen (m_tail mf).
  Variable reserved : list name.

  Lemma names_for_ns_spec fuel nsr slots out :
    names_for_ns fuel mf reserved nsr slots = Some out ->
    length out = length slots /\
    (forall i1 i2, 0 <= i1 < Z.of_nat (length slots) -> 0 <= i2 < Z.of_nat (length slots) -> i1 <> i2 ->
       slot_name out i1 <> slot_name out i2) /\
    (forall i, 0 <= i < Z.of_nat (length slots) ->
       name_ok reserved nsr (sl_jsx (nth (Z.to_nat i) slots empty_slot)) (slot_name out i)).
  Proof.
    intros H. destruct (names_for_ns_inv _ _ _ _ _ _ H) as (asg & A & Len & I).
    split; [exact Len | split; [|exact (names_for_ns_ok _ _ _ _ _ _ H)]].
    intros i1 i2 H1 H2 N E. apply N.
    apply (NoDup_snd_inj asg i1 i2 (slot_name out i1)).
    - exact (assign_sorted_nodup mf NDh NDt Hh Ht reserved fuel nsr slots _ _ _ A (Z.le_refl 0)).
    - exact (I i1 H1).
    - rewrite E. exact (I i2 H2).
  Qed.
End Compose.

Lemma ssc_sort_perm st l : Permutation (ssc_sort st l) l.
Proof.
  apply (insertion_sort_perm (ssc_insert st)); try reflexivity.
  apply insert_perm; [reflexivity|]. intros x y r. simpl. destruct (ssc_less st x y); auto.
Qed.

Definition nonpinned (st : symtab) (e : ssc) : Prop := sy_ns (getsym st (snd (fst e))) <> NsPinned.

Lemma accumulate_unfold st slots stable m tops r0 count :
  AccumulateSymbolCount st slots stable (m, tops) (r0, count) =
  let r := follow st r0 in
  let sym := getsym st r in
  if ns_eqb (sy_ns sym) NsPinned then (m, tops)
  else match lookup slots r with
       | Some i =>
           (ms_set_slots m (sy_ns sym)
              (upd_nth (ms_slots m (sy_ns sym)) (Z.to_nat i)
                 (fun s => mkSlot (sl_name s) (sl_count s + count) (sl_jsx s || sy_jsx sym))), tops)
       | None => (m, tops ++ [(nth (Z.to_nat (sy_src sym)) stable 0, r, count)])
       end.
Proof. unfold AccumulateSymbolCount. simpl. destruct (sy_ns (getsym st (follow st r0))); reflexivity. Qed.

(* what the accumulate phase may do to the renamer state and the list of top-level
   symbols: nothing to the top-level table and the slot counts, only non-pinned additions *)
Definition counts_only (st : symtab) (a b : mstate * list ssc) : Prop :=
  ms_top (fst b) = ms_top (fst a) /\ (forall n, slen (fst b) n = slen (fst a) n) /\
  (Forall (nonpinned st) (snd a) -> Forall (nonpinned st) (snd b)).

Lemma counts_only_refl st a : counts_only st a a.
Proof. split; [reflexivity | split; [reflexivity | auto]]. Qed.
Lemma counts_only_trans st a b c : counts_only st a b -> counts_only st b c -> counts_only st a c.
Proof.
  intros (A1 & A2 & A3) (B1 & B2 & B3).
  split; [congruence | split; [intros n; rewrite B2; apply A2 | auto]].
Qed.

Lemma counts_only_fold {U} st (f : mstate * list ssc -> U -> mstate * list ssc) :
  (forall a u, counts_only st a (f a u)) -> forall l a, counts_only st a (fold_left f l a).
Proof.
  intros H l. induction l as [|u r IH]; intros a; [apply counts_only_refl|].
  exact (counts_only_trans st _ _ _ (H a u) (IH (f a u))).
Qed.

Lemma accumulate_one st slots stable a use : counts_only st a (AccumulateSymbolCount st slots stable a use).
Proof.
  destruct a as [m tops], use as [r0 count]. rewrite accumulate_unfold. cbv zeta.
  set (r := follow st r0). set (sym := getsym st r).
  destruct (ns_eqb (sy_ns sym) NsPinned) eqn:NS; [apply counts_only_refl|].
  assert (NP : sy_ns sym <> NsPinned) by (intros E; apply ns_eqb_eq in E; congruence).
  destruct (lookup slots r) as [i|] eqn:L; unfold counts_only; simpl.
  - split; [apply ms_top_set | split; [intros n; apply slen_upd, NP | auto]].
  - split; [reflexivity | split; [reflexivity|]].
    intros F. apply Forall_app. split; [exact F | constructor; [exact NP | constructor]].
Qed.

Lemma accumulate_group_counts st slots stable a uses : counts_only st a (accumulate_group st slots stable a uses).
Proof.
  destruct a as [m tops]. unfold accumulate_group.
  pose proof (counts_only_fold st _ (accumulate_one st slots stable) uses (m, [])) as (A1 & A2 & A3).
  destruct (fold_left (AccumulateSymbolCount st slots stable) uses (m, [])) as [m1 t1].
  split; [exact A1 | split; [exact A2|]]. simpl in *.
  intros F. apply Forall_app. split; [exact F|].
  eapply Permutation_Forall; [apply Permutation_sym, ssc_sort_perm | apply A3; constructor].
Qed.

Lemma AssignNamesByFrequency_spec fuel mf reserved m m' :
  AssignNamesByFrequency fuel mf reserved m = Some m' ->
  ms_top m' = ms_top m /\
  forall n, n <> NsPinned -> names_for_ns fuel mf reserved n (ms_slots m n) = Some (ms_slots m' n).
Proof.
  unfold AssignNamesByFrequency.
  destruct (names_for_ns fuel mf reserved NsDefault _) as [a|] eqn:A; [|discriminate].
  destruct (names_for_ns fuel mf reserved NsLabel _) as [b|] eqn:B; [|discriminate].
  destruct (names_for_ns fuel mf reserved NsPrivate _) as [c|] eqn:C; [|discriminate].
  destruct (names_for_ns fuel mf reserved NsMangled _) as [d|] eqn:D; [|discriminate].
  intros E. injection E as <-. split; [reflexivity|].
  intros n N. destruct n; simpl; auto; try contradiction.
Qed.

(* the slot a canonical symbol is printed from (MinifyRenamer.NameForSymbol) *)
Definition slot_of (slots : slotmap) (m : mstate) (r : nat) : option Z :=
  match lookup slots r with Some i => Some i | None => lookup (ms_top m) r end.

Lemma minify_name_slot st slots m r i :
  follow st r = r -> sy_ns (getsym st r) <> NsPinned -> slot_of slots m r = Some i ->
  minify_name_for st slots m r = slot_name (ms_slots m (sy_ns (getsym st r))) i.
Proof.
  intros Fr NP S. unfold minify_name_for, slot_name. rewrite Fr. unfold slot_of in S.
  destruct (sy_ns (getsym st r)); try contradiction;
    (destruct (lookup slots r) as [k|]; [injection S as <-; reflexivity | rewrite S; reflexivity]).
Qed.

Lemma minify_rename_inv fuel st slots firstc stable reserved mf pre groups m3 :
  minify_rename fuel st slots firstc stable reserved mf pre groups = Some m3 ->
  (forall n, 0 <= cnt_get firstc n) ->
  exists m2, TopInv st (cnt_get firstc) m2 /\ ms_top m3 = ms_top m2 /\
    forall n, n <> NsPinned -> names_for_ns fuel mf reserved n (ms_slots m2 n) = Some (ms_slots m3 n).
Proof.
  unfold minify_rename. intros MR NN.
  destruct (fold_left (AccumulateSymbolCount st slots stable) pre (NewMinifyRenamer firstc, [])) as [m0 pretops] eqn:A0.
  destruct (fold_left (accumulate_group st slots stable) groups (m0, pretops)) as [m1 tops] eqn:A1.
  pose proof (counts_only_fold st _ (accumulate_one st slots stable) pre (NewMinifyRenamer firstc, [])) as (T0 & L0 & P0).
  pose proof (counts_only_fold st _ (accumulate_group_counts st slots stable) groups (m0, pretops)) as (T1 & L1 & P1).
  rewrite A0 in T0, L0, P0. rewrite A1 in T1, L1, P1. simpl in *.
  assert (I1 : TopInv st (cnt_get firstc) m1).
  { apply TopInv_new; [exact NN | rewrite T1; exact T0 | intros n; rewrite L1; apply L0]. }
  apply AssignNamesByFrequency_spec in MR as (T3 & NF).
  exists (AllocateTopLevelSymbolSlots st m1 tops).
  split; [apply alloc_all; [exact I1 | apply P1, P0; constructor] | split; [exact T3 | exact NF]].
Qed.

Section Chunk.
  Variable mf : minifier.
  Hypothesis NDh : NoDup (m_head mf).
  Hypothesis NDt : NoDup (m_tail mf).
  Hypothesis Hh : 1 <= zlen (m_head mf).
  Hypothesis Ht : 2 <= zlen (m_tail mf).

  Section Run.
    Variables (fuel : nat) (st : symtab) (slots : slotmap) (firstc : counts) (stable : list Z)
              (reserved : list name) (pre : list (nat * Z)) (groups : list (list (nat * Z))) (m3 : mstate).
    Hypothesis MR : minify_rename fuel st slots firstc stable reserved mf pre groups = Some m3.
    Hypothesis NN : forall n, 0 <= cnt_get firstc n.
    Hypothesis Nested : forall r k, lookup slots r = Some k -> 0 <= k < cnt_get firstc (sy_ns (getsym st r)).

    Lemma minify_slot_facts nsr :
      nsr <> NsPinned ->
      (forall i1 i2, 0 <= i1 < Z.of_nat (length (ms_slots m3 nsr)) -> 0 <= i2 < Z.of_nat (length (ms_slots m3 nsr)) ->
         i1 <> i2 -> slot_name (ms_slots m3 nsr) i1 <> slot_name (ms_slots m3 nsr) i2) /\
      (forall r i, sy_ns (getsym st r) = nsr -> slot_of slots m3 r = Some i ->
         0 <= i < Z.of_nat (length (ms_slots m3 nsr)) /\
         (lookup slots r = None -> cnt_get firstc nsr <= i)) /\
      (forall r1 r2 i, r1 <> r2 -> sy_ns (getsym st r1) = nsr -> sy_ns (getsym st r2) = nsr ->
         lookup slots r1 = None -> lookup slots r2 = None ->
         slot_of slots m3 r1 = Some i -> slot_of slots m3 r2 = Some i -> False).
    Proof.
      intros NP. destruct (minify_rename_inv _ _ _ _ _ _ _ _ _ _ MR NN) as (m2 & I2 & T3 & NF).
      destruct (names_for_ns_spec mf NDh NDt Hh Ht reserved fuel nsr (ms_slots m2 nsr) _ (NF nsr NP)) as (Len & Dist & _).
      rewrite Len. pose proof (t_first _ _ _ I2 nsr) as Fi. unfold slen in Fi.
      split; [exact Dist | split].
      - intros r i Nr S. unfold slot_of in S. destruct (lookup slots r) as [k|] eqn:L.
        + injection S as <-. pose proof (Nested r k L) as B. rewrite Nr in B.
          split; [split; [exact (proj1 B) | exact (Z.lt_le_trans _ _ _ (proj2 B) Fi)] | discriminate].
        + rewrite T3 in S. pose proof (t_range _ _ _ I2 r i S) as B. unfold nsx, slen in B. rewrite Nr in B.
          split; [split; [exact (Z.le_trans _ _ _ (NN nsr) (proj1 B)) | exact (proj2 B)] | intros _; exact (proj1 B)].
      - intros r1 r2 i N N1 N2 L1 L2 S1 S2. unfold slot_of in S1, S2. rewrite L1, T3 in S1. rewrite L2, T3 in S2.
        apply (t_dist _ _ _ I2 r1 r2 i N); [unfold nsx; congruence | exact S1 | exact S2].
    Qed.
  End Run.

  Lemma minify_rename_chunk fuel st slots firstc stable reserved pre groups m3 :
    minify_rename fuel st slots firstc stable reserved mf pre groups = Some m3 ->
    0 <= c_default firstc -> 0 <= c_label firstc -> 0 <= c_private firstc -> 0 <= c_mangled firstc ->
    (forall r k, lookup slots r = Some k -> 0 <= k < cnt_get firstc (sy_ns (getsym st r))) ->
    forall r1 r2 i1 i2, r1 <> r2 ->
      follow st r1 = r1 -> follow st r2 = r2 ->
      sy_ns (getsym st r1) = sy_ns (getsym st r2) -> sy_ns (getsym st r1) <> NsPinned ->
      slot_of slots m3 r1 = Some i1 -> slot_of slots m3 r2 = Some i2 ->
      (* two nested symbols may share a slot (they are then never visible together:
         slots_distinct_on_chain); everything else is separated *)
      (lookup slots r1 <> None -> lookup slots r2 <> None -> i1 <> i2) ->
      minify_name_for st slots m3 r1 <> minify_name_for st slots m3 r2.
  Proof.
    intros MR H0 H1 H2 H3 Nested r1 r2 i1 i2 N F1 F2 SameNs NP S1 S2 NN.
    destruct (minify_slot_facts fuel st slots firstc stable reserved pre groups m3 MR
                (cnt_get_nonneg firstc H0 H1 H2 H3) Nested _ NP) as (Dist & Range & TopDist).
    destruct (Range r1 i1 eq_refl S1) as (R1 & T1). destruct (Range r2 i2 (eq_sym SameNs) S2) as (R2 & T2).
    rewrite (minify_name_slot st slots m3 r1 i1 F1 NP S1).
    assert (NP2 : sy_ns (getsym st r2) <> NsPinned) by (rewrite <- SameNs; exact NP).
    rewrite (minify_name_slot st slots m3 r2 i2 F2 NP2 S2), <- SameNs.
    apply Dist; [exact R1 | exact R2 |].
    destruct (lookup slots r1) as [k1|] eqn:L1, (lookup slots r2) as [k2|] eqn:L2.
    - apply NN; discriminate.
    - (* a nested slot lies below the first top-level slot *)
      unfold slot_of in S1. rewrite L1 in S1. injection S1 as <-.
      exact (Z.lt_neq _ _ (Z.lt_le_trans _ _ _ (proj2 (Nested r1 k1 L1)) (T2 eq_refl))).
    - unfold slot_of in S2. rewrite L2 in S2. injection S2 as <-.
      pose proof (proj2 (Nested r2 k2 L2)) as B. rewrite <- SameNs in B.
      exact (Z.neq_sym _ _ (Z.lt_neq _ _ (Z.lt_le_trans _ _ _ B (T1 eq_refl)))).
    - intros <-. exact (TopDist r1 r2 i1 N eq_refl (eq_sym SameNs) L1 L2 S1 S2).
  Qed.
End Chunk.

Lemma pinned_names_in st refs r :
  In r refs -> sy_ns (getsym st r) = NsPinned -> In (sy_name (getsym st r)) (pinned_names st refs).
Proof.
  intros I P. unfold pinned_names. apply in_map_iff. exists r. split; [reflexivity|].
  apply filter_In. split; [exact I | rewrite P; reflexivity].
Qed.

Lemma reservedForScope_unfold st m g l e ch :
  reservedForScope st (Scope m g l e ch) =
  pinned_names st m ++ pinned_names st g ++ flat_map (reservedForScope st) ch.
Proof. reflexivity. Qed.

Lemma reserved_covers_scope st sc : forall r,
  In r (tree_decls sc) -> sy_ns (getsym st r) = NsPinned ->
  In (sy_name (getsym st r)) (reservedForScope st sc).
Proof.
  induction sc as [m g l e ch IHch] using scope_ind'. intros r I P.
  rewrite tree_decls_unfold in I. rewrite reservedForScope_unfold. rewrite !in_app_iff in *.
  destruct I as [I|[I|I]].
  - left. apply pinned_names_in; assumption.
  - right. left. apply pinned_names_in; assumption.
  - right. right. apply in_flat_map in I as (c & Ic & I). apply in_flat_map. exists c. split; [exact Ic|].
    rewrite Forall_forall in IHch. apply IHch; assumption.
Qed.

Lemma reserved_covers st mods msc r :
  In msc mods -> In r (tree_decls msc) -> sy_ns (getsym st r) = NsPinned ->
  In (sy_name (getsym st r)) (ComputeReservedNames st mods).
Proof.
  intros Im I P. unfold ComputeReservedNames. apply in_app_iff; right. apply in_app_iff; right.
  apply in_flat_map. exists msc. split; [exact Im | apply reserved_covers_scope; assumption].
Qed.

Lemma minify_avoids_pinned_any fuel st slots firstc stable reserved mf pre groups m3 mods :
  minify_rename fuel st slots firstc stable reserved mf pre groups = Some m3 ->
  incl (ComputeReservedNames st mods) reserved ->
  forall msc p, In msc mods -> In p (tree_decls msc) -> sy_ns (getsym st p) = NsPinned ->
  forall i, 0 <= i < Z.of_nat (length (ms_default m3)) ->
    slot_name (ms_default m3) i <> sy_name (getsym st p).
Proof.
  intros MR Incl msc p Im Ip Pp i Hi.
  unfold minify_rename in MR.
  destruct (fold_left (AccumulateSymbolCount st slots stable) pre (NewMinifyRenamer firstc, [])) as [m0 pretops].
  destruct (fold_left (accumulate_group st slots stable) groups (m0, pretops)) as [m1 tops].
  apply AssignNamesByFrequency_spec in MR as (_ & NF).
  specialize (NF NsDefault ltac:(discriminate)). simpl in NF.
  destruct (names_for_ns_inv _ _ _ _ _ _ NF) as (_ & _ & Len & _). rewrite Len in Hi.
  destruct (names_for_ns_ok _ _ _ _ _ _ NF i Hi) as (NR & _ & _).
  intros E. apply (NR eq_refl). rewrite E. apply Incl. eapply reserved_covers; eauto.
Qed.

Lemma number_avoids_pinned_all fuel st reserved toplevel nested names mods :
  number_rename fuel st reserved toplevel nested = Some names ->
  wf_number st toplevel nested = true ->
  incl (ComputeReservedNames st mods) reserved ->
  forall msc p, In msc mods -> In p (tree_decls msc) -> sy_ns (getsym st p) = NsPinned ->
  forall r n, lookup names r = Some n -> n <> sy_name (getsym st p).
Proof.
  intros A W Incl msc p Im Ip Pp r n L E.
  eapply number_renamer_avoids_reserved_all; eauto. rewrite E. apply Incl. eapply reserved_covers; eauto.
Qed.
