(* C17: what one step does to the disk; that the model meets the specification
   predicates of Spec.v (one step, no symbolic links); the statements it does
   not meet (witnesses); the repaired step. *)
From V Require Import Common.Base C17.WriteSM C17.IOFail C17.Spec C17.Proofs C17.CompileProofs.
From Coq Require Import String Ascii.

Lemma mem_keys_hashes p l : mem p (keys (hashes_of l)) = mem p (map o_path l).
Proof. apply mem_ext. apply keys_hashes_of. Qed.

Lemma writes_of_app a b : writes_of (a ++ b) = writes_of a ++ writes_of b.
Proof. unfold writes_of. apply flat_map_app. Qed.
Lemma writes_of_wr l : writes_of (wr l) = map o_path l.
Proof. induction l as [|a l IH]; simpl; [reflexivity | rewrite IH; reflexivity]. Qed.
Lemma writes_of_deletes l : writes_of (map EDelete l) = [].
Proof. induction l as [|a l IH]; simpl; [reflexivity | exact IH]. Qed.

Section WithFS.
Variable phys : path -> path.

Lemma apply_app d a b : apply phys d (a ++ b) = apply phys (apply phys d a) b.
Proof. unfold apply. apply fold_left_app. Qed.

Lemma lookup_apply_deletes l : forall d p,
  lookup (apply phys d (map EDelete l)) p = if mem p (map phys l) then None else lookup d p.
Proof.
  induction l as [|a l IH]; intros d p; [reflexivity|].
  change (apply phys d (map EDelete (a :: l))) with (apply phys (remove d (phys a)) (map EDelete l)).
  rewrite IH. rewrite lookup_remove. simpl map. unfold mem at 2. simpl existsb. fold (mem p (map phys l)).
  rewrite (path_eqb_sym (phys a) p).
  destruct (mem p (map phys l)); [rewrite orb_true_r; reflexivity|].
  rewrite orb_false_r. reflexivity.
Qed.

Lemma find_none_notin (f : outfile -> path) q l :
  ~ In q (map f l) -> find (fun o => path_eqb (f o) q) l = None.
Proof.
  induction l as [|a l IH]; simpl; intro H; [reflexivity|].
  destruct (path_eqb (f a) q) eqn:E.
  - apply path_eqb_eq in E. exfalso. apply H. left. exact E.
  - apply IH. intro H'. apply H. right. exact H'.
Qed.

Lemma skip_true st newH o :
  skip phys st newH o = true ->
  In (o_path o) (keys (latest st)) /\ lookup (disk st) (phys (o_path o)) = Some (o_data o).
Proof.
  unfold skip. destruct (lookup (latest st) (o_path o)) eqn:EL; [|discriminate].
  destruct (lookup newH (o_path o)); [|discriminate]. intro H. apply andb_true_iff in H as [_ H].
  destruct (lookup (disk st) (phys (o_path o))) as [c|]; [|discriminate].
  apply content_eqb_eq in H. subst c. split; [eapply lookup_in_keys; exact EL | reflexivity].
Qed.

(* the disk after writing those of [os] that [keep] selects, when the others
   are on the disk already: every file of [os] is there *)
Lemma lookup_apply_kept (keep : outfile -> bool) os : forall d p,
  NoDup (map (fun o => phys (o_path o)) os) ->
  (forall o, In o os -> keep o = false -> lookup d (phys (o_path o)) = Some (o_data o)) ->
  lookup (apply phys d (wr (filter keep os))) p =
  match find (fun o => path_eqb (phys (o_path o)) p) os with
  | Some o => Some (o_data o)
  | None => lookup d p
  end.
Proof.
  induction os as [|a os IH]; intros d p ND Hs; [reflexivity|].
  inversion ND as [|? ? Hn ND']; subst. cbn [filter find].
  assert (Hfind : path_eqb (phys (o_path a)) p = true -> find (fun o => path_eqb (phys (o_path o)) p) os = None).
  { intro E. apply path_eqb_eq in E. subst p. exact (find_none_notin (fun o => phys (o_path o)) _ _ Hn). }
  destruct (keep a) eqn:K.
  - change (apply phys d (wr (a :: filter keep os)))
      with (apply phys (upd d (phys (o_path a)) (o_data a)) (wr (filter keep os))).
    rewrite IH; [|exact ND'|].
    + destruct (path_eqb (phys (o_path a)) p) eqn:E.
      * rewrite (Hfind eq_refl), lookup_upd, E. reflexivity.
      * destruct (find _ os); [reflexivity|]. rewrite lookup_upd, E. reflexivity.
    + intros o Ho Ko. rewrite lookup_upd.
      destruct (path_eqb (phys (o_path a)) (phys (o_path o))) eqn:E; [|apply Hs; [right; exact Ho | exact Ko]].
      destruct Hn. apply path_eqb_eq in E. rewrite E. apply (in_map (fun o => phys (o_path o))). exact Ho.
  - rewrite IH; [|exact ND' | intros o Ho; apply Hs; right; exact Ho].
    destruct (path_eqb (phys (o_path a)) p) eqn:E; [|reflexivity].
    rewrite (Hfind eq_refl). apply path_eqb_eq in E. subst p. apply Hs; [left; reflexivity | exact K].
Qed.

End WithFS.

Lemma find_path_In (l : list outfile) p o :
  find (fun o => path_eqb (o_path o) p) l = Some o -> In o l /\ o_path o = p.
Proof. intro H. apply find_some in H as [H1 H2]. apply path_eqb_eq in H2. auto. Qed.
Lemma find_path_None (l : list outfile) p :
  find (fun o => path_eqb (o_path o) p) l = None <-> ~ In p (map o_path l).
Proof.
  split.
  - intros H Hin. apply in_map_iff in Hin as [o [E Ho]].
    pose proof (find_none _ _ H o Ho) as F. simpl in F. rewrite E, path_eqb_refl in F. discriminate.
  - intro H. apply (find_none_notin o_path). exact H.
Qed.

Lemma lookup_deletes_id l d p : lookup (apply phys_id d (map EDelete l)) p = if mem p l then None else lookup d p.
Proof. rewrite lookup_apply_deletes. change (map phys_id l) with (map (fun q : path => q) l). rewrite map_id. reflexivity. Qed.

Lemma step_regime opt r :
  (r_failed_early r = false /\ write opt = true /\ to_stdout opt = false) \/
  (r_failed_early r = true \/ write opt = false \/ to_stdout opt = true).
Proof. destruct (r_failed_early r), (write opt), (to_stdout opt); auto. Qed.

Lemma successful_step_disk {fixed opt st oc st' r} :
  step_gen phys_id fixed opt st oc = (st', r) ->
  r_failed_early r = false -> write opt = true -> to_stdout opt = false ->
  NoDup (map o_path (r_outputs r)) /\
  forall p, lookup (disk st') p =
    match find (fun o => path_eqb (o_path o) p) (r_outputs r) with
    | Some o => Some (o_data o)
    | None => if mem p (keys (latest st)) then None else lookup (disk st) p
    end.
Proof.
  intros E HF HW HS.
  destruct (step_success_shape E HF HW HS) as [results [ER [EO [EE [ED EL]]]]].
  destruct (results_of_ok ER) as [_ [HC [_ ECo]]].
  destruct (compile_ok_facts HC HS ECo) as [ND _].
  rewrite EO. split; [exact ND|]. intro p.
  rewrite ED, EE, apply_app, lookup_deletes_id.
  rewrite (lookup_apply_kept phys_id (fun o => negb (skip phys_id st (hashes_of results) o)) results); [|exact ND|].
  2:{ intros o _ K. apply negb_false_iff in K. apply (skip_true phys_id _ _ _ K). }
  change (fun o => path_eqb (phys_id (o_path o)) p) with (fun o => path_eqb (o_path o) p).
  set (dels := filter (fun q => negb (mem q (keys (hashes_of results)))) (keys (latest st))).
  destruct (find (fun o => path_eqb (o_path o) p) results) as [o|] eqn:EF.
  - (* an output is not deleted *)
    apply find_path_In in EF as [Ho Ep].
    assert (Hnd : mem p dels = false); [|rewrite Hnd; reflexivity].
    apply mem_false. intro H. apply filter_In in H as [_ H]. apply negb_true_iff in H.
    rewrite mem_keys_hashes in H. apply mem_false in H. apply H. rewrite <- Ep. apply in_map. exact Ho.
  - (* any other path of the hash table is *)
    assert (Hm : mem p dels = mem p (keys (latest st))); [|rewrite Hm; reflexivity].
    apply mem_ext. unfold dels. rewrite filter_In. split; [tauto|]. intro H. split; [exact H|].
    apply negb_true_iff. rewrite mem_keys_hashes. apply mem_false. apply find_path_None. exact EF.
Qed.

Lemma nonwriting_step_disk {fixed opt st oc st' r} :
  step_gen phys_id fixed opt st oc = (st', r) ->
  r_failed_early r = true \/ write opt = false \/ to_stdout opt = true ->
  exists dels, r_effects r = map EDelete dels /\
               (forall p, In p dels -> In p (keys (latest st))) /\
               (dels <> [] -> r_failed_early r = true /\ fixed = false /\ write opt = true /\ to_stdout opt = false) /\
               forall p, lookup (disk st') p = if mem p dels then None else lookup (disk st) p.
Proof.
  intros E HH. destruct (failed_step_shape E HH) as [dels [EE [ED [Hk Hne]]]].
  exists dels. repeat split; try assumption; try (apply Hne; assumption).
  intro p. rewrite ED. apply lookup_deletes_id.
Qed.

Lemma inputs_not_written fixed phys opt st oc st' r p c :
  step_gen phys fixed opt st oc = (st', r) ->
  effective_allow opt = false ->
  In (EWrite p c) (r_effects r) -> ~ In (canon p) (map canon (inputs oc)).
Proof.
  intros E HA HI.
  destruct (writes_are_reported_all E HI) as [HF [HW [HS [o [Ho [Ep Ec]]]]]].
  destruct (step_success_shape E HF HW HS) as [results [ER [EO _]]].
  destruct (results_of_ok ER) as [_ [HC [_ ECo]]].
  destruct (compile_ok_facts HC HS ECo) as [_ [Hsub [_ [_ [Hin _]]]]].
  rewrite EO in Ho. subst p. apply (Hin HA o). apply Hsub. exact Ho.
Qed.

Lemma input_safe_or_deleted {fixed opt st oc st' r q} :
  step_gen phys_id fixed opt st oc = (st', r) ->
  effective_allow opt = false -> In q (inputs oc) ->
  lookup (disk st') q = lookup (disk st) q \/
  (lookup (disk st') q = None /\ In q (keys (latest st)) /\ In (EDelete q) (r_effects r)).
Proof.
  intros E HA Hq. destruct (step_regime opt r) as [[HF [HW HS]]|HH].
  - destruct (successful_step_disk E HF HW HS) as [_ HD].
    destruct (step_success_shape E HF HW HS) as [results [ER [EO [EE _]]]].
    destruct (results_of_ok ER) as [_ [HC [_ ECo]]].
    destruct (compile_ok_facts HC HS ECo) as [_ [Hsub [_ [_ [Hin _]]]]].
    rewrite HD. rewrite EO.
    assert (EF : find (fun o => path_eqb (o_path o) q) results = None).
    { apply find_path_None. intro H. apply in_map_iff in H as [o [Eo Ho]].
      apply (Hin HA o (Hsub o Ho)). unfold ckey. rewrite Eo. apply in_map. exact Hq. }
    rewrite EF. destruct (mem q (keys (latest st))) eqn:EM; [|left; reflexivity].
    right. apply mem_In in EM. repeat split; try assumption.
    rewrite EE. apply in_or_app. right. apply in_map. apply filter_In. split; [exact EM|].
    apply negb_true_iff. rewrite mem_keys_hashes. apply mem_false. apply find_path_None. exact EF.
  - destruct (nonwriting_step_disk E HH) as [dels [EE [Hk [_ HD]]]].
    rewrite HD. destruct (mem q dels) eqn:EM; [|left; reflexivity].
    right. apply mem_In in EM. repeat split; [apply Hk; exact EM | rewrite EE; apply in_map; exact EM].
Qed.

(* the current step: a build that has errors when the write phase starts, does
   not write, or is in stdout mode leaves the disk as it is *)
Lemma nonwriting_step_disk_unchanged {phys opt st oc st' r} :
  step phys opt st oc = (st', r) ->
  r_failed_early r = true \/ write opt = false \/ to_stdout opt = true ->
  disk st' = disk st /\ r_effects r = [].
Proof.
  intros E H. destruct (failed_step_shape E H) as [dels [EE [ED [_ Hne]]]].
  destruct dels as [|d dels]; [rewrite ED, EE; split; reflexivity|].
  assert (N : d :: dels <> []) by discriminate. destruct (Hne N) as [_ [F _]]. discriminate.
Qed.

Definition P (s : string) : path := map (fun a => Z.of_N (N_of_ascii a)) (list_ascii_of_string s).

(* what an outside observer sees of one step *)
Definition obs_of (opt : options) (st st' : state) (oc : outcome) (r : result) (own : list path) : observation :=
  mkObs (disk st) (disk st') (map (fun o => (o_path o, o_data o)) (r_outputs r)) (inputs oc)
        (r_failed_early r) (write opt) (allow_overwrite opt) own.

Lemma map_fst_reported (l : list outfile) : map fst (map (fun o => (o_path o, o_data o)) l) = map o_path l.
Proof. rewrite map_map. reflexivity. Qed.

Lemma failed_early_no_outputs {phys fixed opt st oc st' r} :
  step_gen phys fixed opt st oc = (st', r) -> r_failed_early r = true -> r_outputs r = [].
Proof. rewrite <- (step_io_gen_nil phys fixed true). intros E HF. apply (io_failed_step E HF). Qed.

Lemma outputs_NoDup {phys fixed opt st oc st' r} :
  step_gen phys fixed opt st oc = (st', r) -> to_stdout opt = false -> NoDup (map o_path (r_outputs r)).
Proof.
  rewrite <- (step_io_gen_nil phys fixed true). intros E HS.
  destruct (step_io_results E) as [results ER]. destruct (r_failed_early r) eqn:HF.
  - destruct (io_failed_step E HF) as [_ [-> _]]. constructor.
  - destruct (results_of_ok ER) as [_ [HC [_ ECo]]].
    destruct (compile_ok_facts HC HS ECo) as [ND _].
    destruct (write opt) eqn:HW.
    + rewrite (step_io_writing ER HW HS) in E. injection E as <- <-. exact ND.
    + destruct (step_io_nonwriting ER (not_writing_dir opt (or_introl HW)) E) as [_ [_ [_ ->]]].
      rewrite HS. exact ND.
Qed.

Section OneStep.
Variables (fixed : bool) (opt : options) (st st' : state) (oc : outcome) (r : result) (own : list path).
Hypothesis Hstep : step_gen phys_id fixed opt st oc = (st', r).
Hypothesis Hdir : to_stdout opt = false.
Hypothesis Hown : forall p, In p (keys (latest st)) -> In p own.

Let o := obs_of opt st st' oc r own.

Lemma meets_only_reported : spec_only_reported o.
Proof.
  intros p Hc. unfold changed, o, obs_of in *. cbn [ob_after ob_before ob_reported ob_own] in *.
  rewrite map_fst_reported.
  destruct (step_regime opt r) as [[HF [HW _]]|HH].
  - destruct (successful_step_disk Hstep HF HW Hdir) as [_ HD]. rewrite HD in Hc |- *.
    destruct (find (fun x => path_eqb (o_path x) p) (r_outputs r)) as [x|] eqn:EF.
    + apply find_path_In in EF as [Hx Ep]. left. exists (o_data x). split; [|reflexivity].
      apply in_map_iff. exists x. rewrite Ep. auto.
    + destruct (mem p (keys (latest st))) eqn:EM; [|contradiction Hc; reflexivity].
      right. apply mem_In in EM. repeat split; [apply Hown; exact EM | apply find_path_None; exact EF].
  - destruct (nonwriting_step_disk Hstep HH) as [dels [_ [Hk [Hne HD]]]].
    rewrite HD in Hc |- *. destruct (mem p dels) eqn:EM; [|contradiction Hc; reflexivity].
    right. apply mem_In in EM. repeat split; [apply Hown, Hk; exact EM|].
    assert (dels <> []) as N by (intro N; subst; contradiction).
    destruct (Hne N) as [A _]. rewrite (failed_early_no_outputs Hstep A). intros [].
Qed.

Lemma meets_all_reported_written : spec_all_reported_written o.
Proof.
  unfold spec_all_reported_written, o, obs_of. cbn [ob_after ob_reported ob_failed ob_write].
  intros HF HW p c Hin. apply in_map_iff in Hin as [x [Ex Hx]]. injection Ex as E1 E2. subst p c.
  destruct (successful_step_disk Hstep HF HW Hdir) as [ND HD].
  rewrite HD.
  destruct (find (fun y => path_eqb (o_path y) (o_path x)) (r_outputs r)) as [y|] eqn:EF.
  - apply find_path_In in EF as [Hy Ep].
    assert (y = x) by (apply (NoDup_map_eq o_path (r_outputs r)); assumption). subst. reflexivity.
  - exfalso. apply find_path_None in EF. apply EF. apply in_map. exact Hx.
Qed.

Lemma meets_deletes_own : spec_deletes_own o.
Proof.
  intros p Hb Ha.
  assert (Hc : changed o p) by (unfold changed; rewrite Ha; exact (fun E => Hb (eq_sym E))).
  destruct (meets_only_reported p Hc) as [[c [_ E]]|[_ H]]; [congruence | exact H].
Qed.

Lemma meets_failed_no_write : spec_failed_no_write o.
Proof.
  unfold spec_failed_no_write, o, obs_of. cbn [ob_after ob_before ob_failed ob_write].
  intros HH p Hne.
  destruct (nonwriting_step_disk Hstep) as [dels [_ [_ [_ HD]]]]; [tauto|].
  rewrite HD in Hne |- *. destruct (mem p dels); [contradiction Hne; reflexivity | reflexivity].
Qed.

Lemma meets_single_valued : spec_single_valued o.
Proof.
  unfold spec_single_valued, o, obs_of. cbn [ob_reported]. intros p c1 c2 H1 H2.
  apply in_map_iff in H1 as [x [Ex Hx]]. apply in_map_iff in H2 as [y [Ey Hy]].
  injection Ex as A1 A2. injection Ey as B1 B2. subst.
  assert (y = x); [|subst; reflexivity].
  apply (NoDup_map_eq o_path (r_outputs r)); try assumption. exact (outputs_NoDup Hstep Hdir).
Qed.

(* inputs: never overwritten (the part of spec_inputs_safe that holds) *)
Lemma meets_inputs_not_overwritten : spec_inputs_not_overwritten o.
Proof.
  unfold spec_inputs_not_overwritten, o, obs_of. cbn [ob_allow ob_inputs ob_after ob_before]. intros HA p Hp Hne.
  destruct (write opt) eqn:HW.
  - assert (HE : effective_allow opt = false) by (unfold effective_allow; rewrite HA, HW; reflexivity).
    destruct (input_safe_or_deleted Hstep HE Hp) as [H|[H _]]; [exact H | contradiction].
  - destruct (nonwriting_step_disk Hstep (or_intror (or_introl HW))) as [dels [_ [_ [_ HD]]]].
    rewrite HD in Hne |- *. destruct (mem p dels); [contradiction Hne; reflexivity | reflexivity].
Qed.

End OneStep.

Lemma step_meets_spec_all fixed opt st st' oc r own :
  step_gen phys_id fixed opt st oc = (st', r) -> to_stdout opt = false ->
  (forall p, In p (keys (latest st)) -> In p own) ->
  let o := obs_of opt st st' oc r own in
  spec_only_reported o /\ spec_all_reported_written o /\ spec_deletes_own o /\
  spec_failed_no_write o /\ spec_single_valued o /\ spec_inputs_not_overwritten o.
Proof.
  intros H D O. split; [|split; [|split; [|split; [|split]]]].
  - exact (meets_only_reported fixed opt st st' oc r own H D O).
  - exact (meets_all_reported_written fixed opt st st' oc r own H D).
  - exact (meets_deletes_own fixed opt st st' oc r own H D O).
  - exact (meets_failed_no_write fixed opt st st' oc r own H).
  - exact (meets_single_valued fixed opt st st' oc r own H D).
  - exact (meets_inputs_not_overwritten fixed opt st st' oc r own H).
Qed.

(* the current step (after d19e8cb): a build that has errors when the write
   phase starts changes neither the disk nor the hash table *)
Lemma fixed_failed_step_is_identity {phys opt st oc st' r} :
  step phys opt st oc = (st', r) -> r_failed_early r = true -> st' = st /\ r_effects r = [].
Proof.
  intros E HF. destruct (nonwriting_step_disk_unchanged E (or_introl HF)) as [ED EE].
  unfold step in E. rewrite <- (step_io_gen_nil phys true true) in E.
  destruct (io_failed_step E HF) as [EL _].
  split; [|exact EE]. destruct st, st'. simpl in ED, EL. congruence.
Qed.

Lemma failed_step_keeps_files phys opt st oc st' r q :
  step phys opt st oc = (st', r) -> r_failed_early r = true -> lookup (disk st') q = lookup (disk st) q.
Proof. intros E H. destruct (fixed_failed_step_is_identity E H) as [E1 _]. rewrite E1. reflexivity. Qed.

Lemma fixed_meets_failed_unchanged opt st st' oc r own :
  step phys_id opt st oc = (st', r) -> to_stdout opt = false ->
  spec_failed_unchanged (obs_of opt st st' oc r own).
Proof.
  intros E HS HH p. unfold obs_of in *. cbn [ob_after ob_before ob_failed ob_write] in *.
  assert (H3 : r_failed_early r = true \/ write opt = false \/ to_stdout opt = true) by tauto.
  destruct (nonwriting_step_disk_unchanged E H3) as [-> _]. reflexivity.
Qed.

Definition w_opts := mkOpts true false false.
Definition w_disk0 : fmap content := [(P "/src/a.js", [1]); (P "/src/old.js", [2])].
(* build 1: entries src/a.js src/old.js -> out/a.js out/old.js *)
Definition w_oc1 := mkOutcome false [P "/src/a.js"; P "/src/old.js"] false
  [mkOut (P "/out/a.js") [10] 110 false; mkOut (P "/out/old.js") [11] 111 false] false false false.
(* build 2: src/a.js now imports ../out/old.js, which is therefore an input *)
Definition w_oc2 := mkOutcome false [P "/src/a.js"; P "/src/old.js"; P "/out/old.js"] false
  [mkOut (P "/out/a.js") [12] 112 false; mkOut (P "/out/old.js") [11] 111 false] false false false.
(* build 2': src/old.js is no longer an entry; src/a.js imports ../out/old.js; the build succeeds *)
Definition w_oc2' := mkOutcome false [P "/src/a.js"; P "/out/old.js"] false
  [mkOut (P "/out/a.js") [13] 113 false] false false false.

(* before d19e8cb *)
Lemma witness_failed_rebuild_deletes (fixed := false) :
  let st1 := fst (step_gen phys_id fixed w_opts (init w_disk0) w_oc1) in
  let '(st2, r2) := step_gen phys_id fixed w_opts st1 w_oc2 in
  r_failed_early r2 = true /\ allow_overwrite w_opts = false /\ In (P "/out/old.js") (inputs w_oc2) /\
  lookup (disk st1) (P "/out/old.js") = Some [11] /\ lookup (disk st2) (P "/out/old.js") = None /\
  lookup (disk st1) (P "/out/a.js") = Some [10] /\ lookup (disk st2) (P "/out/a.js") = None.
Proof. vm_compute. repeat split; auto. Qed.

Lemma witness_successful_rebuild_deletes_input (fixed : bool) :
  let st1 := fst (step_gen phys_id fixed w_opts (init w_disk0) w_oc1) in
  let '(st2, r2) := step_gen phys_id fixed w_opts st1 w_oc2' in
  r_errors r2 = false /\ allow_overwrite w_opts = false /\ In (P "/out/old.js") (inputs w_oc2') /\
  lookup (disk st1) (P "/out/old.js") = Some [11] /\ lookup (disk st2) (P "/out/old.js") = None.
Proof. destruct fixed; vm_compute; repeat split; auto. Qed.

(* out -> src is a directory symlink; entry src/a.js, outdir=out *)
Definition w_links := [(P "/out", P "/src")].
Definition w_oc_link := mkOutcome false [P "/src/a.js"] false [mkOut (P "/out/a.js") [9] 109 false] false false false.
Lemma witness_symlink_overwrites_input :
  let '(st1, r1) := step (phys_links w_links) w_opts (init [(P "/src/a.js", [1])]) w_oc_link in
  r_errors r1 = false /\ allow_overwrite w_opts = false /\ In (P "/src/a.js") (inputs w_oc_link) /\
  lookup (disk st1) (P "/src/a.js") = Some [9].
Proof. vm_compute. repeat split; auto. Qed.

(* an on-end callback fails: the files are already written *)
Definition w_oc_onend := mkOutcome false [P "/src/a.js"] false [mkOut (P "/out/a.js") [9] 109 false] false false true.
Lemma witness_onend_error_after_write :
  let '(st1, r1) := step phys_id w_opts (init [(P "/src/a.js", [1])]) w_oc_onend in
  r_errors r1 = true /\ r_effects r1 = [EWrite (P "/out/a.js") [9]] /\ lookup (disk st1) (P "/out/a.js") = Some [9].
Proof. vm_compute. repeat split; auto. Qed.
