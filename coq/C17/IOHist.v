(* C17: histories of one context.  The invariant of the hash table is proved
   once, for histories with failures during the write phase ([step_io]); what
   a rebuild deletes and what it leaves alone in a history of [step_gen] is
   the case without failures. *)
From V Require Import Common.Base C17.WriteSM C17.Proofs C17.SpecProofs C17.IOFail.

Definition io_item : Type := outcome * list path * result.

Section WithFS.
Variable phys : path -> path.
Variable fixed : bool.
Variable fixio : bool.     (* true: /repo as of b32af0b; false: before *)
Variable opt : options.

(* a history with, for every rebuild, what scan+link produced, where writing
   failed, and the result *)
Fixpoint trace_io_full (st : state) (ocs : list (outcome * list path)) : list io_item :=
  match ocs with
  | [] => []
  | (oc, wf) :: r => let '(st', res) := step_io_gen phys fixed fixio opt st oc wf in (oc, wf, res) :: trace_io_full st' r
  end.

Definition reported_paths (rs : list io_item) : list path := flat_map (fun x => map o_path (r_outputs (snd x))) rs.
Definition written_paths_io (rs : list io_item) : list path := flat_map (fun x => writes_of (r_effects (snd x))) rs.
(* paths at which a write failed and that nevertheless stayed in the hash table: none since b32af0b *)
Definition failed_paths (rs : list io_item) : list path :=
  if fixio then [] else flat_map (fun x => snd (fst x)) rs.

Lemma lookup_forget_failed old l : forall m q,
  lookup (forget_failed m old l) q = if mem q l then lookup old q else lookup m q.
Proof.
  induction l as [|p l IH]; intros m q; [reflexivity|].
  change (forget_failed m old (p :: l))
    with (forget_failed (match lookup old p with Some h => upd m p h | None => remove m p end) old l).
  rewrite IH. unfold mem at 2. simpl existsb. fold (mem q l).
  destruct (mem q l); [rewrite orb_true_r; reflexivity|]. rewrite orb_false_r.
  rewrite (path_eqb_sym q p).
  destruct (lookup old p) as [h|] eqn:EL.
  - rewrite lookup_upd. destruct (path_eqb p q) eqn:E; [|reflexivity].
    apply path_eqb_eq in E. subst. symmetry. exact EL.
  - rewrite lookup_remove. destruct (path_eqb p q) eqn:E; [|reflexivity].
    apply path_eqb_eq in E. subst. symmetry. exact EL.
Qed.

Lemma in_keys_lookup {V} (m : fmap V) p : In p (keys m) <-> lookup m p <> None.
Proof.
  split.
  - intros H E. apply lookup_none_keys in E. contradiction.
  - intro H. destruct (in_dec (list_eq_dec Z.eq_dec) p (keys m)) as [I|N]; [exact I|].
    apply lookup_none_keys in N. contradiction.
Qed.

(* every path of the hash table was reported by an earlier rebuild, and was
   either written or is a path at which writing failed *)
Definition table_inv (st : state) (R W F : list path) : Prop :=
  write opt = true -> to_stdout opt = false ->
  forall p, In p (keys (latest st)) -> In p R /\ (In p W \/ In p F).

Lemma writing_step_table {st oc wf st' r} :
  step_io_gen phys fixed fixio opt st oc wf = (st', r) ->
  r_failed_early r = false -> write opt = true -> to_stdout opt = false ->
  exists failed, (forall p, In p failed -> In p wf) /\
    latest st' = (if fixio then forget_failed (hashes_of (r_outputs r)) (latest st) failed else hashes_of (r_outputs r)) /\
    (forall o, In o (r_outputs r) ->
       In (o_path o) (keys (latest st)) \/ In (o_path o) failed \/ In (o_path o) (writes_of (r_effects r))).
Proof.
  intros E HF HW HS. destruct (step_io_results E) as [results ER]. rewrite HF in ER.
  rewrite (step_io_writing ER HW HS) in E. injection E as <- <-. cbn [r_outputs r_effects latest].
  eexists. split; [|split; [reflexivity|]].
  - intros p Hp. apply in_map_iff in Hp as [o [<- Ho]]. apply filter_In in Ho as [_ Ho]. apply mem_In. exact Ho.
  - intros o Ho. destruct (skip phys st (hashes_of results) o) eqn:ES.
    + left. exact (proj1 (skip_true phys _ _ _ ES)).
    + right.
      assert (Ha : In o (filter (fun o => negb (skip phys st (hashes_of results) o)) results))
        by (apply filter_In; split; [exact Ho | rewrite ES; reflexivity]).
      destruct (mem (o_path o) wf) eqn:EM.
      * left. apply in_map, filter_In. split; assumption.
      * right. rewrite writes_of_app, writes_of_wr, writes_of_deletes, app_nil_r.
        apply in_map, filter_In. split; [exact Ha | rewrite EM; reflexivity].
Qed.

Lemma table_inv_step {st oc wf st' r R W F} :
  step_io_gen phys fixed fixio opt st oc wf = (st', r) ->
  table_inv st R W F ->
  table_inv st' (R ++ map o_path (r_outputs r)) (W ++ writes_of (r_effects r)) (F ++ (if fixio then [] else wf)).
Proof.
  intros E Inv HW HS p Hp.
  destruct (r_failed_early r) eqn:HF;
    [destruct (io_failed_step E HF) as [EL _] |
     destruct (writing_step_table E HF HW HS) as [failed [HFW [EL HO]]]].
  - rewrite EL in Hp. destruct fixed; [|contradiction].
    destruct (Inv HW HS p Hp) as [A [B|B]]; split; try (apply in_or_app; left; assumption).
    + left. apply in_or_app. left. exact B.
    + right. apply in_or_app. left. exact B.
  - assert (OLD : forall q, In q (keys (latest st)) -> In q (R ++ map o_path (r_outputs r)) /\
                  (In q (W ++ writes_of (r_effects r)) \/ In q (F ++ (if fixio then [] else wf)))).
    { intros q H. destruct (Inv HW HS _ H) as [A [B|B]]; (split; [apply in_or_app; left; exact A|]);
        [left | right]; apply in_or_app; left; exact B. }
    assert (NEW : forall o, In o (r_outputs r) -> (fixio = true -> ~ In (o_path o) failed) ->
                  In (o_path o) (R ++ map o_path (r_outputs r)) /\
                  (In (o_path o) (W ++ writes_of (r_effects r)) \/ In (o_path o) (F ++ (if fixio then [] else wf)))).
    { intros o Ho HNF. destruct (HO o Ho) as [H|[H|H]].
      - apply OLD. exact H.
      - split; [apply in_or_app; right; apply in_map; exact Ho|].
        destruct fixio; [exfalso; exact (HNF eq_refl H)|].
        right. apply in_or_app. right. apply HFW. exact H.
      - split; [apply in_or_app; right; apply in_map; exact Ho|]. left. apply in_or_app. right. exact H. }
    rewrite EL in Hp. destruct fixio.
    + apply in_keys_lookup in Hp. rewrite lookup_forget_failed in Hp.
      destruct (mem p failed) eqn:EM.
      * apply OLD. apply in_keys_lookup. exact Hp.
      * apply in_keys_lookup, keys_hashes_of in Hp. apply in_map_iff in Hp as [o [Eo Ho]]. subst p.
        apply NEW; [exact Ho|]. intros _ Hin. apply mem_false in EM. contradiction.
    + apply keys_hashes_of in Hp. apply in_map_iff in Hp as [o [Eo Ho]]. subst p.
      apply NEW; [exact Ho | discriminate].
Qed.

Lemma io_deletes_gen ocs : forall st R W F,
  table_inv st R W F ->
  forall pre oc wf res post, trace_io_full st ocs = pre ++ (oc, wf, res) :: post ->
  forall p, In (EDelete p) (r_effects res) ->
    In p (R ++ reported_paths pre) /\
    ~ In p (map o_path (r_outputs res)) /\
    (In p (W ++ written_paths_io pre) \/ In p (F ++ failed_paths pre)) /\
    ((forall q, In q (inputs oc) -> ~ In q (R ++ reported_paths pre)) -> ~ In p (inputs oc)).
Proof.
  induction ocs as [|[oc0 wf0] ocs IH]; intros st R W F Inv pre oc wf res post E p Hp.
  - destruct pre; discriminate.
  - simpl in E. destruct (step_io_gen phys fixed fixio opt st oc0 wf0) as [st' r0] eqn:ES.
    destruct pre as [|x pre].
    + simpl in E. injection E as E1 E2 E3 E4. subst oc0 wf0 r0.
      destruct (io_deletes_in_table ES Hp) as [Hk [Hn [HW [HS _]]]]. destruct (Inv HW HS p Hk) as [A B].
      unfold reported_paths, written_paths_io, failed_paths. simpl.
      assert (X : (if fixio then (@nil path) else []) = []) by (destruct fixio; reflexivity).
      rewrite X, !app_nil_r.
      repeat split; try assumption.
      intros Hq Hin. exact (Hq p Hin A).
    + simpl in E. injection E as E1 E2. subst x.
      pose proof (table_inv_step ES Inv) as Inv'.
      destruct (IH _ _ _ _ Inv' _ _ _ _ _ E2 p Hp) as [A [B [C D]]].
      assert (FE : (F ++ (if fixio then [] else wf0)) ++ failed_paths pre = F ++ failed_paths ((oc0, wf0, r0) :: pre)).
      { unfold failed_paths. destruct fixio; [rewrite !app_nil_r; reflexivity|]. cbn [flat_map fst snd]. rewrite app_assoc. reflexivity. }
      rewrite FE in C.
      unfold reported_paths, written_paths_io in *. cbn [flat_map fst snd].
      rewrite !app_assoc. repeat split; assumption.
Qed.

End WithFS.

(* from the initial state of a context; before b32af0b *)
Lemma io_deletes_all_before_fix phys fixed opt d0 ocs pre oc wf res post :
  trace_io_full phys fixed false opt (init d0) ocs = pre ++ (oc, wf, res) :: post ->
  forall p, In (EDelete p) (r_effects res) ->
    In p (reported_paths pre) /\
    ~ In p (map o_path (r_outputs res)) /\
    (In p (written_paths_io pre) \/ In p (failed_paths false pre)) /\
    ((forall q, In q (inputs oc) -> ~ In q (reported_paths pre)) -> ~ In p (inputs oc)).
Proof.
  intros E p Hp.
  apply (io_deletes_gen phys fixed false opt ocs (init d0) [] [] [] (fun _ _ _ F => match F with end) pre oc wf res post E p Hp).
Qed.

(* the current code: whatever is deleted was WRITTEN by an earlier rebuild, write failures or not *)
Lemma io_deletes_all phys fixed opt d0 ocs pre oc wf res post :
  trace_io_full phys fixed true opt (init d0) ocs = pre ++ (oc, wf, res) :: post ->
  forall p, In (EDelete p) (r_effects res) ->
    In p (reported_paths pre) /\
    ~ In p (map o_path (r_outputs res)) /\
    In p (written_paths_io pre) /\
    ((forall q, In q (inputs oc) -> ~ In q (reported_paths pre)) -> ~ In p (inputs oc)).
Proof.
  intros E p Hp.
  destruct (io_deletes_gen phys fixed true opt ocs (init d0) [] [] [] (fun _ _ _ F => match F with end) pre oc wf res post E p Hp)
    as [A [B [[C|C] D]]]; try (repeat split; assumption).
  simpl in C. contradiction.
Qed.

Lemma trace_gen_io phys fixed fixio opt ocs : forall st,
  trace_gen phys fixed opt st ocs = map snd (trace_io_full phys fixed fixio opt st (map (fun oc => (oc, [])) ocs)).
Proof.
  induction ocs as [|oc ocs IH]; intro st; [reflexivity|]. cbn [map trace_io_full trace_gen].
  rewrite step_io_gen_nil. destruct (step_gen phys fixed opt st oc) as [st' res]. cbn [map snd]. rewrite IH. reflexivity.
Qed.

Lemma written_paths_io_snd (l : list io_item) : written_paths (map snd l) = written_paths_io l.
Proof. induction l as [|x l IH]; simpl; [reflexivity | rewrite IH; reflexivity]. Qed.

Lemma deletes_only_own_all phys fixed opt d0 ocs pre res post :
  trace_gen phys fixed opt (init d0) ocs = pre ++ res :: post ->
  forall p, In (EDelete p) (r_effects res) ->
    In p (written_paths pre) /\ ~ In p (map o_path (r_outputs res)).
Proof.
  intros E p Hp. rewrite (trace_gen_io phys fixed true) in E.
  apply map_eq_app in E as [pre' [rest [E [<- E2]]]].
  apply map_eq_cons in E2 as [[[oc wf] res'] [post' [-> [Er _]]]]. cbn [snd] in Er. subst res'.
  destruct (io_deletes_all _ _ _ _ _ _ _ _ _ _ E p Hp) as [_ [B [C _]]]. rewrite written_paths_io_snd. auto.
Qed.

(* every element of a trace is the result of a step *)
Lemma trace_elements_all phys fixed opt st ocs res :
  In res (trace_gen phys fixed opt st ocs) ->
  exists st0 oc st1, step_gen phys fixed opt st0 oc = (st1, res).
Proof.
  revert st. induction ocs as [|oc ocs IH]; intros st H; [contradiction|].
  simpl in H. destruct (step_gen phys fixed opt st oc) as [st' r0] eqn:ES.
  destruct H as [<-|H]; [exists st, oc, st'; exact ES | exact (IH _ H)].
Qed.

Section Foreign.
Variable fixed : bool.
Variable opt : options.

Lemma table_inv_step_gen phys st oc st' r R W :
  step_gen phys fixed opt st oc = (st', r) -> table_inv opt st R W [] ->
  table_inv opt st' (R ++ map o_path (r_outputs r)) (W ++ writes_of (r_effects r)) [].
Proof. rewrite <- (step_io_gen_nil phys fixed true). intros E Inv. exact (table_inv_step phys fixed true opt E Inv). Qed.

Lemma writes_subset_outputs phys st oc st' r p :
  step_gen phys fixed opt st oc = (st', r) -> In p (writes_of (r_effects r)) -> In p (map o_path (r_outputs r)).
Proof.
  intros E H. unfold writes_of in H. apply in_flat_map in H as [e [He Hp]].
  destruct e as [q c|q]; simpl in Hp; [|contradiction]. destruct Hp as [Hp|[]]. subst q.
  destruct (writes_are_reported_all E He) as [_ [_ [_ [o [Ho [Ep _]]]]]].
  rewrite <- Ep. apply in_map. exact Ho.
Qed.

(* one step leaves alone every path that the context never wrote and that is
   not a reported output of the step *)
Lemma foreign_step st oc st' r R W p :
  step_gen phys_id fixed opt st oc = (st', r) ->
  table_inv opt st R W [] -> ~ In p W -> ~ In p (map o_path (r_outputs r)) ->
  lookup (disk st') p = lookup (disk st) p /\ ~ In p (W ++ writes_of (r_effects r)).
Proof.
  intros E Inv HW Hout.
  assert (Own : write opt = true -> to_stdout opt = false -> In p (keys (latest st)) -> False).
  { intros A B Hk. destruct (Inv A B p Hk) as [_ [H|[]]]. exact (HW H). }
  split.
  - destruct (step_regime opt r) as [[HF [EW ES]]|HH].
    + destruct (successful_step_disk E HF EW ES) as [_ HD]. rewrite HD.
      assert (EF : find (fun o => path_eqb (o_path o) p) (r_outputs r) = None) by (apply find_path_None; exact Hout).
      rewrite EF. destruct (mem p (keys (latest st))) eqn:EM; [|reflexivity].
      destruct (Own EW ES). apply mem_In. exact EM.
    + destruct (nonwriting_step_disk E HH) as [dels [_ [Hk [Hne HD]]]].
      rewrite HD. destruct (mem p dels) eqn:EM; [|reflexivity].
      apply mem_In in EM.
      assert (N : dels <> []) by (intro N; subst; contradiction).
      destruct (Hne N) as [_ [_ [A B]]]. destruct (Own A B). apply Hk. exact EM.
  - intro H. apply in_app_or in H as [H|H]; [contradiction|].
    apply Hout. eapply writes_subset_outputs; eassumption.
Qed.

Lemma foreign_run ocs : forall st R W p,
  table_inv opt st R W [] -> ~ In p W ->
  (forall res, In res (trace_gen phys_id fixed opt st ocs) -> ~ In p (map o_path (r_outputs res))) ->
  lookup (disk (run_gen phys_id fixed opt st ocs)) p = lookup (disk st) p.
Proof.
  induction ocs as [|oc ocs IH]; intros st R W p Inv HW Hall; [reflexivity|].
  change (run_gen phys_id fixed opt st (oc :: ocs)) with (run_gen phys_id fixed opt (fst (step_gen phys_id fixed opt st oc)) ocs).
  simpl in Hall. destruct (step_gen phys_id fixed opt st oc) as [st' r] eqn:ES. cbn [fst].
  assert (Hr : ~ In p (map o_path (r_outputs r))) by (apply Hall; left; reflexivity).
  destruct (foreign_step _ _ _ _ _ _ _ ES Inv HW Hr) as [HD HW'].
  rewrite (IH st' _ _ p (table_inv_step_gen _ _ _ _ _ _ _ ES Inv) HW'); [exact HD|].
  intros res Hres. apply Hall. right. exact Hres.
Qed.

End Foreign.

(* a file that is never a reported output of any rebuild of a history is, at
   the end of the history, what it was at the start *)
Lemma foreign_files_untouched_all fixed opt d0 ocs p :
  (forall res, In res (trace_gen phys_id fixed opt (init d0) ocs) -> ~ In p (map o_path (r_outputs res))) ->
  lookup (disk (run_gen phys_id fixed opt (init d0) ocs)) p = lookup d0 p.
Proof.
  intro H. apply (foreign_run fixed opt ocs (init d0) [] [] p); [|intros []|exact H].
  intros _ _ q F. destruct F.
Qed.
