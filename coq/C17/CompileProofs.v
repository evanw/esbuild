(* C17 lemmas about the model of Bundle.Compile's two checks (duplicate-path
   rule as of /repo commit 11ec04b). *)
From V Require Import Common.Base C17.WriteSM C17.Proofs.

Definition ckey (o : outfile) : path := canon (o_path o).

Lemma NoDup_map_eq {A B} (f : A -> B) (l : list A) x y :
  NoDup (map f l) -> In x l -> In y l -> f x = f y -> x = y.
Proof.
  induction l as [|a l IH]; simpl; intros ND Hx Hy E; [contradiction|].
  inversion ND as [|? ? Hn ND']; subst.
  destruct Hx as [Hx|Hx], Hy as [Hy|Hy]; subst.
  - reflexivity.
  - exfalso. apply Hn. rewrite E. apply in_map. exact Hy.
  - exfalso. apply Hn. rewrite <- E. apply in_map. exact Hx.
  - apply IH; assumption.
Qed.

Lemma NoDup_map_inv' {A B} (f : A -> B) (l : list A) : NoDup (map f l) -> NoDup l.
Proof. apply NoDup_map_inv. Qed.

Lemma NoDup_app_snoc {A} (l : list A) x : NoDup l -> ~ In x l -> NoDup (l ++ [x]).
Proof.
  induction l as [|a l IH]; simpl; intros ND Hx.
  - constructor; [intros [] | constructor].
  - inversion ND as [|? ? Hn ND']; subst. constructor.
    + intro H. apply in_app_or in H as [H|[H|[]]]; [contradiction|]. subst. apply Hx. left. reflexivity.
    + apply IH; [exact ND'|]. intro H. apply Hx. right. exact H.
Qed.

(* "the same file, or two mergeable files with equal contents" *)
Definition mrel (a b : outfile) : Prop :=
  a = b \/ (o_merge a = true /\ o_merge b = true /\ o_data a = o_data b).
Lemma mrel_sym a b : mrel a b -> mrel b a.
Proof. intros [H|[A [B C]]]; [left; auto | right; auto]. Qed.
Lemma mrel_trans a b c : mrel a b -> mrel b c -> mrel a c.
Proof.
  intros [H1|[A1 [B1 C1]]] [H2|[A2 [B2 C2]]]; subst.
  - left. reflexivity.
  - right. auto.
  - right. auto.
  - right. repeat split; try assumption. congruence.
Qed.
Lemma mrel_data a b : mrel a b -> o_data a = o_data b.
Proof. intros [H|[_ [_ C]]]; [subst; reflexivity | exact C]. Qed.

(* files with one canonical path are pairwise mergeable-and-equal *)
Definition coherent (l : list outfile) : Prop :=
  forall f g, In f l -> In g l -> ckey f = ckey g -> mrel f g.

Lemma find_key_some prev o e :
  find (fun f => path_eqb (canon (o_path f)) (canon (o_path o))) prev = Some e -> In e prev /\ ckey e = ckey o.
Proof. intro H. apply find_some in H as [H1 H2]. apply path_eqb_eq in H2. auto. Qed.
Lemma find_key_none prev o :
  find (fun f => path_eqb (canon (o_path f)) (canon (o_path o))) prev = None ->
  forall f, In f prev -> ckey f <> ckey o.
Proof.
  intros H f Hf E. pose proof (find_none _ _ H f Hf) as F. simpl in F.
  unfold ckey in E. rewrite E, path_eqb_refl in F. discriminate.
Qed.

Lemma coherent_snoc_new prev o :
  coherent prev -> (forall f, In f prev -> ckey f <> ckey o) -> coherent (prev ++ [o]).
Proof.
  intros HC HN f g Hf Hg E. apply in_app_or in Hf as [Hf|[Hf|[]]], Hg as [Hg|[Hg|[]]]; subst.
  - apply HC; assumption.
  - exfalso. exact (HN f Hf E).
  - exfalso. apply (HN g Hg). symmetry. exact E.
  - left. reflexivity.
Qed.
Lemma coherent_snoc_merged prev o e :
  coherent prev -> In e prev -> ckey e = ckey o -> mrel e o -> coherent (prev ++ [o]).
Proof.
  intros HC He EK HM f g Hf Hg E. apply in_app_or in Hf as [Hf|[Hf|[]]], Hg as [Hg|[Hg|[]]]; subst.
  - apply HC; assumption.
  - apply (mrel_trans f e g); [apply HC; try assumption; congruence | exact HM].
  - apply (mrel_trans f e g); [apply mrel_sym; exact HM | apply HC; try assumption; congruence].
  - left. reflexivity.
Qed.

(* what the loop guarantees when it returns (kept, errs) from the files [prev] kept so far *)
Definition loop_ok (prev outs kept : list outfile) (errs : list path) : Prop :=
  NoDup (map o_path (prev ++ kept)) /\
  (forall o, In o kept -> In o outs) /\
  (errs = [] ->
     coherent (prev ++ kept) /\
     forall o, In o outs -> exists k, In k (prev ++ kept) /\ o_path k = o_path o /\ mrel k o).

Lemma loop_ok_keep prev o r kept errs :
  loop_ok (prev ++ [o]) r kept errs -> loop_ok prev (o :: r) (o :: kept) errs.
Proof.
  unfold loop_ok. rewrite <- app_assoc. intros [A [B C]]. repeat split; try assumption.
  - intros x [Hx|Hx]; [left; exact Hx | right; apply B; exact Hx].
  - apply C. assumption.
  - intros x [Hx|Hx]; [|apply C; assumption]. subst x.
    exists o. split; [apply in_or_app; right; left; reflexivity|]. split; [reflexivity | left; reflexivity].
Qed.

Lemma dedupe_facts outs : forall prev kept errs,
  coherent prev -> NoDup (map o_path prev) ->
  dedupe prev outs = (kept, errs) -> loop_ok prev outs kept errs.
Proof.
  induction outs as [|o r IH]; intros prev kept errs HC ND E; simpl in E.
  - injection E as <- <-. unfold loop_ok. rewrite app_nil_r. repeat split; try assumption; intros ? [].
  - assert (Keep : coherent (prev ++ [o]) -> ~ In (o_path o) (map o_path prev) ->
                   forall k2, dedupe (prev ++ [o]) r = (k2, errs) -> loop_ok prev (o :: r) (o :: k2) errs).
    { intros HC' HN k2 ED. apply loop_ok_keep, IH; [exact HC' | | exact ED].
      rewrite map_app. apply NoDup_app_snoc; assumption. }
    destruct (find (fun f => path_eqb (canon (o_path f)) (canon (o_path o))) prev) as [e|] eqn:EF.
    + destruct (find_key_some _ _ _ EF) as [He EK].
      destruct (o_merge e && o_merge o && content_eqb (o_data e) (o_data o)) eqn:EM.
      * assert (HM : mrel e o).
        { apply andb_true_iff in EM as [EM1 EM]. apply andb_true_iff in EM1 as [M1 M2].
          apply content_eqb_eq in EM. right. auto. }
        destruct (mem (o_path o) (map o_path prev)) eqn:EX.
        -- (* an exact duplicate of a kept file: filtered out *)
           destruct (IH _ _ _ HC ND E) as [A [B C]]. repeat split; try assumption.
           ++ intros x Hx. right. apply B. exact Hx.
           ++ apply C. assumption.
           ++ intros x [Hx|Hx]; [|apply C; assumption]. subst x.
              apply mem_In in EX. apply in_map_iff in EX as [g [Eg Hg]].
              exists g. split; [apply in_or_app; left; exact Hg|]. split; [exact Eg|].
              apply (mrel_trans g e o); [|exact HM]. apply HC; try assumption.
              unfold ckey. rewrite Eg. symmetry. exact EK.
        -- (* a case variant: kept as well *)
           destruct (dedupe (prev ++ [o]) r) as [k2 e2] eqn:ED. injection E as <- <-.
           apply Keep; [eapply coherent_snoc_merged; eassumption | apply mem_false; exact EX | reflexivity].
      * destruct (dedupe prev r) as [k2 e2] eqn:ED. injection E as <- <-.
        destruct (IH _ _ _ HC ND ED) as [A [B _]]. repeat split; try assumption; try discriminate.
        intros x Hx. right. apply B. exact Hx.
    + destruct (dedupe (prev ++ [o]) r) as [k2 e2] eqn:ED. injection E as <- <-.
      pose proof (find_key_none _ _ EF) as HN.
      apply Keep; [apply coherent_snoc_new; assumption | | reflexivity].
      intro Hin. apply in_map_iff in Hin as [g [Eg Hg]]. apply (HN g Hg). unfold ckey. rewrite Eg. reflexivity.
Qed.

Lemma coherent_nil : coherent [].
Proof. intros ? ? []. Qed.

Lemma dedupe_nil_facts {outs kept errs} : dedupe [] outs = (kept, errs) -> loop_ok [] outs kept errs.
Proof. apply dedupe_facts; [exact coherent_nil | constructor]. Qed.

(* two linked files with one canonical path: the same file, or both mergeable with equal contents *)
Lemma dedupe_mrel outs kept :
  dedupe [] outs = (kept, []) ->
  forall o1 o2, In o1 outs -> In o2 outs -> ckey o1 = ckey o2 -> mrel o1 o2.
Proof.
  intros E o1 o2 H1 H2 EK. destruct (dedupe_nil_facts E) as [_ [_ C]].
  destruct (C eq_refl) as [HC HR]. simpl in HC, HR.
  destruct (HR o1 H1) as [k1 [I1 [P1 M1]]]. destruct (HR o2 H2) as [k2 [I2 [P2 M2]]].
  assert (K : mrel k1 k2). { apply HC; try assumption. unfold ckey in *. rewrite P1, P2. exact EK. }
  apply (mrel_trans o1 k1 o2); [apply mrel_sym; exact M1|]. apply (mrel_trans k1 k2 o2); assumption.
Qed.

(* since 11ec04b: when the loop reports no error, the exact path of every
   linked file is the path of a kept file (with the same contents) *)
Lemma dedupe_keeps_exact_path_all outs kept :
  dedupe [] outs = (kept, []) ->
  forall o, In o outs -> exists k, In k kept /\ o_path k = o_path o /\ o_data k = o_data o.
Proof.
  intros E o Ho. destruct (dedupe_nil_facts E) as [_ [_ C]].
  destruct (C eq_refl) as [_ HR]. destruct (HR o Ho) as [k [Hk [Pk Mk]]].
  exists k. repeat split; try assumption. apply mrel_data. exact Mk.
Qed.

Lemma overwrite_refused_nil ins outs :
  overwrite_refused ins outs = [] -> forall o, In o outs -> ~ In (ckey o) (map canon ins).
Proof.
  intros E o Ho Hin. assert (H : In (o_path o) (overwrite_refused ins outs)); [|rewrite E in H; exact H].
  apply in_map, filter_In. split; [exact Ho | apply mem_In; exact Hin].
Qed.

Lemma compile_ok_inv {opt oc kept} :
  cancel_early oc = false -> to_stdout opt = false -> compile opt oc = (kept, false) ->
  dedupe [] (linked oc) = (kept, []) /\ link_err oc = false /\
  (effective_allow opt = false -> forall o, In o (linked oc) -> ~ In (ckey o) (map canon (inputs oc))).
Proof.
  intros HC HS. unfold compile. rewrite HC, HS.
  destruct (dedupe [] (linked oc)) as [k e2]. intro E. injection E as <- E.
  apply orb_false_iff in E as [E E3]. apply orb_false_iff in E as [E2 E1].
  destruct e2; [|discriminate]. repeat split; [exact E2|].
  intro HA. rewrite HA in E1. apply overwrite_refused_nil.
  destruct (overwrite_refused (inputs oc) (linked oc)); [reflexivity | discriminate].
Qed.

(* what Compile returns when it leaves no error in the log (directory mode) *)
Lemma compile_ok_facts {opt oc kept} :
  cancel_early oc = false -> to_stdout opt = false ->
  compile opt oc = (kept, false) ->
  NoDup (map o_path kept) /\
  (forall o, In o kept -> In o (linked oc)) /\
  (forall o, In o (linked oc) -> exists k, In k kept /\ o_path k = o_path o /\ o_data k = o_data o) /\
  (forall o1 o2, In o1 (linked oc) -> In o2 (linked oc) -> ckey o1 = ckey o2 -> o_data o1 = o_data o2) /\
  (effective_allow opt = false -> forall o, In o (linked oc) -> ~ In (ckey o) (map canon (inputs oc))) /\
  link_err oc = false.
Proof.
  intros HC HS E. destruct (compile_ok_inv HC HS E) as [ED [EL HI]].
  destruct (dedupe_nil_facts ED) as [ND [HK _]].
  repeat split; try assumption.
  - exact (dedupe_keeps_exact_path_all _ _ ED).
  - intros o1 o2 H1 H2 EK. apply mrel_data. exact (dedupe_mrel _ _ ED o1 o2 H1 H2 EK).
Qed.

Lemma compile_two_on_one_path opt oc kept :
  cancel_early oc = false -> to_stdout opt = false -> compile opt oc = (kept, false) ->
  forall o1 o2, In o1 (linked oc) -> In o2 (linked oc) -> o1 <> o2 -> ckey o1 = ckey o2 ->
    o_merge o1 = true /\ o_merge o2 = true /\ o_data o1 = o_data o2.
Proof.
  intros HC HS E o1 o2 H1 H2 Hne EK. destruct (compile_ok_inv HC HS E) as [ED _].
  destruct (dedupe_mrel _ _ ED o1 o2 H1 H2 EK) as [H|H]; [contradiction | exact H].
Qed.

Lemma any_linked_on_input_refused opt oc o :
  cancel_early oc = false -> to_stdout opt = false -> effective_allow opt = false ->
  In o (linked oc) -> In (ckey o) (map canon (inputs oc)) ->
  snd (compile opt oc) = true.
Proof.
  intros HC HS HA Ho Hin. destruct (compile opt oc) as [kept []] eqn:E; [reflexivity|].
  destruct (compile_ok_inv HC HS E) as [_ [_ H]]. destruct (H HA o Ho Hin).
Qed.
