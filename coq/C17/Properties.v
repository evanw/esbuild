(* C17 property theorems. This file contains only statements closed by
   [exact lemma] and Print Assumptions.

   Vocabulary (WriteSM.v): [step_gen phys fixed opt st oc = (st', r)] is one
   (re)build of a context with options [opt] from state [st] (disk, hash table)
   when scan+link produced [oc]; [fixed = true] ([step]) is the current code
   (after /repo commit d19e8cb), [fixed = false] ([step_before_fix]) the code
   before that repair; [phys] resolves a path to the file it
   denotes ([phys_id]: no symbolic links); [r_failed_early r]: the log has
   errors when the write phase starts (scan, link, overwrite/duplicate checks,
   cancellation); [r_errors r]: the build reports errors (also on-end errors). *)
From V Require Import Common.Base C17.WriteSM C17.Spec C17.Proofs C17.CompileProofs C17.SpecProofs C17.IOFail C17.PathModel C17.PathProofs C17.RelProofs C17.LinkProofs C17.Modes C17.IOHist C17.Cancel C17.Findings.

Theorem allow_overwrite_forced_only_without_write :
  forall o, effective_allow o = true <-> allow_overwrite o = true \/ write o = false.
Proof. exact effective_allow_spec. Qed.
Print Assumptions allow_overwrite_forced_only_without_write.

(* every file operation that creates or modifies a file writes a reported
   output at its reported path with its reported contents, in a build without
   error when the write phase started, with writing enabled (any file system) *)
Theorem writes_are_reported :
  forall phys fixed opt st oc st' r p c,
    step_gen phys fixed opt st oc = (st', r) -> In (EWrite p c) (r_effects r) ->
    r_failed_early r = false /\ write opt = true /\ to_stdout opt = false /\
    exists o, In o (r_outputs r) /\ o_path o = p /\ o_data o = c.
Proof. exact @writes_are_reported_all. Qed.
Print Assumptions writes_are_reported.

(* without symbolic links, the disk after a successful writing build is
   exactly: reported outputs hold their reported contents (whether rewritten or
   skipped as unchanged), paths of the old hash table that are no longer
   outputs are gone, everything else is untouched; reported paths are
   pairwise distinct *)
Theorem successful_build_disk_exact :
  forall fixed opt st oc st' r,
    step_gen phys_id fixed opt st oc = (st', r) ->
    r_failed_early r = false -> write opt = true -> to_stdout opt = false ->
    NoDup (map o_path (r_outputs r)) /\
    forall p, lookup (disk st') p =
      match find (fun o => path_eqb (o_path o) p) (r_outputs r) with
      | Some o => Some (o_data o)
      | None => if mem p (keys (latest st)) then None else lookup (disk st) p
      end.
Proof. exact @successful_step_disk. Qed.
Print Assumptions successful_build_disk_exact.


(* a build with errors when the write phase starts, a cancelled build (it has
   such an error), a build with writing disabled and a build in stdout mode
   create or modify no file; what they delete is listed in the hash table *)
Theorem failed_build_writes_nothing :
  forall phys fixed opt st oc st' r,
    step_gen phys fixed opt st oc = (st', r) ->
    r_failed_early r = true \/ write opt = false \/ to_stdout opt = true ->
    exists dels, r_effects r = map EDelete dels /\
                 disk st' = apply phys (disk st) (map EDelete dels) /\
                 (forall p, In p dels -> In p (keys (latest st))) /\
                 (dels <> [] -> r_failed_early r = true /\ fixed = false /\ write opt = true /\ to_stdout opt = false).
Proof. exact @failed_step_shape. Qed.
Print Assumptions failed_build_writes_nothing.

(* a build that has errors when the write phase starts changes nothing at all:
   not the disk, not the context's hash table (restored in full by d19e8cb) *)
Theorem failed_build_deletes_nothing :
  forall phys opt st oc st' r,
    step phys opt st oc = (st', r) -> r_failed_early r = true -> st' = st /\ r_effects r = [].
Proof. exact @fixed_failed_step_is_identity. Qed.
Print Assumptions failed_build_deletes_nothing.

(* ... and so do a build with writing disabled and a build in stdout mode, as far as the disk goes *)
Theorem failed_or_nonwriting_build_leaves_disk_unchanged :
  forall phys opt st oc st' r,
    step phys opt st oc = (st', r) ->
    r_failed_early r = true \/ write opt = false \/ to_stdout opt = true ->
    disk st' = disk st /\ r_effects r = [].
Proof. exact @nonwriting_step_disk_unchanged. Qed.
Print Assumptions failed_or_nonwriting_build_leaves_disk_unchanged.

(* what d19e8cb repaired (DESIGN §7-F, reproduced on the code before the
   commit and again by reverting it): a rebuild that failed removed the
   outputs of the previous build *)
Theorem before_fix_failed_build_deleted_files :
  exists opt d0 oc1 oc2,
    let st1 := fst (step_before_fix phys_id opt (init d0) oc1) in
    let st2 := fst (step_before_fix phys_id opt st1 oc2) in
    let r2 := snd (step_before_fix phys_id opt st1 oc2) in
    r_failed_early r2 = true /\
    exists p, lookup (disk st1) p <> None /\ lookup (disk st2) p = None.
Proof. exact before_fix_failed_build_deleted_files_w. Qed.
Print Assumptions before_fix_failed_build_deleted_files.

(* REFUTED (by design upstream): "a build that reports errors creates no
   file" - on-end callbacks run after the write phase *)
Theorem reported_errors_write_nothing_refuted :
  exists opt d0 oc,
    let st1 := fst (step phys_id opt (init d0) oc) in
    let r1 := snd (step phys_id opt (init d0) oc) in
    r_errors r1 = true /\ exists p, lookup d0 p = None /\ lookup (disk st1) p <> None.
Proof. exact reported_errors_write_nothing_refuted_w. Qed.
Print Assumptions reported_errors_write_nothing_refuted.


(* without permission to overwrite, no write goes to a path whose canonical
   form is the canonical form of an input (any file system) *)
Theorem no_input_overwritten :
  forall fixed phys opt st oc st' r p c,
    step_gen phys fixed opt st oc = (st', r) -> effective_allow opt = false ->
    In (EWrite p c) (r_effects r) -> ~ In (canon p) (map canon (inputs oc)).
Proof. exact inputs_not_written. Qed.
Print Assumptions no_input_overwritten.

(* without symbolic links: an input keeps its contents, or it was in the hash
   table and has been deleted (the strongest statement that holds) *)
Theorem no_input_overwritten_disk_partial :
  forall fixed opt st oc st' r q,
    step_gen phys_id fixed opt st oc = (st', r) -> effective_allow opt = false -> In q (inputs oc) ->
    lookup (disk st') q = lookup (disk st) q \/
    (lookup (disk st') q = None /\ In q (keys (latest st)) /\ In (EDelete q) (r_effects r)).
Proof. exact @input_safe_or_deleted. Qed.
Print Assumptions no_input_overwritten_disk_partial.

(* a failed build neither overwrites nor deletes any file, inputs included *)
Theorem no_input_deleted_by_failed_build :
  forall phys opt st oc st' r q,
    step phys opt st oc = (st', r) -> r_failed_early r = true -> lookup (disk st') q = lookup (disk st) q.
Proof. exact failed_step_keeps_files. Qed.
Print Assumptions no_input_deleted_by_failed_build.

(* before d19e8cb a failing rebuild deleted one of its inputs *)
Theorem before_fix_failed_build_deleted_input :
  exists opt d0 oc1 oc2,
    let st1 := fst (step_before_fix phys_id opt (init d0) oc1) in
    let st2 := fst (step_before_fix phys_id opt st1 oc2) in
    r_failed_early (snd (step_before_fix phys_id opt st1 oc2)) = true /\
    effective_allow opt = false /\
    exists p, In p (inputs oc2) /\ lookup (disk st1) p <> None /\ lookup (disk st2) p = None.
Proof. exact before_fix_failed_build_deleted_input_w. Qed.
Print Assumptions before_fix_failed_build_deleted_input.

(* REFUTED ("never deletes a file that was one of its inputs"), before and
   after d19e8cb: a SUCCESSFUL rebuild deletes a stale output of the previous
   build that is an input of the current one (replayed on the real code) *)
Theorem no_input_deleted_by_successful_rebuild_refuted :
  forall fixed, exists opt d0 oc1 oc2,
    let st1 := fst (step_gen phys_id fixed opt (init d0) oc1) in
    let st2 := fst (step_gen phys_id fixed opt st1 oc2) in
    let r2 := snd (step_gen phys_id fixed opt st1 oc2) in
    effective_allow opt = false /\ r_errors r2 = false /\
    exists p, In p (inputs oc2) /\ lookup (disk st1) p <> None /\ lookup (disk st2) p = None.
Proof. exact no_input_deleted_by_successful_rebuild_refuted_w. Qed.
Print Assumptions no_input_deleted_by_successful_rebuild_refuted.

(* REFUTED: with a symbolic link between the output path and an input, the
   input is overwritten although overwriting is not allowed *)
Theorem no_input_overwritten_via_symlink_refuted :
  exists phys opt d0 oc,
    let st1 := fst (step phys opt (init d0) oc) in
    let r1 := snd (step phys opt (init d0) oc) in
    effective_allow opt = false /\ r_errors r1 = false /\
    exists p c, In p (inputs oc) /\ lookup d0 p = Some c /\ lookup (disk st1) p <> Some c /\ lookup (disk st1) p <> None.
Proof. exact no_input_overwritten_via_symlink_refuted_w. Qed.
Print Assumptions no_input_overwritten_via_symlink_refuted.


(* when Compile leaves no error in the log (directory mode): the returned
   files have pairwise distinct paths, all come from the linker, every linked
   file is represented by a returned file with exactly its path (since
   /repo commit 11ec04b) and the same contents, two linked files with one canonical path have
   equal contents, no linked file sits on an input unless overwriting is allowed *)
Theorem two_outputs_one_path :
  forall opt oc kept,
    cancel_early oc = false -> to_stdout opt = false -> compile opt oc = (kept, false) ->
    NoDup (map o_path kept) /\
    (forall o, In o kept -> In o (linked oc)) /\
    (forall o, In o (linked oc) -> exists k, In k kept /\ o_path k = o_path o /\ o_data k = o_data o) /\
    (forall o1 o2, In o1 (linked oc) -> In o2 (linked oc) -> ckey o1 = ckey o2 -> o_data o1 = o_data o2) /\
    (effective_allow opt = false -> forall o, In o (linked oc) -> ~ In (ckey o) (map canon (inputs oc))) /\
    link_err oc = false.
Proof. exact @compile_ok_facts. Qed.
Print Assumptions two_outputs_one_path.

(* whatever a rebuild deletes was written by an earlier rebuild of the same
   context and is not an output of the current one: every history, every
   file system, the step before and after d19e8cb *)
Theorem deletes_only_own_earlier_outputs :
  forall phys fixed opt d0 ocs pre res post,
    trace_gen phys fixed opt (init d0) ocs = pre ++ res :: post ->
    forall p, In (EDelete p) (r_effects res) ->
      In p (written_paths pre) /\ ~ In p (map o_path (r_outputs res)).
Proof. exact deletes_only_own_all. Qed.
Print Assumptions deletes_only_own_earlier_outputs.

(* a file that is never a reported output of any rebuild of a history (a
   source file, a foreign file in the output directory ...) is, at the end of
   the history, exactly what it was at the start: every history, every initial
   tree, no symbolic links, current and pre-repair step *)
Theorem foreign_files_untouched :
  forall fixed opt d0 ocs p,
    (forall res, In res (trace_gen phys_id fixed opt (init d0) ocs) -> ~ In p (map o_path (r_outputs res))) ->
    lookup (disk (run_gen phys_id fixed opt (init d0) ocs)) p = lookup d0 p.
Proof. exact foreign_files_untouched_all. Qed.
Print Assumptions foreign_files_untouched.

(* every rebuild of a history is a step, so the one-step theorems apply to it *)
Theorem history_elements_are_steps :
  forall phys fixed opt st ocs res,
    In res (trace_gen phys fixed opt st ocs) ->
    exists st0 oc st1, step_gen phys fixed opt st0 oc = (st1, res).
Proof. exact trace_elements_all. Qed.
Print Assumptions history_elements_are_steps.

(* the model meets the independent specification (one step, no symlinks) *)
Theorem step_meets_spec :
  forall fixed opt st st' oc r own,
    step_gen phys_id fixed opt st oc = (st', r) -> to_stdout opt = false ->
    (forall p, In p (keys (latest st)) -> In p own) ->
    let o := obs_of opt st st' oc r own in
    spec_only_reported o /\ spec_all_reported_written o /\ spec_deletes_own o /\
    spec_failed_no_write o /\ spec_single_valued o /\ spec_inputs_not_overwritten o.
Proof. exact step_meets_spec_all. Qed.
Print Assumptions step_meets_spec.

(* the strong reading "a failed or non-writing build leaves the tree unchanged":
   true of the current step, false before d19e8cb *)
Theorem step_meets_spec_failed_unchanged :
  forall opt st st' oc r own,
    step phys_id opt st oc = (st', r) -> to_stdout opt = false ->
    spec_failed_unchanged (obs_of opt st st' oc r own).
Proof. exact fixed_meets_failed_unchanged. Qed.
Print Assumptions step_meets_spec_failed_unchanged.

Theorem before_fix_spec_failed_unchanged_refuted :
  exists opt st oc own,
    let st' := fst (step_before_fix phys_id opt st oc) in
    let r := snd (step_before_fix phys_id opt st oc) in
    to_stdout opt = false /\ (forall p, In p (keys (latest st)) -> In p own) /\
    ~ spec_failed_unchanged (obs_of opt st st' oc r own).
Proof. exact before_fix_spec_failed_unchanged_refuted_w. Qed.
Print Assumptions before_fix_spec_failed_unchanged_refuted.

(* failures DURING the write phase ([step_io]: [step_gen] plus the set of
   output paths at which mkdir/write fails; the harness evaluates [step_io]) *)

(* without write failures [step_io] is [step_gen]: every theorem above is about
   the function the correspondence check runs *)
Theorem step_io_without_failures_is_step_gen :
  forall phys fixed opt st oc, step_io phys fixed opt st oc [] = step_gen phys fixed opt st oc.
Proof. exact step_io_nil. Qed.
Print Assumptions step_io_without_failures_is_step_gen.

(* with write failures: still every write is a reported output of a build
   without early error, and never at a failing path *)
Theorem io_writes_are_reported_and_avoid_failing_paths :
  forall phys fixed opt st oc wf st' r p c,
    step_io phys fixed opt st oc wf = (st', r) -> In (EWrite p c) (r_effects r) ->
    r_failed_early r = false /\ write opt = true /\ to_stdout opt = false /\ ~ In p wf /\
    exists o, In o (r_outputs r) /\ o_path o = p /\ o_data o = c.
Proof. exact (fun phys fixed => @io_writes_are_reported phys fixed true). Qed.
Print Assumptions io_writes_are_reported_and_avoid_failing_paths.

(* an attempted write that fails is never silent: the build reports errors *)
Theorem io_failure_reports_error :
  forall phys fixed opt st oc wf st' r o,
    step_io phys fixed opt st oc wf = (st', r) ->
    r_failed_early r = false -> write opt = true -> to_stdout opt = false ->
    In o (r_outputs r) -> skip phys st (hashes_of (r_outputs r)) o = false -> In (o_path o) wf ->
    r_errors r = true.
Proof. exact (fun phys fixed => @io_failure_is_reported phys fixed true). Qed.
Print Assumptions io_failure_reports_error.

(* REFUTED (inside the statement by the property text: the build "reports
   errors"; by nature of concurrent writes without staging): the error arises
   while the other files are being written.  Replayed: out/a.js is a directory *)
Theorem write_error_build_writes_nothing_refuted :
  exists opt d0 oc wf,
    let st1 := fst (step_io phys_id true opt (init d0) oc wf) in
    let r1 := snd (step_io phys_id true opt (init d0) oc wf) in
    r_errors r1 = true /\ r_failed_early r1 = false /\
    exists p, lookup d0 p = None /\ lookup (disk st1) p <> None.
Proof. exact write_error_build_writes_nothing_refuted_w. Qed.
Print Assumptions write_error_build_writes_nothing_refuted.

(* what /repo commit b32af0b repaired (finding J2, reproduced before the commit
   and again by reverting it): the path of a failed write stayed in the hash
   table and was "deleted" by a later rebuild although no rebuild wrote it (the
   user's empty directory out/a.js was removed).  On the current step the path
   is forgotten (Examples.v, io_deletes_only_own_partial below). *)
Theorem before_fix_b32af0b_deleted_never_written_path :
  exists opt d0 oc1 wf oc2,
    let st1 := fst (step_io_before_b32af0b phys_id true opt (init d0) oc1 wf) in
    let r1 := snd (step_io_before_b32af0b phys_id true opt (init d0) oc1 wf) in
    let r2 := snd (step_io_before_b32af0b phys_id true opt st1 oc2 []) in
    exists p, In (EDelete p) (r_effects r2) /\ ~ In p (writes_of (r_effects r1)).
Proof. exact before_fix_b32af0b_deleted_never_written_path_w. Qed.
Print Assumptions before_fix_b32af0b_deleted_never_written_path.

(* the path layer (PathModel.v: esbuild's clean/join/rel/dir/base/ext,
   PathRelativeToOutbase, template parsing and rendering, the entry point's
   output path; every function below is the one the correspondence runs) *)

(* joining a relative path that has no parent-directory segment onto an
   absolute output directory only appends path elements to the cleaned
   directory: the output is inside the output directory *)
Theorem output_inside_outdir :
  forall outdir relp,
    is_rooted outdir = true -> relp <> [] -> no_dotdot_seg relp = true ->
    fs_join outdir relp = SL :: join_with SL (clean_segs outdir ++ filter proper (split_on SL relp)).
Proof. exact fs_join_inside. Qed.
Print Assumptions output_inside_outdir.

(* the [dir] part that PathRelativeToOutbase computes never has a
   parent-directory segment: for every outbase and every effective absolute
   path (Unix flavour, no backslash characters in the file names).  Proof: Rel
   of two cleaned absolute paths is a leading run of ".." followed by proper
   elements (rel_shaped), the directory text of such a path keeps that shape
   (dir_text_of_shaped), and the "../" -> "_.._/" rewrite removes the run. *)
Theorem relative_dir_has_no_dotdot :
  forall outbase absPath0 avoidIndex custom,
    is_rooted outbase = true ->
    is_rooted (effective_abs outbase absPath0 avoidIndex custom) = true ->
    no_bs (effective_abs outbase absPath0 avoidIndex custom) = true ->
    has_dd (fst (path_relative_to_outbase outbase absPath0 avoidIndex custom)) = false.
Proof. exact relative_dir_no_dotdot. Qed.
Print Assumptions relative_dir_has_no_dotdot.

(* the effective path is absolute in the ordinary cases *)
Theorem effective_path_is_absolute :
  forall outbase absPath0 ai custom,
    is_rooted outbase = true -> custom <> [] -> is_rooted custom = false ->
    is_rooted (effective_abs outbase absPath0 ai custom) = true.
Proof. exact effective_abs_relative_custom_rooted. Qed.
Print Assumptions effective_path_is_absolute.

(* the rewrite itself, for any directory text whose parent-directory segments form only a leading run *)
Theorem neutralise_removes_leading_dotdot :
  forall d0,
    let d1 := map (fun c => if c =? 92 then SL else c) d0 in
    let n := count_dotdot (length d1) d1 in
    has_dd (skipn (n * 3) d1) = false -> has_dd (neutralise d0) = false.
Proof. exact neutralise_no_dotdot. Qed.
Print Assumptions neutralise_removes_leading_dotdot.

(* REFUTED: "inside the output directory whenever the templates contain no
   parent-directory segment" - the [name] of the entry file "...js" is ".." *)
Theorem template_without_dotdot_escapes_refuted :
  exists tmpl outdir outbase entry ext,
    no_dotdot_seg tmpl = true /\
    let out := entry_out_path outdir (entry_template tmpl) outbase entry [] [] ext in
    firstn (List.length (clean_segs outdir)) (clean_segs out) <> clean_segs outdir.
Proof. exact template_without_dotdot_escapes_refuted_w. Qed.
Print Assumptions template_without_dotdot_escapes_refuted.

(* no_input_overwritten over the concrete path functions: for every template,
   outbase, output directory, set of entry points (paths, explicit output
   paths, hashes, extensions) and set of inputs, an entry point whose computed
   output path equals an input path under esbuild's comparison makes Compile
   report an error unless overwriting is allowed *)
Theorem no_input_overwritten_concrete :
  forall opt outdir tmpl outbase es ins lerr cl onend e,
    to_stdout opt = false -> effective_allow opt = false -> In e es ->
    In (canon (entry_out_path outdir tmpl outbase (e_path e) (e_custom e) (e_hash e) (e_ext e))) (map canon ins) ->
    snd (compile opt (mkOutcome false ins false (linked_of_entries outdir tmpl outbase es) lerr cl onend)) = true.
Proof. exact concrete_output_on_input_is_refused. Qed.
Print Assumptions no_input_overwritten_concrete.

(* "no symbolic link on the output paths" as a boolean over the modelled file
   system: when every linked output path and every path of the hash table
   denotes itself, the step is the step of the link-free file system, so every
   theorem stated for [phys_id] holds for it *)
Theorem link_free_step_is_plain_step :
  forall phys fixed opt st oc,
    link_free phys (map o_path (linked oc) ++ keys (latest st)) = true ->
    step_gen phys fixed opt st oc = step_gen phys_id fixed opt st oc.
Proof. exact step_gen_link_free. Qed.
Print Assumptions link_free_step_is_plain_step.

(* two different linked files whose paths are equal under the key of the check
   (equal cleaned paths, case variants, slash variants) pass only if both may
   be merged and their contents are equal; otherwise Compile reports an error.
   The key folds case on every platform, so on a case-insensitive file system
   two differently-cased outputs never collide silently. *)
Theorem two_outputs_one_path_reported :
  forall opt oc kept,
    cancel_early oc = false -> to_stdout opt = false -> compile opt oc = (kept, false) ->
    forall o1 o2, In o1 (linked oc) -> In o2 (linked oc) -> o1 <> o2 -> ckey o1 = ckey o2 ->
      o_merge o1 = true /\ o_merge o2 = true /\ o_data o1 = o_data o2.
Proof. exact compile_two_on_one_path. Qed.
Print Assumptions two_outputs_one_path_reported.

(* restored in full by /repo commit 11ec04b (finding K): when the duplicate-path
   rule reports no error, the exact path of every linked file - which is what
   the generated code refers to - is the path of a kept file with the same
   contents; a mergeable case variant is kept, not dropped *)
Theorem dedupe_keeps_exact_path :
  forall outs kept,
    dedupe [] outs = (kept, []) ->
    forall o, In o outs -> exists k, In k kept /\ o_path k = o_path o /\ o_data k = o_data o.
Proof. exact dedupe_keeps_exact_path_all. Qed.
Print Assumptions dedupe_keeps_exact_path.

(* modes: every way of starting a build goes through the same validation *)
Theorem allow_overwrite_forced_only_without_write_in_every_mode :
  forall m w a s, effective_allow (mode_opts m w a s) = true <-> a = true \/ mode_write m w = false.
Proof. exact mode_effective_allow. Qed.
Print Assumptions allow_overwrite_forced_only_without_write_in_every_mode.

(* the CLI's serve mode (constants regenerated from pkg/cli/cli_impl.go): never
   refuses, never writes, never deletes *)
Theorem cli_serve_mode_never_touches_disk :
  forall phys w a s st oc st' r,
    step phys (mode_opts CliServe w a s) st oc = (st', r) ->
    effective_allow (mode_opts CliServe w a s) = true /\ disk st' = disk st /\ r_effects r = [].
Proof. exact cli_serve_never_touches_disk. Qed.
Print Assumptions cli_serve_mode_never_touches_disk.

(* the CLI's build/watch mode always writes: inputs are protected unless --allow-overwrite *)
Theorem cli_build_mode_allow_is_the_flag :
  forall w a s, effective_allow (mode_opts CliBuild w a s) = a.
Proof. exact cli_build_allow_is_the_flag. Qed.
Print Assumptions cli_build_mode_allow_is_the_flag.

(* output_inside_outdir for every kind of output file (entry points with
   generated or explicit {in,out} output paths, shared chunks, file/copy-loader
   assets); the path functions are the ones tied by the api.Build
   correspondence (outpath / chunkpath / assetpath cases) *)
Theorem entry_output_inside_outdir :
  forall outdir tmpl outbase entry custom hash ext,
    is_rooted outdir = true -> ext <> [] ->
    no_dotdot_seg (entry_rel_path tmpl outbase entry custom hash ext) = true ->
    entry_out_path outdir tmpl outbase entry custom hash ext =
    SL :: join_with SL (clean_segs outdir ++ filter proper (split_on SL (entry_rel_path tmpl outbase entry custom hash ext))).
Proof. exact entry_inside. Qed.
Print Assumptions entry_output_inside_outdir.

Theorem chunk_output_inside_outdir :
  forall outdir tmpl hash ext,
    is_rooted outdir = true -> ext <> [] ->
    no_dotdot_seg (chunk_rel_path tmpl hash ext) = true ->
    chunk_out_path outdir tmpl hash ext =
    SL :: join_with SL (clean_segs outdir ++ filter proper (split_on SL (chunk_rel_path tmpl hash ext))).
Proof. exact chunk_inside. Qed.
Print Assumptions chunk_output_inside_outdir.

Theorem asset_output_inside_outdir :
  forall outdir tmpl outbase asset hash,
    is_rooted outdir = true -> asset_rel_path tmpl outbase asset hash <> [] ->
    no_dotdot_seg (asset_rel_path tmpl outbase asset hash) = true ->
    asset_out_path outdir tmpl outbase asset hash =
    SL :: join_with SL (clean_segs outdir ++ filter proper (split_on SL (asset_rel_path tmpl outbase asset hash))).
Proof. exact asset_inside. Qed.
Print Assumptions asset_output_inside_outdir.

(* histories with write failures: what a rebuild deletes.
   FULL statement (false): "every path a rebuild deletes was written by an
   earlier rebuild of the same context and is not an input of the current
   build" - refuted by no_input_deleted_by_successful_rebuild_refuted (F2).
   The other counter-example (J2, a failed write's path in the table) exists
   only before b32af0b; from that commit on the first half holds in full: every
   deleted path was WRITTEN by an earlier rebuild, write failures or not.
   PARTIAL, excluding exactly the F2 shape: it is not an input of the current
   build unless an input is a path an earlier rebuild reported.
   Every history, every file system. *)
Theorem io_deletes_only_own_partial :
  forall phys fixed opt d0 ocs pre oc wf res post,
    trace_io_full phys fixed true opt (init d0) ocs = pre ++ (oc, wf, res) :: post ->
    forall p, In (EDelete p) (r_effects res) ->
      In p (reported_paths pre) /\
      ~ In p (map o_path (r_outputs res)) /\
      In p (written_paths_io pre) /\
      ((forall q, In q (inputs oc) -> ~ In q (reported_paths pre)) -> ~ In p (inputs oc)).
Proof. exact io_deletes_all. Qed.
Print Assumptions io_deletes_only_own_partial.

(* before b32af0b the third clause needed "or a path at which an earlier write failed" *)
Theorem before_fix_b32af0b_io_deletes_partial :
  forall phys fixed opt d0 ocs pre oc wf res post,
    trace_io_full phys fixed false opt (init d0) ocs = pre ++ (oc, wf, res) :: post ->
    forall p, In (EDelete p) (r_effects res) ->
      In p (reported_paths pre) /\
      ~ In p (map o_path (r_outputs res)) /\
      (In p (written_paths_io pre) \/ In p (failed_paths false pre)) /\
      ((forall q, In q (inputs oc) -> ~ In q (reported_paths pre)) -> ~ In p (inputs oc)).
Proof. exact io_deletes_all_before_fix. Qed.
Print Assumptions before_fix_b32af0b_io_deletes_partial.

(* cancellation: the flag is read in ScanBundle, on entry of Compile and
   once after Compile returns, never again *)

(* a build that reports "The build was canceled" (Cancel landed before that
   last check) changes nothing: not the disk, not the hash table, no outputs *)
Theorem cancelled_build_writes_nothing :
  forall phys opt st oc cp st' r,
    reports_cancel cp = true ->
    step phys opt st (with_cancel oc cp) = (st', r) ->
    st' = st /\ r_effects r = [] /\ r_errors r = true /\ r_outputs r = [].
Proof. exact cancelled_build_changes_nothing. Qed.
Print Assumptions cancelled_build_writes_nothing.

(* a Cancel() that lands after the check is not seen by the running build *)
Theorem cancel_after_the_check_is_ignored :
  forall phys opt st oc,
    step phys opt st (with_cancel oc AfterCheck) = step phys opt st (with_cancel oc NoCancel).
Proof. exact cancel_after_check_is_ignored. Qed.
Print Assumptions cancel_after_the_check_is_ignored.

(* REFUTED: "whenever Cancel() lands while the build is active, the build
   writes nothing" (replayed: Cancel() from an on-end callback; racing replays
   only ever show the two consistent outcomes) *)
Theorem cancel_any_time_writes_nothing_refuted :
  exists opt d0 oc cp,
    cp <> NoCancel /\
    let st1 := fst (step phys_id opt (init d0) (with_cancel oc cp)) in
    let r1 := snd (step phys_id opt (init d0) (with_cancel oc cp)) in
    r_errors r1 = false /\ exists p, lookup d0 p = None /\ lookup (disk st1) p <> None.
Proof. exact cancel_any_time_writes_nothing_refuted_w. Qed.
Print Assumptions cancel_any_time_writes_nothing_refuted.

(* REFUTED (why relative_dir_has_no_dotdot needs "no backslash in file names"):
   a Unix directory literally named a\..\..\..\b puts the output outside the
   output directory with the default template (replayed on the real code) *)
Theorem backslash_in_name_escapes_refuted :
  exists outdir outbase entry,
    is_rooted outbase = true /\ is_rooted entry = true /\
    let out := entry_out_path outdir default_entry_template outbase entry [] [] ext_js in
    firstn (List.length (clean_segs outdir)) (clean_segs out) <> clean_segs outdir.
Proof. exact backslash_in_name_escapes_refuted_w. Qed.
Print Assumptions backslash_in_name_escapes_refuted.

(* side files (external source map ".map", external/linked legal comments
   ".LEGAL.txt") and outfile mode; paths tied by the sidepath / outfile
   correspondence.  The metafile is returned, not written, by the API; the
   CLI's metafile and mangle-cache writes are exercised by the oracle. *)

(* a side file is inside the output directory whenever its chunk is *)
Theorem side_file_inside_outdir :
  forall outdir relp suffix,
    is_rooted outdir = true -> no_dotdot_seg relp = true -> sfree suffix -> (3 <= length suffix)%nat ->
    side_out_path outdir relp suffix =
    SL :: join_with SL (clean_segs outdir ++ filter proper (split_on SL (relp ++ suffix))).
Proof. exact side_inside. Qed.
Print Assumptions side_file_inside_outdir.

(* side files are ordinary output files for the overwrite check: whatever file
   the linker produces (chunk, asset, source map, legal comments) on a path
   that is an input under esbuild's comparison makes Compile report an error
   unless overwriting is allowed.  Replayed: input src/a.js.map (file loader)
   next to output src/a.js with an external source map is refused. *)
Theorem side_file_not_an_input :
  forall opt oc o,
    cancel_early oc = false -> to_stdout opt = false -> effective_allow opt = false ->
    In o (linked oc) -> In (ckey o) (map canon (inputs oc)) ->
    snd (compile opt oc) = true.
Proof. exact any_linked_on_input_refused. Qed.
Print Assumptions side_file_not_an_input.

(* templates for which "no parent-directory segment in the rendered path"
   is proved from the ingredients, without a hypothesis on the rendered text.
   For the default templates nothing about the entry's name is needed: even a
   name ".." ends up as "...js".  (For arbitrary templates the rendered-text
   hypothesis of the *_output_inside_outdir theorems stays; finding L shows it
   cannot be dropped: with "[name]/x" the hypothesis "no entry base name is
   '..'" is exactly what is missing.) *)
Theorem default_entry_output_inside_outdir :
  forall outdir outbase entry custom hash ext,
    is_rooted outdir = true -> is_rooted outbase = true ->
    let custom2 := match custom with [] => auto_output_path outbase entry | _ => custom end in
    is_rooted (effective_abs outbase entry false custom2) = true ->
    no_bs (effective_abs outbase entry false custom2) = true ->
    sfree (snd (path_relative_to_outbase outbase entry false custom2)) ->
    sfree ext -> (3 <= length ext)%nat ->
    entry_out_path outdir default_entry_template outbase entry custom hash ext =
    SL :: join_with SL (clean_segs outdir ++ filter proper (split_on SL (entry_rel_path default_entry_template outbase entry custom hash ext))).
Proof. exact default_entry_inside. Qed.
Print Assumptions default_entry_output_inside_outdir.

Theorem default_chunk_output_inside_outdir :
  forall outdir hash ext,
    is_rooted outdir = true -> sfree hash -> sfree ext -> ext <> [] ->
    chunk_out_path outdir default_asset_template hash ext =
    SL :: join_with SL (clean_segs outdir ++ filter proper (split_on SL (chunk_rel_path default_asset_template hash ext))).
Proof. exact default_chunk_inside. Qed.
Print Assumptions default_chunk_output_inside_outdir.

Theorem default_asset_output_inside_outdir :
  forall outdir outbase asset hash,
    is_rooted outdir = true ->
    sfree (snd (path_relative_to_outbase outbase asset false [])) -> sfree hash -> sfree (pi_ext asset) ->
    asset_out_path outdir default_asset_template outbase asset hash =
    SL :: join_with SL (clean_segs outdir ++ filter proper (split_on SL (asset_rel_path default_asset_template outbase asset hash))).
Proof. exact default_asset_inside. Qed.
Print Assumptions default_asset_output_inside_outdir.
