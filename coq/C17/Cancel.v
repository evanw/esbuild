(* C17: where a Cancel() can land relative to the write phase.

   The cancel flag of a build (config.CancelFlag, set by internalContext.Cancel
   while the build is active) is read at exactly these places:
   - bundler.ScanBundle: after the on-start callbacks and between the scan
     stages (returns an empty Bundle, logs nothing),
   - bundler.Bundle.Compile: once, on entry (returns nil),
   - api rebuildImpl: once, right after Compile returns ("The build was
     canceled" is logged, which blocks the hash table and the write phase).
   It is never read again: not before the hashes are computed, not in the write
   goroutines, not around the on-end callbacks.  So a Cancel() that lands after
   the check in rebuildImpl is ignored by the running build (Cancel() itself
   still waits for the build to end).

   [with_cancel oc cp] is the outcome of scan+link when Cancel() lands at
   [cp]; the flag, once set, stays set for the rest of the build. *)
From V Require Import Common.Base C17.WriteSM C17.IOFail C17.Proofs C17.SpecProofs.
From Coq Require Import String.

Inductive cancel_point :=
| NoCancel
| BeforeCompile      (* during on-start/scan, or before Compile's entry check *)
| DuringLink         (* after Compile's entry check, before rebuildImpl's check *)
| AfterCheck.        (* hashing, write phase, on-end callbacks *)

Definition with_cancel (oc : outcome) (cp : cancel_point) : outcome :=
  match cp with
  | NoCancel | AfterCheck =>
    mkOutcome (scan_err oc) (inputs oc) false (linked oc) (link_err oc) false (onend_err oc)
  | BeforeCompile =>
    mkOutcome (scan_err oc) (inputs oc) true (linked oc) (link_err oc) true (onend_err oc)
  | DuringLink =>
    mkOutcome (scan_err oc) (inputs oc) false (linked oc) (link_err oc) true (onend_err oc)
  end.

(* is "The build was canceled" logged? *)
Definition reports_cancel (cp : cancel_point) : bool :=
  match cp with BeforeCompile | DuringLink => true | _ => false end.

Lemma results_of_cancel opt oc cp :
  reports_cancel cp = true -> snd (results_of opt (with_cancel oc cp)) = true.
Proof.
  unfold results_of. destruct cp; try discriminate; intros _;
    cbn [with_cancel scan_err cancel_early cancel_late]; destruct (scan_err oc); try reflexivity;
    destruct (compile opt _) as [res cerr]; cbn [snd]; rewrite ?orb_true_r; reflexivity.
Qed.

Lemma cancel_before_check_fails_early {phys opt st oc cp st' r} :
  reports_cancel cp = true ->
  step phys opt st (with_cancel oc cp) = (st', r) ->
  r_failed_early r = true.
Proof.
  intros HC. unfold step. rewrite <- (step_io_gen_nil phys true true). intro E.
  destruct (step_io_results E) as [results ER].
  rewrite <- (results_of_cancel opt oc cp HC), ER. reflexivity.
Qed.

(* a build that reports the cancellation changes nothing: not the disk, not the hash table *)
Lemma cancelled_build_changes_nothing phys opt st oc cp st' r :
  reports_cancel cp = true ->
  step phys opt st (with_cancel oc cp) = (st', r) ->
  st' = st /\ r_effects r = [] /\ r_errors r = true /\ r_outputs r = [].
Proof.
  intros HC E.
  pose proof (cancel_before_check_fails_early HC E) as HF.
  destruct (fixed_failed_step_is_identity E HF) as [A B].
  unfold step in E. rewrite <- (step_io_gen_nil phys true true) in E.
  destruct (io_failed_step E HF) as [_ [C D]]. auto.
Qed.

(* a Cancel() that lands after the check is not seen by the build *)
Lemma cancel_after_check_is_ignored phys opt st oc :
  step phys opt st (with_cancel oc AfterCheck) = step phys opt st (with_cancel oc NoCancel).
Proof. reflexivity. Qed.

(* REFUTED: "whenever Cancel() lands while the build is active, the build
   writes nothing" - landing after the check *)
Lemma cancel_any_time_writes_nothing_refuted_w :
  exists opt d0 oc cp,
    cp <> NoCancel /\
    let st1 := fst (step phys_id opt (init d0) (with_cancel oc cp)) in
    let r1 := snd (step phys_id opt (init d0) (with_cancel oc cp)) in
    r_errors r1 = false /\ exists p, lookup d0 p = None /\ lookup (disk st1) p <> None.
Proof.
  exists w_opts, [(P "/src/a.js", [1])], w_oc_link, AfterCheck.
  split; [discriminate|]. split; [vm_compute; reflexivity|].
  exists (P "/out/a.js"). vm_compute. split; [reflexivity | discriminate].
Qed.
