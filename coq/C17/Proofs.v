(* C17 lemmas about the write/delete state machine. *)
From V Require Import Common.Base C17.WriteSM C17.IOFail.

Lemma path_eqb_eq a b : path_eqb a b = true <-> a = b.
Proof. apply zlist_eqb_eq. Qed.
Lemma path_eqb_refl a : path_eqb a a = true.
Proof. apply path_eqb_eq; reflexivity. Qed.
Lemma path_eqb_neq a b : path_eqb a b = false <-> a <> b.
Proof. rewrite <- path_eqb_eq. symmetry. apply Bool.not_true_iff_false. Qed.
Lemma path_eqb_sym a b : path_eqb a b = path_eqb b a.
Proof. apply Bool.eq_true_iff_eq. rewrite !path_eqb_eq. split; intro; subst; reflexivity. Qed.
Lemma content_eqb_eq a b : content_eqb a b = true <-> a = b.
Proof. apply zlist_eqb_eq. Qed.

Lemma mem_In p l : mem p l = true <-> In p l.
Proof.
  unfold mem. rewrite existsb_exists. split.
  - intros [x [Hx E]]. apply path_eqb_eq in E. subst. exact Hx.
  - intro H. exists p. split; [exact H | apply path_eqb_refl].
Qed.
Lemma mem_false p l : mem p l = false <-> ~ In p l.
Proof. rewrite <- mem_In. symmetry. apply Bool.not_true_iff_false. Qed.
Lemma mem_ext p l1 l2 : (In p l1 <-> In p l2) -> mem p l1 = mem p l2.
Proof. intro H. apply Bool.eq_true_iff_eq. rewrite !mem_In. exact H. Qed.

Lemma lookup_upd {V} (m : fmap V) p v q :
  lookup (upd m p v) q = if path_eqb p q then Some v else lookup m q.
Proof. reflexivity. Qed.
Lemma lookup_remove {V} (m : fmap V) p q :
  lookup (remove m p) q = if path_eqb p q then None else lookup m q.
Proof.
  induction m as [|[k v] m IH]; simpl.
  - destruct (path_eqb p q); reflexivity.
  - destruct (path_eqb k p) eqn:Ekp.
    + apply path_eqb_eq in Ekp. subst k. rewrite IH.
      destruct (path_eqb p q); reflexivity.
    + simpl. destruct (path_eqb k q) eqn:Ekq.
      * apply path_eqb_eq in Ekq. subst k.
        destruct (path_eqb p q) eqn:Epq; [|reflexivity].
        apply path_eqb_eq in Epq. subst. rewrite path_eqb_refl in Ekp. discriminate.
      * exact IH.
Qed.
Lemma lookup_in_keys {V} (m : fmap V) p v : lookup m p = Some v -> In p (keys m).
Proof.
  induction m as [|[k w] m IH]; simpl; [discriminate|].
  destruct (path_eqb k p) eqn:E.
  - apply path_eqb_eq in E. intros _. left. exact E.
  - intro H. right. apply IH. exact H.
Qed.
Lemma lookup_none_keys {V} (m : fmap V) p : lookup m p = None <-> ~ In p (keys m).
Proof.
  induction m as [|[k w] m IH]; simpl.
  - split; [intros _ [] | reflexivity].
  - destruct (path_eqb k p) eqn:E.
    + apply path_eqb_eq in E. split; [discriminate | intro H; exfalso; apply H; left; exact E].
    + apply path_eqb_neq in E. rewrite IH. split; intro H.
      * intros [F|F]; [contradiction | apply H; exact F].
      * intro F. apply H. right. exact F.
Qed.

Lemma filter_const {A} (b : bool) (l : list A) : filter (fun _ => b) l = if b then l else [].
Proof. induction l as [|a l IH]; destruct b; simpl in *; congruence. Qed.

Lemma effective_allow_spec o :
  effective_allow o = true <-> allow_overwrite o = true \/ write o = false.
Proof.
  unfold effective_allow. rewrite orb_true_iff, negb_true_iff. tauto.
Qed.

Lemma keys_hashes_of_aux outs m :
  forall p, In p (keys (fold_left (fun m o => upd m (o_path o) (o_hash o)) outs m)) <->
            In p (map o_path outs) \/ In p (keys m).
Proof.
  revert m. induction outs as [|o outs IH]; intros m p; simpl.
  - tauto.
  - rewrite IH. unfold upd, keys. simpl. tauto.
Qed.
Lemma keys_hashes_of outs p : In p (keys (hashes_of outs)) <-> In p (map o_path outs).
Proof. unfold hashes_of. rewrite keys_hashes_of_aux. simpl. tauto. Qed.

(* scan and Compile: (output files, "the log has errors when the write phase starts") *)
Definition results_of (opt : options) (oc : outcome) : list outfile * bool :=
  if scan_err oc then ([], true)
  else let '(res, cerr) := compile opt oc in (res, cerr || cancel_early oc || cancel_late oc).

(* results_of without error comes from a Compile without error *)
Lemma results_of_ok {opt oc results} :
  results_of opt oc = (results, false) ->
  scan_err oc = false /\ cancel_early oc = false /\ cancel_late oc = false /\ compile opt oc = (results, false).
Proof.
  unfold results_of. destruct (scan_err oc); [discriminate|].
  destruct (compile opt oc) as [res cerr]. intro E. injection E as <- E.
  apply orb_false_iff in E as [E E3]. apply orb_false_iff in E as [-> E2]. auto.
Qed.

Definition wr (os : list outfile) : list effect := map (fun o => EWrite (o_path o) (o_data o)) os.

Lemma flat_map_filter_wr (f : outfile -> bool) l :
  flat_map (fun o => if f o then [] else [EWrite (o_path o) (o_data o)]) l = wr (filter (fun o => negb (f o)) l).
Proof.
  induction l as [|a l IH]; simpl; [reflexivity|].
  destruct (f a); simpl; rewrite IH; reflexivity.
Qed.

Lemma in_effects_write p c ws ds :
  In (EWrite p c) (wr ws ++ map EDelete ds) -> exists o, In o ws /\ o_path o = p /\ o_data o = c.
Proof.
  intro H. apply in_app_or in H as [H|H]; apply in_map_iff in H as [x [E Hx]]; [|discriminate].
  injection E as <- <-. eauto.
Qed.
Lemma in_effects_delete p ws ds : In (EDelete p) (wr ws ++ map EDelete ds) -> In p ds.
Proof.
  intro H. apply in_app_or in H as [H|H]; apply in_map_iff in H as [x [E Hx]]; [discriminate|].
  injection E as <-. exact Hx.
Qed.

Lemma delete_not_in_writes {A} (f : A -> bool) (g : A -> path * content) (l : list A) p :
  ~ In (EDelete p) (flat_map (fun o => if f o then [] else [EWrite (fst (g o)) (snd (g o))]) l).
Proof.
  intro H. apply in_flat_map in H as [o [_ Hi]]. destruct (f o); simpl in Hi; [contradiction|].
  destruct Hi as [Hi|[]]. discriminate.
Qed.

(* The step computed, in its three regimes.  [step_gen] is [step_io_gen]
   without write failures, so the equations are about [step_io_gen]. *)
Section Regimes.
Context {phys : path -> path} {fixed fixio : bool} {opt : options} {st : state} {oc : outcome} {wf : list path} {results : list outfile}.

(* before d19e8cb a build that fails deletes every file of the hash table and forgets the table *)
Lemma step_io_failed :
  results_of opt oc = (results, true) ->
  step_io_gen phys fixed fixio opt st oc wf =
  let dels := if write opt && negb (to_stdout opt) && negb fixed then keys (latest st) else [] in
  (mkState (apply phys (disk st) (map EDelete dels)) (if fixed then latest st else []),
   mkResult true true [] (map EDelete dels) None).
Proof.
  intro ER. unfold step_io_gen. fold (results_of opt oc). rewrite ER.
  cbn [negb]. rewrite !andb_false_r, !andb_true_r. cbn [andb orb flat_map app hashes_of fold_left keys map].
  destruct (write opt && negb (to_stdout opt)), fixed, fixio; cbn [andb negb mem existsb]; rewrite ?filter_const; reflexivity.
Qed.

Lemma step_io_nonwriting {st' r} :
  results_of opt oc = (results, false) -> write opt && negb (to_stdout opt) = false ->
  step_io_gen phys fixed fixio opt st oc wf = (st', r) ->
  st' = mkState (disk st) (hashes_of (r_outputs r)) /\ r_failed_early r = false /\ r_effects r = [] /\
  r_outputs r = if to_stdout opt then map (fun o => mkOut stdout_path (o_data o) (o_hash o) (o_merge o)) results else results.
Proof.
  intros ER HD. unfold step_io_gen. fold (results_of opt oc). rewrite ER, HD.
  cbn [negb andb orb existsb filter map]. rewrite andb_false_r. change (forget_failed ?m ?o []) with m.
  intro E. injection E as <- <-. cbn [r_failed_early r_effects r_outputs].
  destruct fixio, (to_stdout opt); cbv iota; rewrite ?map_id; repeat split; reflexivity.
Qed.

(* no error, writing to a directory: the files that are not skipped as unchanged
   are attempted; those not at a failing path are written; paths of the old
   hash table that are no longer outputs are deleted *)
Lemma step_io_writing :
  results_of opt oc = (results, false) -> write opt = true -> to_stdout opt = false ->
  step_io_gen phys fixed fixio opt st oc wf =
  let att := filter (fun o => negb (skip phys st (hashes_of results) o)) results in
  let effects := wr (filter (fun o => negb (mem (o_path o) wf)) att)
                 ++ map EDelete (filter (fun p => negb (mem p (keys (hashes_of results)))) (keys (latest st))) in
  let failed := map o_path (filter (fun o => mem (o_path o) wf) att) in
  (mkState (apply phys (disk st) effects)
           (if fixio then forget_failed (hashes_of results) (latest st) failed else hashes_of results),
   mkResult false (existsb (fun o => mem (o_path o) wf) att || onend_err oc) results effects None).
Proof.
  intros ER HW HS. unfold step_io_gen. fold (results_of opt oc). rewrite ER, HW, HS.
  cbn [negb andb orb]. rewrite andb_false_r, map_id, flat_map_filter_wr. reflexivity.
Qed.

End Regimes.

Lemma step_io_results {phys fixed fixio opt st oc wf st' r} :
  step_io_gen phys fixed fixio opt st oc wf = (st', r) ->
  exists results, results_of opt oc = (results, r_failed_early r).
Proof.
  intro E. destruct (results_of opt oc) as [results []] eqn:ER; exists results.
  - rewrite (step_io_failed ER) in E. injection E as <- <-. reflexivity.
  - destruct (write opt && negb (to_stdout opt)) eqn:HD.
    + apply andb_true_iff in HD as [HW HS]. apply negb_true_iff in HS.
      rewrite (step_io_writing ER HW HS) in E. injection E as <- <-. reflexivity.
    + destruct (step_io_nonwriting ER HD E) as [_ [-> _]]. reflexivity.
Qed.

Lemma io_failed_step {phys fixed fixio opt st oc wf st' r} :
  step_io_gen phys fixed fixio opt st oc wf = (st', r) -> r_failed_early r = true ->
  latest st' = (if fixed then latest st else []) /\ r_outputs r = [] /\ r_errors r = true.
Proof.
  intros E HF. destruct (step_io_results E) as [results ER]. rewrite HF in ER.
  rewrite (step_io_failed ER) in E. injection E as <- <-. repeat split.
Qed.

Lemma not_writing_dir opt : write opt = false \/ to_stdout opt = true -> write opt && negb (to_stdout opt) = false.
Proof. intros [H|H]; rewrite H; [reflexivity | apply andb_false_r]. Qed.

Lemma io_writes_are_reported {phys fixed fixio opt st oc wf st' r p c} :
  step_io_gen phys fixed fixio opt st oc wf = (st', r) -> In (EWrite p c) (r_effects r) ->
  r_failed_early r = false /\ write opt = true /\ to_stdout opt = false /\ ~ In p wf /\
  exists o, In o (r_outputs r) /\ o_path o = p /\ o_data o = c.
Proof.
  intros E H. destruct (step_io_results E) as [results ER].
  destruct (r_failed_early r).
  - rewrite (step_io_failed ER) in E. injection E as <- <-.
    apply in_map_iff in H as [x [Ex _]]. discriminate.
  - destruct (write opt) eqn:HW, (to_stdout opt) eqn:HS.
    2:{ rewrite (step_io_writing ER HW HS) in E. injection E as <- <-.
        apply in_effects_write in H as [o [Ho [<- <-]]].
        apply filter_In in Ho as [Ho Hn]. apply filter_In in Ho as [Ho _].
        apply negb_true_iff, mem_false in Hn. eauto 8. }
    all: destruct (step_io_nonwriting ER (not_writing_dir opt ltac:(auto)) E) as [_ [_ [EE _]]];
      rewrite EE in H; destruct H.
Qed.

Lemma io_deletes_in_table {phys fixed fixio opt st oc wf st' r p} :
  step_io_gen phys fixed fixio opt st oc wf = (st', r) ->
  In (EDelete p) (r_effects r) ->
  In p (keys (latest st)) /\ ~ In p (map o_path (r_outputs r)) /\ write opt = true /\ to_stdout opt = false
  /\ (fixed = true -> r_failed_early r = false).
Proof.
  intros E H. destruct (step_io_results E) as [results ER].
  destruct (r_failed_early r).
  - rewrite (step_io_failed ER) in E. injection E as <- <-. cbn [r_effects r_outputs] in *.
    destruct (write opt && negb (to_stdout opt) && negb fixed) eqn:C; [|destruct H].
    apply andb_true_iff in C as [C HF]. apply andb_true_iff in C as [HW HS].
    apply negb_true_iff in HS, HF. apply in_map_iff in H as [q [Eq Hq]]. injection Eq as <-.
    repeat split; try assumption; [intros [] | congruence].
  - destruct (write opt) eqn:HW, (to_stdout opt) eqn:HS.
    2:{ rewrite (step_io_writing ER HW HS) in E. injection E as <- <-.
        apply in_effects_delete, filter_In in H as [Hk Hn]. apply negb_true_iff, mem_false in Hn.
        repeat split; try assumption. intro Hin. apply Hn, keys_hashes_of, Hin. }
    all: destruct (step_io_nonwriting ER (not_writing_dir opt ltac:(auto)) E) as [_ [_ [EE _]]];
      rewrite EE in H; destruct H.
Qed.

(* a write that is attempted and fails makes the build report errors *)
Lemma io_failure_is_reported {phys fixed fixio opt st oc wf st' r o} :
  step_io_gen phys fixed fixio opt st oc wf = (st', r) ->
  r_failed_early r = false -> write opt = true -> to_stdout opt = false ->
  In o (r_outputs r) -> skip phys st (hashes_of (r_outputs r)) o = false -> In (o_path o) wf ->
  r_errors r = true.
Proof.
  intros E HF HW HS. destruct (step_io_results E) as [results ER]. rewrite HF in ER.
  rewrite (step_io_writing ER HW HS) in E. injection E as <- <-. cbn [r_outputs r_errors].
  intros Ho Hs Hin. apply orb_true_iff. left. apply existsb_exists. exists o. split.
  - apply filter_In. split; [exact Ho | rewrite Hs; reflexivity].
  - apply mem_In. exact Hin.
Qed.

Lemma writes_are_reported_all {phys fixed opt st oc st' r p c} :
  step_gen phys fixed opt st oc = (st', r) ->
  In (EWrite p c) (r_effects r) ->
  r_failed_early r = false /\ write opt = true /\ to_stdout opt = false /\
  exists o, In o (r_outputs r) /\ o_path o = p /\ o_data o = c.
Proof.
  rewrite <- (step_io_gen_nil phys fixed true). intros E H.
  destruct (io_writes_are_reported E H) as [A [B [C [_ D]]]]. auto.
Qed.

Section WithFS.
Variable phys : path -> path.

Lemma no_write_when_failed fixed opt st oc st' r :
  step_gen phys fixed opt st oc = (st', r) ->
  r_failed_early r = true \/ write opt = false \/ to_stdout opt = true ->
  writes_of (r_effects r) = [].
Proof.
  intros E H.
  destruct (writes_of (r_effects r)) as [|p l] eqn:EWr; [reflexivity|]. exfalso.
  assert (Hin : In p (writes_of (r_effects r))) by (rewrite EWr; left; reflexivity).
  unfold writes_of in Hin. apply in_flat_map in Hin as [e [He Hp]].
  destruct e as [q c|q]; simpl in Hp; [|contradiction]. destruct Hp as [Hp|[]]. subst q.
  destruct (writes_are_reported_all E He) as [A [B [C _]]].
  destruct H as [H|[H|H]]; congruence.
Qed.

End WithFS.

Lemma step_success_shape {phys fixed opt st oc st' r} :
  step_gen phys fixed opt st oc = (st', r) ->
  r_failed_early r = false -> write opt = true -> to_stdout opt = false ->
  exists results,
    results_of opt oc = (results, false) /\
    r_outputs r = results /\
    r_effects r = wr (filter (fun o => negb (skip phys st (hashes_of results) o)) results)
                  ++ map EDelete (filter (fun p => negb (mem p (keys (hashes_of results)))) (keys (latest st))) /\
    disk st' = apply phys (disk st) (r_effects r) /\
    latest st' = hashes_of results.
Proof.
  rewrite <- (step_io_gen_nil phys fixed true). intros E HF HW HS.
  destruct (step_io_results E) as [results ER]. rewrite HF in ER.
  rewrite (step_io_writing ER HW HS) in E. injection E as <- <-.
  exists results. cbn [r_outputs r_effects disk latest mem existsb negb]. rewrite !filter_const.
  repeat split. exact ER.
Qed.

(* a step that has errors when the write phase starts, does not write, or is
   in stdout mode only ever removes files listed in the hash table *)
Lemma failed_step_shape {phys fixed opt st oc st' r} :
  step_gen phys fixed opt st oc = (st', r) ->
  r_failed_early r = true \/ write opt = false \/ to_stdout opt = true ->
  exists dels, r_effects r = map EDelete dels /\ disk st' = apply phys (disk st) (map EDelete dels) /\
               (forall p, In p dels -> In p (keys (latest st))) /\
               (dels <> [] -> r_failed_early r = true /\ fixed = false /\ write opt = true /\ to_stdout opt = false).
Proof.
  rewrite <- (step_io_gen_nil phys fixed true). intros E H.
  destruct (step_io_results E) as [results ER].
  destruct (r_failed_early r).
  - rewrite (step_io_failed ER) in E. injection E as <- <-. cbn [r_effects r_failed_early disk].
    eexists. split; [reflexivity|]. split; [reflexivity|].
    destruct (write opt && negb (to_stdout opt) && negb fixed) eqn:C; [|split; [intros ? [] | intro N; contradiction N; reflexivity]].
    apply andb_true_iff in C as [C HF]. apply andb_true_iff in C as [HW HS]. apply negb_true_iff in HS, HF. auto.
  - assert (HD : write opt = false \/ to_stdout opt = true) by (destruct H as [H|H]; [discriminate | exact H]).
    destruct (step_io_nonwriting ER (not_writing_dir opt HD) E) as [-> [_ [-> _]]].
    exists []. split; [reflexivity|]. split; [reflexivity|]. split; [intros ? [] | intro N; contradiction N; reflexivity].
Qed.

