(* C17: the shape of goFilepath.rel on cleaned absolute paths (a leading run
   of ".." followed by proper elements) and, from it, that the directory part
   computed by PathRelativeToOutbase never has a parent-directory segment;
   then side files, and the default templates, whose rendered path provably
   has no parent-directory segment either. *)
From V Require Import Common.Base C17.WriteSM C17.Proofs C17.PathModel C17.PathProofs.

(* a proper path element: not "", ".", "..", no '/' and no '\' inside *)
Definition clean_char (c : Z) : bool := negb (c =? SL) && negb (c =? 92).
Definition good (s : path) : bool := proper s && negb (path_eqb s seg_dotdot) && forallb clean_char s.
Definition no_bs (p : path) : bool := forallb (fun c => negb (c =? 92)) p.

Definition sfree (s : path) : Prop := forallb (fun c => negb (c =? SL)) s = true.

Lemma split_single s : sfree s -> split_on SL s = [s].
Proof.
  unfold sfree. induction s as [|x s IH]; simpl; intro H; [reflexivity|].
  apply andb_true_iff in H as [Hx H]. apply negb_true_iff in Hx. rewrite Hx, (IH H). reflexivity.
Qed.

Lemma good_slash_free s : good s = true -> sfree s.
Proof.
  unfold good, sfree. intro H. apply andb_true_iff in H as [_ H]. rewrite forallb_forall in *.
  intros c Hc. specialize (H c Hc). unfold clean_char in H. apply andb_true_iff in H as [H _]. exact H.
Qed.
Lemma dd_slash_free : sfree seg_dotdot.
Proof. reflexivity. Qed.
Lemma goods_sfree g : Forall (fun x => good x = true) g -> Forall sfree g.
Proof. apply Forall_impl. exact good_slash_free. Qed.

Lemma split_join l : l <> [] -> Forall sfree l -> split_on SL (join_with SL l) = l.
Proof.
  induction l as [|s l IH]; intros HN HF; [contradiction|].
  inversion HF as [|? ? Hs HF']; subst. destruct l as [|t l].
  - simpl. apply split_single. exact Hs.
  - change (join_with SL (s :: t :: l)) with (s ++ SL :: join_with SL (t :: l)).
    rewrite split_on_app, (split_single s Hs), IH; [reflexivity | discriminate | exact HF'].
Qed.

(* join l ++ "/" as a concatenation of "element/" *)
Definition slashed (l : list path) : path := concat (map (fun s => s ++ [SL]) l).
Lemma join_slashed l : l <> [] -> join_with SL l ++ [SL] = slashed l.
Proof.
  induction l as [|s l IH]; intro HN; [contradiction|]. destruct l as [|t l].
  - unfold slashed. simpl. rewrite app_nil_r. reflexivity.
  - change (join_with SL (s :: t :: l)) with (s ++ SL :: join_with SL (t :: l)).
    change (slashed (s :: t :: l)) with ((s ++ [SL]) ++ slashed (t :: l)).
    rewrite <- IH by discriminate. rewrite <- !app_assoc. reflexivity.
Qed.
Lemma slashed_app a b : slashed (a ++ b) = slashed a ++ slashed b.
Proof. unfold slashed. rewrite map_app, concat_app. reflexivity. Qed.
Lemma slashed_repeat_dd m : slashed (repeat seg_dotdot m) = concat (repeat dotdot_slash m).
Proof. induction m as [|m IH]; [reflexivity|]. unfold slashed in *. simpl. rewrite IH. reflexivity. Qed.

Lemma last_slash_none s : sfree s -> last_slash_split s = None.
Proof.
  unfold sfree. induction s as [|x s IH]; simpl; intro H; [reflexivity|].
  apply andb_true_iff in H as [Hx H]. rewrite (IH H). apply negb_true_iff in Hx. rewrite Hx. reflexivity.
Qed.
Lemma last_slash_app a z : sfree z -> last_slash_split (a ++ SL :: z) = Some (a ++ [SL], z).
Proof.
  intro Hz. induction a as [|x a IH]; simpl.
  - rewrite (last_slash_none z Hz). reflexivity.
  - rewrite IH. reflexivity.
Qed.

Lemma split_pieces_clean p : no_bs p = true -> Forall (fun s => forallb clean_char s = true) (split_on SL p).
Proof.
  induction p as [|x p IH]; simpl; intro H.
  - constructor; [reflexivity | constructor].
  - apply andb_true_iff in H as [Hx H]. specialize (IH H).
    destruct (x =? SL) eqn:E.
    + constructor; [reflexivity | exact IH].
    + destruct (split_on SL p) as [|s t]; [constructor; [|constructor]|].
      * simpl. unfold clean_char. rewrite E, Hx. reflexivity.
      * inversion IH; subst. constructor; [|assumption]. simpl. unfold clean_char at 1. rewrite E, Hx. simpl. assumption.
Qed.

Lemma push_rooted_good st s :
  Forall (fun x => good x = true) st -> forallb clean_char s = true ->
  Forall (fun x => good x = true) (push true st s).
Proof.
  intros Hst Hs. unfold push.
  destruct (path_eqb s [] || path_eqb s seg_dot) eqn:E1; [exact Hst|].
  destruct (path_eqb s seg_dotdot) eqn:E2.
  - destruct st as [|top rest]; [constructor|].
    inversion Hst; subst. destruct (path_eqb top seg_dotdot) eqn:E3.
    + (* impossible: a good element is not ".." *)
      exfalso. match goal with H : good top = true |- _ => unfold good in H; rewrite E3 in H; rewrite andb_false_r in H; discriminate end.
    + assumption.
  - constructor; [|exact Hst]. unfold good, proper. rewrite E1, E2, Hs. reflexivity.
Qed.

Lemma clean_stack_rooted_good segs : forall st,
  Forall (fun x => good x = true) st -> Forall (fun s => forallb clean_char s = true) segs ->
  Forall (fun x => good x = true) (clean_stack true st segs).
Proof.
  induction segs as [|s segs IH]; intros st Hst Hs; [exact Hst|].
  inversion Hs; subst. change (clean_stack true st (s :: segs)) with (clean_stack true (push true st s) segs).
  apply IH; [apply push_rooted_good; assumption | assumption].
Qed.

Lemma clean_segs_rooted_good p :
  is_rooted p = true -> no_bs p = true -> Forall (fun x => good x = true) (clean_segs p).
Proof.
  intros HR HB. unfold clean_segs. rewrite HR. apply Forall_rev.
  apply clean_stack_rooted_good; [constructor | apply split_pieces_clean; exact HB].
Qed.

Lemma strip_common_suffix (Pr : path -> Prop) a : forall b a' b',
  strip_common a b = (a', b') -> Forall Pr b -> Forall Pr b'.
Proof.
  induction a as [|x a IH]; intros b a' b' E HF; simpl in E.
  - injection E as E1 E2. subst. exact HF.
  - destruct b as [|y b]; [injection E as E1 E2; subst; exact HF|].
    destruct (path_eqb x y).
    + inversion HF; subst. eapply IH; eassumption.
    + injection E as E1 E2. subst. exact HF.
Qed.

Lemma good_nonempty_first s : good s = true -> exists c r, s = c :: r /\ (c =? SL) = false.
Proof.
  unfold good, proper. intro H. destruct s as [|c r].
  - simpl in H. discriminate.
  - exists c, r. split; [reflexivity|].
    apply andb_true_iff in H as [_ H]. simpl in H. apply andb_true_iff in H as [H _].
    unfold clean_char in H. apply andb_true_iff in H as [H _]. apply negb_true_iff in H. exact H.
Qed.

Definition shaped (l : list path) : Prop :=
  exists m g, l = repeat seg_dotdot m ++ g /\ Forall (fun x => good x = true) g.

Lemma shaped_sfree l : shaped l -> Forall sfree l.
Proof.
  intros [m [g [E Hg]]]. subst. apply Forall_app. split.
  - apply Forall_forall. intros x Hx. apply repeat_spec in Hx. subst. exact dd_slash_free.
  - exact (goods_sfree g Hg).
Qed.

Lemma shaped_not_rooted l x : shaped (x :: l) -> is_rooted (join_with SL (x :: l) ++ [SL]) = false.
Proof.
  intros [m [g [E Hg]]]. assert (Hx : x = seg_dotdot \/ good x = true).
  { destruct m; simpl in E.
    - subst g. inversion Hg; subst. right. assumption.
    - injection E as E1 E2. left. exact E1. }
  assert (exists c r, x = c :: r /\ (c =? SL) = false) as [c [r [Ex Ec]]].
  { destruct Hx as [Hx|Hx]; [subst; exists 46, [46]; split; reflexivity | apply good_nonempty_first; exact Hx]. }
  subst x. destruct l; simpl; exact Ec.
Qed.

Lemma clean_stack_dd m : forall st, (st = [] \/ exists st', st = seg_dotdot :: st') ->
  clean_stack false st (repeat seg_dotdot m) = repeat seg_dotdot m ++ st.
Proof.
  induction m as [|m IH]; intros st Hst; [reflexivity|].
  change (clean_stack false st (repeat seg_dotdot (S m))) with (clean_stack false (push false st seg_dotdot) (repeat seg_dotdot m)).
  assert (E : push false st seg_dotdot = seg_dotdot :: st).
  { destruct Hst as [Hst|[st' Hst]]; subst; reflexivity. }
  rewrite E, IH; [|right; eauto].
  change (repeat seg_dotdot (S m)) with (seg_dotdot :: repeat seg_dotdot m).
  rewrite (repeat_cons m seg_dotdot). rewrite <- app_assoc. reflexivity.
Qed.

Lemma good_filter_proper g : Forall (fun x => good x = true) g -> filter proper g = g /\ existsb (path_eqb seg_dotdot) g = false.
Proof.
  induction g as [|x g IH]; intro H; [split; reflexivity|]. inversion H as [|? ? Hx Hg]; subst.
  destruct (IH Hg) as [A B]. unfold good in Hx. apply andb_true_iff in Hx as [Hx _]. apply andb_true_iff in Hx as [H1 H2].
  simpl. rewrite H1, A. split; [reflexivity|]. apply negb_true_iff in H2. rewrite (path_eqb_sym seg_dotdot x), H2, B. reflexivity.
Qed.

(* cleaning "l/" for a shaped non-empty l gives l back *)
Lemma clean_of_shaped l : l <> [] -> shaped l -> clean (join_with SL l ++ [SL]) = join_with SL l.
Proof.
  intros HN HS. pose proof (shaped_sfree l HS) as HF. destruct HS as [m [g [E Hg]]].
  destruct l as [|x l]; [contradiction|].
  assert (HR : is_rooted (join_with SL (x :: l) ++ [SL]) = false) by (apply shaped_not_rooted; exists m, g; auto).
  unfold clean, clean_segs. rewrite HR.
  change (join_with SL (x :: l) ++ [SL]) with (join_with SL (x :: l) ++ SL :: []).
  rewrite split_on_app, (split_join (x :: l) HN HF). simpl (split_on SL []).
  rewrite clean_stack_app. rewrite E, clean_stack_app, (clean_stack_dd m []) by (left; reflexivity).
  destruct (good_filter_proper g Hg) as [A B]. rewrite app_nil_r.
  rewrite (clean_stack_no_dotdot false g _ B), A.
  change (clean_stack false (rev g ++ repeat seg_dotdot m) [[]]) with (rev g ++ repeat seg_dotdot m).
  rewrite rev_app_distr, rev_involutive.
  assert (RR : rev (repeat seg_dotdot m) = repeat seg_dotdot m).
  { clear. induction m as [|m IH]; [reflexivity|]. simpl. rewrite IH. symmetry. apply repeat_cons. }
  rewrite RR, <- E. reflexivity.
Qed.

Lemma has_prefix_dd_good x X : good x = true -> has_prefix dotdot_slash (x ++ SL :: X) = false.
Proof.
  intro H. pose proof (good_slash_free x H) as HS. unfold good in H.
  apply andb_true_iff in H as [H _]. apply andb_true_iff in H as [_ H]. apply negb_true_iff in H.
  destruct (has_prefix dotdot_slash (x ++ SL :: X)) eqn:E; [|reflexivity]. exfalso.
  apply has_prefix_app in E as [t Et]. unfold dotdot_slash, SL in Et.
  destruct x as [|a [|b [|c r]]]; simpl in Et; inversion Et; subst.
  - vm_compute in H. discriminate.
  - vm_compute in HS. discriminate.
Qed.

Lemma has_prefix_dd_slashed g : Forall (fun x => good x = true) g -> has_prefix dotdot_slash (slashed g) = false.
Proof.
  intro H. destruct g as [|x g]; [reflexivity|]. inversion H; subst.
  unfold slashed. simpl. rewrite <- app_assoc. simpl. apply has_prefix_dd_good. assumption.
Qed.

Lemma count_dotdot_run m : forall fuel T, (m <= fuel)%nat -> has_prefix dotdot_slash T = false ->
  count_dotdot fuel (concat (repeat dotdot_slash m) ++ T) = m.
Proof.
  induction m as [|m IH]; intros fuel T HF HT.
  - change (concat (repeat dotdot_slash 0) ++ T) with T. destruct fuel; [reflexivity|].
    cbn [count_dotdot]. rewrite HT. reflexivity.
  - destruct fuel as [|fuel]; [lia|].
    change (concat (repeat dotdot_slash (S m)) ++ T) with (46 :: 46 :: 47 :: (concat (repeat dotdot_slash m) ++ T)).
    cbn [count_dotdot].
    assert (E : forall R, has_prefix dotdot_slash (46 :: 46 :: 47 :: R) = true) by reflexivity.
    rewrite E. cbn [skipn]. rewrite IH by (try lia; assumption). reflexivity.
Qed.
Lemma skipn_run m T : skipn (m * 3) (concat (repeat dotdot_slash m) ++ T) = T.
Proof. induction m as [|m IH]; [reflexivity|]. simpl. exact IH. Qed.

Lemma has_dd_slashed_good g : Forall (fun x => good x = true) g -> has_dd (slashed g) = false.
Proof.
  intro H. destruct g as [|x g]; [reflexivity|].
  rewrite <- join_slashed by discriminate.
  change (join_with SL (x :: g) ++ [SL]) with (join_with SL (x :: g) ++ SL :: []).
  rewrite has_dd_app. unfold has_dd at 1. rewrite split_join; [|discriminate|].
  - destruct (good_filter_proper _ H) as [_ B]. rewrite B. reflexivity.
  - exact (goods_sfree _ H).
Qed.

Lemma map_bs_id p : no_bs p = true -> map (fun c => if c =? 92 then SL else c) p = p.
Proof.
  induction p as [|x p IH]; simpl; intro H; [reflexivity|].
  apply andb_true_iff in H as [Hx H]. apply negb_true_iff in Hx. rewrite Hx, (IH H). reflexivity.
Qed.

Lemma slashed_no_bs m g : Forall (fun x => good x = true) g -> no_bs (slashed (repeat seg_dotdot m ++ g)) = true.
Proof.
  intro Hg. unfold no_bs, slashed. rewrite forallb_forall. intros c Hc.
  apply in_concat in Hc as [s [Hs Hc]]. apply in_map_iff in Hs as [x [Ex Hx]]. subst s.
  apply in_app_or in Hc as [Hc|[Hc|[]]]; [|subst; reflexivity].
  apply in_app_or in Hx as [Hx|Hx].
  - apply repeat_spec in Hx. subst x. destruct Hc as [Hc|[Hc|[]]]; subst; reflexivity.
  - rewrite Forall_forall in Hg. specialize (Hg x Hx). unfold good in Hg. apply andb_true_iff in Hg as [_ Hg].
    rewrite forallb_forall in Hg. specialize (Hg c Hc). unfold clean_char in Hg. apply andb_true_iff in Hg as [_ Hg]. exact Hg.
Qed.

(* the rewrite applied to "l/" for a shaped l *)
Lemma neutralise_shaped m g :
  Forall (fun x => good x = true) g -> has_dd (neutralise (slashed (repeat seg_dotdot m ++ g))) = false.
Proof.
  intro Hg. apply neutralise_no_dotdot. cbv zeta.
  rewrite (map_bs_id _ (slashed_no_bs m g Hg)).
  rewrite slashed_app, slashed_repeat_dd.
  rewrite count_dotdot_run.
  - rewrite skipn_run. apply has_dd_slashed_good. exact Hg.
  - rewrite app_length. clear. induction m as [|m IH]; simpl; [lia|]. lia.
  - apply has_prefix_dd_slashed. exact Hg.
Qed.

Lemma rel_shaped outbase absPath :
  is_rooted outbase = true -> is_rooted absPath = true -> no_bs absPath = true ->
  exists l, shaped l /\ rel outbase absPath = match l with [] => seg_dot | _ => join_with SL l end.
Proof.
  intros HB HA HN. unfold rel.
  destruct (strip_common (clean_segs outbase) (clean_segs absPath)) as [b' t'] eqn:ES.
  exists (repeat seg_dotdot (length b') ++ t'). split; [|destruct (repeat seg_dotdot (length b') ++ t'); reflexivity].
  exists (length b'), t'. split; [reflexivity|].
  eapply strip_common_suffix; [exact ES|]. apply clean_segs_rooted_good; assumption.
Qed.

Lemma removelast_shaped l : shaped l -> shaped (removelast l).
Proof.
  intros [m [g [E Hg]]]. subst. destruct g as [|x g] using rev_ind.
  - rewrite app_nil_r. exists (pred m), []. split; [|constructor].
    rewrite app_nil_r. destruct m; [reflexivity|]. simpl pred.
    change (repeat seg_dotdot (S m)) with (seg_dotdot :: repeat seg_dotdot m).
    rewrite repeat_cons, removelast_last. reflexivity.
  - clear IHg. exists m, g. split.
    + rewrite app_assoc, removelast_last. reflexivity.
    + apply Forall_app in Hg as [Hg _]. exact Hg.
Qed.

Lemma join_snoc x : forall k : list path, k <> [] -> join_with SL (k ++ [x]) = join_with SL k ++ SL :: x.
Proof.
  induction k as [|a k IH]; intro HN; [contradiction|]. destruct k as [|b k]; [reflexivity|].
  change (join_with SL ((a :: b :: k) ++ [x])) with (a ++ SL :: join_with SL ((b :: k) ++ [x])).
  rewrite IH by discriminate. change (join_with SL (a :: b :: k)) with (a ++ SL :: join_with SL (b :: k)).
  rewrite <- app_assoc. reflexivity.
Qed.

Lemma dir_text_of_shaped l :
  shaped l ->
  let relPath := match l with [] => seg_dot | _ => join_with SL l end in
  exists l1, shaped l1 /\ (fs_dir relPath ++ [SL] = slashed l1 \/ fs_dir relPath ++ [SL] = [46; SL]).
Proof.
  intros HS relPath. destruct l as [|x l] using rev_ind.
  - exists []. split; [exists O, []; split; [reflexivity | constructor]|]. right. reflexivity.
  - clear IHl. pose proof (shaped_sfree _ HS) as HF. apply Forall_app in HF as [HFl HFx]. inversion HFx as [|? ? Hx _]; subst.
    destruct l as [|y l].
    + (* a single element: no slash in it *)
      exists []. split; [exists O, []; split; [reflexivity | constructor]|]. right.
      unfold relPath. simpl. unfold fs_dir. rewrite (last_slash_none x Hx). reflexivity.
    + exists (y :: l). assert (HSl : shaped (y :: l)).
      { pose proof (removelast_shaped _ HS) as H. rewrite removelast_last in H. exact H. }
      split; [exact HSl|]. left.
      assert (EJ : relPath = join_with SL (y :: l) ++ SL :: x).
      { unfold relPath. change ((y :: l) ++ [x]) with (y :: (l ++ [x])). cbv iota beta.
        change (y :: (l ++ [x])) with ((y :: l) ++ [x]). apply join_snoc. discriminate. }
      rewrite EJ. unfold fs_dir. rewrite (last_slash_app _ x Hx).
      rewrite (clean_of_shaped (y :: l)) by (try discriminate; exact HSl).
      apply join_slashed. discriminate.
Qed.

(* the [dir] part computed by PathRelativeToOutbase never has a
   parent-directory segment: every outbase, every (effective) absolute path *)
Lemma relative_dir_no_dotdot outbase absPath0 avoidIndex custom :
  is_rooted outbase = true ->
  is_rooted (effective_abs outbase absPath0 avoidIndex custom) = true ->
  no_bs (effective_abs outbase absPath0 avoidIndex custom) = true ->
  has_dd (fst (path_relative_to_outbase outbase absPath0 avoidIndex custom)) = false.
Proof.
  intros HB HA HN. unfold path_relative_to_outbase. cbn [fst].
  destruct (rel_shaped _ _ HB HA HN) as [l [HS ER]]. rewrite ER.
  destruct (dir_text_of_shaped l HS) as [l1 [[m [g [E Hg]]] [ET|ET]]]; rewrite ET.
  - subst l1. apply neutralise_shaped. exact Hg.
  - vm_compute. reflexivity.
Qed.

Lemma fs_join_rooted a b : is_rooted a = true -> b <> [] -> is_rooted (fs_join a b) = true.
Proof.
  intros HA HB. destruct a as [|x a]; [discriminate|]. destruct b as [|y b]; [contradiction|].
  unfold fs_join, clean. rewrite (is_rooted_app (x :: a) (SL :: y :: b)) by discriminate. rewrite HA.
  simpl. reflexivity.
Qed.

(* the two ordinary cases of the effective path: an asset or chunk source (no
   explicit output path, no "index" heuristic), and a relative (generated or
   explicit) output path joined onto outbase *)
Lemma effective_abs_plain outbase absPath0 : effective_abs outbase absPath0 false [] = absPath0.
Proof. reflexivity. Qed.
Lemma effective_abs_relative_custom_rooted outbase absPath0 ai custom :
  is_rooted outbase = true -> custom <> [] -> is_rooted custom = false ->
  is_rooted (effective_abs outbase absPath0 ai custom) = true.
Proof.
  intros HB HC HR. unfold effective_abs. destruct custom as [|c custom]; [contradiction|].
  rewrite HR. apply fs_join_rooted; [exact HB | discriminate].
Qed.

Lemma split_append_suffix p s : sfree s ->
  split_on SL (p ++ s) = removelast (split_on SL p) ++ [last (split_on SL p) [] ++ s].
Proof.
  intro Hs. induction p as [|x p IH]; simpl.
  - apply split_single. exact Hs.
  - destruct (x =? SL) eqn:E.
    + rewrite IH. destruct (split_on SL p) as [|a l] eqn:ES; [exfalso; exact (split_on_nonempty SL p ES)|]. reflexivity.
    + rewrite IH. destruct (split_on SL p) as [|a l] eqn:ES; [exfalso; exact (split_on_nonempty SL p ES)|].
      destruct l as [|b l]; reflexivity.
Qed.

Lemma existsb_removelast {A} (f : A -> bool) l : existsb f l = false -> existsb f (removelast l) = false.
Proof.
  induction l as [|a l IH]; simpl; intro H; [reflexivity|]. apply orb_false_iff in H as [Ha H].
  destruct l; [reflexivity|]. simpl. rewrite Ha. apply IH. exact H.
Qed.

Lemma has_dd_suffix p s : has_dd p = false -> sfree s -> (3 <= length s)%nat -> has_dd (p ++ s) = false.
Proof.
  intros HP Hs HL. unfold has_dd in *. rewrite (split_append_suffix p s Hs), existsb_app.
  rewrite (existsb_removelast _ _ HP). simpl. rewrite orb_false_r.
  apply path_eqb_neq. intro E. apply (f_equal (@length Z)) in E. rewrite app_length in E. simpl in E. lia.
Qed.

(* a side file sits in the output directory whenever its chunk does *)
Lemma side_inside outdir relp suffix :
  is_rooted outdir = true -> no_dotdot_seg relp = true -> sfree suffix -> (3 <= length suffix)%nat ->
  side_out_path outdir relp suffix =
  SL :: join_with SL (clean_segs outdir ++ filter proper (split_on SL (relp ++ suffix))).
Proof.
  intros HR HD Hs HL. unfold side_out_path. apply fs_join_inside; [exact HR | |].
  - destruct suffix; [simpl in HL; lia|]. destruct relp; discriminate.
  - rewrite no_dotdot_seg_has_dd in *. apply negb_true_iff in HD. rewrite (has_dd_suffix _ _ HD Hs HL). reflexivity.
Qed.

Lemma has_dd_dot_slash X : has_dd (46 :: SL :: X) = has_dd X.
Proof. change (46 :: SL :: X) with ([46] ++ SL :: X). rewrite has_dd_app. reflexivity. Qed.

Lemma has_dd_single s : sfree s -> s <> seg_dotdot -> has_dd s = false.
Proof.
  intros Hs Hn. unfold has_dd. rewrite (split_single s Hs). simpl. rewrite orb_false_r.
  apply path_eqb_neq. intro E. apply Hn. symmetry. exact E.
Qed.

Lemma sfree_app a b : sfree a -> sfree b -> sfree (a ++ b).
Proof. unfold sfree. intros A B. rewrite forallb_app, A, B. reflexivity. Qed.

Lemma not_dd_by_length (s : path) : (3 <= length s)%nat -> s <> seg_dotdot.
Proof. intros H E. subst. simpl in H. lia. Qed.

(* the default entry template "./[dir]/[name]" + extension: whatever the name
   is (even ".."), the last element is name ++ ".ext" *)
Lemma default_entry_rel_no_dotdot dir name hash ext :
  has_dd dir = false -> sfree name -> sfree ext -> (3 <= length ext)%nat ->
  no_dotdot_seg (render (default_entry_template ++ [(ext, None)]) dir name hash (drop_dot ext)) = true.
Proof.
  intros HD HN HE HL. rewrite no_dotdot_seg_has_dd. apply negb_true_iff.
  unfold render, default_entry_template. simpl map. simpl concat. rewrite !app_nil_r.
  change (has_dd (46 :: SL :: (dir ++ SL :: (name ++ ext))) = false).
  rewrite has_dd_dot_slash, has_dd_app, HD. simpl.
  apply has_dd_single; [apply sfree_app; assumption|].
  apply not_dd_by_length. rewrite app_length. lia.
Qed.

(* the default chunk template "./[name]-[hash]" + extension with [name] = "chunk" *)
Lemma default_chunk_rel_no_dotdot hash ext :
  sfree hash -> sfree ext ->
  no_dotdot_seg (chunk_rel_path default_asset_template hash ext) = true.
Proof.
  intros HH HE. rewrite no_dotdot_seg_has_dd. apply negb_true_iff.
  unfold chunk_rel_path, render, default_asset_template. simpl map. simpl concat. rewrite !app_nil_r.
  change (has_dd (46 :: SL :: (chunk_name ++ [45] ++ hash ++ ext)) = false).
  rewrite has_dd_dot_slash. apply has_dd_single.
  - apply sfree_app; [reflexivity|]. apply sfree_app; [reflexivity|]. apply sfree_app; assumption.
  - apply not_dd_by_length. rewrite !app_length. simpl. lia.
Qed.

(* the default asset template "./[name]-[hash]" + extension *)
Lemma default_asset_rel_no_dotdot dir name hash ext ext2 :
  sfree name -> sfree hash -> sfree ext ->
  no_dotdot_seg (render default_asset_template dir name hash ext2 ++ ext) = true.
Proof.
  intros HN HH HE. rewrite no_dotdot_seg_has_dd. apply negb_true_iff.
  unfold render, default_asset_template. simpl map. simpl concat. rewrite !app_nil_r. simpl. rewrite <- ?app_assoc.
  change (has_dd (46 :: SL :: (name ++ 45 :: (hash ++ ext))) = false).
  rewrite has_dd_dot_slash. apply has_dd_single.
  - apply sfree_app; [exact HN|]. change (45 :: hash ++ ext) with ([45] ++ hash ++ ext).
    apply sfree_app; [reflexivity|]. apply sfree_app; assumption.
  - intro E. assert (H : In 45 (name ++ 45 :: hash ++ ext)) by (apply in_or_app; right; left; reflexivity).
    rewrite E in H. simpl in H. destruct H as [H|[H|[]]]; discriminate.
Qed.

(* end to end for the default entry template: no hypothesis on rendered text *)
Lemma default_entry_inside outdir outbase entry custom hash ext :
  is_rooted outdir = true -> is_rooted outbase = true ->
  let custom2 := match custom with [] => auto_output_path outbase entry | _ => custom end in
  is_rooted (effective_abs outbase entry false custom2) = true ->
  no_bs (effective_abs outbase entry false custom2) = true ->
  sfree (snd (path_relative_to_outbase outbase entry false custom2)) ->
  sfree ext -> (3 <= length ext)%nat ->
  entry_out_path outdir default_entry_template outbase entry custom hash ext =
  SL :: join_with SL (clean_segs outdir ++ filter proper (split_on SL (entry_rel_path default_entry_template outbase entry custom hash ext))).
Proof.
  intros HR HB custom2 HA HN HS HE HL.
  apply entry_inside; [exact HR | destruct ext; [simpl in HL; lia | discriminate] |].
  unfold entry_rel_path. fold custom2.
  pose proof (relative_dir_no_dotdot outbase entry false custom2 HB HA HN) as HD.
  destruct (path_relative_to_outbase outbase entry false custom2) as [dir name]. cbn [fst snd] in *.
  apply default_entry_rel_no_dotdot; assumption.
Qed.

Lemma default_chunk_inside outdir hash ext :
  is_rooted outdir = true -> sfree hash -> sfree ext -> ext <> [] ->
  chunk_out_path outdir default_asset_template hash ext =
  SL :: join_with SL (clean_segs outdir ++ filter proper (split_on SL (chunk_rel_path default_asset_template hash ext))).
Proof.
  intros HR HH HE HN. apply chunk_inside; [exact HR | exact HN|]. apply default_chunk_rel_no_dotdot; assumption.
Qed.

Lemma default_asset_inside outdir outbase asset hash :
  is_rooted outdir = true ->
  sfree (snd (path_relative_to_outbase outbase asset false [])) -> sfree hash -> sfree (pi_ext asset) ->
  asset_out_path outdir default_asset_template outbase asset hash =
  SL :: join_with SL (clean_segs outdir ++ filter proper (split_on SL (asset_rel_path default_asset_template outbase asset hash))).
Proof.
  intros HR HS HH HE.
  assert (HD : no_dotdot_seg (asset_rel_path default_asset_template outbase asset hash) = true).
  { unfold asset_rel_path. destruct (path_relative_to_outbase outbase asset false []) as [dir name]. cbn [snd] in HS.
    apply default_asset_rel_no_dotdot; assumption. }
  apply asset_inside; [exact HR | | exact HD].
  unfold asset_rel_path. destruct (path_relative_to_outbase outbase asset false []) as [dir name].
  unfold render, default_asset_template. simpl. discriminate.
Qed.
