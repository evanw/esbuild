(* C17: "no symbolic link on the output paths" as a boolean over the modelled
   file system, and the transfer of the link-free theorems. *)
From V Require Import Common.Base C17.WriteSM C17.Proofs C17.CompileProofs.

(* every listed path denotes itself *)
Definition link_free (phys : path -> path) (ps : list path) : bool := forallb (fun p => path_eqb (phys p) p) ps.

Lemma link_free_In phys ps p : link_free phys ps = true -> In p ps -> phys p = p.
Proof. intros H Hp. unfold link_free in H. rewrite forallb_forall in H. apply path_eqb_eq. apply H. exact Hp. Qed.

Definition effect_path (e : effect) : path := match e with EWrite p _ => p | EDelete p => p end.

Lemma apply_link_free phys es : forall d,
  (forall e, In e es -> phys (effect_path e) = effect_path e) -> apply phys d es = apply phys_id d es.
Proof.
  induction es as [|e es IH]; intros d H; [reflexivity|].
  change (apply phys d (e :: es)) with (apply phys (apply1 phys d e) es).
  change (apply phys_id d (e :: es)) with (apply phys_id (apply1 phys_id d e) es).
  assert (E : apply1 phys d e = apply1 phys_id d e).
  { pose proof (H e (or_introl eq_refl)) as He. destruct e; simpl in *; unfold phys_id; rewrite He; reflexivity. }
  rewrite E. apply IH. intros e' He'. apply H. right. exact He'.
Qed.

Lemma flat_map_ext_in {A B} (f g : A -> list B) l : (forall a, In a l -> f a = g a) -> flat_map f l = flat_map g l.
Proof.
  induction l as [|a l IH]; intro H; [reflexivity|]. simpl.
  rewrite (H a (or_introl eq_refl)), IH; [reflexivity|]. intros x Hx. apply H. right. exact Hx.
Qed.

Lemma results_of_subset opt oc results e : results_of opt oc = (results, e) -> forall o, In o results -> In o (linked oc).
Proof.
  unfold results_of. destruct (scan_err oc).
  - intro E. injection E as E1 E2. subst. intros ? [].
  - destruct (compile opt oc) as [res cerr] eqn:EC. intro E. injection E as E1 E2. subst res.
    clear E2. revert EC. unfold compile. destruct (cancel_early oc).
    + intro E. injection E as F1 F2. subst. intros ? [].
    + destruct (to_stdout opt).
      * intro E. injection E as F1 F2. subst. auto.
      * destruct (dedupe [] (linked oc)) as [kept e2] eqn:ED. intro E. injection E as F1 F2. subst.
        exact (proj1 (proj2 (dedupe_nil_facts ED))).
Qed.

(* when no output path and no path of the hash table goes through a link, the
   step is the step of the link-free file system *)
Lemma step_gen_link_free phys fixed opt st oc :
  link_free phys (map o_path (linked oc) ++ keys (latest st)) = true ->
  step_gen phys fixed opt st oc = step_gen phys_id fixed opt st oc.
Proof.
  intro LF. unfold step_gen. fold (results_of opt oc).
  destruct (results_of opt oc) as [results err1] eqn:ER. cbv zeta.
  assert (HR : forall o, In o results -> phys (o_path o) = o_path o).
  { intros o Ho. apply (link_free_In _ _ _ LF). apply in_or_app. left. apply in_map.
    eapply results_of_subset; eassumption. }
  assert (HK : forall p, In p (keys (latest st)) -> phys p = p).
  { intros p Hp. apply (link_free_In _ _ _ LF). apply in_or_app. right. exact Hp. }
  set (reported := if err1 then [] else map (fun o => if to_stdout opt then mkOut stdout_path (o_data o) (o_hash o) (o_merge o) else o) results).
  assert (HS : forall o, In o results -> skip phys st (hashes_of reported) o = skip phys_id st (hashes_of reported) o).
  { intros o Ho. unfold skip. rewrite (HR o Ho). reflexivity. }
  assert (HW : flat_map (fun o => if skip phys st (hashes_of reported) o then [] else [EWrite (o_path o) (o_data o)]) results
             = flat_map (fun o => if skip phys_id st (hashes_of reported) o then [] else [EWrite (o_path o) (o_data o)]) results).
  { apply flat_map_ext_in. intros o Ho. rewrite (HS o Ho). reflexivity. }
  rewrite HW.
  set (effects := if write opt && negb (to_stdout opt)
                  then if fixed && err1 then []
                       else (if err1 then [] else flat_map (fun o => if skip phys_id st (hashes_of reported) o then [] else [EWrite (o_path o) (o_data o)]) results)
                            ++ map EDelete (filter (fun p => negb (mem p (keys (hashes_of reported)))) (keys (latest st)))
                  else []).
  assert (HA : apply phys (disk st) effects = apply phys_id (disk st) effects).
  { apply apply_link_free. intros e He. unfold effects in He.
    destruct (write opt && negb (to_stdout opt)); [|contradiction].
    destruct (fixed && err1); [contradiction|].
    apply in_app_or in He as [He|He].
    - destruct err1; [contradiction|]. apply in_flat_map in He as [o [Ho Hi]].
      destruct (skip phys_id st (hashes_of reported) o); simpl in Hi; [contradiction|].
      destruct Hi as [Hi|[]]. subst e. simpl. apply HR. exact Ho.
    - apply in_map_iff in He as [p [Ep Hp]]. subst e. simpl. apply HK. apply filter_In in Hp as [Hp _]. exact Hp. }
  fold effects. rewrite HA. reflexivity.
Qed.
