(* non-vacuity: concrete, non-trivial values meeting the hypotheses of each
   theorem of Properties.v (all by vm_compute).  After evaluation every
   conjunct is an instance of [eq_refl]; the proof term is given whole, which
   is checked once: one goal per conjunct is slower to check. *)
From V Require Import Common.Base C17.WriteSM C17.Spec C17.Proofs C17.CompileProofs C17.SpecProofs C17.IOFail C17.PathModel C17.PathProofs C17.RelProofs C17.LinkProofs C17.Modes C17.IOHist C17.Cancel.
From Coq Require Import String.

Definition ex_opts := mkOpts true false false.
Definition ex_d0 : fmap content := [(P "/src/a.js", [1]); (P "/out/keep.txt", [7])].
Definition ex_oc1 := mkOutcome false [P "/src/a.js"] false
  [mkOut (P "/out/a.js") [10] 110 false; mkOut (P "/out/b.js") [11] 111 false] false false false.
(* second rebuild: a.js unchanged (skipped), b.js no longer produced (deleted), c.js new (written) *)
Definition ex_oc2 := mkOutcome false [P "/src/a.js"] false
  [mkOut (P "/out/a.js") [10] 110 false; mkOut (P "/out/c.js") [12] 112 false] false false false.
(* third rebuild fails in the scanner *)
Definition ex_oc3 := mkOutcome true [] false [] false false false.

(* allow_overwrite_forced_only_without_write: both directions are inhabited *)
Example ex_allow_forced : effective_allow (mkOpts false false false) = true /\ effective_allow ex_opts = false.
Proof. vm_compute. auto. Qed.

(* writes_are_reported / successful_build_disk_exact: writes, a skip and a delete in one step *)
Example ex_history_effects :
  map (fun r => (r_failed_early r, r_effects r)) (trace phys_id ex_opts (init ex_d0) [ex_oc1; ex_oc2; ex_oc3; ex_oc1]) =
  [(false, [EWrite (P "/out/a.js") [10]; EWrite (P "/out/b.js") [11]]);
   (false, [EWrite (P "/out/c.js") [12]; EDelete (P "/out/b.js")]);
   (true,  []);
   (false, [EWrite (P "/out/b.js") [11]; EDelete (P "/out/c.js")])].
Proof. vm_compute. exact eq_refl. Qed.
(* before d19e8cb the failing third rebuild deleted the outputs and forgot the table *)
Example ex_history_effects_before_fix :
  map (fun r => (r_failed_early r, r_effects r)) (trace_gen phys_id false ex_opts (init ex_d0) [ex_oc1; ex_oc2; ex_oc3; ex_oc1]) =
  [(false, [EWrite (P "/out/a.js") [10]; EWrite (P "/out/b.js") [11]]);
   (false, [EWrite (P "/out/c.js") [12]; EDelete (P "/out/b.js")]);
   (true,  [EDelete (P "/out/c.js"); EDelete (P "/out/a.js")]);
   (false, [EWrite (P "/out/a.js") [10]; EWrite (P "/out/b.js") [11]])].
Proof. vm_compute. exact eq_refl. Qed.

Example ex_success_hypotheses :
  let '(st1, r1) := step phys_id ex_opts (init ex_d0) ex_oc1 in
  let '(st2, r2) := step phys_id ex_opts st1 ex_oc2 in
  r_failed_early r2 = false /\ write ex_opts = true /\ to_stdout ex_opts = false /\
  lookup (disk st2) (P "/out/a.js") = Some [10] /\ lookup (disk st2) (P "/out/b.js") = None /\
  lookup (disk st2) (P "/out/c.js") = Some [12] /\ lookup (disk st2) (P "/out/keep.txt") = Some [7].
Proof. vm_compute. exact (conj eq_refl (conj eq_refl (conj eq_refl (conj eq_refl (conj eq_refl (conj eq_refl eq_refl)))))). Qed.

(* failed_build_deletes_nothing: a failing step from a state with a non-empty
   hash table; before d19e8cb its delete list was not empty *)
Example ex_failed_step :
  let st2 := run phys_id ex_opts (init ex_d0) [ex_oc1; ex_oc2] in
  keys (latest st2) = [P "/out/c.js"; P "/out/a.js"] /\
  r_failed_early (snd (step phys_id ex_opts st2 ex_oc3)) = true /\
  deletes_of (r_effects (snd (step_before_fix phys_id ex_opts st2 ex_oc3))) = [P "/out/c.js"; P "/out/a.js"] /\
  r_effects (snd (step phys_id ex_opts st2 ex_oc3)) = [] /\
  fst (step phys_id ex_opts st2 ex_oc3) = st2.
Proof. vm_compute. exact (conj eq_refl (conj eq_refl (conj eq_refl (conj eq_refl eq_refl)))). Qed.

(* cancellation and writing disabled are failed/non-writing builds too *)
Example ex_cancel_and_nowrite :
  r_failed_early (snd (step phys_id ex_opts (init ex_d0) (mkOutcome false [] false (linked ex_oc1) false true false))) = true /\
  r_effects (snd (step phys_id (mkOpts false false false) (init ex_d0) ex_oc1)) = [] /\
  List.length (r_outputs (snd (step phys_id (mkOpts false false false) (init ex_d0) ex_oc1))) = 2%nat.
Proof. vm_compute. exact (conj eq_refl (conj eq_refl eq_refl)). Qed.

(* no_input_overwritten: the check refuses an output on an input (case and
   slash variants included), and lets it through when overwriting is allowed *)
Definition ex_oc_clash := mkOutcome false [P "C:\src\A.js"] false [mkOut (P "c:/SRC/a.js") [10] 110 false] false false false.
Example ex_overwrite_check :
  compile ex_opts ex_oc_clash = ([mkOut (P "c:/SRC/a.js") [10] 110 false], true) /\
  compile (mkOpts true true false) ex_oc_clash = ([mkOut (P "c:/SRC/a.js") [10] 110 false], false) /\
  compile (mkOpts false false false) ex_oc_clash = ([mkOut (P "c:/SRC/a.js") [10] 110 false], false).
Proof. vm_compute. exact (conj eq_refl (conj eq_refl eq_refl)). Qed.

(* two_outputs_one_path / dedupe_keeps_exact_path: an identical mergeable case
   variant is kept (since 11ec04b), an exact duplicate is filtered out;
   different contents or non-mergeable files are an error *)
Definition ex_dup (m1 m2 : bool) (c2 : content) := mkOutcome false [] false
  [mkOut (P "/out/d.txt") [5] 105 m1; mkOut (P "/out/x.js") [6] 106 false; mkOut (P "/out/D.txt") c2 105 m2] false false false.
Example ex_dedupe :
  compile ex_opts (ex_dup true true [5]) = ([mkOut (P "/out/d.txt") [5] 105 true; mkOut (P "/out/x.js") [6] 106 false; mkOut (P "/out/D.txt") [5] 105 true], false) /\
  fst (compile ex_opts (mkOutcome false [] false [mkOut (P "/out/d.txt") [5] 105 true; mkOut (P "/out/d.txt") [5] 105 true] false false false))
    = [mkOut (P "/out/d.txt") [5] 105 true] /\
  snd (compile ex_opts (ex_dup true true [9])) = true /\
  snd (compile ex_opts (ex_dup true false [5])) = true.
Proof. vm_compute. exact (conj eq_refl (conj eq_refl (conj eq_refl eq_refl))). Qed.

(* deletes_only_own_earlier_outputs: a delete in the second element of a trace *)
Example ex_trace_split :
  exists pre res post, trace phys_id ex_opts (init ex_d0) [ex_oc1; ex_oc2; ex_oc3] = pre ++ res :: post /\
    In (EDelete (P "/out/b.js")) (r_effects res) /\ In (P "/out/b.js") (written_paths pre).
Proof.
  eexists [_], _, [_]. vm_compute. split; [reflexivity|]. split; [right; left; reflexivity | right; left; reflexivity].
Qed.

(* step_meets_spec: the observation of the second rebuild is non-trivial *)
Example ex_obs :
  let st1 := fst (step phys_id ex_opts (init ex_d0) ex_oc1) in
  let '(st2, r2) := step phys_id ex_opts st1 ex_oc2 in
  let o := obs_of ex_opts st1 st2 ex_oc2 r2 [P "/out/a.js"; P "/out/b.js"] in
  only_reported_b o && all_reported_written_b o && failed_no_write_b o && single_valued_b o && inputs_safe_b o = true
  /\ List.length (ob_reported o) = 2%nat.
Proof. vm_compute. exact (conj eq_refl eq_refl). Qed.

(* the boolean deciders reject what they should: an unreported write, a deleted foreign file *)
Example ex_deciders_reject :
  only_reported_b (mkObs [] [(P "/x", [1])] [] [] false true false []) = false /\
  only_reported_b (mkObs [(P "/x", [1])] [] [] [] false true false []) = false /\
  failed_no_write_b (mkObs [] [(P "/x", [1])] [(P "/x", [1])] [] true true false []) = false /\
  inputs_safe_b (mkObs [(P "/x", [1])] [(P "/x", [2])] [(P "/x", [2])] [P "/x"] false true false []) = false.
Proof. vm_compute. exact (conj eq_refl (conj eq_refl (conj eq_refl eq_refl))). Qed.

(* foreign_files_untouched: the hypothesis holds for the foreign file of the
   example history (it is never a reported output) and fails for an output *)
Example ex_foreign :
  forallb (fun r => negb (mem (P "/out/keep.txt") (map o_path (r_outputs r))))
          (trace phys_id ex_opts (init ex_d0) [ex_oc1; ex_oc2; ex_oc3; ex_oc1]) = true /\
  lookup (disk (run phys_id ex_opts (init ex_d0) [ex_oc1; ex_oc2; ex_oc3; ex_oc1])) (P "/out/keep.txt") = Some [7].
Proof. vm_compute. exact (conj eq_refl eq_refl). Qed.

(* io_failure_reports_error / io_writes_...: one of two writes fails; a skipped
   (unchanged) file at a failing path is not attempted and is no error *)
Example ex_io_failure :
  let '(st1, r1) := step_io phys_id true ex_opts (init ex_d0) ex_oc1 [P "/out/b.js"] in
  r_errors r1 = true /\ r_failed_early r1 = false /\ r_effects r1 = [EWrite (P "/out/a.js") [10]] /\
  keys (latest st1) = [P "/out/a.js"] /\
  keys (latest (fst (step_io_before_b32af0b phys_id true ex_opts (init ex_d0) ex_oc1 [P "/out/b.js"]))) = [P "/out/b.js"; P "/out/a.js"].
Proof. vm_compute. exact (conj eq_refl (conj eq_refl (conj eq_refl (conj eq_refl eq_refl)))). Qed.
Example ex_io_skipped_path_not_attempted :
  let st1 := fst (step phys_id ex_opts (init ex_d0) ex_oc1) in
  r_errors (snd (step_io phys_id true ex_opts st1 ex_oc2 [P "/out/a.js"])) = false.
Proof. vm_compute. exact eq_refl. Qed.

(* output_inside_outdir: a rendered relative path as the linker produces it *)
Example ex_join_inside :
  is_rooted (P "/w/out") = true /\ no_dotdot_seg (P ".//sub/./a.js") = true /\
  fs_join (P "/w/out") (P ".//sub/./a.js") = P "/w/out/sub/a.js" /\
  fs_join (P "/w/out") (P "./../a.js") = P "/w/a.js".
Proof. vm_compute. exact (conj eq_refl (conj eq_refl (conj eq_refl eq_refl))). Qed.

(* neutralise_removes_leading_dotdot: two leading parent-directory segments; the hypothesis holds *)
Example ex_neutralise :
  neutralise (P "../../x/") = P "/_.._/_.._/x" /\
  has_dd (skipn (count_dotdot 9 (P "../../x/") * 3) (P "../../x/")) = false /\
  path_relative_to_outbase (P "/w/src") (P "/w/other/b.js") false [] = (P "/_.._/other", P "b") /\
  path_relative_to_outbase (P "/w/src") (P "/w/src/lib/index.js") true [] = (P "/", P "lib").
Proof. vm_compute. exact (conj eq_refl (conj eq_refl (conj eq_refl eq_refl))). Qed.

(* templates: parsing (with its quirk), rendering, the entry point's output path *)
Example ex_template :
  parse_template (P "[dir]/[name]-[hash]") = [(P "./", Some PDir); (P "/", Some PName); (P "-", Some PHash)] /\
  parse_template (P "[name]-x[") = [(P "./", Some PName)] /\
  entry_out_path (P "/w/out") (entry_template (P "a\\[name]")) (P "/w/src") (P "/w/src/sub/b.ts") [] [] (P ".js") = P "/w/out/a/b.js" /\
  entry_out_path (P "/w/out") (entry_template []) (P "/w/src") (P "/w/src/sub/b.ts") [] [] (P ".js") = P "/w/out/sub/b.js".
Proof. vm_compute. exact (conj eq_refl (conj eq_refl (conj eq_refl eq_refl))). Qed.

(* no_input_overwritten_concrete: outdir = outbase = the source directory, the
   default template, ".js": the output path of the entry is the entry itself *)
Definition ex_entry := mkEntry (P "/w/src/a.js") [] [] (P ".js") [10] 110.
Example ex_concrete_overwrite :
  entry_out_path (P "/w/src") default_entry_template (P "/w/src") (P "/w/src/a.js") [] [] (P ".js") = P "/w/src/a.js" /\
  snd (compile ex_opts (mkOutcome false [P "/w/src/a.js"] false
        (linked_of_entries (P "/w/src") default_entry_template (P "/w/src") [ex_entry]) false false false)) = true /\
  snd (compile ex_opts (mkOutcome false [P "/w/src/a.js"] false
        (linked_of_entries (P "/w/out") default_entry_template (P "/w/src") [ex_entry]) false false false)) = false.
Proof. vm_compute. exact (conj eq_refl (conj eq_refl eq_refl)). Qed.

(* link_free_step_is_plain_step: out -> src is a link; outputs below /dist are link-free, below /out they are not *)
Example ex_link_free :
  link_free (phys_links [(P "/out", P "/src")]) [P "/dist/a.js"; P "/src/a.js"] = true /\
  link_free (phys_links [(P "/out", P "/src")]) [P "/out/a.js"] = false.
Proof. vm_compute. exact (conj eq_refl eq_refl). Qed.

(* two_outputs_one_path_reported: two different mergeable files on one key with equal contents pass *)
Example ex_two_on_one :
  let o1 := mkOut (P "/out/d.txt") [5] 105 true in
  let o2 := mkOut (P "/OUT/d.txt") [5] 105 true in
  o1 <> o2 /\ ckey o1 = ckey o2 /\ snd (compile ex_opts (mkOutcome false [] false [o1; o2] false false false)) = false.
Proof. vm_compute. repeat split; try reflexivity. discriminate. Qed.

Example ex_modes :
  mode_write CliServe true = false /\ mode_write CliBuild false = true /\ mode_write ApiServe true = true /\
  effective_allow (mode_opts CliServe true false false) = true.
Proof. vm_compute. exact (conj eq_refl (conj eq_refl (conj eq_refl eq_refl))). Qed.

(* entry/chunk/asset_output_inside_outdir: hypotheses met by ordinary values *)
Example ex_kinds_of_outputs :
  chunk_out_path (P "/w/out") default_asset_template (P "ABCD2345") (P ".js") = P "/w/out/chunk-ABCD2345.js" /\
  no_dotdot_seg (chunk_rel_path default_asset_template (P "ABCD2345") (P ".js")) = true /\
  asset_out_path (P "/w/out") (asset_template (P "[dir]/[name]-[hash]")) (P "/w/src") (P "/w/src/sub/pic.x.png") (P "H") = P "/w/out/sub/pic.x-H.png" /\
  asset_out_path (P "/w/out") (asset_template (P "[ext]/[name]")) (P "/w/src") (P "/w/other/s.module.css") [] = P "/w/out/module.css/s.module.module.css" /\
  entry_out_path (P "/w/out") default_entry_template (P "/w/src") (P "/w/src/a.js") (explicit_custom (P "/w/out") (P "/w/elsewhere/z")) [] (P ".js") = P "/w/out/_.._/elsewhere/z.js".
Proof. vm_compute. exact (conj eq_refl (conj eq_refl (conj eq_refl (conj eq_refl eq_refl)))). Qed.

(* io_deletes_only_own_partial: a history with a failed write; since b32af0b the
   failed path is forgotten and the next rebuild does not delete it; before,
   it did (J2) *)
Example ex_io_history :
  let h := trace_io_full phys_id true true ex_opts (init ex_d0) [(ex_oc1, [P "/out/b.js"]); (ex_oc2, []); (ex_oc1, [])] in
  map (fun x => r_effects (snd x)) h =
    [[EWrite (P "/out/a.js") [10]]; [EWrite (P "/out/c.js") [12]]; [EWrite (P "/out/b.js") [11]; EDelete (P "/out/c.js")]] /\
  written_paths_io (firstn 2 h) = [P "/out/a.js"; P "/out/c.js"] /\
  reported_paths (firstn 1 h) = [P "/out/a.js"; P "/out/b.js"].
Proof. vm_compute. exact (conj eq_refl (conj eq_refl eq_refl)). Qed.
Example ex_io_history_before_fix :
  let h := trace_io_full phys_id true false ex_opts (init ex_d0) [(ex_oc1, [P "/out/b.js"]); (ex_oc2, [])] in
  map (fun x => r_effects (snd x)) h = [[EWrite (P "/out/a.js") [10]]; [EWrite (P "/out/c.js") [12]; EDelete (P "/out/b.js")]] /\
  failed_paths false (firstn 1 h) = [P "/out/b.js"] /\ written_paths_io (firstn 1 h) = [P "/out/a.js"].
Proof. vm_compute. exact (conj eq_refl (conj eq_refl eq_refl)). Qed.
(* a failed write at a path the context wrote earlier keeps the earlier hash *)
Example ex_io_keeps_old_hash :
  let st1 := fst (step phys_id ex_opts (init ex_d0) ex_oc1) in
  let oc := mkOutcome false [P "/src/a.js"] false [mkOut (P "/out/a.js") [20] 120 false; mkOut (P "/out/b.js") [11] 111 false] false false false in
  latest (fst (step_io phys_id true ex_opts st1 oc [P "/out/a.js"])) = [(P "/out/a.js", 110); (P "/out/b.js", 111); (P "/out/a.js", 120)].
Proof. vm_compute. exact eq_refl. Qed.

(* cancelled_build_writes_nothing: both landing points before the check, from a state with a non-empty table *)
Example ex_cancel :
  let st1 := fst (step phys_id ex_opts (init ex_d0) ex_oc1) in
  step phys_id ex_opts st1 (with_cancel ex_oc2 BeforeCompile) = (st1, mkResult true true [] [] None) /\
  step phys_id ex_opts st1 (with_cancel ex_oc2 DuringLink) = (st1, mkResult true true [] [] None) /\
  r_effects (snd (step phys_id ex_opts st1 (with_cancel ex_oc2 AfterCheck))) = [EWrite (P "/out/c.js") [12]; EDelete (P "/out/b.js")].
Proof. vm_compute. exact (conj eq_refl (conj eq_refl eq_refl)). Qed.

(* relative_dir_has_no_dotdot: hypotheses met with an entry outside outbase and with a relative explicit output path *)
Example ex_relative_dir :
  is_rooted (P "/w/src") = true /\
  is_rooted (effective_abs (P "/w/src") (P "/w/other/deep/b.js") false []) = true /\
  no_bs (effective_abs (P "/w/src") (P "/w/other/deep/b.js") false []) = true /\
  fst (path_relative_to_outbase (P "/w/src") (P "/w/other/deep/b.js") false []) = P "/_.._/other/deep" /\
  effective_abs (P "/w/src") (P "/w/src/a.js") false (P "../../esc") = P "/esc" /\
  fst (path_relative_to_outbase (P "/w/src") (P "/w/src/a.js") false (P "../../esc")) = P "/_.._/_.._".
Proof. vm_compute. exact (conj eq_refl (conj eq_refl (conj eq_refl (conj eq_refl (conj eq_refl eq_refl))))). Qed.

(* side files and outfile mode *)
Example ex_side_files :
  side_out_path (P "/w/out") (entry_rel_path default_entry_template (P "/w/src") (P "/w/src/sub/a.ts") [] [] (P ".js")) map_suffix = P "/w/out/sub/a.js.map" /\
  side_out_path (P "/w/out") (P ".//a.js") legal_suffix = P "/w/out/a.js.LEGAL.txt" /\
  outfile_out_path default_entry_template (P "/w/out/sub/../x.y.js") [] = P "/w/out/x.y.js" /\
  outfile_out_path (entry_template (P "sub/[name]-[hash]")) (P "/w/out/x.js") (P "H") = P "/w/out/sub/x-H.js".
Proof. vm_compute. exact (conj eq_refl (conj eq_refl (conj eq_refl eq_refl))). Qed.

(* side_file_not_an_input: the source map of out = src/a.js lands on the input src/a.js.map *)
Example ex_side_file_on_input :
  let oc := mkOutcome false [P "/w/src/a.ts"; P "/w/src/a.js.map"] false
              [mkOut (P "/w/src/a.js") [1] 1 false; mkOut (side_out_path (P "/w/src") (P "./a.js") map_suffix) [2] 2 false] false false false in
  snd (compile ex_opts oc) = true /\ snd (compile (mkOpts true true false) oc) = false.
Proof. vm_compute. exact (conj eq_refl eq_refl). Qed.

(* default_*_output_inside_outdir: hypotheses met, including an entry whose name is ".." *)
Example ex_default_templates :
  snd (path_relative_to_outbase (P "/w") (P "/w/src/...js") false (auto_output_path (P "/w") (P "/w/src/...js"))) = P "." /\
  entry_out_path (P "/w/out") default_entry_template (P "/w/src") (P "/w/src/...js") [] [] (P ".js") = P "/w/out/...js" /\
  sfree (P "ABCD2345") /\ sfree (P ".js") /\
  asset_out_path (P "/w/out") default_asset_template (P "/w/src") (P "/w/src/sub/d.txt") (P "H") = P "/w/out/d-H.txt".
Proof. vm_compute. exact (conj eq_refl (conj eq_refl (conj eq_refl (conj eq_refl eq_refl)))). Qed.
