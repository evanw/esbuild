(* C17: failures DURING the write phase (rebuildImpl: "Failed to create output
   directory" / "Failed to write to output file").

   [step_io] is [step_gen] with one more input from the world: [wfail], the
   output paths at which fs.MkdirAll or ioutil.WriteFile fails.  The goroutine
   of such a file logs an error and writes nothing; the other goroutines are
   unaffected; the path stays in newHashes.  [step_io ... [] = step_gen ...]
   (lemma [step_io_nil]), and the harness evaluates [step_io] on every case, so
   the theorems about [step_gen] are about the function that is tied to the
   code.  A write that fails half-way (disk full) and leaves a truncated file
   is outside the model. *)
From V Require Import Common.Base C17.WriteSM.

Section WithFS.
Variable phys : path -> path.

(* after the write phase: for absPath in failedWrites { if old has it, keep the old hash, else delete } *)
Definition forget_failed (newH old : fmap hash) (failed : list path) : fmap hash :=
  fold_left (fun m p => match lookup old p with Some h => upd m p h | None => remove m p end) failed newH.

Definition step_io_gen (fixed fixio : bool) (opt : options) (st : state) (oc : outcome) (wfail : list path) : state * result :=
  let '(results, err1) :=
    if scan_err oc then ([], true)
    else let '(res, cerr) := compile opt oc in
         (res, cerr || cancel_early oc || cancel_late oc) in
  let reported :=
    if err1 then []
    else map (fun o => if to_stdout opt then mkOut stdout_path (o_data o) (o_hash o) (o_merge o) else o) results in
  let newH := hashes_of reported in
  let err2 := write opt && to_stdout opt && negb err1 && negb (length results =? 1)%nat in
  let attempted := if write opt && negb (to_stdout opt) && negb err1
                   then filter (fun o => negb (skip phys st newH o)) results else [] in
  let err3 := existsb (fun o => mem (o_path o) wfail) attempted in
  let effects :=
    if write opt && negb (to_stdout opt) then
      let toDelete := filter (fun p => negb (mem p (keys newH))) (keys (latest st)) in
      let writes := flat_map (fun o => if mem (o_path o) wfail then [] else [EWrite (o_path o) (o_data o)]) attempted in
      if fixed && err1 then [] else writes ++ map EDelete toDelete
    else [] in
  let out := if write opt && to_stdout opt && negb err1 && negb err2
             then match results with o :: _ => Some (o_data o) | [] => None end else None in
  let failed := map o_path (filter (fun o => mem (o_path o) wfail) attempted) in
  let newH' := if fixio then forget_failed newH (latest st) failed else newH in
  (mkState (apply phys (disk st) effects) (if fixed && err1 then latest st else newH'),
   mkResult err1 (err1 || err2 || err3 || onend_err oc) reported effects out).

Definition step_io (fixed : bool) := step_io_gen fixed true.
Definition step_io_before_b32af0b (fixed : bool) := step_io_gen fixed false.

Fixpoint trace_io (fixed : bool) (opt : options) (st : state) (ocs : list (outcome * list path)) : list result :=
  match ocs with
  | [] => []
  | (oc, wf) :: r => let '(st', res) := step_io fixed opt st oc wf in res :: trace_io fixed opt st' r
  end.

Lemma flat_map_filter_skip (f : outfile -> bool) (l : list outfile) :
  flat_map (fun o => if mem (o_path o) [] then [] else [EWrite (o_path o) (o_data o)]) (filter (fun o => negb (f o)) l)
  = flat_map (fun o => if f o then [] else [EWrite (o_path o) (o_data o)]) l.
Proof.
  induction l as [|a l IH]; simpl in *; [reflexivity|].
  destruct (f a); simpl in *; rewrite IH; reflexivity.
Qed.

Lemma existsb_mem_nil (l : list outfile) : existsb (fun o => mem (o_path o) []) l = false.
Proof. induction l as [|a l IH]; simpl; [reflexivity | exact IH]. Qed.

Lemma filter_mem_nil (l : list outfile) : filter (fun o => mem (o_path o) []) l = [].
Proof. induction l as [|a l IH]; simpl; [reflexivity | exact IH]. Qed.

(* without write failures [step_io] is [step_gen] (before and after b32af0b) *)
Lemma step_io_gen_nil fixed fixio opt st oc : step_io_gen fixed fixio opt st oc [] = step_gen phys fixed opt st oc.
Proof.
  unfold step_io_gen, step_gen.
  destruct (if scan_err oc then ([], true)
            else let '(res, cerr) := compile opt oc in (res, cerr || cancel_early oc || cancel_late oc)) as [results err1].
  rewrite existsb_mem_nil, orb_false_r, filter_mem_nil.
  change (forget_failed ?m ?o (map o_path [])) with m.
  assert (X : forall (m : fmap hash), (if fixio then m else m) = m) by (destruct fixio; reflexivity). rewrite X.
  destruct (write opt); cbn [andb]; [|reflexivity].
  destruct (to_stdout opt); cbn [andb negb]; [reflexivity|].
  destruct err1; cbn [negb].
  - reflexivity.
  - rewrite flat_map_filter_skip. reflexivity.
Qed.
Lemma step_io_nil fixed opt st oc : step_io fixed opt st oc [] = step_gen phys fixed opt st oc.
Proof. apply step_io_gen_nil. Qed.

End WithFS.

