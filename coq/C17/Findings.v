(* C17: statements of the property that are false of the faithful model,
   as existentials closed by the witnesses of SpecProofs.v. *)
From V Require Import Common.Base C17.WriteSM C17.Spec C17.Proofs C17.SpecProofs C17.IOFail C17.CompileProofs C17.PathModel C17.PathProofs.
From Coq Require Import String.

(* before d19e8cb: a rebuild that fails removes files *)
Lemma before_fix_failed_build_deleted_files_w :
  exists opt d0 oc1 oc2,
    let st1 := fst (step_before_fix phys_id opt (init d0) oc1) in
    let st2 := fst (step_before_fix phys_id opt st1 oc2) in
    let r2 := snd (step_before_fix phys_id opt st1 oc2) in
    r_failed_early r2 = true /\
    exists p, lookup (disk st1) p <> None /\ lookup (disk st2) p = None.
Proof.
  exists w_opts, w_disk0, w_oc1, w_oc2. split; [vm_compute; reflexivity|].
  exists (P "/out/a.js"). vm_compute. split; [discriminate | reflexivity].
Qed.

(* ... including a file that is an input of the failing build, without permission to overwrite *)
Lemma before_fix_failed_build_deleted_input_w :
  exists opt d0 oc1 oc2,
    let st1 := fst (step_before_fix phys_id opt (init d0) oc1) in
    let st2 := fst (step_before_fix phys_id opt st1 oc2) in
    r_failed_early (snd (step_before_fix phys_id opt st1 oc2)) = true /\
    effective_allow opt = false /\
    exists p, In p (inputs oc2) /\ lookup (disk st1) p <> None /\ lookup (disk st2) p = None.
Proof.
  exists w_opts, w_disk0, w_oc1, w_oc2. split; [vm_compute; reflexivity|]. split; [vm_compute; reflexivity|].
  exists (P "/out/old.js"). vm_compute. split; [right; right; left; reflexivity | split; [discriminate | reflexivity]].
Qed.

(* a successful rebuild deletes a stale output that is an input of the
   current build, before and after d19e8cb *)
Lemma no_input_deleted_by_successful_rebuild_refuted_w :
  forall fixed, exists opt d0 oc1 oc2,
    let st1 := fst (step_gen phys_id fixed opt (init d0) oc1) in
    let st2 := fst (step_gen phys_id fixed opt st1 oc2) in
    let r2 := snd (step_gen phys_id fixed opt st1 oc2) in
    effective_allow opt = false /\ r_errors r2 = false /\
    exists p, In p (inputs oc2) /\ lookup (disk st1) p <> None /\ lookup (disk st2) p = None.
Proof.
  intro fixed. exists w_opts, w_disk0, w_oc1, w_oc2'.
  destruct fixed; (split; [vm_compute; reflexivity|]); (split; [vm_compute; reflexivity|]);
    exists (P "/out/old.js"); vm_compute; (split; [right; left; reflexivity | split; [discriminate | reflexivity]]).
Qed.

(* through a symbolic link an input is overwritten although overwriting is not allowed *)
Lemma no_input_overwritten_via_symlink_refuted_w :
  exists phys opt d0 oc,
    let st1 := fst (step phys opt (init d0) oc) in
    let r1 := snd (step phys opt (init d0) oc) in
    effective_allow opt = false /\ r_errors r1 = false /\
    exists p c, In p (inputs oc) /\ lookup d0 p = Some c /\ lookup (disk st1) p <> Some c /\ lookup (disk st1) p <> None.
Proof.
  exists (phys_links w_links), w_opts, [(P "/src/a.js", [1])], w_oc_link.
  split; [vm_compute; reflexivity|]. split; [vm_compute; reflexivity|].
  exists (P "/src/a.js"), [1]. vm_compute. repeat split; try (left; reflexivity); discriminate.
Qed.

(* a build that reports errors (from an on-end callback) has written files *)
Lemma reported_errors_write_nothing_refuted_w :
  exists opt d0 oc,
    let st1 := fst (step phys_id opt (init d0) oc) in
    let r1 := snd (step phys_id opt (init d0) oc) in
    r_errors r1 = true /\ exists p, lookup d0 p = None /\ lookup (disk st1) p <> None.
Proof.
  exists w_opts, [(P "/src/a.js", [1])], w_oc_onend. split; [vm_compute; reflexivity|].
  exists (P "/out/a.js"). vm_compute. split; [reflexivity | discriminate].
Qed.

(* before d19e8cb the strong reading of the specification failed *)
Lemma before_fix_spec_failed_unchanged_refuted_w :
  exists opt st oc own,
    let st' := fst (step_before_fix phys_id opt st oc) in
    let r := snd (step_before_fix phys_id opt st oc) in
    to_stdout opt = false /\ (forall p, In p (keys (latest st)) -> In p own) /\
    ~ spec_failed_unchanged (obs_of opt st st' oc r own).
Proof.
  exists w_opts, (fst (step_before_fix phys_id w_opts (init w_disk0) w_oc1)), w_oc2, [P "/out/a.js"; P "/out/old.js"].
  split; [reflexivity|]. split.
  - vm_compute. intros p [H|[H|[]]]; [right; left | left]; exact H.
  - intro H. specialize (H (or_introl eq_refl) (P "/out/a.js")). vm_compute in H. discriminate.
Qed.

Definition w_oc_ab := mkOutcome false [P "/src/a.js"; P "/src/b.js"] false
  [mkOut (P "/out/a.js") [10] 110 false; mkOut (P "/out/b.js") [11] 111 false] false false false.
Definition w_oc_b := mkOutcome false [P "/src/b.js"] false [mkOut (P "/out/b.js") [11] 111 false] false false false.

(* a build in which one write fails reports errors and has created the other file *)
Lemma write_error_build_writes_nothing_refuted_w :
  exists opt d0 oc wf,
    let st1 := fst (step_io phys_id true opt (init d0) oc wf) in
    let r1 := snd (step_io phys_id true opt (init d0) oc wf) in
    r_errors r1 = true /\ r_failed_early r1 = false /\
    exists p, lookup d0 p = None /\ lookup (disk st1) p <> None.
Proof.
  exists w_opts, [(P "/src/a.js", [1]); (P "/src/b.js", [2])], w_oc_ab, [P "/out/a.js"].
  split; [vm_compute; reflexivity|]. split; [vm_compute; reflexivity|].
  exists (P "/out/b.js"). vm_compute. split; [reflexivity | discriminate].
Qed.

(* before b32af0b the path of a failed write stayed in the hash table: the next
   rebuild that did not produce it deleted a path no rebuild of the context
   ever wrote *)
Lemma before_fix_b32af0b_deleted_never_written_path_w :
  exists opt d0 oc1 wf oc2,
    let st1 := fst (step_io_before_b32af0b phys_id true opt (init d0) oc1 wf) in
    let r1 := snd (step_io_before_b32af0b phys_id true opt (init d0) oc1 wf) in
    let r2 := snd (step_io_before_b32af0b phys_id true opt st1 oc2 []) in
    exists p, In (EDelete p) (r_effects r2) /\ ~ In p (writes_of (r_effects r1)).
Proof.
  exists w_opts, [(P "/src/a.js", [1]); (P "/src/b.js", [2])], w_oc_ab, [P "/out/a.js"], w_oc_b.
  exists (P "/out/a.js"). vm_compute. split; [left; reflexivity|]. intros [H|[]]. discriminate.
Qed.
(* the same history on the current step deletes nothing *)
Lemma failed_write_path_is_forgotten_w :
  let st1 := fst (step_io phys_id true w_opts (init [(P "/src/a.js", [1]); (P "/src/b.js", [2])]) w_oc_ab [P "/out/a.js"]) in
  keys (latest st1) = [P "/out/b.js"] /\
  deletes_of (r_effects (snd (step_io phys_id true w_opts st1 w_oc_b []))) = [].
Proof. vm_compute. split; reflexivity. Qed.

(* a template without any parent-directory segment, yet the output leaves the
   output directory: the entry file is called "...js", whose name minus the
   extension is ".." (replayed: <cwd>/x.js instead of <cwd>/out/...) *)
Lemma template_without_dotdot_escapes_refuted_w :
  exists tmpl outdir outbase entry ext,
    no_dotdot_seg tmpl = true /\
    let out := entry_out_path outdir (entry_template tmpl) outbase entry [] [] ext in
    firstn (List.length (clean_segs outdir)) (clean_segs out) <> clean_segs outdir.
Proof.
  exists (P "[name]/x"), (P "/w/out"), (P "/w/src"), (P "/w/src/...js"), (P ".js").
  split; [vm_compute; reflexivity|]. vm_compute. discriminate.
Qed.

(* a Unix directory whose NAME contains backslashes: the '\' -> '/' replacement
   happens after Rel, so ".." elements appear behind the leading run that the
   "_.._" rewrite handles (replayed on the real code) *)
Definition ext_js : path := P ".js".
Lemma backslash_in_name_escapes_refuted_w :
  exists outdir outbase entry,
    is_rooted outbase = true /\ is_rooted entry = true /\
    let out := entry_out_path outdir default_entry_template outbase entry [] [] ext_js in
    firstn (List.length (clean_segs outdir)) (clean_segs out) <> clean_segs outdir.
Proof.
  exists (P "/w/out/deep"), (P "/w/src"), (P "/w/src/a\..\..\..\b/e.js").
  split; [reflexivity|]. split; [reflexivity|]. vm_compute. discriminate.
Qed.
