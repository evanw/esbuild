(* C17 lemmas about the path layer. *)
From V Require Import Common.Base C17.WriteSM C17.Proofs C17.CompileProofs C17.PathModel.

Lemma split_on_nonempty c p : split_on c p <> [].
Proof.
  induction p as [|x r IH]; simpl; [discriminate|].
  destruct (x =? c); [discriminate|]. destruct (split_on c r); discriminate.
Qed.

Lemma split_on_app c a b : split_on c (a ++ c :: b) = split_on c a ++ split_on c b.
Proof.
  induction a as [|x a IH]; simpl.
  - rewrite Z.eqb_refl. reflexivity.
  - destruct (x =? c) eqn:E.
    + rewrite IH. reflexivity.
    + rewrite IH. destruct (split_on c a) as [|s t] eqn:ES.
      * exfalso. exact (split_on_nonempty c a ES).
      * reflexivity.
Qed.

Definition has_dd (p : path) : bool := existsb (path_eqb seg_dotdot) (split_on SL p).
Lemma no_dotdot_seg_has_dd p : no_dotdot_seg p = negb (has_dd p).
Proof. reflexivity. Qed.

Lemma has_dd_app a b : has_dd (a ++ SL :: b) = has_dd a || has_dd b.
Proof. unfold has_dd. rewrite split_on_app, existsb_app. reflexivity. Qed.
Lemma has_dd_cons_slash p : has_dd (SL :: p) = has_dd p.
Proof. change (SL :: p) with ([] ++ SL :: p). rewrite has_dd_app. reflexivity. Qed.
Lemma has_dd_nil : has_dd [] = false.
Proof. reflexivity. Qed.

Lemma has_dd_slashes k : has_dd (repeat SL k) = false.
Proof.
  induction k as [|k IH]; [reflexivity|].
  change (repeat SL (S k)) with ([] ++ SL :: repeat SL k). rewrite has_dd_app, IH. reflexivity.
Qed.

Lemma strip_trailing_decomp p : exists k, p = strip_trailing SL p ++ repeat SL k.
Proof.
  induction p as [|x r [k IH]]; [exists O; reflexivity|].
  simpl. destruct (strip_trailing SL r) as [|y r'] eqn:ES.
  - destruct (x =? SL) eqn:EX.
    + apply Z.eqb_eq in EX. subst x. exists (S k). simpl in *. rewrite IH at 1. reflexivity.
    + exists k. simpl in *. rewrite IH at 1. reflexivity.
  - exists k. rewrite IH at 1. reflexivity.
Qed.

Lemma has_dd_strip_trailing p : has_dd p = false -> has_dd (strip_trailing SL p) = false.
Proof.
  intro H. destruct (strip_trailing_decomp p) as [k E].
  destruct k as [|k].
  - simpl in E. rewrite app_nil_r in E. rewrite <- E. exact H.
  - rewrite E in H. simpl in H. rewrite has_dd_app in H. apply orb_false_iff in H. tauto.
Qed.

Lemma has_prefix_app pre p : has_prefix pre p = true -> exists t, p = pre ++ t.
Proof.
  revert p. induction pre as [|a pre IH]; intros p H; [exists p; reflexivity|].
  destruct p as [|b p]; [discriminate|]. simpl in H. apply andb_true_iff in H as [E H].
  apply Z.eqb_eq in E. subst b. destruct (IH _ H) as [t Et]. exists t. simpl. rewrite Et. reflexivity.
Qed.
Lemma has_suffix_app suf p : has_suffix suf p = true -> exists q, p = q ++ suf.
Proof.
  unfold has_suffix. intro H. apply has_prefix_app in H as [t E].
  exists (rev t). rewrite <- (rev_involutive p), E, rev_app_distr, rev_involutive. reflexivity.
Qed.

Lemma has_dd_drop_final_dot q : has_dd (removelast (q ++ [SL; 46])) = has_dd (q ++ [SL; 46]).
Proof.
  change (q ++ [SL; 46]) with (q ++ SL :: [46]).
  assert (E : removelast (q ++ SL :: [46]) = q ++ SL :: []).
  { rewrite removelast_app by discriminate. reflexivity. }
  rewrite E, !has_dd_app. reflexivity.
Qed.

Lemma has_dd_underscored n tail : has_dd (concat (repeat underscored n) ++ tail) = has_dd tail.
Proof.
  induction n as [|n IH]; [reflexivity|].
  change (concat (repeat underscored (S n))) with (underscored ++ concat (repeat underscored n)).
  rewrite <- app_assoc.
  change (underscored ++ concat (repeat underscored n) ++ tail)
    with ([95; 46; 46; 95] ++ SL :: (concat (repeat underscored n) ++ tail)).
  rewrite has_dd_app, IH. reflexivity.
Qed.

(* the "../" -> "_.._/" rewrite of PathRelativeToOutbase: when the directory
   text has parent-directory segments only as a leading run, the result has none *)
Lemma neutralise_no_dotdot d0 :
  let d1 := map (fun c => if c =? 92 then SL else c) d0 in
  let n := count_dotdot (length d1) d1 in
  has_dd (skipn (n * 3) d1) = false ->
  has_dd (neutralise d0) = false.
Proof.
  intros d1 n H. unfold neutralise. fold d1. fold n.
  set (d2 := if 0 <? Z.of_nat n then concat (repeat underscored n) ++ skipn (n * 3) d1 else d1).
  assert (H2 : has_dd d2 = false).
  { unfold d2. destruct (0 <? Z.of_nat n) eqn:E.
    - rewrite has_dd_underscored. exact H.
    - assert (n = O) by lia. subst n. rewrite H0 in H. simpl in H. exact H. }
  assert (H3 : has_dd (SL :: strip_trailing SL d2) = false).
  { rewrite has_dd_cons_slash. apply has_dd_strip_trailing. exact H2. }
  destruct (has_suffix [SL; 46] (SL :: strip_trailing SL d2)) eqn:ES; [|exact H3].
  apply has_suffix_app in ES as [q E]. rewrite E in *. rewrite has_dd_drop_final_dot. exact H3.
Qed.

Definition proper (s : path) : bool := negb (path_eqb s [] || path_eqb s seg_dot).

Lemma clean_stack_app r st a b : clean_stack r st (a ++ b) = clean_stack r (clean_stack r st a) b.
Proof. unfold clean_stack. apply fold_left_app. Qed.

Lemma clean_stack_no_dotdot r segs : forall st,
  existsb (path_eqb seg_dotdot) segs = false ->
  clean_stack r st segs = rev (filter proper segs) ++ st.
Proof.
  induction segs as [|s segs IH]; intros st H; [reflexivity|].
  simpl in H. apply orb_false_iff in H as [Hs H].
  change (clean_stack r st (s :: segs)) with (clean_stack r (push r st s) segs).
  rewrite (IH _ H). unfold push, proper. simpl filter.
  assert (X : path_eqb s seg_dotdot = false) by (rewrite path_eqb_sym; exact Hs).
  destruct (path_eqb s [] || path_eqb s seg_dot) eqn:E; simpl.
  - reflexivity.
  - rewrite X. simpl. rewrite <- app_assoc. reflexivity.
Qed.

Lemma is_rooted_app a b : a <> [] -> is_rooted (a ++ b) = is_rooted a.
Proof. destruct a; [contradiction | reflexivity]. Qed.

(* joining a relative path without parent-directory segments onto a directory
   only appends path elements to the cleaned directory *)
Lemma clean_segs_join outdir relp :
  outdir <> [] -> no_dotdot_seg relp = true ->
  clean_segs (outdir ++ SL :: relp) = clean_segs outdir ++ filter proper (split_on SL relp).
Proof.
  intros HO HR. unfold clean_segs. rewrite (is_rooted_app _ _ HO), split_on_app, clean_stack_app.
  rewrite clean_stack_no_dotdot.
  - rewrite rev_app_distr, rev_involutive. reflexivity.
  - unfold no_dotdot_seg in HR. apply negb_true_iff in HR. exact HR.
Qed.

Lemma fs_join_inside outdir relp :
  is_rooted outdir = true -> relp <> [] -> no_dotdot_seg relp = true ->
  fs_join outdir relp = SL :: join_with SL (clean_segs outdir ++ filter proper (split_on SL relp)).
Proof.
  intros HR HN HD.
  assert (HO : outdir <> []) by (destruct outdir; [discriminate | discriminate]).
  unfold fs_join. destruct outdir as [|o outdir]; [contradiction|]. destruct relp as [|x relp]; [contradiction|].
  unfold clean. rewrite (is_rooted_app (o :: outdir) (SL :: x :: relp) HO), HR.
  rewrite (clean_segs_join (o :: outdir) (x :: relp) HO HD). reflexivity.
Qed.

Record entry := mkEntry {
  e_path : path;      (* absolute path of the entry point's source file *)
  e_custom : path;    (* explicit output path, or [] *)
  e_hash : path;      (* text substituted for [hash] *)
  e_ext : path;       (* output extension with its dot *)
  e_data : content;
  e_h : hash
}.
Definition linked_of_entries (outdir : path) (tmpl : list tpart) (outbase : path) (es : list entry) : list outfile :=
  map (fun e => mkOut (entry_out_path outdir tmpl outbase (e_path e) (e_custom e) (e_hash e) (e_ext e)) (e_data e) (e_h e) false) es.

Lemma nonempty_map {A B} (f : A -> B) l : nonempty (map f l) = nonempty l.
Proof. destruct l; reflexivity. Qed.

Lemma concrete_output_on_input_is_refused opt outdir tmpl outbase es ins lerr cl onend e :
  to_stdout opt = false -> effective_allow opt = false ->
  In e es ->
  In (canon (entry_out_path outdir tmpl outbase (e_path e) (e_custom e) (e_hash e) (e_ext e))) (map canon ins) ->
  snd (compile opt (mkOutcome false ins false (linked_of_entries outdir tmpl outbase es) lerr cl onend)) = true.
Proof.
  intros HS HA He Hin. apply any_linked_on_input_refused with
    (o := mkOut (entry_out_path outdir tmpl outbase (e_path e) (e_custom e) (e_hash e) (e_ext e)) (e_data e) (e_h e) false);
    try assumption; [reflexivity|].
  apply in_map_iff. exists e. auto.
Qed.

Lemma render_nonempty_rel t dir name hash ext e : e <> [] -> render (t ++ [(e, None)]) dir name hash ext <> [].
Proof.
  intro He. unfold render. rewrite map_app, concat_app. simpl. rewrite !app_nil_r.
  intro H. apply app_eq_nil in H as [_ H]. contradiction.
Qed.

Lemma entry_inside outdir tmpl outbase entry custom hash ext :
  is_rooted outdir = true -> ext <> [] ->
  no_dotdot_seg (entry_rel_path tmpl outbase entry custom hash ext) = true ->
  entry_out_path outdir tmpl outbase entry custom hash ext =
  SL :: join_with SL (clean_segs outdir ++ filter proper (split_on SL (entry_rel_path tmpl outbase entry custom hash ext))).
Proof.
  intros HR HE HD. unfold entry_out_path. apply fs_join_inside; try assumption.
  unfold entry_rel_path. destruct (path_relative_to_outbase _ _ _ _). apply render_nonempty_rel. exact HE.
Qed.

Lemma chunk_inside outdir tmpl hash ext :
  is_rooted outdir = true -> ext <> [] ->
  no_dotdot_seg (chunk_rel_path tmpl hash ext) = true ->
  chunk_out_path outdir tmpl hash ext =
  SL :: join_with SL (clean_segs outdir ++ filter proper (split_on SL (chunk_rel_path tmpl hash ext))).
Proof.
  intros HR HE HD. unfold chunk_out_path. apply fs_join_inside; try assumption.
  unfold chunk_rel_path. apply render_nonempty_rel. exact HE.
Qed.

Lemma asset_inside outdir tmpl outbase asset hash :
  is_rooted outdir = true -> asset_rel_path tmpl outbase asset hash <> [] ->
  no_dotdot_seg (asset_rel_path tmpl outbase asset hash) = true ->
  asset_out_path outdir tmpl outbase asset hash =
  SL :: join_with SL (clean_segs outdir ++ filter proper (split_on SL (asset_rel_path tmpl outbase asset hash))).
Proof. intros HR HN HD. unfold asset_out_path. apply fs_join_inside; assumption. Qed.
