(* C11, second layer: the exports/imports core inside the walk: esm_resolve
   (esmResolveAlgorithm + finalizeImportsExportsResult) against
   RESOLVE_ESM_MATCH o PACKAGE_EXPORTS_RESOLVE, and loadPackageImports against
   RESOLVE_ESM_MATCH o PACKAGE_IMPORTS_RESOLVE up to the re-resolution of a
   bare target. *)
From V Require Import Common.Base C11.Str C11.EsbuildResolve C11.NodeSpec C11.SortLemmas C11.Scope
     C11.ResolveProofs C11.Walk C11.NodeWalkSpec C11.WalkProofs C11.CondsExt.
Local Open Scope string_scope.
Local Open Scope Z_scope.

(* pjStatusInexact only comes from keys ending in "/", which the scope excludes *)
Lemma target_string_no_inexact url t sub pat imp : snd (target_string url t sub pat imp) <> SInexact.
Proof.
  unfold target_string.
  repeat match goal with |- context [if ?c then _ else _] => destruct c end; cbn [snd]; discriminate.
Qed.

Lemma obj_loop_no_inexact f conds final kvs :
  snd final <> SInexact -> Forall (fun kv => snd (f (parse (snd kv))) <> SInexact) kvs ->
  snd (obj_loop f conds final (map parse_kv kvs)) <> SInexact.
Proof.
  intros Hf H. induction H as [|[k v] r Hv _ IH]; [exact Hf|].
  cbn [map parse_kv fst snd obj_loop] in *. destruct (str_eqb k default_s || mem_str k conds); [|exact IH].
  destruct (is_undefined (snd (f (parse v)))); [exact IH|exact Hv].
Qed.

Lemma arr_loop_no_inexact f l :
  Forall (fun v => snd (f (parse v)) <> SInexact) l ->
  forall lastE, lastE <> SInexact -> snd (arr_loop f (map parse l) lastE) <> SInexact.
Proof.
  induction 1 as [|v r Hv _ IH]; intros lastE Hl; [exact Hl|].
  cbn [map arr_loop]. destruct (snd (f (parse v))) eqn:E; try (apply IH; congruence); try (rewrite E; discriminate).
  contradiction.
Qed.

Lemma target_resolve_no_inexact url sub pat imp conds :
  forall j, snd (target_resolve url (parse j) sub pat imp conds) <> SInexact.
Proof.
  pose (f := fun v => target_resolve url v sub pat imp conds).
  induction j as [| s | | l IH | kvs IH] using json_ind'; try (cbn; discriminate).
  - apply target_string_no_inexact.
  - destruct l as [|x r]; [cbn; discriminate|].
    apply (arr_loop_no_inexact f (x :: r) IH SUndefined). discriminate.
  - cbn [parse]. cbn [target_resolve]. apply (obj_loop_no_inexact f); [|exact IH].
    match goal with |- snd (if ?c then _ else _) <> _ => destruct c end; cbn; discriminate.
Qed.

Lemma expansion_loop_no_inexact url mk imp conds (L : list (str * json)) :
  Forall (fun kv => has_byte ch_star (fst kv) = true) L ->
  snd (expansion_loop url mk (map parse_kv L) imp conds) <> SInexact.
Proof.
  induction 1 as [|[k v] r Hk _ IH]; [cbn; discriminate|].
  cbn [map parse_kv fst snd expansion_loop] in *. rewrite has_byte_index in Hk.
  destruct (index_byte ch_star k); [|discriminate].
  match goal with |- snd (if ?c then _ else _) <> _ => destruct c end; [|exact IH].
  apply target_resolve_no_inexact.
Qed.

Lemma imports_exports_no_inexact mk kvs url imp conds :
  forallb (fun kv => key_ok mk (fst kv)) kvs = true ->
  snd (imports_exports_resolve mk (parse (JObj kvs)) url imp conds) <> SInexact.
Proof.
  intros Hkeys. unfold imports_exports_resolve.
  rewrite (expansion_keys_parse mk kvs Hkeys).
  change (map_data (parse (JObj kvs))) with (map parse_kv kvs).
  match goal with |- snd (match ?e with Some _ => _ | None => _ end) <> _ => destruct e as [tg|] eqn:Ee end.
  - (* an exact key: its value is the parse of a JSON value *)
    destruct (negb (ends_with_slash mk) && negb (has_byte ch_star mk)); [|discriminate].
    rewrite value_for_key_map in Ee. destruct (assoc_first mk kvs); [|discriminate].
    cbn in Ee. injection Ee as <-. apply target_resolve_no_inexact.
  - apply expansion_loop_no_inexact, Forall_isort_by, Forall_filter_true.
Qed.

Lemma fin_no_inexact (ne res : str * status) :
  snd ne <> SInexact -> snd res <> SInexact ->
  snd (if is_null_or_undefined (snd res) then ne else res) <> SInexact.
Proof. intros Hn Hr. destruct (is_null_or_undefined (snd res)); assumption. Qed.

Lemma exports_resolve_no_inexact j sub conds :
  in_scope_exports j sub = true ->
  snd (exports_resolve slash_s sub (parse_top j) conds) <> SInexact.
Proof.
  intros H. destruct (in_scope_exports_true j sub H) as (_ & _ & Hkeys).
  pose proof (target_resolve_no_inexact slash_s [] false false conds) as TR.
  destruct j as [| t | l | kvs |].
  - cbn. destruct (str_eqb sub [ch_dot]); discriminate.
  - cbn [parse_top parse exports_resolve]. destruct (str_eqb sub [ch_dot]); [|discriminate].
    apply fin_no_inexact; [discriminate|apply (TR (JStr t))].
  - change (parse_top (JArr l)) with (PArr (map parse l)). cbn [exports_resolve].
    destruct (str_eqb sub [ch_dot]); [|discriminate].
    apply fin_no_inexact; [discriminate|apply (TR (JArr l))].
  - cbn [top_keys] in Hkeys. unfold parse_top.
    destruct (consistent_keys (map fst kvs)); [|discriminate].
    rewrite exports_resolve_obj. cbv zeta.
    destruct (str_eqb sub [ch_dot]).
    + apply fin_no_inexact; [discriminate|].
      destruct (keys_start_with_dot _); [|apply TR].
      destruct (assoc_first [ch_dot] kvs); [apply TR|apply (TR JNull)].
    + destruct (keys_start_with_dot _); [|discriminate].
      apply fin_no_inexact; [discriminate|]. apply imports_exports_no_inexact, Hkeys.
  - discriminate.
Qed.

Lemma imports_resolve_no_inexact j sp conds :
  in_scope_imports j sp = true -> snd (imports_resolve sp (parse j) conds) <> SInexact.
Proof.
  intros H. destruct (in_scope_imports_true j sp H) as (_ & _ & _ & _ & Hkeys).
  destruct j as [| t | l | kvs |]; try discriminate.
  apply fin_no_inexact; [discriminate|]. apply imports_exports_no_inexact, Hkeys.
Qed.

(* agreement of a model result with a specification result;
   NOut = outside the modelled URL fragment: nothing is claimed *)
Definition agree (m : rres) (n : nres) : Prop :=
  match n with
  | NFile p => m = RFile p
  | NBuiltin s => m = RBuiltin s
  | NNotFound | NRejected _ => m = RFail
  | NOut => True
  end.

Lemma path_unescape_plain u : has_byte ch_pct u = false -> path_unescape u = Some u.
Proof.
  induction u as [|c r IH]; [reflexivity|]. unfold has_byte. cbn [existsb path_unescape].
  intros H. apply orb_false_iff in H as [H1 H2]. rewrite Z.eqb_sym, H1.
  unfold has_byte in IH. rewrite (IH H2). reflexivity.
Qed.

Lemma containsb_pct sub u :
  has_byte ch_pct u = false -> containsb (ch_pct :: sub) u = false.
Proof.
  induction u as [|c r IH]; [reflexivity|]. unfold has_byte. cbn [existsb containsb prefixb].
  intros H. apply orb_false_iff in H as [H1 H2]. rewrite H1. cbn [andb orb]. apply IH. exact H2.
Qed.

Lemma handle_post_plain u st :
  has_byte ch_pct u = false -> has_byte ch_bslash u = false ->
  (st = SExact \/ st = SExactEndsWithStar) ->
  handle_post_conditions (u, st) = if suffixb [ch_slash] u then (u, SUnsupportedDirectoryImport) else (u, st).
Proof.
  intros Hp Hb Hst. unfold handle_post_conditions. cbn [fst snd].
  rewrite (path_unescape_plain u Hp).
  change (s_ "%2f") with (ch_pct :: s_ "2f"). change (s_ "%2F") with (ch_pct :: s_ "2F").
  change (s_ "%5c") with (ch_pct :: s_ "5c"). change (s_ "%5C") with (ch_pct :: s_ "5C").
  rewrite !(containsb_pct _ u Hp). cbn [orb].
  assert (Hs : suffixb [ch_bslash] u = false).
  { destruct (suffixb [ch_bslash] u) eqn:E; [|reflexivity].
    assert (has_byte ch_bslash [ch_bslash] = true) as Hx by reflexivity.
    rewrite (suffixb_has_byte ch_bslash _ _ E Hx) in Hb. discriminate. }
  rewrite Hs, orb_false_r. destruct Hst as [-> | ->]; reflexivity.
Qed.

Lemma handle_post_pkg m : snd (handle_post_conditions m) = SPackageResolve -> snd m = SPackageResolve.
Proof.
  unfold handle_post_conditions. destruct (snd m) eqn:E; try congruence.
  all: destruct (path_unescape (fst m)); [|discriminate].
  all: match goal with |- snd (if ?c then _ else _) = _ -> _ => destruct c; [discriminate|] end.
  all: match goal with |- snd (if ?c then _ else _) = _ -> _ => destruct c; [discriminate|] end.
  all: cbn [snd]; congruence.
Qed.

Lemma rewrite_lookup_none fs p :
  no_ts_rewrite fs ->
  first_some (fun q => match lookup fs q with Some e => Some (q, e) | None => None end) (rewrite_candidates p) = None.
Proof.
  intros Hts. apply first_some_none. intros q Hq. rewrite (Hts p q Hq). reflexivity.
Qed.

Lemma parse_root_some j : j <> JNull -> parse_root j = Some (parse_top j).
Proof.
  intros H. unfold parse_root. destruct j; try reflexivity; [contradiction|].
  unfold parse_top. destruct (consistent_keys (map fst kvs)); reflexivity.
Qed.

Lemma parse_root_imports_some j : j <> JNull -> parse_root_imports j = Some (parse j).
Proof. intros H. unfold parse_root_imports. destruct j; try reflexivity. contradiction. Qed.

(* an exact result: finalizeImportsExportsResult is Node's file test *)
Lemma resolved_agree fs pdir u st pr :
  no_ts_rewrite fs -> (st = SExact \/ st = SExactEndsWithStar) ->
  agree (of_opt (finalize fs pdir (handle_post_conditions (u, st))))
        (RESOLVE_ESM_MATCH fs pdir (OResolved u) pr).
Proof.
  intros Hts Hst. cbn [RESOLVE_ESM_MATCH].
  destruct (has_byte ch_pct u) eqn:Ep; [exact I|].
  destruct (has_byte ch_bslash u) eqn:Eb; [exact I|].
  destruct (prefixb [ch_slash] u) eqn:Es; [|exact I]. cbn [orb negb].
  rewrite (handle_post_plain u st Ep Eb Hst).
  destruct (suffixb [ch_slash] u); [reflexivity|].
  replace (finalize fs pdir (u, st))
    with (if isfile fs (join_rel pdir u) then Some (join_rel pdir u) else None).
  - destruct (isfile fs (join_rel pdir u)); reflexivity.
  - unfold finalize, isfile. cbn [fst snd]. rewrite Es.
    destruct Hst as [-> | ->]; destruct (lookup fs (join_rel pdir u)) as [[|]|]; try reflexivity;
      rewrite (rewrite_lookup_none fs _ Hts); reflexivity.
Qed.

(* A model result that agrees with Node's outcome in the coarse classes and is
   not "inexact" goes through finalize as RESOLVE_ESM_MATCH prescribes; a
   re-resolution as a package specifier is left to the caller. *)
Lemma finalize_agree fs pdir m n pr :
  no_ts_rewrite fs -> outcome_of_model m = coarse n -> snd m <> SInexact ->
  match n with
  | OPackageResolve s => m = (s, SPackageResolve)
  | _ => agree (of_opt (finalize fs pdir (handle_post_conditions m))) (RESOLVE_ESM_MATCH fs pdir n pr)
  end.
Proof.
  intros Hts Heq Hni. destruct m as [res st]. unfold outcome_of_model in Heq. cbn [fst snd] in *.
  destruct n as [u|s|e|]; cbn [coarse] in Heq.
  - destruct st; try discriminate; try contradiction; injection Heq as ->; apply resolved_agree; auto.
  - destruct st; try discriminate. injection Heq as ->. reflexivity.
  - destruct st; try discriminate; reflexivity.
  - exact I.
Qed.

(* esmResolveAlgorithm + finalizeImportsExportsResult vs RESOLVE_ESM_MATCH o PACKAGE_EXPORTS_RESOLVE *)
Lemma esm_resolve_agree fs k user pkgdir sub ex conds_n :
  no_ts_rewrite fs -> in_scope_exports ex sub = true -> ex <> JNull ->
  cond_equiv (conds_of k user) conds_n ->
  agree (of_opt (esm_resolve fs k user pkgdir sub ex))
        (RESOLVE_ESM_MATCH fs pkgdir (node_exports_resolve ex sub conds_n) (fun _ => NOut)).
Proof.
  intros Hts Hsc Hnn Hc. unfold esm_resolve. rewrite (parse_root_some ex Hnn).
  pose proof (exports_resolve_eq_partial_all ex sub (conds_of k user) Hsc) as Heq.
  rewrite (node_exports_resolve_ext _ _ ex sub Hc) in Heq.
  pose proof (finalize_agree fs pkgdir _ _ (fun _ => NOut) Hts Heq (exports_resolve_no_inexact _ _ _ Hsc)) as H.
  destruct (node_exports_resolve ex sub conds_n); try exact H. exact I.
Qed.

(* loadPackageImports vs PACKAGE_IMPORTS_RESOLVE + RESOLVE_ESM_MATCH, up to the
   re-resolution of a bare target, which differs between require and import *)
Lemma package_imports_core builtin fs k user x pdir im conds_n pr :
  no_ts_rewrite fs -> im <> JNull -> in_scope_imports im x = true ->
  cond_equiv (conds_of k user) conds_n ->
  match node_imports_resolve x im conds_n with
  | OPackageResolve s =>
      load_package_imports builtin fs k user x pdir im
      = if builtin s then RBuiltin s else of_opt (load_node_modules_noimports fs k user pdir s)
  | n => agree (load_package_imports builtin fs k user x pdir im) (RESOLVE_ESM_MATCH fs pdir n pr)
  end.
Proof.
  intros Hts Hnn Hsc Hc. unfold load_package_imports.
  destruct (in_scope_imports_true im x Hsc) as (_ & _ & -> & _).
  rewrite (parse_root_imports_some im Hnn).
  pose proof (imports_resolve_eq_partial_all im x (conds_of k user) Hsc) as Heq.
  rewrite (node_imports_resolve_ext _ _ im x Hc) in Heq.
  pose proof (finalize_agree fs pdir _ _ pr Hts Heq (imports_resolve_no_inexact _ _ _ Hsc)) as H.
  destruct (node_imports_resolve x im conds_n) as [u|s|e|]; [|rewrite H; reflexivity| |].
  all: destruct (snd (handle_post_conditions _)) eqn:Er; try exact H.
  all: apply handle_post_pkg in Er; unfold outcome_of_model in Heq; rewrite Er in Heq; discriminate Heq.
Qed.
