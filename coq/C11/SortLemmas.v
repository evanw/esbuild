(* C11: facts about lists and byte strings that the proofs share.  The stable
   insertion sort [isort_by] commutes with [filter] when the comparison is a
   strict weak order on the keys at hand; path.Clean is the identity on rooted
   paths whose segments are all ordinary. *)
From V Require Import Common.Base C11.Str.
From Coq Require Import Sorted.
Local Open Scope Z_scope.

Lemma forallb_Forall {A} (p : A -> bool) l : forallb p l = true -> Forall (fun x => p x = true) l.
Proof. intros H. apply Forall_forall. apply forallb_forall. exact H. Qed.

Lemma Forall_forallb_mp {A} (p : A -> bool) (P : A -> Prop) l :
  Forall (fun x => p x = true -> P x) l -> forallb p l = true -> Forall P l.
Proof.
  induction 1 as [|x r Hx _ IH]; cbn [forallb]; intros H; constructor;
    apply andb_true_iff in H as [H1 H2]; auto.
Qed.

Lemma forallb_and {A} (p q : A -> bool) l :
  forallb (fun x => p x && q x) l = forallb p l && forallb q l.
Proof.
  induction l as [|x r IH]; [reflexivity|]. cbn [forallb]. rewrite IH.
  destruct (p x), (q x), (forallb p r), (forallb q r); reflexivity.
Qed.

Lemma forallb_ext_Forall {A} (p q : A -> bool) l :
  Forall (fun x => p x = q x) l -> forallb p l = forallb q l.
Proof. induction 1 as [|x r Hx _ IH]; [reflexivity|]. cbn. rewrite Hx, IH. reflexivity. Qed.

Lemma Forall_filter_true {A} (p : A -> bool) l : Forall (fun x => p x = true) (filter p l).
Proof. apply Forall_forall. intros x Hx. apply filter_In in Hx. apply Hx. Qed.

Lemma filter_filter_imp {A} (p q : A -> bool) l :
  (forall x, p x = true -> q x = true) -> filter p l = filter p (filter q l).
Proof.
  intros H. induction l as [|x r IH]; [reflexivity|]. cbn [filter].
  destruct (p x) eqn:Ep.
  - rewrite (H x Ep). cbn [filter]. rewrite Ep, IH. reflexivity.
  - destruct (q x); cbn [filter]; rewrite ?Ep; exact IH.
Qed.

Lemma skipn_app_exact {A} (a b : list A) : skipn (length a) (a ++ b) = b.
Proof. induction a; [reflexivity|]. cbn. exact IHa. Qed.

(* what a suffix test by lengths and [skipn] (strings.HasSuffix) sees on d ++ sfx *)
Lemma skipn_suffix_app {A} (d sfx : list A) :
  (length sfx <=? length (d ++ sfx))%nat = true
  /\ skipn (length (d ++ sfx) - length sfx) (d ++ sfx) = sfx.
Proof.
  rewrite app_length. split; [apply Nat.leb_le; lia|].
  replace (length d + length sfx - length sfx)%nat with (length d) by lia.
  apply skipn_app_exact.
Qed.

Lemma str_eqb_eq a b : str_eqb a b = true <-> a = b.
Proof. apply zlist_eqb_eq. Qed.

Lemma str_eqb_refl a : str_eqb a a = true.
Proof. apply str_eqb_eq. reflexivity. Qed.

Lemma str_eqb_neq a b : a <> b -> str_eqb a b = false.
Proof. intros H. destruct (str_eqb a b) eqn:E; [|reflexivity]. apply str_eqb_eq in E. contradiction. Qed.

Lemma str_eqb_sym a b : str_eqb a b = str_eqb b a.
Proof.
  destruct (str_eqb b a) eqn:E.
  - apply str_eqb_eq in E. subst. apply str_eqb_refl.
  - apply str_eqb_neq. intros ->. rewrite str_eqb_refl in E. discriminate.
Qed.

Lemma suffixb_app x e : suffixb e (x ++ e) = true.
Proof. unfold suffixb. destruct (skipn_suffix_app x e) as [-> ->]. apply str_eqb_refl. Qed.

Lemma has_byte_index c s : has_byte c s = match index_byte c s with Some _ => true | None => false end.
Proof.
  induction s as [|x r IH]; [reflexivity|]. cbn [has_byte existsb index_byte].
  rewrite Z.eqb_sym. destruct (x =? c); [reflexivity|]. cbn [orb].
  unfold has_byte in IH. rewrite IH. destruct (index_byte c r); reflexivity.
Qed.

Lemma has_byte_index_some c s : has_byte c s = true -> exists i, index_byte c s = Some i.
Proof. rewrite has_byte_index. destruct (index_byte c s) as [i|]; [eauto|discriminate]. Qed.

Lemma has_byte_count c s : has_byte c s = negb (count_byte c s =? 0)%nat.
Proof.
  unfold has_byte, count_byte. induction s as [|x r IH]; [reflexivity|].
  cbn [existsb filter]. destruct (c =? x); [reflexivity|]. exact IH.
Qed.

Lemma single_has_byte c s : (count_byte c s =? 1)%nat = true -> has_byte c s = true.
Proof. intros H. apply Nat.eqb_eq in H. rewrite has_byte_count, H. reflexivity. Qed.

Lemma index_byte_split c s i :
  index_byte c s = Some i -> s = firstn i s ++ c :: skipn (S i) s.
Proof.
  revert i; induction s as [|x r IH]; intros i H; [discriminate|].
  cbn [index_byte] in H. destruct (x =? c) eqn:E.
  - injection H as <-. apply Z.eqb_eq in E. subst. reflexivity.
  - destruct (index_byte c r) as [j|]; [|discriminate]. injection H as <-.
    cbn [firstn skipn app]. f_equal. apply IH. reflexivity.
Qed.

Lemma count_byte_index c s i :
  index_byte c s = Some i -> count_byte c s = S (count_byte c (skipn (S i) s)).
Proof.
  revert i; induction s as [|x r IH]; intros i H; [discriminate|].
  cbn [index_byte] in H. unfold count_byte in *. cbn [filter]. rewrite Z.eqb_sym.
  destruct (x =? c).
  - injection H as <-. reflexivity.
  - destruct (index_byte c r) as [j|]; [|discriminate]. injection H as <-. apply IH. reflexivity.
Qed.

Lemma has_byte_skipn c n s : has_byte c (skipn n s) = true -> has_byte c s = true.
Proof.
  revert s; induction n as [|n IH]; intros s H; [exact H|].
  destruct s as [|x r]; [exact H|]. cbn [skipn] in H. unfold has_byte in *. cbn [existsb].
  rewrite (IH r H). apply orb_true_r.
Qed.

Lemma suffixb_has_byte c t m : suffixb t m = true -> has_byte c t = true -> has_byte c m = true.
Proof.
  unfold suffixb. intros H Ht. apply andb_true_iff in H as [_ H]. apply str_eqb_eq in H.
  rewrite <- H in Ht. eapply has_byte_skipn. exact Ht.
Qed.

Lemma str_eqb_nil_length (t : str) : str_eqb t [] = (length t =? 0)%nat.
Proof. destruct t; reflexivity. Qed.

Lemma Forall_insert_by {A} (P : str * A -> Prop) lt x (l : list (str * A)) :
  P x -> Forall P l -> Forall P (insert_by lt x l).
Proof.
  intros Hx H. induction H as [|y r Hy Hr IH]; cbn; [repeat constructor; auto|].
  destruct (lt (fst y) (fst x)); repeat constructor; auto.
Qed.

Lemma Forall_isort_by {A} (P : str * A -> Prop) lt (l : list (str * A)) :
  Forall P l -> Forall P (isort_by lt l).
Proof.
  induction 1 as [|x r Hx _ IH]; [constructor|]. apply Forall_insert_by; assumption.
Qed.

Lemma insert_by_ext {A} lt1 lt2 (x : str * A) l :
  Forall (fun y => lt1 (fst y) (fst x) = lt2 (fst y) (fst x)) l ->
  insert_by lt1 x l = insert_by lt2 x l.
Proof.
  induction 1 as [|y r Hy _ IH]; [reflexivity|]. cbn. rewrite Hy, IH. reflexivity.
Qed.

Lemma isort_by_ext {A} (Q : str -> Prop) lt1 lt2 (l : list (str * A)) :
  (forall a b, Q a -> Q b -> lt1 a b = lt2 a b) ->
  Forall (fun x => Q (fst x)) l -> isort_by lt1 l = isort_by lt2 l.
Proof.
  intros Hext H. induction H as [|x r Hx Hr IH]; [reflexivity|].
  unfold isort_by in *. cbn [fold_right]. rewrite IH.
  apply insert_by_ext. apply (Forall_isort_by (fun y => lt1 (fst y) (fst x) = lt2 (fst y) (fst x))).
  rewrite Forall_forall in *. intros y Hy. apply Hext; auto.
Qed.

Section MapKeys.
  Context {A B : Type} (f : str * A -> str * B).
  Hypothesis f_key : forall y, fst (f y) = fst y.

  Lemma insert_by_map lt x l : insert_by lt (f x) (map f l) = map f (insert_by lt x l).
  Proof.
    induction l as [|y r IH]; [reflexivity|].
    cbn [map insert_by]. rewrite !f_key. destruct (lt (fst y) (fst x)); cbn [map]; [rewrite IH|]; reflexivity.
  Qed.

  Lemma isort_by_map lt l : isort_by lt (map f l) = map f (isort_by lt l).
  Proof.
    induction l as [|x r IH]; [reflexivity|].
    cbn [map]. unfold isort_by in *. cbn [fold_right]. rewrite IH. apply insert_by_map.
  Qed.

  Lemma filter_map_keys (q : str -> bool) l :
    filter (fun e => q (fst e)) (map f l) = map f (filter (fun kv => q (fst kv)) l).
  Proof.
    induction l as [|x r IH]; [reflexivity|].
    cbn [map filter]. rewrite f_key. destruct (q (fst x)); cbn [map]; rewrite IH; reflexivity.
  Qed.
End MapKeys.

Section SortFilter.
  Context {A : Type}.
  Variable lt : str -> str -> bool.
  Variable Q : str -> Prop.
  (* strict weak order on the keys satisfying Q *)
  Hypothesis lt_asym : forall a b, Q a -> Q b -> lt a b = true -> lt b a = false.
  Hypothesis lt_negtrans : forall a b c, Q a -> Q b -> Q c -> lt b a = false -> lt c b = false -> lt c a = false.

  Definition ordered (l : list (str * A)) : Prop :=
    StronglySorted (fun a b => lt (fst b) (fst a) = false) l.
  Definition allQ (l : list (str * A)) : Prop := Forall (fun x => Q (fst x)) l.

  Lemma ordered_insert x l : Q (fst x) -> allQ l -> ordered l -> ordered (insert_by lt x l).
  Proof.
    intros Hx HQ Hs. revert HQ. induction Hs as [|y r Hr IH Hy]; intros HQ; cbn [insert_by].
    - constructor; constructor.
    - inversion HQ as [|? ? HQy HQr]; subst.
      destruct (lt (fst y) (fst x)) eqn:E.
      + constructor; [apply IH; assumption|].
        apply Forall_insert_by; [|exact Hy]. apply lt_asym; assumption.
      + constructor; [constructor; assumption|].
        constructor; [exact E|].
        rewrite Forall_forall in *. intros z Hz.
        apply (lt_negtrans (fst x) (fst y) (fst z)); auto.
  Qed.

  Lemma ordered_isort l : allQ l -> ordered (isort_by lt l).
  Proof.
    induction 1 as [|x r Hx Hr IH]; [constructor|].
    apply ordered_insert; auto. apply Forall_isort_by. exact Hr.
  Qed.

  Lemma filter_insert (p : str * A -> bool) x l :
    Q (fst x) -> allQ l -> ordered l ->
    filter p (insert_by lt x l) = if p x then insert_by lt x (filter p l) else filter p l.
  Proof.
    intros Hx HQ Hs. revert HQ. induction Hs as [|y r Hr IH Hy]; intros HQ; cbn [insert_by filter].
    - destruct (p x); reflexivity.
    - inversion HQ as [|? ? HQy HQr]; subst.
      destruct (lt (fst y) (fst x)) eqn:E.
      + cbn [filter]. rewrite (IH HQr). destruct (p y), (p x); cbn [insert_by]; rewrite ?E; reflexivity.
      + cbn [filter]. destruct (p x) eqn:Epx; [|reflexivity].
        destruct (p y) eqn:Epy; [cbn [insert_by]; rewrite E; reflexivity|].
        (* x goes in front of the first kept element z of r: lt z x = false *)
        clear IH HQ. induction r as [|z r' IHr]; [reflexivity|].
        cbn [filter]. inversion Hy as [|? ? Hyz Hyr]; subst. inversion HQr as [|? ? HQz HQr']; subst.
        inversion Hr as [|? ? Hr' Hzr]; subst.
        destruct (p z); [|apply IHr; assumption].
        cbn [insert_by]. rewrite (lt_negtrans (fst x) (fst y) (fst z)); auto.
  Qed.

  Lemma filter_isort (p : str * A -> bool) l :
    allQ l -> filter p (isort_by lt l) = isort_by lt (filter p l).
  Proof.
    induction 1 as [|x r Hx Hr IH]; [reflexivity|].
    unfold isort_by in *. cbn [fold_right filter].
    rewrite filter_insert; auto; [| apply Forall_isort_by; exact Hr | apply ordered_isort; exact Hr ].
    rewrite IH. destruct (p x); reflexivity.
  Qed.
End SortFilter.

Lemma split_on_nonempty f s : split_on f s <> [].
Proof.
  induction s as [|c r IH]; cbn; [discriminate|].
  destruct (f c); [discriminate|]. destruct (split_on f r); discriminate.
Qed.

Lemma join_split c s : join_with c (split_on (Z.eqb c) s) = s.
Proof.
  induction s as [|x r IH]; [reflexivity|]. cbn [split_on].
  destruct (c =? x) eqn:E.
  - apply Z.eqb_eq in E. subst x.
    destruct (split_on (Z.eqb c) r) as [|seg segs] eqn:Es; [exfalso; eapply split_on_nonempty; eauto|].
    cbn [join_with app]. f_equal. exact IH.
  - destruct (split_on (Z.eqb c) r) as [|seg segs] eqn:Es; [exfalso; eapply split_on_nonempty; eauto|].
    rewrite <- IH. destruct segs; reflexivity.
Qed.

Lemma split_on_ext f g s :
  Forall (fun c => f c = g c) s -> split_on f s = split_on g s.
Proof. induction 1 as [|c r Hc _ IH]; [reflexivity|]. cbn. rewrite Hc, IH. reflexivity. Qed.

(* a segment that path.Clean and fs.Join keep as it is: not "", "." or ".." *)
Definition ordinary_seg (g : str) : bool :=
  negb (str_eqb g [] || str_eqb g [ch_dot]) && negb (str_eqb g dotdot).

Lemma ordinary_seg_true g :
  ordinary_seg g = true -> str_eqb g [] || str_eqb g [ch_dot] = false /\ str_eqb g dotdot = false.
Proof. unfold ordinary_seg. rewrite andb_true_iff, !negb_true_iff. auto. Qed.

Lemma clean_segs_ordinary rooted segs : forall stack,
  forallb ordinary_seg segs = true -> clean_segs rooted segs stack = rev stack ++ segs.
Proof.
  induction segs as [|g r IH]; intros stack H; cbn [clean_segs forallb] in *.
  - rewrite app_nil_r. reflexivity.
  - apply andb_true_iff in H as [Hg Hr]. destruct (ordinary_seg_true g Hg) as [-> ->].
    rewrite IH by assumption. cbn [rev]. rewrite <- app_assoc. reflexivity.
Qed.

(* rest = the part of a target after "./" *)
Definition ordinary_path (rest : str) : bool :=
  forallb ordinary_seg (split_on (Z.eqb ch_slash) rest).

Lemma path_clean_rooted rest :
  ordinary_path rest = true -> path_clean (ch_slash :: rest) = ch_slash :: rest.
Proof.
  intros H. unfold path_clean. change (ch_slash =? ch_slash) with true. cbv iota.
  cbn [split_on]. change (Z.eqb ch_slash ch_slash) with true. cbv iota.
  change (clean_segs true ([] :: split_on (Z.eqb ch_slash) rest) [])
    with (clean_segs true (split_on (Z.eqb ch_slash) rest) []).
  rewrite clean_segs_ordinary by exact H. cbn [rev app]. rewrite join_split. reflexivity.
Qed.

Lemma path_join_root_dot rest :
  ordinary_path rest = true ->
  path_join2 [ch_slash] (ch_dot :: ch_slash :: rest) = ch_slash :: rest.
Proof.
  (* path.Join("/", "./rest") cleans "/" ++ "/" ++ "./rest", whose segments "", "", "." are dropped *)
  intros H. change (path_join2 [ch_slash] (ch_dot :: ch_slash :: rest)) with (path_clean (ch_slash :: rest)).
  apply path_clean_rooted. exact H.
Qed.
