(* C11 property theorems. This file contains only statements closed by
   [exact lemma] and Print Assumptions.
   Model = C11.EsbuildResolve (mirrors internal/resolver/package_json.go),
   specification = C11.NodeSpec (Node 20's documented algorithm), scope
   predicates = C11.Scope.  Outcomes are compared in the property's classes:
   resolved to the same path / same package re-resolution / refused. *)
From V Require Import Common.Base C11.Str C11.EsbuildResolve C11.NodeSpec C11.SortLemmas C11.Scope C11.ResolveProofs C11.Walk C11.NodeWalkSpec C11.WalkProofs C11.CondsExt C11.WalkCore C11.WalkMain C11.WalkImport.
Local Open Scope string_scope.

(* esmParsePackageName = PACKAGE_RESOLVE steps 2, 4-7, for every specifier *)
Theorem parse_package_name_eq : forall spec, parse_package_name spec = package_name_spec spec.
Proof. exact parse_package_name_eq_all. Qed.
Print Assumptions parse_package_name_eq.

(* sort.Stable with expansionKeysArray.Less orders every list of pattern keys
   exactly as a stable sort by PATTERN_KEY_COMPARE does *)
Theorem pattern_order_eq : forall (l : list (str * json)),
  Forall (fun kv => has_byte ch_star (fst kv) = true) l ->
  isort_by less l = isort_by pkc_less l.
Proof. exact (@pattern_order_eq_all json). Qed.
Print Assumptions pattern_order_eq.

(* esmPackageTargetResolve = PACKAGE_TARGET_RESOLVE (exact result kinds) for
   every target value in scope, pattern match and condition set *)
Theorem target_resolve_eq_partial : forall imp conds pm, pm_ok_opt pm = true ->
  forall j, json_ok imp j = true ->
  proj (target_resolve slash_s (parse j) (sub_of pm) (pat_of pm) imp conds)
  = target_resolve_spec j pm imp conds.
Proof. exact target_resolve_eq. Qed.
Print Assumptions target_resolve_eq_partial.

(* esmPackageExportsResolve agrees with PACKAGE_EXPORTS_RESOLVE on the whole
   in-scope domain: every exports value, subpath and condition set *)
Theorem exports_resolve_eq_partial : forall j sub conds,
  in_scope_exports j sub = true ->
  outcome_of_model (exports_resolve slash_s sub (parse_top j) conds)
  = coarse (node_exports_resolve j sub conds).
Proof. exact exports_resolve_eq_partial_all. Qed.
Print Assumptions exports_resolve_eq_partial.

(* the same for esmPackageImportsResolve and PACKAGE_IMPORTS_RESOLVE *)
Theorem imports_resolve_eq_partial : forall j spec conds,
  in_scope_imports j spec = true ->
  outcome_of_model (imports_resolve spec (parse j) conds)
  = coarse (node_imports_resolve spec j conds).
Proof. exact imports_resolve_eq_partial_all. Qed.
Print Assumptions imports_resolve_eq_partial.

(* The domain of the two theorems above is EXACTLY: the documented exclusions
   (keys / specifiers ending in "/"), the URL fragment modelled by the
   specification (URL-plain characters, no empty segment), and the absence of
   every refuted shape that is still open: D1, D3, D5, D7, D8, D10 (C11.Scope
   [shape_*]); D2, D4 and D12 are repaired in /repo and have no detector;
   nothing else is excluded (keys with several "*", any nesting, any condition set are in). *)
Theorem in_scope_exports_split : forall j mk,
  in_scope_exports j mk = documented_ok j mk && fragment_ok j mk && no_refuted_shape false j mk.
Proof. exact in_scope_exports_split_all. Qed.
Print Assumptions in_scope_exports_split.

Theorem in_scope_imports_split : forall j mk,
  in_scope_imports j mk = documented_ok j mk && fragment_ok j mk && no_refuted_shape true j mk.
Proof. exact in_scope_imports_split_all. Qed.
Print Assumptions in_scope_imports_split.

(* the fragment condition "no empty segment" is what makes Go's path.Join a
   concatenation: for every target "./rest" of ordinary segments *)
Theorem path_join_is_concatenation : forall rest,
  ordinary_path rest = true ->
  path_join2 [ch_slash] (ch_dot :: ch_slash :: rest) = ch_slash :: rest
  /\ path_clean (ch_slash :: rest) = ch_slash :: rest.
Proof. exact (fun rest H => conj (path_join_root_dot rest H) (path_clean_rooted rest H)). Qed.
Print Assumptions path_join_is_concatenation.

(* With only the documented exclusions (keys / specifiers ending in "/") the
   equality is FALSE of the faithful model: *)
Theorem exports_resolve_eq_refuted : exists j sub conds,
  documented_scope j sub = true /\
  outcome_of_model (exports_resolve slash_s sub (parse_top j) conds)
  <> coarse (node_exports_resolve j sub conds).
Proof. exact exports_resolve_eq_refuted_all. Qed.
Print Assumptions exports_resolve_eq_refuted.

Theorem imports_resolve_eq_refuted : exists j sp conds,
  documented_scope j sp = true /\
  outcome_of_model (imports_resolve sp (parse j) conds)
  <> coarse (node_imports_resolve sp j conds).
Proof. exact imports_resolve_eq_refuted_all. Qed.
Print Assumptions imports_resolve_eq_refuted.

(* one witness per excluded class (each is replayed on the real esbuild and
   the real Node by the harness, family c11-witness) *)
Theorem refuted_pattern_base_equals_subpath :
  model_exports w_pattern_base (s_ "./foo") = OResolved (s_ "/lib/foo.js")
  /\ spec_exports w_pattern_base (s_ "./foo") = ORefused ENotExported.
Proof. exact refuted_pattern_base. Qed.
Print Assumptions refuted_pattern_base_equals_subpath.

Theorem refuted_pattern_base_resolves_other_file :
  model_exports w_pattern_base2 (s_ "./foo") = OResolved (s_ "/lib/foo.js")
  /\ spec_exports w_pattern_base2 (s_ "./foo") = OResolved (s_ "/x/o.js").
Proof. exact refuted_pattern_base_other_file. Qed.
Print Assumptions refuted_pattern_base_resolves_other_file.

(* D2 is repaired in /repo (e3ac7b5): the model follows the repaired
   findInvalidSegment / findInvalidSubpathSegment, and on the witnesses of D2 the two agree *)
Theorem fixed_invalid_segment_case_insensitive :
  model_exports w_upper (s_ "./x") = ORefused ENotExported
  /\ spec_exports w_upper (s_ "./x") = ORefused ENotExported.
Proof. exact segment_case_agrees. Qed.
Print Assumptions fixed_invalid_segment_case_insensitive.

Theorem fixed_invalid_segment_percent_encoded :
  model_exports w_pct (s_ "./x") = ORefused ENotExported
  /\ spec_exports w_pct (s_ "./x") = ORefused ENotExported.
Proof. exact segment_percent_agrees. Qed.
Print Assumptions fixed_invalid_segment_percent_encoded.

Theorem fixed_invalid_segment_first_of_pattern_match :
  model_exports w_star_all (s_ "./../secret.js") = ORefused ENotExported
  /\ spec_exports w_star_all (s_ "./../secret.js") = ORefused ENotExported
  /\ model_exports w_star_all (s_ "./node_modules/s.js") = ORefused ENotExported
  /\ spec_exports w_star_all (s_ "./node_modules/s.js") = ORefused ENotExported.
Proof. exact pattern_match_segment_agrees. Qed.
Print Assumptions fixed_invalid_segment_first_of_pattern_match.

Theorem refuted_duplicate_json_key :
  model_exports w_dup (s_ "./a") = OResolved (s_ "/x.js")
  /\ spec_exports w_dup (s_ "./a") = OResolved (s_ "/y.js").
Proof. exact refuted_duplicate_key. Qed.
Print Assumptions refuted_duplicate_json_key.

(* D4 is repaired in /repo (4e82ea6) for nested objects: its witness is inside
   the domain of exports_resolve_eq_partial and resolves like Node *)
Theorem fixed_nested_object_mixed_keys :
  model_exports w_mixed (s_ "./a") = OResolved (s_ "/x.js")
  /\ spec_exports w_mixed (s_ "./a") = OResolved (s_ "/x.js")
  /\ in_scope_exports w_mixed (s_ "./a") = true.
Proof. exact nested_mixed_keys_agree. Qed.
Print Assumptions fixed_nested_object_mixed_keys.

(* the rest of D4 (top-level object of "imports") is repaired by 9a0cc2e *)
Theorem fixed_imports_top_level_mixed_keys :
  model_imports w_imports_mixed (s_ "#a") = OResolved (s_ "/a.js")
  /\ spec_imports w_imports_mixed (s_ "#a") = OResolved (s_ "/a.js")
  /\ in_scope_imports w_imports_mixed (s_ "#a") = true.
Proof. exact imports_top_mixed_agree. Qed.
Print Assumptions fixed_imports_top_level_mixed_keys.

Theorem refuted_numeric_condition_key :
  model_exports w_index (s_ "./a") = OResolved (s_ "/y.js")
  /\ spec_exports w_index (s_ "./a") = ORefused ENotExported.
Proof. exact refuted_index_key. Qed.
Print Assumptions refuted_numeric_condition_key.

Theorem refuted_imports_specifier_hash_slash :
  model_imports w_hash_slash (s_ "#/a") = OResolved (s_ "/a.js")
  /\ spec_imports w_hash_slash (s_ "#/a") = ORefused ENotExported.
Proof. exact refuted_imports_hash_slash. Qed.
Print Assumptions refuted_imports_specifier_hash_slash.

Theorem refuted_imports_target_is_url :
  model_imports w_url_target (s_ "#fs") = OPackageResolve (s_ "node:fs")
  /\ spec_imports w_url_target (s_ "#fs") = ORefused ENotExported.
Proof. exact refuted_imports_url_target. Qed.
Print Assumptions refuted_imports_target_is_url.

(* Second layer: the algorithm around the core.
   File system = finite map (C11.Walk).  Hypotheses, visible in every statement:
   [wf_fs] an entry exists only inside an existing directory; [no_ts_rewrite] no
   TypeScript file that esbuild's ".js" -> ".ts" rewrite could pick up.  Both have
   decidable sufficient conditions ([wf_fsb], [no_tsb]). *)

(* loadAsFile = LOAD_AS_FILE, loadAsIndex = LOAD_INDEX, loadAsDirectory (with the
   "main" field) = LOAD_AS_DIRECTORY: every file system, every path *)
Theorem load_as_file_eq : forall fs, no_ts_rewrite fs ->
  forall p, load_as_file fs p = LOAD_AS_FILE fs p.
Proof. exact WalkProofs.load_as_file_eq. Qed.
Print Assumptions load_as_file_eq.

Theorem load_as_index_eq : forall fs d, load_as_index fs d = LOAD_INDEX fs d.
Proof. exact WalkProofs.load_as_index_eq. Qed.
Print Assumptions load_as_index_eq.

Theorem load_as_directory_eq : forall fs, wf_fs fs -> no_ts_rewrite fs ->
  forall d, load_as_directory fs d = LOAD_AS_DIRECTORY fs d.
Proof. exact WalkProofs.load_as_directory_eq. Qed.
Print Assumptions load_as_directory_eq.

(* require(X) for relative and absolute X (steps 2-3 of "require(X) from module at
   path Y"): esbuild's resolveWithoutSymlinks gives exactly Node's answer.
   The bare and "#" branches are package_resolve_eq_partial / package_imports_resolve_eq_partial below. *)
Theorem require_relative_eq_partial : forall builtin fs, wf_fs fs -> no_ts_rewrite fs ->
  forall user dir x, is_package_path x = false -> has_trailing_slash x = false ->
  nres_of (resolve builtin fs KRequire user dir x) = require_resolve builtin fs user dir x.
Proof. exact require_relative_eq_all. Qed.
Print Assumptions require_relative_eq_partial.

Theorem wf_fsb_is_sufficient : forall fs, wf_fsb fs = true -> wf_fs fs.
Proof. exact wf_fsb_sound. Qed.
Print Assumptions wf_fsb_is_sufficient.

Theorem no_tsb_is_sufficient : forall fs, no_tsb fs = true -> no_ts_rewrite fs.
Proof. exact no_tsb_sound. Qed.
Print Assumptions no_tsb_is_sufficient.

(* D12 is repaired in /repo (6e6e7fa): esbuild's nearest-package.json search is
   exactly Node's package scope lookup, for every file system and directory,
   and on the witness of D12 the two agree *)
Theorem nearest_package_json_is_package_scope : forall fs fuel dir,
  nearest_pkg fs fuel dir = package_scope fs fuel dir.
Proof. exact nearest_is_scope. Qed.
Print Assumptions nearest_package_json_is_package_scope.

Theorem fixed_package_scope_boundary :
  wf_fsb w_scope_fs = true /\ no_tsb w_scope_fs = true
  /\ resolve (fun _ => false) w_scope_fs KRequire [] (pw_ ["node_modules"; "nopkg"]) (s_ "rootpkg")
     = RFile (pw_ ["node_modules"; "rootpkg"; "copy.js"])
  /\ require_resolve (fun _ => false) w_scope_fs [] (pw_ ["node_modules"; "nopkg"]) (s_ "rootpkg")
     = NFile (pw_ ["node_modules"; "rootpkg"; "copy.js"]).
Proof. exact scope_boundary_agrees. Qed.
Print Assumptions fixed_package_scope_boundary.

(* Bare and "#" specifiers: loadNodeModules / loadPackageImports against
   LOAD_PACKAGE_SELF / LOAD_NODE_MODULES / LOAD_PACKAGE_IMPORTS.
   [agree m n]: Node resolves to p => esbuild resolves to p; Node answers
   "builtin" => so does esbuild; Node fails (not found, or rejected by an
   exports/imports map) => esbuild fails; nothing is claimed when the
   specification leaves the modelled URL fragment (NOut).
   Hypotheses, each excluding one recorded shape or a modelling limit:
     wf_fs, no_ts_rewrite          file system well formed / no TypeScript rewrite target;
     no_case_collision             D11 (the model looks names up exactly, esbuild case-insensitively);
     bare_ok                       valid package name and no "", ".", ".." segment in the specifier
                                   (specifiers without a valid name: package_resolve_invalid_name_eq_partial);
     pkgs_ok / pkgs_imports_ok     every exports / imports map in the tree is in the domain of the core
                                   theorems (documented exclusions, URL fragment, no refuted shape D1..D10);
     remap_ok                      the same for a bare target an imports map remaps to, which must not be
                                   a builtin name (require('#x') with "#x":"fs" FAILS in Node 20: the node:
                                   URL cannot be turned into a path; esbuild answers the builtin; neither a
                                   resolution nor a rejection by the map, so the property is silent).
   The result depends on the condition list only through membership
   ([spec_depends_on_condition_membership]), which connects esbuild's condition
   sets with Node's ["node"; "require"] ++ user. *)
Theorem spec_depends_on_condition_membership : forall c1 c2 ex sub,
  cond_equiv c1 c2 -> node_exports_resolve ex sub c1 = node_exports_resolve ex sub c2.
Proof. exact node_exports_resolve_ext. Qed.
Print Assumptions spec_depends_on_condition_membership.

Theorem condition_sets_agree : forall user,
  cond_equiv (conds_of KRequire user) (cjs_conds user) /\ cond_equiv (conds_of KImport user) (esm_conds user).
Proof. exact (fun user => conj (conds_require_equiv user) (conds_import_equiv user)). Qed.
Print Assumptions condition_sets_agree.

(* the node_modules walk: every enclosing directory, every file system *)
Theorem node_modules_walk_eq_partial : forall fs, wf_fs fs -> no_ts_rewrite fs ->
  forall user x, bare_ok x = true -> pkgs_ok fs x ->
  forall fuel dir,
  agree (of_opt (nm_walk fs KRequire user fuel dir x)) (LOAD_NODE_MODULES fs (cjs_conds user) fuel x dir).
Proof. exact nm_walk_agree. Qed.
Print Assumptions node_modules_walk_eq_partial.

Theorem package_resolve_eq_partial : forall builtin fs, wf_fs fs -> no_ts_rewrite fs ->
  no_case_collision fs = true ->
  forall user dir x,
  is_package_path x = true -> prefixb [ch_hash] x = false ->
  bare_ok x = true -> pkgs_ok fs x ->
  agree (resolve builtin fs KRequire user dir x) (require_resolve builtin fs user dir x).
Proof. exact (fun b fs Hw Ht _ => package_resolve_bare_all b fs Hw Ht). Qed.
Print Assumptions package_resolve_eq_partial.

Theorem package_imports_resolve_eq_partial : forall builtin fs, wf_fs fs -> no_ts_rewrite fs ->
  no_case_collision fs = true ->
  forall user dir x,
  is_package_path x = true -> prefixb [ch_hash] x = true ->
  pkgs_imports_ok fs x -> remap_ok builtin fs user x ->
  bare_ok x = true -> pkgs_ok fs x ->
  agree (resolve builtin fs KRequire user dir x) (require_resolve builtin fs user dir x).
Proof. exact (fun b fs Hw Ht _ => package_resolve_imports_all b fs Hw Ht). Qed.
Print Assumptions package_imports_resolve_eq_partial.

(* D13 is repaired in /repo (d8f247a): a specifier WITHOUT a valid package name
   ("@foo", ".x/y", "a%b") is never a self reference; for such specifiers esbuild
   equals Node's CommonJS loader on every file system, and on the witness of D13 the two agree *)
Theorem package_resolve_invalid_name_eq_partial : forall builtin fs, wf_fs fs -> no_ts_rewrite fs ->
  no_case_collision fs = true ->
  forall user x, package_name_spec x = None -> plain_spec x = true ->
  forall dir, is_package_path x = true -> prefixb [ch_hash] x = false ->
  agree (resolve builtin fs KRequire user dir x) (require_resolve builtin fs user dir x).
Proof. exact (fun b fs Hw Ht _ => package_resolve_invalid_name_all b fs Hw Ht). Qed.
Print Assumptions package_resolve_invalid_name_eq_partial.

Theorem fixed_nameless_self_reference_witness :
  wf_fsb w_nameless_fs = true /\ no_tsb w_nameless_fs = true /\ no_case_collision w_nameless_fs = true
  /\ package_name_spec (s_ "@foo") = None /\ plain_spec (s_ "@foo") = true
  /\ resolve (fun _ => false) w_nameless_fs KRequire [] [] (s_ "@foo") = RFile (pw_ ["node_modules"; "@foo"; "index.js"])
  /\ require_resolve (fun _ => false) w_nameless_fs [] [] (s_ "@foo") = NFile (pw_ ["node_modules"; "@foo"; "index.js"]).
Proof. exact nameless_self_reference_agrees. Qed.
Print Assumptions fixed_nameless_self_reference_witness.

(* ES-module entry (import): relative and absolute specifiers, every file
   system, no hypothesis: whenever Node's ESM_RESOLVE resolves (no extension
   search, no directory index), esbuild resolves to the same file.
   Bare and "#" specifiers of import: import_package_resolve_partial /
   import_imports_resolve_partial below. *)
Theorem import_relative_partial : forall builtin fs user dir x,
  builtin x = false -> is_package_path x = false ->
  agree_import (resolve builtin fs KImport user dir x) (import_resolve builtin fs user dir x).
Proof. exact import_relative_all. Qed.
Print Assumptions import_relative_partial.

(* the import statement for bare specifiers is FALSE of the faithful model
   without the "no shadowing file" hypothesis (finding D14, replayed by the
   harness witness "import-file-shadows-package-directory") *)
Theorem import_resolve_eq_refuted_file_shadows_package :
  wf_fsb w_shadow_fs = true /\ no_tsb w_shadow_fs = true /\ no_case_collision w_shadow_fs = true
  /\ bare_ok (s_ "dep") = true
  /\ resolve (fun _ => false) w_shadow_fs KImport [] [] (s_ "dep") = RFile (pw_ ["node_modules"; "dep.js"])
  /\ import_resolve (fun _ => false) w_shadow_fs [] [] (s_ "dep") = NFile (pw_ ["node_modules"; "dep"; "main.js"])
  /\ require_resolve (fun _ => false) w_shadow_fs [] [] (s_ "dep") = NFile (pw_ ["node_modules"; "dep.js"]).
Proof. exact refuted_import_file_shadows_package. Qed.
Print Assumptions import_resolve_eq_refuted_file_shadows_package.

(* ES-module entry, bare and "#" specifiers: loadNodeModules (import kind)
   against PACKAGE_RESOLVE / PACKAGE_SELF_RESOLVE / PACKAGE_IMPORTS_RESOLVE with
   the legacy main lookup, every finite file system.
   [agree_import]: Node's import resolves to p => esbuild resolves to p; Node
   rejects (exports/imports map, invalid specifier) => esbuild refuses; builtin =>
   builtin; nothing is required when Node only fails to find a file (esbuild
   probes extensions and directory indexes for import too).
   Further hypotheses (beyond those of package_resolve_eq_partial):
     no_nested_nm      no node_modules directory directly inside a node_modules directory
                       (Node's ESM walk looks there, esbuild skips it);
     no_module_file    D14: no file node_modules/<name>(.js|.json|.node) next to or instead
                       of the package directory;
     for "#": the package scope has an "imports" map (otherwise Node answers Package Import
     Not Defined while esbuild goes on to node_modules/#...), builtin x = false. *)
Theorem import_package_resolve_partial : forall builtin fs, wf_fs fs -> no_ts_rewrite fs -> no_nested_nm fs ->
  no_case_collision fs = true ->
  forall user dir x,
  is_package_path x = true -> prefixb [ch_hash] x = false ->
  bare_ok x = true -> pkgs_ok fs x -> no_module_file fs x ->
  agree_import (resolve builtin fs KImport user dir x) (import_resolve builtin fs user dir x).
Proof. exact (fun b fs Hw Ht Hn _ => import_bare_all b fs Hw Ht Hn). Qed.
Print Assumptions import_package_resolve_partial.

Theorem import_imports_resolve_partial : forall builtin fs, wf_fs fs -> no_ts_rewrite fs -> no_nested_nm fs ->
  no_case_collision fs = true ->
  forall user dir x pdir pk im,
  is_package_path x = true -> prefixb [ch_hash] x = true -> builtin x = false ->
  package_scope fs (length dir) dir = Some (pdir, pk) -> pk_imports pk = Some im ->
  pkgs_imports_ok fs x -> import_remap_ok builtin fs user x ->
  agree_import (resolve builtin fs KImport user dir x) (import_resolve builtin fs user dir x).
Proof. exact (fun b fs Hw Ht Hn _ => import_imports_all b fs Hw Ht Hn). Qed.
Print Assumptions import_imports_resolve_partial.

Theorem import_hypotheses_are_decidable : forall fs x,
  (no_nested_nmb fs = true -> no_nested_nm fs) /\ (no_module_fileb fs x = true -> no_module_file fs x).
Proof. exact (fun fs x => conj (no_nested_nmb_sound fs) (no_module_fileb_sound fs x)). Qed.
Print Assumptions import_hypotheses_are_decidable.

(* without "the scope has an imports map" the "#" statement for import is false of
   the faithful model (finding D15, harness witness "import-hash-specifier-without-imports-map") *)
Theorem import_imports_refuted_without_imports_map :
  wf_fsb w_hash_fs = true /\ no_tsb w_hash_fs = true /\ no_nested_nmb w_hash_fs = true
  /\ resolve (fun _ => false) w_hash_fs KImport [] [] (s_ "#x") = RFile (pw_ ["node_modules"; "#x"; "index.js"])
  /\ import_resolve (fun _ => false) w_hash_fs [] [] (s_ "#x") = NRejected EImportNotDefined.
Proof. exact refuted_import_hash_without_imports. Qed.
Print Assumptions import_imports_refuted_without_imports_map.
