From V Require Import Common.Base C11.Str C11.EsbuildResolve C11.NodeSpec C11.SortLemmas C11.Scope C11.ResolveProofs C11.Walk C11.NodeWalkSpec C11.WalkProofs C11.CondsExt C11.WalkCore C11.WalkMain C11.WalkImport.
Local Open Scope string_scope.
(* non-vacuity: concrete non-trivial values meeting each theorem's hypotheses *)
Example name_ex : parse_package_name (s_ "@scope/pkg/lib/a.js") = Some (s_ "@scope/pkg", s_ "./lib/a.js").
Proof. vm_compute. reflexivity. Qed.

(* a realistic exports map: main entry with nested conditions, overlapping
   patterns, a null-blocked directory, an array fallback with an invalid first item *)
Definition ex_exports : json :=
  JObj [ (s_ ".", JObj [(s_ "import", JStr (s_ "./esm/index.mjs"));
                        (s_ "node", JObj [(s_ "require", JStr (s_ "./cjs/index.cjs"))]);
                        (s_ "default", JStr (s_ "./index.js"))]);
         (s_ "./package.json", JStr (s_ "./package.json"));
         (s_ "./features/*", JStr (s_ "./src/features/*.js"));
         (s_ "./features/*.js", JObj [(s_ "require", JNull); (s_ "default", JStr (s_ "./src/features/*.js"))]);
         (s_ "./features/internal/*", JNull);
         (s_ "./fo*", JArr [JStr (s_ "lib/bad.js"); JStr (s_ "./lib/fo*.js")]) ].

Example scope_ex1 : in_scope_exports ex_exports (s_ "./features/a/b.js") = true.
Proof. vm_compute. reflexivity. Qed.
Example resolve_ex1 :
  outcome_of_model (exports_resolve slash_s (s_ "./features/a/b.js") (parse_top ex_exports) [s_ "node"; s_ "import"])
  = OResolved (s_ "/src/features/a/b.js").
Proof. vm_compute. reflexivity. Qed.
Example scope_ex2 : in_scope_exports ex_exports (s_ "./features/internal/x") = true
  /\ node_exports_resolve ex_exports (s_ "./features/internal/x") [s_ "node"; s_ "require"] = ORefused ENotExported.
Proof. split; vm_compute; reflexivity. Qed.
Example scope_ex3 : in_scope_exports ex_exports (s_ ".") = true
  /\ node_exports_resolve ex_exports (s_ ".") [s_ "node"; s_ "require"] = OResolved (s_ "/cjs/index.cjs").
Proof. split; vm_compute; reflexivity. Qed.
Example scope_ex4 : in_scope_exports ex_exports (s_ "./foo") = true
  /\ node_exports_resolve ex_exports (s_ "./foo") [] = OResolved (s_ "/lib/foo.js").
Proof. split; vm_compute; reflexivity. Qed.

Definition ex_imports : json :=
  JObj [ (s_ "#dep", JObj [(s_ "node", JStr (s_ "dep-pkg")); (s_ "default", JStr (s_ "./polyfill.js"))]);
         (s_ "#internal/*", JStr (s_ "./src/internal/*.js")) ].
Example scope_ex5 : in_scope_imports ex_imports (s_ "#internal/a/b") = true
  /\ node_imports_resolve (s_ "#internal/a/b") ex_imports [s_ "import"] = OResolved (s_ "/src/internal/a/b.js")
  /\ in_scope_imports ex_imports (s_ "#dep") = true
  /\ node_imports_resolve (s_ "#dep") ex_imports [s_ "node"] = OPackageResolve (s_ "dep-pkg").
Proof. repeat split; vm_compute; reflexivity. Qed.

(* target_resolve_eq_partial: a pattern match and a target that meet pm_ok / json_ok *)
Example target_ex : pm_ok_opt (Some (s_ "a/b")) = true
  /\ json_ok false (JObj [(s_ "import", JStr (s_ "./esm/*.mjs")); (s_ "default", JStr (s_ "./lib/*.js"))]) = true.
Proof. split; vm_compute; reflexivity. Qed.

(* pattern_order_eq: overlapping pattern keys, most specific first *)
Example order_ex :
  map fst (isort_by less [(s_ "./a*", 1); (s_ "./a*b", 2); (s_ "./ab*", 3); (s_ "./*", 4)])
  = [s_ "./ab*"; s_ "./a*b"; s_ "./a*"; s_ "./*"].
Proof. vm_compute. reflexivity. Qed.

(* the scope predicates do exclude the witnesses of the open findings ... *)
Example scope_excludes :
  in_scope_exports w_pattern_base (s_ "./foo") = false /\ in_scope_exports w_dup (s_ "./a") = false
  /\ in_scope_exports w_index (s_ "./a") = false
  /\ in_scope_imports w_hash_slash (s_ "#/a") = false /\ in_scope_imports w_url_target (s_ "#fs") = false.
Proof. repeat split; vm_compute; reflexivity. Qed.
(* ... and the witnesses of D2 / D4, which are repaired in /repo, are inside the domain *)
Example scope_includes_repaired :
  in_scope_exports w_upper (s_ "./x") = true /\ in_scope_exports w_pct (s_ "./x") = true
  /\ in_scope_exports w_star_all (s_ "./../secret.js") = true
  /\ in_scope_exports w_star_all (s_ "./node_modules/s.js") = true
  /\ in_scope_exports w_mixed (s_ "./a") = true /\ in_scope_imports w_imports_mixed (s_ "#a") = true.
Proof. repeat split; vm_compute; reflexivity. Qed.

(* keys with several "*" and empty-segment-free odd layouts are inside the domain *)
Definition ex_multi : json :=
  JObj [ (s_ "./a*b*", JStr (s_ "./1/*.js")); (s_ "./a*", JStr (s_ "./2/*.js")); (s_ "./a*c", JStr (s_ "./3/*.js")) ].
Example scope_multi : in_scope_exports ex_multi (s_ "./axc") = true
  /\ node_exports_resolve ex_multi (s_ "./axc") [] = OResolved (s_ "/3/x.js").
Proof. split; vm_compute; reflexivity. Qed.

(* each refuted witness keeps the documented and fragment parts and loses
   exactly the "no refuted shape" part, through its own detector *)
Example witness_shapes :
  (documented_ok w_pattern_base (s_ "./foo") && fragment_ok w_pattern_base (s_ "./foo")
   && negb (no_refuted_shape false w_pattern_base (s_ "./foo")) && shape_pattern_base (s_ "./foo") (s_ "./foo*")
   && documented_ok w_dup (s_ "./a") && fragment_ok w_dup (s_ "./a") && negb (no_refuted_shape false w_dup (s_ "./a"))
   && documented_ok w_index (s_ "./a") && fragment_ok w_index (s_ "./a") && negb (no_refuted_shape false w_index (s_ "./a"))
   && documented_ok w_hash_slash (s_ "#/a") && fragment_ok w_hash_slash (s_ "#/a")
   && negb (no_refuted_shape true w_hash_slash (s_ "#/a")) && shape_hash_slash (s_ "#/a")
   && documented_ok w_url_target (s_ "#fs") && fragment_ok w_url_target (s_ "#fs")
   && negb (no_refuted_shape true w_url_target (s_ "#fs")) && shape_url_target true (s_ "node:fs")) = true.
Proof. vm_compute. reflexivity. Qed.

Example ordinary_ex : ordinary_path (s_ "lib/a.b/c-d.js") = true /\ ordinary_path (s_ "lib//x.js") = false.
Proof. split; vm_compute; reflexivity. Qed.

(* second layer: a small tree meeting wf_fs / no_ts_rewrite, with main, index,
   extension probing, a nested node_modules and an exports map *)
Definition p_ (l : list String.string) : path := map s_ l.
Definition ex_fs : fsmap :=
  [ (p_ [], EDir (Some (mkPkg (Some (s_ "app")) None None None)));
    (p_ ["src"], EDir None); (p_ ["src"; "main.js"], EFile); (p_ ["src"; "util.js"], EFile);
    (p_ ["src"; "data.json"], EFile); (p_ ["src"; "dir"], EDir None); (p_ ["src"; "dir"; "index.js"], EFile);
    (p_ ["src"; "lib"], EDir (Some (mkPkg None (Some (s_ "./entry")) None None))); (p_ ["src"; "lib"; "entry.js"], EFile);
    (p_ ["node_modules"], EDir None);
    (p_ ["node_modules"; "dep"], EDir (Some (mkPkg (Some (s_ "dep")) None (Some ex_exports) None)));
    (p_ ["node_modules"; "dep"; "src"], EDir None); (p_ ["node_modules"; "dep"; "src"; "features"], EDir None);
    (p_ ["node_modules"; "dep"; "src"; "features"; "a.js"], EFile) ].
Example ex_fs_ok : wf_fsb ex_fs = true /\ no_tsb ex_fs = true.
Proof. split; vm_compute; reflexivity. Qed.
Example ex_fs_relative :
  require_resolve (fun _ => false) ex_fs [] (p_ ["src"]) (s_ "./util") = NFile (p_ ["src"; "util.js"])
  /\ require_resolve (fun _ => false) ex_fs [] (p_ ["src"]) (s_ "./dir") = NFile (p_ ["src"; "dir"; "index.js"])
  /\ require_resolve (fun _ => false) ex_fs [] (p_ ["src"]) (s_ "./lib") = NFile (p_ ["src"; "lib"; "entry.js"])
  /\ require_resolve (fun _ => false) ex_fs [] (p_ ["src"; "dir"]) (s_ "../data") = NFile (p_ ["src"; "data.json"]).
Proof. repeat split; vm_compute; reflexivity. Qed.
(* a bare specifier through the exports map, on the same tree *)
Example ex_fs_bare :
  resolve (fun _ => false) ex_fs KRequire [] (p_ ["src"]) (s_ "dep/features/a")
  = RFile (p_ ["node_modules"; "dep"; "src"; "features"; "a.js"])
  /\ require_resolve (fun _ => false) ex_fs [] (p_ ["src"]) (s_ "dep/features/a")
  = NFile (p_ ["node_modules"; "dep"; "src"; "features"; "a.js"]).
Proof. split; vm_compute; reflexivity. Qed.

(* the detectors of the two object shapes fire on their witnesses, at the exact object *)
Example witness_object_shapes :
  (shape_dup_key [(s_ "./a", JStr (s_ "./x.js")); (s_ "./a", JStr (s_ "./y.js"))]
   && negb (shape_index_key [(s_ "./a", JStr (s_ "./x.js")); (s_ "./a", JStr (s_ "./y.js"))])
   && shape_index_key [(s_ "0", JStr (s_ "./x.js")); (s_ "default", JStr (s_ "./y.js"))]
   && negb (shape_dup_key [(s_ "0", JStr (s_ "./x.js")); (s_ "default", JStr (s_ "./y.js"))])) = true.
Proof. vm_compute. reflexivity. Qed.

(* package_resolve_eq_partial: its hypotheses hold on the example tree for a bare specifier *)
Example ex_fs_bare_hyps :
  wf_fsb ex_fs = true /\ no_tsb ex_fs = true /\ no_case_collision ex_fs = true
  /\ bare_ok (s_ "dep/features/a") = true /\ is_package_path (s_ "dep/features/a") = true
  /\ in_scope_exports ex_exports (subpath_of (s_ "dep/features/a")) = true.
Proof. destruct ex_fs_ok as [Hwf Hts]. repeat split; try assumption; vm_compute; reflexivity. Qed.
Example ex_fs_pkgs_ok : pkgs_ok ex_fs (s_ "dep/features/a").
Proof.
  apply pkgs_ok_entries. repeat apply Forall_cons; try apply Forall_nil; try exact I.
  all: intros ex E; cbn in E; try discriminate E.
  injection E as <-. split; [discriminate | apply ex_fs_bare_hyps].
Qed.
(* ES-module entry: no extension search, legacy main *)
Example ex_fs_import :
  import_resolve (fun _ => false) ex_fs [] (p_ ["src"]) (s_ "./util") = NNotFound
  /\ import_resolve (fun _ => false) ex_fs [] (p_ ["src"]) (s_ "./util.js") = NFile (p_ ["src"; "util.js"])
  /\ import_resolve (fun _ => false) ex_fs [] (p_ ["src"]) (s_ "dep/features/a")
     = NFile (p_ ["node_modules"; "dep"; "src"; "features"; "a.js"]).
Proof. repeat split; vm_compute; reflexivity. Qed.

(* import_package_resolve_partial: the extra hypotheses hold on the example tree and fail on the D14 witness *)
Example ex_fs_import_hyps :
  no_nested_nmb ex_fs = true /\ no_module_fileb ex_fs (s_ "dep/features/a") = true
  /\ no_module_fileb w_shadow_fs (s_ "dep") = false /\ no_nested_nmb w_shadow_fs = true.
Proof. repeat split; vm_compute; reflexivity. Qed.
