(* C11: the specification's result depends on the condition list only through
   membership ("default" always applies): lists with the same members give the
   same resolution.  Used to connect esbuild's condition sets (NewResolver) with
   Node's ["node"; "require" / "import"] ++ user conditions. *)
From V Require Import Common.Base C11.Str C11.EsbuildResolve C11.NodeSpec C11.SortLemmas C11.Scope
     C11.ResolveProofs C11.Walk C11.NodeWalkSpec.
Local Open Scope string_scope.
Local Open Scope Z_scope.

Definition cond_equiv (c1 c2 : list str) : Prop :=
  forall k, (str_eqb k (s_ "default") || mem_str k c1) = (str_eqb k (s_ "default") || mem_str k c2).

Lemma cond_loop_ext f1 f2 c1 c2 kvs :
  cond_equiv c1 c2 -> Forall (fun kv => f1 (snd kv) = f2 (snd kv)) kvs ->
  cond_loop f1 c1 kvs = cond_loop f2 c2 kvs.
Proof.
  intros Hc H. induction H as [|[k v] r Hv _ IH]; [reflexivity|].
  cbn [cond_loop snd] in *. rewrite (Hc k), Hv, IH. reflexivity.
Qed.

Lemma fallback_loop_ext f1 f2 l :
  Forall (fun v => f1 v = f2 v) l -> forall last, fallback_loop f1 l last = fallback_loop f2 l last.
Proof.
  induction 1 as [|v r Hv _ IH]; intros last; [reflexivity|].
  cbn [fallback_loop]. rewrite Hv. destruct (f2 v) as [| | | |[]|]; rewrite ?IH; reflexivity.
Qed.

Lemma target_resolve_spec_ext c1 c2 pm imp :
  cond_equiv c1 c2 -> forall j, target_resolve_spec j pm imp c1 = target_resolve_spec j pm imp c2.
Proof.
  intros Hc. induction j as [| s | | l IH | kvs IH] using json_ind'; try reflexivity.
  - cbn [target_resolve_spec]. destruct l; [reflexivity|]. apply fallback_loop_ext. exact IH.
  - cbn [target_resolve_spec]. destruct (existsb _ kvs); [reflexivity|].
    apply cond_loop_ext; assumption.
Qed.

Lemma expansion_loop_spec_ext c1 c2 mk imp :
  cond_equiv c1 c2 -> forall eks, expansion_loop_spec mk eks imp c1 = expansion_loop_spec mk eks imp c2.
Proof.
  intros Hc. induction eks as [|[k v] r IH]; [reflexivity|].
  cbn [expansion_loop_spec]. rewrite IH. destruct (index_byte ch_star k); [|reflexivity]. cbv zeta.
  destruct (prefixb _ mk && _); [|reflexivity]. destruct (_ || _); [|reflexivity].
  apply target_resolve_spec_ext. exact Hc.
Qed.

Lemma imports_exports_resolve_spec_ext c1 c2 mk obj imp :
  cond_equiv c1 c2 -> imports_exports_resolve_spec mk obj imp c1 = imports_exports_resolve_spec mk obj imp c2.
Proof.
  intros Hc. unfold imports_exports_resolve_spec.
  destruct (if negb (has_byte ch_star mk) then assoc_first mk obj else None).
  - apply target_resolve_spec_ext. exact Hc.
  - apply expansion_loop_spec_ext. exact Hc.
Qed.

Lemma node_exports_resolve_ext c1 c2 ex sub :
  cond_equiv c1 c2 -> node_exports_resolve ex sub c1 = node_exports_resolve ex sub c2.
Proof.
  intros Hc. unfold node_exports_resolve. destruct (ends_with_slash sub); [reflexivity|].
  generalize (norm ex). intros j. unfold exports_resolve_spec.
  destruct (existsb _ _ && existsb _ _); [reflexivity|].
  destruct (str_eqb sub (s_ ".")).
  - destruct (match j with JNull => _ | _ => _ end) as [m|]; [|reflexivity].
    rewrite (target_resolve_spec_ext c1 c2 _ _ Hc). reflexivity.
  - destruct j; try reflexivity.
    rewrite (imports_exports_resolve_spec_ext c1 c2 _ _ _ Hc). reflexivity.
Qed.

Lemma node_imports_resolve_ext c1 c2 im sp :
  cond_equiv c1 c2 -> node_imports_resolve sp im c1 = node_imports_resolve sp im c2.
Proof.
  intros Hc. unfold node_imports_resolve. destruct (ends_with_slash sp); [reflexivity|].
  unfold imports_resolve_spec.
  destruct (str_eqb sp (s_ "#") || _); [reflexivity|].
  destruct (norm im); try reflexivity.
  rewrite (imports_exports_resolve_spec_ext c1 c2 _ _ _ Hc). reflexivity.
Qed.

Lemma mem_str_app k a b : mem_str k (a ++ b) = mem_str k a || mem_str k b.
Proof. unfold mem_str. apply existsb_app. Qed.

(* esbuild's esmConditionsRequire / esmConditionsImport have the same members as
   Node's condition list for require / import *)
Lemma conds_require_equiv user : cond_equiv (conds_of KRequire user) (cjs_conds user).
Proof.
  intros k. unfold conds_of, cjs_conds. rewrite !mem_str_app. cbn [mem_str existsb].
  destruct (str_eqb k (s_ "default")), (str_eqb k (s_ "require")), (str_eqb k (s_ "node")), (mem_str k user); reflexivity.
Qed.

Lemma conds_import_equiv user : cond_equiv (conds_of KImport user) (esm_conds user).
Proof.
  intros k. unfold conds_of, esm_conds. rewrite !mem_str_app. cbn [mem_str existsb].
  destruct (str_eqb k (s_ "default")), (str_eqb k (s_ "import")), (str_eqb k (s_ "node")), (mem_str k user); reflexivity.
Qed.
