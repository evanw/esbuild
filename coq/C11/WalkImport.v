(* C11, second layer, ES-module entry: loadNodeModules (import kind) against
   PACKAGE_RESOLVE / PACKAGE_SELF_RESOLVE / PACKAGE_IMPORTS_RESOLVE. *)
From V Require Import Common.Base C11.Str C11.EsbuildResolve C11.NodeSpec C11.SortLemmas C11.Scope
     C11.ResolveProofs C11.Walk C11.NodeWalkSpec C11.WalkProofs C11.CondsExt C11.WalkCore C11.WalkMain.
Local Open Scope string_scope.
Local Open Scope Z_scope.

Lemma agree_weaken m n : agree m n -> agree_import m n.
Proof. destruct n; cbn; auto. Qed.

Lemma take_until_split c s :
  s = take_until c s ++ match drop_until c s with Some r => c :: r | None => [] end.
Proof.
  induction s as [|x r IH]; [reflexivity|]. cbn [take_until drop_until].
  destruct (x =? c) eqn:E.
  - apply Z.eqb_eq in E. subst. reflexivity.
  - cbn [app]. f_equal. exact IH.
Qed.

(* package_name_spec x = Some (name, sub): x = name ++ rest, sub = "." ++ rest, rest = "" or "/..." *)
Lemma name_split x name sub :
  package_name_spec x = Some (name, sub) ->
  exists rest, x = name ++ rest /\ sub = ch_dot :: rest /\ (rest = [] \/ exists r, rest = ch_slash :: r).
Proof.
  unfold package_name_spec. destruct x as [|c0 x']; [discriminate|]. set (x := c0 :: x').
  assert (Hfin : forall n rest, x = n ++ rest -> (rest = [] \/ exists r, rest = ch_slash :: r) ->
            (if prefixb (s_ ".") n || has_byte ch_bslash n || has_byte ch_pct n then None
             else Some (n, s_ "." ++ skipn (length n) x)) = Some (name, sub) ->
            exists rest, x = name ++ rest /\ sub = ch_dot :: rest /\ (rest = [] \/ exists r, rest = ch_slash :: r)).
  { intros n rest Hx Hr H. destruct (prefixb (s_ ".") n || has_byte ch_bslash n || has_byte ch_pct n); [discriminate|].
    injection H as <- <-. exists rest. split; [exact Hx|]. split; [|exact Hr].
    rewrite Hx at 1. rewrite skipn_app_exact. reflexivity. }
  destruct (negb (c0 =? ch_at)).
  - apply (Hfin (take_until ch_slash x) (match drop_until ch_slash x with Some r => ch_slash :: r | None => [] end)).
    + apply take_until_split.
    + destruct (drop_until ch_slash x); [right; eexists; reflexivity|left; reflexivity].
  - destruct (drop_until ch_slash x) as [rest1|] eqn:Ed; [|discriminate].
    apply (Hfin (take_until ch_slash x ++ ch_slash :: take_until ch_slash rest1)
                (match drop_until ch_slash rest1 with Some r => ch_slash :: r | None => [] end)).
    + rewrite <- app_assoc. cbn [app]. rewrite <- (take_until_split ch_slash rest1).
      pose proof (take_until_split ch_slash x) as H. rewrite Ed in H. exact H.
    + destruct (drop_until ch_slash rest1); [right; eexists; reflexivity|left; reflexivity].
Qed.

Lemma split_on_app_sep f a c r :
  f c = true -> split_on f (a ++ c :: r) = split_on f a ++ split_on f r.
Proof.
  intros Hc. induction a as [|x a IH].
  - cbn [app split_on]. rewrite Hc. reflexivity.
  - cbn [app split_on]. destruct (f x).
    + rewrite IH. reflexivity.
    + rewrite IH. destruct (split_on f a) as [|seg segs] eqn:E; [exfalso; eapply split_on_nonempty; eauto|].
      reflexivity.
Qed.

Lemma spec_layout x pkgdir :
  bare_ok x = true ->
  (spec_segs x = spec_segs (name_of x) /\ str_eqb (subpath_of x) (s_ ".") = true)
  \/ (exists r0, spec_segs x = spec_segs (name_of x) ++ spec_segs r0
                  /\ str_eqb (subpath_of x) (s_ ".") = false
                  /\ join_rel pkgdir (subpath_of x) = pkgdir ++ spec_segs r0).
Proof.
  intros Hbare. destruct (bare_facts x Hbare) as (Hn & _ & Hpx & _).
  destruct (name_split _ _ _ Hn) as (rest & Hx & Hsub & [-> | [r0 ->]]).
  - left. rewrite app_nil_r in Hx. rewrite Hsub. split; [rewrite Hx at 1; reflexivity|reflexivity].
  - right. exists r0.
    assert (Hs : spec_segs x = spec_segs (name_of x) ++ spec_segs r0).
    { unfold spec_segs. rewrite Hx at 1. apply split_on_app_sep. reflexivity. }
    split; [exact Hs|]. split; [rewrite Hsub; reflexivity|].
    rewrite Hsub. unfold join_rel.
    change (split_on (Z.eqb ch_slash) (ch_dot :: ch_slash :: r0)) with ([ch_dot] :: split_on (Z.eqb ch_slash) r0).
    cbn [walk_segs]. change (str_eqb [ch_dot] [] || str_eqb [ch_dot] [ch_dot]) with true. cbv iota.
    rewrite walk_segs_ordinary, rev_involutive; [reflexivity|].
    unfold plain_spec in Hpx. fold (spec_segs x) in Hpx. rewrite Hs, forallb_app in Hpx.
    apply andb_true_iff in Hpx as [_ H]. exact H.
Qed.

(* a level of the CommonJS walk against an answer of import's PACKAGE_RESOLVE:
   whatever agrees with what the level finds agrees with the answer, and where
   the level finds nothing the answer claims nothing *)
Definition covers (here : option nres) (n : nres) : Prop :=
  match here with
  | Some n' => forall m, agree m n' -> agree_import m n
  | None => forall m, agree_import m n
  end.

Lemma covers_self n : covers (Some n) n.
Proof. intros m. apply agree_weaken. Qed.

Lemma covers_not_found here : covers here NNotFound.
Proof. destruct here; cbn; intros; exact I. Qed.

Section Import.
  Variable builtin : str -> bool.
  Variable fs : fsmap.
  Hypothesis Hwf : wf_fs fs.
  Hypothesis Hts : no_ts_rewrite fs.
  (* no node_modules directory directly inside a node_modules directory: Node's
     ESM walk looks there, esbuild (and Node's CommonJS loader) skip it *)
  Definition no_nested_nm : Prop :=
    forall d, str_eqb (base_name d) node_modules_s = true -> isdir fs (d ++ [node_modules_s]) = false.
  Hypothesis Hnn : no_nested_nm.

  Variable user : list str.
  Variable x : str.
  Hypothesis Hbare : bare_ok x = true.
  Hypothesis Hpk : pkgs_ok fs x.
  (* D14: no file node_modules/<name>(.js|.json|.node) next to or instead of the package directory *)
  Definition no_module_file : Prop :=
    forall d, LOAD_AS_FILE fs (d ++ node_modules_s :: spec_segs (name_of x)) = None.
  Hypothesis Hnf : no_module_file.

  Let conds_n := esm_conds user.

  Lemma legacy_main_eq d :
    legacy_main fs d (pkg_of fs d) = match LOAD_AS_DIRECTORY fs d with Some f => NFile f | None => NNotFound end.
  Proof.
    unfold legacy_main, LOAD_AS_DIRECTORY. destruct (pkg_of fs d) as [pk|]; [|reflexivity].
    destruct (pk_main pk) as [m|]; [|reflexivity].
    destruct (LOAD_AS_FILE fs (join_rel d m)); [reflexivity|].
    destruct (LOAD_INDEX fs (join_rel d m)); reflexivity.
  Qed.

  (* what PACKAGE_RESOLVE answers at a level whose package directory exists *)
  Definition esm_level (pkgdir : path) : nres :=
    match (match pkg_of fs pkgdir with
           | Some pk => match pk_exports pk with
                        | Some ex => Some (RESOLVE_ESM_MATCH fs pkgdir
                                             (node_exports_resolve ex (subpath_of x) conds_n) (fun _ => NOut))
                        | None => None
                        end
           | None => None
           end) with
    | Some r => r
    | None => if str_eqb (subpath_of x) (s_ ".") then legacy_main fs pkgdir (pkg_of fs pkgdir)
              else esm_file_check fs (join_rel pkgdir (subpath_of x))
    end.

  Lemma esm_walk_level fuel dir :
    esm_walk fs conds_n fuel (name_of x) (subpath_of x) dir =
    let pkgdir := join_rel (dir ++ [node_modules_s]) (name_of x) in
    if isdir fs pkgdir then esm_level pkgdir
    else match fuel, dir with
         | S f, _ :: _ => esm_walk fs conds_n f (name_of x) (subpath_of x) (parent dir)
         | _, _ => NNotFound
         end.
  Proof. destruct fuel; cbn [esm_walk]; cbv zeta; unfold esm_level; destruct (isdir fs _); reflexivity. Qed.

  (* [level_spec] is what the CommonJS loader tries in one node_modules
     directory, here with import's conditions *)
  Lemma level_covers_esm dir :
    let DIR := dir ++ [node_modules_s] in
    let pkgdir := DIR ++ spec_segs (name_of x) in
    if isdir fs pkgdir then covers (level_spec fs conds_n x DIR) (esm_level pkgdir)
    else level_spec fs conds_n x DIR = None.
  Proof.
    intros DIR pkgdir.
    destruct (bare_facts x Hbare) as (Hn & Hne & Hpx & Hpn). set (name := name_of x) in *.
    assert (Hnf' : LOAD_AS_FILE fs pkgdir = None).
    { unfold pkgdir, DIR. rewrite <- app_assoc. apply Hnf. }
    pose proof (spec_layout x pkgdir Hbare) as Hsegs. fold name in Hsegs.
    unfold level_spec, LOAD_PACKAGE_EXPORTS.
    rewrite Hn, (join_rel_plain DIR name Hpn), (join_rel_plain DIR x Hpx). fold pkgdir.
    destruct (isdir fs pkgdir) eqn:Epd.
    - (* without an exports map: legacy main / exact file, which LOAD_AS_FILE / LOAD_AS_DIRECTORY find *)
      assert (Htail :
                covers (file_or_dir_spec fs (DIR ++ spec_segs x))
                  (if str_eqb (subpath_of x) (s_ ".") then legacy_main fs pkgdir (pkg_of fs pkgdir)
                   else esm_file_check fs (join_rel pkgdir (subpath_of x)))).
      { unfold file_or_dir_spec.
        destruct Hsegs as [(Hs & Hdot) | (r0 & Hs & Hdot & Hj)]; rewrite Hs, Hdot.
        - fold pkgdir. rewrite Hnf', legacy_main_eq.
          destruct (LOAD_AS_DIRECTORY fs pkgdir); [apply covers_self|apply covers_not_found].
        - rewrite Hj, app_assoc. fold pkgdir. unfold esm_file_check.
          destruct (isfile fs (pkgdir ++ spec_segs r0)) eqn:Ef; [|apply covers_not_found].
          unfold LOAD_AS_FILE. rewrite Ef. apply covers_self. }
      unfold esm_level. destruct (pkg_of fs pkgdir) as [pk|]; [|exact Htail].
      destruct (pk_exports pk) as [ex|]; [apply covers_self|exact Htail].
    - rewrite (pkg_of_nodir fs pkgdir Epd). unfold file_or_dir_spec.
      destruct Hsegs as [(Hs & _) | (r0 & Hs & _ & _)]; rewrite Hs.
      + fold pkgdir. rewrite Hnf', (LOAD_AS_DIRECTORY_nodir fs Hwf pkgdir Epd). reflexivity.
      + rewrite app_assoc. fold pkgdir.
        destruct (nothing_below fs pkgdir (under_nodir fs Hwf pkgdir Epd) (spec_segs r0) (spec_segs_nonempty r0))
          as (_ & -> & ->).
        reflexivity.
  Qed.

  (* one step of the walk over the enclosing directories: tryToResolvePackage
     finds what Node finds when the package directory exists, and nothing when
     it does not *)
  Lemma import_walk_step dir rest_m rest_n :
    agree_import (of_opt rest_m) rest_n ->
    let here := if negb (str_eqb (base_name dir) node_modules_s) && isdir fs (dir ++ [node_modules_s])
                then try_package fs KImport user (dir ++ [node_modules_s]) x else (None, false) in
    let pkgdir := (dir ++ [node_modules_s]) ++ spec_segs (name_of x) in
    agree_import (of_opt (if snd here then fst here else rest_m))
                 (if isdir fs pkgdir then esm_level pkgdir else rest_n).
  Proof.
    intros Hrest here pkgdir. subst here. set (DIR := dir ++ [node_modules_s]) in *.
    pose proof (try_package_agree fs Hwf Hts user x Hbare Hpk KImport conds_n DIR (conds_import_equiv user)) as Hm.
    unfold level_agree, stops_as in Hm.
    pose proof (level_covers_esm dir) as Hc. cbv zeta in Hc. fold DIR pkgdir in Hc.
    destruct (isdir fs pkgdir) eqn:Epd.
    - (* the package directory exists: so does node_modules, and dir is not itself a node_modules *)
      assert (HDIR : isdir fs DIR = true) by (apply (isdir_prefix fs Hwf _ _ Epd)).
      destruct (str_eqb (base_name dir) node_modules_s) eqn:Eb; [rewrite (Hnn dir Eb : isdir fs DIR = false) in HDIR; discriminate|].
      rewrite HDIR. cbn [negb andb].
      destruct (level_spec fs conds_n x DIR) as [n|].
      + destruct Hm as [-> Ha]. apply Hc, Ha.
      + rewrite Hm. apply Hc.
    - (* it does not: esbuild finds nothing here either *)
      rewrite Hc in Hm.
      destruct (negb (str_eqb (base_name dir) node_modules_s) && isdir fs DIR); [rewrite Hm|]; exact Hrest.
  Qed.

  Lemma import_walk_agree : forall fuel dir,
    agree_import (of_opt (nm_walk fs KImport user fuel dir x))
                 (esm_walk fs conds_n fuel (name_of x) (subpath_of x) dir).
  Proof.
    destruct (bare_facts x Hbare) as (_ & _ & _ & Hpn).
    induction fuel as [|f IH]; intros dir.
    all: rewrite esm_walk_level; cbn [nm_walk]; cbv zeta.
    all: rewrite (join_rel_plain _ (name_of x) Hpn); apply import_walk_step.
    - destruct dir; exact I.
    - destruct dir; [exact I|apply IH].
  Qed.

  (* loadNodeModules (forbidImports) vs PACKAGE_RESOLVE (after the builtin test) *)
  Lemma import_noimports_agree dir :
    builtin x = false ->
    agree_import (of_opt (load_node_modules_noimports fs KImport user dir x))
                 (PACKAGE_RESOLVE builtin fs conds_n x dir).
  Proof.
    intros Hbx. destruct (bare_facts x Hbare) as (Hn & _).
    unfold PACKAGE_RESOLVE. rewrite Hbx, Hn.
    apply (self_reference_or_walk fs Hts agree_import KImport user conds_n dir x _
             agree_weaken (conds_import_equiv user) Hbare Hpk).
    apply import_walk_agree.
  Qed.
End Import.

Section ImportTop.
  Variable builtin : str -> bool.
  Variable fs : fsmap.
  Hypothesis Hwf : wf_fs fs.
  Hypothesis Hts : no_ts_rewrite fs.
  Hypothesis Hnn : no_nested_nm fs.

  (* bare specifiers: ESM_RESOLVE -> PACKAGE_RESOLVE *)
  Lemma import_bare_all user dir x :
    is_package_path x = true -> prefixb [ch_hash] x = false ->
    bare_ok x = true -> pkgs_ok fs x -> no_module_file fs x ->
    agree_import (resolve builtin fs KImport user dir x) (import_resolve builtin fs user dir x).
  Proof.
    intros Hpp Hh Hbare Hpk Hnf. rewrite (resolve_package _ _ _ _ _ _ Hpp), (import_resolve_package _ _ _ _ _ Hpp Hh).
    destruct (builtin x) eqn:Eb.
    - unfold PACKAGE_RESOLVE. rewrite Eb. reflexivity.
    - unfold load_node_modules. rewrite Hh.
      apply (import_noimports_agree builtin fs Hwf Hts Hnn user x Hbare Hpk Hnf dir Eb).
  Qed.

  (* a bare target an imports map remaps to must itself satisfy the hypotheses of the bare case *)
  Definition import_remap_ok (user : list str) (x : str) : Prop :=
    forall d pk im s, pkg_of fs d = Some pk -> pk_imports pk = Some im ->
      node_imports_resolve x im (esm_conds user) = OPackageResolve s -> builtin s = false ->
      bare_ok s = true /\ pkgs_ok fs s /\ no_module_file fs s.

  (* "#" specifiers whose package scope has an "imports" map *)
  Lemma import_imports_all user dir x pdir pk im :
    is_package_path x = true -> prefixb [ch_hash] x = true -> builtin x = false ->
    package_scope fs (length dir) dir = Some (pdir, pk) -> pk_imports pk = Some im ->
    pkgs_imports_ok fs x -> import_remap_ok user x ->
    agree_import (resolve builtin fs KImport user dir x) (import_resolve builtin fs user dir x).
  Proof.
    intros Hpp Hh Hbx Hscope Him Hi Hr.
    pose proof (package_scope_pkg _ _ _ _ _ Hscope) as Hpd.
    destruct (Hi _ _ _ Hpd Him) as [Hnn' Hsc].
    destruct (in_scope_imports_true im x Hsc) as (_ & _ & Hh1 & Hhs & _).
    rewrite (resolve_package _ _ _ _ _ _ Hpp), Hbx. unfold load_node_modules.
    rewrite Hh, (nearest_is_scope fs), Hscope, (imports_of_ok fs x _ _ Hi Hpd), Him.
    unfold import_resolve.
    rewrite (relative_spec x (package_path_not_absolute x Hpp)), (package_path_not_absolute x Hpp), Hpp.
    cbn [negb]. change (s_ "#") with [ch_hash]. change (s_ "#/") with [ch_hash; ch_slash].
    rewrite Hh, Hh1, Hhs, Hscope, Him. cbn [orb].
    (* loadPackageImports vs PACKAGE_IMPORTS_RESOLVE + RESOLVE_ESM_MATCH *)
    pose proof (package_imports_core builtin fs KImport user x pdir im (esm_conds user)
                  (fun s => PACKAGE_RESOLVE builtin fs (esm_conds user) s pdir)
                  Hts Hnn' Hsc (conds_import_equiv user)) as Hcore.
    destruct (node_imports_resolve x im (esm_conds user)) as [u|s|e|] eqn:En;
      try (apply agree_weaken; exact Hcore).
    (* remapped to another package specifier *)
    rewrite Hcore. cbn [RESOLVE_ESM_MATCH].
    destruct (builtin s) eqn:Ebs; [unfold PACKAGE_RESOLVE; rewrite Ebs; reflexivity|].
    destruct (Hr _ _ _ s Hpd Him En Ebs) as (Hbs & Hps & Hnfs).
    apply (import_noimports_agree builtin fs Hwf Hts Hnn user s Hbs Hps Hnfs pdir Ebs).
  Qed.
End ImportTop.

Definition path_suffixb (sfx p : path) : bool :=
  (length sfx <=? length p)%nat && path_eqb (skipn (length p - length sfx) p) sfx.

Lemma path_eqb_refl p : path_eqb p p = true.
Proof. apply path_eqb_eq. reflexivity. Qed.

Lemma path_suffixb_app d sfx : path_suffixb sfx (d ++ sfx) = true.
Proof. unfold path_suffixb. destruct (skipn_suffix_app d sfx) as [-> ->]. apply path_eqb_refl. Qed.

Definition no_nested_nmb (fs : fsmap) : bool :=
  forallb (fun pe => negb (path_suffixb [node_modules_s; node_modules_s] (fst pe))) fs.

Lemma no_nested_nmb_sound fs : no_nested_nmb fs = true -> no_nested_nm fs.
Proof.
  intros H d Hb. destruct (isdir fs (d ++ [node_modules_s])) eqn:E; [|reflexivity]. exfalso.
  rewrite isdir_lookup in E by (destruct d; discriminate).
  destruct (lookup fs (d ++ [node_modules_s])) as [[|pk]|] eqn:El; try discriminate.
  apply (forallb_lookup _ _ _ _ H) in El. cbn [fst] in El.
  (* d ends with node_modules *)
  destruct d as [|d0 d'] using rev_ind; [discriminate Hb|].
  unfold base_name in Hb. rewrite last_last in Hb. apply str_eqb_eq in Hb. subst.
  rewrite <- app_assoc in El. cbn [app] in El. rewrite path_suffixb_app in El. discriminate.
Qed.

(* the candidates of LOAD_AS_FILE for node_modules/<name> *)
Definition module_file_suffixes (x : str) : list path :=
  let segs := node_modules_s :: spec_segs (name_of x) in
  [segs; add_ext segs (s_ ".js"); add_ext segs (s_ ".json"); add_ext segs (s_ ".node")].
Definition no_module_fileb (fs : fsmap) (x : str) : bool :=
  forallb (fun pe => match snd pe with
                     | EFile => negb (existsb (fun sfx => path_suffixb sfx (fst pe)) (module_file_suffixes x))
                     | EDir _ => true
                     end) fs.

Lemma no_module_fileb_sound fs x : no_module_fileb fs x = true -> no_module_file fs x.
Proof.
  intros H d.
  assert (Hf : forall sfx, In sfx (module_file_suffixes x) -> isfile fs (d ++ sfx) = false).
  { intros sfx Hin. unfold isfile. destruct (lookup fs (d ++ sfx)) as [[|pk]|] eqn:El; try reflexivity.
    apply (forallb_lookup _ _ _ _ H) in El. cbn [fst snd] in El. apply negb_true_iff in El.
    assert (existsb (fun s => path_suffixb s (d ++ sfx)) (module_file_suffixes x) = true).
    { apply existsb_exists. exists sfx. split; [exact Hin|apply path_suffixb_app]. }
    congruence. }
  set (segs := node_modules_s :: spec_segs (name_of x)).
  assert (Hne : segs <> []) by discriminate.
  unfold LOAD_AS_FILE. rewrite !(add_ext_app d segs _ Hne).
  rewrite (Hf segs), (Hf (add_ext segs (s_ ".js"))), (Hf (add_ext segs (s_ ".json"))), (Hf (add_ext segs (s_ ".node")));
    try reflexivity; unfold module_file_suffixes; fold segs; cbn [In]; auto.
Qed.

(* D15: for import, "#x" without an imports map in scope goes on to node_modules in esbuild *)
Definition w_hash_fs : fsmap :=
  [ (pw_ [], EDir (Some (mkPkg (Some (s_ "app")) None None None)));
    (pw_ ["node_modules"], EDir None);
    (pw_ ["node_modules"; "#x"], EDir None);
    (pw_ ["node_modules"; "#x"; "index.js"], EFile) ].
Lemma refuted_import_hash_without_imports :
  wf_fsb w_hash_fs = true /\ no_tsb w_hash_fs = true /\ no_nested_nmb w_hash_fs = true
  /\ resolve (fun _ => false) w_hash_fs KImport [] [] (s_ "#x") = RFile (pw_ ["node_modules"; "#x"; "index.js"])
  /\ import_resolve (fun _ => false) w_hash_fs [] [] (s_ "#x") = NRejected EImportNotDefined.
Proof. repeat split; vm_compute; reflexivity. Qed.
