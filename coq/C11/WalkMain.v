(* C11, second layer: loadNodeModules / loadPackageImports against
   LOAD_PACKAGE_SELF / LOAD_NODE_MODULES / LOAD_PACKAGE_IMPORTS (require).
   tryToResolvePackage at one level and the self reference do not depend on
   the kind of import but through the condition set: they are stated for both
   kinds. *)
From V Require Import Common.Base C11.Str C11.EsbuildResolve C11.NodeSpec C11.SortLemmas C11.Scope
     C11.ResolveProofs C11.Walk C11.NodeWalkSpec C11.WalkProofs C11.CondsExt C11.WalkCore.
Local Open Scope string_scope.
Local Open Scope Z_scope.

Definition plain_spec (x : str) : bool := forallb ordinary_seg (split_on (Z.eqb ch_slash) x).
Definition spec_segs (x : str) : list str := split_on (Z.eqb ch_slash) x.
Definition subpath_of (x : str) : str := match package_name_spec x with Some (_, s) => s | None => [] end.
Definition name_of (x : str) : str := match package_name_spec x with Some (n, _) => n | None => [] end.

(* a bare specifier: valid package name (excludes D13), no "", "." or ".." segment *)
Definition bare_ok (x : str) : bool :=
  match package_name_spec x with
  | Some (n, _) => negb (str_eqb n []) && plain_spec x && plain_spec n
  | None => false
  end.

(* every package.json of the tree: "exports" is not a JSON null inside [Some]
   and is in the scope of the core theorem for this specifier's subpath *)
Definition pkgs_ok (fs : fsmap) (x : str) : Prop :=
  forall d pk ex, pkg_of fs d = Some pk -> pk_exports pk = Some ex ->
    ex <> JNull /\ in_scope_exports ex (subpath_of x) = true.

Lemma pkgs_ok_entries fs x :
  Forall (fun pe => match snd pe with
                    | EDir (Some pk) => forall ex, pk_exports pk = Some ex ->
                                        ex <> JNull /\ in_scope_exports ex (subpath_of x) = true
                    | _ => True
                    end) fs ->
  pkgs_ok fs x.
Proof.
  intros H d pk ex Hd He. unfold pkg_of in Hd.
  destruct (lookup fs d) as [[|o]|] eqn:El; try discriminate. subst o.
  apply lookup_In in El. rewrite Forall_forall in H. exact (H _ El ex He).
Qed.

(* esbuild's nearest-package.json search stops at a node_modules directory
   (6e6e7fa): it is Node's package scope lookup *)
Lemma nearest_is_scope fs : forall fuel dir, nearest_pkg fs fuel dir = package_scope fs fuel dir.
Proof.
  induction fuel as [|f IH]; intros dir; cbn [nearest_pkg package_scope].
  - destruct (pkg_of fs dir), (str_eqb (base_name dir) node_modules_s); try reflexivity; destruct dir; reflexivity.
  - destruct (pkg_of fs dir), (str_eqb (base_name dir) node_modules_s); try reflexivity.
    destruct dir; [reflexivity|]. apply IH.
Qed.

(* fs.Join with a plain specifier is concatenation *)
Lemma walk_segs_ordinary segs : forall stack,
  forallb ordinary_seg segs = true -> walk_segs stack segs = rev stack ++ segs.
Proof.
  induction segs as [|g r IH]; intros stack H; cbn [walk_segs forallb] in *.
  - rewrite app_nil_r. reflexivity.
  - apply andb_true_iff in H as [Hg Hr]. destruct (ordinary_seg_true g Hg) as [-> ->].
    rewrite IH by assumption. cbn [rev]. rewrite <- app_assoc. reflexivity.
Qed.

Lemma join_rel_plain d x : plain_spec x = true -> join_rel d x = d ++ spec_segs x.
Proof.
  intros H. unfold join_rel. rewrite walk_segs_ordinary by exact H. rewrite rev_involutive. reflexivity.
Qed.

Lemma spec_segs_nonempty x : spec_segs x <> [].
Proof. apply split_on_nonempty. Qed.

(* one level of a walk over the enclosing directories: the model (result,
   shouldStop) stops exactly when the specification finds something here, with
   the same answer *)
Definition stops_as (m : option path * bool) (here : option nres) : Prop :=
  match here with
  | Some n => snd m = true /\ agree (of_opt (fst m)) n
  | None => snd m = false
  end.

Lemma walk_step m here rest_m rest_n :
  stops_as m here -> agree (of_opt rest_m) rest_n ->
  agree (of_opt (if snd m then fst m else rest_m)) (match here with Some r => r | None => rest_n end).
Proof. destruct here; [intros [-> H] _|intros -> H]; exact H. Qed.

Section Walk.
  Variable fs : fsmap.
  Hypothesis Hwf : wf_fs fs.
  Hypothesis Hts : no_ts_rewrite fs.

  (* nothing exists below a directory that does not exist *)
  Lemma under_nodir d : isdir fs d = false -> forall rest, rest <> [] -> lookup fs (d ++ rest) = None.
  Proof.
    intros Hd rest. induction rest as [|x r IH] using rev_ind; [congruence|]. intros _.
    destruct (lookup fs (d ++ r ++ [x])) as [e|] eqn:E; [|reflexivity]. exfalso.
    rewrite app_assoc in E. pose proof (Hwf _ _ _ E) as Hdir.
    destruct r as [|y r'].
    - rewrite app_nil_r in Hdir. congruence.
    - assert (Hne : y :: r' <> []) by discriminate. specialize (IH Hne).
      rewrite isdir_lookup, IH in Hdir by (destruct d; discriminate). discriminate.
  Qed.

  Lemma isdir_prefix d rest : isdir fs (d ++ rest) = true -> isdir fs d = true.
  Proof.
    intros H. destruct rest as [|r0 rest']; [rewrite app_nil_r in H; exact H|].
    destruct (isdir fs d) eqn:E; [reflexivity|]. exfalso.
    assert (Hne : r0 :: rest' <> []) by discriminate.
    rewrite isdir_lookup, (under_nodir d E _ Hne) in H by (destruct d; discriminate). discriminate.
  Qed.

  Lemma add_ext_app d rest e : rest <> [] -> add_ext (d ++ rest) e = d ++ add_ext rest e.
  Proof.
    intros H. unfold add_ext. rewrite rev_app_distr.
    destruct (rev rest) as [|l r] eqn:Er.
    - exfalso. apply H. rewrite <- (rev_involutive rest), Er. reflexivity.
    - cbn [app]. rewrite rev_app_distr, rev_involutive, <- app_assoc. reflexivity.
  Qed.

  Lemma add_ext_nonempty rest e : add_ext rest e <> [].
  Proof.
    unfold add_ext. destruct (rev rest) as [|l r]; [discriminate|].
    intro E. apply app_eq_nil in E as [_ E]. discriminate.
  Qed.

  Lemma nothing_below d :
    (forall rest, rest <> [] -> lookup fs (d ++ rest) = None) ->
    forall rest, rest <> [] ->
      pkg_of fs (d ++ rest) = None /\ LOAD_AS_FILE fs (d ++ rest) = None /\ LOAD_AS_DIRECTORY fs (d ++ rest) = None.
  Proof.
    intros H rest Hr.
    assert (Hf : forall r, r <> [] -> isfile fs (d ++ r) = false).
    { intros r Hr'. unfold isfile. rewrite (H r Hr'). reflexivity. }
    assert (Hpk : pkg_of fs (d ++ rest) = None). { unfold pkg_of. rewrite (H rest Hr). reflexivity. }
    split; [exact Hpk|]. split.
    - unfold LOAD_AS_FILE. rewrite (Hf rest Hr).
      rewrite !(add_ext_app d rest _ Hr). rewrite !Hf by apply add_ext_nonempty. reflexivity.
    - unfold LOAD_AS_DIRECTORY. rewrite Hpk. unfold LOAD_INDEX.
      rewrite <- !app_assoc. rewrite !Hf; [reflexivity| | |]; intro E; apply app_eq_nil in E as [_ E]; discriminate.
  Qed.

  (* what LOAD_NODE_MODULES tries in one directory DIR = .../node_modules:
     LOAD_PACKAGE_EXPORTS, then LOAD_AS_FILE and LOAD_AS_DIRECTORY of DIR/x *)
  Definition file_or_dir_spec (p : path) : option nres :=
    match LOAD_AS_FILE fs p with
    | Some f => Some (NFile f)
    | None => match LOAD_AS_DIRECTORY fs p with Some f => Some (NFile f) | None => None end
    end.

  Definition level_spec (conds : list str) (x : str) (DIR : path) : option nres :=
    match LOAD_PACKAGE_EXPORTS fs conds x DIR with
    | Some r => Some r
    | None => file_or_dir_spec (join_rel DIR x)
    end.

  Definition level_agree (k : ikind) (user conds : list str) (x : str) (DIR : path) : Prop :=
    stops_as (try_package fs k user DIR x) (level_spec conds x DIR).

  Lemma file_or_dir_level p :
    stops_as (match load_as_file_or_directory fs p with Some q => (Some q, true) | None => (None, false) end)
             (file_or_dir_spec p).
  Proof.
    unfold file_or_dir_spec. rewrite (load_as_file_or_directory_eq fs Hwf Hts).
    destruct (LOAD_AS_FILE fs p); [split; reflexivity|].
    destruct (LOAD_AS_DIRECTORY fs p); [split; reflexivity|reflexivity].
  Qed.

  Section Specifier.
    Variable x : str.
    Hypothesis Hpx : plain_spec x = true.
    Hypothesis Hpn : forall n s, package_name_spec x = Some (n, s) -> plain_spec n = true.

    (* the node_modules directory does not exist: nothing below it exists *)
    Lemma level_nodir conds DIR : isdir fs DIR = false -> level_spec conds x DIR = None.
    Proof.
      intros Ed. pose proof (nothing_below _ (under_nodir _ Ed)) as Hb.
      unfold level_spec, file_or_dir_spec, LOAD_PACKAGE_EXPORTS. rewrite (join_rel_plain _ x Hpx).
      destruct (Hb (spec_segs x) (spec_segs_nonempty x)) as (_ & -> & ->).
      destruct (package_name_spec x) as [[n s]|] eqn:En; [|reflexivity].
      rewrite (join_rel_plain _ n (Hpn _ _ eq_refl)).
      destruct (Hb (spec_segs n) (spec_segs_nonempty n)) as (-> & _). reflexivity.
    Qed.

    Lemma nm_walk_by_level user conds :
      (forall DIR, isdir fs DIR = true -> level_agree KRequire user conds x DIR) ->
      forall fuel dir,
      agree (of_opt (nm_walk fs KRequire user fuel dir x)) (LOAD_NODE_MODULES fs conds fuel x dir).
    Proof.
      intros Hlevel.
      assert (Hhere : forall dir,
                stops_as (if negb (str_eqb (base_name dir) node_modules_s) && isdir fs (dir ++ [node_modules_s])
                          then try_package fs KRequire user (dir ++ [node_modules_s]) x else (None, false))
                         (if str_eqb (base_name dir) node_modules_s then None
                          else level_spec conds x (dir ++ [node_modules_s]))).
      { intros dir. destruct (str_eqb (base_name dir) node_modules_s); cbn [negb andb]; [reflexivity|].
        destruct (isdir fs (dir ++ [node_modules_s])) eqn:Ed; [apply Hlevel, Ed|].
        rewrite (level_nodir conds _ Ed). reflexivity. }
      induction fuel as [|f IH]; intros dir; cbn [nm_walk LOAD_NODE_MODULES].
      all: apply walk_step; [apply Hhere|].
      - destruct dir; reflexivity.
      - destruct dir; [reflexivity|apply IH].
    Qed.
  End Specifier.

  Variable user : list str.
  Variable x : str.
  Hypothesis Hbare : bare_ok x = true.
  Hypothesis Hpk : pkgs_ok fs x.

  Let conds_n := cjs_conds user.

  Lemma bare_facts :
    package_name_spec x = Some (name_of x, subpath_of x) /\ name_of x <> [] /\
    plain_spec x = true /\ plain_spec (name_of x) = true.
  Proof.
    unfold bare_ok in Hbare. unfold name_of, subpath_of.
    destruct (package_name_spec x) as [[n s]|]; [|discriminate].
    apply andb_true_iff in Hbare as [H H3]. apply andb_true_iff in H as [H1 H2].
    repeat split; auto. intro E. subst. discriminate.
  Qed.

  Lemma exports_of_ok d pk : pkg_of fs d = Some pk -> exports_of pk = pk_exports pk.
  Proof.
    intros Hd. unfold exports_of. destruct (pk_exports pk) as [ex|] eqn:E; [|reflexivity].
    destruct (Hpk d pk ex Hd E) as [Hn _]. rewrite (parse_root_some ex Hn). reflexivity.
  Qed.

  (* one node_modules directory: tryToResolvePackage vs LOAD_PACKAGE_EXPORTS /
     LOAD_AS_FILE / LOAD_AS_DIRECTORY.  For either kind of import: what differs
     is the condition set. *)
  Lemma try_package_agree k conds DIR :
    cond_equiv (conds_of k user) conds -> level_agree k user conds x DIR.
  Proof.
    intros Hc. destruct bare_facts as (Hn & Hne & Hpx & Hpn). set (name := name_of x) in *.
    unfold level_agree, level_spec, try_package, name_and_subpath, LOAD_PACKAGE_EXPORTS.
    rewrite parse_package_name_eq_all, Hn. cbn [andb].
    destruct (pkg_of fs (join_rel DIR name)) as [pk|] eqn:Epk.
    - rewrite (pkg_of_isdir fs _ _ Epk). rewrite (exports_of_ok _ _ Epk).
      destruct (pk_exports pk) as [ex|] eqn:Eex; [|apply file_or_dir_level].
      destruct (Hpk _ _ _ Epk Eex) as [Hnn Hsc]. cbn [fst snd]. split; [reflexivity|].
      apply esm_resolve_agree; assumption.
    - destruct (isdir fs (join_rel DIR name)); apply file_or_dir_level.
  Qed.

  Lemma nm_walk_agree : forall fuel dir,
    agree (of_opt (nm_walk fs KRequire user fuel dir x)) (LOAD_NODE_MODULES fs conds_n fuel x dir).
  Proof.
    destruct bare_facts as (Hn & Hne & Hpx & Hpn).
    apply nm_walk_by_level; [exact Hpx| |intros DIR _; apply try_package_agree, conds_require_equiv].
    intros n s E. rewrite Hn in E. injection E as <- _. exact Hpn.
  Qed.
End Walk.

Section Top.
  Variable builtin : str -> bool.
  Variable fs : fsmap.
  Hypothesis Hwf : wf_fs fs.
  Hypothesis Hts : no_ts_rewrite fs.

  Lemma package_scope_pkg : forall fuel dir pdir pk,
    package_scope fs fuel dir = Some (pdir, pk) -> pkg_of fs pdir = Some pk.
  Proof.
    induction fuel as [|f IH]; intros dir pdir pk; cbn [package_scope].
    all: destruct (str_eqb (base_name dir) node_modules_s); [discriminate|].
    all: destruct (pkg_of fs dir) eqn:E; [intros H; injection H as <- <-; exact E|].
    - destruct dir; discriminate.
    - destruct dir; [discriminate|apply IH].
  Qed.

  (* loadNodeModules (forbidImports): the self reference through the "exports"
     of the enclosing package scope, else the node_modules walk.  Both of
     Node's loaders have this shape; R is [agree] for require and
     [agree_import] for import, walk_n what the loader does after the self
     reference. *)
  Lemma self_reference_or_walk (R : rres -> nres -> Prop) k user conds dir x walk_n :
    (forall m n, agree m n -> R m n) ->
    cond_equiv (conds_of k user) conds ->
    bare_ok x = true -> pkgs_ok fs x ->
    R (of_opt (nm_walk fs k user (length dir) dir x)) walk_n ->
    R (of_opt (load_node_modules_noimports fs k user dir x))
      (match
         match package_scope fs (length dir) dir with
         | Some (scope, pk) =>
             match pk_exports pk, pk_name pk with
             | Some ex, Some n =>
                 if str_eqb n (name_of x)
                 then Some (RESOLVE_ESM_MATCH fs scope (node_exports_resolve ex (subpath_of x) conds) (fun _ => NOut))
                 else None
             | _, _ => None
             end
         | None => None
         end
       with Some r => r | None => walk_n end).
  Proof.
    intros HR Hc Hbare Hpk Hwalk.
    destruct (bare_facts x Hbare) as (Hn & Hne & _ & _).
    unfold load_node_modules_noimports, name_and_subpath.
    rewrite parse_package_name_eq_all, Hn, (nearest_is_scope fs).
    destruct (package_scope fs (length dir) dir) as [[pdir pk]|] eqn:Esc; [|exact Hwalk].
    pose proof (package_scope_pkg _ _ _ _ Esc) as Hpd.
    rewrite (exports_of_ok fs x Hpk _ _ Hpd).
    destruct (pk_exports pk) as [ex|] eqn:Eex; [|exact Hwalk].
    destruct (Hpk _ _ _ Hpd Eex) as [Hnn Hsc].
    destruct (pk_name pk) as [n|].
    - destruct (str_eqb n (name_of x)); [|exact Hwalk].
      apply HR, esm_resolve_agree; assumption.
    - (* a package.json without a name: "" is not the name of x *)
      replace (str_eqb [] (name_of x)) with false by (destruct (name_of x); [contradiction|reflexivity]).
      exact Hwalk.
  Qed.

  Lemma noimports_agree user x dir :
    bare_ok x = true -> pkgs_ok fs x ->
    agree (of_opt (load_node_modules_noimports fs KRequire user dir x))
          (cjs_package fs (cjs_conds user) x dir).
  Proof.
    intros Hbare Hpk. destruct (bare_facts x Hbare) as (Hn & _).
    unfold cjs_package, LOAD_PACKAGE_SELF. rewrite Hn.
    apply (self_reference_or_walk agree KRequire user (cjs_conds user) dir x _
             (fun _ _ H => H) (conds_require_equiv user) Hbare Hpk).
    apply nm_walk_agree; assumption.
  Qed.

  (* every package.json: "imports" is in the scope of the core theorem for x *)
  Definition pkgs_imports_ok (x : str) : Prop :=
    forall d pk im, pkg_of fs d = Some pk -> pk_imports pk = Some im ->
      im <> JNull /\ in_scope_imports im x = true.
  (* a bare target of an imports map is itself a specifier in scope, and not a
     builtin name: for require Node fails on "#x" -> "fs" (fileURLToPath of the
     node: URL throws) while esbuild answers the builtin; that is no resolution
     and no rejection by the map, so the property is silent there *)
  Definition remap_ok (user : list str) (x : str) : Prop :=
    forall d pk im s, pkg_of fs d = Some pk -> pk_imports pk = Some im ->
      node_imports_resolve x im (cjs_conds user) = OPackageResolve s ->
      builtin s = false /\ bare_ok s = true /\ pkgs_ok fs s.

  Lemma imports_of_ok x d pk : pkgs_imports_ok x -> pkg_of fs d = Some pk -> imports_of pk = pk_imports pk.
  Proof.
    intros Hi Hd. unfold imports_of. destruct (pk_imports pk) as [im|] eqn:E; [|reflexivity].
    destruct (Hi d pk im Hd E) as [Hn _]. rewrite (parse_root_imports_some im Hn). reflexivity.
  Qed.

  (* loadPackageImports vs LOAD_PACKAGE_IMPORTS *)
  Lemma package_imports_agree user x pdir pk im :
    pkgs_imports_ok x -> remap_ok user x -> pkg_of fs pdir = Some pk -> pk_imports pk = Some im ->
    agree (load_package_imports builtin fs KRequire user x pdir im)
          (RESOLVE_ESM_MATCH fs pdir (node_imports_resolve x im (cjs_conds user))
             (fun s => if builtin s then NNotFound else cjs_package fs (cjs_conds user) s pdir)).
  Proof.
    intros Hi Hr Hpd Him. destruct (Hi _ _ _ Hpd Him) as [Hnn Hsc].
    pose proof (package_imports_core builtin fs KRequire user x pdir im (cjs_conds user)
                  (fun s => if builtin s then NNotFound else cjs_package fs (cjs_conds user) s pdir)
                  Hts Hnn Hsc (conds_require_equiv user)) as Hcore.
    destruct (node_imports_resolve x im (cjs_conds user)) as [u|s|e|] eqn:En; try exact Hcore.
    (* remapped to another package specifier *)
    rewrite Hcore. cbn [RESOLVE_ESM_MATCH].
    destruct (Hr _ _ _ s Hpd Him En) as (-> & Hbs & Hps). apply noimports_agree; assumption.
  Qed.

  Lemma package_resolve_bare_all user dir x :
    is_package_path x = true -> prefixb [ch_hash] x = false ->
    bare_ok x = true -> pkgs_ok fs x ->
    agree (resolve builtin fs KRequire user dir x) (require_resolve builtin fs user dir x).
  Proof.
    intros Hpp Hh Hbare Hpk. rewrite resolve_package, require_resolve_package by exact Hpp.
    destruct (builtin x); [reflexivity|].
    unfold load_node_modules. rewrite Hh. apply noimports_agree; assumption.
  Qed.

  Lemma package_resolve_imports_all user dir x :
    is_package_path x = true -> prefixb [ch_hash] x = true ->
    pkgs_imports_ok x -> remap_ok user x ->
    bare_ok x = true -> pkgs_ok fs x ->      (* only used when the scope has no "imports" *)
    agree (resolve builtin fs KRequire user dir x) (require_resolve builtin fs user dir x).
  Proof.
    intros Hpp Hh Hi Hr Hbare Hpk. rewrite resolve_package, require_resolve_package by exact Hpp.
    destruct (builtin x); [reflexivity|].
    unfold load_node_modules, LOAD_PACKAGE_IMPORTS. rewrite Hh, (nearest_is_scope fs).
    destruct (package_scope fs (length dir) dir) as [[pdir pk]|] eqn:Esc; [|apply noimports_agree; assumption].
    pose proof (package_scope_pkg _ _ _ _ Esc) as Hpd.
    rewrite (imports_of_ok x _ _ Hi Hpd).
    destruct (pk_imports pk) as [im|] eqn:Eim; [|apply noimports_agree; assumption].
    apply (package_imports_agree user x pdir pk im); assumption.
  Qed.
End Top.

(* D13 is repaired in /repo (d8f247a): a specifier that has no valid package
   name is never a self reference.  On the witness of D13 the two agree;
   [package_resolve_invalid_name_all] is about all such specifiers *)
Definition w_nameless_fs : fsmap :=
  [ (pw_ [], EDir (Some (mkPkg None None (Some (JObj [(s_ ".", JStr (s_ "./own.js"))])) None)));
    (pw_ ["own.js"], EFile);
    (pw_ ["node_modules"], EDir None);
    (pw_ ["node_modules"; "@foo"], EDir None);
    (pw_ ["node_modules"; "@foo"; "index.js"], EFile) ].

Lemma nameless_self_reference_agrees :
  wf_fsb w_nameless_fs = true /\ no_tsb w_nameless_fs = true /\ no_case_collision w_nameless_fs = true
  /\ package_name_spec (s_ "@foo") = None /\ plain_spec (s_ "@foo") = true
  /\ resolve (fun _ => false) w_nameless_fs KRequire [] [] (s_ "@foo") = RFile (pw_ ["node_modules"; "@foo"; "index.js"])
  /\ require_resolve (fun _ => false) w_nameless_fs [] [] (s_ "@foo") = NFile (pw_ ["node_modules"; "@foo"; "index.js"]).
Proof. repeat split; vm_compute; reflexivity. Qed.

Section InvalidName.
  Variable builtin : str -> bool.
  Variable fs : fsmap.
  Hypothesis Hwf : wf_fs fs.
  Hypothesis Hts : no_ts_rewrite fs.
  Variable user : list str.
  Variable x : str.
  Hypothesis Hnone : package_name_spec x = None.
  Hypothesis Hplain : plain_spec x = true.

  (* without a package name every level is loadAsFileOrDirectory *)
  Lemma nm_walk_invalid : forall fuel dir,
    agree (of_opt (nm_walk fs KRequire user fuel dir x)) (LOAD_NODE_MODULES fs (cjs_conds user) fuel x dir).
  Proof.
    apply (nm_walk_by_level fs Hwf x Hplain); [rewrite Hnone; discriminate|].
    intros DIR _. unfold level_agree, level_spec, LOAD_PACKAGE_EXPORTS, try_package, name_and_subpath.
    rewrite parse_package_name_eq_all, Hnone. apply (file_or_dir_level fs Hwf Hts).
  Qed.

  Lemma package_resolve_invalid_name_all dir :
    is_package_path x = true -> prefixb [ch_hash] x = false ->
    agree (resolve builtin fs KRequire user dir x) (require_resolve builtin fs user dir x).
  Proof.
    intros Hpp Hh. rewrite resolve_package, require_resolve_package by exact Hpp.
    destruct (builtin x); [reflexivity|].
    unfold load_node_modules. rewrite Hh.
    (* neither side takes x for a self reference *)
    unfold load_node_modules_noimports, cjs_package, LOAD_PACKAGE_SELF, name_and_subpath.
    rewrite parse_package_name_eq_all, Hnone, (nearest_is_scope fs).
    destruct (package_scope fs (length dir) dir) as [[pdir pk]|]; [|apply nm_walk_invalid].
    destruct (exports_of pk), (pk_exports pk), (pk_name pk); apply nm_walk_invalid.
  Qed.
End InvalidName.

(* ES-module entry, relative and absolute specifiers: Node does no extension
   search and no directory index; whenever it resolves, esbuild's loadAsFile
   finds the same file first *)
Definition agree_import (m : rres) (n : nres) : Prop :=
  match n with
  | NFile p => m = RFile p
  | NBuiltin s => m = RBuiltin s
  | NRejected _ => m = RFail
  | NNotFound | NOut => True      (* esbuild may resolve more than Node's import does *)
  end.

Lemma load_as_file_exact fs p : isfile fs p = true -> load_as_file fs p = Some p.
Proof. intros H. unfold load_as_file, try_file. rewrite H. reflexivity. Qed.

Lemma import_relative_all builtin fs user dir x :
  builtin x = false -> is_package_path x = false ->
  agree_import (resolve builtin fs KImport user dir x) (import_resolve builtin fs user dir x).
Proof.
  intros Hb Hpp. unfold resolve, import_resolve. rewrite Hb, Hpp. cbn [negb].
  destruct (prefixb (s_ "/") x) eqn:E1.
  - unfold esm_file_check. destruct (isfile fs (abs_path x)) eqn:Ef; [|exact I].
    unfold load_as_file_or_directory. rewrite (load_as_file_exact _ _ Ef). reflexivity.
  - rewrite (relative_spec x E1), Hpp. cbn [negb]. unfold has_trailing_slash.
    (* hasTrailingSlash and Node's test list the same five conditions *)
    replace (str_eqb x (s_ ".") || str_eqb x (s_ "..") || suffixb (s_ "/") x || suffixb (s_ "/.") x || suffixb (s_ "/..") x)
      with (suffixb (s_ "/") x || suffixb (s_ "/.") x || suffixb (s_ "/..") x || str_eqb x (s_ ".") || str_eqb x (s_ ".."))
      by (destruct (suffixb (s_ "/") x), (suffixb (s_ "/.") x), (suffixb (s_ "/..") x), (str_eqb x (s_ ".")), (str_eqb x (s_ ".."));
          reflexivity).
    destruct (suffixb (s_ "/") x || suffixb (s_ "/.") x || suffixb (s_ "/..") x || str_eqb x (s_ ".") || str_eqb x (s_ ".."));
      [exact I|].
    unfold esm_file_check. destruct (isfile fs (join_rel dir x)) eqn:Ef; [|exact I].
    unfold load_as_file_or_directory. rewrite (load_as_file_exact _ _ Ef). reflexivity.
Qed.

(* D14: for import, a file node_modules/dep.js shadows the package directory in esbuild *)
Definition w_shadow_fs : fsmap :=
  [ (pw_ [], EDir None); (pw_ ["node_modules"], EDir None);
    (pw_ ["node_modules"; "dep.js"], EFile);
    (pw_ ["node_modules"; "dep"], EDir (Some (mkPkg (Some (s_ "dep")) (Some (s_ "./main.js")) None None)));
    (pw_ ["node_modules"; "dep"; "main.js"], EFile) ].
Lemma refuted_import_file_shadows_package :
  wf_fsb w_shadow_fs = true /\ no_tsb w_shadow_fs = true /\ no_case_collision w_shadow_fs = true
  /\ bare_ok (s_ "dep") = true
  /\ resolve (fun _ => false) w_shadow_fs KImport [] [] (s_ "dep") = RFile (pw_ ["node_modules"; "dep.js"])
  /\ import_resolve (fun _ => false) w_shadow_fs [] [] (s_ "dep") = NFile (pw_ ["node_modules"; "dep"; "main.js"])
  /\ require_resolve (fun _ => false) w_shadow_fs [] [] (s_ "dep") = NFile (pw_ ["node_modules"; "dep.js"]).
Proof. repeat split; vm_compute; reflexivity. Qed.
