(* C11 lemmas: the model of esbuild's resolution (EsbuildResolve.v) against the
   transcription of Node's algorithm (NodeSpec.v). *)
From V Require Import Common.Base C11.Str C11.EsbuildResolve C11.NodeSpec C11.SortLemmas C11.Scope.
Local Open Scope string_scope.
Local Open Scope Z_scope.

Lemma firstn_index_take_until c s :
  firstn (match index_byte c s with Some i => i | None => length s end) s = take_until c s.
Proof.
  induction s as [|x r IH]; cbn [index_byte take_until length]; [reflexivity|].
  destruct (x =? c); [reflexivity|].
  destruct (index_byte c r) as [i|]; cbn [option_map firstn]; f_equal; exact IH.
Qed.

Lemma drop_until_index c s :
  drop_until c s = match index_byte c s with Some i => Some (skipn (S i) s) | None => None end.
Proof.
  induction s as [|x r IH]; cbn [index_byte drop_until]; [reflexivity|].
  destruct (x =? c); [reflexivity|].
  rewrite IH. destruct (index_byte c r); reflexivity.
Qed.

Lemma firstn_past_index c s i k :
  index_byte c s = Some i ->
  firstn (i + 1 + k) s = take_until c s ++ c :: firstn k (skipn (S i) s).
Proof.
  revert i; induction s as [|x r IH]; intros i Hi; [discriminate|].
  cbn [index_byte] in Hi. cbn [take_until].
  destruct (x =? c) eqn:E.
  - injection Hi as <-. apply Z.eqb_eq in E. subst. reflexivity.
  - destruct (index_byte c r) as [j|]; [|discriminate]. injection Hi as <-.
    change (S j + 1 + k)%nat with (S (j + 1 + k)). cbn [firstn skipn app]. f_equal. apply IH. reflexivity.
Qed.

Lemma parse_package_name_eq_all spec : parse_package_name spec = package_name_spec spec.
Proof.
  unfold parse_package_name, package_name_spec.
  destruct spec as [|c0 r]; [reflexivity|].
  set (s := c0 :: r).
  destruct (c0 =? ch_at); cbn [negb].
  - rewrite drop_until_index.
    destruct (index_byte ch_slash s) as [i|] eqn:Ei; [|reflexivity].
    rewrite (firstn_past_index _ _ _ _ Ei), firstn_index_take_until. reflexivity.
  - rewrite firstn_index_take_until. reflexivity.
Qed.

Section JsonInd.
  Variable P : json -> Prop.
  Hypothesis HNull : P JNull.
  Hypothesis HStr : forall s, P (JStr s).
  Hypothesis HBad : P JBad.
  Hypothesis HArr : forall l, Forall P l -> P (JArr l).
  Hypothesis HObj : forall kvs, Forall (fun kv => P (snd kv)) kvs -> P (JObj kvs).
  Fixpoint json_ind' (j : json) : P j :=
    match j with
    | JNull => HNull
    | JStr s => HStr s
    | JBad => HBad
    | JArr l =>
        HArr l ((fix go (l : list json) : Forall P l :=
                   match l with
                   | [] => Forall_nil _
                   | x :: r => Forall_cons _ (json_ind' x) (go r)
                   end) l)
    | JObj kvs =>
        HObj kvs ((fix go (l : list (str * json)) : Forall (fun kv => P (snd kv)) l :=
                     match l with
                     | [] => Forall_nil _
                     | kv :: r =>
                         Forall_cons kv
                           (match kv as kv0 return P (snd kv0) with (k, v) => json_ind' v end)
                           (go r)
                     end) kvs)
    end.
End JsonInd.

(* the model's (resolved, status) seen as a result of PACKAGE_TARGET_RESOLVE *)
Definition proj (m : str * status) : tres :=
  match snd m with
  | SExact | SExactEndsWithStar | SInexact => TUrl (fst m)
  | SPackageResolve => TPkg (fst m)
  | SNull => TNull
  | SUndefined | SUndefinedNoConditionsMatch => TUndef
  | SInvalidPackageTarget => TThrow EInvalidTarget
  | SInvalidModuleSpecifier => TThrow EInvalidSpecifier
  | SInvalidPackageConfiguration => TThrow EInvalidConfig
  | SPackagePathNotExported => TThrow ENotExported
  | SPackageImportNotDefined => TThrow EImportNotDefined
  | SUnsupportedDirectoryImport => TThrow EInvalidSpecifier
  end.

Definition sub_of (pm : option str) : str := match pm with Some p => p | None => [] end.
Definition pat_of (pm : option str) : bool := match pm with Some _ => true | None => false end.
Definition pm_ok_opt (pm : option str) : bool := match pm with Some p => pm_ok p | None => true end.

Lemma s_dot_slash : s_ "./" = dot_slash. Proof. reflexivity. Qed.
Lemma s_dotdot_slash : s_ "../" = dotdot_slash. Proof. reflexivity. Qed.
Lemma s_slash : s_ "/" = [ch_slash]. Proof. reflexivity. Qed.
Lemma s_dot : s_ "." = [ch_dot]. Proof. reflexivity. Qed.

Lemma json_ok_str imp s : json_ok imp (JStr s) = target_ok imp s. Proof. reflexivity. Qed.
Lemma json_ok_arr imp l : json_ok imp (JArr l) = forallb (json_ok imp) l. Proof. reflexivity. Qed.
Lemma json_ok_obj imp kvs :
  json_ok imp (JObj kvs) = obj_ok kvs && forallb (fun kv => json_ok imp (snd kv)) kvs.
Proof. reflexivity. Qed.

Lemma obj_ok_true kvs :
  obj_ok kvs = true ->
  existsb (fun kv => is_array_index (fst kv)) kvs = false /\ nodupb (map fst kvs) = true.
Proof.
  unfold obj_ok, obj_no_shape, shape_index_key, shape_dup_key. rewrite andb_true_r, negb_involutive.
  intros H. apply andb_true_iff in H as [Hidx Hnd]. apply negb_true_iff in Hidx. auto.
Qed.

Lemma pm_ok_true p :
  pm_ok p = true ->
  find_invalid_subpath_segment p = node_invalid_segments p
  /\ (find_invalid_subpath_segment p = false -> url_plain p = true).
Proof.
  unfold pm_ok, fragment_match, seg_differ_match. rewrite negb_involutive.
  intros H. apply andb_true_iff in H as [Hseg Hplain]. apply Bool.eqb_prop in Hseg.
  split; [exact Hseg|]. intros E. rewrite E in Hplain. exact Hplain.
Qed.

Lemma key_ok_true mk k :
  key_ok mk k = true ->
  ends_with_slash k = false /\ str_eqb k (mk ++ [ch_star]) = false /\ pm_ok (pattern_match_of mk k) = true.
Proof.
  unfold key_ok, key_documented, key_no_shape, key_fragment, shape_pattern_base, pm_ok.
  intros H. apply andb_true_iff in H as [H Hf]. apply andb_true_iff in H as [Hd Hb].
  apply negb_true_iff in Hd. apply negb_true_iff in Hb. auto.
Qed.

Lemma match_key_ok_true mk :
  match_key_ok mk = true -> ends_with_slash mk = false /\ has_byte ch_star mk = false.
Proof.
  unfold match_key_ok, shape_star_specifier. rewrite andb_true_iff, !negb_true_iff. auto.
Qed.

Lemma in_scope_exports_true j sub :
  in_scope_exports j sub = true ->
  match_key_ok sub = true /\ json_ok false j = true /\ top_keys (key_ok sub) j = true.
Proof. unfold in_scope_exports. rewrite !andb_true_iff. tauto. Qed.

Lemma in_scope_imports_true j sp :
  in_scope_imports j sp = true ->
  match_key_ok sp = true /\ json_ok true j = true
  /\ str_eqb sp [ch_hash] = false /\ prefixb [ch_hash; ch_slash] sp = false
  /\ top_keys (key_ok sp) j = true.
Proof.
  unfold in_scope_imports, shape_hash_slash. rewrite !andb_true_iff, negb_true_iff, orb_false_iff. tauto.
Qed.

Lemma url_plain_sep c : url_plain_char c = true -> is_sep c = Z.eqb ch_slash c.
Proof.
  intros H. unfold is_sep. rewrite (Z.eqb_sym ch_slash c).
  destruct (c =? ch_bslash) eqn:E; [|apply orb_false_r].
  apply Z.eqb_eq in E. subst c. discriminate H.
Qed.

(* a target "./rest" without invalid segment, URL-plain and without empty
   segment consists of ordinary segments only: path.Join is a concatenation *)
Lemma ordinary_of_scope t :
  prefixb dot_slash t = true -> find_invalid_segment t = false -> url_plain t = true ->
  no_empty_segment (skipn 2 t) = true ->
  t = ch_dot :: ch_slash :: skipn 2 t /\ ordinary_path (skipn 2 t) = true.
Proof.
  intros Hpre Hfi Hplain Hne.
  destruct t as [|a [|b rest]]; try discriminate.
  cbn [prefixb dot_slash] in Hpre. apply andb_true_iff in Hpre as [Ha Hb].
  apply andb_true_iff in Hb as [Hb _]. apply Z.eqb_eq in Ha. apply Z.eqb_eq in Hb. subst a b.
  cbn [skipn] in *. split; [reflexivity|].
  unfold find_invalid_segment in Hfi.
  (* on URL-plain characters "/" is the only separator *)
  rewrite (split_on_ext is_sep (Z.eqb ch_slash)) in Hfi
    by (apply Forall_forall; intros c Hc; apply url_plain_sep; revert c Hc; apply forallb_forall, Hplain).
  change (split_on (Z.eqb ch_slash) (ch_dot :: ch_slash :: rest))
    with ([ch_dot] :: split_on (Z.eqb ch_slash) rest) in Hfi.
  clear Hplain. unfold ordinary_path, no_empty_segment in *. apply negb_true_iff in Hne.
  induction (split_on (Z.eqb ch_slash) rest) as [|g r IH]; [reflexivity|].
  cbn [existsb forallb] in *. apply orb_false_iff in Hfi as [Hg Hr]. apply orb_false_iff in Hne as [Hg0 Hr0].
  rewrite (IH Hr Hr0), andb_true_r. unfold ordinary_seg. rewrite Hg0.
  rewrite !str_eqb_neq; [reflexivity| |]; intros ->; discriminate Hg.
Qed.

(* ---- PACKAGE_TARGET_RESOLVE, string case ---- *)
Lemma target_string_eq imp t pm :
  target_ok imp t = true -> pm_ok_opt pm = true ->
  proj (target_string slash_s t (sub_of pm) (pat_of pm) imp) = target_string_spec t pm imp.
Proof.
  intros Ht Hp. unfold target_string, target_string_spec.
  rewrite s_dot_slash, s_dotdot_slash, s_slash.
  replace (negb (pat_of pm) && negb (str_eqb (sub_of pm) []) && negb (suffixb [ch_slash] t)) with false
    by (destruct pm; reflexivity).
  unfold target_ok, target_no_shape, shape_url_target, fragment_target, seg_differ_target in Ht.
  apply andb_true_iff in Ht as [Hurl Hfrag]. apply andb_true_iff in Hfrag as [Hseg Hfrag].
  destruct (prefixb dot_slash t) eqn:Epre; cbn [negb andb] in *.
  - (* target starts with "./": both sides refuse an invalid segment; otherwise
       the target is "./" followed by ordinary segments and path.Join concatenates *)
    rewrite negb_involutive in Hseg. apply Bool.eqb_prop in Hseg. rewrite <- Hseg.
    destruct (find_invalid_segment t) eqn:Efi; [reflexivity|]. cbn [negb] in Hfrag.
    apply andb_true_iff in Hfrag as [Hplain Hne]. rewrite Hplain. cbn [negb].
    destruct (ordinary_of_scope t Epre Efi Hplain Hne) as [Et Hord].
    replace (path_join2 slash_s t) with (ch_slash :: skipn 2 t)
      by (rewrite Et at 2; symmetry; apply path_join_root_dot, Hord).
    destruct pm as [p|]; cbn [sub_of pat_of pm_ok_opt] in *.
    + destruct (pm_ok_true p Hp) as [Hps Hpp]. rewrite <- Hps.
      destruct (find_invalid_subpath_segment p); [reflexivity|]. rewrite (Hpp eq_refl). cbn [negb].
      match goal with |- proj (_, if ?c then _ else _) = _ => destruct c end; reflexivity.
    + change (find_invalid_subpath_segment []) with false. cbv iota.
      unfold path_join2. rewrite (path_clean_rooted _ Hord). reflexivity.
  - (* bare / invalid target *)
    destruct imp; cbn [negb andb orb] in *; [|reflexivity].
    destruct (prefixb dotdot_slash t); [reflexivity|].
    destruct (prefixb [ch_slash] t); [reflexivity|]. cbn [negb andb orb].
    apply negb_true_iff in Hurl. rewrite Hurl.
    destruct pm; cbn [pat_of sub_of]; [reflexivity|]. rewrite app_nil_r. reflexivity.
Qed.

Definition parse_kv (kv : str * json) : str * pj := (fst kv, parse (snd kv)).
Lemma parse_kv_key kv : fst (parse_kv kv) = fst kv. Proof. reflexivity. Qed.

Lemma obj_loop_eq f g conds final kvs :
  proj final = TUndef ->
  Forall (fun kv => proj (f (parse (snd kv))) = g (snd kv)) kvs ->
  proj (obj_loop f conds final (map parse_kv kvs)) = cond_loop g conds kvs.
Proof.
  intros Hfin H. induction H as [|[k v] r Hv _ IH]; [exact Hfin|].
  cbn [map parse_kv fst snd obj_loop cond_loop] in *. fold default_s.
  destruct (str_eqb k default_s || mem_str k conds); [|exact IH].
  rewrite <- Hv. destruct (f (parse v)) as [res st].
  destruct st; cbn [snd is_undefined proj]; try reflexivity; exact IH.
Qed.

Lemma arr_loop_eq f g l :
  Forall (fun v => proj (f (parse v)) = g v) l ->
  forall lastE, proj (arr_loop f (map parse l) lastE) = fallback_loop g l (proj ([], lastE)).
Proof.
  intros H. induction H as [|v r Hv _ IH]; intros lastE; [reflexivity|].
  cbn [map arr_loop fallback_loop]. rewrite <- Hv. destruct (f (parse v)) as [res st].
  destruct st; cbn [snd proj fst]; try reflexivity; rewrite IH; reflexivity.
Qed.

(* ---- PACKAGE_TARGET_RESOLVE ---- *)
Lemma target_resolve_eq imp conds pm :
  pm_ok_opt pm = true ->
  forall j, json_ok imp j = true ->
  proj (target_resolve slash_s (parse j) (sub_of pm) (pat_of pm) imp conds)
  = target_resolve_spec j pm imp conds.
Proof.
  intros Hp. induction j as [| s | | l IH | kvs IH] using json_ind'; intros Hok; try reflexivity.
  - apply target_string_eq; assumption.
  - destruct l as [|x r]; [reflexivity|].
    apply (arr_loop_eq _ (fun v => target_resolve_spec v pm imp conds) (x :: r)) with (lastE := SUndefined).
    exact (Forall_forallb_mp _ _ _ IH Hok).
  - rewrite json_ok_obj in Hok. apply andb_true_iff in Hok as [Hobj Hvals].
    cbn [parse]. cbn [target_resolve target_resolve_spec]. rewrite (proj1 (obj_ok_true kvs Hobj)).
    apply obj_loop_eq.
    + match goal with |- proj (if ?c then _ else _) = _ => destruct c end; reflexivity.
    + exact (Forall_forallb_mp _ _ _ IH Hvals).
Qed.

(* ---- PACKAGE_IMPORTS_EXPORTS_RESOLVE ---- *)
Lemma value_for_key_map kvs k :
  value_for_key (map parse_kv kvs) k = option_map parse (assoc_first k kvs).
Proof.
  induction kvs as [|[k' v] r IH]; [reflexivity|].
  cbn [map parse_kv fst snd value_for_key assoc_first]. destruct (str_eqb k' k); [reflexivity|exact IH].
Qed.

Lemma Forall_filter {A} (P : A -> Prop) (p : A -> bool) l : Forall P l -> Forall P (filter p l).
Proof. induction 1; cbn; [constructor|]. destruct (p x); [constructor|]; auto. Qed.

Lemma assoc_first_Forall k (kvs : list (str * json)) v (P : json -> Prop) :
  assoc_first k kvs = Some v -> Forall (fun kv => P (snd kv)) kvs -> P v.
Proof.
  induction kvs as [|[k' v'] r IH]; [discriminate|]. cbn [assoc_first]. intros Ea H.
  inversion H; subst. destruct (str_eqb k' k); [injection Ea as <-; assumption|]. apply IH; assumption.
Qed.

(* On keys that contain "*", esbuild's Less orders by (position of the "*",
   length of the key), both descending; so does PATTERN_KEY_COMPARE. *)
Lemma less_star a b i j :
  index_byte ch_star a = Some i -> index_byte ch_star b = Some j ->
  less a b = true <-> (j < i \/ j = i /\ length b < length a)%nat.
Proof.
  intros Ha Hb. unfold less, base_len. rewrite Ha, Hb.
  destruct (j <? i)%nat eqn:E1; [split; [lia|reflexivity]|].
  destruct (i <? j)%nat eqn:E2; [split; [discriminate|lia]|].
  rewrite Nat.ltb_lt. lia.
Qed.

Lemma less_pkc a b :
  has_byte ch_star a = true -> has_byte ch_star b = true -> less a b = pkc_less a b.
Proof.
  intros Ha Hb. unfold less, pkc_less, pattern_key_compare, base_len.
  rewrite Ha, Hb. rewrite has_byte_index in Ha, Hb.
  destruct (index_byte ch_star a) as [i|]; [|discriminate].
  destruct (index_byte ch_star b) as [j|]; [|discriminate].
  cbn [negb].
  change (S j <? S i)%nat with (j <? i)%nat. change (S i <? S j)%nat with (i <? j)%nat.
  destruct (j <? i)%nat; [reflexivity|].
  destruct (i <? j)%nat; [reflexivity|].
  destruct (length b <? length a)%nat; [reflexivity|].
  destruct (length a <? length b)%nat; reflexivity.
Qed.

Lemma pattern_order_eq_all {A} (l : list (str * A)) :
  Forall (fun kv => has_byte ch_star (fst kv) = true) l ->
  isort_by less l = isort_by pkc_less l.
Proof.
  intros H. apply (isort_by_ext (fun k => has_byte ch_star k = true)); [|exact H].
  intros a b Ha Hb. apply less_pkc; assumption.
Qed.

Lemma less_asym a b :
  has_byte ch_star a = true -> has_byte ch_star b = true -> less a b = true -> less b a = false.
Proof.
  intros [i Ea]%has_byte_index_some [j Eb]%has_byte_index_some H.
  apply not_true_iff_false. rewrite (less_star _ _ _ _ Ea Eb) in H.
  rewrite (less_star _ _ _ _ Eb Ea). lia.
Qed.

Lemma less_negtrans a b c :
  has_byte ch_star a = true -> has_byte ch_star b = true -> has_byte ch_star c = true ->
  less b a = false -> less c b = false -> less c a = false.
Proof.
  intros [i Ea]%has_byte_index_some [j Eb]%has_byte_index_some [k Ec]%has_byte_index_some.
  rewrite <- !not_true_iff_false.
  rewrite (less_star _ _ _ _ Eb Ea), (less_star _ _ _ _ Ec Eb), (less_star _ _ _ _ Ec Ea). lia.
Qed.

(* keys with several "*" never match a star-free match key: the part of the
   key after its first "*" would have to be a suffix of the match key *)
Lemma multi_star_no_match mk k star :
  has_byte ch_star mk = false -> index_byte ch_star k = Some star ->
  (count_byte ch_star k =? 1)%nat = false ->
  prefixb (firstn star k) mk
  && (str_eqb (skipn (S star) k) []
      || (suffixb (skipn (S star) k) mk && (length k <=? length mk)%nat)) = false.
Proof.
  intros Hmk Hi Hc. rewrite (count_byte_index _ _ _ Hi) in Hc.
  assert (Ht : has_byte ch_star (skipn (S star) k) = true).
  { rewrite has_byte_count. destruct (count_byte ch_star (skipn (S star) k)); [discriminate|reflexivity]. }
  destruct (skipn (S star) k) as [|x tr] eqn:Etr; [discriminate|].
  change (str_eqb (x :: tr) []) with false. cbn [orb].
  destruct (suffixb (x :: tr) mk) eqn:Es; [|rewrite andb_false_r; reflexivity].
  rewrite (suffixb_has_byte ch_star _ _ Es Ht) in Hmk. discriminate.
Qed.

(* the loop over esbuild's pattern keys (all keys with a "*") against the loop
   over Node's (the keys with exactly one "*"), in the same order *)
Lemma expansion_loop_eq mk imp conds L :
  has_byte ch_star mk = false ->
  Forall (fun kv => has_byte ch_star (fst kv) = true /\ key_ok mk (fst kv) = true
                    /\ json_ok imp (snd kv) = true) L ->
  proj (expansion_loop slash_s mk (map parse_kv L) imp conds)
  = expansion_loop_spec mk (filter (fun kv => (count_byte ch_star (fst kv) =? 1)%nat) L) imp conds.
Proof.
  intros Hmk. induction 1 as [|[k v] r [Hstar [Hkey Hv]] _ IH]; [reflexivity|].
  cbn [fst snd] in *. cbn [map parse_kv fst snd expansion_loop filter].
  rewrite has_byte_index in Hstar.
  destruct (index_byte ch_star k) as [star|] eqn:Estar; [|discriminate].
  destruct (count_byte ch_star k =? 1)%nat eqn:Ec;
    [|rewrite (multi_star_no_match mk k star Hmk Estar Ec); exact IH].
  cbn [expansion_loop_spec]. rewrite Estar.
  set (base := firstn star k). set (trailer := skipn (S star) k).
  destruct (key_ok_true _ _ Hkey) as (_ & Hne & Hpm).
  unfold pattern_match_of in Hpm. rewrite Estar in Hpm. fold base trailer in Hpm.
  pose proof (index_byte_split _ _ _ Estar) as Hsplit. fold base trailer in Hsplit.
  rewrite str_eqb_nil_length.
  destruct (prefixb base mk) eqn:Epre; cbn [andb]; [|exact IH].
  destruct (str_eqb mk base) eqn:Eeq; cbn [negb andb].
  - (* match key equals the pattern base: Node skips the key; esbuild would
       take it only if the key were base ++ "*", which [key_ok] excludes *)
    apply str_eqb_eq in Eeq.
    assert (Hf : (length trailer =? 0)%nat || (suffixb trailer mk && (length k <=? length mk)%nat) = false).
    { destruct (length trailer =? 0)%nat eqn:Et.
      - exfalso. apply Nat.eqb_eq in Et. destruct trailer; [|discriminate].
        rewrite Hsplit, <- Eeq in Hne. rewrite str_eqb_refl in Hne. discriminate.
      - cbn [orb]. assert (length k = length base + S (length trailer))%nat as Hl.
        { rewrite Hsplit at 1. rewrite app_length. reflexivity. }
        rewrite Eeq. destruct (length k <=? length base)%nat eqn:El; [lia|].
        apply andb_false_r. }
    rewrite Hf. exact IH.
  - destruct ((length trailer =? 0)%nat || (suffixb trailer mk && (length k <=? length mk)%nat)); [|exact IH].
    apply (target_resolve_eq imp conds (Some _)); [exact Hpm|exact Hv].
Qed.

Lemma expansion_keys_parse mk kvs :
  forallb (fun kv => key_ok mk (fst kv)) kvs = true ->
  expansion_keys (parse (JObj kvs))
  = map parse_kv (isort_by less (filter (fun kv => has_byte ch_star (fst kv)) kvs)).
Proof.
  intros Hkeys. cbn [parse expansion_keys]. fold parse_kv.
  rewrite (filter_map_keys parse_kv parse_kv_key is_expansion_key), (isort_by_map parse_kv parse_kv_key).
  do 2 f_equal. apply filter_ext_in. intros kv Hin. rewrite forallb_forall in Hkeys.
  unfold is_expansion_key. rewrite (proj1 (key_ok_true _ _ (Hkeys kv Hin))). reflexivity.
Qed.

Lemma imports_exports_resolve_eq mk kvs imp conds :
  match_key_ok mk = true -> json_ok imp (JObj kvs) = true ->
  forallb (fun kv => key_ok mk (fst kv)) kvs = true ->
  proj (imports_exports_resolve mk (parse (JObj kvs)) slash_s imp conds)
  = imports_exports_resolve_spec mk kvs imp conds.
Proof.
  intros Hmk Hok Hkeys. rewrite json_ok_obj in Hok. apply andb_true_iff in Hok as [_ Hvals].
  unfold imports_exports_resolve, imports_exports_resolve_spec.
  rewrite (expansion_keys_parse mk kvs Hkeys).
  change (map_data (parse (JObj kvs))) with (map parse_kv kvs).
  destruct (match_key_ok_true mk Hmk) as [Hsl Hst]. rewrite Hsl, Hst. cbn [negb andb].
  rewrite value_for_key_map.
  destruct (assoc_first mk kvs) as [v|] eqn:Ea; cbn [option_map].
  - apply (target_resolve_eq imp conds None); [reflexivity|].
    exact (assoc_first_Forall _ _ _ (fun v => json_ok imp v = true) Ea (forallb_Forall _ _ Hvals)).
  - rewrite forallb_forall in Hkeys, Hvals.
    set (star := fun kv : str * json => has_byte ch_star (fst kv)).
    set (single := fun kv : str * json => (count_byte ch_star (fst kv) =? 1)%nat).
    assert (HF : Forall (fun kv => star kv = true /\ key_ok mk (fst kv) = true /\ json_ok imp (snd kv) = true)
                        (filter star kvs)).
    { apply Forall_forall. intros kv Hin. apply filter_In in Hin as [Hin Hc]. auto. }
    rewrite (expansion_loop_eq mk imp conds _ Hst (Forall_isort_by _ less _ HF)).
    (* sorting commutes with dropping the keys with several "*", and the two orders agree *)
    rewrite (filter_isort less (fun k => has_byte ch_star k = true) less_asym less_negtrans single)
      by (revert HF; apply Forall_impl; tauto).
    rewrite <- (filter_filter_imp single star) by (intros kv; apply single_has_byte).
    rewrite pattern_order_eq_all; [reflexivity|].
    eapply Forall_impl; [|apply Forall_filter_true]. intros kv. apply single_has_byte.
Qed.

Lemma assoc_last_none k (r : list (str * json)) :
  mem_str k (map fst r) = false -> assoc_last k r = None.
Proof.
  induction r as [|[k' v] r IH]; [reflexivity|]. cbn [map fst mem_str existsb assoc_last].
  intros H. apply orb_false_iff in H as [H1 H2]. rewrite (IH H2).
  rewrite str_eqb_sym, H1. reflexivity.
Qed.

Lemma In_mem_str (kv : str * json) r : In kv r -> mem_str (fst kv) (map fst r) = true.
Proof.
  induction r as [|x r IH]; [contradiction|]. intros [->|H]; cbn [map mem_str existsb].
  - rewrite str_eqb_refl. reflexivity.
  - unfold mem_str in IH. rewrite (IH H). apply orb_true_r.
Qed.

Lemma js_obj_id l : forall seen,
  nodupb (map fst l) = true -> (forall kv, In kv l -> mem_str (fst kv) seen = false) ->
  js_obj l seen = l.
Proof.
  induction l as [|[k v] r IH]; intros seen Hnd Hseen; [reflexivity|].
  cbn [js_obj]. pose proof (Hseen (k, v) (or_introl eq_refl)) as Hs0. cbn [fst] in Hs0. rewrite Hs0.
  cbn [map fst nodupb] in Hnd. apply andb_true_iff in Hnd as [Hk Hr]. apply negb_true_iff in Hk.
  rewrite (assoc_last_none _ _ Hk). f_equal. apply IH; [exact Hr|].
  intros kv Hin. change (mem_str (fst kv) (k :: seen)) with (str_eqb (fst kv) k || mem_str (fst kv) seen).
  rewrite (Hseen kv (or_intror Hin)). rewrite orb_false_r.
  destruct (str_eqb (fst kv) k) eqn:E; [|reflexivity].
  apply str_eqb_eq in E. rewrite <- E in Hk. rewrite (In_mem_str kv r Hin) in Hk. discriminate.
Qed.

Lemma norm_id imp : forall j, json_ok imp j = true -> norm j = j.
Proof.
  induction j as [| s | | l IH | kvs IH] using json_ind'; intros Hok; try reflexivity.
  - cbn [norm]. f_equal. rewrite <- (map_id l) at 2.
    apply map_ext_Forall. exact (Forall_forallb_mp _ _ _ IH Hok).
  - rewrite json_ok_obj in Hok. apply andb_true_iff in Hok as [Hobj Hvals]. cbn [norm].
    replace (map (fun kv => (fst kv, norm (snd kv))) kvs) with kvs.
    + f_equal. apply js_obj_id; [exact (proj2 (obj_ok_true kvs Hobj))|reflexivity].
    + rewrite <- (map_id kvs) at 1. apply map_ext_Forall.
      generalize (Forall_forallb_mp _ _ _ IH Hvals). apply Forall_impl.
      intros [k v] E. cbn [fst snd] in *. rewrite E. reflexivity.
Qed.

(* ---- PACKAGE_EXPORTS_RESOLVE / PACKAGE_IMPORTS_RESOLVE ---- *)
Lemma finish_eq fb ne res :
  outcome_of_model ne = ORefused ENotExported ->
  outcome_of_model (if is_null_or_undefined (snd res) then ne else res)
  = coarse (to_outcome fb (proj res)).
Proof.
  intros Hne. destruct res as [r st]. destruct st; cbn [snd is_null_or_undefined]; try exact Hne; reflexivity.
Qed.

(* The "starts with a dot" flags of the keys of an object whose first key has
   flag b.  consistent_keys compares every other key with the first: when it
   holds all flags are b, when it fails both values occur. *)
Lemma dot_flags_cases b (r : list (str * json)) :
  let flags := b :: map (fun kv => starts_with_dot (fst kv)) r in
  if forallb (fun k => Bool.eqb (starts_with_dot k) b) (map fst r)
  then existsb (fun x : bool => x) flags = b /\ existsb negb flags = negb b
       /\ forallb (fun x : bool => x) flags = b
  else existsb (fun x : bool => x) flags && existsb negb flags = true.
Proof.
  cbv zeta. induction r as [|[k v] r IH]; cbn [map fst forallb existsb] in *.
  - destruct b; auto.
  - destruct (Bool.eqb (starts_with_dot k) b) eqn:E; cbn [andb].
    + apply Bool.eqb_prop in E. rewrite E.
      destruct (forallb _ (map fst r)); destruct b; cbn [orb andb negb] in *; exact IH.
    + destruct (starts_with_dot k), b; try discriminate E; cbn [orb andb negb]; rewrite ?orb_true_r; reflexivity.
Qed.

Definition not_exported : str * status := ([], SPackagePathNotExported).

Lemma main_export_null (F : str * status -> str * status) (m : pj) conds :
  F ([], SNull) = not_exported ->
  match m with
  | PNull => not_exported
  | _ => F (target_resolve slash_s m [] false false conds)
  end = F (target_resolve slash_s m [] false false conds).
Proof. intros H. destruct m; try reflexivity. cbn [target_resolve]. symmetry. exact H. Qed.

(* esmPackageExportsResolve on an object: the main export is the object itself
   (conditions sugar) or its "." entry; a missing entry acts like null *)
Lemma exports_resolve_obj sub kvs conds :
  let e := parse (JObj kvs) in
  let fin := fun res : str * status => if is_null_or_undefined (snd res) then not_exported else res in
  exports_resolve slash_s sub e conds =
  if str_eqb sub [ch_dot] then
    fin (target_resolve slash_s
           (if keys_start_with_dot e
            then match assoc_first [ch_dot] kvs with Some d => parse d | None => PNull end
            else e) [] false false conds)
  else if keys_start_with_dot e then fin (imports_exports_resolve sub e slash_s false conds)
       else not_exported.
Proof.
  intros e fin. unfold exports_resolve. cbv zeta. subst e. cbn [parse]. fold parse_kv.
  destruct (str_eqb sub [ch_dot]); [|reflexivity].
  rewrite value_for_key_map.
  destruct (keys_start_with_dot _); cbn [negb]; [|reflexivity].
  etransitivity; [apply (main_export_null fin); reflexivity|].
  destruct (assoc_first [ch_dot] kvs); reflexivity.
Qed.

Lemma exports_resolve_eq_partial_all j sub conds :
  in_scope_exports j sub = true ->
  outcome_of_model (exports_resolve slash_s sub (parse_top j) conds)
  = coarse (node_exports_resolve j sub conds).
Proof.
  intros H. destruct (in_scope_exports_true j sub H) as (Hmk & Hok & Hkeys).
  unfold node_exports_resolve. rewrite (norm_id false j Hok), (proj1 (match_key_ok_true sub Hmk)).
  unfold exports_resolve_spec. rewrite s_dot.
  pose proof (target_resolve_eq false conds None eq_refl) as TR. cbn [sub_of pat_of] in TR.
  destruct j as [| t | l | kvs |].
  - cbn. destruct (str_eqb sub [ch_dot]); reflexivity.
  - cbn [parse_top parse exports_resolve map existsb andb].
    destruct (str_eqb sub [ch_dot]); [|reflexivity].
    rewrite <- (TR (JStr t) Hok). apply finish_eq. reflexivity.
  - cbn [parse_top parse exports_resolve map existsb andb].
    destruct (str_eqb sub [ch_dot]); [|reflexivity].
    rewrite <- (TR (JArr l) Hok). apply finish_eq. reflexivity.
  - pose proof Hok as Hvals. rewrite json_ok_obj in Hvals. apply andb_true_iff in Hvals as [_ Hvals].
    apply forallb_Forall in Hvals.
    destruct kvs as [|[k0 v0] r].
    + cbn. destruct (str_eqb sub [ch_dot]); [reflexivity|].
      unfold imports_exports_resolve_spec. cbn. destruct (negb (has_byte ch_star sub)); reflexivity.
    + set (kvs := (k0, v0) :: r) in *.
      pose proof (dot_flags_cases (starts_with_dot k0) r) as Hflags. cbv zeta in Hflags.
      unfold parse_top.
      change (consistent_keys (map fst kvs))
        with (forallb (fun k => Bool.eqb (starts_with_dot k) (starts_with_dot k0)) (map fst r)).
      change (map (fun kv => starts_with_dot (fst kv)) kvs)
        with (starts_with_dot k0 :: map (fun kv => starts_with_dot (fst kv)) r).
      destruct (forallb _ (map fst r)).
      2:{ (* mixed keys at the top level: both sides refuse *) rewrite Hflags. reflexivity. }
      (* consistent keys: every key starts with a dot, or none does *)
      destruct Hflags as (-> & -> & ->).
      rewrite exports_resolve_obj. cbv zeta.
      change (keys_start_with_dot (parse (JObj kvs))) with (starts_with_dot k0).
      destruct (starts_with_dot k0); cbn [negb andb].
      * (* subpath map *)
        destruct (str_eqb sub [ch_dot]).
        -- destruct (assoc_first [ch_dot] kvs) as [v|] eqn:Ea; [|reflexivity].
           rewrite <- (TR v (assoc_first_Forall _ _ _ (fun v => json_ok false v = true) Ea Hvals)).
           apply finish_eq. reflexivity.
        -- rewrite <- (imports_exports_resolve_eq sub kvs false conds Hmk Hok Hkeys).
           apply finish_eq. reflexivity.
      * (* conditions object: sugar for "." *)
        destruct (str_eqb sub [ch_dot]); [|reflexivity].
        rewrite <- (TR (JObj kvs) Hok). apply finish_eq. reflexivity.
  - cbn. destruct (str_eqb sub [ch_dot]); reflexivity.
Qed.

Lemma imports_resolve_eq_partial_all j spec conds :
  in_scope_imports j spec = true ->
  outcome_of_model (imports_resolve spec (parse j) conds)
  = coarse (node_imports_resolve spec j conds).
Proof.
  intros H. destruct (in_scope_imports_true j spec H) as (Hmk & Hok & Hh & Hhs & Hkeys).
  unfold node_imports_resolve. rewrite (norm_id true j Hok), (proj1 (match_key_ok_true spec Hmk)).
  unfold imports_resolve_spec.
  change (s_ "#") with [ch_hash]. change (s_ "#/") with [ch_hash; ch_slash]. rewrite Hh, Hhs. cbn [orb].
  destruct j as [| t | l | kvs |]; try reflexivity.
  change (imports_resolve spec (parse (JObj kvs)) conds)
    with (let res := imports_exports_resolve spec (parse (JObj kvs)) slash_s true conds in
          if is_null_or_undefined (snd res) then (spec, SPackageImportNotDefined) else res).
  cbv zeta. rewrite <- (imports_exports_resolve_eq spec kvs true conds Hmk Hok Hkeys).
  apply finish_eq. reflexivity.
Qed.

(* witnesses: outside the scope the faithful model and Node differ *)
Definition cN := [s_ "node"; s_ "import"].
Definition model_exports (j : json) (sub : str) : outcome :=
  outcome_of_model (exports_resolve slash_s sub (parse_top j) cN).
Definition model_imports (j : json) (sp : str) : outcome :=
  outcome_of_model (imports_resolve sp (parse j) cN).
Definition spec_exports (j : json) (sub : str) : outcome := coarse (node_exports_resolve j sub cN).
Definition spec_imports (j : json) (sp : str) : outcome := coarse (node_imports_resolve sp j cN).

Definition w_pattern_base : json := JObj [(s_ "./foo*", JStr (s_ "./lib/foo*.js"))].
Definition w_pattern_base2 : json :=
  JObj [(s_ "./foo*", JStr (s_ "./lib/foo*.js")); (s_ "./fo*", JStr (s_ "./x/*.js"))].
Definition w_upper : json := JObj [(s_ "./x", JStr (s_ "./lib/NODE_MODULES/x.js"))].
Definition w_pct : json := JObj [(s_ "./x", JStr (s_ "./lib/%2e%2e/x.js"))].
Definition w_star_all : json := JObj [(s_ "./*", JStr (s_ "./lib/*"))].
Definition w_dup : json := JObj [(s_ "./a", JStr (s_ "./x.js")); (s_ "./a", JStr (s_ "./y.js"))].
Definition w_mixed : json :=
  JObj [(s_ "./a", JObj [(s_ "node", JStr (s_ "./x.js")); (s_ "./b", JStr (s_ "./y.js"))])].
Definition w_index : json :=
  JObj [(s_ "./a", JObj [(s_ "0", JStr (s_ "./x.js")); (s_ "default", JStr (s_ "./y.js"))])].
Definition w_hash_slash : json := JObj [(s_ "#/*", JStr (s_ "./*.js"))].
Definition w_url_target : json := JObj [(s_ "#fs", JStr (s_ "node:fs"))].

Lemma refuted_pattern_base :
  model_exports w_pattern_base (s_ "./foo") = OResolved (s_ "/lib/foo.js")
  /\ spec_exports w_pattern_base (s_ "./foo") = ORefused ENotExported.
Proof. split; vm_compute; reflexivity. Qed.
Lemma refuted_pattern_base_other_file :
  model_exports w_pattern_base2 (s_ "./foo") = OResolved (s_ "/lib/foo.js")
  /\ spec_exports w_pattern_base2 (s_ "./foo") = OResolved (s_ "/x/o.js").
Proof. split; vm_compute; reflexivity. Qed.
(* D2 is repaired in /repo (e3ac7b5): on its three witnesses the model and Node agree *)
Lemma segment_case_agrees :
  model_exports w_upper (s_ "./x") = ORefused ENotExported
  /\ spec_exports w_upper (s_ "./x") = ORefused ENotExported.
Proof. split; vm_compute; reflexivity. Qed.
Lemma segment_percent_agrees :
  model_exports w_pct (s_ "./x") = ORefused ENotExported
  /\ spec_exports w_pct (s_ "./x") = ORefused ENotExported.
Proof. split; vm_compute; reflexivity. Qed.
Lemma pattern_match_segment_agrees :
  model_exports w_star_all (s_ "./../secret.js") = ORefused ENotExported
  /\ spec_exports w_star_all (s_ "./../secret.js") = ORefused ENotExported
  /\ model_exports w_star_all (s_ "./node_modules/s.js") = ORefused ENotExported
  /\ spec_exports w_star_all (s_ "./node_modules/s.js") = ORefused ENotExported.
Proof. repeat split; vm_compute; reflexivity. Qed.
Lemma refuted_duplicate_key :
  model_exports w_dup (s_ "./a") = OResolved (s_ "/x.js")
  /\ spec_exports w_dup (s_ "./a") = OResolved (s_ "/y.js").
Proof. split; vm_compute; reflexivity. Qed.
(* D4 is repaired in /repo (4e82ea6): on nested mixed keys the two agree, and the witness is in scope *)
Lemma nested_mixed_keys_agree :
  model_exports w_mixed (s_ "./a") = OResolved (s_ "/x.js")
  /\ spec_exports w_mixed (s_ "./a") = OResolved (s_ "/x.js")
  /\ in_scope_exports w_mixed (s_ "./a") = true.
Proof. repeat split; vm_compute; reflexivity. Qed.
(* so is the "imports" part of D4 (9a0cc2e) *)
Definition w_imports_mixed : json := JObj [(s_ "#a", JStr (s_ "./a.js")); (s_ "./b", JStr (s_ "./b.js"))].
Lemma imports_top_mixed_agree :
  model_imports w_imports_mixed (s_ "#a") = OResolved (s_ "/a.js")
  /\ spec_imports w_imports_mixed (s_ "#a") = OResolved (s_ "/a.js")
  /\ in_scope_imports w_imports_mixed (s_ "#a") = true.
Proof. repeat split; vm_compute; reflexivity. Qed.
Lemma refuted_index_key :
  model_exports w_index (s_ "./a") = OResolved (s_ "/y.js")
  /\ spec_exports w_index (s_ "./a") = ORefused ENotExported.
Proof. split; vm_compute; reflexivity. Qed.
Lemma refuted_imports_hash_slash :
  model_imports w_hash_slash (s_ "#/a") = OResolved (s_ "/a.js")
  /\ spec_imports w_hash_slash (s_ "#/a") = ORefused ENotExported.
Proof. split; vm_compute; reflexivity. Qed.
Lemma refuted_imports_url_target :
  model_imports w_url_target (s_ "#fs") = OPackageResolve (s_ "node:fs")
  /\ spec_imports w_url_target (s_ "#fs") = ORefused ENotExported.
Proof. split; vm_compute; reflexivity. Qed.

(* the unrestricted statement (only the documented exclusions: [documented_ok]
   of Scope.v written out) is false *)
Definition documented_scope (j : json) (sub : str) : bool :=
  negb (ends_with_slash sub)
  && match j with JObj kvs => forallb (fun kv => negb (ends_with_slash (fst kv))) kvs | _ => true end.

Lemma exports_resolve_eq_refuted_all :
  exists j sub conds,
    documented_scope j sub = true /\
    outcome_of_model (exports_resolve slash_s sub (parse_top j) conds)
    <> coarse (node_exports_resolve j sub conds).
Proof.
  exists w_pattern_base, (s_ "./foo"), cN. split; [reflexivity|].
  intro H. vm_compute in H. discriminate H.
Qed.

Lemma imports_resolve_eq_refuted_all :
  exists j sp conds,
    documented_scope j sp = true /\
    outcome_of_model (imports_resolve sp (parse j) conds)
    <> coarse (node_imports_resolve sp j conds).
Proof.
  exists w_hash_slash, (s_ "#/a"), cN. split; [reflexivity|].
  intro H. vm_compute in H. discriminate H.
Qed.

Lemma json_all_and T1 T2 O1 O2 : forall j,
  json_all (fun t => T1 t && T2 t) (fun k => O1 k && O2 k) j = json_all T1 O1 j && json_all T2 O2 j.
Proof.
  induction j as [| s | | l IH | kvs IH] using json_ind'; try reflexivity.
  - cbn [json_all]. rewrite <- forallb_and. apply forallb_ext_Forall. exact IH.
  - cbn [json_all]. rewrite (forallb_ext_Forall _ (fun kv => json_all T1 O1 (snd kv) && json_all T2 O2 (snd kv)) kvs IH).
    rewrite forallb_and.
    destruct (O1 kvs), (O2 kvs), (forallb (fun kv => json_all T1 O1 (snd kv)) kvs),
      (forallb (fun kv => json_all T2 O2 (snd kv)) kvs); reflexivity.
Qed.

Lemma top_keys_split mk j :
  top_keys (key_ok mk) j
  = top_keys key_documented j && top_keys (key_no_shape mk) j && top_keys (key_fragment mk) j.
Proof.
  destruct j; try reflexivity. cbn [top_keys]. unfold key_ok.
  rewrite (forallb_and (fun kv => key_documented (fst kv) && key_no_shape mk (fst kv))
                       (fun kv => key_fragment mk (fst kv))).
  rewrite (forallb_and (fun kv => key_documented (fst kv)) (fun kv => key_no_shape mk (fst kv))).
  reflexivity.
Qed.

(* [obj_ok] is [obj_no_shape kvs && true], the form that [json_all_and] splits *)
Lemma json_ok_split imp j :
  json_ok imp j = json_all (target_no_shape imp) obj_no_shape j && json_all fragment_target (fun _ => true) j.
Proof. unfold json_ok, target_ok, obj_ok. apply json_all_and. Qed.

Lemma in_scope_exports_split_all j mk :
  in_scope_exports j mk = documented_ok j mk && fragment_ok j mk && no_refuted_shape false j mk.
Proof.
  unfold in_scope_exports, documented_ok, fragment_ok, no_refuted_shape, match_key_ok.
  rewrite json_ok_split, top_keys_split. cbn [andb negb]. rewrite andb_true_r.
  apply eq_true_iff_eq. rewrite !andb_true_iff. tauto.
Qed.

Lemma in_scope_imports_split_all j mk :
  in_scope_imports j mk = documented_ok j mk && fragment_ok j mk && no_refuted_shape true j mk.
Proof.
  unfold in_scope_imports, documented_ok, fragment_ok, no_refuted_shape, match_key_ok.
  rewrite json_ok_split, top_keys_split. cbn [andb].
  apply eq_true_iff_eq. rewrite !andb_true_iff. tauto.
Qed.
