(* C11: the in-scope domain of the equality theorems, as executable
   predicates.  The domain is the conjunction of
     - the documented exclusions of the property (keys / specifiers ending in "/"),
     - the fragment of URL syntax that the specification models (URL-plain
       characters, no empty path segment), and
     - the ABSENCE of every recorded refuted shape: each [shape_*] detector
       below corresponds to exactly one [refuted_*] theorem of Properties.v /
       one known finding that is still open (D1, D3, D5, D7, D8, D10); D2, D4
       (nested objects and the "imports" map) and D12 were repaired in /repo
       (e3ac7b5, 4e82ea6, 9a0cc2e, 6e6e7fa): the model follows the fixed code and
       their detectors are gone.
   [in_scope_*_split_all] (ResolveProofs.v) proves
     in_scope = documented && fragment && no refuted shape. *)
From V Require Import Common.Base C11.Str C11.EsbuildResolve C11.NodeSpec C11.SortLemmas.
Local Open Scope Z_scope.

Definition slash_s : str := [ch_slash].

(* ---------------- refuted shapes ---------------- *)
(* The two invalid-segment rules.  After the fix e3ac7b5 esbuild decodes a
   segment and compares ignoring case, like Node's regular expression; their
   agreement on every string is not proved (it is checked on every generated
   case), so it stays a condition of the modelled fragment, not a refuted shape *)
Definition seg_differ_target (t : str) : bool :=
  prefixb dot_slash t && negb (Bool.eqb (find_invalid_segment t) (node_invalid_segments (skipn 2 t))).
Definition seg_differ_match (p : str) : bool :=
  negb (Bool.eqb (find_invalid_subpath_segment p) (node_invalid_segments p)).
(* D8: a bare target of an imports map that parses as a URL *)
Definition shape_url_target (imp : bool) (t : str) : bool :=
  negb (prefixb dot_slash t) && imp && is_valid_url t.
(* D3 / D5: objects *)
Fixpoint nodupb (l : list str) : bool :=
  match l with [] => true | x :: r => negb (mem_str x r) && nodupb r end.
Definition shape_dup_key (kvs : list (str * json)) : bool := negb (nodupb (map fst kvs)).
Definition shape_index_key (kvs : list (str * json)) : bool :=
  existsb (fun kv => is_array_index (fst kv)) kvs.
(* D1: a pattern key whose base is the whole match key *)
Definition shape_pattern_base (mk k : str) : bool := str_eqb k (mk ++ [ch_star]).
(* D10: esbuild refuses every specifier containing "*" *)
Definition shape_star_specifier (mk : str) : bool := has_byte ch_star mk.
(* D7: "#" and "#/..." *)
Definition shape_hash_slash (sp : str) : bool :=
  str_eqb sp [ch_hash] || prefixb [ch_hash; ch_slash] sp.

(* ---------------- modelled URL fragment ---------------- *)
Definition no_empty_segment (rest : str) : bool :=
  negb (existsb (fun g => str_eqb g []) (split_on (Z.eqb ch_slash) rest)).
(* only matters for a target that both sides accept *)
Definition fragment_target (t : str) : bool :=
  negb (seg_differ_target t)
  && (if prefixb dot_slash t && negb (find_invalid_segment t)
      then url_plain t && no_empty_segment (skipn 2 t) else true).
Definition fragment_match (p : str) : bool :=
  negb (seg_differ_match p) && (find_invalid_subpath_segment p || url_plain p).

(* ---------------- generic traversal ---------------- *)
Fixpoint json_all (T : str -> bool) (O : list (str * json) -> bool) (j : json) : bool :=
  match j with
  | JStr t => T t
  | JArr l => forallb (json_all T O) l
  | JObj kvs => O kvs && forallb (fun kv => json_all T O (snd kv)) kvs
  | JNull | JBad => true
  end.

Definition target_no_shape (imp : bool) (t : str) : bool := negb (shape_url_target imp t).
Definition obj_no_shape (kvs : list (str * json)) : bool :=
  negb (shape_index_key kvs) && negb (shape_dup_key kvs).

Definition target_ok (imp : bool) (t : str) : bool := target_no_shape imp t && fragment_target t.
Definition obj_ok (kvs : list (str * json)) : bool := obj_no_shape kvs && true.
Definition json_ok (imp : bool) (j : json) : bool := json_all (target_ok imp) obj_ok j.

(* the pattern match that key k would produce for matchKey mk *)
Definition pattern_match_of (mk k : str) : str :=
  match index_byte ch_star k with
  | Some star =>
      firstn (length mk - length (skipn (S star) k) - length (firstn star k))
             (skipn (length (firstn star k)) mk)
  | None => []
  end.

Definition pm_ok (p : str) : bool := fragment_match p.

Definition key_no_shape (mk k : str) : bool := negb (shape_pattern_base mk k).
Definition key_fragment (mk k : str) : bool := fragment_match (pattern_match_of mk k).
Definition key_documented (k : str) : bool := negb (ends_with_slash k).
Definition key_ok (mk k : str) : bool := key_documented k && key_no_shape mk k && key_fragment mk k.

Definition match_key_ok (mk : str) : bool :=
  negb (ends_with_slash mk)                       (* documented exclusion *)
  && negb (shape_star_specifier mk).

Definition top_keys (P : str -> bool) (j : json) : bool :=
  match j with JObj kvs => forallb (fun kv => P (fst kv)) kvs | _ => true end.

Definition in_scope_exports (exports : json) (subpath : str) : bool :=
  match_key_ok subpath && json_ok false exports && top_keys (key_ok subpath) exports.

Definition in_scope_imports (imports : json) (specifier : str) : bool :=
  match_key_ok specifier && json_ok true imports
  && negb (shape_hash_slash specifier)
  && top_keys (key_ok specifier) imports.

(* ---- the three components ---- *)
Definition documented_ok (j : json) (mk : str) : bool :=
  negb (ends_with_slash mk) && top_keys key_documented j.
Definition fragment_ok (j : json) (mk : str) : bool :=
  json_all fragment_target (fun _ => true) j && top_keys (key_fragment mk) j.
Definition no_refuted_shape (imp : bool) (j : json) (mk : str) : bool :=
  negb (shape_star_specifier mk)
  && negb (imp && shape_hash_slash mk)
  && json_all (target_no_shape imp) obj_no_shape j
  && top_keys (key_no_shape mk) j.

(* coarse outcome classes of the property: same path / same package
   specifier / refused *)
Definition coarse (o : outcome) : outcome :=
  match o with ORefused _ => ORefused ENotExported | x => x end.
Definition outcome_of_model (m : str * status) : outcome :=
  match snd m with
  | SExact | SExactEndsWithStar | SInexact => OResolved (fst m)
  | SPackageResolve => OPackageResolve (fst m)
  | _ => ORefused ENotExported
  end.
