(* C11, second layer: esbuild's resolver model (Walk.v) against Node's
   CommonJS algorithm (NodeWalkSpec.v) over all finite-map file systems. *)
From V Require Import Common.Base C11.Str C11.EsbuildResolve C11.NodeSpec C11.SortLemmas C11.Scope
     C11.ResolveProofs C11.Walk C11.NodeWalkSpec.
Local Open Scope string_scope.
Local Open Scope Z_scope.

Lemma relative_spec x :
  prefixb (s_ "/") x = false ->
  prefixb (s_ "./") x || prefixb (s_ "../") x || str_eqb x (s_ ".") || str_eqb x (s_ "..")
  = negb (is_package_path x).
Proof.
  unfold is_package_path. intros ->.
  destruct (prefixb (s_ "./") x), (prefixb (s_ "../") x), (str_eqb x (s_ ".")), (str_eqb x (s_ "..")); reflexivity.
Qed.

Lemma package_path_not_absolute x : is_package_path x = true -> prefixb (s_ "/") x = false.
Proof. unfold is_package_path. destruct (prefixb (s_ "/") x); [discriminate|reflexivity]. Qed.

(* only the root is a directory without being an entry of the map *)
Lemma isdir_lookup fs p :
  p <> [] -> isdir fs p = match lookup fs p with Some (EDir _) => true | _ => false end.
Proof. intros H. destruct p; [contradiction|reflexivity]. Qed.

Lemma first_some_none {A B} (f : A -> option B) l :
  (forall x, In x l -> f x = None) -> first_some f l = None.
Proof.
  induction l as [|x r IH]; intros H; [reflexivity|].
  cbn [first_some]. rewrite (H x (or_introl eq_refl)). apply IH. intros y Hy. apply H. right. exact Hy.
Qed.

Section Layer2.
  Variable builtin : str -> bool.
  Variable fs : fsmap.

  (* well-formed file system: an entry exists only inside an existing directory *)
  Definition wf_fs : Prop := forall p x e, lookup fs (p ++ [x]) = Some e -> isdir fs p = true.
  (* no TypeScript file that esbuild's ".js" -> ".ts" rewrite could pick up *)
  Definition no_ts_rewrite : Prop := forall p q, In q (rewrite_candidates p) -> lookup fs q = None.

  Hypothesis Hwf : wf_fs.
  Hypothesis Hts : no_ts_rewrite.

  Lemma isfile_parent p x : isfile fs (p ++ [x]) = true -> isdir fs p = true.
  Proof.
    unfold isfile. destruct (lookup fs (p ++ [x])) as [e|] eqn:E; [|discriminate].
    intros _. eapply Hwf. exact E.
  Qed.

  Lemma rewrite_none p : first_some (try_file fs) (rewrite_candidates p) = None.
  Proof.
    apply first_some_none. intros q Hq. unfold try_file, isfile. rewrite (Hts p q Hq). reflexivity.
  Qed.

  Lemma load_as_file_eq p : load_as_file fs p = LOAD_AS_FILE fs p.
  Proof.
    unfold load_as_file, LOAD_AS_FILE. rewrite rewrite_none. unfold exts. cbn [first_some].
    unfold try_file, orelse.
    destruct (isfile fs p); [reflexivity|].
    destruct (isfile fs (add_ext p (s_ ".js"))); [reflexivity|].
    destruct (isfile fs (add_ext p (s_ ".json"))); [reflexivity|].
    destruct (isfile fs (add_ext p (s_ ".node"))); reflexivity.
  Qed.

  Lemma load_as_index_eq d : load_as_index fs d = LOAD_INDEX fs d.
  Proof.
    unfold load_as_index, LOAD_INDEX, exts. cbn [first_some]. unfold try_file.
    change (s_ "index" ++ s_ ".js") with (s_ "index.js").
    change (s_ "index" ++ s_ ".json") with (s_ "index.json").
    change (s_ "index" ++ s_ ".node") with (s_ "index.node").
    unfold path, str.
    repeat match goal with |- context [isfile fs ?p] => destruct (isfile fs p) end; reflexivity.
  Qed.

  Lemma LOAD_INDEX_nodir d : isdir fs d = false -> LOAD_INDEX fs d = None.
  Proof.
    intros H. unfold LOAD_INDEX.
    destruct (isfile fs (d ++ [s_ "index.js"])) eqn:E1; [rewrite (isfile_parent _ _ E1) in H; discriminate|].
    destruct (isfile fs (d ++ [s_ "index.json"])) eqn:E2; [rewrite (isfile_parent _ _ E2) in H; discriminate|].
    destruct (isfile fs (d ++ [s_ "index.node"])) eqn:E3; [rewrite (isfile_parent _ _ E3) in H; discriminate|].
    reflexivity.
  Qed.

  Lemma pkg_of_isdir d pk : pkg_of fs d = Some pk -> isdir fs d = true.
  Proof.
    unfold pkg_of, isdir. destruct d; [reflexivity|].
    destruct (lookup fs (s :: d)) as [[|o]|]; try discriminate. reflexivity.
  Qed.

  Lemma pkg_of_nodir d : isdir fs d = false -> pkg_of fs d = None.
  Proof.
    intros H. destruct (pkg_of fs d) as [pk|] eqn:E; [|reflexivity].
    rewrite (pkg_of_isdir d pk E) in H. discriminate.
  Qed.

  Lemma LOAD_AS_DIRECTORY_nodir d : isdir fs d = false -> LOAD_AS_DIRECTORY fs d = None.
  Proof. intros H. unfold LOAD_AS_DIRECTORY. rewrite (pkg_of_nodir d H). apply LOAD_INDEX_nodir, H. Qed.

  Lemma load_as_directory_eq d : load_as_directory fs d = LOAD_AS_DIRECTORY fs d.
  Proof.
    unfold load_as_directory.
    destruct (isdir fs d) eqn:Ed; [|symmetry; apply LOAD_AS_DIRECTORY_nodir, Ed].
    unfold LOAD_AS_DIRECTORY, load_as_main.
    destruct (pkg_of fs d) as [pk|]; [|apply load_as_index_eq].
    destruct (pk_main pk) as [m|]; [|apply load_as_index_eq].
    rewrite load_as_file_eq. unfold orelse.
    destruct (LOAD_AS_FILE fs (join_rel d m)); [reflexivity|].
    destruct (isdir fs (join_rel d m)) eqn:Edm.
    - rewrite !load_as_index_eq. destruct (LOAD_INDEX fs (join_rel d m)); reflexivity.
    - (* "main" names no directory: the index of d itself *)
      rewrite (LOAD_INDEX_nodir _ Edm). apply load_as_index_eq.
  Qed.

  Lemma load_as_file_or_directory_eq p :
    load_as_file_or_directory fs p
    = match LOAD_AS_FILE fs p with Some f => Some f | None => LOAD_AS_DIRECTORY fs p end.
  Proof.
    unfold load_as_file_or_directory, orelse.
    rewrite load_as_file_eq, load_as_directory_eq. destruct (LOAD_AS_FILE fs p); reflexivity.
  Qed.

  Definition nres_of (r : rres) : nres :=
    match r with RFile p => NFile p | RBuiltin s => NBuiltin s | RFail => NNotFound end.

  (* relative and absolute specifiers: require(X) steps 2-3, all file systems *)
  Lemma require_relative_eq_all user dir x :
    is_package_path x = false -> has_trailing_slash x = false ->
    nres_of (resolve builtin fs KRequire user dir x) = require_resolve builtin fs user dir x.
  Proof.
    intros Hpp Hts'. unfold resolve, require_resolve. rewrite Hpp, Hts'. cbn [negb].
    destruct (builtin x); [reflexivity|].
    destruct (prefixb (s_ "/") x) eqn:E1.
    - rewrite load_as_file_or_directory_eq.
      destruct (LOAD_AS_FILE fs (abs_path x)); [reflexivity|].
      destruct (LOAD_AS_DIRECTORY fs (abs_path x)); reflexivity.
    - rewrite (relative_spec x E1), Hpp. cbn [negb]. rewrite load_as_file_or_directory_eq.
      destruct (LOAD_AS_FILE fs (join_rel dir x)); [reflexivity|].
      destruct (LOAD_AS_DIRECTORY fs (join_rel dir x)); reflexivity.
  Qed.
End Layer2.

Lemma resolve_package builtin fs k user dir x :
  is_package_path x = true ->
  resolve builtin fs k user dir x
  = if builtin x then RBuiltin x else load_node_modules builtin fs k user dir x.
Proof.
  intros Hpp. unfold resolve. rewrite (package_path_not_absolute x Hpp), Hpp. reflexivity.
Qed.

Lemma require_resolve_package builtin fs user dir x :
  is_package_path x = true ->
  require_resolve builtin fs user dir x
  = if builtin x then NBuiltin x
    else match (if prefixb [ch_hash] x then LOAD_PACKAGE_IMPORTS builtin fs (cjs_conds user) x dir else None) with
         | Some r => r
         | None => cjs_package fs (cjs_conds user) x dir
         end.
Proof.
  intros Hpp. unfold require_resolve.
  rewrite (relative_spec x (package_path_not_absolute x Hpp)), (package_path_not_absolute x Hpp), Hpp. reflexivity.
Qed.

Lemma import_resolve_package builtin fs user dir x :
  is_package_path x = true -> prefixb [ch_hash] x = false ->
  import_resolve builtin fs user dir x = PACKAGE_RESOLVE builtin fs (esm_conds user) x dir.
Proof.
  intros Hpp Hh. unfold import_resolve.
  rewrite (relative_spec x (package_path_not_absolute x Hpp)), (package_path_not_absolute x Hpp), Hpp.
  cbn [negb]. change (s_ "#") with [ch_hash]. rewrite Hh. reflexivity.
Qed.

Lemma path_eqb_eq a b : path_eqb a b = true <-> a = b.
Proof. apply list_eqb_eq. intros x y. apply str_eqb_eq. Qed.

Lemma lookup_In fs p e : lookup fs p = Some e -> In (p, e) fs.
Proof.
  induction fs as [|[q e'] r IH]; [discriminate|]. cbn [lookup].
  destruct (path_eqb q p) eqn:E.
  - intros H. injection H as <-. apply path_eqb_eq in E. subst. left. reflexivity.
  - intros H. right. apply IH. exact H.
Qed.

Lemma forallb_lookup (P : path * entry -> bool) fs p e :
  forallb P fs = true -> lookup fs p = Some e -> P (p, e) = true.
Proof. intros H Hl. rewrite forallb_forall in H. apply H, lookup_In, Hl. Qed.

Definition wf_fsb (fs : fsmap) : bool := forallb (fun pe => isdir fs (removelast (fst pe))) fs.

Lemma wf_fsb_sound fs : wf_fsb fs = true -> wf_fs fs.
Proof.
  intros H p x e Hl. apply (forallb_lookup _ _ _ _ H) in Hl.
  cbn [fst] in Hl. rewrite removelast_last in Hl. exact Hl.
Qed.

Definition ts_exts : list str := [s_ ".ts"; s_ ".tsx"; s_ ".mts"; s_ ".cts"].
Definition has_ts_ext (b : str) : bool := existsb (fun e => suffixb e b) ts_exts.
Definition no_tsb (fs : fsmap) : bool := forallb (fun pe => negb (has_ts_ext (base_name (fst pe)))) fs.

Lemma candidates_have_ts_ext p q : In q (rewrite_candidates p) -> has_ts_ext (base_name q) = true.
Proof.
  unfold rewrite_candidates.
  destruct (first_some _ rewritten_exts) as [es|] eqn:Ef; [|contradiction].
  destruct (last_index_byte ch_dot (base_name p)) as [i|]; [|contradiction].
  intros Hin. apply in_map_iff in Hin as [e [<- He]].
  unfold base_name. rewrite last_last.
  assert (Hts : In e ts_exts).
  { unfold rewritten_exts in Ef. cbn [first_some fst snd] in Ef.
    repeat match type of Ef with
           | (match (if ?c then _ else _) with _ => _ end) = _ => destruct c
           end; try discriminate; injection Ef as <-; cbn in He; cbn; tauto. }
  unfold has_ts_ext. apply existsb_exists. exists e. split; [exact Hts|apply suffixb_app].
Qed.

Lemma no_tsb_sound fs : no_tsb fs = true -> no_ts_rewrite fs.
Proof.
  intros H p q Hq. destruct (lookup fs q) as [e|] eqn:El; [|reflexivity].
  apply (forallb_lookup _ _ _ _ H) in El.
  cbn [fst] in El. rewrite (candidates_have_ts_ext p q Hq) in El. discriminate.
Qed.

(* the witness of D12: a directory without package.json inside node_modules *)
Definition pw_ (l : list String.string) : path := map s_ l.
Definition w_scope_fs : fsmap :=
  [ (pw_ [], EDir (Some (mkPkg (Some (s_ "rootpkg")) None (Some (JObj [(s_ ".", JStr (s_ "./own.js"))])) None)));
    (pw_ ["own.js"], EFile);
    (pw_ ["node_modules"], EDir None);
    (pw_ ["node_modules"; "rootpkg"],
     EDir (Some (mkPkg (Some (s_ "rootpkg")) None (Some (JObj [(s_ ".", JStr (s_ "./copy.js"))])) None)));
    (pw_ ["node_modules"; "rootpkg"; "copy.js"], EFile);
    (pw_ ["node_modules"; "nopkg"], EDir None);
    (pw_ ["node_modules"; "nopkg"; "index.js"], EFile) ].

(* D12 is repaired in /repo (6e6e7fa): the model follows the repaired walk, and on the witness the two agree *)
Lemma scope_boundary_agrees :
  wf_fsb w_scope_fs = true /\ no_tsb w_scope_fs = true
  /\ resolve (fun _ => false) w_scope_fs KRequire [] (pw_ ["node_modules"; "nopkg"]) (s_ "rootpkg")
     = RFile (pw_ ["node_modules"; "rootpkg"; "copy.js"])
  /\ require_resolve (fun _ => false) w_scope_fs [] (pw_ ["node_modules"; "nopkg"]) (s_ "rootpkg")
     = NFile (pw_ ["node_modules"; "rootpkg"; "copy.js"]).
Proof. repeat split; vm_compute; reflexivity. Qed.
