(* C10 property theorems. This file contains only statements closed by one line naming the
   lemma that proves them, and Print Assumptions.  A lemma named x_all has the statement of
   the theorem it proves; one named x_lemma speaks of [analyse] and [cross_chunk], and
   split_analyse and split_cross give it the two halves of [split g = Some r].
   [split g = Some r] excludes only fuel exhaustion of the model (never observed; every
   correspondence case is Some).  "Dependencies cover uses" (a symbol used or exported across
   files is backed by a part dependency) is not an assumption: see deps_cover_by_construction. *)
From V Require Import Common.Base C10.BitSet C10.Renamer C10.Split
  C10.BitSetProofs C10.RenamerProofs C10.ListLemmas C10.SplitProofs C10.OrderProofs C10.CrossProofs
  C10.Eval C10.EvalProofs C10.TotalProofs C10.DfsProofs C10.DynProofs C10.Css C10.CssProofs.
From Coq Require Import Permutation.
From Coq Require Import Relations.

(* scanImportsAndExports steps 5/6, as completed by the model (Split.part_deps, export_deps):
   every declared symbol a file uses, and every declared export target of an entry point, is
   backed by a dependency on the declaring file - for EVERY input, so none of the theorems
   below assumes it.  (The harness additionally checks on every linker dump that the dumped
   dependencies alone already have this property: Split.deps_coverb.) *)
Theorem deps_cover_by_construction : forall g,
  (forall f s, In s (f_uses (getf g f)) -> is_declared g s = true -> In (fst s) (f_deps g (getf g f))) /\
  (forall ents e s, In e ents -> In s (entry_exports g e) -> is_declared g s = true -> In (fst s) (export_deps g ents e)).
Proof. exact (fun g => conj (uses_covered g) (exports_covered g)). Qed.
Print Assumptions deps_cover_by_construction.

(* totality: on a well-formed dump (there is a runtime file; import record targets, part
   dependencies and user entry points are file indices - checked on every linker dump by the
   harness) the model never runs out of fuel; [split g = Some r] below excludes nothing else *)
Theorem split_total : forall g, wf_graphb g = true -> exists r, split g = Some r.
Proof. exact split_total_all. Qed.
Print Assumptions split_total.

(* helpers.BitSet: HasBit after SetBit, every bit set of every size *)
Theorem bitset_set_has : forall bs i j, (i < 8 * length bs)%nat ->
  HasBit (SetBit bs i) j = (Nat.eqb i j || HasBit bs j).
Proof. exact HasBit_SetBit. Qed.
Print Assumptions bitset_set_has.

(* chunk keys: bit sets for n entry points are equal as strings iff they have the same members *)
Theorem bitset_string_injective : forall n a b, good_bits n a -> good_bits n b ->
  (String a = String b <-> forall j, (j < n)%nat -> HasBit a j = HasBit b j).
Proof. exact bitset_string_injective_lemma. Qed.
Print Assumptions bitset_string_injective.

(* markFileReachableForCodeSplitting: bit j of a file is set exactly when the file is
   reachable from entry point j over live files (import() of other entry points not followed) *)
Theorem bits_iff_reachable : forall g r f j, split g = Some r ->
  let a := r_analysis r in
  (j < length (a_entries a))%nat ->
  (HasBit (file_bits a f) j = true <->
   path (split_succ g (a_entries a)) (is_live a) (nth j (a_entries a) O) f).
Proof. exact (fun g r f j H => bits_iff_reachable_lemma g _ f j (split_analyse g r H)). Qed.
Print Assumptions bits_iff_reachable.

(* every live reachable file is in exactly one chunk, and chunks hold nothing else:
   with ES module semantics a module body therefore exists once per program *)
Theorem chunks_partition : forall g r, split g = Some r ->
  let a := r_analysis r in
  (forall f, In f (a_order a) -> is_live a f = true ->
     exists i, (i < length (a_chunks a))%nat /\ In f (c_files (nth i (a_chunks a) dchunk)) /\
       forall j, (j < length (a_chunks a))%nat -> In f (c_files (nth j (a_chunks a) dchunk)) -> j = i) /\
  (forall c f, In c (a_chunks a) -> In f (c_files c) -> In f (a_order a) /\ is_live a f = true).
Proof. exact (fun g r H => chunks_partition_lemma g _ (split_analyse g r H)). Qed.
Print Assumptions chunks_partition.

(* findReachableFiles lists the runtime and the user entry points and is closed under import records *)
Theorem reachable_files_closed_under_imports : forall g, wf_graphb g = true ->
  In O (reachable_files g) /\ (forall e, In e (g_user g) -> In e (reachable_files g)) /\
  (forall f r, In f (reachable_files g) -> In r (f_recs (getf g f)) -> In (fst r) (reachable_files g)).
Proof. intros g W. destruct (reachable_files_spec g W) as [A [B [C _]]]. auto. Qed.
Print Assumptions reachable_files_closed_under_imports.

(* findImportedPartsInJSOrder: the emitted order of a chunk is a permutation of the chunk's files
   (every file of the chunk is emitted, exactly once, and nothing else) *)
Theorem chunk_order_permutation : forall g r i, split g = Some r -> wf_graphb g = true ->
  (i < length (a_chunks (r_analysis r)))%nat ->
  Permutation (nth i (r_orders r) []) (c_files (nth i (a_chunks (r_analysis r)) dchunk)).
Proof. exact chunk_order_permutation_all. Qed.
Print Assumptions chunk_order_permutation.

(* and no chunk lists a file twice *)
Theorem chunk_files_nodup : forall g r c, split g = Some r -> In c (a_chunks (r_analysis r)) -> NoDup (c_files c).
Proof. exact (fun g r c H => chunk_files_nodup_lemma g _ c (split_analyse g r H)). Qed.
Print Assumptions chunk_files_nodup.

(* a static cross-chunk import goes to a chunk whose entry-point set strictly
   contains the importer's *)
Theorem import_edge_superset : forall g r i j, split g = Some r ->
  let a := r_analysis r in
  sedge (r_cross r) i j ->
  (i < length (a_chunks a))%nat /\ (j < length (a_chunks a))%nat /\
  (forall b, (b < length (a_entries a))%nat ->
     HasBit (c_bits (nth i (a_chunks a) dchunk)) b = true -> HasBit (c_bits (nth j (a_chunks a) dchunk)) b = true) /\
  c_bits (nth i (a_chunks a) dchunk) <> c_bits (nth j (a_chunks a) dchunk).
Proof. exact (fun g r i j H => sedge_spec g _ _ i j (split_analyse g r H) (split_cross g r H)). Qed.
Print Assumptions import_edge_superset.

(* hence the static import graph of the chunks has no cycle *)
Theorem static_chunk_graph_acyclic : forall g r, split g = Some r ->
  forall i, ~ clos_trans nat (sedge (r_cross r)) i i.
Proof. exact (fun g r H => static_acyclic_lemma g _ _ (split_analyse g r H) (split_cross g r H)). Qed.
Print Assumptions static_chunk_graph_acyclic.

(* and the three-colour check of enforceNoCyclicChunkImports never reports an error *)
Theorem enforce_never_fires : forall g r, split g = Some r ->
  enforce_cycle_error (r_cross r) = false.
Proof. exact (fun g r H => enforce_never_fires_lemma g _ _ (split_analyse g r H) (split_cross g r H)). Qed.
Print Assumptions enforce_never_fires.

(* an entry chunk statically imports every chunk holding a file reachable from
   its entry point (all of them are evaluated before the entry's own code) *)
Theorem entry_loads_all_reachable : forall g r ci oi bit e f, split g = Some r ->
  let a := r_analysis r in
  (ci < length (a_chunks a))%nat -> (oi < length (a_chunks a))%nat ->
  c_entry (nth ci (a_chunks a) dchunk) = Some (bit, e) ->
  In f (c_files (nth oi (a_chunks a) dchunk)) ->
  path (split_succ g (a_entries a)) (is_live a) e f ->
  oi = ci \/ sedge (r_cross r) ci oi.
Proof. exact (fun g r ci oi bit e f H => entry_loads_lemma g _ _ ci oi bit e f (split_analyse g r H) (split_cross g r H)). Qed.
Print Assumptions entry_loads_all_reachable.

(* every item of a generated import statement is exported by the target chunk under that alias *)
Theorem exports_exist : forall g r ci im al, split g = Some r ->
  let a := r_analysis r in
  (ci < length (a_chunks a))%nat ->
  In im (x_imports (nth ci (r_cross r) dcross)) -> i_dynamic im = false -> In al (i_items im) ->
  (i_chunk im < length (a_chunks a))%nat /\ i_chunk im <> ci /\
  exists s, In (s, al) (x_exports (nth (i_chunk im) (r_cross r) dcross)).
Proof. exact (fun g r ci im al H => exports_exist_lemma g _ _ ci im al (split_cross g r H)). Qed.
Print Assumptions exports_exist.

(* the export aliases of a chunk are pairwise distinct (renamed and minified) *)
Theorem export_aliases_distinct : forall g r oi, split g = Some r ->
  (oi < length (a_chunks (r_analysis r)))%nat ->
  NoDup (map snd (x_exports (nth oi (r_cross r) dcross))).
Proof. exact (fun g r oi H => export_aliases_nodup_lemma g _ _ oi (split_cross g r H)). Qed.
Print Assumptions export_aliases_distinct.

(* ExportRenamer.NextRenamedName never hands out the same name twice *)
Theorem export_renamer_injective : forall names l, rename_all names = Some l ->
  NoDup l /\ length l = length names.
Proof. exact rename_all_nodup. Qed.
Print Assumptions export_renamer_injective.

(* NumberToMinifiedName is injective (NextMinifiedName never repeats) *)
Theorem minified_name_injective : forall i j, minified_name i = minified_name j -> i = j.
Proof. exact minified_name_inj. Qed.
Print Assumptions minified_name_injective.

(* every live file is reached by some entry point, so no chunk has an empty entry-point set *)
Theorem live_file_reached_by_some_entry : forall g a f, analyse g = Some a -> is_live a f = true ->
  exists j, (j < length (a_entries a))%nat /\ HasBit (file_bits a f) j = true.
Proof. exact live_has_bit. Qed.
Print Assumptions live_file_reached_by_some_entry.

(* no chunk imports from an entry chunk: entry chunks export only the entry point's own
   exports *)
Theorem entry_chunk_no_importers : forall g r i j bit e, split g = Some r ->
  let a := r_analysis r in
  sedge (r_cross r) i j -> c_entry (nth j (a_chunks a) dchunk) = Some (bit, e) -> False.
Proof. exact (fun g r i j bit e H => entry_no_importers_lemma g _ _ i j bit e (split_analyse g r H) (split_cross g r H)). Qed.
Print Assumptions entry_chunk_no_importers.

(* what the code of a chunk references (chunkMeta.imports of computeCrossChunkDependencies):
   the SymbolUses of the live parts of its files, each followed through the ImportsToBind
   table of the using file, plus, for an entry chunk, the entry point's export targets
   followed through the table of the file that resolved the export *)
Theorem chunk_uses_characterisation : forall g c s, In s (chunk_uses g c) <->
  (exists f p u, In f (c_files c) /\ In p (f_parts (getf g f)) /\ p_live p = true /\ In u (p_uses p) /\
                 s = resolve_in (getf g f) u) \/
  (exists bit e, c_entry c = Some (bit, e) /\ In s (entry_exports g e)).
Proof. exact chunk_uses_spec. Qed.
Print Assumptions chunk_uses_characterisation.

(* cross-chunk imports are exact: every symbol a chunk references is unbound (no top-level
   declaration in a live part), declared in the chunk, or imported - under the alias the
   exporting chunk gives it - from the one chunk that declares it; nothing else is imported;
   there is one import statement per imported chunk *)
Theorem cross_chunk_imports_exact : forall g r ci, split g = Some r ->
  let a := r_analysis r in
  (ci < length (a_chunks a))%nat ->
  let c := nth ci (a_chunks a) dchunk in
  let x := nth ci (r_cross r) dcross in
  (forall s, In s (chunk_uses g c) ->
     chunk_of_sym g a s = None \/ chunk_of_sym g a s = Some ci \/
     exists oi im al, chunk_of_sym g a s = Some oi /\ oi <> ci /\ (oi < length (a_chunks a))%nat /\
       In im (static_imports x) /\ i_chunk im = oi /\ In al (i_items im) /\
       lookup_alias s (x_exports (nth oi (r_cross r) dcross)) = Some al) /\
  (forall im al, In im (static_imports x) -> In al (i_items im) ->
     exists s, In s (chunk_uses g c) /\ chunk_of_sym g a s = Some (i_chunk im) /\
       lookup_alias s (x_exports (nth (i_chunk im) (r_cross r) dcross)) = Some al) /\
  NoDup (map i_chunk (static_imports x)).
Proof. exact (fun g r ci H => cross_chunk_imports_exact_lemma g _ _ ci (split_analyse g r H) (split_cross g r H)). Qed.
Print Assumptions cross_chunk_imports_exact.

(* Evaluation order.  The full claim is FALSE (refuted below): loading an entry point evaluates
   the module bodies in the same relative order as ESM evaluation of the sources,
     forall g r ci bit e f1 f2, split g = Some r -> c_entry (nth ci chunks) = Some (bit, e) ->
       before f1 f2 (native_order g e) -> In f1 (split_order r ci) -> In f2 (split_order r ci) ->
       before f1 f2 (split_order r ci).
   What holds: chunks are evaluated after the chunks they import; a chunk that declares a
   binding is evaluated before every chunk whose code uses it; inside a chunk a file comes
   after the files of the chunk it imports. *)
Theorem chunk_order_respects_evaluation_refuted :
  exists g r ci bit e f1 f2, split g = Some r /\
    nth_error (map c_entry (a_chunks (r_analysis r))) ci = Some (Some (bit, e)) /\
    beforeb f1 f2 (native_order g e) = true /\ beforeb f2 f1 (split_order r ci) = true.
Proof. exact chunk_order_respects_evaluation_refuted_all. Qed.
Print Assumptions chunk_order_respects_evaluation_refuted.

Theorem chunk_eval_respects_imports : forall g r ci, split g = Some r ->
  (ci < length (a_chunks (r_analysis r)))%nat ->
  let out := chunk_eval_order r ci in
  In ci out /\ forall A B, In A out -> sedge (r_cross r) A B -> In B out /\ before B A out.
Proof. exact chunk_eval_respects_imports_lemma. Qed.
Print Assumptions chunk_eval_respects_imports.

Theorem binding_chunk_evaluated_first : forall g r ci A B s, split g = Some r ->
  let a := r_analysis r in
  (ci < length (a_chunks a))%nat -> In A (chunk_eval_order r ci) ->
  (A < length (a_chunks a))%nat ->
  In s (chunk_uses g (nth A (a_chunks a) dchunk)) -> chunk_of_sym g a s = Some B -> B <> A ->
  In B (chunk_eval_order r ci) /\ before B A (chunk_eval_order r ci).
Proof. exact binding_chunk_evaluated_first_all. Qed.
Print Assumptions binding_chunk_evaluated_first.

Theorem binding_file_evaluated_first : forall g r ci A B s f f', split g = Some r ->
  let a := r_analysis r in
  (ci < length (a_chunks a))%nat -> In A (chunk_eval_order r ci) ->
  (A < length (a_chunks a))%nat ->
  In s (chunk_uses g (nth A (a_chunks a) dchunk)) -> chunk_of_sym g a s = Some B -> B <> A ->
  In f (nth B (r_orders r) []) -> In f' (nth A (r_orders r) []) ->
  before f f' (split_order r ci).
Proof. exact binding_file_evaluated_first_all. Qed.
Print Assumptions binding_file_evaluated_first.

(* findImportedPartsInJSOrder: inside a chunk a file is emitted after the files of the chunk
   it imports (acyclic walked import graph, import records point at existing files) *)
Theorem chunk_order_respects_imports : forall g a c f f',
  (forall x, ~ clos_trans nat (E (osucc g a c)) x x) ->
  (forall x y, In y (osucc g a c x) -> (y < nfiles g)%nat) ->
  (forall x, In x (c_files c) -> (x < nfiles g)%nat) -> (0 < nfiles g)%nat ->
  In f (chunk_order g a c) -> In f' (osucc g a c f) -> in_chunk a c f' = true ->
  In f' (chunk_order g a c) /\ before f' f (chunk_order g a c).
Proof. exact chunk_order_respects_imports_all. Qed.
Print Assumptions chunk_order_respects_imports.

(* import() under code splitting: every entry point, user-specified or import() target, has an entry chunk *)
Theorem entry_point_has_entry_chunk : forall g a e, analyse g = Some a -> In e (a_entries a) ->
  exists oi bit, entry_chunk_index e (a_chunks a) 0 = Some oi /\ (oi < length (a_chunks a))%nat /\
    c_entry (nth oi (a_chunks a) dchunk) = Some (bit, e) /\ (bit < length (a_entries a))%nat /\ nth bit (a_entries a) O = e.
Proof. exact every_entry_has_chunk. Qed.
Print Assumptions entry_point_has_entry_chunk.

(* an import() of ANOTHER file makes that file an entry point and resolves to the chunk whose
   entry point (entry bit) is that file; the importing chunk is that chunk or records a dynamic
   cross-chunk import of it *)
Theorem dynamic_import_resolves_to_entry_chunk : forall g r ci f t, split g = Some r -> wf_graphb g = true ->
  let a := r_analysis r in
  (ci < length (a_chunks a))%nat -> In f (c_files (nth ci (a_chunks a) dchunk)) ->
  In (t, true) (f_recs (getf g f)) -> t <> f ->
  In t (a_entries a) /\
  exists oi bit, entry_chunk_index t (a_chunks a) 0 = Some oi /\ (oi < length (a_chunks a))%nat /\
    c_entry (nth oi (a_chunks a) dchunk) = Some (bit, t) /\ nth bit (a_entries a) O = t /\
    (oi = ci \/ In (mkImp true oi []) (x_imports (nth ci (r_cross r) dcross))).
Proof. exact dynamic_import_resolves_all. Qed.
Print Assumptions dynamic_import_resolves_to_entry_chunk.

(* the same statement without [t <> f] is false: the self import() (known finding
   C10-self-dynamic-import, replayed on the real code in every run) *)
Theorem dynamic_import_self_refuted :
  exists g r ci f, split g = Some r /\ wf_graphb g = true /\
    In f (c_files (nth ci (a_chunks (r_analysis r)) dchunk)) /\ In (f, true) (f_recs (getf g f)) /\
    In f (a_entries (r_analysis r)) /\ entry_chunk_index f (a_chunks (r_analysis r)) 0 = Some ci /\
    is_external_dynamic (a_entries (r_analysis r)) f (f, true) = false /\
    x_imports (nth ci (r_cross r) dcross) = [] /\
    In f (osucc g (r_analysis r) (nth ci (a_chunks (r_analysis r)) dchunk) f).
Proof. exact dynamic_import_self_refuted_all. Qed.
Print Assumptions dynamic_import_self_refuted.

(* entry_loads_all_reachable for import() targets *)
Theorem dynamic_entry_loads_all_reachable : forall g r f t oj f', split g = Some r -> wf_graphb g = true ->
  let a := r_analysis r in
  In f (reachable_files g) -> In (t, true) (f_recs (getf g f)) ->
  (oj < length (a_chunks a))%nat -> In f' (c_files (nth oj (a_chunks a) dchunk)) ->
  path (split_succ g (a_entries a)) (is_live a) t f' ->
  exists oi bit, entry_chunk_index t (a_chunks a) 0 = Some oi /\
    c_entry (nth oi (a_chunks a) dchunk) = Some (bit, t) /\ (oj = oi \/ sedge (r_cross r) oi oj).
Proof. exact dynamic_entry_loads_all_reachable_all. Qed.
Print Assumptions dynamic_entry_loads_all_reachable.

(* The CSS side of code splitting (Css.v; JS entry points, unconditional internal "@import").
   esbuild's guarantee for CSS is per entry point, not per file: there is exactly one CSS chunk
   for every entry point that reaches CSS (none otherwise), keyed by the entry point's bit *)
Theorem css_one_chunk_per_entry : forall g ents i e fs,
  In (i, e, fs) (css_chunks g ents) <->
  nth_error ents i = Some e /\ css_roots g e <> [] /\ fs = css_chunk_files g e.
Proof. exact css_one_chunk_per_entry_all. Qed.
Print Assumptions css_one_chunk_per_entry.

Theorem css_chunk_bits_nodup : forall g ents, NoDup (map (fun c => fst (fst c)) (css_chunks g ents)).
Proof. exact css_chunk_bits_nodup_all. Qed.
Print Assumptions css_chunk_bits_nodup.

(* the CSS chunk of an entry point holds exactly the CSS files reached from it: through the JS
   import graph to a JS stub of a CSS file, then along "@import" rules (a path that does not
   pass through a file twice) *)
Theorem css_chunk_exact : forall g e c, wf_cgraphb g = true -> (e < length g)%nat ->
  (In c (css_chunk_files g e) <->
   exists f root, jreach g e f /\ cf_stub (getc g f) = Some root /\ spath g [0%nat] root c).
Proof. exact css_chunk_exact_all. Qed.
Print Assumptions css_chunk_exact.

(* the same with ordinary reachability along "@import" edges (loop removal), given that no
   "@import" points at file 0, the runtime, which the Go walk treats as already visited *)
Theorem css_chunk_reachable : forall g e c, wf_cgraphb g = true -> no_zero_targetb g = true -> (e < length g)%nat ->
  (In c (css_chunk_files g e) <->
   exists f root, jreach g e f /\ cf_stub (getc g f) = Some root /\ root <> 0%nat /\ creach g root c).
Proof. exact css_chunk_reachable_all. Qed.
Print Assumptions css_chunk_reachable.

(* ... each of them once (all but the last copy are dropped) *)
Theorem css_chunk_nodup : forall g e, NoDup (css_chunk_files g e).
Proof. exact css_chunk_nodup_all. Qed.
Print Assumptions css_chunk_nodup.

(* shared CSS is duplicated by design: a CSS file reached from two entry points is in both CSS
   chunks (there is no partition on the CSS side) *)
Theorem css_shared_duplicated : forall g e1 e2 f1 f2 r1 r2 c, wf_cgraphb g = true ->
  (e1 < length g)%nat -> (e2 < length g)%nat ->
  jreach g e1 f1 -> cf_stub (getc g f1) = Some r1 -> spath g [0%nat] r1 c ->
  jreach g e2 f2 -> cf_stub (getc g f2) = Some r2 -> spath g [0%nat] r2 c ->
  In c (css_chunk_files g e1) /\ In c (css_chunk_files g e2).
Proof. exact css_shared_duplicated_all. Qed.
Print Assumptions css_shared_duplicated.
