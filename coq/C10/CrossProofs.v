(* The cross-chunk imports computed by the model of computeCrossChunkDependencies are exact. *)
From V Require Import Common.Base C10.BitSet C10.Renamer C10.Split C10.BitSetProofs C10.RenamerProofs
  C10.ListLemmas C10.SplitProofs C10.OrderProofs.
From Coq Require Import Permutation.

Lemma raw_imports_fst_nodup g a ci c : NoDup (map fst (raw_imports g a ci c)).
Proof.
  unfold raw_imports. apply (flat_map_key_nodup (fun o => o)); [rewrite map_id; apply seq_NoDup|].
  intro o. destruct (o =? ci)%nat; [auto|].
  destruct (filter _ (chunk_uses g c)); [|right; eexists; split; reflexivity].
  destruct (c_entry c) as [[bit e]|]; [|auto]. destruct (HasBit _ bit); [right; eexists; split; reflexivity | auto].
Qed.

Definition static_imports (x : cross) : list cimport := filter (fun im => negb (i_dynamic im)) (x_imports x).
Lemma static_succ_imports xs ci : static_succ xs ci = map i_chunk (static_imports (nth ci xs dcross)).
Proof. reflexivity. Qed.

Theorem cross_chunk_imports_exact_lemma g a xs ci : analyse g = Some a -> cross_chunk g a = Some xs ->
  (ci < length (a_chunks a))%nat ->
  let c := nth ci (a_chunks a) dchunk in
  let x := nth ci xs dcross in
  (* every referenced symbol is unbound (no top-level declaration in a live part), declared
     in this chunk, or imported under the exporting chunk's alias from the one chunk that declares it *)
  (forall s, In s (chunk_uses g c) ->
     chunk_of_sym g a s = None \/ chunk_of_sym g a s = Some ci \/
     exists oi im al, chunk_of_sym g a s = Some oi /\ oi <> ci /\ (oi < length (a_chunks a))%nat /\
       In im (static_imports x) /\ i_chunk im = oi /\ In al (i_items im) /\
       lookup_alias s (x_exports (nth oi xs dcross)) = Some al) /\
  (* nothing else is imported *)
  (forall im al, In im (static_imports x) -> In al (i_items im) ->
     exists s, In s (chunk_uses g c) /\ chunk_of_sym g a s = Some (i_chunk im) /\
       lookup_alias s (x_exports (nth (i_chunk im) xs dcross)) = Some al) /\
  (* one import statement per imported chunk *)
  NoDup (map i_chunk (static_imports x)).
Proof.
  intros A X Hci c x. pose proof (static_imports_spec _ _ _ _ X Hci) as F2. fold c x (static_imports x) in F2.
  split; [|split].
  - intros s Hs. destruct (chunk_of_sym g a s) as [oi|] eqn:ES; [|left; reflexivity]. right.
    destruct (Nat.eq_dec oi ci) as [->|Hne]; [left; reflexivity | right].
    destruct (chunk_of_sym_spec _ _ _ _ ES) as [_ [Hoi _]].
    assert (Hin : In s (uses_from g a c oi)) by (apply uses_from_In; auto).
    assert (Hraw : In (oi, uses_from g a c oi) (raw_imports g a ci c)).
    { apply raw_imports_In. repeat split; auto. left. exists s. exact Hin. }
    destruct (Forall2_in_l _ _ _ _ F2 Hraw) as [im [Him [_ [Ech [als [FA PA]]]]]]. simpl in *.
    destruct (Forall2_in_l _ _ _ _ FA Hin) as [al [Hal El]].
    exists oi, im, al. repeat split; auto. eapply Permutation_in; eauto.
  - intros im al Him Hal.
    destruct (static_import_item _ _ _ _ _ _ X Hci Him Hal) as [items [s [Hp [Hs El]]]].
    apply raw_imports_In in Hp as [_ [_ [-> _]]]. apply uses_from_In in Hs as [Hu Hc].
    exists s. auto.
  - unfold x. rewrite <- static_succ_imports, (static_succ_raw g a xs ci X Hci). apply raw_imports_fst_nodup.
Qed.

(* what chunk_uses is: exactly the resolved uses of the live parts of the chunk's files
   plus the export targets of the entry point *)
Lemma chunk_uses_spec g c s : In s (chunk_uses g c) <->
  (exists f p u, In f (c_files c) /\ In p (f_parts (getf g f)) /\ p_live p = true /\ In u (p_uses p) /\
                 s = resolve_in (getf g f) u) \/
  (exists bit e, c_entry c = Some (bit, e) /\ In s (entry_exports g e)).
Proof.
  unfold chunk_uses. rewrite dedupe_syms_In, in_app_iff. split.
  - intros [H|H].
    + left. apply in_flat_map in H as [f [Hf H]]. unfold f_uses in H. apply in_map_iff in H as [u [E Hu]].
      apply in_flat_map in Hu as [p [Hp Hu]]. apply filter_In in Hp as [Hp Hl].
      exists f, p, u. auto.
    + right. destruct (c_entry c) as [[bit e]|]; [|destruct H]. exists bit, e. auto.
  - intros [[f [p [u [Hf [Hp [Hl [Hu E]]]]]]]|[bit [e [HE H]]]].
    + left. apply in_flat_map. exists f. split; [exact Hf|]. unfold f_uses. apply in_map_iff. exists u.
      split; [symmetry; exact E|]. apply in_flat_map. exists p. split; [apply filter_In; auto | exact Hu].
    + right. rewrite HE. exact H.
Qed.
