(* import() under code splitting: every import() target is an entry point with its own entry
   chunk; an import() of another file resolves to the chunk whose entry point is that file;
   the import() of a file by itself is the exception (refuted, known finding). *)
From V Require Import Common.Base C10.BitSet C10.Renamer C10.Split C10.BitSetProofs C10.RenamerProofs
  C10.ListLemmas C10.SplitProofs C10.OrderProofs C10.CrossProofs C10.TotalProofs C10.DfsProofs C10.Harness.
From Coq Require Import Permutation.

Lemma dynamic_target_is_entry g f t : wf_graphb g = true ->
  In f (reachable_files g) -> In (t, true) (f_recs (getf g f)) -> In t (entries g).
Proof.
  intros W Hf Hr. destruct (reachable_files_spec g W) as [_ [_ [RC _]]].
  unfold entries. destruct (memn t (g_user g)) eqn:EU; [apply in_or_app; left; apply memn_In; exact EU|].
  apply in_or_app. right. apply filter_In. split; [apply (RC f (t, true) Hf Hr)|].
  rewrite EU. simpl. rewrite andb_true_r. apply memn_In. unfold dyn_targets.
  apply in_flat_map. exists f. split; [exact Hf|]. apply in_map_iff. exists (t, true). split; [reflexivity|].
  apply filter_In. split; [exact Hr | reflexivity].
Qed.

Lemma entry_chunk_index_spec e : forall l i0 oi, entry_chunk_index e l i0 = Some oi ->
  (i0 <= oi)%nat /\ (oi - i0 < length l)%nat /\ exists bit, c_entry (nth (oi - i0) l dchunk) = Some (bit, e).
Proof.
  induction l as [|c l IH]; intros i0 oi H; simpl in H; [discriminate|].
  assert (K : entry_chunk_index e l (S i0) = Some oi ->
              (i0 <= oi)%nat /\ (oi - i0 < length (c :: l))%nat /\ exists bit, c_entry (nth (oi - i0) (c :: l) dchunk) = Some (bit, e)).
  { intro H'. apply IH in H' as [H1 [H2 [bit H3]]]. replace (oi - i0)%nat with (S (oi - S i0)) by lia. simpl.
    split; [lia|]. split; [lia|]. exists bit. exact H3. }
  destruct (c_entry c) as [[bit e']|] eqn:EC; [|apply K; exact H].
  destruct (Nat.eqb_spec e e') as [<-|Hne]; [|apply K; exact H].
  inversion H; subst. rewrite Nat.sub_diag. simpl. split; [lia|]. split; [lia|]. exists bit. exact EC.
Qed.

Lemma entry_chunk_index_total e : forall l i0, (exists c bit, In c l /\ c_entry c = Some (bit, e)) ->
  exists oi, entry_chunk_index e l i0 = Some oi.
Proof.
  induction l as [|c l IH]; intros i0 [c0 [bit [Hc HE]]]; [destruct Hc|]. simpl.
  destruct (c_entry c) as [[bit' e']|] eqn:EC.
  - destruct (Nat.eqb_spec e e') as [<-|Hne]; [eexists; reflexivity|].
    apply IH. destruct Hc as [<-|Hc]; [rewrite EC in HE; inversion HE; congruence | exists c0, bit; auto].
  - apply IH. destruct Hc as [<-|Hc]; [congruence | exists c0, bit; auto].
Qed.

(* every entry point (user-specified or import() target) has an entry chunk *)
Lemma every_entry_has_chunk g a e : analyse g = Some a -> In e (a_entries a) ->
  exists oi bit, entry_chunk_index e (a_chunks a) 0 = Some oi /\ (oi < length (a_chunks a))%nat /\
    c_entry (nth oi (a_chunks a) dchunk) = Some (bit, e) /\ (bit < length (a_entries a))%nat /\ nth bit (a_entries a) O = e.
Proof.
  intros H He. destruct (In_nth _ _ O He) as [j [Hj Ej]].
  assert (EX : exists c bit, In c (a_chunks a) /\ c_entry c = Some (bit, e)).
  { destruct (entry_chunk_exists g a j H Hj) as [c [Hc HE]]. rewrite Ej in HE. eauto. }
  destruct (entry_chunk_index_total e (a_chunks a) 0 EX) as [oi EI].
  destruct (entry_chunk_index_spec e _ _ _ EI) as [_ [Hoi [bit HE]]]. rewrite Nat.sub_0_r in Hoi, HE.
  destruct (chunk_entry_shape _ _ _ _ _ H (nth_In _ _ Hoi) HE) as [Hb [Eb _]].
  exists oi, bit. repeat split; auto.
Qed.

Lemma external_dynamic_spec ents f t : is_external_dynamic ents f (t, true) = true <-> In t ents /\ t <> f.
Proof.
  unfold is_external_dynamic. simpl. rewrite andb_true_iff, negb_true_iff, Nat.eqb_neq, memn_In. tauto.
Qed.

(* chunk.crossChunkImports, dynamic part: the entry chunks, other than the chunk itself, of the
   entry points that the chunk's files import() *)
Lemma dynamic_imports_In g a ci c oi : In oi (dynamic_imports g a ci c) <->
  oi <> ci /\ (oi < length (a_chunks a))%nat /\
  exists f r, In f (c_files c) /\ In r (f_recs (getf g f)) /\ is_external_dynamic (a_entries a) f r = true /\
              entry_chunk_index (fst r) (a_chunks a) 0 = Some oi.
Proof.
  unfold dynamic_imports. rewrite filter_In, in_seq, memn_In, in_flat_map. split.
  - intros [[_ Hlt] [t [Ht Hoi]]]. apply in_flat_map in Ht as [f [Hf Ht]].
    apply in_map_iff in Ht as [r [<- Hr]]. apply filter_In in Hr as [Hr Hd].
    destruct (entry_chunk_index (fst r) (a_chunks a) 0) as [o|] eqn:EI; [|destruct Hoi].
    destruct (Nat.eqb_spec o ci); [destruct Hoi|]. destruct Hoi as [<-|[]].
    split; [assumption|]. split; [lia|]. exists f, r. auto.
  - intros [Hne [Hlt [f [r [Hf [Hr [Hd EI]]]]]]]. split; [lia|]. exists (fst r). split.
    + apply in_flat_map. exists f. split; [exact Hf|]. apply in_map, filter_In. auto.
    + rewrite EI. destruct (Nat.eqb_spec oi ci); [contradiction | left; reflexivity].
Qed.

(* import() of another file resolves to the entry chunk of that file: the chunk that holds the
   importing file either is that chunk or records a dynamic cross-chunk import of it *)
Theorem dynamic_import_resolves_lemma g a xs ci f t : analyse g = Some a -> cross_chunk g a = Some xs ->
  (ci < length (a_chunks a))%nat -> In f (c_files (nth ci (a_chunks a) dchunk)) ->
  In (t, true) (f_recs (getf g f)) -> In t (a_entries a) -> t <> f ->
  exists oi bit, entry_chunk_index t (a_chunks a) 0 = Some oi /\ (oi < length (a_chunks a))%nat /\
    c_entry (nth oi (a_chunks a) dchunk) = Some (bit, t) /\ nth bit (a_entries a) O = t /\
    (oi = ci \/ In (mkImp true oi []) (x_imports (nth ci xs dcross))).
Proof.
  intros H X Hci Hf Hr Ht Hne.
  destruct (every_entry_has_chunk g a t H Ht) as [oi [bit [EI [Hoi [HE [_ Eb]]]]]].
  exists oi, bit. repeat split; auto.
  destruct (Nat.eq_dec oi ci) as [->|Hd]; [left; reflexivity | right].
  destruct (cross_chunk_nth _ _ _ _ X Hci) as [_ [st [-> _]]].
  apply in_or_app. left. apply in_map_iff. exists oi. split; [reflexivity|].
  apply dynamic_imports_In. split; [exact Hd|]. split; [exact Hoi|].
  exists f, (t, true). split; [exact Hf|]. split; [exact Hr|]. split; [apply external_dynamic_spec; auto | exact EI].
Qed.

Theorem dynamic_import_resolves_all g r ci f t : split g = Some r -> wf_graphb g = true ->
  let a := r_analysis r in
  (ci < length (a_chunks a))%nat -> In f (c_files (nth ci (a_chunks a) dchunk)) ->
  In (t, true) (f_recs (getf g f)) -> t <> f ->
  In t (a_entries a) /\
  exists oi bit, entry_chunk_index t (a_chunks a) 0 = Some oi /\ (oi < length (a_chunks a))%nat /\
    c_entry (nth oi (a_chunks a) dchunk) = Some (bit, t) /\ nth bit (a_entries a) O = t /\
    (oi = ci \/ In (mkImp true oi []) (x_imports (nth ci (r_cross r) dcross))).
Proof.
  intros H W a Hci Hf Hr Hne. destruct (split_inv _ _ H) as [A [X _]].
  pose proof (analyse_order _ _ A) as HO. pose proof (analyse_entries _ _ A) as HE.
  assert (Ht : In t (a_entries a)).
  { unfold a. rewrite HE. apply (dynamic_target_is_entry g f t W); [|exact Hr].
    rewrite <- HO. apply (chunk_files g (r_analysis r) (nth ci (a_chunks a) dchunk) f A (nth_In _ _ Hci)). exact Hf. }
  split; [exact Ht|]. apply (dynamic_import_resolves_lemma g (r_analysis r) (r_cross r) ci f t); assumption.
Qed.

(* the entry chunk of an import() target statically imports every chunk holding a file
   reachable from the target: entry_loads_all_reachable for dynamic entry points *)
Theorem dynamic_entry_loads_all_reachable_all g r f t oj f' : split g = Some r -> wf_graphb g = true ->
  let a := r_analysis r in
  In f (reachable_files g) -> In (t, true) (f_recs (getf g f)) ->
  (oj < length (a_chunks a))%nat -> In f' (c_files (nth oj (a_chunks a) dchunk)) ->
  path (split_succ g (a_entries a)) (is_live a) t f' ->
  exists oi bit, entry_chunk_index t (a_chunks a) 0 = Some oi /\
    c_entry (nth oi (a_chunks a) dchunk) = Some (bit, t) /\ (oj = oi \/ sedge (r_cross r) oi oj).
Proof.
  intros H W a Hf Hr Hoj Hf' HP. destruct (split_inv _ _ H) as [A [X _]].
  pose proof (analyse_entries _ _ A) as HE.
  assert (Ht : In t (a_entries a)) by (unfold a; rewrite HE; eapply dynamic_target_is_entry; eauto).
  destruct (every_entry_has_chunk g a t A Ht) as [oi [bit [EI [Hoi [HC _]]]]].
  exists oi, bit. split; [exact EI|]. split; [exact HC|].
  eapply (entry_loads_lemma g a (r_cross r) oi oj bit t f'); eauto.
Qed.

(* REFUTED without [t <> f]: a file that import()s itself is an entry point, but its own
   import() is not resolved to a chunk reference (isExternalDynamicImport excludes
   record.SourceIndex == sourceIndex): no dynamic chunk import is recorded and the walk of
   findImportedPartsInJSOrder follows the record as an internal import.  On the real code the
   printer then emits a call to an undefined require_X (known finding C10-self-dynamic-import,
   replayed in every run). *)
Definition self_import_witness : graph := mk_graph
  ([ ([], [], [], [], []);
     ([(1, true)], [(true, [], [], [])], [], [], []) ],
   [1], false).

Theorem dynamic_import_self_refuted_all :
  exists g r ci f, split g = Some r /\ wf_graphb g = true /\
    In f (c_files (nth ci (a_chunks (r_analysis r)) dchunk)) /\ In (f, true) (f_recs (getf g f)) /\
    In f (a_entries (r_analysis r)) /\ entry_chunk_index f (a_chunks (r_analysis r)) 0 = Some ci /\
    is_external_dynamic (a_entries (r_analysis r)) f (f, true) = false /\
    x_imports (nth ci (r_cross r) dcross) = [] /\
    In f (osucc g (r_analysis r) (nth ci (a_chunks (r_analysis r)) dchunk) f).
Proof.
  exists self_import_witness,
    (match split self_import_witness with Some r => r | None => mkResult (mkAnalysis [] [] [] [] []) [] [] end), 0%nat, 1%nat.
  repeat split; vm_compute; auto.
Qed.
