(* findReachableFiles (DFS post-order) lists no file twice; hence no chunk lists a file twice. *)
From V Require Import Common.Base C10.BitSet C10.Renamer C10.Split C10.BitSetProofs C10.RenamerProofs C10.ListLemmas C10.SplitProofs.
From Coq Require Import Permutation.

(* on states (visited, output): the output has no repetition and is visited; a visit only adds
   to the visited set, keeps that invariant, and outputs only what was not visited before *)
Definition st_inv (st : list nat * list nat) : Prop := NoDup (snd st) /\ incl (snd st) (fst st).
Definition st_step (s0 s1 : list nat * list nat) : Prop :=
  incl (fst s0) (fst s1) /\ (st_inv s0 -> st_inv s1) /\
  (forall x, In x (snd s1) -> In x (snd s0) \/ ~ In x (fst s0)).

Lemma st_step_refl s : st_step s s.
Proof. split; [apply incl_refl|]. split; [tauto|]. intros x Hx. left. exact Hx. Qed.
Lemma st_step_trans s0 s1 s2 : st_step s0 s1 -> st_step s1 s2 -> st_step s0 s2.
Proof.
  intros [A1 [B1 C1]] [A2 [B2 C2]]. split; [eapply incl_tran; eauto|]. split.
  - intros H; apply B2, B1; exact H.
  - intros x Hx. destruct (C2 x Hx) as [H|H]; [apply C1; exact H|]. right. intro Hc. apply H. apply A1. exact Hc.
Qed.

Lemma fold_step {A} (F : A -> list nat * list nat -> list nat * list nat) (l : list A) :
  (forall x s, In x l -> st_step s (F x s)) -> forall s, st_step s (fold_left (fun s x => F x s) l s).
Proof.
  induction l as [|x l IH]; intros H s; simpl; [apply st_step_refl|].
  eapply st_step_trans; [apply H; left; reflexivity|]. apply IH. intros y s' Hy. apply H. right. exact Hy.
Qed.

Lemma gvisit_step succ : forall fuel f s, st_step s (gvisit fuel succ f s).
Proof.
  induction fuel as [|k IH]; intros f [vis ord]; simpl; [apply st_step_refl|].
  destruct (memn f vis) eqn:E; [apply st_step_refl|].
  apply memn_false in E.
  pose proof (fold_step (fun y s => gvisit k succ y s) (succ f)
                (fun x s _ => IH x s) (f :: vis, ord)) as [A [B C]].
  destruct (fold_left _ (succ f) (f :: vis, ord)) as [vis' ord'] eqn:EF. simpl in *.
  unfold st_step, st_inv in *; simpl in *. split; [|split].
  - intros x Hx. apply A. right. exact Hx.
  - intros [ND IN].
    destruct B as [ND' IN']; [split; [exact ND | intros x Hx; right; apply IN; exact Hx]|].
    split.
    + apply nodup_snoc; [exact ND'|].
      intro Hx. destruct (C f Hx) as [H|H]; [apply E, IN; exact H | apply H; left; reflexivity].
    + intros x Hx. apply in_app_or in Hx as [Hx|[<-|[]]]; [apply IN'; exact Hx | apply A; left; reflexivity].
  - intros x Hx. apply in_app_or in Hx as [Hx|[<-|[]]].
    + destruct (C x Hx) as [H|H]; [left; exact H | right; intro Hc; apply H; right; exact Hc].
    + right. exact E.
Qed.

(* the post-order walk never lists a node twice (any graph, any fuel) *)
Lemma postorder_nodup fuel succ roots : NoDup (postorder fuel succ roots).
Proof.
  unfold postorder.
  pose proof (fold_step (fun e s => gvisit fuel succ e s) roots
                (fun x s _ => gvisit_step succ fuel x s) ([], [])) as [_ [B _]].
  destruct B as [ND _]; [split; simpl; [constructor | intros x []]|]. exact ND.
Qed.

Lemma reachable_files_nodup g : NoDup (reachable_files g).
Proof. apply postorder_nodup. Qed.

Lemma chunk_files_nodup_lemma g a c : analyse g = Some a -> In c (a_chunks a) -> NoDup (c_files c).
Proof.
  intros H Hc. destruct (chunk_shape _ _ _ H Hc) as [-> _]. apply NoDup_filter, NoDup_filter.
  rewrite (analyse_order _ _ H). apply reachable_files_nodup.
Qed.
