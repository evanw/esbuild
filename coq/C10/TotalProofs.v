(* Totality: on a well-formed graph (record targets, part dependencies and user entry points
   are file indices) the model never runs out of fuel: split g <> None. *)
From V Require Import Common.Base C10.BitSet C10.Renamer C10.Split C10.BitSetProofs C10.RenamerProofs
  C10.ListLemmas C10.SplitProofs C10.OrderProofs C10.CrossProofs.
From Coq Require Import Permutation.

(* the layered closure terminates within n+1 layers *)
Section Closure.
Variable succ : nat -> list nat.
Variable ok : nat -> bool.
Variable n : nat.
Hypothesis bounded : forall f t, In t (succ f) -> ok t = true -> (t < n)%nat.

(* only the current layer may still have admissible successors that are not seen *)
Record bfs_inv (seen layer : list nat) (acc : list (nat * nat)) : Prop := {
  b_acc : map fst acc = seen;
  b_nodup : NoDup seen;
  b_bound : forall x, In x seen -> (x < n)%nat;
  b_closed : forall f, In f seen -> ~ In f layer -> forall t, In t (succ f) -> ok t = true -> In t seen }.

Lemma bfs_closed : forall fuel seen layer d acc,
  bfs_inv seen layer acc -> (n < fuel + length seen)%nat ->
  let R := map fst (bfs fuel succ ok seen layer d acc) in
  forall f t, In f R -> In t (succ f) -> ok t = true -> In t R.
Proof.
  induction fuel as [|k IH]; intros seen layer d acc [Iacc Inodup Ibound Iclosed] HF.
  - pose proof (bounded_nodup_length seen n Inodup Ibound). simpl in HF. lia.
  - simpl. destruct (new_layer_spec succ ok seen layer) as [N1 N2].
    assert (N3 : forall f t, In f layer -> In t (succ f) -> ok t = true -> In t seen \/ In t (new_layer succ ok seen layer)).
    { intros f t Hf Ht Hok. destruct (in_dec Nat.eq_dec t seen) as [Hs|Hs]; [left; exact Hs | right].
      apply N2. split; [apply in_flat_map; exists f; auto | auto]. }
    destruct (new_layer succ ok seen layer) as [|y next] eqn:E.
    + simpl. rewrite Iacc. intros f t Hf Ht Hok.
      destruct (in_dec Nat.eq_dec f layer) as [Hl|Hl].
      * destruct (N3 f t Hl Ht Hok) as [H|[]]. exact H.
      * eapply Iclosed; eauto.
    + apply IH; [|rewrite app_length; simpl; lia].
      change ((y, S d) :: map (fun t : nat => (t, S d)) next) with (map (fun t : nat => (t, S d)) (y :: next)).
      constructor.
      * rewrite map_app, Iacc, map_map. simpl. rewrite map_id. reflexivity.
      * apply nodup_app; [exact Inodup | exact N1 | intros x Hx Hc; apply N2 in Hc; tauto].
      * intros x Hx. apply in_app_or in Hx as [Hx|Hx]; [apply Ibound; exact Hx|].
        apply N2 in Hx as [Hfm [Hok _]]. apply in_flat_map in Hfm as [f [_ Hfx]]. eapply bounded; eauto.
      * (* the old layer is done: its successors are seen or in the new layer *)
        intros f Hf Hnl t Ht Hok. apply in_app_or in Hf as [Hf|Hf]; [|contradiction].
        destruct (in_dec Nat.eq_dec f layer) as [Hl|Hl].
        -- destruct (N3 f t Hl Ht Hok) as [H|H]; apply in_or_app; [left | right]; exact H.
        -- apply in_or_app. left. eapply Iclosed; eauto.
Qed.

Lemma closure_total roots : (forall x, In x roots -> ok x = true -> (x < n)%nat) ->
  exists r, closure (S n) succ ok roots = Some r.
Proof.
  intro HR. unfold closure.
  set (r0 := dedupe (filter ok roots)).
  set (r := bfs (S n) succ ok r0 r0 0 (map (fun t => (t, O)) r0)).
  assert (INV : bfs_inv r0 r0 (map (fun t => (t, O)) r0)).
  { constructor.
    - rewrite map_map. simpl. apply map_id.
    - apply dedupe_spec.
    - intros x Hx. apply (proj1 (dedupe_In _ _)) in Hx. apply filter_In in Hx as [Hx Hk]. apply HR; assumption.
    - intros f0 Hf0 Hn. contradiction. }
  assert (C : closedb succ ok (map fst r) = true).
  { unfold closedb. apply forallb_forall. intros f Hf. apply forallb_forall. intros t Ht.
    destruct (ok t) eqn:Hok; [|reflexivity]. simpl. apply memn_In.
    assert (FU : (n < S n + length r0)%nat) by lia.
    exact (bfs_closed (S n) r0 r0 0 (map (fun t => (t, O)) r0) INV FU f t Hf Ht Hok). }
  fold r0. fold r. rewrite C. exists r. reflexivity.
Qed.
End Closure.

Lemma export_aliases_total g ex : exists r, export_aliases g ex = Some r.
Proof.
  unfold export_aliases, rename_all. destruct (g_minify g); [eexists; reflexivity|].
  destruct (rename_from_total (map (sym_name g) ex) []) as [l ->]. eexists; reflexivity.
Qed.

Lemma lookup_alias_map_fst s l : In s (map fst l) -> lookup_alias s l <> None.
Proof.
  induction l as [|[x al] l IH]; simpl; [tauto|].
  intros [H|H]; destruct (sym_eqb s x) eqn:E; try discriminate.
  - subst. assert (sym_eqb s s = true) by (apply sym_eqb_eq; reflexivity). congruence.
  - apply IH. exact H.
Qed.

Lemma import_stmt_total exps p : (forall s, In s (snd p) -> In s (map fst (nth (fst p) exps []))) ->
  import_stmt exps p <> None.
Proof.
  intro H. unfold import_stmt.
  destruct (all_some_total (map (fun s => lookup_alias s (nth (fst p) exps [])) (snd p))) as [als ->]; [|discriminate].
  intros z Hz. apply in_map_iff in Hz as [s [<- Hs]]. apply lookup_alias_map_fst, H, Hs.
Qed.

Lemma cross_chunk_total g a : exists xs, cross_chunk g a = Some xs.
Proof.
  rewrite cross_chunk_eq.
  destruct (all_some_total (map (fun oi => export_aliases g (chunk_exports a (raw_all g a) oi)) (seq 0 (length (a_chunks a))))) as [exps EE].
  { intros x Hx. apply in_map_iff in Hx as [oi [<- _]].
    destruct (export_aliases_total g (chunk_exports a (raw_all g a) oi)) as [r ->]. discriminate. }
  rewrite EE.
  assert (EX : forall oi, (oi < length (a_chunks a))%nat -> map fst (nth oi exps []) = chunk_exports a (raw_all g a) oi).
  { intros oi Hoi. apply (all_some_map_nth _ _ _ oi O []) in EE; [|rewrite seq_length; exact Hoi].
    rewrite seq_nth in EE by exact Hoi. apply export_aliases_nodup in EE. tauto. }
  apply (all_some_mapi_total _ dchunk). intros ci Hci. simpl. unfold cross_of.
  destruct (all_some_total (map (import_stmt exps) (nth ci (raw_all g a) []))) as [st ->]; [|discriminate].
  intros y Hy. apply in_map_iff in Hy as [[oi items] [<- Hp]].
  (* an item imported from chunk oi is in chunk_exports of oi, which is what the table of oi lists *)
  apply import_stmt_total. simpl. intros s Hs.
  pose proof Hp as Hoi. rewrite (raw_all_nth g a ci Hci) in Hoi. apply raw_imports_In in Hoi as [Hoi _].
  rewrite EX by exact Hoi. apply chunk_exports_In. exists (nth ci (raw_all g a) []), items.
  split; [apply nth_In; unfold raw_all; rewrite mapi_from_length; exact Hci | auto].
Qed.

Lemma getf_out g f : (nfiles g <= f)%nat -> getf g f = nofile.
Proof. intro H. unfold getf. apply nth_overflow. exact H. Qed.

Lemma wf_graphb_spec g : wf_graphb g = true ->
  (0 < nfiles g)%nat /\
  (forall f r, In r (f_recs (getf g f)) -> (fst r < nfiles g)%nat) /\
  (forall f p t, In p (f_parts (getf g f)) -> In t (p_deps p) -> (t < nfiles g)%nat) /\
  (forall e, In e (g_user g) -> (e < nfiles g)%nat).
Proof.
  unfold wf_graphb. rewrite !andb_true_iff, !forallb_forall, Nat.ltb_lt. intros [[H0 HF] HU].
  assert (G : forall f, getf g f = nofile \/ In (getf g f) (g_files g)).
  { intro f. destruct (Nat.ltb_spec f (nfiles g)); [right; apply nth_In; assumption | left; apply getf_out; assumption]. }
  split; [exact H0|]. split; [|split].
  - intros f r Hr. destruct (G f) as [E|Hin]; [rewrite E in Hr; destruct Hr|].
    apply HF in Hin. apply andb_true_iff in Hin as [Hin _]. rewrite forallb_forall in Hin. apply Nat.ltb_lt, Hin, Hr.
  - intros f p t Hp Ht. destruct (G f) as [E|Hin]; [rewrite E in Hp; destruct Hp|].
    apply HF in Hin. apply andb_true_iff in Hin as [_ Hin]. rewrite forallb_forall in Hin.
    specialize (Hin p Hp). rewrite forallb_forall in Hin. apply Nat.ltb_lt, Hin, Ht.
  - intros e He. apply Nat.ltb_lt, HU, He.
Qed.
Lemma nfiles_pos g : wf_graphb g = true -> (0 < nfiles g)%nat.
Proof. intro W. exact (proj1 (wf_graphb_spec g W)). Qed.
Lemma wf_recs g f r : wf_graphb g = true -> In r (f_recs (getf g f)) -> (fst r < nfiles g)%nat.
Proof. intro W. exact (proj1 (proj2 (wf_graphb_spec g W)) f r). Qed.
Lemma wf_pdeps g f p t : wf_graphb g = true -> In p (f_parts (getf g f)) -> In t (p_deps p) -> (t < nfiles g)%nat.
Proof. intro W. exact (proj1 (proj2 (proj2 (wf_graphb_spec g W))) f p t). Qed.
Lemma user_bounded g e : wf_graphb g = true -> In e (g_user g) -> (e < nfiles g)%nat.
Proof. intro W. exact (proj2 (proj2 (proj2 (wf_graphb_spec g W))) e). Qed.
Lemma declared_bounded g s : is_declared g s = true -> (fst s < nfiles g)%nat.
Proof.
  unfold is_declared. intro H. destruct (Nat.ltb_spec (fst s) (nfiles g)) as [Hf|Hf]; [exact Hf|].
  rewrite getf_out in H by exact Hf. discriminate.
Qed.
Lemma part_deps_bounded g f p t : wf_graphb g = true -> In p (f_parts (getf g f)) ->
  In t (part_deps g (getf g f) p) -> (t < nfiles g)%nat.
Proof.
  intros W Hp Ht. unfold part_deps in Ht. apply in_app_or in Ht as [Ht|Ht]; [eapply wf_pdeps; eauto|].
  unfold sym_deps in Ht. apply in_map_iff in Ht as [s [<- Hs]]. apply filter_In in Hs as [_ Hd]. apply declared_bounded. exact Hd.
Qed.
Lemma export_deps_bounded g ents e t : In t (export_deps g ents e) -> (t < nfiles g)%nat.
Proof.
  unfold export_deps. destruct (memn e ents); [|intros []]. intro Ht.
  apply in_map_iff in Ht as [s [<- Hs]]. apply filter_In in Hs as [_ Hd]. apply declared_bounded. exact Hd.
Qed.
Lemma filtered_recs_bounded g f (p : nat * bool -> bool) t : wf_graphb g = true ->
  In t (map fst (filter p (f_recs (getf g f)))) -> (t < nfiles g)%nat.
Proof. intros W Ht. apply in_map_iff in Ht as [r [<- Hr]]. apply filter_In in Hr as [Hr _]. eapply wf_recs; eauto. Qed.
Lemma f_deps_bounded g f t : wf_graphb g = true -> In t (f_deps g (getf g f)) -> (t < nfiles g)%nat.
Proof. intros W Ht. unfold f_deps in Ht. apply in_flat_map in Ht as [p [Hp Ht]]. eapply part_deps_bounded; eauto. Qed.
Lemma live_succ_bounded g ents f t : wf_graphb g = true -> In t (live_succ g ents f) -> (t < nfiles g)%nat.
Proof.
  intros W Ht. unfold live_succ in Ht. apply in_app_or in Ht as [Ht|Ht]; [eapply filtered_recs_bounded; eauto|].
  apply in_app_or in Ht as [Ht|Ht]; [|eapply export_deps_bounded; eauto].
  eapply f_deps_bounded; [exact W | apply ldeps_sub_deps; exact Ht].
Qed.
Lemma split_succ_bounded g ents f t : wf_graphb g = true -> In t (split_succ g ents f) -> (t < nfiles g)%nat.
Proof.
  intros W Ht. unfold split_succ in Ht. apply in_app_or in Ht as [Ht|Ht]; [eapply filtered_recs_bounded; eauto|].
  apply filter_In in Ht as [Ht _].
  apply in_app_or in Ht as [Ht|Ht]; [eapply f_deps_bounded; eauto | eapply export_deps_bounded; eauto].
Qed.
Lemma entries_bounded g e : wf_graphb g = true -> In e (entries g) -> (e < nfiles g)%nat.
Proof.
  intros W He. unfold entries in He. apply in_app_or in He as [He|He]; [apply user_bounded; assumption|].
  apply filter_In in He as [_ He]. apply andb_true_iff in He as [He _]. apply memn_In in He.
  unfold dyn_targets in He. apply in_flat_map in He as [f [_ He]]. eapply filtered_recs_bounded; eauto.
Qed.

Theorem analyse_total g : wf_graphb g = true -> exists a, analyse g = Some a.
Proof.
  intro W. unfold analyse.
  destruct (closure_total (live_succ g (entries g)) (fun _ => true) (nfiles g)
              (fun f t Ht _ => live_succ_bounded g (entries g) f t W Ht) (entries g)
              (fun x Hx _ => entries_bounded g x W Hx)) as [lv CL].
  rewrite CL.
  assert (LB : forall x, In x (map fst lv) -> (x < nfiles g)%nat).
  { intros x Hx. apply (closure_spec _ _ _ _ _ CL) in Hx as [root [Hr [_ HP]]].
    induction HP as [y|y z w HP IH Hw _]; [apply entries_bounded; assumption | eapply live_succ_bounded; eauto]. }
  destruct (all_some_total (map (fun e => closure (S (nfiles g)) (split_succ g (entries g)) (fun t => memn t (map fst lv)) [e]) (entries g))) as [rs RS].
  { intros x Hx. apply in_map_iff in Hx as [e [<- _]].
    destruct (closure_total (split_succ g (entries g)) (fun t => memn t (map fst lv)) (nfiles g)
                (fun f t Ht _ => split_succ_bounded g (entries g) f t W Ht) [e]) as [r R].
    - intros x [<-|[]] Hk. apply LB. apply memn_In. exact Hk.
    - rewrite R. discriminate. }
  rewrite RS. eexists. reflexivity.
Qed.

Theorem split_total_all g : wf_graphb g = true -> exists r, split g = Some r.
Proof.
  intro W. unfold split. destruct (analyse_total g W) as [a A]. rewrite A.
  destruct (cross_chunk_total g a) as [xs X]. rewrite X. eexists. reflexivity.
Qed.
