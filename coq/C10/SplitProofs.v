(* The code-splitting model Split.v on all graphs, of any size: the layered closure computes
   reachability (closure_spec); bit j of a file says that entry point j reaches it
   (bits_iff_reachable_lemma); the chunks partition the live files by bit set (chunk_shape,
   chunk_files); a static cross-chunk import goes to a chunk with strictly more bits
   (sedge_spec), so the chunk graph is acyclic and enforceNoCyclicChunkImports never fires. *)
From V Require Import Common.Base C10.BitSet C10.Renamer C10.Split C10.BitSetProofs C10.RenamerProofs C10.ListLemmas.
From Coq Require Import Permutation Relations.

Definition dchunk := mkChunk [] None [].
Definition dcross := mkCross [] [].

Inductive path (succ : nat -> list nat) (ok : nat -> bool) : nat -> nat -> Prop :=
| path_refl x : path succ ok x x
| path_step x y z : path succ ok x y -> In z (succ y) -> ok z = true -> path succ ok x z.

Lemma closedb_spec succ ok R : closedb succ ok R = true ->
  forall f t, In f R -> In t (succ f) -> ok t = true -> In t R.
Proof.
  unfold closedb. intros H f t Hf Ht Hok.
  rewrite forallb_forall in H. specialize (H f Hf). rewrite forallb_forall in H.
  specialize (H t Ht). rewrite Hok in H. simpl in H. apply memn_In. exact H.
Qed.
Lemma closed_path succ ok R r f : closedb succ ok R = true -> In r R -> path succ ok r f -> In f R.
Proof.
  intros HC Hr HP. induction HP as [|x y z HP IH Hz Hok]; [assumption|].
  apply (closedb_spec succ ok R HC y z); auto.
Qed.

Lemma new_layer_spec succ ok seen layer :
  NoDup (new_layer succ ok seen layer) /\
  forall t, In t (new_layer succ ok seen layer) <-> In t (flat_map succ layer) /\ ok t = true /\ ~ In t seen.
Proof.
  destruct (fold_add_new (fun t => ok t = true /\ ~ In t seen)
              (fun acc t => if ok t && negb (memn t seen) && negb (memn t acc) then acc ++ [t] else acc))
    with (l := flat_map succ layer) (acc := @nil nat) as [ND IN].
  - intros acc t. destruct (ok t); simpl; [|right; split; [reflexivity | intros [H _]; discriminate]].
    destruct (memn t seen) eqn:Es; simpl.
    { right. split; [reflexivity|]. intros [_ H]. apply memn_In in Es. contradiction. }
    destruct (memn t acc) eqn:Ea; simpl; [right; split; [reflexivity | intros _; apply memn_In; exact Ea]|].
    left. split; [reflexivity|]. apply memn_false in Es, Ea. auto.
  - split; [apply ND; constructor|]. intro t. unfold new_layer. rewrite IN. simpl. tauto.
Qed.

Lemma bfs_incl fuel succ ok : forall seen layer d acc x,
  In x acc -> In x (bfs fuel succ ok seen layer d acc).
Proof.
  induction fuel as [|k IH]; intros seen layer d acc x H; simpl; [assumption|].
  destruct (new_layer succ ok seen layer) as [|y next]; [assumption|].
  apply IH. apply in_or_app. left. assumption.
Qed.

Lemma bfs_sound succ ok (R : nat -> Prop) :
  (forall y t, R y -> In t (succ y) -> ok t = true -> R t) ->
  forall fuel seen layer d acc,
    (forall y, In y layer -> R y) -> (forall p, In p acc -> R (fst p)) ->
    forall p, In p (bfs fuel succ ok seen layer d acc) -> R (fst p).
Proof.
  intros HR. induction fuel as [|k IH]; intros seen layer d acc HL HA p Hp; simpl in Hp; [apply HA; exact Hp|].
  destruct (new_layer succ ok seen layer) as [|y next] eqn:E; [apply HA; exact Hp|].
  assert (HN : forall t, In t (y :: next) -> R t).
  { intros t Ht. rewrite <- E in Ht. apply new_layer_spec in Ht as [Ht [Hok _]].
    apply in_flat_map in Ht as [z [Hz Ht]]. eapply HR; eauto. }
  apply (IH _ _ _ _ HN) in Hp; [exact Hp|].
  intros q Hq. apply in_app_or in Hq as [Hq|Hq]; [apply HA; exact Hq|].
  change ((y, S d) :: map (fun t : nat => (t, S d)) next) with (map (fun t : nat => (t, S d)) (y :: next)) in Hq.
  apply in_map_iff in Hq as [t [<- Ht]]. simpl. apply HN. exact Ht.
Qed.

Lemma closure_spec fuel succ ok roots r : closure fuel succ ok roots = Some r ->
  forall x, In x (map fst r) <-> exists root, In root roots /\ ok root = true /\ path succ ok root x.
Proof.
  unfold closure. destruct (closedb succ ok _) eqn:C; [|discriminate]. intro H. injection H as <-.
  assert (R0 : forall t, In t (dedupe (filter ok roots)) <-> In t roots /\ ok t = true)
    by (intro t; rewrite dedupe_In; apply filter_In).
  intro x. split.
  - intro Hx. apply in_map_iff in Hx as [p [<- Hp]].
    apply (bfs_sound succ ok (fun x => exists root, In root roots /\ ok root = true /\ path succ ok root x)) in Hp; [exact Hp | | |].
    + intros y t [root [Hr [Hk HP]]] Ht Hok. exists root. split; [exact Hr|]. split; [exact Hk|]. eapply path_step; eauto.
    + intros y Hy. apply R0 in Hy. exists y. split; [tauto|]. split; [tauto | apply path_refl].
    + intros q Hq. apply in_map_iff in Hq as [t [<- Ht]]. apply R0 in Ht. exists t. split; [tauto|]. split; [tauto | apply path_refl].
  - intros [root [Hr [Hk HP]]]. eapply closed_path; [exact C | | exact HP].
    apply in_map_iff. exists (root, O). split; [reflexivity|]. apply bfs_incl.
    apply in_map_iff. exists root. split; [reflexivity|]. apply R0. auto.
Qed.

(* the steps of computeChunks inside analyse, as functions of the analysis that is returned *)
Definition lfiles (a : analysis) : list nat := filter (fun f => memn f (a_live a)) (a_order a).
Definition pre_all (a : analysis) : list chunk :=
  let n := length (a_entries a) in
  let echunks := entry_chunks n (a_entries a) in
  let xkeys := extra_keys (map (fun c => String (c_bits c)) echunks) (map (fun f => String (file_bits a f)) (lfiles a)) in
  echunks ++ map (fun k => mkChunk k None []) xkeys.
Definition fill (a : analysis) (c : chunk) : chunk :=
  mkChunk (c_bits c) (c_entry c) (filter (fun f => Equals (file_bits a f) (c_bits c)) (lfiles a)).
Definition pre_chunks (a : analysis) : list chunk := map (fill a) (pre_all a).
Definition reach_of (a : analysis) (j : nat) : list nat := map fst (nth j (a_reach a) []).

Lemma analyse_inv g a : analyse g = Some a ->
  a_order a = reachable_files g /\ a_entries a = entries g /\
  a_chunks a = sort_chunks (pre_chunks a) /\
  (exists lv, closure (S (nfiles g)) (live_succ g (entries g)) (fun _ => true) (entries g) = Some lv /\ a_live a = map fst lv) /\
  all_some (map (fun e => closure (S (nfiles g)) (split_succ g (entries g)) (is_live a) [e]) (entries g)) = Some (a_reach a).
Proof.
  unfold analyse. intro H.
  destruct (closure (S (nfiles g)) (live_succ g (entries g)) (fun _ => true) (entries g)) as [lv|] eqn:CL; [|discriminate].
  destruct (all_some _) as [rs|] eqn:AS; [|discriminate].
  injection H as <-. cbn [a_order a_entries a_chunks a_live a_reach]. eauto 10.
Qed.

Lemma analyse_order g a : analyse g = Some a -> a_order a = reachable_files g.
Proof. intro H. apply (analyse_inv g a H). Qed.
Lemma analyse_entries g a : analyse g = Some a -> a_entries a = entries g.
Proof. intro H. apply (analyse_inv g a H). Qed.

Lemma reach_length g a : analyse g = Some a -> length (a_reach a) = length (a_entries a).
Proof.
  intro H. destruct (analyse_inv _ _ H) as [_ [HE [_ [_ AS]]]].
  apply all_some_length in AS. rewrite map_length in AS. rewrite HE. exact AS.
Qed.

Lemma is_live_spec g a f : analyse g = Some a ->
  (is_live a f = true <-> exists e, In e (a_entries a) /\ path (live_succ g (a_entries a)) (fun _ => true) e f).
Proof.
  intro H. destruct (analyse_inv _ _ H) as [_ [HE [_ [[lv [CL LV]] _]]]].
  unfold is_live. rewrite memn_In, LV, (closure_spec _ _ _ _ _ CL), HE.
  split; intros [e He]; exists e; tauto.
Qed.

Lemma entry_is_live g a i : analyse g = Some a -> (i < length (a_entries a))%nat ->
  is_live a (nth i (a_entries a) O) = true.
Proof.
  intros H Hi. apply (is_live_spec g a _ H). exists (nth i (a_entries a) O). split; [apply nth_In; exact Hi | apply path_refl].
Qed.

Lemma reach_spec g a j f : analyse g = Some a -> (j < length (a_entries a))%nat ->
  (In f (reach_of a j) <-> path (split_succ g (a_entries a)) (is_live a) (nth j (a_entries a) O) f).
Proof.
  intros H Hj. pose proof (entry_is_live g a j H Hj) as L.
  destruct (analyse_inv _ _ H) as [_ [HE [_ [_ AS]]]]. rewrite <- HE in AS.
  apply (all_some_map_nth _ _ _ j O []) in AS; [|exact Hj].
  unfold reach_of. rewrite (closure_spec _ _ _ _ _ AS). split.
  - intros [root [[<-|[]] [_ P]]]. exact P.
  - intro P. exists (nth j (a_entries a) O). simpl. auto.
Qed.

Lemma HasBit_setif (b : bool) bs i j : (i < 8 * length bs)%nat ->
  HasBit (if b then SetBit bs i else bs) j = (b && (i =? j)%nat) || HasBit bs j.
Proof. intro H. destruct b; [apply HasBit_SetBit; exact H | reflexivity]. Qed.
Lemma length_setif (b : bool) bs i : length (if b then SetBit bs i else bs) = length bs.
Proof. destruct b; [apply length_SetBit | reflexivity]. Qed.

Lemma bits_from_length f rs : forall i bs, length (bits_from f rs i bs) = length bs.
Proof.
  induction rs as [|r rs IH]; intros i bs; simpl; [reflexivity|].
  rewrite IH. apply length_setif.
Qed.
Lemma bits_from_wf f rs : forall i bs, wf_bitset bs -> wf_bitset (bits_from f rs i bs).
Proof.
  induction rs as [|r rs IH]; intros i bs H; simpl; [exact H|].
  apply IH. destruct (memn f (map fst r)); [apply wf_SetBit; exact H | exact H].
Qed.

Lemma bits_from_below f rs : forall i0 bs j, (j < i0)%nat -> (i0 + length rs <= 8 * length bs)%nat ->
  HasBit (bits_from f rs i0 bs) j = HasBit bs j.
Proof.
  induction rs as [|r rs IH]; intros i0 bs j Hj HL; cbn [bits_from length] in *; [reflexivity|].
  rewrite IH, HasBit_setif, (proj2 (Nat.eqb_neq i0 j)), andb_false_r by (rewrite ?length_setif; lia). reflexivity.
Qed.
Lemma bits_from_spec f rs : forall i0 bs k, (i0 + length rs <= 8 * length bs)%nat ->
  HasBit (bits_from f rs i0 bs) (i0 + k) =
  ((k <? length rs)%nat && memn f (map fst (nth k rs []))) || HasBit bs (i0 + k).
Proof.
  induction rs as [|r rs IH]; intros i0 bs k HL; cbn [bits_from length] in *; [reflexivity|].
  destruct k as [|k].
  - rewrite Nat.add_0_r, bits_from_below, HasBit_setif, Nat.eqb_refl, andb_true_r by (rewrite ?length_setif; lia).
    reflexivity.
  - replace (i0 + S k)%nat with (S i0 + k)%nat by lia.
    rewrite IH, HasBit_setif, (proj2 (Nat.eqb_neq i0 (S i0 + k))), andb_false_r by (rewrite ?length_setif; lia).
    reflexivity.
Qed.

Lemma file_bits_spec g a f j : analyse g = Some a ->
  HasBit (file_bits a f) j = (j <? length (a_entries a))%nat && memn f (reach_of a j).
Proof.
  intro H. unfold file_bits.
  rewrite (bits_from_spec f (a_reach a) 0 _ j) by (rewrite (reach_length _ _ H); apply length_New).
  rewrite HasBit_New, orb_false_r, (reach_length _ _ H). reflexivity.
Qed.

(* bit j of a file is set exactly when the file is reachable from entry point j
   (over live files, not following import() of other entry points) *)
Lemma bits_iff_reachable_lemma g a f j : analyse g = Some a -> (j < length (a_entries a))%nat ->
  (HasBit (file_bits a f) j = true <->
   path (split_succ g (a_entries a)) (is_live a) (nth j (a_entries a) O) f).
Proof.
  intros H Hj. rewrite (file_bits_spec g _ _ _ H), (proj2 (Nat.ltb_lt _ _) Hj). cbn [andb].
  rewrite memn_In. apply (reach_spec g); assumption.
Qed.

(* a bit set of the shape used for n entry points *)
Definition good_bits (n : nat) (bs : bitset) : Prop :=
  length bs = length (NewBitSet n) /\ wf_bitset bs /\ forall j, (n <= j)%nat -> HasBit bs j = false.

Lemma good_file_bits g a f : analyse g = Some a -> good_bits (length (a_entries a)) (file_bits a f).
Proof.
  intro H. split; [apply bits_from_length|]. split; [apply bits_from_wf, wf_New|].
  intros j Hj. rewrite (file_bits_spec g _ _ _ H), (proj2 (Nat.ltb_ge _ _) Hj). reflexivity.
Qed.

Lemma HasBit_singleton n i j : (i < n)%nat -> HasBit (SetBit (NewBitSet n) i) j = (i =? j)%nat.
Proof.
  intro Hi. pose proof (length_New n). rewrite HasBit_SetBit by lia. rewrite HasBit_New. apply orb_false_r.
Qed.
Lemma singleton_bit n i j : (i < n)%nat -> HasBit (SetBit (NewBitSet n) i) j = true -> j = i.
Proof. intros Hi H. rewrite HasBit_singleton in H by exact Hi. apply Nat.eqb_eq in H. auto. Qed.
Lemma good_singleton n i : (i < n)%nat -> good_bits n (SetBit (NewBitSet n) i).
Proof.
  intro Hi. split; [apply length_SetBit|]. split; [apply wf_SetBit, wf_New|].
  intros j Hj. rewrite HasBit_singleton by exact Hi. apply Nat.eqb_neq. lia.
Qed.

Lemma good_bits_ext n a b : good_bits n a -> good_bits n b ->
  (forall j, (j < n)%nat -> HasBit a j = HasBit b j) -> a = b.
Proof.
  intros [La [Wa Ha]] [Lb [Wb Hb]] H. apply bitset_ext; try assumption; [congruence|].
  intros j _. destruct (Nat.ltb_spec j n); [apply H; assumption|].
  rewrite Ha, Hb by assumption. reflexivity.
Qed.

(* chunk keys: two bit sets for the same number of entry points are the same
   string exactly when they have the same members *)
Lemma bitset_string_injective_lemma n a b : good_bits n a -> good_bits n b ->
  (String a = String b <-> forall j, (j < n)%nat -> HasBit a j = HasBit b j).
Proof.
  intros Ga Gb. unfold String. split; [intros -> j _; reflexivity | apply good_bits_ext; assumption].
Qed.

Lemma good_bits_card_lt n a b : good_bits n a -> good_bits n b ->
  (forall j, (j < n)%nat -> HasBit a j = true -> HasBit b j = true) -> a <> b ->
  (card a n < card b n)%nat.
Proof.
  intros Ga Gb Hsub Hne.
  pose proof (card_le a b n Hsub) as Hle.
  destruct (Nat.eq_dec (card a n) (card b n)) as [E|NE]; [|lia].
  exfalso. apply Hne. apply (good_bits_ext n a b Ga Gb). apply card_subset_eq; assumption.
Qed.

Lemma entry_chunks_gen n ents k :
  mapi_from (fun i e => mkChunk (SetBit (NewBitSet n) i) (Some (i, e)) []) k ents =
  map (fun p => mkChunk (SetBit (NewBitSet n) (fst p)) (Some p) []) (combine (seq k (length ents)) ents).
Proof.
  revert k; induction ents as [|e ents IH]; intro k; simpl; [reflexivity|].
  f_equal. apply IH.
Qed.
Lemma entry_chunk_In n ents c : In c (entry_chunks n ents) <->
  exists i, (i < length ents)%nat /\ c = mkChunk (SetBit (NewBitSet n) i) (Some (i, nth i ents O)) [].
Proof.
  unfold entry_chunks. rewrite entry_chunks_gen, in_map_iff. split.
  - intros [[i e] [<- Hp]]. apply combine_seq_In in Hp as [_ Hn]. rewrite Nat.sub_0_r in Hn.
    exists i. split; [apply nth_error_Some; congruence|]. simpl. rewrite (nth_error_nth _ _ O Hn). reflexivity.
  - intros [i [Hi ->]]. exists (i, nth i ents O). split; [reflexivity|].
    apply combine_seq_In. split; [lia|]. rewrite Nat.sub_0_r. apply nth_error_nth'. exact Hi.
Qed.
Lemma entry_keys n ents :
  map c_bits (entry_chunks n ents) = map (fun i => SetBit (NewBitSet n) i) (seq 0 (length ents)).
Proof.
  unfold entry_chunks. generalize 0%nat as k.
  induction ents as [|e ents IH]; intro k; simpl; [reflexivity|]. f_equal. apply IH.
Qed.
Lemma entry_keys_nodup n ents : (length ents <= n)%nat -> NoDup (map c_bits (entry_chunks n ents)).
Proof.
  intro H. rewrite entry_keys. apply nodup_map_in; [apply seq_NoDup|].
  intros x y Hx Hy E. apply in_seq in Hx, Hy. apply (singleton_bit n); [lia|].
  rewrite <- E. rewrite HasBit_singleton by lia. apply Nat.eqb_refl.
Qed.

Lemma extra_keys_spec ek fk :
  NoDup (extra_keys ek fk) /\ forall k, In k (extra_keys ek fk) <-> In k fk /\ ~ In k ek.
Proof.
  destruct (fold_add_new (fun k => ~ In k ek) (fun acc k => if key_mem k ek || key_mem k acc then acc else acc ++ [k]))
    with (l := fk) (acc := @nil bytes) as [ND IN].
  - intros acc k. destruct (key_mem k ek) eqn:E1; simpl.
    { right. split; [reflexivity|]. intro H. apply key_mem_In in E1. contradiction. }
    destruct (key_mem k acc) eqn:E2; [right; split; [reflexivity | intros _; apply key_mem_In; exact E2]|].
    left. split; [reflexivity|]. split; intro Hc; apply key_mem_In in Hc; congruence.
  - split; [apply ND; constructor|]. intro k. unfold extra_keys. rewrite IN. simpl. tauto.
Qed.

Lemma pre_all_keys a : map c_bits (pre_all a) =
  map c_bits (entry_chunks (length (a_entries a)) (a_entries a)) ++
  extra_keys (map (fun c => String (c_bits c)) (entry_chunks (length (a_entries a)) (a_entries a)))
             (map (fun f => String (file_bits a f)) (lfiles a)).
Proof. unfold pre_all. rewrite map_app, map_map. simpl. rewrite map_id. reflexivity. Qed.

Lemma pre_keys_nodup a : NoDup (map c_bits (pre_chunks a)).
Proof.
  unfold pre_chunks. rewrite map_map. change (NoDup (map c_bits (pre_all a))). rewrite pre_all_keys.
  apply nodup_app; [apply entry_keys_nodup; lia | apply extra_keys_spec |].
  intros x Hx Hc. apply extra_keys_spec in Hc as [_ Hc]. apply Hc. exact Hx.
Qed.

Lemma chunks_perm g a : analyse g = Some a -> Permutation (pre_chunks a) (a_chunks a).
Proof. intro H. destruct (analyse_inv _ _ H) as [_ [_ [HC _]]]. rewrite HC. apply sort_chunks_perm. Qed.

Lemma chunk_keys_nodup g a : analyse g = Some a -> NoDup (map c_bits (a_chunks a)).
Proof.
  intro H. eapply Permutation_NoDup; [apply Permutation_map; apply (chunks_perm g); exact H | apply pre_keys_nodup].
Qed.
Lemma chunk_bits_inj g a i j : analyse g = Some a ->
  (i < length (a_chunks a))%nat -> (j < length (a_chunks a))%nat ->
  c_bits (nth i (a_chunks a) dchunk) = c_bits (nth j (a_chunks a) dchunk) -> i = j.
Proof.
  intros H Hi Hj E.
  apply (proj1 (NoDup_nth (map c_bits (a_chunks a)) (c_bits dchunk)) (chunk_keys_nodup g a H));
    [rewrite map_length; exact Hi | rewrite map_length; exact Hj | rewrite !map_nth; exact E].
Qed.

Lemma chunk_In g a c : analyse g = Some a -> (In c (a_chunks a) <-> In c (pre_chunks a)).
Proof.
  intro H. split; apply Permutation_in; [apply Permutation_sym|]; apply (chunks_perm g); exact H.
Qed.

Lemma lfiles_In a f : In f (lfiles a) <-> In f (a_order a) /\ is_live a f = true.
Proof. unfold lfiles, is_live. rewrite filter_In. reflexivity. Qed.

Lemma chunk_shape g a c : analyse g = Some a -> In c (a_chunks a) ->
  c_files c = filter (fun f => Equals (file_bits a f) (c_bits c)) (lfiles a) /\
  ((exists i, (i < length (a_entries a))%nat /\ c_bits c = SetBit (NewBitSet (length (a_entries a))) i /\
              c_entry c = Some (i, nth i (a_entries a) O)) \/
   (c_entry c = None /\ exists f, In f (lfiles a) /\ c_bits c = file_bits a f)).
Proof.
  intros H Hc. apply (chunk_In _ _ _ H) in Hc. unfold pre_chunks in Hc.
  apply in_map_iff in Hc as [c0 [<- Hc0]]. split; [reflexivity|]. simpl.
  unfold pre_all in Hc0. apply in_app_or in Hc0 as [Hc0|Hc0].
  - left. apply entry_chunk_In in Hc0 as [i [Hi ->]]. exists i. simpl. auto.
  - right. apply in_map_iff in Hc0 as [k [<- Hk]]. simpl. split; [reflexivity|].
    apply extra_keys_spec in Hk as [Hk _]. apply in_map_iff in Hk as [f [E Hf]]. exists f. auto.
Qed.

Lemma chunk_files g a c f : analyse g = Some a -> In c (a_chunks a) ->
  (In f (c_files c) <-> In f (a_order a) /\ is_live a f = true /\ file_bits a f = c_bits c).
Proof.
  intros H Hc. destruct (chunk_shape _ _ _ H Hc) as [-> _].
  rewrite filter_In, lfiles_In, Equals_eq. tauto.
Qed.

Lemma chunk_good_bits g a c : analyse g = Some a -> In c (a_chunks a) ->
  good_bits (length (a_entries a)) (c_bits c).
Proof.
  intros H Hc. destruct (chunk_shape _ _ _ H Hc) as [_ [[i [Hi [E _]]]|[_ [f [_ E]]]]]; rewrite E.
  - apply good_singleton. exact Hi.
  - eapply good_file_bits. exact H.
Qed.

Lemma chunk_entry_shape g a c bit e : analyse g = Some a -> In c (a_chunks a) -> c_entry c = Some (bit, e) ->
  (bit < length (a_entries a))%nat /\ e = nth bit (a_entries a) O /\
  c_bits c = SetBit (NewBitSet (length (a_entries a))) bit.
Proof.
  intros H Hc He. destruct (chunk_shape _ _ _ H Hc) as [_ [[i [Hi [E E2]]]|[E _]]]; [|congruence].
  rewrite E2 in He. inversion He; subst. auto.
Qed.

Lemma entry_chunk_exists g a i : analyse g = Some a -> (i < length (a_entries a))%nat ->
  exists c, In c (a_chunks a) /\ c_entry c = Some (i, nth i (a_entries a) O).
Proof.
  intros H Hi. exists (fill a (mkChunk (SetBit (NewBitSet (length (a_entries a))) i) (Some (i, nth i (a_entries a) O)) [])).
  split; [|reflexivity]. apply (chunk_In _ _ _ H). apply in_map. apply in_or_app. left.
  apply entry_chunk_In. exists i. auto.
Qed.

(* every live reachable file is in a chunk *)
Lemma chunk_cover g a f : analyse g = Some a -> In f (a_order a) -> is_live a f = true ->
  exists c, In c (a_chunks a) /\ In f (c_files c).
Proof.
  intros H Ho Hl.
  assert (Hlf : In f (lfiles a)) by (apply lfiles_In; auto).
  assert (Hk : In (file_bits a f) (map c_bits (pre_all a))).
  { rewrite pre_all_keys. apply in_or_app.
    set (ek := map (fun c => String (c_bits c)) _).
    destruct (in_dec (list_eq_dec Z.eq_dec) (file_bits a f) ek) as [E|E]; [left; exact E | right].
    apply extra_keys_spec. split; [apply in_map_iff; exists f; auto | exact E]. }
  apply in_map_iff in Hk as [c0 [E Hc0]]. exists (fill a c0). split.
  - apply (chunk_In _ _ _ H). apply in_map. exact Hc0.
  - apply filter_In. split; [exact Hlf | apply Equals_eq; auto].
Qed.

Lemma chunks_partition_lemma g a : analyse g = Some a ->
  (forall f, In f (a_order a) -> is_live a f = true ->
     exists i, (i < length (a_chunks a))%nat /\ In f (c_files (nth i (a_chunks a) dchunk)) /\
       forall j, (j < length (a_chunks a))%nat -> In f (c_files (nth j (a_chunks a) dchunk)) -> j = i) /\
  (forall c f, In c (a_chunks a) -> In f (c_files c) -> In f (a_order a) /\ is_live a f = true).
Proof.
  intro H. split.
  - intros f Ho Hl. destruct (chunk_cover _ _ _ H Ho Hl) as [c [Hc Hf]].
    destruct (In_nth _ _ dchunk Hc) as [i [Hi E]]. exists i. split; [exact Hi|]. split; [rewrite E; exact Hf|].
    intros j Hj Hfj. apply (chunk_bits_inj g a j i H Hj Hi).
    apply (chunk_files _ _ _ f H (nth_In _ _ Hj)) in Hfj. apply (chunk_files _ _ _ f H Hc) in Hf. rewrite E. intuition congruence.
  - intros c f Hc Hf. apply (chunk_files _ _ _ f H Hc) in Hf. tauto.
Qed.

(* dependencies cover uses: a declared symbol used from, or exported by an entry point from,
   another file is backed by a dependency on the declaring file.  This holds by construction:
   Split.part_deps / export_deps complete the dumped dependencies the way
   scanImportsAndExports builds them. *)
Lemma uses_covered g f s : In s (f_uses (getf g f)) -> is_declared g s = true -> In (fst s) (f_deps g (getf g f)).
Proof.
  intros Hs Hd. unfold f_uses in Hs. apply in_map_iff in Hs as [u [E Hu]].
  apply in_flat_map in Hu as [p [Hp Hu]]. apply filter_In in Hp as [Hp _].
  unfold f_deps. apply in_flat_map. exists p. split; [exact Hp|].
  unfold part_deps. apply in_or_app. right. unfold sym_deps. apply in_map_iff. exists s. split; [reflexivity|].
  apply filter_In. split; [|exact Hd]. apply in_map_iff. exists u. auto.
Qed.
Lemma exports_covered g ents e s :
  In e ents -> In s (entry_exports g e) -> is_declared g s = true -> In (fst s) (export_deps g ents e).
Proof.
  intros He Hs Hd. unfold export_deps. rewrite (proj2 (memn_In e ents) He).
  apply in_map_iff. exists s. split; [reflexivity|]. apply filter_In. auto.
Qed.

Lemma declared_live_any fl i : In i (declared_live fl) -> In i (declared_any fl).
Proof.
  unfold declared_live, declared_any, live_parts. intro H. apply in_flat_map in H as [p [Hp Hi]].
  apply filter_In in Hp as [Hp _]. apply in_flat_map. exists p. auto.
Qed.

Lemma find_chunk_spec bs : forall l i0 k, find_chunk bs l i0 = Some k ->
  (i0 <= k)%nat /\ (k - i0 < length l)%nat /\ bs = c_bits (nth (k - i0) l dchunk).
Proof.
  induction l as [|c l IH]; intros i0 k H; simpl in H; [discriminate|].
  destruct (Equals bs (c_bits c)) eqn:E.
  - inversion H; subst. rewrite Nat.sub_diag. simpl. apply Equals_eq in E. repeat split; [lia | lia | exact E].
  - apply IH in H as [H1 [H2 H3]]. replace (k - i0)%nat with (S (k - S i0)) by lia. simpl.
    repeat split; [lia | lia | exact H3].
Qed.

Lemma chunk_of_sym_declared g a s oi : chunk_of_sym g a s = Some oi -> is_declared g s = true.
Proof.
  unfold chunk_of_sym, is_declared. intro H.
  destruct (memn (snd s) (declared_live (getf g (fst s)))) eqn:E; [|discriminate].
  apply memn_In. apply declared_live_any. apply memn_In. exact E.
Qed.

Lemma chunk_of_sym_spec g a s oi : chunk_of_sym g a s = Some oi ->
  is_live a (fst s) = true /\ (oi < length (a_chunks a))%nat /\
  file_bits a (fst s) = c_bits (nth oi (a_chunks a) dchunk).
Proof.
  unfold chunk_of_sym, chunk_of_file. intro H.
  destruct (memn (snd s) (declared_live (getf g (fst s)))); [|discriminate].
  destruct (is_live a (fst s)) eqn:L; [|discriminate].
  apply find_chunk_spec in H as [_ [H2 H3]]. rewrite Nat.sub_0_r in *. auto.
Qed.

(* the symbols the code of chunk c references that are declared in chunk oi *)
Definition uses_from (g : graph) (a : analysis) (c : chunk) (oi : nat) : list sym :=
  filter (fun s => match chunk_of_sym g a s with Some x => (x =? oi)%nat | None => false end) (chunk_uses g c).
Lemma uses_from_In g a c oi s : In s (uses_from g a c oi) <-> In s (chunk_uses g c) /\ chunk_of_sym g a s = Some oi.
Proof.
  unfold uses_from. rewrite filter_In. destruct (chunk_of_sym g a s) as [x|]; [|intuition discriminate].
  rewrite Nat.eqb_eq. intuition congruence.
Qed.

Lemma raw_imports_In g a ci c oi items : In (oi, items) (raw_imports g a ci c) <->
  (oi < length (a_chunks a))%nat /\ oi <> ci /\ items = uses_from g a c oi /\
  ((exists s, In s items) \/
   exists bit e, c_entry c = Some (bit, e) /\ HasBit (c_bits (nth oi (a_chunks a) dchunk)) bit = true).
Proof.
  unfold raw_imports. rewrite in_flat_map. fold dchunk. split.
  - intros [o [Ho H]]. apply in_seq in Ho. destruct (Nat.eqb_spec o ci) as [->|Hne]; [destruct H|].
    change (filter _ (chunk_uses g c)) with (uses_from g a c o) in H.
    destruct (uses_from g a c o) as [|s0 rest] eqn:EI.
    + destruct (c_entry c) as [[bit e]|]; [|destruct H]. destruct (HasBit _ bit) eqn:HB; [|destruct H].
      destruct H as [H|[]]. inversion H; subst. rewrite EI. repeat split; [lia | exact Hne | right; eauto].
    + destruct H as [H|[]]. inversion H; subst. rewrite EI.
      repeat split; [lia | exact Hne | left; exists s0; left; reflexivity].
  - intros [Hoi [Hne [-> Hc]]]. exists oi. split; [apply in_seq; lia|].
    destruct (Nat.eqb_spec oi ci); [contradiction|].
    change (filter _ (chunk_uses g c)) with (uses_from g a c oi).
    destruct (uses_from g a c oi); [|left; reflexivity].
    destruct Hc as [[s []]|[bit [e [-> ->]]]]. left. reflexivity.
Qed.

(* a file that has bit j passes it on to the declaring file of anything it depends on *)
Lemma dep_bits g a f t j : analyse g = Some a -> (j < length (a_entries a))%nat ->
  In t (f_deps g (getf g f) ++ export_deps g (a_entries a) f) -> is_live a t = true ->
  HasBit (file_bits a f) j = true -> HasBit (file_bits a t) j = true.
Proof.
  intros H Hj Hd Hl. destruct (Nat.eq_dec t f) as [->|Hne]; [auto|].
  rewrite !(bits_iff_reachable_lemma g a _ j H Hj). intro P. eapply path_step; [exact P | | exact Hl].
  unfold split_succ. apply in_or_app. right. apply filter_In. split; [exact Hd|].
  apply negb_true_iff. apply Nat.eqb_neq. exact Hne.
Qed.

Lemma entry_has_own_bit g a i : analyse g = Some a -> (i < length (a_entries a))%nat ->
  HasBit (file_bits a (nth i (a_entries a) O)) i = true.
Proof. intros H Hi. apply (bits_iff_reachable_lemma g a _ i H Hi). apply path_refl. Qed.

(* whatever a chunk references is declared in a file that has all the chunk's bits: a file of
   the chunk depends on the declaring file, and so does the entry point for its export targets *)
Lemma used_sym_bits g a c s oi j : analyse g = Some a -> In c (a_chunks a) ->
  In s (chunk_uses g c) -> chunk_of_sym g a s = Some oi -> (j < length (a_entries a))%nat ->
  HasBit (c_bits c) j = true -> HasBit (file_bits a (fst s)) j = true.
Proof.
  intros H Hc Hu Hs Hj Hb.
  pose proof (chunk_of_sym_declared _ _ _ _ Hs) as Hdecl.
  apply chunk_of_sym_spec in Hs as [Hl _].
  unfold chunk_uses in Hu. apply (proj1 (dedupe_syms_In _ _)) in Hu. apply in_app_or in Hu as [Hu|Hu].
  - apply in_flat_map in Hu as [f [Hf Hu]].
    apply (chunk_files _ _ _ f H Hc) in Hf as [_ [_ Hfb]]. rewrite <- Hfb in Hb.
    apply (dep_bits g a f _ j H Hj); [apply in_or_app; left; apply uses_covered; assumption | exact Hl | exact Hb].
  - destruct (c_entry c) as [[bit e]|] eqn:HE; [|destruct Hu].
    destruct (chunk_entry_shape _ _ _ _ _ H Hc HE) as [Hbit [He Hcb]].
    rewrite Hcb in Hb. apply singleton_bit in Hb; [|exact Hbit]. subst j e.
    apply (dep_bits g a (nth bit (a_entries a) O) _ bit H Hbit); [| exact Hl | apply (entry_has_own_bit g); assumption].
    apply in_or_app. right. apply exports_covered; [apply nth_In; exact Hbit | exact Hu | exact Hdecl].
Qed.

Lemma raw_import_superset g a ci oi items :
  analyse g = Some a -> (ci < length (a_chunks a))%nat ->
  In (oi, items) (raw_imports g a ci (nth ci (a_chunks a) dchunk)) ->
  (forall j, (j < length (a_entries a))%nat ->
     HasBit (c_bits (nth ci (a_chunks a) dchunk)) j = true ->
     HasBit (c_bits (nth oi (a_chunks a) dchunk)) j = true) /\
  c_bits (nth ci (a_chunks a) dchunk) <> c_bits (nth oi (a_chunks a) dchunk).
Proof.
  intros H Hci Hin.
  set (c := nth ci (a_chunks a) dchunk) in *.
  assert (Hc : In c (a_chunks a)) by (apply nth_In; exact Hci).
  apply raw_imports_In in Hin as [Hoi [Hne [-> Hcase]]].
  split.
  - intros j Hj Hb. destruct Hcase as [[s Hu]|[bit [e [HE HB]]]].
    + apply uses_from_In in Hu as [Hu Hs].
      destruct (chunk_of_sym_spec _ _ _ _ Hs) as [_ [_ Hbits]]. rewrite <- Hbits.
      exact (used_sym_bits g a c s oi j H Hc Hu Hs Hj Hb).
    + destruct (chunk_entry_shape _ _ _ _ _ H Hc HE) as [Hbit [_ Hcb]].
      rewrite Hcb in Hb. apply singleton_bit in Hb; [|exact Hbit]. subst j. exact HB.
  - intro E. apply Hne. symmetry. apply (chunk_bits_inj g a ci oi H Hci Hoi E).
Qed.

Lemma lookup_alias_In s l al : lookup_alias s l = Some al -> In (s, al) l.
Proof.
  induction l as [|[x y] l IH]; simpl; [discriminate|].
  destruct (sym_eqb s x) eqn:E.
  - intro H. inversion H; subst. apply sym_eqb_eq in E. subst. left. reflexivity.
  - intro H. right. apply IH. exact H.
Qed.

Lemma chunk_exports_In a raw oi s : In s (chunk_exports a raw oi) <->
  exists imps items, In imps raw /\ In (oi, items) imps /\ In s items.
Proof.
  unfold chunk_exports. split.
  - intro H. apply (Permutation_in _ (Permutation_sym (sort_sym_perm a _))) in H.
    apply (proj1 (dedupe_syms_In _ _)) in H.
    apply in_flat_map in H as [imps [Hi H]]. apply in_flat_map in H as [[o items] [Hp H]]. simpl in H.
    destruct (Nat.eqb_spec o oi) as [->|]; [eauto | destruct H].
  - intros [imps [items [Hi [Hp Hs]]]]. eapply Permutation_in; [apply sort_sym_perm|]. apply dedupe_syms_In.
    apply in_flat_map. exists imps. split; [exact Hi|]. apply in_flat_map. exists (oi, items).
    split; [exact Hp|]. simpl. rewrite Nat.eqb_refl. exact Hs.
Qed.

(* cross_chunk in two steps: the import statement for one entry (other chunk, refs) of
   raw_imports, given the export tables of all chunks, and the record of chunk number ci *)
Definition import_stmt (exps : list (list (sym * bytes))) (p : nat * list sym) : option cimport :=
  match all_some (map (fun s => lookup_alias s (nth (fst p) exps [])) (snd p)) with
  | Some als => Some (mkImp false (fst p) (fold_right insert_alias [] als))
  | None => None
  end.
Definition raw_all (g : graph) (a : analysis) : list (list (nat * list sym)) := mapi_from (raw_imports g a) 0 (a_chunks a).
Definition cross_of (g : graph) (a : analysis) (exps : list (list (sym * bytes))) (ci : nat) (c : chunk) : option cross :=
  match all_some (map (import_stmt exps) (nth ci (raw_all g a) [])) with
  | Some st => Some (mkCross (map (fun oi => mkImp true oi []) (dynamic_imports g a ci c) ++ st) (nth ci exps []))
  | None => None
  end.

Lemma cross_chunk_eq g a : cross_chunk g a =
  match all_some (map (fun oi => export_aliases g (chunk_exports a (raw_all g a) oi)) (seq 0 (length (a_chunks a)))) with
  | None => None
  | Some exps => all_some (mapi_from (cross_of g a exps) 0 (a_chunks a))
  end.
Proof. reflexivity. Qed.

Lemma raw_all_nth g a ci : (ci < length (a_chunks a))%nat ->
  nth ci (raw_all g a) [] = raw_imports g a ci (nth ci (a_chunks a) dchunk).
Proof. intro H. exact (mapi_from_nth (raw_imports g a) 0 (a_chunks a) ci dchunk [] H). Qed.

Lemma import_stmt_spec exps p im : import_stmt exps p = Some im ->
  i_dynamic im = false /\ i_chunk im = fst p /\
  exists als, Forall2 (fun s al => lookup_alias s (nth (fst p) exps []) = Some al) (snd p) als /\
              Permutation als (i_items im).
Proof.
  unfold import_stmt. destruct (all_some _) as [als|] eqn:EA; [|discriminate]. intro H. injection H as <-.
  split; [reflexivity|]. split; [reflexivity|]. exists als. split; [apply all_some_map; exact EA | apply sort_alias_perm].
Qed.

(* what [import_stmt_spec] says, with the export tables read off the result *)
Definition import_of (xs : list cross) (p : nat * list sym) (im : cimport) : Prop :=
  i_dynamic im = false /\ i_chunk im = fst p /\
  exists als, Forall2 (fun s al => lookup_alias s (x_exports (nth (fst p) xs dcross)) = Some al) (snd p) als /\
              Permutation als (i_items im).

Lemma cross_chunk_length g a xs : cross_chunk g a = Some xs -> length xs = length (a_chunks a).
Proof.
  rewrite cross_chunk_eq. intro H. destruct (all_some _) as [exps|]; [|discriminate].
  apply all_some_length in H. rewrite mapi_from_length in H. exact H.
Qed.

Lemma cross_chunk_nth g a xs ci : cross_chunk g a = Some xs -> (ci < length (a_chunks a))%nat ->
  export_aliases g (chunk_exports a (raw_all g a) ci) = Some (x_exports (nth ci xs dcross)) /\
  exists st,
    x_imports (nth ci xs dcross) =
      map (fun oi => mkImp true oi []) (dynamic_imports g a ci (nth ci (a_chunks a) dchunk)) ++ st /\
    Forall2 (import_of xs) (raw_imports g a ci (nth ci (a_chunks a) dchunk)) st.
Proof.
  intros H Hci. pose proof (cross_chunk_length _ _ _ H) as LX. rewrite cross_chunk_eq in H.
  destruct (all_some (map _ (seq 0 (length (a_chunks a))))) as [exps|] eqn:EE; [|discriminate].
  assert (N : forall i, (i < length (a_chunks a))%nat ->
            cross_of g a exps i (nth i (a_chunks a) dchunk) = Some (nth i xs dcross))
    by (intros i Hi; exact (all_some_mapi_nth _ 0 _ _ i dchunk dcross H Hi)).
  assert (EXP : forall oi, x_exports (nth oi xs dcross) = nth oi exps []).
  { intro oi. destruct (Nat.ltb_spec oi (length (a_chunks a))) as [Hoi|Hoi].
    - generalize (N oi Hoi). unfold cross_of. destruct (all_some (map (import_stmt exps) _)); [|discriminate].
      intro E. injection E as <-. reflexivity.
    - apply all_some_length in EE. rewrite map_length, seq_length in EE.
      rewrite !nth_overflow by lia. reflexivity. }
  split.
  - rewrite EXP. apply (all_some_map_nth _ _ _ ci O []) in EE; [|rewrite seq_length; exact Hci].
    rewrite seq_nth in EE by exact Hci. exact EE.
  - generalize (N ci Hci). unfold cross_of. rewrite (raw_all_nth g a ci Hci).
    destruct (all_some (map (import_stmt exps) _)) as [st|] eqn:ST; [|discriminate]. intro E. injection E as <-.
    exists st. split; [reflexivity|].
    apply all_some_map in ST. eapply Forall2_mono; [|exact ST]. intros p im HF.
    apply import_stmt_spec in HF as [D [C [als [FA PA]]]].
    split; [exact D|]. split; [exact C|]. exists als. split; [|exact PA].
    eapply Forall2_mono; [|exact FA]. intros s al HL. rewrite EXP. exact HL.
Qed.

Lemma static_imports_spec g a xs ci : cross_chunk g a = Some xs -> (ci < length (a_chunks a))%nat ->
  Forall2 (import_of xs) (raw_imports g a ci (nth ci (a_chunks a) dchunk))
          (filter (fun i => negb (i_dynamic i)) (x_imports (nth ci xs dcross))).
Proof.
  intros H Hci. destruct (cross_chunk_nth _ _ _ _ H Hci) as [_ [st [-> F]]].
  rewrite filter_app.
  replace (filter _ (map _ _)) with (@nil cimport) by (induction (dynamic_imports _ _ _ _); auto).
  replace (filter _ st) with st; [exact F|].
  clear -F. induction F as [|p im l m [D _] _ IH]; simpl; [reflexivity|]. rewrite D. simpl. f_equal. exact IH.
Qed.

Lemma static_import_item g a xs ci im al : cross_chunk g a = Some xs -> (ci < length (a_chunks a))%nat ->
  In im (filter (fun i => negb (i_dynamic i)) (x_imports (nth ci xs dcross))) -> In al (i_items im) ->
  exists items s, In (i_chunk im, items) (raw_imports g a ci (nth ci (a_chunks a) dchunk)) /\ In s items /\
    lookup_alias s (x_exports (nth (i_chunk im) xs dcross)) = Some al.
Proof.
  intros H Hci Him Hal.
  destruct (Forall2_in_r _ _ _ _ (static_imports_spec _ _ _ _ H Hci) Him) as [[oi items] [Hp [_ [E [als [FA PA]]]]]].
  simpl in *. subst oi.
  apply (Permutation_in _ (Permutation_sym PA)) in Hal.
  destruct (Forall2_in_r _ _ _ _ FA Hal) as [s [Hs El]]. exists items, s. auto.
Qed.

Lemma static_succ_raw g a xs ci : cross_chunk g a = Some xs -> (ci < length (a_chunks a))%nat ->
  static_succ xs ci = map fst (raw_imports g a ci (nth ci (a_chunks a) dchunk)).
Proof.
  intros H Hci. unfold static_succ. fold dcross.
  induction (static_imports_spec _ _ _ _ H Hci) as [|p im l m [_ [E _]] _ IH]; simpl; congruence.
Qed.

Lemma static_succ_out xs ci : (length xs <= ci)%nat -> static_succ xs ci = [].
Proof. intro H. unfold static_succ. rewrite nth_overflow by exact H. reflexivity. Qed.

Definition sedge (xs : list cross) (i j : nat) : Prop := In j (static_succ xs i).
Definition measure (a : analysis) (i : nat) : nat :=
  card (c_bits (nth i (a_chunks a) dchunk)) (length (a_entries a)).

Lemma sedge_spec g a xs i j : analyse g = Some a -> cross_chunk g a = Some xs ->
  sedge xs i j ->
  (i < length (a_chunks a))%nat /\ (j < length (a_chunks a))%nat /\
  (forall b, (b < length (a_entries a))%nat ->
     HasBit (c_bits (nth i (a_chunks a) dchunk)) b = true -> HasBit (c_bits (nth j (a_chunks a) dchunk)) b = true) /\
  c_bits (nth i (a_chunks a) dchunk) <> c_bits (nth j (a_chunks a) dchunk).
Proof.
  intros H HX E. unfold sedge in E.
  destruct (Nat.ltb_spec i (length (a_chunks a))) as [Hi|Hi].
  2:{ rewrite static_succ_out in E by (rewrite (cross_chunk_length _ _ _ HX); exact Hi). destruct E. }
  rewrite (static_succ_raw _ _ _ _ HX Hi) in E. apply in_map_iff in E as [[oi items] [E1 E2]]. simpl in E1. subst oi.
  split; [exact Hi|].
  pose proof (proj1 (raw_imports_In _ _ _ _ _ _) E2) as [Hj _]. split; [exact Hj|].
  apply (raw_import_superset g a i j items); assumption.
Qed.

Lemma sedge_measure g a xs i j : analyse g = Some a -> cross_chunk g a = Some xs ->
  sedge xs i j -> (measure a i < measure a j)%nat.
Proof.
  intros H HX E. destruct (sedge_spec _ _ _ _ _ H HX E) as [Hi [Hj [Hsub Hne]]].
  apply good_bits_card_lt; try assumption; apply (chunk_good_bits g), nth_In; assumption.
Qed.

Lemma static_acyclic_lemma g a xs : analyse g = Some a -> cross_chunk g a = Some xs ->
  forall i, ~ clos_trans nat (sedge xs) i i.
Proof.
  intros H HX.
  assert (M : forall i j, clos_trans nat (sedge xs) i j -> (measure a i < measure a j)%nat).
  { intros i j P. induction P as [i j E|i k j _ IH1 _ IH2]; [eapply sedge_measure; eauto | lia]. }
  intros i P. apply M in P. lia.
Qed.

Lemma entry_loads_lemma g a xs ci oi bit e f :
  analyse g = Some a -> cross_chunk g a = Some xs ->
  (ci < length (a_chunks a))%nat -> (oi < length (a_chunks a))%nat ->
  c_entry (nth ci (a_chunks a) dchunk) = Some (bit, e) ->
  In f (c_files (nth oi (a_chunks a) dchunk)) ->
  path (split_succ g (a_entries a)) (is_live a) e f ->
  oi = ci \/ sedge xs ci oi.
Proof.
  intros H HX Hci Hoi HE Hf HP.
  destruct (Nat.eq_dec oi ci) as [->|Hne]; [left; reflexivity | right].
  destruct (chunk_entry_shape _ _ _ _ _ H (nth_In _ _ Hci) HE) as [Hbit [-> _]].
  apply (chunk_files _ _ _ f H (nth_In _ _ Hoi)) in Hf as [_ [_ Hfb]].
  apply (bits_iff_reachable_lemma g a f bit H Hbit) in HP. rewrite Hfb in HP.
  unfold sedge. rewrite (static_succ_raw _ _ _ _ HX Hci).
  apply in_map_iff. exists (oi, uses_from g a (nth ci (a_chunks a) dchunk) oi). split; [reflexivity|].
  apply raw_imports_In. eauto 10.
Qed.

Lemma exports_exist_lemma g a xs ci im al :
  cross_chunk g a = Some xs -> (ci < length (a_chunks a))%nat ->
  In im (x_imports (nth ci xs dcross)) -> i_dynamic im = false -> In al (i_items im) ->
  (i_chunk im < length (a_chunks a))%nat /\ i_chunk im <> ci /\
  exists s, In (s, al) (x_exports (nth (i_chunk im) xs dcross)).
Proof.
  intros H Hci Him Hdyn Hal.
  assert (Hst : In im (filter (fun i => negb (i_dynamic i)) (x_imports (nth ci xs dcross))))
    by (apply filter_In; rewrite Hdyn; auto).
  destruct (static_import_item _ _ _ _ _ _ H Hci Hst Hal) as [items [s [Hp [_ El]]]].
  apply raw_imports_In in Hp as [Hoi [Hne _]]. split; [exact Hoi|]. split; [exact Hne|].
  exists s. apply lookup_alias_In. exact El.
Qed.

Lemma export_aliases_nodup g ex r : export_aliases g ex = Some r -> NoDup (map snd r) /\ map fst r = ex.
Proof.
  unfold export_aliases. destruct (g_minify g).
  - intro H. inversion H; subst.
    assert (L : length ex = length (map minified_name (seq 0 (length ex)))) by (rewrite map_length, seq_length; reflexivity).
    split; [rewrite combine_snd by exact L; apply minified_names_nodup | apply combine_fst; exact L].
  - destruct (rename_all (map (sym_name g) ex)) as [names|] eqn:R; [|discriminate].
    intro H. inversion H; subst. apply rename_all_nodup in R as [ND L]. rewrite map_length in L.
    split; [rewrite combine_snd by lia; exact ND | apply combine_fst; lia].
Qed.

Lemma export_aliases_nodup_lemma g a xs oi : cross_chunk g a = Some xs -> (oi < length (a_chunks a))%nat ->
  NoDup (map snd (x_exports (nth oi xs dcross))).
Proof. intros H Hoi. destruct (cross_chunk_nth _ _ _ _ H Hoi) as [E _]. apply export_aliases_nodup in E. tauto. Qed.

Lemma fold_no_error {A} (step : A -> list nat -> bool * list nat) (l : list A) :
  (forall x b, In x l -> fst (step x b) = false) ->
  forall b, fst (fold_left (fun (s : bool * list nat) x => if fst s then s else step x (snd s)) l (false, b)) = false.
Proof.
  induction l as [|x l IH]; intros H b; simpl; [reflexivity|].
  destruct (step x b) as [e b'] eqn:E.
  assert (e = false) by (pose proof (H x b (or_introl eq_refl)) as P; rewrite E in P; exact P). subst e.
  apply IH. intros y b0 Hy. apply H. right. exact Hy.
Qed.

(* enforceNoCyclicChunkImports never reports an error (and never runs out of fuel): the gray
   nodes are distinct, below length xs, and all reach the node being visited *)
Lemma validate_ok xs :
  (forall i, ~ clos_trans nat (sedge xs) i i) ->
  (forall i j, sedge xs i j -> (j < length xs)%nat) ->
  forall fuel ci gray black,
    NoDup gray -> (forall x, In x gray -> (x < length xs)%nat /\ clos_trans nat (sedge xs) x ci) ->
    (ci < length xs)%nat -> (S (length xs) <= fuel + length gray)%nat ->
    fst (validate fuel xs ci gray black) = false.
Proof.
  intros Hacyc Hbound. induction fuel as [|k IH]; intros ci gray black ND HG Hci HF.
  - pose proof (bounded_nodup_length gray (length xs) ND (fun x Hx => proj1 (HG x Hx))). simpl in HF. lia.
  - simpl. destruct (memn ci gray) eqn:EG.
    + exfalso. apply memn_In in EG. destruct (HG ci EG) as [_ P]. exact (Hacyc ci P).
    + destruct (memn ci black); [reflexivity|].
      assert (F : fst (fold_left (fun (s : bool * list nat) oi => if fst s then s else validate k xs oi (ci :: gray) (snd s))
                         (static_succ xs ci) (false, black)) = false).
      { apply (fold_no_error (fun oi b => validate k xs oi (ci :: gray) b)).
        intros oi b Hoi. apply IH.
        - constructor; [apply memn_false; exact EG | exact ND].
        - intros x [<-|Hx].
          + split; [exact Hci | apply t_step; exact Hoi].
          + destruct (HG x Hx) as [Hx1 Hx2]. split; [exact Hx1|].
            eapply t_trans; [exact Hx2 | apply t_step; exact Hoi].
        - apply (Hbound ci oi). exact Hoi.
        - simpl. lia. }
      destruct (fold_left _ (static_succ xs ci) (false, black)) as [err black'].
      simpl in F. subst err. reflexivity.
Qed.

Lemma enforce_ok xs :
  (forall i, ~ clos_trans nat (sedge xs) i i) ->
  (forall i j, sedge xs i j -> (j < length xs)%nat) ->
  enforce_cycle_error xs = false.
Proof.
  intros Hacyc Hbound. unfold enforce_cycle_error.
  apply (fold_no_error (fun ci b => validate (S (length xs)) xs ci [] b)).
  intros ci b Hci. apply in_seq in Hci. apply validate_ok; try assumption.
  - constructor.
  - intros x [].
  - lia.
  - simpl. lia.
Qed.

Lemma enforce_never_fires_lemma g a xs : analyse g = Some a -> cross_chunk g a = Some xs ->
  enforce_cycle_error xs = false.
Proof.
  intros A X. apply enforce_ok; [exact (static_acyclic_lemma g a xs A X)|].
  intros i j E. destruct (sedge_spec _ _ _ _ _ A X E) as [_ [Hj _]].
  rewrite (cross_chunk_length _ _ _ X). exact Hj.
Qed.

Lemma split_inv g r : split g = Some r ->
  analyse g = Some (r_analysis r) /\ cross_chunk g (r_analysis r) = Some (r_cross r) /\
  r_orders r = map (chunk_order g (r_analysis r)) (a_chunks (r_analysis r)).
Proof.
  unfold split. destruct (analyse g) as [a|] eqn:A; [|discriminate].
  destruct (cross_chunk g a) as [xs|] eqn:X; [|discriminate].
  intro H. injection H as <-. simpl. auto.
Qed.
Lemma split_analyse g r : split g = Some r -> analyse g = Some (r_analysis r).
Proof. intro H. apply (split_inv g r H). Qed.
Lemma split_cross g r : split g = Some r -> cross_chunk g (r_analysis r) = Some (r_cross r).
Proof. intro H. apply (split_inv g r H). Qed.

Lemma ldeps_sub_deps g fl t : In t (f_ldeps g fl) -> In t (f_deps g fl).
Proof.
  unfold f_ldeps, f_deps, live_parts. intro H. apply in_flat_map in H as [p [Hp Ht]].
  apply filter_In in Hp as [Hp _]. apply in_flat_map. exists p. auto.
Qed.

Lemma live_succ_split g ents y z : In z (live_succ g ents y) -> z = y \/ In z (split_succ g ents y).
Proof.
  unfold live_succ, split_succ. intro H. apply in_app_or in H as [H|H].
  - right. apply in_or_app. left. apply in_map_iff in H as [r [E Hr]]. apply filter_In in Hr as [Hr Hd].
    apply in_map_iff. exists r. split; [exact E|]. apply filter_In. split; [exact Hr|].
    unfold is_external_dynamic. apply negb_true_iff in Hd. rewrite Hd. reflexivity.
  - destruct (Nat.eq_dec z y) as [->|Hne]; [left; reflexivity | right].
    apply in_or_app. right. apply filter_In. split.
    + apply in_app_or in H as [H|H]; apply in_or_app; [left; apply ldeps_sub_deps; exact H | right; exact H].
    + apply negb_true_iff. apply Nat.eqb_neq. exact Hne.
Qed.

Lemma live_has_bit g a f : analyse g = Some a -> is_live a f = true ->
  exists j, (j < length (a_entries a))%nat /\ HasBit (file_bits a f) j = true.
Proof.
  intros H Hl. apply (is_live_spec g a f H) in Hl as [e [He P]].
  (* the tree-shaking path is a code-splitting path: every file on it is live *)
  assert (Q : path (split_succ g (a_entries a)) (is_live a) e f).
  { induction P as [x|x y z P IH Hz _]; [apply path_refl|].
    destruct (live_succ_split g (a_entries a) y z Hz) as [->|Hs]; [exact (IH He)|].
    eapply path_step; [exact (IH He) | exact Hs |].
    apply (is_live_spec g a z H). exists x. split; [exact He | eapply path_step; eauto]. }
  destruct (In_nth _ _ O He) as [j [Hj <-]]. exists j. split; [exact Hj|].
  apply (bits_iff_reachable_lemma g a f j H Hj). exact Q.
Qed.

Lemma chunk_bits_nonempty g a c : analyse g = Some a -> In c (a_chunks a) ->
  exists b, (b < length (a_entries a))%nat /\ HasBit (c_bits c) b = true.
Proof.
  intros H Hc. destruct (chunk_shape _ _ _ H Hc) as [_ [[k [Hk [Ek _]]]|[_ [f [Hf Ef]]]]].
  - exists k. split; [exact Hk|]. rewrite Ek, HasBit_singleton by exact Hk. apply Nat.eqb_refl.
  - rewrite Ef. apply lfiles_In in Hf as [_ Hl]. apply (live_has_bit g); assumption.
Qed.

(* no chunk imports from an entry chunk: the importer's bits would be a proper subset of a
   singleton, hence empty *)
Lemma entry_no_importers_lemma g a xs i j bit e : analyse g = Some a -> cross_chunk g a = Some xs ->
  sedge xs i j -> c_entry (nth j (a_chunks a) dchunk) = Some (bit, e) -> False.
Proof.
  intros A X E HE.
  destruct (sedge_spec _ _ _ _ _ A X E) as [Hi [Hj [Hsub Hne]]].
  destruct (chunk_bits_nonempty g a _ A (nth_In _ dchunk Hi)) as [b [Hb Tb]].
  destruct (chunk_entry_shape _ _ _ _ _ A (nth_In _ _ Hj) HE) as [Hbit [_ Hcb]].
  assert (Hsub' : forall k, (k < length (a_entries a))%nat -> HasBit (c_bits (nth i (a_chunks a) dchunk)) k = true -> k = bit).
  { intros k Hk T. apply Hsub in T; [|exact Hk]. rewrite Hcb in T. apply singleton_bit in T; auto. }
  pose proof (Hsub' b Hb Tb) as ->.
  apply Hne, (good_bits_ext (length (a_entries a))); try (apply (chunk_good_bits g), nth_In; assumption).
  intros k Hk. rewrite Hcb, HasBit_singleton by exact Hbit.
  destruct (Nat.eqb_spec bit k) as [<-|Hkb]; [exact Tb|].
  destruct (HasBit (c_bits (nth i (a_chunks a) dchunk)) k) eqn:Ek; [|reflexivity].
  apply Hsub' in Ek; [congruence | exact Hk].
Qed.

(* the same with the importer's bit set assumed non-empty, which is not needed *)
Theorem entry_chunk_no_importers_partial_all g r i j bit e : split g = Some r ->
  let a := r_analysis r in
  sedge (r_cross r) i j -> c_entry (nth j (a_chunks a) dchunk) = Some (bit, e) ->
  (exists b, (b < length (a_entries a))%nat /\ HasBit (c_bits (nth i (a_chunks a) dchunk)) b = true) -> False.
Proof. intros H a E HE _. exact (entry_no_importers_lemma g _ _ i j bit e (split_analyse g r H) (split_cross g r H) E HE). Qed.
