(* Executable model of the code-splitting core of esbuild.

   Mirrors (Go, /repo):
     internal/bundler/bundler.go   findReachableFiles            -> reachable_files
     internal/graph/graph.go       CloneLinkerGraph (dynamic imports become
                                   entry points, sorted by stable index)   -> entries
     internal/linker/linker.go     markFileLiveForTreeShaking (file level) -> a_live / is_live
                                   markFileReachableForCodeSplitting       -> a_reach / file_bits / file_dist
                                   computeChunks                           -> entry_chunks / extra_keys / a_chunks
                                   findImportedPartsInJSOrder (file order) -> chunk_order
                                   computeCrossChunkDependencies           -> cross (imports, exports, aliases)
                                   enforceNoCyclicChunkImports             -> enforce_cycle_error
     internal/renamer/renamer.go   ExportRenamer                           -> Renamer.v

   Level of abstraction.  Files are numbered by the harness; file 0 is the
   runtime.  A file carries its import records in source order (static or
   import()), its parts (liveness, dependencies, raw symbol uses, top-level
   declarations), its ImportsToBind table, the names of its top-level symbols
   and its resolved exports, all as dumped from the real linker
   (internal/linker/export_verif_c10.go).  Part dependencies come twice: those of all parts
   (markFileReachableForCodeSplitting walks every part, live or not) and those
   of the live parts (tree shaking follows only these).  Every non-runtime file is assumed to have side
   effects (so file liveness is reachability) and to be ESM (never wrapped).
   markFileReachableForCodeSplitting is modelled as per-entry breadth-first
   reachability with the BFS layer as distance (the Go code re-traverses when a
   shorter distance is found, which computes exactly the minimum); the result
   is checked for closedness and [None] is returned if the fuel was too small
   (never observed; the theorems are about [Some]). *)
From V Require Import Common.Base C10.BitSet C10.Renamer.

Definition memn (x : nat) (l : list nat) : bool := existsb (Nat.eqb x) l.

Definition sym := (nat * nat)%type.  (* (declaring file, index into its f_names) *)
Definition sym_eqb (a b : sym) : bool := (fst a =? fst b)%nat && (snd a =? snd b)%nat.
Definition mems (x : sym) (l : list sym) : bool := existsb (sym_eqb x) l.

(* a part of a file (js_ast.Part), reduced to what code splitting reads *)
Record part := mkPart {
  p_live : bool;                (* Part.IsLive (result of tree shaking) *)
  p_deps : list nat;            (* Part.Dependencies: the files depended on *)
  p_uses : list sym;            (* keys of Part.SymbolUses (raw refs) *)
  p_declared : list nat         (* top-level DeclaredSymbols (inner indices) *)
}.
Record file := mkFile {
  f_recs : list (nat * bool);   (* import records in source order: (target, is import()) *)
  f_parts : list part;
  f_bind : list (sym * sym);    (* Meta.ImportsToBind: import ref -> the symbol it was bound to *)
  f_names : list (nat * bytes); (* OriginalName of the top-level symbols, by inner index *)
  f_rawexports : list sym       (* ResolvedExports (SourceIndex, Ref) in SortedAndFilteredExportAliases order *)
}.
Definition live_parts (fl : file) : list part := filter p_live (f_parts fl).
Fixpoint lookup_bind (s : sym) (l : list (sym * sym)) : option sym :=
  match l with
  | [] => None
  | (k, t) :: r => if sym_eqb s k then Some t else lookup_bind s r
  end.
(* "if importData, ok := repr.Meta.ImportsToBind[ref]; ok { ref = importData.Ref }" *)
Definition resolve_in (fl : file) (s : sym) : sym :=
  match lookup_bind s (f_bind fl) with Some t => t | None => s end.
(* symbols used by the live parts, after ImportsToBind of the using file *)
Definition f_uses (fl : file) : list sym := map (resolve_in fl) (flat_map p_uses (live_parts fl)).
(* top-level symbols declared by live parts: these get a Symbol.ChunkIndex *)
Definition declared_live (fl : file) : list nat := flat_map p_declared (live_parts fl).
Record graph := mkGraph {
  g_files : list file;
  g_user : list nat;            (* user-specified entry points in order *)
  g_minify : bool               (* MinifyIdentifiers *)
}.
Definition nofile := mkFile [] [] [] [] [].
Definition getf (g : graph) (f : nat) : file := nth f (g_files g) nofile.
(* export targets of an entry point: the bound symbol is looked up in the table of the
   file that resolved the export (c.graph.Files[export.SourceIndex]...ImportsToBind) *)
Definition entry_exports (g : graph) (e : nat) : list sym :=
  map (fun s => resolve_in (getf g (fst s)) s) (f_rawexports (getf g e)).

(* Part.Dependencies.  The dumped dependencies of a part are completed with what steps 5/6 of
   scanImportsAndExports add by construction: a dependency on the file of every part that
   declares a symbol the part uses (after ImportsToBind); the same for the dummy part of an
   entry point and its export targets.  On a real dump this adds nothing (the correspondence
   would show it); it makes "dependencies cover uses" a theorem instead of an assumption. *)
Definition declared_any (fl : file) : list nat := flat_map p_declared (f_parts fl).
Definition is_declared (g : graph) (s : sym) : bool := memn (snd s) (declared_any (getf g (fst s))).
Definition sym_deps (g : graph) (fl : file) (p : part) : list nat :=
  map fst (filter (is_declared g) (map (resolve_in fl) (p_uses p))).
Definition part_deps (g : graph) (fl : file) (p : part) : list nat := p_deps p ++ sym_deps g fl p.
(* dependencies of ALL parts (markFileReachableForCodeSplitting walks every part) *)
Definition f_deps (g : graph) (fl : file) : list nat := flat_map (part_deps g fl) (f_parts fl).
(* ... and of the LIVE parts only (tree shaking follows only these) *)
Definition f_ldeps (g : graph) (fl : file) : list nat := flat_map (part_deps g fl) (live_parts fl).
(* the entry point part depends on the parts declaring the export targets *)
Definition export_deps (g : graph) (ents : list nat) (e : nat) : list nat :=
  if memn e ents then map fst (filter (is_declared g) (entry_exports g e)) else [].
Definition nfiles (g : graph) : nat := length (g_files g).

(* ---- findReachableFiles: DFS post-order, runtime first, then the entry points ---- *)
(* generic depth-first post-order walk (visited set, output list) *)
Fixpoint gvisit (fuel : nat) (succ : nat -> list nat) (x : nat) (st : list nat * list nat) : list nat * list nat :=
  match fuel with
  | O => st
  | S k =>
    let '(vis, out) := st in
    if memn x vis then st else
    let '(vis', out') := fold_left (fun s y => gvisit k succ y s) (succ x) (x :: vis, out) in
    (vis', out' ++ [x])
  end.
Definition postorder (fuel : nat) (succ : nat -> list nat) (roots : list nat) : list nat :=
  snd (fold_left (fun s x => gvisit fuel succ x s) roots ([], [])).

Definition rec_targets (g : graph) (f : nat) : list nat := map fst (f_recs (getf g f)).
Definition reachable_files (g : graph) : list nat :=
  postorder (S (nfiles g)) (rec_targets g) (0%nat :: g_user g).

Fixpoint index_of (x : nat) (l : list nat) : nat :=
  match l with [] => O | y :: r => if (x =? y)%nat then O else S (index_of x r) end.
Definition stable_index (g : graph) (f : nat) : nat := index_of f (reachable_files g).

(* ---- CloneLinkerGraph: import() targets become entry points (code splitting) ---- *)
Definition dyn_targets (g : graph) : list nat :=
  flat_map (fun f => map fst (filter snd (f_recs (getf g f)))) (reachable_files g).
Definition entries (g : graph) : list nat :=
  let dyn := dyn_targets g in
  g_user g ++ filter (fun f => memn f dyn && negb (memn f (g_user g))) (reachable_files g).

(* ---- generic layered closure ---- *)
Definition new_layer (succ : nat -> list nat) (ok : nat -> bool) (seen layer : list nat) : list nat :=
  fold_left (fun acc t => if ok t && negb (memn t seen) && negb (memn t acc) then acc ++ [t] else acc)
            (flat_map succ layer) [].
Fixpoint bfs (fuel : nat) (succ : nat -> list nat) (ok : nat -> bool)
             (seen layer : list nat) (d : nat) (acc : list (nat * nat)) : list (nat * nat) :=
  match fuel with
  | O => acc
  | S k =>
    match new_layer succ ok seen layer with
    | [] => acc
    | next => bfs k succ ok (seen ++ next) next (S d) (acc ++ map (fun t => (t, S d)) next)
    end
  end.
Definition closedb (succ : nat -> list nat) (ok : nat -> bool) (R : list nat) : bool :=
  forallb (fun f => forallb (fun t => negb (ok t) || memn t R) (succ f)) R.
Definition dedupe (l : list nat) : list nat :=
  fold_left (fun acc t => if memn t acc then acc else acc ++ [t]) l [].
Definition closure (fuel : nat) (succ : nat -> list nat) (ok : nat -> bool) (roots : list nat)
  : option (list (nat * nat)) :=
  let r0 := dedupe (filter ok roots) in
  let r := bfs fuel succ ok r0 r0 0 (map (fun t => (t, O)) r0) in
  if closedb succ ok (map fst r) then Some r else None.

(* ---- markFileLiveForTreeShaking, at file granularity ---- *)
Definition live_succ (g : graph) (ents : list nat) (f : nat) : list nat :=
  map fst (filter (fun r => negb (snd r)) (f_recs (getf g f))) ++ (f_ldeps g (getf g f) ++ export_deps g ents f).

(* ---- markFileReachableForCodeSplitting ---- *)
(* isExternalDynamicImport: import() of an entry point other than the file itself *)
Definition is_external_dynamic (ents : list nat) (f : nat) (r : nat * bool) : bool :=
  snd r && memn (fst r) ents && negb (fst r =? f)%nat.
Definition split_succ (g : graph) (ents : list nat) (f : nat) : list nat :=
  map fst (filter (fun r => negb (is_external_dynamic ents f r)) (f_recs (getf g f)))
  ++ filter (fun t => negb (t =? f)%nat) (f_deps g (getf g f) ++ export_deps g ents f).

Fixpoint lookup_dist (f : nat) (r : list (nat * nat)) : option nat :=
  match r with
  | [] => None
  | (x, d) :: r' => if (x =? f)%nat then Some d else lookup_dist f r'
  end.

Fixpoint all_some {A} (l : list (option A)) : option (list A) :=
  match l with
  | [] => Some []
  | None :: _ => None
  | Some x :: r => match all_some r with Some r' => Some (x :: r') | None => None end
  end.

(* bit i is set on file f iff f is in the reach set of entry i *)
Fixpoint bits_from (f : nat) (rs : list (list (nat * nat))) (i : nat) (bs : bitset) : bitset :=
  match rs with
  | [] => bs
  | r :: rs' => bits_from f rs' (S i) (if memn f (map fst r) then SetBit bs i else bs)
  end.
Definition min_opt (a : option nat) (b : option nat) : option nat :=
  match a, b with
  | Some x, Some y => Some (Nat.min x y)
  | Some x, None => Some x
  | None, y => y
  end.
Definition dist_from (f : nat) (rs : list (list (nat * nat))) : option nat :=
  fold_left (fun acc r => min_opt acc (lookup_dist f r)) rs None.

(* ---- chunks ---- *)
Record chunk := mkChunk {
  c_bits : bitset;
  c_entry : option (nat * nat);     (* (entryPointBit, entry file) *)
  c_files : list nat                (* filesWithPartsInChunk, in ReachableFiles order *)
}.

Fixpoint key_mem (k : bytes) (l : list bytes) : bool :=
  match l with [] => false | x :: r => zlist_eqb k x || key_mem k r end.
Fixpoint insert_chunk (c : chunk) (l : list chunk) : list chunk :=
  match l with
  | [] => [c]
  | x :: r => if bytes_ltb (String (c_bits c)) (String (c_bits x)) then c :: l else x :: insert_chunk c r
  end.
Definition sort_chunks (l : list chunk) : list chunk := fold_right insert_chunk [] l.

Fixpoint mapi_from {A B} (f : nat -> A -> B) (i : nat) (l : list A) : list B :=
  match l with [] => [] | x :: r => f i x :: mapi_from f (S i) r end.

Record analysis := mkAnalysis {
  a_order : list nat;                  (* ReachableFiles *)
  a_entries : list nat;
  a_live : list nat;
  a_reach : list (list (nat * nat));   (* per entry point bit: (file, distance) *)
  a_chunks : list chunk                (* sorted by key: the index is the chunk index *)
}.

Definition file_bits (a : analysis) (f : nat) : bitset :=
  bits_from f (a_reach a) 0 (NewBitSet (length (a_entries a))).
Definition file_dist (a : analysis) (f : nat) : option nat := dist_from f (a_reach a).
Definition is_live (a : analysis) (f : nat) : bool := memn f (a_live a).

Definition entry_chunks (n : nat) (ents : list nat) : list chunk :=
  mapi_from (fun i e => mkChunk (SetBit (NewBitSet n) i) (Some (i, e)) []) 0 ents.

(* keys of the non-entry chunks, in order of first appearance *)
Definition extra_keys (ekeys : list bytes) (fkeys : list bytes) : list bytes :=
  fold_left (fun acc k => if key_mem k ekeys || key_mem k acc then acc else acc ++ [k]) fkeys [].

Definition analyse (g : graph) : option analysis :=
  let order := reachable_files g in
  let ents := entries g in
  let fuel := S (nfiles g) in
  match closure fuel (live_succ g ents) (fun _ => true) ents with
  | None => None
  | Some lv =>
    let live := map fst lv in
    match all_some (map (fun e => closure fuel (split_succ g ents) (fun t => memn t live) [e]) ents) with
    | None => None
    | Some rs =>
      let n := length ents in
      let bits := fun f => bits_from f rs 0 (NewBitSet n) in
      let lfiles := filter (fun f => memn f live) order in
      let echunks := entry_chunks n ents in
      let xkeys := extra_keys (map (fun c => String (c_bits c)) echunks) (map (fun f => String (bits f)) lfiles) in
      let all := echunks ++ map (fun k => mkChunk k None []) xkeys in
      let filled := map (fun c => mkChunk (c_bits c) (c_entry c)
                                   (filter (fun f => Equals (bits f) (c_bits c)) lfiles)) all in
      Some (mkAnalysis order ents live rs (sort_chunks filled))
    end
  end.

(* chunk index of a live file: the chunk whose bits equal the file's bits *)
Fixpoint find_chunk (bs : bitset) (l : list chunk) (i : nat) : option nat :=
  match l with
  | [] => None
  | c :: r => if Equals bs (c_bits c) then Some i else find_chunk bs r (S i)
  end.
Definition chunk_of_file (a : analysis) (f : nat) : option nat :=
  if is_live a f then find_chunk (file_bits a f) (a_chunks a) 0 else None.
(* Symbol.ChunkIndex: valid for declared top-level symbols of live files *)
Definition chunk_of_sym (g : graph) (a : analysis) (s : sym) : option nat :=
  if memn (snd s) (declared_live (getf g (fst s))) then chunk_of_file a (fst s) else None.
(* File.EntryPointChunkIndex *)
Fixpoint entry_chunk_index (e : nat) (l : list chunk) (i : nat) : option nat :=
  match l with
  | [] => None
  | c :: r => match c_entry c with
              | Some (_, e') => if (e =? e')%nat then Some i else entry_chunk_index e r (S i)
              | None => entry_chunk_index e r (S i)
              end
  end.

(* ---- findImportedPartsInJSOrder: order of the files inside a chunk ---- *)
Definition order_key (g : graph) (a : analysis) (f : nat) : nat * nat :=
  (match file_dist a f with Some d => d | None => S (nfiles g) end, index_of f (a_order a)).
Definition key_ltb (x y : nat * nat) : bool :=
  (fst x <? fst y)%nat || ((fst x =? fst y)%nat && (snd x <? snd y)%nat).
Fixpoint insert_by (g : graph) (a : analysis) (f : nat) (l : list nat) : list nat :=
  match l with
  | [] => [f]
  | x :: r => if key_ltb (order_key g a f) (order_key g a x) then f :: l else x :: insert_by g a f r
  end.
(* isFileInThisChunk (for a live part) *)
Definition in_chunk (a : analysis) (c : chunk) (f : nat) : bool :=
  is_live a f && Equals (c_bits c) (file_bits a f).
(* the files visit() recurses into from f: import statements always, require()/import() only
   from parts in this chunk, never an import() of another entry point *)
Definition osucc (g : graph) (a : analysis) (c : chunk) (f : nat) : list nat :=
  map fst (filter (fun r => (negb (snd r) || in_chunk a c f) && negb (is_external_dynamic (a_entries a) f r))
                  (f_recs (getf g f))).
(* visit(runtime), then the files of the chunk sorted by (distance, stable index); a file is
   emitted after everything it imports, and only if it belongs to this chunk *)
Definition chunk_order (g : graph) (a : analysis) (c : chunk) : list nat :=
  let sorted := fold_right (insert_by g a) [] (c_files c) in
  filter (in_chunk a c) (postorder (S (nfiles g)) (osucc g a c) (0%nat :: sorted)).

(* ---- computeCrossChunkDependencies ---- *)
Definition dedupe_syms (l : list sym) : list sym :=
  fold_left (fun acc t => if mems t acc then acc else acc ++ [t]) l [].

(* chunkMeta.imports of chunk number ci *)
Definition chunk_uses (g : graph) (c : chunk) : list sym :=
  dedupe_syms (flat_map (fun f => f_uses (getf g f)) (c_files c)
               ++ match c_entry c with Some (_, e) => entry_exports g e | None => [] end).

(* importsFromOtherChunks as (other chunk, refs); entry chunks also list every
   other chunk that has their bit, possibly with no items *)
Definition raw_imports (g : graph) (a : analysis) (ci : nat) (c : chunk) : list (nat * list sym) :=
  let us := chunk_uses g c in
  let n := length (a_chunks a) in
  flat_map (fun oi =>
    if (oi =? ci)%nat then [] else
    let items := filter (fun s => match chunk_of_sym g a s with Some x => (x =? oi)%nat | None => false end) us in
    let forced := match c_entry c with
                  | Some (bit, _) => HasBit (c_bits (nth oi (a_chunks a) (mkChunk [] None []))) bit
                  | None => false end in
    match items with
    | [] => if forced then [(oi, [])] else []
    | _ => [(oi, items)]
    end) (seq 0 n).

(* chunkMetas[oi].exports : every ref some other chunk imports from oi; sorted by
   (stable source index, inner index) *)
Definition sym_ltb (a : analysis) (x y : sym) : bool :=
  key_ltb (index_of (fst x) (a_order a), snd x) (index_of (fst y) (a_order a), snd y).
Fixpoint insert_sym (a : analysis) (s : sym) (l : list sym) : list sym :=
  match l with
  | [] => [s]
  | x :: r => if sym_ltb a s x then s :: l else x :: insert_sym a s r
  end.
Definition chunk_exports (a : analysis) (raw : list (list (nat * list sym))) (oi : nat) : list sym :=
  fold_right (insert_sym a) []
    (dedupe_syms (flat_map (fun imps => flat_map (fun p => if (fst p =? oi)%nat then snd p else []) imps) raw)).

Fixpoint lookup_name (i : nat) (l : list (nat * bytes)) : bytes :=
  match l with
  | [] => []
  | (k, n) :: r => if (i =? k)%nat then n else lookup_name i r
  end.
Definition sym_name (g : graph) (s : sym) : bytes := lookup_name (snd s) (f_names (getf g (fst s))).

(* exportsToOtherChunks: ref -> alias *)
Definition export_aliases (g : graph) (ex : list sym) : option (list (sym * bytes)) :=
  if g_minify g then Some (combine ex (map minified_name (seq 0 (length ex))))
  else match rename_all (map (sym_name g) ex) with
       | Some names => Some (combine ex names)
       | None => None
       end.

Fixpoint lookup_alias (s : sym) (l : list (sym * bytes)) : option bytes :=
  match l with
  | [] => None
  | (x, al) :: r => if sym_eqb s x then Some al else lookup_alias s r
  end.
Fixpoint insert_alias (x : bytes) (l : list bytes) : list bytes :=
  match l with
  | [] => [x]
  | y :: r => if bytes_ltb x y then x :: l else y :: insert_alias x r
  end.

Record cimport := mkImp { i_dynamic : bool; i_chunk : nat; i_items : list bytes }.
Record cross := mkCross {
  x_imports : list cimport;             (* chunk.crossChunkImports (dynamic first), with import item aliases *)
  x_exports : list (sym * bytes)        (* crossChunkSuffixStmts: export { ref as alias } *)
}.

Definition dynamic_imports (g : graph) (a : analysis) (ci : nat) (c : chunk) : list nat :=
  let targets := flat_map (fun f => map fst (filter (is_external_dynamic (a_entries a) f) (f_recs (getf g f)))) (c_files c) in
  let idxs := flat_map (fun t => match entry_chunk_index t (a_chunks a) 0 with
                                 | Some oi => if (oi =? ci)%nat then [] else [oi]
                                 | None => [] end) targets in
  filter (fun oi => memn oi idxs) (seq 0 (length (a_chunks a))).

Definition cross_chunk (g : graph) (a : analysis) : option (list cross) :=
  let raw := mapi_from (raw_imports g a) 0 (a_chunks a) in
  let n := length (a_chunks a) in
  match all_some (map (fun oi => export_aliases g (chunk_exports a raw oi)) (seq 0 n)) with
  | None => None
  | Some exps =>
    all_some (mapi_from (fun ci c =>
      let dyn := map (fun oi => mkImp true oi []) (dynamic_imports g a ci c) in
      match all_some (map (fun p =>
               match all_some (map (fun s => lookup_alias s (nth (fst p) exps [])) (snd p)) with
               | Some als => Some (mkImp false (fst p) (fold_right insert_alias [] als))
               | None => None
               end) (nth ci raw [])) with
      | Some st => Some (mkCross (dyn ++ st) (nth ci exps []))
      | None => None
      end) 0 (a_chunks a))
  end.

(* ---- enforceNoCyclicChunkImports: three-colour DFS over the static edges ---- *)
Definition static_succ (xs : list cross) (ci : nat) : list nat :=
  map i_chunk (filter (fun i => negb (i_dynamic i)) (x_imports (nth ci xs (mkCross [] [])))).
(* colours: absent = white; gray list; black list.  Returns (error, gray, black) *)
Fixpoint validate (fuel : nat) (xs : list cross) (ci : nat) (gray black : list nat) : bool * list nat :=
  match fuel with
  | O => (true, black)   (* out of fuel counts as an error: the theorem shows it does not happen *)
  | S k =>
    if memn ci gray then (true, black)
    else if memn ci black then (false, black)
    else
      let '(err, black') :=
        fold_left (fun (s : bool * list nat) oi =>
                     if fst s then s else validate k xs oi (ci :: gray) (snd s))
                  (static_succ xs ci) (false, black) in
      if err then (true, black') else (false, ci :: black')
  end.
Definition enforce_cycle_error (xs : list cross) : bool :=
  fst (fold_left (fun (s : bool * list nat) ci => if fst s then s else validate (S (length xs)) xs ci [] (snd s))
                 (seq 0 (length xs)) (false, [])).

(* ---- the whole thing ---- *)
Record result := mkResult { r_analysis : analysis; r_cross : list cross; r_orders : list (list nat) }.
Definition split (g : graph) : option result :=
  match analyse g with
  | None => None
  | Some a =>
    match cross_chunk g a with
    | None => None
    | Some xs => Some (mkResult a xs (map (chunk_order g a) (a_chunks a)))
    end
  end.

(* diagnostic evaluated on every linker dump: the DUMPED dependencies alone already cover
   the uses of declared symbols and the entry points' export targets *)
Definition raw_deps (fl : file) : list nat := flat_map p_deps (f_parts fl).
Definition deps_coverb (g : graph) : bool :=
  forallb (fun f =>
    forallb (fun s : sym => negb (is_declared g s) || (fst s =? f)%nat || memn (fst s) (raw_deps (getf g f))) (f_uses (getf g f)) &&
    (negb (memn f (entries g)) ||
     forallb (fun s : sym => negb (is_declared g s) || (fst s =? f)%nat || memn (fst s) (raw_deps (getf g f))) (entry_exports g f)))
    (seq 0 (nfiles g)).

(* well-formedness of a linker dump: there is a runtime file, and import record targets,
   part dependencies and user entry points are file indices *)
Definition wf_graphb (g : graph) : bool :=
  (0 <? nfiles g)%nat &&
  forallb (fun fl => forallb (fun r => (fst r <? nfiles g)%nat) (f_recs fl) &&
                     forallb (fun p => forallb (fun t => (t <? nfiles g)%nat) (p_deps p)) (f_parts fl)) (g_files g) &&
  forallb (fun e => (e <? nfiles g)%nat) (g_user g).
