(* On acyclic graphs the post-order walk lists every successor before its predecessor;
   consequences for the chunk graph and for the files inside a chunk (where the import graph
   may have cycles); refutation of the full order claim. *)
From V Require Import Common.Base C10.BitSet C10.Renamer C10.Split C10.BitSetProofs C10.RenamerProofs
  C10.ListLemmas C10.SplitProofs C10.OrderProofs C10.CrossProofs C10.TotalProofs C10.DfsProofs C10.Eval C10.Harness.
From Coq Require Import Permutation Relations.

Section DFS.
Variable succ : nat -> list nat.
Variable n : nat.
Definition E (x y : nat) : Prop := In y (succ x).
Hypothesis acyclic : forall x, ~ clos_trans nat E x x.
Hypothesis bounded : forall x y, E x y -> (y < n)%nat.

Lemma postorder_respects_roots roots : (forall x, In x roots -> (x < n)%nat) ->
  let out := postorder (S n) succ roots in
  (forall x, In x roots -> In x out) /\
  forall v w, In v out -> E v w -> In w out /\ before w v out.
Proof.
  intro HR.
  destruct (postorder_spec succ n (fun _ => True) bounded (fun _ _ _ _ => I) roots) as [A [B _]];
    [intros x Hx; split; [apply HR; exact Hx | exact I]|].
  split; [exact A|]. intros v w Hv Evw. destruct (B v w Hv Evw) as [Hw [Hb|Hc]]; [auto|].
  exfalso. apply (acyclic v). eapply t_trans; [apply t_step; exact Evw | exact Hc].
Qed.
End DFS.

(* the chunk graph: loading an entry chunk evaluates every statically imported chunk first *)
Lemma chunk_eval_respects_imports_lemma g r ci : split g = Some r ->
  (ci < length (a_chunks (r_analysis r)))%nat ->
  let out := chunk_eval_order r ci in
  In ci out /\ forall A B, In A out -> sedge (r_cross r) A B -> In B out /\ before B A out.
Proof.
  intros H Hci. destruct (split_inv _ _ H) as [A [X _]]. pose proof (cross_chunk_length _ _ _ X) as L.
  unfold chunk_eval_order.
  destruct (postorder_respects_roots (static_succ (r_cross r)) (length (r_cross r))) with (roots := [ci]) as [R1 R2].
  - exact (static_acyclic_lemma g _ _ A X).
  - intros x y Exy. destruct (sedge_spec _ _ _ _ _ A X Exy) as [_ [Hy _]]. rewrite L. exact Hy.
  - intros x [<-|[]]. rewrite L. exact Hci.
  - split; [apply R1; left; reflexivity | exact R2].
Qed.

(* a symbol used by the code of chunk A and declared in another chunk B: B is evaluated before A *)
Theorem binding_chunk_evaluated_first_all g r ci A B s : split g = Some r ->
  let a := r_analysis r in
  (ci < length (a_chunks a))%nat -> In A (chunk_eval_order r ci) ->
  (A < length (a_chunks a))%nat ->
  In s (chunk_uses g (nth A (a_chunks a) dchunk)) -> chunk_of_sym g a s = Some B -> B <> A ->
  In B (chunk_eval_order r ci) /\ before B A (chunk_eval_order r ci).
Proof.
  intros H a Hci HA HAl Hs Hc Hne. subst a.
  destruct (chunk_eval_respects_imports_lemma g r ci H Hci) as [_ R].
  apply (R A B HA).
  destruct (cross_chunk_imports_exact_lemma g _ _ A (split_analyse g r H) (split_cross g r H) HAl) as [Ex _].
  destruct (Ex s Hs) as [N|[N|[oi [im [al [E1 [_ [_ [E4 [E5 _]]]]]]]]]]; [congruence | congruence |].
  (* s is imported from the chunk that declares it, which is B *)
  assert (oi = B) by congruence. subst oi.
  unfold sedge. rewrite static_succ_imports. apply in_map_iff. exists im. auto.
Qed.

(* ... and so is every file of B before every file of A *)
Theorem binding_file_evaluated_first_all g r ci A B s f f' : split g = Some r ->
  let a := r_analysis r in
  (ci < length (a_chunks a))%nat -> In A (chunk_eval_order r ci) ->
  (A < length (a_chunks a))%nat ->
  In s (chunk_uses g (nth A (a_chunks a) dchunk)) -> chunk_of_sym g a s = Some B -> B <> A ->
  In f (nth B (r_orders r) []) -> In f' (nth A (r_orders r) []) ->
  before f f' (split_order r ci).
Proof.
  intros H a Hci HA HAl Hs Hc Hne Hf Hf'.
  destruct (binding_chunk_evaluated_first_all g r ci A B s H Hci HA HAl Hs Hc Hne) as [_ Bf].
  unfold split_order. eapply before_flat_map; eauto.
Qed.

(* the full order claim is false: e0 (1) imports a (3) then s (4); e1 (2) imports s.
   ESM evaluates a, s, e0; the split output evaluates the shared chunk first: s, a, e0. *)
Definition order_witness : graph := mk_graph
  ([ ([], [], [], [], []);
     ([(3, false); (4, false)], [(true, [], [], [])], [], [], []);
     ([(4, false)], [(true, [], [], [])], [], [], []);
     ([], [(true, [], [], [])], [], [], []);
     ([], [(true, [], [], [])], [], [], []) ],
   [1; 2], false).

Lemma order_witness_computes :
  match split order_witness with
  | Some r => (native_order order_witness 1, split_order r 0, map c_entry (a_chunks (r_analysis r)))
              = ([3; 4; 1]%nat, [4; 3; 1]%nat, [Some (0, 1); Some (1, 2); None]%nat)
  | None => False
  end.
Proof. vm_compute. reflexivity. Qed.

Definition order_witness_result : result :=
  match split order_witness with
  | Some r => r
  | None => mkResult (mkAnalysis [] [] [] [] []) [] []
  end.

Theorem chunk_order_respects_evaluation_refuted_all :
  exists g r ci bit e f1 f2, split g = Some r /\
    nth_error (map c_entry (a_chunks (r_analysis r))) ci = Some (Some (bit, e)) /\
    beforeb f1 f2 (native_order g e) = true /\ beforeb f2 f1 (split_order r ci) = true.
Proof.
  exists order_witness, order_witness_result, 0%nat, 0%nat, 1%nat, 3%nat, 4%nat.
  repeat split; vm_compute; reflexivity.
Qed.

(* inside a chunk: a file is emitted after every file of the chunk that it imports
   (statically, or by require()/import() that stays inside the chunk), unless the imported
   file imports it back along the walked records; import records point at existing files *)
Theorem chunk_order_imports_or_cycle g a c f f' :
  (forall x y, In y (osucc g a c x) -> (y < nfiles g)%nat) ->
  (forall x, In x (c_files c) -> (x < nfiles g)%nat) -> (0 < nfiles g)%nat ->
  In f (chunk_order g a c) -> In f' (osucc g a c f) -> in_chunk a c f' = true ->
  In f' (chunk_order g a c) /\
  (before f' f (chunk_order g a c) \/ clos_trans nat (E (osucc g a c)) f' f).
Proof.
  intros BD HC H0 Hf Hs Hin. unfold chunk_order in *.
  set (roots := (0%nat :: fold_right (insert_by g a) [] (c_files c))) in *.
  destruct (postorder_spec (osucc g a c) (nfiles g) (fun _ => True) BD (fun _ _ _ _ => I) roots) as [_ [R _]].
  { intros x [<-|Hx]; (split; [|exact I]); [exact H0|]. apply HC.
    eapply Permutation_in; [apply Permutation_sym; apply insert_by_perm | exact Hx]. }
  apply filter_In in Hf as [Hf Hpf]. destruct (R f f' Hf Hs) as [R1 R2].
  split; [apply filter_In; split; assumption|].
  destruct R2 as [R2|R2]; [left; apply before_filter; assumption | right; exact R2].
Qed.

Theorem chunk_order_respects_imports_all g a c f f' :
  (forall x, ~ clos_trans nat (E (osucc g a c)) x x) ->
  (forall x y, In y (osucc g a c x) -> (y < nfiles g)%nat) ->
  (forall x, In x (c_files c) -> (x < nfiles g)%nat) -> (0 < nfiles g)%nat ->
  In f (chunk_order g a c) -> In f' (osucc g a c f) -> in_chunk a c f' = true ->
  In f' (chunk_order g a c) /\ before f' f (chunk_order g a c).
Proof.
  intros AC BD HC H0 Hf Hs Hin.
  destruct (chunk_order_imports_or_cycle g a c f f' BD HC H0 Hf Hs Hin) as [H1 [H2|H2]]; [auto|].
  exfalso. apply (AC f). eapply t_trans; [apply t_step; exact Hs | exact H2].
Qed.
