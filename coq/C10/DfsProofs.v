(* The post-order walk on arbitrary (possibly cyclic) bounded graphs: it lists its roots, is
   closed under successors, stays inside any successor-closed set containing the roots, and
   lists a node after each of its successors unless that successor leads back to the node.
   Consequences: findReachableFiles is closed under import records; chunk_order is a
   permutation of the files of the chunk. *)
From V Require Import Common.Base C10.BitSet C10.Renamer C10.Split C10.BitSetProofs C10.RenamerProofs
  C10.ListLemmas C10.SplitProofs C10.OrderProofs C10.CrossProofs C10.TotalProofs C10.Eval.
From Coq Require Import Permutation Relations.

Lemma before_app_r x y l m : before x y l -> before x y (l ++ m).
Proof. intros [l1 [l2 [l3 ->]]]. exists l1, l2, (l3 ++ m). rewrite <- !app_assoc. reflexivity. Qed.
Lemma before_last x y l : In x l -> before x y (l ++ [y]).
Proof.
  intro H. apply in_split in H as [l1 [l2 ->]]. exists l1, l2, []. rewrite <- !app_assoc. reflexivity.
Qed.

Lemma before_filter (p : nat -> bool) x y l : before x y l -> p x = true -> p y = true -> before x y (filter p l).
Proof.
  intros [l1 [l2 [l3 ->]]] Hx Hy. rewrite !filter_app. simpl. rewrite Hx, Hy.
  exists (filter p l1), (filter p l2), (filter p l3). reflexivity.
Qed.

Lemma before_flat_map (F : nat -> list nat) x y l f f' :
  before x y l -> In f (F x) -> In f' (F y) -> before f f' (flat_map F l).
Proof.
  intros [l1 [l2 [l3 ->]]] Hf Hf'.
  apply in_split in Hf as [a1 [a2 Ea]]. apply in_split in Hf' as [b1 [b2 Eb]].
  rewrite !flat_map_app. simpl. rewrite !app_nil_r. rewrite Ea, Eb.
  exists (flat_map F l1 ++ a1), (a2 ++ flat_map F l2 ++ b1), (b2 ++ flat_map F l3).
  rewrite <- !app_assoc. reflexivity.
Qed.

Section Walk.
Variable succ : nat -> list nat.
Variable n : nat.
Variable R : nat -> Prop.
Hypothesis bounded : forall x y, In y (succ x) -> (y < n)%nat.
Hypothesis Rstep : forall x y, R x -> In y (succ x) -> R y.

(* state invariant, with the stack of nodes being visited as a ghost.  A successor w of a
   finished node v was finished before v, or was on the stack when v finished: then w reaches v *)
Record winv (gray vis out : list nat) : Prop := {
  w_fin : forall v, In v vis -> In v out \/ In v gray;
  w_out : forall v, In v out -> In v vis;
  w_gray : forall v, In v gray -> In v vis;
  w_succ : forall v w, In v out -> In w (succ v) ->
             In w vis /\ (before w v out \/ clos_trans nat (fun a b => In b (succ a)) w v);
  w_R : forall v, In v vis -> R v }.

Definition wpost (gray : list nat) (x : nat) (st st' : list nat * list nat) : Prop :=
  winv gray (fst st') (snd st') /\ In x (fst st') /\ incl (fst st) (fst st').

Lemma wfold k gray (l : list nat) :
  (forall y st, In y l -> winv gray (fst st) (snd st) -> wpost gray y st (gvisit k succ y st)) ->
  forall st, winv gray (fst st) (snd st) ->
    let st' := fold_left (fun s y => gvisit k succ y s) l st in
    winv gray (fst st') (snd st') /\ incl (fst st) (fst st') /\ (forall y, In y l -> In y (fst st')).
Proof.
  induction l as [|y l IH]; intros HV st HI; cbv zeta; cbn [fold_left].
  - split; [exact HI|]. split; [apply incl_refl | intros y []].
  - destruct (HV y st (or_introl eq_refl) HI) as [I1 [Iy Inc]].
    pose proof (IH (fun z st' Hz => HV z st' (or_intror Hz)) (gvisit k succ y st) I1) as IH'. cbv zeta in IH'.
    destruct IH' as [J1 [JInc Jall]].
    split; [exact J1|]. split; [eapply incl_tran; eauto|].
    intros z [<-|Hz]; [apply JInc; exact Iy | apply Jall; exact Hz].
Qed.

Lemma gvisit_spec : forall fuel x gray st,
  NoDup gray -> (forall v, In v gray -> (v < n)%nat /\ clos_trans nat (fun a b => In b (succ a)) v x) -> (x < n)%nat -> R x ->
  (S n <= fuel + length gray)%nat -> winv gray (fst st) (snd st) ->
  wpost gray x st (gvisit fuel succ x st).
Proof.
  induction fuel as [|k IH]; intros x gray [vis out] ND HG Hx HRx HF HI.
  - pose proof (bounded_nodup_length gray n ND (fun v Hv => proj1 (HG v Hv))). simpl in HF. lia.
  - cbn [gvisit]. simpl in HI. destruct (memn x vis) eqn:EV.
    + apply memn_In in EV. split; [exact HI|]. split; [exact EV | apply incl_refl].
    + apply memn_false in EV. destruct HI as [Ifin Iout Igray Isucc IR].
      assert (Hxg : ~ In x gray) by (intro Hc; apply EV; apply Igray; exact Hc).
      assert (HI' : winv (x :: gray) (fst (x :: vis, out)) (snd (x :: vis, out))).
      { constructor; simpl.
        - intros v [<-|Hv]; [right; left; reflexivity|]. destruct (Ifin v Hv); [left | right; right]; assumption.
        - intros v Hv. right. apply Iout. exact Hv.
        - intros v [<-|Hv]; [left; reflexivity | right; apply Igray; exact Hv].
        - intros v w Hv Hw. destruct (Isucc v w Hv Hw) as [Hwv Hd]. split; [right; exact Hwv | exact Hd].
        - intros v [<-|Hv]; [exact HRx | apply IR; exact Hv]. }
      assert (HV : forall y st, In y (succ x) -> winv (x :: gray) (fst st) (snd st) ->
                     wpost (x :: gray) y st (gvisit k succ y st)).
      { intros y st Ey HIy. apply IH; try assumption.
        - constructor; assumption.
        - intros v [<-|Hv]; [split; [exact Hx | apply t_step; exact Ey]|].
          destruct (HG v Hv) as [Hv1 Hv2]. split; [exact Hv1 | eapply t_trans; [exact Hv2 | apply t_step; exact Ey]].
        - eapply bounded; eauto.
        - eapply Rstep; eauto.
        - simpl. lia. }
      pose proof (wfold k (x :: gray) (succ x) HV (x :: vis, out) HI') as FP.
      destruct (fold_left (fun s y => gvisit k succ y s) (succ x) (x :: vis, out)) as [vis' out'] eqn:EF.
      simpl in FP. destruct FP as [[Jfin Jout Jgray Jsucc JR] [JInc Jall]].
      assert (Hxv : In x vis') by (apply JInc; left; reflexivity).
      split; [|split; [exact Hxv | intros v Hv; apply JInc; right; exact Hv]].
      constructor; simpl.
      * intros v Hv. destruct (Jfin v Hv) as [H|[<-|H]].
        -- left. apply in_or_app. left. exact H.
        -- left. apply in_or_app. right. left. reflexivity.
        -- right. exact H.
      * intros v Hv. apply in_app_or in Hv as [Hv|[<-|[]]]; [apply Jout; exact Hv | exact Hxv].
      * intros v Hv. apply Jgray. right. exact Hv.
      * intros v w Hv Hw. apply in_app_or in Hv as [Hv|[<-|[]]].
        -- destruct (Jsucc v w Hv Hw) as [Hwv Hd]. split; [exact Hwv|].
           destruct Hd as [Hb|Hc]; [left; apply before_app_r; exact Hb | right; exact Hc].
        -- (* x finishes: each successor is finished, or is x, or is still on the stack *)
           split; [apply Jall; exact Hw|]. destruct (Jfin w (Jall w Hw)) as [Ho|[<-|Hg]].
           ++ left. apply before_last. exact Ho.
           ++ right. apply t_step. exact Hw.
           ++ right. exact (proj2 (HG w Hg)).
      * exact JR.
Qed.

Lemma postorder_spec roots : (forall x, In x roots -> (x < n)%nat /\ R x) ->
  let out := postorder (S n) succ roots in
  (forall x, In x roots -> In x out) /\
  (forall v w, In v out -> In w (succ v) -> In w out /\ (before w v out \/ clos_trans nat (fun a b => In b (succ a)) w v)) /\
  (forall v, In v out -> R v).
Proof.
  intro HR. unfold postorder.
  destruct (wfold (S n) [] roots) with (st := (@nil nat, @nil nat)) as [[Ifin Iout _ Isucc IR] [_ Hall]].
  - intros x st Hx HI. destruct (HR x Hx) as [Hx' HRx].
    apply gvisit_spec; [constructor | intros v [] | exact Hx' | exact HRx | simpl; lia | exact HI].
  - constructor; simpl; tauto.
  - (* no node is left on the stack, so whatever was visited is in the output *)
    assert (VO : forall v, In v (fst (fold_left (fun s x => gvisit (S n) succ x s) roots ([], []))) ->
                 In v (snd (fold_left (fun s x => gvisit (S n) succ x s) roots ([], [])))).
    { intros v Hv. destruct (Ifin v Hv) as [H|[]]. exact H. }
    split; [intros x Hx; apply VO; apply Hall; exact Hx|].
    split.
    + intros v w Hv Hw. destruct (Isucc v w Hv Hw) as [Hwv Hd]. split; [apply VO; exact Hwv | exact Hd].
    + intros v Hv. apply IR. apply Iout. exact Hv.
Qed.
End Walk.

Lemma rec_targets_bounded g x y : wf_graphb g = true -> In y (rec_targets g x) -> (y < nfiles g)%nat.
Proof. intros W H. unfold rec_targets in H. apply in_map_iff in H as [r [<- Hr]]. eapply wf_recs; eauto. Qed.

Lemma reachable_files_spec g : wf_graphb g = true ->
  In O (reachable_files g) /\ (forall e, In e (g_user g) -> In e (reachable_files g)) /\
  (forall f r, In f (reachable_files g) -> In r (f_recs (getf g f)) -> In (fst r) (reachable_files g)) /\
  (forall f, In f (reachable_files g) -> (f < nfiles g)%nat).
Proof.
  intro W. unfold reachable_files.
  destruct (postorder_spec (rec_targets g) (nfiles g) (fun v => (v < nfiles g)%nat)
              (fun x y => rec_targets_bounded g x y W) (fun x y _ => rec_targets_bounded g x y W)
              (0%nat :: g_user g)) as [A [B C]].
  - intros x [<-|Hx]; split; try (apply nfiles_pos; exact W); apply user_bounded; assumption.
  - split; [apply A; left; reflexivity|].
    split; [intros e He; apply A; right; exact He|].
    split; [|exact C].
    intros f r Hf Hr. apply (B f (fst r) Hf). unfold rec_targets. apply in_map. exact Hr.
Qed.

Lemma osucc_rec g a c f t : In t (osucc g a c f) -> exists r, In r (f_recs (getf g f)) /\ fst r = t.
Proof. unfold osucc. intro H. apply in_map_iff in H as [r [E Hr]]. apply filter_In in Hr as [Hr _]. exists r. auto. Qed.

(* findImportedPartsInJSOrder lists exactly the files of the chunk, each once *)
Theorem chunk_order_permutation_lemma g a c : analyse g = Some a -> wf_graphb g = true -> In c (a_chunks a) ->
  Permutation (chunk_order g a c) (c_files c).
Proof.
  intros H W Hc. pose proof (analyse_order _ _ H) as HO.
  destruct (reachable_files_spec g W) as [R0 [_ [RC RB]]]. rewrite <- HO in R0, RC, RB.
  apply NoDup_Permutation.
  - unfold chunk_order. apply NoDup_filter. apply postorder_nodup.
  - eapply chunk_files_nodup_lemma; eauto.
  - intro f. unfold chunk_order.
    set (roots := (0%nat :: fold_right (insert_by g a) [] (c_files c))).
    destruct (postorder_spec (osucc g a c) (nfiles g) (fun v => In v (a_order a))) with (roots := roots) as [A [_ C]].
    + intros x y Hy. apply osucc_rec in Hy as [r [Hr <-]]. eapply wf_recs; eauto.
    + intros x y Hx Hy. apply osucc_rec in Hy as [r [Hr <-]]. apply (RC x r Hx Hr).
    + intros x [<-|Hx]; [split; [apply nfiles_pos; exact W | exact R0]|].
      apply (Permutation_in _ (Permutation_sym (insert_by_perm g a (c_files c)))) in Hx.
      apply (chunk_files _ _ _ x H Hc) in Hx as [Hx _]. split; [apply RB|]; exact Hx.
    + split; intro Hf.
      * apply filter_In in Hf as [Hf Hin]. apply C in Hf.
        unfold in_chunk in Hin. apply andb_true_iff in Hin as [Hl He]. apply Equals_eq in He.
        apply (chunk_files _ _ _ f H Hc). auto.
      * apply filter_In. split.
        -- apply A. right. eapply Permutation_in; [apply insert_by_perm | exact Hf].
        -- apply (chunk_files _ _ _ f H Hc) in Hf as [_ [Hl Hb]]. unfold in_chunk. rewrite Hl. simpl. apply Equals_eq. auto.
Qed.

Theorem chunk_order_permutation_all g r i : split g = Some r -> wf_graphb g = true ->
  (i < length (a_chunks (r_analysis r)))%nat ->
  Permutation (nth i (r_orders r) []) (c_files (nth i (a_chunks (r_analysis r)) dchunk)).
Proof.
  intros H W Hi. destruct (split_inv _ _ H) as [A [_ ->]].
  rewrite (nth_indep _ [] (chunk_order g (r_analysis r) dchunk)) by (rewrite map_length; exact Hi).
  rewrite map_nth. apply (chunk_order_permutation_lemma g); [exact A | exact W | apply nth_In; exact Hi].
Qed.
