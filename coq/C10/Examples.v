From V Require Import Common.Base C10.BitSet C10.Renamer C10.Split C10.BitSetProofs C10.SplitProofs C10.Harness.
(* non-vacuity / sanity: concrete values meeting the hypotheses of the theorems *)

Example bitset_ex : String (SetBit (SetBit (NewBitSet 10) 1) 9) = [2; 2].
Proof. vm_compute. reflexivity. Qed.
Example good_ex : good_bits 10 (SetBit (SetBit (NewBitSet 10) 1) 9).
Proof.
  split; [reflexivity|]. split.
  - apply wf_SetBit, wf_SetBit, wf_New.
  - intros j Hj. rewrite !HasBit_SetBit by (simpl; lia). rewrite HasBit_New.
    replace (9 =? j)%nat with false by (symmetry; apply Nat.eqb_neq; lia).
    replace (1 =? j)%nat with false by (symmetry; apply Nat.eqb_neq; lia). reflexivity.
Qed.

(* "x", "x", "x2", "x" -> x, x2, x23, x3  (mirrors the Go code: the counter is stored under the new name) *)
Example rename_ex : rename_all [[120]; [120]; [120; 50]; [120]] = Some [[120]; [120; 50]; [120; 50; 51]; [120; 51]].
Proof. vm_compute. reflexivity. Qed.
Example minname_ex : map minified_name [0; 53; 54; 3509; 3510]%nat = [[97]; [36]; [97; 97]; [36; 36]; [97; 97; 97]].
Proof. vm_compute. reflexivity. Qed.

(* two entry points e0 (1), e1 (2) sharing m0 (3) and m1 (4); both modules declare "v".
   Each module has one live part declaring v, bump, u, done (inner indices 0..3) and a dead
   namespace-export part that depends on the runtime (file 0); the entry points use import
   refs (inner 10..12) that ImportsToBind maps to the modules' symbols. *)
Definition nm (x : bytes) : list (Z * bytes) :=
  [(0, [118]); (1, [98;117;109;112]); (2, [117;95] ++ x); (3, [100;111;110;101]); (4, x ++ [95;101])].
Definition own_part : part_z := (true, [], [], [0; 1; 2; 3]).
Definition ns_part : part_z := (false, [0], [(0, 0)], [4]).
Definition ex_graph : graph := mk_graph
  ([ ([], [(false, [], [], [0])], [], [(0, [95;95;101;120;112;111;114;116])], []);
     ([(3, false); (4, false)],
      [ns_part; (true, [3; 4], [(1, 10); (1, 11); (1, 12)], []); own_part; (true, [], [], [])],
      [((1, 10), (3, 0)); ((1, 11), (3, 3)); ((1, 12), (4, 0))], nm [101;48], [(1, 1); (1, 3); (1, 2); (1, 0)]);
     ([(3, false); (4, false); (1, true)],
      [ns_part; (true, [3; 4], [(2, 10); (2, 11)], []); own_part; (true, [], [], [])],
      [((2, 10), (3, 0)); ((2, 11), (4, 0))], nm [101;49], [(2, 1); (2, 3); (2, 2); (2, 0)]);
     ([], [ns_part; own_part], [], nm [109;48], []);
     ([], [ns_part; own_part], [], nm [109;49], []) ],
   [1; 2], false).

(* the dumped dependencies of the example already cover its uses (the diagnostic the harness
   evaluates on every linker dump) *)
Example ex_wf : wf_graphb ex_graph = true.
Proof. vm_compute. reflexivity. Qed.
Example ex_hyp : deps_coverb ex_graph = true.
Proof. vm_compute. reflexivity. Qed.

(* three chunks: e0 {01}, e1 {10}, shared {11} with m0, m1; both entry chunks import the
   shared chunk statically; e1 imports e0's chunk dynamically; the shared chunk exports
   v, done, v2 *)
Example ex_split :
  match split ex_graph with
  | Some r =>
    (map c_files (a_chunks (r_analysis r)), map c_bits (a_chunks (r_analysis r)),
     map (fun x => map (fun i => (i_dynamic i, i_chunk i, i_items i)) (x_imports x)) (r_cross r),
     map (fun x => map snd (x_exports x)) (r_cross r),
     r_orders r, enforce_cycle_error (r_cross r))
    = ([[1]; [2]; [3; 4]]%nat, [[1]; [2]; [3]],
       [[(false, 2%nat, [[100;111;110;101]; [118]; [118;50]])];
        [(true, 0%nat, []); (false, 2%nat, [[118]; [118;50]])]; []],
       [[]; []; [[118]; [100;111;110;101]; [118;50]]],
       [[1]; [2]; [3; 4]]%nat, false)
  | None => False
  end.
Proof. vm_compute. reflexivity. Qed.

Example ex_edge : match split ex_graph with Some r => sedge (r_cross r) 0 2 /\ sedge (r_cross r) 1 2 | None => False end.
Proof. vm_compute. split; left; reflexivity. Qed.

From V Require Import C10.ListLemmas C10.CrossProofs C10.Eval C10.EvalProofs.
From Coq Require Import Relations.

(* cross_chunk_imports_exact, third case: the entry chunk of e0 (chunk 0) references m0's v
   = (3,0), which is declared in the shared chunk 2 and exported there as "v"; the import ref
   (1,10) was followed through ImportsToBind *)
Example ex_exact :
  match split ex_graph with
  | Some r =>
    let a := r_analysis r in
    (mems (3, 0)%nat (chunk_uses ex_graph (nth 0 (a_chunks a) dchunk)),
     mems (1, 10)%nat (chunk_uses ex_graph (nth 0 (a_chunks a) dchunk)),
     chunk_of_sym ex_graph a (3, 0)%nat,
     lookup_alias (3, 0)%nat (x_exports (nth 2 (r_cross r) dcross)),
     map i_chunk (static_imports (nth 0 (r_cross r) dcross)))
    = (true, false, Some 2%nat, Some [118], [2%nat])
  | None => False
  end.
Proof. vm_compute. reflexivity. Qed.

(* the witness of the refuted order claim, and what does hold on it *)
Example ex_orders :
  (native_order order_witness 1, split_order order_witness_result 0, chunk_eval_order order_witness_result 0)
  = ([3; 4; 1]%nat, [4; 3; 1]%nat, [2; 0]%nat).
Proof. vm_compute. reflexivity. Qed.

Lemma two_level_acyclic succ : (forall x y, In y (succ x) -> succ y = []) ->
  forall x, ~ clos_trans nat (E succ) x x.
Proof.
  intros H x P. apply clos_trans_t1n in P.
  assert (F : forall a b, clos_trans_1n nat (E succ) a b -> exists c, In c (succ a)).
  { intros a b Q. destruct Q as [b Q|b c Q _]; exists b; exact Q. }
  inversion P as [y Hy|y z Hy Q]; subst.
  - pose proof (H x x Hy) as Z. unfold E in Hy. rewrite Z in Hy. destruct Hy.
  - destruct (F _ _ Q) as [c Hc]. rewrite (H x y Hy) in Hc. destruct Hc.
Qed.

(* hypotheses of chunk_order_respects_imports on the entry chunk of e0 in the witness graph:
   e0 (1) imports a (3), both are in chunk 0, and a is emitted first *)
Example ex_chunk_order :
  let a := r_analysis order_witness_result in
  let c := nth 0 (a_chunks a) dchunk in
  In 3%nat (chunk_order order_witness a c) /\ before 3%nat 1%nat (chunk_order order_witness a c).
Proof.
  intros a c. apply (chunk_order_respects_imports_all order_witness a c 1 3).
  - apply two_level_acyclic. intros x y Hy.
    destruct x as [|[|[|[|[|[|x]]]]]]; vm_compute in Hy; try contradiction;
      repeat (destruct Hy as [<-|Hy]; [vm_compute; reflexivity|]); contradiction.
  - intros x y Hy.
    destruct x as [|[|[|[|[|[|x]]]]]]; vm_compute in Hy; try contradiction;
      repeat (destruct Hy as [<-|Hy]; [vm_compute; lia|]); contradiction.
  - intros x Hx. vm_compute in Hx. repeat (destruct Hx as [<-|Hx]; [vm_compute; lia|]). contradiction.
  - vm_compute. lia.
  - vm_compute. auto.
  - vm_compute. auto.
  - vm_compute. reflexivity.
Qed.

(* chunk_order_permutation on the example: the shared chunk (index 2) emits m0, m1 *)
From V Require Import C10.TotalProofs C10.DfsProofs.
From Coq Require Import Permutation.
Example ex_perm : match split ex_graph with
  | Some r => Permutation (nth 2 (r_orders r) []) (c_files (nth 2 (a_chunks (r_analysis r)) dchunk))
  | None => False end.
Proof.
  destruct (split ex_graph) as [r|] eqn:E; [|vm_compute in E; discriminate].
  apply (chunk_order_permutation_all ex_graph r 2 E); [vm_compute; reflexivity|].
  assert (R : Some r = split ex_graph) by (symmetry; exact E). vm_compute in R. inversion R. vm_compute. lia.
Qed.

(* dynamic_import_resolves_to_entry_chunk on the example: e1 (2, chunk 1) does import(e0); e0 is
   entry point 0 with entry chunk 0, recorded as a dynamic import of chunk 1 *)
From V Require Import C10.DynProofs.
Example ex_dynamic :
  match split ex_graph with
  | Some r => (entry_chunk_index 1 (a_chunks (r_analysis r)) 0, a_entries (r_analysis r),
               map (fun i => (i_dynamic i, i_chunk i)) (x_imports (nth 1 (r_cross r) dcross)))
              = (Some 0%nat, [1; 2]%nat, [(true, 0%nat); (false, 2%nat)])
  | None => False
  end.
Proof. vm_compute. reflexivity. Qed.

(* CSS: e0 (1) and e1 (2) import the stubs (6, 7) of a.css (4) and b.css (5); a.css @imports
   b.css.  Both entry points get a CSS chunk; b.css is in both (duplicated by design) *)
From V Require Import C10.Css C10.CssProofs.
Definition ex_css : cgraph := map mk_cfile
  [(false, [], -1); (false, [6; 7], -1); (false, [6], -1); (false, [], -1); (true, [5], -1); (true, [], -1); (false, [], 4); (false, [], 5)].
Example ex_css_chunks : (wf_cgraphb ex_css, no_zero_targetb ex_css, css_chunks ex_css [1; 2]%nat)
  = (true, true, [(0, 1, [4; 5]); (1, 2, [5; 4])]%nat).
Proof. vm_compute. reflexivity. Qed.
Example ex_css_path : spath ex_css [0%nat] 4%nat 5%nat /\ jreach ex_css 2 6 /\ cf_stub (getc ex_css 6) = Some 4%nat.
Proof.
  split.
  - eapply sp_step; [intros [H|[]]; discriminate | left; reflexivity |].
    apply sp_here. intros [H|[H|[]]]; discriminate.
  - split; [|reflexivity]. eapply jr_step; [apply jr_refl | vm_compute; auto].
Qed.
