(* The CSS side of code splitting (Css.v): the non-memoised walk over "@import" rules collects
   exactly the ends of the import paths that pass through no file twice ([spath]), from the CSS
   files whose JS stubs the post-order walk over the JS imports reaches ([jreach]); loop removal
   then gives the same with ordinary reachability ([creach]). *)
From V Require Import Common.Base C10.BitSet C10.Renamer C10.Split C10.BitSetProofs C10.RenamerProofs
  C10.ListLemmas C10.SplitProofs C10.OrderProofs C10.CrossProofs C10.TotalProofs C10.DfsProofs C10.Css.
From Coq Require Import Permutation.

Lemma keep_last_In l x : In x (keep_last l) <-> In x l.
Proof.
  induction l as [|y l IH]; simpl; [tauto|].
  destruct (memn y (keep_last l)) eqn:E.
  - apply memn_In in E. rewrite IH. split; [tauto|]. intros [<-|H]; [apply IH; exact E | exact H].
  - simpl. rewrite IH. tauto.
Qed.
Lemma keep_last_nodup l : NoDup (keep_last l).
Proof.
  induction l as [|y l IH]; simpl; [constructor|].
  destruct (memn y (keep_last l)) eqn:E; [exact IH|]. constructor; [apply memn_false; exact E | exact IH].
Qed.

Lemma getc_cases g f : getc g f = nocfile \/ In (getc g f) g.
Proof.
  unfold getc. destruct (Nat.ltb_spec f (length g)); [right; apply nth_In; assumption | left; apply nth_overflow; assumption].
Qed.
Lemma wf_cgraphb_spec g f : wf_cgraphb g = true ->
  (forall t, In t (cf_recs (getc g f)) -> (t < length g)%nat) /\
  (forall c, cf_stub (getc g f) = Some c -> (c < length g)%nat).
Proof.
  intro W. destruct (getc_cases g f) as [->|Hin]; [split; [intros t [] | discriminate]|].
  unfold wf_cgraphb in W. rewrite forallb_forall in W. apply W, andb_true_iff in Hin as [W1 W2].
  rewrite forallb_forall in W1. split.
  - intros t Ht. apply Nat.ltb_lt, W1, Ht.
  - intros c E. rewrite E in W2. apply Nat.ltb_lt, W2.
Qed.
Lemma wf_crecs g f t : wf_cgraphb g = true -> In t (cf_recs (getc g f)) -> (t < length g)%nat.
Proof. intro W. apply (wf_cgraphb_spec g f W). Qed.

(* x is reached from f along "@import" edges without passing through a file twice and without
   touching [avoid] (the files already on the import chain) *)
Inductive spath (g : cgraph) : list nat -> nat -> nat -> Prop :=
| sp_here avoid f : ~ In f avoid -> spath g avoid f f
| sp_step avoid f t x : ~ In f avoid -> In t (cf_recs (getc g f)) -> spath g (f :: avoid) t x -> spath g avoid f x.

Lemma spath_avoid_ext g a1 f x : spath g a1 f x -> forall a2, (forall y, In y a2 -> In y a1) -> spath g a2 f x.
Proof.
  intro P. induction P as [avoid f H|avoid f t x H Ht P IH]; intros a2 Hs.
  - apply sp_here. intro Hc. apply H, Hs, Hc.
  - eapply sp_step; [intro Hc; apply H, Hs, Hc | exact Ht |].
    apply IH. intros y [<-|Hy]; [left; reflexivity | right; apply Hs; exact Hy].
Qed.

Lemma css_walk_sound g : forall fuel f chain x, In x (css_walk fuel g f chain) ->
  spath g chain f x.
Proof.
  induction fuel as [|k IH]; intros f chain x H; simpl in H; [destruct H|].
  destruct (memn f chain) eqn:E; [destruct H|]. apply memn_false in E.
  apply in_app_or in H as [H|[Ex|[]]]; [|subst x; apply sp_here; exact E].
  apply in_flat_map in H as [t [Ht H]]. apply IH in H.
  eapply sp_step; [exact E | exact Ht |].
  eapply spath_avoid_ext; [exact H|]. intros y [Ey|Hy]; apply in_or_app; [right; left; exact Ey | left; exact Hy].
Qed.

Lemma css_walk_complete g : wf_cgraphb g = true ->
  forall fuel f chain x, spath g chain f x ->
    NoDup chain -> (forall y, In y chain -> (y < length g)%nat) -> (f < length g)%nat ->
    (length g < fuel + length chain)%nat ->
    In x (css_walk fuel g f chain).
Proof.
  intro W. induction fuel as [|k IH]; intros f chain x P ND HB Hf HF.
  - pose proof (bounded_nodup_length chain (length g) ND HB). simpl in HF. lia.
  - simpl. destruct P as [chain f H|chain f t x H Ht P'].
    + replace (memn f chain) with false by (symmetry; apply memn_false; exact H).
      apply in_or_app. right. left. reflexivity.
    + replace (memn f chain) with false by (symmetry; apply memn_false; exact H).
      apply in_or_app. left. apply in_flat_map. exists t. split; [exact Ht|].
      apply IH.
      * eapply spath_avoid_ext; [exact P'|]. intros y Hy. apply in_app_or in Hy as [Hy|[Ey|[]]]; [right; exact Hy | left; exact Ey].
      * apply nodup_snoc; assumption.
      * intros y Hy. apply in_app_or in Hy as [Hy|[Ey|[]]]; [apply HB; exact Hy | subst y; exact Hf].
      * eapply wf_crecs; eauto.
      * rewrite app_length. simpl. lia.
Qed.

Inductive jreach (g : cgraph) (e : nat) : nat -> Prop :=
| jr_refl : jreach g e e
| jr_step f t : jreach g e f -> In t (js_succ g f) -> jreach g e t.

Lemma js_succ_bounded g f t : wf_cgraphb g = true -> In t (js_succ g f) -> (t < length g)%nat.
Proof. intros W H. unfold js_succ in H. apply filter_In in H as [H _]. eapply wf_crecs; eauto. Qed.

Lemma css_roots_spec g e c : wf_cgraphb g = true -> (e < length g)%nat ->
  (In c (css_roots g e) <-> exists f, jreach g e f /\ cf_stub (getc g f) = Some c).
Proof.
  intros W He. unfold css_roots.
  destruct (postorder_spec (js_succ g) (length g) (jreach g e)
              (fun x y => js_succ_bounded g x y W) (fun x y Hx Hy => jr_step g e x y Hx Hy) [e]) as [A [B C]].
  { intros x [<-|[]]. split; [exact He | apply jr_refl]. }
  split.
  - intro H. apply in_flat_map in H as [f [Hf H]]. exists f. split; [apply C; exact Hf|].
    destruct (cf_stub (getc g f)) as [c'|]; [|destruct H]. destruct H as [<-|[]]. reflexivity.
  - intros [f [Hr Hs]]. apply in_flat_map. exists f. split; [|rewrite Hs; left; reflexivity].
    clear Hs. induction Hr as [|f t Hr IH Ht]; [apply A; left; reflexivity | apply (B f t IH Ht)].
Qed.

Theorem css_chunk_exact_all g e c : wf_cgraphb g = true -> (e < length g)%nat ->
  (In c (css_chunk_files g e) <->
   exists f root, jreach g e f /\ cf_stub (getc g f) = Some root /\ spath g [0%nat] root c).
Proof.
  intros W He. unfold css_chunk_files. rewrite keep_last_In. unfold css_order. rewrite in_flat_map. split.
  - intros [root [Hr Hc]]. apply (css_roots_spec g e root W He) in Hr as [f [Hf Hs]].
    exists f, root. split; [exact Hf|]. split; [exact Hs|]. eapply css_walk_sound; eauto.
  - intros [f [root [Hf [Hs P]]]]. exists root. split; [apply (css_roots_spec g e root W He); exists f; auto|].
    apply (css_walk_complete g W); try assumption.
    + constructor; [intros [] | constructor].
    + intros y [<-|[]]. lia.
    + apply (wf_cgraphb_spec g f W). exact Hs.
    + simpl. lia.
Qed.

Theorem css_chunk_nodup_all g e : NoDup (css_chunk_files g e).
Proof. apply keep_last_nodup. Qed.

(* shared CSS is duplicated (by design): a CSS file reached from two entry points is in both CSS chunks *)
Theorem css_shared_duplicated_all g e1 e2 f1 f2 r1 r2 c : wf_cgraphb g = true ->
  (e1 < length g)%nat -> (e2 < length g)%nat ->
  jreach g e1 f1 -> cf_stub (getc g f1) = Some r1 -> spath g [0%nat] r1 c ->
  jreach g e2 f2 -> cf_stub (getc g f2) = Some r2 -> spath g [0%nat] r2 c ->
  In c (css_chunk_files g e1) /\ In c (css_chunk_files g e2).
Proof.
  intros W H1 H2 J1 S1 P1 J2 S2 P2. split; apply css_chunk_exact_all; try assumption; eauto.
Qed.

Lemma css_chunks_perm g ents : Permutation (css_chunks_unsorted g ents) (css_chunks g ents).
Proof.
  apply insertion_perm; [reflexivity|]. intros x y m. simpl. destruct (bytes_ltb _ _); auto.
Qed.

Theorem css_one_chunk_per_entry_all g ents i e fs :
  In (i, e, fs) (css_chunks g ents) <->
  nth_error ents i = Some e /\ css_roots g e <> [] /\ fs = css_chunk_files g e.
Proof.
  assert (P : In (i, e, fs) (css_chunks g ents) <-> In (i, e, fs) (css_chunks_unsorted g ents)).
  { split; intro H; [eapply Permutation_in; [apply Permutation_sym; apply css_chunks_perm | exact H]
                    | eapply Permutation_in; [apply css_chunks_perm | exact H]]. }
  rewrite P. unfold css_chunks_unsorted. rewrite in_flat_map. split.
  - intros [[i' e'] [Hc H]]. simpl in H. apply combine_seq_In in Hc as [_ Hn]. rewrite Nat.sub_0_r in Hn.
    destruct (css_roots g e') as [|r rs] eqn:ER; [destruct H|]. destruct H as [H|[]]. inversion H; subst.
    split; [exact Hn|]. split; [rewrite ER; discriminate | reflexivity].
  - intros [Hn [Hr ->]]. exists (i, e). split; [apply combine_seq_In; split; [lia | rewrite Nat.sub_0_r; exact Hn]|].
    simpl. destruct (css_roots g e); [contradiction | left; reflexivity].
Qed.

Theorem css_chunk_bits_nodup_all g ents : NoDup (map (fun c => fst (fst c)) (css_chunks g ents)).
Proof.
  eapply Permutation_NoDup; [apply Permutation_map; apply css_chunks_perm|].
  unfold css_chunks_unsorted. apply (flat_map_key_nodup fst).
  - rewrite combine_fst by apply seq_length. apply seq_NoDup.
  - intro ie. destruct (css_roots g (snd ie)); [auto | right; eexists; split; reflexivity].
Qed.

Inductive creach (g : cgraph) : nat -> nat -> Prop :=
| cr_refl f : creach g f f
| cr_step f t x : In t (cf_recs (getc g f)) -> creach g t x -> creach g f x.

(* [l] lists the files after f on an "@import" path from f to x *)
Fixpoint chain (g : cgraph) (f : nat) (l : list nat) (x : nat) : Prop :=
  match l with
  | [] => f = x
  | t :: r => In t (cf_recs (getc g f)) /\ chain g t r x
  end.

Lemma creach_chain g f x : creach g f x -> exists l, chain g f l x.
Proof.
  intro H. induction H as [f|f t x Ht _ [l Hc]]; [exists []; reflexivity|].
  exists (t :: l). split; assumption.
Qed.

Lemma chain_suffix g x : forall l1 f t l2, chain g f (l1 ++ t :: l2) x -> chain g t l2 x.
Proof.
  induction l1 as [|y l1 IH]; intros f t l2 H; simpl in H; [tauto|]. destruct H as [_ H]. eapply IH; eauto.
Qed.

(* loop removal: a path that comes back to its start is cut there, so ordinary reachability
   along "@import" edges gives a path without repetition *)
Lemma loop_removal g x : forall n l f avoid, (length l <= n)%nat -> chain g f l x ->
  ~ In f avoid -> (forall y, In y l -> ~ In y avoid) -> spath g avoid f x.
Proof.
  induction n as [|n IH]; intros l f avoid HL HC Hf Hl.
  - destruct l; [|simpl in HL; lia]. simpl in HC. subst x. apply sp_here. exact Hf.
  - destruct (in_dec Nat.eq_dec f l) as [Hin|Hin].
    + apply in_split in Hin as [l1 [l2 ->]]. apply (IH l2).
      * rewrite app_length in HL. simpl in HL. lia.
      * eapply chain_suffix; eauto.
      * exact Hf.
      * intros y Hy. apply Hl. apply in_or_app. right. right. exact Hy.
    + destruct l as [|t r]; simpl in HC; [subst x; apply sp_here; exact Hf|].
      destruct HC as [Ht HC].
      eapply sp_step; [exact Hf | exact Ht |].
      apply (IH r).
      * simpl in HL. lia.
      * exact HC.
      * intros [Hc|Hc]; [apply Hin; left; symmetry; exact Hc | apply (Hl t (or_introl eq_refl)); exact Hc].
      * intros y Hy [Hc|Hc]; [apply Hin; right; rewrite Hc; exact Hy | apply (Hl y (or_intror Hy)); exact Hc].
Qed.

Lemma chain_nonzero g x : no_zero_targetb g = true -> forall l f, chain g f l x -> forall y, In y l -> y <> 0%nat.
Proof.
  intros Z. induction l as [|t r IH]; intros f HC y Hy; [destruct Hy|].
  simpl in HC. destruct HC as [Ht HC]. destruct Hy as [<-|Hy]; [|eapply IH; eauto].
  intro E. subst t. destruct (getc_cases g f) as [Ec|Hin]; [rewrite Ec in Ht; destruct Ht|].
  unfold no_zero_targetb in Z. rewrite forallb_forall in Z.
  apply Z, negb_true_iff, memn_false in Hin. contradiction.
Qed.

Lemma spath_creach g avoid a b : spath g avoid a b -> ~ In a avoid /\ creach g a b.
Proof.
  intro Q. induction Q as [av a H|av a t b H Ht Q [_ IH]]; split; auto; [apply cr_refl | eapply cr_step; eauto].
Qed.

Theorem css_chunk_reachable_all g e c : wf_cgraphb g = true -> no_zero_targetb g = true -> (e < length g)%nat ->
  (In c (css_chunk_files g e) <->
   exists f root, jreach g e f /\ cf_stub (getc g f) = Some root /\ root <> 0%nat /\ creach g root c).
Proof.
  intros W Z He. rewrite (css_chunk_exact_all g e c W He). split.
  - intros [f [root [Hf [Hs P]]]]. exists f, root. split; [exact Hf|]. split; [exact Hs|].
    destruct (spath_creach _ _ _ _ P) as [N R]. split; [intro E; apply N; left; symmetry; exact E | exact R].
  - intros [f [root [Hf [Hs [Hn R]]]]]. exists f, root. split; [exact Hf|]. split; [exact Hs|].
    destruct (creach_chain _ _ _ R) as [l HC].
    apply (loop_removal g c (length l) l root [0%nat] (le_n _) HC).
    + intros [E|[]]. apply Hn. symmetry. exact E.
    + intros y Hy [E|[]]. apply (chain_nonzero g c Z l root HC y Hy). symmetry. exact E.
Qed.
