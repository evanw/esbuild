(* List facts shared by the C10 proofs.  Two of them carry whole families: insertion_perm (every
   sort of the model is an insertion sort, hence a permutation) and fold_add_new (dedupe,
   dedupe_syms, extra_keys and new_layer are one fold). *)
From V Require Import Common.Base C10.BitSet C10.Renamer C10.Split.
From Coq Require Import Permutation.

Lemma existsb_eqb_In {A} (eqb : A -> A -> bool) : (forall a b, eqb a b = true <-> a = b) ->
  forall x l, existsb (eqb x) l = true <-> In x l.
Proof.
  intros EQ x l. rewrite existsb_exists. split.
  - intros [y [Hy E]]. apply EQ in E. subst. assumption.
  - intro H. exists x. split; [assumption | apply EQ; reflexivity].
Qed.

Lemma memn_In x l : memn x l = true <-> In x l.
Proof. apply (existsb_eqb_In Nat.eqb Nat.eqb_eq). Qed.
Lemma memn_false x l : memn x l = false <-> ~ In x l.
Proof. rewrite <- memn_In. destruct (memn x l); split; intro H; congruence. Qed.

Lemma sym_eqb_eq a b : sym_eqb a b = true <-> a = b.
Proof.
  destruct a as [a1 a2], b as [b1 b2]. unfold sym_eqb; simpl.
  rewrite andb_true_iff, !Nat.eqb_eq. split; [intros [-> ->]; reflexivity | intro H; inversion H; auto].
Qed.
Lemma mems_In x l : mems x l = true <-> In x l.
Proof. apply (existsb_eqb_In sym_eqb sym_eqb_eq). Qed.

Lemma key_mem_In k l : key_mem k l = true <-> In k l.
Proof.
  induction l as [|x l IH]; simpl.
  - split; [discriminate | tauto].
  - rewrite orb_true_iff, IH, zlist_eqb_eq. split; intros [H|H]; auto.
Qed.

Lemma Equals_eq a b : Equals a b = true <-> a = b.
Proof. apply zlist_eqb_eq. Qed.
Lemma Equals_refl a : Equals a a = true.
Proof. apply Equals_eq. reflexivity. Qed.

Lemma all_some_spec {A} (l : list (option A)) r :
  all_some l = Some r -> map Some r = l.
Proof.
  revert r; induction l as [|[x|] l IH]; simpl; intros r H.
  - inversion H. reflexivity.
  - destruct (all_some l) as [r'|]; [|discriminate]. inversion H. simpl. f_equal. apply IH. reflexivity.
  - discriminate.
Qed.
Lemma all_some_length {A} (l : list (option A)) r : all_some l = Some r -> length r = length l.
Proof. intro H. apply all_some_spec in H. rewrite <- H. rewrite map_length. reflexivity. Qed.
Lemma all_some_nth {A} (l : list (option A)) r i d :
  all_some l = Some r -> (i < length l)%nat -> nth i l None = Some (nth i r d).
Proof.
  intros H Hi. pose proof (all_some_length _ _ H) as HL. apply all_some_spec in H. rewrite <- H.
  rewrite (nth_indep _ None (Some d)) by (rewrite map_length; lia).
  apply map_nth.
Qed.

Lemma all_some_map_nth {A B} (f : A -> option B) l r i da db :
  all_some (map f l) = Some r -> (i < length l)%nat -> f (nth i l da) = Some (nth i r db).
Proof.
  intros H Hi. rewrite <- (all_some_nth _ _ i db H) by (rewrite map_length; exact Hi).
  rewrite <- (map_nth f). apply nth_indep. rewrite map_length. exact Hi.
Qed.
Lemma all_some_map {A B} (f : A -> option B) l r :
  all_some (map f l) = Some r -> Forall2 (fun x y => f x = Some y) l r.
Proof.
  revert r; induction l as [|x l IH]; intros r H; simpl in H.
  - inversion H. constructor.
  - destruct (f x) as [y|] eqn:E; [|discriminate].
    destruct (all_some (map f l)) as [r'|]; [|discriminate]. inversion H. constructor; auto.
Qed.
Lemma all_some_total {A} (l : list (option A)) : (forall x, In x l -> x <> None) -> exists r, all_some l = Some r.
Proof.
  induction l as [|[x|] l IH]; intro H; simpl.
  - exists []. reflexivity.
  - destruct IH as [r R]; [intros y Hy; apply H; right; exact Hy|]. rewrite R. eexists; reflexivity.
  - exfalso. apply (H None); [left; reflexivity | reflexivity].
Qed.

Lemma Forall2_mono {A B} (R1 R2 : A -> B -> Prop) l m :
  (forall x y, R1 x y -> R2 x y) -> Forall2 R1 l m -> Forall2 R2 l m.
Proof. intros H F. induction F; constructor; auto. Qed.
Lemma Forall2_in_l {A B} (R : A -> B -> Prop) l m x : Forall2 R l m -> In x l -> exists y, In y m /\ R x y.
Proof.
  intro H. induction H as [|x' y l m Hxy H IH]; intro Hx; [destruct Hx|].
  destruct Hx as [<-|Hx]; [exists y; simpl; auto|].
  destruct (IH Hx) as [y' [Hy' R']]. exists y'. simpl. auto.
Qed.
Lemma Forall2_in_r {A B} (R : A -> B -> Prop) l m y : Forall2 R l m -> In y m -> exists x, In x l /\ R x y.
Proof.
  intro H. induction H as [|x y' l m Hxy H IH]; intro Hy; [destruct Hy|].
  destruct Hy as [<-|Hy]; [exists x; simpl; auto|].
  destruct (IH Hy) as [x' [Hx' R']]. exists x'. simpl. auto.
Qed.

Lemma mapi_from_length {A B} (f : nat -> A -> B) k l : length (mapi_from f k l) = length l.
Proof. revert k; induction l; intro k; simpl; auto. Qed.
Lemma mapi_from_nth {A B} (f : nat -> A -> B) k l i da db :
  (i < length l)%nat -> nth i (mapi_from f k l) db = f (k + i)%nat (nth i l da).
Proof.
  revert k i; induction l as [|x l IH]; intros k [|i] H; simpl in *; try lia.
  - rewrite Nat.add_0_r. reflexivity.
  - rewrite IH by lia. f_equal. lia.
Qed.
Lemma all_some_mapi_nth {A B} (f : nat -> A -> option B) k l r i da db :
  all_some (mapi_from f k l) = Some r -> (i < length l)%nat -> f (k + i)%nat (nth i l da) = Some (nth i r db).
Proof.
  intros H Hi. rewrite <- (all_some_nth _ _ i db H) by (rewrite mapi_from_length; exact Hi).
  symmetry. apply mapi_from_nth. exact Hi.
Qed.
Lemma all_some_mapi_total {A B} (f : nat -> A -> option B) da : forall l k,
  (forall i, (i < length l)%nat -> f (k + i)%nat (nth i l da) <> None) -> exists r, all_some (mapi_from f k l) = Some r.
Proof.
  induction l as [|x l IH]; intros k H; simpl; [eexists; reflexivity|].
  destruct (f k x) as [y|] eqn:E.
  - destruct (IH (S k)) as [r ->]; [|eexists; reflexivity].
    intros i Hi. specialize (H (S i)). simpl in H. rewrite Nat.add_succ_r in H. apply H. lia.
  - exfalso. apply (H O); [simpl; lia|]. rewrite Nat.add_0_r. exact E.
Qed.

Lemma combine_snd {A B} (l : list A) (m : list B) : length l = length m -> map snd (combine l m) = m.
Proof.
  revert m; induction l as [|x l IH]; intros [|y m] H; simpl in *; try discriminate; [reflexivity|].
  f_equal. apply IH. lia.
Qed.

Lemma combine_fst {A B} (l : list A) (m : list B) : length l = length m -> map fst (combine l m) = l.
Proof.
  revert m; induction l as [|x l IH]; intros [|y m] H; simpl in *; try discriminate; [reflexivity|].
  f_equal. apply IH. lia.
Qed.

Lemma combine_seq_In {A} (l : list A) k i x : In (i, x) (combine (seq k (length l)) l) <->
  (k <= i)%nat /\ nth_error l (i - k) = Some x.
Proof.
  revert k; induction l as [|y l IH]; intro k; simpl.
  - split; [tauto|]. intros [_ H]. destruct (i - k)%nat; discriminate.
  - rewrite IH. split.
    + intros [H|[H1 H2]]; [inversion H; subst; rewrite Nat.sub_diag; split; [lia | reflexivity]|].
      split; [lia|]. replace (i - k)%nat with (S (i - S k)) by lia. exact H2.
    + intros [H1 H2]. destruct (Nat.eq_dec i k) as [->|Hne].
      * rewrite Nat.sub_diag in H2. simpl in H2. inversion H2. left. reflexivity.
      * right. split; [lia|]. replace (i - k)%nat with (S (i - S k)) in H2 by lia. exact H2.
Qed.

Lemma nodup_app {A} (l1 l2 : list A) : NoDup l1 -> NoDup l2 -> (forall x, In x l1 -> ~ In x l2) -> NoDup (l1 ++ l2).
Proof.
  intros H1 H2 HD. induction H1 as [|x l1 Hx H1 IH]; simpl; [exact H2|].
  constructor.
  - intro Hc. apply in_app_or in Hc as [Hc|Hc]; [contradiction | apply (HD x); [left; reflexivity | exact Hc]].
  - apply IH. intros y Hy. apply HD. right. exact Hy.
Qed.
Lemma nodup_snoc {A} (l : list A) x : NoDup l -> ~ In x l -> NoDup (l ++ [x]).
Proof.
  intros H Hx. apply nodup_app; [exact H | repeat constructor; intros [] |]. intros y Hy [<-|[]]. contradiction.
Qed.
Lemma nodup_map_in {A B} (f : A -> B) l : NoDup l ->
  (forall x y, In x l -> In y l -> f x = f y -> x = y) -> NoDup (map f l).
Proof.
  intros H Hinj. induction H as [|x l Hx H IH]; simpl; constructor.
  - intro Hc. apply in_map_iff in Hc as [y [E Hy]]. apply Hx.
    assert (y = x) by (apply Hinj; [right; exact Hy | left; reflexivity | exact E]). subst. exact Hy.
  - apply IH. intros a b Ha Hb. apply Hinj; right; assumption.
Qed.

Lemma flat_map_key_nodup {A B} (key : A -> nat) (key' : B -> nat) (F : A -> list B) l :
  NoDup (map key l) -> (forall o, F o = [] \/ exists b, F o = [b] /\ key' b = key o) ->
  NoDup (map key' (flat_map F l)).
Proof.
  intros ND HF.
  assert (K : forall m k, In k (map key' (flat_map F m)) -> In k (map key m)).
  { intros m k Hk. apply in_map_iff in Hk as [b [<- Hb]]. apply in_flat_map in Hb as [o [Ho Hb]].
    destruct (HF o) as [E|[b' [E Ek]]]; rewrite E in Hb; [destruct Hb|].
    destruct Hb as [<-|[]]. rewrite Ek. apply in_map. exact Ho. }
  induction l as [|o l IH]; simpl; [constructor|]. inversion ND as [|? ? Ho ND']; subst.
  rewrite map_app. destruct (HF o) as [->|[b [-> E]]]; simpl; [apply IH; exact ND'|].
  constructor; [rewrite E; intro Hc; apply Ho, K, Hc | apply IH; exact ND'].
Qed.

(* how every fuel argument ends *)
Lemma bounded_nodup_length (l : list nat) n :
  NoDup l -> (forall x, In x l -> (x < n)%nat) -> (length l <= n)%nat.
Proof.
  intros ND H. rewrite <- (seq_length n 0). apply NoDup_incl_length; [exact ND|].
  intros x Hx. apply in_seq. specialize (H x Hx). lia.
Qed.

(* the sorts of the model are insertion sorts; whatever the comparison, an insertion puts x
   before the head or into the tail, so folding it over a list permutes the list *)
Lemma insertion_perm {A} (ins : A -> list A -> list A) :
  (forall x, ins x [] = [x]) ->
  (forall x y l, ins x (y :: l) = x :: y :: l \/ ins x (y :: l) = y :: ins x l) ->
  forall l, Permutation l (fold_right ins [] l).
Proof.
  intros H0 HS.
  assert (P : forall x l, Permutation (x :: l) (ins x l)).
  { intros x l. induction l as [|y l IH]; [rewrite H0; apply Permutation_refl|].
    destruct (HS x y l) as [-> | ->]; [apply Permutation_refl|].
    eapply perm_trans; [apply perm_swap | apply perm_skip; exact IH]. }
  induction l as [|x l IH]; simpl; [constructor|].
  eapply perm_trans; [apply perm_skip; exact IH | apply P].
Qed.

Lemma sort_chunks_perm l : Permutation l (sort_chunks l).
Proof. apply insertion_perm; [reflexivity|]. intros x y m. simpl. destruct (bytes_ltb _ _); auto. Qed.
Lemma sort_alias_perm l : Permutation l (fold_right insert_alias [] l).
Proof. apply insertion_perm; [reflexivity|]. intros x y m. simpl. destruct (bytes_ltb _ _); auto. Qed.
Lemma sort_sym_perm a l : Permutation l (fold_right (insert_sym a) [] l).
Proof. apply insertion_perm; [reflexivity|]. intros x y m. simpl. destruct (sym_ltb _ _ _); auto. Qed.
Lemma insert_by_perm g a l : Permutation l (fold_right (insert_by g a) [] l).
Proof. apply insertion_perm; [reflexivity|]. intros x y m. simpl. destruct (key_ltb _ _); auto. Qed.

(* dedupe, dedupe_syms, extra_keys and new_layer are one fold: the step appends t when t is not
   yet there and satisfies some q, and otherwise leaves the accumulator alone *)
Lemma fold_add_new {A} (q : A -> Prop) (step : list A -> A -> list A) :
  (forall acc t, step acc t = acc ++ [t] /\ q t /\ ~ In t acc \/ step acc t = acc /\ (q t -> In t acc)) ->
  forall l acc,
    (NoDup acc -> NoDup (fold_left step l acc)) /\
    (forall x, In x (fold_left step l acc) <-> In x acc \/ In x l /\ q x).
Proof.
  intro HS. induction l as [|t l IH]; intro acc; simpl; [split; [auto | intro x; tauto]|].
  destruct (IH (step acc t)) as [ND IN]. destruct (HS acc t) as [[E [Hq Hn]]|[E Hq]]; rewrite E in *.
  - split; [intro H; apply ND, nodup_snoc; assumption|].
    intro x. rewrite IN, in_app_iff. simpl. split; [intros [[H|[<-|[]]]|H]; tauto | intros [H|[[<-|H] Hx]]; tauto].
  - split; [exact ND|]. intro x. rewrite IN. split; [tauto|]. intros [H|[[<-|H] Hx]]; auto.
Qed.

Lemma dedupe_by_spec {A} (mem : A -> list A -> bool) (l : list A) :
  (forall x m, mem x m = true <-> In x m) ->
  let r := fold_left (fun acc t => if mem t acc then acc else acc ++ [t]) l [] in
  NoDup r /\ forall x, In x r <-> In x l.
Proof.
  intro M.
  destruct (fold_add_new (fun _ => True) (fun acc t => if mem t acc then acc else acc ++ [t]))
    with (l := l) (acc := @nil A) as [ND IN].
  - intros acc t. destruct (mem t acc) eqn:E; [right; split; [reflexivity | intros _; apply M; exact E]|].
    left. split; [reflexivity|]. split; [exact I|]. intro Hc. apply M in Hc. congruence.
  - split; [apply ND; constructor|]. intro x. rewrite IN. simpl. tauto.
Qed.

Lemma dedupe_spec l : NoDup (dedupe l) /\ forall x, In x (dedupe l) <-> In x l.
Proof. exact (dedupe_by_spec memn l memn_In). Qed.
Lemma dedupe_In l x : In x (dedupe l) <-> In x l.
Proof. apply dedupe_spec. Qed.
Lemma dedupe_syms_In l x : In x (dedupe_syms l) <-> In x l.
Proof. apply (dedupe_by_spec mems l mems_In). Qed.
