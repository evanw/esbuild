(* ExportRenamer: every name handed out is new (pairwise distinct aliases) and a free name
   is always found; NumberToMinifiedName is injective. *)
From V Require Import Common.Base C10.Renamer.
From Coq Require Import FinFun.

Lemma zeqb_refl a : zlist_eqb a a = true.
Proof. apply zlist_eqb_eq. reflexivity. Qed.

Lemma lookup_set_used x k v u :
  lookup_used x (set_used k v u) = if zlist_eqb x k then Some v else lookup_used x u.
Proof.
  induction u as [|[k' w] u IH]; simpl.
  - destruct (zlist_eqb x k); reflexivity.
  - destruct (zlist_eqb k k') eqn:E.
    + apply zlist_eqb_eq in E. subst k'. simpl. destruct (zlist_eqb x k); reflexivity.
    + simpl. destruct (zlist_eqb x k') eqn:E2.
      * apply zlist_eqb_eq in E2. subst k'.
        destruct (zlist_eqb x k) eqn:E3; [|reflexivity].
        apply zlist_eqb_eq in E3. subst. rewrite zeqb_refl in E. discriminate.
      * exact IH.
Qed.

Lemma find_free_fresh fuel prefix tries u name t :
  find_free fuel prefix tries u = Some (name, t) -> lookup_used name u = None.
Proof.
  revert tries; induction fuel as [|k IH]; intros tries H; simpl in H; [discriminate|].
  destruct (lookup_used (prefix ++ itoa (S tries)) u) eqn:E.
  - eapply IH; eassumption.
  - inversion H; subst. exact E.
Qed.

Lemma next_renamed_spec n u a u' :
  next_renamed n u = Some (a, u') -> lookup_used a u = None /\ exists v, u' = set_used a v u.
Proof.
  unfold next_renamed. destruct (lookup_used n u) as [tries|] eqn:E.
  - destruct (find_free (S (length u)) n tries u) as [[name' t']|] eqn:F; [|discriminate].
    intro H. inversion H; subst. apply find_free_fresh in F. eauto.
  - intro H. inversion H; subst. eauto.
Qed.

Lemma rename_from_spec names : forall u l,
  rename_from names u = Some l ->
  NoDup l /\ length l = length names /\ forall a, In a l -> lookup_used a u = None.
Proof.
  induction names as [|n names IH]; intros u l H; simpl in H.
  - inversion H. repeat split; [apply NoDup_nil | intros a []].
  - destruct (next_renamed n u) as [[a u']|] eqn:E; [|discriminate].
    destruct (rename_from names u') as [l'|] eqn:R; [|discriminate].
    inversion H; subst. apply next_renamed_spec in E as [Hfresh [v ->]].
    destruct (IH _ _ R) as [ND [HL Hall]].
    repeat split.
    + constructor; [|exact ND]. intro Hc. apply Hall in Hc.
      rewrite lookup_set_used, zeqb_refl in Hc. discriminate.
    + simpl. lia.
    + intros x [<-|Hx]; [exact Hfresh|]. apply Hall in Hx. rewrite lookup_set_used in Hx.
      destruct (zlist_eqb x a); [discriminate | exact Hx].
Qed.

Lemma rename_all_nodup names l : rename_all names = Some l -> NoDup l /\ length l = length names.
Proof. intro H. apply rename_from_spec in H. tauto. Qed.

(* strconv.Itoa is injective: [undigits] reads the number back *)
Definition undigits (l : bytes) : nat := fold_left (fun v d => (v * 10 + Z.to_nat (d - 48))%nat) l O.

Lemma undigits_snoc l d : undigits (l ++ [48 + Z.of_nat d]) = (undigits l * 10 + d)%nat.
Proof. unfold undigits. rewrite fold_left_app. cbn [fold_left]. f_equal. lia. Qed.

Lemma digits_acc : forall fuel n acc, digits fuel n acc = digits fuel n [] ++ acc.
Proof.
  induction fuel as [|k IH]; intros n acc; cbn [digits]; [reflexivity|].
  destruct (n / 10 =? 0)%nat; [reflexivity|].
  rewrite (IH (n / 10)%nat ((48 + Z.of_nat (n mod 10)) :: acc)).
  rewrite (IH (n / 10)%nat [48 + Z.of_nat (n mod 10)]). rewrite <- app_assoc. reflexivity.
Qed.

Lemma undigits_digits : forall fuel n, (n < fuel)%nat -> undigits (digits fuel n []) = n.
Proof.
  induction fuel as [|k IH]; intros n Hn; [lia|]. cbn [digits].
  pose proof (Nat.div_mod n 10).
  destruct (Nat.eqb_spec (n / 10) 0) as [E|E].
  - change (undigits ([] ++ [48 + Z.of_nat (n mod 10)]) = n). rewrite undigits_snoc.
    change (undigits []) with O. lia.
  - rewrite digits_acc, undigits_snoc, IH; [lia|].
    assert (n / 10 < n)%nat by (apply Nat.div_lt; lia). lia.
Qed.

Lemma itoa_inj a b : itoa a = itoa b -> a = b.
Proof.
  unfold itoa. intro H. rewrite <- (undigits_digits (S a) a), <- (undigits_digits (S b) b) by lia.
  rewrite H. reflexivity.
Qed.

Lemma lookup_used_In name u : lookup_used name u <> None -> In name (map fst u).
Proof.
  induction u as [|[k v] u IH]; simpl; [congruence|].
  destruct (zlist_eqb name k) eqn:E.
  - intros _. left. symmetry. apply zlist_eqb_eq. exact E.
  - intro H. right. apply IH. exact H.
Qed.

Lemma find_free_none : forall fuel prefix tries u, find_free fuel prefix tries u = None ->
  forall t, (tries < t <= tries + fuel)%nat -> lookup_used (prefix ++ itoa t) u <> None.
Proof.
  induction fuel as [|k IH]; intros prefix tries u H t Ht; [lia|]. simpl in H.
  destruct (lookup_used (prefix ++ itoa (S tries)) u) eqn:E; [|discriminate].
  destruct (Nat.eq_dec t (S tries)) as [->|Hne]; [rewrite E; discriminate|].
  apply (IH prefix (S tries) u H). lia.
Qed.

(* ExportRenamer always finds a free name: the n+1 names it tries are distinct, so a map with
   n entries cannot hold them all *)
Lemma find_free_total prefix tries u : exists r, find_free (S (length u)) prefix tries u = Some r.
Proof.
  destruct (find_free (S (length u)) prefix tries u) as [r|] eqn:E; [exists r; reflexivity|]. exfalso.
  pose proof (find_free_none _ _ _ _ E) as N.
  set (cands := map (fun t => prefix ++ itoa t) (seq (S tries) (S (length u)))).
  assert (ND : NoDup cands).
  { apply Injective_map_NoDup; [|apply seq_NoDup]. intros x y Exy. apply app_inv_head in Exy. apply itoa_inj. exact Exy. }
  assert (INC : incl cands (map fst u)).
  { intros x Hx. apply in_map_iff in Hx as [t [<- Ht]]. apply in_seq in Ht. apply lookup_used_In. apply N. lia. }
  pose proof (NoDup_incl_length ND INC) as L. unfold cands in L. rewrite !map_length, seq_length in L. lia.
Qed.

Lemma next_renamed_total n u : exists a u', next_renamed n u = Some (a, u').
Proof.
  unfold next_renamed. destruct (lookup_used n u) as [tries|]; [|eexists; eexists; reflexivity].
  destruct (find_free_total n tries u) as [[name' t'] F]. rewrite F. eexists; eexists; reflexivity.
Qed.

Lemma rename_from_total : forall names u, exists l, rename_from names u = Some l.
Proof.
  induction names as [|n names IH]; intro u; simpl; [exists []; reflexivity|].
  destruct (next_renamed_total n u) as [a [u' E]]. rewrite E.
  destruct (IH u') as [l R]. rewrite R. eexists; reflexivity.
Qed.

Fixpoint nodupb (l : bytes) : bool :=
  match l with [] => true | x :: r => negb (existsb (Z.eqb x) r) && nodupb r end.
Lemma nodupb_NoDup l : nodupb l = true -> NoDup l.
Proof.
  induction l as [|x l IH]; simpl; [constructor|]. intro H. apply andb_true_iff in H as [H1 H2].
  constructor; [|apply IH; exact H2]. intro Hx. apply negb_true_iff in H1.
  rewrite (proj2 (existsb_exists _ _)) in H1; [discriminate|]. exists x. split; [exact Hx | apply Z.eqb_refl].
Qed.

Lemma head_nodup : NoDup head_chars.
Proof. apply nodupb_NoDup. vm_compute. reflexivity. Qed.
Lemma tail_nodup : NoDup tail_chars.
Proof. apply nodupb_NoDup. vm_compute. reflexivity. Qed.

(* A digit string over a table without repetition determines its number: the first digit
   gives the remainder, the other digits the quotient.  The table stays a variable so that no
   step looks into the 54 or 64 characters. *)
Lemma digit_inj (t l m : bytes) a b : NoDup t -> length t <> 0%nat ->
  nth (a mod length t)%nat t 0 :: l = nth (b mod length t)%nat t 0 :: m ->
  (l = m -> (a / length t = b / length t)%nat) -> a = b.
Proof.
  intros ND H0 E Hq. injection E as E1 E2.
  apply (proj1 (NoDup_nth t 0) ND) in E1; try (apply Nat.mod_upper_bound; exact H0).
  rewrite (Nat.div_mod a (length t) H0), (Nat.div_mod b (length t) H0), (Hq E2), E1. reflexivity.
Qed.

(* with enough fuel the tail is a bijective base-64 numeral *)
Lemma min_tail_inj : forall fa fb a b, (a < fa)%nat -> (b < fb)%nat ->
  min_tail fa a = min_tail fb b -> a = b.
Proof.
  induction fa as [|fa IH]; intros fb a b Ha Hb E; [lia|].
  destruct fb as [|fb]; [lia|].
  destruct a as [|a']; destruct b as [|b']; cbn [min_tail] in E; try discriminate; [reflexivity|].
  f_equal. apply (digit_inj tail_chars _ _ _ _ tail_nodup) in E; [exact E | discriminate |].
  change (length tail_chars) with 64%nat. apply (IH fb); lia.
Qed.

Lemma minified_name_inj i j : minified_name i = minified_name j -> i = j.
Proof.
  intro E. apply (digit_inj head_chars _ _ _ _ head_nodup) in E; [exact E | discriminate |].
  change (length head_chars) with 54%nat. apply (min_tail_inj (S i) (S j)); lia.
Qed.

Lemma minified_names_nodup k n : NoDup (map minified_name (seq k n)).
Proof.
  apply Injective_map_NoDup; [intros x y; apply minified_name_inj | apply seq_NoDup].
Qed.
