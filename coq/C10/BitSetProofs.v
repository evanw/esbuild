(* helpers.BitSet: HasBit reads Z.testbit of a byte (HasBit_testbit).  From that: HasBit after
   SetBit, bytes stay in range, two bit sets of the same length with bytes in range are equal
   when they have the same bits (bitset_ext), and card is monotone in the set of bits. *)
From V Require Import Common.Base C10.BitSet.

Lemma land_bitmask a k : 0 <= k ->
  negb (Z.land a (Z.shiftl 1 k) =? 0) = Z.testbit a k.
Proof.
  intro Hk. rewrite Z.shiftl_1_l.
  assert (B : forall m, Z.testbit (Z.land a (2 ^ k)) m = Z.testbit a k && (k =? m)).
  { intro m. rewrite Z.land_spec, Z.pow2_bits_eqb by exact Hk.
    destruct (Z.eqb_spec k m) as [->|]; [reflexivity | rewrite !andb_false_r; reflexivity]. }
  destruct (Z.testbit a k) eqn:E.
  - apply negb_true_iff, Z.eqb_neq. intro H. specialize (B k). rewrite H, Z.bits_0, Z.eqb_refl in B. discriminate.
  - apply negb_false_iff, Z.eqb_eq, Z.bits_inj'. intros m _. rewrite B, Z.bits_0. reflexivity.
Qed.

Lemma HasBit_testbit bs bit :
  HasBit bs bit = Z.testbit (nth (bit / 8) bs 0) (Z.of_nat (bit mod 8)).
Proof. unfold HasBit, bitmask. apply land_bitmask. lia. Qed.

Lemma testbit_bitmask i k : Z.testbit (bitmask i) (Z.of_nat k) = (i mod 8 =? k)%nat.
Proof.
  unfold bitmask. rewrite Z.shiftl_1_l, Z.pow2_bits_eqb by lia.
  destruct (Nat.eqb_spec (i mod 8) k) as [->|H]; [apply Z.eqb_refl | apply Z.eqb_neq; lia].
Qed.

Lemma nth_upd_same l i f d : (i < length l)%nat -> nth i (upd l i f) d = f (nth i l d).
Proof.
  revert i; induction l as [|x l IH]; intros [|i] H; simpl in *; try lia; auto.
  apply IH; lia.
Qed.
Lemma nth_upd_other l i j f d : i <> j -> nth j (upd l i f) d = nth j l d.
Proof.
  revert i j; induction l as [|x l IH]; intros [|i] [|j] H; simpl in *; try congruence; auto.
Qed.
Lemma length_upd l i f : length (upd l i f) = length l.
Proof. revert i; induction l as [|x l IH]; intros [|i]; simpl; auto. Qed.

Lemma div8_lt i n : (i < 8 * n)%nat -> (i / 8 < n)%nat.
Proof. intro H. apply Nat.div_lt_upper_bound; lia. Qed.

Lemma HasBit_SetBit bs i j : (i < 8 * length bs)%nat ->
  HasBit (SetBit bs i) j = (Nat.eqb i j || HasBit bs j).
Proof.
  intro Hi. rewrite !HasBit_testbit. unfold SetBit.
  destruct (Nat.eq_dec (i / 8) (j / 8)) as [Hq|Hq].
  - rewrite <- Hq, nth_upd_same, Z.lor_spec, testbit_bitmask, orb_comm by (apply div8_lt; exact Hi). f_equal.
    (* same byte: the bit is the same iff the remainder is *)
    destruct (Nat.eqb_spec i j) as [->|Hne]; [apply Nat.eqb_refl | apply Nat.eqb_neq; lia].
  - rewrite nth_upd_other by assumption.
    destruct (Nat.eqb_spec i j) as [->|Hne]; [contradiction | reflexivity].
Qed.

Lemma length_SetBit bs i : length (SetBit bs i) = length bs.
Proof. apply length_upd. Qed.

Lemma HasBit_New n j : HasBit (NewBitSet n) j = false.
Proof.
  rewrite HasBit_testbit. unfold NewBitSet. rewrite nth_repeat. apply Z.bits_0.
Qed.

Lemma length_New n : (n <= 8 * length (NewBitSet n))%nat.
Proof.
  unfold NewBitSet. rewrite repeat_length.
  pose proof (Nat.div_mod (n + 7) 8). pose proof (Nat.mod_upper_bound (n + 7) 8). lia.
Qed.

Lemma HasBit_out bs j : (8 * length bs <= j)%nat -> HasBit bs j = false.
Proof.
  intro H. rewrite HasBit_testbit. rewrite nth_overflow. apply Z.bits_0.
  assert (length bs * 8 <= j)%nat by lia.
  apply Nat.div_le_lower_bound; lia.
Qed.

Lemma wf_New n : wf_bitset (NewBitSet n).
Proof. unfold wf_bitset, NewBitSet. apply Forall_forall. intros x H. apply repeat_spec in H. subst. lia. Qed.

Lemma log2_byte x : 0 < x < 256 -> Z.log2 x < 8.
Proof. intro H. apply Z.log2_lt_pow2; [lia|]. change (2 ^ 8) with 256. lia. Qed.

Lemma lor_byte a b : 0 <= a < 256 -> 0 <= b < 256 -> 0 <= Z.lor a b < 256.
Proof.
  intros Ha Hb. split; [apply Z.lor_nonneg; lia|].
  destruct (Z.eq_dec (Z.lor a b) 0) as [E|NE]; [lia|].
  assert (0 < Z.lor a b) by (pose proof (proj2 (Z.lor_nonneg a b) (conj (proj1 Ha) (proj1 Hb))); lia).
  change 256 with (2 ^ 8). apply Z.log2_lt_pow2; [assumption|].
  rewrite Z.log2_lor by lia.
  apply Z.max_lub_lt.
  - destruct (Z.eq_dec a 0); [subst; simpl; lia|]. apply log2_byte; lia.
  - destruct (Z.eq_dec b 0); [subst; simpl; lia|]. apply log2_byte; lia.
Qed.

Lemma bitmask_byte i : 0 <= bitmask i < 256.
Proof.
  unfold bitmask. rewrite Z.shiftl_1_l.
  pose proof (Nat.mod_upper_bound i 8).
  split; [apply Z.pow_nonneg; lia|].
  change 256 with (2 ^ 8). apply Z.pow_lt_mono_r; lia.
Qed.

Lemma Forall_upd (P : Z -> Prop) l i f : Forall P l -> (forall x, P x -> P (f x)) -> Forall P (upd l i f).
Proof.
  intros H Hf. revert i. induction H as [|x l Hx Hl IH]; intros [|i]; simpl; constructor; auto.
Qed.
Lemma wf_SetBit bs i : wf_bitset bs -> wf_bitset (SetBit bs i).
Proof.
  intro H. unfold wf_bitset, SetBit. apply Forall_upd; [exact H|].
  intros x Hx. apply lor_byte; [exact Hx | apply bitmask_byte].
Qed.

Lemma byte_ext a b : 0 <= a < 256 -> 0 <= b < 256 ->
  (forall k, (k < 8)%nat -> Z.testbit a (Z.of_nat k) = Z.testbit b (Z.of_nat k)) -> a = b.
Proof.
  intros Ha Hb H. apply Z.bits_inj'. intros n Hn.
  destruct (Z.ltb_spec n 8).
  - specialize (H (Z.to_nat n)). rewrite Z2Nat.id in H by lia. apply H. lia.
  - assert (forall x, 0 <= x < 256 -> Z.testbit x n = false) as HF.
    { intros x Hx. destruct (Z.eq_dec x 0) as [->|]; [apply Z.bits_0|].
      apply Z.bits_above_log2; [lia|].
      assert (Z.log2 x < 8) by (apply log2_byte; lia). lia. }
    rewrite !HF by assumption. reflexivity.
Qed.

(* equal as byte strings iff the same bits are set *)
Lemma bitset_ext a b : length a = length b -> wf_bitset a -> wf_bitset b ->
  (forall j, (j < 8 * length a)%nat -> HasBit a j = HasBit b j) -> a = b.
Proof.
  revert b. induction a as [|x a IH]; intros [|y b] HL Ha Hb H; simpl in HL; try discriminate; [reflexivity|].
  inversion Ha as [|? ? Hx Ha']; inversion Hb as [|? ? Hy Hb']; subst.
  f_equal.
  - apply byte_ext; try assumption. intros k Hk.
    specialize (H k). rewrite !HasBit_testbit in H.
    rewrite (Nat.div_small k 8) in H by lia. rewrite (Nat.mod_small k 8) in H by lia.
    simpl in H. apply H. lia.
  - apply IH; try assumption; [lia|].
    intros j Hj. specialize (H (8 + j)%nat). rewrite !HasBit_testbit in H.
    replace ((8 + j) / 8)%nat with (S (j / 8)) in H by lia.
    replace ((8 + j) mod 8)%nat with (j mod 8)%nat in H by lia.
    simpl in H. rewrite !HasBit_testbit. apply H. simpl. lia.
Qed.

Lemma card_le a b n : (forall j, (j < n)%nat -> HasBit a j = true -> HasBit b j = true) ->
  (card a n <= card b n)%nat.
Proof.
  induction n as [|k IH]; intro H; simpl; [lia|].
  assert (card a k <= card b k)%nat by (apply IH; intros; apply H; [lia|assumption]).
  specialize (H k (Nat.lt_succ_diag_r k)).
  destruct (HasBit a k); destruct (HasBit b k); lia.
Qed.
Lemma card_subset_eq a b n : (forall j, (j < n)%nat -> HasBit a j = true -> HasBit b j = true) ->
  card a n = card b n -> forall j, (j < n)%nat -> HasBit a j = HasBit b j.
Proof.
  induction n as [|k IH]; intros H E j Hj; [lia|].
  simpl in E.
  assert (Hle : (card a k <= card b k)%nat) by (apply card_le; intros; apply H; [lia|assumption]).
  pose proof (H k (Nat.lt_succ_diag_r k)) as Hk.
  destruct (Nat.eq_dec j k) as [->|Hne].
  - destruct (HasBit a k); destruct (HasBit b k); try reflexivity; lia.
  - apply IH; [intros; apply H; [lia|assumption] | | lia].
    destruct (HasBit a k); destruct (HasBit b k); lia.
Qed.
