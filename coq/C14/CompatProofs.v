(* Lemmas about the compat model: feature bits, ApplyOverrides, validateSupported,
   membership in the unsupported list, upward closure of open version ranges. *)
From V Require Import Common.Base C14.Compat.

Definition feature_of_index (i : Z) : option feature :=
  find (fun f => feature_index f =? i) all_features.

Lemma feature_of_index_left f : feature_of_index (feature_index f) = Some f.
Proof. destruct f; vm_compute; reflexivity. Qed.

Lemma feature_index_inj a b : feature_index a = feature_index b -> a = b.
Proof.
  intro H. apply (f_equal feature_of_index) in H. rewrite !feature_of_index_left in H. congruence.
Qed.

Lemma feature_index_range f : 0 <= feature_index f < 64.
Proof. destruct f; vm_compute; split; congruence. Qed.

Lemma feature_eqb_eq a b : feature_eqb a b = true <-> a = b.
Proof.
  unfold feature_eqb. rewrite Z.eqb_eq. split; [apply feature_index_inj | congruence].
Qed.

Lemma feature_eqb_refl a : feature_eqb a a = true.
Proof. apply feature_eqb_eq; reflexivity. Qed.

Lemma existsb_feature_In g l : existsb (feature_eqb g) l = true <-> In g l.
Proof.
  rewrite existsb_exists. split.
  - intros [x [Hx E]]. apply feature_eqb_eq in E. subst; assumption.
  - intro H. exists g. split; [assumption | apply feature_eqb_refl].
Qed.

(* what is written only when supported is supported *)
Lemma in_unless {A} (U : A -> bool) x g : In g (if U x then [] else [x]) -> U g = false.
Proof. destruct (U x) eqn:E; [intros [] | intros [<-|[]]; exact E]. Qed.

Lemma all_features_complete f : In f all_features.
Proof. exact (proj1 (find_some _ _ (feature_of_index_left f))). Qed.

Lemma testbit_shiftl1 i n : 0 <= i -> Z.testbit (Z.shiftl 1 i) n = (n =? i).
Proof. intro Hi. rewrite Z.shiftl_1_l, Z.pow2_bits_eqb by assumption. apply Z.eqb_sym. Qed.

Lemma land_shiftl1 x i : 0 <= i ->
  Z.land x (Z.shiftl 1 i) = if Z.testbit x i then Z.shiftl 1 i else 0.
Proof.
  intro Hi. apply Z.bits_inj'. intros n _. rewrite Z.land_spec.
  destruct (Z.testbit x i) eqn:T; rewrite ?Z.bits_0, testbit_shiftl1 by assumption;
    (destruct (Z.eqb_spec n i) as [->|_]; [rewrite T; reflexivity | apply andb_false_r]).
Qed.

Lemma Has_shiftl1 x i : 0 <= i -> Has x (Z.shiftl 1 i) = Z.testbit x i.
Proof.
  intro Hi. unfold Has. rewrite land_shiftl1 by assumption.
  destruct (Z.testbit x i); [|reflexivity].
  rewrite Z.shiftl_1_l. pose proof (Z.pow_pos_nonneg 2 i). lia.
Qed.

Lemma testbit_bits_of_list {A} (index : A -> Z) (l : list A) n :
  (forall a, 0 <= index a) ->
  Z.testbit (fold_right (fun a acc => Z.lor (Z.shiftl 1 (index a)) acc) 0 l) n = existsb (fun a => n =? index a) l.
Proof.
  intro Hi. induction l as [|a l IH]; cbn [fold_right existsb]; [apply Z.bits_0|].
  rewrite Z.lor_spec, IH, testbit_shiftl1 by apply Hi. reflexivity.
Qed.

Lemma has_testbit x f : has x f = Z.testbit x (feature_index f).
Proof. apply Has_shiftl1. apply feature_index_range. Qed.

Lemma has_bits_of l g : has (bits_of l) g = existsb (feature_eqb g) l.
Proof. rewrite has_testbit. apply (testbit_bits_of_list feature_index). intro a. apply feature_index_range. Qed.

Lemma has_bits_of_In l g : has (bits_of l) g = true <-> In g l.
Proof. rewrite has_bits_of. apply existsb_feature_In. Qed.

Lemma has_lor a b g : has (Z.lor a b) g = has a g || has b g.
Proof. rewrite !has_testbit. apply Z.lor_spec. Qed.

Lemma has_bit f g : has (bit f) g = feature_eqb g f.
Proof. rewrite has_testbit. apply testbit_shiftl1. apply feature_index_range. Qed.

Lemma ApplyOverrides_testbit f o m n :
  Z.testbit (ApplyOverrides f o m) n = if Z.testbit m n then Z.testbit o n else Z.testbit f n.
Proof.
  unfold ApplyOverrides. rewrite Z.lor_spec, Z.ldiff_spec, Z.land_spec.
  destruct (Z.testbit m n), (Z.testbit o n), (Z.testbit f n); reflexivity.
Qed.

Lemma ApplyOverrides_has f o m g :
  has (ApplyOverrides f o m) g = if has m g then has o g else has f g.
Proof. rewrite !has_testbit. apply ApplyOverrides_testbit. Qed.

(* the Go expression on uint64 agrees with the Z expression: staying within 64 bits *)
Lemma high_bits_zero x : 0 <= x < 2 ^ 64 -> forall n, 64 <= n -> Z.testbit x n = false.
Proof.
  intros Hx n Hn. destruct (Z.eq_dec x 0) as [->|Hne]; [apply Z.bits_0|].
  apply Z.bits_above_log2; [lia|]. assert (Z.log2 x < 64) by (apply Z.log2_lt_pow2; lia). lia.
Qed.

Lemma below_2_64 x : 0 <= x -> (forall n, 64 <= n -> Z.testbit x n = false) -> x < 2 ^ 64.
Proof.
  intros Hx H. destruct (Z_lt_ge_dec x (2 ^ 64)) as [|Hge]; [assumption|exfalso].
  assert (0 < x) by lia. assert (64 <= Z.log2 x) by (apply Z.log2_le_pow2; lia).
  pose proof (Z.bit_log2 x ltac:(lia)) as Hb. rewrite H in Hb by lia. discriminate.
Qed.

Lemma ApplyOverrides_range f o m :
  0 <= f < 2 ^ 64 -> 0 <= o < 2 ^ 64 -> 0 <= m < 2 ^ 64 -> 0 <= ApplyOverrides f o m < 2 ^ 64.
Proof.
  intros Hf Ho Hm.
  assert (0 <= ApplyOverrides f o m) as H0.
  { unfold ApplyOverrides. apply Z.lor_nonneg. split; [apply Z.ldiff_nonneg; lia | apply Z.land_nonneg; lia]. }
  split; [assumption|]. apply below_2_64; [assumption|]. intros n Hn.
  rewrite ApplyOverrides_testbit, (high_bits_zero m Hm n Hn). apply high_bits_zero; assumption.
Qed.

Definition vs_step (acc : Z * Z) (kv : feature * bool) : Z * Z :=
  let '(jsFeature, jsMask) := acc in
  (if snd kv then jsFeature else Z.lor jsFeature (bit (fst kv)), Z.lor jsMask (bit (fst kv))).

Lemma validateSupported_fold l acc g :
  has (snd (fold_left vs_step l acc)) g = has (snd acc) g || existsb (fun kv => feature_eqb g (fst kv)) l
  /\ has (fst (fold_left vs_step l acc)) g =
       has (fst acc) g || existsb (fun kv => feature_eqb g (fst kv) && negb (snd kv)) l.
Proof.
  revert acc. induction l as [|[k v] l IH]; intros [a m]; cbn [fold_left existsb].
  - rewrite !orb_false_r. split; reflexivity.
  - destruct (IH (vs_step (a, m) (k, v))) as [IH1 IH2]. rewrite IH1, IH2.
    cbn [vs_step fst snd]. rewrite has_lor, has_bit. split.
    + rewrite orb_assoc. reflexivity.
    + destruct v; cbn [negb]; [rewrite andb_false_r; reflexivity|].
      rewrite has_lor, has_bit, andb_true_r, orb_assoc. reflexivity.
Qed.

Lemma validateSupported_mask l g :
  has (snd (validateSupported l)) g = existsb (fun kv => feature_eqb g (fst kv)) l.
Proof.
  unfold validateSupported. change (fun acc kv => _) with vs_step.
  destruct (validateSupported_fold l (0, 0) g) as [H _]. rewrite H.
  cbn [snd]. rewrite has_testbit, Z.bits_0. reflexivity.
Qed.

Lemma validateSupported_feature l g :
  has (fst (validateSupported l)) g = existsb (fun kv => feature_eqb g (fst kv) && negb (snd kv)) l.
Proof.
  unfold validateSupported. change (fun acc kv => _) with vs_step.
  destruct (validateSupported_fold l (0, 0) g) as [_ H]. rewrite H.
  cbn [fst]. rewrite has_testbit, Z.bits_0. reflexivity.
Qed.

Lemma validateSupported_mask_In sup g b : In (g, b) sup -> has (snd (validateSupported sup)) g = true.
Proof.
  intro Hin. rewrite validateSupported_mask. apply existsb_exists.
  exists (g, b). split; [assumption | apply feature_eqb_refl].
Qed.

(* the loop of UnsupportedJSFeatures / UnsupportedCSSFeatures: the keys of the rows that pass
   the test, one key (InlineScript, InlineStyle) being skipped *)
Lemma in_rows_except {A B} (eqb : A -> A -> bool) (skip : A) (test : B -> bool) (tbl : list (A * B)) a :
  (forall x y, eqb x y = true <-> x = y) ->
  In a (map fst (filter (fun row => negb (eqb (fst row) skip) && test (snd row)) tbl)) <->
  exists b, In (a, b) tbl /\ a <> skip /\ test b = true.
Proof.
  intro Heqb. rewrite in_map_iff. split.
  - intros [[a' b] [E H]]. cbn in E. subst a'. apply filter_In in H as [Hin Hc].
    cbn [fst snd] in Hc. apply andb_true_iff in Hc as [Hn Ht]. exists b. repeat split; try assumption.
    intros ->. rewrite (proj2 (Heqb skip skip) eq_refl) in Hn. discriminate.
  - intros [b [Hin [Hne Ht]]]. exists (a, b). split; [reflexivity|].
    apply filter_In. split; [assumption|]. cbn [fst snd]. rewrite Ht, andb_true_r.
    destruct (eqb a skip) eqn:E; [apply Heqb in E; contradiction | reflexivity].
Qed.

Lemma unsupported_in_spec tbl cs f :
  In f (unsupported_in tbl cs) <->
  exists engs, In (f, engs) tbl /\ f <> FInlineScript /\ feature_unsupported engs cs = true.
Proof. apply (in_rows_except feature_eqb FInlineScript (fun engs => feature_unsupported engs cs)), feature_eqb_eq. Qed.

Lemma UnsupportedJSFeatures_has cs f :
  has (UnsupportedJSFeatures cs) f = true <-> In f (unsupported_list cs).
Proof. unfold UnsupportedJSFeatures. apply has_bits_of_In. Qed.

Lemma feature_unsupported_es engs y :
  feature_unsupported engs (es_constraint y) =
  match lookup_engine EES engs with None => true | Some r => negb (isVersionSupported r (mkSemver [y] false)) end.
Proof. unfold feature_unsupported, es_constraint. cbn [existsb fst snd]. apply orb_false_r. Qed.

Lemma lookup_engine_In e l r : lookup_engine e l = Some r -> exists e', In (e', r) l.
Proof.
  induction l as [|[e' r'] l IH]; cbn [lookup_engine]; [discriminate|].
  destruct (engine_eqb e e').
  - intros [= ->]. exists e'. left. reflexivity.
  - intro H. destruct (IH H) as [e'' Hin]. exists e''. right. exact Hin.
Qed.

Definition all_open (r : list vrange) : bool := forallb (fun se : vrange => ver_is_zero (snd se)) r.

Lemma all_open_upward_closed r v1 v2 :
  all_open r = true -> (forall s, compareVersions s v1 <= 0 -> compareVersions s v2 <= 0) ->
  isVersionSupported r v1 = true -> isVersionSupported r v2 = true.
Proof.
  intros Hopen Hle. induction r as [|[s e] r IH]; cbn [isVersionSupported]; [discriminate|].
  cbn [all_open forallb snd] in Hopen. apply andb_true_iff in Hopen as [-> Hopen]. rewrite !andb_true_r.
  destruct (Z.leb_spec (compareVersions s v1) 0) as [H1|_].
  - intros _. apply Hle, Z.leb_le in H1. rewrite H1. reflexivity.
  - intro H. rewrite (IH Hopen H). destruct (compareVersions s v2 <=? 0); reflexivity.
Qed.
