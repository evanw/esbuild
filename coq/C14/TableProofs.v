(* Theorems about the regenerated tables: the ES column against the ECMA-262 edition
   table, well-formed version ranges, the `supported` pipeline, implied overrides. *)
From Coq Require Import String Ascii.
From V Require Import Common.Base C14.Compat C14.Spec C14.CompatProofs.

Definition vle3 (a b : Z * Z * Z) : Prop :=
  let '(a1, a2, a3) := a in let '(b1, b2, b3) := b in
  a1 < b1 \/ (a1 = b1 /\ (a2 < b2 \/ (a2 = b2 /\ a3 <= b3))).

Definition sv3 (v : Z * Z * Z) : semver := let '(a, b, c) := v in mkSemver [a; b; c] false.

Lemma compareVersions_sign s v : compareVersions s (sv3 v) <= 0 <-> vle3 s v.
Proof.
  destruct s as [[a b] c], v as [[x y] z]. unfold compareVersions, sv3, part, vle3. cbn [sv_parts sv_pre nth].
  rewrite !andb_false_r.
  destruct (a - x =? 0) eqn:E0; [destruct (b - y =? 0) eqn:E1 | rewrite E0]; lia.
Qed.

(* the semver of an ES year has one part; the missing ones read as 0 *)
Lemma compareVersions_year s y : compareVersions s (mkSemver [y] false) <= 0 <-> vle3 s (y, 0, 0).
Proof. exact (compareVersions_sign s (y, 0, 0)). Qed.

Lemma vle3_trans a b c : vle3 a b -> vle3 b c -> vle3 a c.
Proof. destruct a as [[a1 a2] a3], b as [[b1 b2] b3], c as [[c1 c2] c3]. unfold vle3. lia. Qed.

Lemma compareVersions_mono s v1 v2 :
  vle3 v1 v2 -> compareVersions s (sv3 v1) <= 0 -> compareVersions s (sv3 v2) <= 0.
Proof. rewrite !compareVersions_sign. intros H12 H1. exact (vle3_trans s v1 v2 H1 H12). Qed.

Lemma open_range_upward_closed s v1 v2 :
  vle3 v1 v2 -> isVersionSupported [(s, (0, 0, 0))] (sv3 v1) = true -> isVersionSupported [(s, (0, 0, 0))] (sv3 v2) = true.
Proof.
  intro Hle. apply all_open_upward_closed; [reflexivity|].
  intro s'. apply compareVersions_mono. exact Hle.
Qed.

Fixpoint lookup_feature (f : feature) (tbl : list (feature * list (engine * list vrange))) :=
  match tbl with
  | [] => None
  | (g, e) :: r => if feature_eqb f g then Some e else lookup_feature f r
  end.

(* the ES year from which the table says f is available (None: no ES entry / not in the table) *)
Definition table_es_year (f : feature) : option Z :=
  match lookup_feature f jsTable with
  | None => None
  | Some engs =>
      match lookup_engine EES engs with
      | Some [((y, 0, 0), (0, 0, 0))] => Some y
      | _ => None
      end
  end.

Definition agrees_with_ecma (f : feature) : bool :=
  match ecma_edition f, table_es_year f with
  | Ed e, Some y => e =? y
  | NotInEcma, None => true
  | NotSyntax, _ => true
  | _, _ => false
  end.

(* the table never claims a syntax feature EARLIER than the standard has it *)
Definition not_earlier_than_ecma (f : feature) : bool :=
  match ecma_edition f, table_es_year f with
  | Ed e, Some y => e <=? y
  | Ed _, None => true
  | NotInEcma, None => true
  | NotInEcma, Some _ => false
  | NotSyntax, _ => true
  end.

(* the syntax features whose ES column differs from the standard's edition *)
Definition es_year_deviations : list feature := filter (fun f => negb (agrees_with_ecma f)) all_features.
(* ... those where the table is EARLIER than the standard (newer syntax can pass a lower target) *)
Definition es_year_unsafe_deviations : list feature := filter (fun f => negb (not_earlier_than_ecma f)) all_features.
(* enum entries whose row has no engine at all: unsupported for EVERY non-empty target
   (InlineScript is skipped by the loop and is purely user-specified) *)
Definition features_with_empty_row : list feature :=
  filter (fun f => match lookup_feature f jsTable with Some [] => true | _ => false end) all_features.

Lemma es_year_deviations_exact_l :
  es_year_deviations = [FDynamicImport; FImportAttributes]
  /\ es_year_unsafe_deviations = [FDynamicImport]
  /\ table_es_year FDynamicImport = Some 2015 /\ ecma_edition FDynamicImport = Ed 2020
  /\ table_es_year FImportAttributes = None /\ ecma_edition FImportAttributes = Ed 2025
  /\ features_with_empty_row = [FDecorators; FImportDefer; FImportSource; FInlineScript]
  /\ length jsTable = length all_features.
Proof. vm_compute. repeat split; reflexivity. Qed.

(* The two lists of deviations are complete: what is outside them agrees.
   Trap: the kernel compares [es_year_deviations] with its own body quickly only when the
   constant stands in the expected type and the body in the inferred one (as in the two
   [exact]s below); the other way round it evaluates the filter on one side and compares
   both branches of each of its 61 tests, 2^61 steps.  So never unfold these lists in a
   hypothesis; use the two lemmas. *)
Lemma outside_filter (p : feature -> bool) f : ~ In f (filter (fun f => negb (p f)) all_features) -> p f = true.
Proof.
  intro H. destruct (p f) eqn:E; [reflexivity|]. exfalso. apply H.
  apply filter_In. split; [apply all_features_complete | rewrite E; reflexivity].
Qed.

Lemma not_deviation f : ~ In f es_year_deviations -> agrees_with_ecma f = true.
Proof. exact (outside_filter agrees_with_ecma f). Qed.

Lemma not_unsafe_deviation f : ~ In f es_year_unsafe_deviations -> not_earlier_than_ecma f = true.
Proof. exact (outside_filter not_earlier_than_ecma f). Qed.

Lemma es_years_match_ecma_refuted_l :
  exists f, In f all_features /\ agrees_with_ecma f = false /\ not_earlier_than_ecma f = false.
Proof. exists FDynamicImport. split; [apply all_features_complete | split; reflexivity]. Qed.

Lemma es_years_match_ecma_partial_l :
  forall f, f <> FDynamicImport -> f <> FImportAttributes -> agrees_with_ecma f = true.
Proof.
  intros f H1 H2. apply not_deviation. rewrite (proj1 es_year_deviations_exact_l).
  intros [<-|[<-|[]]]; contradiction.
Qed.

Lemma es_years_not_earlier_partial_l :
  forall f, f <> FDynamicImport -> not_earlier_than_ecma f = true.
Proof.
  intros f H1. apply not_unsafe_deviation. rewrite (proj1 (proj2 es_year_deviations_exact_l)).
  intros [<-|[]]. contradiction.
Qed.

(* [table_es_year] describes the ES entry of every row exactly: one open range starting at
   (y,0,0), or no entry at all. *)
Definition es_entry_is (engs : list (engine * list vrange)) (t : option Z) : bool :=
  match lookup_engine EES engs, t with
  | None, None => true
  | Some [((a, b, c), e)], Some y => (a =? y) && (b =? 0) && (c =? 0) && ver_is_zero e
  | _, _ => false
  end.

Lemma es_column_described :
  forallb (fun row => es_entry_is (snd row) (table_es_year (fst row))) jsTable = true.
Proof. vm_compute. reflexivity. Qed.

Lemma jsTable_rows : map fst jsTable = all_features.
Proof. reflexivity. Qed.

(* ES y comes before the year from which the table has the feature; None: it never has it *)
Definition before (y : Z) (t : option Z) : bool :=
  match t with Some a => y <? a | None => true end.

Lemma es_entry_unsupported engs t y :
  es_entry_is engs t = true -> feature_unsupported engs (es_constraint y) = before y t.
Proof.
  unfold es_entry_is. rewrite feature_unsupported_es.
  destruct (lookup_engine EES engs) as [r|]; [|destruct t; [discriminate | reflexivity]].
  destruct r as [|[[[a b] c] e] [|]], t as [y'|]; try discriminate. intro H.
  apply andb_true_iff in H as [H Hz]. cbn [isVersionSupported before]. rewrite Hz, andb_true_r.
  pose proof (compareVersions_year (a, b, c) y) as Hs. unfold vle3 in Hs.
  destruct (compareVersions (a, b, c) (mkSemver [y] false) <=? 0) eqn:E; cbn [negb]; lia.
Qed.

Lemma es_unsupported_spec f y :
  In f (unsupported_list (es_constraint y)) <-> f <> FInlineScript /\ before y (table_es_year f) = true.
Proof.
  assert (Hcol : forall engs, In (f, engs) jsTable ->
                   feature_unsupported engs (es_constraint y) = before y (table_es_year f)).
  { intros engs Hin. apply es_entry_unsupported.
    pose proof es_column_described as H. rewrite forallb_forall in H. exact (H _ Hin). }
  unfold unsupported_list. rewrite unsupported_in_spec. split.
  - intros [engs [Hin [Hni Hu]]]. rewrite <- (Hcol engs Hin). auto.
  - intros [Hni Hb]. pose proof (all_features_complete f) as Hrow. rewrite <- jsTable_rows in Hrow.
    apply in_map_iff in Hrow as [[f' engs] [E Hin]]. cbn in E. subst f'.
    exists engs. rewrite (Hcol engs Hin). auto.
Qed.

Lemma es_monotone_all y1 y2 f :
  y1 <= y2 -> In f (unsupported_list (es_constraint y2)) -> In f (unsupported_list (es_constraint y1)).
Proof.
  rewrite !es_unsupported_spec. intros Hy [Hni Hb]. split; [exact Hni|].
  destruct (table_es_year f); cbn [before] in *; lia.
Qed.

(* a syntax feature that the standard introduced after year y (or never) is in the
   unsupported set, unless the table has it earlier than the standard *)
Lemma es_target_flags_newer_l :
  forall f y, f <> FDynamicImport ->
    newer_than y f = true -> In f (unsupported_list (es_constraint y)).
Proof.
  intros f y H1 Hn. apply es_unsupported_spec. split; [intros ->; discriminate Hn|].
  pose proof (es_years_not_earlier_partial_l f H1) as Hok.
  unfold not_earlier_than_ecma in Hok. unfold newer_than in Hn.
  destruct (ecma_edition f), (table_es_year f); cbn [before]; try discriminate; lia.
Qed.

Lemma es_unsupported_iff_newer_l f y :
  ~ In f es_year_deviations -> ecma_edition f <> NotSyntax ->
  (In f (unsupported_list (es_constraint y)) <-> newer_than y f = true).
Proof.
  intros Hdev Hsyn. apply not_deviation in Hdev.
  assert (f <> FInlineScript) as Hni by (intros ->; apply Hsyn; reflexivity).
  rewrite es_unsupported_spec. unfold agrees_with_ecma in Hdev. unfold newer_than.
  destruct (ecma_edition f) as [e| |], (table_es_year f) as [a|]; try discriminate; cbn [before];
    [apply Z.eqb_eq in Hdev; subst a | | | ]; tauto.
Qed.

(* an api.Target constant named ES<digits> stands for that year (ES5 for 5) *)
Definition target_name_year_ok (p : string * Z) : bool :=
  let '(name, y) := p in
  if String.eqb name "ES5" then y =? 5 else
  match name with
  | String "E"%char (String "S"%char digits) =>
      (* the decimal digits after "ES" are the year *)
      let fix value (s : string) (acc : Z) : option Z :=
        match s with
        | EmptyString => Some acc
        | String c r =>
            let d := Z.of_nat (Ascii.nat_of_ascii c) - 48 in
            if (0 <=? d) && (d <=? 9) then value r (acc * 10 + d) else None
        end in
      match value digits 0 with Some v => v =? y | None => false end
  | _ => false
  end.

Lemma es_targets_named_by_year_l : forallb target_name_year_ok es_targets = true.
Proof. vm_compute. reflexivity. Qed.

(* StringToJSFeature is a bijection onto the enum *)
Definition string_table_ok : bool :=
  (length string_to_feature =? length all_features)%nat
  && forallb (fun f => existsb (fun kv => feature_eqb f (snd kv)) string_to_feature) all_features
  && forallb (fun kv => (length (filter (fun kv' => String.eqb (fst kv) (fst kv')) string_to_feature) =? 1)%nat) string_to_feature.

Lemma string_table_bijective_l : string_table_ok = true.
Proof. vm_compute. reflexivity. Qed.

Definition ver_lt (a b : ver) : bool :=
  let '(a1, a2, a3) := a in let '(b1, b2, b3) := b in
  (a1 <? b1) || ((a1 =? b1) && ((a2 <? b2) || ((a2 =? b2) && (a3 <? b3)))).
Definition ver_le (a b : ver) : bool := ver_lt a b || (let '(a1, a2, a3) := a in let '(b1, b2, b3) := b in (a1 =? b1) && (a2 =? b2) && (a3 =? b3)).

Definition ver_fits (v : ver) : bool :=
  let '(a, b, c) := v in (0 <=? a) && (a <? 65536) && (0 <=? b) && (b <? 256) && (0 <=? c) && (c <? 256).

(* non-empty; every component fits Go's uint16/uint8; start < end when there is an
   end; ranges ascending and disjoint; only the last range may be open-ended *)
Fixpoint ranges_wf (l : list vrange) : bool :=
  match l with
  | [] => true
  | (s, e) :: r =>
      ver_fits s && ver_fits e && (ver_is_zero e || ver_lt s e)
      && match r with
         | [] => true
         | (s', _) :: _ => negb (ver_is_zero e) && ver_le e s'
         end
      && ranges_wf r
  end.

Definition table_wf : bool :=
  forallb (fun row : feature * list (engine * list vrange) =>
             forallb (fun er : engine * list vrange => negb (match snd er with [] => true | _ => false end) && ranges_wf (snd er)) (snd row)
             && (length (snd row) =? length (nodup Z.eq_dec (map (fun er => engine_index (fst er)) (snd row))))%nat)
          jsTable
  && (length jsTable =? length (nodup Z.eq_dec (map (fun row => feature_index (fst row)) jsTable)))%nat.

Lemma engine_ranges_well_formed_l : table_wf = true.
Proof. vm_compute. reflexivity. Qed.

Lemma fixInvalid_has o a B g :
  let o' := fixInvalid o (bit a) (bits_of B) in
  let added := has (o_overrides o) a && existsb (feature_eqb g) B in
  has (o_overrides o') g = has (o_overrides o) g || added
  /\ has (o_unsupported o') g = has (o_unsupported o) g || added
  /\ has (o_mask o') g = has (o_mask o) g || added.
Proof.
  cbv zeta. unfold fixInvalid. change (Has (o_overrides o) (bit a)) with (has (o_overrides o) a).
  destruct (has (o_overrides o) a); cbn [o_overrides o_unsupported o_mask andb].
  - rewrite !has_lor, !has_bits_of. repeat split; reflexivity.
  - rewrite !orb_false_r. repeat split; reflexivity.
Qed.

Definition row_holds (o : opts) (row : feature * list feature) : Prop :=
  has (o_overrides o) (fst row) = true ->
  forall b, In b (snd row) -> has (o_unsupported o) b = true /\ has (o_overrides o) b = true /\ has (o_mask o) b = true.

(* Why one pass of the fixer is enough: a later row can switch on the trigger of an earlier
   one only if the trigger is among the features it implies, and then it implies everything
   the earlier row does ([table_closed], checked on implied_table by evaluation). *)
Definition later_ok (row : feature * list feature) (rest : list (feature * list feature)) : bool :=
  forallb (fun r => negb (existsb (feature_eqb (fst row)) (snd r))
                    || forallb (fun b => existsb (feature_eqb b) (snd r)) (snd row)) rest.

Fixpoint table_closed (tbl : list (feature * list feature)) : bool :=
  match tbl with
  | [] => true
  | row :: rest => later_ok row rest && table_closed rest
  end.

Lemma row_preserved rest : forall o row,
  later_ok row rest = true -> row_holds o row -> row_holds (fixAll_with rest o) row.
Proof.
  induction rest as [|[a B] rest IH]; intros o row Hok Hrow; [exact Hrow|].
  cbn [later_ok forallb] in Hok. apply andb_true_iff in Hok as [H1 Hok].
  unfold fixAll_with. cbn [fold_left]. apply IH; [exact Hok|].
  cbn [fst snd] in *.
  destruct (fixInvalid_has o a B (fst row)) as [Ho _].
  intros Hset b Hb. rewrite Ho in Hset.
  destruct (fixInvalid_has o a B b) as [Hob [Hub Hmb]]. rewrite Hob, Hub, Hmb.
  destruct (has (o_overrides o) (fst row)) eqn:E.
  - destruct (Hrow E b Hb) as [-> [-> ->]]. repeat split; reflexivity.
  - cbn [orb] in Hset. apply andb_true_iff in Hset as [Ha Hin]. rewrite Ha. cbn [andb].
    rewrite Hin in H1. cbn [negb orb] in H1. rewrite forallb_forall in H1. rewrite (H1 b Hb).
    rewrite !orb_true_r. repeat split; reflexivity.
Qed.

Lemma fixAll_with_consistent tbl : table_closed tbl = true ->
  forall o row, In row tbl -> row_holds (fixAll_with tbl o) row.
Proof.
  induction tbl as [|[a B] rest IH]; intros Hc o row Hin; [destruct Hin|].
  cbn [table_closed] in Hc. apply andb_true_iff in Hc as [Hl Hc].
  unfold fixAll_with. cbn [fold_left]. fold (fixAll_with rest (fixInvalid o (bit a) (bits_of B))).
  destruct Hin as [<-|Hin]; [|apply IH; assumption].
  apply row_preserved; [exact Hl|].
  intros Hset b Hb. cbn [fst snd] in *.
  destruct (fixInvalid_has o a B a) as [Ho _]. rewrite Ho in Hset.
  assert (has (o_overrides o) a = true) as Ha by (destruct (has (o_overrides o) a); [reflexivity | cbn in Hset; discriminate]).
  destruct (fixInvalid_has o a B b) as [Hob [Hub Hmb]]. rewrite Hob, Hub, Hmb, Ha.
  apply existsb_feature_In in Hb. rewrite Hb. cbn [andb]. rewrite !orb_true_r. repeat split; reflexivity.
Qed.

Lemma implied_table_closed : table_closed implied_table = true.
Proof. vm_compute. reflexivity. Qed.

Lemma implied_overrides_consistent_l : forall o row, In row implied_table -> row_holds (fixAll o) row.
Proof. apply fixAll_with_consistent. exact implied_table_closed. Qed.

Lemma fixAll_with_monotone tbl : forall o g,
  has (o_unsupported o) g = true -> has (o_unsupported (fixAll_with tbl o)) g = true.
Proof.
  induction tbl as [|[a B] rest IH]; intros o g H; [exact H|].
  unfold fixAll_with. cbn [fold_left]. apply IH. cbn [fst snd].
  destruct (fixInvalid_has o a B g) as [_ [Hu _]]. rewrite Hu, H. reflexivity.
Qed.

Lemma configured_unsupported_eq cs sup :
  configured_unsupported cs sup =
  let ov := fst (validateSupported sup) in
  let mask := snd (validateSupported sup) in
  fixAll (mkOpts (ApplyOverrides (UnsupportedJSFeatures cs) ov mask) ov mask).
Proof. unfold configured_unsupported. destruct (validateSupported sup). reflexivity. Qed.

Lemma supported_false_wins cs sup g :
  In (g, false) sup -> has (o_unsupported (configured_unsupported cs sup)) g = true.
Proof.
  intro Hin. rewrite configured_unsupported_eq. cbv zeta.
  apply fixAll_with_monotone. cbn [o_unsupported].
  rewrite ApplyOverrides_has, (validateSupported_mask_In sup g false Hin), validateSupported_feature.
  apply existsb_exists. exists (g, false). split; [assumption|].
  cbn [fst snd negb]. rewrite feature_eqb_refl. reflexivity.
Qed.

Definition implied_targets : list feature := flat_map snd implied_table.

Lemma fixAll_with_untouched tbl : forall o g,
  existsb (feature_eqb g) (flat_map snd tbl) = false ->
  has (o_unsupported (fixAll_with tbl o)) g = has (o_unsupported o) g.
Proof.
  induction tbl as [|[a B] rest IH]; intros o g H; [reflexivity|].
  cbn [flat_map snd] in H. rewrite existsb_app in H. apply orb_false_iff in H as [H1 H2].
  unfold fixAll_with. cbn [fold_left]. fold (fixAll_with rest (fixInvalid o (bit a) (bits_of B))).
  rewrite IH by assumption. cbn [fst snd].
  destruct (fixInvalid_has o a B g) as [_ [Hu _]]. rewrite Hu, H1, andb_false_r, orb_false_r. reflexivity.
Qed.

Lemma supported_true_wins cs sup g :
  (forall b, In (g, b) sup -> b = true) -> In (g, true) sup ->
  existsb (feature_eqb g) implied_targets = false ->
  has (o_unsupported (configured_unsupported cs sup)) g = false.
Proof.
  intros Hall Hin Hni. rewrite configured_unsupported_eq. cbv zeta.
  unfold fixAll. rewrite fixAll_with_untouched by exact Hni. cbn [o_unsupported].
  rewrite ApplyOverrides_has, (validateSupported_mask_In sup g true Hin), validateSupported_feature.
  (* no entry for g says false *)
  destruct (existsb _ sup) eqn:Ex; [|reflexivity].
  apply existsb_exists in Ex as [[k v] [Hk Hv]]. cbn [fst snd] in Hv.
  apply andb_true_iff in Hv as [Hv1 Hv2]. apply feature_eqb_eq in Hv1. subst k.
  rewrite (Hall v Hk) in Hv2. discriminate.
Qed.
