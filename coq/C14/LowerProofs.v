(* Consequences of [lowering_closed_gen]: what iterated lowering and a whole compile write. *)
From Coq Require Import String.
From V Require Import Common.Base C14.Compat C14.CompatProofs C14.LowerGraph C14.LowerClosed.

Lemma residual_unsupported_not U n f : U f = false -> residual U n f = [f].
Proof. intro H. destruct n; cbn [residual]; rewrite H; reflexivity. Qed.

Lemma residual_nonlowered U n f : U f = true -> dispose U f <> Lowered ->
  residual U n f = match dispose U f with Warned => [] | _ => [f] end.
Proof. intros Hf Hd. destruct n; cbn [residual]; rewrite Hf; destruct (dispose U f); try reflexivity; contradiction. Qed.

Lemma rank_nonneg f : 0 <= rank f.
Proof. destruct f; discriminate. Qed.

(* all that [residual_spec] asks of [residual_fuel]: the largest rank is 5 (decorators), so
   any fuel above 5 does, and the model's 7 leaves room *)
Lemma rank_below_fuel f : rank f < Z.of_nat residual_fuel.
Proof. destruct f; reflexivity. Qed.

(* the unsupported set matters to the disposition of three features only (markAsyncFn,
   for-await), and there it can only turn Lowered into Rejected *)
Lemma dispose_cases U f : dispose U f = dispose (fun _ => false) f \/ dispose U f = Rejected.
Proof.
  destruct f; try (left; reflexivity); cbn [dispose andb].
  - destruct (U FGenerator); auto.
  - destruct (U FGenerator); auto.
  - destruct (U FAsyncAwait), (U FGenerator); auto.
Qed.

Lemma dispose_rejected U f : dispose U f = Rejected -> dispose (fun _ => true) f = Rejected.
Proof. destruct f; intro H; first [reflexivity | exact H]. Qed.

Lemma only_hashbang_is_silent U f : dispose U f = Silent -> f = FHashbang.
Proof.
  destruct (dispose_cases U f) as [->| ->]; [|discriminate].
  destruct f; try discriminate. reflexivity.
Qed.

Lemma residual_kept U n f g : U f = true -> dispose U f <> Lowered ->
  In g (residual U n f) -> g = f /\ dispose U f <> Warned.
Proof.
  intros Hf Hd. rewrite residual_nonlowered by assumption.
  destruct (dispose U f); cbn [In]; intuition congruence.
Qed.

(* What iterated lowering writes for a use of f, for EVERY unsupported set: supported syntax;
   the array spread of `super(...arguments)` when class fields are lowered; or f itself where
   it is not rewritten.  The fuel only has to exceed the rank, which falls along [emits]. *)
Lemma residual_spec (U : fset) n : forall f g,
  rank f < Z.of_nat n -> In g (residual U n f) ->
  U g = false \/ (g = FArraySpread /\ U FClassField = true)
  \/ (g = f /\ dispose U f <> Lowered /\ dispose U f <> Warned).
Proof.
  induction n as [|n IH]; intros f g Hr Hin; [pose proof (rank_nonneg f); lia|].
  destruct (U f) eqn:Hf; [|rewrite residual_unsupported_not in Hin by assumption; destruct Hin as [<-|[]]; auto].
  assert (dispose U f = Lowered \/ dispose U f <> Lowered) as [Hd|Hd]
    by (destruct (dispose U f); auto; right; discriminate).
  2: { destruct (residual_kept U (S n) f g Hf Hd Hin). auto. }
  cbn [residual] in Hin. rewrite Hf, Hd in Hin. apply in_flat_map in Hin as [h [Hh Hg]].
  destruct (lowering_closed_gen U f h Hd Hh) as [Hu|[[Hl Hrk]|[-> ->]]].
  - rewrite residual_unsupported_not in Hg by assumption. destruct Hg as [<-|[]]. auto.
  - destruct (IH h g ltac:(lia) Hg) as [H|[H|[_ [H _]]]]; [auto | auto | contradiction].
  - destruct (IH FArraySpread g ltac:(cbn in *; lia) Hg) as [H|[H|[-> _]]]; auto.
Qed.

(* with array spread supported, iterating the lowering ends with supported syntax only *)
Lemma residual_clean (U : fset) : base_ok U = true ->
  forall n f, dispose U f = Lowered -> rank f < Z.of_nat n ->
  forall g, In g (residual U n f) -> U g = false.
Proof.
  unfold base_ok. intros Hb n f Hd Hr g Hin.
  destruct (residual_spec U n f g Hr Hin) as [H|[[-> _]|[_ [H _]]]]; [exact H | | contradiction].
  destruct (U FArraySpread); [discriminate | reflexivity].
Qed.

(* the ONLY unsupported syntax a successful compile can write, for EVERY U and every
   program: the silent hashbang, and the array spread of `super(...arguments)` when class
   fields are lowered while array spread is switched off (both recorded findings) *)
Lemma compile_leaks_exact_l (U : fset) prog out g :
  compile U prog = Ok out -> In g out -> U g = true ->
  g = FHashbang \/ (g = FArraySpread /\ U FClassField = true) \/ dispose U g = NotSyntax.
Proof.
  unfold compile. intros Hc Hin Hug.
  destruct (existsb _ prog) eqn:Ex; [discriminate|]. injection Hc as <-.
  apply in_flat_map in Hin as [f [Hf Hg]].
  destruct (residual_spec U _ f g (rank_below_fuel f) Hg) as [H|[H|[-> [Hl Hw]]]]; [congruence | auto |].
  destruct (dispose U f) eqn:Hd; try contradiction.
  - (* a rejected feature of the program makes the compile fail *)
    rewrite (proj2 (existsb_exists _ prog)) in Ex; [discriminate|]. exists f. rewrite Hug, Hd. auto.
  - left. exact (only_hashbang_is_silent U f Hd).
  - auto.
Qed.

(* with array spread supported: only supported syntax, except for what is passed through
   silently *)
Lemma compile_sound_l (U : fset) prog out :
  base_ok U = true -> compile U prog = Ok out ->
  forall g, In g out -> U g = false \/ dispose U g = Silent \/ dispose U g = NotSyntax.
Proof.
  unfold base_ok. intros Hb Hc g Hin. destruct (U g) eqn:Hug; [|auto].
  destruct (compile_leaks_exact_l U prog out g Hc Hin Hug) as [->|[[-> _]|H]]; [auto | | auto].
  rewrite Hug in Hb. discriminate.
Qed.

(* without the array-spread hypothesis the closure fails: class fields of a
   derived class are lowered to `super(...arguments)` *)
Lemma lowering_closed_refuted_l :
  exists (U : fset) f g, U f = true /\ dispose U f = Lowered /\ In g (emits U f) /\
                         U g = true /\ dispose U g <> Lowered.
Proof.
  exists (fset_of [FClassField; FArraySpread]), FClassField, FArraySpread.
  vm_compute. repeat split; auto; discriminate.
Qed.

(* hashbang is the one feature that goes through without any diagnostic *)
Lemma silent_passthrough_refuted_l :
  exists (U : fset) prog out g, compile U prog = Ok out /\ In g out /\ U g = true.
Proof. exists (fset_of [FHashbang]), [FHashbang], [FHashbang], FHashbang. vm_compute. auto. Qed.
