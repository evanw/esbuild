From Coq Require Import String.
From V Require Import Common.Base C14.Compat C14.Spec C14.LowerGraph C14.CompatProofs C14.TableProofs C14.Constructs C14.Sites C14.Css C14.CssProofs.
(* non-vacuity / sanity: concrete values meeting the hypotheses of the theorems *)

(* es_monotone: optional chaining is unsupported for ES2019 and supported for ES2020 *)
Example es2019_unsupported_has_optional_chain :
  existsb (feature_eqb FOptionalChain) (unsupported_list (es_constraint 2019)) = true
  /\ existsb (feature_eqb FOptionalChain) (unsupported_list (es_constraint 2020)) = false.
Proof. vm_compute. split; reflexivity. Qed.

Example es2015_bits_nonzero :
  Nat.ltb (length (unsupported_list (es_constraint 2024))) (length (unsupported_list (es_constraint 2015))) = true
  /\ Nat.ltb 0 (length (unsupported_list (es_constraint 2024))) = true.
Proof. vm_compute. split; reflexivity. Qed.

(* apply_overrides_spec in both directions on a concrete triple *)
Example overrides_both_directions :
  let f := bits_of [FArrow; FClass] in
  let o := bits_of [FBigint] in
  let m := bits_of [FArrow; FBigint] in
  has (ApplyOverrides f o m) FArrow = false /\ has (ApplyOverrides f o m) FBigint = true /\ has (ApplyOverrides f o m) FClass = true.
Proof. vm_compute. repeat split; reflexivity. Qed.

(* implied_overrides_consistent: class:false drags the class features along *)
Example class_false_implies_fields :
  let o := configured_unsupported [] [(FClass, false)] in
  has (o_unsupported o) FClassPrivateField = true /\ has (o_mask o) FClassStaticBlocks = true.
Proof. vm_compute. split; reflexivity. Qed.

(* supported_true_honoured has satisfiable hypotheses *)
Example optional_chain_forced_on :
  has (o_unsupported (configured_unsupported (es_constraint 2015) [(FOptionalChain, true)])) FOptionalChain = false
  /\ existsb (feature_eqb FOptionalChain) implied_targets = false.
Proof. vm_compute. split; reflexivity. Qed.

(* lowering_closed_partial / compile_sound_partial: the ES2015 unsupported set satisfies base_ok,
   decorators + async generators + object rest are lowered to Arrow/Generator/ForOf/let only *)
Example es2015_compile :
  let U := fset_of (unsupported_list (es_constraint 2015)) in
  base_ok U = true /\
  match compile U [FDecorators; FAsyncGenerator; FObjectRestSpread; FUsing; FClassPrivateField] with
  | Ok out => forallb (fun g => negb (U g)) out && Nat.ltb 20 (length out)
  | Error => false
  end = true.
Proof. vm_compute. split; reflexivity. Qed.

(* the guards matter: with for-of unsupported the for-of-free variants are selected *)
Example no_for_of_variant :
  existsb (feature_eqb FForOf) (helper_feats (fset_of []) helper_fuel "__objRest") = true /\
  existsb (feature_eqb FForOf) (helper_feats (fset_of [FForOf]) helper_fuel "__objRest") = false.
Proof. vm_compute. split; reflexivity. Qed.

(* rejected features make the compile fail *)
Example tla_rejected : compile (fset_of [FTopLevelAwait]) [FTopLevelAwait] = Error.
Proof. vm_compute. reflexivity. Qed.

(* jsx_spread_lowered: hypotheses satisfiable for ES2017, and the result is non-trivial *)
Example jsx_spread_es2017 :
  let U := fset_of (unsupported_list (es_constraint 2017)) in
  base_ok U = true /\ U FObjectRestSpread = true /\
  match compile_with U [CJsxElement; CJsxSpread; CKeepNames] [] with
  | Ok out => negb (existsb (feature_eqb FObjectRestSpread) out) && existsb (feature_eqb FArrow) out
  | Error => false
  end = true.
Proof. vm_compute. repeat split; reflexivity. Qed.

(* es_unsupported_iff_newer: optional chaining has a row, is not a deviation, is syntax *)
Example iff_newer_hypotheses :
  existsb (feature_eqb FOptionalChain) (map fst jsTable) = true
  /\ existsb (feature_eqb FOptionalChain) es_year_deviations = false
  /\ newer_than 2019 FOptionalChain = true /\ newer_than 2020 FOptionalChain = false.
Proof. vm_compute. repeat split; reflexivity. Qed.

(* lowering_closed / compile_leaks_exact without base_ok: the refuted corner really is reached *)
Example leaks_exact_corner :
  let U := fset_of [FClassField; FArraySpread; FHashbang] in
  match compile U [FClassField; FHashbang] with
  | Ok out => existsb (feature_eqb FArraySpread) out && existsb (feature_eqb FHashbang) out
              && forallb (fun g => negb (U g) || feature_eqb g FArraySpread || feature_eqb g FHashbang) out
  | Error => false
  end = true.
Proof. vm_compute. reflexivity. Qed.

(* site inventory: non-trivial counts, and a rejected / a lowered / a warned feature *)
Example site_counts :
  has_count FArrow = 13 /\ mark_count FDestructuring = 6 /\ marked_via_markAsyncFn FAsyncAwait = true
  /\ in_mark_cases FBigint MWarning = true /\ in_mark_cases FClass MNotSupportedYet = true
  /\ Nat.ltb 200 (length feature_sites) = true.
Proof. vm_compute. repeat split; reflexivity. Qed.

(* CSS: chrome 87 lacks nesting and :is, chrome 120 has both; es2020 alone changes nothing *)
Example css_chrome_versions :
  existsb (css_feature_eqb CNesting) (css_unsupported_list [(EChrome, sv3 (87, 0, 0))]) = true
  /\ existsb (css_feature_eqb CIsPseudoClass) (css_unsupported_list [(EChrome, sv3 (87, 0, 0))]) = true
  /\ css_unsupported_list [(EChrome, sv3 (120, 0, 0))] = []
  /\ css_unsupported_list [(EES, mkSemver [2020] false); (ENode, mkSemver [12] false)] = []
  /\ vle3 (87, 0, 0) (120, 0, 0).
Proof. vm_compute. repeat split; try reflexivity. left. reflexivity. Qed.

(* CSS lowering: nesting over several parents uses :is() only when :is is supported *)
Example css_nesting_is :
  css_compile (css_fset_of [CNesting]) [CNesting] = [CIsPseudoClass]
  /\ css_compile (css_fset_of [CNesting; CIsPseudoClass]) [CNesting] = []
  /\ css_compile (css_fset_of [CColorFunctions; CHexRGBA]) [CColorFunctions] = [CColorFunctions].
Proof. vm_compute. repeat split; reflexivity. Qed.

(* minify_introduces_only_supported: the null-check rewrite writes ?. only when it is supported *)
Example optional_chain_rewrite :
  let r := ("a != null ? a.b.c : undefined  =>  a?.b.c", "MangleIfExpr", FOptionalChain)%string in
  existsb (fun x => feature_eqb (snd x) FOptionalChain && String.eqb (snd (fst x)) "MangleIfExpr") introducing_rewrites = true
  /\ rewrite_writes (fset_of [FOptionalChain]) r = []
  /\ rewrite_writes (fset_of [FNullishCoalescing]) r = [FOptionalChain]
  /\ count_has_not "MangleIfExpr" FOptionalChain = 1.
Proof. vm_compute. repeat split; reflexivity. Qed.
