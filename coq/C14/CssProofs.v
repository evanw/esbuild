(* The CSS side: cssTable (css_table.go) and the lowering gates of the CSS parser, as Css.v
   models them. *)
From V Require Import Common.Base C14.Compat C14.CompatProofs C14.TableProofs C14.Css.

Lemma css_feature_index_inj a b : css_feature_index a = css_feature_index b -> a = b.
Proof. destruct a, b; cbn; intro H; try reflexivity; discriminate H. Qed.

Lemma css_feature_eqb_eq a b : css_feature_eqb a b = true <-> a = b.
Proof. unfold css_feature_eqb. rewrite Z.eqb_eq. split; [apply css_feature_index_inj | congruence]. Qed.

Lemma css_feature_index_range f : 0 <= css_feature_index f < 16.
Proof. destruct f; vm_compute; split; congruence. Qed.

Lemma css_has_bits_of l g : css_has (css_bits_of l) g = existsb (css_feature_eqb g) l.
Proof.
  unfold css_has, css_bit. rewrite Has_shiftl1 by apply css_feature_index_range.
  apply (testbit_bits_of_list css_feature_index). intro a. apply css_feature_index_range.
Qed.

Lemma css_unsupported_in_spec tbl cs f :
  In f (css_unsupported_in tbl cs) <->
  exists engs, In (f, engs) tbl /\ f <> CInlineStyle /\ css_feature_unsupported engs cs = true.
Proof. apply (in_rows_except css_feature_eqb CInlineStyle (fun engs => css_feature_unsupported engs cs)), css_feature_eqb_eq. Qed.

(* a target made only of non-browser engines (es2020, node, deno, hermes, rhino) never
   affects CSS: every constraint list *)
Lemma css_non_browser_ignored_l cs :
  forallb (fun c : constraint => negb (is_browser (fst c))) cs = true -> css_unsupported_list cs = [].
Proof.
  intro H. unfold css_unsupported_list, css_unsupported_in.
  assert (Hf : forall engs, css_feature_unsupported engs cs = false).
  { intro engs. unfold css_feature_unsupported. induction cs as [|c cs IH]; [reflexivity|].
    cbn [forallb existsb] in *. apply andb_true_iff in H as [H1 H2].
    destruct (is_browser (fst c)); [discriminate|]. cbn [andb orb]. apply IH; exact H2. }
  induction cssTable as [|row tbl IH]; [reflexivity|].
  cbn [filter map]. rewrite Hf, andb_false_r. exact IH.
Qed.

(* every range list of cssTable is one open range with components that fit uint16/uint8;
   no duplicate engine or feature rows *)
Definition css_table_wf : bool :=
  forallb (fun row : css_feature * list (engine * list vrange) =>
             forallb (fun er : engine * list vrange =>
                        match snd er with
                        | [(s, e)] => ver_is_zero e && ver_fits s
                        | _ => false
                        end && is_browser (fst er)) (snd row)
             && (length (snd row) =? length (nodup Z.eq_dec (map (fun er => engine_index (fst er)) (snd row))))%nat)
          cssTable
  && (length cssTable =? length all_css_features)%nat
  && (length cssTable =? length (nodup Z.eq_dec (map (fun row => css_feature_index (fst row)) cssTable)))%nat.

Lemma css_table_wf_l : css_table_wf = true.
Proof. vm_compute. reflexivity. Qed.

(* monotone in the version of any one engine: a newer browser never unsupports more.
   Every feature, engine and pair of three-part versions *)
Lemma css_single_engine_monotone_l f e v1 v2 :
  vle3 v1 v2 ->
  In f (css_unsupported_list [(e, sv3 v2)]) -> In f (css_unsupported_list [(e, sv3 v1)]).
Proof.
  intros Hle. unfold css_unsupported_list. rewrite !css_unsupported_in_spec.
  intros [engs [Hin [Hne Hu]]]. exists engs. repeat split; try assumption.
  unfold css_feature_unsupported in *. cbn [existsb fst snd] in *. rewrite orb_false_r in *.
  apply andb_true_iff in Hu as [Hb Hu]. rewrite Hb. cbn [andb].
  destruct (lookup_engine e engs) as [r|] eqn:El; [|reflexivity].
  (* r has no end (table well-formedness) *)
  assert (all_open r = true) as Hopen.
  { pose proof css_table_wf_l as Hwf. unfold css_table_wf in Hwf.
    apply andb_true_iff in Hwf as [Hwf _]. apply andb_true_iff in Hwf as [Hwf _].
    rewrite forallb_forall in Hwf. specialize (Hwf _ Hin). cbn [snd] in Hwf.
    apply andb_true_iff in Hwf as [Hrows _]. rewrite forallb_forall in Hrows.
    destruct (lookup_engine_In e engs r El) as [e' He']. specialize (Hrows _ He'). cbn [snd] in Hrows.
    destruct r as [|[s en] [|]]; try discriminate. cbn [all_open forallb snd].
    destruct (ver_is_zero en); [reflexivity | discriminate]. }
  destruct (isVersionSupported r (sv3 v1)) eqn:E1; [|reflexivity].
  rewrite (all_open_upward_closed r _ _ Hopen (fun s => compareVersions_mono s v1 v2 Hle) E1) in Hu.
  discriminate.
Qed.

(* lowering closure for every unsupported set: what a lowering writes is supported, or is
   the color(...) of a wide-gamut declaration that follows its own clipped fallback
   (colours: #rrggbbaa only when hex-rgba is supported; nesting: :is() only when :is is) *)
Lemma css_lowering_closed_l (U : css_fset) f g :
  In g (css_emits U f) ->
  U g = false \/ (g = CColorFunctions /\ (f = CColorFunctions \/ f = CGradientInterpolation)).
Proof.
  intro Hin. destruct f; cbn [css_emits] in Hin; try contradiction.
  (* the two wide-gamut lowerings end with color(...) *)
  all: try (apply in_app_or in Hin as [Hin|[<-|[]]]; [|right; auto]).
  all: left; exact (in_unless U _ g Hin).
Qed.

(* a compile writes only supported syntax -- except a user-written :is() (only esbuild's own
   generated :is() is gated: the CSS analogue of the hashbang) and the color(...) declaration
   that follows a clipped fallback *)
Lemma css_compile_sound_l (U : css_fset) prog g :
  In g (css_compile U prog) -> U g = true -> g = CIsPseudoClass \/ g = CInlineStyle \/ g = CColorFunctions.
Proof.
  unfold css_compile. intros Hin Hu. apply in_flat_map in Hin as [f [_ Hg]].
  unfold css_residual in Hg. destruct (U f) eqn:Huf.
  - destruct (css_dispose f) eqn:Hd.
    + destruct (css_lowering_closed_l U f g Hg) as [H|[-> _]]; [congruence | auto].
    + destruct Hg as [<-|[]]. destruct f; cbn in Hd; try discriminate. left; reflexivity.
    + destruct Hg as [<-|[]]. destruct f; cbn in Hd; try discriminate. right; left; reflexivity.
  - destruct Hg as [<-|[]]. congruence.
Qed.

Lemma css_compile_refuted_l :
  exists (U : css_fset) prog g, In g (css_compile U prog) /\ U g = true /\ css_dispose g = CGeneratedOnly.
Proof. exists (css_fset_of [CIsPseudoClass]), [CIsPseudoClass], CIsPseudoClass. vm_compute. auto. Qed.

(* StringToCSSFeature is a bijection onto the enum *)
Definition css_string_table_ok : bool :=
  (length string_to_css_feature =? length all_css_features)%nat
  && forallb (fun f => existsb (fun kv => css_feature_eqb f (snd kv)) string_to_css_feature) all_css_features
  && forallb (fun kv => (length (filter (fun kv' => String.eqb (fst kv) (fst kv')) string_to_css_feature) =? 1)%nat) string_to_css_feature.

Lemma css_string_table_ok_l : css_string_table_ok = true.
Proof. vm_compute. reflexivity. Qed.
