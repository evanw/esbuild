(* The lowering graph is closed for every unsupported set: what the lowering of a
   feature writes is supported, or lowered in turn and strictly lower in rank. *)
From Coq Require Import String.
From V Require Import Common.Base C14.Compat C14.CompatProofs C14.LowerGraph.

(* Whatever Source(U) selects, the features of a helper's text are supported or
   lowered by the parser that compiles the runtime, for EVERY U: a guarded variant
   uses only what its guard asks for, beside syntax that is always lowered (so no
   Rejected feature is ever used unguarded and parseRuntime cannot fail).  That is
   a property of the table alone, checked once on the regenerated table. *)

(* lowered for every U, by a rewrite that calls no helper (rank at most 2) *)
Definition always_lowered (g : feature) : bool :=
  match g with
  | FArrow | FLogicalAssignment | FNullishCoalescing | FOptionalChain => true
  | _ => false
  end.

Definition variant_ok (needs : list feature) (v : rt_variant) : bool :=
  forallb (fun g => always_lowered g || existsb (feature_eqb g) needs) (fst v).

Definition guard_ok (g : rt_guard) : bool :=
  let '(needs, v1, v2) := g in variant_ok needs v1 && variant_ok [] v2.

Definition helper_table_ok : bool :=
  forallb (fun h : rt_helper => let '(_, base, guards) := h in variant_ok [] base && forallb guard_ok guards)
          runtime_helpers.

Lemma helper_table_ok_l : helper_table_ok = true.
Proof. vm_compute. reflexivity. Qed.

Lemma always_lowered_dispose U g : always_lowered g = true -> dispose U g = Lowered.
Proof. destruct g; cbn; intro H; try discriminate; reflexivity. Qed.

Lemma variant_ok_sound U needs v :
  variant_ok needs v = true -> forallb (fun x => negb (U x)) needs = true ->
  forall g, In g (fst v) -> U g = false \/ always_lowered g = true.
Proof.
  unfold variant_ok. intros Hv Hn g Hg. rewrite forallb_forall in Hv. specialize (Hv g Hg).
  apply orb_true_iff in Hv as [Ha|He]; [right; exact Ha | left].
  apply existsb_exists in He as [x [Hx E]]. apply feature_eqb_eq in E. subst x.
  rewrite forallb_forall in Hn. apply negb_true_iff, Hn, Hx.
Qed.

Lemma select_ok U g : guard_ok g = true ->
  forall x, In x (fst (select U g)) -> U x = false \/ always_lowered x = true.
Proof.
  destruct g as [[needs v1] v2]. intros [H1 H2]%andb_true_iff. unfold select.
  destruct (forallb (fun x => negb (U x)) needs) eqn:En.
  - exact (variant_ok_sound U needs v1 H1 En).
  - exact (variant_ok_sound U [] v2 H2 eq_refl).
Qed.

Lemma helper_own_ok U h : In h runtime_helpers ->
  forall g, In g (fst (helper_own U h)) -> U g = false \/ always_lowered g = true.
Proof.
  intro Hin. pose proof helper_table_ok_l as Hok. unfold helper_table_ok in Hok.
  rewrite forallb_forall in Hok. specialize (Hok h Hin). clear Hin.
  destruct h as [[name base] guards]. apply andb_true_iff in Hok as [Hb Hg].
  unfold helper_own. pose proof (variant_ok_sound U [] base Hb eq_refl) as Hacc.
  revert Hg Hacc. generalize base as acc.
  induction guards as [|gd gs IH]; intros acc Hgs Hacc; [exact Hacc|].
  cbn [forallb] in Hgs. apply andb_true_iff in Hgs as [Hgd Hgs]. cbn [fold_left].
  apply IH; [exact Hgs|]. intros x [Hx|Hx]%in_app_or; [exact (Hacc x Hx) | exact (select_ok U gd Hgd x Hx)].
Qed.

Lemma find_helper_In name l h : find_helper name l = Some h -> In h l.
Proof.
  induction l as [|x r IH]; cbn [find_helper]; [discriminate|].
  destruct (String.eqb name (fst (fst x))); [intro E; inversion E; left; reflexivity | intro E; right; apply IH; exact E].
Qed.

(* for every fuel n, so no theorem rests on [helper_fuel] = 6 being enough.  (It is: in
   runtime_helpers no chain of references from helper to helper has more than 3 steps.) *)
Lemma helper_feats_ok U n name g :
  In g (helper_feats U n name) -> U g = false \/ always_lowered g = true.
Proof.
  revert name g. induction n as [|n IH]; intros name g Hin; [destruct Hin|].
  cbn [helper_feats] in Hin. destruct (find_helper name runtime_helpers) as [h|] eqn:Ef; [|destruct Hin].
  apply in_app_or in Hin as [Hin|Hin].
  - exact (helper_own_ok U h (find_helper_In _ _ _ Ef) g Hin).
  - apply in_flat_map in Hin as [d [_ Hd]]. exact (IH d g Hd).
Qed.

Lemma runtime_variants_closed_l U n name g :
  In g (helper_feats U n name) -> U g = false \/ dispose U g = Lowered.
Proof.
  intros [H|H]%helper_feats_ok; [left; exact H | right; exact (always_lowered_dispose U g H)].
Qed.

Lemma always_lowered_rank g : always_lowered g = true -> rank g <= 2.
Proof. destruct g; cbn; intro H; try discriminate; lia. Qed.

Lemma helpers_rank f name : In name (helpers_of f) -> 3 <= rank f.
Proof. destruct f; cbn [helpers_of rank]; intro H; try contradiction; lia. Qed.

(* the syntax the lowering writes itself: asked about before it is written
   (`let`, `??`, arrows, rest arguments), or what the disposition of f relies on
   (generators for async functions, async functions or generators for for-await) *)
Lemma emits_syntax_closed (U : fset) f g :
  dispose U f = Lowered -> In g (emits_syntax U f) ->
  U g = false \/ (dispose U g = Lowered /\ rank g < rank f) \/ (g = FArraySpread /\ f = FClassField).
Proof.
  intros Hd Hin. unfold let_or_var in *.
  destruct f; cbn [emits_syntax dispose] in Hin, Hd; try contradiction.
  (* written only after asking: `let`, `??`, arrows *)
  all: try (left; exact (in_unless U _ g Hin)).
  - (* async functions: lowered only where generators are supported *)
    destruct Hin as [<-|[]]. left. destruct (U FGenerator); [discriminate Hd | reflexivity].
  - (* async generators: the same *)
    destruct Hin as [<-|[]]. left. destruct (U FGenerator); [discriminate Hd | reflexivity].
  - (* class fields: a rest argument after asking, array spread without *)
    apply in_app_or in Hin as [Hin|[<-|[]]].
    + left. exact (in_unless U _ g Hin).
    + right; right. split; reflexivity.
  - (* for-await writes an async function: supported, or lowered in turn (rank 3 < 4) *)
    destruct Hin as [<-|[]]. destruct (U FAsyncAwait) eqn:Ha; [right; left | left; reflexivity].
    cbn [andb dispose rank] in *. destruct (U FGenerator); [discriminate Hd | split; [reflexivity | lia]].
Qed.

(* every feature written by the lowering of f is supported, or is itself lowered
   and strictly lower in rank, or is the array spread of `super(...arguments)`:
   for EVERY unsupported set U.  The ranks of LowerGraph.v are chosen for this proof: a
   lowering that calls a helper has rank at least 3, and what a helper's text uses
   unguarded is always lowered, rank at most 2 *)
Lemma lowering_closed_gen (U : fset) f g :
  dispose U f = Lowered -> In g (emits U f) ->
  U g = false \/ (dispose U g = Lowered /\ rank g < rank f) \/ (g = FArraySpread /\ f = FClassField).
Proof.
  intros Hd [Hin|Hin]%in_app_or; [exact (emits_syntax_closed U f g Hd Hin)|].
  apply in_flat_map in Hin as [name [Hname Hin]].
  apply helper_feats_ok in Hin as [Hu|Hl]; [left; exact Hu | right; left].
  split; [exact (always_lowered_dispose U g Hl)|].
  pose proof (always_lowered_rank g Hl). pose proof (helpers_rank f name Hname). lia.
Qed.

(* with array spread supported the third case disappears *)
Lemma lowering_closed_l (U : fset) f g :
  base_ok U = true -> dispose U f = Lowered -> In g (emits U f) ->
  U g = false \/ (dispose U g = Lowered /\ rank g < rank f).
Proof.
  unfold base_ok. intros Hb Hd Hin.
  destruct (lowering_closed_gen U f g Hd Hin) as [H|[H|[-> _]]]; [left; exact H | right; exact H |].
  left. destruct (U FArraySpread); [discriminate | reflexivity].
Qed.
