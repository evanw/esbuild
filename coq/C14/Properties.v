(* The theorems of C14 about compat tables, target configuration and lowering (JavaScript,
   then CSS, then the syntax esbuild's own rewrites introduce), each proved by the lemma of a
   proof file, most of them of the same name with [_l] appended. *)
From Coq Require Import String.
From V Require Import Common.Base C14.Compat C14.Spec C14.LowerGraph C14.CompatProofs C14.TableProofs
  C14.LowerClosed C14.LowerProofs C14.Constructs C14.Sites C14.SitesProofs C14.Css C14.CssProofs.

(* a newer ES target never makes more features unsupported: every pair of years *)
Theorem es_monotone : forall y1 y2 f, y1 <= y2 ->
  In f (unsupported_list (es_constraint y2)) -> In f (unsupported_list (es_constraint y1)).
Proof. exact es_monotone_all. Qed.
Print Assumptions es_monotone.

(* FULL statement "every syntax feature's ES year in jsTable is its ECMA-262 edition" is
   false of the regenerated table: dynamic import is tabled ES2015 (ECMA: ES2020), in the
   unsafe direction (the table is EARLIER than the standard) *)
Theorem es_years_match_ecma_refuted :
  exists f, In f all_features /\ agrees_with_ecma f = false /\ not_earlier_than_ecma f = false.
Proof. exact es_years_match_ecma_refuted_l. Qed.
Print Assumptions es_years_match_ecma_refuted.

(* ... and holds for every other feature except import attributes (ES2025, no ES entry: safe direction) *)
Theorem es_years_match_ecma_partial :
  forall f, f <> FDynamicImport -> f <> FImportAttributes -> agrees_with_ecma f = true.
Proof. exact es_years_match_ecma_partial_l. Qed.
Print Assumptions es_years_match_ecma_partial.

(* consequence for every ES year (all integers): syntax newer than the target per ECMA-262 is
   in the unsupported set computed by compat.UnsupportedJSFeatures -- dynamic import excepted
   (the one unsafe deviation, see es_year_deviations_exact) *)
Theorem es_target_flags_newer_partial :
  forall f y, f <> FDynamicImport ->
    newer_than y f = true -> In f (unsupported_list (es_constraint y)).
Proof. exact es_target_flags_newer_l. Qed.
Print Assumptions es_target_flags_newer_partial.

(* api.Target constants carry their own year *)
Theorem es_targets_named_by_year : forallb target_name_year_ok es_targets = true.
Proof. exact es_targets_named_by_year_l. Qed.
Print Assumptions es_targets_named_by_year.

(* StringToJSFeature (the keys of `supported`) is a bijection onto the feature enum *)
Theorem supported_keys_bijective : string_table_ok = true.
Proof. exact string_table_bijective_l. Qed.
Print Assumptions supported_keys_bijective.

(* every version range list of jsTable: non-empty, components fit uint16/uint8, start < end,
   ascending and disjoint, only the last may be open; no duplicate engine or feature rows *)
Theorem engine_ranges_well_formed : table_wf = true.
Proof. exact engine_ranges_well_formed_l. Qed.
Print Assumptions engine_ranges_well_formed.

(* an open range is upward closed: every pair of three-part versions *)
Theorem open_range_monotone : forall s v1 v2, vle3 v1 v2 ->
  isVersionSupported [(s, (0, 0, 0))] (sv3 v1) = true -> isVersionSupported [(s, (0, 0, 0))] (sv3 v2) = true.
Proof. exact open_range_upward_closed. Qed.
Print Assumptions open_range_monotone.

(* ApplyOverrides: for every feature the override wins where the mask is set (both
   directions), the table value stays elsewhere; the result stays within 64 bits *)
Theorem apply_overrides_spec : forall features overrides mask g,
  has (ApplyOverrides features overrides mask) g = if has mask g then has overrides g else has features g.
Proof. exact ApplyOverrides_has. Qed.
Print Assumptions apply_overrides_spec.

Theorem apply_overrides_uint64 : forall f o m,
  0 <= f < 2 ^ 64 -> 0 <= o < 2 ^ 64 -> 0 <= m < 2 ^ 64 -> 0 <= ApplyOverrides f o m < 2 ^ 64.
Proof. exact ApplyOverrides_range. Qed.
Print Assumptions apply_overrides_uint64.

(* the whole configuration pipeline honours `supported` in both directions, for every
   constraint map and every override list *)
Theorem supported_false_honoured : forall cs sup g,
  In (g, false) sup -> has (o_unsupported (configured_unsupported cs sup)) g = true.
Proof. exact supported_false_wins. Qed.
Print Assumptions supported_false_honoured.

Theorem supported_true_honoured : forall cs sup g,
  (forall b, In (g, b) sup -> b = true) -> In (g, true) sup ->
  existsb (feature_eqb g) implied_targets = false ->
  has (o_unsupported (configured_unsupported cs sup)) g = false.
Proof. exact supported_true_wins. Qed.
Print Assumptions supported_true_honoured.

(* fixInvalidUnsupportedJSFeatureOverrides: after the call sequence of applyOptionDefaults every
   implication of the table holds of the final options, for every starting state *)
Theorem implied_overrides_consistent : forall o row, In row implied_table -> row_holds (fixAll o) row.
Proof. exact implied_overrides_consistent_l. Qed.
Print Assumptions implied_overrides_consistent.

(* lowering closure, for EVERY unsupported set U that leaves array spread supported *)
Theorem lowering_closed_partial : forall (U : fset) f g,
  base_ok U = true -> U f = true -> dispose U f = Lowered -> In g (emits U f) ->
  U g = false \/ (dispose U g = Lowered /\ rank g < rank f).
Proof. intros U f g Hb _. exact (lowering_closed_l U f g Hb). Qed.
Print Assumptions lowering_closed_partial.

(* FULL statement (no hypothesis on U) is false of the faithful model: class-field lowering
   writes `super(...arguments)` *)
Theorem lowering_closed_refuted :
  exists (U : fset) f g, U f = true /\ dispose U f = Lowered /\ In g (emits U f) /\ U g = true /\ dispose U g <> Lowered.
Proof. exact lowering_closed_refuted_l. Qed.
Print Assumptions lowering_closed_refuted.

(* iterated lowering ends with supported syntax only *)
Theorem lowering_terminates_clean : forall (U : fset), base_ok U = true ->
  forall n f, U f = true -> dispose U f = Lowered -> rank f < Z.of_nat n ->
  forall g, In g (residual U n f) -> U g = false.
Proof. intros U Hb n f _. exact (residual_clean U Hb n f). Qed.
Print Assumptions lowering_terminates_clean.

(* a successful compile of any program (list of used features) writes only supported syntax,
   except for what the model passes through silently ... *)
Theorem compile_sound_partial : forall (U : fset) prog out,
  base_ok U = true -> compile U prog = Ok out ->
  forall g, In g out -> U g = false \/ dispose U g = Silent \/ dispose U g = NotSyntax.
Proof. exact compile_sound_l. Qed.
Print Assumptions compile_sound_partial.

(* ... which is exactly hashbang; so the FULL statement "no unsupported syntax in a
   successful output" is false of the faithful model *)
Theorem only_hashbang_silent : forall (U : fset) f, dispose U f = Silent -> f = FHashbang.
Proof. exact only_hashbang_is_silent. Qed.
Print Assumptions only_hashbang_silent.

Theorem compile_sound_refuted :
  exists (U : fset) prog out g, compile U prog = Ok out /\ In g out /\ U g = true.
Proof. exact silent_passthrough_refuted_l. Qed.
Print Assumptions compile_sound_refuted.

(* runtime helpers: whichever variants Source(U) selects, for EVERY U, the text only uses
   features that are supported or that the parser compiling the runtime lowers *)
Theorem runtime_variants_closed : forall (U : fset) n name g,
  In g (helper_feats U n name) -> U g = false \/ dispose U g = Lowered.
Proof. exact runtime_variants_closed_l. Qed.
Print Assumptions runtime_variants_closed.

(* entry points that are not compat features (JSX elements and spreads in every JSX mode,
   keep-names, TypeScript decorators/enums/namespaces): a successful compile writes only
   supported syntax, syntax lowered when the runtime is compiled, or the silent hashbang *)
Theorem compile_with_constructs_sound_partial : forall (U : fset) cs prog out,
  base_ok U = true -> compile_with U cs prog = Ok out ->
  forall g, In g out -> U g = false \/ dispose U g = Lowered \/ dispose U g = Silent \/ dispose U g = NotSyntax.
Proof. exact compile_with_sound_l. Qed.
Print Assumptions compile_with_constructs_sound_partial.

(* <a {...x} />: with object spread unsupported no object spread is written, for every such U *)
Theorem jsx_spread_lowered : forall (U : fset) out,
  base_ok U = true -> U FObjectRestSpread = true -> compile U (construct_features U CJsxSpread) = Ok out ->
  existsb (feature_eqb FObjectRestSpread) out = false.
Proof. exact jsx_spread_lowered_l. Qed.
Print Assumptions jsx_spread_lowered.

(* exactly which rows of the ES column differ from ECMA-262, and how: dynamic import is tabled
   ES2015 (standard: ES2020; the only UNSAFE deviation, known finding C14-dynamic-import-es2015,
   upstream forces it in compat-table/src/index.ts); import attributes have no ES entry
   (standard: ES2025; safe direction, esbuild strips the clause); decorators, import defer,
   import source and inline-script have rows without any engine *)
Theorem es_year_deviations_exact :
  es_year_deviations = [FDynamicImport; FImportAttributes]
  /\ es_year_unsafe_deviations = [FDynamicImport]
  /\ table_es_year FDynamicImport = Some 2015 /\ ecma_edition FDynamicImport = Ed 2020
  /\ table_es_year FImportAttributes = None /\ ecma_edition FImportAttributes = Ed 2025
  /\ features_with_empty_row = [FDecorators; FImportDefer; FImportSource; FInlineScript]
  /\ length jsTable = length all_features.
Proof. exact es_year_deviations_exact_l. Qed.
Print Assumptions es_year_deviations_exact.

(* for every other syntax feature and EVERY year the table's verdict is the standard's *)
Theorem es_unsupported_iff_newer : forall f y,
  In f (map fst jsTable) -> ~ In f es_year_deviations -> ecma_edition f <> Spec.NotSyntax ->
  (In f (unsupported_list (es_constraint y)) <-> newer_than y f = true).
Proof. intros f y _. apply es_unsupported_iff_newer_l. Qed.
Print Assumptions es_unsupported_iff_newer.

(* lowering closure with NO hypothesis on U: the third case is exactly the recorded finding *)
Theorem lowering_closed : forall (U : fset) f g,
  U f = true -> dispose U f = Lowered -> In g (emits U f) ->
  U g = false \/ (dispose U g = Lowered /\ rank g < rank f) \/ (g = FArraySpread /\ f = FClassField).
Proof. intros U f g _. exact (lowering_closed_gen U f g). Qed.
Print Assumptions lowering_closed.

(* compile soundness with NO hypothesis: for every U and every program, the only unsupported
   syntax a successful compile writes is the silent hashbang (the two C14-hashbang findings) and the
   array spread of `super(...arguments)` when class fields are lowered with array spread off
   (finding C14-class-field-lowering-writes-array-spread); non-syntax switches aside *)
Theorem compile_leaks_exact : forall (U : fset) prog out g,
  compile U prog = Ok out -> In g out -> U g = true ->
  g = FHashbang \/ (g = FArraySpread /\ U FClassField = true) \/ dispose U g = NotSyntax.
Proof. exact compile_leaks_exact_l. Qed.
Print Assumptions compile_leaks_exact.

(* feature-gate inventory (translator T9): per feature, the number of markSyntaxFeature sites and
   of Has(...) gates in parser, lowering, printer, linker, helpers, bundler, resolver, runtime is
   the committed one *)
Theorem gate_inventory_matches : list_eqb gates_eqb observed_gates expected_gates = true.
Proof. exact gate_inventory_matches_l. Qed.
Print Assumptions gate_inventory_matches.

(* the features nothing ever consults: a non-syntax switch and hashbang (the finding) *)
Theorem ungated_features_exact :
  filter (fun f => any_count f =? 0) all_features = [FFunctionNameConfigurable; FHashbang].
Proof. exact ungated_features_exact_l. Qed.
Print Assumptions ungated_features_exact.

Theorem lowered_features_gated : forall (U : fset) f, dispose U f = Lowered -> 1 <= has_count f.
Proof. exact lowered_features_gated_l. Qed.
Print Assumptions lowered_features_gated.

Theorem rejected_features_marked : forall (U : fset) f, dispose U f = Rejected ->
  1 <= mark_count f \/ marked_via_markAsyncFn f = true \/ (f = FArbitraryModuleNamespaceNames /\ 1 <= has_count f).
Proof. exact rejected_features_marked_l. Qed.
Print Assumptions rejected_features_marked.

(* markSyntaxFeature's regenerated switch is the model's disposition *)
Theorem mark_switch_warned : forall (U : fset) f, dispose U f = Warned <-> in_mark_cases f MWarning = true.
Proof. exact mark_switch_warned_l. Qed.
Print Assumptions mark_switch_warned.

Theorem mark_switch_errors_rejected : forall f,
  (in_mark_cases f MNotSupportedYet || in_mark_cases f MError) = true -> f <> FImportAttributes ->
  dispose (fun _ => true) f = Rejected.
Proof. exact mark_switch_errors_rejected_l. Qed.
Print Assumptions mark_switch_errors_rejected.

Theorem rejected_has_error_case : forall (U : fset) f, dispose U f = Rejected ->
  (in_mark_cases f MNotSupportedYet || in_mark_cases f MError) = true \/ f = FArbitraryModuleNamespaceNames.
Proof. exact rejected_has_error_case_l. Qed.
Print Assumptions rejected_has_error_case.

(* a target made only of non-browser engines never affects CSS: every constraint list *)
Theorem css_non_browser_ignored : forall cs,
  forallb (fun c : constraint => negb (is_browser (fst c))) cs = true -> css_unsupported_list cs = [].
Proof. exact css_non_browser_ignored_l. Qed.
Print Assumptions css_non_browser_ignored.

(* cssTable: every entry is one open range of a browser engine with components that fit
   uint16/uint8; one row per feature, no duplicate engines *)
Theorem css_table_well_formed : css_table_wf = true.
Proof. exact css_table_wf_l. Qed.
Print Assumptions css_table_well_formed.

(* a newer version of any one engine never makes more CSS features unsupported *)
Theorem css_single_engine_monotone : forall f e v1 v2, vle3 v1 v2 ->
  In f (css_unsupported_list [(e, sv3 v2)]) -> In f (css_unsupported_list [(e, sv3 v1)]).
Proof. exact css_single_engine_monotone_l. Qed.
Print Assumptions css_single_engine_monotone.

Theorem css_supported_keys_bijective : css_string_table_ok = true.
Proof. exact css_string_table_ok_l. Qed.
Print Assumptions css_supported_keys_bijective.

(* CSS lowering closure for EVERY unsupported set: a lowering writes supported syntax only,
   except the color(...) declaration that follows its own clipped fallback declaration *)
Theorem css_lowering_closed : forall (U : css_fset) f g,
  U f = true -> css_dispose f = CLowered -> In g (css_emits U f) ->
  U g = false \/ (g = CColorFunctions /\ (f = CColorFunctions \/ f = CGradientInterpolation)).
Proof. intros U f g _ _. exact (css_lowering_closed_l U f g). Qed.
Print Assumptions css_lowering_closed.

(* the only unsupported CSS syntax in an output: user-written :is() (never rewritten), the
   inline-style switch, and color(...) after a fallback *)
Theorem css_compile_leaks_exact : forall (U : css_fset) prog g,
  In g (css_compile U prog) -> U g = true -> g = CIsPseudoClass \/ g = CInlineStyle \/ g = CColorFunctions.
Proof. exact css_compile_sound_l. Qed.
Print Assumptions css_compile_leaks_exact.

Theorem css_compile_sound_refuted :
  exists (U : css_fset) prog g, In g (css_compile U prog) /\ U g = true /\ css_dispose g = CGeneratedOnly.
Proof. exact css_compile_refuted_l. Qed.
Print Assumptions css_compile_sound_refuted.

(* the regenerated multiset of `!Has(compat.X)` gates (the places where esbuild may WRITE newer
   syntax) is the committed one: a dropped or merged guard breaks this *)
Theorem newer_syntax_gates_exact :
  forallb (fun r : String.string * feature * Z => count_has_not (fst (fst r)) (snd (fst r)) =? snd r) expected_newer_syntax_gates = true
  /\ total_has_not = fold_right (fun (r : String.string * feature * Z) acc => snd r + acc) 0 expected_newer_syntax_gates.
Proof. exact newer_syntax_gates_exact_l. Qed.
Print Assumptions newer_syntax_gates_exact.

(* every feature-introducing rewrite of the minifier / code generators is guarded, in the
   function that performs it, by a `!Has` gate on exactly the feature it writes; so for EVERY
   unsupported set it writes only supported syntax *)
Theorem minify_introduces_only_supported : forall (U : fset) r g,
  In r introducing_rewrites -> In g (rewrite_writes U r) ->
  U g = false /\ 1 <= count_has_not (snd (fst r)) (snd r).
Proof. exact minify_introduces_only_supported_l. Qed.
Print Assumptions minify_introduces_only_supported.
