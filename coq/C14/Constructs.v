(* Source constructs that are not compat features but whose
   translation writes feature syntax or calls runtime helpers (entry points into
   the lowering graph).  Mirrors
     js_parser.go visitExprInOut EJSXElement: the props of createElement()/jsx()/jsxs()/jsxDEV()
       are an object literal; a spread attribute or spread child makes it an object
       spread, passed through lowerObjectSpread in the classic AND the automatic branch;
     keep-names (__name), TypeScript experimental decorators (__decorateClass/__decorateParam),
     TypeScript enums/namespaces (closures, `let`/`var` by selectLocalKind).
   Tied to the code by the JSX / mode probes of the correspondence run (their
   feature lists carry construct_features). *)
From Coq Require Import String.
From V Require Import Common.Base C14.Compat C14.CompatProofs C14.LowerGraph C14.LowerClosed C14.LowerProofs.

Inductive construct :=
  | CJsxElement            (* <a b="c">d</a>: a call, no feature syntax *)
  | CJsxSpread             (* {...x} attribute or child: object spread in the props literal *)
  | CKeepNames
  | CTsExperimentalDecorators
  | CTsEnumOrNamespace.

Definition construct_features (U : fset) (c : construct) : list feature :=
  match c with
  | CJsxSpread => [FObjectRestSpread]
  | CTsEnumOrNamespace => let_or_var U
  | _ => []
  end.

Definition construct_helpers (c : construct) : list string :=
  match c with
  | CKeepNames => ["__name"]
  | CTsExperimentalDecorators => ["__decorateClass"; "__decorateParam"]
  | _ => []
  end%string.

(* features written for a program that uses constructs cs and features prog *)
Definition compile_with (U : fset) (cs : list construct) (prog : list feature) : outcome :=
  match compile U (flat_map (construct_features U) cs ++ prog) with
  | Error => Error
  | Ok out => Ok (out ++ flat_map (fun c => flat_map (helper_feats U helper_fuel) (construct_helpers c)) cs)
  end.

(* every JSX mode, keep-names, TS helpers: the output of a successful compile has only
   supported syntax, syntax the runtime's own compile lowers, or the silent hashbang *)
Lemma compile_with_sound_l (U : fset) cs prog out :
  base_ok U = true -> compile_with U cs prog = Ok out ->
  forall g, In g out -> U g = false \/ dispose U g = Lowered \/ dispose U g = Silent \/ dispose U g = NotSyntax.
Proof.
  intros Hb Hc g Hin. unfold compile_with in Hc.
  destruct (compile U (flat_map (construct_features U) cs ++ prog)) as [|o] eqn:E; [discriminate|].
  assert (out = o ++ flat_map (fun c => flat_map (helper_feats U helper_fuel) (construct_helpers c)) cs) as -> by congruence.
  apply in_app_or in Hin as [Hin|Hin].
  - destruct (compile_sound_l U _ o Hb E g Hin) as [H|[H|H]]; auto.
  - apply in_flat_map in Hin as [c [_ Hin]]. apply in_flat_map in Hin as [h [_ Hin]].
    destruct (runtime_variants_closed_l U _ _ _ Hin) as [H|H]; auto.
Qed.

(* a JSX spread with object spread unsupported is lowered, never emitted *)
Lemma jsx_spread_lowered_l (U : fset) out :
  base_ok U = true -> U FObjectRestSpread = true -> compile U (construct_features U CJsxSpread) = Ok out ->
  existsb (feature_eqb FObjectRestSpread) out = false.
Proof.
  intros Hb Hu Hc. destruct (existsb (feature_eqb FObjectRestSpread) out) eqn:E; [|reflexivity].
  apply existsb_feature_In in E.
  destruct (compile_sound_l U _ out Hb Hc _ E) as [H|[H|H]]; [congruence | discriminate H | discriminate H].
Qed.
