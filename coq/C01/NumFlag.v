(* C01: needSpaceBeforeDot is set exactly when the printed number is a bare run
   of digits (so that "1 .toString()" keeps its space and "1e3.toString()",
   "0x10.toString()", ".5.toString()" need none). *)
From V Require Import Common.Base C01.Num C01.SpecNumeric C01.NumProofs C01.NumProofs2.

(* the bytes of a decimal literal in the lower-case form strconv and the
   printer write: no E, X or x, so that mv reads it as a DecimalLiteral *)
Definition lowalpha (c : Z) : Prop := (48 <= c <= 57) \/ c = 46 \/ c = 101 \/ c = 43 \/ c = 45.
Definition la (l : bytes) : Prop := Forall lowalpha l.

Lemma la_app a b : la (a ++ b) <-> la a /\ la b. Proof. apply Forall_app. Qed.
Lemma la_digs l : digs l -> la l.
Proof. intros H. eapply Forall_impl; [|exact H]. intros c Hc. left. exact Hc. Qed.

Lemma split_first_la c : forall l a b, la l -> split_first c l = Some (a, b) -> la a /\ la b.
Proof.
  induction l as [|x r IH]; intros a b Hl H; [discriminate|]. inversion Hl as [|? ? Hx Hr]; subst.
  cbn [split_first] in H. destruct (x =? c).
  - inversion H; subst. split; [constructor|exact Hr].
  - destruct (split_first c r) as [[a' b']|] eqn:E; [|discriminate]. inversion H; subst.
    destruct (IH a' b Hr eq_refl) as [I1 I2]. split; [constructor; assumption|exact I2].
Qed.
Lemma split_last_la c : forall l a b, la l -> split_last c l = Some (a, b) -> la a /\ la b.
Proof.
  induction l as [|x r IH]; intros a b Hl H; [discriminate|]. inversion Hl as [|? ? Hx Hr]; subst.
  cbn [split_last] in H. destruct (split_last c r) as [[a' b']|] eqn:E.
  - inversion H; subst. destruct (IH a' b Hr eq_refl) as [I1 I2]. split; [constructor; assumption|exact I2].
  - destruct (x =? c); [|discriminate]. inversion H; subst. split; [constructor|exact Hr].
Qed.
Lemma strip0_la l : la l -> la (strip0 l).
Proof.
  intros H. destruct (strip0_spec l) as [k [E _]]. rewrite E in H. apply la_app in H. tauto.
Qed.
Lemma span0_la l : la l -> la (fst (span0 l)) /\ la (snd (span0 l)).
Proof.
  intros H. pose proof (span0_spec l) as S. destruct (span0 l) as [z t]. destruct S as [E _].
  rewrite E in H. apply la_app in H. exact H.
Qed.
Lemma rev_la l : la l -> la (rev l). Proof. apply Forall_rev. Qed.
Lemma repeat_la k : la (repeat 48 k). Proof. apply la_digs, digs_repeat. Qed.

Lemma digits_fuel_la : forall fuel n acc, la acc -> la (digits_fuel fuel n acc).
Proof.
  induction fuel as [|f IH]; intros n acc Ha; [exact Ha|]. cbn [digits_fuel].
  assert (H : la ((48 + n mod 10) :: acc)) by (constructor; [unfold lowalpha; lia|exact Ha]).
  destruct (n / 10 =? 0); [exact H|apply IH; exact H].
Qed.
Lemma small_la n : la (smallIntToBytes n).
Proof.
  unfold smallIntToBytes, nat_digits. destruct (n <? 0).
  - constructor; [unfold lowalpha; lia|apply digits_fuel_la; constructor].
  - apply digits_fuel_la; constructor.
Qed.

Lemma simplify_exponent_la l : la l -> la (simplify_exponent l).
Proof.
  intros H. unfold simplify_exponent. destruct (split_last 101 l) as [[m ex]|] eqn:E; [|exact H].
  destruct (split_last_la 101 l m ex H E) as [Hm Hex].
  assert (T : forall pre t, la pre -> la t -> la (m ++ pre ++ strip0 t)).
  { intros pre t Hp Ht. apply la_app; split; [exact Hm|apply la_app; split; [exact Hp|apply strip0_la; exact Ht]]. }
  assert (He : la [101]) by (constructor; [unfold lowalpha; lia|constructor]).
  assert (Hme : la [101; 45]) by (constructor; [unfold lowalpha; lia|constructor; [unfold lowalpha; lia|constructor]]).
  destruct ex as [|c r]; [apply T; [exact He|constructor]|].
  inversion Hex as [|? ? Hc Hr]; subst.
  cbv iota. rewrite match_43_45.
  destruct (c =? 43); [apply T; assumption|].
  destruct (c =? 45); apply T; assumption.
Qed.

Lemma shorten_la mw s : la s -> la (shorten mw s).
Proof.
  intros Hs. unfold shorten. pose proof (simplify_exponent_la s Hs) as Hr.
  set (result := simplify_exponent s) in *.
  assert (He : la [101]) by (constructor; [unfold lowalpha; lia|constructor]).
  destruct (split_first 46 result) as [[integer rest]|] eqn:E1.
  - destruct (split_first_la 46 result integer rest Hr E1) as [Hi Hrest].
    destruct (zlist_eqb integer [48]).
    + assert (H1 : la (if mw then 46 :: rest else result)).
      { destruct mw; [constructor; [unfold lowalpha; lia|exact Hrest]|exact Hr]. }
      destruct rest as [|c r]; [exact H1|].
      destruct (span0_la (c :: r) Hrest) as [S1 S2]. destruct (span0 (c :: r)) as [zs remaining]. cbn [fst snd] in *.
      rewrite match_48. destruct (c =? 48); [|exact H1].
      destruct (_ <? _); [|exact H1].
      apply la_app; split; [exact S2|apply la_app; split; [exact He|apply small_la]].
    + destruct (split_last 101 rest) as [[fraction expstr]|] eqn:E2; [|exact Hr].
      destruct (split_last_la 101 rest fraction expstr Hrest E2) as [Hf _].
      destruct ((0 <=? _) && (_ <=? 2)).
      * destruct (_ <=? _); [|exact Hr]. apply la_app; split; [exact Hi|apply la_app; split; [exact Hf|apply repeat_la]].
      * destruct (_ <=? _); [|exact Hr].
        apply la_app; split; [exact Hi|apply la_app; split; [exact Hf|apply la_app; split; [exact He|apply small_la]]].
  - destruct (last_is_zero result); [|exact Hr].
    destruct (span0_la (rev result) (rev_la _ Hr)) as [S1 S2]. destruct (span0 (rev result)) as [z t]. cbn [fst snd] in *.
    destruct (_ <? _); [|exact Hr].
    apply la_app; split; [apply rev_la; exact S2|apply la_app; split; [exact He|apply small_la]].
Qed.

Lemma float_text_la s : float_text s -> la s.
Proof.
  assert (P46 : lowalpha 46) by (unfold lowalpha; lia).
  assert (P101 : lowalpha 101) by (unfold lowalpha; lia).
  assert (Sg : forall sg, la (sign_bytes sg)).
  { destruct sg; cbn [sign_bytes]; [constructor| |]; (constructor; [unfold lowalpha; lia|constructor]). }
  intros [H|[H|[H|[H|H]]]].
  - destruct H as [H _]. apply la_digs. exact H.
  - destruct H as [ip [fp [-> [H1 [_ [_ [_ H2]]]]]]].
    apply la_app; split; [apply la_digs; exact H1|].
    constructor; [exact P46|apply la_digs; exact H2].
  - destruct H as [ip [fp [sg [ex [-> [H1 [_ [_ [_ [H2 [H3 _]]]]]]]]]]].
    apply la_app; split; [apply la_digs; exact H1|]. constructor; [exact P46|].
    apply la_app; split; [apply la_digs; exact H2|]. constructor; [exact P101|].
    apply la_app; split; [apply Sg|apply la_digs; exact H3].
  - destruct H as [fp [-> [H1 _]]]. constructor; [unfold lowalpha; lia|constructor; [exact P46|apply la_digs; exact H1]].
  - destruct H as [ip [sg [ex [-> [H1 [_ [_ [H2 _]]]]]]]].
    apply la_app; split; [apply la_digs; exact H1|]. constructor; [exact P101|].
    apply la_app; split; [apply Sg|apply la_digs; exact H2].
Qed.

Lemma match_46 {A} (c : Z) (a b : A) : match c with 46 => a | _ => b end = if c =? 46 then a else b.
Proof. destruct c as [|p|p]; try reflexivity. do 6 (destruct p as [p|p|]; try reflexivity). Qed.

Lemma contains_false out : contains_any_dot_e_x out = false ->
  forall c, In c out -> c <> 46 /\ c <> 101 /\ c <> 120.
Proof.
  unfold contains_any_dot_e_x. induction out as [|x r IH]; cbn [existsb]; intros H c Hin; [destruct Hin|].
  apply orb_false_iff in H as [Hx Hr]. destruct Hin as [<-|Hin]; [lia|exact (IH Hr c Hin)].
Qed.

(* a NumericLiteral over the lower-case alphabet without . e x is a run of digits *)
Lemma mv_no_dot_e_digits out a :
  la out -> mv out = Some a -> contains_any_dot_e_x out = false -> forallb dig out = true.
Proof.
  intros Hl Hm Hc. pose proof (contains_false out Hc) as Hn.
  (* mv = mv_dec: a second character x/X would be 120 or upper case *)
  assert (Hd : mv out = mv_dec out).
  { apply mv_is_dec. intros x h E. subst out. split.
    - destruct (Hn x (or_intror (or_introl eq_refl))) as [_ [_ H]]. exact H.
    - inversion Hl as [|? ? _ Hl']; subst. inversion Hl' as [|? ? Hx _]; subst. unfold lowalpha in Hx. lia. }
  rewrite Hd in Hm. unfold mv_dec in Hm.
  pose proof (take_digits_spec out) as Ht. destruct (take_digits out) as [ip r]. destruct Ht as [E Hip].
  destruct r as [|c r'].
  - rewrite app_nil_r in E. subst. apply forallb_forall. intros x Hx. unfold digs in Hip.
    rewrite Forall_forall in Hip. specialize (Hip x Hx). unfold dig. lia.
  - exfalso. assert (Hin : In c out) by (rewrite E; apply in_or_app; right; left; reflexivity).
    destruct (Hn c Hin) as [N1 [N2 _]].
    assert (Hlc : lowalpha c) by (unfold la in Hl; rewrite Forall_forall in Hl; apply Hl; exact Hin).
    destruct (negb (int_part_ok ip)); [discriminate|].
    assert (Ex : exponent_part (c :: r') = None).
    { unfold exponent_part. destruct ((c =? 101) || (c =? 69)) eqn:Ec; [|reflexivity].
      unfold lowalpha in Hlc. lia. }
    rewrite match_46 in Hm. replace (c =? 46) with false in Hm by lia.
    rewrite Ex in Hm. destruct ip; discriminate.
Qed.

Lemma contains_not_digits out : contains_any_dot_e_x out = true -> forallb dig out = false.
Proof.
  unfold contains_any_dot_e_x. intros H. apply existsb_exists in H as [c [Hin Hc]].
  destruct (forallb dig out) eqn:E; [|reflexivity]. rewrite forallb_forall in E. specialize (E c Hin). unfold dig in E. lia.
Qed.

Lemma digs_forallb l : digs l -> forallb dig l = true.
Proof.
  intros H. apply forallb_forall. intros x Hx.
  unfold digs in H. rewrite Forall_forall in H. specialize (H x Hx). unfold dig. lia.
Qed.

Lemma dot_flag_of mw bits s :
  0 <= bits -> la s -> (exists a, mv (shorten mw s) = Some a) ->
  snd (printNonNegativeFloat mw bits s) = forallb dig (fst (printNonNegativeFloat mw bits s)).
Proof.
  intros Hb Hl [a Ha].
  assert (Hsh : negb (contains_any_dot_e_x (shorten mw s)) = forallb dig (shorten mw s)).
  { destruct (contains_any_dot_e_x (shorten mw s)) eqn:Ec; cbn [negb].
    - symmetry. apply contains_not_digits. exact Ec.
    - symmetry. apply (mv_no_dot_e_digits _ a); [apply shorten_la; exact Hl|exact Ha|exact Ec]. }
  unfold printNonNegativeFloat. destruct (float_int bits) as [v|] eqn:Ev; [|cbn [fst snd]; exact Hsh].
  pose proof (float_int_nonneg bits v Hb Ev) as Hv.
  destruct (v <? 1000) eqn:E1.
  - cbn [fst snd]. symmetry. apply digs_forallb. apply small_digs. lia.
  - cbn [fst snd]. destruct (mw && (1000000000000 <=? v) && (v <=? 18446744073709549568)); [|exact Hsh].
    destruct (2 + len (to_hex v) <? len (shorten mw s)); [|exact Hsh].
    cbn [app]. reflexivity.
Qed.

Lemma shorten_dot_flag_all mw bits s :
  0 <= bits -> float_text s ->
  snd (printNonNegativeFloat mw bits s) = forallb dig (fst (printNonNegativeFloat mw bits s)).
Proof.
  intros Hb Hf. apply dot_flag_of; [exact Hb|apply float_text_la, Hf|].
  destruct (shorten_value_all mw s Hf) as [a [b [Ha _]]]. exists a. exact Ha.
Qed.
