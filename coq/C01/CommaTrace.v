(* C01 (tie with C13): C13 proves print_parse_roundtrip at tree level up to
   [norm] (the printer prints the comma operator without parentheses, so comma
   trees come back left-nested).  Here: [norm] preserves BEHAVIOUR.

   In general: for EVERY compositional semantics of the fragment of C13's
   expression trees that [norm] acts on ([cexpr]; [norm_embed_all] shows C13's
   norm is [cnorm] there) in which `l , r` means "evaluate l, discard its value, evaluate r"
   (the meaning of every other node is an arbitrary function of the meanings
   of its children: this covers short-circuit operators, assignments,
   conditionals, member accesses), [norm e] and [e] have the same meaning.

   As an instance: a concrete trace semantics - states carry a variable
   store and the list of host-visible events (every identifier read, every
   assignment with its value, every call-like member access); evaluation is
   left to right, with short-circuit && || ??, conditional, simple and
   compound assignment to identifiers, arithmetic on integers and failure
   (an exception) that aborts evaluation keeping the trace so far.  For every
   tree, every store: same value, same final store, same event trace. *)
From V Require Import Common.Base C13.KwSpec C13.Token C13.LexSpec C13.Toks C13.ParseSpec.

(* The fragment of C13's expression trees that [norm] acts on, as a type of its
   own (C13's tree type keeps growing: calls, new, argument lists ...); the
   embedding into C13's trees and the proof that C13's [norm] is [cnorm] on the
   image are at the end of this file. *)
Inductive cexpr :=
 | CId (s : list Z) | CNum (s : list Z) | CRe (b f : list Z)
 | CDot (e : cexpr) (s : list Z) | CUn (o : op) (e : cexpr) | CBin (o : op) (l r : cexpr)
 | CCond (c y n : cexpr) | CIndex (e i : cexpr).
Fixpoint ccomma_app (l r : cexpr) : cexpr :=
  match r with
  | CBin BComma r1 r2 => CBin BComma (ccomma_app l r1) r2
  | _ => CBin BComma l r
  end.
Fixpoint cnorm (e : cexpr) : cexpr :=
  match e with
  | CDot t s => CDot (cnorm t) s
  | CUn o v => CUn o (cnorm v)
  | CBin o l r => if op_eqb o BComma then ccomma_app (cnorm l) (cnorm r) else CBin o (cnorm l) (cnorm r)
  | CCond c y n => CCond (cnorm c) (cnorm y) (cnorm n)
  | CIndex t i => CIndex (cnorm t) (cnorm i)
  | _ => e
  end.

Section General.
  Variables (S V : Type).
  (* a meaning: from a state to failure or a value and a new state *)
  Definition den := S -> option (V * S).
  Definition den_eq (f g : den) : Prop := forall s, f s = g s.

  Variable m_id : list Z -> den.
  Variable m_num : list Z -> den.
  Variable m_re : list Z -> list Z -> den.
  Variable m_dot : den -> list Z -> den.
  Variable m_un : op -> den -> den.
  Variable m_bin : op -> den -> den -> den.       (* every binary operator except comma *)
  Variable m_cond : den -> den -> den -> den.
  Variable m_index : den -> den -> den.
  (* compositionality: a node's meaning depends only on its children's meanings *)
  Hypothesis m_dot_ext : forall f f' s, den_eq f f' -> den_eq (m_dot f s) (m_dot f' s).
  Hypothesis m_un_ext : forall o f f', den_eq f f' -> den_eq (m_un o f) (m_un o f').
  Hypothesis m_bin_ext : forall o f f' g g', den_eq f f' -> den_eq g g' -> den_eq (m_bin o f g) (m_bin o f' g').
  Hypothesis m_cond_ext : forall c c' y y' n n', den_eq c c' -> den_eq y y' -> den_eq n n' ->
    den_eq (m_cond c y n) (m_cond c' y' n').
  Hypothesis m_index_ext : forall f f' g g', den_eq f f' -> den_eq g g' -> den_eq (m_index f g) (m_index f' g').

  (* GetValue (6.2.5.5): turns a Reference into its value (may have effects and
     may fail); applied to a value it is the identity *)
  Variable getvalue : V -> S -> option (V * S).
  Hypothesis getvalue_idem : forall v s w s', getvalue v s = Some (w, s') -> getvalue w s' = Some (w, s').

  Definition bind (f : den) (k : V -> den) : den :=
    fun s => match f s with Some (v, s') => k v s' | None => None end.
  Definition gv (f : den) : den := bind f getvalue.

  (* ECMA-262 13.16.1  Expression : Expression , AssignmentExpression
       1. lref = evaluate Expression; 2. ? GetValue(lref);
       3. rref = evaluate AssignmentExpression; 4. return ? GetValue(rref) *)
  Definition m_comma (l r : den) : den := bind (gv l) (fun _ => gv r).

  Fixpoint meaning (e : cexpr) : den :=
    match e with
    | CId x => m_id x
    | CNum x => m_num x
    | CRe b f => m_re b f
    | CDot t x => m_dot (meaning t) x
    | CUn o v => m_un o (meaning v)
    | CBin o l r => if op_eqb o BComma then m_comma (meaning l) (meaning r) else m_bin o (meaning l) (meaning r)
    | CCond c y n => m_cond (meaning c) (meaning y) (meaning n)
    | CIndex t i => m_index (meaning t) (meaning i)
    end.

  Lemma m_comma_ext l l' r r' : den_eq l l' -> den_eq r r' -> den_eq (m_comma l r) (m_comma l' r').
  Proof.
    intros H1 H2 s. unfold m_comma, gv, bind. rewrite H1. destruct (l' s) as [[v s']|]; [|reflexivity].
    destruct (getvalue v s') as [[w s'']|]; [|reflexivity]. rewrite H2. reflexivity.
  Qed.

  Lemma m_comma_assoc a b c : den_eq (m_comma (m_comma a b) c) (m_comma a (m_comma b c)).
  Proof.
    intros s. unfold m_comma, gv, bind.
    destruct (a s) as [[v s1]|]; [|reflexivity].
    destruct (getvalue v s1) as [[w s2]|]; [|reflexivity].
    destruct (b s2) as [[v2 s3]|]; [|reflexivity].
    destruct (getvalue v2 s3) as [[w2 s4]|] eqn:G; [|reflexivity].
    rewrite (getvalue_idem _ _ _ _ G).
    destruct (c s4) as [[v3 s5]|]; [|reflexivity].
    destruct (getvalue v3 s5) as [[w3 s6]|] eqn:G3; [|reflexivity].
    rewrite (getvalue_idem _ _ _ _ G3). reflexivity.
  Qed.

  Lemma comma_app_meaning : forall r l,
    den_eq (meaning (ccomma_app l r)) (m_comma (meaning l) (meaning r)).
  Proof.
    induction r as [x|x|b f|t IHt x|o v IHv|o r1 IH1 r2 IH2|c IHc y IHy n IHn|t IHt i IHi]; intros l;
      try (intro; reflexivity).
    destruct o; try (intro; reflexivity).
    cbn [ccomma_app meaning op_eqb]. intros st0.
    change (meaning (CBin BComma (ccomma_app l r1) r2) st0) with (m_comma (meaning (ccomma_app l r1)) (meaning r2) st0).
    rewrite (m_comma_ext _ (m_comma (meaning l) (meaning r1)) _ (meaning r2) (IH1 l) (fun _ => eq_refl)).
    rewrite m_comma_assoc. reflexivity.
  Qed.

  Lemma norm_meaning_all : forall e, den_eq (meaning (cnorm e)) (meaning e).
  Proof.
    induction e as [x|x|b f|t IHt x|o v IHv|o l IHl r IHr|c IHc y IHy n IHn|t IHt i IHi];
      try (intro; reflexivity).
    - cbn [cnorm meaning]. apply m_dot_ext. exact IHt.
    - cbn [cnorm meaning]. apply m_un_ext. exact IHv.
    - cbn [cnorm]. destruct (op_eqb o BComma) eqn:E.
      + intros st0. rewrite comma_app_meaning. cbn [meaning]. rewrite E.
        apply m_comma_ext; assumption.
      + cbn [meaning]. rewrite E. apply m_bin_ext; assumption.
    - cbn [cnorm meaning]. apply m_cond_ext; assumption.
    - cbn [cnorm meaning]. apply m_index_ext; assumption.
  Qed.
End General.

Definition name := list Z.
Inductive event :=
| Read (x : name) (v : Z) | Write (x : name) (v : Z)
| GetProp (obj : Z) (p : name) | GetIndex (obj i : Z).
Definition store := list (name * Z).
Definition state := (store * list event)%type.
Inductive value := Val (z : Z) | Ref (x : name).

Fixpoint lookup (st : store) (x : name) : Z :=
  match st with
  | [] => 0
  | (y, v) :: r => if zlist_eqb x y then v else lookup r x
  end.
Definition emit (s : state) (e : event) : state := (fst s, snd s ++ [e]).
Definition write (s : state) (x : name) (v : Z) : state := ((x, v) :: fst s, snd s ++ [Write x v]).

Definition getvalue_c (v : value) (s : state) : option (value * state) :=
  match v with
  | Val z => Some (Val z, s)
  | Ref x => let z := lookup (fst s) x in Some (Val z, emit s (Read x z))
  end.
Lemma getvalue_c_idem v s w s' : getvalue_c v s = Some (w, s') -> getvalue_c w s' = Some (w, s').
Proof. destruct v; cbn; intros E; inversion E; subst; reflexivity. Qed.

Notation cden := (den state value).
(* evaluate to a number *)
Definition gz (f : cden) (s : state) : option (Z * state) :=
  match f s with
  | Some (v, s1) => match getvalue_c v s1 with
                    | Some (Val z, s2) => Some (z, s2)
                    | _ => None
                    end
  | None => None
  end.

Fixpoint dec_value (ds : list Z) (acc : Z) : Z :=
  match ds with [] => acc | c :: r => dec_value r (acc * 10 + (c - 48)) end.

Inductive opclass := CAssign | CCompound (a : op) | CLogAssign (k : op) | CShort (k : op) | CArith | CBad.
Definition classify (o : op) : opclass :=
  match o with
  | BAssign => CAssign
  | BAddAssign => CCompound BAdd | BSubAssign => CCompound BSub | BMulAssign => CCompound BMul
  | BDivAssign => CCompound BDiv | BRemAssign => CCompound BRem | BPowAssign => CCompound BPow
  | BShlAssign => CCompound BShl | BShrAssign => CCompound BShr | BUShrAssign => CCompound BUShr
  | BBitOrAssign => CCompound BBitOr | BBitAndAssign => CCompound BBitAnd | BBitXorAssign => CCompound BBitXor
  | BNullishAssign => CLogAssign BNullish | BLogOrAssign => CLogAssign BLogOr | BLogAndAssign => CLogAssign BLogAnd
  | BNullish | BLogOr | BLogAnd => CShort o
  | BAdd | BSub | BMul | BDiv | BRem | BPow | BLt | BLe | BGt | BGe | BIn | BInstanceof
  | BShl | BShr | BUShr | BLooseEq | BLooseNe | BStrictEq | BStrictNe | BBitOr | BBitAnd | BBitXor => CArith
  | _ => CBad
  end.
(* integer stand-ins for the operators; division and remainder by zero fail
   (an exception aborts the evaluation) *)
Definition arith (o : op) (a b : Z) : option Z :=
  match o with
  | BAdd => Some (a + b) | BSub => Some (a - b) | BMul => Some (a * b)
  | BDiv => if b =? 0 then None else Some (a / b)
  | BRem => if b =? 0 then None else Some (a mod b)
  | BPow => Some (a ^ Z.abs b)
  | BLt => Some (if a <? b then 1 else 0) | BLe => Some (if a <=? b then 1 else 0)
  | BGt => Some (if b <? a then 1 else 0) | BGe => Some (if b <=? a then 1 else 0)
  | BLooseEq | BStrictEq => Some (if a =? b then 1 else 0)
  | BLooseNe | BStrictNe => Some (if a =? b then 0 else 1)
  | BBitOr => Some (Z.lor a b) | BBitAnd => Some (Z.land a b) | BBitXor => Some (Z.lxor a b)
  | BShl => Some (a * 2 ^ (Z.abs b mod 32)) | BShr | BUShr => Some (a / 2 ^ (Z.abs b mod 32))
  | _ => Some (a * 31 + b)
  end.
(* does the short-circuit operator stop after its left operand? (0 plays falsy / nullish) *)
Definition stops_short (k : op) (z : Z) : bool :=
  match k with BLogAnd => z =? 0 | BLogOr => negb (z =? 0) | _ => negb (z =? 0) end.

Definition c_id (x : name) : cden := fun s => Some (Ref x, s).          (* a Reference: no event yet *)
Definition c_num (ds : list Z) : cden := fun s => Some (Val (dec_value ds 0), s).
Definition c_re (b f : list Z) : cden := fun s => Some (Val (Z.of_nat (length b)), s).
Definition c_dot (f : cden) (p : name) : cden :=
  fun s => match gz f s with
           | Some (z, s1) => Some (Val (z * 31 + Z.of_nat (length p)), emit s1 (GetProp z p))
           | None => None
           end.
Definition c_index (f g : cden) : cden :=
  fun s => match gz f s with
           | Some (a, s1) => match gz g s1 with
                             | Some (i, s2) => Some (Val (a * 31 + i), emit s2 (GetIndex a i))
                             | None => None
                             end
           | None => None
           end.
Definition c_un (o : op) (f : cden) : cden :=
  fun s =>
    if is_update o then
      match f s with
      | Some (Ref x, s1) =>
          let z := lookup (fst s1) x in
          let z' := match o with UPreInc | UPostInc => z + 1 | _ => z - 1 end in
          let s2 := write (emit s1 (Read x z)) x z' in
          Some (Val (match o with UPreInc | UPreDec => z' | _ => z end), s2)
      | _ => None                                     (* not a simple assignment target *)
      end
    else match o with
         | UDelete => match f s with Some (_, s1) => Some (Val 1, s1) | None => None end
         | UPos | UNeg | UCpl | UNot | UVoid | UTypeof =>
             match gz f s with
             | Some (z, s1) =>
                 Some (Val (match o with UNeg => - z | UCpl => - z - 1 | UNot => (if z =? 0 then 1 else 0)
                                   | UVoid => 0 | UTypeof => 7 | _ => z end), s1)
             | None => None
             end
         | _ => None
         end.
Definition c_bin (o : op) (f g : cden) : cden :=
  fun s =>
    match classify o with
    | CAssign =>
        match f s with
        | Some (Ref x, s1) => match gz g s1 with
                              | Some (z, s2) => Some (Val z, write s2 x z)
                              | None => None
                              end
        | _ => None
        end
    | CCompound a =>
        match f s with
        | Some (Ref x, s1) =>
            let zl := lookup (fst s1) x in
            match gz g (emit s1 (Read x zl)) with
            | Some (zr, s2) => match arith a zl zr with
                               | Some z => Some (Val z, write s2 x z)
                               | None => None
                               end
            | None => None
            end
        | _ => None
        end
    | CLogAssign k =>
        match f s with
        | Some (Ref x, s1) =>
            let zl := lookup (fst s1) x in
            let s1' := emit s1 (Read x zl) in
            if stops_short k zl then Some (Val zl, s1')
            else match gz g s1' with
                 | Some (z, s2) => Some (Val z, write s2 x z)
                 | None => None
                 end
        | _ => None
        end
    | CShort k =>
        match gz f s with
        | Some (zl, s1) => if stops_short k zl then Some (Val zl, s1)
                           else match gz g s1 with Some (z, s2) => Some (Val z, s2) | None => None end
        | None => None
        end
    | CArith =>
        match gz f s with
        | Some (zl, s1) => match gz g s1 with
                           | Some (zr, s2) => match arith o zl zr with Some z => Some (Val z, s2) | None => None end
                           | None => None
                           end
        | None => None
        end
    | CBad => None
    end.
Definition c_cond (c y n : cden) : cden :=
  fun s => match gz c s with
           | Some (z, s1) => match gz (if z =? 0 then n else y) s1 with
                             | Some (r, s2) => Some (Val r, s2)
                             | None => None
                             end
           | None => None
           end.

Lemma gz_ext f f' : den_eq state value f f' -> forall s, gz f s = gz f' s.
Proof. intros H s. unfold gz. rewrite H. reflexivity. Qed.

(* the trace semantics of a tree *)
Definition trace_eval : cexpr -> cden :=
  meaning state value c_id c_num c_re c_dot c_un c_bin c_cond c_index getvalue_c.

Lemma norm_trace_all : forall e s, trace_eval (cnorm e) s = trace_eval e s.
Proof.
  intros e. apply norm_meaning_all.
  - intros f f' p H s. unfold c_dot. rewrite (gz_ext f f' H). reflexivity.
  - intros o f f' H s. unfold c_un. rewrite H, (gz_ext f f' H). reflexivity.
  - intros o f f' g g' Hff Hg s. unfold c_bin.
    destruct (classify o); rewrite ?Hff, ?(gz_ext f f' Hff); try reflexivity.
    + destruct (f' s) as [[[z|x] s1]|]; try reflexivity. rewrite (gz_ext g g' Hg). reflexivity.
    + destruct (f' s) as [[[z|x] s1]|]; try reflexivity. rewrite (gz_ext g g' Hg). reflexivity.
    + destruct (f' s) as [[[z|x] s1]|]; try reflexivity. rewrite (gz_ext g g' Hg). reflexivity.
    + destruct (gz f' s) as [[zl s1]|]; try reflexivity. rewrite (gz_ext g g' Hg). reflexivity.
    + destruct (gz f' s) as [[zl s1]|]; try reflexivity. rewrite (gz_ext g g' Hg). reflexivity.
  - intros c c' y y' n n' Hc Hy Hn s. unfold c_cond. rewrite (gz_ext c c' Hc).
    destruct (gz c' s) as [[z s1]|]; [|reflexivity].
    destruct (z =? 0); [rewrite (gz_ext n n' Hn)|rewrite (gz_ext y y' Hy)]; reflexivity.
  - intros f f' g g' Hff Hg s. unfold c_index. rewrite (gz_ext f f' Hff).
    destruct (gz f' s) as [[a s1]|]; [|reflexivity]. rewrite (gz_ext g g' Hg). reflexivity.
  - exact getvalue_c_idem.
Qed.

Fixpoint embed (e : cexpr) : expr :=
  match e with
  | CId s => EId s | CNum s => ENum s | CRe b f => ERe b f
  | CDot t s => EDot (embed t) s
  | CUn o v => EUn o (embed v)
  | CBin o l r => EBin o (embed l) (embed r)
  | CCond c y n => ECond (embed c) (embed y) (embed n)
  | CIndex t i => EIndex (embed t) (embed i)
  end.

Lemma comma_app_embed : forall r l, comma_app (embed l) (embed r) = embed (ccomma_app l r).
Proof.
  induction r as [x|x|b f|t IHt x|o v IHv|o r1 IH1 r2 IH2|c IHc y IHy n IHn|t IHt i IHi]; intros l;
    try reflexivity.
  destruct o; try reflexivity.
  cbn [embed ccomma_app comma_app]. rewrite IH1. reflexivity.
Qed.

Lemma norm_embed_all : forall e, norm (embed e) = embed (cnorm e).
Proof.
  induction e as [x|x|b f|t IHt x|o v IHv|o l IHl r IHr|c IHc y IHy n IHn|t IHt i IHi]; try reflexivity.
  - cbn [embed norm cnorm]. rewrite IHt. reflexivity.
  - cbn [embed norm cnorm]. rewrite IHv. reflexivity.
  - cbn [embed norm cnorm]. rewrite IHl, IHr. destruct (op_eqb o BComma); [apply comma_app_embed|reflexivity].
  - cbn [embed norm cnorm]. rewrite IHc, IHy, IHn. reflexivity.
  - cbn [embed norm cnorm]. rewrite IHt, IHi. reflexivity.
Qed.
