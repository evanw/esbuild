(* C01: the printed string / template literal never contains "</script"
   (ASCII case-insensitive) when the inline-script guard is on. *)
From V Require Import Common.Base C01.Utf C01.Quote C01.SpecLiteral C01.QuoteProofs.

(* specification: ASCII case-insensitive substring test *)
Fixpoint prefix_ci (p l : list Z) : bool :=
  match p, l with
  | [], _ => true
  | a :: p', x :: l' => (lower x =? a) && prefix_ci p' l'
  | _ :: _, [] => false
  end.
Fixpoint contains_ci (p l : list Z) : bool :=
  prefix_ci p l || match l with [] => false | _ :: r => contains_ci p r end.
Definition script_close : list Z := [60; 47; 115; 99; 114; 105; 112; 116].   (* "</script" *)
Definition script6 : list Z := [115; 99; 114; 105; 112; 116].

(* matching automaton: the state is the part of the pattern still to be
   matched; '<' occurs only at the start of the pattern, so after a mismatch
   the only partial match that can survive is a '<' just read *)
Definition next (st : list Z) (x : Z) : list Z :=
  match st with
  | a :: st' => if lower x =? a then st' else if x =? 60 then tl script_close else script_close
  | [] => []
  end.
Fixpoint scan (st l : list Z) {struct l} : bool :=
  match st, l with
  | [], _ => true
  | _, [] => false
  | _, x :: r => scan (next st x) r
  end.

Lemma scan_nil l : scan [] l = true.
Proof. destruct l; reflexivity. Qed.
Lemma scan_cons st x r : st <> [] -> scan st (x :: r) = scan (next st x) r.
Proof. destruct st; [congruence|reflexivity]. Qed.

Lemma lower_60 x : lower x = 60 -> x = 60.
Proof. unfold lower. destruct ((65 <=? x) && (x <=? 90)) eqn:E; lia. Qed.

Lemma prefix_scan : forall p l, prefix_ci p l = true -> scan p l = true.
Proof.
  induction p as [|a p IH]; intros l H; [apply scan_nil|].
  destruct l as [|x l]; [discriminate|]. cbn [prefix_ci] in H. apply andb_true_iff in H as [Hx H].
  cbn [scan next]. rewrite Hx. apply IH, H.
Qed.

Lemma contains_scan : forall l st, st = script_close \/ ~ In 60 st ->
  contains_ci script_close l = true -> scan st l = true.
Proof.
  induction l as [|x r IH]; intros st Hst H; [discriminate|].
  destruct st as [|a st']; [reflexivity|]. rewrite scan_cons by discriminate.
  cbn [contains_ci] in H. apply orb_true_iff in H as [H|H].
  - cbn [prefix_ci script_close] in H. apply andb_true_iff in H as [Hx H].
    assert (x = 60) by (apply lower_60; lia). subst x.
    enough (E : next (a :: st') 60 = tl script_close) by (rewrite E; apply prefix_scan, H).
    cbn [next]. change (lower 60) with 60. destruct (Z.eqb_spec 60 a) as [<-|_]; [|reflexivity].
    destruct Hst as [E|N]; [inversion E; reflexivity|exfalso; apply N; left; reflexivity].
  - apply IH; [|exact H]. cbn [next].
    destruct (lower x =? a); [|destruct (x =? 60); [right; cbn; lia|left; reflexivity]].
    right. destruct Hst as [E|N]; [inversion E; cbn; lia|intros Hin; apply N; right; exact Hin].
Qed.

(* where the automaton can be when the printer is about to read a unit: at the
   start of the pattern; after a '<' that was printed for the previous unit; or
   further into the pattern, at a place from which the text no longer matches *)
Definition scan_inv (st : list Z) (prev : Z) (text : list Z) : Prop :=
  st = script_close \/ (st = tl script_close /\ prev = 60) \/
  (Forall (fun a => 97 <= a <= 122) st /\ prefix_ci st text = false).

Lemma scan_inv_nonempty st prev text : scan_inv st prev text -> st <> [].
Proof. intros [->|[[-> _]|[_ H]]]; [discriminate|discriminate|intros ->; discriminate]. Qed.

Lemma scan_inv_restart c rest : scan_inv (if c =? 60 then tl script_close else script_close) c rest.
Proof. destruct (Z.eqb_spec c 60); [right; left; auto|left; reflexivity]. Qed.

Lemma matches_script_prefix rest : matches_script rest = prefix_ci script6 rest.
Proof.
  unfold matches_script, script6.
  destruct rest as [|a0 [|a1 [|a2 [|a3 [|a4 [|a5 r]]]]]]; cbn [prefix_ci];
    rewrite ?andb_false_r; try reflexivity.
  rewrite andb_true_r. rewrite !andb_assoc. reflexivity.
Qed.

Lemma raw_step cfg st prev c rest :
  script_guard cfg = true ->
  scan_inv st prev (c :: rest) ->
  (c = 47 -> script_guard cfg = true -> prev = 60 -> matches_script rest = false) ->
  scan_inv (next st c) c rest.
Proof.
  intros Hg [->|[[-> Hp]|[Hl Hm]]] H47.
  - cbn [next script_close]. destruct (lower c =? 60) eqn:E; [|apply scan_inv_restart].
    right; left. split; [reflexivity|apply lower_60; lia].
  - cbn [next script_close tl]. destruct (lower c =? 47) eqn:E; [|apply scan_inv_restart].
    assert (c = 47) by (unfold lower in E; destruct ((65 <=? c) && (c <=? 90)) eqn:B; lia).
    right; right. split; [repeat constructor; lia|].
    rewrite <- matches_script_prefix. apply H47; assumption.
  - destruct st as [|a st']; [discriminate|]. cbn [next]. cbn [prefix_ci] in Hm.
    destruct (lower c =? a); [|apply scan_inv_restart].
    right; right. split; [inversion Hl; assumption|exact Hm].
Qed.

(* a code point that is not in the pattern in either case sends the automaton to its start *)
Definition inert (x : Z) : Prop := x < 47 \/ 60 < x < 65 \/ 90 < x < 97 \/ 122 < x.

Lemma inert_step st prev text x : scan_inv st prev text -> inert x -> next st x = script_close.
Proof.
  intros HI Hx.
  assert (Hlow : lower x = x) by (unfold lower, inert in *; destruct ((65 <=? x) && (x <=? 90)) eqn:E; lia).
  assert (H60 : (x =? 60) = false) by (unfold inert in Hx; lia).
  destruct HI as [->|[[-> _]|[Hl Hm]]]; cbn [next script_close tl]; rewrite ?Hlow, ?H60.
  - destruct (x =? 60) eqn:E; [lia|reflexivity].
  - destruct (x =? 47) eqn:E; [unfold inert in Hx; lia|reflexivity].
  - destruct st as [|a st']; [discriminate|]. inversion Hl; subst. cbn [next].
    rewrite Hlow, H60. destruct (x =? a) eqn:E; [unfold inert in Hx; lia|reflexivity].
Qed.

(* an escape: backslash followed by code points none of which is '<' *)
Definition is_escape (l : list Z) : Prop := exists r, l = 92 :: r /\ Forall (fun x => x <> 60) r.

Lemma no60_reset r tail : Forall (fun x => x <> 60) r ->
  scan script_close (r ++ tail) = scan script_close tail.
Proof.
  induction 1 as [|x r Hx Hr IH]; [reflexivity|].
  cbn [app]. rewrite scan_cons by discriminate. cbn [next script_close].
  destruct (lower x =? 60) eqn:E; [exfalso; apply Hx, lower_60; lia|].
  destruct (x =? 60) eqn:E2; [lia|exact IH].
Qed.

Lemma escape_reset st prev text l tail : scan_inv st prev text -> is_escape l ->
  scan st (l ++ tail) = scan script_close tail.
Proof.
  intros HI [r [-> Hr]]. cbn [app]. rewrite scan_cons by (eapply scan_inv_nonempty, HI).
  rewrite (inert_step st prev text 92 HI) by (unfold inert; lia). apply no60_reset. exact Hr.
Qed.

Lemma hexc_ne60 d : 0 <= d < 16 -> hexc d <> 60.
Proof. intros H. destruct (hexc_range d H); lia. Qed.

Lemma esc_u4_escape c : 0 <= c <= 65535 -> is_escape (esc_u4 c).
Proof.
  intros H. eexists; split; [reflexivity|].
  repeat constructor; try lia; apply hexc_ne60; lia.
Qed.
Lemma esc_x2_escape c : 0 <= c <= 255 -> is_escape (esc_x2 c).
Proof.
  intros H. eexists; split; [reflexivity|].
  repeat constructor; try lia; apply hexc_ne60; lia.
Qed.
Lemma esc_ubrace_escape r : 65536 <= r <= 1114111 -> is_escape (esc_ubrace r).
Proof.
  intros H. destruct (hexX_digits_spec r H) as (E & Hd & _).
  unfold esc_ubrace. rewrite E. eexists; split; [reflexivity|].
  constructor; [lia|constructor; [lia|]]. apply Forall_app. split; [|repeat constructor; lia].
  apply Forall_map. eapply Forall_impl; [|exact Hd]. exact hexc_ne60.
Qed.

(* classification of one iteration's output *)
Lemma simple_chunk_class cfg q prev c rest :
  0 <= c <= 65535 -> is_high c = false ->
  (simple_chunk cfg q prev c rest = [c] /\
   (c = 47 -> script_guard cfg = true -> prev = 60 -> matches_script rest = false))
  \/ is_escape (simple_chunk cfg q prev c rest).
Proof.
  intros Hc Hh. destruct (simple_chunk_shape cfg q prev c rest Hc Hh) as [R|x Hx _|_ _|Hb|].
  - left. split; [reflexivity|apply R].
  - right. exists [x]. split; [reflexivity|repeat constructor; lia].
  - right. exists [48]. split; [reflexivity|repeat constructor; lia].
  - right. apply esc_x2_escape, Hb.
  - right. apply esc_u4_escape, Hc.
Qed.

Lemma scan_wrap wrap w st prev text : wrap_chunk wrap w -> scan_inv st prev text ->
  exists st1, scan_inv st1 prev text /\ forall X, scan st (w ++ X) = scan st1 X.
Proof.
  intros [->|[_ ->]] HI.
  - exists st. split; [exact HI|reflexivity].
  - exists script_close. split; [left; reflexivity|]. intros X.
    apply (escape_reset st prev text [92; 10] X HI). exists [10]. split; [reflexivity|repeat constructor; lia].
Qed.

Lemma pair_chunk_reset cfg st prev text c c2 X :
  0 <= c <= 65535 -> 0 <= c2 <= 65535 -> is_high c = true -> is_low c2 = true -> scan_inv st prev text ->
  scan st (pair_chunk cfg c c2 ++ X) = scan script_close X.
Proof.
  intros Hc Hc2 Hh Hl HI. pose proof (combine_range c c2 Hh Hl) as Hr.
  unfold pair_chunk. destruct (ascii_only cfg); [destruct (uni_esc cfg)|].
  - apply (escape_reset st prev text); [exact HI|apply esc_ubrace_escape, Hr].
  - rewrite <- app_assoc, (escape_reset st prev text _ _ HI (esc_u4_escape c Hc)).
    apply (escape_reset script_close c []); [left; reflexivity|apply esc_u4_escape, Hc2].
  - cbn [app]. rewrite scan_cons by (eapply scan_inv_nonempty, HI).
    rewrite (inert_step _ _ _ _ HI) by (unfold inert; lia). reflexivity.
Qed.

Lemma pu_no_script cfg q wrap :
  script_guard cfg = true -> (q = 39 \/ q = 34 \/ q = 96) ->
  forall text, all_u16 text -> forall prev sl i st, scan_inv st prev text ->
  scan st (pu cfg q wrap prev sl i text ++ [q]) = false.
Proof.
  intros Hg Hq text Hu.
  assert (Start : forall prev text, scan_inv script_close prev text) by (left; reflexivity).
  apply (pu_cases cfg q wrap (fun prev text out => forall st, scan_inv st prev text -> scan st (out ++ [q]) = false));
    [| | | |exact Hu]; clear text Hu.
  - intros prev st HI. cbn [app]. rewrite scan_cons by (eapply scan_inv_nonempty, HI).
    rewrite (inert_step st prev [] q HI) by (unfold inert; lia). reflexivity.
  - intros w prev c rest out W Hc Hh IH st HI.
    destruct (scan_wrap wrap w st prev _ W HI) as [st1 [HI1 E]]. rewrite <- !app_assoc, E.
    destruct (simple_chunk_class cfg q prev c rest Hc Hh) as [[-> H47]|Hesc].
    + cbn [app]. rewrite scan_cons by (eapply scan_inv_nonempty, HI1).
      apply IH, (raw_step cfg st1 prev c rest Hg HI1 H47).
    + rewrite (escape_reset _ _ _ _ _ HI1 Hesc). apply IH, Start.
  - intros w prev c rest out W Hc _ _ IH st HI.
    destruct (scan_wrap wrap w st prev _ W HI) as [st1 [HI1 E]]. rewrite <- !app_assoc, E.
    rewrite (escape_reset _ _ _ _ _ HI1 (esc_u4_escape c Hc)). apply IH, Start.
  - intros w prev c c2 rest out W Hc Hc2 Hh Hl IH st HI.
    destruct (scan_wrap wrap w st prev _ W HI) as [st1 [HI1 E]]. rewrite <- !app_assoc, E.
    rewrite (pair_chunk_reset cfg st1 prev (c :: c2 :: rest)) by assumption. apply IH, Start.
Qed.

Lemma quote_no_script_close_all cfg abt nowrap linelen u :
  script_guard cfg = true -> all_u16 u ->
  contains_ci script_close (print_quoted_cps cfg abt nowrap linelen u) = false.
Proof.
  intros Hg Hu.
  destruct (contains_ci script_close (print_quoted_cps cfg abt nowrap linelen u)) eqn:E; [|reflexivity].
  apply (contains_scan _ script_close (or_introl eq_refl)) in E.
  unfold print_quoted_cps in E. destruct (choose_quote_kind cfg abt u) as [kq Hkq].
  rewrite Hkq, scan_cons in E by discriminate.
  replace (next script_close (quote_of kq)) with script_close in E by (destruct kq; reflexivity).
  unfold print_unquoted_cps in E.
  rewrite (pu_no_script cfg (quote_of kq) _ Hg) in E;
    [discriminate|destruct kq; cbn; auto|exact Hu|left; reflexivity].
Qed.

Lemma quote_no_script_close_bytes cfg abt nowrap prefix u :
  script_guard cfg = true -> all_u16 u ->
  exists cps, utf8_decode (print_quoted cfg abt nowrap prefix u) = Some cps /\
              contains_ci script_close cps = false.
Proof.
  intros Hg Hu. exists (print_quoted_cps cfg abt nowrap (currentLineLength prefix) u). split.
  - unfold print_quoted. apply utf8_roundtrip. eapply good_scalar. apply print_quoted_cps_good. exact Hu.
  - apply quote_no_script_close_all; assumption.
Qed.
