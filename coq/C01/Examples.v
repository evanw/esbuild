From V Require Import Common.Base C01.Utf C01.Quote C01.SpecLiteral C01.QuoteProofs.
From V Require Import C01.Num C01.SpecNumeric C01.NumProofs.
(* non-vacuity / sanity: concrete non-trivial values meeting each theorem's hypotheses *)

Definition ex_units := [104; 0; 49; 39; 34; 96; 36; 123; 60; 47; 83; 99; 114; 105; 112; 116; 8232; 55357; 56832; 55357; 233; 10; 13].
Example ex_units_u16 : all_u16 ex_units.
Proof. apply Forall_forall. intros x Hx. cbn in Hx. lia. Qed.

Example quoted_ex :
  print_quoted (mkQ false true true 0 false true) true false [] ex_units
  = [34; 104; 92; 120; 48; 48; 49; 39; 92; 34; 96; 36; 123; 60; 92; 47; 83; 99; 114; 105; 112; 116;
     92; 117; 50; 48; 50; 56; 240; 159; 152; 128; 92; 117; 68; 56; 51; 68; 195; 169; 92; 110; 92; 114; 34].
Proof. vm_compute. reflexivity. Qed.

(* ASCII only, no \u{...}, line limit 10, templates unsupported: wraps and escapes *)
Example quoted_ascii_ex :
  literal_value (print_quoted (mkQ true false true 10 false false) true false [1; 2; 3] ex_units) = Some ex_units
  /\ forallb (fun b => b <? 128) (print_quoted (mkQ true false true 10 false false) true false [1; 2; 3] ex_units) = true.
Proof. vm_compute. split; reflexivity. Qed.

(* the quote chooser picks a backtick, and `${` is escaped *)
Example backtick_ex :
  print_quoted (mkQ false true true 0 false true) true false [] [34; 34; 39; 39; 36; 123]
  = [96; 34; 34; 39; 39; 92; 36; 123; 96].
Proof. vm_compute. reflexivity. Qed.

(* the specification rejects what it must *)
Example spec_rejects :
  map literal_value [[39; 92; 49; 39]; [39; 92; 48; 49; 39]; [34; 10; 34]; [96; 36; 123; 96]; [39; 92; 117; 123; 49; 49; 48; 48; 48; 48; 125; 39]; [39; 237; 160; 128; 39]]
  = [None; None; None; None; None; None].
Proof. vm_compute. reflexivity. Qed.
Example spec_accepts :
  map literal_value [[39; 92; 48; 39]; [96; 13; 10; 96]; [34; 226; 128; 168; 34]; [39; 92; 13; 10; 97; 39]; [96; 36; 36; 96]]
  = [Some [0]; Some [10]; Some [8232]; Some [97]; Some [36; 36]].
Proof. vm_compute. reflexivity. Qed.

Example shorten_ex :
  map (shorten true) [[49; 101; 43; 50; 49]; [48; 46; 48; 48; 48; 49]; [48; 46; 53]; [49; 46; 50; 101; 43; 50; 52]; [49; 48; 48; 48]; [49; 46; 53; 101; 45; 48; 55]; [49; 46; 50; 101; 43; 48; 49]]
  = [[49; 101; 50; 49]; [49; 101; 45; 52]; [46; 53]; [49; 50; 101; 50; 51]; [49; 101; 51]; [49; 53; 101; 45; 56]; [49; 50]].
Proof. vm_compute. reflexivity. Qed.

Example form_dot_exp_ex : form_dot_exp [49; 46; 50; 101; 43; 50; 52].
Proof.
  exists [49], [50], SgPlus, [50; 52]. repeat split; try reflexivity; try discriminate;
    try (repeat constructor; lia); vm_compute; congruence.
Qed.
Example form_int_ex : form_int [49; 48; 48; 48].
Proof. repeat split; try reflexivity; try discriminate; try (repeat constructor; lia). Qed.

(* 1234567890123456768 with minify-whitespace becomes hex (18 bytes instead of 19) *)
Example hex_ex :
  printNonNegativeFloat true 4877717327635671425 [49; 46; 50; 51; 52; 53; 54; 55; 56; 57; 48; 49; 50; 51; 52; 53; 54; 56; 101; 43; 49; 56]
  = ([48; 120; 49; 49; 50; 50; 49; 48; 102; 52; 55; 100; 101; 57; 56; 49; 48; 48], false).
Proof. vm_compute. reflexivity. Qed.

From V Require Import C01.ScriptProofs.
(* the specification-side substring test does find what it must *)
Example contains_ci_ex :
  contains_ci script_close [34; 60; 47; 83; 99; 82; 105; 80; 116; 62; 34] = true
  /\ contains_ci script_close [34; 60; 92; 47; 115; 99; 114; 105; 112; 116; 34] = false.
Proof. vm_compute. split; reflexivity. Qed.
Example ident_ex :
  print_identifier_utf16 (mkQ true true true 0 false true) [233; 55362; 57271; 120]
  = Some [92; 117; 48; 48; 69; 57; 92; 117; 123; 50; 48; 66; 66; 55; 125; 120]
  /\ ident_value [92; 117; 48; 48; 69; 57; 92; 117; 123; 50; 48; 66; 66; 55; 125; 120] = Some [233; 55362; 57271; 120].
Proof. vm_compute. split; reflexivity. Qed.

From V Require Import C01.NumProofs2.
(* boundary values: FormatFloat's text is in float_text and the model prints what esbuild prints
   (pretty / minify-whitespace) *)
Example b_1e21 : float_text_b [49; 101; 43; 50; 49] = true /\ fst (printNonNegativeFloat false 4921056587992461136 [49; 101; 43; 50; 49]) = [49; 101; 50; 49] /\ fst (printNonNegativeFloat true 4921056587992461136 [49; 101; 43; 50; 49]) = [49; 101; 50; 49].
Proof. vm_compute. repeat split; reflexivity. Qed.
Example b_below_1e21 : float_text_b [57; 46; 57; 57; 57; 57; 57; 57; 57; 57; 57; 57; 57; 57; 57; 57; 57; 101; 43; 50; 48] = true /\ fst (printNonNegativeFloat false 4921056587992461135 [57; 46; 57; 57; 57; 57; 57; 57; 57; 57; 57; 57; 57; 57; 57; 57; 57; 101; 43; 50; 48]) = [57; 57; 57; 57; 57; 57; 57; 57; 57; 57; 57; 57; 57; 57; 57; 57; 101; 53] /\ fst (printNonNegativeFloat true 4921056587992461135 [57; 46; 57; 57; 57; 57; 57; 57; 57; 57; 57; 57; 57; 57; 57; 57; 57; 101; 43; 50; 48]) = [57; 57; 57; 57; 57; 57; 57; 57; 57; 57; 57; 57; 57; 57; 57; 57; 101; 53].
Proof. vm_compute. repeat split; reflexivity. Qed.
Example b_2p53 : float_text_b [57; 46; 48; 48; 55; 49; 57; 57; 50; 53; 52; 55; 52; 48; 57; 57; 50; 101; 43; 49; 53] = true /\ fst (printNonNegativeFloat false 4845873199050653696 [57; 46; 48; 48; 55; 49; 57; 57; 50; 53; 52; 55; 52; 48; 57; 57; 50; 101; 43; 49; 53]) = [57; 48; 48; 55; 49; 57; 57; 50; 53; 52; 55; 52; 48; 57; 57; 50] /\ fst (printNonNegativeFloat true 4845873199050653696 [57; 46; 48; 48; 55; 49; 57; 57; 50; 53; 52; 55; 52; 48; 57; 57; 50; 101; 43; 49; 53]) = [57; 48; 48; 55; 49; 57; 57; 50; 53; 52; 55; 52; 48; 57; 57; 50].
Proof. vm_compute. repeat split; reflexivity. Qed.
Example b_min_subnormal : float_text_b [53; 101; 45; 51; 50; 52] = true /\ fst (printNonNegativeFloat false 1 [53; 101; 45; 51; 50; 52]) = [53; 101; 45; 51; 50; 52] /\ fst (printNonNegativeFloat true 1 [53; 101; 45; 51; 50; 52]) = [53; 101; 45; 51; 50; 52].
Proof. vm_compute. repeat split; reflexivity. Qed.
Example b_min_normal : float_text_b [50; 46; 50; 50; 53; 48; 55; 51; 56; 53; 56; 53; 48; 55; 50; 48; 49; 52; 101; 45; 51; 48; 56] = true /\ fst (printNonNegativeFloat false 4503599627370496 [50; 46; 50; 50; 53; 48; 55; 51; 56; 53; 56; 53; 48; 55; 50; 48; 49; 52; 101; 45; 51; 48; 56]) = [50; 50; 50; 53; 48; 55; 51; 56; 53; 56; 53; 48; 55; 50; 48; 49; 52; 101; 45; 51; 50; 52] /\ fst (printNonNegativeFloat true 4503599627370496 [50; 46; 50; 50; 53; 48; 55; 51; 56; 53; 56; 53; 48; 55; 50; 48; 49; 52; 101; 45; 51; 48; 56]) = [50; 50; 50; 53; 48; 55; 51; 56; 53; 56; 53; 48; 55; 50; 48; 49; 52; 101; 45; 51; 50; 52].
Proof. vm_compute. repeat split; reflexivity. Qed.
Example b_1e_6 : float_text_b [49; 101; 45; 48; 54] = true /\ fst (printNonNegativeFloat false 4517329193108106637 [49; 101; 45; 48; 54]) = [49; 101; 45; 54] /\ fst (printNonNegativeFloat true 4517329193108106637 [49; 101; 45; 48; 54]) = [49; 101; 45; 54].
Proof. vm_compute. repeat split; reflexivity. Qed.
Example b_0_000123 : float_text_b [48; 46; 48; 48; 48; 49; 50; 51] = true /\ fst (printNonNegativeFloat false 4548669923058963014 [48; 46; 48; 48; 48; 49; 50; 51]) = [49; 50; 51; 101; 45; 54] /\ fst (printNonNegativeFloat true 4548669923058963014 [48; 46; 48; 48; 48; 49; 50; 51]) = [49; 50; 51; 101; 45; 54].
Proof. vm_compute. repeat split; reflexivity. Qed.
Example b_half : float_text_b [48; 46; 53] = true /\ fst (printNonNegativeFloat false 4602678819172646912 [48; 46; 53]) = [48; 46; 53] /\ fst (printNonNegativeFloat true 4602678819172646912 [48; 46; 53]) = [46; 53].
Proof. vm_compute. repeat split; reflexivity. Qed.
Example b_1000 : float_text_b [49; 48; 48; 48] = true /\ fst (printNonNegativeFloat false 4652007308841189376 [49; 48; 48; 48]) = [49; 101; 51] /\ fst (printNonNegativeFloat true 4652007308841189376 [49; 48; 48; 48]) = [49; 101; 51].
Proof. vm_compute. repeat split; reflexivity. Qed.
Example b_999 : float_text_b [57; 57; 57] = true /\ fst (printNonNegativeFloat false 4651998512748167168 [57; 57; 57]) = [57; 57; 57] /\ fst (printNonNegativeFloat true 4651998512748167168 [57; 57; 57]) = [57; 57; 57].
Proof. vm_compute. repeat split; reflexivity. Qed.

From V Require Import C13.Token C13.ParseSpec C01.CommaTrace.
(* a, (b, c) shaped tree: norm changes the tree, the trace semantics sees
   reads, writes, a short circuit and the final store, identically *)
Definition ex_comma : cexpr :=
  CBin BComma (CBin BAssign (CId [97]) (CNum [53]))
    (CBin BComma (CBin BAddAssign (CId [98]) (CId [97]))
       (CBin BLogAnd (CId [98]) (CUn UPostInc (CId [97])))).
Example ex_comma_norm_differs : cnorm ex_comma <> ex_comma /\ norm (embed ex_comma) = embed (cnorm ex_comma).
Proof. split; [vm_compute; discriminate|vm_compute; reflexivity]. Qed.
Example ex_comma_trace :
  trace_eval ex_comma ([], []) =
  Some (Val 5, ([([97], 6); ([98], 5); ([97], 5)],
                [Write [97] 5; Read [98] 0; Read [97] 5; Write [98] 5; Read [98] 5; Read [97] 5; Write [97] 6]))
  /\ trace_eval (cnorm ex_comma) ([], []) = trace_eval ex_comma ([], []).
Proof. vm_compute. split; reflexivity. Qed.
(* an exception (division by zero) aborts: same on both sides *)
Example ex_comma_fail :
  let e := CBin BComma (CId [97]) (CBin BComma (CBin BDiv (CNum [49]) (CNum [48])) (CId [98])) in
  trace_eval e ([], []) = None /\ trace_eval (cnorm e) ([], []) = None.
Proof. vm_compute. split; reflexivity. Qed.

From V Require Import gen.IdTablesGen C01.Keys C01.KeysProofs.
(* keys: identifier (raw, or escaped under ASCII), quoted when not an identifier (a non-BMP character
   is never one for the ES5-and-ESNext test), and when PreferQuotedKey is set; ZWJ continues an identifier *)
Example key_ex :
  print_string_key (mkQ false true true 0 false true) false [233; 960] = Some [195; 169; 207; 128]
  /\ print_string_key (mkQ true true true 0 false true) false [233; 960]
      = Some [92; 117; 48; 48; 69; 57; 92; 117; 48; 51; 67; 48]
  /\ print_string_key (mkQ false true true 0 false true) false [55362; 57271]
      = Some [34; 240; 160; 174; 183; 34]
  /\ print_string_key (mkQ false true true 0 false true) false [97; 32; 98] = Some [34; 97; 32; 98; 34]
  /\ print_string_key (mkQ false true true 0 false true) true [97] = Some [34; 97; 34]
  /\ print_string_key (mkQ false true true 0 false true) false [97; 8205] = Some [97; 226; 128; 141]
  /\ key_value [92; 117; 48; 48; 69; 57; 92; 117; 48; 51; 67; 48] = Some [233; 960].
Proof. vm_compute. repeat split; reflexivity. Qed.

From V Require Import C01.Template C01.TemplateProofs.
(* `a$${this}\0${this}\${x`  : a chunk ending in $, a chunk that is NUL (followed by a substitution),
   a chunk starting with {, wrapping at line limit 6 *)
Example template_ex :
  print_template (mkQ false true true 0 false true) [] [97; 36] [[0]; [36; 123; 120]]
  = [96; 97; 36; 36; 123; 116; 104; 105; 115; 125; 92; 48; 36; 123; 116; 104; 105; 115; 125; 92; 36; 123; 120; 96]
  /\ template_value (template_cps (mkQ true true true 6 false true) [120; 61] [97; 36; 233] [[0; 49]; [13; 10; 96]])
      = Some [[97; 36; 233]; [0; 49]; [13; 10; 96]].
Proof. vm_compute. split; reflexivity. Qed.
Example regexp_ex :
  print_regexp (mkQ false true true 0 false true) [49; 47] [47; 49; 47] = [32; 47; 49; 47]
  /\ print_regexp (mkQ false true false 0 false true) [49; 47] [47; 49; 47] = [32; 47; 49; 47]
  /\ print_regexp (mkQ false true true 0 false true) [120; 60] [47; 83; 67; 82; 73; 80; 84; 47] = [32; 47; 83; 67; 82; 73; 80; 84; 47]
  /\ print_regexp (mkQ false true false 0 false true) [120; 60] [47; 83; 67; 82; 73; 80; 84; 47] = [47; 83; 67; 82; 73; 80; 84; 47]
  /\ print_bigint [97] [49; 50] = [32; 49; 50; 110].
Proof. vm_compute. repeat split; reflexivity. Qed.

From V Require Import C01.Tagged C01.TaggedProofs.
(* tag`a\unicode\<LF>$${x}\`}`  : an invalid escape, a line continuation, `$` before a substitution, an escaped backtick *)
Example tagged_ex :
  lexer_raw [97; 92; 117; 110; 105; 99; 111; 100; 101; 92; 10; 36] /\ lexer_raw [92; 96; 125]
  /\ raw_value (tagged_cps [97; 92; 117; 110; 105; 99; 111; 100; 101; 92; 10; 36] [[92; 96; 125]])
      = Some [[97; 92; 117; 110; 105; 99; 111; 100; 101; 92; 10; 36]; [92; 96; 125]]
  /\ raw_value (tagged_cps [97; 13; 10; 98] []) = Some [[97; 10; 98]]
  /\ raw_value (tagged_cps [97; 36; 123] []) = None.
Proof.
  split; [split; [cbn; intuition lia|split; [cbn; unfold SUBST; intuition lia|eexists; vm_compute; reflexivity]]|].
  split; [split; [cbn; intuition lia|split; [cbn; unfold SUBST; intuition lia|eexists; vm_compute; reflexivity]]|].
  vm_compute. repeat split; reflexivity.
Qed.

(* member names: .b / .\u00E9 under ASCII / ["a b"] / ["𠮷"] (never an ES5-and-ESNext identifier) *)
Example member_ex :
  print_dot_name (mkQ false true true 0 false true) 4 [98] = Some [46; 98]
  /\ print_dot_name (mkQ true true true 0 false true) 4 [233] = Some [46; 92; 117; 48; 48; 69; 57]
  /\ print_dot_name (mkQ false true true 0 false true) 4 [97; 32; 98] = Some [91; 34; 97; 32; 98; 34; 93]
  /\ print_dot_name (mkQ true false true 0 false true) 4 [134071] = Some [91; 34; 92; 117; 68; 56; 52; 50; 92; 117; 68; 70; 66; 55; 34; 93]
  /\ member_key [91; 34; 92; 117; 68; 56; 52; 50; 92; 117; 68; 70; 66; 55; 34; 93] = Some [55362; 57271].
Proof. vm_compute. repeat split; reflexivity. Qed.

From V Require Import C01.NumFlag.
(* the flag on 5 ("5": true), 1000 ("1e3": false), 0.5 minified (".5": false), 1234 ("1234": true) *)
Example flag_ex :
  map (fun c => snd (printNonNegativeFloat (fst (fst c)) (snd (fst c)) (snd c)))
    [(false, 4617315517961601024, [53]); (false, 4652007308841189376, [49; 48; 48; 48]);
     (true, 4602678819172646912, [48; 46; 53]); (false, 4653142004841086976, [49; 50; 51; 52])]
  = [true; false; false; true].
Proof. vm_compute. reflexivity. Qed.

From V Require Import C01.Directive.
(* the directive statement is not vacuous: it holds on the ordinary shapes *)
Example directive_ex :
  strict_preserved cfg_default [SrcString (34 :: use_strict_chars ++ [34]) false; SrcOther] /\
  strict_preserved cfg_default [SrcString [39; 120; 39] false; SrcString (39 :: use_strict_chars ++ [39]) false] /\
  strict_preserved cfg_default [SrcOther; SrcString (39 :: use_strict_chars ++ [39]) false] /\
  strict_preserved cfg_default [SrcString [39; 120; 39] true; SrcOther].
Proof. exact strict_preserved_examples. Qed.
