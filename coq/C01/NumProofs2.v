(* C01: the number printer on the text shapes "0.ddd" and "ddde+dd", on all
   shapes of FormatFloat's text together, and the executable recogniser of
   those shapes. *)
From V Require Import Common.Base C01.Num C01.SpecNumeric C01.NumProofs.

(* the two shapes of FormatFloat's text beside those of NumProofs.v *)
Definition form_zero_dot (s : bytes) : Prop :=
  exists fp, s = 48 :: 46 :: fp /\ digs fp /\ num fp <> 0 /\ Z.of_nat (length fp) < 10 ^ 60.
Definition form_int_exp (s : bytes) : Prop :=
  exists ip sg ex, s = ip ++ 101 :: sign_bytes sg ++ ex /\
    digs ip /\ ip <> [] /\ int_part_ok ip = true /\ digs ex /\ num ex <> 0 /\ num ex < 1000.

Lemma strip_lead_first k r :
  hd 0 r <> 48 -> digs (repeat 48 k ++ r) -> num (repeat 48 k ++ r) <> 0 ->
  r <> [] /\ int_part_ok r = true /\ digs r.
Proof.
  intros Hr Hd Hn. apply digs_app in Hd as [_ Hd]. rewrite num_lead_zeros in Hn.
  split; [intros E; rewrite E in Hn; apply Hn; reflexivity|]. split; [|exact Hd].
  destruct r as [|c [|c2 r']]; try reflexivity. cbn [int_part_ok hd] in *. lia.
Qed.

(* "0.ddd" : "0.5" => ".5" (minify), "0.001" => "1e-3" when shorter *)
Lemma shorten_zero_dot mw s : form_zero_dot s -> value_preserved (shorten mw s) s.
Proof.
  intros (fp & -> & Hfp & Hnz & Hlen).
  set (s := 48 :: 46 :: fp).
  assert (Hne : fp <> []) by (intros E; rewrite E in Hnz; apply Hnz; reflexivity).
  assert (Hs : mv s = Some (num fp, 0 - Z.of_nat (length fp))).
  { unfold s. replace (48 :: 46 :: fp) with ([48] ++ 46 :: fp ++ []) by (rewrite app_nil_r; reflexivity).
    rewrite <- (num_lead_zeros 1 fp).
    apply mv_frac; [repeat constructor; lia|discriminate|reflexivity|exact Hfp|exact exp_val_nil]. }
  assert (Hr1 : forall b : bool, value_preserved (if b then 46 :: fp else s) s).
  { intros b. apply (same_value _ _ (num fp, 0 - Z.of_nat (length fp))); [|exact Hs].
    destruct b; [|exact Hs].
    replace (46 :: fp) with (46 :: fp ++ []) by (rewrite app_nil_r; reflexivity).
    apply mv_dot_frac; auto using exp_val_nil. }
  assert (Hn101 : ~ In 101 s).
  { unfold s. intros [H|[H|H]]; try lia. revert H. apply digs_not_in; [exact Hfp|lia]. }
  pose proof (simplify_exponent_none s Hn101) as Hse.
  rewrite (shorten_zero mw s fp), Hse
    by (rewrite Hse; apply (split_first_app 46 [48]); intros [H|H]; [lia|exact H]).
  cbv zeta.
  destruct fp as [|c r] eqn:Efp; [congruence|].
  destruct (Z.eq_dec c 48) as [->|Hc].
  - pose proof (span0_spec (48 :: r)) as Hsp. destruct (span0 (48 :: r)) as [z t]. destruct Hsp as [E1 [E2 E3]].
    match goal with |- context [if ?c then t ++ _ else _] => destruct c end; [|apply Hr1].
    rewrite E1 in Hfp, Hnz. rewrite E2 in Hfp, Hnz.
    destruct (strip_lead_first (length z) t E3 Hfp Hnz) as [T1 [T2 T3]].
    assert (Hnum : num (48 :: r) = num t) by (rewrite E1, E2; apply num_lead_zeros).
    exists (num t, - len (48 :: r)), (num (48 :: r), 0 - Z.of_nat (length (48 :: r))).
    split; [|split; [exact Hs|]].
    + cbn [app]. apply mv_int; [exact T3|exact T1|exact T2|].
      apply exp_val_small. unfold len. lia.
    + rewrite Hnum. unfold len. replace (0 - Z.of_nat (length (48 :: r))) with (- Z.of_nat (length (48 :: r))) by lia.
      apply dec_eq_refl.
  - rewrite match_48. replace (c =? 48) with false by lia. apply Hr1.
Qed.

Lemma span0_before_nonzero : forall a b,
  (exists x, In x a /\ x <> 48) -> (length (fst (span0 (a ++ b))) < length a)%nat.
Proof.
  induction a as [|c r IH]; intros b [x [Hin Hx]]; [destruct Hin|].
  destruct (Z.eq_dec c 48) as [->|Hc].
  - destruct Hin as [E|Hin]; [congruence|].
    cbn [app span0]. specialize (IH b (ex_intro _ x (conj Hin Hx))).
    destruct (span0 (r ++ b)) as [z t]. cbn [fst length] in *. lia.
  - cbn [app]. rewrite span0_cons. replace (c =? 48) with false by lia. cbn. lia.
Qed.

Lemma num_lower_bound c r : digs (c :: r) -> c <> 48 -> 10 ^ Z.of_nat (length r) <= num (c :: r).
Proof.
  intros Hd Hc. inversion Hd as [|? ? Hc' Hr]; subst.
  change (c :: r) with ([c] ++ r). rewrite num_app. unfold num at 1. cbn [digits_value].
  pose proof (num_nonneg r Hr). assert (0 < 10 ^ Z.of_nat (length r)) by (apply Z.pow_pos_nonneg; lia). nia.
Qed.

(* "de+21" / "12e-7": digits and an exponent, no dot: only the exponent is tidied *)
Lemma shorten_int_exp mw s : form_int_exp s -> value_preserved (shorten mw s) s.
Proof.
  intros (ip & sg & ex & -> & Hip & Hne & Hok & Hex & Hnz & Hexb).
  set (s := ip ++ 101 :: sign_bytes sg ++ ex).
  destruct (strip0_exponent ex Hex Hnz) as (Hex' & Hne' & Es & Hnum).
  remember (strip0 ex) as ex' eqn:Hdef.
  assert (Hexne : ex <> []) by (intros E; rewrite E in Hnz; apply Hnz; reflexivity).
  set (E := sign_val sg (num ex)).
  assert (Hs : mv s = Some (num ip, E)) by (apply mv_int; auto; apply exp_val_sign; auto).
  set (res := ip ++ 101 :: norm_sign_bytes sg ++ ex').
  assert (Hres : simplify_exponent s = res).
  { unfold s, res. rewrite Hdef. apply simplify_exponent_form. exact Hex. }
  assert (Hresv : value_preserved res s).
  { apply (same_value _ _ (num ip, E)); [|exact Hs].
    apply mv_int; auto. unfold E. rewrite <- Hnum. apply exp_val_norm; auto. }
  assert (Hn46 : ~ In 46 res).
  { unfold res. intros Hin. apply in_app_or in Hin as [Hin|[Hin|Hin]]; [|lia|].
    - revert Hin. apply digs_not_in; [exact Hip|lia].
    - apply in_app_or in Hin as [Hin|Hin]; [destruct sg; cbn in Hin; lia|].
      revert Hin. apply digs_not_in; [exact Hex'|lia]. }
  rewrite shorten_no_dot, Hres by (rewrite Hres; apply split_first_none, Hn46). cbv zeta.
  destruct (last_is_zero res); [|exact Hresv].
  pose proof (span0_spec (rev res)) as Hsp.
  (* the trailing zeros all belong to the exponent, which has at most 3 digits *)
  assert (Hrev : rev res = rev ex' ++ (rev (norm_sign_bytes sg) ++ 101 :: rev ip)).
  { unfold res. rewrite rev_app_distr. cbn [rev]. rewrite rev_app_distr, <- !app_assoc. reflexivity. }
  destruct ex' as [|c r] eqn:Hexq; [congruence|].
  assert (Hc48 : c <> 48) by exact Es.
  assert (Hlen3 : (length r <= 2)%nat).
  { pose proof (num_lower_bound c r Hex' Hc48) as Hb. rewrite Hnum in Hb.
    destruct (le_lt_dec (length r) 2) as [|Hgt]; [assumption|exfalso].
    assert (10 ^ 3 <= 10 ^ Z.of_nat (length r)) by (apply Z.pow_le_mono_r; lia). lia. }
  assert (Hz : (length (fst (span0 (rev res))) < length (rev (c :: r)))%nat).
  { rewrite Hrev. apply span0_before_nonzero. exists c. split; [|exact Hc48].
    apply in_rev. rewrite rev_involutive. left; reflexivity. }
  destruct (span0 (rev res)) as [z t]. destruct Hsp as [E1 [E2 E3]]. cbn [fst] in Hz.
  rewrite rev_length in Hz. cbn [length] in Hz.
  assert (Hlr : len res = len z + len (rev t)).
  { unfold len. rewrite <- (rev_length res), E1, app_length, rev_length. lia. }
  assert (Hsm : 1 <= len (smallIntToBytes (len z))).
  { destruct (small_digs (len z)) as [_ Hn]; [unfold len; split; [lia|]; apply Z.lt_trans with 3; [lia|reflexivity]|].
    destruct (smallIntToBytes (len z)); [congruence|unfold len; cbn [length]; lia]. }
  destruct (len (rev t) + 1 + len (smallIntToBytes (len z)) <? len res) eqn:Ec; [|exact Hresv].
  exfalso. unfold len in *. lia.
Qed.

(* digits | digits.digits | 0.digits (not all zero) | digits[.digits]e[+-]digits *)
Definition float_text (s : bytes) : Prop :=
  form_int s \/ form_dot s \/ form_dot_exp s \/ form_zero_dot s \/ form_int_exp s.

Lemma shorten_value_all mw s : float_text s -> value_preserved (shorten mw s) s.
Proof.
  intros [H|[H|[H|[H|H]]]].
  - apply shorten_int, H.
  - apply shorten_dot_plain, H.
  - apply shorten_dot_exp, H.
  - apply shorten_zero_dot, H.
  - apply shorten_int_exp, H.
Qed.

Lemma print_float_value_all mw bits s :
  0 <= bits -> float_text s ->
  let out := fst (printNonNegativeFloat mw bits s) in
  value_preserved out s \/ exists v, float_int bits = Some v /\ mv out = Some (v, 0).
Proof. intros Hb Hf. apply print_float_value_of; [exact Hb|apply shorten_value_all, Hf]. Qed.

(* an executable recogniser of float_text, evaluated by the harness on every
   text strconv actually produced *)
Definition nonempty (l : bytes) : bool := match l with [] => false | _ => true end.
Definition exp_ok (r : bytes) (bound : Z) : bool :=
  let r' := match r with 43 :: t => t | 45 :: t => t | _ => r end in
  let '(ex, t) := take_digits r' in
  nonempty ex && negb (nonempty t) && negb (digits_value ex 0 =? 0) && (digits_value ex 0 <? bound).
Definition float_text_b (s : bytes) : bool :=
  (Z.of_nat (length s) <? 1000) &&
  let '(ip, r) := take_digits s in
  nonempty ip && int_part_ok ip &&
  match r with
  | [] => true
  | c :: r1 =>
      if c =? 46 then
        let '(fp, r2) := take_digits r1 in
        match r2 with
        | [] => if zlist_eqb ip [48] then negb (digits_value fp 0 =? 0) else true
        | c2 :: r3 => (c2 =? 101) && negb (zlist_eqb ip [48]) && exp_ok r3 (10 ^ 60)
        end
      else (c =? 101) && exp_ok r1 1000
  end.

Lemma take_digits_spec l : let '(d, t) := take_digits l in l = d ++ t /\ digs d.
Proof.
  induction l as [|c r IH]; cbn [take_digits]; [split; [reflexivity|constructor]|].
  destruct (dig c) eqn:E.
  - destruct (take_digits r) as [d t]. destruct IH as [I1 I2]. split; [cbn [app]; f_equal; exact I1|].
    constructor; [unfold dig in E; lia|exact I2].
  - split; [reflexivity|constructor].
Qed.

Lemma nonempty_true l : nonempty l = true -> l <> [].
Proof. destruct l; [discriminate|discriminate]. Qed.

Lemma exp_ok_spec r bound : exp_ok r bound = true ->
  exists sg ex, r = sign_bytes sg ++ ex /\ digs ex /\ num ex <> 0 /\ num ex < bound.
Proof.
  unfold exp_ok. intros H.
  set (r' := match r with 43 :: t => t | 45 :: t => t | _ => r end) in *.
  pose proof (take_digits_spec r') as Hs. destruct (take_digits r') as [ex t].
  destruct Hs as [S1 S2].
  apply andb_true_iff in H as [H H4]. apply andb_true_iff in H as [H H3]. apply andb_true_iff in H as [H1 H2].
  destruct t; [|discriminate]. rewrite app_nil_r in S1.
  assert (G : exists sg, r = sign_bytes sg ++ r').
  { unfold r'. destruct r as [|c q]; [exists SgNone; reflexivity|].
    destruct (Z.eq_dec c 43) as [->|N1]; [exists SgPlus; reflexivity|].
    destruct (Z.eq_dec c 45) as [->|N2]; [exists SgMinus; reflexivity|].
    exists SgNone. cbn [sign_bytes app]. etransitivity; [|symmetry; apply match_43_45].
    replace (c =? 43) with false by lia. replace (c =? 45) with false by lia. reflexivity. }
  destruct G as [sg G]. exists sg, ex. rewrite G, S1. unfold num. repeat split; auto; lia.
Qed.

Lemma float_text_b_sound s : float_text_b s = true -> float_text s.
Proof.
  unfold float_text_b. intros H. apply andb_true_iff in H as [Hl H].
  pose proof (take_digits_spec s) as Hs. destruct (take_digits s) as [ip r]. destruct Hs as [S1 S2].
  apply andb_true_iff in H as [H H3]. apply andb_true_iff in H as [H1 H2]. apply nonempty_true in H1.
  assert (Hb : forall n : nat, Z.of_nat n < 1000 -> Z.of_nat n < 10 ^ 60) by (intros; apply Z.lt_trans with 1000; [assumption|reflexivity]).
  assert (Hb2 : forall n : nat, Z.of_nat n < 1000 -> Z.of_nat n < 10 ^ 64) by (intros; apply Z.lt_trans with 1000; [assumption|reflexivity]).
  destruct r as [|c r1].
  - left. rewrite app_nil_r in S1. subst. repeat split; auto. apply Hb2. lia.
  - destruct (c =? 46) eqn:E46.
    + apply Z.eqb_eq in E46. subst c.
      pose proof (take_digits_spec r1) as Hs1. destruct (take_digits r1) as [fp r2]. destruct Hs1 as [T1 T2].
      destruct r2 as [|c2 r3].
      * rewrite app_nil_r in T1. subst r1.
        destruct (zlist_eqb ip [48]) eqn:E48.
        -- apply zlist_eqb_eq in E48. subst ip. right; right; right; left.
           exists fp. cbn [app] in S1. repeat split; auto; [unfold num; lia|].
           apply Hb. rewrite S1 in Hl. cbn [length] in Hl. lia.
        -- right; left. exists ip, fp. repeat split; auto.
      * apply andb_true_iff in H3 as [H3 H5]. apply andb_true_iff in H3 as [H3 E48].
        apply Z.eqb_eq in H3. subst c2.
        destruct (exp_ok_spec _ _ H5) as [sg [ex [X1 [X2 [X3 X4]]]]].
        right; right; left. exists ip, fp, sg, ex. subst. repeat split; auto; [destruct (zlist_eqb ip [48]); [discriminate|reflexivity]|].
        apply Hb. rewrite app_length in Hl. cbn [length] in Hl. rewrite app_length in Hl. lia.
    + apply andb_true_iff in H3 as [H3 H5]. apply Z.eqb_eq in H3. subst c.
      destruct (exp_ok_spec _ _ H5) as [sg [ex [X1 [X2 [X3 X4]]]]].
      right; right; right; right. exists ip, sg, ex. subst. repeat split; auto.
Qed.

Section Strconv.
  Variable FormatFloat : Z -> bytes.
  Hypothesis FormatFloat_shape : forall bits, 0 <= bits -> float_text (FormatFloat bits).
  Lemma print_number_literal_value_all : forall mw bits, 0 <= bits ->
    let out := fst (printNonNegativeFloat mw bits (FormatFloat bits)) in
    value_preserved out (FormatFloat bits) \/ exists v, float_int bits = Some v /\ mv out = Some (v, 0).
  Proof. intros mw bits Hb. apply print_float_value_all; [exact Hb|apply FormatFloat_shape; exact Hb]. Qed.
End Strconv.
