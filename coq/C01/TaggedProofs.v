(* C01 lemmas: the raw strings of a printed tagged template are the stored ones. *)
From V Require Import Common.Base C01.Utf C01.Quote C01.SpecLiteral C01.Template C01.Tagged.

Definition units (x : list Z) : list Z := flat_map utf16_units x.

Lemma units_app a b : units (a ++ b) = units a ++ units b.
Proof. unfold units. apply flat_map_app. Qed.

Lemma rnormal_class c : c <> 13 ->
  (exists s1, rnormal c = Some (utf16_units c, s1) /\ (s1 = RNormal \/ s1 = REsc \/ s1 = RDollar))
  \/ rnormal c = Some ([], RDone).
Proof.
  intros H13. unfold rnormal.
  destruct (Z.eqb_spec c 96); [right; reflexivity|left].
  destruct (Z.eqb_spec c 92) as [->|]; [exists REsc; split; [reflexivity|auto]|].
  destruct (Z.eqb_spec c 13); [contradiction|].
  destruct (Z.eqb_spec c 36) as [->|]; [exists RDollar; split; [reflexivity|auto]|exists RNormal; auto].
Qed.

Lemma raw_chunk : forall X s cur0 w0,
  (s = RNormal \/ s = REsc \/ s = RDollar) ->
  ~ In 13 X -> ~ In SUBST X ->
  rrun s (X ++ [96]) cur0 = Some [w0] ->
  forall cur,
    rrun s (X ++ [96]) cur = Some [cur ++ units X] /\
    forall rest, rrun s (X ++ SUBST :: rest) cur = option_map (cons (cur ++ units X)) (rrun RNormal rest []).
Proof.
  induction X as [|c X IH]; intros s cur0 w0 Hs Hcr Hsub Hr cur.
  - cbn [app] in *. cbn [rrun] in *. replace (96 =? SUBST) with false in * by reflexivity.
    replace (SUBST =? SUBST) with true by reflexivity.
    (* the backtick closes the template from RNormal and RDollar; after a backslash it is an ordinary character *)
    destruct Hs as [->|[->| ->]]; cbn in Hr; [|discriminate|].
    all: cbn; rewrite app_nil_r; auto.
  - cbn [app] in *.
    assert (Hc13 : c <> 13) by (intros E; apply Hcr; left; auto).
    assert (Hcr' : ~ In 13 X) by (intros E; apply Hcr; right; exact E).
    assert (Hsub' : ~ In SUBST X) by (intros E; apply Hsub; right; exact E).
    assert (Ec : (c =? SUBST) = false) by (destruct (Z.eqb_spec c SUBST); [exfalso; apply Hsub; left; auto|reflexivity]).
    cbn [rrun] in *. rewrite Ec in *.
    assert (Hstep : (exists s1, rstep s c = Some (utf16_units c, s1) /\ (s1 = RNormal \/ s1 = REsc \/ s1 = RDollar))
                    \/ rstep s c = None \/ rstep s c = Some ([], RDone)).
    { destruct Hs as [->|[->| ->]]; cbn [rstep].
      - destruct (rnormal_class c Hc13) as [H|H]; [left; exact H|right; right; exact H].
      - destruct (Z.eqb_spec c 13); [contradiction|]. left; exists RNormal; auto.
      - destruct (Z.eqb_spec c 123); [right; left; reflexivity|].
        destruct (rnormal_class c Hc13) as [H|H]; [left; exact H|right; right; exact H]. }
    destruct Hstep as [[s1 [Es Hs1]]|[Es|Es]]; rewrite Es in *.
    + destruct (IH s1 _ w0 Hs1 Hcr' Hsub' Hr (cur ++ utf16_units c)) as [I1 I2].
      unfold units in *. cbn [flat_map]. rewrite app_assoc. split; [exact I1|exact I2].
    + discriminate.
    + (* a backtick inside the chunk: nothing may follow RDone *)
      exfalso. destruct (X ++ [96]) as [|d r] eqn:E; [destruct X; discriminate|].
      cbn [rrun] in Hr. destruct (d =? SUBST); cbn in Hr; discriminate.
Qed.

Lemma tagged_raw_roundtrip_all head tails :
  lexer_raw head -> Forall lexer_raw tails ->
  raw_value (tagged_cps head tails) = Some (map units (head :: tails)).
Proof.
  intros Hh Ht. unfold raw_value, tagged_cps.
  enough (G : forall X cur, lexer_raw X ->
            rrun RNormal (X ++ flat_map (fun t => SUBST :: t) tails ++ [96]) cur = Some ((cur ++ units X) :: map units tails))
    by (rewrite (G head [] Hh); reflexivity).
  induction Ht as [|t r Ht1 Ht2 IH]; intros X cur [H13 [HS [w Hw]]];
    destruct (raw_chunk X RNormal [] w (or_introl eq_refl) H13 HS Hw cur) as [I1 I2].
  - exact I1.
  - cbn [flat_map map]. rewrite <- app_assoc. cbn [app].
    rewrite I2, (IH t [] Ht1). reflexivity.
Qed.

Lemma render_app a b : render (a ++ b) = render a ++ render b.
Proof. unfold render. apply flat_map_app. Qed.

Lemma render_plain x : ~ In SUBST x -> render x = to_bytes x.
Proof.
  induction x as [|c r IH]; intros H; [reflexivity|].
  unfold render, to_bytes in *. cbn [flat_map]. rewrite IH by (intros E; apply H; right; exact E).
  unfold render_cp. destruct (c =? SUBST) eqn:E; [exfalso; apply H; left; lia|reflexivity].
Qed.

(* the bytes printed are the raw strings themselves between the delimiters *)
Lemma print_tagged_render head tails :
  render (tagged_cps head tails) = print_tagged (to_bytes head) (map to_bytes tails)
  \/ In SUBST head \/ Exists (In SUBST) tails.
Proof.
  destruct (in_dec Z.eq_dec SUBST head) as [Hi|Hn]; [right; left; exact Hi|].
  destruct (Exists_dec (In SUBST) tails (in_dec Z.eq_dec SUBST)) as [D|D]; [right; right; exact D|left].
  apply Forall_Exists_neg in D.
  assert (RT : render (flat_map (fun t => SUBST :: t) tails) = flat_map (fun t => subst_bytes ++ t) (map to_bytes tails)).
  { induction D as [|t r Dt Dr IH]; [reflexivity|].
    cbn [flat_map map]. rewrite (render_app (SUBST :: t)), IH.
    change (SUBST :: t) with ([SUBST] ++ t). rewrite render_app, (render_plain t Dt). reflexivity. }
  unfold tagged_cps, print_tagged.
  change (96 :: head ++ flat_map (fun t => SUBST :: t) tails ++ [96])
    with ([96] ++ head ++ flat_map (fun t => SUBST :: t) tails ++ [96]).
  rewrite !render_app, RT, (render_plain head Hn). reflexivity.
Qed.
