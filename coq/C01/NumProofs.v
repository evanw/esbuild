(* C01 lemmas about the number printer model. *)
From V Require Import Common.Base C01.Num C01.SpecNumeric.

Definition digs (l : bytes) : Prop := Forall (fun c => 48 <= c <= 57) l.
Definition num (l : bytes) : Z := digits_value l 0.

Lemma dig_true c : 48 <= c <= 57 -> dig c = true.
Proof. unfold dig. lia. Qed.

Lemma match_48 {A} (c : Z) (a b : A) : match c with 48 => a | _ => b end = if c =? 48 then a else b.
Proof. destruct c as [|p|p]; try reflexivity. do 6 (destruct p as [p|p|]; try reflexivity). Qed.
Lemma match_45 {A} (c : Z) (a b : A) : match c with 45 => a | _ => b end = if c =? 45 then a else b.
Proof. destruct c as [|p|p]; try reflexivity. do 6 (destruct p as [p|p|]; try reflexivity). Qed.
Lemma match_43_45 {A} (c : Z) (a b d : A) :
  match c with 43 => a | 45 => b | _ => d end = if c =? 43 then a else if c =? 45 then b else d.
Proof. destruct c as [|p|p]; try reflexivity. do 6 (destruct p as [p|p|]; try reflexivity). Qed.

Lemma strip0_cons c r : strip0 (c :: r) = if c =? 48 then strip0 r else c :: r.
Proof. apply match_48. Qed.
Lemma span0_cons c r :
  span0 (c :: r) = if c =? 48 then (let '(z, t) := span0 r in (48 :: z, t)) else ([], c :: r).
Proof. apply match_48. Qed.

Lemma dv_acc l : forall acc, digits_value l acc = acc * 10 ^ Z.of_nat (length l) + digits_value l 0.
Proof.
  induction l as [|c r IH]; intros acc; cbn [digits_value length].
  - cbn. lia.
  - rewrite IH. rewrite (IH (0 * 10 + (c - 48))).
    rewrite Nat2Z.inj_succ, Z.pow_succ_r by lia. lia.
Qed.

Lemma dv_app a b acc : digits_value (a ++ b) acc = digits_value b (digits_value a acc).
Proof. revert acc. induction a as [|c r IH]; intros acc; cbn [app digits_value]; [reflexivity|apply IH]. Qed.

Lemma num_app a b : num (a ++ b) = num a * 10 ^ Z.of_nat (length b) + num b.
Proof. unfold num. rewrite dv_app, dv_acc. reflexivity. Qed.

Lemma num_zeros k : num (repeat 48 k) = 0.
Proof. induction k as [|k IH]; [reflexivity|]. unfold num in *. cbn [repeat digits_value]. exact IH. Qed.

Lemma num_nonneg l : digs l -> 0 <= num l.
Proof.
  intros H. unfold num. assert (G : forall acc, 0 <= acc -> 0 <= digits_value l acc).
  { induction H as [|c r Hc Hr IH]; intros acc Ha; cbn [digits_value]; [exact Ha|apply IH; lia]. }
  apply G. lia.
Qed.

Lemma parse_nat_dv l acc : parse_nat l acc = digits_value l acc.
Proof. revert acc. induction l as [|c r IH]; intros acc; cbn; [reflexivity|apply IH]. Qed.

Lemma digs_app a b : digs (a ++ b) <-> digs a /\ digs b.
Proof. unfold digs. apply Forall_app. Qed.

Lemma digs_repeat k : digs (repeat 48 k).
Proof. induction k; constructor; [lia|assumption]. Qed.

(* take_digits on a run of digits followed by a non-digit (or nothing) *)
Definition stops (b : bytes) : Prop := match b with [] => True | c :: _ => dig c = false end.

Lemma take_digits_app a b : digs a -> stops b -> take_digits (a ++ b) = (a, b).
Proof.
  intros Ha Hb. induction Ha as [|c r Hc Hr IH]; cbn [app].
  - destruct b as [|x t]; [reflexivity|]. cbn [take_digits]. cbn in Hb. rewrite Hb. reflexivity.
  - cbn [take_digits]. rewrite dig_true by exact Hc. rewrite IH. reflexivity.
Qed.

Lemma take_digits_all a : digs a -> take_digits a = (a, []).
Proof. intros H. rewrite <- (app_nil_r a) at 1. apply take_digits_app; [exact H|exact I]. Qed.

Lemma split_first_app c a b : ~ In c a -> split_first c (a ++ c :: b) = Some (a, b).
Proof.
  induction a as [|x r IH]; intros H; cbn [app split_first].
  - rewrite Z.eqb_refl. reflexivity.
  - destruct (x =? c) eqn:E; [exfalso; apply H; left; lia|].
    rewrite IH; [reflexivity|]. intros Hin; apply H; right; exact Hin.
Qed.
Lemma split_first_none c a : ~ In c a -> split_first c a = None.
Proof.
  induction a as [|x r IH]; intros H; cbn [split_first]; [reflexivity|].
  destruct (x =? c) eqn:E; [exfalso; apply H; left; lia|].
  rewrite IH; [reflexivity|]. intros Hin; apply H; right; exact Hin.
Qed.
Lemma split_last_none c a : ~ In c a -> split_last c a = None.
Proof.
  induction a as [|x r IH]; intros H; cbn [split_last]; [reflexivity|].
  rewrite IH by (intros Hin; apply H; right; exact Hin).
  destruct (x =? c) eqn:E; [exfalso; apply H; left; lia|reflexivity].
Qed.
Lemma split_last_app c a b : ~ In c b -> split_last c (a ++ c :: b) = Some (a, b).
Proof.
  intros H. induction a as [|x r IH]; cbn [app split_last].
  - rewrite (split_last_none c b H). rewrite Z.eqb_refl. reflexivity.
  - rewrite IH. reflexivity.
Qed.

Lemma digs_not_in c l : digs l -> (c < 48 \/ 57 < c) -> ~ In c l.
Proof.
  intros H Hc Hin. unfold digs in H. rewrite Forall_forall in H. specialize (H c Hin). lia.
Qed.

Lemma span0_spec l : let '(z, t) := span0 l in l = z ++ t /\ z = repeat 48 (length z) /\ hd 0 t <> 48.
Proof.
  induction l as [|c r IH]; [repeat split; discriminate|].
  rewrite span0_cons. destruct (Z.eqb_spec c 48) as [->|Hne]; [|repeat split; exact Hne].
  destruct (span0 r) as [z t]. destruct IH as [E1 [E2 E3]].
  cbn [app length repeat]. repeat split; [f_equal; exact E1|f_equal; exact E2|exact E3].
Qed.

Lemma strip0_spec l : exists k, l = repeat 48 k ++ strip0 l /\ hd 0 (strip0 l) <> 48.
Proof.
  induction l as [|c r IH]; [exists 0%nat; split; [reflexivity|discriminate]|].
  rewrite strip0_cons. destruct (Z.eqb_spec c 48) as [->|Hne]; [|exists 0%nat; split; [reflexivity|exact Hne]].
  destruct IH as [k [E1 E2]]. exists (S k). cbn [repeat app]. split; [f_equal; exact E1|exact E2].
Qed.

Lemma num_lead_zeros k r : num (repeat 48 k ++ r) = num r.
Proof. rewrite num_app, num_zeros. lia. Qed.

Lemma digits_fuel_spec : forall fuel n acc,
  (0 < fuel)%nat -> 0 <= n < 10 ^ Z.of_nat fuel ->
  exists D, digits_fuel fuel n acc = D ++ acc /\ digs D /\ D <> [] /\ num D = n.
Proof.
  induction fuel as [|f IH]; intros n acc Hf Hn; [lia|].
  cbn [digits_fuel]. destruct (n / 10 =? 0) eqn:E.
  - exists [48 + n mod 10]. repeat split.
    + constructor; [lia|constructor].
    + discriminate.
    + unfold num. cbn [digits_value]. lia.
  - assert (Hf' : (0 < f)%nat).
    { destruct f; [|lia]. cbn in Hn. lia. }
    destruct (IH (n / 10) ((48 + n mod 10) :: acc) Hf') as [D [E1 [E2 [E3 E4]]]].
    { rewrite Nat2Z.inj_succ, Z.pow_succ_r in Hn by lia. lia. }
    exists (D ++ [48 + n mod 10]). repeat split.
    + rewrite E1, <- app_assoc. reflexivity.
    + apply digs_app. split; [exact E2|]. constructor; [lia|constructor].
    + destruct D; discriminate.
    + rewrite num_app, E4. unfold num. cbn [digits_value length]. lia.
Qed.

Lemma nat_digits_spec n : 0 <= n < 10 ^ 64 ->
  digs (nat_digits n) /\ nat_digits n <> [] /\ num (nat_digits n) = n.
Proof.
  intros H. unfold nat_digits.
  destruct (digits_fuel_spec 64 n [] ltac:(lia) H) as [D [E1 [E2 [E3 E4]]]].
  rewrite E1, app_nil_r. auto.
Qed.

Lemma first_digit_match (c : Z) (r : bytes) :
  48 <= c <= 57 ->
  match c :: r with 43 :: t => (false, t) | 45 :: t => (true, t) | _ => (false, c :: r) end = (false, c :: r).
Proof.
  intros Hc. etransitivity; [apply match_43_45|].
  replace (c =? 43) with false by lia. replace (c =? 45) with false by lia. reflexivity.
Qed.

(* t is nothing or a lower-case ExponentPart, of value e *)
Definition exp_val (t : bytes) (e : Z) : Prop :=
  (t = [] \/ exists r, t = 101 :: r) /\ exponent_part t = Some e.

Lemma exp_val_nil : exp_val [] 0.
Proof. split; [left|]; reflexivity. Qed.

Lemma exp_val_stops t e : exp_val t e -> stops t.
Proof. intros [[->|[r ->]] _]; [exact I|reflexivity]. Qed.

Lemma exp_val_small e : - 10 ^ 64 < e < 10 ^ 64 -> exp_val (101 :: smallIntToBytes e) e.
Proof.
  intros H. split; [right; eexists; reflexivity|].
  unfold smallIntToBytes, exponent_part.
  replace ((101 =? 101) || (101 =? 69)) with true by reflexivity.
  destruct (e <? 0) eqn:E.
  - destruct (nat_digits_spec (- e) ltac:(lia)) as [D1 [D2 D3]].
    cbn beta iota. rewrite (take_digits_all _ D1). destruct (nat_digits (- e)) as [|c r] eqn:En; [congruence|].
    f_equal. fold (num (c :: r)). rewrite D3. lia.
  - destruct (nat_digits_spec e ltac:(lia)) as [D1 [D2 D3]].
    destruct (nat_digits e) as [|c r] eqn:En; [congruence|].
    rewrite first_digit_match by (inversion D1; assumption).
    rewrite (take_digits_all _ D1). f_equal. exact D3.
Qed.

Lemma small_digs e : 0 <= e < 10 ^ 64 -> digs (smallIntToBytes e) /\ smallIntToBytes e <> [].
Proof.
  intros H. unfold smallIntToBytes. replace (e <? 0) with false by lia.
  destruct (nat_digits_spec e H) as [D1 [D2 _]]. auto.
Qed.

Lemma mv_dec_int ip t e :
  digs ip -> ip <> [] -> int_part_ok ip = true -> exp_val t e ->
  mv_dec (ip ++ t) = Some (num ip, e).
Proof.
  intros Hd Hne Hok Ht. unfold mv_dec.
  rewrite (take_digits_app ip t Hd (exp_val_stops t e Ht)), Hok. cbn [negb].
  destruct ip as [|c r]; [congruence|].
  destruct Ht as [[->|[r' ->]] He]; rewrite He; reflexivity.
Qed.

Lemma mv_dec_frac ip fp t e :
  digs ip -> digs fp -> (ip <> [] \/ fp <> []) -> int_part_ok ip = true -> exp_val t e ->
  mv_dec (ip ++ 46 :: fp ++ t) = Some (num (ip ++ fp), e - Z.of_nat (length fp)).
Proof.
  intros Hd Hf Hne Hok Ht. unfold mv_dec.
  rewrite (take_digits_app ip (46 :: fp ++ t) Hd eq_refl), Hok. cbn [negb].
  rewrite (take_digits_app fp t Hf (exp_val_stops t e Ht)). destruct Ht as [_ ->].
  destruct ip as [|c r]; [|reflexivity]. destruct fp as [|c r]; [|reflexivity].
  destruct Hne; congruence.
Qed.

Lemma mv_is_dec src :
  (forall x h, src = 48 :: x :: h -> x <> 120 /\ x <> 88) -> mv src = mv_dec src.
Proof.
  intros H. unfold mv. destruct src as [|c [|x h]]; [reflexivity| |];
    (etransitivity; [apply match_48|]); destruct (Z.eqb_spec c 48) as [->|Hne]; try reflexivity.
  destruct (H x h eq_refl) as [H1 H2].
  destruct ((x =? 120) || (x =? 88)) eqn:E; [lia|reflexivity].
Qed.

Lemma mv_dec_digits_first d t :
  digs d -> d <> [] -> hd 0 t <> 120 -> hd 0 t <> 88 -> mv (d ++ t) = mv_dec (d ++ t).
Proof.
  intros Hd Hne H1 H2. apply mv_is_dec. intros x h E.
  destruct d as [|c [|c2 r]]; [congruence| |]; cbn [app] in E.
  - destruct t as [|y t']; inversion E; subst. cbn [hd] in *. lia.
  - inversion E; subst. inversion Hd as [|? ? _ Hd']; subst.
    inversion Hd' as [|? ? Hx _]; subst. lia.
Qed.

Lemma mv_int ip t e :
  digs ip -> ip <> [] -> int_part_ok ip = true -> exp_val t e -> mv (ip ++ t) = Some (num ip, e).
Proof.
  intros Hd Hne Hok Ht.
  assert (Hx : hd 0 t <> 120 /\ hd 0 t <> 88) by (destruct Ht as [[->|[r ->]] _]; cbn [hd]; lia).
  rewrite mv_dec_digits_first by tauto. apply mv_dec_int; assumption.
Qed.

Lemma mv_frac ip fp t e :
  digs ip -> ip <> [] -> int_part_ok ip = true -> digs fp -> exp_val t e ->
  mv (ip ++ 46 :: fp ++ t) = Some (num (ip ++ fp), e - Z.of_nat (length fp)).
Proof.
  intros Hd Hne Hok Hf Ht.
  rewrite mv_dec_digits_first by (cbn [hd]; first [assumption | lia]).
  apply mv_dec_frac; auto.
Qed.

Lemma mv_dot_frac fp t e :
  digs fp -> fp <> [] -> exp_val t e ->
  mv (46 :: fp ++ t) = Some (num fp, e - Z.of_nat (length fp)).
Proof.
  intros Hf Hne Ht. rewrite mv_is_dec by (intros x h E; inversion E).
  apply (mv_dec_frac [] fp t e); auto. constructor.
Qed.

Lemma mv_plain_int ip : digs ip -> ip <> [] -> int_part_ok ip = true -> mv ip = Some (num ip, 0).
Proof.
  intros Hd Hne Hok. rewrite <- (app_nil_r ip) at 1. apply mv_int; auto using exp_val_nil.
Qed.

Lemma exponent_part_nil : exponent_part [] = Some 0. Proof. reflexivity. Qed.

Lemma dec_eq_refl a : dec_eq a a.
Proof. destruct a as [m e]. unfold dec_eq. reflexivity. Qed.

Lemma dec_eq_sym a b : dec_eq a b -> dec_eq b a.
Proof.
  destruct a as [m1 e1], b as [m2 e2]. unfold dec_eq. rewrite (Z.min_comm e2 e1).
  intros H. symmetry. exact H.
Qed.

Lemma dec_eq_shift m k e : 0 <= k -> dec_eq (m, e + k) (m * 10 ^ k, e).
Proof.
  intros H. unfold dec_eq. replace (Z.min (e + k) e) with e by lia.
  replace (e + k - e) with k by lia. replace (e - e) with 0 by lia. cbn. lia.
Qed.

Lemma trailing_zeros_value d k e : dec_eq (num d, e + Z.of_nat k) (num (d ++ repeat 48 k), e).
Proof. rewrite num_app, num_zeros, repeat_length, Z.add_0_r. apply dec_eq_shift. lia. Qed.

Definition value_preserved (out s : bytes) : Prop :=
  exists a b, mv out = Some a /\ mv s = Some b /\ dec_eq a b.

Lemma same_value out s a : mv out = Some a -> mv s = Some a -> value_preserved out s.
Proof. intros H1 H2. exists a, a. auto using dec_eq_refl. Qed.

Lemma repeat_snoc {A} (x : A) k : repeat x k ++ [x] = x :: repeat x k.
Proof. induction k as [|k IH]; [reflexivity|]. cbn [repeat app]. rewrite IH. reflexivity. Qed.
Lemma rev_repeat' {A} (x : A) k : rev (repeat x k) = repeat x k.
Proof. induction k as [|k IH]; [reflexivity|]. cbn [repeat rev]. rewrite IH. apply repeat_snoc. Qed.

Lemma digs_rev l : digs l -> digs (rev l).
Proof. unfold digs. intros H. apply Forall_rev. exact H. Qed.

Lemma len_bound (l : bytes) : 0 <= len l. Proof. unfold len. lia. Qed.

Lemma int_part_ok_prefix a k : a <> [] -> int_part_ok (a ++ repeat 48 k) = true -> int_part_ok a = true.
Proof.
  intros Hne H. destruct a as [|c [|c2 r]]; [congruence|reflexivity|].
  cbn [app] in H. exact H.
Qed.

Lemma simplify_exponent_none s : ~ In 101 s -> simplify_exponent s = s.
Proof. intros H. unfold simplify_exponent. rewrite (split_last_none 101 s H). reflexivity. Qed.

Lemma shorten_no_dot mw s :
  split_first 46 (simplify_exponent s) = None ->
  shorten mw s =
  let result := simplify_exponent s in
  if last_is_zero result then
    let '(zs_rev, rem_rev) := span0 (rev result) in
    let exponent := smallIntToBytes (len zs_rev) in
    if len (rev rem_rev) + 1 + len exponent <? len result then rev rem_rev ++ [101] ++ exponent else result
  else result.
Proof. intros H. unfold shorten. rewrite H. reflexivity. Qed.

Lemma shorten_dot mw s integer rest :
  split_first 46 (simplify_exponent s) = Some (integer, rest) -> zlist_eqb integer [48] = false ->
  shorten mw s =
  let result := simplify_exponent s in
  match split_last 101 rest with
  | Some (fraction, expstr) =>
      let exponent := parseSmallInt expstr - len fraction in
      if (0 <=? exponent) && (exponent <=? 2) then
        (if len integer + len fraction + exponent <=? len result
         then integer ++ fraction ++ repeat 48 (Z.to_nat exponent) else result)
      else
        let ex := smallIntToBytes exponent in
        if len integer + len fraction + 1 + len ex <=? len result
        then integer ++ fraction ++ [101] ++ ex else result
  | None => result
  end.
Proof. intros H1 H2. unfold shorten. rewrite H1, H2. reflexivity. Qed.

Lemma shorten_zero mw s rest :
  split_first 46 (simplify_exponent s) = Some ([48], rest) ->
  shorten mw s =
  let result1 := if mw then 46 :: rest else simplify_exponent s in
  match rest with
  | 48 :: _ =>
      let '(zs, remaining) := span0 rest in
      let exponent := smallIntToBytes (- len rest) in
      if len remaining + 1 + len exponent <? len result1 then remaining ++ [101] ++ exponent else result1
  | _ => result1
  end.
Proof. intros H. unfold shorten. rewrite H. reflexivity. Qed.

Inductive sign := SgNone | SgPlus | SgMinus.
Definition sign_bytes (s : sign) : bytes := match s with SgNone => [] | SgPlus => [43] | SgMinus => [45] end.
Definition sign_val (s : sign) (v : Z) : Z := match s with SgMinus => - v | _ => v end.
(* the sign as simplify_exponent leaves it and as smallIntToBytes writes it *)
Definition norm_sign_bytes (s : sign) : bytes := match s with SgMinus => [45] | _ => [] end.

(* the shapes of FormatFloat's text covered by the value theorem *)
Definition form_int (s : bytes) : Prop :=
  digs s /\ s <> [] /\ int_part_ok s = true /\ Z.of_nat (length s) < 10 ^ 64.
Definition form_dot (s : bytes) : Prop :=
  exists ip fp, s = ip ++ 46 :: fp /\ digs ip /\ ip <> [] /\ int_part_ok ip = true /\
                zlist_eqb ip [48] = false /\ digs fp.
Definition form_dot_exp (s : bytes) : Prop :=
  exists ip fp sg ex, s = ip ++ 46 :: fp ++ 101 :: sign_bytes sg ++ ex /\
    digs ip /\ ip <> [] /\ int_part_ok ip = true /\ zlist_eqb ip [48] = false /\
    digs fp /\ digs ex /\ num ex <> 0 /\ num ex < 10 ^ 60 /\ Z.of_nat (length fp) < 10 ^ 60.

(* "1000" => "1e3": trailing zeros become an exponent when that is shorter *)
Lemma shorten_int mw ip : form_int ip -> value_preserved (shorten mw ip) ip.
Proof.
  intros (Hd & Hne & Hok & Hlen).
  pose proof (mv_plain_int ip Hd Hne Hok) as Hip.
  pose proof (same_value ip ip _ Hip Hip) as Hself.
  assert (Hse : simplify_exponent ip = ip) by (apply simplify_exponent_none, digs_not_in; [exact Hd|lia]).
  rewrite shorten_no_dot, Hse by (rewrite Hse; apply split_first_none, digs_not_in; [exact Hd|lia]). cbv zeta.
  destruct (last_is_zero ip); [|exact Hself].
  pose proof (span0_spec (rev ip)) as Hsp. destruct (span0 (rev ip)) as [z t].
  destruct Hsp as [E1 [E2 E3]].
  remember (length z) as k eqn:Ek.
  assert (Eip : ip = rev t ++ repeat 48 k).
  { rewrite <- (rev_involutive ip), E1, rev_app_distr, E2, rev_repeat'. reflexivity. }
  destruct (len (rev t) + 1 + len (smallIntToBytes (len z)) <? len ip) eqn:Ec; [|exact Hself].
  assert (Hk : len z = Z.of_nat k) by (unfold len; rewrite Ek; reflexivity).
  assert (Hkb : 0 <= Z.of_nat k < 10 ^ 64).
  { split; [lia|]. rewrite Eip, app_length, repeat_length in Hlen. lia. }
  assert (Hdt : digs (rev t)).
  { rewrite Eip in Hd. apply digs_app in Hd. tauto. }
  assert (Hrt : rev t <> []).
  { intros Hnil. rewrite Hnil in *. cbn [app] in Eip.
    destruct k as [|[|k']].
    - cbn in Eip. congruence.
    - (* "0" => "e1" is not shorter *)
      rewrite Eip in Ec. unfold len in Ec. cbn [length repeat] in Ec.
      destruct (smallIntToBytes (Z.of_nat (length z))); cbn [length] in Ec; lia.
    - rewrite Eip in Hok. cbn in Hok. discriminate. }
  rewrite Hk.
  exists (num (rev t), Z.of_nat k), (num ip, 0). split; [|split; [exact Hip|]].
  - cbn [app]. apply mv_int; [exact Hdt|exact Hrt| |apply exp_val_small; lia].
    apply (int_part_ok_prefix _ k Hrt). rewrite <- Eip. exact Hok.
  - rewrite Eip at 1. exact (trailing_zeros_value (rev t) k 0).
Qed.

Lemma exp_val_sign sg ex : digs ex -> ex <> [] ->
  exp_val (101 :: sign_bytes sg ++ ex) (sign_val sg (num ex)).
Proof.
  intros Hd Hne. split; [right; eexists; reflexivity|]. unfold exponent_part.
  replace ((101 =? 101) || (101 =? 69)) with true by reflexivity.
  destruct ex as [|c r]; [congruence|].
  assert (Hc : 48 <= c <= 57) by (inversion Hd; assumption).
  destruct sg; cbn [sign_bytes app sign_val].
  - rewrite (first_digit_match c r Hc). rewrite (take_digits_all _ Hd). reflexivity.
  - cbn beta iota. rewrite (take_digits_all _ Hd). reflexivity.
  - cbn beta iota. rewrite (take_digits_all _ Hd). reflexivity.
Qed.

Lemma exp_val_norm sg ex : digs ex -> ex <> [] ->
  exp_val (101 :: norm_sign_bytes sg ++ ex) (sign_val sg (num ex)).
Proof.
  intros Hd Hne. destruct sg.
  - apply (exp_val_sign SgNone ex Hd Hne).
  - apply (exp_val_sign SgNone ex Hd Hne).
  - apply (exp_val_sign SgMinus ex Hd Hne).
Qed.

Lemma parseSmallInt_norm sg ex : digs ex -> ex <> [] ->
  parseSmallInt (norm_sign_bytes sg ++ ex) = sign_val sg (num ex).
Proof.
  intros Hd Hne. unfold parseSmallInt.
  destruct ex as [|c r]; [congruence|].
  assert (Hc : 48 <= c <= 57) by (inversion Hd; assumption).
  assert (Hm : match c :: r with 45 :: r0 => - parse_nat r0 0 | _ => parse_nat (c :: r) 0 end = parse_nat (c :: r) 0).
  { etransitivity; [apply match_45|]. replace (c =? 45) with false by lia. reflexivity. }
  destruct sg; cbn [norm_sign_bytes app sign_val].
  - rewrite Hm. apply parse_nat_dv.
  - rewrite Hm. apply parse_nat_dv.
  - rewrite parse_nat_dv. reflexivity.
Qed.

Lemma sign_not_101 sg ex : digs ex -> ~ In 101 (sign_bytes sg ++ ex).
Proof.
  intros Hd Hin. apply in_app_or in Hin as [Hin|Hin].
  - destruct sg; cbn in Hin; lia.
  - revert Hin. apply digs_not_in; [exact Hd|lia].
Qed.
Lemma nsign_not_101 sg ex : digs ex -> ~ In 101 (norm_sign_bytes sg ++ ex).
Proof.
  intros Hd Hin. apply in_app_or in Hin as [Hin|Hin].
  - destruct sg; cbn in Hin; lia.
  - revert Hin. apply digs_not_in; [exact Hd|lia].
Qed.

Lemma simplify_exponent_form m sg ex :
  digs ex ->
  simplify_exponent (m ++ 101 :: sign_bytes sg ++ ex) = m ++ 101 :: norm_sign_bytes sg ++ strip0 ex.
Proof.
  intros Hd. unfold simplify_exponent.
  rewrite (split_last_app 101 m (sign_bytes sg ++ ex)) by (apply sign_not_101; exact Hd).
  destruct sg; cbn [sign_bytes norm_sign_bytes app]; try reflexivity.
  destruct ex as [|c r]; [reflexivity|].
  assert (Hc : 48 <= c <= 57) by (inversion Hd; assumption).
  etransitivity; [apply match_43_45|].
  replace (c =? 43) with false by lia. replace (c =? 45) with false by lia. reflexivity.
Qed.

Lemma int_ok_first ip : ip <> [] -> int_part_ok ip = true -> zlist_eqb ip [48] = false ->
  forall t, int_part_ok (ip ++ t) = true.
Proof.
  intros Hne Hok H48 t. destruct ip as [|c [|c2 r]]; [congruence| |exact Hok].
  cbn [app]. destruct t as [|x t']; [reflexivity|].
  cbn [int_part_ok]. cbn in H48. destruct (c =? 48) eqn:E; [discriminate|reflexivity].
Qed.

Lemma strip0_exponent ex : digs ex -> num ex <> 0 ->
  digs (strip0 ex) /\ strip0 ex <> [] /\ hd 0 (strip0 ex) <> 48 /\ num (strip0 ex) = num ex.
Proof.
  intros Hex Hnz. destruct (strip0_spec ex) as [j [Ej Es]].
  assert (Hnum : num (strip0 ex) = num ex) by (rewrite Ej at 2; symmetry; apply num_lead_zeros).
  rewrite Ej in Hex. apply digs_app in Hex.
  repeat split; [tauto| |exact Es|exact Hnum].
  intros E. rewrite E in Hnum. apply Hnz. symmetry. exact Hnum.
Qed.

(* mantissa with a dot and an exponent: "1.2e+24" => "12e23", "1.5e-07" => "15e-8", "1.2e+01" => "12" *)
Lemma shorten_dot_exp mw s : form_dot_exp s -> value_preserved (shorten mw s) s.
Proof.
  intros (ip & fp & sg & ex & -> & Hip & Hne & Hok & H48 & Hfp & Hex & Hnz & Hexb & Hfpb).
  set (s := ip ++ 46 :: fp ++ 101 :: sign_bytes sg ++ ex).
  destruct (strip0_exponent ex Hex Hnz) as (Hex' & Hne' & _ & Hnum).
  set (ex' := strip0 ex) in *.
  assert (Hexne : ex <> []) by (intros E; rewrite E in Hnz; apply Hnz; reflexivity).
  pose proof (num_nonneg ex Hex) as Hnn.
  set (E := sign_val sg (num ex)).
  assert (HEb : - 10 ^ 60 < E < 10 ^ 60) by (unfold E; destruct sg; cbn [sign_val]; lia).
  set (v := (num (ip ++ fp), E - Z.of_nat (length fp))).
  assert (Hs : mv s = Some v) by (apply mv_frac; auto; apply exp_val_sign; auto).
  set (res := ip ++ 46 :: fp ++ 101 :: norm_sign_bytes sg ++ ex').
  assert (Hres : simplify_exponent s = res).
  { unfold s, res. replace (ip ++ 46 :: fp ++ 101 :: sign_bytes sg ++ ex)
      with ((ip ++ 46 :: fp) ++ 101 :: sign_bytes sg ++ ex) by (rewrite <- app_assoc; reflexivity).
    rewrite simplify_exponent_form by exact Hex. rewrite <- app_assoc. reflexivity. }
  assert (Hresv : value_preserved res s).
  { apply (same_value _ _ v); [|exact Hs].
    apply mv_frac; auto. unfold E. rewrite <- Hnum. apply exp_val_norm; auto. }
  rewrite (shorten_dot mw s ip (fp ++ 101 :: norm_sign_bytes sg ++ ex')), Hres
    by (rewrite ?Hres; first [exact H48 | apply split_first_app, digs_not_in; [exact Hip|lia]]).
  rewrite (split_last_app 101 fp) by (apply nsign_not_101; exact Hex'). cbv zeta.
  rewrite parseSmallInt_norm by auto. rewrite Hnum. fold E.
  (* the dot moves to the end of the fraction: the exponent becomes x *)
  set (x := E - len fp).
  assert (Hipfp : digs (ip ++ fp)) by (apply digs_app; split; assumption).
  assert (Hipfp0 : ip ++ fp <> []) by (destruct ip; [congruence|discriminate]).
  destruct ((0 <=? x) && (x <=? 2)) eqn:Ex.
  - destruct (len ip + len fp + x <=? len res); [|exact Hresv].
    exists (num (ip ++ fp ++ repeat 48 (Z.to_nat x)), 0), v.
    split; [|split; [exact Hs|]].
    + apply mv_plain_int.
      * rewrite app_assoc. apply digs_app; split; [exact Hipfp|apply digs_repeat].
      * destruct ip; [congruence|discriminate].
      * apply int_ok_first; auto.
    + rewrite app_assoc. apply dec_eq_sym.
      pose proof (trailing_zeros_value (ip ++ fp) (Z.to_nat x) 0) as D.
      rewrite Z2Nat.id in D by lia. exact D.
  - destruct (len ip + len fp + 1 + len (smallIntToBytes x) <=? len res); [|exact Hresv].
    apply (same_value _ _ v); [|exact Hs].
    rewrite app_assoc. cbn [app].
    apply mv_int; [exact Hipfp|exact Hipfp0|apply int_ok_first; auto|].
    apply (exp_val_small x). unfold x, len. lia.
Qed.

Lemma hexdig_hexl d : 0 <= d < 16 -> hexdig (hexl d) = Some d.
Proof.
  intros H. unfold hexl, hexdig. destruct (d <? 10) eqn:E.
  - replace ((48 <=? 48 + d) && (48 + d <=? 57)) with true by lia. f_equal; lia.
  - replace ((48 <=? 87 + d) && (87 + d <=? 57)) with false by lia.
    replace ((97 <=? 87 + d) && (87 + d <=? 102)) with true by lia. f_equal; lia.
Qed.

Lemma hex_value_app x y a :
  hex_value (x ++ y) a = match hex_value x a with Some v => hex_value y v | None => None end.
Proof.
  revert a. induction x as [|c r IH]; intros a; cbn [app hex_value]; [reflexivity|].
  destruct (hexdig c); [apply IH|reflexivity].
Qed.

Lemma hex_fuel_spec : forall fuel n acc,
  (0 < fuel)%nat -> 0 <= n < 16 ^ Z.of_nat fuel ->
  exists D, hex_fuel fuel n acc = D ++ acc /\ D <> [] /\
            forall a, hex_value D a = Some (a * 16 ^ Z.of_nat (length D) + n).
Proof.
  induction fuel as [|f IH]; intros n acc Hf Hn; [lia|].
  cbn [hex_fuel]. destruct (n / 16 =? 0) eqn:E.
  - exists [hexl (n mod 16)]. repeat split; [discriminate|].
    intros a. cbn [hex_value length]. rewrite hexdig_hexl by lia. f_equal. cbn. lia.
  - assert (Hf' : (0 < f)%nat).
    { destruct f; [|lia]. cbn in Hn. lia. }
    destruct (IH (n / 16) (hexl (n mod 16) :: acc) Hf') as [D [E1 [E2 E3]]].
    { rewrite Nat2Z.inj_succ, Z.pow_succ_r in Hn by lia. lia. }
    exists (D ++ [hexl (n mod 16)]). repeat split.
    + rewrite E1, <- app_assoc. reflexivity.
    + destruct D; discriminate.
    + intros a. rewrite hex_value_app, E3. cbn [hex_value]. rewrite hexdig_hexl by lia.
      f_equal. rewrite app_length. cbn [length]. rewrite Nat2Z.inj_add, Z.pow_add_r by lia. cbn. lia.
Qed.

Lemma hex_literal_value v : 0 <= v < 16 ^ 64 -> mv ([48; 120] ++ to_hex v) = Some (v, 0).
Proof.
  intros H. unfold to_hex.
  destruct (hex_fuel_spec 64 v [] ltac:(lia) H) as [D [E1 [E2 E3]]].
  rewrite E1, app_nil_r. cbn [app]. unfold mv.
  replace ((120 =? 120) || (120 =? 88)) with true by reflexivity.
  destruct D as [|c r]; [congruence|]. rewrite E3.
  replace (0 * 16 ^ Z.of_nat (length (c :: r)) + v) with v by lia. reflexivity.
Qed.

(* small-integer fast path: smallIntToBytes v denotes v *)
Lemma digits_fuel_lead : forall fuel n acc,
  (0 < fuel)%nat -> 0 < n < 10 ^ Z.of_nat fuel ->
  exists c D', digits_fuel fuel n acc = c :: D' ++ acc /\ c <> 48.
Proof.
  induction fuel as [|f IH]; intros n acc Hf Hn; [lia|].
  cbn [digits_fuel]. destruct (n / 10 =? 0) eqn:E.
  - exists (48 + n mod 10), []. split; [reflexivity|lia].
  - assert (Hf' : (0 < f)%nat) by (destruct f; [cbn in Hn; lia|lia]).
    destruct (IH (n / 10) ((48 + n mod 10) :: acc) Hf') as [c [D' [E1 E2]]].
    { rewrite Nat2Z.inj_succ, Z.pow_succ_r in Hn by lia. lia. }
    exists c, (D' ++ [48 + n mod 10]). split; [|exact E2].
    rewrite E1, <- app_assoc. reflexivity.
Qed.

Lemma small_int_value v : 0 <= v < 10 ^ 64 -> mv (smallIntToBytes v) = Some (v, 0).
Proof.
  intros H. unfold smallIntToBytes. replace (v <? 0) with false by lia.
  destruct (nat_digits_spec v H) as [D1 [D2 D3]].
  assert (Hok : int_part_ok (nat_digits v) = true).
  { destruct (Z.eq_dec v 0) as [->|Hnz]; [reflexivity|].
    unfold nat_digits. destruct (digits_fuel_lead 64 v [] ltac:(lia) ltac:(lia)) as [c [D' [E1 E2]]].
    rewrite E1. destruct (D' ++ []); [reflexivity|]. cbn [int_part_ok].
    destruct (c =? 48) eqn:E; [lia|reflexivity]. }
  rewrite mv_plain_int; auto. rewrite D3. reflexivity.
Qed.

(* "123.456": no exponent, integer part not "0": unchanged *)
Lemma shorten_dot_plain mw s : form_dot s -> value_preserved (shorten mw s) s.
Proof.
  intros (ip & fp & -> & Hip & Hne & Hok & H48 & Hfp).
  set (s := ip ++ 46 :: fp).
  assert (Hn101 : ~ In 101 s).
  { unfold s. intros Hin. apply in_app_or in Hin as [Hin|[Hin|Hin]]; [|lia|].
    - revert Hin. apply digs_not_in; [exact Hip|lia].
    - revert Hin. apply digs_not_in; [exact Hfp|lia]. }
  pose proof (simplify_exponent_none s Hn101) as Hse.
  rewrite (shorten_dot mw s ip fp), Hse
    by (rewrite ?Hse; first [exact H48 | apply split_first_app, digs_not_in; [exact Hip|lia]]).
  rewrite (split_last_none 101 fp) by (apply digs_not_in; [exact Hfp|lia]).
  assert (E : mv s = Some (num (ip ++ fp), 0 - Z.of_nat (length fp))).
  { unfold s. rewrite <- (app_nil_r fp) at 1. apply mv_frac; auto using exp_val_nil. }
  exact (same_value s s _ E E).
Qed.

Lemma float_int_nonneg bits v : 0 <= bits -> float_int bits = Some v -> 0 <= v.
Proof.
  intros Hb. unfold float_int.
  assert (Hm : 0 <= bits mod 4503599627370496) by (apply Z.mod_pos_bound; reflexivity).
  generalize dependent (bits mod 4503599627370496). intros m Hm.
  generalize ((bits / 4503599627370496) mod 2048). intros e.
  clear Hb bits.
  destruct (e =? 0). { destruct (m =? 0); intros E; inversion E; subst. apply Z.le_refl. }
  destruct (e =? 2047); [discriminate|].
  assert (HM : 0 <= 4503599627370496 + m).
  { apply Z.add_nonneg_nonneg; [discriminate|exact Hm]. }
  generalize dependent (4503599627370496 + m). intros M HM.
  destruct (0 <=? e - 1075).
  - intros E; inversion E; subst. apply Z.mul_nonneg_nonneg; [exact HM|]. apply Z.pow_nonneg. discriminate.
  - destruct (M mod 2 ^ (- (e - 1075)) =? 0); [|discriminate]. intros E; inversion E; subst.
    destruct (Z.le_gt_cases (- (e - 1075)) (-1)) as [Hneg|Hpos].
    + rewrite Z.pow_neg_r by lia. rewrite Zdiv_0_r. apply Z.le_refl.
    + apply Z.div_pos; [exact HM|]. apply Z.pow_pos_nonneg; [reflexivity|lia].
Qed.

Lemma shorten_value_forms mw s :
  form_int s \/ form_dot s \/ form_dot_exp s -> value_preserved (shorten mw s) s.
Proof.
  intros [H|[H|H]]; [apply shorten_int|apply shorten_dot_plain|apply shorten_dot_exp]; exact H.
Qed.

Lemma print_float_value_of mw bits s :
  0 <= bits -> value_preserved (shorten mw s) s ->
  let out := fst (printNonNegativeFloat mw bits s) in
  value_preserved out s \/ exists v, float_int bits = Some v /\ mv out = Some (v, 0).
Proof.
  intros Hb Hf. unfold printNonNegativeFloat.
  destruct (float_int bits) as [v|] eqn:Ev; [|left; exact Hf].
  pose proof (float_int_nonneg bits v Hb Ev) as Hv.
  destruct (v <? 1000) eqn:E1.
  - right. exists v. split; [reflexivity|]. apply small_int_value. lia.
  - cbn [fst].
    destruct (mw && (1000000000000 <=? v) && (v <=? 18446744073709549568)) eqn:E2; [|left; exact Hf].
    destruct (2 + len (to_hex v) <? len (shorten mw s)); [|left; exact Hf].
    right. exists v. split; [reflexivity|]. apply hex_literal_value. lia.
Qed.

Lemma print_float_value mw bits s :
  0 <= bits -> form_int s \/ form_dot s \/ form_dot_exp s ->
  let out := fst (printNonNegativeFloat mw bits s) in
  value_preserved out s \/ exists v, float_int bits = Some v /\ mv out = Some (v, 0).
Proof. intros Hb Hf. apply print_float_value_of; [exact Hb|apply shorten_value_forms, Hf]. Qed.
