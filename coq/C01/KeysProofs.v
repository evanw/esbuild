(* C01 lemmas: the printed property key denotes the same key. *)
From V Require Import Common.Base C01.Utf C01.Quote C01.SpecLiteral C01.QuoteProofs C01.Keys.
From V Require Import gen.IdTablesGen.

(* facts about the REGENERATED tables, checked by computation on every run:
   no range touches the surrogate block or leaves 0..U+10FFFF *)
Definition table_ok (tbl : list (Z * Z * Z)) : bool :=
  forallb (fun t => let '(lo, hi, st) := t in (0 <=? lo) && (lo <=? hi) && ((hi <? 55296) || (57343 <? lo)) && (hi <=? 1114111)) tbl.
Lemma id_start_table_ok : table_ok id_start_es5_and_esnext = true.
Proof. vm_compute. reflexivity. Qed.
Lemma id_continue_table_ok : table_ok id_continue_es5_and_esnext = true.
Proof. vm_compute. reflexivity. Qed.

Lemma in_table_range tbl cp : table_ok tbl = true -> in_table tbl cp = true ->
  0 <= cp <= 1114111 /\ is_surrogate cp = false.
Proof.
  unfold table_ok, in_table. intros Hok Hin. apply existsb_exists in Hin as [[[lo hi] st] [Hm Hc]].
  rewrite forallb_forall in Hok. specialize (Hok _ Hm). cbn beta iota in Hok.
  unfold is_surrogate. lia.
Qed.

Definition id_char (cp : Z) : Prop :=
  0 <= cp <= 1114111 /\ is_surrogate cp = false /\ cp <> 92 /\ cp <> 34 /\ cp <> 39 /\ cp <> 96.

Lemma id_start_char cp : is_id_start cp = true -> id_char cp.
Proof.
  unfold is_id_start, ascii_letter, id_char, is_surrogate. intros H.
  destruct ((cp =? 95) || (cp =? 36) || (((97 <=? cp) && (cp <=? 122)) || ((65 <=? cp) && (cp <=? 90)))) eqn:E; [lia|].
  destruct (cp <? 127) eqn:E2; [discriminate|].
  destruct (in_table_range _ _ id_start_table_ok H) as [R1 R2]. unfold is_surrogate in R2. lia.
Qed.
Lemma id_continue_char cp : is_id_continue cp = true -> id_char cp.
Proof.
  unfold is_id_continue, ascii_letter, ascii_digit, id_char, is_surrogate. intros H.
  destruct ((cp =? 95) || (cp =? 36) || ((48 <=? cp) && (cp <=? 57)) || (((97 <=? cp) && (cp <=? 122)) || ((65 <=? cp) && (cp <=? 90)))) eqn:E; [lia|].
  destruct (cp <? 127) eqn:E2; [discriminate|].
  destruct ((cp =? 8204) || (cp =? 8205)) eqn:E3; [lia|].
  destruct (in_table_range _ _ id_continue_table_ok H) as [R1 R2]. unfold is_surrogate in R2. lia.
Qed.
Lemma test_char (b : bool) cp : (if b then is_id_start cp else is_id_continue cp) = true -> id_char cp.
Proof. destruct b; [apply id_start_char|apply id_continue_char]. Qed.

Lemma ident_rest_pair b c c2 rest : is_high c = true -> is_low c2 = true ->
  ident_rest b (c :: c2 :: rest) =
  (if b then is_id_start (combine_add c c2) else is_id_continue (combine_add c c2)) && ident_rest false rest.
Proof. intros Hh Hl. cbn [ident_rest]. rewrite Hh, Hl. reflexivity. Qed.

Lemma ident_rest_single b c rest : is_high c && is_low (hd 0 rest) = false ->
  ident_rest b (c :: rest) = (if b then is_id_start c else is_id_continue c) && ident_rest false rest.
Proof.
  intros H. destruct rest as [|c2 r]; cbn [ident_rest hd] in *; [rewrite andb_true_r; reflexivity|].
  rewrite H. reflexivity.
Qed.

(* an identifier (by esbuild's test) is well-formed UTF-16 without a backslash *)
Lemma ident_rest_wf : forall text, all_u16 text -> forall b,
  ident_rest b text = true -> wf_utf16 text = true /\ ~ In 92 text.
Proof.
  intros text Hu. induction Hu as [|c c2 rest Hc Hc2 Hh Hl IH|c rest Hc Hp IH] using utf16_ind; intros b H.
  - split; [reflexivity|intros []].
  - rewrite (ident_rest_pair b c c2 rest Hh Hl) in H. apply andb_true_iff in H as [_ H].
    destruct (IH false H) as [W N]. rewrite (wf_pair c c2 rest Hh Hl). split; [exact W|].
    unfold is_high in Hh. unfold is_low in Hl. intros [E|[E|E]]; [lia|lia|exact (N E)].
  - rewrite (ident_rest_single b c rest Hp) in H. apply andb_true_iff in H as [H1 H2].
    apply test_char in H1. destruct H1 as [_ [Hs [H92 _]]]. destruct (IH false H2) as [W N].
    rewrite (wf_single c rest Hp), W. unfold is_surrogate in Hs. unfold is_high, is_low. split; [lia|].
    intros [E|E]; [lia|exact (N E)].
Qed.

Lemma contains_pair c c2 rest : is_high c = true -> is_low c2 = true ->
  ContainsNonBMPCodePointUTF16 (c :: c2 :: rest) = true.
Proof. intros Hh Hl. cbn [ContainsNonBMPCodePointUTF16]. rewrite Hh, Hl. reflexivity. Qed.

Lemma contains_single c rest : is_high c && is_low (hd 0 rest) = false ->
  ContainsNonBMPCodePointUTF16 (c :: rest) = ContainsNonBMPCodePointUTF16 rest.
Proof.
  intros H. destruct rest as [|c2 r]; [reflexivity|].
  cbn [ContainsNonBMPCodePointUTF16 hd] in *. rewrite H. reflexivity.
Qed.

(* printIdentifierUTF16 does not panic on names canPrintIdentifierUTF16 accepts *)
Lemma ident_cps_some cfg : forall text, all_u16 text ->
  (negb (ascii_only cfg) || uni_esc cfg || negb (ContainsNonBMPCodePointUTF16 text)) = true ->
  ident_cps cfg text <> None.
Proof.
  intros text Hu. induction Hu as [|c c2 rest Hc Hc2 Hh Hl IH|c rest Hc Hp IH] using utf16_ind; intros H.
  - discriminate.
  - (* a pair: only allowed when not (ascii without \u{...}) *)
    rewrite (contains_pair c c2 rest Hh Hl) in H. cbn [negb] in H. rewrite orb_false_r in H.
    rewrite (ident_cps_pair cfg c c2 rest Hh Hl).
    destruct (ident_cps cfg rest) as [tl|]; [|apply IH; rewrite H; reflexivity].
    cbn [ident_one]. destruct (ascii_only cfg) eqn:Ea; cbn [andb]; [|discriminate].
    cbn [negb orb] in H. rewrite H.
    destruct (126 <? combine_add c c2); [|discriminate].
    destruct (combine_add c c2 <=? 65535); discriminate.
  - rewrite (contains_single c rest Hp) in H. rewrite (ident_cps_single cfg c rest Hp).
    destruct (ident_cps cfg rest) as [tl|]; [|apply IH; exact H].
    cbn [ident_one]. destruct (ascii_only cfg && (126 <? c)); [|discriminate].
    destruct (c <=? 65535) eqn:E; [discriminate|lia].
Qed.

Lemma ident_value_head q r key : q = 34 \/ q = 39 \/ q = 96 ->
  ident_value (q :: r) = Some key -> exists key', key = q :: key'.
Proof.
  intros Hq H. unfold ident_value in H. rewrite utf8_decode_1 in H by lia.
  destruct (utf8_decode r) as [cps|]; [|discriminate]. cbn [option_map] in H.
  rewrite irun_raw in H by lia. destruct (irun INormal cps) as [v|]; [|discriminate].
  cbn [option_map flat_map] in H. rewrite units_small in H by lia. inversion H. eexists; reflexivity.
Qed.

Lemma ident_head_not_quote q key' : q = 34 \/ q = 39 \/ q = 96 ->
  IsIdentifierES5AndESNextUTF16 (q :: key') = false.
Proof.
  intros Hq. cbn [IsIdentifierES5AndESNextUTF16 ident_rest].
  assert (Hs : is_id_start q = false).
  { destruct (is_id_start q) eqn:E; [|reflexivity]. apply id_start_char in E. unfold id_char in E. lia. }
  replace (is_high q) with false by (unfold is_high; lia). cbn [andb]. rewrite Hs. destruct key'; reflexivity.
Qed.

Lemma string_key_identity_all cfg pq key :
  all_u16 key -> exists out, print_string_key cfg pq key = Some out /\ key_value out = Some key.
Proof.
  intros Hu. unfold print_string_key.
  destruct (negb pq && can_print_identifier_utf16 cfg key) eqn:E.
  - apply andb_true_iff in E as [_ E]. unfold can_print_identifier_utf16 in E.
    apply andb_true_iff in E as [Hid Hcfg].
    assert (Hr : ident_rest true key = true) by (destruct key; [discriminate|exact Hid]).
    destruct (ident_rest_wf key Hu true Hr) as [Hwf Hbs].
    pose proof (ident_cps_some cfg key Hu Hcfg) as Hs.
    unfold print_identifier_utf16. destruct (ident_cps cfg key) as [cps|] eqn:Ec; [|congruence].
    exists (to_bytes cps). split; [reflexivity|].
    assert (Hv : ident_value (to_bytes cps) = Some key).
    { apply (ident_roundtrip_all cfg key); auto. unfold print_identifier_utf16. rewrite Ec. reflexivity. }
    unfold key_value. destruct (to_bytes cps) as [|b r]; [inversion Hv; subst; discriminate|].
    destruct ((b =? 34) || (b =? 39) || (b =? 96)) eqn:Eq; [exfalso|exact Hv].
    assert (Hq : b = 34 \/ b = 39 \/ b = 96) by lia.
    destruct (ident_value_head b r key Hq Hv) as [key' ->]. rewrite ident_head_not_quote in Hid by exact Hq. discriminate.
  - exists (print_quoted cfg false false [] key). split; [reflexivity|].
    pose proof (quote_roundtrip_all cfg false false [] key Hu) as Hv.
    unfold print_quoted, print_quoted_cps in *. destruct (choose_quote_kind cfg false key) as [k Hk].
    rewrite Hk, to_bytes_quoted in *. unfold key_value.
    replace ((quote_of k =? 34) || (quote_of k =? 39) || (quote_of k =? 96)) with true by (destruct k; reflexivity).
    exact Hv.
Qed.

Lemma rune_units_scalar c : scalar c = true -> rune_units c = utf16_units c.
Proof.
  unfold scalar, rune_units, utf16_units. intros H. destruct (c <=? 65535) eqn:E; [reflexivity|].
  rewrite (Z.mod_small ((c - 65536) / 1024) 1024) by lia. reflexivity.
Qed.
Lemma rune_units_all rs : forallb scalar rs = true -> flat_map rune_units rs = flat_map utf16_units rs.
Proof.
  induction rs as [|c r IH]; intros H; [reflexivity|]. cbn [forallb] in H. apply andb_true_iff in H as [H1 H2].
  cbn [flat_map]. rewrite rune_units_scalar, IH by assumption. reflexivity.
Qed.
Lemma rune_units_u16 rs : forallb scalar rs = true -> all_u16 (flat_map rune_units rs).
Proof.
  induction rs as [|c r IH]; intros H; [constructor|]. cbn [forallb] in H. apply andb_true_iff in H as [H1 H2].
  cbn [flat_map]. apply Forall_app. split; [|apply IH; exact H2].
  unfold scalar in H1. unfold rune_units. destruct (c <=? 65535) eqn:E; repeat constructor; lia.
Qed.

Lemma ident_rest_runes_chars b rs : ident_rest_runes b rs = true -> Forall id_char rs.
Proof.
  revert b. induction rs as [|c r IH]; intros b H; [constructor|]. cbn [ident_rest_runes] in H.
  apply andb_true_iff in H as [H1 H2]. constructor; [apply (test_char b); exact H1|apply (IH false); exact H2].
Qed.

Lemma irun_runes rs : Forall id_char rs -> irun INormal rs = Some rs.
Proof.
  induction 1 as [|c r Hc Hr IH]; [reflexivity|]. destruct Hc as [_ [_ [H92 _]]].
  rewrite irun_raw by exact H92. rewrite IH. reflexivity.
Qed.
Lemma id_chars_scalar rs : Forall id_char rs -> forallb scalar rs = true.
Proof.
  induction 1 as [|c r Hc Hr IH]; [reflexivity|]. cbn [forallb]. rewrite IH, andb_true_r.
  destruct Hc as [H0 [Hs _]]. unfold scalar. unfold is_surrogate in Hs. lia.
Qed.

Lemma quote_ident_ok cfg rs : Forall id_char rs ->
  (uni_esc cfg || negb (existsb (fun c => 65535 <? c) rs)) = true ->
  exists cps, quote_ident_cps cfg rs = Some cps /\ forallb scalar cps = true /\ irun INormal cps = Some rs.
Proof.
  induction 1 as [|c r Hc Hr IH]; intros Hcfg; [exists []; auto|].
  assert (Hcfg' : (uni_esc cfg || negb (existsb (fun c => 65535 <? c) r)) = true).
  { cbn [existsb] in Hcfg. destruct (uni_esc cfg); [reflexivity|]. cbn [orb] in *.
    destruct (65535 <? c); [discriminate|exact Hcfg]. }
  destruct (IH Hcfg') as [tl [E1 [E2 E3]]]. cbn [quote_ident_cps]. rewrite E1.
  destruct Hc as [H0 [Hs [H92 _]]]. unfold is_surrogate in Hs.
  destruct ((32 <=? c) && (c <=? 126)) eqn:Ea.
  - exists (c :: tl). split; [reflexivity|]. split.
    + cbn [forallb]. rewrite E2. unfold scalar. lia.
    + rewrite irun_raw by exact H92. rewrite E3. reflexivity.
  - destruct (c <=? 65535) eqn:Eb.
    + exists (esc_u4 c ++ tl). split; [reflexivity|]. split.
      * rewrite forallb_app, E2, esc_u4_scalar by lia. reflexivity.
      * rewrite irun_esc_u4 by lia. rewrite E3. reflexivity.
    + assert (Hu : uni_esc cfg = true).
      { cbn [existsb] in Hcfg. destruct (uni_esc cfg); [reflexivity|]. cbn [orb] in Hcfg.
        replace (65535 <? c) with true in Hcfg by lia. discriminate. }
      rewrite Hu. exists (esc_ubrace c ++ tl). split; [reflexivity|]. split.
      * rewrite forallb_app, E2, esc_ubrace_scalar by lia. reflexivity.
      * rewrite irun_esc_ubrace by lia. rewrite E3. reflexivity.
Qed.

Lemma member_name_identity_all cfg ll rs :
  forallb scalar rs = true ->
  exists out, print_dot_name cfg ll rs = Some out /\ member_key out = Some (flat_map rune_units rs).
Proof.
  intros Hsc. unfold print_dot_name.
  destruct (can_print_identifier cfg rs) eqn:Ecan.
  - unfold can_print_identifier in Ecan. apply andb_true_iff in Ecan as [Hid Hcfg].
    assert (Hch : Forall id_char rs).
    { unfold IsIdentifierES5AndESNext in Hid. destruct rs; [discriminate|]. apply (ident_rest_runes_chars true). exact Hid. }
    rewrite (rune_units_all rs Hsc).
    unfold print_identifier_runes. destruct (ascii_only cfg) eqn:Ea.
    + cbn [negb orb] in Hcfg. destruct (quote_ident_ok cfg rs Hch Hcfg) as [cps [Q1 [Q2 Q3]]].
      rewrite Q1. cbn [option_map]. eexists; split; [reflexivity|].
      cbn [member_key]. unfold ident_value. rewrite utf8_roundtrip by exact Q2. rewrite Q3. reflexivity.
    + cbn [option_map]. eexists; split; [reflexivity|].
      cbn [member_key]. unfold ident_value. rewrite utf8_roundtrip by exact Hsc.
      rewrite (irun_runes rs Hch). reflexivity.
  - eexists; split; [reflexivity|].
    cbn [app member_key]. rewrite rev_app_distr. cbn [rev app]. rewrite rev_involutive.
    pose proof (rune_units_u16 rs Hsc) as Hu.
    unfold literal_value. rewrite utf8_roundtrip.
    + apply quoted_cps_value. exact Hu.
    + eapply good_scalar. apply print_quoted_cps_good. exact Hu.
Qed.
