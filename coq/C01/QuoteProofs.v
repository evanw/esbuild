(* C01 lemmas about the string printer model. *)
From V Require Import Common.Base C01.Utf C01.Quote C01.SpecLiteral.

(* The loops over UTF-16 text (pu, ident_cps, ident_rest, ...) recurse on the
   tail or, after a surrogate pair, on the tail's tail. *)
Lemma list_pair_ind {A} (P : list A -> Prop) :
  P [] -> (forall c rest, P rest -> P (tl rest) -> P (c :: rest)) -> forall l, P l.
Proof.
  intros H0 HS l. enough (P l /\ P (tl l)) by tauto.
  induction l as [|c r [IH1 IH2]]; [auto|]. split; [apply HS; assumption|exact IH1].
Qed.

Definition all_u16 (u : list Z) : Prop := Forall (fun c => 0 <= c <= 65535) u.

Lemma utf16_ind (P : list Z -> Prop) :
  P [] ->
  (forall c c2 rest, 0 <= c <= 65535 -> 0 <= c2 <= 65535 -> is_high c = true -> is_low c2 = true ->
     P rest -> P (c :: c2 :: rest)) ->
  (forall c rest, 0 <= c <= 65535 -> is_high c && is_low (hd 0 rest) = false -> P rest -> P (c :: rest)) ->
  forall text, all_u16 text -> P text.
Proof.
  intros Hnil Hpair Hone.
  induction text as [|c rest IH IH2] using list_pair_ind; intros Hu; [exact Hnil|].
  inversion Hu as [|? ? Hc Hu']; subst.
  destruct (is_high c && is_low (hd 0 rest)) eqn:E; [|apply Hone; auto].
  apply andb_true_iff in E as [Hh Hl].
  destruct rest as [|c2 rest']; [discriminate|].
  inversion Hu' as [|? ? Hc2 Hu'']; subst. apply Hpair; auto.
Qed.

Lemma wf_pair c c2 rest : is_high c = true -> is_low c2 = true ->
  wf_utf16 (c :: c2 :: rest) = wf_utf16 rest.
Proof. intros Hh Hl. cbn [wf_utf16]. rewrite Hh, Hl. reflexivity. Qed.

Lemma wf_single c rest : is_high c && is_low (hd 0 rest) = false ->
  wf_utf16 (c :: rest) = negb (is_high c) && negb (is_low c) && wf_utf16 rest.
Proof.
  intros H. destruct rest as [|c2 r]; cbn [wf_utf16 hd] in *; destruct (is_high c); try reflexivity.
  cbn [andb] in H. rewrite H. reflexivity.
Qed.

(* what an iteration of pu prints first: the line continuation of --line-limit, or nothing *)
Definition wrap_chunk (wrap : bool) (w : list Z) : Prop := w = [] \/ (wrap = true /\ w = [92; 10]).

(* What pu prints, by the cases of its loop: w, then the chunk of one unit, of
   a high surrogate that no low one follows, or of a surrogate pair, then what
   it prints for the rest.  P relates prev, the text and the output. *)
Lemma pu_cases cfg q wrap (P : Z -> list Z -> list Z -> Prop) :
  (forall prev, P prev [] []) ->
  (forall w prev c rest out, wrap_chunk wrap w ->
     0 <= c <= 65535 -> is_high c = false -> P c rest out ->
     P prev (c :: rest) (w ++ simple_chunk cfg q prev c rest ++ out)) ->
  (forall w prev c rest out, wrap_chunk wrap w ->
     0 <= c <= 65535 -> is_high c = true -> is_low (hd 0 rest) = false -> P c rest out ->
     P prev (c :: rest) (w ++ esc_u4 c ++ out)) ->
  (forall w prev c c2 rest out, wrap_chunk wrap w ->
     0 <= c <= 65535 -> 0 <= c2 <= 65535 -> is_high c = true -> is_low c2 = true -> P c2 rest out ->
     P prev (c :: c2 :: rest) (w ++ pair_chunk cfg c c2 ++ out)) ->
  forall text, all_u16 text -> forall prev sl i, P prev text (pu cfg q wrap prev sl i text).
Proof.
  intros Hnil Hsimple Hhigh Hpair text Hu.
  assert (Hw : forall b, wrap_chunk wrap (if wrap && b then [92; 10] else [])).
  { intros b. destruct wrap; [destruct b; [right; auto|left; reflexivity]|left; reflexivity]. }
  induction Hu as [|c c2 rest Hc Hc2 Hh Hl IH|c rest Hc Hp IH] using utf16_ind; intros prev sl i; cbn [pu].
  - apply Hnil.
  - rewrite Hh, Hl. apply Hpair; auto.
  - destruct (is_high c) eqn:Hh; [|apply Hsimple; auto].
    cbn [andb] in Hp. destruct rest as [|c2 rest'].
    + rewrite <- (app_nil_r (esc_u4 c)). apply Hhigh; auto.
    + cbn [hd] in Hp. rewrite Hp. apply Hhigh; auto.
Qed.

Lemma hexc_range d : 0 <= d < 16 -> (48 <= hexc d <= 57) \/ (65 <= hexc d <= 70).
Proof. intros H. unfold hexc. destruct (d <? 10) eqn:E; lia. Qed.

Lemma hexc_hexval d : 0 <= d < 16 -> hexval (hexc d) = Some d.
Proof.
  intros H. unfold hexc, hexval.
  destruct (d <? 10) eqn:E.
  - replace ((48 <=? 48 + d) && (48 + d <=? 57)) with true by lia. f_equal. lia.
  - replace ((48 <=? 55 + d) && (55 + d <=? 57)) with false by lia.
    replace ((97 <=? 55 + d) && (55 + d <=? 102)) with false by lia.
    replace ((65 <=? 55 + d) && (55 + d <=? 70)) with true by lia. f_equal. lia.
Qed.

Definition hexdigits (ds : list Z) : Prop := Forall (fun d => 0 <= d < 16) ds.
(* the number spelled by the digits ds read after the digits already in v *)
Fixpoint hexnum (v : Z) (ds : list Z) : Z :=
  match ds with [] => v | d :: r => hexnum (v * 16 + d) r end.

Lemma hexnum_ge ds : hexdigits ds -> forall v, 0 <= v -> v <= hexnum v ds.
Proof.
  induction 1 as [|d ds Hd _ IH]; intros v Hv; cbn [hexnum]; [lia|].
  specialize (IH (v * 16 + d)). lia.
Qed.

(* the digits fmt.Sprintf("%X", r) prints for a supplementary code point *)
Definition hexX_digits (r : Z) : list Z :=
  if r <? 1048576
  then [r / 65536; (r / 4096) mod 16; (r / 256) mod 16; (r / 16) mod 16; r mod 16]
  else [r / 1048576; (r / 65536) mod 16; (r / 4096) mod 16; (r / 256) mod 16; (r / 16) mod 16; r mod 16].

Lemma hex_fold x k : 0 < k -> x / (16 * k) * 16 + (x / k) mod 16 = x / k.
Proof.
  intros Hk. rewrite (Z.mul_comm 16 k), <- Z.div_div, (Z.mul_comm _ 16) by lia.
  symmetry. apply Z.div_mod. lia.
Qed.

Lemma hexX_digits_spec r : 65536 <= r <= 1114111 ->
  hexX r = map hexc (hexX_digits r) /\ hexdigits (hexX_digits r) /\ hexX_digits r <> [] /\
  hexnum 0 (hexX_digits r) = r.
Proof.
  intros H. unfold hexX, hexX_digits, hexdigits.
  destruct (r <? 1048576) eqn:E;
    (split; [reflexivity|split; [|split; [discriminate|]]]); cbn [hexnum].
  (* digits: the leading one by the range of r, the others are remainders mod 16 *)
  1, 3: constructor; [lia|]; repeat (constructor; [apply Z.mod_pos_bound; reflexivity|]); constructor.
  - change (0 * 16 + r / 65536) with (r / (16 * 4096)). rewrite hex_fold by lia.
    change 4096 with (16 * 256). rewrite hex_fold by lia.
    change 256 with (16 * 16). rewrite hex_fold by lia. lia.
  - change (0 * 16 + r / 1048576) with (r / (16 * 65536)). rewrite hex_fold by lia.
    change 65536 with (16 * 4096). rewrite hex_fold by lia.
    change 4096 with (16 * 256). rewrite hex_fold by lia.
    change 256 with (16 * 16). rewrite hex_fold by lia. lia.
Qed.

Lemma scalar_EncodeRune cp : scalar cp = true -> EncodeRune cp = encodeWTF8Rune cp.
Proof.
  unfold scalar, EncodeRune, is_surrogate, MaxRune. intros H.
  replace ((cp <? 0) || (1114111 <? cp) || ((55296 <=? cp) && (cp <=? 57343))) with false by lia.
  reflexivity.
Qed.

Lemma utf8_decode_1 b0 t : 0 <= b0 <= 127 -> utf8_decode (b0 :: t) = option_map (cons b0) (utf8_decode t).
Proof.
  intros H. cbn [utf8_decode]. replace ((0 <=? b0) && (b0 <=? 127)) with true by lia. reflexivity.
Qed.
Lemma utf8_decode_2 b0 b1 t : 192 <= b0 <= 223 ->
  utf8_decode (b0 :: b1 :: t) =
  if cont_byte b1 && (128 <=? (b0 - 192) * 64 + (b1 - 128))
  then option_map (cons ((b0 - 192) * 64 + (b1 - 128))) (utf8_decode t) else None.
Proof.
  intros H. cbn [utf8_decode]. replace ((0 <=? b0) && (b0 <=? 127)) with false by lia.
  replace ((192 <=? b0) && (b0 <=? 223)) with true by lia. reflexivity.
Qed.
Lemma utf8_decode_3 b0 b1 b2 t : 224 <= b0 <= 239 ->
  utf8_decode (b0 :: b1 :: b2 :: t) =
  if cont_byte b1 && cont_byte b2 && (2048 <=? (b0 - 224) * 4096 + (b1 - 128) * 64 + (b2 - 128))
     && scalar ((b0 - 224) * 4096 + (b1 - 128) * 64 + (b2 - 128))
  then option_map (cons ((b0 - 224) * 4096 + (b1 - 128) * 64 + (b2 - 128))) (utf8_decode t) else None.
Proof.
  intros H. cbn [utf8_decode]. replace ((0 <=? b0) && (b0 <=? 127)) with false by lia.
  replace ((192 <=? b0) && (b0 <=? 223)) with false by lia.
  replace ((224 <=? b0) && (b0 <=? 239)) with true by lia. reflexivity.
Qed.
Lemma utf8_decode_4 b0 b1 b2 b3 t : 240 <= b0 <= 247 ->
  utf8_decode (b0 :: b1 :: b2 :: b3 :: t) =
  if cont_byte b1 && cont_byte b2 && cont_byte b3
     && (65536 <=? (b0 - 240) * 262144 + (b1 - 128) * 4096 + (b2 - 128) * 64 + (b3 - 128))
     && scalar ((b0 - 240) * 262144 + (b1 - 128) * 4096 + (b2 - 128) * 64 + (b3 - 128))
  then option_map (cons ((b0 - 240) * 262144 + (b1 - 128) * 4096 + (b2 - 128) * 64 + (b3 - 128))) (utf8_decode t)
  else None.
Proof.
  intros H. cbn [utf8_decode]. replace ((0 <=? b0) && (b0 <=? 127)) with false by lia.
  replace ((192 <=? b0) && (b0 <=? 223)) with false by lia.
  replace ((224 <=? b0) && (b0 <=? 239)) with false by lia.
  replace ((240 <=? b0) && (b0 <=? 247)) with true by lia. reflexivity.
Qed.

Lemma cont_byte_low6 x : cont_byte (128 + x mod 64) = true.
Proof. unfold cont_byte. lia. Qed.

Lemma utf8_enc_dec cp rest :
  scalar cp = true ->
  utf8_decode (EncodeRune cp ++ rest) = option_map (cons cp) (utf8_decode rest).
Proof.
  intros H. rewrite (scalar_EncodeRune _ H). assert (Hs := H). unfold scalar in H.
  unfold encodeWTF8Rune, MaxRune.
  destruct (cp <? 0) eqn:E0; [lia|].
  destruct (cp <=? 127) eqn:E1; [apply utf8_decode_1; lia|].
  destruct (cp <=? 2047) eqn:E2.
  { cbn [app]. rewrite utf8_decode_2, cont_byte_low6 by lia.
    replace ((192 + cp / 64 - 192) * 64 + (128 + cp mod 64 - 128)) with cp by lia.
    replace (128 <=? cp) with true by lia. reflexivity. }
  destruct (1114111 <? cp) eqn:E3; [lia|].
  destruct (cp <=? 65535) eqn:E4.
  { cbn [app]. rewrite utf8_decode_3, !cont_byte_low6 by lia.
    replace ((224 + cp / 4096 - 224) * 4096 + (128 + (cp / 64) mod 64 - 128) * 64 + (128 + cp mod 64 - 128)) with cp by lia.
    replace (2048 <=? cp) with true by lia. rewrite Hs. reflexivity. }
  cbn [app]. rewrite utf8_decode_4, !cont_byte_low6 by lia.
  replace ((240 + cp / 262144 - 240) * 262144 + (128 + (cp / 4096) mod 64 - 128) * 4096
           + (128 + (cp / 64) mod 64 - 128) * 64 + (128 + cp mod 64 - 128)) with cp by lia.
  replace (65536 <=? cp) with true by lia. rewrite Hs. reflexivity.
Qed.

Lemma utf8_roundtrip cps :
  forallb scalar cps = true -> utf8_decode (to_bytes cps) = Some cps.
Proof.
  induction cps as [|c r IH]; intros H; [reflexivity|].
  cbn [forallb] in H. apply andb_true_iff in H as [H1 H2].
  unfold to_bytes. cbn [flat_map]. rewrite utf8_enc_dec by exact H1.
  fold (to_bytes r). rewrite IH by exact H2. reflexivity.
Qed.

Lemma literal_value_to_bytes cps :
  forallb scalar cps = true -> literal_value (to_bytes cps) = literal_value_cps cps.
Proof. intros H. unfold literal_value. rewrite utf8_roundtrip by exact H. reflexivity. Qed.

Lemma to_bytes_quoted k l :
  to_bytes (quote_of k :: l ++ [quote_of k]) = quote_of k :: to_bytes l ++ [quote_of k].
Proof. unfold to_bytes. cbn [flat_map]. rewrite flat_map_app. destruct k; reflexivity. Qed.

Lemma to_bytes_ascii l :
  forallb (fun x => (0 <=? x) && (x <? 128)) l = true -> to_bytes l = l.
Proof.
  induction l as [|x r IH]; intros H; [reflexivity|].
  cbn [forallb] in H. apply andb_true_iff in H as [H1 H2].
  unfold to_bytes. cbn [flat_map]. fold (to_bytes r). rewrite IH by exact H2.
  unfold EncodeRune, encodeWTF8Rune, is_surrogate, MaxRune.
  replace ((x <? 0) || (1114111 <? x) || ((55296 <=? x) && (x <=? 57343))) with false by lia.
  replace (x <? 0) with false by lia. replace (x <=? 127) with true by lia. reflexivity.
Qed.

(* The recogniser's state between two chunks of the printer's output: after
   `\0` (Zero) and after a raw `$` in a template (Dollar) the printer has made
   sure that the next unit of the text does not print as a digit resp. `{`. *)
Definition inv (s : st) (rest : list Z) : Prop :=
  s = Normal \/ (s = Zero /\ next_is_digit rest = false) \/ (s = Dollar /\ next_is 123 rest = false).

(* the same, as a condition on the next code point x of the output *)
Definition pend (s : st) (x : Z) : Prop :=
  s = Normal \/ (s = Zero /\ is_digit x = false) \/ (s = Dollar /\ x <> 123).

Lemma pend_step k s x : pend s x -> step k s x = normal k x.
Proof.
  intros [->|[[-> H]|[-> H]]]; cbn [step]; [reflexivity|rewrite H; reflexivity|].
  destruct (x =? 123) eqn:E; [lia|reflexivity].
Qed.

Lemma inv_pend s c rest : inv s (c :: rest) -> pend s c.
Proof.
  intros [->|[[-> H]|[-> H]]]; [left; reflexivity| |].
  - right; left; split; [reflexivity|exact H].
  - right; right; split; [reflexivity|]. cbn [next_is] in H. lia.
Qed.

Lemma inv_pend_any s rest x : inv s rest -> is_digit x = false -> x <> 123 -> pend s x.
Proof.
  intros [->|[[-> H]|[-> H]]] Hd Hx; [left; reflexivity| |].
  - right; left; split; [reflexivity|exact Hd].
  - right; right; split; [reflexivity|exact Hx].
Qed.

Lemma inv_normal rest : inv Normal rest. Proof. left; reflexivity. Qed.

Lemma run_cons k s c r :
  run k s (c :: r) = match step k s c with
                     | None => None
                     | Some (emit, s') => option_map (app emit) (run k s' r)
                     end.
Proof. reflexivity. Qed.

Lemma option_map_app_nil {A} (o : option (list A)) : option_map (app []) o = o.
Proof. destruct o; reflexivity. Qed.
Lemma option_map_app_one {A} (x : A) (o : option (list A)) : option_map (app [x]) o = option_map (cons x) o.
Proof. destruct o; reflexivity. Qed.

Lemma run_bs k s rest r : inv s rest -> run k s (92 :: r) = run k Esc r.
Proof.
  intros H. rewrite run_cons, (pend_step k s 92).
  - unfold normal. destruct k; apply option_map_app_nil.
  - eapply inv_pend_any; [exact H|reflexivity|lia].
Qed.

Lemma step_U0_hex k d : 0 <= d < 16 -> step k U0 (hexc d) = Some ([], U4 3 d).
Proof.
  intros H. cbn [step]. destruct (hexc_range d H); (destruct (hexc d =? 123) eqn:E; [lia|]);
    rewrite hexc_hexval by exact H; reflexivity.
Qed.
Lemma step_U4_hex k n v d : 0 <= d < 16 ->
  step k (U4 n v) (hexc d) = match n with
                             | S (S k') => Some ([], U4 (S k') (v * 16 + d))
                             | _ => Some ([v * 16 + d], Normal)
                             end.
Proof. intros H. cbn [step]. rewrite hexc_hexval by exact H. reflexivity. Qed.
Lemma step_Hex1_hex k d : 0 <= d < 16 -> step k Hex1 (hexc d) = Some ([], Hex2 d).
Proof. intros H. cbn [step]. rewrite hexc_hexval by exact H. reflexivity. Qed.
Lemma step_Hex2_hex k v d : 0 <= d < 16 -> step k (Hex2 v) (hexc d) = Some ([v * 16 + d], Normal).
Proof. intros H. cbn [step]. rewrite hexc_hexval by exact H. reflexivity. Qed.
Lemma step_UB0_hex k d : 0 <= d < 16 -> step k UB0 (hexc d) = Some ([], UB d).
Proof. intros H. cbn [step]. rewrite hexc_hexval by exact H. reflexivity. Qed.
Lemma step_UB_hex k v d : 0 <= d < 16 -> v * 16 + d <= 1114111 ->
  step k (UB v) (hexc d) = Some ([], UB (v * 16 + d)).
Proof.
  intros H Hv. cbn [step]. destruct (hexc_range d H); (destruct (hexc d =? 125) eqn:E; [lia|]);
    rewrite hexc_hexval by exact H; (destruct (1114111 <? v * 16 + d) eqn:E2; [lia|reflexivity]).
Qed.

Lemma run_esc_u4 k s rest c tail :
  0 <= c <= 65535 -> inv s rest ->
  run k s (esc_u4 c ++ tail) = option_map (cons c) (run k Normal tail).
Proof.
  intros Hc Hs. unfold esc_u4. cbn [app].
  rewrite (run_bs k s rest _ Hs).
  rewrite run_cons. replace (step k Esc 117) with (Some (@nil Z, U0)) by reflexivity.
  rewrite option_map_app_nil.
  rewrite run_cons, step_U0_hex by lia. rewrite option_map_app_nil.
  rewrite run_cons, step_U4_hex by lia. rewrite option_map_app_nil.
  rewrite run_cons, step_U4_hex by lia. rewrite option_map_app_nil.
  rewrite run_cons, step_U4_hex by lia. rewrite option_map_app_one.
  f_equal. f_equal. lia.
Qed.

Lemma run_esc_x2 k s rest c tail :
  0 <= c <= 255 -> inv s rest ->
  run k s (esc_x2 c ++ tail) = option_map (cons c) (run k Normal tail).
Proof.
  intros Hc Hs. unfold esc_x2. cbn [app].
  rewrite (run_bs k s rest _ Hs).
  rewrite run_cons. replace (step k Esc 120) with (Some (@nil Z, Hex1)) by reflexivity.
  rewrite option_map_app_nil.
  rewrite run_cons, step_Hex1_hex by lia. rewrite option_map_app_nil.
  rewrite run_cons, step_Hex2_hex by lia. rewrite option_map_app_one.
  f_equal. f_equal. lia.
Qed.

Lemma run_UB_digits k tail ds : hexdigits ds -> forall v, 0 <= v -> hexnum v ds <= 1114111 ->
  run k (UB v) (map hexc ds ++ 125 :: tail) = option_map (app (utf16_units (hexnum v ds))) (run k Normal tail).
Proof.
  induction 1 as [|d ds Hd Hds IH]; intros v Hv Hb; cbn [map app hexnum] in *; [reflexivity|].
  pose proof (hexnum_ge ds Hds (v * 16 + d) ltac:(lia)).
  rewrite run_cons, step_UB_hex, option_map_app_nil by lia. apply IH; lia.
Qed.

Lemma run_ubrace_digits k s rest ds tail :
  inv s rest -> hexdigits ds -> ds <> [] -> hexnum 0 ds <= 1114111 ->
  run k s ([92; 117; 123] ++ map hexc ds ++ [125] ++ tail)
  = option_map (app (utf16_units (hexnum 0 ds))) (run k Normal tail).
Proof.
  intros Hs Hd Hne Hb. destruct Hd as [|d ds Hd Hds]; [congruence|]. cbn [app map].
  rewrite (run_bs k s rest _ Hs).
  rewrite run_cons. replace (step k Esc 117) with (Some (@nil Z, U0)) by reflexivity. rewrite option_map_app_nil.
  rewrite run_cons. replace (step k U0 123) with (Some (@nil Z, UB0)) by reflexivity. rewrite option_map_app_nil.
  rewrite run_cons, step_UB0_hex, option_map_app_nil by exact Hd.
  apply (run_UB_digits k tail ds Hds d); [lia|exact Hb].
Qed.

Lemma run_esc_ubrace k s rest r tail :
  65536 <= r <= 1114111 -> inv s rest ->
  run k s (esc_ubrace r ++ tail) = option_map (app (utf16_units r)) (run k Normal tail).
Proof.
  intros Hr Hs. destruct (hexX_digits_spec r Hr) as (E & Hd & Hne & Hn).
  unfold esc_ubrace. rewrite E, <- !app_assoc, (run_ubrace_digits k s rest) by (assumption || lia).
  rewrite Hn. reflexivity.
Qed.

Lemma units_pair c c2 :
  is_high c = true -> is_low c2 = true -> utf16_units (combine_add c c2) = [c; c2].
Proof.
  unfold is_high, is_low, utf16_units, combine_add. intros H1 H2.
  destruct (_ <=? 65535) eqn:E; [lia|]. f_equal; [lia|f_equal; lia].
Qed.

Lemma combine_range c c2 :
  is_high c = true -> is_low c2 = true -> 65536 <= combine_add c c2 <= 1114111.
Proof. unfold is_high, is_low, combine_add. lia. Qed.

Lemma units_small c : c <= 65535 -> utf16_units c = [c].
Proof. intros H. unfold utf16_units. destruct (c <=? 65535) eqn:E; [reflexivity|lia]. Qed.

Lemma normal_raw k c :
  c <> quote_of k -> c <> 92 -> c <> 13 -> (k = KTemplate -> c <> 36) -> (k <> KTemplate -> c <> 10) ->
  normal k c = Some (utf16_units c, Normal).
Proof.
  intros Hq Hb Hcr Hd Hn. unfold normal.
  destruct (c =? quote_of k) eqn:E1; [lia|]. destruct (c =? 92) eqn:E2; [lia|].
  destruct k.
  - destruct (c =? 10) eqn:E3; [exfalso; apply Hn; [discriminate|lia]|]. destruct (c =? 13) eqn:E4; [lia|]. reflexivity.
  - destruct (c =? 10) eqn:E3; [exfalso; apply Hn; [discriminate|lia]|]. destruct (c =? 13) eqn:E4; [lia|]. reflexivity.
  - destruct (c =? 13) eqn:E4; [lia|]. destruct (c =? 36) eqn:E5; [exfalso; apply Hd; [reflexivity|lia]|]. reflexivity.
Qed.

(* when simple_chunk prints the unit itself *)
Definition raw_ok (cfg : qcfg) (q prev c : Z) (rest : list Z) : Prop :=
  c <> 92 /\ c <> 13 /\ c <> 8232 /\ c <> 8233 /\
  (c = 10 -> q = 96) /\
  (c = 39 \/ c = 34 \/ c = 96 -> c <> q) /\
  (c = 36 -> q = 96 -> next_is 123 rest = false) /\
  (c = 47 -> script_guard cfg = true -> prev = 60 -> matches_script rest = false) /\
  (126 < c -> ascii_only cfg = false /\ is_low c = false).

(* simple_chunk prints the unit itself, a one-character escape denoting it,
   `\0` when no digit follows, or a hex escape.  The side condition on the
   escape character is a test, so that it is closed by evaluation for each of
   the eleven escapes. *)
Inductive chunk_shape (cfg : qcfg) (q prev c : Z) (rest : list Z) : list Z -> Prop :=
| shape_raw : raw_ok cfg q prev c rest -> chunk_shape cfg q prev c rest [c]
| shape_esc1 x : (32 <=? x) && (x <=? 126) && negb (x =? 60) = true ->
    (forall k, step k Esc x = Some ([c], Normal)) -> chunk_shape cfg q prev c rest [92; x]
| shape_nul : c = 0 -> next_is_digit rest = false -> chunk_shape cfg q prev c rest [92; 48]
| shape_x2 : 0 <= c <= 255 -> chunk_shape cfg q prev c rest (esc_x2 c)
| shape_u4 : chunk_shape cfg q prev c rest (esc_u4 c).

Lemma simple_chunk_shape cfg q prev c rest :
  0 <= c <= 65535 -> is_high c = false ->
  chunk_shape cfg q prev c rest (simple_chunk cfg q prev c rest).
Proof.
  intros Hc Hh. unfold simple_chunk.
  destruct (Z.eqb_spec c 0) as [->|N0].
  { destruct (next_is_digit rest) eqn:Ed; [apply (shape_x2 _ _ _ 0); lia|apply shape_nul; auto]. }
  destruct (Z.eqb_spec c 7) as [->|N7]; [apply (shape_x2 _ _ _ 7); lia|].
  destruct (Z.eqb_spec c 8) as [->|N8]; [apply shape_esc1; reflexivity|].
  destruct (Z.eqb_spec c 12) as [->|N12]; [apply shape_esc1; reflexivity|].
  destruct (Z.eqb_spec c 10) as [->|N10].
  { destruct (Z.eqb_spec q 96) as [Eq|Nq]; [|apply shape_esc1; reflexivity].
    apply shape_raw. repeat split; intros; first [discriminate | congruence | intuition discriminate]. }
  destruct (Z.eqb_spec c 13) as [->|N13]; [apply shape_esc1; reflexivity|].
  destruct (Z.eqb_spec c 11) as [->|N11]; [apply shape_esc1; reflexivity|].
  destruct (Z.eqb_spec c 27) as [->|N27]; [apply (shape_x2 _ _ _ 27); lia|].
  destruct (Z.eqb_spec c 92) as [->|N92]; [apply shape_esc1; reflexivity|].
  destruct (Z.eqb_spec c 47) as [->|N47].
  { destruct (script_guard cfg && (prev =? 60) && matches_script rest) eqn:Eg; [apply shape_esc1; reflexivity|].
    apply shape_raw. repeat split; intros; first [discriminate | intuition discriminate | idtac].
    subst prev. rewrite H0 in Eg. exact Eg. }
  destruct (Z.eqb_spec c 39) as [->|N39].
  { destruct (Z.eqb_spec q 39); [apply shape_esc1; reflexivity|].
    apply shape_raw. repeat split; intros; first [discriminate | congruence | intuition discriminate]. }
  destruct (Z.eqb_spec c 34) as [->|N34].
  { destruct (Z.eqb_spec q 34); [apply shape_esc1; reflexivity|].
    apply shape_raw. repeat split; intros; first [discriminate | congruence | intuition discriminate]. }
  destruct (Z.eqb_spec c 96) as [->|N96].
  { destruct (Z.eqb_spec q 96); [apply shape_esc1; reflexivity|].
    apply shape_raw. repeat split; intros; first [discriminate | congruence | intuition discriminate]. }
  destruct (Z.eqb_spec c 36) as [->|N36].
  { destruct ((q =? 96) && next_is 123 rest) eqn:Ed; [apply shape_esc1; reflexivity|].
    apply shape_raw. repeat split; intros; first [discriminate | intuition discriminate | idtac].
    subst q. exact Ed. }
  destruct (Z.eqb_spec c 8232) as [->|N2028]; [apply shape_u4|].
  destruct (Z.eqb_spec c 8233) as [->|N2029]; [apply shape_u4|].
  destruct (Z.eqb_spec c 65279) as [->|Nfeff]; [apply shape_u4|].
  destruct (Z.leb_spec c 126) as [L|L].
  { apply shape_raw. repeat split; intros; first [assumption | contradiction | tauto | subst c; exact (L eq_refl) | lia]. }
  destruct (is_low c || (ascii_only cfg && (255 <? c))) eqn:Eu; [apply shape_u4|].
  apply orb_false_iff in Eu as [El Eu].
  destruct (ascii_only cfg) eqn:Ea; [apply shape_x2; cbn [andb] in Eu; lia|].
  apply shape_raw. repeat split; intros; first [assumption | contradiction | tauto].
Qed.

Lemma simple_chunk_run k cfg prev c rest s tail :
  0 <= c <= 65535 -> is_high c = false -> inv s (c :: rest) ->
  exists s', inv s' rest /\
    run k s (simple_chunk cfg (quote_of k) prev c rest ++ tail) = option_map (cons c) (run k s' tail).
Proof.
  intros Hc Hh Hs.
  destruct (simple_chunk_shape cfg (quote_of k) prev c rest Hc Hh) as [R|x _ Hx| -> Hd|Hb|].
  - destruct R as (R92 & R13 & _ & _ & R10 & Rq & R36 & _).
    pose proof (inv_pend _ _ _ Hs) as Hp. cbn [app]. rewrite run_cons, (pend_step k _ _ Hp).
    assert (Hq : c <> quote_of k) by (destruct k; cbn [quote_of] in *; lia).
    destruct k; cbn [quote_of] in *; [| |destruct (Z.eq_dec c 36) as [->|N36]].
    (* in '..' and "..", and in a template unless the unit is `$`, it is an ordinary character *)
    1, 2, 4: exists Normal; split; [apply inv_normal|];
      rewrite normal_raw, units_small by (cbn [quote_of]; first [lia | discriminate | intros; lia | intros; congruence]);
      apply option_map_app_one.
    (* a raw `$` in a template: the next unit does not print as `{` *)
    exists Dollar. split; [right; right; split; [reflexivity|apply R36; reflexivity]|].
    apply option_map_app_one.
  - exists Normal. split; [apply inv_normal|].
    cbn [app]. rewrite (run_bs k _ _ _ Hs), run_cons, Hx. apply option_map_app_one.
  - exists Zero. split; [right; left; auto|].
    cbn [app]. rewrite (run_bs k _ _ _ Hs), run_cons.
    change (step k Esc 48) with (Some ([0], Zero)). apply option_map_app_one.
  - exists Normal. split; [apply inv_normal|]. apply run_esc_x2 with (rest := c :: rest); assumption.
  - exists Normal. split; [apply inv_normal|]. apply run_esc_u4 with (rest := c :: rest); assumption.
Qed.

Lemma quote_pend k s : inv s [] -> pend s (quote_of k).
Proof. intros H. eapply inv_pend_any; [exact H|destruct k; reflexivity|destruct k; cbn; lia]. Qed.

Lemma run_close k s : inv s [] -> run k s [quote_of k] = Some [].
Proof.
  intros H. rewrite run_cons, (pend_step k _ _ (quote_pend k s H)).
  unfold normal. rewrite Z.eqb_refl. reflexivity.
Qed.

Lemma run_wrap k wrap w s rest : wrap_chunk wrap w -> inv s rest ->
  exists s1, inv s1 rest /\ forall X, run k s (w ++ X) = run k s1 X.
Proof.
  intros [->|[_ ->]] Hs.
  - exists s. split; [exact Hs|reflexivity].
  - exists Normal. split; [apply inv_normal|]. intros X. cbn [app].
    rewrite (run_bs k s _ _ Hs), run_cons.
    change (step k Esc 10) with (Some (@nil Z, Normal)). apply option_map_app_nil.
Qed.

Lemma pair_chunk_run k cfg s rest c c2 X :
  0 <= c <= 65535 -> 0 <= c2 <= 65535 -> is_high c = true -> is_low c2 = true -> inv s rest ->
  run k s (pair_chunk cfg c c2 ++ X) = option_map (app [c; c2]) (run k Normal X).
Proof.
  intros Hc Hc2 Hh Hl Hs. unfold pair_chunk. pose proof (combine_range c c2 Hh Hl) as Hr.
  rewrite <- (units_pair c c2 Hh Hl).
  destruct (ascii_only cfg); [destruct (uni_esc cfg)|].
  - apply (run_esc_ubrace k s rest); assumption.
  - rewrite <- app_assoc, (units_pair c c2 Hh Hl).
    rewrite (run_esc_u4 k s rest) by assumption.
    rewrite (run_esc_u4 k Normal []) by (assumption || apply inv_normal).
    destruct (run k Normal X); reflexivity.
  - cbn [app]. rewrite run_cons, (pend_step k s (combine_add c c2)), normal_raw;
      [reflexivity|destruct k; cbn [quote_of]; lia|lia|lia|lia|lia|].
    eapply inv_pend_any; [exact Hs|unfold is_digit; lia|lia].
Qed.

Lemma pu_run k cfg wrap : forall text, all_u16 text -> forall prev sl i s, inv s text ->
  run k s (pu cfg (quote_of k) wrap prev sl i text ++ [quote_of k]) = Some text.
Proof.
  intros text Hu.
  apply (pu_cases cfg (quote_of k) wrap
           (fun _ text out => forall s, inv s text -> run k s (out ++ [quote_of k]) = Some text));
    [| | | |exact Hu]; clear text Hu.
  - intros _ s Hs. apply run_close, Hs.
  - intros w prev c rest out Hw Hc Hh IH s Hs.
    destruct (run_wrap k wrap w s _ Hw Hs) as [s1 [Hs1 E]]. rewrite <- !app_assoc, E.
    destruct (simple_chunk_run k cfg prev c rest s1 (out ++ [quote_of k]) Hc Hh Hs1) as [s' [Hs' ->]].
    rewrite IH by exact Hs'. reflexivity.
  - intros w _ c rest out Hw Hc Hh _ IH s Hs.
    destruct (run_wrap k wrap w s _ Hw Hs) as [s1 [Hs1 E]]. rewrite <- !app_assoc, E.
    rewrite (run_esc_u4 k s1 (c :: rest)) by assumption.
    rewrite IH by apply inv_normal. reflexivity.
  - intros w _ c c2 rest out Hw Hc Hc2 Hh Hl IH s Hs.
    destruct (run_wrap k wrap w s _ Hw Hs) as [s1 [Hs1 E]]. rewrite <- !app_assoc, E.
    rewrite (pair_chunk_run k cfg s1 (c :: c2 :: rest)) by assumption.
    rewrite IH by apply inv_normal. reflexivity.
Qed.

Lemma kind_of_quote k : kind_of (quote_of k) = Some k.
Proof. destruct k; reflexivity. Qed.

Lemma unquoted_cps_value cfg k nowrap linelen u :
  all_u16 u ->
  literal_value_cps (quote_of k :: print_unquoted_cps cfg (quote_of k) nowrap linelen u ++ [quote_of k]) = Some u.
Proof.
  intros Hu. unfold literal_value_cps. rewrite kind_of_quote.
  apply pu_run; [exact Hu|apply inv_normal].
Qed.

Lemma choose_quote_kind cfg abt u : exists k, choose_quote cfg abt u = quote_of k.
Proof.
  unfold choose_quote. destruct (costs _ _ _ _ _) as [[s d] b].
  destruct (s <? d).
  - destruct ((b <? s) && _); [exists KTemplate|exists KSingle]; reflexivity.
  - destruct ((b <? d) && _); [exists KTemplate|exists KDouble]; reflexivity.
Qed.

Lemma quoted_cps_value cfg abt nowrap linelen u :
  all_u16 u -> literal_value_cps (print_quoted_cps cfg abt nowrap linelen u) = Some u.
Proof.
  intros Hu. unfold print_quoted_cps. destruct (choose_quote_kind cfg abt u) as [k ->].
  apply unquoted_cps_value. exact Hu.
Qed.

(* what holds of every code point printed: a scalar value, below 128 under
   the ASCII charset, never a raw CR, LS or PS, and (nolf) no raw LF *)
Definition good (ascii : bool) (nolf : bool) (x : Z) : bool :=
  scalar x && (if ascii then x <? 128 else true)
  && negb (x =? 13) && negb (x =? 8232) && negb (x =? 8233) && (if nolf then negb (x =? 10) else true).

Lemma printable_good a n x : 32 <= x <= 126 -> good a n x = true.
Proof. intros H. unfold good, scalar. destruct a, n; lia. Qed.

Lemma hexc_good a n d : 0 <= d < 16 -> good a n (hexc d) = true.
Proof. intros H. apply printable_good. destruct (hexc_range d H); lia. Qed.

Lemma esc_u4_good a n c : 0 <= c <= 65535 -> forallb (good a n) (esc_u4 c) = true.
Proof.
  intros H. unfold esc_u4. cbn [forallb].
  rewrite !hexc_good, !printable_good by lia. reflexivity.
Qed.
Lemma esc_x2_good a n c : 0 <= c <= 255 -> forallb (good a n) (esc_x2 c) = true.
Proof.
  intros H. unfold esc_x2. cbn [forallb].
  rewrite !hexc_good, !printable_good by lia. reflexivity.
Qed.
Lemma esc_ubrace_good a n r : 65536 <= r <= 1114111 -> forallb (good a n) (esc_ubrace r) = true.
Proof.
  intros H. destruct (hexX_digits_spec r H) as (E & Hd & _).
  unfold esc_ubrace. rewrite E, !forallb_app. cbn [forallb]. rewrite !printable_good by lia.
  replace (forallb (good a n) (map hexc (hexX_digits r))) with true; [reflexivity|].
  symmetry. apply forallb_forall. intros x Hx. apply in_map_iff in Hx as (d & <- & Hin).
  apply hexc_good. unfold hexdigits in Hd. rewrite Forall_forall in Hd. apply Hd, Hin.
Qed.

Lemma simple_chunk_good cfg q prev c rest nolf :
  0 <= c <= 65535 -> is_high c = false ->
  (nolf = true -> q <> 96) ->
  forallb (good (ascii_only cfg) nolf) (simple_chunk cfg q prev c rest) = true.
Proof.
  intros Hc Hh Hq. destruct (simple_chunk_shape cfg q prev c rest Hc Hh) as [R|x Hx _|_ _|Hb|].
  - destruct R as (_ & R13 & R2028 & R2029 & R10 & _ & _ & _ & Rbig).
    cbn [forallb]. rewrite andb_true_r. unfold good, scalar. unfold is_high in Hh.
    destruct (Z.leb_spec c 126) as [Hs|Hs].
    + destruct (ascii_only cfg), nolf; lia.
    + destruct (Rbig Hs) as [-> Hl]. unfold is_low in Hl. destruct nolf; lia.
  - cbn [forallb]. rewrite !printable_good by lia. reflexivity.
  - cbn [forallb]. rewrite !printable_good by lia. reflexivity.
  - apply esc_x2_good. exact Hb.
  - apply esc_u4_good. exact Hc.
Qed.

Lemma pair_chunk_good cfg nolf c c2 :
  0 <= c <= 65535 -> 0 <= c2 <= 65535 -> is_high c = true -> is_low c2 = true ->
  forallb (good (ascii_only cfg) nolf) (pair_chunk cfg c c2) = true.
Proof.
  intros Hc Hc2 Hh Hl. unfold pair_chunk. pose proof (combine_range c c2 Hh Hl) as Hr.
  destruct (ascii_only cfg) eqn:Ea.
  - destruct (uni_esc cfg); [apply esc_ubrace_good; exact Hr|].
    rewrite forallb_app, !esc_u4_good by assumption. reflexivity.
  - cbn [forallb]. unfold good, scalar. destruct nolf; lia.
Qed.

Lemma pu_good cfg q wrap nolf :
  (nolf = true -> q <> 96 /\ wrap = false) ->
  forall text, all_u16 text -> forall prev sl i,
  forallb (good (ascii_only cfg) nolf) (pu cfg q wrap prev sl i text) = true.
Proof.
  intros Hn text Hu.
  (* the escaped newline of line wrapping is a raw LF *)
  assert (Hw : forall w, wrap_chunk wrap w -> forallb (good (ascii_only cfg) nolf) w = true).
  { intros w [->|[-> ->]]; [reflexivity|].
    destruct nolf; [destruct (Hn eq_refl); discriminate|]. destruct (ascii_only cfg); reflexivity. }
  apply (pu_cases cfg q wrap (fun _ _ out => forallb (good (ascii_only cfg) nolf) out = true));
    [| | | |exact Hu]; clear text Hu.
  - reflexivity.
  - intros w prev c rest out W Hc Hh IH.
    rewrite !forallb_app, (Hw w W), IH, simple_chunk_good; [reflexivity|exact Hc|exact Hh|].
    intros E. apply Hn, E.
  - intros w _ c rest out W Hc _ _ IH.
    rewrite !forallb_app, (Hw w W), IH, esc_u4_good by exact Hc. reflexivity.
  - intros w _ c c2 rest out W Hc Hc2 Hh Hl IH.
    rewrite !forallb_app, (Hw w W), IH, pair_chunk_good by assumption. reflexivity.
Qed.

Lemma good_scalar a n l : forallb (good a n) l = true -> forallb scalar l = true.
Proof.
  intros H. rewrite forallb_forall in *. intros x Hx. specialize (H x Hx).
  unfold good in H. destruct (scalar x); [reflexivity|discriminate].
Qed.

Lemma print_unquoted_cps_good cfg q nowrap linelen u :
  all_u16 u -> forallb (good (ascii_only cfg) false) (print_unquoted_cps cfg q nowrap linelen u) = true.
Proof. intros Hu. apply pu_good; [discriminate|exact Hu]. Qed.

Lemma unquoted_cps_good cfg k nowrap linelen u :
  all_u16 u ->
  forallb (good (ascii_only cfg) false)
    (quote_of k :: print_unquoted_cps cfg (quote_of k) nowrap linelen u ++ [quote_of k]) = true.
Proof.
  intros Hu. assert (Hq : good (ascii_only cfg) false (quote_of k) = true) by (apply printable_good; destruct k; cbn; lia).
  cbn [forallb]. rewrite forallb_app. cbn [forallb]. rewrite Hq, print_unquoted_cps_good by exact Hu. reflexivity.
Qed.

Lemma print_quoted_cps_good cfg abt nowrap linelen u :
  all_u16 u -> forallb (good (ascii_only cfg) false) (print_quoted_cps cfg abt nowrap linelen u) = true.
Proof.
  intros Hu. unfold print_quoted_cps. destruct (choose_quote_kind cfg abt u) as [k ->].
  apply unquoted_cps_good. exact Hu.
Qed.

Lemma quote_roundtrip_all cfg abt nowrap prefix u :
  all_u16 u -> literal_value (print_quoted cfg abt nowrap prefix u) = Some u.
Proof.
  intros Hu. unfold print_quoted. rewrite literal_value_to_bytes.
  - apply quoted_cps_value. exact Hu.
  - eapply good_scalar. apply print_quoted_cps_good. exact Hu.
Qed.

Lemma unquoted_roundtrip_all cfg k nowrap prefix u :
  all_u16 u ->
  literal_value (quote_of k :: print_unquoted cfg (quote_of k) nowrap prefix u ++ [quote_of k]) = Some u.
Proof.
  intros Hu. unfold print_unquoted. rewrite <- to_bytes_quoted, literal_value_to_bytes.
  - apply unquoted_cps_value. exact Hu.
  - eapply good_scalar. apply unquoted_cps_good. exact Hu.
Qed.

Lemma quote_ascii_all cfg abt nowrap prefix u :
  ascii_only cfg = true -> all_u16 u ->
  Forall (fun b => 0 <= b < 128) (print_quoted cfg abt nowrap prefix u).
Proof.
  intros Ha Hu. unfold print_quoted.
  pose proof (print_quoted_cps_good cfg abt nowrap (currentLineLength prefix) u Hu) as G.
  rewrite Ha in G.
  assert (A : forallb (fun x => (0 <=? x) && (x <? 128)) (print_quoted_cps cfg abt nowrap (currentLineLength prefix) u) = true).
  { rewrite forallb_forall in *. intros x Hx. specialize (G x Hx). unfold good, scalar in G. lia. }
  rewrite to_bytes_ascii by exact A.
  rewrite forallb_forall in A. apply Forall_forall. intros x Hx. specialize (A x Hx). lia.
Qed.

(* no raw CR / LS / PS ever; no raw LF in '..' and ".." literals unless it
   is the escaped newline of line wrapping *)
Definition no_lt (nolf : bool) (x : Z) : Prop :=
  x <> 13 /\ x <> 8232 /\ x <> 8233 /\ (nolf = true -> x <> 10).

Lemma quote_no_raw_lt_all cfg k nowrap prefix u :
  all_u16 u ->
  let nolf := negb (quote_of k =? 96) && negb ((0 <? line_limit cfg) && negb nowrap) in
  exists cps, utf8_decode (print_unquoted cfg (quote_of k) nowrap prefix u) = Some cps /\
              Forall (no_lt nolf) cps.
Proof.
  intros Hu nolf. exists (print_unquoted_cps cfg (quote_of k) nowrap (currentLineLength prefix) u).
  assert (G : forallb (good (ascii_only cfg) nolf)
                (print_unquoted_cps cfg (quote_of k) nowrap (currentLineLength prefix) u) = true).
  { unfold print_unquoted_cps. apply pu_good; [|exact Hu].
    unfold nolf. intros E. apply andb_true_iff in E as [E1 E2]. split; [lia|].
    destruct ((0 <? line_limit cfg) && negb nowrap); [discriminate|reflexivity]. }
  split.
  - unfold print_unquoted. apply utf8_roundtrip. eapply good_scalar. exact G.
  - rewrite forallb_forall in G. apply Forall_forall. intros x Hx. specialize (G x Hx).
    unfold good in G. unfold no_lt. destruct nolf; repeat split; try lia; intros; try lia.
Qed.

Lemma esc_u4_scalar c : 0 <= c <= 65535 -> forallb scalar (esc_u4 c) = true.
Proof. intros H. eapply good_scalar, (esc_u4_good false false), H. Qed.
Lemma esc_ubrace_scalar r : 65536 <= r <= 1114111 -> forallb scalar (esc_ubrace r) = true.
Proof. intros H. eapply good_scalar, (esc_ubrace_good false false), H. Qed.

Lemma irun_cons s c r :
  irun s (c :: r) = match istep s c with
                    | None => None
                    | Some (emit, s') => option_map (app emit) (irun s' r)
                    end.
Proof. reflexivity. Qed.

Lemma istep_IU0_hex d : 0 <= d < 16 -> istep IU0 (hexc d) = Some ([], IU4 3 d).
Proof.
  intros H. cbn [istep]. destruct (hexc_range d H); (destruct (hexc d =? 123) eqn:E; [lia|]);
    rewrite hexc_hexval by exact H; reflexivity.
Qed.
Lemma istep_IU4_hex n v d : 0 <= d < 16 ->
  istep (IU4 n v) (hexc d) = match n with
                             | S (S k') => Some ([], IU4 (S k') (v * 16 + d))
                             | _ => Some ([v * 16 + d], INormal)
                             end.
Proof. intros H. cbn [istep]. rewrite hexc_hexval by exact H. reflexivity. Qed.
Lemma istep_IUB0_hex d : 0 <= d < 16 -> istep IUB0 (hexc d) = Some ([], IUB d).
Proof. intros H. cbn [istep]. rewrite hexc_hexval by exact H. reflexivity. Qed.
Lemma istep_IUB_hex v d : 0 <= d < 16 -> v * 16 + d <= 1114111 ->
  istep (IUB v) (hexc d) = Some ([], IUB (v * 16 + d)).
Proof.
  intros H Hv. cbn [istep]. destruct (hexc_range d H); (destruct (hexc d =? 125) eqn:E; [lia|]);
    rewrite hexc_hexval by exact H; (destruct (1114111 <? v * 16 + d) eqn:E2; [lia|reflexivity]).
Qed.

Lemma irun_esc_u4 c tail :
  0 <= c <= 65535 -> irun INormal (esc_u4 c ++ tail) = option_map (cons c) (irun INormal tail).
Proof.
  intros Hc. unfold esc_u4. cbn [app].
  rewrite irun_cons. change (istep INormal 92) with (Some (@nil Z, IEsc)). cbn beta iota. rewrite option_map_app_nil.
  rewrite irun_cons. change (istep IEsc 117) with (Some (@nil Z, IU0)). cbn beta iota. rewrite option_map_app_nil.
  rewrite irun_cons, istep_IU0_hex by lia. rewrite option_map_app_nil.
  rewrite irun_cons, istep_IU4_hex by lia. rewrite option_map_app_nil.
  rewrite irun_cons, istep_IU4_hex by lia. rewrite option_map_app_nil.
  rewrite irun_cons, istep_IU4_hex by lia. rewrite option_map_app_one.
  f_equal. f_equal. lia.
Qed.

Lemma irun_IUB_digits tail ds : hexdigits ds -> forall v, 0 <= v -> hexnum v ds <= 1114111 ->
  irun (IUB v) (map hexc ds ++ 125 :: tail) = option_map (cons (hexnum v ds)) (irun INormal tail).
Proof.
  induction 1 as [|d ds Hd Hds IH]; intros v Hv Hb; cbn [map app hexnum] in *.
  { rewrite irun_cons. cbn [istep]. rewrite Z.eqb_refl. apply option_map_app_one. }
  pose proof (hexnum_ge ds Hds (v * 16 + d) ltac:(lia)).
  rewrite irun_cons, istep_IUB_hex, option_map_app_nil by lia. apply IH; lia.
Qed.

Lemma irun_esc_ubrace r tail :
  65536 <= r <= 1114111 -> irun INormal (esc_ubrace r ++ tail) = option_map (cons r) (irun INormal tail).
Proof.
  intros Hr. destruct (hexX_digits_spec r Hr) as (E & Hd & Hne & Hn).
  unfold esc_ubrace. rewrite E, <- !app_assoc. rewrite <- Hn at 2.
  destruct Hd as [|d ds Hd Hds]; [congruence|]. cbn [app map].
  rewrite irun_cons. change (istep INormal 92) with (Some (@nil Z, IEsc)). cbn beta iota. rewrite option_map_app_nil.
  rewrite irun_cons. change (istep IEsc 117) with (Some (@nil Z, IU0)). cbn beta iota. rewrite option_map_app_nil.
  rewrite irun_cons. change (istep IU0 123) with (Some (@nil Z, IUB0)). cbn beta iota. rewrite option_map_app_nil.
  rewrite irun_cons, istep_IUB0_hex, option_map_app_nil by exact Hd.
  apply (irun_IUB_digits tail ds Hds d); [lia|]. change (hexnum d ds) with (hexnum 0 (d :: ds)). lia.
Qed.

Lemma irun_raw c tail : c <> 92 -> irun INormal (c :: tail) = option_map (cons c) (irun INormal tail).
Proof.
  intros H. rewrite irun_cons. cbn [istep]. destruct (c =? 92) eqn:E; [lia|]. apply option_map_app_one.
Qed.

(* what ident_cps prints for one code point cp before what it prints for the rest *)
Definition ident_one (cfg : qcfg) (cp : Z) (k : option (list Z)) : option (list Z) :=
  match k with
  | None => None
  | Some tl =>
      if ascii_only cfg && (126 <? cp) then
        (if cp <=? 65535 then Some (esc_u4 cp ++ tl)
         else if uni_esc cfg then Some (esc_ubrace cp ++ tl) else None)
      else Some (cp :: tl)
  end.

Lemma ident_cps_pair cfg c c2 rest : is_high c = true -> is_low c2 = true ->
  ident_cps cfg (c :: c2 :: rest) = ident_one cfg (combine_add c c2) (ident_cps cfg rest).
Proof. intros Hh Hl. cbn [ident_cps]. rewrite Hh, Hl. reflexivity. Qed.

Lemma ident_cps_single cfg c rest : is_high c && is_low (hd 0 rest) = false ->
  ident_cps cfg (c :: rest) = ident_one cfg c (ident_cps cfg rest).
Proof.
  intros H. destruct rest as [|c2 r]; [reflexivity|].
  cbn [ident_cps hd] in *. rewrite H. reflexivity.
Qed.

Lemma ident_one_ok cfg cp tl out :
  scalar cp = true -> cp <> 92 -> ident_one cfg cp (Some tl) = Some out ->
  forallb scalar tl = true ->
  forallb scalar out = true /\ irun INormal out = option_map (cons cp) (irun INormal tl).
Proof.
  intros Hs Hne H Htl. unfold scalar in Hs. cbn [ident_one] in H.
  destruct (ascii_only cfg && (126 <? cp)) eqn:E.
  - destruct (cp <=? 65535) eqn:E2.
    + replace out with (esc_u4 cp ++ tl) by congruence. split.
      * rewrite forallb_app, Htl, esc_u4_scalar by lia. reflexivity.
      * apply irun_esc_u4. lia.
    + destruct (uni_esc cfg); [|discriminate]. replace out with (esc_ubrace cp ++ tl) by congruence. split.
      * rewrite forallb_app, Htl, esc_ubrace_scalar by lia. reflexivity.
      * apply irun_esc_ubrace. lia.
  - replace out with (cp :: tl) by congruence. split.
    + cbn [forallb]. rewrite Htl. unfold scalar. lia.
    + apply irun_raw. exact Hne.
Qed.

Lemma ident_cps_ok cfg : forall name, all_u16 name -> forall cps,
  wf_utf16 name = true -> ~ In 92 name ->
  ident_cps cfg name = Some cps ->
  forallb scalar cps = true /\
  exists v, irun INormal cps = Some v /\ flat_map utf16_units v = name.
Proof.
  intros name Hu. induction Hu as [|c c2 rest Hc Hc2 Hh Hl IH|c rest Hc Hp IH] using utf16_ind;
    intros cps Hwf Hbs H.
  - inversion H; subst. split; [reflexivity|exists []; auto].
  - rewrite (wf_pair c c2 rest Hh Hl) in Hwf. rewrite (ident_cps_pair cfg c c2 rest Hh Hl) in H.
    destruct (ident_cps cfg rest) as [tl|] eqn:Et; [|discriminate].
    destruct (IH tl Hwf) as [T1 [v [T2 T3]]]; [intros Hin; apply Hbs; right; right; exact Hin|reflexivity|].
    pose proof (combine_range c c2 Hh Hl) as Hr.
    destruct (ident_one_ok cfg (combine_add c c2) tl cps) as [G1 G2]; [unfold scalar; lia|lia|exact H|exact T1|].
    split; [exact G1|]. exists (combine_add c c2 :: v). split; [rewrite G2, T2; reflexivity|].
    cbn [flat_map]. rewrite (units_pair c c2 Hh Hl), T3. reflexivity.
  - rewrite (wf_single c rest Hp) in Hwf. apply andb_true_iff in Hwf as [Hwf Hwr].
    apply andb_true_iff in Hwf as [Hnh Hnl].
    rewrite (ident_cps_single cfg c rest Hp) in H.
    destruct (ident_cps cfg rest) as [tl|] eqn:Et; [|discriminate].
    destruct (IH tl Hwr) as [T1 [v [T2 T3]]]; [intros Hin; apply Hbs; right; exact Hin|reflexivity|].
    assert (Hsc : scalar c = true) by (unfold scalar; unfold is_high in Hnh; unfold is_low in Hnl; lia).
    destruct (ident_one_ok cfg c tl cps Hsc) as [G1 G2]; [intros E; apply Hbs; left; lia|exact H|exact T1|].
    split; [exact G1|]. exists (c :: v). split; [rewrite G2, T2; reflexivity|].
    cbn [flat_map]. rewrite units_small by lia. rewrite T3. reflexivity.
Qed.

Lemma ident_roundtrip_all cfg name out :
  all_u16 name -> wf_utf16 name = true -> ~ In 92 name ->
  print_identifier_utf16 cfg name = Some out -> ident_value out = Some name.
Proof.
  intros Hu Hwf Hbs H. unfold print_identifier_utf16 in H.
  destruct (ident_cps cfg name) as [cps|] eqn:E; [|discriminate]. inversion H; subst.
  destruct (ident_cps_ok cfg name Hu cps Hwf Hbs E) as [G1 [v [G2 G3]]].
  unfold ident_value. rewrite utf8_roundtrip by exact G1. rewrite G2. cbn [option_map]. rewrite G3. reflexivity.
Qed.

(* Go's `for range` decoder (StringToUTF16) does not invert UTF16ToString on
   lone surrogates: WTF-8 bytes ED A0 80 become three U+FFFD *)
Lemma string_to_utf16_not_inverse :
  exists u, all_u16 u /\ StringToUTF16 (UTF16ToString u) <> u.
Proof.
  exists [55296]. split; [repeat constructor; lia|]. vm_compute. discriminate.
Qed.
