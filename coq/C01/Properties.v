(* C01 property theorems. This file contains only statements closed by
   [exact lemma] and Print Assumptions. *)
From V Require Import Common.Base C01.Utf C01.Quote C01.SpecLiteral C01.QuoteProofs.
From V Require Import C01.Num C01.SpecNumeric C01.NumProofs C01.NumProofs2 C01.NumFlag C01.ScriptProofs.
From V Require Import C13.Token C13.ParseSpec C01.CommaTrace.
From V Require Import gen.IdTablesGen C01.Keys C01.KeysProofs.
From V Require Import C01.Template C01.TemplateProofs C01.Tagged C01.TaggedProofs C01.Directive.

(* printQuotedUTF16: for EVERY sequence of UTF-16 code units (lone surrogates
   included), every configuration (charset, unicode-escape support,
   inline-script guard, line limit and wrapping column, minify-syntax quote
   cost, template support, backtick allowed or not), the bytes printed are a
   string literal / no-substitution template whose ECMA-262 String Value /
   Template Value is exactly the input sequence. *)
Theorem quote_roundtrip : forall cfg allow_backtick nowrap prefix u,
  all_u16 u -> literal_value (print_quoted cfg allow_backtick nowrap prefix u) = Some u.
Proof. exact quote_roundtrip_all. Qed.
Print Assumptions quote_roundtrip.

(* printUnquotedUTF16 between any of the three quote characters (this is how
   template literals and PreferTemplate strings are printed) *)
Theorem unquoted_roundtrip : forall cfg k nowrap prefix u,
  all_u16 u ->
  literal_value (quote_of k :: print_unquoted cfg (quote_of k) nowrap prefix u ++ [quote_of k]) = Some u.
Proof. exact unquoted_roundtrip_all. Qed.
Print Assumptions unquoted_roundtrip.

(* ASCII charset: every output byte is below 128 *)
Theorem quote_ascii : forall cfg allow_backtick nowrap prefix u,
  ascii_only cfg = true -> all_u16 u ->
  Forall (fun b => 0 <= b < 128) (print_quoted cfg allow_backtick nowrap prefix u).
Proof. exact quote_ascii_all. Qed.
Print Assumptions quote_ascii.

(* the output never contains a raw CR, U+2028 or U+2029, and contains a raw
   LF only inside a template or as the escaped newline of line wrapping *)
Theorem quote_no_raw_line_terminator : forall cfg k nowrap prefix u,
  all_u16 u ->
  let nolf := negb (quote_of k =? 96) && negb ((0 <? line_limit cfg) && negb nowrap) in
  exists cps, utf8_decode (print_unquoted cfg (quote_of k) nowrap prefix u) = Some cps /\
              Forall (no_lt nolf) cps.
Proof. exact quote_no_raw_lt_all. Qed.
Print Assumptions quote_no_raw_line_terminator.

(* with the inline-script guard on (platform browser), the printed literal
   never contains "</script" in any ASCII letter case: every UTF-16 sequence,
   every other setting (wrapping, charset, quote choice) *)
Theorem quote_no_script_close : forall cfg allow_backtick nowrap prefix u,
  script_guard cfg = true -> all_u16 u ->
  exists cps, utf8_decode (print_quoted cfg allow_backtick nowrap prefix u) = Some cps /\
              contains_ci script_close cps = false.
Proof. exact quote_no_script_close_bytes. Qed.
Print Assumptions quote_no_script_close.

(* printIdentifierUTF16: when it returns (it panics for a non-BMP name under
   ASCII without \u{...} support), the text printed denotes, as an ECMA-262
   IdentifierName (escapes \uHHHH and \u{H+} resolved), exactly the name:
   every well-formed UTF-16 name without a backslash, every configuration *)
Theorem ident_roundtrip : forall cfg name out,
  all_u16 name -> wf_utf16 name = true -> ~ In 92 name ->
  print_identifier_utf16 cfg name = Some out -> ident_value out = Some name.
Proof. exact ident_roundtrip_all. Qed.
Print Assumptions ident_roundtrip.

(* helpers.StringToUTF16 (helpers.UTF16ToString u) = u is FALSE for lone
   surrogates (witness [0xD800] -> ED A0 80 -> FFFD FFFD FFFD); this is the path
   printQuotedUTF8 takes (import paths, directives, clause aliases), not the
   path of string literals (which stay UTF-16). Replayed on the real
   helpers by the `utf` correspondence family. *)
Theorem string_to_utf16_roundtrip_refuted :
  exists u, all_u16 u /\ StringToUTF16 (UTF16ToString u) <> u.
Proof. exact string_to_utf16_not_inverse. Qed.
Print Assumptions string_to_utf16_roundtrip_refuted.

(* the rewriting printNonNegativeFloat applies to FormatFloat's text keeps the
   exact mathematical value (ECMA-262 MV), for EVERY text of the shape
   strconv.FormatFloat(v,'g'/'e',-1,64) can produce for a finite v >= 0
   ([float_text]: digits | digits.digits | 0.digits not all zero |
   digits[.digits]e[+-]digits with a non-zero exponent), in fact for a wider
   set (any number of integer digits, optional sign, leading zeros in the
   exponent).  Examples: "1000" => "1e3", "0.001" => "1e-3" / ".001",
   "1.2e+24" => "12e23", "1.5e-07" => "15e-8", "1.2e+01" => "12", "1e+21" => "1e21". *)
Theorem shorten_value : forall mw s,
  float_text s -> exists a b, mv (shorten mw s) = Some a /\ mv s = Some b /\ dec_eq a b.
Proof. exact shorten_value_all. Qed.
Print Assumptions shorten_value.

(* the executable recogniser the correspondence run evaluates on every text
   strconv really produced accepts only texts of that shape *)
Theorem float_text_recogniser_sound : forall s, float_text_b s = true -> float_text s.
Proof. exact float_text_b_sound. Qed.
Print Assumptions float_text_recogniser_sound.

(* "0x" ++ FormatUint(v,16) is a HexIntegerLiteral whose MV is exactly v *)
Theorem hex_path_exact : forall v, 0 <= v < 16 ^ 64 -> mv ([48; 120] ++ to_hex v) = Some (v, 0).
Proof. exact hex_literal_value. Qed.
Print Assumptions hex_path_exact.

(* the < 1000 fast path prints a DecimalIntegerLiteral whose MV is exactly v *)
Theorem small_int_exact : forall v, 0 <= v < 10 ^ 64 -> mv (smallIntToBytes v) = Some (v, 0).
Proof. exact small_int_value. Qed.
Print Assumptions small_int_exact.

(* printNonNegativeFloat as a whole: the bytes printed are a JS numeric literal
   denoting either exactly the value of FormatFloat's text or exactly the
   float's integer value (small-integer and hex paths) *)
Theorem print_float_value : forall mw bits s,
  0 <= bits -> float_text s ->
  let out := fst (printNonNegativeFloat mw bits s) in
  value_preserved out s \/ exists v, float_int bits = Some v /\ mv out = Some (v, 0).
Proof. exact print_float_value_all. Qed.
Print Assumptions print_float_value.

(* the same with the trusted facts about strconv named: IF FormatFloat's text
   has the documented shape THEN for every float64 the printed literal denotes
   the value of that text or exactly the float.  (That the text's value rounds
   back to the float - the shortest-round-trip property - is the remaining
   trusted fact; the harness checks it per case with exact arithmetic.) *)
Theorem print_number_literal_value : forall (FormatFloat : Z -> bytes),
  (forall bits, 0 <= bits -> float_text (FormatFloat bits)) ->
  forall mw bits, 0 <= bits ->
    let out := fst (printNonNegativeFloat mw bits (FormatFloat bits)) in
    value_preserved out (FormatFloat bits) \/ exists v, float_int bits = Some v /\ mv out = Some (v, 0).
Proof. exact print_number_literal_value_all. Qed.
Print Assumptions print_number_literal_value.

(* needSpaceBeforeDot: for every float and every FormatFloat text shape the flag
   printNonNegativeFloat sets is true exactly when the bytes printed are a bare
   run of decimal digits - the only case in which a following "." would be
   read as a decimal point ("1 .toString()"); "1e3", ".5", "1.5", "0x10" need no space *)
Theorem shorten_dot_flag : forall mw bits s,
  0 <= bits -> float_text s ->
  snd (printNonNegativeFloat mw bits s) = forallb dig (fst (printNonNegativeFloat mw bits s)).
Proof. exact shorten_dot_flag_all. Qed.
Print Assumptions shorten_dot_flag.

(* C13 proves that printing then parsing a tree gives back [norm tree] (comma
   re-nesting).  On the fragment norm acts on (identifiers, literals, member /
   index access, unary, binary, assignment, comma, conditional: [cexpr], embedded
   into C13's tree type by [embed]) C13's norm is [cnorm] ... *)
Theorem c13_norm_on_fragment : forall e, norm (embed e) = embed (cnorm e).
Proof. exact norm_embed_all. Qed.
Print Assumptions c13_norm_on_fragment.

(* ... and [cnorm] preserves behaviour: in EVERY compositional semantics in
   which `l , r` is "evaluate l, GetValue, evaluate r, GetValue" (ECMA-262
   13.16.1) and GetValue is idempotent, a tree and its normal form have the
   same meaning (value, final state, failure). *)
Theorem norm_preserves_meaning :
  forall (S V : Type) m_id m_num m_re m_dot m_un m_bin m_cond m_index,
  (forall f f' s, den_eq S V f f' -> den_eq S V (m_dot f s) (m_dot f' s)) ->
  (forall o f f', den_eq S V f f' -> den_eq S V (m_un o f) (m_un o f')) ->
  (forall o f f' g g', den_eq S V f f' -> den_eq S V g g' -> den_eq S V (m_bin o f g) (m_bin o f' g')) ->
  (forall c c' y y' n n', den_eq S V c c' -> den_eq S V y y' -> den_eq S V n n' ->
     den_eq S V (m_cond c y n) (m_cond c' y' n')) ->
  (forall f f' g g', den_eq S V f f' -> den_eq S V g g' -> den_eq S V (m_index f g) (m_index f' g')) ->
  forall getvalue : V -> S -> option (V * S),
  (forall v s w s', getvalue v s = Some (w, s') -> getvalue w s' = Some (w, s')) ->
  forall e,
    den_eq S V (meaning S V m_id m_num m_re m_dot m_un m_bin m_cond m_index getvalue (cnorm e))
               (meaning S V m_id m_num m_re m_dot m_un m_bin m_cond m_index getvalue e).
Proof. exact norm_meaning_all. Qed.
Print Assumptions norm_preserves_meaning.

(* instance: a left-to-right trace semantics with a variable store, Read /
   Write / GetProp / GetIndex events, References and GetValue, simple, compound
   and logical assignment, short-circuit && || ??, conditional, ++/--,
   arithmetic with failing division: for every tree and every initial state,
   the same value, the same final store and the same event trace (or both fail) *)
Theorem norm_preserves_trace : forall e s, trace_eval (cnorm e) s = trace_eval e s.
Proof. exact norm_trace_all. Qed.
Print Assumptions norm_preserves_trace.

(* the identifier tables REGENERATED from internal/js_ast/unicode.go on this
   run contain no surrogate code point and stay within 0..U+10FFFF (this is
   what makes "esbuild calls it an identifier" imply well-formed UTF-16) *)
Theorem id_tables_well_formed :
  table_ok id_start_es5_and_esnext = true /\ table_ok id_continue_es5_and_esnext = true.
Proof. exact (conj id_start_table_ok id_continue_table_ok). Qed.
Print Assumptions id_tables_well_formed.

(* printProperty with a string key, for EVERY UTF-16 key string, every
   configuration and either value of PreferQuotedKey: the printer never reaches
   the "Cannot encode identifier" panic, and the text it prints for the key -
   an IdentifierName (`{a: 1}`, `{\u00E9: 1}`, `{\u{20BB7}: 1}`) or a string
   literal (`{"a b": 1}`) - denotes exactly the same property key. *)
Theorem string_key_identity : forall cfg prefer_quoted key,
  all_u16 key -> exists out, print_string_key cfg prefer_quoted key = Some out /\ key_value out = Some key.
Proof. exact string_key_identity_all. Qed.
Print Assumptions string_key_identity.

(* member access `obj.name` / `obj["name"]` (EDot): for EVERY name (any
   sequence of Unicode scalar values, i.e. any Go string that is valid UTF-8),
   every configuration and column, the printer's choice between ".name"
   (raw, or escaped by QuoteIdentifier under the ASCII charset) and ["name"]
   yields a text denoting exactly the same property key; QuoteIdentifier's
   "Cannot encode identifier" panic is unreachable. *)
Theorem member_name_identity : forall cfg linelen rs,
  forallb scalar rs = true ->
  exists out, print_dot_name cfg linelen rs = Some out /\ member_key out = Some (flat_map rune_units rs).
Proof. exact member_name_identity_all. Qed.
Print Assumptions member_name_identity.

(* an untagged template literal with any number of substitutions: for EVERY
   cooked head and tails (all UTF-16 sequences, lone surrogates included),
   every configuration and every column, the code points printed (each
   `${ expression }` standing as one marker) are split by the ECMA-262
   template lexical grammar (TemplateHead / Middle / Tail, TV with CR/CRLF
   cooking, `$` not followed by `{`, \0 not followed by a digit, line
   continuations from --line-limit) into exactly the cooked chunks.  What the
   expressions print as is outside this theorem. *)
Theorem template_roundtrip : forall cfg prefix head tails,
  all_u16 head -> Forall all_u16 tails ->
  template_value (template_cps cfg prefix head tails) = Some (head :: tails).
Proof. exact template_roundtrip_all. Qed.
Print Assumptions template_roundtrip.

(* under the ASCII charset everything the template printer emits outside the
   substitutions is below 128 *)
Theorem template_ascii : forall cfg prefix head tails,
  ascii_only cfg = true -> all_u16 head -> Forall all_u16 tails ->
  Forall (fun x => x = SUBST \/ 0 <= x < 128) (template_cps cfg prefix head tails).
Proof. exact template_cps_ascii. Qed.
Print Assumptions template_ascii.

(* BigInt and regular expression literals are printed verbatim (digits / body
   and flags byte for byte), preceded by at most one space *)
Theorem bigint_printed_verbatim : forall js v,
  exists sp, print_bigint js v = sp ++ v ++ [110] /\ (sp = [] \/ sp = [32]).
Proof. exact bigint_verbatim. Qed.
Print Assumptions bigint_printed_verbatim.
Theorem regexp_printed_verbatim : forall cfg js v,
  exists sp, print_regexp cfg js v = sp ++ v /\ (sp = [] \/ sp = [32]).
Proof. exact regexp_verbatim. Qed.
Print Assumptions regexp_printed_verbatim.
(* ... and the space is there whenever the previous byte is "/" (no line
   comment, on every platform: /repo fix c46361e) or, with the inline-script
   guard, "<" before a text starting with /script in any ASCII case *)
Theorem regexp_boundary_guard : forall cfg js last v,
  print_regexp cfg (js ++ [last]) v = [32] ++ v \/
  (last <> 47 /\ (script_guard cfg = true -> last = 60 -> starts_slash_script v = false)).
Proof. exact regexp_guard. Qed.
Print Assumptions regexp_boundary_guard.

(* a tagged template is printed as "`" HeadRaw ( ${ expr } TailRaw )* "`" with
   the stored raw strings verbatim.  For every raw text the lexer can have
   stored (js_lexer.CookedAndRawTemplateContents: the chunk's source text with
   <CR><LF> and <CR> already replaced by <LF>; a complete chunk: no unescaped
   backtick or ${ inside, no trailing backslash - [lexer_raw]) and any number
   of substitutions, the Template Raw Values (ECMA-262 12.9.6 TRV) of the
   printed template are exactly the stored raw strings (as UTF-16).  Since the
   cooked strings (including `undefined` for an invalid escape, ES2018) are a
   function of the raw text, they are preserved as well. *)
Theorem tagged_template_raw_roundtrip : forall head tails,
  lexer_raw head -> Forall lexer_raw tails ->
  raw_value (tagged_cps head tails) = Some (map units (head :: tails)).
Proof. exact tagged_raw_roundtrip_all. Qed.
Print Assumptions tagged_template_raw_roundtrip.

(* the bytes of the model are the rendering of those code points (one
   `${this}` per marker in the correspondence run) *)
Theorem tagged_template_bytes : forall head tails,
  render (tagged_cps head tails) = print_tagged (to_bytes head) (map to_bytes tails)
  \/ In SUBST head \/ Exists (In SUBST) tails.
Proof. exact print_tagged_render. Qed.
Print Assumptions tagged_template_bytes.

(* The statement that SHOULD hold: transforming a body does not change whether
   it is strict,
       forall cfg src, strict_preserved cfg src
   i.e. prologue_strict (roundtrip cfg src) = prologue_strict src, where
   roundtrip is the end-to-end model of js_parser + js_printer on the
   statements that matter (C01/Directive.v, tied to api.Transform + node by the
   `directive` correspondence family) and prologue_strict is ECMA-262 11.2.1.
   It is FALSE of the faithful model; the four witnesses are the recorded known
   findings, replayed on the real code by the fixed corpus on every run:
     wit_A   'use\x20strict'; ...          (escaped text is not a Use Strict Directive; printed unescaped)
     wit_A2  'use\u0020strict'; ...
     wit_B   ('use strict'); ...           (parenthesised string statement printed without parentheses)
     wit_C   'a' + 'b'; 'use strict'; ...  (dropped statement promotes the string into the prologue)
   In all four the source body is sloppy and the printed body is strict. *)
Theorem strict_preserved_refuted :
  ~ strict_preserved cfg_default wit_A /\ ~ strict_preserved cfg_default wit_A2 /\
  ~ strict_preserved cfg_default wit_B /\ ~ strict_preserved cfg_default wit_C.
Proof. exact strict_preserved_refuted_witnesses. Qed.
Print Assumptions strict_preserved_refuted.
