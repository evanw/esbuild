(* C01 lemmas: templates with substitutions split into exactly the cooked
   chunks; BigInt / regexp texts are printed verbatim. *)
From V Require Import Common.Base C01.Utf C01.Quote C01.SpecLiteral C01.QuoteProofs C01.Num C01.Template.

(* only the closing-quote branch of [normal] reaches Done, and it emits nothing *)
Lemma step_done_emits_nothing s e : step KTemplate s 96 = Some (e, Done) -> e = [].
Proof.
  intros H.
  destruct s; cbn in H; try discriminate; try (inversion H; reflexivity);
    destruct (hexval 96); discriminate.
Qed.

Lemma trun_close s cur : step KTemplate s 96 = Some ([], Done) -> trun s [96] cur = Some [cur].
Proof. intros H. cbn [trun]. replace (96 =? SUBST) with false by reflexivity. rewrite H, app_nil_r. reflexivity. Qed.

Lemma trun_subst s rest cur : step KTemplate s 96 = Some ([], Done) ->
  trun s (SUBST :: rest) cur = option_map (cons cur) (trun Normal rest []).
Proof.
  intros H. cbn [trun]. replace (SUBST =? SUBST) with true by reflexivity.
  unfold accepting. rewrite H. reflexivity.
Qed.

Lemma chunk_then : forall X s cur u,
  Forall (fun c => c <> SUBST) X ->
  run KTemplate s (X ++ [96]) = Some u ->
  exists s', step KTemplate s' 96 = Some ([], Done) /\
             forall rest, trun s (X ++ rest) cur = trun s' rest (cur ++ u).
Proof.
  induction X as [|c X IH]; intros s cur u Hn Hr; cbn [app] in *; rewrite run_cons in Hr.
  - destruct (step KTemplate s 96) as [[e s']|] eqn:Es; [|discriminate].
    destruct s'; try discriminate.
    pose proof (step_done_emits_nothing s e Es) as Ee. subst e.
    assert (Eu : u = []) by (cbn in Hr; congruence).
    exists s. split; [exact Es|].
    intros rest. rewrite Eu, app_nil_r. reflexivity.
  - inversion Hn as [|? ? Hc Hn']; subst.
    destruct (step KTemplate s c) as [[e s1]|] eqn:Es; [|discriminate].
    destruct (run KTemplate s1 (X ++ [96])) as [u1|] eqn:E1; [|discriminate].
    cbn in Hr. inversion Hr; subst.
    destruct (IH s1 (cur ++ e) u1 Hn' E1) as [s' [Hacc I]].
    exists s'. split; [exact Hacc|].
    intros rest. cbn [trun]. replace (c =? SUBST) with false by lia.
    rewrite Es, I, app_assoc. reflexivity.
Qed.

Lemma pu_no_subst cfg nowrap linelen u : all_u16 u ->
  Forall (fun c => c <> SUBST) (print_unquoted_cps cfg 96 nowrap linelen u).
Proof.
  intros Hu. pose proof (print_unquoted_cps_good cfg 96 nowrap linelen u Hu) as G.
  rewrite forallb_forall in G. apply Forall_forall. intros x Hx. specialize (G x Hx).
  unfold good, scalar, SUBST in *. lia.
Qed.

Lemma pu_template_run cfg nowrap linelen u : all_u16 u ->
  run KTemplate Normal (print_unquoted_cps cfg 96 nowrap linelen u ++ [96]) = Some u.
Proof.
  intros Hu. pose proof (unquoted_cps_value cfg KTemplate nowrap linelen u Hu) as H.
  unfold literal_value_cps in H. cbn [quote_of] in H. exact H.
Qed.

Lemma tails_value cfg : forall tails sofar,
  Forall all_u16 tails ->
  forall cur X, Forall (fun c => c <> SUBST) X -> forall u,
  run KTemplate Normal (X ++ [96]) = Some u ->
  trun Normal (X ++ tails_cps cfg sofar tails ++ [96]) cur = Some ((cur ++ u) :: tails).
Proof.
  induction tails as [|t r IH]; intros sofar Hu cur X HX u Hr;
    destruct (chunk_then X Normal cur u HX Hr) as [s' [Hacc ->]]; cbn [tails_cps app].
  - apply trun_close, Hacc.
  - inversion Hu as [|? ? Ht Hr']; subst. cbv zeta.
    rewrite (trun_subst s' _ _ Hacc), <- app_assoc.
    rewrite (IH _ Hr' [] _ (pu_no_subst cfg false _ t Ht) t (pu_template_run cfg false _ t Ht)).
    reflexivity.
Qed.

Lemma template_roundtrip_all cfg prefix head tails :
  all_u16 head -> Forall all_u16 tails ->
  template_value (template_cps cfg prefix head tails) = Some (head :: tails).
Proof.
  intros Hh Ht. unfold template_value, template_cps. cbv zeta.
  rewrite <- app_assoc.
  rewrite (tails_value cfg tails _ Ht [] _ (pu_no_subst cfg false _ head Hh) head (pu_template_run cfg false _ head Hh)).
  reflexivity.
Qed.

Lemma chunk_ascii cfg ll u : ascii_only cfg = true -> all_u16 u ->
  Forall (fun x => x = SUBST \/ 0 <= x < 128) (print_unquoted_cps cfg 96 false ll u).
Proof.
  intros Ha Hu. pose proof (print_unquoted_cps_good cfg 96 false ll u Hu) as G.
  rewrite Ha in G. rewrite forallb_forall in G. apply Forall_forall. intros x Hx. specialize (G x Hx).
  unfold good, scalar in G. right. lia.
Qed.

Lemma tails_cps_ascii cfg : ascii_only cfg = true ->
  forall tails, Forall all_u16 tails -> forall sofar, Forall (fun x => x = SUBST \/ 0 <= x < 128) (tails_cps cfg sofar tails).
Proof.
  intros Ha. induction 1 as [|t r Ht _ IH]; intros sofar; cbn [tails_cps]; [constructor|].
  cbv zeta. constructor; [left; reflexivity|].
  apply Forall_app. split; [apply chunk_ascii; assumption|apply IH].
Qed.

Lemma template_cps_ascii cfg prefix head tails :
  ascii_only cfg = true -> all_u16 head -> Forall all_u16 tails ->
  Forall (fun x => x = SUBST \/ 0 <= x < 128) (template_cps cfg prefix head tails).
Proof.
  intros Ha Hh Ht. unfold template_cps. cbv zeta.
  constructor; [right; lia|].
  apply Forall_app. split; [apply chunk_ascii; assumption|].
  apply Forall_app. split; [apply tails_cps_ascii; assumption|].
  constructor; [right; lia|constructor].
Qed.

Lemma bigint_verbatim js v : exists sp, print_bigint js v = sp ++ v ++ [110] /\ (sp = [] \/ sp = [32]).
Proof.
  unfold print_bigint, space_before_ident. destruct (rev js) as [|c r]; [exists []; auto|].
  destruct (ident_continue_ascii c); [exists [32]|exists []]; auto.
Qed.

Lemma regexp_verbatim cfg js v : exists sp, print_regexp cfg js v = sp ++ v /\ (sp = [] \/ sp = [32]).
Proof.
  unfold print_regexp, regexp_space. destruct (rev js) as [|c r]; [exists []; auto|].
  destruct ((c =? 47) || _); [exists [32]|exists []]; auto.
Qed.

(* no line comment and (with the guard) no "</script" across the boundary *)
Lemma regexp_guard cfg js last v :
  print_regexp cfg (js ++ [last]) v = [32] ++ v \/
  (last <> 47 /\ (script_guard cfg = true -> last = 60 -> starts_slash_script v = false)).
Proof.
  unfold print_regexp, regexp_space. rewrite rev_app_distr. cbn [rev app].
  destruct (last =? 47) eqn:E1; cbn [orb]; [left; reflexivity|].
  destruct (script_guard cfg && (last =? 60) && starts_slash_script v) eqn:E2; [left; reflexivity|].
  right. split; [lia|]. intros Hg Hl. rewrite Hg in E2. cbn [andb] in E2.
  replace (last =? 60) with true in E2 by lia. exact E2.
Qed.
