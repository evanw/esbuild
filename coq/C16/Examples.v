(* C16 non-vacuity: concrete non-trivial values meeting each theorem's hypotheses. *)
From V Require Import Common.Base C16.Checked C16.Spec C16.Wtf8 C16.Wtf8Proofs.

Example ex_decode_4byte : DecodeWTF8Rune [240; 159; 152; 128; 65] = Ok (128512, 4).
Proof. vm_compute. reflexivity. Qed.
Example ex_decode_truncated : DecodeWTF8Rune [240; 159; 152] = Ok (RuneError, 1).
Proof. vm_compute. reflexivity. Qed.
Example ex_decode_lone_surrogate : DecodeWTF8Rune [237; 160; 128] = Ok (55296, 3).
Proof. vm_compute. reflexivity. Qed.
Example ex_bytes_ok : bytes_ok [97; 34; 195; 169; 10; 240; 159; 152; 128; 195].
Proof. repeat constructor; lia. Qed.
(* the text a, quote, e-acute, newline, U+1F600, then a truncated sequence; JSON quoting, UTF-8 mode *)
Example ex_quote : QuoteForJSON [97; 34; 195; 169; 10; 240; 159; 152; 128; 195] false
  = Ok [34; 97; 92; 34; 195; 169; 92; 110; 240; 159; 152; 128; 92;117;70;70;70;68; 34].
Proof. vm_compute. reflexivity. Qed.
Example ex_quote_ascii : QuoteForJSON [240; 159; 152; 128; 195] true
  = Ok [34; 92;117;68;56;51;68; 92;117;68;69;48;48; 92;117;70;70;70;68; 34].
Proof. vm_compute. reflexivity. Qed.

From V Require Import C16.Vlq16 C16.CssNum C16.Pieces C16.Packet C16.PanicSites.
From V Require Import gen.PanicSitesGen.

(* DecodeVLQUTF16: "gggggggggB" has shift 45 at the last digit (zero shifts), "/////D" wraps int32;
   unit 0x141 is truncated to the byte 'A' *)
Example ex_vlq_small : DecodeVLQUTF16 [67; 44] = Ok (1, 1, true).
Proof. vm_compute. reflexivity. Qed.
Example ex_vlq_long : DecodeVLQUTF16 [103;103;103;103;103;103;103;103;103;66] = Ok (0, 10, true).
Proof. vm_compute. reflexivity. Qed.
Example ex_vlq_trunc_unit : DecodeVLQUTF16 [321] = Ok (0, 1, true).
Proof. vm_compute. reflexivity. Qed.
Example ex_vlq_bad : DecodeVLQUTF16 [103; 33] = Ok (0, 0, false).
Proof. vm_compute. reflexivity. Qed.

(* mappings "AAAA,CACA;AAgBA" with one source: three mappings on two lines *)
Example ex_maps : exists ms, ParseMappings [(0, 0, 1, 0, [65;65;65;65;44;67;65;67;65;59;65;65;103;66;65])] = Ok (PMap 1 0 ms) /\ length ms = 3%nat.
Proof. eexists. vm_compute. split; reflexivity. Qed.
Example ex_maps_err : ParseMappings [(0, 0, 1, 0, [65;67;65;65])] = Ok (PErr 0 4 1 1 1).
Proof. vm_compute. reflexivity. Qed.
Example ex_maps_neg_col : ParseMappings [(0, 0, 1, 0, [68])] = Ok (PErr 0 2 (-1) 1 0).
Proof. vm_compute. reflexivity. Qed.

Example ex_hex : parseHex [49; 65; 102; 70] = Ok (6911, true).
Proof. vm_compute. reflexivity. Qed.
Example ex_hex_wrap : parseHex [49;50;51;52;53;54;55;56;57] = Ok (591751049, true).
Proof. vm_compute. reflexivity. Qed.
(* "-0.50" -> "-.5" ; "1.0" -> "1" ; "0.0" -> "0" *)
Example ex_mangle : mangleNumber [45;48;46;53;48] = Ok ([45;46;53], true).
Proof. vm_compute. reflexivity. Qed.
Example ex_mangle2 : mangleNumber [46;48] = Ok ([48], true).
Proof. vm_compute. reflexivity. Qed.
(* shiftDot "-1.5" by -3 = "-.0015"; "1500" by -3 = "1.5"; "0.25" by 3 = "250" *)
Example ex_shift : shiftDot [45;49;46;53] (-3) = Ok ([45;46;48;48;49;53], true).
Proof. vm_compute. reflexivity. Qed.
Example ex_shift2 : shiftDot [48;46;50;53] 3 = Ok ([50;53;48], true).
Proof. vm_compute. reflexivity. Qed.

(* pieces: "xKEYC00000001y" with prefix KEY and two chunks; then a boundary that is too short *)
Example ex_pieces : breakOutputIntoPieces [120;75;69;89;67;48;48;48;48;48;48;48;49;121] [75;69;89] 0 2
  = Ok [([120], 1, 2); ([121], 0, 0)].
Proof. vm_compute. reflexivity. Qed.
Example ex_pieces_short : breakOutputIntoPieces [120;75;69;89;67;48;48] [75;69;89] 0 2 = Ok [([120;75;69;89;67;48;48], 0, 0)].
Proof. vm_compute. reflexivity. Qed.

(* packets: id 1 request with value [true, "a"] decodes; an id-only packet crashes *)
Example ex_packet : decodePacket [2;0;0;0; 5; 2;0;0;0; 1;1; 3; 1;0;0;0; 97]
  = Ok (Some (1, true, PArr [PBool true; PStr [97]])).
Proof. vm_compute. reflexivity. Qed.
Example ex_packet_crash : decodePacket [2;0;0;0] = Crash.
Proof. vm_compute. reflexivity. Qed.
Example ex_rlps : readLengthPrefixedSlice [2;0;0;0;7;8;9] = Ok ([7;8], [9], true).
Proof. vm_compute. reflexivity. Qed.

(* the generated inventory is not empty and contains protected parser/printer goroutines *)
Example ex_spawns : existsb (fun s => runs_parser_or_printer s && Nat.eqb (sp_recover s) 2) spawn_sites = true.
Proof. vm_compute. reflexivity. Qed.
Example ex_entries : (3 <= List.length lexer_entries)%nat.
Proof. vm_compute. repeat constructor. Qed.
Example ex_panics : (10 <= n_panics_typed)%nat /\ (10 <= n_panics_other)%nat.
Proof. vm_compute. split; repeat constructor. Qed.
(* int32 wrap: "//////D" accumulates 2^32-1 = -1 as int32, value -(-1 >> 1) = 1 *)
Example ex_vlq_wrap : DecodeVLQUTF16 [47;47;47;47;47;47;68] = Ok (1, 7, true).
Proof. vm_compute. reflexivity. Qed.

From V Require Import C16.CssIdent.
(* "ab\\41 c {}": the identifier is ab, escape 41, its terminating space is not part of the range *)
Example ex_roi : RangeOfIdentifier true [97;98;92;52;49;32;99;32;123;125] = Ok 7.
Proof. vm_compute. reflexivity. Qed.
(* an identifier that extends to the very end of the text *)
Example ex_roi_eof : RangeOfIdentifier true [120] = Ok 1.
Proof. vm_compute. reflexivity. Qed.
Example ex_roi_trunc : RangeOfIdentifier true [97;195] = Ok 2.
Proof. vm_compute. reflexivity. Qed.

From V Require Import C16.JsxEntities.
(* "a&amp;&#x41;&#66;&;&zz;&" : amp, two numeric entities, the empty entity and an unknown one stay as text *)
Example ex_jsxent : decodeJSXEntities true small_entity_table
  [97; 38;97;109;112;59; 38;35;120;52;49;59; 38;35;54;54;59; 38;59; 38;122;122;59; 38]
  = Ok [97; 38; 65; 66; 38;59; 38;122;122;59; 38].
Proof. vm_compute. reflexivity. Qed.
(* a code point above the BMP becomes a surrogate pair; an out-of-range number stays as text *)
Example ex_jsxent_astral : decodeJSXEntities true small_entity_table [38;35;120;49;70;54;48;48;59] = Ok [55357; 56832].
Proof. vm_compute. reflexivity. Qed.
Example ex_parseint_range : ParseInt32 [50;49;52;55;52;56;51;54;52;56] 10 = None /\ ParseInt32 [45;50;49;52;55;52;56;51;54;52;56] 10 = Some (-2147483648).
Proof. vm_compute. split; reflexivity. Qed.

From V Require Import C16.Vlq16Proofs.
(* two sections (3 sources + 2 names, then 1 source + 1 name): hypotheses of parsed_map_indices_in_range hold and
   the second section's indices are offset by the first section's counts: "AAAAC" -> source 0, name 1; "AAAAA" -> source 3, name 2 *)
Example ex_sections_ok : sections_ok [(0, 0, 3, 2, [65;65;65;65;67]); (1, 0, 1, 1, [65;65;65;65;65])] /\
  ParseMappings [(0, 0, 3, 2, [65;65;65;65;67]); (1, 0, 1, 1, [65;65;65;65;65])]
  = Ok (PMap 4 3 [(0, 0, 0, 0, 0, 1); (1, 0, 3, 0, 0, 2)]).
Proof. split; [repeat constructor; lia | vm_compute; reflexivity]. Qed.

From Coq Require Import String.
(* the service inventory contains goroutines that run builds (hypothesis of service_goroutines_unprotected_are_known) *)
Example ex_service_spawns : existsb (fun s => runs_build s && String.eqb (sp_pkg s) "cmd/esbuild"%string) service_spawn_sites = true
  /\ existsb (fun s => runs_build s && String.eqb (sp_pkg s) "pkg/api"%string) service_spawn_sites = true.
Proof. vm_compute. split; reflexivity. Qed.

From V Require Import C16.CssLex.
(* the escape of a code point above U+10FFFF at the end of the input: RuneError, cursor at eof *)
Example ex_css_escape : run_escape [92;49;49;48;48;48;48] = Ok (RuneError, mkLx 7 eof 7).
Proof. vm_compute. reflexivity. Qed.
(* an unterminated string whose last byte is a backslash *)
Example ex_css_string : run_string [34;97;92] = Ok (2, mkLx 3 eof 3).
Proof. vm_compute. reflexivity. Qed.
Example ex_css_string_ok : run_string [39;97;92;39;98;39;99] = Ok (1, mkLx 7 99 6).
Proof. vm_compute. reflexivity. Qed.
(* a url body with a quote becomes a bad url consumed up to the parenthesis *)
Example ex_css_url : run_url [97;34;98;41;99] = Ok (4, mkLx 5 99 4).
Proof. vm_compute. reflexivity. Qed.
(* the name a, escape 41 (A), b : "aAb" *)
Example ex_css_name : exists l, run_name [97;92;52;49;32;98;59] = Ok ([97;65;98], l).
Proof. eexists. vm_compute. reflexivity. Qed.

From V Require Import C16.Globstar C16.GlobstarProofs.
(* the glob "**/*.{css,scss" : globstar, segment, escaped dot and brace, literals *)
Example ex_globstar : globstarToEscapedRegexp [42;42;47;42;46;123;99;115;115;44;115;99;115;115]
  = Ok (([94] ++ gs_globstar ++ gs_segment ++ [92;46;92;123;99;115;115;44;115;99;115;115;36])%list, true).
Proof. vm_compute. reflexivity. Qed.
(* the WTF-8 bytes of a lone surrogate are copied unchanged: structurally well-formed, not valid UTF-8 -
   the real regexp package rejects it (finding C16-regexp-invalid-utf8; since dfdee39 the caller uses regexp.Compile and skips the entry) *)
Example ex_globstar_surrogate : globstarToEscapedRegexp [237;160;128;46;106;115] = Ok ([94;237;160;128;92;46;106;115;36], false).
Proof. vm_compute. reflexivity. Qed.
Example ex_regexp_sites : existsb (fun s => negb (re_must s) && negb (re_const s)) regexp_sites = true.
Proof. vm_compute. reflexivity. Qed.

From V Require Import C16.JsLex.
(* 'a\<CR><LF>b' : a line continuation inside a string literal: token 1, end 7, text of 5 bytes *)
Example ex_js_string : run_jsstring [39;97;92;13;10;98;39] = Ok (Some (1, 7, 5)).
Proof. vm_compute. reflexivity. Qed.
(* `a${ : a template head: the text slice excludes the two-byte suffix *)
Example ex_js_template_head : run_jsstring [96;97;36;123;120] = Ok (Some (3, 4, 1)).
Proof. vm_compute. reflexivity. Qed.
(* an unterminated string ending in a backslash is the typed syntax error *)
Example ex_js_string_unterminated : run_jsstring [34;97;92] = Ok None.
Proof. vm_compute. reflexivity. Qed.
(* /[/]\//gi : a slash inside a class, an escaped slash, two flags *)
Example ex_js_regexp : exists l, run_regexp idc_sample [47;91;47;93;92;47;47;103;105] = Ok (Some l) /\ cur l = 9.
Proof. eexists. vm_compute. split; reflexivity. Qed.
Example ex_js_regexp_dupflag : exists l, run_regexp idc_sample [47;97;47;103;103] = Ok (Some l).
Proof. eexists. vm_compute. reflexivity. Qed.
Example ex_idc_sample_eof : idc_sample eof = false.
Proof. reflexivity. Qed.

From V Require Import C16.JsIdent.
(* #a\u{62}c = : a private name with a bracketed escape: 10 bytes *)
Example ex_js_roi : jsRangeOfIdentifier ids_sample idc_sample2 [35;97;92;117;123;54;50;125;99;32;61] = Ok 9.
Proof. vm_compute. reflexivity. Qed.
(* not an identifier: the fallback measures a string literal, 'a\'b' is 6 bytes *)
Example ex_js_roi_string : jsRangeOfIdentifier ids_sample idc_sample2 [39;97;92;39;98;39;59] = Ok 6.
Proof. vm_compute. reflexivity. Qed.
(* an escape whose brace never closes runs to the end of the text and falls back *)
Example ex_js_roi_open_brace : jsRangeOfIdentifier ids_sample idc_sample2 [97;92;117;123;54;50] = Ok 0.
Proof. vm_compute. reflexivity. Qed.

From V Require Import C16.JsPragma.
(* "@jsx  h.x y" with pragma "@jsx" (4 bytes), skipping spaces first: the argument is "h.x" at offset 16 *)
Example ex_pragma : scanForPragmaArg js_ws true 10 4 [64;106;115;120;32;32;104;46;120;32;121] = Ok (Some ([104;46;120], 16, 3)).
Proof. vm_compute. reflexivity. Qed.
(* the argument runs to the end of the text and ends in a truncated UTF-8 byte *)
Example ex_pragma_eof : scanForPragmaArg js_ws false 0 1 [61;97;195] = Ok (Some ([97;195], 1, 2)).
Proof. vm_compute. reflexivity. Qed.

(* }b${ : a template middle; }b` : a template tail; }b : unterminated (syntax error) *)
Example ex_js_template_middle : run_jstemplate_tail [125;98;36;123;99] = Ok (Some (5, 4, 1)).
Proof. vm_compute. reflexivity. Qed.
Example ex_js_template_tail : run_jstemplate_tail [125;98;96;59] = Ok (Some (4, 3, 1)).
Proof. vm_compute. reflexivity. Qed.
Example ex_js_template_unterminated : run_jstemplate_tail [125;98] = Ok None.
Proof. vm_compute. reflexivity. Qed.

(* hypothesis of decodePacket_never_hangs_partial on a nested packet (array in a map) *)
Example ex_packet_nested_bytes : all_bytes [2;0;0;0; 6; 1;0;0;0; 1;0;0;0; 107; 5; 1;0;0;0; 0] /\
  decodePacket [2;0;0;0; 6; 1;0;0;0; 1;0;0;0; 107; 5; 1;0;0;0; 0] = Ok (Some (1, true, PDict [([107], PArr [PNull])])).
Proof. split; [repeat constructor; lia|vm_compute; reflexivity]. Qed.
