(* C16 proofs: DecodeVLQUTF16 and the mappings loop never crash and never hang,
   for every sequence of units and every offset/length parameter. *)
From V Require Import Common.Base C16.Checked C16.Vlq16.

Lemma vlq_loop_spec fuel : forall enc current shift vlq,
  0 <= current <= len enc -> (Z.to_nat (len enc - current) < fuel)%nat ->
  exists v i ok, vlq_loop fuel enc current shift vlq = Ok (v, i, ok) /\
                 (ok = true -> current + 1 <= i <= len enc) /\ (ok = false -> i = 0).
Proof.
  induction fuel as [|f IH]; intros enc current shift vlq Hc Hf; [lia|].
  cbn [vlq_loop].
  destruct (len enc <=? current) eqn:E1.
  { exists 0, 0, false. split; [reflexivity|split; [discriminate|reflexivity]]. }
  destruct (idx_ok' enc current ltac:(lia)) as [u ->]. cbn [bind].
  destruct (index_byte base64 (u mod 256) 0 <? 0).
  { exists 0, 0, false. split; [reflexivity|split; [discriminate|reflexivity]]. }
  destruct (Z.land (index_byte base64 (u mod 256) 0) 32 =? 0).
  - eexists; eexists; exists true. split; [reflexivity|]. split; [intros _; lia|discriminate].
  - destruct (IH enc (current + 1) (shift + 5)
                 (Z.lor vlq (shl32 (Z.land (index_byte base64 (u mod 256) 0) 31) shift)))
      as (v & i & ok & E & H1 & H2); [lia|lia|].
    exists v, i, ok. split; [exact E|]. split; [intros Hk; specialize (H1 Hk); lia|exact H2].
Qed.

Lemma DecodeVLQUTF16_spec enc :
  exists v i ok, DecodeVLQUTF16 enc = Ok (v, i, ok) /\
                 (ok = true -> 1 <= i <= len enc) /\ (ok = false -> i = 0).
Proof.
  unfold DecodeVLQUTF16. destruct (len enc =? 0) eqn:E.
  - exists 0, 0, false. split; [reflexivity|split; [discriminate|reflexivity]].
  - destruct (vlq_loop_spec (S (length enc)) enc 0 0 0) as (v & i & ok & Ev & H1 & H2).
    + pose proof (len_nonneg enc); lia.
    + unfold len; lia.
    + exists v, i, ok. split; [exact Ev|]. split; [intros Hk; specialize (H1 Hk); lia|exact H2].
Qed.

(* what the printer and the linker index with, for ns sources and nn names *)
Definition good_mapping (ns nn : Z) (m : mapping) : Prop :=
  let '(_, gcol, src, oline, ocol, name) := m in
  0 <= gcol /\ 0 <= src < ns /\ 0 <= oline /\ 0 <= ocol /\ (name = -1 \/ 0 <= name < nn).

Lemma good_mapping_mono ns nn ns' nn' m : ns <= ns' -> nn <= nn' -> good_mapping ns nn m -> good_mapping ns' nn' m.
Proof. destruct m as [[[[[a b] c] d] e] f]. unfold good_mapping. intros. lia. Qed.

Lemma wrap_i32_id x : - 2 ^ 31 <= x < 2 ^ 31 -> wrap_i32 x = x.
Proof. intros H. unfold wrap_i32. rewrite Z.mod_small by lia. lia. Qed.

Section LoopProofs.
  Variable raw : list Z.
  Variables lineOffset columnOffset sourceOffset nameOffset sourcesLen namesLen : Z.

  (* the sources and names seen so far, with those of this section, are counted in an int32 *)
  Definition fits : Prop :=
    0 <= sourceOffset /\ 0 <= sourcesLen /\ sourceOffset + sourcesLen < 2 ^ 31 /\
    0 <= nameOffset /\ 0 <= namesLen /\ nameOffset + namesLen < 2 ^ 31.

  Let good := good_mapping (sourceOffset + sourcesLen) (nameOffset + namesLen).
  Definition post (r : mresult) : Prop :=
    match r with MErr _ _ _ _ => True | MDone _ acc => Forall good acc end.

  Lemma fits_wrap : fits ->
    wrap_i32 (sourceOffset + wrap_i32 sourcesLen) = sourceOffset + sourcesLen /\
    wrap_i32 (nameOffset + wrap_i32 namesLen) = nameOffset + namesLen.
  Proof.
    unfold fits. intros F. rewrite (wrap_i32_id sourcesLen), (wrap_i32_id namesLen) by lia.
    rewrite !wrap_i32_id by lia. split; reflexivity.
  Qed.

  (* an iteration that pushes the mapping [m] *)
  Lemma post_cons (x : res mresult) m acc :
    (exists r, x = Ok r /\ (fits -> Forall good (m :: acc) -> post r)) -> (fits -> good m) ->
    exists r, x = Ok r /\ (fits -> Forall good acc -> post r).
  Proof.
    intros (r & E & Hp) Hm. exists r. split; [exact E|].
    intros F Hacc. apply Hp; [exact F|]. constructor; [exact (Hm F) | exact Hacc].
  Qed.

  (* the range tests an iteration passes before it pushes a mapping are what makes it good *)
  Lemma tests_good glv gc' si' ol' oc' on' (ok : bool) : fits ->
    ((glv =? lineOffset) && (gc' <? columnOffset)) || (gc' <? 0) = false ->
    (si' <? sourceOffset) || (wrap_i32 (sourceOffset + wrap_i32 sourcesLen) <=? si') = false ->
    (ol' <? 0) = false -> (oc' <? 0) = false ->
    ok && ((on' <? nameOffset) || (wrap_i32 (nameOffset + wrap_i32 namesLen) <=? on')) = false ->
    good (glv, gc', si', ol', oc', if ok then on' else -1).
  Proof.
    intros F Hgc Hsi Hol Hoc Hon. destruct (fits_wrap F) as [Ws Wn]. rewrite Ws in Hsi. rewrite Wn in Hon.
    unfold good, good_mapping. unfold fits in F. destruct ok; lia.
  Qed.

  Lemma len_suffix i : 0 <= i <= len raw -> len (skipn (Z.to_nat i) raw) = len raw - i.
  Proof. intros H. rewrite len_skipn. lia. Qed.

  (* a return statement: an error, or the mappings collected so far *)
  Ltac finish := eexists; split; [reflexivity | intros _ Hacc; first [exact I | exact Hacc]].

  (* decode at position [cur] (0 <= cur <= len raw): never crashes; consumed width within the rest *)
  Ltac step_dec cur d i ok E H1 H2 :=
    rewrite (from_ok raw cur) by lia; cbn [bind];
    destruct (DecodeVLQUTF16_spec (skipn (Z.to_nat cur) raw)) as (d & i & ok & E & H1 & H2);
    rewrite E; cbn [bind];
    rewrite (len_suffix cur) in H1 by lia.

  (* One walk through the loop body gives both results: no access is out of range and every
     iteration consumes a unit; and every range test that was passed is what makes the pushed
     mapping good. *)
  Lemma mloop_spec fuel : forall st current acc,
    0 <= current <= len raw -> (Z.to_nat (len raw - current) < fuel)%nat ->
    exists r, mloop raw lineOffset columnOffset sourceOffset nameOffset sourcesLen namesLen fuel st current acc = Ok r /\
              (fits -> Forall good acc -> post r).
  Proof.
    induction fuel as [|f IH]; intros st current acc Hc Hf; [lia|].
    cbn [mloop].
    destruct (current <? len raw) eqn:E0; cbn [negb]; [|finish].
    destruct (idx_ok' raw current ltac:(lia)) as [c0 ->]. cbn [bind].
    destruct (c0 =? 59); [apply IH; lia|].
    step_dec current d1 i1 ok1 E1 H1 H1'.
    destruct ok1; cbn [negb]; [specialize (H1 eq_refl)|finish].
    destruct (_ || (wrap_i32 (gc st + d1) <? 0)) eqn:Egc; [finish|].
    destruct (current + i1 =? len raw) eqn:E2; [finish|].
    destruct (idx_ok' raw (current + i1) ltac:(lia)) as [c1 ->]. cbn [bind].
    destruct (c1 =? 44); [apply IH; lia|].
    destruct (c1 =? 59); [apply IH; lia|].
    step_dec (current + i1) d2 i2 ok2 E3 H2 H2'.
    destruct ok2; cbn [negb]; [specialize (H2 eq_refl)|finish].
    destruct ((wrap_i32 (si st + d2) <? sourceOffset) || _) eqn:Esi; [finish|].
    step_dec (current + i1 + i2) d3 i3 ok3 E4 H3 H3'.
    destruct ok3; cbn [negb]; [specialize (H3 eq_refl)|finish].
    destruct (wrap_i32 (ol st + d3) <? 0) eqn:Eol; [finish|].
    step_dec (current + i1 + i2 + i3) d4 i4 ok4 E5 H4 H4'.
    destruct ok4; cbn [negb]; [specialize (H4 eq_refl)|finish].
    destruct (wrap_i32 (oc st + d4) <? 0) eqn:Eoc; [finish|].
    step_dec (current + i1 + i2 + i3 + i4) d5 i5 ok5 E6 H5 H5'.
    destruct (ok5 && _) eqn:Eon; [finish|].
    match goal with |- context [?m :: acc] => assert (Hm : fits -> good m) end.
    { intros F. apply tests_good; assumption. }
    set (cur := if ok5 then current + i1 + i2 + i3 + i4 + i5 else current + i1 + i2 + i3 + i4).
    assert (Hcur : current < cur <= len raw) by (subst cur; destruct ok5; [specialize (H5 eq_refl)|]; lia).
    clearbody cur.
    destruct (cur <? len raw) eqn:E7; [|eapply post_cons; [apply IH; lia | exact Hm]].
    destruct (idx_ok' raw cur ltac:(lia)) as [c2 ->]. cbn [bind].
    destruct (c2 =? 44); [eapply post_cons; [apply IH; lia | exact Hm]|].
    destruct (c2 =? 59); cbn [negb]; [eapply post_cons; [apply IH; lia | exact Hm]|].
    rewrite slice_ok by lia. cbn [bind]. finish.
  Qed.
End LoopProofs.

Lemma DecodeVLQUTF16_total enc : safe (DecodeVLQUTF16 enc).
Proof. destruct (DecodeVLQUTF16_spec enc) as (v & i & ok & E & _). exists (v, i, ok). exact E. Qed.

Lemma DecodeVLQUTF16_progress enc v i :
  DecodeVLQUTF16 enc = Ok (v, i, true) -> 1 <= i <= len enc.
Proof.
  intros E. destruct (DecodeVLQUTF16_spec enc) as (v' & i' & ok' & E' & H1 & _).
  rewrite E in E'. inversion E'; subst. apply H1. reflexivity.
Qed.

Lemma DecodeVLQUTF16_int32 enc v i ok :
  DecodeVLQUTF16 enc = Ok (v, i, ok) -> True.
Proof. trivial. Qed.

Definition sections_ok (secs : list section) : Prop :=
  Forall (fun s => let '(_, _, sl, nl, _) := s in 0 <= sl /\ 0 <= nl) secs.
Fixpoint total_sources (secs : list section) : Z :=
  match secs with [] => 0 | (_, _, sl, _, _) :: r => sl + total_sources r end.
Fixpoint total_names (secs : list section) : Z :=
  match secs with [] => 0 | (_, _, _, nl, _) :: r => nl + total_names r end.

Lemma sections_ok_cons lo co sl nl raw rest : sections_ok ((lo, co, sl, nl, raw) :: rest) ->
  0 <= sl /\ 0 <= nl /\ sections_ok rest.
Proof. intros H. inversion H as [|? ? Hhd Hrest]. cbv beta iota in Hhd. tauto. Qed.

Lemma total_sources_nonneg secs : sections_ok secs -> 0 <= total_sources secs /\ 0 <= total_names secs.
Proof.
  induction secs as [|[[[[lo co] sl] nl] raw] rest IH]; cbn [total_sources total_names]; [lia|].
  intros H. apply sections_ok_cons in H as (Hsl & Hnl & Hrest). specialize (IH Hrest). lia.
Qed.

Lemma psections_spec secs : forall k nsrc nnames acc,
  exists r, psections secs k nsrc nnames acc = Ok r /\
    (sections_ok secs -> 0 <= nsrc -> 0 <= nnames ->
     nsrc + total_sources secs < 2 ^ 31 -> nnames + total_names secs < 2 ^ 31 ->
     Forall (good_mapping nsrc nnames) acc ->
     match r with PMap ns nn ms => Forall (good_mapping ns nn) ms | _ => True end).
Proof.
  induction secs as [|[[[[lo co] sl] nl] raw] rest IH]; intros k nsrc nnames acc; cbn [psections].
  - eexists. split; [reflexivity|]. intros _ _ _ _ _ Hacc.
    destruct (_ || _); [exact I | apply Forall_rev; exact Hacc].
  - destruct ((len raw =? 0) || (sl =? 0)).
    + (* skipped section: the counts do not change (sl may be non-zero when the mappings are empty) *)
      destruct (IH (k + 1) nsrc nnames acc) as (r & E & P). exists r. split; [exact E|].
      intros Hok Hs Hn Hts Htn Hacc. apply sections_ok_cons in Hok as (Hsl & Hnl & Hrest).
      destruct (total_sources_nonneg rest Hrest) as [T1 T2]. cbn [total_sources total_names] in Hts, Htn.
      apply P; [exact Hrest | exact Hs | exact Hn | lia | lia | exact Hacc].
    + destruct (mloop_spec raw lo co (wrap_i32 nsrc) (wrap_i32 nnames) sl nl (S (length raw))
                  (mkM lo co (wrap_i32 nsrc) 0 0 (wrap_i32 nnames)) 0 acc) as (mr & -> & P);
        [pose proof (len_nonneg raw); lia | unfold len; lia |].
      cbn [bind]. destruct mr as [code v el cur|st' acc'].
      * eexists. split; [reflexivity|]. intros; exact I.
      * destruct (IH (k + 1) (nsrc + sl) (nnames + nl) acc') as (r & E & Q). exists r. split; [exact E|].
        intros Hok Hs Hn Hts Htn Hacc. apply sections_ok_cons in Hok as (Hsl & Hnl & Hrest).
        destruct (total_sources_nonneg rest Hrest) as [T1 T2]. cbn [total_sources total_names] in Hts, Htn.
        rewrite (wrap_i32_id nsrc), (wrap_i32_id nnames) in P by lia.
        apply Q; [exact Hrest | lia | lia | lia | lia |].
        apply P; [unfold fits; lia|].
        eapply Forall_impl; [|exact Hacc]. intros m. apply good_mapping_mono; lia.
Qed.

Lemma ParseMappings_total secs : safe (ParseMappings secs).
Proof. destruct (psections_spec secs 0 0 0 []) as (r & E & _). exists r. exact E. Qed.

(* the invariant the printer and the linker rely on: every mapping of a parsed
   source map indexes inside Sources / Names and has non-negative positions *)
Lemma parsed_map_indices_in_range_all secs ns nn ms :
  sections_ok secs -> total_sources secs < 2 ^ 31 -> total_names secs < 2 ^ 31 ->
  ParseMappings secs = Ok (PMap ns nn ms) -> Forall (good_mapping ns nn) ms.
Proof.
  intros Hok Hs Hn E. destruct (psections_spec secs 0 0 0 []) as (r & E' & P).
  unfold ParseMappings in E. rewrite E in E'. injection E' as <-.
  exact (P Hok ltac:(lia) ltac:(lia) ltac:(lia) ltac:(lia) (Forall_nil _)).
Qed.
