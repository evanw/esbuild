(* C16 proofs: js RangeOfIdentifier and Source.RangeOfString never crash and never hang. *)
From V Require Import Common.Base C16.Checked C16.Wtf8 C16.Wtf8Proofs C16.CssIdent C16.CssIdentProofs C16.JsIdent.

Lemma ros_loop_ok fuel : forall text quote tmpl i, 0 <= i -> (Z.to_nat (len text - i) < fuel)%nat ->
  exists r, ros_loop fuel text quote tmpl i = Ok r.
Proof.
  induction fuel as [|f IH]; intros text quote tmpl i Hi Hf; [lia|].
  cbn [ros_loop]. destruct (i <? len text) eqn:E; [|eexists; reflexivity].
  destruct (idx_ok' text i ltac:(lia)) as [c ->]. cbn [bind].
  destruct (c =? quote); [eexists; reflexivity|].
  destruct (c =? 92); [apply IH; lia|].
  destruct (tmpl && (c =? 36) && (i + 1 <? len text)) eqn:E2; [|apply IH; lia].
  destruct (idx_ok' text (i + 1) ltac:(lia)) as [c1 ->]. cbn [bind].
  destruct (c1 =? 123); [eexists; reflexivity|apply IH; lia].
Qed.

Lemma RangeOfString_total text : safe (RangeOfString text).
Proof.
  unfold RangeOfString, safe. destruct (len text =? 0) eqn:E0; [eexists; reflexivity|].
  pose proof (len_nonneg text).
  destruct (idx_ok' text 0 ltac:(lia)) as [q ->]. cbn [bind].
  apply safe_bind.
  { destruct ((q =? 34) || (q =? 39)); [apply ros_loop_ok; [lia|unfold len; lia]|eexists; reflexivity]. }
  intros r1. destruct r1; [eexists; reflexivity|].
  apply safe_bind.
  { destruct (q =? 96); [apply ros_loop_ok; [lia|unfold len; lia]|eexists; reflexivity]. }
  intros r2. destruct r2; eexists; reflexivity.
Qed.

Section JsROIProofs.
  Variables ids idc : Z -> bool.
  Variable text : list Z.
  Hypothesis Hb : bytes_ok text.

  Lemma brace_loop_ok fuel : forall i, 0 <= i <= len text -> (Z.to_nat (len text - i) < fuel)%nat ->
    exists j, brace_loop fuel text i = Ok j /\ i <= j <= len text.
  Proof.
    induction fuel as [|f IH]; intros i Hi Hf; [lia|].
    cbn [brace_loop]. destruct (i <? len text) eqn:E; [|exists i; split; [reflexivity|lia]].
    destruct (idx_ok' text i ltac:(lia)) as [c ->]. cbn [bind].
    destruct (c =? 125); [exists (i + 1); split; [reflexivity|lia]|].
    destruct (IH (i + 1)) as (j & Ej & Hj); [lia|lia|]. exists j. split; [exact Ej|lia].
  Qed.

  Lemma jroi_loop_ok fuel : forall i, 0 <= i <= len text -> (Z.to_nat (len text - i) < fuel)%nat ->
    exists r, jroi_loop idc fuel text i = Ok r.
  Proof.
    induction fuel as [|f IH]; intros i Hi Hf; [lia|].
    cbn [jroi_loop]. destruct (i <? len text) eqn:E; [|eexists; reflexivity].
    rewrite from_ok by lia. cbn [bind].
    destruct (utf8_decode_any text i Hb ltac:(lia)) as (c2 & w2 & -> & Hw & Hw1).
    specialize (Hw1 ltac:(lia)).
    destruct (c2 =? 92).
    - destruct (i + w2 + 2 <? len text) eqn:E2; [|apply IH; lia].
      destruct (idx_ok' text (i + w2) ltac:(lia)) as [a ->].
      destruct (idx_ok' text (i + w2 + 1) ltac:(lia)) as [b ->]. cbn [bind].
      destruct ((a =? 117) && (b =? 123)); [|apply IH; lia].
      destruct (brace_loop_ok (S (length text)) (i + w2 + 2) ltac:(lia)) as (j & -> & Hj); [unfold len; lia|].
      cbn [bind]. apply IH; lia.
    - destruct (negb (idc c2)); [eexists; reflexivity|apply IH; lia].
  Qed.

  Lemma jsRangeOfIdentifier_total : safe (jsRangeOfIdentifier ids idc text).
  Proof.
    unfold jsRangeOfIdentifier, safe. destruct (len text =? 0) eqn:E0; [eexists; reflexivity|].
    pose proof (len_nonneg text) as Hn.
    rewrite from_ok by lia. cbn [bind].
    destruct (utf8_decode _) as [c w].
    assert (H1 : exists i c', (if c =? 35 then t1 <- from text 1 ;; let '(c1, _) := utf8_decode t1 in Ok (1, c1)
                               else Ok (0, c)) = Ok (i, c') /\ 0 <= i <= len text).
    { destruct (c =? 35).
      - rewrite from_ok by lia. cbn [bind]. destruct (utf8_decode _) as [c1 w1]. exists 1, c1. split; [reflexivity|lia].
      - exists 0, c. split; [reflexivity|lia]. }
    destruct H1 as (i & c' & -> & Hi). cbn [bind].
    destruct (ids c' || (c' =? 92)); [|apply RangeOfString_total].
    destruct (jroi_loop_ok (S (length text)) i Hi) as [r ->]; [unfold len; lia|]. cbn [bind].
    destruct r; [eexists; reflexivity|apply RangeOfString_total].
  Qed.
End JsROIProofs.
