(* C16 proofs: parseHex, mangleNumber never crash and never hang. *)
From V Require Import Common.Base C16.Checked C16.Vlq16 C16.CssNum C16.Wtf8Proofs.

Lemma parseHex_loop_range runes : forall hex, 0 <= hex < 2 ^ 32 ->
  0 <= fst (parseHex_loop runes hex) < 2 ^ 32.
Proof.
  induction runes as [|c r IH]; intros hex Hh; cbn [parseHex_loop fst]; [exact Hh|].
  (* hex<<4 | digit: both operands are uint32 *)
  assert (Hor : forall d, 0 <= Z.lor (wrap_u32 (hex * 16)) (wrap_u32 d) < 2 ^ 32)
    by (intros d; apply lor_bound; [lia | apply wrap_u32_range | apply wrap_u32_range]).
  destruct ((48 <=? c) && (c <=? 57)); [apply IH, Hor|].
  destruct ((97 <=? c) && (c <=? 102)); [apply IH, Hor|].
  destruct ((65 <=? c) && (c <=? 70)); [apply IH, Hor | cbn [fst]; lia].
Qed.

Lemma parseHex_total runes : exists v ok, parseHex runes = Ok (v, ok) /\ 0 <= v < 2 ^ 32.
Proof.
  unfold parseHex. destruct (parseHex_loop runes 0) as [v ok] eqn:E.
  exists v, ok. split; [reflexivity|].
  pose proof (parseHex_loop_range runes 0 ltac:(lia)) as H. rewrite E in H. exact H.
Qed.

Lemma index_byte_spec l c : forall i,
  index_byte l c i = -1 \/
  (i <= index_byte l c i < i + len l /\ nth_error l (Z.to_nat (index_byte l c i - i)) = Some c).
Proof.
  induction l as [|x r IH]; intros i; cbn [index_byte]; [left; reflexivity|].
  destruct (x =? c) eqn:E.
  - right. rewrite len_cons. pose proof (len_nonneg r). split; [lia|].
    replace (i - i) with 0 by lia. cbn. f_equal. lia.
  - destruct (IH (i + 1)) as [H|[H1 H2]]; [left; exact H|right].
    rewrite len_cons. split; [lia|].
    replace (Z.to_nat (index_byte r c (i + 1) - i)) with (S (Z.to_nat (index_byte r c (i + 1) - (i + 1)))) by lia.
    exact H2.
Qed.

Lemma nth_error_firstn_lt {A} (l : list A) : forall n k, (k < n)%nat -> nth_error (firstn n l) k = nth_error l k.
Proof.
  induction l as [|x r IH]; intros n k H.
  - rewrite firstn_nil. reflexivity.
  - destruct n as [|n]; [lia|]. destruct k as [|k]; [reflexivity|]. cbn. apply IH. lia.
Qed.

(* the '.' found by IndexByte survives the removal of trailing zeros *)
Lemma strip_trailing_keeps fuel : forall t dot,
  (length t < fuel)%nat -> 0 <= dot -> nth_error t (Z.to_nat dot) = Some 46 ->
  exists t', strip_trailing_zeros fuel t = Ok t' /\ dot < len t' <= len t.
Proof.
  induction fuel as [|f IH]; intros t dot Hf Hd Hn; [lia|].
  assert (Hlt : dot < len t).
  { assert (nth_error t (Z.to_nat dot) <> None) as NN by congruence.
    apply nth_error_Some in NN. unfold len. lia. }
  cbn [strip_trailing_zeros]. destruct (0 <? len t) eqn:E0; [|lia].
  destruct (idx_ok t (len t - 1) ltac:(lia)) as [c [-> Hc]]. cbn [bind].
  destruct (c =? 48) eqn:E1; [|exists t; split; [reflexivity|lia]].
  assert (dot <> len t - 1).
  { intros ->. rewrite Hn in Hc. inversion Hc. lia. }
  rewrite upto_ok by lia. cbn [bind].
  destruct (IH (firstn (Z.to_nat (len t - 1)) t) dot) as [t' [E Ht]].
  - rewrite firstn_length. unfold len in *. lia.
  - exact Hd.
  - rewrite nth_error_firstn_lt by lia. exact Hn.
  - exists t'. split; [exact E|]. rewrite len_firstn in Ht. lia.
Qed.

Lemma mangleNumber_total original : safe (mangleNumber original).
Proof.
  unfold mangleNumber, safe.
  destruct (index_byte_spec original 46 0) as [E|[H1 H2]].
  { rewrite E. change (-1 =? -1) with true. cbn [orb]. eexists; reflexivity. }
  set (dot := index_byte original 46 0) in *.
  destruct (dot =? -1) eqn:E0; [eexists; reflexivity|]. cbn [orb].
  destruct (existsb _ original); [eexists; reflexivity|].
  replace (dot - 0) with dot in H2 by lia.
  destruct (strip_trailing_keeps (S (length original)) original dot ltac:(lia) ltac:(lia) H2) as [t [-> Ht]].
  cbn [bind].
  destruct (dot + 1 =? len t) eqn:E1.
  { rewrite upto_ok by lia. cbn [bind]. eexists; reflexivity. }
  (* the two leading-zero tests: every index is guarded by the length test before it;
     the slices after them need two bytes, and the '.' is neither the first nor the last *)
  apply safe_bind; [|intros t1; eexists; reflexivity].
  apply safe_bind.
  { destruct (3 <=? len t) eqn:E3; [|eexists; reflexivity].
    destruct (idx_ok' t 0 ltac:(lia)) as [a ->]. cbn [bind].
    destruct (negb (a =? 48)); [eexists; reflexivity|].
    destruct (idx_ok' t 1 ltac:(lia)) as [b ->]. cbn [bind].
    destruct (negb (b =? 46)); [eexists; reflexivity|].
    destruct (idx_ok' t 2 ltac:(lia)) as [c ->]. eexists; reflexivity. }
  intros lead1. destruct lead1; [rewrite from_ok by lia; eexists; reflexivity|].
  apply safe_bind.
  { destruct (4 <=? len t) eqn:E4; [|eexists; reflexivity].
    destruct (idx_ok' t 0 ltac:(lia)) as [a ->]. cbn [bind].
    destruct (negb ((a =? 43) || (a =? 45))); [eexists; reflexivity|].
    destruct (idx_ok' t 1 ltac:(lia)) as [b ->]. cbn [bind].
    destruct (negb (b =? 48)); [eexists; reflexivity|].
    destruct (idx_ok' t 2 ltac:(lia)) as [c ->]. cbn [bind].
    destruct (negb (c =? 46)); [eexists; reflexivity|].
    destruct (idx_ok' t 3 ltac:(lia)) as [d ->]. eexists; reflexivity. }
  intros lead2. destruct lead2; [|eexists; reflexivity].
  rewrite slice_ok, from_ok by lia. eexists; reflexivity.
Qed.

Lemma strip_leading_total fuel : forall text dot, (length text < fuel)%nat ->
  exists t d, strip_leading_zeros fuel text dot = Ok (t, d).
Proof.
  induction fuel as [|f IH]; intros text dot Hf; [lia|].
  cbn [strip_leading_zeros]. destruct ((0 <? len text) && (0 <? dot)) eqn:E; [|eexists; eexists; reflexivity].
  destruct (idx_ok' text 0 ltac:(lia)) as [c ->]. cbn [bind].
  destruct (c =? 48); [|eexists; eexists; reflexivity].
  rewrite from_ok by lia. cbn [bind]. apply IH. rewrite skipn_length. unfold len in *. lia.
Qed.

Lemma strip_after_total fuel : forall text dot, (length text < fuel)%nat ->
  exists t, strip_zeros_after fuel text dot = Ok t.
Proof.
  induction fuel as [|f IH]; intros text dot Hf; [lia|].
  cbn [strip_zeros_after]. destruct ((0 <? len text) && (dot <? len text)) eqn:E; [|eexists; reflexivity].
  destruct (idx_ok' text (len text - 1) ltac:(lia)) as [c ->]. cbn [bind].
  destruct (c =? 48); [|eexists; reflexivity].
  rewrite upto_ok by lia. cbn [bind]. apply IH. rewrite firstn_length. unfold len in *. lia.
Qed.

(* every dot offset, not only the callers' +3 and -3 *)
Lemma shiftDot_total text0 dotOffset : safe (shiftDot text0 dotOffset).
Proof.
  unfold shiftDot.
  destruct (existsb _ text0); [eexists; reflexivity|].
  apply safe_bind.
  { destruct (0 <? len text0) eqn:E; [|eexists; reflexivity].
    destruct (idx_ok' text0 0 ltac:(lia)) as [c ->]. cbn [bind].
    destruct ((c =? 45) || (c =? 43)); [|eexists; reflexivity].
    rewrite upto_ok, from_ok by lia. eexists; reflexivity. }
  intros [sign text]. cbv zeta.
  apply safe_bind.
  { destruct (index_byte_spec text 46 0) as [E|[H1 _]].
    - rewrite E. eexists; reflexivity.
    - destruct (index_byte text 46 0 =? -1); [eexists; reflexivity|].
      rewrite upto_ok, from_ok by lia. eexists; reflexivity. }
  intros [text1 dot1]. unfold safe.
  destruct (strip_leading_total (S (length text1)) text1 (dot1 + dotOffset) ltac:(lia)) as (t2 & d2 & ->).
  cbn [bind].
  destruct (strip_after_total (S (length t2)) t2 d2 ltac:(lia)) as (t3 & ->). cbn [bind].
  destruct (len t3 <=? d2) eqn:E1.
  - unfold repeat_checked. destruct (d2 - len t3 <? 0) eqn:E2; [lia|]. cbn [bind]. eexists; reflexivity.
  - destruct (d2 <? 0) eqn:E2.
    + unfold repeat_checked. destruct (- d2 <? 0) eqn:E3; [lia|]. cbn [bind].
      pose proof (len_nonneg (repeat 48 (Z.to_nat (- d2)) ++ t3)).
      rewrite upto_ok by lia. cbn [bind]. rewrite from_ok by lia. cbn [bind]. eexists; reflexivity.
    + cbn [bind]. rewrite upto_ok by lia. cbn [bind]. rewrite from_ok by lia. cbn [bind]. eexists; reflexivity.
Qed.
