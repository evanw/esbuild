(* C16 proofs: readUint32/readLengthPrefixedSlice are total on bytes;
   decodePacket is refuted (crashes on truncated packets and unknown kinds). *)
From V Require Import Common.Base C16.Checked C16.Packet C16.Wtf8Proofs.

Lemma bytes_ok_nth s i v : bytes_ok s -> nth_error s i = Some v -> 0 <= v < 256.
Proof.
  unfold bytes_ok. intros H. revert i. induction H as [|x l Hx Hl IH]; intros i E.
  - destruct i; discriminate.
  - destruct i as [|i]; [inversion E; subst; exact Hx|exact (IH i E)].
Qed.

(* the sizes are stated in [length], as the fuel of the visitor counts them *)
Lemma readUint32_spec bs : bytes_ok bs ->
  exists v rest ok, readUint32 bs = Ok (v, rest, ok) /\ 0 <= v < 2 ^ 32 /\ bytes_ok rest /\
                    (ok = true -> (length rest + 4 = length bs)%nat) /\ (ok = false -> rest = bs).
Proof.
  intros Hb. unfold readUint32. destruct (4 <=? len bs) eqn:E.
  - destruct (idx_ok bs 0 ltac:(lia)) as [b0 [-> N0]]. destruct (idx_ok bs 1 ltac:(lia)) as [b1 [-> N1]].
    destruct (idx_ok bs 2 ltac:(lia)) as [b2 [-> N2]]. destruct (idx_ok bs 3 ltac:(lia)) as [b3 [-> N3]].
    cbn [bind]. rewrite from_ok by lia. cbn [bind].
    pose proof (bytes_ok_nth _ _ _ Hb N0). pose proof (bytes_ok_nth _ _ _ Hb N1).
    pose proof (bytes_ok_nth _ _ _ Hb N2). pose proof (bytes_ok_nth _ _ _ Hb N3).
    eexists; eexists; exists true. split; [reflexivity|]. split; [lia|]. split; [apply bytes_ok_skipn; exact Hb|].
    split; [intros _; rewrite skipn_length; unfold len in E; lia|discriminate].
  - exists 0, bs, false. split; [reflexivity|]. split; [lia|]. split; [exact Hb|]. split; [discriminate|reflexivity].
Qed.

Lemma readLengthPrefixedSlice_spec bs : bytes_ok bs ->
  exists s rest ok, readLengthPrefixedSlice bs = Ok (s, rest, ok) /\ bytes_ok rest /\
                    (ok = true -> (length rest + 4 <= length bs)%nat) /\ (ok = false -> rest = bs).
Proof.
  intros Hb. unfold readLengthPrefixedSlice.
  destruct (readUint32_spec bs Hb) as (v & after & ok & -> & Hv & Ha & H1 & _). cbn [bind].
  destruct ok; cbn [andb].
  - specialize (H1 eq_refl). destruct (v <=? len after) eqn:E.
    + rewrite upto_ok by lia. cbn [bind]. rewrite from_ok by lia. cbn [bind].
      eexists; eexists; exists true. split; [reflexivity|]. split; [apply bytes_ok_skipn; exact Ha|].
      split; [intros _; rewrite skipn_length; lia|discriminate].
    + exists [], bs, false. split; [reflexivity|]. split; [exact Hb|]. split; [discriminate|reflexivity].
  - exists [], bs, false. split; [reflexivity|]. split; [exact Hb|]. split; [discriminate|reflexivity].
Qed.

Lemma readLengthPrefixedSlice_total bs : bytes_ok bs -> safe (readLengthPrefixedSlice bs).
Proof.
  intros Hb. destruct (readLengthPrefixedSlice_spec bs Hb) as (s & rest & ok & E & _).
  exists (s, rest, ok). exact E.
Qed.

(* the full statement "decodePacket never crashes" is false of the faithful model:
   an id-only packet (visit reads bytes[0] of an empty slice), a truncated
   bool, and an unknown kind byte all crash *)
Lemma decodePacket_crash_id_only : decodePacket [0; 0; 0; 0] = Crash.
Proof. vm_compute. reflexivity. Qed.
Lemma decodePacket_crash_truncated_bool : decodePacket [2; 0; 0; 0; 1] = Crash.
Proof. vm_compute. reflexivity. Qed.
Lemma decodePacket_crash_unknown_kind : decodePacket [2; 0; 0; 0; 7] = Crash.
Proof. vm_compute. reflexivity. Qed.
Lemma decodePacket_crash_truncated_array : decodePacket [2; 0; 0; 0; 5; 2; 0; 0; 0; 0] = Crash.
Proof. vm_compute. reflexivity. Qed.

(* What a run of a visitor on [bs] may be: not Hang, and a value comes with a rest that is
   bytes and at least [d] bytes shorter.  A refusal and a crash are both allowed. *)
Definition consumes (d : nat) (bs : list Z) (r : res (option (pval * list Z))) : Prop :=
  r <> Hang /\ forall v rest, r = Ok (Some (v, rest)) -> bytes_ok rest /\ (length rest + d <= length bs)%nat.

Lemma consumes_refused d bs : consumes d bs (Ok None).
Proof. split; [discriminate | intros v rest E; discriminate E]. Qed.
Lemma consumes_crash d bs : consumes d bs Crash.
Proof. split; [discriminate | intros v rest E; discriminate E]. Qed.
Lemma consumes_value d bs v rest : bytes_ok rest -> (length rest + d <= length bs)%nat -> consumes d bs (Ok (Some (v, rest))).
Proof. intros Hb Hl. split; [discriminate|]. intros v' rest' E. inversion E; subst. split; assumption. Qed.
Lemma consumes_mono d d' bs bs' r : consumes d' bs' r -> (length bs' + d <= length bs + d')%nat -> consumes d bs r.
Proof. intros [H1 H2] Hl. split; [exact H1|]. intros v rest E. destruct (H2 v rest E). split; [assumption|lia]. Qed.

Definition VSpec (vis : list Z -> res (option (pval * list Z))) (F : nat) : Prop :=
  forall bs, bytes_ok bs -> (length bs < F)%nat -> consumes 1 bs (vis bs).

(* one element of an array or a map: the visit of [next] consumes a byte, and the loop goes on
   with the rest *)
Lemma consumes_bind bs next r (k : pval * list Z -> res (option (pval * list Z))) :
  consumes 1 next r -> (length next <= length bs)%nat ->
  (forall v rest, bytes_ok rest -> (length rest + 1 <= length next)%nat -> consumes 0 rest (k (v, rest))) ->
  consumes 0 bs (x <- r ;; match x with None => Ok None | Some p => k p end).
Proof.
  intros [Hnh Hpost] Hle Hk.
  destruct r as [[[v rest]|]| |]; cbn [bind]; [|apply consumes_refused|apply consumes_crash|congruence].
  destruct (Hpost v rest eq_refl) as [Hb' Hl'].
  apply (consumes_mono 0 0 bs rest); [apply Hk; assumption | lia].
Qed.

Lemma items_spec vis F : VSpec vis F -> forall g k bs acc, bytes_ok bs -> (length bs < F)%nat -> (length bs < g)%nat ->
  consumes 0 bs (items vis g k bs acc).
Proof.
  intros HV g. induction g as [|g IH]; intros k bs acc Hb HF Hg; [lia|].
  cbn [items]. destruct (k <=? 0); [apply consumes_value; [exact Hb|lia]|].
  apply (consumes_bind bs bs); [apply HV; assumption | lia |].
  intros v bs' Hb' Hl'. apply IH; [exact Hb'|lia|lia].
Qed.

Lemma entries_spec vis F : VSpec vis F -> forall g k bs acc, bytes_ok bs -> (length bs < F)%nat -> (length bs < g)%nat ->
  consumes 0 bs (entries vis g k bs acc).
Proof.
  intros HV g. induction g as [|g IH]; intros k bs acc Hb HF Hg; [lia|].
  cbn [entries]. destruct (k <=? 0); [apply consumes_value; [exact Hb|lia]|].
  destruct (readLengthPrefixedSlice_spec bs Hb) as (key & next & ok & -> & Hbn & Hln & _). cbn [bind].
  destruct ok; cbn [negb]; [specialize (Hln eq_refl)|apply consumes_refused].
  apply (consumes_bind bs next); [apply HV; [exact Hbn|lia] | lia |].
  intros v bs' Hb' Hl'. apply IH; [exact Hb'|lia|lia].
Qed.

Lemma idx_nohang l i : idx l i <> Hang.
Proof. unfold idx. destruct (i <? 0); [discriminate|]. destruct (nth_error l (Z.to_nat i)); discriminate. Qed.

Lemma from_1_cons a l : from (a :: l) 1 = Ok l.
Proof. apply from_ok. rewrite len_cons. pose proof (len_nonneg l). lia. Qed.

Lemma visit_spec fuel : VSpec (visit fuel) fuel.
Proof.
  induction fuel as [|f IH]; intros bs Hb Hf; [lia|].
  cbn [visit].
  destruct bs as [|kind bs1]; [apply consumes_crash|].
  assert (Hb1 : bytes_ok bs1) by (inversion Hb; assumption).
  rewrite idx0, from_1_cons. cbn [bind length] in *.
  destruct (kind =? 0); [apply consumes_value; [exact Hb1 | cbn [length]; lia]|].
  destruct (kind =? 1).
  { destruct bs1 as [|b bs2]; [apply consumes_crash|].
    rewrite idx0, from_1_cons. cbn [bind].
    apply consumes_value; [inversion Hb1; assumption | cbn [length]; lia]. }
  destruct (kind =? 2).
  { destruct (readUint32_spec bs1 Hb1) as (v & next & ok & -> & _ & Hbn & Hln & _). cbn [bind].
    destruct ok; [apply consumes_value; [exact Hbn | specialize (Hln eq_refl); cbn [length]; lia] | apply consumes_refused]. }
  destruct (kind =? 3).
  { destruct (readLengthPrefixedSlice_spec bs1 Hb1) as (s & next & ok & -> & Hbn & Hln & _). cbn [bind].
    destruct ok; [apply consumes_value; [exact Hbn | specialize (Hln eq_refl); cbn [length]; lia] | apply consumes_refused]. }
  destruct (kind =? 4).
  { destruct (readLengthPrefixedSlice_spec bs1 Hb1) as (s & next & ok & -> & Hbn & Hln & _). cbn [bind].
    destruct ok; [apply consumes_value; [exact Hbn | specialize (Hln eq_refl); cbn [length]; lia] | apply consumes_refused]. }
  destruct (kind =? 5).
  { destruct (readUint32_spec bs1 Hb1) as (count & next & ok & -> & _ & Hbn & Hln & _). cbn [bind].
    destruct ok; cbn [negb]; [specialize (Hln eq_refl) | apply consumes_refused].
    apply (consumes_mono 1 0 _ next); [apply (items_spec (visit f) f IH); [exact Hbn|lia|lia] | cbn [length]; lia]. }
  destruct (kind =? 6).
  { destruct (readUint32_spec bs1 Hb1) as (count & next & ok & -> & _ & Hbn & Hln & _). cbn [bind].
    destruct ok; cbn [negb]; [specialize (Hln eq_refl) | apply consumes_refused].
    apply (consumes_mono 1 0 _ next); [apply (entries_spec (visit f) f IH); [exact Hbn|lia|lia] | cbn [length]; lia]. }
  apply consumes_crash.
Qed.

Lemma decodePacket_nohang bs : bytes_ok bs -> decodePacket bs <> Hang.
Proof.
  intros Hb. unfold decodePacket.
  destruct (readUint32_spec bs Hb) as (id & bs' & ok & -> & _ & Hb' & Hl' & _). cbn [bind].
  destruct ok; cbn [negb]; [specialize (Hl' eq_refl)|discriminate].
  destruct (visit_spec (S (S (length bs))) bs' Hb' ltac:(lia)) as [Hnh _].
  destruct (visit (S (S (length bs))) bs') as [r| |]; cbn [bind]; [|discriminate|congruence].
  destruct r as [[v rest]|]; [|discriminate]. destruct (negb (len rest =? 0)); discriminate.
Qed.
