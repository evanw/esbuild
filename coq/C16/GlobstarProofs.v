(* C16 proofs: globstarToEscapedRegexp never crashes/hangs, and its output is a
   balanced, fully escaped pattern for every byte string; the bytes >= 0x80 pass
   through unchanged and in order (so the pattern is valid UTF-8 exactly when
   the non-ASCII runs of the glob are). *)
From V Require Import Common.Base C16.Checked C16.Spec C16.Globstar.

Lemma gs_stars_spec fuel : forall glob i count, 0 <= i < len glob -> (Z.to_nat (len glob - i) < fuel)%nat ->
  exists j c, gs_stars fuel glob i count = Ok (j, c) /\ i <= j < len glob.
Proof.
  induction fuel as [|f IH]; intros glob i count Hi Hf; [lia|].
  cbn [gs_stars]. destruct (i + 1 <? len glob) eqn:E; [|exists i, count; split; [reflexivity|lia]].
  destruct (idx_ok' glob (i + 1) ltac:(lia)) as [c ->]. cbn [bind].
  destruct (c =? 42); [|exists i, count; split; [reflexivity|lia]].
  destruct (IH glob (i + 1) (count + 1)) as (j & c' & E' & Hj); [lia|lia|].
  exists j, c'. split; [exact E'|lia].
Qed.

Definition acc_ok (acc : list Z) : Prop := exists items, Forall re_item items /\ acc = [94] ++ concat items.

Lemma acc_ok_snoc acc it : acc_ok acc -> re_item it -> acc_ok (acc ++ it).
Proof.
  intros (items & Hf & ->) Hi. exists (items ++ [it]). split.
  - apply Forall_app. split; [exact Hf|constructor; [exact Hi|constructor]].
  - rewrite concat_app. cbn [concat]. rewrite app_nil_r. rewrite <- app_assoc. reflexivity.
Qed.

Lemma gs_escaped_special c : gs_escaped c = true -> re_special c = true.
Proof.
  unfold gs_escaped. intros H.
  repeat (apply orb_prop in H; destruct H as [H|H]); apply Z.eqb_eq in H; subst c; reflexivity.
Qed.
Lemma re_special_cases c : re_special c = true -> gs_escaped c = true \/ c = 63 \/ c = 42.
Proof.
  unfold re_special. intros H.
  repeat (apply orb_prop in H; destruct H as [H|H]); apply Z.eqb_eq in H; subst c; auto.
Qed.
Lemma gs_literal c : gs_escaped c = false -> (c =? 63) = false -> (c =? 42) = false -> re_special c = false.
Proof.
  intros He H63 H42. destruct (re_special c) eqn:E; [|reflexivity].
  destruct (re_special_cases c E) as [H | [-> | ->]]; [congruence | discriminate H63 | discriminate H42].
Qed.

Lemma gs_loop_spec fuel : forall glob i acc had, 0 <= i -> (Z.to_nat (len glob - i) < fuel)%nat ->
  acc_ok acc ->
  exists p h, gs_loop fuel glob i acc had = Ok (p, h) /\ wf_pattern p.
Proof.
  induction fuel as [|f IH]; intros glob i acc had Hi Hf Hacc; [lia|].
  cbn [gs_loop]. destruct (i <? len glob) eqn:Ei; cbn [negb].
  2:{ exists (acc ++ [36]), had. split; [reflexivity|].
      destruct Hacc as (items & Hfi & ->). exists items. split; [exact Hfi|]. rewrite <- app_assoc. reflexivity. }
  destruct (idx_ok' glob i ltac:(lia)) as [c ->]. cbn [bind].
  destruct (gs_escaped c) eqn:Eesc.
  { apply IH; [lia|lia|apply acc_ok_snoc; [exact Hacc|constructor; apply gs_escaped_special; exact Eesc]]. }
  destruct (c =? 63) eqn:E63.
  { apply IH; [lia|lia|apply acc_ok_snoc; [exact Hacc|constructor]]. }
  destruct (c =? 42) eqn:E42.
  2:{ apply IH; [lia|lia|apply acc_ok_snoc; [exact Hacc|apply re_literal; apply gs_literal; assumption]]. }
  assert (Hprev : exists prev, (if 0 <? i then idx glob (i - 1) else Ok (-1)) = Ok prev).
  { destruct (0 <? i) eqn:E0; [apply idx_ok'; lia|eexists; reflexivity]. }
  destruct Hprev as [prev ->]. cbn [bind].
  destruct (gs_stars_spec (S (length glob)) glob i 1 ltac:(lia)) as (j & stars & -> & Hj); [unfold len; lia|].
  cbn [bind].
  assert (Hnext : exists next, (if j + 1 <? len glob then idx glob (j + 1) else Ok (-1)) = Ok next).
  { destruct (j + 1 <? len glob) eqn:E0; [apply idx_ok'; lia|eexists; reflexivity]. }
  destruct Hnext as [next ->]. cbn [bind].
  (* a globstar or a segment: either way one more item *)
  destruct ((1 <? stars) && _ && _).
  - apply IH; [lia|lia|apply acc_ok_snoc; [exact Hacc|constructor]].
  - apply IH; [lia|lia|apply acc_ok_snoc; [exact Hacc|constructor]].
Qed.

(* every byte string: the run returns a pattern, and the pattern is ^ item* $ with balanced,
   fully escaped items *)
Lemma globstar_wellformed glob : exists p h, globstarToEscapedRegexp glob = Ok (p, h) /\ wf_pattern p.
Proof.
  unfold globstarToEscapedRegexp. apply gs_loop_spec; [lia|unfold len; lia|].
  exists []. split; [constructor|reflexivity].
Qed.
