From V Require Import Common.Base C16.Checked C16.Spec C16.ClosingTag.

Lemma index_bounds t : index_lt_slash t = -1 \/ 0 <= index_lt_slash t /\ index_lt_slash t + 2 <= len t.
Proof.
  induction t as [|c r IH]; cbn [index_lt_slash]; [left; reflexivity|].
  rewrite len_cons.
  destruct ((c =? 60) && _) eqn:E.
  - right. destruct r as [|d r']; [rewrite andb_false_r in E; discriminate|].
    rewrite len_cons. pose proof (len_nonneg r'). lia.
  - destruct (index_lt_slash r <? 0) eqn:E2; [left; reflexivity|]. right. lia.
Qed.

Lemma index_range t : -1 <= index_lt_slash t < len t \/ (index_lt_slash t = -1).
Proof. destruct (index_bounds t) as [H|H]; [right; exact H | left; lia]. Qed.

Lemma esc_spec_skip tag t :
  index_lt_slash t = -1 -> esc_spec tag t = t.
Proof.
  induction t as [|c r IH]; cbn [index_lt_slash esc_spec]; [reflexivity|].
  destruct ((c =? 60) && _) eqn:E; [discriminate|]. cbn [andb].
  destruct (index_lt_slash r <? 0) eqn:E2.
  - intros _. f_equal. apply IH. destruct (index_bounds r) as [H|H]; [exact H|lia].
  - intros H. destruct (index_bounds r) as [H1|H1]; lia.
Qed.

Lemma esc_spec_at tag t i : 0 <= i -> index_lt_slash t = i ->
  esc_spec tag t = firstn (Z.to_nat (i + 1)) t ++
    (if starts_fold tag (skipn (Z.to_nat (i + 1)) t) then [92] else []) ++ esc_spec tag (skipn (Z.to_nat (i + 1)) t).
Proof.
  revert i. induction t as [|c r IH]; intros i Hi; cbn [index_lt_slash]; [lia|].
  destruct ((c =? 60) && _) eqn:E.
  - intros <-. change (Z.to_nat (0 + 1)) with 1%nat. cbn [firstn skipn esc_spec]. rewrite E. cbn [andb].
    destruct (starts_fold tag r); reflexivity.
  - destruct (index_lt_slash r <? 0) eqn:E2; [lia|]. intros H.
    assert (Hk : index_lt_slash r = i - 1) by lia.
    replace (Z.to_nat (i + 1)) with (S (Z.to_nat (i - 1 + 1))) by lia.
    cbn [firstn skipn esc_spec]. rewrite E. cbn [andb app]. f_equal.
    apply IH; lia.
Qed.

Lemma tag_test tag b1 t :
  (if len tag <=? len t then
     head <- upto t (len tag) ;; Ok (if fold_eq head tag then b1 ++ [92] else b1)
   else Ok b1) = Ok (b1 ++ if starts_fold tag t then [92] else []).
Proof.
  unfold starts_fold. destruct (len tag <=? len t) eqn:El; cbn [andb]; [|rewrite app_nil_r; reflexivity].
  rewrite upto_ok by (pose proof (len_nonneg tag); lia). cbn [bind].
  replace (Z.to_nat (len tag)) with (length tag) by (unfold len; lia).
  destruct (fold_eq _ tag); [reflexivity | rewrite app_nil_r; reflexivity].
Qed.

Lemma loop_is_spec tag : tag <> [] -> forall fuel b text i,
  (length text < fuel)%nat -> 0 <= i -> index_lt_slash text = i ->
  ect_loop fuel tag b text i = Ok (b ++ esc_spec tag text).
Proof.
  intros Htag. induction fuel as [|fuel IH]; intros b text i Hf Hi Hidx; [lia|].
  cbn [ect_loop].
  destruct (index_bounds text) as [Hb|Hb]; [lia|]. rewrite Hidx in Hb.
  rewrite upto_ok, from_ok by lia. cbn [bind]. rewrite tag_test. cbn [bind].
  rewrite (esc_spec_at tag text i Hi Hidx).
  set (text1 := skipn (Z.to_nat (i + 1)) text).
  assert (Hl1 : (length text1 < fuel)%nat) by (unfold text1, len in *; rewrite skipn_length; lia).
  destruct (index_lt_slash text1 <? 0) eqn:E3.
  - rewrite esc_spec_skip by (destruct (index_bounds text1); lia). now rewrite <- !app_assoc.
  - rewrite (IH _ text1 (index_lt_slash text1)) by (auto; lia). now rewrite <- !app_assoc.
Qed.

Lemma EscapeClosingTag_is_spec tag text :
  EscapeClosingTag tag text = Ok (match tag with [] => text | _ => esc_spec tag text end).
Proof.
  unfold EscapeClosingTag, EscapeClosingTag_fuel. destruct tag as [|t0 tag']; [reflexivity|].
  destruct (index_lt_slash text <? 0) eqn:E.
  - rewrite esc_spec_skip; [reflexivity|]. destruct (index_bounds text); lia.
  - rewrite (loop_is_spec (t0 :: tag') ltac:(discriminate) _ [] text (index_lt_slash text)); auto; lia.
Qed.

Lemma total_EscapeClosingTag tag : total_on (fun _ => True) (EscapeClosingTag tag).
Proof. intros text _. rewrite EscapeClosingTag_is_spec. split; discriminate. Qed.

Example escapes_script_tag :
  EscapeClosingTag [47;115;99;114;105;112;116] [97;60;47;83;67;82;73;80;84;62;60;47;115;60;47;115;99;114;105;112;116]
  = Ok [97;60;92;47;83;67;82;73;80;84;62;60;47;115;60;92;47;115;99;114;105;112;116].
Proof. vm_compute. reflexivity. Qed.
