(* C16 proofs: decodeJSXEntities with the guard "length > 0" never crashes and
   never hangs, for every byte string and every entity table; with the guard
   "length != -1" it crashes on "&;". *)
From V Require Import Common.Base C16.Checked C16.Wtf8 C16.Wtf8Proofs C16.Vlq16 C16.CssNumProofs
  C16.CssIdent C16.CssIdentProofs C16.JsxEntities.

Section JSXProofs.
  Variable lookup : list Z -> option Z.
  Variable text : list Z.
  Hypothesis Hb : bytes_ok text.

  Lemma djx_ok fuel : forall i acc, 0 <= i <= len text -> (Z.to_nat (len text - i) < fuel)%nat ->
    exists out, djx true lookup fuel text i acc = Ok out.
  Proof.
    induction fuel as [|f IH]; intros i acc Hi Hf; [lia|].
    cbn [djx].
    destruct (i <? len text) eqn:Ei; cbn [negb]; [|eexists; reflexivity].
    rewrite from_ok by lia. cbn [bind].
    destruct (utf8_decode_any text i Hb ltac:(lia)) as (c & w & -> & Hw & Hw1).
    specialize (Hw1 ltac:(lia)).
    destruct (c =? 38); [|cbn [bind]; apply IH; lia].
    rewrite from_ok by lia. cbn [bind].
    set (t2 := skipn (Z.to_nat (i + w)) text).
    assert (Lt2 : len t2 = len text - (i + w)) by (unfold t2; rewrite len_skipn; lia).
    destruct (index_byte_spec t2 59 0) as [E|[H1 _]].
    { rewrite E. change (0 <? -1) with false. cbv iota. cbn [bind]. apply IH; lia. }
    set (length := index_byte t2 59 0) in *.
    destruct (0 <? length) eqn:El; [|cbn [bind]; apply IH; lia].
    rewrite slice_ok by lia. cbn [bind].
    set (entity := firstn (Z.to_nat (i + w + length - (i + w))) (skipn (Z.to_nat (i + w)) text)).
    assert (Le : len entity = length).
    { unfold entity. rewrite len_firstn. fold t2. lia. }
    destruct (idx_ok' entity 0 ltac:(lia)) as [e0 ->]. cbn [bind].
    destruct (e0 =? 35).
    - rewrite from_ok by lia. cbn [bind].
      set (number := skipn (Z.to_nat 1) entity).
      assert (Ln : len number = length - 1) by (unfold number; rewrite len_skipn; lia).
      destruct (1 <? len number) eqn:E1.
      + destruct (idx_ok' number 0 ltac:(lia)) as [n0 ->]. cbn [bind].
        destruct (n0 =? 120).
        * rewrite from_ok by lia. cbn [bind].
          destruct (ParseInt32 _ 16); cbn [bind]; apply IH; lia.
        * cbn [bind]. destruct (ParseInt32 _ 10); cbn [bind]; apply IH; lia.
      + cbn [bind]. destruct (ParseInt32 _ 10); cbn [bind]; apply IH; lia.
    - destruct (lookup entity); cbn [bind]; apply IH; lia.
  Qed.

  Lemma decodeJSXEntities_total : safe (decodeJSXEntities true lookup text).
  Proof.
    unfold decodeJSXEntities, safe. apply djx_ok.
    - pose proof (len_nonneg text). lia.
    - unfold len. lia.
  Qed.
End JSXProofs.

(* "&;" with the guard "length != -1": entity is empty and entity[0] is out of range *)
Lemma decodeJSXEntities_weak_guard_crashes : forall lookup, decodeJSXEntities false lookup [38; 59] = Crash.
Proof. intros lookup. vm_compute. reflexivity. Qed.
