(* C16 proofs: breakOutputIntoPieces never crashes and never hangs, for every
   output, every key prefix (even empty) and every file/chunk count. *)
From V Require Import Common.Base C16.Checked C16.Pieces.

Lemma bytes_index_range l p : forall i, bytes_index l p i = -1 \/ i <= bytes_index l p i.
Proof.
  induction l as [|x r IH]; intros i; cbn [bytes_index].
  - destruct (has_prefix p []); [right; lia|left; reflexivity].
  - destruct (has_prefix p (x :: r)); [right; lia|].
    destruct (IH (i + 1)) as [E|E]; [left; exact E|right; lia].
Qed.

Lemma digits_ok js output start boundary : forall index,
  0 <= start -> start + 9 <= len output -> Forall (fun j => 0 <= j < 9) js ->
  exists b i, digits js output start boundary index = Ok (b, i) /\ (b = boundary \/ b = -1).
Proof.
  induction js as [|j r IH]; intros index Hs Hl Hj; cbn [digits].
  - eexists; eexists; split; [reflexivity|left; reflexivity].
  - inversion Hj as [|? ? Hj1 Hj2]; subst.
    destruct (idx_ok' output (start + j) ltac:(lia)) as [c ->]. cbn [bind].
    destruct ((c <? 48) || (57 <? c)).
    + eexists; eexists; split; [reflexivity|right; reflexivity].
    + apply IH; assumption.
Qed.

Lemma bloop_total fuel : forall output prefix nfiles nchunks acc,
  (length output < fuel)%nat -> exists r, bloop fuel output prefix nfiles nchunks acc = Ok r.
Proof.
  induction fuel as [|f IH]; intros output prefix nfiles nchunks acc Hf; [lia|].
  cbn [bloop].
  pose proof (len_nonneg prefix) as Hp.
  set (boundary := bytes_index output prefix 0).
  (* the scan for a key yields -1, or a boundary whose nine key bytes lie inside the output *)
  match goal with |- exists r, bind ?scan _ = _ =>
    assert (Hs : exists b kind index, scan = Ok (b, kind, index) /\
                   (b = -1 \/ b = boundary /\ 0 <= boundary /\ boundary + len prefix + 9 <= len output))
  end.
  { destruct (boundary =? -1) eqn:E1; [do 3 eexists; split; [reflexivity | left; reflexivity]|].
    destruct (len output <? boundary + len prefix + 9) eqn:E2; [do 3 eexists; split; [reflexivity | left; reflexivity]|].
    destruct (bytes_index_range output prefix 0) as [Eb|Eb]; fold boundary in Eb; [lia|].
    destruct (idx_ok' output (boundary + len prefix) ltac:(lia)) as [c ->]. cbn [bind].
    destruct (digits_ok [1;2;3;4;5;6;7;8] output (boundary + len prefix) boundary 0)
      as (b & i & -> & Hb); [lia | lia | repeat constructor; lia |].
    do 3 eexists. split; [reflexivity|]. destruct Hb as [-> | ->]; [right; lia | left; reflexivity]. }
  destruct Hs as (b & kind & index & -> & Hb). cbn [bind].
  (* the range tests on the index keep that boundary or turn it into -1 *)
  set (bd := if kind =? 1 then (if wrap_u32 nfiles <=? index then -1 else b)
             else if kind =? 2 then (if wrap_u32 nchunks <=? index then -1 else b) else -1).
  assert (Hbd : bd = -1 \/ bd = b).
  { subst bd. destruct (kind =? 1); [destruct (wrap_u32 nfiles <=? index); auto|].
    destruct (kind =? 2); [destruct (wrap_u32 nchunks <=? index); auto | auto]. }
  clearbody bd.
  destruct Hbd as [-> | ->]; [eexists; reflexivity|].
  destruct Hb as [-> | (-> & H0 & H9)]; [eexists; reflexivity|].
  destruct (boundary =? -1); [eexists; reflexivity|].
  rewrite upto_ok, from_ok by lia. cbn [bind].
  apply IH. rewrite skipn_length. unfold len in *. lia.
Qed.

Lemma breakOutputIntoPieces_total output prefix nfiles nchunks :
  safe (breakOutputIntoPieces output prefix nfiles nchunks).
Proof. unfold breakOutputIntoPieces, safe. apply bloop_total. lia. Qed.
