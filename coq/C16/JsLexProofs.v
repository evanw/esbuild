(* C16 proofs: the js_lexer string/template scan (with the slice that takes the literal's
   text) and ScanRegExp never index out of range and always terminate; each loop iteration
   returns or strictly decreases 2*(len - current) + [codePoint <> eof]. *)
From V Require Import Common.Base C16.Checked C16.Wtf8 C16.Wtf8Proofs C16.CssIdent C16.CssIdentProofs
  C16.CssLex C16.CssLexProofs C16.JsLex.

Section JsLexProofs.
  Variable text : list Z.
  Hypothesis Hb : bytes_ok text.
  Notation wf := (wf text).
  Notation mu := (mu text).

  (* the token-end invariant: the current code point starts at rlen >= 1 and is not empty *)
  Definition inv (l : lx) : Prop := 1 <= rlen l /\ rlen l <= cur l /\ (cp l <> eof -> rlen l + 1 <= cur l).

  Lemma inv_step l : wf l -> inv l ->
    exists l', step text l = Ok l' /\ wf l' /\ inv l' /\ rlen l' = cur l /\ mu l' <= mu l /\ (cp l <> eof -> mu l' < mu l).
  Proof.
    intros Hw (H1 & H2 & H3).
    destruct (step_spec text Hb l Hw) as (l' & E & Hw' & Hmono & Hr & Hm & Hs & _ & _ & Hq).
    exists l'. split; [exact E|]. split; [exact Hw'|]. split; [|split; [exact Hr|split; [exact Hm|exact Hs]]].
    unfold inv. split; [lia|]. split; [lia|exact Hq].
  Qed.

  Ltac do_step l Hw Hi l' Hw' Hi' Hr Hm Hs :=
    destruct (inv_step l Hw Hi) as (l' & -> & Hw' & Hi' & Hr & Hm & Hs); cbn [bind].

  Definition jstr_post (r : option (Z * lx)) : Prop :=
    match r with
    | None => True
    | Some (s, l) => wf l /\ rlen l <= len text /\ ((s = 1 /\ 2 <= rlen l) \/ (s = 2 /\ 3 <= rlen l))
    end.

  Lemma jstr_loop_spec fuel : forall quote l, wf l -> inv l -> quote <> eof -> mu l < Z.of_nat fuel ->
    exists r, jstr_loop text fuel quote l = Ok r /\ jstr_post r.
  Proof.
    induction fuel as [|f IH]; intros quote l Hw Hi Hq Hf; [pose proof (mu_nonneg text l Hw); lia|].
    cbn [jstr_loop].
    destruct (cp l =? 92) eqn:E92.
    { assert (Hne : cp l <> eof) by (unfold eof; lia).
      do_step l Hw Hi l1 Hw1 Hi1 Hr1 Hm1 Hs1. specialize (Hs1 Hne).
      destruct (cp l1 =? 13).
      - do_step l1 Hw1 Hi1 l2 Hw2 Hi2 Hr2 Hm2 Hs2.
        destruct (cp l2 =? 10).
        + do_step l2 Hw2 Hi2 l3 Hw3 Hi3 Hr3 Hm3 Hs3.
          apply IH; [exact Hw3|exact Hi3|exact Hq|lia].
        + cbn [bind]. apply IH; [exact Hw2|exact Hi2|exact Hq|lia].
      - do_step l1 Hw1 Hi1 l2 Hw2 Hi2 Hr2 Hm2 Hs2.
        apply IH; [exact Hw2|exact Hi2|exact Hq|lia]. }
    destruct (cp l =? eof) eqn:Eeof; [exists None; split; [reflexivity|exact I]|].
    assert (Hne : cp l <> eof) by lia.
    destruct ((cp l =? 13) || (cp l =? 10)).
    { destruct (negb (quote =? 96)); [exists None; split; [reflexivity|exact I]|].
      do_step l Hw Hi l1 Hw1 Hi1 Hr1 Hm1 Hs1. specialize (Hs1 Hne).
      apply IH; [exact Hw1|exact Hi1|exact Hq|lia]. }
    destruct ((cp l =? 36) && (quote =? 96)).
    { do_step l Hw Hi l1 Hw1 Hi1 Hr1 Hm1 Hs1. specialize (Hs1 Hne).
      destruct (cp l1 =? 123) eqn:E123.
      - assert (Hne1 : cp l1 <> eof) by (unfold eof; lia).
        do_step l1 Hw1 Hi1 l2 Hw2 Hi2 Hr2 Hm2 Hs2.
        exists (Some (2, l2)). split; [reflexivity|]. cbn [jstr_post].
        destruct Hi as (Ha & Ha2 & Hb2). specialize (Hb2 Hne). destruct Hi1 as (Hc & Hc2 & Hd). specialize (Hd Hne1).
        unfold CssLexProofs.wf in *. split; [exact Hw2|]. split; [lia|]. right. split; [reflexivity|lia].
      - apply IH; [exact Hw1|exact Hi1|exact Hq|lia]. }
    destruct (cp l =? quote).
    { do_step l Hw Hi l1 Hw1 Hi1 Hr1 Hm1 Hs1.
      exists (Some (1, l1)). split; [reflexivity|]. cbn [jstr_post].
      destruct Hi as (Ha & Ha2 & Hb2). specialize (Hb2 Hne). unfold CssLexProofs.wf in *.
      split; [exact Hw1|]. split; [lia|]. left. split; [reflexivity|lia]. }
    do_step l Hw Hi l1 Hw1 Hi1 Hr1 Hm1 Hs1. specialize (Hs1 Hne).
    apply IH; [exact Hw1|exact Hi1|exact Hq|lia].
  Qed.

  Lemma jstr_loop_eof fuel quote l : cp l = eof -> jstr_loop text (S fuel) quote l = Ok None.
  Proof. intros E. cbn [jstr_loop]. rewrite E. reflexivity. Qed.

  Lemma run_jsstring_total : safe (run_jsstring text).
  Proof.
    unfold run_jsstring, safe, lex_start.
    assert (Hw00 : wf (mkLx 0 0 0)) by (unfold CssLexProofs.wf; cbn [cur]; pose proof (len_nonneg text); lia).
    destruct (step_spec text Hb _ Hw00) as (l0 & -> & Hw0 & _ & Hr0 & _ & _ & _ & [He0 _] & Hq0). cbn [bind cur] in *.
    destruct (step_spec text Hb l0 Hw0) as (l1 & -> & Hw1 & Hmn1 & Hr1 & Hm1 & Hs1 & _ & [_ Hn1] & Hq1). cbn [bind].
    destruct (Z.eq_dec (cp l0) eof) as [Ee|Ene].
    - (* empty text: the cursor stays at eof and the scan reports a syntax error *)
      specialize (He0 Ee). (* 0 = len text *)
      assert (Hl0 : cur l0 = len text) by (unfold CssLexProofs.wf in Hw0; lia).
      specialize (Hn1 Hl0). unfold lex_fuel. rewrite jstr_loop_eof by exact Hn1. cbn [bind]. eexists; reflexivity.
    - specialize (Hq0 Ene).
      assert (Hi1 : inv l1) by (unfold inv; split; [lia|split; [lia|exact Hq1]]).
      destruct (jstr_loop_spec (lex_fuel text) (cp l0) l1 Hw1 Hi1 Ene (mu_bound text l1 Hw1)) as (r & -> & Hpost).
      cbn [bind]. destruct r as [[s l2]|]; [|eexists; reflexivity].
      cbn [jstr_post] in Hpost. destruct Hpost as (Hw2 & Hle & Hs).
      rewrite slice_ok by (destruct Hs as [[-> ?]|[-> ?]]; lia). cbn [bind]. eexists; reflexivity.
  Qed.

  Lemma run_jstemplate_tail_total : 1 <= len text -> safe (run_jstemplate_tail text).
  Proof.
    intros Hn. unfold run_jstemplate_tail, safe.
    assert (Hw0 : wf (mkLx 1 96 0)) by (unfold CssLexProofs.wf; cbn [cur]; lia).
    destruct (step_spec text Hb _ Hw0) as (l1 & -> & Hw1 & Hmn1 & Hr1 & _ & _ & _ & _ & Hq1). cbn [bind cur] in *.
    assert (Hi1 : inv l1) by (unfold inv; split; [lia|split; [lia|exact Hq1]]).
    destruct (jstr_loop_spec (lex_fuel text) 96 l1 Hw1 Hi1 ltac:(unfold eof; lia) (mu_bound text l1 Hw1)) as (r & -> & Hpost).
    cbn [bind]. destruct r as [[s l2]|]; [|eexists; reflexivity].
    cbn [jstr_post] in Hpost. destruct Hpost as (Hw2 & Hle & Hs).
    rewrite slice_ok by (destruct Hs as [[-> ?]|[-> ?]]; lia). cbn [bind]. eexists; reflexivity.
  Qed.

  Variable idc : Z -> bool.
  Hypothesis idc_eof : idc eof = false.

  Definition rok (l : lx) : Prop := wf l /\ 0 <= rlen l <= len text.

  Lemma rok_step l : rok l -> exists l', step text l = Ok l' /\ rok l' /\ mu l' <= mu l /\ (cp l <> eof -> mu l' < mu l).
  Proof.
    intros [Hw Hr]. destruct (step_spec text Hb l Hw) as (l' & E & Hw' & _ & Hr' & Hm & Hs & _).
    exists l'. split; [exact E|]. split; [|split; [exact Hm|exact Hs]].
    split; [exact Hw'|]. unfold CssLexProofs.wf in Hw. lia.
  Qed.

  Lemma validateAndStep_spec l : rok l ->
    exists r, validateAndStep text l = Ok r /\ match r with None => True | Some l' => rok l' /\ mu l' < mu l end.
  Proof.
    intros Hk. unfold validateAndStep.
    assert (H1 : exists l1, (if cp l =? 92 then step text l else Ok l) = Ok l1 /\ rok l1 /\ mu l1 <= mu l /\
                            (cp l1 <> eof -> l1 = l \/ mu l1 < mu l)).
    { destruct (cp l =? 92) eqn:E.
      - destruct (rok_step l Hk) as (l1 & E1 & Hk1 & Hm1 & Hs1).
        exists l1. split; [exact E1|]. split; [exact Hk1|]. split; [exact Hm1|].
        intros _. right. apply Hs1. unfold eof. lia.
      - exists l. split; [reflexivity|]. split; [exact Hk|]. split; [lia|]. intros _. left. reflexivity. }
    destruct H1 as (l1 & -> & Hk1 & Hm1 & Hc1). cbn [bind].
    destruct ((cp l1 =? eof) || (cp l1 =? 13) || (cp l1 =? 10) || (cp l1 =? 8232) || (cp l1 =? 8233)) eqn:Et.
    { exists None. split; [reflexivity|exact I]. }
    assert (Hne : cp l1 <> eof) by lia.
    destruct (rok_step l1 Hk1) as (l2 & -> & Hk2 & Hm2 & Hs2). cbn [bind].
    exists (Some l2). split; [reflexivity|]. split; [exact Hk2|]. specialize (Hs2 Hne). lia.
  Qed.

  Lemma class_loop_spec fuel : forall l, rok l -> mu l < Z.of_nat fuel ->
    exists r, class_loop text fuel l = Ok r /\ match r with None => True | Some l' => rok l' /\ mu l' <= mu l end.
  Proof.
    induction fuel as [|f IH]; intros l Hk Hf; [pose proof (mu_nonneg text l (proj1 Hk)); lia|].
    cbn [class_loop].
    destruct (cp l =? 93); [exists (Some l); split; [reflexivity|split; [exact Hk|lia]]|].
    destruct (validateAndStep_spec l Hk) as (r & -> & Hr). cbn [bind].
    destruct r as [l1|]; [|exists None; split; [reflexivity|exact I]].
    destruct Hr as [Hk1 Hm1].
    destruct (IH l1 Hk1 ltac:(lia)) as (r & E & Hr). exists r. split; [exact E|].
    destruct r; [|exact I]. destruct Hr. split; [assumption|lia].
  Qed.

  Lemma dup_scan_ok fuel : forall i stop c, 0 <= i -> stop <= len text -> (Z.to_nat (stop - i) < fuel)%nat ->
    exists j, dup_scan text fuel i stop c = Ok j.
  Proof.
    induction fuel as [|f IH]; intros i stop c Hi Hs Hf; [lia|].
    cbn [dup_scan]. destruct (i <? stop) eqn:E; [|eexists; reflexivity].
    destruct (idx_ok' text i ltac:(lia)) as [b ->]. cbn [bind].
    destruct (negb (b =? c)); [apply IH; lia|eexists; reflexivity].
  Qed.

  Lemma flags_loop_spec fuel : forall l bits, rok l -> mu l < Z.of_nat fuel ->
    exists r, flags_loop idc text fuel l bits = Ok r.
  Proof.
    induction fuel as [|f IH]; intros l bits Hk Hf; [pose proof (mu_nonneg text l (proj1 Hk)); lia|].
    cbn [flags_loop].
    destruct (idc (cp l)) eqn:Ei; [|eexists; reflexivity].
    assert (Hne : cp l <> eof) by (intros E; rewrite E, idc_eof in Ei; discriminate).
    destruct (is_flag (cp l)); [|eexists; reflexivity].
    apply safe_bind.
    { (* a flag seen before: the scan for its earlier occurrence stays inside the token *)
      destruct (negb _); [|eexists; reflexivity].
      destruct (dup_scan_ok (S (length text)) 0 (rlen l) (cp l)) as [j ->]; [lia|destruct Hk as [_ Hr]; lia| |].
      - destruct Hk as [_ Hr]. unfold len in Hr. lia.
      - eexists; reflexivity. }
    intros b'. unfold safe.
    destruct (rok_step l Hk) as (l1 & -> & Hk1 & Hm1 & Hs1). cbn [bind]. specialize (Hs1 Hne).
    apply IH; [exact Hk1|lia].
  Qed.

  Lemma re_loop_spec fuel : forall l, rok l -> mu l < Z.of_nat fuel ->
    exists r, re_loop idc text fuel l = Ok r.
  Proof.
    induction fuel as [|f IH]; intros l Hk Hf; [pose proof (mu_nonneg text l (proj1 Hk)); lia|].
    cbn [re_loop].
    destruct (cp l =? 47) eqn:E47.
    { destruct (rok_step l Hk) as (l1 & -> & Hk1 & _). cbn [bind].
      apply flags_loop_spec; [exact Hk1|apply mu_bound; exact (proj1 Hk1)]. }
    destruct (cp l =? 91) eqn:E91.
    { assert (Hne : cp l <> eof) by (unfold eof; lia).
      destruct (rok_step l Hk) as (l1 & -> & Hk1 & Hm1 & Hs1). cbn [bind]. specialize (Hs1 Hne).
      destruct (class_loop_spec (lex_fuel text) l1 Hk1 (mu_bound text l1 (proj1 Hk1))) as (r & -> & Hr). cbn [bind].
      destruct r as [l2|]; [|eexists; reflexivity]. destruct Hr as [Hk2 Hm2].
      destruct (rok_step l2 Hk2) as (l3 & -> & Hk3 & Hm3 & _). cbn [bind].
      apply IH; [exact Hk3|lia]. }
    destruct (validateAndStep_spec l Hk) as (r & -> & Hr). cbn [bind].
    destruct r as [l1|]; [|eexists; reflexivity]. destruct Hr as [Hk1 Hm1].
    apply IH; [exact Hk1|lia].
  Qed.

  Lemma run_regexp_total : safe (run_regexp idc text).
  Proof.
    unfold run_regexp, safe, lex_start.
    assert (Hk00 : rok (mkLx 0 0 0)).
    { unfold rok, CssLexProofs.wf. cbn [cur rlen]. pose proof (len_nonneg text). lia. }
    destruct (rok_step _ Hk00) as (l0 & -> & Hk0 & _). cbn [bind].
    destruct (rok_step l0 Hk0) as (l1 & -> & Hk1 & _). cbn [bind].
    apply re_loop_spec; [exact Hk1|apply mu_bound; exact (proj1 Hk1)].
  Qed.
End JsLexProofs.
