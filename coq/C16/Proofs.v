(* C16: the lemmas in the exact shape of the property theorems, where the lemma of the
   proofs file does not have that shape already. *)
From V Require Import Common.Base C16.Checked C16.Spec C16.Wtf8 C16.Wtf8Proofs C16.Vlq16 C16.Vlq16Proofs
  C16.CssNum C16.CssNumProofs C16.Pieces C16.PiecesProofs C16.Packet C16.PacketProofs
  C16.CssIdent C16.CssIdentProofs C16.JsxEntities C16.JsxEntitiesProofs C16.CssLex C16.CssLexProofs
  C16.Globstar C16.GlobstarProofs C16.JsLex C16.JsLexProofs C16.JsIdent C16.JsIdentProofs
  C16.JsPragma C16.JsPragmaProofs.

Lemma all_bytes_bytes_ok s : all_bytes s <-> bytes_ok s.
Proof. reflexivity. Qed.

Lemma safe_total {A B} (dom : A -> Prop) (f : A -> res B) : (forall x, dom x -> safe (f x)) -> total_on dom f.
Proof. intros H x Hx. apply safe_not_crash_hang, H, Hx. Qed.

Lemma total_DecodeWTF8Rune : forall tw, total_on (fun _ => True) (DecodeWTF8Rune_gen tw).
Proof.
  intros tw. apply safe_total. intros s _. destruct (decode_gen_total tw s) as [c [w E]]. exists (c, w). exact E.
Qed.

Lemma progress_DecodeWTF8Rune : progresses all_bytes DecodeWTF8Rune.
Proof.
  intros s Hb Hne. destruct (decode_spec s Hne Hb) as (c & w & E & Hw & Hl & _). exists c, w. split; [exact E|lia].
Qed.

Lemma code_point_DecodeWTF8Rune : forall s c w, all_bytes s -> s <> [] -> DecodeWTF8Rune s = Ok (c, w) -> is_code_point c /\ 1 <= w <= 4.
Proof.
  intros s c w Hb Hne E. destruct (decode_spec s Hne Hb) as (c' & w' & E' & Hw & _ & Hc).
  rewrite E in E'. inversion E'; subst. split; [exact Hc|exact Hw].
Qed.

Lemma total_internalQuote : forall asciiOnly q, total_on all_bytes (fun text => internalQuote text asciiOnly q).
Proof. intros ao q. apply safe_total. intros text. apply internalQuote_total. Qed.

Lemma old_decoder_hangs : forall fuel q,
  internalQuote_fuel DecodeWTF8Rune_old [195] false q fuel = Hang /\
  internalQuote_fuel DecodeWTF8Rune_old [195] true q fuel = Hang.
Proof. intros fuel q. split; apply qloop_old_hangs. Qed.

Lemma total_DecodeVLQUTF16 : total_on (fun _ => True) DecodeVLQUTF16.
Proof. apply safe_total. intros enc _. apply DecodeVLQUTF16_total. Qed.

Lemma total_ParseMappings : total_on (fun _ => True) ParseMappings.
Proof. apply safe_total. intros secs _. apply ParseMappings_total. Qed.

Lemma total_mangleNumber : total_on (fun _ => True) mangleNumber.
Proof. apply safe_total. intros t _. apply mangleNumber_total. Qed.

Lemma total_shiftDot : forall dotOffset, total_on (fun _ => True) (fun t => shiftDot t dotOffset).
Proof. intros off. apply safe_total. intros t _. apply shiftDot_total. Qed.

Lemma total_breakOutputIntoPieces : forall prefix nfiles nchunks,
  total_on (fun _ => True) (fun output => breakOutputIntoPieces output prefix nfiles nchunks).
Proof. intros p nf nc. apply safe_total. intros o _. apply breakOutputIntoPieces_total. Qed.

Lemma total_readLengthPrefixedSlice : total_on all_bytes readLengthPrefixedSlice.
Proof. apply safe_total. exact readLengthPrefixedSlice_total. Qed.

Lemma decodePacket_refuted : exists bs, all_bytes bs /\ decodePacket bs = Crash.
Proof. exists [0; 0; 0; 0]. split; [repeat constructor; lia|exact decodePacket_crash_id_only]. Qed.

Lemma total_RangeOfIdentifier : total_on all_bytes (RangeOfIdentifier true).
Proof. apply safe_total. exact RangeOfIdentifier_guarded_total. Qed.

Lemma total_decodeJSXEntities : forall lookup, total_on all_bytes (decodeJSXEntities true lookup).
Proof. intros lk. apply safe_total. intros t. apply decodeJSXEntities_total. Qed.

Lemma total_css_consumeEscape : total_on all_bytes run_escape.
Proof. apply safe_total. exact run_escape_total. Qed.
Lemma total_css_consumeString : total_on all_bytes run_string.
Proof. apply safe_total. exact run_string_total. Qed.
Lemma total_css_consumeURL : total_on all_bytes run_url.
Proof. apply safe_total. exact run_url_total. Qed.
Lemma total_css_consumeName : total_on all_bytes run_name.
Proof. apply safe_total. exact run_name_total. Qed.

Lemma css_step_progress : forall text l, all_bytes text -> 0 <= cur l <= len text ->
  exists l', step text l = Ok l' /\ cur l <= cur l' <= len text /\
             (cur l < len text -> cur l < cur l') /\ (cur l = len text -> cp l' = eof).
Proof.
  intros text l Hb Hw. destruct (step_spec text Hb l Hw) as (l' & E & Hw' & Hc & _ & _ & _ & Hp & [_ He] & _).
  exists l'. split; [exact E|]. unfold wf in Hw'. split; [lia|]. split; [exact Hp | exact He].
Qed.

Lemma total_js_string_template : total_on all_bytes run_jsstring.
Proof. apply safe_total. exact run_jsstring_total. Qed.

Lemma total_js_ScanRegExp : forall idc, idc eof = false -> total_on all_bytes (run_regexp idc).
Proof. intros idc He. apply safe_total. intros t Hb. apply run_regexp_total; assumption. Qed.

Lemma total_js_RangeOfIdentifier : forall ids idc, total_on all_bytes (jsRangeOfIdentifier ids idc).
Proof. intros ids idc. apply safe_total. intros t. apply jsRangeOfIdentifier_total. Qed.

Lemma total_RangeOfString : total_on (fun _ => True) RangeOfString.
Proof. apply safe_total. intros t _. apply RangeOfString_total. Qed.

Lemma total_scanForPragmaArg : forall ws skip start plen text,
  all_bytes text -> 0 <= plen <= len text ->
  scanForPragmaArg ws skip start plen text <> Crash /\ scanForPragmaArg ws skip start plen text <> Hang.
Proof. intros. apply safe_not_crash_hang. apply scanForPragmaArg_total; assumption. Qed.

Lemma total_js_template_rescan : total_on (fun t => all_bytes t /\ 1 <= len t) run_jstemplate_tail.
Proof. apply safe_total. intros t [Hb Hn]. apply run_jstemplate_tail_total; assumption. Qed.
