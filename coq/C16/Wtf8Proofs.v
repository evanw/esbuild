(* C16 proofs: DecodeWTF8Rune and internalQuote never crash and never hang. *)
From V Require Import Common.Base C16.Checked C16.Wtf8.

Definition bytes_ok (s : list Z) : Prop := Forall (fun b => 0 <= b < 256) s.

Lemma land_ones_bound x k : 0 <= k -> 0 <= Z.land x (Z.ones k) < 2 ^ k.
Proof. intros Hk. rewrite Z.land_ones by lia. apply Z.mod_pos_bound. apply Z.pow_pos_nonneg; lia. Qed.

Lemma lor_bound a b k : 0 < k -> 0 <= a < 2 ^ k -> 0 <= b < 2 ^ k -> 0 <= Z.lor a b < 2 ^ k.
Proof.
  intros Hk Ha Hb. split; [apply Z.lor_nonneg; lia|].
  assert (La : Z.log2 a < k).
  { destruct (Z.eq_dec a 0) as [->|Na]; [cbn; lia|]. apply Z.log2_lt_pow2; lia. }
  assert (Lb : Z.log2 b < k).
  { destruct (Z.eq_dec b 0) as [->|Nb]; [cbn; lia|]. apply Z.log2_lt_pow2; lia. }
  destruct (Z.eq_dec (Z.lor a b) 0) as [E|N].
  - rewrite E. apply Z.pow_pos_nonneg; lia.
  - assert (0 <= Z.lor a b) by (apply Z.lor_nonneg; lia).
    apply Z.log2_lt_pow2; [lia|]. rewrite Z.log2_lor by lia. lia.
Qed.

Lemma shiftl_bound a n k : 0 <= n -> 0 <= a < 2 ^ k -> 0 <= k -> 0 <= Z.shiftl a n < 2 ^ (k + n).
Proof.
  intros Hn Ha Hk. rewrite Z.shiftl_mul_pow2 by lia. rewrite Z.pow_add_r by lia.
  assert (0 < 2 ^ n) by (apply Z.pow_pos_nonneg; lia). nia.
Qed.

Lemma land31 x : 0 <= Z.land x 31 < 32.
Proof. change 31 with (Z.ones 5). change 32 with (2 ^ 5). apply land_ones_bound; lia. Qed.
Lemma land63 x : 0 <= Z.land x 63 < 64.
Proof. change 63 with (Z.ones 6). change 64 with (2 ^ 6). apply land_ones_bound; lia. Qed.
Lemma land15 x : 0 <= Z.land x 15 < 16.
Proof. change 15 with (Z.ones 4). change 16 with (2 ^ 4). apply land_ones_bound; lia. Qed.
Lemma land1023 x : 0 <= Z.land x 1023 < 1024.
Proof. change 1023 with (Z.ones 10). change 1024 with (2 ^ 10). apply land_ones_bound; lia. Qed.

Lemma cp2_bound s0 s1 : 0 <= Z.lor (Z.shiftl (Z.land s0 31) 6) (Z.land s1 63) < 2 ^ 11.
Proof.
  apply lor_bound; [lia| |].
  - pose proof (shiftl_bound (Z.land s0 31) 6 5 ltac:(lia) (land31 s0) ltac:(lia)). exact H.
  - pose proof (land63 s1). lia.
Qed.

Lemma cp3_bound s0 s1 s2 :
  0 <= Z.lor (Z.lor (Z.shiftl (Z.land s0 15) 12) (Z.shiftl (Z.land s1 63) 6)) (Z.land s2 63) < 2 ^ 16.
Proof.
  apply lor_bound; [lia| |].
  - apply lor_bound; [lia| |].
    + exact (shiftl_bound (Z.land s0 15) 12 4 ltac:(lia) (land15 s0) ltac:(lia)).
    + pose proof (shiftl_bound (Z.land s1 63) 6 6 ltac:(lia) (land63 s1) ltac:(lia)). lia.
  - pose proof (land63 s2). lia.
Qed.

Lemma idx0 a l : idx (a :: l) 0 = Ok a.
Proof. reflexivity. Qed.
Lemma idx1 a b l : idx (a :: b :: l) 1 = Ok b.
Proof. reflexivity. Qed.
Lemma idx2 a b c l : idx (a :: b :: c :: l) 2 = Ok c.
Proof. reflexivity. Qed.
Lemma idx3 a b c d l : idx (a :: b :: c :: d :: l) 3 = Ok d.
Proof. reflexivity. Qed.

(* What a run on a non-empty [s] returns, whatever width [tw] is reported for a truncated
   sequence: a width that is [tw] or lies within 1..4 and the input, and a rune that is
   RuneError, a multi-byte code point, or the first byte itself. *)
Definition decoded (tw : Z) (s : list Z) (r : res (Z * Z)) : Prop :=
  exists c w, r = Ok (c, w) /\ (1 <= w <= 4 /\ w <= len s \/ w = tw) /\
    (c = RuneError \/ 128 <= c <= 1114111 \/ c < 128 /\ nth_error s 0 = Some c).

Lemma decoded_intro tw s c w :
  1 <= w <= 4 /\ w <= len s \/ w = tw ->
  c = RuneError \/ 128 <= c <= 1114111 \/ c < 128 /\ nth_error s 0 = Some c ->
  decoded tw s (Ok (c, w)).
Proof. intros Hw Hc. exists c, w. auto. Qed.

(* Every s[k] is read after "n < sz" failed with k < sz, so no access is out of range; the
   walk below follows the Go text, one return statement after the other. *)
Lemma decode_gen_decoded tw s : 1 <= len s -> decoded tw s (DecodeWTF8Rune_gen tw s).
Proof.
  intros Hn. unfold DecodeWTF8Rune_gen.
  assert (Herr : decoded tw s (Ok (RuneError, 1))) by (apply decoded_intro; [lia | auto]).
  destruct (len s <? 1) eqn:?; [lia|].
  destruct (idx_ok s 0 ltac:(lia)) as (s0 & -> & H0). cbn [bind].
  destruct (s0 <? 128) eqn:?; [apply decoded_intro; [lia | right; right; split; [lia | exact H0]]|].
  cbv zeta.
  set (sz := if Z.land s0 224 =? 192 then 2 else if Z.land s0 240 =? 224 then 3
             else if Z.land s0 248 =? 240 then 4 else 0).
  assert (Hsz : sz = 0 \/ 2 <= sz <= 4)
    by (subst sz; destruct (Z.land s0 224 =? 192), (Z.land s0 240 =? 224), (Z.land s0 248 =? 240); lia).
  clearbody sz.
  destruct (sz =? 0) eqn:?; [exact Herr|].
  destruct (len s <? sz) eqn:?; [apply decoded_intro; auto|].
  destruct (idx_ok' s 1 ltac:(lia)) as (s1 & ->). cbn [bind].
  destruct (negb (Z.land s1 192 =? 128)); [exact Herr|].
  destruct (sz =? 2) eqn:?.
  { pose proof (cp2_bound s0 s1). destruct (Z.lor _ _ <? 128) eqn:?; [exact Herr | apply decoded_intro; lia]. }
  destruct (idx_ok' s 2 ltac:(lia)) as (s2 & ->). cbn [bind].
  destruct (negb (Z.land s2 192 =? 128)); [exact Herr|].
  destruct (sz =? 3) eqn:?.
  { pose proof (cp3_bound s0 s1 s2). destruct (Z.lor _ _ <? 2048) eqn:?; [exact Herr | apply decoded_intro; lia]. }
  destruct (idx_ok' s 3 ltac:(lia)) as (s3 & ->). cbn [bind].
  destruct (negb (Z.land s3 192 =? 128)); [exact Herr|].
  destruct (_ || _) eqn:?; [exact Herr | apply decoded_intro; lia].
Qed.

Lemma decode_gen_total tw s :
  exists c w, DecodeWTF8Rune_gen tw s = Ok (c, w).
Proof.
  destruct s as [|a r]; [exists RuneError, 0; reflexivity|].
  destruct (decode_gen_decoded tw (a :: r)) as (c & w & E & _); [rewrite len_cons; pose proof (len_nonneg r); lia|].
  exists c, w. exact E.
Qed.

Lemma decode_spec s :
  s <> [] -> bytes_ok s ->
  exists c w, DecodeWTF8Rune s = Ok (c, w) /\ 1 <= w <= 4 /\ w <= len s /\ 0 <= c <= 1114111.
Proof.
  intros Hne Hb. destruct s as [|a r]; [congruence|].
  assert (Hn : 1 <= len (a :: r)) by (rewrite len_cons; pose proof (len_nonneg r); lia).
  destruct (decode_gen_decoded 1 _ Hn) as (c & w & E & Hw & Hc).
  exists c, w. split; [exact E|]. split; [lia|]. split; [lia|].
  destruct Hc as [->|[Hc|[Hc H0]]]; [unfold RuneError; lia | lia |].
  injection H0 as <-. inversion Hb; lia.
Qed.

(* width 0 on a non-empty input: the truncated sequence before fix commit 8cccdcd *)
Lemma decode_old_zero_width : DecodeWTF8Rune_old [195] = Ok (RuneError, 0).
Proof. reflexivity. Qed.

Lemma hex4_ok c : 0 <= c <= 65535 -> exists h, hex4 c = Ok h.
Proof.
  intros Hc. unfold hex4.
  assert (H1 : 0 <= Z.shiftr c 12 < 16).
  { rewrite Z.shiftr_div_pow2 by lia. change (2 ^ 12) with 4096. lia. }
  pose proof (land15 (Z.shiftr c 8)) as H2. pose proof (land15 (Z.shiftr c 4)) as H3.
  pose proof (land15 c) as H4.
  destruct (idx_ok' hexChars _ H1) as [h1 ->].
  destruct (idx_ok' hexChars _ H2) as [h2 ->].
  destruct (idx_ok' hexChars _ H3) as [h3 ->].
  destruct (idx_ok' hexChars _ H4) as [h4 ->].
  cbn [bind]. eexists; reflexivity.
Qed.

Section QuoteProofs.
  Variable dec : list Z -> res (Z * Z).
  Variable text : list Z.
  Variable asciiOnly : bool.
  Variable quoteChar : Z.
  (* what the loops need from the decoder: it consumes at least one byte *)
  Hypothesis dec_progress : forall t, t <> [] -> (exists k, t = skipn k text) ->
    exists c w, dec t = Ok (c, w) /\ 1 <= w <= len t /\ 0 <= c <= 1114111.

  Lemma suffix_nonempty i : 0 <= i < len text -> skipn (Z.to_nat i) text <> [] /\ len (skipn (Z.to_nat i) text) = len text - i.
  Proof.
    intros H. assert (L : len (skipn (Z.to_nat i) text) = len text - i).
    { rewrite len_skipn. lia. }
    split; [|exact L]. intros E. rewrite E in L. rewrite len_nil in L. lia.
  Qed.

  Lemma run_end_ok fuel : forall i, 0 <= i <= len text -> (Z.to_nat (len text - i) < fuel)%nat ->
    exists e, run_end dec text asciiOnly fuel i = Ok e /\ i <= e <= len text.
  Proof.
    induction fuel as [|f IH]; intros i Hi Hf; [lia|].
    cbn [run_end]. destruct (i <? len text) eqn:Ei; [|exists i; split; [reflexivity|lia]].
    rewrite from_ok by lia. cbn [bind].
    destruct (suffix_nonempty i ltac:(lia)) as [Hne Hl].
    destruct (dec_progress _ Hne (ex_intro _ _ eq_refl)) as [c [w [E [Hw Hc]]]].
    rewrite E. cbn [bind].
    destruct (canPrintWithoutEscape c asciiOnly && negb (isInvalidByte c w)).
    - destruct (IH (i + w)) as [e [Ee He]]; [lia|lia|]. exists e. split; [exact Ee|lia].
    - exists i. split; [reflexivity|lia].
  Qed.

  Lemma qloop_ok fuel : forall i acc, 0 <= i <= len text -> (Z.to_nat (len text - i) < fuel)%nat ->
    exists out, qloop dec text asciiOnly quoteChar fuel i acc = Ok out.
  Proof.
    induction fuel as [|f IH]; intros i acc Hi Hf; [lia|].
    cbn [qloop]. destruct (i <? len text) eqn:Ei; [|eexists; reflexivity].
    rewrite from_ok by lia. cbn [bind].
    destruct (suffix_nonempty i ltac:(lia)) as [Hne Hl].
    destruct (dec_progress _ Hne (ex_intro _ _ eq_refl)) as [c [w [E [Hw Hc]]]].
    rewrite E. cbn [bind].
    destruct (canPrintWithoutEscape c asciiOnly && negb (isInvalidByte c w)).
    { destruct (run_end_ok f (i + w)) as [e [Ee He]]; [lia|lia|].
      rewrite Ee. cbn [bind]. rewrite slice_ok by lia. cbn [bind].
      apply IH; lia. }
    (* \b \f \n \r \t \\ and the two quotation marks: one byte consumed each *)
    do 8 (destruct (c =? _); [apply IH; lia|]).
    destruct (c <=? 65535) eqn:Ec.
    - destruct (hex4_ok c ltac:(lia)) as [h ->]. cbn [bind]. apply IH; lia.
    - pose proof (land1023 (Z.shiftr (c - 65536) 10)). pose proof (land1023 (c - 65536)).
      destruct (hex4_ok (55296 + Z.land (Z.shiftr (c - 65536) 10) 1023) ltac:(lia)) as [h1 ->].
      destruct (hex4_ok (56320 + Z.land (c - 65536) 1023) ltac:(lia)) as [h2 ->].
      cbn [bind]. apply IH; lia.
  Qed.

  Lemma internalQuote_fuel_ok : exists out, internalQuote_fuel dec text asciiOnly quoteChar (quote_fuel text) = Ok out.
  Proof.
    unfold internalQuote_fuel, quote_fuel. apply qloop_ok; [pose proof (len_nonneg text); lia|].
    unfold len. lia.
  Qed.
End QuoteProofs.

Lemma bytes_ok_skipn s k : bytes_ok s -> bytes_ok (skipn k s).
Proof.
  unfold bytes_ok. revert s. induction k as [|k IH]; intros s H; [exact H|].
  destruct s as [|a s]; [constructor|]. cbn [skipn]. apply IH. inversion H; assumption.
Qed.

Lemma internalQuote_total text asciiOnly q : bytes_ok text -> safe (internalQuote text asciiOnly q).
Proof.
  intros Hb. unfold internalQuote, safe. apply internalQuote_fuel_ok.
  intros t Hne [k ->]. destruct (decode_spec _ Hne (bytes_ok_skipn _ k Hb)) as [c [w [E [Hw [Hl Hc]]]]].
  exists c, w. split; [exact E|]. lia.
Qed.

(* with the decoder that returns width 0 on truncation the loop spins: on the one-byte text [0xC3]
   the truncated byte counts as an invalid byte, is written as \uFFFD by the default case, and
   i += 0 *)
Lemma qloop_old_hangs fuel ao q : forall acc, qloop DecodeWTF8Rune_old [195] ao q fuel 0 acc = Hang.
Proof.
  induction fuel as [|f IH]; intros acc; [reflexivity|].
  destruct ao.
  - change (qloop DecodeWTF8Rune_old [195] true q (S f) 0 acc)
      with (qloop DecodeWTF8Rune_old [195] true q f 0 (acc ++ [92; 117; 70; 70; 70; 68])). apply IH.
  - change (qloop DecodeWTF8Rune_old [195] false q (S f) 0 acc)
      with (qloop DecodeWTF8Rune_old [195] false q f 0 (acc ++ [92; 117; 70; 70; 70; 68])). apply IH.
Qed.
