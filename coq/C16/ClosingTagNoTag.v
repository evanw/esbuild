(* C16/C13 glue: after helpers.EscapeClosingTag no '<' followed by the tag is left,
   for every tag that starts with '/' and contains no '<' ("/script", "/style"). *)
From V Require Import Common.Base C16.Checked C16.Spec C16.ClosingTag C16.ClosingTagProofs.

Definition no_lt (l : list Z) : bool := forallb (fun c => negb (c =? 60)) l.

(* does '<' followed by a case-insensitive occurrence of the tag occur anywhere? *)
Fixpoint has_closing (tag t : list Z) : bool :=
  match t with
  | [] => false
  | c :: r => ((c =? 60) && starts_fold tag r) || has_closing tag r
  end.

Lemma fold_eq_length a b : fold_eq a b = true -> length a = length b.
Proof.
  revert b; induction a as [|x a IH]; intros [|y b]; cbn [fold_eq length]; try discriminate; [reflexivity|].
  intros H. apply andb_prop in H as [_ H]. f_equal. now apply IH.
Qed.

Lemma fold_eq_no_lt a b : fold_eq a b = true -> no_lt b = true -> no_lt a = true.
Proof.
  revert b; induction a as [|x a IH]; intros [|y b]; cbn [fold_eq no_lt forallb]; try discriminate; [reflexivity|].
  intros H Hb. apply andb_prop in H as [H1 H2]. apply andb_prop in Hb as [Hb1 Hb2].
  apply andb_true_intro; split; [|exact (IH b H2 Hb2)].
  unfold lower in H1.
  destruct ((65 <=? x) && (x <=? 90)) eqn:Ex; destruct ((65 <=? y) && (y <=? 90)) eqn:Ey; lia.
Qed.

Lemma firstn_esc_no_lt tag n : forall r,
  no_lt (firstn n (esc_spec tag r)) = true -> firstn n (esc_spec tag r) = firstn n r.
Proof.
  induction n as [|n IH]; intros r; [reflexivity|].
  destruct r as [|c r']; [reflexivity|]. cbn [esc_spec].
  destruct ((c =? 60) && _ && starts_fold tag r') eqn:E.
  - cbn [firstn no_lt forallb]. intros H. apply andb_prop in H as [H _].
    apply andb_prop in E as [E _]. apply andb_prop in E as [E _]. lia.
  - cbn [firstn no_lt forallb]. intros H. apply andb_prop in H as [_ H]. f_equal. now apply IH.
Qed.

Lemma starts_fold_esc tag r : no_lt tag = true ->
  starts_fold tag (esc_spec tag r) = true -> starts_fold tag r = true.
Proof.
  unfold starts_fold. intros Ht H. apply andb_prop in H as [_ H].
  pose proof (fold_eq_no_lt _ _ H Ht) as Hn.
  pose proof (fold_eq_length _ _ H) as Hl.
  rewrite (firstn_esc_no_lt tag _ r Hn) in H, Hl.
  rewrite H, andb_true_r. rewrite firstn_length in Hl. unfold len. lia.
Qed.

Lemma starts_fold_head tag' r : starts_fold (47 :: tag') r = true -> exists r', r = 47 :: r'.
Proof.
  unfold starts_fold. intros H. apply andb_prop in H as [_ H].
  destruct r as [|d r']; cbn [length firstn fold_eq] in H; [discriminate|].
  apply andb_prop in H as [H _]. unfold lower in H.
  destruct ((65 <=? d) && (d <=? 90)) eqn:E; cbn in H; [lia|]. exists r'. f_equal. lia.
Qed.

Lemma esc_no_closing tag' t : no_lt tag' = true ->
  has_closing (47 :: tag') (esc_spec (47 :: tag') t) = false.
Proof.
  intros Ht. assert (Ht2 : no_lt (47 :: tag') = true) by (unfold no_lt in *; cbn [forallb]; rewrite Ht; reflexivity).
  induction t as [|c r IH]; [reflexivity|]. cbn [esc_spec].
  destruct ((c =? 60) && _ && starts_fold (47 :: tag') r) eqn:E.
  - cbn [has_closing]. rewrite IH.
    destruct (starts_fold (47 :: tag') (92 :: esc_spec (47 :: tag') r)) eqn:S.
    + apply starts_fold_head in S as [r' S]. discriminate.
    + rewrite andb_false_r. reflexivity.
  - cbn [has_closing]. rewrite IH, orb_false_r.
    destruct (c =? 60) eqn:Ec; [|reflexivity]. cbn [andb] in *.
    destruct (starts_fold (47 :: tag') (esc_spec (47 :: tag') r)) eqn:S; [|reflexivity].
    apply (starts_fold_esc _ _ Ht2) in S. rewrite S, andb_true_r in E.
    destruct (starts_fold_head _ _ S) as [r' ->]. discriminate.
Qed.

Lemma EscapeClosingTag_no_closing tag' text : no_lt tag' = true ->
  exists out, EscapeClosingTag (47 :: tag') text = Ok out /\ has_closing (47 :: tag') out = false.
Proof.
  intros Ht. rewrite EscapeClosingTag_is_spec. eexists; split; [reflexivity|]. now apply esc_no_closing.
Qed.

(* the callers' tags meet the hypothesis, and the predicate is not vacuous *)
Example script_tag_ok : no_lt [115;99;114;105;112;116] = true /\ no_lt [115;116;121;108;101] = true /\
  has_closing [47;115;99;114;105;112;116] [97;60;47;83;67;82;73;80;84;62] = true.
Proof. vm_compute. auto. Qed.
