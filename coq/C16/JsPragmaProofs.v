(* C16 proofs: scanForPragmaArg never crashes and never hangs when the text starts with the pragma. *)
From V Require Import Common.Base C16.Checked C16.Wtf8 C16.Wtf8Proofs C16.CssIdent C16.CssIdentProofs C16.JsPragma.

Section PragmaProofs.
  Variable ws : Z -> bool.

  Lemma pragma_skip_ok fuel : forall t start, bytes_ok t -> t <> [] -> (length t < fuel)%nat ->
    exists r, pragma_skip ws fuel t start = Ok r /\
              match r with None => True | Some (t', _) => bytes_ok t' /\ t' <> [] end.
  Proof.
    induction fuel as [|f IH]; intros t start Hb Hne Hf; [lia|].
    cbn [pragma_skip]. destruct (utf8_decode_spec t Hb Hne) as (c & w & -> & Hw).
    destruct (ws c); [|exists (Some (t, start)); split; [reflexivity|split; assumption]].
    rewrite from_ok by lia. cbn [bind].
    destruct (len (skipn (Z.to_nat w) t) =? 0) eqn:E0; [exists None; split; [reflexivity|exact I]|].
    apply IH.
    - apply bytes_ok_skipn. exact Hb.
    - intros E. rewrite E in E0. discriminate.
    - rewrite skipn_length. unfold len in Hw. lia.
  Qed.

  Lemma pragma_arg_ok fuel : forall t i, bytes_ok t -> 0 <= i < len t -> (Z.to_nat (len t - i) < fuel)%nat ->
    exists j, pragma_arg ws fuel t i = Ok j /\ 0 <= j <= len t.
  Proof.
    induction fuel as [|f IH]; intros t i Hb Hi Hf; [lia|].
    cbn [pragma_arg]. rewrite from_ok by lia. cbn [bind].
    destruct (utf8_decode_any t i Hb ltac:(lia)) as (c & w & -> & Hw & Hw1). specialize (Hw1 ltac:(lia)).
    destruct (ws c); [exists i; split; [reflexivity|lia]|].
    destruct (len t <=? i + w) eqn:E; [exists (i + w); split; [reflexivity|lia]|].
    apply IH; [exact Hb|lia|lia].
  Qed.

  Lemma scanForPragmaArg_total skip start plen text :
    bytes_ok text -> 0 <= plen <= len text -> safe (scanForPragmaArg ws skip start plen text).
  Proof.
    intros Hb Hp. unfold scanForPragmaArg, safe. rewrite from_ok by lia. cbn [bind].
    set (t := skipn (Z.to_nat plen) text).
    assert (Hbt : bytes_ok t) by (apply bytes_ok_skipn; exact Hb).
    destruct (len t =? 0) eqn:E0; [eexists; reflexivity|].
    assert (Hne : t <> []) by (intros E; rewrite E in E0; discriminate).
    assert (H1 : exists r, (if skip then
            let '(c, _) := utf8_decode t in
            if negb (ws c) then Ok None else pragma_skip ws (S (length t)) t (start + plen)
          else Ok (Some (t, start + plen))) = Ok r /\
          match r with None => True | Some (t', _) => bytes_ok t' /\ t' <> [] end).
    { destruct skip; [|exists (Some (t, start + plen)); split; [reflexivity|split; assumption]].
      destruct (utf8_decode t) as [c w]. destruct (negb (ws c)); [exists None; split; [reflexivity|exact I]|].
      apply pragma_skip_ok; [exact Hbt|exact Hne|lia]. }
    destruct H1 as (r & -> & Hr). cbn [bind]. destruct r as [[t' s']|]; [|eexists; reflexivity].
    destruct Hr as [Hb' Hne'].
    assert (0 < len t') by (destruct t'; [congruence|rewrite len_cons; pose proof (len_nonneg t'); lia]).
    destruct (pragma_arg_ok (S (length t')) t' 0 Hb' ltac:(lia)) as (j & -> & Hj); [unfold len; lia|].
    cbn [bind]. rewrite upto_ok by lia. cbn [bind]. eexists; reflexivity.
  Qed.
End PragmaProofs.
