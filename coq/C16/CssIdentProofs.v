(* C16 proofs: RangeOfIdentifier with the end-of-text test never crashes and
   never hangs; without it it hangs on the one-byte text "x". *)
From V Require Import Common.Base C16.Checked C16.Wtf8 C16.Wtf8Proofs C16.CssIdent.

Lemma utf8_decode_nil : utf8_decode [] = (RuneError, 0).
Proof. reflexivity. Qed.

Lemma utf8_decode_spec t : bytes_ok t -> t <> [] ->
  exists c w, utf8_decode t = (c, w) /\ 1 <= w <= len t.
Proof.
  intros Hb Hne. unfold utf8_decode.
  destruct (decode_spec t Hne Hb) as (c & w & -> & Hw & Hl & _).
  destruct ((55296 <=? c) && (c <=? 57343)).
  - exists RuneError, 1. split; [reflexivity|]. lia.
  - exists c, w. split; [reflexivity|]. lia.
Qed.

Lemma utf8_decode_nonneg t : bytes_ok t -> 0 <= fst (utf8_decode t).
Proof.
  intros Ht. destruct t as [|a r]; [cbn; unfold RuneError; lia|].
  unfold utf8_decode. destruct (decode_spec (a :: r) ltac:(discriminate) Ht) as (c & w & -> & _ & _ & Hc).
  destruct ((55296 <=? c) && (c <=? 57343)); cbn [fst]; unfold RuneError; lia.
Qed.

(* at the end of the text the width is 0: what makes a loop without an end-of-text test spin *)
Lemma utf8_decode_any text i : bytes_ok text -> 0 <= i <= len text ->
  exists c w, utf8_decode (skipn (Z.to_nat i) text) = (c, w) /\ 0 <= w <= len text - i /\
              (i < len text -> 1 <= w).
Proof.
  intros Hb Hi.
  assert (L : len (skipn (Z.to_nat i) text) = len text - i) by (rewrite len_skipn; lia).
  destruct (skipn (Z.to_nat i) text) as [|a r] eqn:E.
  - exists RuneError, 0. split; [reflexivity|]. rewrite len_nil in L. lia.
  - destruct (utf8_decode_spec (a :: r)) as (c & w & Ed & Hw).
    + rewrite <- E. apply bytes_ok_skipn. exact Hb.
    + discriminate.
    + exists c, w. split; [exact Ed|]. lia.
Qed.

Section ROIProofs.
  Variable text : list Z.
  Hypothesis Hb : bytes_ok text.

  Lemma hex5_ok k : forall i c w, 0 <= i -> 0 <= w -> i + w <= len text ->
    exists i' c' w', hex5 text k i c w = Ok (i', c', w') /\ i <= i' /\ 0 <= w' /\ i' + w' <= len text.
  Proof.
    induction k as [|k IH]; intros i c w Hi Hw Hl; cbn [hex5].
    - exists i, c, w. split; [reflexivity|lia].
    - destruct (negb (isHex c)); [exists i, c, w; split; [reflexivity|lia]|].
      rewrite from_ok by lia. cbn [bind].
      destruct (utf8_decode_any text (i + w) Hb ltac:(lia)) as (c' & w' & -> & Hw' & _).
      destruct (IH (i + w) c' w') as (i2 & c2 & w2 & E & H1 & H2 & H3); [lia|lia|lia|].
      exists i2, c2, w2. split; [exact E|lia].
  Qed.

  Lemma roi_loop_ok fuel : forall i, 0 <= i <= len text -> (Z.to_nat (len text - i) < fuel)%nat ->
    exists e, roi_loop true text fuel i = Ok e /\ 0 <= e <= len text.
  Proof.
    induction fuel as [|f IH]; intros i Hi Hf; [lia|].
    cbn [roi_loop andb].
    destruct (i <? len text) eqn:Ei; cbn [negb]; [|exists i; split; [reflexivity|lia]].
    rewrite from_ok by lia. cbn [bind].
    destruct (utf8_decode_any text i Hb ltac:(lia)) as (c & w & -> & Hw & Hw1).
    specialize (Hw1 ltac:(lia)).
    destruct (IsNameContinue c).
    { apply IH; lia. }
    destruct ((c =? 92) && (i + 1 <? len text)) eqn:Eesc.
    2:{ cbn [bind]. exists i. split; [reflexivity|lia]. }
    destruct (idx_ok' text (i + 1) ltac:(lia)) as [c1 ->]. cbn [bind].
    destruct (negb (isNewline c1)); [|exists i; split; [reflexivity|lia]].
    rewrite from_ok by lia. cbn [bind].
    destruct (utf8_decode_any text (i + w) Hb ltac:(lia)) as (c2 & w2 & -> & Hw2 & _).
    destruct (isHex c2).
    - rewrite from_ok by lia. cbn [bind].
      destruct (utf8_decode_any text (i + w + w2) Hb ltac:(lia)) as (c3 & w3 & -> & Hw3 & _).
      destruct (hex5_ok 5 (i + w + w2) c3 w3) as (i4 & c4 & w4 & -> & H1 & H2 & H3); [lia|lia|lia|].
      cbn [bind].
      destruct (isWhitespace c4).
      + apply IH; lia.
      + apply IH; lia.
    - apply IH; lia.
  Qed.

  Lemma RangeOfIdentifier_guarded_total : safe (RangeOfIdentifier true text).
  Proof.
    unfold RangeOfIdentifier, RangeOfIdentifier_fuel, safe.
    destruct (len text =? 0) eqn:E0; [eexists; reflexivity|].
    pose proof (len_nonneg text) as Hn.
    destruct (roi_loop_ok (S (length text)) 0 ltac:(lia)) as (e & -> & He).
    { unfold len. lia. }
    cbn [bind]. destruct (0 <? e) eqn:E1; [|eexists; reflexivity].
    destruct (idx_ok' text (e - 1) ltac:(lia)) as [c ->]. cbn [bind]. eexists; reflexivity.
  Qed.
End ROIProofs.

(* the loop without the end-of-text test (the code before fix commit e50bb17):
   on the text "x" the scan reaches the end of the text and stays there *)
Lemma roi_unguarded_spins fuel : roi_loop false [120] fuel 1 = Hang.
Proof.
  induction fuel as [|f IH]; [reflexivity|].
  change (roi_loop false [120] (S f) 1) with (roi_loop false [120] f (1 + 0)). exact IH.
Qed.

Lemma RangeOfIdentifier_unguarded_hangs fuel : RangeOfIdentifier_fuel false [120] fuel = Hang.
Proof.
  unfold RangeOfIdentifier_fuel. change (len [120] =? 0) with false. cbv iota.
  destruct fuel as [|f]; [reflexivity|].
  change (roi_loop false [120] (S f) 0) with (roi_loop false [120] f (0 + 1)).
  change (0 + 1) with 1. rewrite roi_unguarded_spins. reflexivity.
Qed.
