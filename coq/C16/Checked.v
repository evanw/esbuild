(* C16: results of runs with CHECKED accesses.
   Every model in this directory mirrors a Go function that receives hostile
   bytes.  Go's run-time checks are made explicit: an index or slice
   expression whose bounds are violated yields [Crash] (Go would panic with
   "index out of range"/"slice bounds out of range"), an explicit
   [panic(...)] in the Go text also yields [Crash], and a loop that runs out
   of fuel yields [Hang].  The theorems then say that, for ALL inputs, a run
   is neither. *)
From V Require Import Common.Base.

Inductive res (A : Type) : Type :=
| Ok : A -> res A
| Crash : res A
| Hang : res A.
Arguments Ok {A} _.
Arguments Crash {A}.
Arguments Hang {A}.

Definition bind {A B} (r : res A) (f : A -> res B) : res B :=
  match r with Ok a => f a | Crash => Crash | Hang => Hang end.
Notation "x <- e ;; k" := (bind e (fun x => k)) (at level 61, e at next level, right associativity).
Notation "' p <- e ;; k" := (bind e (fun p => k)) (at level 61, p pattern, e at next level, right associativity).

Definition safe {A} (r : res A) : Prop := exists a, r = Ok a.
Definition is_ok {A} (r : res A) : bool := match r with Ok _ => true | _ => false end.
Definition is_crash {A} (r : res A) : bool := match r with Crash => true | _ => false end.
Definition is_hang {A} (r : res A) : bool := match r with Hang => true | _ => false end.

Lemma safe_not_crash_hang {A} (r : res A) : safe r <-> (r <> Crash /\ r <> Hang).
Proof.
  split.
  - intros [a ->]; split; discriminate.
  - destruct r; intros [H1 H2]; [eexists; reflexivity | congruence | congruence].
Qed.

Lemma safe_bind {A B} (r : res A) (f : A -> res B) : safe r -> (forall a, safe (f a)) -> safe (bind r f).
Proof. intros [a ->] Hf. exact (Hf a). Qed.

Definition len {A} (l : list A) : Z := Z.of_nat (length l).

(* l[i] *)
Definition idx (l : list Z) (i : Z) : res Z :=
  if (i <? 0) then Crash else
  match nth_error l (Z.to_nat i) with Some v => Ok v | None => Crash end.

(* l[i:] *)
Definition from (l : list Z) (i : Z) : res (list Z) :=
  if (0 <=? i) && (i <=? len l) then Ok (skipn (Z.to_nat i) l) else Crash.
(* l[:j] *)
Definition upto (l : list Z) (j : Z) : res (list Z) :=
  if (0 <=? j) && (j <=? len l) then Ok (firstn (Z.to_nat j) l) else Crash.
(* l[i:j] *)
Definition slice (l : list Z) (i j : Z) : res (list Z) :=
  if (0 <=? i) && (i <=? j) && (j <=? len l)
  then Ok (firstn (Z.to_nat (j - i)) (skipn (Z.to_nat i) l)) else Crash.

Lemma len_nonneg {A} (l : list A) : 0 <= len l.
Proof. unfold len; lia. Qed.
Lemma len_cons {A} (x : A) l : len (x :: l) = 1 + len l.
Proof. unfold len; cbn [length]; lia. Qed.
Lemma len_nil {A} : len (@nil A) = 0.
Proof. reflexivity. Qed.
Lemma len_app {A} (a b : list A) : len (a ++ b) = len a + len b.
Proof. unfold len; rewrite app_length; lia. Qed.
Lemma len_skipn {A} (l : list A) n : len (skipn n l) = len l - Z.min (Z.of_nat n) (len l).
Proof. unfold len; rewrite skipn_length; lia. Qed.
Lemma len_firstn {A} (l : list A) n : len (firstn n l) = Z.min (Z.of_nat n) (len l).
Proof. unfold len; rewrite firstn_length; lia. Qed.

Lemma idx_ok l i : 0 <= i < len l -> exists v, idx l i = Ok v /\ nth_error l (Z.to_nat i) = Some v.
Proof.
  intros H. unfold idx. destruct (i <? 0) eqn:E; [lia|].
  destruct (nth_error l (Z.to_nat i)) eqn:N.
  - eauto.
  - apply nth_error_None in N. unfold len in H. lia.
Qed.
Lemma idx_ok' l i : 0 <= i < len l -> exists v, idx l i = Ok v.
Proof. intros H; destruct (idx_ok l i H) as [v [E _]]; eauto. Qed.
Lemma idx_crash l i : ~ (0 <= i < len l) -> idx l i = Crash.
Proof.
  intros H. unfold idx. destruct (i <? 0) eqn:E; [reflexivity|].
  destruct (nth_error l (Z.to_nat i)) eqn:N; [|reflexivity].
  assert (nth_error l (Z.to_nat i) <> None) as NN by congruence.
  apply nth_error_Some in NN. unfold len in H. lia.
Qed.
Lemma from_ok l i : 0 <= i <= len l -> from l i = Ok (skipn (Z.to_nat i) l).
Proof. intros H; unfold from. destruct ((0 <=? i) && (i <=? len l)) eqn:E; [reflexivity | lia]. Qed.
Lemma upto_ok l j : 0 <= j <= len l -> upto l j = Ok (firstn (Z.to_nat j) l).
Proof. intros H; unfold upto. destruct ((0 <=? j) && (j <=? len l)) eqn:E; [reflexivity | lia]. Qed.
Lemma slice_ok l i j : 0 <= i <= j -> j <= len l ->
  slice l i j = Ok (firstn (Z.to_nat (j - i)) (skipn (Z.to_nat i) l)).
Proof. intros H1 H2; unfold slice. destruct ((0 <=? i) && (i <=? j) && (j <=? len l)) eqn:E; [reflexivity | lia]. Qed.

(* Go fixed-width integer wrap-around *)
Definition wrap_u32 (x : Z) : Z := x mod 2 ^ 32.
Definition wrap_i32 (x : Z) : Z := (x + 2 ^ 31) mod 2 ^ 32 - 2 ^ 31.
Lemma wrap_u32_range x : 0 <= wrap_u32 x < 2 ^ 32.
Proof. unfold wrap_u32. apply Z.mod_pos_bound. reflexivity. Qed.
Lemma wrap_i32_range x : - 2 ^ 31 <= wrap_i32 x < 2 ^ 31.
Proof. unfold wrap_i32. pose proof (Z.mod_pos_bound (x + 2 ^ 31) (2 ^ 32) eq_refl). lia. Qed.
