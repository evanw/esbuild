(* C16 property theorems. This file contains only statements closed by
   [exact lemma] and Print Assumptions.  [total_on dom f] (Spec.v) says: for
   EVERY x in dom, the checked-access run f x is neither Crash (an index/slice
   out of range or an explicit panic) nor Hang (fuel = one unit per loop
   iteration, len+1 given). *)
From V Require Import Common.Base C16.Checked C16.Spec C16.Wtf8 C16.Vlq16 C16.CssNum C16.Pieces C16.Packet C16.CssIdent C16.JsxEntities C16.CssLex C16.Globstar C16.JsLex C16.JsIdent C16.JsPragma
  C16.Proofs C16.Vlq16Proofs C16.GlobstarProofs C16.PanicSites C16.DecodeLoops.
From V Require Import gen.PanicSitesGen gen.DecodeLoopsGen.
From V Require Import C16.ClosingTag C16.ClosingTagProofs C16.ClosingTagNoTag.
From Coq Require Import String.

(* helpers.DecodeWTF8Rune: every list of integers, whatever width is returned on truncation *)
Theorem decoder_total_DecodeWTF8Rune : forall tw, total_on (fun _ => True) (DecodeWTF8Rune_gen tw).
Proof. exact total_DecodeWTF8Rune. Qed.
Print Assumptions decoder_total_DecodeWTF8Rune.

(* ... the current decoder consumes between 1 and len bytes of every non-empty byte string
   (the progress every consuming loop needs; violated before fix 8cccdcd) *)
Theorem DecodeWTF8Rune_progress : progresses all_bytes DecodeWTF8Rune.
Proof. exact progress_DecodeWTF8Rune. Qed.
Print Assumptions DecodeWTF8Rune_progress.

Theorem DecodeWTF8Rune_code_point : forall s c w, all_bytes s -> s <> [] ->
  DecodeWTF8Rune s = Ok (c, w) -> is_code_point c /\ 1 <= w <= 4.
Proof. exact code_point_DecodeWTF8Rune. Qed.
Print Assumptions DecodeWTF8Rune_code_point.

(* helpers.internalQuote (QuoteForJSON / QuoteSingle): every byte string, both modes, every quote character *)
Theorem decoder_total_internalQuote : forall asciiOnly q, total_on all_bytes (fun text => internalQuote text asciiOnly q).
Proof. exact total_internalQuote. Qed.
Print Assumptions decoder_total_internalQuote.

(* the repaired defect C16-truncated-utf8-hang, kept visible: with the OLD decoder (width 0 on a
   truncated sequence) the run on the text [0xC3] is Hang for EVERY amount of fuel, in both modes *)
Theorem internalQuote_total_refuted_for_old_decoder : forall fuel q,
  internalQuote_fuel DecodeWTF8Rune_old [195] false q fuel = Hang /\
  internalQuote_fuel DecodeWTF8Rune_old [195] true q fuel = Hang.
Proof. exact old_decoder_hangs. Qed.
Print Assumptions internalQuote_total_refuted_for_old_decoder.

(* sourcemap.DecodeVLQUTF16: every unit sequence (int32 wrap explicit) *)
Theorem decoder_total_DecodeVLQUTF16 : total_on (fun _ => True) DecodeVLQUTF16.
Proof. exact total_DecodeVLQUTF16. Qed.
Print Assumptions decoder_total_DecodeVLQUTF16.

Theorem DecodeVLQUTF16_progress : forall enc v i, DecodeVLQUTF16 enc = Ok (v, i, true) -> 1 <= i <= len enc.
Proof. exact Vlq16Proofs.DecodeVLQUTF16_progress. Qed.
Print Assumptions DecodeVLQUTF16_progress.

(* the mappings loop of ParseSourceMap over any list of sections: every unit
   sequence, every line/column offset and every sources/names length *)
Theorem decoder_total_sourcemap_mappings : total_on (fun _ => True) ParseMappings.
Proof. exact total_ParseMappings. Qed.
Print Assumptions decoder_total_sourcemap_mappings.

(* the invariant that the printer (ChunkBuilder.appendMapping, SourceMap.Find) and the linker index with:
   every mapping of a parsed source map has 0 <= source < len(Sources), name absent or
   0 <= name < len(Names), and non-negative generated column / original line / original column -
   for every list of sections whose raw "sources"/"names" array lengths are non-negative and sum to
   less than 2^31 (JSON arrays; non-string entries COUNT, they become "") *)
Theorem parsed_map_indices_in_range : forall secs ns nn ms,
  sections_ok secs -> total_sources secs < 2 ^ 31 -> total_names secs < 2 ^ 31 ->
  ParseMappings secs = Ok (PMap ns nn ms) -> Forall (good_mapping ns nn) ms.
Proof. exact parsed_map_indices_in_range_all. Qed.
Print Assumptions parsed_map_indices_in_range.

(* css parseHex: every rune sequence; the value stays a uint32 *)
Theorem decoder_total_parseHex : forall runes, exists v ok, parseHex runes = Ok (v, ok) /\ 0 <= v < 2 ^ 32.
Proof. exact CssNumProofs.parseHex_total. Qed.
Print Assumptions decoder_total_parseHex.

(* css mangleNumber / shiftDot: every byte string (and every dot offset) *)
Theorem decoder_total_mangleNumber : total_on (fun _ => True) mangleNumber.
Proof. exact total_mangleNumber. Qed.
Print Assumptions decoder_total_mangleNumber.

Theorem decoder_total_shiftDot : forall dotOffset, total_on (fun _ => True) (fun t => shiftDot t dotOffset).
Proof. exact total_shiftDot. Qed.
Print Assumptions decoder_total_shiftDot.

(* linker breakOutputIntoPieces: every output, every key prefix, every file/chunk count *)
Theorem decoder_total_breakOutputIntoPieces : forall prefix nfiles nchunks,
  total_on (fun _ => True) (fun output => breakOutputIntoPieces output prefix nfiles nchunks).
Proof. exact total_breakOutputIntoPieces. Qed.
Print Assumptions decoder_total_breakOutputIntoPieces.

(* stdio protocol decodePacket: it is NOT crash-free (decodePacket_total_refuted below), but for every byte
   string it terminates: each array/map iteration and each nested visit consumes at least the kind byte *)
Theorem decodePacket_never_hangs_partial : forall bs, all_bytes bs -> decodePacket bs <> Hang.
Proof. exact PacketProofs.decodePacket_nohang. Qed.
Print Assumptions decodePacket_never_hangs_partial.

(* css_lexer.RangeOfIdentifier (range of an identifier for a diagnostic) with the
   end-of-text test in its scan loop: every byte string *)
Theorem decoder_total_RangeOfIdentifier : total_on all_bytes (RangeOfIdentifier true).
Proof. exact total_RangeOfIdentifier. Qed.
Print Assumptions decoder_total_RangeOfIdentifier.

(* finding C16-css-identifier-range-hang kept visible: WITHOUT the end-of-text test
   (the pinned snapshot) the scan of the one-byte text "x" is Hang for EVERY amount of fuel *)
Theorem RangeOfIdentifier_total_refuted_without_end_test : forall fuel, RangeOfIdentifier_fuel false [120] fuel = Hang.
Proof. exact CssIdentProofs.RangeOfIdentifier_unguarded_hangs. Qed.
Print Assumptions RangeOfIdentifier_total_refuted_without_end_test.

(* the CSS lexer's cursor: step() stays inside the text, never moves backwards, moves forward
   unless at the end, where it yields the eof sentinel (what every consumer loop relies on) *)
Theorem css_lexer_step_progress : forall text l, all_bytes text -> 0 <= cur l <= len text ->
  exists l', step text l = Ok l' /\ cur l <= cur l' <= len text /\
             (cur l < len text -> cur l < cur l') /\ (cur l = len text -> cp l' = eof).
Proof. exact css_step_progress. Qed.
Print Assumptions css_lexer_step_progress.

(* the CSS lexer's escape / string / url / name consumers (on a fresh lexer, as run by the
   correspondence hook): every byte string; each loop iteration returns or strictly decreases
   2*(len - current) + [codePoint <> eof] *)
Theorem decoder_total_css_consumeEscape : total_on all_bytes run_escape.
Proof. exact total_css_consumeEscape. Qed.
Print Assumptions decoder_total_css_consumeEscape.
Theorem decoder_total_css_consumeString : total_on all_bytes run_string.
Proof. exact total_css_consumeString. Qed.
Print Assumptions decoder_total_css_consumeString.
Theorem decoder_total_css_consumeURL : total_on all_bytes run_url.
Proof. exact total_css_consumeURL. Qed.
Print Assumptions decoder_total_css_consumeURL.
Theorem decoder_total_css_consumeName : total_on all_bytes run_name.
Proof. exact total_css_consumeName. Qed.
Print Assumptions decoder_total_css_consumeName.

(* the JS lexer's string / template literal scan inside Lexer.Next (quotes, backslash line
   continuations incl. CRLF, "${") TOGETHER WITH the slice Contents[start+1 : end-suffixLen] that takes
   the literal's text: every byte string; the result is a token or the typed LexerPanic (syntax error) *)
Theorem decoder_total_js_string_template : total_on all_bytes run_jsstring.
Proof. exact total_js_string_template. Qed.
Print Assumptions decoder_total_js_string_template.

(* ... and the same scan re-entered by RescanCloseBraceAsTemplateToken (template middle / tail after "}") *)
Theorem decoder_total_js_template_rescan : total_on (fun t => all_bytes t /\ 1 <= len t) run_jstemplate_tail.
Proof. exact total_js_template_rescan. Qed.
Print Assumptions decoder_total_js_template_rescan.

(* Lexer.ScanRegExp (class brackets, escapes, flags incl. the duplicate-flag scan): every byte string and
   every identifier-continue classification that rejects the eof sentinel *)
Theorem decoder_total_js_ScanRegExp : forall idc, idc eof = false -> total_on all_bytes (run_regexp idc).
Proof. exact total_js_ScanRegExp. Qed.
Print Assumptions decoder_total_js_ScanRegExp.

(* js_lexer.RangeOfIdentifier (identifier / private name with "\u{...}" escapes, for diagnostics) and its
   fallback logger.Source.RangeOfString: every byte string, every identifier classification *)
Theorem decoder_total_js_RangeOfIdentifier : forall ids idc, total_on all_bytes (jsRangeOfIdentifier ids idc).
Proof. exact total_js_RangeOfIdentifier. Qed.
Print Assumptions decoder_total_js_RangeOfIdentifier.
Theorem decoder_total_RangeOfString : total_on (fun _ => True) RangeOfString.
Proof. exact total_RangeOfString. Qed.
Print Assumptions decoder_total_RangeOfString.

(* js_lexer.scanForPragmaArg (argument of "//# sourceMappingURL=", "@jsx" ... comment pragmas): every byte
   string that starts with the pragma (0 <= len(pragma) <= len(text), the callers' prefix test), every
   whitespace classification *)
Theorem decoder_total_js_scanForPragmaArg : forall ws skip start plen text,
  all_bytes text -> 0 <= plen <= len text ->
  scanForPragmaArg ws skip start plen text <> Crash /\ scanForPragmaArg ws skip start plen text <> Hang.
Proof. exact total_scanForPragmaArg. Qed.
Print Assumptions decoder_total_js_scanForPragmaArg.

(* js_lexer.decodeJSXEntities (JSX text and attribute strings) with the guard "length > 0" in front of
   entity[0]: every byte string, every entity table *)
Theorem decoder_total_decodeJSXEntities : forall lookup, total_on all_bytes (decodeJSXEntities true lookup).
Proof. exact total_decodeJSXEntities. Qed.
Print Assumptions decoder_total_decodeJSXEntities.

(* ... and that guard is necessary: with "length != -1" the empty entity "&;" crashes at entity[0] *)
Theorem decodeJSXEntities_total_refuted_with_weak_guard : forall lookup, decodeJSXEntities false lookup [38; 59] = Crash.
Proof. exact JsxEntitiesProofs.decodeJSXEntities_weak_guard_crashes. Qed.
Print Assumptions decodeJSXEntities_total_refuted_with_weak_guard.

(* stdio protocol: readLengthPrefixedSlice is total on bytes ... *)
Theorem decoder_total_readLengthPrefixedSlice : total_on all_bytes readLengthPrefixedSlice.
Proof. exact total_readLengthPrefixedSlice. Qed.
Print Assumptions decoder_total_readLengthPrefixedSlice.

(* ... but decodePacket is not (truncated packet; the protocol peer is esbuild's own
   JS library and the service is the subject of C20: recorded, not a C16 violation) *)
Theorem decodePacket_total_refuted : exists bs, all_bytes bs /\ decodePacket bs = Crash.
Proof. exact decodePacket_refuted. Qed.
Print Assumptions decodePacket_total_refuted.

(* T8 obligations over the inventory regenerated from the Go sources on every run *)
Theorem every_goroutine_recovers : forall s, In s spawn_sites ->
  runs_parser_or_printer s = true -> exempt s = false ->
  sp_resolved s = true /\ (1 <= sp_recover s)%nat.
Proof. exact every_goroutine_recovers_all. Qed.
Print Assumptions every_goroutine_recovers.

Theorem goroutine_exemptions_are_exactly : map sp_func (filter exempt spawn_sites) = ["ScanBundle"%string] /\
  map sp_func (filter (fun s => runs_parser_or_printer s && Nat.eqb (sp_recover s) 1) spawn_sites)
  = ["linkerContext.generateChunkCSS"%string].
Proof. exact (conj exempt_sites_are conditional_recover_sites_are). Qed.
Print Assumptions goroutine_exemptions_are_exactly.

Theorem lexer_panic_caught_at_entry : forall e, In e lexer_entries -> en_recover_before e = true.
Proof. exact lexer_entries_all. Qed.
Print Assumptions lexer_panic_caught_at_entry.

Theorem lexer_panic_confined : forall p, In p panic_sites -> pa_typed p = true ->
  pa_pkg p = "internal/js_lexer"%string \/ pa_pkg p = "internal/js_parser"%string.
Proof. exact lexer_panic_confined_all. Qed.
Print Assumptions lexer_panic_confined.

(* T8b obligation: every rune-decoder call inside a loop (css_lexer, css_parser, js_lexer, js_parser,
   helpers, logger) is syntactically guarded against a width-0 decode at the end of the input, or is one
   of the three reviewed sites listed below *)
Theorem every_decode_loop_is_guarded : forall s, In s decode_loop_sites -> unguarded s = true -> reviewed s = true.
Proof. exact decode_loops_all. Qed.
Print Assumptions every_decode_loop_is_guarded.

Theorem unguarded_decode_loops_are_exactly :
  map (fun s => (dl_func s, dl_decoder s)) (filter unguarded decode_loop_sites) =
  [("Lexer.tryToDecodeEscapeSequences", "utf8.DecodeRuneInString");
   ("LineColumnTracker.scanTo", "utf8.DecodeRuneInString");
   ("LineColumnTracker.scanTo", "utf8.DecodeLastRuneInString")]%string.
Proof. exact unguarded_sites_are. Qed.
Print Assumptions unguarded_decode_loops_are_exactly.

(* T8 extended to the API layer and the stdio service: every goroutine of pkg/api, cmd/esbuild, pkg/cli that
   runs a build either defers a recover wrapper or is spawned by one of five listed functions *)
Theorem service_goroutines_unprotected_are_known : forall s, In s service_spawn_sites -> runs_build s = true ->
  (1 <= sp_recover s)%nat \/ In (sp_func s) known_unprotected_spawners.
Proof. exact service_goroutines_all. Qed.
Print Assumptions service_goroutines_unprotected_are_known.

(* ... and at present none of them has one (a panic in pkg/api or cmd/esbuild code inside such a goroutine
   terminates the process; the parser/printer goroutines below them do recover: every_goroutine_recovers) *)
Theorem every_service_goroutine_recovers_refuted :
  forallb (fun s => Nat.eqb (sp_recover s) 0) service_spawn_sites = true.
Proof. exact service_goroutines_none_recovers. Qed.
Print Assumptions every_service_goroutine_recovers_refuted.

(* resolver.globstarToEscapedRegexp (package.json "sideEffects" globs -> the pattern given to
   regexp.MustCompile): for EVERY byte string the run returns, and the pattern is ^ item* $ where every
   item is an escaped special byte, '.', [^/]*, (?:[^/]*(?:/|$))* or a literal byte that is not special
   in RE2 - balanced and fully escaped.  (Bytes >= 0x80 are copied unchanged: the pattern is valid UTF-8
   only if the glob is - finding C16-regexp-invalid-utf8.) *)
Theorem globstar_regexp_wellformed : forall glob, exists p h, globstarToEscapedRegexp glob = Ok (p, h) /\ wf_pattern p.
Proof. exact globstar_wellformed. Qed.
Print Assumptions globstar_regexp_wellformed.

(* T8: no regexp.MustCompile on a non-constant argument remains (the two that existed panicked on invalid
   UTF-8 and were repaired by dfdee39 / dbc750e); the input-derived patterns go through regexp.Compile *)
Theorem mustcompile_sites_are_exactly : filter nonconst_mustcompile regexp_sites = [] /\
  forallb (fun n => existsb (fun s => String.eqb (re_func s) n && negb (re_must s)) regexp_sites)
          ["resolverQuery.parsePackageJSON"; "Resolver.ResolveGlob"; "validateRegex"; "compileFilter"]%string = true.
Proof. exact (conj mustcompile_sites_none input_patterns_use_compile). Qed.
Print Assumptions mustcompile_sites_are_exactly.

(* helpers.EscapeClosingTag (raw bytes of legal comments, package paths, printed comments;
   tag "/script", "/style" or ""): every tag, every text - the slice text[:len(slashTag)] is
   guarded and every loop iteration consumes at least the '<' it found *)
Theorem decoder_total_EscapeClosingTag : forall tag, total_on (fun _ => True) (EscapeClosingTag tag).
Proof. exact total_EscapeClosingTag. Qed.
Print Assumptions decoder_total_EscapeClosingTag.

(* ... and what it computes: one left-to-right pass that puts a backslash after every '<'
   followed by '/' and an ASCII-case-insensitive occurrence of the tag; nothing else changes *)
Theorem EscapeClosingTag_is_one_pass_spec : forall tag text,
  EscapeClosingTag tag text = Ok (match tag with [] => text | _ => esc_spec tag text end).
Proof. exact EscapeClosingTag_is_spec. Qed.
Print Assumptions EscapeClosingTag_is_one_pass_spec.

(* ... and what it is for: for every tag that starts with '/' and contains no '<' (the callers'
   "/script" and "/style", Example script_tag_ok), NO '<' followed by a case-insensitive occurrence
   of the tag is left anywhere in the output, whatever the text *)
Theorem EscapeClosingTag_leaves_no_closing_tag : forall tag' text, no_lt tag' = true ->
  exists out, EscapeClosingTag (47 :: tag') text = Ok out /\ has_closing (47 :: tag') out = false.
Proof. exact EscapeClosingTag_no_closing. Qed.
Print Assumptions EscapeClosingTag_leaves_no_closing_tag.
