(* C16 proofs: the CSS lexer's cursor and consumers never index out of range
   and always terminate: every loop iteration either returns or strictly
   decreases the measure 2*(len - current) + [codePoint <> eof]. *)
From V Require Import Common.Base C16.Checked C16.Wtf8 C16.Wtf8Proofs C16.CssIdent C16.CssIdentProofs C16.CssLex.

Section LexProofs.
  Variable text : list Z.
  Hypothesis Hb : bytes_ok text.

  Definition wf (l : lx) : Prop := 0 <= cur l <= len text.
  Definition mu (l : lx) : Z := 2 * (len text - cur l) + (if cp l =? eof then 0 else 1).

  Lemma mu_nonneg l : wf l -> 0 <= mu l.
  Proof. unfold wf, mu. destruct (cp l =? eof); lia. Qed.

  Lemma step_spec l : wf l ->
    exists l', step text l = Ok l' /\ wf l' /\ cur l <= cur l' /\ rlen l' = cur l /\
               mu l' <= mu l /\ (cp l <> eof -> mu l' < mu l) /\ (cur l < len text -> cur l < cur l') /\
               (cp l' = eof <-> cur l = len text) /\ (cp l' <> eof -> rlen l' + 1 <= cur l').
  Proof.
    intros Hw. unfold step, wf in *. rewrite from_ok by lia. cbn [bind].
    pose proof (utf8_decode_nonneg _ (bytes_ok_skipn _ (Z.to_nat (cur l)) Hb)) as Hnn.
    destruct (utf8_decode_any text (cur l) Hb ltac:(lia)) as (c & w & Ed & Hw1 & Hw2).
    rewrite Ed in *.
    eexists. split; [reflexivity|]. unfold mu, eof. cbn [cur cp rlen fst] in *.
    (* width 0 only at the end of the text, where the code point becomes eof and the measure
       loses its last unit; otherwise at least one byte is consumed *)
    destruct (w =? 0) eqn:E0.
    - assert (w = 0 /\ cur l = len text) as [-> Hend] by lia.
      change (-1 =? -1) with true.
      destruct (cp l =? -1) eqn:Ecp; repeat split; lia.
    - destruct (cp l =? -1) eqn:Ecp, (c =? -1) eqn:Ec; repeat split; lia.
  Qed.

  (* a step of the cursor inside a consumer: what the loops use is the measure *)
  Ltac do_step l Hw l' Hw' Hm Hs :=
    destruct (step_spec l Hw) as (l' & -> & Hw' & _ & _ & Hm & Hs & _); cbn [bind].

  Lemma isValidEscape_ok l : wf l -> exists b, isValidEscape text l = Ok b.
  Proof.
    intros Hw. unfold isValidEscape. destruct (negb (cp l =? 92)); [eexists; reflexivity|].
    unfold wf in Hw. rewrite from_ok by lia. cbn [bind].
    destruct (utf8_decode _) as [c w]. eexists; reflexivity.
  Qed.

  Lemma isValidEscape_backslash l b : isValidEscape text l = Ok b -> b = true -> cp l = 92.
  Proof.
    unfold isValidEscape. destruct (cp l =? 92) eqn:E; cbn [negb]; [intros _ _; lia|].
    intros H1 H2. inversion H1. congruence.
  Qed.

  Lemma escape_digits_spec k : forall hex l, wf l ->
    exists hex' l', escape_digits text k hex l = Ok (hex', l') /\ wf l' /\ mu l' <= mu l.
  Proof.
    induction k as [|k IH]; intros hex l Hw; cbn [escape_digits].
    - exists hex, l. split; [reflexivity|]. split; [exact Hw|lia].
    - destruct (isHex (cp l)); [|exists hex, l; split; [reflexivity|split; [exact Hw|lia]]].
      do_step l Hw l1 Hw1 Hm1 Hs1.
      destruct (IH (hex * 16 + hexval (cp l)) l1 Hw1) as (h2 & l2 & E2 & Hw2 & Hm2).
      exists h2, l2. split; [exact E2|]. split; [exact Hw2|lia].
  Qed.

  Lemma consumeEscape_spec l : wf l ->
    exists r l', consumeEscape text l = Ok (r, l') /\ wf l' /\ mu l' <= mu l /\ (cp l <> eof -> mu l' < mu l).
  Proof.
    intros Hw. unfold consumeEscape.
    do_step l Hw l1 Hw1 Hm1 Hs1.
    destruct (isHex (cp l1)).
    - do_step l1 Hw1 l2 Hw2 Hm2 Hs2.
      destruct (escape_digits_spec 5 (hexval (cp l1)) l2 Hw2) as (hex & l3 & -> & Hw3 & Hm3). cbn [bind].
      assert (Hl4 : exists l4, (if isWhitespace (cp l3) then step text l3 else Ok l3) = Ok l4 /\ wf l4 /\ mu l4 <= mu l3).
      { destruct (isWhitespace (cp l3)).
        - destruct (step_spec l3 Hw3) as (l4 & E4 & Hw4 & _ & _ & Hm4 & _). exists l4. auto.
        - exists l3. split; [reflexivity|]. split; [exact Hw3|lia]. }
      destruct Hl4 as (l4 & -> & Hw4 & Hm4). cbn [bind].
      assert (Hpost : wf l4 /\ mu l4 <= mu l /\ (cp l <> eof -> mu l4 < mu l)).
      { split; [exact Hw4|]. split; [lia|]. intros H. specialize (Hs1 H). lia. }
      (* U+FFFD or the escaped code point: the lexer state is the same *)
      destruct ((hex =? 0) || ((55296 <=? hex) && (hex <=? 57343)) || (1114111 <? hex)).
      + eexists; exists l4. split; [reflexivity | exact Hpost].
      + eexists; exists l4. split; [reflexivity | exact Hpost].
    - destruct (cp l1 =? eof).
      + eexists; exists l1. split; [reflexivity|]. split; [exact Hw1|]. split; [lia|exact Hs1].
      + do_step l1 Hw1 l2 Hw2 Hm2 Hs2.
        eexists; exists l2. split; [reflexivity|]. split; [exact Hw2|]. split; [lia|]. intros H; specialize (Hs1 H); lia.
  Qed.

  Lemma string_loop_spec fuel : forall quote l, wf l -> mu l < Z.of_nat fuel ->
    exists k l', string_loop text fuel quote l = Ok (k, l') /\ wf l'.
  Proof.
    induction fuel as [|f IH]; intros quote l Hw Hf; [pose proof (mu_nonneg l Hw); lia|].
    cbn [string_loop].
    destruct (cp l =? 92) eqn:E92.
    { assert (Hne : cp l <> eof) by (unfold eof; lia).
      do_step l Hw l1 Hw1 Hm1 Hs1. specialize (Hs1 Hne).
      destruct (cp l1 =? 13).
      - do_step l1 Hw1 l2 Hw2 Hm2 Hs2.
        destruct (cp l2 =? 10).
        + do_step l2 Hw2 l3 Hw3 Hm3 Hs3. apply IH; [exact Hw3|lia].
        + cbn [bind]. apply IH; [exact Hw2|lia].
      - do_step l1 Hw1 l2 Hw2 Hm2 Hs2. apply IH; [exact Hw2|lia]. }
    destruct ((cp l =? eof) || (cp l =? 10) || (cp l =? 13) || (cp l =? 12)) eqn:Eend.
    { exists 2, l. split; [reflexivity|exact Hw]. }
    assert (Hne : cp l <> eof) by lia.
    destruct (cp l =? quote).
    - do_step l Hw l1 Hw1 Hm1 Hs1. exists 1, l1. split; [reflexivity|exact Hw1].
    - do_step l Hw l1 Hw1 Hm1 Hs1. specialize (Hs1 Hne).
      apply IH; [exact Hw1|lia].
  Qed.

  Lemma mu_bound l : wf l -> mu l < Z.of_nat (lex_fuel text).
  Proof.
    intros Hw. unfold lex_fuel, mu, wf, len in *.
    destruct (cp l =? eof); lia.
  Qed.

  Lemma consumeString_total l : wf l -> exists k l', consumeString text l = Ok (k, l') /\ wf l'.
  Proof.
    intros Hw. unfold consumeString.
    do_step l Hw l1 Hw1 Hm1 Hs1.
    apply string_loop_spec; [exact Hw1|apply mu_bound; exact Hw1].
  Qed.

  Lemma skip_ws_spec fuel : forall l, wf l -> mu l < Z.of_nat fuel ->
    exists l', skip_ws text fuel l = Ok l' /\ wf l' /\ mu l' <= mu l.
  Proof.
    induction fuel as [|f IH]; intros l Hw Hf; [pose proof (mu_nonneg l Hw); lia|].
    cbn [skip_ws].
    destruct (isWhitespace (cp l)) eqn:Ews; [|exists l; split; [reflexivity|split; [exact Hw|lia]]].
    assert (Hne : cp l <> eof).
    { intros E. rewrite E in Ews. discriminate. }
    do_step l Hw l1 Hw1 Hm1 Hs1. specialize (Hs1 Hne).
    destruct (IH l1 Hw1 ltac:(lia)) as (l2 & E2 & Hw2 & Hm2). exists l2. split; [exact E2|]. split; [exact Hw2|lia].
  Qed.

  Lemma badurl_loop_spec fuel : forall l, wf l -> mu l < Z.of_nat fuel ->
    exists k l', badurl_loop text fuel l = Ok (k, l') /\ wf l'.
  Proof.
    induction fuel as [|f IH]; intros l Hw Hf; [pose proof (mu_nonneg l Hw); lia|].
    cbn [badurl_loop].
    destruct ((cp l =? 41) || (cp l =? eof)) eqn:Eend.
    { do_step l Hw l1 Hw1 Hm1 Hs1. exists 4, l1. split; [reflexivity|exact Hw1]. }
    assert (Hne : cp l <> eof) by lia.
    assert (Hmid : exists l1, (if cp l =? 92 then
              v <- isValidEscape text l ;;
              if v then '(_, l') <- consumeEscape text l ;; Ok l' else Ok l
            else Ok l) = Ok l1 /\ wf l1 /\ (l1 = l \/ mu l1 < mu l)).
    { destruct (cp l =? 92); [|exists l; split; [reflexivity|split; [exact Hw|left; reflexivity]]].
      destruct (isValidEscape_ok l Hw) as [v ->]. cbn [bind].
      destruct v; [|exists l; split; [reflexivity|split; [exact Hw|left; reflexivity]]].
      destruct (consumeEscape_spec l Hw) as (r & l1 & -> & Hw1 & Hm1 & Hs1). cbn [bind].
      exists l1. split; [reflexivity|]. split; [exact Hw1|]. right. apply Hs1. exact Hne. }
    destruct Hmid as (l1 & -> & Hw1 & Hcase). cbn [bind].
    do_step l1 Hw1 l2 Hw2 Hm2 Hs2.
    apply IH; [exact Hw2|].
    destruct Hcase as [->|Hlt]; [specialize (Hs2 Hne); lia|lia].
  Qed.

  Lemma url_loop_spec fuel : forall l, wf l -> mu l < Z.of_nat fuel ->
    exists r l', url_loop text fuel l = Ok (r, l') /\ wf l'.
  Proof.
    induction fuel as [|f IH]; intros l Hw Hf; [pose proof (mu_nonneg l Hw); lia|].
    cbn [url_loop].
    destruct (cp l =? 41).
    { do_step l Hw l1 Hw1 Hm1 Hs1. eexists; exists l1. split; [reflexivity|exact Hw1]. }
    destruct (cp l =? eof) eqn:Eeof.
    { eexists; exists l. split; [reflexivity|exact Hw]. }
    assert (Hne : cp l <> eof) by lia.
    destruct (isWhitespace (cp l)).
    { do_step l Hw l1 Hw1 Hm1 Hs1.
      destruct (skip_ws_spec (lex_fuel text) l1 Hw1 (mu_bound l1 Hw1)) as (l2 & -> & Hw2 & Hm2). cbn [bind].
      destruct (negb (cp l2 =? 41)).
      - destruct (cp l2 =? eof); eexists; exists l2; (split; [reflexivity|exact Hw2]).
      - do_step l2 Hw2 l3 Hw3 Hm3 Hs3. eexists; exists l3. split; [reflexivity|exact Hw3]. }
    destruct ((cp l =? 34) || (cp l =? 39) || (cp l =? 40)).
    { eexists; exists l. split; [reflexivity|exact Hw]. }
    destruct (cp l =? 92).
    { destruct (isValidEscape_ok l Hw) as [v ->]. cbn [bind].
      destruct v; cbn [negb]; [|eexists; exists l; split; [reflexivity|exact Hw]].
      destruct (consumeEscape_spec l Hw) as (r & l1 & -> & Hw1 & Hm1 & Hs1). cbn [bind].
      specialize (Hs1 Hne). apply IH; [exact Hw1|lia]. }
    destruct (isNonPrintable (cp l)).
    { eexists; exists l. split; [reflexivity|exact Hw]. }
    do_step l Hw l1 Hw1 Hm1 Hs1. specialize (Hs1 Hne).
    apply IH; [exact Hw1|lia].
  Qed.

  Lemma consumeURL_total l : wf l -> exists k l', consumeURL text l = Ok (k, l') /\ wf l'.
  Proof.
    intros Hw. unfold consumeURL.
    destruct (url_loop_spec (lex_fuel text) l Hw (mu_bound l Hw)) as (r & l1 & -> & Hw1). cbn [bind].
    destruct r as [k|].
    - exists k, l1. split; [reflexivity|exact Hw1].
    - apply badurl_loop_spec; [exact Hw1|apply mu_bound; exact Hw1].
  Qed.

  Lemma name_bytes_spec fuel : forall i, 0 <= i <= len text -> (Z.to_nat (len text - i) < fuel)%nat ->
    exists j, name_bytes text fuel i = Ok j /\ 0 <= j <= len text.
  Proof.
    induction fuel as [|f IH]; intros i Hi Hf; [lia|].
    cbn [name_bytes]. destruct (i <? len text) eqn:E; [|exists i; split; [reflexivity|lia]].
    destruct (idx_ok' text i ltac:(lia)) as [b ->]. cbn [bind].
    destruct (IsNameContinue b); [|exists i; split; [reflexivity|lia]].
    apply IH; lia.
  Qed.

  Lemma IsNameContinue_eof : IsNameContinue eof = false.
  Proof. reflexivity. Qed.

  Lemma name_loop_spec fuel : forall acc l, wf l -> mu l < Z.of_nat fuel ->
    exists out l', name_loop text fuel acc l = Ok (out, l') /\ wf l'.
  Proof.
    induction fuel as [|f IH]; intros acc l Hw Hf; [pose proof (mu_nonneg l Hw); lia|].
    cbn [name_loop].
    destruct (IsNameContinue (cp l)) eqn:Enc.
    { assert (Hne : cp l <> eof) by (intros E; rewrite E in Enc; discriminate).
      do_step l Hw l1 Hw1 Hm1 Hs1. specialize (Hs1 Hne).
      apply IH; [exact Hw1|lia]. }
    destruct (isValidEscape_ok l Hw) as [v Ev]. rewrite Ev. cbn [bind].
    destruct v; [|exists acc, l; split; [reflexivity|exact Hw]].
    assert (Hne : cp l <> eof) by (rewrite (isValidEscape_backslash l true Ev eq_refl); unfold eof; lia).
    destruct (consumeEscape_spec l Hw) as (r & l1 & -> & Hw1 & Hm1 & Hs1). cbn [bind].
    specialize (Hs1 Hne). apply IH; [exact Hw1|lia].
  Qed.

  Lemma consumeName_total l : wf l -> 0 <= rlen l <= len text ->
    exists out l', consumeName text l = Ok (out, l') /\ wf l'.
  Proof.
    intros Hw Hr. unfold consumeName.
    assert (H1 : exists l1, (if IsNameContinue (cp l) then
          i <- name_bytes text (S (length text)) (cur l) ;;
          step text (mkLx i (cp l) (rlen l))
        else Ok l) = Ok l1 /\ wf l1 /\ 0 <= rlen l1 <= len text).
    { destruct (IsNameContinue (cp l)); [|exists l; split; [reflexivity|split; assumption]].
      destruct (name_bytes_spec (S (length text)) (cur l) Hw) as (j & -> & Hj); [unfold len; unfold wf, len in Hw; lia|].
      cbn [bind].
      assert (Hwj : wf (mkLx j (cp l) (rlen l))) by (unfold wf; cbn [cur]; unfold wf in Hw; lia).
      destruct (step_spec _ Hwj) as (l1 & E1 & Hw1 & Hc1 & Hr1 & _). cbn [cur] in *.
      exists l1. split; [exact E1|]. split; [exact Hw1|]. rewrite Hr1. unfold wf in Hw. lia. }
    destruct H1 as (l1 & -> & Hw1 & Hr1). cbn [bind].
    rewrite slice_ok by lia. cbn [bind].
    destruct (isValidEscape_ok l1 Hw1) as [v ->]. cbn [bind].
    destruct v; cbn [negb]; [|eexists; exists l1; split; [reflexivity|exact Hw1]].
    destruct (consumeEscape_spec l1 Hw1) as (r & l2 & -> & Hw2 & _). cbn [bind].
    apply name_loop_spec; [exact Hw2|apply mu_bound; exact Hw2].
  Qed.

  Lemma lex_start_ok : exists l, lex_start text = Ok l /\ wf l /\ rlen l = 0.
  Proof.
    unfold lex_start.
    assert (Hw0 : wf (mkLx 0 0 0)) by (unfold wf; cbn [cur]; pose proof (len_nonneg text); lia).
    destruct (step_spec _ Hw0) as (l & E & Hw & _ & Hr & _). exists l. split; [exact E|]. split; [exact Hw|exact Hr].
  Qed.
End LexProofs.

Lemma run_escape_total text : bytes_ok text -> safe (run_escape text).
Proof.
  intros Hb. unfold run_escape, safe. destruct (lex_start_ok text Hb) as (l & -> & Hw & _). cbn [bind].
  destruct (consumeEscape_spec text Hb l Hw) as (r & l' & E & _). exists (r, l'). exact E.
Qed.
Lemma run_string_total text : bytes_ok text -> safe (run_string text).
Proof.
  intros Hb. unfold run_string, safe. destruct (lex_start_ok text Hb) as (l & -> & Hw & _). cbn [bind].
  destruct (consumeString_total text Hb l Hw) as (k & l' & E & _). exists (k, l'). exact E.
Qed.
Lemma run_url_total text : bytes_ok text -> safe (run_url text).
Proof.
  intros Hb. unfold run_url, safe. destruct (lex_start_ok text Hb) as (l & -> & Hw & _). cbn [bind].
  destruct (consumeURL_total text Hb l Hw) as (k & l' & E & _). exists (k, l'). exact E.
Qed.
Lemma run_name_total text : bytes_ok text -> safe (run_name text).
Proof.
  intros Hb. unfold run_name, safe. destruct (lex_start_ok text Hb) as (l & -> & Hw & Hr). cbn [bind].
  destruct (consumeName_total text Hb l Hw) as (o & l' & E & _).
  { rewrite Hr. pose proof (len_nonneg text). lia. }
  exists (o, l'). exact E.
Qed.
